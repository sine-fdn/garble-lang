(* Proofs about the panic record: the algebra of observations (push / mux), validity of the
   reason field, the cache invariant, stickiness, the protocol semantics, EvalPanic::parse.
   The gate-emitting operations are treated with the Hoare layer of Gadgets/GadgetHoare.v:
   for one input assignment, [rec_is inp b R d] says that the wires of [R] are valid in [b]
   and carry the flag and the five 32-bit fields [d]; [d] has the shape of [prec_den]. *)
From Coq Require Import FMapPositive.
From GV Require Import Base.Util Base.ListFacts Base.NMap Base.Bits Base.BitsProofs Base.BitViews Builder.Builder Builder.BuilderSem
  Builder.BuilderSpec Gadgets.GadgetSpec Gadgets.GadgetHoare Panic.PanicRec Panic.PanicSem.

(* ------------------------------------------------------------------ lists *)

Lemma map_nth_seq {A} (l : list A) (d : A) :
  map (fun i => nth i l d) (seq 0 (length l)) = l.
Proof.
  induction l as [|a l IH]; [reflexivity|].
  cbn [length seq map nth]. f_equal.
  rewrite <- seq_shift, map_map. exact IH.
Qed.

Lemma F2_nth {A B} (R : A -> B -> Prop) da db l1 l2 :
  R da db -> Forall2 R l1 l2 -> forall k, R (nth k l1 da) (nth k l2 db).
Proof. intros Hd H. induction H as [|a b l1 l2 Hab _ IH]; intros [|k]; cbn [nth]; auto. Qed.

Lemma F2_map_same {A B C} (R : A -> B -> Prop) (f : C -> A) (g : C -> B) l :
  (forall i, R (f i) (g i)) -> Forall2 R (map f l) (map g l).
Proof. intro H. induction l; cbn [map]; constructor; auto. Qed.

(* ------------------------------------------------------------------ bits *)

Lemma bits_val_eq l : bits_val l = bits_to_N l.
Proof. induction l as [|[] l IH]; cbn [bits_val bits_to_N N.b2n]; rewrite ?IH; lia. Qed.

Lemma bits_val_lt (l : list bool) : bits_val l < 2 ^ lenN l.
Proof. rewrite bits_val_eq. apply bits_to_N_lt. Qed.

Lemma preason_num_range r : 1 <= preason_num r <= 3.
Proof. destruct r; cbn; lia. Qed.

Lemma reason_bits r : bits_val (N_to_bits USIZE_BITS (preason_num r)) = preason_num r.
Proof. destruct r; reflexivity. Qed.

(* ------------------------------------------------------------------ sets of conditions *)

Lemma nmem_empty k : nmem k nempty = false.
Proof. unfold nmem. now rewrite nfind_empty. Qed.

Lemma nmem_add k k' s : nmem k' (nadd k tt s) = (k =? k') || nmem k' s.
Proof. unfold nmem. rewrite nfind_add. now destruct (k =? k'). Qed.

Lemma nmem_inter k s1 s2 : nmem k (ninter s1 s2) = nmem k s1 && nmem k s2.
Proof.
  unfold nmem, ninter, nfind. rewrite PositiveMap.gmap2 by reflexivity.
  destruct (PositiveMap.find _ s1) as [[]|], (PositiveMap.find _ s2) as [[]|]; reflexivity.
Qed.

(* ------------------------------------------------------------------ a record on one input *)

Definition field_is (inp : list bool) (b : builder) (ws : list N) (v : list bool) : Prop :=
  are inp b ws v /\ length v = USIZE_BITS.

Definition pden : Type := bool * list bool * list bool * list bool * list bool * list bool.

Definition rec_is (inp : list bool) (b : builder) (R : prec) (d : pden) : Prop :=
  let '(f, ty, sl, sc, el, ec) := d in
  is_ inp b (pr_flag R) f /\ field_is inp b (pr_type R) ty /\ field_is inp b (pr_sl R) sl /\
  field_is inp b (pr_sc R) sc /\ field_is inp b (pr_el R) el /\ field_is inp b (pr_ec R) ec.

Lemma field_is_ext inp b b' ws v : ext b b' -> field_is inp b ws v -> field_is inp b' ws v.
Proof. intros X [H L]. split; [exact (are_ext _ _ _ _ _ X H)|exact L]. Qed.

Lemma field_is_if inp b ws (s : bool) vx vy :
  length vx = USIZE_BITS -> length vy = USIZE_BITS ->
  are inp b ws (if s then vx else vy) -> field_is inp b ws (if s then vx else vy).
Proof. intros Lx Ly H. split; [exact H|]. now destruct s. Qed.

Lemma field_is_dens inp b ws :
  length ws = USIZE_BITS -> valids b ws -> field_is inp b ws (dens inp b ws).
Proof. intros L V. split; [now apply are_of_valids|]. unfold dens. now rewrite map_length. Qed.

Lemma field_is_sound inp b ws v : field_is inp b ws v ->
  length ws = USIZE_BITS /\ valids b ws /\ (ins_ok b inp -> dens inp b ws = v).
Proof. intros [H L]. rewrite (F2_length _ _ _ H). split; [exact L|]. now apply are_dens. Qed.

Lemma rec_is_ext inp b b' R d : ext b b' -> rec_is inp b R d -> rec_is inp b' R d.
Proof.
  destruct d as [[[[[f ty] sl] sc] el] ec]. intros X (H0 & H1 & H2 & H3 & H4 & H5).
  split; [exact (is_ext _ _ _ _ _ X H0)|].
  repeat (split; [eapply field_is_ext; eassumption|]). eapply field_is_ext; eassumption.
Qed.

Lemma rec_is_den inp b R : prec_wf R -> prec_valid b R -> rec_is inp b R (prec_den inp b R).
Proof.
  intros (L1 & L2 & L3 & L4 & L5) (V0 & V1 & V2 & V3 & V4 & V5).
  split; [now apply is_of_valid|]. repeat (split; [now apply field_is_dens|]). now apply field_is_dens.
Qed.

Lemma rec_is_sound inp b R d : rec_is inp b R d ->
  prec_wf R /\ prec_valid b R /\ (ins_ok b inp -> prec_den inp b R = d).
Proof.
  destruct d as [[[[[f ty] sl] sc] el] ec].
  intros ([V0 D0] & (L1 & V1 & D1)%field_is_sound & (L2 & V2 & D2)%field_is_sound &
          (L3 & V3 & D3)%field_is_sound & (L4 & V4 & D4)%field_is_sound & (L5 & V5 & D5)%field_is_sound).
  split; [repeat split; assumption|]. split; [repeat split; assumption|].
  intro Hi. unfold prec_den. now rewrite (D0 Hi), (D1 Hi), (D2 Hi), (D3 Hi), (D4 Hi), (D5 Hi).
Qed.

(* ------------------------------------------------------------------ observations *)

Definition flag_of (d : pden) : bool :=
  let '(f, _, _, _, _, _) := d in f.

Definition type_of (d : pden) : N :=
  let '(_, ty, _, _, _, _) := d in bits_val ty.

Definition obs_of (d : pden) : option (N * ploc) :=
  let '(f, ty, sl, sc, el, ec) := d in
  if f then Some (bits_val ty, mkPLoc (bits_val sl) (bits_val sc) (bits_val el) (bits_val ec)) else None.

Lemma obs_prec_den inp b R : obs inp b R = obs_of (prec_den inp b R).
Proof. reflexivity. Qed.

Lemma obs_ext b b' inp R :
  ext b b' -> ins_ok b inp -> prec_valid b R -> obs inp b' R = obs inp b R.
Proof.
  intros X Hi (V0 & V1 & V2 & V3 & V4 & V5). rewrite !obs_prec_den. unfold prec_den.
  rewrite (ext_den _ _ _ _ X Hi V0). now rewrite !(ext_dens _ _ _ _ X Hi) by assumption.
Qed.

Lemma ins_ok_ext_back b b' inp : ext b b' -> ins_ok b' inp -> ins_ok b inp.
Proof. intros (S & _) H. unfold ins_ok in *. congruence. Qed.

(* the record may live in an extension [b'] of the builder [b] in which the description is phrased *)
Lemma pstate_ok_intro b b' P (d : list bool -> pden) (o : list bool -> option (N * ploc)) :
  ext b b' ->
  (forall inp, rec_is inp b' (ps_rec P) (d inp)) ->
  (forall k, nmem k (ps_cache P) = true -> valid b k) ->
  (forall inp, ins_ok b inp ->
     1 <= type_of (d inp) <= 3 /\
     (forall k, nmem k (ps_cache P) = true -> den inp b k = true -> flag_of (d inp) = true) /\
     obs_of (d inp) = o inp) ->
  pstate_ok b' P /\ forall inp, ins_ok b inp -> obs inp b' (ps_rec P) = o inp.
Proof.
  intros X HR Ck Sem.
  assert (D : forall inp, ins_ok b inp -> prec_den inp b' (ps_rec P) = d inp).
  { intros inp Hi. apply (rec_is_sound _ _ _ _ (HR inp)). exact (ext_ins_ok _ _ _ X Hi). }
  destruct (rec_is_sound _ _ _ _ (HR [])) as (Wf & Va & _).
  split.
  - split; [exact Wf|]. split; [exact Va|]. split; [intros k Hk; exact (ext_valid _ _ _ X (Ck k Hk))|].
    intros inp Hi'. pose proof (ins_ok_ext_back _ _ _ X Hi') as Hi.
    destruct (Sem inp Hi) as (Ty & Ci & _). split.
    + unfold type_ok. change (rec_type inp b' (ps_rec P)) with (type_of (prec_den inp b' (ps_rec P))).
      now rewrite (D inp Hi).
    + intros k Hk Hd. change (flag_of (prec_den inp b' (ps_rec P)) = true). rewrite (D inp Hi).
      apply (Ci k Hk). now rewrite <- (ext_den _ _ _ _ X Hi (Ck k Hk)).
  - intros inp Hi. destruct (Sem inp Hi) as (_ & _ & <-). now rewrite obs_prec_den, (D inp Hi).
Qed.

Lemma pstate_ok_ext b b' P : ext b b' -> pstate_ok b P -> pstate_ok b' P.
Proof.
  intros X (Wf & Va & Ck & Sem).
  apply (pstate_ok_intro b b' P (fun inp => prec_den inp b (ps_rec P)) (fun inp => obs inp b (ps_rec P)) X).
  - intro inp. apply (rec_is_ext _ _ _ _ _ X). now apply rec_is_den.
  - exact Ck.
  - intros inp Hi. destruct (Sem inp Hi) as [Ty Ci]. split; [exact Ty|]. split; [exact Ci|reflexivity].
Qed.

(* ------------------------------------------------------------------ builder clients *)

Definition msel (s : bool) (q : bool * bool) : bool := mux_s s (fst q) (snd q).

Lemma msel_nth s vx vy : length vx = USIZE_BITS -> length vy = USIZE_BITS ->
  map (fun i => msel s (nth i vx false, nth i vy false)) (seq 0 USIZE_BITS) = if s then vx else vy.
Proof.
  intros Lx Ly. unfold msel, mux_s. cbn [fst snd].
  destruct s; [rewrite <- Lx|rewrite <- Ly]; apply map_nth_seq.
Qed.

Lemma msel_pairs s vx vy : length vx = USIZE_BITS -> length vy = USIZE_BITS ->
  map (msel s) (map (fun i => (nth i vx false, nth i vy false)) (seq 0 USIZE_BITS)) = if s then vx else vy.
Proof. intros Lx Ly. rewrite map_map. now apply msel_nth. Qed.

(* the record after the gate-emitting part of push_panic_if, on one input: [d] before, [vc]
   the value of the condition *)
Definition pushed_den (d : pden) (vc : bool) (r : preason) (m : ploc) : pden :=
  let '(f, ty, sl, sc, el, ec) := d in
  (f || vc,
   if f then ty else N_to_bits USIZE_BITS (preason_num r),
   if f then sl else N_to_bits USIZE_BITS (pl_sl m), if f then sc else N_to_bits USIZE_BITS (pl_sc m),
   if f then el else N_to_bits USIZE_BITS (pl_el m), if f then ec else N_to_bits USIZE_BITS (pl_ec m)).

Lemma obs_pushed d vc r m : obs_of (pushed_den d vc r m) = push_spec (obs_of d) vc r m.
Proof.
  destruct d as [[[[[[] ty] sl] sc] el] ec]; [reflexivity|]. cbn [pushed_den obs_of push_spec orb].
  destruct vc; [|reflexivity]. now rewrite reason_bits, !bits_val_eq, !bits_to_N_N_to_bits.
Qed.

Lemma type_pushed d vc r m : 1 <= type_of d <= 3 -> 1 <= type_of (pushed_den d vc r m) <= 3.
Proof.
  destruct d as [[[[[[] ty] sl] sc] el] ec]; [trivial|]. intros _. cbn [pushed_den type_of].
  rewrite reason_bits. apply preason_num_range.
Qed.

Section S.
Variable inv : builder -> Prop.
Hypothesis ops : builder_ops_sound inv.

(* [call lem]: the next request of the monadic program is handled by [lem];
   [nxt X]: move every fact about the old builder to the extended one *)
Ltac call lem := eapply (ok_bind inv); [eapply lem; eassumption|].
Ltac nxt X :=
  cbn beta in *;
  match type of X with
  | ext ?b _ =>
      repeat match goal with
      | H : is_ _ b _ _ |- _ => apply (is_ext _ _ _ _ _ X) in H
      | H : are _ b _ _ |- _ => apply (are_ext _ _ _ _ _ X) in H
      | H : are2 _ b _ _ |- _ => apply (are2_ext _ _ _ _ _ X) in H
      end
  end.

Lemma are_nth inp b ws vs i : inv b -> are inp b ws vs -> is_ inp b (nth i ws 0) (nth i vs false).
Proof. intros Hi H. exact (F2_nth _ _ _ _ _ (is_const0 inv ops inp b Hi) H i). Qed.

Lemma is2_nth inp b xs ys vx vy i : inv b -> are inp b xs vx -> are inp b ys vy ->
  is2 inp b (nth i xs 0, nth i ys 0) (nth i vx false, nth i vy false).
Proof. intros Hi Hx Hy. split; now apply are_nth. Qed.

Lemma pairs32_are2 inp b xs ys vx vy : inv b -> are inp b xs vx -> are inp b ys vy ->
  are2 inp b (pairs32 xs ys) (map (fun i => (nth i vx false, nth i vy false)) (seq 0 USIZE_BITS)).
Proof. intros Hi Hx Hy. apply F2_map_same. intro i. now apply is2_nth. Qed.

Lemma col_are inp b k rss vss : inv b -> Forall2 (are inp b) rss vss ->
  are inp b (col k rss) (map (fun v => nth k v false) vss).
Proof.
  intros Hi H. unfold col. induction H; cbn [map]; constructor; [now apply are_nth|assumption].
Qed.

Lemma usize_bits_are inp b n : inv b -> are inp b (usize_bits n) (N_to_bits USIZE_BITS n).
Proof.
  intro Hi. unfold usize_bits. generalize USIZE_BITS as k.
  induction k as [|k IH]; [constructor|]. cbn [N_to_bits seq map]. constructor.
  - replace (S k - 1 - 0)%nat with k by lia.
    destruct (N.testbit n (N.of_nat k)); [now apply (is_const1 inv ops)|now apply (is_const0 inv ops)].
  - rewrite <- seq_shift, map_map. erewrite map_ext; [exact IH|].
    intro i. cbn beta. now replace (S k - 1 - S i)%nat with (k - 1 - i)%nat by lia.
Qed.

Lemma mux_seq_ok inp : forall ps vps b s vs, inv b -> is_ inp b s vs -> are2 inp b ps vps ->
  ok inv b (mux_seq b s ps) (fun r b' => are inp b' r (map (msel vs) vps)).
Proof.
  induction ps as [|[x y] ps IH]; intros vps b s vs Hi Hs Hp; cbn [mux_seq].
  - inversion Hp; subst. apply ok_ret; [assumption|constructor].
  - inversion Hp as [|? [vx vy] ? vr [Hx Hy] Hr]; subst. cbn [fst snd] in Hx, Hy.
    call (ok_mux inv ops). intros w b1 I1 X1 Hw. nxt X1.
    call IH. intros ws b2 I2 X2 Hws. nxt X2.
    apply ok_ret; [assumption|]. constructor; assumption.
Qed.

Lemma mux_rows_ok inp : forall rows vrows b s vs,
  inv b -> is_ inp b s vs -> Forall2 (are2 inp b) rows vrows ->
  ok inv b (mux_rows b s rows) (fun r b' => Forall2 (are inp b') r (map (map (msel vs)) vrows)).
Proof.
  induction rows as [|row rows IH]; intros vrows b s vs Hi Hs Hp; cbn [mux_rows];
    inversion Hp as [|? vrow ? vr Hrow Hr]; subst.
  - apply ok_ret; [assumption|constructor].
  - call mux_seq_ok. intros w b1 I1 X1 Hw. nxt X1.
    eapply (ok_bind inv).
    { apply (IH vr b1 s vs I1 Hs). eapply F2_impl; [|exact Hr]. intros ? ?. now apply are2_ext. }
    intros ws b2 I2 X2 Hws. nxt X2. apply ok_ret; [assumption|]. constructor; assumption.
Qed.

Lemma mux_uncached_ok inp b c T F vc dT dF :
  inv b -> is_ inp b c vc -> rec_is inp b T dT -> rec_is inp b F dF ->
  ok inv b (mux_uncached_panic b c T F) (fun R b' => rec_is inp b' R (if vc then dT else dF)).
Proof.
  destruct dT as [[[[[fT tyT] slT] scT] elT] ecT], dF as [[[[[fF tyF] slF] scF] elF] ecF].
  intros Hi Hc (T0 & [T1 K1] & [T2 K2] & [T3 K3] & [T4 K4] & [T5 K5])
               (F0 & [F1 L1] & [F2 L2] & [F3 L3] & [F4 L4] & [F5 L5]).
  unfold mux_uncached_panic.
  call (ok_mux inv ops). intros fl b1 I1 X1 Hfl. nxt X1.
  eapply (ok_bind inv).
  { apply (mux_rows_ok inp) with (vs := vc); [exact I1|exact Hc|].
    repeat (constructor; [apply pairs32_are2; eassumption|]). constructor. }
  cbn [map]. rewrite !msel_pairs by assumption.
  intros rs b2 I2 X2 Hrs. nxt X2. apply ok_ret; [assumption|].
  pose proof (F2_nth _ [] [] _ _ (Forall2_nil _) Hrs) as Hn.
  enough (rec_is inp b2 (mkPrec fl (nth 0 rs []) (nth 1 rs []) (nth 2 rs []) (nth 3 rs []) (nth 4 rs []))
            (mux_s vc fT fF, if vc then tyT else tyF, if vc then slT else slF, if vc then scT else scF,
             if vc then elT else elF, if vc then ecT else ecF)) by (destruct vc; assumption).
  split; [exact Hfl|]. cbn [pr_type pr_sl pr_sc pr_el pr_ec].
  split; [apply field_is_if; [assumption..|exact (Hn 0%nat)]|].
  split; [apply field_is_if; [assumption..|exact (Hn 1%nat)]|].
  split; [apply field_is_if; [assumption..|exact (Hn 2%nat)]|].
  split; [apply field_is_if; [assumption..|exact (Hn 3%nat)]|].
  apply field_is_if; [assumption..|exact (Hn 4%nat)].
Qed.

Lemma mux_field_ok inp b s xs ys vs vx vy :
  inv b -> is_ inp b s vs -> are inp b xs vx -> are inp b ys vy ->
  length vx = USIZE_BITS -> length vy = USIZE_BITS ->
  ok inv b (mux_field b s xs ys) (fun r b' => are inp b' r (if vs then vx else vy)).
Proof.
  intros Hi Hs Hx Hy Lx Ly. rewrite <- (msel_pairs vs vx vy Lx Ly).
  apply mux_seq_ok; [assumption..|]. now apply pairs32_are2.
Qed.

Lemma push_record_ok inp b p cond r m d vc :
  inv b -> rec_is inp b p d -> is_ inp b cond vc ->
  ok inv b (push_record b p cond r m) (fun p' b' => rec_is inp b' p' (pushed_den d vc r m)).
Proof.
  destruct d as [[[[[f ty] sl] sc] el] ec].
  intros Hi (H0 & [Hty Lty] & [Hsl Lsl] & [Hsc Lsc] & [Hel Lel] & [Hec Lec]) Hc. unfold push_record.
  call (ok_or inv ops). intros fl b1 I1 X1 Hfl. nxt X1.
  set (vrow := fun i : nat =>
    [(nth i sl false, nth i (N_to_bits USIZE_BITS (pl_sl m)) false);
     (nth i sc false, nth i (N_to_bits USIZE_BITS (pl_sc m)) false);
     (nth i el false, nth i (N_to_bits USIZE_BITS (pl_el m)) false);
     (nth i ec false, nth i (N_to_bits USIZE_BITS (pl_ec m)) false)]).
  eapply (ok_bind inv).
  { apply (mux_rows_ok inp) with (vs := f) (vrows := map vrow (seq 0 USIZE_BITS)); [exact I1|exact H0|].
    apply F2_map_same. intro i.
    repeat (constructor; [apply is2_nth; solve [assumption | now apply usize_bits_are]|]). constructor. }
  intros rs b2 I2 X2 Hrs. nxt X2.
  eapply (ok_bind inv).
  { apply (mux_field_ok inp) with (vs := f); [exact I2|exact H0|exact Hty|apply usize_bits_are; exact I2|exact Lty|].
    apply N_to_bits_length. }
  intros ty' b3 I3 X3 Hty'. nxt X3. apply ok_ret; [assumption|].
  assert (Hcol : forall k, are inp b3 (col k rs)
            (map (fun i => nth k (map (msel f) (vrow i)) false) (seq 0 USIZE_BITS))).
  { intro k. eapply F2_impl in Hrs; [|intros ? ?; apply (are_ext _ _ _ _ _ X3)].
    apply (col_are inp b3 k _ _ I3) in Hrs. now rewrite !map_map in Hrs. }
  pose proof (N_to_bits_length USIZE_BITS) as Lc.
  split; [exact Hfl|]. cbn [pr_type pr_sl pr_sc pr_el pr_ec].
  split; [apply field_is_if; auto|].
  split; [apply field_is_if; auto; rewrite <- msel_nth by auto; exact (Hcol 0%nat)|].
  split; [apply field_is_if; auto; rewrite <- msel_nth by auto; exact (Hcol 1%nat)|].
  split; [apply field_is_if; auto; rewrite <- msel_nth by auto; exact (Hcol 2%nat)|].
  apply field_is_if; auto; rewrite <- msel_nth by auto; exact (Hcol 3%nat).
Qed.

Lemma pstate_fin b (m : res (pstate * builder)) cache (d : list bool -> pden)
    (o : list bool -> option (N * ploc)) :
  (forall inp, ok inv b m (fun P' b' => rec_is inp b' (ps_rec P') (d inp) /\ ps_cache P' = cache)) ->
  (forall k, nmem k cache = true -> valid b k) ->
  (forall inp, ins_ok b inp ->
     1 <= type_of (d inp) <= 3 /\
     (forall k, nmem k cache = true -> den inp b k = true -> flag_of (d inp) = true) /\
     obs_of (d inp) = o inp) ->
  exists P' b', m = Ok (P', b') /\ inv b' /\ ext b b' /\ pstate_ok b' P' /\
    forall inp, ins_ok b inp -> obs inp b' (ps_rec P') = o inp.
Proof.
  intros H Ck Sem. destruct (finalize inv b m _ H) as (P' & b' & E & I & X & HR).
  exists P', b'. split; [exact E|]. split; [exact I|]. split; [exact X|].
  destruct (HR []) as [_ Ec]. apply (pstate_ok_intro b b' P' d o X); rewrite ?Ec; try assumption.
  intro inp. apply HR.
Qed.

Lemma pstate_new_ok b : inv b -> pstate_ok b pstate_new.
Proof.
  intro Hi.
  apply (pstate_ok_intro b b pstate_new
           (fun _ => (false, N_to_bits USIZE_BITS 1, repeat false USIZE_BITS, repeat false USIZE_BITS,
                      repeat false USIZE_BITS, repeat false USIZE_BITS)) (fun _ => None) (ext_refl b)).
  - intro inp. pose proof (is_const0 inv ops inp b Hi) as H0.
    split; [exact H0|]. split; [split; [now apply usize_bits_are|reflexivity]|].
    repeat split; first [now apply F2_repeat | apply repeat_length].
  - intros k Hk. now rewrite nmem_empty in Hk.
  - intros inp _. split; [cbn; lia|]. split; [|reflexivity]. intros k Hk. now rewrite nmem_empty in Hk.
Qed.

(* ------------------------------------------------------------------ push_panic_if *)

(* a cache hit is a no-op, and that is all it has to be *)
Theorem cache_hit_noop b P cond r m :
  pstate_ok b P -> nmem cond (ps_cache P) = true ->
  push_panic_if b P cond r m = Ok (P, b) /\
  forall inp, ins_ok b inp ->
    (den inp b cond = true -> den inp b (pr_flag (ps_rec P)) = true) /\
    push_spec (obs inp b (ps_rec P)) (den inp b cond) r m = obs inp b (ps_rec P).
Proof.
  intros (_ & _ & _ & Sem) Hit. unfold push_panic_if. rewrite Hit. split; [reflexivity|].
  intros inp Hi. destruct (Sem inp Hi) as [_ Ci]. split; [apply (Ci cond Hit)|].
  unfold push_spec, obs. destruct (den inp b (pr_flag (ps_rec P))) eqn:Fl; [reflexivity|].
  destruct (den inp b cond) eqn:Dc; [|reflexivity]. specialize (Ci cond Hit Dc). congruence.
Qed.

Theorem push_obs b P cond r m :
  inv b -> pstate_ok b P -> valid b cond ->
  exists P' b', push_panic_if b P cond r m = Ok (P', b') /\ inv b' /\ ext b b' /\ pstate_ok b' P' /\
    forall inp, ins_ok b inp ->
      obs inp b' (ps_rec P') = push_spec (obs inp b (ps_rec P)) (den inp b cond) r m.
Proof.
  intros Hinv Hok Hc. destruct (nmem cond (ps_cache P)) eqn:Hit.
  - destruct (cache_hit_noop b P cond r m Hok Hit) as [E H]. exists P, b.
    split; [exact E|]. split; [exact Hinv|]. split; [apply ext_refl|]. split; [exact Hok|].
    intros inp Hi. symmetry. apply (H inp Hi).
  - destruct Hok as (Wf & Va & Ck & Sem). unfold push_panic_if. rewrite Hit.
    apply pstate_fin with (cache := nadd cond tt (ps_cache P))
      (d := fun inp => pushed_den (prec_den inp b (ps_rec P)) (den inp b cond) r m).
    + intro inp.
      eapply (ok_bind inv); [apply push_record_ok; [exact Hinv|now apply rec_is_den|now apply is_of_valid]|].
      intros p' b' I' X' Hp. apply ok_ret; [assumption|]. split; [exact Hp|reflexivity].
    + intros k Hk. rewrite nmem_add in Hk. apply orb_true_iff in Hk.
      destruct Hk as [->%N.eqb_eq|Hk]; [exact Hc|exact (Ck k Hk)].
    + intros inp Hi. destruct (Sem inp Hi) as [Ty Ci].
      split; [now apply type_pushed|]. split; [|now rewrite obs_pushed].
      intros k Hk Hd. change (den inp b (pr_flag (ps_rec P)) || den inp b cond = true).
      rewrite nmem_add in Hk. apply orb_true_iff in Hk. destruct Hk as [->%N.eqb_eq|Hk].
      * rewrite Hd. apply orb_true_r.
      * now rewrite (Ci k Hk Hd).
Qed.

(* ------------------------------------------------------------------ mux_panic *)

Theorem mux_obs b c T F :
  inv b -> valid b c -> pstate_ok b T -> pstate_ok b F ->
  exists P' b', mux_panic b c T F = Ok (P', b') /\ inv b' /\ ext b b' /\ pstate_ok b' P' /\
    forall inp, ins_ok b inp ->
      obs inp b' (ps_rec P') = if den inp b c then obs inp b (ps_rec T) else obs inp b (ps_rec F).
Proof.
  intros Hinv Hc (WfT & VaT & CkT & SemT) (WfF & VaF & CkF & SemF). unfold mux_panic.
  apply pstate_fin with (cache := ninter (ps_cache T) (ps_cache F))
    (d := fun inp => if den inp b c then prec_den inp b (ps_rec T) else prec_den inp b (ps_rec F)).
  - intro inp.
    eapply (ok_bind inv); [apply mux_uncached_ok; [exact Hinv|now apply is_of_valid|now apply rec_is_den..]|].
    intros R b' I' X' HR. apply ok_ret; [assumption|]. split; [exact HR|reflexivity].
  - intros k Hk. rewrite nmem_inter in Hk. apply andb_true_iff in Hk. apply CkT, Hk.
  - intros inp Hi. destruct (SemT inp Hi) as [TyT CiT], (SemF inp Hi) as [TyF CiF].
    split; [destruct (den inp b c); assumption|]. split; [|destruct (den inp b c); reflexivity].
    intros k Hk Hd. rewrite nmem_inter in Hk. apply andb_true_iff in Hk. destruct Hk as [HkT HkF].
    destruct (den inp b c); [exact (CiT k HkT Hd)|exact (CiF k HkF Hd)].
Qed.

(* ------------------------------------------------------------------ the protocol *)

Lemma push_spec_sticky x c r m : push_spec (Some x) c r m = Some x.
Proof. reflexivity. Qed.

Lemma psem_sticky dn code x : psem dn code (Some x) = Some x.
Proof.
  induction code as [|c r m|a IHa b0 IHb|c t IHt f IHf]; cbn [psem].
  - reflexivity.
  - apply push_spec_sticky.
  - now rewrite IHa, IHb.
  - destruct (dn c); assumption.
Qed.

Lemma psem_ext dn dn' code o :
  (forall c, In c (pcode_conds code) -> dn c = dn' c) -> psem dn code o = psem dn' code o.
Proof.
  revert o. induction code as [|c r m|a IHa b0 IHb|c t IHt f IHf]; intros o H; cbn [psem pcode_conds] in *.
  - reflexivity.
  - now rewrite (H c (or_introl eq_refl)).
  - rewrite IHa by (intros; apply H; apply in_or_app; now left).
    apply IHb. intros; apply H; apply in_or_app; now right.
  - rewrite (H c (or_introl eq_refl)).
    rewrite IHt by (intros; apply H; right; apply in_or_app; now left).
    rewrite IHf by (intros; apply H; right; apply in_or_app; now right).
    reflexivity.
Qed.

Lemma psem_den_ext b b1 inp code o :
  ext b b1 -> ins_ok b inp -> Forall (valid b) (pcode_conds code) ->
  psem (den inp b1) code o = psem (den inp b) code o.
Proof.
  intros X Hi Hv. apply psem_ext. intros c Hin. apply (ext_den _ _ _ _ X Hi).
  rewrite Forall_forall in Hv. now apply Hv.
Qed.

Theorem run_pcode_obs : forall code b P,
  inv b -> pstate_ok b P -> Forall (valid b) (pcode_conds code) ->
  exists P' b', run_pcode b P code = Ok (P', b') /\ inv b' /\ ext b b' /\ pstate_ok b' P' /\
    forall inp, ins_ok b inp ->
      obs inp b' (ps_rec P') = psem (den inp b) code (obs inp b (ps_rec P)).
Proof.
  induction code as [|c r m|x IHx y IHy|c t IHt f IHf]; intros b P Hinv Hok Hv;
    cbn [run_pcode pcode_conds psem] in *.
  - apply ok_ret; [assumption|]. split; [exact Hok|reflexivity].
  - inversion Hv as [|? ? Hc _]; subst. apply push_obs; assumption.
  - apply Forall_app in Hv. destruct Hv as [Hvx Hvy].
    eapply (ok_bind inv); [apply IHx; assumption|]. intros P1 b1 I1 X1 [Ok1 D1].
    eapply (ok_weaken inv); [apply IHy; [assumption..|exact (ext_valids _ _ _ X1 Hvy)]|].
    intros P2 b2 I2 X2 [Ok2 D2]. split; [exact Ok2|]. intros inp Hi.
    rewrite (D2 inp (ext_ins_ok _ _ _ X1 Hi)), (D1 inp Hi). now apply psem_den_ext.
  - inversion Hv as [|? ? Hc Hv']; subst. apply Forall_app in Hv'. destruct Hv' as [Hvt Hvf].
    eapply (ok_bind inv); [apply IHt; assumption|]. intros PT b1 I1 X1 [OkT DT].
    (* the else-branch starts from the state saved before the conditional *)
    eapply (ok_bind inv);
      [apply IHf; [exact I1|exact (pstate_ok_ext _ _ _ X1 Hok)|exact (ext_valids _ _ _ X1 Hvf)]|].
    intros PF b2 I2 X2 [OkF DF]. pose proof (ext_trans _ _ _ X1 X2) as X02.
    eapply (ok_weaken inv);
      [apply mux_obs; [exact I2|exact (ext_valid _ _ _ X02 Hc)|exact (pstate_ok_ext _ _ _ X2 OkT)|exact OkF]|].
    intros PM b3 I3 X3 [OkM DM]. split; [exact OkM|]. intros inp Hi.
    pose proof (ext_ins_ok _ _ _ X1 Hi) as Hi1.
    rewrite (DM inp (ext_ins_ok _ _ _ X02 Hi)), (ext_den _ _ _ _ X02 Hi Hc).
    destruct (den inp b c).
    + destruct OkT as (_ & VaT & _). rewrite (obs_ext _ _ _ _ X2 Hi1 VaT). apply (DT inp Hi).
    + rewrite (DF inp Hi1). destruct Hok as (_ & Va & _). rewrite (obs_ext _ _ _ _ X1 Hi Va).
      now apply psem_den_ext.
Qed.

(* a panic once raised is never dropped or overwritten by code that runs afterwards *)
Theorem sticky code b P :
  inv b -> pstate_ok b P -> Forall (valid b) (pcode_conds code) ->
  exists P' b', run_pcode b P code = Ok (P', b') /\
    forall inp x, ins_ok b inp -> obs inp b (ps_rec P) = Some x -> obs inp b' (ps_rec P') = Some x.
Proof.
  intros Hinv Hok Hv. destruct (run_pcode_obs code b P Hinv Hok Hv) as (P' & b' & E & _ & _ & _ & D).
  exists P', b'. split; [exact E|]. intros inp x Hi Hx. rewrite (D inp Hi), Hx. apply psem_sticky.
Qed.

(* ------------------------------------------------------------------ EvalPanic::parse *)

Definition fields (R : prec) : list (list N) := [pr_type R; pr_sl R; pr_sc R; pr_el R; pr_ec R].

Lemma prec_wires_fields R : prec_wires R = pr_flag R :: concat (fields R).
Proof. unfold prec_wires, fields. cbn [concat]. now rewrite app_nil_r. Qed.

Lemma field_at_concat (f : bool) fs rest :
  Forall (fun a => length a = USIZE_BITS) fs -> forall k, (k < length fs)%nat ->
  field_at (f :: concat fs ++ rest) k = nth k fs [].
Proof.
  unfold field_at. cbn [Nat.add skipn].
  induction 1 as [|a fs La _ IH]; intros k Hk; [inversion Hk|].
  cbn [concat]. rewrite <- app_assoc. destruct k as [|k]; cbn [nth Nat.mul skipn].
  - now apply firstn_app_exact.
  - rewrite skipn_app, skipn_all2 by lia.
    replace (USIZE_BITS + k * USIZE_BITS - length a)%nat with (k * USIZE_BITS)%nat by lia.
    apply IH. cbn [length] in Hk. lia.
Qed.

Lemma skipn_concat (f : bool) fs rest :
  Forall (fun a => length a = USIZE_BITS) fs ->
  let n := (1 + length fs * USIZE_BITS)%nat in
  skipn n (f :: concat fs ++ rest) = rest /\ (n <= length (f :: concat fs ++ rest))%nat.
Proof.
  intros H n. assert (L : length (concat fs) = (length fs * USIZE_BITS)%nat).
  { induction H as [|a fs La _ IH]; [reflexivity|]. cbn [concat length Nat.mul].
    now rewrite app_length, La, IH. }
  subst n. cbn [Nat.add skipn length]. rewrite app_length, L. split; [now apply skipn_app_exact|lia].
Qed.

Lemma preason_from_num_ok n : 1 <= n <= 3 -> exists r, preason_from_num n = Ok r /\ preason_num r = n.
Proof.
  intro H. unfold preason_from_num.
  destruct (N.eqb_spec n 1) as [->|]; [exists Overflow; split; reflexivity|].
  destruct (N.eqb_spec n 2) as [->|]; [exists DivByZero; split; reflexivity|].
  destruct (N.eqb_spec n 3) as [->|]; [exists OutOfBounds; split; reflexivity|]. lia.
Qed.

(* the decoder applied to the outputs of a well-formed record never reaches from_num's
   panic! and returns exactly the observation *)
Theorem parse_record b P inp rest :
  pstate_ok b P -> ins_ok b inp ->
  parse_panic (rec_bits inp b (ps_rec P) ++ rest) = parse_spec (obs inp b (ps_rec P)) rest /\
  parse_panic (rec_bits inp b (ps_rec P) ++ rest) <> Crash.
Proof.
  intros (Wf & _ & _ & Sem) Hi. destruct (Sem inp Hi) as [Ty _]. set (R := ps_rec P) in *.
  set (fs := map (dens inp b) (fields R)).
  assert (L : Forall (fun a => length a = USIZE_BITS) fs).
  { destruct Wf as (L1 & L2 & L3 & L4 & L5). unfold fs, fields, dens. cbn [map].
    repeat constructor; now rewrite map_length. }
  replace (rec_bits inp b R ++ rest) with (den inp b (pr_flag R) :: concat fs ++ rest).
  2:{ unfold rec_bits, dens at 1. rewrite prec_wires_fields. cbn [map app]. now rewrite concat_map. }
  destruct (skipn_concat (den inp b (pr_flag R)) fs rest L) as [Sk Len].
  unfold parse_panic. replace (_ <? _)%nat with false by (symmetry; apply Nat.ltb_ge; exact Len).
  rewrite !(field_at_concat _ fs rest L) by (cbn [fs fields map length]; lia).
  change (1 + 5 * USIZE_BITS)%nat with (1 + length fs * USIZE_BITS)%nat.
  rewrite Sk. cbn [hd nth fs fields map].
  destruct (preason_from_num_ok _ Ty) as (r & Er & _).
  unfold parse_spec, obs, rec_type, rec_loc, field_val in *. rewrite Er. cbn [bind].
  destruct (den inp b (pr_flag R)).
  - rewrite Er. split; [reflexivity|discriminate].
  - split; [reflexivity|discriminate].
Qed.

(* everything the protocol can reach from a fresh builder *)
Theorem protocol_from_new dedup inputs code :
  let b0 := new_builder dedup inputs in
  Forall (valid b0) (pcode_conds code) ->
  exists P' b', run_pcode b0 pstate_new code = Ok (P', b') /\ pstate_ok b' P' /\
    forall inp, ins_ok b0 inp ->
      obs inp b' (ps_rec P') = psem (den inp b0) code None /\
      1 <= rec_type inp b' (ps_rec P') <= 3 /\
      forall rest, parse_panic (rec_bits inp b' (ps_rec P') ++ rest)
                   = parse_spec (psem (den inp b0) code None) rest
                   /\ parse_panic (rec_bits inp b' (ps_rec P') ++ rest) <> Crash.
Proof.
  intros b0 Hv. pose proof (bs_new _ ops dedup inputs) as Hinv. fold b0 in Hinv.
  destruct (run_pcode_obs code b0 pstate_new Hinv (pstate_new_ok b0 Hinv) Hv)
    as (P' & b' & E & I & X & Ok' & D).
  exists P', b'. split; [exact E|]. split; [exact Ok'|]. intros inp Hi.
  pose proof (ext_ins_ok _ _ _ X Hi) as Hi'.
  assert (O0 : obs inp b0 (ps_rec pstate_new) = None).
  { unfold obs, pstate_new, panic_ok. cbn [ps_rec pr_flag]. now rewrite (bs_const0 _ ops b0 inp Hinv Hi). }
  rewrite <- O0, <- (D inp Hi). split; [reflexivity|]. split.
  - destruct Ok' as (_ & _ & _ & Sem). apply (Sem inp Hi').
  - intro rest. apply parse_record; assumption.
Qed.

End S.

(* ------------------------------------------------------------------ C06: iteration order *)

Lemma inter_by_mem_acc keys cf : forall acc k,
  nmem k (fold_left (fun acc k => if nmem k cf then nadd k tt acc else acc) keys acc)
  = nmem k acc || (existsb (N.eqb k) keys && nmem k cf).
Proof.
  induction keys as [|x keys IH]; intros acc k; cbn [fold_left existsb].
  - now rewrite andb_false_l, orb_false_r.
  - rewrite IH. destruct (nmem x cf) eqn:Hx.
    + rewrite nmem_add. destruct (N.eqb_spec x k) as [->|Hne].
      * rewrite N.eqb_refl, Hx. cbn [orb andb]. now rewrite !orb_true_r.
      * replace (k =? x) with false by (symmetry; apply N.eqb_neq; congruence). reflexivity.
    + destruct (N.eqb_spec k x) as [->|Hne]; [|reflexivity].
      rewrite Hx. cbn [orb]. now rewrite !andb_false_r.
Qed.

Lemma inter_by_mem keys cf k : nmem k (inter_by keys cf) = existsb (N.eqb k) keys && nmem k cf.
Proof. unfold inter_by. rewrite inter_by_mem_acc, nmem_empty. reflexivity. Qed.

(* The repaired mux_panic: whatever the iteration order of the set [cache_t], the builder
   (all gates, all wire numbers) and the record are the same, and the resulting set has the
   same members -- namely those of [mux_panic], which has no order argument at all. *)
Theorem mux_panic_order_irrelevant keys b c T F :
  (forall k, In k keys <-> nmem k (ps_cache T) = true) ->
  match mux_panic_keys keys b c T F, mux_panic b c T F with
  | Ok (P1, b1), Ok (P2, b2) =>
      b1 = b2 /\ ps_rec P1 = ps_rec P2 /\ forall k, nmem k (ps_cache P1) = nmem k (ps_cache P2)
  | Crash, Crash | OutOfFuel, OutOfFuel => True
  | _, _ => False
  end.
Proof.
  intro Hk. unfold mux_panic_keys, mux_panic.
  destruct (mux_uncached_panic b c (ps_rec T) (ps_rec F)) as [[p b']| |]; cbn [bind]; auto.
  split; [reflexivity|]. split; [reflexivity|]. intro k. cbn [ps_cache].
  rewrite inter_by_mem, nmem_inter. f_equal.
  destruct (nmem k (ps_cache T)) eqn:E.
  - apply existsb_exists. exists k. split; [now apply Hk|apply N.eqb_refl].
  - destruct (existsb (N.eqb k) keys) eqn:Ex; [|reflexivity].
    apply existsb_exists in Ex. destruct Ex as (x & Hin & Heq). apply N.eqb_eq in Heq. subst x.
    apply Hk in Hin. congruence.
Qed.

Corollary mux_panic_two_orders keys1 keys2 b c T F :
  (forall k, In k keys1 <-> nmem k (ps_cache T) = true) ->
  (forall k, In k keys2 <-> nmem k (ps_cache T) = true) ->
  match mux_panic_keys keys1 b c T F, mux_panic_keys keys2 b c T F with
  | Ok (P1, b1), Ok (P2, b2) =>
      b1 = b2 /\ ps_rec P1 = ps_rec P2 /\ forall k, nmem k (ps_cache P1) = nmem k (ps_cache P2)
  | Crash, Crash | OutOfFuel, OutOfFuel => True
  | _, _ => False
  end.
Proof.
  intros H1 H2. pose proof (mux_panic_order_irrelevant keys1 b c T F H1) as A.
  pose proof (mux_panic_order_irrelevant keys2 b c T F H2) as B.
  destruct (mux_panic_keys keys1 b c T F) as [[P1 b1]| |], (mux_panic_keys keys2 b c T F) as [[P2 b2]| |],
    (mux_panic b c T F) as [[P3 b3]| |]; try contradiction; auto.
  destruct A as (-> & -> & A3), B as (-> & -> & B3). split; [reflexivity|]. split; [reflexivity|].
  intro k. now rewrite A3, B3.
Qed.

(* ------------------------------------------------------------------ the code as found *)

Definition ex_loc (i : N) : ploc := mkPLoc i 1 i 5.

(* DESIGN §6-1: push A; push B; push A.  On the input A = false, B = true the record holds
   B's panic after the second push and NO panic after the third. *)
Example push_cached_refuted :
  let b0 := new_builder true [2] in
  match push_panic_if_old b0 pstate_old_new 2 Overflow (ex_loc 1) with
  | Ok (P1, b1) =>
    match push_panic_if_old b1 P1 3 DivByZero (ex_loc 2) with
    | Ok (P2, b2) =>
      match push_panic_if_old b2 P2 2 OutOfBounds (ex_loc 3) with
      | Ok (P3, b3) =>
          let inp := [false; true] in
          obs inp b2 (po_rec P2) = Some (2, ex_loc 2) /\ obs inp b3 (po_rec P3) = None
      | _ => False
      end
    | _ => False
    end
  | _ => False
  end.
Proof. vm_compute. split; reflexivity. Qed.

(* the same script on the repaired code keeps B's panic *)
Example push_cached_repaired :
  let b0 := new_builder true [2] in
  match run_pcode b0 pstate_new
          (PSeq (PPush 2 Overflow (ex_loc 1)) (PSeq (PPush 3 DivByZero (ex_loc 2)) (PPush 2 OutOfBounds (ex_loc 3)))) with
  | Ok (P3, b3) =>
      obs [false; true] b3 (ps_rec P3) = Some (2, ex_loc 2) /\
      obs [true; true] b3 (ps_rec P3) = Some (1, ex_loc 1) /\
      obs [false; false] b3 (ps_rec P3) = None
  | _ => False
  end.
Proof. vm_compute. repeat split; reflexivity. Qed.

(* one-sided key: `if X { push A } else { }; push A` -- the code as found keeps A's cache entry
   of the then-branch; the later push replaces the muxed record by it: on X = false, A = true
   the location reported is the one inside the branch that was NOT taken. *)
Example one_sided_key_refuted :
  let b0 := new_builder true [2] in
  let P0 := pstate_old_new in
  match push_panic_if_old b0 P0 2 Overflow (ex_loc 1) with
  | Ok (PT, b1) =>
    match mux_panic_old [2] b1 3 PT P0 with
    | Ok (PM, b2) =>
      match push_panic_if_old b2 PM 2 DivByZero (ex_loc 2) with
      | Ok (P3, b3) => obs [true; false] b3 (po_rec P3) = Some (1, ex_loc 1)
      | _ => False
      end
    | _ => False
    end
  | _ => False
  end.
Proof. vm_compute. reflexivity. Qed.

Fixpoint gates_eqb (l1 l2 : list bgate) : bool :=
  match l1, l2 with
  | [], [] => true
  | BXor a b :: r1, BXor c d :: r2 | BAnd a b :: r1, BAnd c d :: r2 =>
      (a =? c) && (b =? d) && gates_eqb r1 r2
  | _, _ => false
  end.

Lemma gates_eqb_refl l : gates_eqb l l = true.
Proof. induction l as [|[a b|a b] l IH]; cbn [gates_eqb]; [reflexivity| |]; now rewrite !N.eqb_refl. Qed.

(* DESIGN §6-2 / C06: both branches push A and B (in different orders); the code as found emits
   the mux gates of the two common cache entries in the order of [keys]: two orders, two
   different gate lists. *)
Example mux_panic_old_order_refuted :
  let b0 := new_builder false [3] in
  let P0 := pstate_old_new in
  match push_panic_if_old b0 P0 2 Overflow (ex_loc 1) with
  | Ok (T1, b1) =>
    match push_panic_if_old b1 T1 3 DivByZero (ex_loc 2) with
    | Ok (T2, b2) =>
      match push_panic_if_old b2 P0 3 DivByZero (ex_loc 3) with
      | Ok (F1, b3) =>
        match push_panic_if_old b3 F1 2 Overflow (ex_loc 4) with
        | Ok (F2, b4) =>
          match mux_panic_old [2; 3; 2; 3] b4 4 T2 F2, mux_panic_old [3; 2; 3; 2] b4 4 T2 F2 with
          | Ok (_, bA), Ok (_, bB) => gates_eqb (b_gates_rev bA) (b_gates_rev bB) = false
          | _, _ => False
          end
        | _ => False
        end
      | _ => False
      end
    | _ => False
    end
  | _ => False
  end.
Proof. vm_compute. reflexivity. Qed.
