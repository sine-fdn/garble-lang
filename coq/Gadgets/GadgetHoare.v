(* The builder-form gadgets of Gadgets.v denote the pure functions of GadgetSpec.v.
   Everything is proved from the interface [builder_ops_sound inv] only.
   Technique: a small Hoare-style layer.  With the input assignment [inp] fixed,
   [is_ inp b w v] says that wire [w] is valid in [b] and denotes the boolean [v]; values are
   plain booleans, hence stable under builder extension.  [ok inv b m Q] says that the monadic
   computation [m] succeeds with a result satisfying [Q] in an extended builder that still
   satisfies the invariant.  Each gadget is first proved in this form ([*_ok]), one [step] per
   builder request; then the [fin_*] lemmas turn the per-input statement into the final
   [*_sound] theorems. *)
From GV Require Import Base.Util Base.NMap Builder.Builder Builder.BuilderSem
  Builder.BuilderSpec Gadgets.Gadgets Gadgets.GadgetSpec Gadgets.Arith.

(* ------------------------------------------------------------------ generic Forall2 facts *)

Section F2.
  Context {A B : Type} (R : A -> B -> Prop).

  Lemma F2_length l1 l2 : Forall2 R l1 l2 -> length l1 = length l2.
  Proof. induction 1 as [|a b l1 l2 Hab Hl IH]; cbn [length]; [reflexivity|now f_equal]. Qed.

  Lemma F2_app l1 l2 r1 r2 : Forall2 R l1 l2 -> Forall2 R r1 r2 -> Forall2 R (l1 ++ r1) (l2 ++ r2).
  Proof. apply Forall2_app. Qed.

  Lemma F2_rev l1 l2 : Forall2 R l1 l2 -> Forall2 R (rev l1) (rev l2).
  Proof.
    induction 1 as [|a b l1 l2 Hab Hl IH]; cbn [rev]; [constructor|].
    apply F2_app; [exact IH|]. constructor; [exact Hab|constructor].
  Qed.

  Lemma F2_firstn n : forall l1 l2, Forall2 R l1 l2 -> Forall2 R (firstn n l1) (firstn n l2).
  Proof.
    induction n as [|n IH]; intros l1 l2 H; cbn [firstn]; [constructor|].
    destruct H as [|a b l1 l2 Hab Hl]; constructor; auto.
  Qed.

  Lemma F2_skipn n : forall l1 l2, Forall2 R l1 l2 -> Forall2 R (skipn n l1) (skipn n l2).
  Proof.
    induction n as [|n IH]; intros l1 l2 H; cbn [skipn]; [exact H|].
    destruct H as [|a b l1 l2 Hab Hl]; [constructor|]. auto.
  Qed.

  Lemma F2_repeat a b n : R a b -> Forall2 R (repeat a n) (repeat b n).
  Proof. intro H. induction n as [|n IH]; cbn [repeat]; constructor; auto. Qed.
End F2.

Lemma F2_impl {A B} (R R' : A -> B -> Prop) l1 l2 :
  (forall a b, R a b -> R' a b) -> Forall2 R l1 l2 -> Forall2 R' l1 l2.
Proof. intro Himp. induction 1 as [|a b l1 l2 Hab Hl IH]; constructor; auto. Qed.

Lemma len_test {A C} (x : list A) (y : list C) :
  length x = length y -> negb (length x =? length y)%nat = false.
Proof. intro H. rewrite (proj2 (Nat.eqb_eq _ _) H). reflexivity. Qed.

Lemma len_test2 {A C} (x : list A) (y : list C) bits :
  (bits <= length x)%nat -> (bits <= length y)%nat ->
  ((length x <? bits) || (length y <? bits))%nat = false.
Proof.
  intros H1 H2. rewrite (proj2 (Nat.ltb_ge _ _) H1), (proj2 (Nat.ltb_ge _ _) H2). reflexivity.
Qed.

(* ------------------------------------------------------------------ lengths and projection forms of the pure functions *)

Lemma addition_s_length x y :
  length x = length y -> length (fst (fst (addition_s x y))) = length x.
Proof.
  intro Hl. pose proof (adder_correct x y Hl) as H.
  destruct (addition_s x y) as [[s c] cp]. apply H.
Qed.

Lemma negation_s_length x : length (negation_s x) = length x.
Proof. apply neg_correct. Qed.

Lemma mux_all_s_length s xs : forall ys,
  length (mux_all_s s xs ys) = Nat.min (length xs) (length ys).
Proof.
  induction xs as [|x xr IH]; intros [|y yr]; cbn [mux_all_s length Nat.min]; try reflexivity.
  now rewrite IH.
Qed.

Lemma subtraction_s_eq x y sg :
  subtraction_s x y sg =
  let se := fst (fst (addition_s ((if sg then hd false x else false) :: x)
                                 (negation_s ((if sg then hd false y else false) :: y)))) in
  if sg then (tl se, xorb (hd false se) (hd false (tl se))) else (tl se, hd false se).
Proof. unfold subtraction_s. destruct (addition_s _ _) as [[se c1] c2]. reflexivity. Qed.

Lemma subtraction_s_length x y sg :
  length x = length y -> length (fst (subtraction_s x y sg)) = length x.
Proof.
  intro Hl. rewrite subtraction_s_eq. cbv zeta.
  match goal with |- context [addition_s ?a ?b] =>
    assert (Hs : length (fst (fst (addition_s a b))) = S (length x))
      by (rewrite addition_s_length; [reflexivity|rewrite negation_s_length; cbn [length]; lia])
  end.
  destruct (fst (fst (addition_s _ _))) as [|s0 se]; [discriminate Hs|].
  cbn [length] in Hs. destruct sg; cbn [fst tl]; lia.
Qed.

Lemma udiv_step_s_eq y sa r :
  udiv_step_s y sa r =
  let sub := subtraction_s r (skipn sa y ++ repeat false sa) false in
  let ov := or_all_s false (firstn sa y) in
  (mux_all_s (orb (snd sub) ov) r (fst sub), mux_s ov false (negb (snd sub))).
Proof. unfold udiv_step_s. destruct (subtraction_s _ _ _) as [xs c]. reflexivity. Qed.

Lemma shifted_length {A} (y : list A) (z : A) sa :
  (sa <= length y)%nat -> length (skipn sa y ++ repeat z sa) = length y.
Proof. intro H. rewrite app_length, skipn_length, repeat_length. lia. Qed.

Lemma udiv_step_s_length y sa r :
  (sa <= length y)%nat -> length r = length y -> length (fst (udiv_step_s y sa r)) = length y.
Proof. intros Hsa Hl. apply (udiv_step_s_spec y sa r Hsa Hl). Qed.

Lemma udiv_loop_s_eq y sa sas r q :
  udiv_loop_s y (sa :: sas) r q =
  udiv_loop_s y sas (fst (udiv_step_s y sa r)) (snd (udiv_step_s y sa r) :: q).
Proof. cbn [udiv_loop_s]. destruct (udiv_step_s y sa r) as [r' q']. reflexivity. Qed.

Lemma seq_rev_bound n : Forall (fun sa => (sa <= n)%nat) (rev (seq 0 n)).
Proof.
  apply Forall_forall. intros sa Hin. apply in_rev in Hin. apply in_seq in Hin. lia.
Qed.

Lemma udiv_s_length x y :
  length x = length y ->
  length (fst (udiv_s x y)) = length x /\ length (snd (udiv_s x y)) = length x.
Proof.
  intro Hl. pose proof (udiv_correct x y Hl) as H.
  destruct (udiv_s x y) as [q r]. split; apply H.
Qed.

Lemma sdiv_s_eq x y :
  sdiv_s x y =
  let x0 := hd false x in
  let y0 := hd false y in
  let d := udiv_s (mux_all_s x0 (negation_s x) x) (mux_all_s y0 (negation_s y) y) in
  (mux_all_s (xorb x0 y0) (negation_s (fst d)) (fst d), mux_all_s x0 (negation_s (snd d)) (snd d)).
Proof. unfold sdiv_s. destruct (udiv_s _ _) as [q r]. reflexivity. Qed.

(* named version of the local loop of push_eq_circuit / eq_s *)
(* without the annotation Coq first tries [acc] as the decreasing argument, and refuting that
   makes the guard checker normalise push_and_top: 18 s *)
Fixpoint eq_go (b : B) (acc : W) (xys : list (W * W)) {struct xys} : res (W * B) :=
  match xys with
  | [] => Ok (acc, b)
  | (x, y) :: r =>
      let* (e, b1) := push_eq b x y in
      let* (acc', b2) := push_and_top b1 acc e in
      eq_go b2 acc' r
  end.

Fixpoint eq_go_s (acc : bool) (xys : list (bool * bool)) : bool :=
  match xys with
  | [] => acc
  | (x, y) :: r => eq_go_s (andb acc (negb (xorb x y))) r
  end.

Lemma push_eq_circuit_eq b x y :
  push_eq_circuit b x y =
  if negb (length x =? length y)%nat then Ok (0, b) else eq_go b 1 (combine x y).
Proof. reflexivity. Qed.

Lemma eq_s_eq x y :
  eq_s x y = if negb (length x =? length y)%nat then false else eq_go_s true (combine x y).
Proof. reflexivity. Qed.

(* validity / denotation of a list of wire pairs (operands of the helper loops) *)
Definition valids2 (b : builder) (xys : list (N * N)) : Prop :=
  Forall (fun p => valid b (fst p) /\ valid b (snd p)) xys.
Definition dens2 (inp : list bool) (b : builder) (xys : list (N * N)) : list (bool * bool) :=
  map (fun p => (den inp b (fst p), den inp b (snd p))) xys.

Lemma dens_length inp b ws : length (dens inp b ws) = length ws.
Proof. apply map_length. Qed.

Lemma dens_lenN inp b ws : lenN (dens inp b ws) = lenN ws.
Proof. unfold lenN. now rewrite dens_length. Qed.

Lemma dens_same_length inp b x y : length x = length y -> length (dens inp b x) = length (dens inp b y).
Proof. now rewrite !dens_length. Qed.

Lemma dens_tl inp b ws : tl (dens inp b ws) = dens inp b (tl ws).
Proof. destruct ws; reflexivity. Qed.

Lemma dens_firstn inp b n ws : firstn n (dens inp b ws) = dens inp b (firstn n ws).
Proof. apply firstn_map. Qed.

Lemma dens_nonempty inp b ws : ws <> [] -> dens inp b ws <> [].
Proof. destruct ws; [congruence|discriminate]. Qed.

Section Rel.
Variable inp : list bool.

Definition is_ (b : builder) (w : N) (v : bool) : Prop :=
  valid b w /\ (ins_ok b inp -> den inp b w = v).
Definition is2 (b : builder) (p : N * N) (q : bool * bool) : Prop :=
  is_ b (fst p) (fst q) /\ is_ b (snd p) (snd q).

Lemma ins_ok_ext b b' : ext b b' -> ins_ok b' inp -> ins_ok b inp.
Proof. intros (Es & _). unfold ins_ok. congruence. Qed.

Lemma is_ext b b' w v : ext b b' -> is_ b w v -> is_ b' w v.
Proof.
  intros E [Hv Hd]. split; [eapply ext_valid; eauto|].
  intro Hok. apply (ins_ok_ext _ _ E) in Hok. rewrite (ext_den _ _ _ _ E Hok Hv). auto.
Qed.

(* two values of the same wire agree as soon as the input assignment fits *)
Lemma is_det b w v1 v2 : is_ b w v1 -> is_ b w v2 -> ins_ok b inp -> v1 = v2.
Proof. intros [_ H1] [_ H2] Hok. rewrite <- (H1 Hok). apply H2, Hok. Qed.
End Rel.

(* plain [Forall2], so that its lemmas and [inversion] apply as they are *)
Notation are inp b := (Forall2 (is_ inp b)).
Notation are2 inp b := (Forall2 (is2 inp b)).
Notation ares inp b := (Forall2 (are inp b)).

Lemma are_ext inp b b' ws vs : ext b b' -> are inp b ws vs -> are inp b' ws vs.
Proof. intro E. apply F2_impl. intros w v. apply is_ext, E. Qed.

Lemma are2_ext inp b b' ws vs : ext b b' -> are2 inp b ws vs -> are2 inp b' ws vs.
Proof. intro E. apply F2_impl. intros p q [H1 H2]. split; eapply is_ext; eauto. Qed.

Lemma ares_ext inp b b' ws vs : ext b b' -> ares inp b ws vs -> ares inp b' ws vs.
Proof. intro E. apply F2_impl. intros w v. apply are_ext, E. Qed.

Lemma are_hd inp b w ws vs : are inp b (w :: ws) vs -> is_ inp b w (hd false vs).
Proof. intro H. inversion H; subst. assumption. Qed.

Lemma are_tl inp b w ws vs : are inp b (w :: ws) vs -> are inp b ws (tl vs).
Proof. intro H. inversion H; subst. assumption. Qed.

Lemma are2_combine inp b xs : forall vxs ys vys,
  are inp b xs vxs -> are inp b ys vys -> are2 inp b (combine xs ys) (combine vxs vys).
Proof.
  induction xs as [|x xr IH]; intros vxs ys vys Hx Hy; inversion Hx; subst; [constructor|].
  inversion Hy; subst; constructor; [split; assumption|]. apply IH; assumption.
Qed.

(* ------------------------------------------------------------------ from one input assignment to all *)

Lemma is_of_valid inp b w : valid b w -> is_ inp b w (den inp b w).
Proof. intro H. split; [exact H|]. intros _. reflexivity. Qed.

Lemma are_of_valids inp b ws : valids b ws -> are inp b ws (dens inp b ws).
Proof.
  intro H. unfold valids in H. unfold dens.
  induction H as [|w ws Hw Hws IH]; cbn [map]; constructor; [apply is_of_valid; exact Hw|exact IH].
Qed.

Lemma are2_of_valids2 inp b xys : valids2 b xys -> are2 inp b xys (dens2 inp b xys).
Proof.
  intro H. unfold valids2 in H. unfold dens2.
  induction H as [|[x y] r [Hx Hy] Hr IH]; cbn [map fst snd]; constructor; [|exact IH].
  split; apply is_of_valid; assumption.
Qed.

Lemma are_dens inp b ws vs :
  are inp b ws vs -> valids b ws /\ (ins_ok b inp -> dens inp b ws = vs).
Proof.
  intro H. unfold valids, dens.
  induction H as [|w v ws vs [Hv Hd] Hr [IHv IHd]]; split.
  - constructor.
  - intros _. reflexivity.
  - constructor; assumption.
  - intro Hok. cbn [map]. rewrite (Hd Hok), (IHd Hok). reflexivity.
Qed.

(* The result of a gadget is a wire, a list of wires, or a pair of such results.
   [wpost s b a T]: the wires of [a] are valid in [b], and [T]; [T] will be the equation on
   denotations, and handing it on keeps the conjunction flat for pairs. *)
Inductive shape := Wire | Wires | Pair (s t : shape).

Fixpoint wty (s : shape) : Type :=
  match s with Wire => N | Wires => list N | Pair s t => wty s * wty t end%type.
Fixpoint vty (s : shape) : Type :=
  match s with Wire => bool | Wires => list bool | Pair s t => vty s * vty t end%type.
Fixpoint wrel (s : shape) (inp : list bool) (b : builder) : wty s -> vty s -> Prop :=
  match s with
  | Wire => is_ inp b
  | Wires => are inp b
  | Pair s t => fun a v => wrel s inp b (fst a) (fst v) /\ wrel t inp b (snd a) (snd v)
  end.
Fixpoint wden (s : shape) (inp : list bool) (b : builder) : wty s -> vty s :=
  match s with
  | Wire => den inp b
  | Wires => dens inp b
  | Pair s t => fun a => (wden s inp b (fst a), wden t inp b (snd a))
  end.
Fixpoint wpost (s : shape) (b : builder) : wty s -> Prop -> Prop :=
  match s with
  | Wire => fun w T => valid b w /\ T
  | Wires => fun ws T => valids b ws /\ T
  | Pair s t => fun a T => wpost s b (fst a) (wpost t b (snd a) T)
  end.

Lemma wfin s : forall b b' a (f : list bool -> vty s) (T : Prop),
  ext b b' -> (forall inp, wrel s inp b' a (f inp)) ->
  ((forall inp, ins_ok b inp -> wden s inp b' a = f inp) -> T) -> wpost s b' a T.
Proof.
  induction s as [| |s IHs t IHt]; intros b b' a f T He H HT; cbn [wrel wden wpost] in *.
  - split; [apply (H [])|]. apply HT. intros inp Hok. apply (H inp). eapply ext_ins_ok; eauto.
  - split; [apply (are_dens [] _ _ _ (H []))|]. apply HT.
    intros inp Hok. apply (are_dens inp _ _ _ (H inp)). eapply ext_ins_ok; eauto.
  - apply (IHs b b' _ (fun inp => fst (f inp))); [exact He|apply H|]. intro D1.
    apply (IHt b b' _ (fun inp => snd (f inp))); [exact He|apply H|]. intro D2.
    apply HT. intros inp Hok. rewrite (D1 inp Hok), (D2 inp Hok). symmetry. apply surjective_pairing.
Qed.

(* ------------------------------------------------------------------ the Hoare layer *)

Section Layer.
Variable inv : builder -> Prop.
Hypothesis ops : builder_ops_sound inv.

Definition ok {A} (b : builder) (m : res (A * builder)) (Q : A -> builder -> Prop) : Prop :=
  exists r b', m = Ok (r, b') /\ inv b' /\ ext b b' /\ Q r b'.

Lemma ok_ret {A} b (r : A) (Q : A -> builder -> Prop) : inv b -> Q r b -> ok b (Ok (r, b)) Q.
Proof.
  intros Hi Hq. exists r, b. split; [reflexivity|]. split; [exact Hi|].
  split; [apply ext_refl|exact Hq].
Qed.

Lemma ok_bind {A C} b (m : res (A * builder)) (k : A * builder -> res (C * builder))
    (Q : A -> builder -> Prop) (R : C -> builder -> Prop) :
  ok b m Q ->
  (forall r b1, inv b1 -> ext b b1 -> Q r b1 -> ok b1 (k (r, b1)) R) ->
  ok b (bind m k) R.
Proof.
  intros (r & b1 & Em & Hi & He & Hq) Hk.
  destruct (Hk r b1 Hi He Hq) as (r2 & b2 & Ek & Hi2 & He2 & Hr).
  exists r2, b2. rewrite Em. cbn [bind]. split; [exact Ek|]. split; [exact Hi2|].
  split; [eapply ext_trans; eauto|exact Hr].
Qed.

Lemma ok_weaken {A} b (m : res (A * builder)) (Q Q' : A -> builder -> Prop) :
  ok b m Q -> (forall r b', inv b' -> ext b b' -> Q r b' -> Q' r b') -> ok b m Q'.
Proof.
  intros (r & b1 & Em & Hi & He & Hq) Hw. exists r, b1.
  split; [exact Em|]. split; [exact Hi|]. split; [exact He|]. apply Hw; assumption.
Qed.

(* [m] does not depend on the input assignment, so neither do its result and builder *)
Lemma finalize {A} b (m : res (A * builder)) (Q : list bool -> A -> builder -> Prop) :
  (forall inp, ok b m (Q inp)) ->
  exists r b', m = Ok (r, b') /\ inv b' /\ ext b b' /\ forall inp, Q inp r b'.
Proof.
  intro H. destruct (H []) as (r & b' & E & Hi & He & _).
  exists r, b'. split; [exact E|]. split; [exact Hi|]. split; [exact He|]. intro inp.
  destruct (H inp) as (r2 & b2 & E2 & _ & _ & Hq).
  rewrite E in E2. inversion E2; subst. exact Hq.
Qed.

Lemma fin s b (m : res (wty s * builder)) (f : list bool -> vty s) :
  (forall inp, ok b m (fun r b' => wrel s inp b' r (f inp))) ->
  exists r b', m = Ok (r, b') /\ inv b' /\ ext b b' /\
    wpost s b' r (forall inp, ins_ok b inp -> wden s inp b' r = f inp).
Proof.
  intro H. destruct (finalize b m _ H) as (r & b' & E & Hi & He & Hq).
  exists r, b'. split; [exact E|]. split; [exact Hi|]. split; [exact He|].
  apply (wfin s b b' r f); auto.
Qed.

Section Inp.
Variable inp : list bool.

Lemma is_const0 b : inv b -> is_ inp b 0 false.
Proof.
  intro Hi. split; [apply (bs_consts_valid _ ops b Hi)|].
  intro Hok. apply (bs_const0 _ ops); assumption.
Qed.

Lemma is_const1 b : inv b -> is_ inp b 1 true.
Proof.
  intro Hi. split; [apply (bs_consts_valid _ ops b Hi)|].
  intro Hok. apply (bs_const1 _ ops); assumption.
Qed.

(* -------------------------------------------------------------- primitive requests *)

(* the form in which BuilderSpec states a request, as a rule of the layer *)
Lemma ok_request b (m : res (N * builder)) (f : list bool -> bool) v :
  (exists r b', m = Ok (r, b') /\ inv b' /\ ext b b' /\ valid b' r /\
     forall inp, ins_ok b inp -> den inp b' r = f inp) ->
  (ins_ok b inp -> f inp = v) ->
  ok b m (fun r b' => is_ inp b' r v).
Proof.
  intros (r & b' & E & Hi & He & Hv & Hd) Hf. exists r, b'.
  split; [exact E|]. split; [exact Hi|]. split; [exact He|]. split; [exact Hv|].
  intro Hok. apply (ins_ok_ext _ _ _ He) in Hok. rewrite (Hd inp Hok). exact (Hf Hok).
Qed.

Lemma ok_binop (f : builder -> N -> N -> res (N * builder)) (op : bool -> bool -> bool) :
  binop_sound inv f op ->
  forall b x y vx vy, inv b -> is_ inp b x vx -> is_ inp b y vy ->
    ok b (f b x y) (fun r b' => is_ inp b' r (op vx vy)).
Proof.
  intros Hf b x y vx vy Hi [Hvx Hdx] [Hvy Hdy].
  apply (ok_request _ _ _ _ (Hf b x y Hi Hvx Hvy)). intro Hok. now rewrite Hdx, Hdy.
Qed.

Lemma ok_xor b x y vx vy : inv b -> is_ inp b x vx -> is_ inp b y vy ->
  ok b (push_xor_top b x y) (fun r b' => is_ inp b' r (xorb vx vy)).
Proof. apply (ok_binop _ _ (bs_xor _ ops)). Qed.

Lemma ok_and b x y vx vy : inv b -> is_ inp b x vx -> is_ inp b y vy ->
  ok b (push_and_top b x y) (fun r b' => is_ inp b' r (andb vx vy)).
Proof. apply (ok_binop _ _ (bs_and _ ops)). Qed.

Lemma ok_or b x y vx vy : inv b -> is_ inp b x vx -> is_ inp b y vy ->
  ok b (push_or b x y) (fun r b' => is_ inp b' r (orb vx vy)).
Proof. apply (ok_binop _ _ (bs_or _ ops)). Qed.

Lemma ok_eq b x y vx vy : inv b -> is_ inp b x vx -> is_ inp b y vy ->
  ok b (push_eq b x y) (fun r b' => is_ inp b' r (negb (xorb vx vy))).
Proof. apply (ok_binop _ _ (bs_eq _ ops)). Qed.

Lemma ok_not b x vx : inv b -> is_ inp b x vx ->
  ok b (push_not b x) (fun r b' => is_ inp b' r (negb vx)).
Proof.
  intros Hi [Hvx Hdx]. apply (ok_request _ _ _ _ (bs_not _ ops b x Hi Hvx)).
  intro Hok. now rewrite Hdx.
Qed.

Lemma ok_mux b s x0 x1 vs v0 v1 : inv b -> is_ inp b s vs -> is_ inp b x0 v0 -> is_ inp b x1 v1 ->
  ok b (push_mux b s x0 x1) (fun r b' => is_ inp b' r (mux_s vs v0 v1)).
Proof.
  intros Hi [Hvs Hds] [Hv0 Hd0] [Hv1 Hd1].
  apply (ok_request _ _ _ _ (bs_mux _ ops b s x0 x1 Hi Hvs Hv0 Hv1)).
  intro Hok. now rewrite Hds, Hd0, Hd1.
Qed.

End Inp.

End Layer.


Ltac transport E :=
  match type of E with
  | ext ?b ?b' =>
      repeat match goal with
      | H : is_ _ b _ _ |- _ => apply (is_ext _ _ _ _ _ E) in H
      | H : are _ b _ _ |- _ => apply (are_ext _ _ _ _ _ E) in H
      | H : are2 _ b _ _ |- _ => apply (are2_ext _ _ _ _ _ E) in H
      | H : ares _ b _ _ |- _ => apply (ares_ext _ _ _ _ _ E) in H
      end
  end.

(* [step lem as r b H]: the next request of the monadic program is handled by [lem], whose
   premises are in the context; [r] names its result, [b] the extended builder, [H] what
   [lem] says of [r], and every fact about the old builder is moved to [b] *)
Tactic Notation "step" uconstr(lem) "as" simple_intropattern(r) ident(b) simple_intropattern(H) :=
  eapply ok_bind; [eapply lem; eassumption|];
  let E := fresh "E" in
  intros r b ? E; cbn beta iota delta [fst snd]; intros H; transport E; clear E.

Section Gadgets.
Variable inv : builder -> Prop.
Hypothesis ops : builder_ops_sound inv.

Section Inp.
Variable inp : list bool.

(* -------------------------------------------------------------- adder, addition *)

Lemma push_adder_ok b x y c vx vy vc :
  inv b -> is_ inp b x vx -> is_ inp b y vy -> is_ inp b c vc ->
  ok inv b (push_adder b x y c)
    (fun r b' => is_ inp b' (fst r) (fst (adder_s vx vy vc)) /\
                 is_ inp b' (snd r) (snd (adder_s vx vy vc))).
Proof.
  intros Hi Hx Hy Hc. unfold push_adder.
  step ok_xor as u b1 Hu.
  step ok_and as v b2 Hv.
  step ok_xor as s b3 Hs.
  step ok_and as w b4 Hw.
  step ok_or as c' b5 Hc'.
  apply ok_ret; [assumption|]. split; assumption.
Qed.

Lemma push_multiplier_ok b x y z c vx vy vz vc :
  inv b -> is_ inp b x vx -> is_ inp b y vy -> is_ inp b z vz -> is_ inp b c vc ->
  ok inv b (push_multiplier b x y z c)
    (fun r b' => is_ inp b' (fst r) (fst (multiplier_s vx vy vz vc)) /\
                 is_ inp b' (snd r) (snd (multiplier_s vx vy vz vc))).
Proof.
  intros Hi Hx Hy Hz Hc. unfold push_multiplier, multiplier_s.
  step ok_and as xy b1 Hxy.
  apply push_adder_ok; assumption.
Qed.

Lemma add_loop_ok : forall xys vxys b c vc cp vcp acc vacc,
  inv b -> are2 inp b xys vxys -> is_ inp b c vc -> is_ inp b cp vcp -> are inp b acc vacc ->
  ok inv b (add_loop b xys c cp acc)
    (fun r b' => (are inp b' (fst (fst r)) (fst (fst (add_loop_s vxys vc vcp vacc))) /\
                  is_ inp b' (snd (fst r)) (snd (fst (add_loop_s vxys vc vcp vacc)))) /\
                 is_ inp b' (snd r) (snd (add_loop_s vxys vc vcp vacc))).
Proof.
  induction xys as [|[x y] r IH]; intros vxys b c vc cp vcp acc vacc Hi Hxys Hc Hcp Hacc;
    inversion Hxys as [|? [vx vy] ? vr [Hx Hy] Hr]; subst; cbn [fst snd] in *; cbn [add_loop add_loop_s].
  - apply ok_ret; [assumption|]. split; [split|]; assumption.
  - step push_adder_ok as [s c'] b1 [Hs Hc'].
    destruct (adder_s vx vy vc) as [vs vc']. apply IH; try assumption. constructor; assumption.
Qed.

Lemma push_addition_circuit_ok b x y vx vy :
  inv b -> are inp b x vx -> are inp b y vy -> length x = length y ->
  ok inv b (push_addition_circuit b x y)
    (fun r b' => (are inp b' (fst (fst r)) (fst (fst (addition_s vx vy))) /\
                  is_ inp b' (snd (fst r)) (snd (fst (addition_s vx vy)))) /\
                 is_ inp b' (snd r) (snd (addition_s vx vy))).
Proof.
  intros Hi Hx Hy Hl. unfold push_addition_circuit, addition_s.
  rewrite len_test by exact Hl.
  pose proof (is_const0 inv ops inp b Hi) as H0.
  apply add_loop_ok; try assumption.
  - apply F2_rev, are2_combine; assumption.
  - constructor.
Qed.

(* -------------------------------------------------------------- negation *)

Lemma neg_loop_ok : forall xs vxs b c vc acc vacc,
  inv b -> are inp b xs vxs -> is_ inp b c vc -> are inp b acc vacc ->
  ok inv b (neg_loop b xs c acc) (fun r b' => are inp b' r (neg_loop_s vxs vc vacc)).
Proof.
  induction xs as [|x r IH]; intros vxs b c vc acc vacc Hi Hxs Hc Hacc;
    inversion Hxs as [|? vx ? vr Hx Hr]; subst; cbn [neg_loop neg_loop_s].
  - apply ok_ret; assumption.
  - step ok_not as nx b1 Hnx.
    step ok_xor as s b2 Hs.
    step ok_and as c' b3 Hc'.
    apply IH; try assumption. constructor; assumption.
Qed.

Lemma push_negation_circuit_ok b x vx :
  inv b -> are inp b x vx ->
  ok inv b (push_negation_circuit b x) (fun r b' => are inp b' r (negation_s vx)).
Proof.
  intros Hi Hx. unfold push_negation_circuit, negation_s.
  pose proof (is_const1 inv ops inp b Hi) as H1.
  apply neg_loop_ok; try assumption.
  - apply F2_rev; assumption.
  - constructor.
Qed.

(* -------------------------------------------------------------- subtraction *)

Lemma push_subtraction_circuit_ok b x y sg vx vy :
  inv b -> are inp b x vx -> are inp b y vy -> length x = length y -> (sg = true -> x <> []) ->
  ok inv b (push_subtraction_circuit b x y sg)
    (fun r b' => are inp b' (fst r) (fst (subtraction_s vx vy sg)) /\
                 is_ inp b' (snd r) (snd (subtraction_s vx vy sg))).
Proof.
  intros Hi Hx Hy Hl Hne. unfold push_subtraction_circuit. unfold W, B.
  rewrite len_test by exact Hl. rewrite subtraction_s_eq. cbv zeta.
  pose proof (is_const0 inv ops inp b Hi) as H0.
  set (vx0 := if sg then hd false vx else false).
  set (vy0 := if sg then hd false vy else false).
  assert (Hhd : exists x0 y0,
             (if sg then hd_res x else Ok 0) = Ok x0 /\ (if sg then hd_res y else Ok 0) = Ok y0 /\
             is_ inp b x0 vx0 /\ is_ inp b y0 vy0).
  { subst vx0 vy0. destruct sg.
    - destruct x as [|x0 x']; [exfalso; apply Hne; reflexivity|].
      destruct y as [|y0 y']; [discriminate Hl|].
      exists x0, y0. cbn [hd_res]. split; [reflexivity|]. split; [reflexivity|].
      split; eapply are_hd; eassumption.
    - exists 0, 0. split; [reflexivity|]. split; [reflexivity|]. split; assumption. }
  destruct Hhd as (x0 & y0 & -> & -> & Hx0 & Hy0). cbn [bind].
  assert (Hxe : are inp b (x0 :: x) (vx0 :: vx)) by (constructor; assumption).
  assert (Hye : are inp b (y0 :: y) (vy0 :: vy)) by (constructor; assumption).
  step push_negation_circuit_ok as yn b1 Hyn.
  assert (Hlyn : length (x0 :: x) = length yn).
  { rewrite (F2_length _ _ _ Hyn), negation_s_length. cbn [length].
    rewrite <- (F2_length _ _ _ Hy). lia. }
  step push_addition_circuit_ok as [[se c1] c2] b2 [[Hse _] _].
  set (vse := fst (fst (addition_s (vx0 :: vx) (negation_s (vy0 :: vy))))) in *.
  assert (Hlse : length se = S (length x)).
  { rewrite (F2_length _ _ _ Hse). subst vse. rewrite addition_s_length.
    - cbn [length]. rewrite <- (F2_length _ _ _ Hx). reflexivity.
    - rewrite negation_s_length. cbn [length].
      rewrite <- (F2_length _ _ _ Hx), <- (F2_length _ _ _ Hy). lia. }
  destruct se as [|sign sum]; [discriminate Hlse|]. cbn [hd_res bind tl].
  pose proof (are_hd _ _ _ _ _ Hse) as Hsign. pose proof (are_tl _ _ _ _ _ Hse) as Hsum.
  destruct sg.
  - destruct sum as [|s0 sum'].
    { exfalso. cbn [length] in Hlse. destruct x; [apply Hne; reflexivity|discriminate Hlse]. }
    cbn [hd_res bind]. pose proof (are_hd _ _ _ _ _ Hsum) as Hs0.
    step ok_xor as ov b3 Hov.
    apply ok_ret; [assumption|]. split; assumption.
  - apply ok_ret; [assumption|]. split; assumption.
Qed.

(* -------------------------------------------------------------- or_all, mux_all *)

Lemma or_all_ok : forall ys vys b acc vacc,
  inv b -> is_ inp b acc vacc -> are inp b ys vys ->
  ok inv b (or_all b acc ys) (fun r b' => is_ inp b' r (or_all_s vacc vys)).
Proof.
  induction ys as [|y r IH]; intros vys b acc vacc Hi Hacc Hys;
    inversion Hys as [|? vy ? vr Hy Hr]; subst; cbn [or_all or_all_s].
  - apply ok_ret; assumption.
  - step ok_or as o b1 Ho.
    apply IH; assumption.
Qed.

Lemma mux_all_ok : forall xs vxs b s vs ys vys,
  inv b -> is_ inp b s vs -> are inp b xs vxs -> are inp b ys vys ->
  ok inv b (mux_all b s xs ys) (fun r b' => are inp b' r (mux_all_s vs vxs vys)).
Proof.
  induction xs as [|x xr IH]; intros vxs b s vs ys vys Hi Hs Hxs Hys;
    inversion Hxs as [|? vx ? vxr Hx Hxr]; subst; cbn [mux_all mux_all_s].
  - apply ok_ret; [assumption|constructor].
  - inversion Hys as [|y vy yr vyr Hy Hyr]; subst; cbn [mux_all mux_all_s].
    + apply ok_ret; [assumption|constructor].
    + step ok_mux as m b1 Hm.
      step IH as rest b2 Hrest.
      apply ok_ret; [assumption|]. constructor; assumption.
Qed.

(* -------------------------------------------------------------- comparison *)

Lemma gt_loop_ok : forall xys vxys b c vc,
  inv b -> are2 inp b xys vxys -> is_ inp b c vc ->
  ok inv b (gt_loop b xys c) (fun r b' => is_ inp b' r (gt_loop_s vxys vc)).
Proof.
  induction xys as [|[x y] r IH]; intros vxys b c vc Hi Hxys Hc;
    inversion Hxys as [|? [vx vy] ? vr [Hx Hy] Hr]; subst; cbn [fst snd] in *; cbn [gt_loop gt_loop_s].
  - apply ok_ret; assumption.
  - step ok_xor as xc b1 Hxc.
    step ok_xor as yc b2 Hyc.
    step ok_not as nyc b3 Hnyc.
    step ok_and as an b4 Han.
    step ok_xor as c' b5 Hc'.
    apply IH; assumption.
Qed.

Lemma push_gt_circuit_ok b bits x y vx vy :
  inv b -> are inp b x vx -> are inp b y vy -> (bits <= length x)%nat -> (bits <= length y)%nat ->
  ok inv b (push_gt_circuit b bits x y) (fun r b' => is_ inp b' r (gt_s bits vx vy)).
Proof.
  intros Hi Hx Hy Hbx Hby. unfold push_gt_circuit, gt_s.
  rewrite len_test2 by assumption.
  pose proof (is_const0 inv ops inp b Hi) as H0.
  apply gt_loop_ok; try assumption.
  apply F2_rev, are2_combine; apply F2_firstn; assumption.
Qed.

Lemma cmp_loop_ok : forall xys vxys b first signed ag vag al val,
  inv b -> are2 inp b xys vxys -> is_ inp b ag vag -> is_ inp b al val ->
  ok inv b (cmp_loop b first signed xys ag al)
    (fun r b' => is_ inp b' (fst r) (fst (cmp_loop_s first signed vxys vag val)) /\
                 is_ inp b' (snd r) (snd (cmp_loop_s first signed vxys vag val))).
Proof.
  induction xys as [|[x y] r IH]; intros vxys b first signed ag vag al val Hi Hxys Hag Hal;
    inversion Hxys as [|? [vx vy] ? vr [Hx Hy] Hr]; subst; cbn [fst snd] in *; cbn [cmp_loop cmp_loop_s].
  - apply ok_ret; [assumption|]. split; assumption.
  - step ok_xor as xo b1 Hxo.
    step ok_and as xa b2 Hxa.
    step ok_and as ya b3 Hya.
    (* the sign position swaps the roles of the two operands; the requests are the same *)
    destruct (first && signed); cbn beta iota zeta;
    ( step ok_or as gt' b4 Hgt';
      step ok_or as lt' b5 Hlt';
      step ok_not as nag b6 Hnag;
      step ok_not as nal b7 Hnal;
      step ok_and as ag' b8 Hag';
      step ok_and as al' b9 Hal';
      apply IH; assumption ).
Qed.

Lemma push_comparator_circuit_ok b bits x sx y sy vx vy :
  inv b -> are inp b x vx -> are inp b y vy -> (bits <= length x)%nat -> (bits <= length y)%nat ->
  ok inv b (push_comparator_circuit b bits x sx y sy)
    (fun r b' => is_ inp b' (fst r) (fst (cmp_s bits vx sx vy sy)) /\
                 is_ inp b' (snd r) (snd (cmp_s bits vx sx vy sy))).
Proof.
  intros Hi Hx Hy Hbx Hby. unfold push_comparator_circuit, cmp_s.
  rewrite len_test2 by assumption.
  pose proof (is_const0 inv ops inp b Hi) as H0.
  apply cmp_loop_ok; try assumption.
  apply are2_combine; apply F2_firstn; assumption.
Qed.

(* -------------------------------------------------------------- equality *)

Lemma eq_go_ok : forall xys vxys b acc vacc,
  inv b -> are2 inp b xys vxys -> is_ inp b acc vacc ->
  ok inv b (eq_go b acc xys) (fun r b' => is_ inp b' r (eq_go_s vacc vxys)).
Proof.
  induction xys as [|[x y] r IH]; intros vxys b acc vacc Hi Hxys Hacc;
    inversion Hxys as [|? [vx vy] ? vr [Hx Hy] Hr]; subst; cbn [fst snd] in *; cbn [eq_go eq_go_s].
  - apply ok_ret; assumption.
  - step ok_eq as e b1 He.
    step ok_and as acc' b2 Hacc'.
    apply IH; assumption.
Qed.

Lemma push_eq_circuit_ok b x y vx vy :
  inv b -> are inp b x vx -> are inp b y vy ->
  ok inv b (push_eq_circuit b x y) (fun r b' => is_ inp b' r (eq_s vx vy)).
Proof.
  intros Hi Hx Hy. rewrite push_eq_circuit_eq, eq_s_eq. unfold W, B.
  rewrite <- (F2_length _ _ _ Hx), <- (F2_length _ _ _ Hy).
  destruct (negb (length x =? length y)%nat).
  - apply ok_ret; [assumption|]. apply (is_const0 inv ops); assumption.
  - pose proof (is_const1 inv ops inp b Hi) as H1.
    apply eq_go_ok; try assumption. apply are2_combine; assumption.
Qed.

(* -------------------------------------------------------------- conditional swap *)

Lemma push_condswap_ok b s x y vs vx vy :
  inv b -> is_ inp b s vs -> is_ inp b x vx -> is_ inp b y vy ->
  ok inv b (push_condswap b s x y)
    (fun r b' => is_ inp b' (fst r) (fst (condswap_s vs vx vy)) /\
                 is_ inp b' (snd r) (snd (condswap_s vs vx vy))).
Proof.
  intros Hi Hs Hx Hy. unfold push_condswap. destruct (N.eqb_spec x y) as [E|E].
  - subst y. apply ok_ret; [assumption|]. cbn [fst snd].
    assert (Hsame : ins_ok b inp -> condswap_s vs vx vy = (vx, vx)).
    { intro Hok. rewrite <- (is_det _ _ _ _ _ Hx Hy Hok). unfold condswap_s.
      destruct vx, vs; reflexivity. }
    split; (split; [apply Hx|]); intro Hok; rewrite (Hsame Hok); cbn [fst snd];
      apply Hx; exact Hok.
  - step ok_xor as xy b1 Hxy.
    step ok_and as sw b2 Hsw.
    step ok_xor as xs b3 Hxs.
    step ok_xor as ys b4 Hys.
    apply ok_ret; [assumption|]. split; assumption.
Qed.

(* -------------------------------------------------------------- division *)

Lemma udiv_step_ok b y vy bits sa rem vrem :
  inv b -> are inp b y vy -> are inp b rem vrem -> (sa <= length y)%nat -> length rem = length y ->
  ok inv b (udiv_step b y bits sa rem)
    (fun r b' => are inp b' (fst r) (fst (udiv_step_s vy sa vrem)) /\
                 is_ inp b' (snd r) (snd (udiv_step_s vy sa vrem))).
Proof.
  intros Hi Hy Hrem Hsa Hl. unfold udiv_step. rewrite udiv_step_s_eq. cbv zeta. cbn [fst snd].
  pose proof (is_const0 inv ops inp b Hi) as H0.
  pose proof (F2_firstn _ sa _ _ Hy) as Hhi.
  assert (Hsh : are inp b (skipn sa y ++ repeat 0 sa) (skipn sa vy ++ repeat false sa))
    by (apply F2_app; [apply F2_skipn; assumption|apply F2_repeat; assumption]).
  assert (Hlsh : length rem = length (skipn sa y ++ repeat 0 sa))
    by (rewrite shifted_length; assumption).
  assert (Hns : false = true -> rem <> []) by discriminate.
  step or_all_ok as ov b1 Hov.
  step push_subtraction_circuit_ok as [xsub carry] b2 [Hxs Hca].
  step ok_or as coo b3 Hcoo.
  step mux_all_ok as rem' b4 Hrem'.
  step ok_not as qb b5 Hqb.
  step ok_mux as q b6 Hq.
  apply ok_ret; [assumption|]. split; assumption.
Qed.

Lemma udiv_loop_ok : forall sas b y vy bits rem vrem q vq,
  inv b -> are inp b y vy -> are inp b rem vrem -> are inp b q vq ->
  Forall (fun sa => (sa <= length y)%nat) sas -> length rem = length y ->
  ok inv b (udiv_loop b y bits sas rem q)
    (fun r b' => are inp b' (fst r) (fst (udiv_loop_s vy sas vrem vq)) /\
                 are inp b' (snd r) (snd (udiv_loop_s vy sas vrem vq))).
Proof.
  induction sas as [|sa sas IH]; intros b y vy bits rem vrem q vq Hi Hy Hrem Hq Hsas Hl.
  - cbn [udiv_loop udiv_loop_s]. apply ok_ret; [assumption|].
    split; [apply F2_rev; assumption|assumption].
  - rewrite udiv_loop_s_eq. cbn [udiv_loop].
    inversion Hsas as [|sa' sas' Hsa Hsas']; subst.
    step udiv_step_ok as [rem' qb] b1 [Hrem' Hqb].
    apply IH; try assumption.
    + constructor; assumption.
    + rewrite (F2_length _ _ _ Hrem'), (F2_length _ _ _ Hy).
      apply udiv_step_s_length; rewrite <- (F2_length _ _ _ Hy), <- ?(F2_length _ _ _ Hrem); assumption.
Qed.

Lemma push_unsigned_division_circuit_ok b x y vx vy :
  inv b -> are inp b x vx -> are inp b y vy -> length x = length y ->
  ok inv b (push_unsigned_division_circuit b x y)
    (fun r b' => are inp b' (fst r) (fst (udiv_s vx vy)) /\ are inp b' (snd r) (snd (udiv_s vx vy))).
Proof.
  intros Hi Hx Hy Hl. unfold push_unsigned_division_circuit, udiv_s.
  rewrite len_test by exact Hl. cbv zeta.
  rewrite <- (F2_length _ _ _ Hx).
  apply udiv_loop_ok; try assumption.
  - constructor.
  - rewrite Hl. apply seq_rev_bound.
Qed.

Lemma push_signed_division_circuit_ok b x y vx vy :
  inv b -> are inp b x vx -> are inp b y vy -> length x = length y -> x <> [] ->
  ok inv b (push_signed_division_circuit b x y)
    (fun r b' => are inp b' (fst r) (fst (sdiv_s vx vy)) /\ are inp b' (snd r) (snd (sdiv_s vx vy))).
Proof.
  intros Hi Hx Hy Hl Hne. unfold push_signed_division_circuit. unfold W, B.
  rewrite len_test by exact Hl. rewrite sdiv_s_eq. cbv zeta. cbn [fst snd].
  destruct x as [|x0 x']; [exfalso; apply Hne; reflexivity|].
  destruct y as [|y0 y']; [discriminate Hl|].
  cbn [hd_res bind].
  pose proof (are_hd _ _ _ _ _ Hx) as Hx0. pose proof (are_hd _ _ _ _ _ Hy) as Hy0.
  set (x := x0 :: x') in *. set (y := y0 :: y') in *.
  step ok_xor as isneg b1 Hisneg.
  step push_negation_circuit_ok as xneg b2 Hxneg.
  step mux_all_ok as xa b3 Hxa.
  step push_negation_circuit_ok as yneg b4 Hyneg.
  step mux_all_ok as ya b5 Hya.
  assert (Hla : length xa = length ya).
  { rewrite (F2_length _ _ _ Hxa), (F2_length _ _ _ Hya), !mux_all_s_length,
      !negation_s_length, <- (F2_length _ _ _ Hx), <- (F2_length _ _ _ Hy). lia. }
  step push_unsigned_division_circuit_ok as [q r] b6 [Hq Hr].
  step push_negation_circuit_ok as qneg b7 Hqneg.
  step mux_all_ok as q' b8 Hq'.
  step push_negation_circuit_ok as rneg b9 Hrneg.
  step mux_all_ok as r' b10 Hr'.
  apply ok_ret; [assumption|]. split; assumption.
Qed.

End Inp.

(* ------------------------------------------------------------------ the soundness theorems *)

Theorem push_eq_circuit_sound b x y :
  inv b -> valids b x -> valids b y ->
  exists r b', push_eq_circuit b x y = Ok (r, b') /\ inv b' /\ ext b b' /\ valid b' r /\
    forall inp, ins_ok b inp -> den inp b' r = eq_s (dens inp b x) (dens inp b y).
Proof.
  intros Hi Hx Hy. apply (fin _ Wire _ _ (fun inp => eq_s (dens inp b x) (dens inp b y))).
  intro inp. cbn beta. apply push_eq_circuit_ok; auto using are_of_valids.
Qed.

Theorem push_adder_sound b x y c :
  inv b -> valid b x -> valid b y -> valid b c ->
  exists r b', push_adder b x y c = Ok (r, b') /\ inv b' /\ ext b b' /\
    valid b' (fst r) /\ valid b' (snd r) /\
    forall inp, ins_ok b inp ->
      (den inp b' (fst r), den inp b' (snd r))
      = adder_s (den inp b x) (den inp b y) (den inp b c).
Proof.
  intros Hi Hx Hy Hc.
  apply (fin _ (Pair Wire Wire) _ _ (fun inp => adder_s (den inp b x) (den inp b y) (den inp b c))).
  intro inp. cbn beta. apply push_adder_ok; auto using is_of_valid.
Qed.

Theorem push_multiplier_sound b x y z c :
  inv b -> valid b x -> valid b y -> valid b z -> valid b c ->
  exists r b', push_multiplier b x y z c = Ok (r, b') /\ inv b' /\ ext b b' /\
    valid b' (fst r) /\ valid b' (snd r) /\
    forall inp, ins_ok b inp ->
      (den inp b' (fst r), den inp b' (snd r))
      = multiplier_s (den inp b x) (den inp b y) (den inp b z) (den inp b c).
Proof.
  intros Hi Hx Hy Hz Hc.
  apply (fin _ (Pair Wire Wire) _ _ (fun inp =>
           multiplier_s (den inp b x) (den inp b y) (den inp b z) (den inp b c))).
  intro inp. cbn beta. apply push_multiplier_ok; auto using is_of_valid.
Qed.

Theorem add_loop_sound b xys c cp acc :
  inv b -> valids2 b xys -> valid b c -> valid b cp -> valids b acc ->
  exists r b', add_loop b xys c cp acc = Ok (r, b') /\ inv b' /\ ext b b' /\
    valids b' (fst (fst r)) /\ valid b' (snd (fst r)) /\ valid b' (snd r) /\
    forall inp, ins_ok b inp ->
      (dens inp b' (fst (fst r)), den inp b' (snd (fst r)), den inp b' (snd r))
      = add_loop_s (dens2 inp b xys) (den inp b c) (den inp b cp) (dens inp b acc).
Proof.
  intros Hi Hxys Hc Hcp Hacc.
  apply (fin _ (Pair (Pair Wires Wire) Wire) _ _ (fun inp =>
           add_loop_s (dens2 inp b xys) (den inp b c) (den inp b cp) (dens inp b acc))).
  intro inp. cbn beta.
  apply add_loop_ok; auto using is_of_valid, are_of_valids, are2_of_valids2.
Qed.

Theorem push_addition_circuit_sound b x y :
  inv b -> valids b x -> valids b y -> length x = length y ->
  exists r b', push_addition_circuit b x y = Ok (r, b') /\ inv b' /\ ext b b' /\
    valids b' (fst (fst r)) /\ valid b' (snd (fst r)) /\ valid b' (snd r) /\
    forall inp, ins_ok b inp ->
      (dens inp b' (fst (fst r)), den inp b' (snd (fst r)), den inp b' (snd r))
      = addition_s (dens inp b x) (dens inp b y).
Proof.
  intros Hi Hx Hy Hl.
  apply (fin _ (Pair (Pair Wires Wire) Wire) _ _ (fun inp => addition_s (dens inp b x) (dens inp b y))).
  intro inp. cbn beta. apply push_addition_circuit_ok; auto using are_of_valids.
Qed.

Theorem neg_loop_sound b xs c acc :
  inv b -> valids b xs -> valid b c -> valids b acc ->
  exists r b', neg_loop b xs c acc = Ok (r, b') /\ inv b' /\ ext b b' /\ valids b' r /\
    forall inp, ins_ok b inp ->
      dens inp b' r = neg_loop_s (dens inp b xs) (den inp b c) (dens inp b acc).
Proof.
  intros Hi Hxs Hc Hacc.
  apply (fin _ Wires _ _ (fun inp => neg_loop_s (dens inp b xs) (den inp b c) (dens inp b acc))).
  intro inp. cbn beta. apply neg_loop_ok; auto using is_of_valid, are_of_valids.
Qed.

Theorem push_negation_circuit_sound b x :
  inv b -> valids b x ->
  exists r b', push_negation_circuit b x = Ok (r, b') /\ inv b' /\ ext b b' /\ valids b' r /\
    forall inp, ins_ok b inp -> dens inp b' r = negation_s (dens inp b x).
Proof.
  intros Hi Hx. apply (fin _ Wires _ _ (fun inp => negation_s (dens inp b x))).
  intro inp. cbn beta. apply push_negation_circuit_ok; auto using are_of_valids.
Qed.

Theorem push_subtraction_circuit_sound b x y is_signed :
  inv b -> valids b x -> valids b y -> length x = length y ->
  (is_signed = true -> x <> []) ->
  exists r b', push_subtraction_circuit b x y is_signed = Ok (r, b') /\ inv b' /\ ext b b' /\
    valids b' (fst r) /\ valid b' (snd r) /\
    forall inp, ins_ok b inp ->
      (dens inp b' (fst r), den inp b' (snd r))
      = subtraction_s (dens inp b x) (dens inp b y) is_signed.
Proof.
  intros Hi Hx Hy Hl Hne.
  apply (fin _ (Pair Wires Wire) _ _ (fun inp => subtraction_s (dens inp b x) (dens inp b y) is_signed)).
  intro inp. cbn beta. apply push_subtraction_circuit_ok; auto using are_of_valids.
Qed.

Theorem or_all_sound b acc ys :
  inv b -> valid b acc -> valids b ys ->
  exists r b', or_all b acc ys = Ok (r, b') /\ inv b' /\ ext b b' /\ valid b' r /\
    forall inp, ins_ok b inp -> den inp b' r = or_all_s (den inp b acc) (dens inp b ys).
Proof.
  intros Hi Hacc Hys. apply (fin _ Wire _ _ (fun inp => or_all_s (den inp b acc) (dens inp b ys))).
  intro inp. cbn beta. apply or_all_ok; auto using is_of_valid, are_of_valids.
Qed.

Theorem mux_all_sound b s xs ys :
  inv b -> valid b s -> valids b xs -> valids b ys ->
  exists r b', mux_all b s xs ys = Ok (r, b') /\ inv b' /\ ext b b' /\ valids b' r /\
    forall inp, ins_ok b inp ->
      dens inp b' r = mux_all_s (den inp b s) (dens inp b xs) (dens inp b ys).
Proof.
  intros Hi Hs Hxs Hys.
  apply (fin _ Wires _ _ (fun inp => mux_all_s (den inp b s) (dens inp b xs) (dens inp b ys))).
  intro inp. cbn beta. apply mux_all_ok; auto using is_of_valid, are_of_valids.
Qed.

Theorem udiv_step_sound b y bits sa remainder :
  inv b -> valids b y -> valids b remainder ->
  (sa <= length y)%nat -> length remainder = length y ->
  exists r b', udiv_step b y bits sa remainder = Ok (r, b') /\ inv b' /\ ext b b' /\
    valids b' (fst r) /\ valid b' (snd r) /\
    forall inp, ins_ok b inp ->
      (dens inp b' (fst r), den inp b' (snd r))
      = udiv_step_s (dens inp b y) sa (dens inp b remainder).
Proof.
  intros Hi Hy Hrem Hsa Hl.
  apply (fin _ (Pair Wires Wire) _ _ (fun inp => udiv_step_s (dens inp b y) sa (dens inp b remainder))).
  intro inp. cbn beta. apply udiv_step_ok; auto using are_of_valids.
Qed.

Theorem udiv_loop_sound b y bits sas remainder quot_rev :
  inv b -> valids b y -> valids b remainder -> valids b quot_rev ->
  Forall (fun sa => (sa <= length y)%nat) sas -> length remainder = length y ->
  exists r b', udiv_loop b y bits sas remainder quot_rev = Ok (r, b') /\ inv b' /\ ext b b' /\
    valids b' (fst r) /\ valids b' (snd r) /\
    forall inp, ins_ok b inp ->
      (dens inp b' (fst r), dens inp b' (snd r))
      = udiv_loop_s (dens inp b y) sas (dens inp b remainder) (dens inp b quot_rev).
Proof.
  intros Hi Hy Hrem Hq Hsas Hl.
  apply (fin _ (Pair Wires Wires) _ _ (fun inp =>
           udiv_loop_s (dens inp b y) sas (dens inp b remainder) (dens inp b quot_rev))).
  intro inp. cbn beta. apply udiv_loop_ok; auto using are_of_valids.
Qed.

Theorem push_unsigned_division_circuit_sound b x y :
  inv b -> valids b x -> valids b y -> length x = length y ->
  exists r b', push_unsigned_division_circuit b x y = Ok (r, b') /\ inv b' /\ ext b b' /\
    valids b' (fst r) /\ valids b' (snd r) /\
    forall inp, ins_ok b inp ->
      (dens inp b' (fst r), dens inp b' (snd r)) = udiv_s (dens inp b x) (dens inp b y).
Proof.
  intros Hi Hx Hy Hl.
  apply (fin _ (Pair Wires Wires) _ _ (fun inp => udiv_s (dens inp b x) (dens inp b y))).
  intro inp. cbn beta. apply push_unsigned_division_circuit_ok; auto using are_of_valids.
Qed.

Theorem push_signed_division_circuit_sound b x y :
  inv b -> valids b x -> valids b y -> length x = length y -> x <> [] ->
  exists r b', push_signed_division_circuit b x y = Ok (r, b') /\ inv b' /\ ext b b' /\
    valids b' (fst r) /\ valids b' (snd r) /\
    forall inp, ins_ok b inp ->
      (dens inp b' (fst r), dens inp b' (snd r)) = sdiv_s (dens inp b x) (dens inp b y).
Proof.
  intros Hi Hx Hy Hl Hne.
  apply (fin _ (Pair Wires Wires) _ _ (fun inp => sdiv_s (dens inp b x) (dens inp b y))).
  intro inp. cbn beta. apply push_signed_division_circuit_ok; auto using are_of_valids.
Qed.

Theorem gt_loop_sound b xys c :
  inv b -> valids2 b xys -> valid b c ->
  exists r b', gt_loop b xys c = Ok (r, b') /\ inv b' /\ ext b b' /\ valid b' r /\
    forall inp, ins_ok b inp -> den inp b' r = gt_loop_s (dens2 inp b xys) (den inp b c).
Proof.
  intros Hi Hxys Hc. apply (fin _ Wire _ _ (fun inp => gt_loop_s (dens2 inp b xys) (den inp b c))).
  intro inp. cbn beta. apply gt_loop_ok; auto using is_of_valid, are2_of_valids2.
Qed.

Theorem push_gt_circuit_sound b bits x y :
  inv b -> valids b x -> valids b y -> (bits <= length x)%nat -> (bits <= length y)%nat ->
  exists r b', push_gt_circuit b bits x y = Ok (r, b') /\ inv b' /\ ext b b' /\ valid b' r /\
    forall inp, ins_ok b inp -> den inp b' r = gt_s bits (dens inp b x) (dens inp b y).
Proof.
  intros Hi Hx Hy Hbx Hby.
  apply (fin _ Wire _ _ (fun inp => gt_s bits (dens inp b x) (dens inp b y))).
  intro inp. cbn beta. apply push_gt_circuit_ok; auto using are_of_valids.
Qed.

Theorem cmp_loop_sound b first signed xys acc_gt acc_lt :
  inv b -> valids2 b xys -> valid b acc_gt -> valid b acc_lt ->
  exists r b', cmp_loop b first signed xys acc_gt acc_lt = Ok (r, b') /\ inv b' /\ ext b b' /\
    valid b' (fst r) /\ valid b' (snd r) /\
    forall inp, ins_ok b inp ->
      (den inp b' (fst r), den inp b' (snd r))
      = cmp_loop_s first signed (dens2 inp b xys) (den inp b acc_gt) (den inp b acc_lt).
Proof.
  intros Hi Hxys Hg Hl.
  apply (fin _ (Pair Wire Wire) _ _ (fun inp =>
           cmp_loop_s first signed (dens2 inp b xys) (den inp b acc_gt) (den inp b acc_lt))).
  intro inp. cbn beta. apply cmp_loop_ok; auto using is_of_valid, are2_of_valids2.
Qed.

Theorem push_comparator_circuit_sound b bits x sx y sy :
  inv b -> valids b x -> valids b y -> (bits <= length x)%nat -> (bits <= length y)%nat ->
  exists r b', push_comparator_circuit b bits x sx y sy = Ok (r, b') /\ inv b' /\ ext b b' /\
    valid b' (fst r) /\ valid b' (snd r) /\
    forall inp, ins_ok b inp ->
      (den inp b' (fst r), den inp b' (snd r))
      = cmp_s bits (dens inp b x) sx (dens inp b y) sy.
Proof.
  intros Hi Hx Hy Hbx Hby.
  apply (fin _ (Pair Wire Wire) _ _ (fun inp => cmp_s bits (dens inp b x) sx (dens inp b y) sy)).
  intro inp. cbn beta. apply push_comparator_circuit_ok; auto using are_of_valids.
Qed.

Theorem push_condswap_sound b s x y :
  inv b -> valid b s -> valid b x -> valid b y ->
  exists r b', push_condswap b s x y = Ok (r, b') /\ inv b' /\ ext b b' /\
    valid b' (fst r) /\ valid b' (snd r) /\
    forall inp, ins_ok b inp ->
      (den inp b' (fst r), den inp b' (snd r))
      = condswap_s (den inp b s) (den inp b x) (den inp b y).
Proof.
  intros Hi Hs Hx Hy.
  apply (fin _ (Pair Wire Wire) _ _ (fun inp => condswap_s (den inp b s) (den inp b x) (den inp b y))).
  intro inp. cbn beta. apply push_condswap_ok; auto using is_of_valid.
Qed.

End Gadgets.
