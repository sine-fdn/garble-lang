(* Casts: zero / sign extension and truncation are exact (every width). *)
From GV Require Import Base.Util Base.ListFacts Base.NMap Base.Bits Base.BitsProofs
  Builder.Builder Builder.BuilderSem Builder.BuilderSpec Gadgets.Extend.

Lemma bits_to_N_repeat_false_app k v : bits_to_N (repeat false k ++ v) = bits_to_N v.
Proof. rewrite bits_to_N_app, bits_to_N_repeat_false. lia. Qed.

Lemma bits_to_N_repeat_true k : bits_to_N (repeat true k) + 1 = 2 ^ N.of_nat k.
Proof.
  induction k as [|k IH]; [reflexivity|].
  cbn [repeat]. rewrite bits_to_N_cons, lenN_repeat. cbn [N.b2n].
  replace (N.of_nat (S k)) with (1 + N.of_nat k) by lia. rewrite pow2_succ. lia.
Qed.

Theorem zext_correct v bits : bits_to_N (extend_s v false bits) = bits_to_N v.
Proof.
  destruct v as [|m r]; cbn [extend_s].
  - now rewrite bits_to_N_repeat_false.
  - apply bits_to_N_repeat_false_app.
Qed.

Theorem sext_correct v bits : v <> [] -> bits_to_Z_signed (extend_s v true bits) = bits_to_Z_signed v.
Proof.
  destruct v as [|m r]; [congruence|intros _]. cbn [extend_s].
  remember (bits - length (m :: r))%nat as k eqn:Ek. clear Ek.
  induction k as [|k IH]; [reflexivity|].
  cbn [repeat app]. rewrite <- IH. clear IH.
  destruct m.
  - unfold bits_to_Z_signed at 1. cbn [N.b2n]. rewrite N.mul_1_l.
    destruct k as [|k].
    + cbn [repeat app]. unfold bits_to_Z_signed. rewrite bits_to_N_cons, !lenN_cons, pow2_succ.
      cbn [N.b2n]. lia.
    + cbn [repeat app]. unfold bits_to_Z_signed. rewrite !bits_to_N_cons, !lenN_cons, !pow2_succ.
      cbn [N.b2n]. lia.
  - unfold bits_to_Z_signed at 1. cbn [N.b2n]. rewrite N.mul_0_l.
    destruct k as [|k]; cbn [repeat app]; unfold bits_to_Z_signed; rewrite !bits_to_N_cons;
      cbn [N.b2n]; lia.
Qed.

Lemma extend_s_length v signed bits : (length v <= bits)%nat -> length (extend_s v signed bits) = bits.
Proof.
  intro Hl. destruct v as [|m r]; cbn [extend_s].
  - apply repeat_length.
  - rewrite app_length, repeat_length. lia.
Qed.

(* truncation keeps the value modulo 2^k (Rust's `as` to a narrower type) *)
Theorem truncate_correct (v : list bool) k : (k <= length v)%nat ->
  length (cast_truncate v k) = k /\
  bits_to_N (cast_truncate v k) = bits_to_N v mod 2 ^ N.of_nat k.
Proof.
  intro Hk. unfold cast_truncate.
  assert (length (skipn (length v - k) v) = k) as HL by (rewrite skipn_length; lia).
  split; [exact HL|].
  assert (bits_to_N v = bits_to_N (firstn (length v - k) v) * 2 ^ lenN (skipn (length v - k) v)
                        + bits_to_N (skipn (length v - k) v)) as Hsplit
    by (rewrite <- bits_to_N_app, firstn_skipn; reflexivity).
  rewrite Hsplit. clear Hsplit.
  pose proof (bits_to_N_lt (skipn (length v - k) v)) as Hlt.
  assert (lenN (skipn (length v - k) v) = N.of_nat k) as El by (unfold lenN; now rewrite HL).
  rewrite El in *. pose proof (pow2_pos (N.of_nat k)) as Hp.
  rewrite N.add_comm, N.mod_add by lia. rewrite N.mod_small by lia. reflexivity.
Qed.

(* the builder level: widening emits no gate; the new wires denote the sign / false *)
Section S.
Variable inv : builder -> Prop.
Hypothesis ops : builder_ops_sound inv.

Theorem extend_to_bits_sound b v signed bits r :
  inv b -> valids b v -> extend_to_bits v signed bits = Ok r ->
  valids b r /\ length r = bits /\
  forall inp, ins_ok b inp -> dens inp b r = extend_s (dens inp b v) signed bits.
Proof.
  intros Hi Hv E. destruct (bs_consts_valid inv ops b Hi) as [V0 _].
  unfold extend_to_bits in E. destruct v as [|m t].
  - injection E as <-. split; [|split].
    + unfold valids. apply Forall_forall. intros w Hw. apply repeat_spec in Hw. now subst.
    + apply repeat_length.
    + intros inp Hok. cbn [dens map extend_s]. unfold dens. rewrite map_repeat. f_equal.
      apply (bs_const0 inv ops b inp Hi Hok).
  - destruct (Nat.eqb_spec (length (m :: t)) bits) as [El|Nl].
    + injection E as <-. split; [exact Hv|]. split; [exact El|].
      intros inp Hok. cbn [dens map extend_s]. fold (dens inp b t).
      assert (bits - length (den inp b m :: dens inp b t) = 0)%nat as Ez.
      { cbn [length] in El |- *. unfold dens. rewrite map_length. lia. }
      rewrite Ez. reflexivity.
    + destruct (Nat.ltb_spec bits (length (m :: t))) as [Hlt|Hge]; [discriminate|].
      injection E as <-. split; [|split].
      * unfold valids. apply Forall_app. split; [|exact Hv].
        apply Forall_forall. intros w Hw. apply repeat_spec in Hw. subst w.
        destruct signed; [|exact V0]. unfold valids in Hv. now inversion Hv.
      * rewrite app_length, repeat_length. cbn [length] in Hge |- *. lia.
      * intros inp Hok. unfold dens. rewrite map_app, map_repeat. cbn [map extend_s length].
        rewrite map_length. f_equal. f_equal.
        destruct signed; [reflexivity|]. apply (bs_const0 inv ops b inp Hi Hok).
Qed.

(* compile.rs always asks for at least the current width: no Crash *)
Lemma extend_to_bits_total v signed bits :
  (length v <= bits)%nat -> exists r, extend_to_bits v signed bits = Ok r.
Proof.
  intro Hl. unfold extend_to_bits. destruct v as [|m t]; [eauto|].
  destruct (Nat.eqb_spec (length (m :: t)) bits); [eauto|].
  destruct (Nat.ltb_spec bits (length (m :: t))); [lia|eauto].
Qed.

Theorem cast_widen_correct b v signed bits :
  inv b -> valids b v -> (length v <= bits)%nat ->
  exists r, extend_to_bits v signed bits = Ok r /\ valids b r /\ length r = bits /\
    forall inp, ins_ok b inp ->
      (signed = false -> bits_to_N (dens inp b r) = bits_to_N (dens inp b v)) /\
      (signed = true -> v <> [] ->
       bits_to_Z_signed (dens inp b r) = bits_to_Z_signed (dens inp b v)).
Proof.
  intros Hi Hv Hl. destruct (extend_to_bits_total v signed bits Hl) as [r E].
  destruct (extend_to_bits_sound b v signed bits r Hi Hv E) as (Vr & Lr & Hd).
  exists r. repeat (split; [assumption|]).
  intros inp Hok. rewrite (Hd inp Hok). split.
  - intros ->. apply zext_correct.
  - intros -> Hne. apply sext_correct. destruct v; [congruence|discriminate].
Qed.

End S.
