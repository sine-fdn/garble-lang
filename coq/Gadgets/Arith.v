(* What the pure gadget functions of GadgetSpec.v compute on numbers, for EVERY width
   (induction on the bit lists; no bound).  Bit vectors are MSB first; [bits_to_N] is the
   unsigned reading, [bits_to_Z_signed] the two's-complement reading (Base/Bits.v). *)
From GV Require Import Base.Util Base.Bits Base.BitsProofs Gadgets.GadgetSpec.

(* ------------------------------------------------------------------ arithmetic helpers *)

Lemma divmod_unique (p s q t : N) : s < p -> s + p * q = t -> s = t mod p /\ q = t / p.
Proof.
  intros Hs He. split.
  - apply (N.mod_unique t p q s); lia.
  - apply (N.div_unique t p q s); lia.
Qed.

Lemma mod_cases (m a : N) : 0 < m -> a < 2 * m -> a mod m = if a <? m then a else a - m.
Proof.
  intros Hm Ha. destruct (N.ltb_spec a m) as [Hlt|Hge].
  - apply N.mod_small. exact Hlt.
  - symmetry. apply (N.mod_unique a m 1 (a - m)); lia.
Qed.

Lemma map_fst_combine {A B} (x : list A) (y : list B) :
  length x = length y -> map fst (combine x y) = x.
Proof.
  revert y. induction x as [|a x IH]; intros [|b y] Hl; try discriminate; [reflexivity|].
  cbn [combine map fst]. f_equal. apply IH. now injection Hl.
Qed.

Lemma map_snd_combine {A B} (x : list A) (y : list B) :
  length x = length y -> map snd (combine x y) = y.
Proof.
  revert y. induction x as [|a x IH]; intros [|b y] Hl; try discriminate; [reflexivity|].
  cbn [combine map snd]. f_equal. apply IH. now injection Hl.
Qed.

Lemma combine_length_eq {A B} (x : list A) (y : list B) :
  length x = length y -> length (combine x y) = length x.
Proof. intro Hl. rewrite combine_length. lia. Qed.

(* ------------------------------------------------------------------ full adder, ripple-carry addition *)

Lemma adder_s_spec x y c :
  N.b2n (fst (adder_s x y c)) + 2 * N.b2n (snd (adder_s x y c)) = N.b2n x + N.b2n y + N.b2n c.
Proof. destruct x, y, c; reflexivity. Qed.

Lemma multiplier_s_spec x y z c :
  N.b2n (fst (multiplier_s x y z c)) + 2 * N.b2n (snd (multiplier_s x y z c))
  = N.b2n x * N.b2n y + N.b2n z + N.b2n c.
Proof. destruct x, y, z, c; reflexivity. Qed.

(* invariant of the ripple-carry loop; [xys] is least significant pair first *)
Lemma add_loop_s_spec xys : forall c cp acc,
  exists S, fst (fst (add_loop_s xys c cp acc)) = S ++ acc /\ length S = length xys /\
    bits_to_N S + 2 ^ lenN xys * N.b2n (snd (fst (add_loop_s xys c cp acc)))
    = lsb_to_N (map fst xys) + lsb_to_N (map snd xys) + N.b2n c.
Proof.
  induction xys as [|[x y] r IH]; intros c cp acc.
  - exists []. cbn. repeat split. lia.
  - cbn [add_loop_s]. pose proof (adder_s_spec x y c) as Ha.
    destruct (adder_s x y c) as [s c1]. cbn [fst snd] in Ha.
    destruct (IH c1 c (s :: acc)) as (S & HS & HL & HV).
    exists (S ++ [s]). rewrite <- app_assoc. cbn [app]. split; [exact HS|]. split.
    + rewrite app_length. cbn [length]. lia.
    + rewrite bits_to_N_snoc, lenN_cons, pow2_succ. cbn [map fst snd lsb_to_N]. lia.
Qed.

Lemma add_loop_s_snoc l x y : forall c cp acc,
  add_loop_s (l ++ [(x, y)]) c cp acc =
  let '(a, c1, _) := add_loop_s l c cp acc in
  let '(s, c2) := adder_s x y c1 in (s :: a, c2, c1).
Proof.
  induction l as [|[x' y'] l IH]; intros c cp acc.
  - cbn [app add_loop_s]. destruct (adder_s x y c) as [s c2]. reflexivity.
  - cbn [app add_loop_s]. destruct (adder_s x' y' c) as [s c1]. apply IH.
Qed.

Lemma addition_s_value x y : length x = length y ->
  exists S, fst (fst (addition_s x y)) = S /\ length S = length x /\
    bits_to_N S + 2 ^ lenN x * N.b2n (snd (fst (addition_s x y))) = bits_to_N x + bits_to_N y.
Proof.
  intro Hl. unfold addition_s.
  destruct (add_loop_s_spec (rev (combine x y)) false false []) as (S & HS & HL & HV).
  exists S. rewrite app_nil_r in HS. split; [exact HS|].
  rewrite rev_length, combine_length_eq in HL by exact Hl. split; [exact HL|].
  rewrite !map_rev, map_fst_combine, map_snd_combine, !lsb_to_N_rev in HV by exact Hl.
  rewrite lenN_rev in HV. unfold lenN in HV. rewrite combine_length_eq in HV by exact Hl.
  cbn [N.b2n] in HV. unfold lenN. lia.
Qed.

(* carry_prev = the carry out of the addition of the n-1 low bits = the carry into the MSB *)
Lemma addition_s_carry_prev x0 xr y0 yr :
  snd (addition_s (x0 :: xr) (y0 :: yr)) = snd (fst (addition_s xr yr)).
Proof.
  unfold addition_s. cbn [combine rev]. rewrite add_loop_s_snoc.
  destruct (add_loop_s (rev (combine xr yr)) false false []) as [[a c1] cp1].
  destruct (adder_s x0 y0 c1) as [s c2]. reflexivity.
Qed.

Theorem adder_correct x y : length x = length y ->
  let '(sum, c, cp) := addition_s x y in
  length sum = length x /\
  bits_to_N sum = (bits_to_N x + bits_to_N y) mod 2 ^ lenN x /\
  N.b2n c = (bits_to_N x + bits_to_N y) / 2 ^ lenN x /\
  N.b2n cp = (bits_to_N (tl x) + bits_to_N (tl y)) / 2 ^ lenN (tl x).
Proof.
  intro Hl.
  destruct (addition_s_value x y Hl) as (S & HS & HL & HV).
  assert (N.b2n (snd (addition_s x y)) = (bits_to_N (tl x) + bits_to_N (tl y)) / 2 ^ lenN (tl x)) as Hcp.
  { destruct x as [|x0 xr], y as [|y0 yr]; try discriminate.
    - reflexivity.
    - rewrite addition_s_carry_prev. cbn [tl]. injection Hl as Hl.
      destruct (addition_s_value xr yr Hl) as (S' & _ & HL' & HV').
      pose proof (bits_to_N_lt S') as Hlt. rewrite (lenN_length _ _ HL') in Hlt.
      apply (divmod_unique _ _ _ _ Hlt HV'). }
  destruct (addition_s x y) as [[sum c] cp]. cbn [fst snd] in *. subst S.
  pose proof (bits_to_N_lt sum) as Hlt. rewrite (lenN_length _ _ HL) in Hlt.
  destruct (divmod_unique _ _ _ _ Hlt HV) as [Hm Hd].
  repeat split; assumption.
Qed.

(* carry <-> the exact sum does not fit *)
Corollary adder_carry_iff x y : length x = length y ->
  snd (fst (addition_s x y)) = true <-> 2 ^ lenN x <= bits_to_N x + bits_to_N y.
Proof.
  intro Hl. pose proof (adder_correct x y Hl) as H.
  destruct (addition_s x y) as [[sum c] cp]. destruct H as (HL & HS & HC & _). cbn [fst snd].
  pose proof (pow2_pos (lenN x)) as Hp.
  pose proof (N.div_mod (bits_to_N x + bits_to_N y) (2 ^ lenN x)) as Hdm.
  pose proof (N.mod_upper_bound (bits_to_N x + bits_to_N y) (2 ^ lenN x)) as Hub.
  destruct c; cbn [N.b2n] in HC; split; intro Hx; try reflexivity; try discriminate; nia.
Qed.

(* ------------------------------------------------------------------ two's complement negation *)

Lemma neg_loop_s_spec xs : forall c acc,
  exists S cf, neg_loop_s xs c acc = S ++ acc /\ length S = length xs /\
    bits_to_N S + 2 ^ lenN xs * N.b2n cf + lsb_to_N xs + 1 = 2 ^ lenN xs + N.b2n c.
Proof.
  induction xs as [|x r IH]; intros c acc.
  - exists [], c. cbn. repeat split. lia.
  - cbn [neg_loop_s].
    destruct (IH (andb c (negb x)) (xorb c (negb x) :: acc)) as (S & cf & HS & HL & HV).
    exists (S ++ [xorb c (negb x)]), cf. rewrite <- app_assoc. cbn [app]. split; [exact HS|]. split.
    + rewrite app_length. cbn [length]. lia.
    + rewrite bits_to_N_snoc, lenN_cons, pow2_succ. cbn [lsb_to_N].
      destruct c, x; cbn [andb negb xorb N.b2n] in *; lia.
Qed.

Theorem neg_correct x :
  length (negation_s x) = length x /\
  bits_to_N (negation_s x) = (2 ^ lenN x - bits_to_N x) mod 2 ^ lenN x.
Proof.
  unfold negation_s.
  destruct (neg_loop_s_spec (rev x) true []) as (S & cf & HS & HL & HV).
  rewrite app_nil_r in HS. rewrite HS. rewrite rev_length in HL. split; [exact HL|].
  rewrite lenN_rev, lsb_to_N_rev in HV. cbn [N.b2n] in HV.
  pose proof (bits_to_N_lt S) as Hlt. rewrite (lenN_length _ _ HL) in Hlt.
  pose proof (bits_to_N_lt x) as Hx. pose proof (pow2_pos (lenN x)) as Hp.
  destruct cf; cbn [N.b2n] in HV.
  - assert (bits_to_N x = 0) as -> by lia. rewrite N.sub_0_r, N.mod_same by lia. lia.
  - rewrite N.mod_small by lia. lia.
Qed.

(* ------------------------------------------------------------------ subtraction through the (n+1)-bit extension *)

Ltac ltb_cases :=
  repeat match goal with
         | H : context [N.ltb ?a ?b] |- _ => destruct (N.ltb_spec a b)
         | H : context [Z.ltb ?a ?b] |- _ => destruct (Z.ltb_spec a b)
         | |- context [N.ltb ?a ?b] => destruct (N.ltb_spec a b)
         end.

Lemma neg_mod_Z (P Q : N) : 0 < P -> Q < P ->
  Z.of_N ((P - Q) mod P) = ((- Z.of_N Q) mod Z.of_N P)%Z.
Proof.
  intros HP HQ. destruct (N.eqb_spec Q 0) as [->|Hq].
  - rewrite N.sub_0_r, N.mod_same by lia. change (- Z.of_N 0)%Z with 0%Z. rewrite Z.mod_0_l by lia. reflexivity.
  - rewrite N.mod_small by lia. apply (Z.mod_unique_pos _ _ (-1)); lia.
Qed.

Lemma mod_cases_Z (m a : Z) : (0 < m)%Z -> (- m <= a < m)%Z ->
  (a mod m = if a <? 0 then a + m else a)%Z.
Proof.
  intros Hm Ha. destruct (Z.ltb_spec a 0).
  - symmetry. apply (Z.mod_unique_pos _ _ (-1)); lia.
  - apply Z.mod_small. lia.
Qed.

(* the common part: the (n+1)-bit sum  x_ext + (- y_ext)  is the difference modulo 2^(n+1) *)
Lemma sub_ext_value (xe ye : list bool) : length xe = length ye ->
  let se := fst (fst (addition_s xe (negation_s ye))) in
  length se = length xe /\
  Z.of_N (bits_to_N se)
  = ((Z.of_N (bits_to_N xe) - Z.of_N (bits_to_N ye)) mod Z.of_N (2 ^ lenN xe))%Z.
Proof.
  intro Hl. cbv zeta. destruct (neg_correct ye) as [HLn HVn].
  pose proof (adder_correct xe (negation_s ye) (eq_trans Hl (eq_sym HLn))) as Ha.
  destruct (addition_s xe (negation_s ye)) as [[se c] cp]. destruct Ha as (HLs & HVs & _ & _).
  cbn [fst]. split; [exact HLs|].
  pose proof (pow2_pos (lenN xe)) as Hp. pose proof (bits_to_N_lt ye) as Hy.
  rewrite <- (lenN_length _ _ Hl) in HVn, Hy.
  rewrite HVs, HVn, N2Z.inj_mod, N2Z.inj_add, neg_mod_Z, Zplus_mod_idemp_r by lia.
  reflexivity.
Qed.

Theorem sub_correct_unsigned x y : length x = length y ->
  let '(d, ov) := subtraction_s x y false in
  length d = length x /\
  bits_to_N d = (bits_to_N x + 2 ^ lenN x - bits_to_N y) mod 2 ^ lenN x /\
  ov = (bits_to_N x <? bits_to_N y).
Proof.
  intro Hl. unfold subtraction_s.
  destruct (sub_ext_value (false :: x) (false :: y)) as [HLs HV]; [cbn [length]; congruence|].
  destruct (addition_s (false :: x) (negation_s (false :: y))) as [[se c] cp]. cbn [fst] in HLs, HV.
  destruct se as [|sgn d]; [discriminate|]. cbn [hd tl]. injection HLs as HLd.
  split; [exact HLd|].
  rewrite !bits_to_N_cons, lenN_cons, pow2_succ, (lenN_length _ _ HLd) in HV. cbn [N.b2n] in HV.
  pose proof (bits_to_N_lt d) as Hd. rewrite (lenN_length _ _ HLd) in Hd.
  pose proof (bits_to_N_lt x) as Hx. pose proof (bits_to_N_lt y) as Hy.
  rewrite <- (lenN_length _ _ Hl) in Hy. pose proof (pow2_pos (lenN x)) as Hp.
  rewrite mod_cases by lia. rewrite mod_cases_Z in HV by lia.
  destruct sgn; cbn [N.b2n] in HV; ltb_cases; split; lia.
Qed.

Corollary sub_correct_unsigned_Z x y : length x = length y ->
  Z.of_N (bits_to_N (fst (subtraction_s x y false)))
  = ((Z.of_N (bits_to_N x) - Z.of_N (bits_to_N y)) mod Z.of_N (2 ^ lenN x))%Z.
Proof.
  intro Hl. pose proof (sub_correct_unsigned x y Hl) as H.
  destruct (subtraction_s x y false) as [d ov]. cbn [fst]. destruct H as (_ & -> & _).
  pose proof (bits_to_N_lt y) as Hy. rewrite <- (lenN_length _ _ Hl) in Hy.
  rewrite N2Z.inj_mod, <- (Z_mod_plus_full (_ - _) 1). f_equal. lia.
Qed.

Theorem sub_correct_signed x y : x <> [] -> length x = length y ->
  let '(d, ov) := subtraction_s x y true in
  let D := (bits_to_Z_signed x - bits_to_Z_signed y)%Z in
  let H := Z.of_N (2 ^ (lenN x - 1)) in
  length d = length x /\
  Z.of_N (bits_to_N d) = (D mod Z.of_N (2 ^ lenN x))%Z /\
  (ov = true <-> ~ (- H <= D < H)%Z) /\
  (ov = false -> bits_to_Z_signed d = D).
Proof.
  intros Hne Hl. assert (y <> []) as Hny by (destruct x, y; try discriminate; congruence).
  unfold subtraction_s.
  destruct (sub_ext_value (hd false x :: x) (hd false y :: y)) as [HLs HV]; [cbn [length]; congruence|].
  destruct (addition_s (hd false x :: x) (negation_s (hd false y :: y))) as [[se c] cp].
  cbn [fst] in HLs, HV.
  destruct (signed_facts x Hne) as (HX & HP & _ & _ & HSX).
  destruct (signed_facts y Hny) as (HY & _ & _ & _ & HSY). cbv zeta in *.
  rewrite <- (lenN_length _ _ Hl) in HY, HSY.
  pose proof (bits_to_Z_signed_range x Hne) as RX. pose proof (bits_to_Z_signed_range y Hny) as RY.
  rewrite <- (lenN_length _ _ Hl) in RY. rewrite <- (N2Z.inj_pow 2) in RX, RY.
  pose proof (pow2_half x Hne) as HPH.
  destruct se as [|sgn d]; [discriminate|]. injection HLs as HLd.
  assert (bits_to_Z_signed (sgn :: d) = (bits_to_Z_signed x - bits_to_Z_signed y)%Z) as HS.
  { apply signed_of_mod; [discriminate| |];
      rewrite lenN_cons, (lenN_length _ _ HLd), ?pow2_succ, ?N.add_sub_swap, ?N.add_0_l by lia.
    - replace (1 + lenN x - 1) with (lenN x) by lia. lia.
    - rewrite HV, !bits_to_N_cons, lenN_cons, pow2_succ, <- (lenN_length _ _ Hl), HSX, HSY.
      rewrite <- (Z_mod_plus_full _ (Z.b2z (hd false y) - Z.b2z (hd false x))). f_equal.
      destruct (hd false x), (hd false y); cbn [N.b2n Z.b2z]; lia. }
  destruct d as [|s0 dr]; [destruct x; [congruence|discriminate]|]. cbn [hd tl].
  split; [exact HLd|]. cbn [length] in HLd.
  unfold bits_to_Z_signed in HS |- *. rewrite !bits_to_N_cons in *.
  assert (lenN dr = lenN x - 1) as Er by (unfold lenN; lia).
  assert (lenN (s0 :: dr) = lenN x) as Ed by (apply lenN_length; exact HLd).
  rewrite Ed, lenN_cons, Er in *. pose proof (bits_to_N_lt dr) as Hd. rewrite Er in Hd.
  remember (2 ^ (lenN x - 1)) as H eqn:EH. remember (bits_to_N dr) as Dr eqn:ED.
  rewrite HPH in *. cbv zeta. rewrite <- HS.
  split; [apply (Z.mod_unique_pos _ _ (- Z.of_N (N.b2n sgn))); destruct sgn, s0; cbn [N.b2n]; lia|].
  destruct sgn, s0; cbn [N.b2n xorb]; (split; [split; [intro; try discriminate|intro; try reflexivity]|intro; try discriminate]); lia.
Qed.

(* ------------------------------------------------------------------ comparison: push_gt_circuit *)

Ltac cmp_cases :=
  repeat match goal with
         | |- context [N.ltb ?a ?b] => destruct (N.ltb_spec a b)
         | |- context [N.eqb ?a ?b] => destruct (N.eqb_spec a b)
         | |- context [Z.ltb ?a ?b] => destruct (Z.ltb_spec a b)
         end.

(* [xys] least significant pair first *)
Lemma gt_loop_s_spec xys : forall c,
  gt_loop_s xys c =
  (lsb_to_N (map snd xys) <? lsb_to_N (map fst xys))
  || ((lsb_to_N (map fst xys) =? lsb_to_N (map snd xys)) && c).
Proof.
  induction xys as [|[x y] r IH]; intro c.
  - cbn. reflexivity.
  - cbn [gt_loop_s map fst snd lsb_to_N]. rewrite IH.
    remember (lsb_to_N (map fst r)) as X eqn:EX. remember (lsb_to_N (map snd r)) as Y eqn:EY.
    clear. destruct x, y, c; cbn [xorb andb negb orb N.b2n]; cmp_cases; cbn [orb andb]; try reflexivity; lia.
Qed.

Theorem gt_correct bits x y : (bits <= length x)%nat -> (bits <= length y)%nat ->
  gt_s bits x y = (bits_to_N (firstn bits y) <? bits_to_N (firstn bits x)).
Proof.
  intros Hx Hy. unfold gt_s. rewrite gt_loop_s_spec.
  assert (length (firstn bits x) = length (firstn bits y)) as Hl
    by (rewrite !firstn_length_le by assumption; reflexivity).
  rewrite !map_rev, map_fst_combine, map_snd_combine, !lsb_to_N_rev by exact Hl.
  rewrite andb_false_r, orb_false_r. reflexivity.
Qed.

(* ------------------------------------------------------------------ comparison: push_comparator_circuit *)

(* after the first (sign) position; [xys] most significant pair first *)
Lemma cmp_loop_s_spec sg xys : forall ag al, ag && al = false ->
  cmp_loop_s false sg xys ag al =
  if ag then (false, true) else if al then (true, false) else
  (bits_to_N (map fst xys) <? bits_to_N (map snd xys),
   bits_to_N (map snd xys) <? bits_to_N (map fst xys)).
Proof.
  induction xys as [|[x y] r IH]; intros ag al Hna.
  - destruct ag, al; try discriminate; reflexivity.
  - cbn [cmp_loop_s andb map fst snd]. rewrite IH.
    + rewrite !bits_to_N_cons.
      assert (lenN (map fst r) = lenN (map snd r)) as El
        by (unfold lenN; rewrite !map_length; reflexivity).
      rewrite El.
      pose proof (bits_to_N_lt (map fst r)) as Hx. rewrite El in Hx.
      pose proof (bits_to_N_lt (map snd r)) as Hy.
      remember (bits_to_N (map fst r)) as X eqn:EX. remember (bits_to_N (map snd r)) as Y eqn:EY.
      remember (2 ^ lenN (map snd r)) as P eqn:EP. clear - Hx Hy Hna.
      destruct ag, al, x, y; try discriminate; cbn [xorb andb negb orb N.b2n];
        rewrite ?N.mul_1_l, ?N.mul_0_l, ?N.add_0_l; try reflexivity;
        cmp_cases; try reflexivity; lia.
    + destruct ag, al, x, y; try discriminate; reflexivity.
Qed.

Lemma cmp_loop_s_first_unsigned xys ag al :
  cmp_loop_s true false xys ag al = cmp_loop_s false false xys ag al.
Proof. destruct xys as [|[x y] r]; reflexivity. Qed.

Lemma firstn_same_length {A} bits (x y : list A) :
  (bits <= length x)%nat -> (bits <= length y)%nat ->
  length (firstn bits x) = length (firstn bits y).
Proof. intros. rewrite !firstn_length_le by assumption. reflexivity. Qed.

(* returns (lt, gt) *)
Theorem cmp_correct_unsigned bits x y : (bits <= length x)%nat -> (bits <= length y)%nat ->
  cmp_s bits x false y false =
  (bits_to_N (firstn bits x) <? bits_to_N (firstn bits y),
   bits_to_N (firstn bits y) <? bits_to_N (firstn bits x)).
Proof.
  intros Hx Hy. unfold cmp_s. cbn [orb]. rewrite cmp_loop_s_first_unsigned.
  rewrite cmp_loop_s_spec by reflexivity. cbn iota.
  pose proof (firstn_same_length bits x y Hx Hy) as Hl.
  rewrite map_fst_combine, map_snd_combine by exact Hl. reflexivity.
Qed.

Theorem cmp_correct_signed bits x sx y sy :
  (bits <= length x)%nat -> (bits <= length y)%nat -> sx || sy = true ->
  cmp_s bits x sx y sy =
  ((bits_to_Z_signed (firstn bits x) <? bits_to_Z_signed (firstn bits y))%Z,
   (bits_to_Z_signed (firstn bits y) <? bits_to_Z_signed (firstn bits x))%Z).
Proof.
  intros Hx Hy Hs. unfold cmp_s. rewrite Hs.
  pose proof (firstn_same_length bits x y Hx Hy) as Hl.
  destruct (firstn bits x) as [|x0 xr]; destruct (firstn bits y) as [|y0 yr]; try discriminate.
  - reflexivity.
  - injection Hl as Hl. cbn [combine cmp_loop_s andb orb]. rewrite cmp_loop_s_spec.
    + rewrite map_fst_combine, map_snd_combine by exact Hl.
      unfold bits_to_Z_signed. rewrite (lenN_length _ _ Hl).
      pose proof (bits_to_N_lt xr) as Hxr. rewrite (lenN_length _ _ Hl) in Hxr.
      pose proof (bits_to_N_lt yr) as Hyr.
      remember (bits_to_N xr) as X eqn:EX. remember (bits_to_N yr) as Y eqn:EY.
      remember (2 ^ lenN yr) as P eqn:EP. clear - Hxr Hyr.
      destruct x0, y0; cbn [xorb andb negb orb N.b2n];
        rewrite ?N.mul_1_l, ?N.mul_0_l; cmp_cases; try reflexivity; lia.
    + destruct x0, y0; reflexivity.
Qed.

(* ------------------------------------------------------------------ equality, mux, conditional swap *)

Theorem eq_correct x y : eq_s x y = true <-> x = y.
Proof.
  unfold eq_s. destruct (Nat.eqb_spec (length x) (length y)) as [Hl|Hl]; cbn [negb].
  2: { split; [discriminate|]. intros ->. congruence. }
  enough (forall acc,
    (fix go (acc : bool) (xys : list (bool * bool)) {struct xys} : bool :=
       match xys with
       | [] => acc
       | (x0, y0) :: r => go (acc && negb (xorb x0 y0)) r
       end) acc (combine x y) = true <-> acc = true /\ x = y) as Hgo.
  { rewrite Hgo. split; [intros [_ E]; exact E | intro E; split; [reflexivity | exact E]]. }
  revert y Hl. induction x as [|a x IH]; intros [|c y] Hl acc; try discriminate.
  - cbn. split; [intro E; split; [exact E | reflexivity] | intros [E _]; exact E].
  - injection Hl as Hl. cbn [combine]. rewrite (IH y Hl).
    destruct acc, a, c; cbn [xorb negb andb]; split; intros [E1 E2]; try discriminate;
      split; try reflexivity; try congruence.
Qed.

Corollary eq_correct_N x y : length x = length y ->
  eq_s x y = (bits_to_N x =? bits_to_N y).
Proof.
  intro Hl. destruct (N.eqb_spec (bits_to_N x) (bits_to_N y)) as [E|E].
  - apply eq_correct. apply bits_to_N_inj; assumption.
  - destruct (eq_s x y) eqn:Eq; [|reflexivity]. apply eq_correct in Eq. congruence.
Qed.

Lemma eq_s_length_mismatch x y : length x <> length y -> eq_s x y = false.
Proof. intro Hl. unfold eq_s. destruct (Nat.eqb_spec (length x) (length y)); [contradiction|reflexivity]. Qed.

Theorem mux_correct s x0 x1 : mux_s s x0 x1 = if s then x0 else x1.
Proof. reflexivity. Qed.

Theorem mux_all_correct s xs ys : length xs = length ys ->
  mux_all_s s xs ys = if s then xs else ys.
Proof.
  revert ys. induction xs as [|x xs IH]; intros [|y ys] Hl; try discriminate.
  - destruct s; reflexivity.
  - injection Hl as Hl. cbn [mux_all_s]. rewrite (IH ys Hl). destruct s; reflexivity.
Qed.

Theorem condswap_correct s x y : condswap_s s x y = if s then (y, x) else (x, y).
Proof. destruct s, x, y; reflexivity. Qed.

(* ------------------------------------------------------------------ restoring division (unsigned) *)

Lemma or_all_s_spec ys : forall acc, or_all_s acc ys = acc || negb (bits_to_N ys =? 0).
Proof.
  induction ys as [|y r IH]; intro acc.
  - cbn. now rewrite orb_false_r.
  - cbn [or_all_s]. rewrite IH, bits_to_N_cons.
    pose proof (pow2_pos (lenN r)) as Hp.
    destruct y; cbn [N.b2n]; rewrite ?N.mul_1_l, ?N.mul_0_l, ?N.add_0_l.
    + destruct (N.eqb_spec (2 ^ lenN r + bits_to_N r) 0); [lia|].
      destruct acc, (bits_to_N r =? 0); reflexivity.
    + now rewrite orb_false_r.
Qed.

Lemma mux_all_s_length s xs ys : length xs = length ys -> length (mux_all_s s xs ys) = length xs.
Proof. intro Hl. rewrite mux_all_correct by exact Hl. destruct s; congruence. Qed.

(* one step: subtract y * 2^sa from the remainder if it fits; the quotient bit says whether it did *)
Lemma udiv_step_s_spec y sa rem :
  (sa <= length y)%nat -> length rem = length y ->
  let Y := bits_to_N y in let R := bits_to_N rem in let D := Y * 2 ^ N.of_nat sa in
  length (fst (udiv_step_s y sa rem)) = length y /\
  bits_to_N (fst (udiv_step_s y sa rem)) = (if D <=? R then R - D else R) /\
  snd (udiv_step_s y sa rem) = (D <=? R).
Proof.
  intros Hsa Hl. cbv zeta. unfold udiv_step_s.
  assert (length (skipn sa y ++ repeat false sa) = length y) as Hlsh
    by (rewrite app_length, skipn_length, repeat_length; lia).
  assert (length rem = length (skipn sa y ++ repeat false sa)) as Hl2 by congruence.
  pose proof (sub_correct_unsigned rem _ Hl2) as Hs.
  destruct (subtraction_s rem (skipn sa y ++ repeat false sa) false) as [d carry].
  destruct Hs as (HLd & HVd & Hc). cbn [fst snd].
  rewrite mux_all_correct by congruence. rewrite or_all_s_spec. cbn [orb].
  rewrite bits_to_N_app, bits_to_N_repeat_false, lenN_repeat, N.add_0_r in HVd, Hc.
  assert (bits_to_N y = bits_to_N (firstn sa y) * 2 ^ lenN (skipn sa y) + bits_to_N (skipn sa y)) as HY
    by (rewrite <- bits_to_N_app, firstn_skipn; reflexivity).
  assert (2 ^ lenN (skipn sa y) * 2 ^ N.of_nat sa = 2 ^ lenN rem) as HP.
  { rewrite <- N.pow_add_r. f_equal. unfold lenN. rewrite skipn_length. lia. }
  pose proof (bits_to_N_lt (skipn sa y)) as HB. pose proof (bits_to_N_lt rem) as HR.
  pose proof (pow2_pos (lenN (skipn sa y))) as Hp1. pose proof (pow2_pos (N.of_nat sa)) as Hp2.
  rewrite HY.
  remember (bits_to_N (firstn sa y)) as A eqn:EA. remember (bits_to_N (skipn sa y)) as Bv eqn:EB.
  remember (2 ^ lenN (skipn sa y)) as Q1 eqn:EQ1. remember (2 ^ N.of_nat sa) as Q2 eqn:EQ2.
  remember (2 ^ lenN rem) as P eqn:EP. remember (bits_to_N rem) as R eqn:ER.
  assert ((A * Q1 + Bv) * Q2 = A * P + Bv * Q2) as HD by (rewrite <- HP; ring).
  rewrite HD. assert (Bv * Q2 < P) as Hsh by (rewrite <- HP; nia).
  rewrite mod_cases in HVd by lia.
  split; [destruct (carry || negb (A =? 0)); congruence|].
  destruct (N.eqb_spec A 0) as [EA0|EA0]; cbn [negb].
  - rewrite EA0, !N.mul_0_l, !N.add_0_l. rewrite orb_false_r. unfold mux_s.
    subst carry. destruct (N.ltb_spec R (Bv * Q2)); destruct (N.leb_spec (Bv * Q2) R); try lia;
      cbn [negb]; split; try reflexivity.
    destruct (N.ltb_spec (R + P - Bv * Q2) P); lia.
  - rewrite orb_true_r. unfold mux_s. assert (P <= A * P) by nia.
    destruct (N.leb_spec (A * P + Bv * Q2) R); [lia|]. split; [lia | reflexivity].
Qed.

Lemma rev_seq_S k : rev (seq 0 (S k)) = k :: rev (seq 0 k).
Proof. rewrite seq_S, rev_app_distr. reflexivity. Qed.

Lemma udiv_loop_s_spec y : forall k rem qr,
  (k <= length y)%nat -> length rem = length y ->
  exists qs,
    fst (udiv_loop_s y (rev (seq 0 k)) rem qr) = rev qr ++ qs /\ length qs = k /\
    length (snd (udiv_loop_s y (rev (seq 0 k)) rem qr)) = length y /\
    let Y := bits_to_N y in let R' := bits_to_N (snd (udiv_loop_s y (rev (seq 0 k)) rem qr)) in
    bits_to_N rem = bits_to_N qs * Y + R' /\
    (bits_to_N rem < Y * 2 ^ N.of_nat k -> R' < Y) /\
    (Y = 0 -> bits_to_N qs + 1 = 2 ^ N.of_nat k).
Proof.
  induction k as [|k IH]; intros rem qr Hk Hl.
  - cbn [seq rev udiv_loop_s fst snd]. exists []. rewrite app_nil_r. cbn [bits_to_N length].
    repeat split; try assumption; try lia.
  - rewrite rev_seq_S. cbn [udiv_loop_s].
    destruct (udiv_step_s_spec y k rem) as (HL1 & HV1 & HQ1); [lia|exact Hl|].
    destruct (udiv_step_s y k rem) as [rem1 q]. cbn [fst snd] in HL1, HV1, HQ1.
    destruct (IH rem1 (q :: qr)) as (qs & Hq & HLq & HLr & HE & HB & HZ); [lia|exact HL1|].
    exists (q :: qs). cbn [rev] in Hq. rewrite <- app_assoc in Hq. cbn [app] in Hq.
    split; [exact Hq|]. split; [cbn [length]; lia|]. split; [exact HLr|].
    cbv zeta in *. rewrite bits_to_N_cons. rewrite (lenN_length qs (repeat false k)) by (rewrite repeat_length; exact HLq).
    rewrite lenN_repeat.
    replace (N.of_nat (S k)) with (1 + N.of_nat k) by lia. rewrite pow2_succ.
    remember (bits_to_N (snd (udiv_loop_s y (rev (seq 0 k)) rem1 (q :: qr)))) as R' eqn:ER'.
    remember (2 ^ N.of_nat k) as Pk eqn:EPk. remember (bits_to_N y) as Y eqn:EY.
    remember (bits_to_N rem) as R eqn:ER. remember (bits_to_N rem1) as R1 eqn:ER1.
    remember (bits_to_N qs) as Q eqn:EQ.
    pose proof (pow2_pos (N.of_nat k)) as Hp. rewrite <- EPk in Hp.
    subst q. destruct (N.leb_spec (Y * Pk) R) as [Hge|Hlt]; cbn [N.b2n].
    + split; [nia|]. split; [intro; apply HB; nia|]. intro HY0. specialize (HZ HY0). nia.
    + split; [nia|]. split; [intro; apply HB; nia|]. intro HY0. subst Y. lia.
Qed.

Theorem udiv_correct x y : length x = length y ->
  let '(q, r) := udiv_s x y in
  let X := bits_to_N x in let Y := bits_to_N y in
  length q = length x /\ length r = length x /\
  X = bits_to_N q * Y + bits_to_N r /\
  (0 < Y -> bits_to_N r < Y) /\
  (Y = 0 -> bits_to_N q = 2 ^ lenN x - 1 /\ bits_to_N r = X).
Proof.
  intro Hl. unfold udiv_s.
  destruct (udiv_loop_s_spec y (length x) x []) as (qs & Hq & HLq & HLr & HE & HB & HZ); [lia|exact Hl|].
  destruct (udiv_loop_s y (rev (seq 0 (length x))) x []) as [q r]. cbn [fst snd rev app] in *. subst qs.
  cbv zeta in *. split; [exact HLq|]. split; [congruence|]. split; [exact HE|].
  pose proof (bits_to_N_lt x) as Hx. fold (lenN x) in HB, HZ.
  pose proof (pow2_pos (lenN x)) as Hp.
  split.
  - intro HY. apply HB. nia.
  - intro HY0. specialize (HZ HY0). rewrite HY0 in HE. split; lia.
Qed.

(* for a non-zero divisor the gadget is Euclidean division *)
Corollary udiv_correct_divmod x y : length x = length y -> 0 < bits_to_N y ->
  bits_to_N (fst (udiv_s x y)) = bits_to_N x / bits_to_N y /\
  bits_to_N (snd (udiv_s x y)) = bits_to_N x mod bits_to_N y.
Proof.
  intros Hl HY. pose proof (udiv_correct x y Hl) as H.
  destruct (udiv_s x y) as [q r]. cbv zeta in H. destruct H as (_ & _ & HE & HB & _). cbn [fst snd].
  specialize (HB HY). split.
  - apply (N.div_unique _ _ _ (bits_to_N r)); lia.
  - apply (N.mod_unique _ _ (bits_to_N q)); lia.
Qed.

(* ------------------------------------------------------------------ signed division through absolute values *)

Lemma hd_mux_all_abs x : x <> [] ->
  let xa := mux_all_s (hd false x) (negation_s x) x in
  length xa = length x /\
  bits_to_N xa = (if hd false x then 2 ^ lenN x - bits_to_N x else bits_to_N x) /\
  Z.of_N (bits_to_N xa) = Z.abs (bits_to_Z_signed x).
Proof.
  intro Hne. cbv zeta. destruct (neg_correct x) as [HLn HVn].
  rewrite mux_all_correct by exact HLn.
  destruct (signed_facts x Hne) as (HX & HP & H1 & H0 & HS). rewrite HS.
  destruct (hd false x).
  - specialize (H1 eq_refl). split; [exact HLn|]. rewrite HVn, N.mod_small by lia. split; lia.
  - specialize (H0 eq_refl). split; [reflexivity|]. split; lia.
Qed.

Lemma quot_rem_signs (A Bq : Z) (sa sb : bool) : (0 <= A)%Z -> (0 < Bq)%Z ->
  let SX := if sa then (- A)%Z else A in
  let SY := if sb then (- Bq)%Z else Bq in
  Z.quot SX SY = (if xorb sa sb then - (A / Bq) else A / Bq)%Z /\
  Z.rem SX SY = (if sa then - (A mod Bq) else A mod Bq)%Z.
Proof.
  intros HA HB. cbv zeta.
  destruct sa, sb; cbn [xorb];
    rewrite ?Z.quot_opp_opp, ?Z.quot_opp_l, ?Z.quot_opp_r, ?Z.rem_opp_opp, ?Z.rem_opp_l, ?Z.rem_opp_r by lia;
    rewrite Z.quot_div_nonneg, Z.rem_mod_nonneg by lia; split; reflexivity.
Qed.

Theorem sdiv_correct x y : x <> [] -> length x = length y ->
  let '(q, r) := sdiv_s x y in
  let SX := bits_to_Z_signed x in let SY := bits_to_Z_signed y in
  let P := Z.of_N (2 ^ lenN x) in
  length q = length x /\ length r = length x /\
  (SY <> 0%Z ->
     Z.of_N (bits_to_N q) = (Z.quot SX SY mod P)%Z /\
     Z.of_N (bits_to_N r) = (Z.rem SX SY mod P)%Z) /\
  (SY = 0%Z ->
     bits_to_N q = (if (SX <? 0)%Z then 1 else 2 ^ lenN x - 1) /\
     bits_to_N r = bits_to_N x).
Proof.
  intros Hnx Hl. assert (y <> []) as Hny by (destruct x, y; try discriminate; congruence).
  unfold sdiv_s.
  destruct (hd_mux_all_abs x Hnx) as (HLxa & HVxa & HZxa).
  destruct (hd_mux_all_abs y Hny) as (HLya & HVya & HZya). cbv zeta in *.
  destruct (signed_facts x Hnx) as (HX & HP & Hx1 & Hx0 & HSX).
  destruct (signed_facts y Hny) as (HY & _ & Hy1 & Hy0 & HSY). cbv zeta in *.
  rewrite <- (lenN_length _ _ Hl) in HY, Hy1, Hy0, HSY, HVya.
  remember (mux_all_s (hd false x) (negation_s x) x) as xa eqn:Exa.
  remember (mux_all_s (hd false y) (negation_s y) y) as ya eqn:Eya.
  assert (length xa = length ya) as Hla by congruence.
  pose proof (udiv_correct xa ya Hla) as Hu.
  pose proof (udiv_correct_divmod xa ya Hla) as Hdm.
  destruct (udiv_s xa ya) as [q r]. cbv zeta in Hu. cbn [fst snd] in Hdm.
  destruct Hu as (HLq & HLr & HE & HB & HZ).
  destruct (neg_correct q) as [HLnq HVnq]. destruct (neg_correct r) as [HLnr HVnr].
  rewrite !mux_all_correct by assumption.
  assert (lenN q = lenN x) as Eq by (apply lenN_length; congruence).
  assert (lenN r = lenN x) as Er by (apply lenN_length; congruence).
  rewrite Eq in HVnq. rewrite Er in HVnr.
  pose proof (bits_to_N_lt q) as HQ. rewrite Eq in HQ.
  pose proof (bits_to_N_lt r) as HR. rewrite Er in HR.
  rewrite (lenN_length _ _ HLxa) in HZ.
  split; [destruct (xorb (hd false x) (hd false y)); congruence|].
  split; [destruct (hd false x); congruence|].
  remember (2 ^ lenN x) as P eqn:EP. remember (bits_to_N x) as X eqn:EX.
  remember (bits_to_N y) as Y eqn:EY. remember (bits_to_N xa) as A eqn:EA.
  remember (bits_to_N ya) as Bv eqn:EB. remember (bits_to_N q) as Q eqn:EQ.
  remember (bits_to_N r) as R eqn:ER.
  split.
  - intro HSY0.
    assert (0 < Bv) as HBpos by lia.
    destruct (Hdm HBpos) as [HQd HRd].
    destruct (quot_rem_signs (Z.of_N A) (Z.of_N Bv) (hd false x) (hd false y)) as [Hquot Hrem]; [lia|lia|].
    cbv zeta in Hquot, Hrem.
    assert (bits_to_Z_signed x = if hd false x then (- Z.of_N A)%Z else Z.of_N A) as HSXA
      by (destruct (hd false x); [specialize (Hx1 eq_refl)|specialize (Hx0 eq_refl)]; lia).
    assert (bits_to_Z_signed y = if hd false y then (- Z.of_N Bv)%Z else Z.of_N Bv) as HSYB
      by (destruct (hd false y); [specialize (Hy1 eq_refl)|specialize (Hy0 eq_refl)]; lia).
    rewrite HSXA, HSYB, Hquot, Hrem.
    rewrite <- N2Z.inj_div, <- N2Z.inj_mod, <- HQd, <- HRd.
    split.
    + destruct (xorb (hd false x) (hd false y)).
      * rewrite HVnq. apply neg_mod_Z; lia.
      * rewrite <- EQ. symmetry. apply Z.mod_small. lia.
    + destruct (hd false x).
      * rewrite HVnr. apply neg_mod_Z; lia.
      * rewrite <- ER. symmetry. apply Z.mod_small. lia.
  - intro HSY0.
    assert (Bv = 0) as HB0 by lia. destruct (HZ HB0) as [HQ0 HR0].
    assert (hd false y = false) as Hy by (destruct (hd false y); [specialize (Hy1 eq_refl); lia | reflexivity]).
    rewrite Hy, xorb_false_r.
    destruct (hd false x).
    + specialize (Hx1 eq_refl). rewrite HVnq, HVnr.
      destruct (Z.ltb_spec (bits_to_Z_signed x) 0); [|lia].
      split.
      * rewrite HQ0. replace (P - (P - 1)) with 1 by lia. apply N.mod_small. lia.
      * rewrite HR0, HVxa. replace (P - (P - X)) with X by lia. apply N.mod_small. lia.
    + specialize (Hx0 eq_refl). destruct (Z.ltb_spec (bits_to_Z_signed x) 0); [lia|].
      rewrite <- EQ, <- ER. split; lia.
Qed.

(* range of the truncating quotient: only MIN / -1 leaves [-H, H) *)
Lemma quot_in_range (SX SY H : Z) : (0 < H)%Z -> (- H <= SX < H)%Z -> (- H <= SY < H)%Z ->
  SY <> 0%Z -> ~ (SX = (- H)%Z /\ SY = (-1)%Z) ->
  (- H <= Z.quot SX SY < H)%Z /\ (- H <= Z.rem SX SY < H)%Z.
Proof.
  intros HH RX RY HSY Hnot. split.
  - pose proof (Z.quot_abs SX SY HSY) as Habs.
    rewrite Z.quot_div_nonneg in Habs by lia.
    assert (Z.abs SX / Z.abs SY <= Z.abs SX)%Z as Hle
      by (apply Z.div_le_upper_bound; [lia|nia]).
    destruct (Z.eq_dec (Z.abs SY) 1) as [E1|E1].
    + rewrite E1, Z.div_1_r in Habs.
      destruct (Z.eq_dec SY 1) as [->|Hn1].
      * rewrite Z.quot_1_r. lia.
      * assert (SY = (-1)%Z) as -> by lia. assert (SX <> (- H)%Z) by tauto. lia.
    + destruct (Z.eq_dec SX 0) as [->|Hx0].
      * rewrite Z.quot_0_l by lia. lia.
      * assert (Z.abs SX / Z.abs SY < Z.abs SX)%Z by (apply Z.div_lt; lia). lia.
  - pose proof (Z.rem_bound_abs SX SY HSY). lia.
Qed.

(* away from MIN / -1 the signed readings are Rust's truncating quotient and remainder *)
Corollary sdiv_correct_signed x y : x <> [] -> length x = length y ->
  let SX := bits_to_Z_signed x in let SY := bits_to_Z_signed y in
  let MIN := (- Z.of_N (2 ^ (lenN x - 1)))%Z in
  SY <> 0%Z -> ~ (SX = MIN /\ SY = (-1)%Z) ->
  bits_to_Z_signed (fst (sdiv_s x y)) = Z.quot SX SY /\
  bits_to_Z_signed (snd (sdiv_s x y)) = Z.rem SX SY.
Proof.
  intros Hnx Hl. cbv zeta. intros HSY Hnot.
  pose proof (sdiv_correct x y Hnx Hl) as H. destruct (sdiv_s x y) as [q r]. cbv zeta in H.
  destruct H as (HLq & HLr & Hnz & _). destruct (Hnz HSY) as [Hq Hr]. cbn [fst snd].
  assert (y <> []) as Hny by (destruct x, y; try discriminate; congruence).
  pose proof (bits_to_Z_signed_range x Hnx) as RX. pose proof (bits_to_Z_signed_range y Hny) as RY.
  rewrite <- (lenN_length _ _ Hl) in RY. rewrite <- (N2Z.inj_pow 2) in RX, RY.
  assert (q <> []) as Hnq by (destruct q, x; try discriminate; congruence).
  assert (r <> []) as Hnr by (destruct r, x; try discriminate; congruence).
  rewrite <- (lenN_length _ _ HLq) in Hq. rewrite <- (lenN_length _ _ HLr) in Hr.
  assert (0 < Z.of_N (2 ^ (lenN x - 1)))%Z as HH by (pose proof (pow2_pos (lenN x - 1)); lia).
  destruct (quot_in_range _ _ _ HH RX RY HSY Hnot) as [Rq Rr].
  split.
  - apply signed_of_mod; [exact Hnq| |exact Hq]. rewrite (lenN_length _ _ HLq). exact Rq.
  - apply signed_of_mod; [exact Hnr| |exact Hr]. rewrite (lenN_length _ _ HLr). exact Rr.
Qed.

(* MIN / -1: the exact quotient 2^(n-1) is not representable; the gadget returns MIN (and
   remainder 0) without any overflow signal of its own -- compile.rs must add the panic *)
Corollary sdiv_min_minus_one x y : x <> [] -> length x = length y ->
  bits_to_Z_signed x = (- Z.of_N (2 ^ (lenN x - 1)))%Z -> bits_to_Z_signed y = (-1)%Z ->
  bits_to_Z_signed (fst (sdiv_s x y)) = (- Z.of_N (2 ^ (lenN x - 1)))%Z /\
  bits_to_N (snd (sdiv_s x y)) = 0.
Proof.
  intros Hnx Hl HSX HSY.
  pose proof (sdiv_correct x y Hnx Hl) as H. destruct (sdiv_s x y) as [q r]. cbv zeta in H.
  destruct H as (HLq & HLr & Hnz & _). rewrite HSX, HSY in Hnz.
  destruct Hnz as [Hq Hr]; [lia|]. cbn [fst snd].
  change (-1)%Z with (- (1))%Z in Hq, Hr.
  rewrite Z.quot_opp_opp, Z.quot_1_r in Hq by lia. rewrite Z.rem_opp_opp, Z.rem_1_r in Hr by lia.
  pose proof (pow2_half x Hnx) as HPH.
  pose proof (pow2_pos (lenN x - 1)) as Hp.
  rewrite Z.mod_small in Hq by lia. rewrite Z.mod_0_l in Hr by lia.
  assert (q <> []) as Hnq by (destruct q, x; try discriminate; congruence).
  destruct (signed_facts q Hnq) as (HX & HP & H1 & H0 & HS). cbv zeta in *.
  rewrite (lenN_length _ _ HLq) in *.
  split; [|lia]. rewrite HS.
  destruct (hd false q); [lia|]. specialize (H0 eq_refl). lia.
Qed.

(* ------------------------------------------------------------------ signed addition: overflow = carry xor carry_prev
   (how compile.rs derives the Overflow panic of a signed [+] from push_addition_circuit) *)
Theorem add_signed_overflow x y : x <> [] -> length x = length y ->
  let '(sum, c, cp) := addition_s x y in
  let D := (bits_to_Z_signed x + bits_to_Z_signed y)%Z in
  let H := Z.of_N (2 ^ (lenN x - 1)) in
  Z.of_N (bits_to_N sum) = (D mod Z.of_N (2 ^ lenN x))%Z /\
  (xorb c cp = true <-> ~ (- H <= D < H)%Z) /\
  (xorb c cp = false -> bits_to_Z_signed sum = D).
Proof.
  intros Hnx Hl. pose proof (adder_correct x y Hl) as Ha.
  destruct (addition_s x y) as [[sum c] cp]. destruct Ha as (HLs & HVs & HC & HCP).
  assert (sum <> []) as Hns by (destruct sum, x; try discriminate; congruence).
  cbv zeta. enough (Z.of_N (bits_to_N sum)
                    = ((bits_to_Z_signed x + bits_to_Z_signed y) mod Z.of_N (2 ^ lenN x))%Z /\
                    (xorb c cp = true <->
                     ~ (- Z.of_N (2 ^ (lenN x - 1)) <= bits_to_Z_signed x + bits_to_Z_signed y
                        < Z.of_N (2 ^ (lenN x - 1)))%Z)) as [Hm Hov].
  { split; [exact Hm|]. split; [exact Hov|].
    exact (checked_signed sum _ _ _ Hns (lenN_length _ _ HLs) Hm Hov). }
  destruct x as [|x0 xr]; [congruence|]. destruct y as [|y0 yr]; [discriminate|].
  injection Hl as Hl. cbn [tl] in HCP.
  unfold bits_to_Z_signed. rewrite !bits_to_N_cons, lenN_cons, pow2_succ in *.
  replace (1 + lenN xr - 1) with (lenN xr) by lia.
  rewrite <- (lenN_length _ _ Hl) in *. pose proof (pow2_pos (lenN xr)) as Hp.
  (* X + Y = 2H c + S and Xr + Yr = H cp + T, where the sign bits weigh A, B = 0 or H *)
  pose proof (N.div_mod (N.b2n x0 * 2 ^ lenN xr + bits_to_N xr + (N.b2n y0 * 2 ^ lenN xr + bits_to_N yr))
                (2 * 2 ^ lenN xr) ltac:(lia)) as D1.
  pose proof (N.mod_upper_bound (N.b2n x0 * 2 ^ lenN xr + bits_to_N xr + (N.b2n y0 * 2 ^ lenN xr + bits_to_N yr))
                (2 * 2 ^ lenN xr) ltac:(lia)) as B1.
  pose proof (N.div_mod (bits_to_N xr + bits_to_N yr) (2 ^ lenN xr) ltac:(lia)) as D2.
  pose proof (N.mod_upper_bound (bits_to_N xr + bits_to_N yr) (2 ^ lenN xr) ltac:(lia)) as B2.
  rewrite <- HVs, <- HC in D1. rewrite <- HVs in B1. rewrite <- HCP in D2.
  remember (2 ^ lenN xr) as H eqn:EH. remember (bits_to_N xr) as Xr eqn:EX.
  remember (bits_to_N yr) as Yr eqn:EY. remember (bits_to_N sum) as S eqn:ES.
  remember ((Xr + Yr) mod H) as T eqn:ET. clear HVs HC HCP ET.
  split.
  - apply (Z.mod_unique_pos _ _ (Z.of_N (N.b2n c) - Z.of_N (N.b2n x0) - Z.of_N (N.b2n y0))); lia.
  - pose proof (b2n_mul_cases x0 H) as HA. pose proof (b2n_mul_cases y0 H) as HB.
    destruct c, cp; cbn [N.b2n xorb] in *;
      (split; [intro Hx1; try discriminate Hx1 | intro Hx1; try reflexivity; exfalso]); lia.
Qed.

(* ------------------------------------------------------------------ the overflow signals compile.rs derives from the gadgets
   (the repairs of DESIGN.md §6-4: unary minus and signed division raise Overflow exactly
   at MIN resp. MIN / -1) *)

(* -x: sign(x) && sign(-x)  <->  x = MIN;  otherwise the result is the exact negation *)
Theorem neg_overflow_signal (x : list bool) : x <> [] ->
  let SX := bits_to_Z_signed x in let MIN := (- Z.of_N (2 ^ (lenN x - 1)))%Z in
  (hd false x && hd false (negation_s x) = true <-> SX = MIN) /\
  (SX <> MIN -> bits_to_Z_signed (negation_s x) = (- SX)%Z).
Proof.
  intro Hne. cbv zeta. destruct (neg_correct x) as [HL HV].
  assert (negation_s x <> []) as Hnn by (destruct (negation_s x), x; try discriminate; congruence).
  destruct (signed_facts x Hne) as (HX & HP & Hx1 & Hx0 & HSX).
  destruct (signed_facts _ Hnn) as (HN & _ & Hn1 & Hn0 & HSN). cbv zeta in *.
  rewrite (lenN_length _ _ HL) in *. rewrite HSX, HSN.
  pose proof (pow2_half x Hne) as HPH.
  remember (2 ^ lenN x) as P eqn:EP. remember (2 ^ (lenN x - 1)) as H eqn:EH.
  remember (bits_to_N x) as X eqn:EX. remember (bits_to_N (negation_s x)) as NV eqn:EN.
  assert (NV = if X =? 0 then 0 else P - X) as HNV.
  { rewrite HV. destruct (N.eqb_spec X 0) as [->|Hx].
    - rewrite N.sub_0_r, N.mod_same by lia. reflexivity.
    - apply N.mod_small. lia. }
  clear HV. destruct (N.eqb_spec X 0) as [E0|E0];
    destruct (hd false x); destruct (hd false (negation_s x));
    try specialize (Hx1 eq_refl); try specialize (Hx0 eq_refl);
    try specialize (Hn1 eq_refl); try specialize (Hn0 eq_refl);
    cbn [andb]; (split; [split; [intro Hf; try discriminate Hf|intro Hm; try reflexivity; exfalso]|intro Hm]); lia.
Qed.

(* x / y: sign(x) && sign(y) && sign(quotient)  <->  x = MIN and y = -1 *)
Theorem sdiv_overflow_signal x y : x <> [] -> length x = length y ->
  let SX := bits_to_Z_signed x in let SY := bits_to_Z_signed y in
  let MIN := (- Z.of_N (2 ^ (lenN x - 1)))%Z in
  hd false x && hd false y && hd false (fst (sdiv_s x y)) = true <-> (SX = MIN /\ SY = (-1)%Z).
Proof.
  intros Hnx Hl. cbv zeta.
  assert (y <> []) as Hny by (destruct x, y; try discriminate; congruence).
  pose proof (sdiv_correct x y Hnx Hl) as Hc.
  pose proof (sdiv_correct_signed x y Hnx Hl) as Hs.
  pose proof (sdiv_min_minus_one x y Hnx Hl) as Hm.
  destruct (sdiv_s x y) as [q r]. cbv zeta in Hc, Hs. cbn [fst snd] in *.
  destruct Hc as (HLq & _ & _ & _).
  assert (q <> []) as Hnq by (destruct q, x; try discriminate; congruence).
  destruct (signed_facts x Hnx) as (HX & HP & Hx1 & Hx0 & HSX).
  destruct (signed_facts y Hny) as (HY & _ & Hy1 & Hy0 & HSY).
  destruct (signed_facts q Hnq) as (HQ & _ & Hq1 & Hq0 & HSQ). cbv zeta in *.
  rewrite <- (lenN_length _ _ Hl) in *. rewrite (lenN_length _ _ HLq) in *.
  pose proof (pow2_half x Hnx) as HPH. pose proof (pow2_pos (lenN x - 1)) as Hp.
  split.
  - intro Hall. apply andb_prop in Hall. destruct Hall as [Hxy Hq]. apply andb_prop in Hxy.
    destruct Hxy as [Hx Hy]. rewrite Hx, Hy, Hq in *.
    specialize (Hx1 eq_refl). specialize (Hy1 eq_refl). specialize (Hq1 eq_refl).
    destruct (Z.eq_dec (bits_to_Z_signed x) (- Z.of_N (2 ^ (lenN x - 1)))) as [E1|E1];
      destruct (Z.eq_dec (bits_to_Z_signed y) (-1)) as [E2|E2]; try (split; assumption); exfalso.
    all: destruct Hs as [Hsq _]; [lia|tauto|].
    all: assert (0 <= Z.quot (bits_to_Z_signed x) (bits_to_Z_signed y))%Z as Hpos
        by (rewrite <- Z.quot_opp_opp by lia; apply Z.quot_pos; lia).
    all: lia.
  - intros [E1 E2]. destruct (Hm E1 E2) as [Hq _].
    destruct (hd false x); [|specialize (Hx0 eq_refl); lia].
    destruct (hd false y); [|specialize (Hy0 eq_refl); lia].
    destruct (hd false q); [reflexivity|specialize (Hq0 eq_refl); lia].
Qed.
