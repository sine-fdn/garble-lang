(* The MSB-first bit coders that the models declare for themselves (Lang/Literal.v, Lang/Sem.v,
   Sort/Sort.v) are [N_to_bits] / [bits_to_N] of Base/Bits.v: one equation per coder, so that
   the facts of Base/BitsProofs.v serve all of them. *)
From GV Require Import Base.Util Base.Bits Base.BitsProofs.
From GV Require Lang.Literal Lang.Sem Sort.Sort.

Lemma N_to_bits_length n v : length (N_to_bits n v) = n.
Proof. induction n as [|n IH]; [reflexivity|]. cbn [N_to_bits length]. now rewrite IH. Qed.

Lemma lenN_N_to_bits k v : lenN (N_to_bits (N.to_nat k) v) = k.
Proof. unfold lenN. rewrite N_to_bits_length. lia. Qed.

(* position i of the k-bit encoding holds bit k-1-i of the number *)
Lemma N_to_bits_nth k v i :
  (i < k)%nat -> nth_error (N_to_bits k v) i = Some (N.testbit v (N.of_nat (k - 1 - i))).
Proof.
  revert i. induction k as [|k IH]; intros i Hi; [lia|].
  cbn [N_to_bits]. destruct i as [|i]; cbn [nth_error].
  - do 2 f_equal. lia.
  - rewrite IH by lia. do 3 f_equal. lia.
Qed.

Lemma bits_to_N_N_to_bits n v : bits_to_N (N_to_bits n v) = v mod 2 ^ N.of_nat n.
Proof.
  induction n as [|n IH].
  - cbn [N_to_bits bits_to_N]. change (2 ^ N.of_nat 0) with 1. now rewrite N.mod_1_r.
  - cbn [N_to_bits]. rewrite bits_to_N_cons, IH. unfold lenN. rewrite N_to_bits_length.
    replace (N.of_nat (S n)) with (N.of_nat n + 1) by lia.
    rewrite N.pow_add_r, N.pow_1_r.
    pose proof (pow2_pos (N.of_nat n)) as Hp.
    rewrite N.mod_mul_r by lia. rewrite N.testbit_spec'. lia.
Qed.

Lemma testbit_low_mod z k i : (i < k)%nat ->
  N.testbit (Z.to_N (z mod 2 ^ Z.of_nat k)) (N.of_nat i) = Z.testbit z (Z.of_nat i).
Proof.
  intro Hi.
  assert (0 < 2 ^ Z.of_nat k)%Z as Hp by (apply Z.pow_pos_nonneg; lia).
  pose proof (Z.mod_pos_bound z _ Hp) as Hb.
  rewrite <- Z.testbit_of_N. rewrite Z2N.id by lia. rewrite nat_N_Z.
  apply Z.mod_pow2_bits_low. lia.
Qed.

Lemma ubits_of_N_to_bits k n : Literal.ubits_of k n = N_to_bits k n.
Proof. induction k as [|k IH]; cbn [Literal.ubits_of N_to_bits]; congruence. Qed.

Lemma sbits_of_N_to_bits z k : forall n, (n <= k)%nat ->
  Literal.sbits_of n z = N_to_bits n (Z.to_N (z mod 2 ^ Z.of_nat k)).
Proof.
  induction n as [|n IH]; intro Hn; [reflexivity|].
  cbn [N_to_bits Literal.sbits_of]. rewrite testbit_low_mod by lia. f_equal. apply IH. lia.
Qed.

Lemma N_of_bits_acc_bits_to_N l : forall acc,
  Literal.N_of_bits_acc acc l = acc * 2 ^ lenN l + bits_to_N l.
Proof.
  induction l as [|b r IH]; intro acc; cbn [Literal.N_of_bits_acc].
  - rewrite lenN_nil. cbn. lia.
  - rewrite IH, bits_to_N_cons, lenN_cons, pow2_succ. lia.
Qed.

Lemma N_of_bits_bits_to_N l : Literal.N_of_bits l = bits_to_N l.
Proof. unfold Literal.N_of_bits. rewrite N_of_bits_acc_bits_to_N. lia. Qed.

Lemma bits_to_N_sbits_of k z : Z.of_N (bits_to_N (Literal.sbits_of k z)) = (z mod 2 ^ Z.of_nat k)%Z.
Proof.
  assert (0 < 2 ^ Z.of_nat k)%Z as Hp by (apply Z.pow_pos_nonneg; lia).
  pose proof (Z.mod_pos_bound z _ Hp) as Hb.
  rewrite (sbits_of_N_to_bits z k k (le_n k)), bits_to_N_N_to_bits, N.mod_small; [apply Z2N.id; lia|].
  apply N2Z.inj_lt. rewrite Z2N.id, N2Z.inj_pow, nat_N_Z by lia. apply Hb.
Qed.

Lemma bits_of_Z_sbits_of k z : Sem.bits_of_Z k z = Literal.sbits_of k z.
Proof. induction k as [|k IH]; cbn [Sem.bits_of_Z Literal.sbits_of]; congruence. Qed.

Lemma bits_val_bits_to_N l : Sort.bits_val l = bits_to_N l.
Proof.
  induction l as [|b r IH]; cbn [Sort.bits_val]; [reflexivity|].
  rewrite IH, bits_to_N_cons. destruct b; cbn [N.b2n]; lia.
Qed.
