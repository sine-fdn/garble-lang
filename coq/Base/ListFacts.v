From GV Require Import Base.Util.
Open Scope N_scope.

Lemma forallb_Forall {A} (f : A -> bool) xs :
  forallb f xs = true <-> Forall (fun x => f x = true) xs.
Proof.
  rewrite forallb_forall, Forall_forall. reflexivity.
Qed.

Lemma Forall2_length_eq {A B} (R : A -> B -> Prop) xs ys : Forall2 R xs ys -> length xs = length ys.
Proof. induction 1; cbn [length]; congruence. Qed.

Lemma Forall2_nthN {A B} (R : A -> B -> Prop) xs ys i y :
  Forall2 R xs ys -> nthN ys i = Some y -> exists x, nthN xs i = Some x /\ R x y.
Proof.
  rewrite !nthN_spec. intro H. revert i. induction H as [|x0 y0 xr yr H0 H IH]; intros i.
  - destruct (N.to_nat i); discriminate.
  - destruct (N.to_nat i) as [|k] eqn:E; cbn [nth_error].
    + intros [= <-]. eauto.
    + intro Hy. specialize (IH (N.of_nat k)). rewrite Nat2N.id in IH. now apply IH.
Qed.

Lemma Forall2_repeat_r {A B} (R : A -> B -> Prop) xs y :
  Forall2 R xs (repeat y (length xs)) <-> Forall (fun x => R x y) xs.
Proof.
  induction xs as [|x xs IH]; cbn [repeat length]; split; intro H; try constructor;
    inversion H; subst; tauto.
Qed.

Lemma nthN_In {A} (l : list A) i a : nthN l i = Some a -> In a l.
Proof. rewrite nthN_spec. apply nth_error_In. Qed.

Lemma firstn_app_exact {A} (l r : list A) n : length l = n -> firstn n (l ++ r) = l.
Proof. intros <-. rewrite firstn_app, Nat.sub_diag, firstn_all. cbn [firstn]. apply app_nil_r. Qed.
Lemma skipn_app_exact {A} (l r : list A) n : length l = n -> skipn n (l ++ r) = r.
Proof. intros <-. rewrite skipn_app, Nat.sub_diag, skipn_all. reflexivity. Qed.

Lemma map_repeat {A B} (f : A -> B) a n : map f (repeat a n) = repeat (f a) n.
Proof. induction n as [|n IH]; [reflexivity|]. cbn [repeat map]. now rewrite IH. Qed.

Lemma mapM_map {A B C} (f : B -> option C) (g : A -> B) l :
  mapM f (map g l) = mapM (fun x => f (g x)) l.
Proof. induction l as [|a r IH]; cbn [map mapM]; [reflexivity|now rewrite IH]. Qed.

Lemma mapM_res_map {A B} (f : A -> res B) (g : A -> B) l :
  (forall a, In a l -> f a = Ok (g a)) -> mapM_res f l = Ok (map g l).
Proof.
  induction l as [|a r IH]; intro H; cbn [mapM_res map]; [reflexivity|].
  rewrite (H a (or_introl eq_refl)). cbn [bind]. now rewrite IH by (intros; apply H; now right).
Qed.

Lemma fold_max_ge {A} (f : A -> N) l x : In x l -> f x <= fold_right N.max 0 (map f l).
Proof.
  induction l as [|a r IH]; cbn [In map fold_right]; [contradiction|].
  intros [->|H]; [lia|]. specialize (IH H). lia.
Qed.

Lemma idx_in_bounds {A} (vs : list A) z :
  ((0 <=? z) && (z <? Z.of_nat (length vs)))%Z = true ->
  exists v, nth_error vs (Z.to_nat z) = Some v /\ In v vs /\ Z.to_N z < lenN vs.
Proof.
  intro Eb. apply andb_prop in Eb as [E1 E2]. apply Z.leb_le in E1. apply Z.ltb_lt in E2.
  destruct (nth_error vs (Z.to_nat z)) as [v|] eqn:En.
  - exists v. split; [reflexivity|]. split; [eapply nth_error_In; eassumption|unfold lenN; lia].
  - apply nth_error_None in En. lia.
Qed.
