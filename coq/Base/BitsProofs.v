(* Lemmas about the readings of bit vectors (Base/Bits.v). *)
From GV Require Import Base.Util Base.Bits.

Lemma pow2_pos n : 0 < 2 ^ n.
Proof. apply N.neq_0_lt_0. apply N.pow_nonzero. lia. Qed.

Lemma pow2_succ n : 2 ^ (1 + n) = 2 * 2 ^ n.
Proof. rewrite N.pow_add_r, N.pow_1_r. reflexivity. Qed.

Lemma lenN_length {A} (x y : list A) : length x = length y -> lenN x = lenN y.
Proof. unfold lenN. intros ->. reflexivity. Qed.

Lemma lenN_rev {A} (l : list A) : lenN (rev l) = lenN l.
Proof. unfold lenN. now rewrite rev_length. Qed.

Lemma b2n_le1 b : N.b2n b <= 1.
Proof. destruct b; cbn; lia. Qed.

Lemma bits_to_N_cons b r : bits_to_N (b :: r) = N.b2n b * 2 ^ lenN r + bits_to_N r.
Proof. reflexivity. Qed.

Lemma bits_to_N_lt l : bits_to_N l < 2 ^ lenN l.
Proof.
  induction l as [|b r IH].
  - cbn. lia.
  - rewrite bits_to_N_cons, lenN_cons, pow2_succ.
    pose proof (b2n_le1 b). nia.
Qed.

Lemma bits_to_N_app l r : bits_to_N (l ++ r) = bits_to_N l * 2 ^ lenN r + bits_to_N r.
Proof.
  induction l as [|b l IH].
  - cbn [app bits_to_N]. lia.
  - cbn [app]. rewrite !bits_to_N_cons, IH, lenN_app, N.pow_add_r. lia.
Qed.

Lemma bits_to_N_snoc l b : bits_to_N (l ++ [b]) = 2 * bits_to_N l + N.b2n b.
Proof.
  rewrite bits_to_N_app. cbn [bits_to_N]. rewrite lenN_cons, lenN_nil. cbn. lia.
Qed.

Lemma bits_to_N_rev l : bits_to_N (rev l) = lsb_to_N l.
Proof.
  induction l as [|b l IH]; [reflexivity|].
  cbn [rev lsb_to_N]. rewrite bits_to_N_snoc, IH. lia.
Qed.

Lemma lsb_to_N_rev l : lsb_to_N (rev l) = bits_to_N l.
Proof. rewrite <- bits_to_N_rev, rev_involutive. reflexivity. Qed.

Lemma lsb_to_N_lt l : lsb_to_N l < 2 ^ lenN l.
Proof. rewrite <- bits_to_N_rev, <- lenN_rev. apply bits_to_N_lt. Qed.

Lemma bits_to_N_repeat_false n : bits_to_N (repeat false n) = 0.
Proof. induction n as [|n IH]; [reflexivity|]. cbn [repeat]. rewrite bits_to_N_cons, IH. cbn. lia. Qed.

Lemma lenN_repeat {A} (a : A) n : lenN (repeat a n) = N.of_nat n.
Proof. unfold lenN. now rewrite repeat_length. Qed.

(* the first bit and the rest, arithmetically *)
Lemma bits_to_N_hd b r : N.b2n b = bits_to_N (b :: r) / 2 ^ lenN r.
Proof.
  rewrite bits_to_N_cons. pose proof (bits_to_N_lt r) as Hr. pose proof (pow2_pos (lenN r)) as Hp.
  rewrite N.div_add_l by lia. rewrite (N.div_small _ _ Hr).
  rewrite N.add_0_r. reflexivity.
Qed.

Lemma bits_to_N_tl b r : bits_to_N r = bits_to_N (b :: r) mod 2 ^ lenN r.
Proof.
  rewrite bits_to_N_cons. pose proof (bits_to_N_lt r) as Hr. pose proof (pow2_pos (lenN r)) as Hp.
  rewrite N.add_comm, N.mod_add by lia. rewrite (N.mod_small _ _ Hr). reflexivity.
Qed.

Lemma bits_to_N_inj x y : length x = length y -> bits_to_N x = bits_to_N y -> x = y.
Proof.
  revert y. induction x as [|a x IH]; intros [|c y] Hl He; try discriminate; [reflexivity|].
  injection Hl as Hl. rewrite !bits_to_N_cons in He.
  rewrite (lenN_length _ _ Hl) in He.
  pose proof (bits_to_N_lt x) as Hx. pose proof (bits_to_N_lt y) as Hy.
  rewrite (lenN_length _ _ Hl) in Hx.
  assert (a = c) as -> by (destruct a, c; cbn in He; try reflexivity; lia).
  f_equal. apply IH; [exact Hl | lia].
Qed.

Lemma bits_to_Z_signed_cons b r :
  bits_to_Z_signed (b :: r) = (Z.of_N (bits_to_N (b :: r)) - (if b then 2 ^ Z.of_N (lenN (b :: r)) else 0))%Z.
Proof.
  unfold bits_to_Z_signed. rewrite bits_to_N_cons, lenN_cons.
  assert (2 ^ Z.of_N (1 + lenN r) = 2 * Z.of_N (2 ^ lenN r))%Z as Hp.
  { rewrite N2Z.inj_add, Z.pow_add_r by lia. rewrite N2Z.inj_pow. reflexivity. }
  destruct b; cbn [N.b2n]; rewrite ?N.mul_1_l, ?N.mul_0_l, ?N.add_0_l; lia.
Qed.

Lemma bits_to_Z_signed_range l : l <> [] ->
  (- 2 ^ Z.of_N (lenN l - 1) <= bits_to_Z_signed l < 2 ^ Z.of_N (lenN l - 1))%Z.
Proof.
  destruct l as [|b r]; [congruence|intros _].
  unfold bits_to_Z_signed. rewrite lenN_cons. replace (1 + lenN r - 1) with (lenN r) by lia.
  pose proof (bits_to_N_lt r) as Hr.
  assert (Z.of_N (bits_to_N r) < 2 ^ Z.of_N (lenN r))%Z as Hz.
  { rewrite <- (N2Z.inj_pow 2). lia. }
  destruct b; cbn [N.b2n]; rewrite ?N.mul_1_l, ?N.mul_0_l, ?N2Z.inj_pow; cbn; lia.
Qed.

Lemma bits_to_Z_signed_nonneg l : hd false l = false -> bits_to_Z_signed l = Z.of_N (bits_to_N l).
Proof.
  destruct l as [|b r]; [reflexivity|]. cbn [hd]. intros ->.
  unfold bits_to_Z_signed. rewrite bits_to_N_cons. cbn. lia.
Qed.

Lemma pow2_half {A} (l : list A) : l <> [] -> 2 ^ lenN l = 2 * 2 ^ (lenN l - 1).
Proof.
  intro Hne. rewrite <- pow2_succ. f_equal. destruct l as [|a l]; [congruence|]. rewrite lenN_cons. lia.
Qed.

(* unsigned reading, sign bit and two's-complement reading of a non-empty vector *)
Lemma signed_facts x : x <> [] ->
  let X := bits_to_N x in let P := 2 ^ lenN x in let x0 := hd false x in
  X < P /\ 2 <= P /\ (x0 = true -> P <= 2 * X) /\ (x0 = false -> 2 * X < P) /\
  bits_to_Z_signed x = (Z.of_N X - (if x0 then Z.of_N P else 0))%Z.
Proof.
  destruct x as [|x0 xr]; [congruence|intros _]. cbv zeta. cbn [hd].
  pose proof (bits_to_N_lt (x0 :: xr)) as HX. split; [exact HX|].
  unfold bits_to_Z_signed. rewrite bits_to_N_cons, lenN_cons, pow2_succ in *.
  pose proof (bits_to_N_lt xr) as Hr. pose proof (pow2_pos (lenN xr)) as Hp.
  destruct x0; cbn [N.b2n]; rewrite ?N.mul_1_l, ?N.mul_0_l, ?N.add_0_l;
    repeat split; try discriminate; try lia.
Qed.

(* reading a vector as signed when its unsigned reading is [v mod 2^n] and v is in range *)
Lemma signed_of_mod l (v : Z) : l <> [] ->
  (- Z.of_N (2 ^ (lenN l - 1)) <= v < Z.of_N (2 ^ (lenN l - 1)))%Z ->
  Z.of_N (bits_to_N l) = (v mod Z.of_N (2 ^ lenN l))%Z ->
  bits_to_Z_signed l = v.
Proof.
  intros Hne Hv Hm. destruct (signed_facts l Hne) as (HX & HP & H1 & H0 & HS). cbv zeta in *.
  pose proof (pow2_half l Hne) as HPH.
  rewrite HS. remember (2 ^ lenN l) as P eqn:EP. remember (2 ^ (lenN l - 1)) as H eqn:EH.
  pose proof (Z.div_mod v (Z.of_N P)) as Hdm. rewrite <- Hm in Hdm.
  remember (v / Z.of_N P)%Z as k eqn:Ek. remember (bits_to_N l) as X eqn:EX.
  destruct (hd false l); [specialize (H1 eq_refl)|specialize (H0 eq_refl)].
  - assert (k = -1)%Z by nia. lia.
  - assert (k = 0)%Z by nia. lia.
Qed.

(* the last step of a checked signed operation: a result that is [D] modulo 2^n, with an
   overflow bit that is set exactly when [D] does not fit, reads as [D] when the bit is clear *)
Lemma checked_signed r (ov : bool) (D : Z) n : r <> [] -> lenN r = n ->
  Z.of_N (bits_to_N r) = (D mod Z.of_N (2 ^ n))%Z ->
  (ov = true <-> ~ (- Z.of_N (2 ^ (n - 1)) <= D < Z.of_N (2 ^ (n - 1)))%Z) ->
  ov = false -> bits_to_Z_signed r = D.
Proof.
  intros Hne <- Hm Hov Hno. rewrite Hno in Hov. apply signed_of_mod; [exact Hne| |exact Hm].
  apply Decidable.not_not; [unfold Decidable.decidable; lia|]. intro Hn. apply Hov in Hn. discriminate Hn.
Qed.

Lemma b2n_mul_cases b H : N.b2n b * H = 0 \/ N.b2n b * H = H.
Proof. destruct b; cbn [N.b2n]; lia. Qed.
