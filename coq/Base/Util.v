(* Shared definitions: result type, N-indexed list access, sums. *)
From Coq Require Export List NArith ZArith Bool Lia.
Export ListNotations.
Open Scope N_scope.

Arguments N.add : simpl never.
Arguments N.sub : simpl never.
Arguments N.mul : simpl never.
Arguments N.eqb : simpl never.
Arguments N.ltb : simpl never.
Arguments N.leb : simpl never.

(* Outcome of a modelled Rust computation.
   [Crash]     : the Rust code panics at this point (index out of range, unwrap on None, ...)
   [OutOfFuel] : the explicit recursion fuel of the model ran out (never a Rust behaviour;
                 excluded by a fuel-adequacy lemma wherever it can occur). *)
Inductive res (A : Type) : Type :=
| Ok (a : A)
| Crash
| OutOfFuel.
Arguments Ok {A} a.
Arguments Crash {A}.
Arguments OutOfFuel {A}.

Definition bind {A B} (r : res A) (f : A -> res B) : res B :=
  match r with
  | Ok a => f a
  | Crash => Crash
  | OutOfFuel => OutOfFuel
  end.

Notation "'let*' x ':=' r 'in' k" := (bind r (fun x => k))
  (at level 200, x pattern, r at level 100, k at level 200).

Definition of_option {A} (o : option A) : res A :=
  match o with Some a => Ok a | None => Crash end.

Definition lenN {A} (l : list A) : N := N.of_nat (length l).

(* The bound test comes first so that the extracted code never converts a huge index to
   unary; [nthN_spec] shows it is just [nth_error]. *)
Definition nthN {A} (l : list A) (i : N) : option A :=
  if i <? lenN l then nth_error l (N.to_nat i) else None.

Lemma nthN_spec {A} (l : list A) i : nthN l i = nth_error l (N.to_nat i).
Proof.
  unfold nthN, lenN. destruct (N.ltb_spec i (N.of_nat (length l))) as [H|H]; [reflexivity|].
  symmetry. apply nth_error_None. lia.
Qed.

Fixpoint sumN (l : list N) : N :=
  match l with
  | [] => 0
  | x :: r => x + sumN r
  end.

Lemma nthN_Some {A} (l : list A) i : i < lenN l -> exists a, nthN l i = Some a.
Proof.
  rewrite nthN_spec. unfold lenN. intro H.
  destruct (nth_error l (N.to_nat i)) eqn:E; eauto.
  apply nth_error_None in E. lia.
Qed.

Lemma nthN_lt {A} (l : list A) i a : nthN l i = Some a -> i < lenN l.
Proof.
  rewrite nthN_spec. unfold lenN. intro H.
  assert (N.to_nat i < length l)%nat by (apply nth_error_Some; congruence). lia.
Qed.

Lemma nthN_app_l {A} (l r : list A) i : i < lenN l -> nthN (l ++ r) i = nthN l i.
Proof. rewrite !nthN_spec. unfold lenN. intro. apply nth_error_app1. lia. Qed.

Lemma nthN_app_here {A} (l r : list A) a : nthN (l ++ a :: r) (lenN l) = Some a.
Proof.
  rewrite nthN_spec. unfold lenN. rewrite Nat2N.id.
  rewrite nth_error_app2 by lia. now rewrite Nat.sub_diag.
Qed.

Lemma lenN_app {A} (l r : list A) : lenN (l ++ r) = lenN l + lenN r.
Proof. unfold lenN. rewrite app_length. lia. Qed.

Lemma lenN_cons {A} (a : A) l : lenN (a :: l) = 1 + lenN l.
Proof. unfold lenN. cbn [length]. lia. Qed.

Lemma lenN_nil {A} : lenN (@nil A) = 0.
Proof. reflexivity. Qed.

Fixpoint mapM {A B} (f : A -> option B) (l : list A) : option (list B) :=
  match l with
  | [] => Some []
  | a :: r =>
      match f a with
      | None => None
      | Some b => match mapM f r with None => None | Some bs => Some (b :: bs) end
      end
  end.

Lemma mapM_length {A B} (f : A -> option B) l bs :
  mapM f l = Some bs -> length bs = length l.
Proof.
  revert bs. induction l as [|a r IH]; cbn [mapM]; intros bs H.
  - now inversion H.
  - destruct (f a); [|discriminate]. destruct (mapM f r) eqn:E; [|discriminate].
    inversion H; subst. cbn [length]. f_equal. now apply IH.
Qed.

Lemma mapM_all {A B} (f : A -> option B) l :
  (forall a, In a l -> exists b, f a = Some b) -> exists bs, mapM f l = Some bs.
Proof.
  induction l as [|a r IH]; cbn [mapM]; intro H; [eauto|].
  destruct (H a (or_introl eq_refl)) as [b ->].
  destruct IH as [bs ->]; [intros; apply H; now right|]. eauto.
Qed.

Fixpoint mapM_res {A B} (f : A -> res B) (l : list A) : res (list B) :=
  match l with
  | [] => Ok []
  | a :: r => let* b := f a in let* bs := mapM_res f r in Ok (b :: bs)
  end.

(* linear-time list reversal for the extracted code ([List.rev] is quadratic) *)
Definition frev {A} (l : list A) : list A := rev_append l [].
Lemma frev_rev {A} (l : list A) : frev l = rev l.
Proof. unfold frev. symmetry. apply rev_alt. Qed.
