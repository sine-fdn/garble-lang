(* What the parser model of Front/ParseExpr.v cannot observe: the locations of the tokens and,
   once it suffices, the fuel.  One statement per parser function covers both: the call on the
   tokens relabelled by [gm] with fuel n' gives the result of the call on the original tokens with
   fuel n, remaining tokens relabelled ([RL]); either n = n' and this holds of every result, or
   n <= n' and it holds of every result but [PNoFuel] ([lax]).
   ParseTotal.v instantiates it with the identity relabelling (fuel monotonicity), ParseUnloc.v
   with the constant one and equal fuels (the locations are not looked at). *)
From Coq Require Import Lia ZArith String List.
From GV Require Import Base.Util Front.Scan Front.ParseExpr.
Import ListNotations.
Local Open Scope nat_scope.

Lemma comma_loop_sep pe close : forall n acc s, comma_loop pe close n acc s = sep_loop pe close n acc s.
Proof.
  induction n as [|n IH]; intros acc s; [reflexivity|]. cbn [comma_loop sep_loop].
  destruct (next_matches TComma s) as [s1|]; [|reflexivity]. destruct (peek close s1); [reflexivity|].
  destruct (pe s1); cbn [bindp]; auto.
Qed.

Section Rel.
  Variable gm : meta -> meta.
  Variable lax : bool.

  Definition relabel (t : token) : token := match t with Token k m => Token k (gm m) end.
  Definition mp (s : pstate) : pstate := PState (map relabel (toks s)) (sla s).

  Definition rmapg {A} (r : pres A) : pres A :=
    match r with
    | POk a s => POk a (mp s)
    | PErr => PErr
    | PNoFuel => PNoFuel
    | POutside o => POutside o
    end.

  Definition RL {A} (r r' : pres A) : Prop := (lax = true -> r <> PNoFuel) -> r' = rmapg r.
  (* for results that carry no tokens *)
  Definition RE {A} (r r' : pres A) : Prop := (lax = true -> r <> PNoFuel) -> r' = r.
  Definition FR (n n' : nat) : Prop := if lax then n <= n' else n = n'.

  Lemma FR_0 n' : FR 0 n' -> lax = true \/ n' = 0.
  Proof. unfold FR. destruct lax; auto. Qed.

  Lemma FR_S n n' : FR (S n) n' -> exists m, n' = S m /\ FR n m.
  Proof. unfold FR. destruct lax; intro H; exists (pred n'); lia. Qed.

  Lemma RL_eq {A} (r r' : pres A) : r' = rmapg r -> RL r r'.
  Proof. intros H _. exact H. Qed.

  Lemma RL_bind {A B} (m m' : pres A) (k k' : A -> pstate -> pres B) :
    RL m m' -> (forall a s, RL (k a s) (k' a (mp s))) -> RL (bindp m k) (bindp m' k').
  Proof.
    intros Hm Hk H. rewrite Hm by (intros E ->; exact (H E eq_refl)).
    destruct m; cbn [rmapg bindp] in *; auto. now apply Hk.
  Qed.

  Lemma peek_mp t s : peek t (mp s) = peek t s.
  Proof. unfold peek. cbn [mp toks]. destruct (toks s) as [|[t' m] r]; reflexivity. Qed.

  Lemma next_matches_mp t s : next_matches t (mp s) = option_map mp (next_matches t s).
  Proof.
    unfold next_matches. cbn [mp toks sla]. destruct (toks s) as [|[t' m] r]; [reflexivity|].
    cbn [map relabel]. destruct (teqb t' t); reflexivity.
  Qed.

  Lemma advance_mp s : advance (mp s) = option_map (fun p => (fst p, mp (snd p))) (advance s).
  Proof. unfold advance. cbn [mp toks sla]. destruct (toks s) as [|[t' m] r]; reflexivity. Qed.

  Lemma next_op_mp ops s : next_op ops (mp s) = option_map (fun p => (fst p, mp (snd p))) (next_op ops s).
  Proof.
    unfold next_op. cbn [mp toks sla]. destruct (toks s) as [|[t' m] r]; [reflexivity|].
    cbn [map relabel]. destruct (ops t'); reflexivity.
  Qed.

  Lemma block_ends_mp s : block_ends (mp s) = block_ends s.
  Proof. unfold block_ends. rewrite !peek_mp. cbn [mp toks]. destruct (toks s); reflexivity. Qed.

  Lemma isnil_mp (l : list token) :
    match map relabel l with [] => true | _ :: _ => false end = match l with [] => true | _ :: _ => false end.
  Proof. destruct l; reflexivity. Qed.

  Lemma set_sla_mp b s : set_sla b (mp s) = mp (set_sla b s).
  Proof. reflexivity. Qed.
  Lemma toks_mp s : toks (mp s) = map relabel (toks s).
  Proof. reflexivity. Qed.
  Lemma sla_mp s : sla (mp s) = sla s.
  Proof. reflexivity. Qed.

  Lemma RL_expect {A} t s (k k' : pstate -> pres A) :
    (forall s1, RL (k s1) (k' (mp s1))) -> RL (expect t s k) (expect t (mp s) k').
  Proof.
    intro H. unfold expect. rewrite next_matches_mp.
    destruct (next_matches t s); cbn [option_map]; [apply H|now apply RL_eq].
  Qed.

  Lemma RL_expect_id {A} s (k k' : list N -> pstate -> pres A) :
    (forall id s1, RL (k id s1) (k' id (mp s1))) -> RL (expect_identifier s k) (expect_identifier (mp s) k').
  Proof.
    intro H. unfold expect_identifier. cbn [mp toks sla]. destruct (toks s) as [|[t m] r]; [now apply RL_eq|].
    cbn [map relabel]. destruct t; try now apply RL_eq. apply (H _ (PState r (sla s))).
  Qed.

  Lemma RL_opt_semicolon {A} s (k k' : pstate -> pres A) :
    (forall s1, RL (k s1) (k' (mp s1))) -> RL (opt_semicolon s k) (opt_semicolon (mp s) k').
  Proof. intro H. unfold opt_semicolon. rewrite !peek_mp. destruct (_ && _); [now apply RL_expect|apply H]. Qed.

  Definition RLf {A} (f f' : pstate -> pres A) : Prop := forall s, RL (f s) (f' (mp s)).
  Definition RLn {A} (F F' : nat -> pstate -> pres A) : Prop := forall n n', FR n n' -> RLf (F n) (F' n').

  Create HintDb rl.
  #[local] Hint Unfold RLf RLn : rl.

  (* One step through the two calls in parallel: the primitives of the right call are rewritten
     to those of the left one, then the two terms have the same head; a call of another parser
     function is closed by its lemma, which the proof has put among the hypotheses. *)
  Ltac rl_rw :=
    cbn [toks sla];
    rewrite ?set_sla_mp, ?peek_mp, ?next_matches_mp, ?advance_mp, ?next_op_mp, ?block_ends_mp, ?sla_mp, ?toks_mp, ?isnil_mp.
  Ltac rl_cons :=
    cbn [map relabel];
    repeat match goal with |- context [PState (map relabel ?r) ?b] => change (PState (map relabel r) b) with (mp (PState r b)) end;
    cbv beta iota.
  Ltac rl_step :=
    rl_rw;
    match goal with
    | |- RL (POk _ _) _ => apply RL_eq; reflexivity
    | |- RL PErr _ => apply RL_eq; reflexivity
    | |- RL (bindp _ _) (bindp _ _) => apply RL_bind; [|intros ? ?]
    | |- RL (expect _ _ _) (expect _ _ _) => apply RL_expect; intros ?
    | |- RL (expect_identifier _ _) (expect_identifier _ _) => apply RL_expect_id; intros ? ?
    | |- RL (opt_semicolon _ _) (opt_semicolon _ _) => apply RL_opt_semicolon; intros ?
    | |- RL (match ?x with _ => _ end) (match option_map (fun p => (fst p, mp (snd p))) ?x with _ => _ end) =>
        destruct x as [[? ?]|]; cbn [option_map fst snd]
    | |- RL (match ?x with _ => _ end) (match option_map _ ?x with _ => _ end) => destruct x; cbn [option_map]
    | |- RL (match toks ?s with _ => _ end) (match map relabel (toks ?s) with _ => _ end) =>
        destruct (toks s) as [|[? ?] ?]; rl_cons
    | |- RL (match ?l with _ => _ end) (match map relabel ?l with _ => _ end) => destruct l as [|[? ?] ?]; rl_cons
    | |- RL (match ?x with _ => _ end) (match ?x with _ => _ end) => destruct x
    | |- RL (comma_loop _ _ _ _ _) (comma_loop _ _ _ _ _) => rewrite !comma_loop_sep
    | |- _ => solve [eauto with rl]
    end.
  Ltac rl := unfold RLn, RLf in *; cbv zeta; repeat rl_step.

  (* the statement for a function defined by recursion on its fuel: at fuel 0 both calls are
     out of fuel, or the right one need not be looked at *)
  Ltac fuel_ind n IH :=
    induction n as [|n IH]; intros n' Hf;
    [destruct (FR_0 _ Hf) as [E| ->]; unfold RLf, RL, RE; intros;
      [match goal with H : lax = true -> _ |- _ => now destruct (H E) end|reflexivity]
    |destruct (FR_S _ _ Hf) as (m & -> & Hm); clear Hf].


  (* ---------------------------------------------------------------- loops, types, patterns *)

  Lemma strict_comma_loop_rl {A} (item item' : pstate -> pres A) : RLf item item' ->
    forall n n', FR n n' -> forall acc s, RL (strict_comma_loop item n acc s) (strict_comma_loop item' n' acc (mp s)).
  Proof. intro Hi. fuel_ind n IH. intros acc s. cbn [strict_comma_loop]. rl. Qed.

  Lemma sep_loop_rl {A} (item item' : pstate -> pres A) close : RLf item item' ->
    forall n n', FR n n' -> forall acc s, RL (sep_loop item close n acc s) (sep_loop item' close n' acc (mp s)).
  Proof. intro Hi. fuel_ind n IH. intros acc s. cbn [sep_loop]. rl. Qed.
  #[local] Hint Resolve strict_comma_loop_rl sep_loop_rl : rl.

  Lemma parse_type_rl pe pe' : RLf pe pe' ->
    forall n n', FR n n' -> forall s, RL (parse_type pe n s) (parse_type pe' n' (mp s)).
  Proof. intro Hp. fuel_ind n IH. intro s. cbn [parse_type]. rl. Qed.

  Lemma pattern_field_rl pp pp' : RLf pp pp' -> forall s, RL (pattern_field pp s) (pattern_field pp' (mp s)).
  Proof. intros Hp s. unfold pattern_field. rl. Qed.
  #[local] Hint Resolve parse_type_rl pattern_field_rl : rl.

  Lemma field_loop_rl pp pp' : RLf pp pp' ->
    forall n n', FR n n' -> forall acc s, RL (field_loop pp n acc s) (field_loop pp' n' acc (mp s)).
  Proof. intro Hp. fuel_ind n IH. intros acc s. cbn [field_loop]. rl. Qed.

  Lemma pattern_fields_rl pp pp' : RLf pp pp' ->
    forall n n', FR n n' -> forall s, RL (pattern_fields pp n s) (pattern_fields pp' n' (mp s)).
  Proof. intros Hp n n' Hf s. unfold pattern_fields. rl. Qed.
  #[local] Hint Resolve field_loop_rl pattern_fields_rl : rl.

  Lemma parse_pattern_rl : forall n n', FR n n' -> forall s, RL (parse_pattern n s) (parse_pattern n' (mp s)).
  Proof. fuel_ind n IH. intro s. cbn [parse_pattern]. rl. Qed.
  #[local] Hint Resolve parse_pattern_rl : rl.

  (* ---------------------------------------------------------------- literals *)

  Lemma struct_field_rl olc pe pe' : RLf pe pe' -> forall s, RL (struct_field olc pe s) (struct_field olc pe' (mp s)).
  Proof. intros Hp s. unfold struct_field. rl. Qed.
  #[local] Hint Resolve struct_field_rl : rl.

  Lemma parse_literal_gen_rl olc pe pe' : RLf pe pe' ->
    forall n n', FR n n' -> forall t s, RL (parse_literal_gen olc pe n t s) (parse_literal_gen olc pe' n' t (mp s)).
  Proof. intros Hp n n' Hf t s. unfold parse_literal_gen. rl. Qed.
  #[local] Hint Resolve parse_literal_gen_rl : rl.

  (* ---------------------------------------------------------------- one nesting level of parse_expr *)

  Section Level.
    Variables pe pe' : pstate -> pres uexpr.
    Hypothesis Hp : RLf pe pe'.

    Lemma postfix_loop_rl : forall n n', FR n n' -> forall x s, RL (postfix_loop pe n x s) (postfix_loop pe' n' x (mp s)).
    Proof. fuel_ind n IH. intros x s. cbn [postfix_loop]. rl. Qed.

    Lemma parse_primary_base_rl n n' : FR n n' -> forall s, RL (parse_primary_base pe n s) (parse_primary_base pe' n' (mp s)).
    Proof. intros Hf s. unfold parse_primary_base, parse_literal. rl. Qed.
    Hint Resolve postfix_loop_rl parse_primary_base_rl : rl.

    Lemma parse_primary_rl n n' : FR n n' -> forall s, RL (parse_primary pe n s) (parse_primary pe' n' (mp s)).
    Proof. intros Hf s. unfold parse_primary. rl. Qed.
    Hint Resolve parse_primary_rl : rl.

    Lemma parse_unary_rl : forall n n', FR n n' -> forall s, RL (parse_unary pe n s) (parse_unary pe' n' (mp s)).
    Proof. fuel_ind n IH. intro s. cbn [parse_unary]. rl. Qed.
    Hint Resolve parse_unary_rl : rl.

    Lemma parse_stmt_rl n n' : FR n n' -> forall s, RL (parse_stmt pe n s) (parse_stmt pe' n' (mp s)).
    Proof. intros Hf s. unfold parse_stmt, opt_type. rl. Qed.
    Hint Resolve parse_stmt_rl : rl.

    Lemma stmts_loop_rl : forall n n', FR n n' -> forall acc s, RL (stmts_loop pe n acc s) (stmts_loop pe' n' acc (mp s)).
    Proof. fuel_ind n IH. intros acc s. cbn [stmts_loop]. rl. Qed.
    Hint Resolve stmts_loop_rl : rl.

    Lemma parse_stmts_rl n n' : FR n n' -> forall s, RL (parse_stmts pe n s) (parse_stmts pe' n' (mp s)).
    Proof. intros Hf s. unfold parse_stmts, parse_stmts_of_block. rl. Qed.
    Hint Resolve parse_stmts_rl : rl.

    Lemma parse_block_as_expr_rl n n' : FR n n' -> forall s, RL (parse_block_as_expr pe n s) (parse_block_as_expr pe' n' (mp s)).
    Proof. intros Hf s. unfold parse_block_as_expr. rl. Qed.

    Lemma parse_match_clause_rl n n' : FR n n' -> forall s, RL (parse_match_clause pe n s) (parse_match_clause pe' n' (mp s)).
    Proof. intros Hf s. unfold parse_match_clause. rl. Qed.
    Hint Resolve parse_block_as_expr_rl parse_match_clause_rl : rl.

    Lemma match_loop_rl : forall n n', FR n n' -> forall ewb acc s, RL (match_loop pe n ewb acc s) (match_loop pe' n' ewb acc (mp s)).
    Proof. fuel_ind n IH. intros ewb acc s. cbn [match_loop]. rl. Qed.
    Hint Resolve match_loop_rl : rl.

    Lemma parse_if_or_match_rl : forall n n', FR n n' -> forall s, RL (parse_if_or_match pe n s) (parse_if_or_match pe' n' (mp s)).
    Proof. fuel_ind n IH. intro s. cbn [parse_if_or_match]. rl. Qed.

    Lemma cast_loop_rl : forall n n', FR n n' -> forall x s, RL (cast_loop pe n x s) (cast_loop pe' n' x (mp s)).
    Proof. fuel_ind n IH. intros x s. cbn [cast_loop]. rl. Qed.
    Hint Resolve parse_if_or_match_rl cast_loop_rl : rl.

    Lemma parse_cast_rl : RLn (parse_cast pe) (parse_cast pe').
    Proof. intros n n' Hf s. unfold parse_cast. rl. Qed.

    Lemma binloop_rl ops sub sub' : RLn sub sub' ->
      forall n n', FR n n' -> forall x s, RL (binloop ops sub n x s) (binloop ops sub' n' x (mp s)).
    Proof. intro Hs. fuel_ind n IH. intros x s. cbn [binloop]. rl. Qed.

    Lemma binlevel_rl ops sub sub' : RLn sub sub' -> RLn (binlevel ops sub) (binlevel ops sub').
    Proof. intros Hs n n' Hf s. unfold binlevel. pose proof (binloop_rl ops sub sub' Hs). rl. Qed.

    Lemma parse_short_circuiting_or_rl : RLn (parse_short_circuiting_or pe) (parse_short_circuiting_or pe').
    Proof.
      unfold parse_short_circuiting_or, parse_short_circuiting_and, parse_equality, parse_comparison, parse_or,
        parse_xor, parse_and, parse_shift, parse_term, parse_factor.
      repeat apply binlevel_rl. apply parse_cast_rl.
    Qed.

    Lemma parse_expr_body_rl n n' : FR n n' -> forall s, RL (parse_expr_body pe n s) (parse_expr_body pe' n' (mp s)).
    Proof. intros Hf s. unfold parse_expr_body. pose proof parse_short_circuiting_or_rl. rl. Qed.
  End Level.

  Theorem parse_expr_st_rl : forall f f', FR f f' -> forall s, RL (parse_expr_st f s) (parse_expr_st f' (mp s)).
  Proof. fuel_ind f IH. intro s. cbn [parse_expr_st]. apply parse_expr_body_rl; [exact (IH _ Hm)|exact Hm]. Qed.
  #[local] Hint Resolve parse_stmts_rl parse_expr_st_rl : rl.

  Lemma parse_literal_recursively_rl : forall n n', FR n n' ->
    forall s, RL (parse_literal_recursively n s) (parse_literal_recursively n' (mp s)).
  Proof. fuel_ind n IH. intro s. cbn [parse_literal_recursively]. rl. Qed.

  (* ---------------------------------------------------------------- top-level items *)

  Section Items.
    Variables f f' : nat.
    Hypothesis Hf : FR f f'.

    Lemma ty_rl s : RL (parse_type (parse_expr_st f) f s) (parse_type (parse_expr_st f') f' (mp s)).
    Proof. apply parse_type_rl; [intro; now apply parse_expr_st_rl|exact Hf]. Qed.
    Hint Resolve ty_rl : rl.

    Lemma parse_const_def_rl s : RL (parse_const_def f s) (parse_const_def f' (mp s)).
    Proof. unfold parse_const_def. rl. Qed.

    Lemma parse_field_def_rl s : RL (parse_field_def f s) (parse_field_def f' (mp s)).
    Proof. unfold parse_field_def. rl. Qed.
    Hint Resolve parse_field_def_rl : rl.

    Lemma parse_struct_def_rl s : RL (parse_struct_def f s) (parse_struct_def f' (mp s)).
    Proof. unfold parse_struct_def. rl. Qed.

    Lemma parse_variant_rl s : RL (parse_variant f s) (parse_variant f' (mp s)).
    Proof. unfold parse_variant. rl. Qed.
    Hint Resolve parse_variant_rl : rl.

    Lemma parse_enum_def_rl s : RL (parse_enum_def f s) (parse_enum_def f' (mp s)).
    Proof. unfold parse_enum_def. rl. Qed.

    Lemma parse_param_rl s : RL (parse_param f s) (parse_param f' (mp s)).
    Proof. unfold parse_param. rewrite next_matches_mp. destruct (next_matches TKeywordMut s); cbn [option_map]; rl. Qed.
    Hint Resolve parse_param_rl : rl.

    Lemma parse_fn_def_rl is_pub s : RL (parse_fn_def f is_pub s) (parse_fn_def f' is_pub (mp s)).
    Proof. unfold parse_fn_def, parse_params. rl. Qed.
  End Items.

  Lemma RE_bind {A B} (m m' : pres A) (k k' : A -> pstate -> pres B) :
    RL m m' -> (forall a s, RE (k a s) (k' a (mp s))) -> RE (bindp m k) (bindp m' k').
  Proof.
    intros Hm Hk H. rewrite Hm by (intros E ->; exact (H E eq_refl)).
    destruct m; cbn [rmapg bindp] in *; auto. now apply Hk.
  Qed.

  Lemma RE_done {A} (a : A) s :
    RE (match toks s with [] => POk a s | _ :: _ => PErr end) (match toks (mp s) with [] => POk a (mp s) | _ :: _ => PErr end).
  Proof. intros _. destruct s as [[|[t m] r] b]; reflexivity. Qed.

  Lemma items_loop_rl f f' : FR f f' -> forall n n', FR n n' ->
    forall is_pub prog s, RE (items_loop f n is_pub prog s) (items_loop f' n' is_pub prog (mp s)).
  Proof.
    intro Hff. fuel_ind n IH. intros is_pub prog s. cbn [items_loop]. rewrite advance_mp.
    destruct (advance s) as [[t s1]|] eqn:E; cbn [option_map fst snd].
    - destruct t; try (intros _; reflexivity);
        try (apply RE_bind;
             [first [now apply parse_const_def_rl|now apply parse_struct_def_rl|now apply parse_enum_def_rl|now apply parse_fn_def_rl]
             |intros; now apply IH]).
      destruct is_pub; [intros _; reflexivity|now apply IH].
    - intros _. unfold advance in E. destruct s as [[|[] ?] ?]; [reflexivity|discriminate].
  Qed.

  Theorem parse_program_text_rl f f' ts : FR f f' ->
    RE (parse_program_text f ts) (parse_program_text f' (map relabel ts)).
  Proof. intro Hf. exact (items_loop_rl f f' Hf f f' Hf false _ (PState ts true)). Qed.

  Theorem parse_literal_text_rl f f' ts : FR f f' ->
    RE (parse_literal_text f ts) (parse_literal_text f' (map relabel ts)).
  Proof.
    intro Hf. unfold parse_literal_text. change (PState (map relabel ts) true) with (mp (PState ts true)).
    rewrite advance_mp. destruct (advance (PState ts true)) as [[t s1]|]; cbn [option_map fst snd]; [|intros _; reflexivity].
    apply RE_bind; [|intros; apply RE_done].
    apply parse_literal_gen_rl; [|exact Hf]. intro s. now apply parse_literal_recursively_rl.
  Qed.

  (* the closing brace that [parse_block_text] appends keeps its location *)
  Theorem parse_block_text_rl f f' ts : gm (Meta (0, 0)%N (0, 0)%N) = Meta (0, 0)%N (0, 0)%N -> FR f f' ->
    RE (parse_block_text f ts) (parse_block_text f' (map relabel ts)).
  Proof.
    intros H0 Hf. unfold parse_block_text. cbv zeta.
    replace (map relabel ts ++ [Token TRightBrace (Meta (0, 0)%N (0, 0)%N)])
      with (map relabel (ts ++ [Token TRightBrace (Meta (0, 0)%N (0, 0)%N)]))
      by (rewrite map_app; cbn [map relabel]; now rewrite H0).
    apply (RE_bind _ (parse_stmts _ _ (mp (PState _ true)))).
    - apply parse_stmts_rl; [|exact Hf]. intro s. now apply parse_expr_st_rl.
    - intros stmts s. unfold expect. rewrite next_matches_mp.
      destruct (next_matches TRightBrace s); cbn [option_map]; [apply RE_done|intros _; reflexivity].
  Qed.
End Rel.

Lemma relabel_id ts : map (relabel (fun m => m)) ts = ts.
Proof. induction ts as [|[t m] r IH]; cbn [map relabel]; [reflexivity|now rewrite IH]. Qed.

Lemma mp_id s : mp (fun m => m) s = s.
Proof. destruct s as [ts b]. unfold mp. cbn [toks sla]. now rewrite relabel_id. Qed.

Lemma rmapg_id {A} (r : pres A) : rmapg (fun m => m) r = r.
Proof. destruct r; cbn [rmapg]; [now rewrite mp_id|reflexivity..]. Qed.
