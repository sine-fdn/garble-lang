(* Model of the EXPRESSION, STATEMENT and PATTERN grammar of /repo/src/parse.rs (the recursive-
   descent parser of the real compiler), over the tokens of Front/Scan.v.  Definitions only;
   the proofs are in Front/ParseExprProofs.v.

   MIRRORED, function by function (same call structure, same loops, same order of tests):
     parse_expr (incl. the block `{ .. }`), parse_short_circuiting_or, parse_short_circuiting_and,
     parse_equality, parse_comparison (with the desugaring  x <= y  ~>  !(x > y),
     x >= y  ~>  !(x < y): both operands occur once), parse_or, parse_xor, parse_and, parse_shift,
     parse_term, parse_factor, parse_cast, parse_type (scalar and named types, tuple types, array
     types with a literal, a named or a `const { .. }` size), parse_if_or_match (`if` / `else if` / `else` AND
     `match` with parse_match_clause), parse_pattern (all forms), parse_unary, parse_primary
     (with its postfix loop `[..]` `.0` `.field`), the arms of parse_literal(token, false) (true /
     false, numbers, ranges `a..b`, `(e)`, `()`, tuples, array literals `[a, b]`, `[e; n]`, `[e; N]`,
     struct literals `S { a: e, b }`, enum literals `E::V`, `E::V(e, ..)`), parse_stmt (`let`, `let mut`, `for`,
     assignments `x.acc = e` and the compound assignments `x.acc op= e` with their DESUGARING
     into `x.acc = x.acc op e`, expression statements with the `;` rules), parse_stmts (the
     struct-literal flag), parse_stmts_of_block (the loop), parse_block_as_expr; the TOP LEVEL:
     parse (the item loop with `pub`), parse_const_def with parse_const_expr, parse_struct_def,
     parse_enum_def, parse_variant, parse_fn_def, parse_params, parse_param.
   The parser state is the remaining token list and the flag [struct_literals_allowed]; the
   flag is threaded as STATE and saved / cleared / restored exactly where the Rust code does
   it (around the condition of an `if`, the scrutinee of a `match`, the collection of a `for`;
   set inside the braces of a block by parse_stmts).

   SIMPLIFIED:
   - source locations (MetaInfo) are dropped from the tree;
   - errors: the first `Err(())` ends the parse with [PErr]; the error list and the recovery
     code (consume_until_one_of ...) are not modelled: they only produce further messages,
     the result is `Err` in every case;
   - `next_matches_one_of(&ops)` (a loop over the options) is a look-up on the next token;
   - every call `f(args)` is [UFnCall]: BuiltInFnCall::try_from_ident_args (which turns some
     names into built-in calls) is not modelled;
   - the body of a `for` loop (`expect({); parse_stmts(); expect(})`) is obtained by calling
     parse_expr one level down on the `{`, which performs exactly these three steps and returns
     the statements in a Block: this keeps the recursion through the single parameter [pe];
   - a range whose two suffixes differ (`1u8..2u16`): the Rust code pushes an error and goes on
     with the first suffix; the final result is `Err`, here [PErr] at once;
   - nothing of the grammar is outside the model any more: [POutside] is no longer produced (the
     type [outside] is kept for the interfaces that mention it);
   - the HashMaps of a Program (const_defs, struct_defs, enum_defs, fn_defs) are association lists
     in source order, a later definition of a name REPLACING an earlier one ([map_insert]);
     `const_deps` (empty after parsing) is not modelled.
   Recursion: explicit fuel, one unit per nesting level of parse_expr and per loop iteration;
   [PNoFuel] is never a Rust behaviour. *)
From GV Require Import Base.Util Front.Scan.
From Coq Require Import ZArith String.
Local Open Scope string_scope.
Local Open Scope N_scope.

(* ------------------------------------------------------------------ ast.rs (untyped) *)

Inductive unary_op := UoNot | UoNeg.

Inductive bin_op :=
| BAdd | BSub | BMul | BDiv | BMod | BBitAnd | BBitXor | BBitOr | BGreaterThan | BLessThan
| BEq | BNotEq | BShiftLeft | BShiftRight | BShortCircuitAnd | BShortCircuitOr.

(* ConstExprEnum: what parse_const_expr accepts *)
Inductive uconst :=
| CTrue | CFalse
| CNumUnsigned (n : N) (t : unsigned_num_type)
| CNumSigned (z : Z) (t : signed_num_type)
| CExternalValue (party identifier : list N)      (* `PARTY::NAME` *)
| CIdent (s : list N)                             (* ConstExprIdent *)
| CMax (args : list uconst)
| CMin (args : list uconst)
| CAdd (l r : uconst)
| CSub (l r : uconst).

(* the types parse_type produces *)
Inductive utype :=
| UTBool | UTUnsigned (t : unsigned_num_type) | UTSigned (t : signed_num_type)
| UTNamed (s : list N)      (* Type::UntypedTopLevelDefinition *)
| UTTuple (ts : list utype)
| UTArray (t : utype) (n : N)
| UTArrayConst (t : utype) (c : list N)
| UTArrayConstExpr (t : utype) (c : uconst).

(* PatternEnum *)
Inductive upattern :=
| PIdentifier (s : list N)             (* also `_` *)
| PTrue | PFalse
| PNumUnsigned (n : N) (t : unsigned_num_type)
| PNumSigned (z : Z) (t : signed_num_type)
| PTuple (ps : list upattern)
| PStruct (name : list N) (fields : list (list N * upattern))                  (* fields sorted by name *)
| PStructIgnoreRemaining (name : list N) (fields : list (list N * upattern))
| PEnumUnit (e v : list N)
| PEnumTuple (e v : list N) (ps : list upattern)
| PUnsignedInclusiveRange (lo hi : N) (t : unsigned_num_type)
| PSignedInclusiveRange (lo hi : Z) (t : signed_num_type).

(* ExprEnum, StmtEnum, Accessor: the forms of the model *)
Inductive uexpr :=
| UTrue | UFalse
| UNumUnsigned (n : N) (t : unsigned_num_type)
| UNumSigned (z : Z) (t : signed_num_type)
| UIdentifier (s : list N)
| UArrayAccess (a i : uexpr)
| UTupleLiteral (es : list uexpr)
| UTupleAccess (e : uexpr) (i : N)
| UStructAccess (e : uexpr) (f : list N)
| UUnaryOp (o : unary_op) (e : uexpr)
| UOp (o : bin_op) (l r : uexpr)
| UFnCall (f : list N) (args : list uexpr)
| UIf (c t e : uexpr)
| UCast (ty : utype) (e : uexpr)
| UBlock (b : list ustmt)
| UMatch (e : uexpr) (arms : list (upattern * uexpr))
| UArrayLiteral (es : list uexpr)                         (* never empty *)
| UArrayRepeat (e : uexpr) (size : N)                     (* ArrayRepeatLiteral *)
| UArrayRepeatConst (e : uexpr) (size : list N)           (* ArrayRepeatLiteralConst *)
| URange (lo hi : N) (t : unsigned_num_type)
| UStructLiteral (name : list N) (fields : list (list N * uexpr))      (* fields sorted by name *)
| UEnumLiteral (e v : list N) (args : option (list uexpr))            (* None: VariantExprEnum::Unit *)
with ustmt :=
| SLet (p : upattern) (ty : option utype) (e : uexpr)
| SLetMut (x : list N) (ty : option utype) (e : uexpr)
| SVarAssign (x : list N) (accs : list uaccessor) (e : uexpr)
| SForEach (p : upattern) (e : uexpr) (body : list ustmt)
| SExpr (e : uexpr)
with uaccessor :=
| AArray (index : uexpr)
| ATuple (index : N)
| AStruct (field : list N).

(* ------------------------------------------------------------------ the parser state *)

Record pstate := PState { toks : list token; sla : bool (* struct_literals_allowed *) }.

Inductive outside :=
| OMatch | OBlockExpr | OStatements | OStructLiteral | OEnumLiteral | OArrayLiteral | ORange | OType.

Inductive pres (A : Type) :=
| POk (a : A) (s : pstate)
| PErr
| PNoFuel
| POutside (o : outside).
Arguments POk {A} a s.
Arguments PErr {A}.
Arguments PNoFuel {A}.
Arguments POutside {A} o.

Definition bindp {A B} (r : pres A) (k : A -> pstate -> pres B) : pres B :=
  match r with
  | POk a s => k a s
  | PErr => PErr
  | PNoFuel => PNoFuel
  | POutside o => POutside o
  end.

Definition set_sla (b : bool) (s : pstate) : pstate := PState (toks s) b.

(* equality of tokens (derived PartialEq of TokenEnum) *)
Definition unsigned_num_type_eq_dec (a b : unsigned_num_type) : {a = b} + {a <> b}.
Proof. decide equality. Defined.
Definition signed_num_type_eq_dec (a b : signed_num_type) : {a = b} + {a <> b}.
Proof. decide equality. Defined.
Definition token_enum_eq_dec (a b : token_enum) : {a = b} + {a <> b}.
Proof.
  decide equality; try apply N.eq_dec; try apply Z.eq_dec; try apply unsigned_num_type_eq_dec;
    try apply signed_num_type_eq_dec. apply (list_eq_dec N.eq_dec).
Defined.
Definition teqb (a b : token_enum) : bool := if token_enum_eq_dec a b then true else false.

(* fn peek *)
Definition peek (t : token_enum) (s : pstate) : bool :=
  match toks s with Token t' _ :: _ => teqb t' t | [] => false end.

(* fn next_matches (the stack of open parentheses only serves error recovery) *)
Definition next_matches (t : token_enum) (s : pstate) : option pstate :=
  match toks s with
  | Token t' _ :: r => if teqb t' t then Some (PState r (sla s)) else None
  | [] => None
  end.

(* fn expect *)
Definition expect {A} (t : token_enum) (s : pstate) (k : pstate -> pres A) : pres A :=
  match next_matches t s with Some s' => k s' | None => PErr end.

(* fn advance *)
Definition advance (s : pstate) : option (token_enum * pstate) :=
  match toks s with
  | Token t _ :: r => Some (t, PState r (sla s))
  | [] => None
  end.

Definition s_true : list N := Eval vm_compute in codes "true".
Definition s_false : list N := Eval vm_compute in codes "false".
Definition s_bool : list N := Eval vm_compute in codes "bool".

(* the identifier arm of fn parse_type *)
Definition type_of_name (s : list N) : utype :=
  if list_eqb s s_bool then UTBool
  else if list_eqb s s_usize then UTUnsigned Usize
  else if list_eqb s s_u8 then UTUnsigned U8
  else if list_eqb s s_u16 then UTUnsigned U16
  else if list_eqb s s_u32 then UTUnsigned U32
  else if list_eqb s s_u64 then UTUnsigned U64
  else if list_eqb s s_i8 then UTSigned I8
  else if list_eqb s s_i16 then UTSigned I16
  else if list_eqb s s_i32 then UTSigned I32
  else if list_eqb s s_i64 then UTSigned I64
  else UTNamed s.

(* fn expect_identifier *)
Definition expect_identifier {A} (s : pstate) (k : list N -> pstate -> pres A) : pres A :=
  match toks s with
  | Token (TIdentifier id) _ :: r => k id (PState r (sla s))
  | _ => PErr
  end.

(* `while next_matches(Comma) { items.push(item()?) }` ([acc] in reverse; no trailing comma) *)
Fixpoint strict_comma_loop {A} (item : pstate -> pres A) (n : nat) (acc : list A) (s : pstate) : pres (list A) :=
  match n with
  | O => PNoFuel
  | S n' =>
      match next_matches TComma s with
      | Some s1 => bindp (item s1) (fun a s2 => strict_comma_loop item n' (a :: acc) s2)
      | None => POk (rev acc) s
      end
  end.

Definition s_max : list N := Eval vm_compute in codes "max".
Definition s_min : list N := Eval vm_compute in codes "min".

(* fn parse_const_expr: the expressions that are constant expressions ([None]: InvalidConstExpr) *)
Fixpoint const_of_expr (e : uexpr) : option uconst :=
  let all := fix all (es : list uexpr) : option (list uconst) :=
    match es with
    | [] => Some []
    | y :: r => match const_of_expr y, all r with Some c, Some cs => Some (c :: cs) | _, _ => None end
    end in
  match e with
  | UTrue => Some CTrue
  | UFalse => Some CFalse
  | UNumUnsigned n t => Some (CNumUnsigned n t)
  | UNumSigned z t => Some (CNumSigned z t)
  | UEnumLiteral party identifier None => Some (CExternalValue party identifier)
  | UIdentifier identifier => Some (CIdent identifier)
  | UOp BAdd l r =>
      match const_of_expr l, const_of_expr r with Some cl, Some cr => Some (CAdd cl cr) | _, _ => None end
  | UOp BSub l r =>
      match const_of_expr l, const_of_expr r with Some cl, Some cr => Some (CSub cl cr) | _, _ => None end
  | UFnCall f args =>
      if list_eqb f s_max then match all args with Some cs => Some (CMax cs) | None => None end
      else if list_eqb f s_min then match all args with Some cs => Some (CMin cs) | None => None end
      else None
  | _ => None
  end.

(* fn parse_type; [pe]: parse_expr (for the size `const { .. }` of an array type) *)
Fixpoint parse_type (pe : pstate -> pres uexpr) (n : nat) (s : pstate) : pres utype :=
  match n with
  | O => PNoFuel
  | S n' =>
      match next_matches TLeftParen s with
      | Some s1 =>
          bindp (if negb (peek TRightParen s1)
                 then bindp (parse_type pe n' s1) (fun ty s2 => strict_comma_loop (parse_type pe n') n' [ty] s2)
                 else POk [] s1)
            (fun fields s2 => expect TRightParen s2 (fun s3 => POk (UTTuple fields) s3))
      | None =>
          match next_matches TLeftBracket s with
          | Some s1 =>
              bindp (parse_type pe n' s1) (fun ty s2 =>
                expect TSemicolon s2 (fun s3 =>
                  match toks s3 with
                  | Token (TUnsignedNum k UnspecifiedU) _ :: r
                  | Token (TUnsignedNum k Usize) _ :: r =>
                      expect TRightBracket (PState r (sla s3)) (fun s4 => POk (UTArray ty k) s4)
                  | Token (TIdentifier c) _ :: r =>
                      expect TRightBracket (PState r (sla s3)) (fun s4 => POk (UTArrayConst ty c) s4)
                  | Token TKeywordConst _ :: r =>
                      expect TLeftBrace (PState r (sla s3)) (fun s4 =>
                        bindp (pe s4) (fun e s5 =>
                          match const_of_expr e with
                          | Some c =>
                              expect TRightBrace s5 (fun s6 =>
                                expect TRightBracket s6 (fun s7 => POk (UTArrayConstExpr ty c) s7))
                          | None => PErr
                          end))
                  | _ => PErr
                  end))
          | None => expect_identifier s (fun id s1 => POk (type_of_name id) s1)
          end
      end
  end.

(* the operator tables of the binary levels: token -> how the node is built *)
Definition opt := token_enum -> option (uexpr -> uexpr -> uexpr).

Definition ops_sc_or : opt := fun t => match t with TDoubleBar => Some (UOp BShortCircuitOr) | _ => None end.
Definition ops_sc_and : opt := fun t => match t with TDoubleAmpersand => Some (UOp BShortCircuitAnd) | _ => None end.
Definition ops_equality : opt := fun t =>
  match t with TDoubleEq => Some (UOp BEq) | TBangEq => Some (UOp BNotEq) | _ => None end.
Definition ops_comparison : opt := fun t =>
  match t with
  | TLessThan => Some (UOp BLessThan)
  | TGreaterThan => Some (UOp BGreaterThan)
  (* `x <= y` is `!(x > y)`: both operands are evaluated exactly once *)
  | TLessThanEquals => Some (fun x y => UUnaryOp UoNot (UOp BGreaterThan x y))
  | TGreaterThanEquals => Some (fun x y => UUnaryOp UoNot (UOp BLessThan x y))
  | _ => None
  end.
Definition ops_or : opt := fun t => match t with TBar => Some (UOp BBitOr) | _ => None end.
Definition ops_xor : opt := fun t => match t with TCaret => Some (UOp BBitXor) | _ => None end.
Definition ops_and : opt := fun t => match t with TAmpersand => Some (UOp BBitAnd) | _ => None end.
Definition ops_shift : opt := fun t =>
  match t with TDoubleLessThan => Some (UOp BShiftLeft) | TDoubleGreaterThan => Some (UOp BShiftRight) | _ => None end.
Definition ops_term : opt := fun t => match t with TPlus => Some (UOp BAdd) | TMinus => Some (UOp BSub) | _ => None end.
Definition ops_factor : opt := fun t =>
  match t with TStar => Some (UOp BMul) | TSlash => Some (UOp BDiv) | TPercent => Some (UOp BMod) | _ => None end.

(* next_matches_one_of(&ops) *)
Definition next_op (ops : opt) (s : pstate) : option ((uexpr -> uexpr -> uexpr) * pstate) :=
  match toks s with
  | Token t _ :: r => match ops t with Some mk => Some (mk, PState r (sla s)) | None => None end
  | [] => None
  end.

(* `let mut x = sub()?; while let Some(op) = next_matches_one_of(ops) { let y = sub()?; x = Op(op, x, y) } Ok(x)` *)
Section BinLevel.
  Variable ops : opt.
  Variable sub : nat -> pstate -> pres uexpr.

  Fixpoint binloop (n : nat) (x : uexpr) (s : pstate) : pres uexpr :=
    match n with
    | O => PNoFuel
    | S n' =>
        match next_op ops s with
        | Some (mk, s1) => bindp (sub n' s1) (fun y s2 => binloop n' (mk x y) s2)
        | None => POk x s
        end
    end.

  Definition binlevel (n : nat) (s : pstate) : pres uexpr :=
    bindp (sub n s) (fun x s1 => binloop n x s1).
End BinLevel.

(* fn accessors in parse_stmt: is the expression an assignment target? *)
Fixpoint accessors (e : uexpr) : option (list N * list uaccessor) :=
  match e with
  | UIdentifier id => Some (id, [])
  | UArrayAccess a i =>
      match accessors a with Some (id, acc) => Some (id, (acc ++ [AArray i])%list) | None => None end
  | UTupleAccess a i =>
      match accessors a with Some (id, acc) => Some (id, (acc ++ [ATuple i])%list) | None => None end
  | UStructAccess a f =>
      match accessors a with Some (id, acc) => Some (id, (acc ++ [AStruct f])%list) | None => None end
  | _ => None
  end.

(* the compound assignment operators *)
Definition assign_op (t : token_enum) : option bin_op :=
  match t with
  | TAddAssign => Some BAdd | TSubAssign => Some BSub | TMulAssign => Some BMul
  | TDivAssign => Some BDiv | TRemAssign => Some BMod | TBitXorAssign => Some BBitXor
  | TBitAndAssign => Some BBitAnd | TBitOrAssign => Some BBitOr
  | TShrAssign => Some BShiftRight | TShlAssign => Some BShiftLeft
  | _ => None
  end.

(* `let mut target = Identifier(x); for access in accessors { target = Access(target, ..) }`:
   the target of `x.acc op= e` read as an expression (index expressions are CLONED) *)
Definition target_expr (x : list N) (accs : list uaccessor) : uexpr :=
  fold_left (fun target a =>
               match a with
               | AArray i => UArrayAccess target i
               | ATuple i => UTupleAccess target i
               | AStruct f => UStructAccess target f
               end) accs (UIdentifier x).

(* `if !peek(RightBrace) && !peek(Comma) { expect(Semicolon)? }` *)
Definition opt_semicolon {A} (s : pstate) (k : pstate -> pres A) : pres A :=
  if negb (peek TRightBrace s) && negb (peek TComma s) then expect TSemicolon s k else k s.

(* fields.sort_by(|(f1, _), (f2, _)| f1.cmp(f2)): a stable sort on the names (byte strings) *)
Fixpoint name_ltb (a b : list N) : bool :=
  match a, b with
  | _, [] => false
  | [], _ :: _ => true
  | x :: a', y :: b' => (x <? y) || ((x =? y) && name_ltb a' b')
  end.
Fixpoint insert_field {A} (f : list N * A) (l : list (list N * A)) : list (list N * A) :=
  match l with
  | [] => [f]
  | g :: r => if name_ltb (fst f) (fst g) then f :: l else g :: insert_field f r
  end.
Definition sort_fields {A} (l : list (list N * A)) : list (list N * A) :=
  fold_left (fun acc f => insert_field f acc) l [].

(* the loop condition of parse_stmts_of_block *)
Definition block_ends (s : pstate) : bool :=
  match toks s with
  | [] => true
  | _ => peek TRightBrace s || peek TComma s || peek TKeywordPub s || peek TKeywordFn s
         || peek TKeywordStruct s || peek TKeywordEnum s
  end.

(* `if let ExprEnum::NumUnsigned(i, Unspecified) = index.inner { index.inner = NumUnsigned(i, Usize) }`:
   an unsuffixed number that is the WHOLE index is a usize *)
Definition retype_index (index : uexpr) : uexpr :=
  match index with
  | UNumUnsigned i UnspecifiedU => UNumUnsigned i Usize
  | _ => index
  end.

(* `items.push(item()?); while next_matches(Comma) { if peek(close) { break } items.push(item()?) }`
   ([acc] in reverse) *)
Fixpoint sep_loop {A} (item : pstate -> pres A) (close : token_enum) (n : nat) (acc : list A) (s : pstate)
  : pres (list A) :=
  match n with
  | O => PNoFuel
  | S n' =>
      match next_matches TComma s with
      | Some s1 =>
          if peek close s1 then POk (rev acc) s1
          else bindp (item s1) (fun e s2 => sep_loop item close n' (e :: acc) s2)
      | None => POk (rev acc) s
      end
  end.

(* `(p, .., p)` after the `(`: the fields of a tuple / enum-tuple pattern *)
Definition pattern_fields (pp : pstate -> pres upattern) (n : nat) (s : pstate) : pres (list upattern) :=
  bindp (if negb (peek TRightParen s) then bindp (pp s) (fun p s1 => sep_loop pp TRightParen n [p] s1)
         else POk [] s)
    (fun fields s1 => expect TRightParen s1 (fun s2 => POk fields s2)).

(* one field of a struct pattern: `name` or `name: pattern` *)
Definition pattern_field (pp : pstate -> pres upattern) (s : pstate) : pres (list N * upattern) :=
  expect_identifier s (fun fname s1 =>
    if peek TComma s1 || peek TRightBrace s1 then POk (fname, PIdentifier fname) s1
    else expect TColon s1 (fun s2 => bindp (pp s2) (fun p s3 => POk (fname, p) s3))).

(* `while next_matches(Comma) { if peek(}) { break } if next_matches(..) { ignore = true; break } field }` *)
Fixpoint field_loop (pp : pstate -> pres upattern) (n : nat) (acc : list (list N * upattern)) (s : pstate)
  : pres (list (list N * upattern) * bool) :=
  match n with
  | O => PNoFuel
  | S n' =>
      match next_matches TComma s with
      | Some s1 =>
          if peek TRightBrace s1 then POk (rev acc, false) s1
          else match next_matches TDoubleDot s1 with
               | Some s2 => POk (rev acc, true) s2
               | None => bindp (pattern_field pp s1) (fun f s2 => field_loop pp n' (f :: acc) s2)
               end
      | None => POk (rev acc, false) s
      end
  end.

(* i64::MIN: `range_end.checked_sub(1)` is None there *)
Definition i64_min : Z := (-9223372036854775808)%Z.

(* fn parse_pattern *)
Fixpoint parse_pattern (n : nat) (s : pstate) : pres upattern :=
  match n with
  | O => PNoFuel
  | S n' =>
      match toks s with
      | Token (TIdentifier id) _ :: r =>
          let s1 := PState r (sla s) in
          if list_eqb id s_true then POk PTrue s1
          else if list_eqb id s_false then POk PFalse s1
          else
            match next_matches TDoubleColon s1 with
            | Some s2 =>
                expect_identifier s2 (fun variant s3 =>
                  if peek TLeftParen s3 then
                    expect TLeftParen s3 (fun s4 =>
                      bindp (pattern_fields (parse_pattern n') n' s4) (fun fields s5 =>
                        POk (PEnumTuple id variant fields) s5))
                  else POk (PEnumUnit id variant) s3)
            | None =>
                match next_matches TLeftBrace s1 with
                | Some s2 =>
                    bindp (if negb (peek TRightBrace s2)
                           then bindp (pattern_field (parse_pattern n') s2) (fun f s3 =>
                                  field_loop (parse_pattern n') n' [f] s3)
                           else POk ([], false) s2)
                      (fun fi s3 =>
                         expect TRightBrace s3 (fun s4 =>
                           if snd fi then POk (PStructIgnoreRemaining id (sort_fields (fst fi))) s4
                           else POk (PStruct id (sort_fields (fst fi))) s4))
                | None => POk (PIdentifier id) s1
                end
            end
      | Token (TUnsignedNum k ty) _ :: r =>
          let s1 := PState r (sla s) in
          if peek TDoubleDot s1 || peek TDoubleDotEquals s1 then
            let is_inclusive := peek TDoubleDotEquals s1 in
            match toks s1 with
            | _ :: Token (TUnsignedNum range_end ty_end) _ :: r2 =>
                if unsigned_num_type_eq_dec ty ty_end then
                  if is_inclusive then POk (PUnsignedInclusiveRange k range_end ty) (PState r2 (sla s))
                  else if range_end =? 0 then PErr       (* checked_sub(1): an empty range *)
                  else POk (PUnsignedInclusiveRange k (range_end - 1) ty) (PState r2 (sla s))
                else PErr
            | _ => PErr
            end
          else POk (PNumUnsigned k ty) s1
      | Token (TSignedNum k ty) _ :: r =>
          let s1 := PState r (sla s) in
          if peek TDoubleDot s1 || peek TDoubleDotEquals s1 then
            let is_inclusive := peek TDoubleDotEquals s1 in
            match toks s1 with
            | _ :: Token (TSignedNum range_end ty_end) _ :: r2 =>
                if signed_num_type_eq_dec ty ty_end then
                  if is_inclusive then POk (PSignedInclusiveRange k range_end ty) (PState r2 (sla s))
                  else if (range_end =? i64_min)%Z then PErr
                  else POk (PSignedInclusiveRange k (range_end - 1) ty) (PState r2 (sla s))
                else PErr
            | _ => PErr
            end
          else POk (PNumSigned k ty) s1
      | Token TLeftParen _ :: r =>
          bindp (pattern_fields (parse_pattern n') n' (PState r (sla s))) (fun fields s1 =>
            POk (PTuple fields) s1)
      | _ => PErr
      end
  end.

(* fn parse_literal(token, only_literal_children): the children are parsed by [pe], which is
   parse_expr (only_literal_children = false) or parse_literal_recusively (true) *)
Section Literal.
  Variable only_literal_children : bool.
  Variable pe : pstate -> pres uexpr.


  (* `args.push(parse_expr()?); while next_matches(Comma) { if peek(close) { break } args.push(parse_expr()?) }`
     ([acc] in reverse) *)
  Fixpoint comma_loop (close : token_enum) (n : nat) (acc : list uexpr) (s : pstate) : pres (list uexpr) :=
    match n with
    | O => PNoFuel
    | S n' =>
        match next_matches TComma s with
        | Some s1 =>
            if peek close s1 then POk (rev acc) s1
            else bindp (pe s1) (fun e s2 => comma_loop close n' (e :: acc) s2)
        | None => POk (rev acc) s
        end
    end.

  (* one field of a struct literal: `name` (the variable of that name; not a literal) or `name: e` *)
  Definition struct_field (s : pstate) : pres (list N * uexpr) :=
    expect_identifier s (fun name s1 =>
      if peek TComma s1 || peek TRightBrace s1
      then (if only_literal_children then PErr else POk (name, UIdentifier name) s1)
      else expect TColon s1 (fun s2 => bindp (pe s2) (fun value s3 => POk (name, value) s3))).

  (* `(Unspecified, ty) | (ty, Unspecified) => ty, (ty1, ty2) if ty1 == ty2 => ty1, _ => error` *)
  Definition range_type (t1 t2 : unsigned_num_type) : option unsigned_num_type :=
    match t1, t2 with
    | UnspecifiedU, ty => Some ty
    | ty, UnspecifiedU => Some ty
    | _, _ => if unsigned_num_type_eq_dec t1 t2 then Some t1 else None
    end.

  (* fn parse_literal(token, only_literal_children) *)
  Definition parse_literal_gen (n : nat) (t : token_enum) (s : pstate) : pres uexpr :=
    match t with
    | TIdentifier id =>
        if list_eqb id s_true then POk UTrue s
        else if list_eqb id s_false then POk UFalse s
        else
          match next_matches TDoubleColon s with
          | Some s1 =>
              (* E::V  /  E::V(e, ..) *)
              expect_identifier s1 (fun variant s2 =>
                match next_matches TLeftParen s2 with
                | Some s3 =>
                    bindp (if negb (peek TRightParen s3)
                           then bindp (pe s3) (fun a s4 => comma_loop TRightParen n [a] s4)
                           else POk [] s3)
                      (fun fields s4 => expect TRightParen s4 (fun s5 =>
                         POk (UEnumLiteral id variant (Some fields)) s5))
                | None => POk (UEnumLiteral id variant None) s2
                end)
          | None =>
              (* `next_matches(LeftBrace).is_some() && struct_literals_allowed` *)
              match next_matches TLeftBrace s with
              | Some s1 =>
                  if sla s then
                    bindp (if negb (peek TRightBrace s1)
                           then bindp (struct_field s1) (fun f s2 => sep_loop struct_field TRightBrace n [f] s2)
                           else POk [] s1)
                      (fun fields s2 => expect TRightBrace s2 (fun s3 =>
                         POk (UStructLiteral id (sort_fields fields)) s3))
                  else PErr
              | None => PErr
              end
          end
    | TUnsignedNum v ty =>
        match next_matches TDoubleDot s with
        | Some s1 =>
            match toks s1 with
            | Token (TUnsignedNum range_end ty_end) _ :: r =>
                match range_type ty ty_end with
                | Some num_ty => POk (URange v range_end num_ty) (PState r (sla s1))
                | None => PErr          (* InvalidRangeTypes: an error is pushed *)
                end
            | _ => PErr
            end
        | None => POk (UNumUnsigned v ty) s
        end
    | TSignedNum v ty => POk (UNumSigned v ty) s
    | TLeftParen =>
        if negb (peek TRightParen s) then
          bindp (pe s) (fun e s1 =>
            if peek TComma s1 then
              bindp (comma_loop TRightParen n [e] s1) (fun fields s2 =>
                expect TRightParen s2 (fun s3 => POk (UTupleLiteral fields) s3))
            else expect TRightParen s1 (fun s2 => POk e s2))
        else expect TRightParen s (fun s1 => POk (UTupleLiteral []) s1)
    | TLeftBracket =>
        bindp (pe s) (fun elem s1 =>
          if peek TSemicolon s1 then
            expect TSemicolon s1 (fun s2 =>
              match toks s2 with
              | Token (TUnsignedNum k UnspecifiedU) _ :: r
              | Token (TUnsignedNum k Usize) _ :: r =>
                  expect TRightBracket (PState r (sla s2)) (fun s3 => POk (UArrayRepeat elem k) s3)
              | Token (TIdentifier c) _ :: r =>
                  if only_literal_children then PErr      (* `Some(Identifier(n)) if !only_literal_children` *)
                  else expect TRightBracket (PState r (sla s2)) (fun s3 => POk (UArrayRepeatConst elem c) s3)
              | _ => PErr
              end)
          else
            bindp (comma_loop TRightBracket n [elem] s1) (fun elems s2 =>
              expect TRightBracket s2 (fun s3 => POk (UArrayLiteral elems) s3)))
    | _ => PErr
    end.

End Literal.

Section WithExpr.
  (* parse_expr, one nesting level down *)
  Variable pe : pstate -> pres uexpr.

  (* fn parse_literal(token, false) *)
  Definition parse_literal (n : nat) (t : token_enum) (s : pstate) : pres uexpr :=
    parse_literal_gen false pe n t s.

  (* the loop at the end of parse_primary: `while peek([) || peek(.) { .. }` *)
  Fixpoint postfix_loop (n : nat) (x : uexpr) (s : pstate) : pres uexpr :=
    match n with
    | O => PNoFuel
    | S n' =>
        if peek TLeftBracket s || peek TDot s then
          match next_matches TLeftBracket s with
          | Some s1 =>
              (* the index is always a full expression (`a[1 + i]`); retyped when it is a bare
                 unsuffixed number (`a[1]`, also `a[(1)]`); then `]` *)
              bindp (pe s1) (fun index s2 =>
                let index := retype_index index in
                expect TRightBracket s2 (fun s3 => postfix_loop n' (UArrayAccess x index) s3))
          | None =>
              match next_matches TDot s with
              | Some s1 =>
                  match toks s1 with
                  | Token (TIdentifier f) _ :: r => postfix_loop n' (UStructAccess x f) (PState r (sla s1))
                  | Token (TUnsignedNum i UnspecifiedU) _ :: r => postfix_loop n' (UTupleAccess x i) (PState r (sla s1))
                  | _ => PErr
                  end
              | None => POk x s       (* unreachable *)
              end
          end
        else POk x s
    end.

  (* the first part of parse_primary: the expression before the postfix loop *)
  Definition parse_primary_base (n : nat) (s : pstate) : pres uexpr :=
    match advance s with
    | Some (t, s1) =>
        match t with
        | TIdentifier id =>
            if list_eqb id s_true || list_eqb id s_false then parse_literal n t s1
            else if peek TDoubleColon s1 then parse_literal n t s1
            else
              match next_matches TLeftParen s1 with
              | Some s2 =>
                  bindp (if negb (peek TRightParen s2)
                         then bindp (pe s2) (fun a s3 => comma_loop pe TRightParen n [a] s3)
                         else POk [] s2)
                    (fun args s3 => expect TRightParen s3 (fun s4 => POk (UFnCall id args) s4))
              | None =>
                  if peek TLeftBrace s1 && sla s1 then parse_literal n t s1
                  else POk (UIdentifier id) s1
              end
        | _ => parse_literal n t s1
        end
    | None => PErr
    end.

  Definition parse_primary (n : nat) (s : pstate) : pres uexpr :=
    bindp (parse_primary_base n s) (fun x s1 => postfix_loop n x s1).

  Fixpoint parse_unary (n : nat) (s : pstate) : pres uexpr :=
    match n with
    | O => PNoFuel
    | S n' =>
        match next_matches TBang s with
        | Some s1 => bindp (parse_unary n' s1) (fun u s2 => POk (UUnaryOp UoNot u) s2)
        | None =>
            match next_matches TMinus s with
            | Some s1 => bindp (parse_unary n' s1) (fun u s2 => POk (UUnaryOp UoNeg u) s2)
            | None => parse_primary n' s
            end
        end
    end.

  (* `: <type>`? *)
  Definition opt_type {A} (n : nat) (s : pstate) (k : option utype -> pstate -> pres A) : pres A :=
    match next_matches TColon s with
    | Some s1 => bindp (parse_type pe n s1) (fun ty s2 => k (Some ty) s2)
    | None => k None s
    end.

  (* fn parse_stmt *)
  Definition parse_stmt (n : nat) (s : pstate) : pres ustmt :=
    match next_matches TKeywordLet s with
    | Some s1 =>
        match next_matches TKeywordMut s1 with
        | Some s2 =>
            (* let mut <identifier> = <binding>; *)
            expect_identifier s2 (fun identifier s3 =>
              opt_type n s3 (fun ty s4 =>
                expect TEq s4 (fun s5 =>
                  bindp (pe s5) (fun binding s6 =>
                    expect TSemicolon s6 (fun s7 => POk (SLetMut identifier ty binding) s7)))))
        | None =>
            (* let <pattern> = <binding>; *)
            bindp (parse_pattern n s1) (fun pattern s3 =>
              opt_type n s3 (fun ty s4 =>
                expect TEq s4 (fun s5 =>
                  bindp (pe s5) (fun binding s6 =>
                    expect TSemicolon s6 (fun s7 => POk (SLet pattern ty binding) s7)))))
        end
    | None =>
        match next_matches TKeywordFor s with
        | Some s1 =>
            (* for <pattern> in <binding> { <body> } *)
            bindp (parse_pattern n s1) (fun pattern s2 =>
              expect TKeywordIn s2 (fun s3 =>
                let struct_literals_allowed := sla s3 in
                bindp (pe (set_sla false s3)) (fun binding s4 =>
                  let s5 := set_sla struct_literals_allowed s4 in
                  (* expect({); parse_stmts(); expect(}): parse_expr on the `{` *)
                  if peek TLeftBrace s5 then
                    bindp (pe s5) (fun blk s6 =>
                      match blk with
                      | UBlock loop_body => POk (SForEach pattern binding loop_body) s6
                      | _ => PErr     (* unreachable *)
                      end)
                  else PErr)))
        | None =>
            let is_conditional_or_block := peek TKeywordIf s || peek TKeywordMatch s || peek TLeftBrace s in
            bindp (pe s) (fun e s1 =>
              match accessors e with
              | Some (identifier, accs) =>
                  match next_matches TEq s1 with
                  | Some s2 =>
                      bindp (pe s2) (fun value s3 =>
                        opt_semicolon s3 (fun s4 => POk (SVarAssign identifier accs value) s4))
                  | None =>
                      match toks s1 with
                      | Token next _ :: r =>
                          match assign_op next with
                          | Some op =>
                              bindp (pe (PState r (sla s1))) (fun value s3 =>
                                opt_semicolon s3 (fun s4 =>
                                  (* x.acc op= value  ~>  x.acc = x.acc op value *)
                                  POk (SVarAssign identifier accs (UOp op (target_expr identifier accs) value)) s4))
                          | None => opt_semicolon s1 (fun s2 => POk (SExpr e) s2)
                          end
                      | [] => opt_semicolon s1 (fun s2 => POk (SExpr e) s2)
                      end
                  end
              | None =>
                  if negb is_conditional_or_block && negb (peek TRightBrace s1) && negb (peek TComma s1)
                  then expect TSemicolon s1 (fun s2 => POk (SExpr e) s2) else POk (SExpr e) s1
              end)
        end
    end.

  (* fn parse_stmts_of_block ([acc] in reverse) *)
  Fixpoint stmts_loop (n : nat) (acc : list ustmt) (s : pstate) : pres (list ustmt) :=
    match n with
    | O => PNoFuel
    | S n' =>
        if block_ends s then POk (rev acc) s
        else bindp (parse_stmt n' s) (fun stmt s1 => stmts_loop n' (stmt :: acc) s1)
    end.

  Definition parse_stmts_of_block (n : nat) (s : pstate) : pres (list ustmt) := stmts_loop n [] s.

  (* fn parse_stmts: inside the braces of a block struct literals are allowed again *)
  Definition parse_stmts (n : nat) (s : pstate) : pres (list ustmt) :=
    let struct_literals_allowed := sla s in
    bindp (parse_stmts_of_block n (set_sla true s)) (fun stmts s1 =>
      POk stmts (set_sla struct_literals_allowed s1)).

  (* fn parse_block_as_expr: exactly one expression statement is that expression, no statement
     is `()`, anything else a Block *)
  Definition parse_block_as_expr (n : nat) (s : pstate) : pres uexpr :=
    bindp (parse_stmts n s) (fun stmts s1 =>
      match stmts with
      | [SExpr e] => POk e s1
      | [] => POk (UTupleLiteral []) s1
      | _ => POk (UBlock stmts) s1
      end).

  (* fn parse_match_clause: (clause, ends_with_brace) *)
  Definition parse_match_clause (n : nat) (s : pstate) : pres ((upattern * uexpr) * bool) :=
    bindp (parse_pattern n s) (fun pattern s1 =>
      expect TFatArrow s1 (fun s2 =>
        bindp (parse_stmt n s2) (fun stmt s3 =>
          let ends_with_brace :=
            match stmt with
            | SExpr (UMatch _ _) | SExpr (UBlock _) | SExpr (UIf _ _ _) => true
            | _ => false
            end in
          POk ((pattern, UBlock [stmt]), ends_with_brace) s3))).

  (* `while next_matches(Comma).is_some() || clause_ended_with_brace { if peek(}) || at_end { break } clause }`
     ([acc] in reverse) *)
  Fixpoint match_loop (n : nat) (ended_with_brace : bool) (acc : list (upattern * uexpr)) (s : pstate)
    : pres (list (upattern * uexpr)) :=
    match n with
    | O => PNoFuel
    | S n' =>
        let go s1 :=
          if peek TRightBrace s1 || (match toks s1 with [] => true | _ => false end) then POk (rev acc) s1
          else bindp (parse_match_clause n' s1) (fun ce s2 => match_loop n' (snd ce) (fst ce :: acc) s2) in
        match next_matches TComma s with
        | Some s1 => go s1
        | None => if ended_with_brace then go s else POk (rev acc) s
        end
    end.

  Fixpoint parse_if_or_match (n : nat) (s : pstate) : pres uexpr :=
    match n with
    | O => PNoFuel
    | S n' =>
        match next_matches TKeywordIf s with
        | Some s1 =>
            let struct_literals_allowed := sla s1 in
            bindp (pe (set_sla false s1)) (fun cond_expr s2 =>
              let s3 := set_sla struct_literals_allowed s2 in
              expect TLeftBrace s3 (fun s4 =>
                bindp (parse_block_as_expr n' s4) (fun then_expr s5 =>
                  expect TRightBrace s5 (fun s6 =>
                    match next_matches TKeywordElse s6 with
                    | Some s7 =>
                        if peek TKeywordIf s7 then
                          (* only the `if` expression itself: operators after the chain apply to
                             the whole chain, not to its last `else if` *)
                          bindp (parse_if_or_match n' s7) (fun elseif_expr s8 =>
                            POk (UIf cond_expr then_expr elseif_expr) s8)
                        else
                          expect TLeftBrace s7 (fun s8 =>
                            bindp (parse_block_as_expr n' s8) (fun else_expr s9 =>
                              expect TRightBrace s9 (fun s10 =>
                                POk (UIf cond_expr then_expr else_expr) s10)))
                    | None => POk (UIf cond_expr then_expr (UTupleLiteral [])) s6
                    end))))
        | None =>
            match next_matches TKeywordMatch s with
            | Some s1 =>
                (* match <match_expr> { <clause> * } *)
                let struct_literals_allowed := sla s1 in
                bindp (pe (set_sla false s1)) (fun match_expr s2 =>
                  let s3 := set_sla struct_literals_allowed s2 in
                  expect TLeftBrace s3 (fun s4 =>
                    bindp (parse_match_clause n' s4) (fun ce s5 =>
                      bindp (match_loop n' (snd ce) [fst ce] s5) (fun clauses s6 =>
                        expect TRightBrace s6 (fun s7 => POk (UMatch match_expr clauses) s7)))))
            | None => parse_unary n' s
            end
        end
    end.

  (* `while next_matches(KeywordAs) { ty = parse_type()?; x = Cast(ty, x) }` *)
  Fixpoint cast_loop (n : nat) (x : uexpr) (s : pstate) : pres uexpr :=
    match n with
    | O => PNoFuel
    | S n' =>
        match next_matches TKeywordAs s with
        | Some s1 => bindp (parse_type pe n' s1) (fun ty s2 => cast_loop n' (UCast ty x) s2)
        | None => POk x s
        end
    end.

  Definition parse_cast (n : nat) (s : pstate) : pres uexpr :=
    bindp (parse_if_or_match n s) (fun x s1 => cast_loop n x s1).

  Definition parse_factor := binlevel ops_factor parse_cast.
  Definition parse_term := binlevel ops_term parse_factor.
  Definition parse_shift := binlevel ops_shift parse_term.
  Definition parse_and := binlevel ops_and parse_shift.
  Definition parse_xor := binlevel ops_xor parse_and.
  Definition parse_or := binlevel ops_or parse_xor.
  Definition parse_comparison := binlevel ops_comparison parse_or.
  Definition parse_equality := binlevel ops_equality parse_comparison.
  Definition parse_short_circuiting_and := binlevel ops_sc_and parse_equality.
  Definition parse_short_circuiting_or := binlevel ops_sc_or parse_short_circuiting_and.

  (* fn parse_expr, given parse_expr one level down *)
  Definition parse_expr_body (n : nat) (s : pstate) : pres uexpr :=
    match next_matches TLeftBrace s with
    | Some s1 =>
        (* { ... } *)
        bindp (parse_stmts n s1) (fun stmts s2 =>
          expect TRightBrace s2 (fun s3 => POk (UBlock stmts) s3))
    | None => parse_short_circuiting_or n s
    end.
End WithExpr.

Fixpoint parse_expr_st (fuel : nat) (s : pstate) : pres uexpr :=
  match fuel with
  | O => PNoFuel
  | S f => parse_expr_body (parse_expr_st f) f s
  end.

(* the entry point: an expression at the front of a token list, struct literals allowed
   (the state of a fresh parser) *)
Definition parse_expr (fuel : nat) (ts : list token) : option (uexpr * list token) :=
  match parse_expr_st fuel (PState ts true) with
  | POk e s => Some (e, toks s)
  | _ => None
  end.

(* the body of a function: [ts] = the tokens between the braces of `{ .. }` (parse_fn_def:
   `expect({); let body = parse_stmts()?; expect(})`), struct literals allowed.  The closing
   brace is put back behind [ts] (the `;` rules of the last statement look at it), expected
   after the statements, and nothing may follow it *)
Definition parse_block_text (fuel : nat) (ts : list token) : pres (list ustmt) :=
  let closing := Token TRightBrace (Meta (0, 0) (0, 0)) in
  bindp (parse_stmts (parse_expr_st fuel) fuel (PState (ts ++ [closing]) true)) (fun stmts s =>
    expect TRightBrace s (fun s1 =>
      match toks s1 with [] => POk stmts s1 | _ => PErr end)).

(* a generous amount of fuel for a token list: every unit of fuel is spent together with a
   token (a loop iteration, a unary operator, a nesting level).  Front/ParseTotal.v proves that
   length + 4 suffices for every token list (parse_expr_st_default: this value + 2);
   [parse_show_min] of ParseExprProofs.v gives some fuel for the printed inputs; this value
   is a default for the extracted parser. *)
Definition fuel_for_tokens (ts : list token) : nat := S (S (List.length ts)).

(* ------------------------------------------------------------------ the literal mode *)

(* fn parse_literal_recusively: `if let Some(token) = self.advance() { parse_literal(token, true) } else { Err }` *)
Fixpoint parse_literal_recursively (n : nat) (s : pstate) : pres uexpr :=
  match n with
  | O => PNoFuel
  | S n' =>
      match advance s with
      | Some (t, s1) => parse_literal_gen true (parse_literal_recursively n') n' t s1
      | None => PErr
      end
  end.

(* Tokens::parse_literal (used by Literal::parse for argument texts): the first token starts a
   literal whose children are literals; the whole input must be that one literal; an error that
   does not stop the parser (`0u8..3u16`) is an error nonetheless ([PErr] already where it is
   pushed); the empty input is an InvalidLiteral *)
Definition parse_literal_text (fuel : nat) (ts : list token) : pres uexpr :=
  match advance (PState ts true) with
  | Some (t, s1) =>
      bindp (parse_literal_gen true (parse_literal_recursively fuel) fuel t s1) (fun e s2 =>
        match toks s2 with [] => POk e s2 | _ => PErr end)
  | None => PErr
  end.

(* ------------------------------------------------------------------ top-level items *)

Inductive uvariant :=
| VUnit (name : list N)
| VTuple (name : list N) (fields : list utype).

(* ParamDef { mutability, name, ty } *)
Record uparam := UParam { p_mutable : bool; p_name : list N; p_ty : utype }.

(* FnDef { is_pub, identifier, ty, params, body } *)
Record ufndef := UFnDef {
  f_is_pub : bool; f_identifier : list N; f_ty : utype; f_params : list uparam; f_body : list ustmt }.

(* ConstDef { ty, value } *)
Record uconstdef := UConstDef { c_ty : utype; c_value : uconst }.

(* Program { const_defs, struct_defs, enum_defs, fn_defs }: the four HashMaps, as association
   lists; StructDef { fields } (sorted by name), EnumDef { variants } *)
Record uprogram := UProgram {
  up_const_defs : list (list N * uconstdef);
  up_struct_defs : list (list N * list (list N * utype));
  up_enum_defs : list (list N * list uvariant);
  up_fn_defs : list (list N * ufndef) }.

(* HashMap::insert *)
Definition map_insert {A} (k : list N) (v : A) (m : list (list N * A)) : list (list N * A) :=
  (filter (fun kv => negb (list_eqb (fst kv) k)) m ++ [(k, v)])%list.

Section TopLevel.
  Variable fuel : nat.
  Let pe := parse_expr_st fuel.

  (* fn parse_const_def (the keyword is consumed) *)
  Definition parse_const_def (s : pstate) : pres (list N * uconstdef) :=
    expect_identifier s (fun identifier s1 =>
      expect TColon s1 (fun s2 =>
        bindp (parse_type pe fuel s2) (fun ty s3 =>
          expect TEq s3 (fun s4 =>
            bindp (pe s4) (fun e s5 =>
              match const_of_expr e with
              | Some value => expect TSemicolon s5 (fun s6 => POk (identifier, UConstDef ty value) s6)
              | None => PErr
              end))))).

  (* `name: type` *)
  Definition parse_field_def (s : pstate) : pres (list N * utype) :=
    expect_identifier s (fun name s1 =>
      expect TColon s1 (fun s2 => bindp (parse_type pe fuel s2) (fun ty s3 => POk (name, ty) s3))).

  (* fn parse_struct_def *)
  Definition parse_struct_def (s : pstate) : pres (list N * list (list N * utype)) :=
    expect_identifier s (fun identifier s1 =>
      expect TLeftBrace s1 (fun s2 =>
        bindp (if negb (peek TRightBrace s2)
               then bindp (parse_field_def s2) (fun f s3 => sep_loop parse_field_def TRightBrace fuel [f] s3)
               else POk [] s2)
          (fun fields s3 => expect TRightBrace s3 (fun s4 => POk (identifier, sort_fields fields) s4)))).

  (* fn parse_variant *)
  Definition parse_variant (s : pstate) : pres uvariant :=
    expect_identifier s (fun variant_name s1 =>
      match next_matches TLeftParen s1 with
      | Some s2 =>
          bindp (match toks s2 with
                 | Token (TIdentifier _) _ :: _ => bindp (parse_type pe fuel s2) (fun ty s3 => POk [ty] s3)
                 | _ => POk [] s2
                 end)
            (fun first s3 =>
               bindp (sep_loop (parse_type pe fuel) TRightParen fuel (rev first) s3) (fun fields s4 =>
                 expect TRightParen s4 (fun s5 => POk (VTuple variant_name fields) s5)))
      | None => POk (VUnit variant_name) s1
      end).

  (* fn parse_enum_def *)
  Definition parse_enum_def (s : pstate) : pres (list N * list uvariant) :=
    expect_identifier s (fun identifier s1 =>
      expect TLeftBrace s1 (fun s2 =>
        bindp (parse_variant s2) (fun v s3 =>
          bindp (sep_loop parse_variant TRightBrace fuel [v] s3) (fun variants s4 =>
            expect TRightBrace s4 (fun s5 => POk (identifier, variants) s5))))).

  (* fn parse_param: mut <param>: <type> *)
  Definition parse_param (s : pstate) : pres uparam :=
    let (is_mutable, s1) := match next_matches TKeywordMut s with Some s1 => (true, s1) | None => (false, s) end in
    expect_identifier s1 (fun name s2 =>
      expect TColon s2 (fun s3 => bindp (parse_type pe fuel s3) (fun ty s4 => POk (UParam is_mutable name ty) s4))).

  (* fn parse_params *)
  Definition parse_params (s : pstate) : pres (list uparam) :=
    bindp (parse_param s) (fun p s1 => sep_loop parse_param TRightParen fuel [p] s1).

  (* fn parse_fn_def *)
  Definition parse_fn_def (is_pub : bool) (s : pstate) : pres ufndef :=
    expect_identifier s (fun identifier s1 =>
      expect TLeftParen s1 (fun s2 =>
        bindp (if negb (peek TRightParen s2) then parse_params s2 else POk [] s2) (fun params s3 =>
          expect TRightParen s3 (fun s4 =>
            expect TArrow s4 (fun s5 =>
              bindp (parse_type pe fuel s5) (fun ty s6 =>
                expect TLeftBrace s6 (fun s7 =>
                  bindp (parse_stmts pe fuel s7) (fun body s8 =>
                    expect TRightBrace s8 (fun s9 =>
                      POk (UFnDef is_pub identifier ty params body) s9))))))))).

  (* fn parse: `while let Some(token) = self.advance() { match token { .. } }` *)
  Fixpoint items_loop (n : nat) (is_pub : bool) (prog : uprogram) (s : pstate) : pres uprogram :=
    match n with
    | O => PNoFuel
    | S n' =>
        match advance s with
        | None => POk prog s
        | Some (t, s1) =>
            match t with
            | TKeywordPub => if is_pub then PErr else items_loop n' true prog s1
            | TKeywordConst =>
                bindp (parse_const_def s1) (fun d s2 =>
                  items_loop n' false
                    (UProgram (map_insert (fst d) (snd d) (up_const_defs prog)) (up_struct_defs prog)
                              (up_enum_defs prog) (up_fn_defs prog)) s2)
            | TKeywordStruct =>
                bindp (parse_struct_def s1) (fun d s2 =>
                  items_loop n' false
                    (UProgram (up_const_defs prog) (map_insert (fst d) (snd d) (up_struct_defs prog))
                              (up_enum_defs prog) (up_fn_defs prog)) s2)
            | TKeywordEnum =>
                bindp (parse_enum_def s1) (fun d s2 =>
                  items_loop n' false
                    (UProgram (up_const_defs prog) (up_struct_defs prog)
                              (map_insert (fst d) (snd d) (up_enum_defs prog)) (up_fn_defs prog)) s2)
            | TKeywordFn =>
                bindp (parse_fn_def is_pub s1) (fun d s2 =>
                  items_loop n' false
                    (UProgram (up_const_defs prog) (up_struct_defs prog) (up_enum_defs prog)
                              (map_insert (f_identifier d) d (up_fn_defs prog))) s2)
            | _ => PErr          (* InvalidTopLevelDef *)
            end
        end
    end.
End TopLevel.

(* a whole program text: struct literals allowed (a fresh parser) *)
Definition parse_program_text (fuel : nat) (ts : list token) : pres uprogram :=
  items_loop fuel fuel false (UProgram [] [] [] []) (PState ts true).
