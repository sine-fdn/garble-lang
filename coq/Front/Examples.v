(* Non-vacuity: concrete, non-trivial instances of the C07 theorems, computed inside Coq. *)
From GV Require Import Base.Util Front.Scan Front.ScanProofs Front.Prettify Front.PrettifyProofs.
From Coq Require Import String.
Local Open Scope string_scope.

(* a text with a keyword, an identifier, a suffixed negative literal, a block comment and a
   token that starts after a line break (its start lies on the previous line: the quirk of
   `current_token_start`, faithfully reproduced) *)
Example scan_tokens_example :
  scan_text (codes "let x = -5i8; /* c */
y") =
  Ok (STokens
        [Token TKeywordLet (Meta (0, 0) (0, 2));
         Token (TIdentifier [120]) (Meta (0, 3) (0, 4));
         Token TEq (Meta (0, 5) (0, 6));
         Token (TSignedNum (-5) I8) (Meta (0, 7) (0, 11));
         Token TSemicolon (Meta (0, 11) (0, 12));
         Token (TIdentifier [121]) (Meta (0, 13) (1, 1))]).
Proof. vm_compute. reflexivity. Qed.

(* the repaired scanner reports an unterminated block comment as an error *)
Example scan_error_example :
  scan_text (codes "1 /* x") =
  Ok (SErrors [ScanError UnterminatedBlockComment (Meta (0, 6) (0, 6))]).
Proof. vm_compute. reflexivity. Qed.

(* the hypotheses of prettify_meta_safe are satisfied by a location on the last line *)
Example prettify_example :
  prettify_meta (codes "ab
cd") (Meta (1, 0) (1, 2)) =
  Ok (codes "       | ab
   2 > | cd
     > | ^^
") /\ meta_ok (nl (codes "ab
cd")) (Meta (1, 0) (1, 2)).
Proof.
  split; [vm_compute; reflexivity|].
  split; [right; cbn [fst snd m_start m_end]; split; [reflexivity|lia]|].
  vm_compute. discriminate.
Qed.

(* the index at lib.rs:526 really goes out of bounds when the hypothesis on the end line is
   dropped: prettify_meta_safe is not vacuous and its hypothesis is needed *)
Example prettify_crash_example :
  prettify_meta (codes "x") (Meta (0, 0) (2, 1)) = Crash.
Proof. vm_compute. reflexivity. Qed.
