(* The result [POutside] ("the input uses a form the model does not cover") is never produced:
   since the model of Front/ParseExpr.v covers the whole grammar, no branch of it builds a
   [POutside]; the constructor occurs only in the type [pres] and in the propagation of
   [bindp].  The termination invariant [okDx] of ParseTotal.v excludes
   [POutside] when the fuel suffices, and a result that is not [PNoFuel] is the result with any
   larger fuel. *)
From Coq Require Import Lia ZArith String List.
From GV Require Import Base.Util Front.Scan Front.ParseExpr Front.ParseTotal.
Import ListNotations.
Local Open Scope N_scope.

Lemma no_outside {A} (F : nat -> pres A) (c d L : nat) :
  (forall f, (c <= f)%nat -> okDx d (F f) L) ->
  (forall f f' r, F f = r -> r <> PNoFuel -> (f <= f')%nat -> F f' = r) ->
  forall f o, F f <> POutside o.
Proof.
  intros Hok Hind f o E.
  apply (okDx_not_outside _ _ _ (Hok (Nat.max f c) (Nat.le_max_r f c)) o).
  apply (Hind f _ _ E); [discriminate|apply Nat.le_max_l].
Qed.

Theorem parse_expr_st_no_outside fuel s o : parse_expr_st fuel s <> POutside o.
Proof.
  apply (no_outside (fun f => parse_expr_st f s) (length (toks s) + 4) 1 (length (toks s))).
  - intros f H. now apply parse_expr_st_ok.
  - intros f f'. apply parse_expr_st_fuel_independent.
Qed.

Theorem parse_program_text_no_outside fuel ts o : parse_program_text fuel ts <> POutside o.
Proof.
  apply (no_outside (fun f => parse_program_text f ts) _ _ _ (fun f => parse_program_text_ok f ts)).
  intros f f'. apply parse_program_text_fuel_independent.
Qed.

Theorem parse_block_text_no_outside fuel ts o : parse_block_text fuel ts <> POutside o.
Proof.
  apply (no_outside (fun f => parse_block_text f ts) _ _ _ (fun f => parse_block_text_ok f ts)).
  intros f f'. apply parse_block_text_fuel_independent.
Qed.

Theorem parse_literal_text_no_outside fuel ts o : parse_literal_text fuel ts <> POutside o.
Proof.
  apply (no_outside (fun f => parse_literal_text f ts) _ _ _ (fun f => parse_literal_text_ok f ts)).
  intros f f'. apply parse_literal_text_fuel_independent.
Qed.

(* [parse_expr] already folds every non-[POk] result into [None]; nothing to state there. *)

Print Assumptions parse_expr_st_no_outside.
Print Assumptions parse_program_text_no_outside.
Print Assumptions parse_block_text_no_outside.
Print Assumptions parse_literal_text_no_outside.
