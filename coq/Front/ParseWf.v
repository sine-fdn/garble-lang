(* C07, part B: THE PARSER MODEL NEVER BUILDS AN EMPTY ARRAY LITERAL NOR A MATCH WITHOUT ARMS
   (the two shapes on which check.rs panics, Check/InferTotal.v), hence the front end -- parser,
   then type checker -- never panics. *)
From Coq Require Import Lia Bool.
From GV Require Import Base.Util Front.Scan Front.ParseExpr Check.UAst Check.Infer Check.InferTotal.
From GV Require Front.ParseRel.
Local Open Scope N_scope.

(* well-formedness of the parser model's trees: that of their image in the checker's input *)
Definition W (e : uexpr) : Prop := wfb_x (xexpr_of_uexpr e) = true.
Definition Ws (s : ustmt) : Prop := wfb_s (xstmt_of_ustmt s) = true.
Definition Wa (a : uaccessor) : Prop := wfb_a (xaccessor_of_uaccessor a) = true.

Lemma forallb_map_Forall {A B} (p : B -> bool) (g : A -> B) l :
  Forall (fun x => p (g x) = true) l -> forallb p (map g l) = true.
Proof. induction 1 as [|x l Hx _ IH]; cbn [map forallb]; [reflexivity|]. now rewrite Hx, IH. Qed.

Lemma Forall_of_forallb_map {A B} (p : B -> bool) (g : A -> B) l :
  forallb p (map g l) = true -> Forall (fun x => p (g x) = true) l.
Proof.
  induction l as [|x l IH]; cbn [map forallb]; intro H; constructor; apply andb_true_iff in H; destruct H; auto.
Qed.

Lemma W_list es : Forall W es -> forallb wfb_x (map xexpr_of_uexpr es) = true.
Proof. apply forallb_map_Forall. Qed.
Lemma Ws_list b : Forall Ws b -> forallb wfb_s (map xstmt_of_ustmt b) = true.
Proof. apply forallb_map_Forall. Qed.
Lemma Wa_list b : Forall Wa b -> forallb wfb_a (map xaccessor_of_uaccessor b) = true.
Proof. apply forallb_map_Forall. Qed.

Lemma is_nil_map {A B} (g : A -> B) l : is_nil (map g l) = is_nil l.
Proof. destruct l; reflexivity. Qed.

Lemma W_true : W UTrue. Proof. reflexivity. Qed.
Lemma W_false : W UFalse. Proof. reflexivity. Qed.
Lemma W_numu n t : W (UNumUnsigned n t). Proof. reflexivity. Qed.
Lemma W_nums z t : W (UNumSigned z t). Proof. reflexivity. Qed.
Lemma W_id s : W (UIdentifier s). Proof. reflexivity. Qed.
Lemma W_range a b t : W (URange a b t). Proof. reflexivity. Qed.
Lemma W_access a i : W a -> W i -> W (UArrayAccess a i).
Proof. unfold W. cbn [xexpr_of_uexpr wfb_x]. intros -> ->. reflexivity. Qed.
Lemma W_tuple es : Forall W es -> W (UTupleLiteral es).
Proof. intro H. unfold W. cbn [xexpr_of_uexpr wfb_x]. now apply W_list. Qed.
Lemma W_tacc e i : W e -> W (UTupleAccess e i). Proof. exact (fun H => H). Qed.
Lemma W_sacc e f : W e -> W (UStructAccess e f). Proof. exact (fun H => H). Qed.
Lemma W_unary o e : W e -> W (UUnaryOp o e). Proof. exact (fun H => H). Qed.
Lemma W_op o l r : W l -> W r -> W (UOp o l r).
Proof. unfold W. cbn [xexpr_of_uexpr wfb_x]. intros -> ->. reflexivity. Qed.
Lemma W_call f args : Forall W args -> W (UFnCall f args).
Proof. intro H. unfold W. cbn [xexpr_of_uexpr]. destruct (list_eqb _ _); cbn [wfb_x]; now apply W_list. Qed.
Lemma W_if c t e : W c -> W t -> W e -> W (UIf c t e).
Proof. unfold W. cbn [xexpr_of_uexpr wfb_x]. intros -> -> ->. reflexivity. Qed.
Lemma W_cast ty e : W e -> W (UCast ty e). Proof. exact (fun H => H). Qed.
Lemma W_block b : Forall Ws b -> W (UBlock b).
Proof. intro H. unfold W. cbn [xexpr_of_uexpr wfb_x]. now apply Ws_list. Qed.
Lemma W_block_inv b : W (UBlock b) -> Forall Ws b.
Proof. unfold W. cbn [xexpr_of_uexpr wfb_x]. apply Forall_of_forallb_map. Qed.
Lemma W_match e arms : W e -> arms <> [] -> Forall (fun a => W (snd a)) arms -> W (UMatch e arms).
Proof.
  intros He Hn Ha. unfold W. cbn [xexpr_of_uexpr wfb_x]. rewrite He, is_nil_map.
  destruct arms; [congruence|]. cbn [is_nil negb andb].
  apply forallb_map_Forall. exact Ha.
Qed.
Lemma W_array es : es <> [] -> Forall W es -> W (UArrayLiteral es).
Proof.
  intros Hn H. unfold W. cbn [xexpr_of_uexpr wfb_x]. rewrite is_nil_map. destruct es; [congruence|].
  cbn [is_nil negb andb]. now apply W_list.
Qed.
Lemma W_repeat e n : W e -> W (UArrayRepeat e n). Proof. exact (fun H => H). Qed.
Lemma W_repeatc e c : W e -> W (UArrayRepeatConst e c). Proof. exact (fun H => H). Qed.
Lemma W_struct n fs : Forall (fun f => W (snd f)) fs -> W (UStructLiteral n fs).
Proof.
  intro H. unfold W. cbn [xexpr_of_uexpr wfb_x]. apply forallb_map_Forall. exact H.
Qed.
Lemma W_enum e v args : match args with Some es => Forall W es | None => True end -> W (UEnumLiteral e v args).
Proof. intro H. unfold W. cbn [xexpr_of_uexpr wfb_x]. destruct args; [now apply W_list|reflexivity]. Qed.

Lemma Ws_let p ty e : W e -> Ws (SLet p ty e). Proof. exact (fun H => H). Qed.
Lemma Ws_letmut x ty e : W e -> Ws (SLetMut x ty e). Proof. exact (fun H => H). Qed.
Lemma Ws_expr e : W e -> Ws (SExpr e). Proof. exact (fun H => H). Qed.
Lemma Ws_expr_inv e : Ws (SExpr e) -> W e. Proof. exact (fun H => H). Qed.
Lemma Ws_assign x accs e : Forall Wa accs -> W e -> Ws (SVarAssign x accs e).
Proof. intros Ha He. unfold Ws. cbn [xstmt_of_ustmt wfb_s]. rewrite (Wa_list _ Ha). exact He. Qed.
Lemma Ws_for p e body : W e -> Forall Ws body -> Ws (SForEach p e body).
Proof. intros He Hb. unfold Ws. cbn [xstmt_of_ustmt wfb_s]. rewrite He. now apply Ws_list. Qed.

(* ---------------------------------------------------------------- results *)

Definition okp {A} (Q : A -> Prop) (r : pres A) : Prop := match r with POk a _ => Q a | _ => True end.

Lemma okp_bind {A B} (Q : A -> Prop) (R : B -> Prop) (r : pres A) (k : A -> pstate -> pres B) :
  okp Q r -> (forall a s, Q a -> okp R (k a s)) -> okp R (bindp r k).
Proof. destruct r; cbn [bindp okp]; auto. Qed.

Lemma okp_impl {A} (Q R : A -> Prop) (r : pres A) : (forall a, Q a -> R a) -> okp Q r -> okp R r.
Proof. destruct r; cbn [okp]; auto. Qed.

Lemma okp_any {A} (r : pres A) : okp (fun _ => True) r.
Proof. destruct r; exact I. Qed.

Lemma okp_expect {A} (R : A -> Prop) t s k : (forall s', okp R (k s')) -> okp R (expect t s k).
Proof. intro H. unfold expect. destruct (next_matches t s); [apply H|exact I]. Qed.

Lemma okp_expect_identifier {A} (R : A -> Prop) s k : (forall id s', okp R (k id s')) -> okp R (expect_identifier s k).
Proof. intro H. unfold expect_identifier. destruct (toks s) as [|[[] ?] ?]; try exact I. apply H. Qed.

Lemma okp_opt_semicolon {A} (R : A -> Prop) s k : (forall s', okp R (k s')) -> okp R (opt_semicolon s k).
Proof. intro H. unfold opt_semicolon. destruct (_ && _); [apply okp_expect|]; apply H. Qed.

Create HintDb pwdb.

Ltac okp_go :=
  repeat match goal with
  | |- okp _ (POk _ _) => cbn [okp]
  | |- okp _ PErr => exact I
  | |- okp _ PNoFuel => exact I
  | |- okp _ (POutside _) => exact I
  | |- okp _ (expect _ _ _) => apply okp_expect; intros ?
  | |- okp _ (expect_identifier _ _) => apply okp_expect_identifier; intros ? ?
  | |- okp _ (opt_semicolon _ _) => apply okp_opt_semicolon; intros ?
  | |- okp _ (if ?c then _ else _) => destruct c eqn:?
  | |- okp _ (match ?x with _ => _ end) => destruct x eqn:?
  | |- okp _ (let _ := _ in _) => cbv zeta
  end.

(* ---------------------------------------------------------------- loops *)

Lemma rev_not_nil {A} (l : list A) : l <> [] -> rev l <> [].
Proof. destruct l; [congruence|]. cbn [rev]. intros _ E. apply app_eq_nil in E. destruct E; discriminate. Qed.

Definition nonempty_all {A} (Q : A -> Prop) (l : list A) : Prop := l <> [] /\ Forall Q l.

(* the loops start from a first item already read: their result is not empty *)
Lemma okp_sep_loop {A} (Q : A -> Prop) item close : (forall s, okp Q (item s)) ->
  forall n acc s, acc <> [] -> Forall Q acc -> okp (nonempty_all Q) (sep_loop item close n acc s).
Proof.
  intro Hi. induction n as [|n IH]; intros acc s Hn Ha; cbn [sep_loop]; [exact I|].
  okp_go; try (split; [apply rev_not_nil; exact Hn|apply Forall_rev; exact Ha]).
  eapply okp_bind; [apply Hi|]. intros a s' Qa. apply IH; [discriminate|constructor; assumption].
Qed.

Lemma okp_sep_list {A} (Q : A -> Prop) item close n a s : (forall s, okp Q (item s)) -> Q a ->
  okp (Forall Q) (sep_loop item close n [a] s).
Proof.
  intros Hi Qa. apply (okp_impl (nonempty_all Q)); [intros l H; exact (proj2 H)|].
  apply okp_sep_loop; [exact Hi|discriminate|constructor; [exact Qa|constructor]].
Qed.

Lemma okp_insert_field {A} (Q : list N * A -> Prop) f : forall l, Q f -> Forall Q l -> Forall Q (insert_field f l).
Proof.
  induction l as [|g l IH]; intros Hf Hl; cbn [insert_field]; [constructor; [exact Hf|constructor]|].
  inversion Hl; subst. destruct (name_ltb _ _); constructor; auto.
Qed.

Lemma Forall_sort_fields {A} (Q : list N * A -> Prop) l : Forall Q l -> Forall Q (sort_fields l).
Proof.
  unfold sort_fields. assert (G : forall acc, Forall Q acc -> Forall Q l -> Forall Q (fold_left (fun acc f => insert_field f acc) l acc)).
  { induction l as [|f l IH]; intros acc Ha Hl; cbn [fold_left]; [exact Ha|].
    inversion Hl; subst. apply IH; [apply okp_insert_field; assumption|assumption]. }
  intro H. apply G; [constructor|exact H].
Qed.

Section Lit.
  Variable olc : bool.
  Variable pe : pstate -> pres uexpr.
  Hypothesis Hpe : forall s, okp W (pe s).

  Lemma okp_struct_field s : okp (fun f => W (snd f)) (struct_field olc pe s).
  Proof.
    unfold struct_field. okp_go; try exact (W_id _).
    eapply okp_bind; [apply Hpe|]. intros a sq Wa. okp_go. exact Wa.
  Qed.

  Lemma okp_parse_literal_gen n t s : okp W (parse_literal_gen olc pe n t s).
  Proof.
    unfold parse_literal_gen. destruct t; try exact I.
    - (* identifier *)
      okp_go; try exact W_true; try exact W_false; try (apply W_enum; exact Logic.I).
      + eapply okp_bind; [|intros fields sq Hf; okp_go; apply W_enum; exact Hf].
        okp_go; [|constructor].
        eapply okp_bind; [apply Hpe|]. intros a sq Wa. rewrite ParseRel.comma_loop_sep. apply okp_sep_list; assumption.
      + eapply okp_bind; [|intros fields sq Hf; okp_go; apply W_struct, Forall_sort_fields; exact Hf].
        okp_go; [|constructor].
        eapply okp_bind; [apply okp_struct_field|]. intros a sq Wa. apply okp_sep_list; [apply okp_struct_field|exact Wa].
    - okp_go; try apply W_range; apply W_numu.
    - okp_go. apply W_nums.
    - (* ( *)
      okp_go; [|apply W_tuple; constructor].
      eapply okp_bind; [apply Hpe|]. intros e s1 We. okp_go; [|exact We].
      rewrite ParseRel.comma_loop_sep.
      eapply okp_bind; [apply okp_sep_loop; [exact Hpe|discriminate|constructor; [exact We|constructor]]|].
      intros fields s2 [_ Hf]. okp_go. apply W_tuple. exact Hf.
    - (* [ *)
      eapply okp_bind; [apply Hpe|]. intros elem s1 We. okp_go; try (apply W_repeat; exact We); try (apply W_repeatc; exact We).
      rewrite ParseRel.comma_loop_sep.
      eapply okp_bind; [apply okp_sep_loop; [exact Hpe|discriminate|constructor; [exact We|constructor]]|].
      intros elems s2 [Hn Hf]. okp_go. apply W_array; assumption.
  Qed.
End Lit.

(* ---------------------------------------------------------------- expressions and statements *)

Lemma W_access_inv a i : W (UArrayAccess a i) -> W a /\ W i.
Proof. unfold W. cbn [xexpr_of_uexpr wfb_x]. intro H. apply andb_true_iff in H. exact H. Qed.

Lemma W_retype i : W i -> W (retype_index i).
Proof. destruct i; try exact (fun H => H). destruct t; exact (fun H => H). Qed.

Lemma accessors_W : forall e id accs, W e -> accessors e = Some (id, accs) -> Forall Wa accs.
Proof.
  induction e; intros id accs We H; cbn [accessors] in H; try discriminate H.
  - injection H as <- <-. constructor.
  - destruct (accessors e1) as [[id1 acc1]|] eqn:E; [|discriminate H]. injection H as <- <-.
    apply W_access_inv in We. destruct We as [W1 W2].
    apply Forall_app. split; [eapply IHe1; [exact W1|reflexivity]|]. constructor; [exact W2|constructor].
  - destruct (accessors e) as [[id1 acc1]|] eqn:E; [|discriminate H]. injection H as <- <-.
    apply Forall_app. split; [eapply IHe; [exact We|reflexivity]|]. constructor; [reflexivity|constructor].
  - destruct (accessors e) as [[id1 acc1]|] eqn:E; [|discriminate H]. injection H as <- <-.
    apply Forall_app. split; [eapply IHe; [exact We|reflexivity]|]. constructor; [reflexivity|constructor].
Qed.

Lemma target_expr_W x accs : Forall Wa accs -> W (target_expr x accs).
Proof.
  unfold target_expr. generalize (UIdentifier x) (W_id x). induction accs as [|a accs IH]; intros t Wt Ha; cbn [fold_left]; [exact Wt|].
  inversion Ha as [|a0 l0 Ha0 Hl]; subst. apply IH; [|exact Hl].
  destruct a; [apply W_access; [exact Wt|exact Ha0]|exact Wt|exact Wt].
Qed.

Definition opsW (ops : opt) : Prop := forall t mk, ops t = Some mk -> forall x y, W x -> W y -> W (mk x y).

Lemma opsW_all : opsW ops_sc_or /\ opsW ops_sc_and /\ opsW ops_equality /\ opsW ops_comparison /\ opsW ops_or /\
  opsW ops_xor /\ opsW ops_and /\ opsW ops_shift /\ opsW ops_term /\ opsW ops_factor.
Proof.
  repeat split; intros t mk H x y Wx Wy; destruct t; try discriminate H; injection H as <-;
    try (apply W_op; assumption); apply W_unary, W_op; assumption.
Qed.

Section Bin.
  Variable ops : opt.
  Variable sub : nat -> pstate -> pres uexpr.
  Hypothesis Hops : opsW ops.
  Hypothesis Hsub : forall n s, okp W (sub n s).

  Lemma okp_binloop : forall n x s, W x -> okp W (binloop ops sub n x s).
  Proof.
    induction n as [|n IH]; intros x s Wx; cbn [binloop]; [exact I|].
    unfold next_op. destruct (toks s) as [|[t m] r]; [exact Wx|].
    destruct (ops t) as [mk|] eqn:E; [|exact Wx].
    eapply okp_bind; [apply Hsub|]. intros y s2 Wy. apply IH. eapply Hops; eassumption.
  Qed.

  Lemma okp_binlevel n s : okp W (binlevel ops sub n s).
  Proof. unfold binlevel. eapply okp_bind; [apply Hsub|]. intros x s1 Wx. apply okp_binloop. exact Wx. Qed.
End Bin.

Section E.
  Variable pe : pstate -> pres uexpr.
  Hypothesis Hpe : forall s, okp W (pe s).

  Lemma okp_postfix_loop : forall n x s, W x -> okp W (postfix_loop pe n x s).
  Proof.
    induction n as [|n IH]; intros x s Wx; cbn [postfix_loop]; [exact I|].
    okp_go; try exact Wx; try (apply IH; first [apply W_sacc|apply W_tacc]; exact Wx).
    eapply okp_bind; [apply Hpe|]. intros index s2 Wi. cbv zeta. okp_go.
    apply IH. apply W_access; [exact Wx|apply W_retype; exact Wi].
  Qed.

  Lemma okp_parse_literal n t s : okp W (parse_literal pe n t s).
  Proof. apply okp_parse_literal_gen. exact Hpe. Qed.

  Lemma okp_primary_base n s : okp W (parse_primary_base pe n s).
  Proof.
    unfold parse_primary_base. destruct (advance s) as [[t s1]|]; [|exact I].
    destruct t; try apply okp_parse_literal.
    okp_go; try apply okp_parse_literal; try apply W_id.
    eapply okp_bind; [|intros args s3 Ha; okp_go; apply W_call; exact Ha].
    okp_go; [|constructor].
    eapply okp_bind; [apply Hpe|]. intros a s3 Wa0. rewrite ParseRel.comma_loop_sep. apply okp_sep_list; assumption.
  Qed.

  Lemma okp_primary n s : okp W (parse_primary pe n s).
  Proof. unfold parse_primary. eapply okp_bind; [apply okp_primary_base|]. intros x s1 Wx. apply okp_postfix_loop. exact Wx. Qed.

  Lemma okp_unary : forall n s, okp W (parse_unary pe n s).
  Proof.
    induction n as [|n IH]; intros s; cbn [parse_unary]; [exact I|].
    okp_go; try apply okp_primary;
      (eapply okp_bind; [apply IH|]; intros u s2 Wu; okp_go; apply W_unary; exact Wu).
  Qed.

  Lemma okp_opt_type {A} (R : A -> Prop) n s k : (forall ty sq, okp R (k ty sq)) -> okp R (opt_type pe n s k).
  Proof.
    intro H. unfold opt_type. destruct (next_matches TColon s); [|apply H].
    eapply okp_bind; [apply okp_any|]. intros ty s2 _. apply H.
  Qed.

  Lemma okp_parse_stmt n s : okp Ws (parse_stmt pe n s).
  Proof.
    unfold parse_stmt.
    destruct (next_matches TKeywordLet s) as [s1|].
    { destruct (next_matches TKeywordMut s1) as [s2|].
      - okp_go. apply okp_opt_type. intros ty s4. okp_go. eapply okp_bind; [apply Hpe|]. intros b s6 Wb. okp_go.
        apply Ws_letmut. exact Wb.
      - eapply okp_bind; [apply okp_any|]. intros pat s3 _. apply okp_opt_type. intros ty s4. okp_go.
        eapply okp_bind; [apply Hpe|]. intros b s6 Wb. okp_go. apply Ws_let. exact Wb. }
    destruct (next_matches TKeywordFor s) as [s1|].
    { eapply okp_bind; [apply okp_any|]. intros pat s2 _. okp_go. eapply okp_bind; [apply Hpe|]. intros b s4 Wb. cbv zeta.
      okp_go. eapply okp_bind; [apply Hpe|]. intros blk s6 Wblk. destruct blk; try exact I. okp_go.
      apply Ws_for; [exact Wb|apply W_block_inv; exact Wblk]. }
    cbv zeta. eapply okp_bind; [apply Hpe|]. intros e s1 We.
    destruct (accessors e) as [[id accs]|] eqn:Eacc.
    - pose proof (accessors_W e id accs We Eacc) as Hacc.
      destruct (next_matches TEq s1) as [s2|].
      + eapply okp_bind; [apply Hpe|]. intros v s3 Wv. okp_go. apply Ws_assign; assumption.
      + destruct (toks s1) as [|[next m] r]; [okp_go; apply Ws_expr; exact We|].
        destruct (assign_op next) as [op|]; [|okp_go; apply Ws_expr; exact We].
        eapply okp_bind; [apply Hpe|]. intros v s3 Wv. okp_go. apply Ws_assign; [exact Hacc|].
        apply W_op; [apply target_expr_W; exact Hacc|exact Wv].
    - okp_go; apply Ws_expr; exact We.
  Qed.

  Lemma okp_stmts_loop : forall n acc s, Forall Ws acc -> okp (Forall Ws) (stmts_loop pe n acc s).
  Proof.
    induction n as [|n IH]; intros acc s Ha; cbn [stmts_loop]; [exact I|].
    okp_go; [apply Forall_rev; exact Ha|].
    eapply okp_bind; [apply okp_parse_stmt|]. intros st s1 Wst. apply IH. constructor; assumption.
  Qed.

  Lemma okp_parse_stmts n s : okp (Forall Ws) (parse_stmts pe n s).
  Proof.
    unfold parse_stmts, parse_stmts_of_block. cbv zeta.
    eapply okp_bind; [apply okp_stmts_loop; constructor|]. intros stmts s1 H. exact H.
  Qed.

  Lemma okp_block_as_expr n s : okp W (parse_block_as_expr pe n s).
  Proof.
    unfold parse_block_as_expr. eapply okp_bind; [apply okp_parse_stmts|]. intros stmts s1 H.
    destruct stmts as [|st [|st2 r]].
    - apply W_tuple. constructor.
    - destruct st; try (apply W_block; exact H). inversion H; subst. assumption.
    - destruct st; apply W_block; exact H.
  Qed.

  Lemma okp_match_clause n s : okp (fun ce => W (snd (fst ce))) (parse_match_clause pe n s).
  Proof.
    unfold parse_match_clause. eapply okp_bind; [apply okp_any|]. intros pat s1 _. okp_go.
    eapply okp_bind; [apply okp_parse_stmt|]. intros st s3 Wst. cbv zeta. cbn [okp fst snd].
    apply W_block. constructor; [exact Wst|constructor].
  Qed.

  Lemma okp_match_loop : forall n b acc s, acc <> [] -> Forall (fun a => W (snd a)) acc ->
    okp (nonempty_all (fun a => W (snd a))) (match_loop pe n b acc s).
  Proof.
    induction n as [|n IH]; intros b acc s Hn Ha; cbn [match_loop]; [exact I|]. cbv zeta.
    assert (Hfin : nonempty_all (fun a : upattern * uexpr => W (snd a)) (rev acc))
      by (split; [apply rev_not_nil; exact Hn|apply Forall_rev; exact Ha]).
    assert (Hgo : forall s1, okp (nonempty_all (fun a : upattern * uexpr => W (snd a)))
              (if peek TRightBrace s1 || (match toks s1 with [] => true | _ => false end) then POk (rev acc) s1
               else bindp (parse_match_clause pe n s1) (fun ce s2 => match_loop pe n (snd ce) (fst ce :: acc) s2))).
    { intro s1. destruct (_ || _); [exact Hfin|].
      eapply okp_bind; [apply okp_match_clause|]. intros ce s2 Wce. apply IH; [discriminate|constructor; assumption]. }
    destruct (next_matches TComma s); [apply Hgo|]. destruct b; [apply Hgo|exact Hfin].
  Qed.

  Lemma okp_if_or_match : forall n s, okp W (parse_if_or_match pe n s).
  Proof.
    induction n as [|n IH]; intros s; cbn [parse_if_or_match]; [exact I|].
    destruct (next_matches TKeywordIf s) as [s1|].
    { cbv zeta. eapply okp_bind; [apply Hpe|]. intros c s2 Wc. okp_go.
      eapply okp_bind; [apply okp_block_as_expr|]. intros t s5 Wt. okp_go.
      - eapply okp_bind; [apply IH|]. intros e s8 We. okp_go. apply W_if; assumption.
      - eapply okp_bind; [apply okp_block_as_expr|]. intros e s9 We. okp_go. apply W_if; assumption.
      - apply W_if; [assumption|assumption|apply W_tuple; constructor]. }
    destruct (next_matches TKeywordMatch s) as [s1|]; [|apply okp_unary].
    cbv zeta. eapply okp_bind; [apply Hpe|]. intros m s2 Wm. okp_go.
    eapply okp_bind; [apply okp_match_clause|]. intros ce s5 Wce.
    eapply okp_bind; [apply okp_match_loop; [discriminate|constructor; [exact Wce|constructor]]|].
    intros clauses s6 [Hn Hc]. okp_go. apply W_match; assumption.
  Qed.

  Lemma okp_cast_loop : forall n x s, W x -> okp W (cast_loop pe n x s).
  Proof.
    induction n as [|n IH]; intros x s Wx; cbn [cast_loop]; [exact I|].
    destruct (next_matches TKeywordAs s); [|exact Wx].
    eapply okp_bind; [apply okp_any|]. intros ty s2 _. apply IH. apply W_cast. exact Wx.
  Qed.

  Lemma okp_parse_cast n s : okp W (parse_cast pe n s).
  Proof. unfold parse_cast. eapply okp_bind; [apply okp_if_or_match|]. intros x s1 Wx. apply okp_cast_loop. exact Wx. Qed.

  Lemma okp_parse_expr_body n s : okp W (parse_expr_body pe n s).
  Proof.
    destruct opsW_all as (O1 & O2 & O3 & O4 & O5 & O6 & O7 & O8 & O9 & O10).
    unfold parse_expr_body. destruct (next_matches TLeftBrace s) as [s1|].
    - eapply okp_bind; [apply okp_parse_stmts|]. intros stmts s2 H. okp_go. apply W_block. exact H.
    - unfold parse_short_circuiting_or, parse_short_circuiting_and, parse_equality, parse_comparison, parse_or,
        parse_xor, parse_and, parse_shift, parse_term, parse_factor.
      repeat (apply okp_binlevel; [assumption|intros ? ?]). apply okp_parse_cast.
  Qed.
End E.

Theorem parse_expr_st_wf : forall fuel s, okp W (parse_expr_st fuel s).
Proof.
  induction fuel as [|f IH]; intros s; cbn [parse_expr_st]; [exact I|].
  apply okp_parse_expr_body. exact IH.
Qed.

Theorem parse_stmt_wf fuel n s : okp Ws (parse_stmt (parse_expr_st fuel) n s).
Proof. apply okp_parse_stmt, parse_expr_st_wf. Qed.

Theorem parse_block_wf fuel n s : okp (Forall Ws) (parse_stmts (parse_expr_st fuel) n s).
Proof. apply okp_parse_stmts, parse_expr_st_wf. Qed.

(* ---------------------------------------------------------------- the top level *)

Definition Wfn (fd : ParseExpr.ufndef) : Prop := Forall Ws (f_body fd).
Definition Wprog (P : ParseExpr.uprogram) : Prop := Forall (fun nf => Wfn (snd nf)) (up_fn_defs P).

Lemma okp_parse_fn_def fuel is_pub s : okp Wfn (parse_fn_def fuel is_pub s).
Proof.
  unfold parse_fn_def. okp_go. eapply okp_bind; [apply okp_any|]. intros params s3 _. okp_go.
  eapply okp_bind; [apply okp_any|]. intros ty s6 _. okp_go.
  eapply okp_bind; [apply parse_block_wf|]. intros body s8 Hb. okp_go. exact Hb.
Qed.

Lemma Wprog_insert {A} (Q : list N * A -> Prop) k v m : Q (k, v) -> Forall Q m -> Forall Q (map_insert k v m).
Proof.
  intros Hv Hm. unfold map_insert. apply Forall_app. split; [|constructor; [exact Hv|constructor]].
  apply Forall_forall. intros x Hx. apply filter_In in Hx. rewrite Forall_forall in Hm. apply Hm, Hx.
Qed.

Lemma okp_items_loop fuel : forall n is_pub prog s, Wprog prog -> okp Wprog (items_loop fuel n is_pub prog s).
Proof.
  induction n as [|n IH]; intros is_pub prog s Hp; cbn [items_loop]; [exact I|].
  destruct (advance s) as [[t s1]|]; [|exact Hp].
  destruct t; try exact I;
    try (eapply okp_bind; [apply okp_any|]; intros d s2 _; apply IH; exact Hp; fail).
  - eapply okp_bind; [apply okp_parse_fn_def|]. intros d s2 Wd. apply IH. unfold Wprog. cbn [up_fn_defs].
    apply Wprog_insert; [exact Wd|exact Hp].
  - destruct is_pub; [exact I|apply IH; exact Hp].
Qed.

(* (B) THE PARSER'S OUTPUT IS WELL-FORMED *)
Theorem parser_output_wf f ts up st main :
  parse_program_text f ts = POk up st -> wf_program (uprogram_of_parsed up main).
Proof.
  intro H. pose proof (okp_items_loop f f false (UProgram [] [] [] []) (PState ts true) ltac:(constructor)) as Hw.
  unfold parse_program_text in H. rewrite H in Hw. cbn [okp] in Hw.
  unfold wf_program, wfb_program, uprogram_of_parsed. cbn [up_fns].
  apply forallb_map_Forall. eapply Forall_impl; [|exact Hw]. intros [name fd] Hfd. cbn [snd] in *.
  unfold ufndef_of_parsed. cbn [uf_body]. apply Ws_list. exact Hfd.
Qed.

(* THE FRONT END NEVER PANICS: whatever the tokens, whatever the fuels *)
Corollary front_end_never_panics ts f up st main intern g :
  parse_program_text f ts = POk up st ->
  check_program intern g (uprogram_of_parsed up main) <> CErr E_Panic.
Proof. intro H. apply no_panic. eapply parser_output_wf. exact H. Qed.

Corollary front_end_never_panics_t ts f up st main intern g :
  parse_program_text f ts = POk up st ->
  check_program_t intern g (uprogram_of_parsed up main) <> CErr E_Panic.
Proof. intro H. apply no_panic_t. eapply parser_output_wf. exact H. Qed.

Print Assumptions parse_expr_st_wf.
Print Assumptions parser_output_wf.
Print Assumptions front_end_never_panics.
Print Assumptions front_end_never_panics_t.

(* ---------------------------------------------------------------- non-vacuity: from TEXT *)

From Coq Require Import String.
From GV Require Check.InferExamples.

Module FrontExamples.
Local Open Scope string_scope.

Inductive outcome := ScanError | ParseError | ParseNoFuel | Checked (r : cres Ast.program).

(* bytes -> tokens -> parser model -> checker input -> checker model -> exporter *)
Definition front (txt : string) : outcome :=
  match scan_text (codes txt) with
  | Ok (STokens ts) =>
      match parse_program_text (fuel_for_tokens ts) ts with
      | POk up _ => Checked (check_program InferExamples.ex_intern 200 (uprogram_of_parsed up (codes "main")))
      | PNoFuel => ParseNoFuel
      | _ => ParseError
      end
  | _ => ScanError
  end.

Definition verdict (o : outcome) : option (option N) :=      (* Some None = accepted, Some (Some c) = TypeError c *)
  match o with
  | Checked (COk _) => Some None
  | Checked (CErr c) => Some (Some c)
  | _ => None
  end.

(* accepted: array literal, match with arms, a call, a loop *)
Definition t_ok := "
  fn inc(a: u8) -> u8 { a + 1 }
  pub fn main(x: u8, b: bool) -> u8 {
    let a = [x, 1, 2];
    let mut s = 0u8;
    for e in a { s = s + e; }
    match b { true => inc(s), false => a[1] }
  }".
Example text_accepted : verdict (front t_ok) = Some None.
Proof. vm_compute. reflexivity. Qed.

(* rejected by the checker with a type error (not a panic) *)
Example text_type_error : verdict (front "pub fn main(x: u8) -> bool { [x, true] }") = Some (Some E_UnexpectedType).
Proof. vm_compute. reflexivity. Qed.
Example text_unknown_id : verdict (front "pub fn main(x: u8) -> u8 { match y { 0 => x, _ => x } }") = Some (Some E_UnknownIdentifier).
Proof. vm_compute. reflexivity. Qed.

(* the two shapes on which check.rs would panic do not parse *)
Example text_empty_array_no_parse : front "pub fn main(x: u8) -> u8 { let a = []; x }" = ParseError.
Proof. vm_compute. reflexivity. Qed.
Example text_empty_match_no_parse : front "pub fn main(x: u8) -> u8 { match x { } }" = ParseError.
Proof. vm_compute. reflexivity. Qed.

(* ... and the hypothesis of no_panic is needed: on hand-made trees with these shapes the model
   of the checker does reach its two panic sites (an API user of check.rs who builds a
   Program<()> without the parser can make it panic) *)
Definition hand (e : xexpr) : uprogram :=
  InferExamples.prog1 [InferExamples.px "x" InferExamples.u8] InferExamples.u8 [XSExpr e].
Example hand_empty_array_panics :
  check_program_t InferExamples.ex_intern 50 (hand (XArrayLiteral [])) = CErr E_Panic /\
  wfb_program (hand (XArrayLiteral [])) = false.
Proof. vm_compute. split; reflexivity. Qed.
Example hand_empty_match_panics :
  check_program_t InferExamples.ex_intern 50 (hand (XMatch (XIdentifier (codes "x")) [])) = CErr E_Panic /\
  wfb_program (hand (XMatch (XIdentifier (codes "x")) [])) = false.
Proof. vm_compute. split; reflexivity. Qed.

(* the theorem on the accepted text: whatever the fuels *)
Example text_never_panics f g :
  match scan_text (codes t_ok) with
  | Ok (STokens ts) =>
      forall up st, parse_program_text f ts = POk up st ->
        check_program InferExamples.ex_intern g (uprogram_of_parsed up (codes "main")) <> CErr E_Panic
  | _ => True
  end.
Proof. destruct (scan_text (codes t_ok)) as [[ts|]| |]; try exact Logic.I. intros up st H. eapply front_end_never_panics. exact H. Qed.
End FrontExamples.
