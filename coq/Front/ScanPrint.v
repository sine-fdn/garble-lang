(* The scanner model (Front/Scan.v, tied to /repo/src/scan.rs) reads printed tokens back:
   (1) number lexing: [dec n] (the decimal digits of n) followed by a type suffix is ONE number
       token with the value n, exactly within the range of the suffix (the bounds are in
       [ubound] / [sbound_pos] / [sbound_neg]); beyond them the scanner reports an error;
   (2) [print_tokens]: the texts of the tokens separated by single spaces; [scan_print]: scanning
       it gives the tokens back (locations aside), for [tok_printable] tokens;
   (3) the text-level form of ParseExprProofs.parse_show_min_all. *)
From Coq Require Import Lia ZArith String List.
From GV Require Import Base.Util Front.Scan Front.ScanProofs Front.ParseExpr Front.ParseExprProofs.
Local Open Scope N_scope.

(* ------------------------------------------------------------------ decimal digits *)

Fixpoint dec_f (f : nat) (n : N) : list N :=
  match f with
  | O => []
  | S f' => (if n / 10 =? 0 then [] else dec_f f' (n / 10)) ++ [48 + n mod 10]
  end.

(* the decimal digits of n: no leading zero except for "0" *)
Definition dec (n : N) : list N := dec_f (S (N.to_nat (N.size n))) n.

Definition dv (acc : N) (ds : list N) : N := fold_left (fun acc d => acc * 10 + (d - 48)) ds acc.

Lemma dv_app a x y : dv a (x ++ y) = dv (dv a x) y.
Proof. unfold dv. apply fold_left_app. Qed.

Lemma dec_f_S f n : dec_f (S f) n = (if n / 10 =? 0 then [] else dec_f f (n / 10)) ++ [48 + n mod 10].
Proof. reflexivity. Qed.

Lemma dec_f_value : forall f n, n < 2 ^ N.of_nat (S f) -> dv 0 (dec_f (S f) n) = n.
Proof.
  induction f as [|f IH]; intros n Hn.
  - change (2 ^ N.of_nat 1) with 2 in Hn. cbn [dec_f].
    assert (n / 10 = 0) as -> by (apply N.div_small; lia). rewrite N.eqb_refl. cbn [app dv fold_left].
    rewrite N.mod_small by lia. lia.
  - rewrite (dec_f_S (S f) n). destruct (N.eqb_spec (n / 10) 0) as [E|E].
    + cbn [app dv fold_left]. apply N.div_small_iff in E; [|lia]. rewrite N.mod_small by lia. lia.
    + rewrite dv_app. rewrite IH.
      * unfold dv. cbn [fold_left]. pose proof (N.div_mod' n 10) as Hd.
        set (q := n / 10) in *. set (r := n mod 10) in *. lia.
      * apply N.div_lt_upper_bound; [lia|]. rewrite Nat2N.inj_succ, N.pow_succ_r' in Hn.
        assert (0 < 2 ^ N.of_nat (S f)) by (apply N.neq_0_lt_0, N.pow_nonzero; lia). lia.
Qed.

Lemma dec_value n : digits_value (dec n) = n.
Proof.
  unfold dec. change (digits_value ?l) with (dv 0 l). apply dec_f_value.
  rewrite Nat2N.inj_succ, N2Nat.id, N.pow_succ_r'. pose proof (N.size_gt n).
  assert (0 < 2 ^ N.size n) by (apply N.neq_0_lt_0, N.pow_nonzero; lia). lia.
Qed.

Lemma dec_f_digits : forall f n, Forall (fun c => is_digit c = true) (dec_f f n).
Proof.
  induction f as [|f IH]; intro n; [constructor|]. cbn [dec_f]. apply Forall_app. split.
  - destruct (n / 10 =? 0); [constructor|apply IH].
  - constructor; [|constructor]. unfold is_digit. pose proof (N.mod_lt n 10 ltac:(lia)) as Hm.
    set (r := n mod 10) in *. apply andb_true_intro. split; apply N.leb_le; lia.
Qed.

Lemma dec_digits n : Forall (fun c => is_digit c = true) (dec n).
Proof. apply dec_f_digits. Qed.

Lemma dec_nonempty n : exists c ds, dec n = c :: ds.
Proof.
  unfold dec. cbn [dec_f]. destruct (if n / 10 =? 0 then [] else _) as [|c l]; cbn [app]; eauto.
Qed.

Example dec_examples : dec 0 = codes "0" /\ dec 7 = codes "7" /\ dec 10 = codes "10" /\
  dec 255 = codes "255" /\ dec 18446744073709551615 = codes "18446744073709551615".
Proof. repeat split; vm_compute; reflexivity. Qed.

(* ------------------------------------------------------------------ scanning, locations aside *)

Definition kind (t : token) : token_enum := match t with Token k _ => k end.
Definition kinds (s : scanner) : list token_enum := map kind (tokens s).

(* the tokens and the errors pushed so far are those of s *)
Definition same (s s' : scanner) : Prop := tokens s' = tokens s /\ errors s' = errors s.

Lemma same_refl s : same s s. Proof. split; reflexivity. Qed.
Lemma same_trans a b c : same a b -> same b c -> same a c.
Proof. intros [H1 H2] [H3 H4]. split; congruence. Qed.
Lemma same_advance s : same s (Scan.advance s). Proof. split; reflexivity. Qed.

Fixpoint adv_n (k : nat) (s : scanner) : scanner :=
  match k with O => s | S k' => adv_n k' (Scan.advance s) end.

Lemma same_adv_n : forall k s, same s (adv_n k s).
Proof. induction k as [|k IH]; intro s; [apply same_refl|]. cbn [adv_n]. eapply same_trans; [apply same_advance|apply IH]. Qed.

(* the rest of the input does not continue a run of p-characters *)
Definition stops (p : N -> bool) (rest : list N) : Prop :=
  match rest with [] => True | c :: _ => p c = false end.

Lemma take_while_app p : forall xs s rest, Forall (fun x => p x = true) xs -> stops p rest ->
  take_while p s (xs ++ rest) = (xs, adv_n (length xs) s, rest).
Proof.
  induction xs as [|x xs IH]; intros s rest Hx Hs.
  - cbn [app length adv_n]. destruct rest as [|c r]; [reflexivity|]. cbn [take_while stops] in *. now rewrite Hs.
  - inversion Hx as [|? ? H1 H2]; subst. cbn [app take_while length adv_n]. rewrite H1.
    now rewrite (IH (Scan.advance s) rest H2 Hs).
Qed.

(* the text continues with a space, or ends *)
Definition sep_ok (rest : list N) : Prop := rest = [] \/ exists r, rest = 32 :: r.

Lemma sep_stops_digit rest : sep_ok rest -> stops is_digit rest.
Proof. intros [->|[r ->]]; [exact I|reflexivity]. Qed.
Lemma sep_stops_alnum rest : sep_ok rest -> stops is_alphanumeric rest.
Proof. intros [->|[r ->]]; [exact I|reflexivity]. Qed.

Ltac neq_tests :=
  repeat match goal with
         | |- context [?c =? ?k] => destruct (N.eqb_spec c k); [exfalso; lia|]
         end.

Lemma alnum_range c : is_alphanumeric c = true ->
  (97 <= c <= 122) \/ (65 <= c <= 90) \/ c = 95 \/ (48 <= c <= 57).
Proof.
  unfold is_alphanumeric, is_digit. intro H.
  repeat (apply orb_prop in H; destruct H as [H|H]); try (apply andb_prop in H; destruct H as [H1 H2]; apply N.leb_le in H1, H2; lia).
  apply N.eqb_eq in H. lia.
Qed.

(* a digit starts a number, any other alphanumeric character a word *)
Lemma digit_dispatch f s c rest : is_digit c = true -> scan_char f s c rest = Ok (scan_number c s rest).
Proof.
  intro H. assert (48 <= c <= 57) as Hr by (unfold is_digit in H; apply andb_prop in H; destruct H as [H1 H2]; apply N.leb_le in H1, H2; lia).
  unfold scan_char, simple_op, c_nl, c_dot, c_amp, c_bar, c_eq, c_colon, c_gt, c_lt, c_star, c_slash, c_minus.
  neq_tests. cbn [orb]. now rewrite H.
Qed.

Lemma word_dispatch f s c rest : is_alphanumeric c = true -> is_digit c = false ->
  scan_char f s c rest = Ok (scan_word c s rest).
Proof.
  intros H Hd. pose proof (alnum_range c H) as Hr.
  unfold scan_char, simple_op, c_nl, c_dot, c_amp, c_bar, c_eq, c_colon, c_gt, c_lt, c_star, c_slash, c_minus.
  neq_tests. cbn [orb]. now rewrite Hd, H.
Qed.

(* ------------------------------------------------------------------ (1) numbers *)

Definition usuffix_text (t : unsigned_num_type) : list N :=
  match t with
  | UnspecifiedU => [] | Usize => s_usize | U8 => s_u8 | U16 => s_u16 | U32 => s_u32 | U64 => s_u64
  end.
Definition ssuffix_text (t : signed_num_type) : list N :=
  match t with UnspecifiedS => [] | I8 => s_i8 | I16 => s_i16 | I32 => s_i32 | I64 => s_i64 end.

(* the acceptance bounds of the scanner *)
Definition ubound (t : unsigned_num_type) : N :=
  match t with
  | UnspecifiedU | U64 => u64_max            (* 18446744073709551615 *)
  | Usize | U32 => 4294967295                (* usize has 32 bits *)
  | U8 => 255 | U16 => 65535
  end.
(* a non-negative number with a signed suffix *)
Definition sbound_pos (t : signed_num_type) : option N :=
  match t with
  | I8 => Some 127 | I16 => Some 32767 | I32 => Some 2147483647 | I64 => Some 9223372036854775807
  | UnspecifiedS => None        (* an unsuffixed non-negative number is an UNSIGNED token *)
  end.
(* "-" followed by the digits of n *)
Definition sbound_neg (t : signed_num_type) : N :=
  match t with
  | I8 => 128 | I16 => 32768 | I32 => 2147483648
  | I64 | UnspecifiedS => i64_min_abs       (* 9223372036854775808 *)
  end.

Ltac eval_list_eqb :=
  repeat match goal with
         | |- context [list_eqb ?a ?b] =>
             let v := eval vm_compute in (list_eqb a b) in change (list_eqb a b) with v
         end.

Lemma unsigned_suffix_u n t : n <= u64_max ->
  unsigned_suffix n (usuffix_text t) = if n <=? ubound t then (false, TUnsignedNum n t) else (true, TUnsignedNum n U64).
Proof.
  intro H. apply N.leb_le in H. unfold unsigned_suffix.
  destruct t; cbn [usuffix_text ubound]; eval_list_eqb; cbn [andb]; try (rewrite H; reflexivity); destruct (n <=? _); reflexivity.
Qed.

Lemma unsigned_suffix_s n t b : sbound_pos t = Some b ->
  unsigned_suffix n (ssuffix_text t) = if n <=? b then (false, TSignedNum (Z.of_N n) t) else (true, TUnsignedNum n U64).
Proof.
  intro Hb. unfold unsigned_suffix. destruct t; try discriminate Hb; injection Hb as <-;
    cbn [ssuffix_text]; eval_list_eqb; cbn [andb]; destruct (n <=? _); reflexivity.
Qed.

Lemma neg_in_range (n : N) (lo hi : Z) : (lo <= 0 <= hi)%Z ->
  ((lo <=? - Z.of_N n) && (- Z.of_N n <=? hi))%Z = (n <=? Z.to_N (- lo)).
Proof.
  intro H. destruct (N.leb_spec n (Z.to_N (- lo))).
  - apply andb_true_intro. split; apply Z.leb_le; lia.
  - apply andb_false_intro1, Z.leb_gt. lia.
Qed.

Lemma signed_suffix_neg n t : n <= i64_min_abs ->
  signed_suffix (- Z.of_N n) (ssuffix_text t) = if n <=? sbound_neg t then (false, t) else (true, I64).
Proof.
  intro H. apply N.leb_le in H. unfold signed_suffix.
  destruct t; cbn [ssuffix_text sbound_neg]; eval_list_eqb; cbn [andb]; try (rewrite H; reflexivity);
    rewrite neg_in_range by lia; reflexivity.
Qed.

(* the digit arm on the digits of n, a suffix, and a separator *)
Lemma scan_number_text f s n suffix rest c ds :
  dec n = c :: ds -> n <= u64_max -> Forall (fun x => is_alphanumeric x = true) suffix ->
  stops is_digit (suffix ++ rest) -> sep_ok rest ->
  exists s2, same s s2 /\
    scan_char f s c (ds ++ suffix ++ rest) =
    Ok (push_token (snd (unsigned_suffix n suffix))
          (if fst (unsigned_suffix n suffix) then push_error InvalidUnsignedNum s2 else s2), rest).
Proof.
  intros Hd Hn Hsfx Hst Hsep. pose proof (dec_digits n) as Hdig. rewrite Hd in Hdig.
  inversion Hdig as [|? ? Hc Hds]; subst.
  rewrite (digit_dispatch f s c _ Hc). unfold scan_number.
  rewrite (take_while_app is_digit ds s (suffix ++ rest) Hds Hst).
  unfold parse_u64. rewrite <- Hd, dec_value. apply N.leb_le in Hn. rewrite Hn.
  rewrite (take_while_app is_alphanumeric suffix _ rest Hsfx (sep_stops_alnum rest Hsep)).
  eexists. split; [|destruct (unsigned_suffix n suffix) as [bad tok]; reflexivity].
  eapply same_trans; apply same_adv_n.
Qed.

Lemma scan_number_overflow f s n rest c ds : dec n = c :: ds -> u64_max < n -> stops is_digit rest ->
  exists s1, same s s1 /\ scan_char f s c (ds ++ rest) = Ok (push_error InvalidUnsignedNum s1, rest).
Proof.
  intros Hd Hn Hst. pose proof (dec_digits n) as Hdig. rewrite Hd in Hdig.
  inversion Hdig as [|? ? Hc Hds]; subst.
  rewrite (digit_dispatch f s c _ Hc). unfold scan_number.
  rewrite (take_while_app is_digit ds s rest Hds Hst).
  unfold parse_u64. rewrite <- Hd, dec_value. apply N.leb_gt in Hn. rewrite Hn.
  eexists. split; [apply same_adv_n|reflexivity].
Qed.

(* the `-` arm *)
Lemma minus_dispatch f s rest : match rest with c :: _ => c <> 61 /\ c <> 62 | [] => True end ->
  scan_char f s 45 rest = Ok (scan_minus s rest).
Proof.
  intro H. unfold scan_char. change (simple_op 45) with (@None optree).
  change ((45 =? 32) || (45 =? 13) || (45 =? 9)) with false. change (45 =? c_nl) with false.
  change (45 =? c_slash) with false. change (45 =? c_minus) with true. cbv iota.
  destruct rest as [|c r]; [reflexivity|]. destruct H as [H1 H2]. unfold Scan.next_matches, c_eq, c_gt.
  destruct (N.eqb_spec c 61); [contradiction|]. destruct (N.eqb_spec c 62); [contradiction|]. reflexivity.
Qed.

Lemma digit_not_eq_gt c : is_digit c = true -> c <> 61 /\ c <> 62.
Proof. unfold is_digit. intro H. apply andb_prop in H. destruct H as [H1 H2]. apply N.leb_le in H1, H2. lia. Qed.

Lemma scan_minus_text f s n suffix rest :
  n <= i64_min_abs -> Forall (fun x => is_alphanumeric x = true) suffix ->
  stops is_digit (suffix ++ rest) -> sep_ok rest ->
  exists s2, same s s2 /\
    scan_char f s 45 (dec n ++ suffix ++ rest) =
    Ok (push_token (TSignedNum (- Z.of_N n) (snd (signed_suffix (- Z.of_N n) suffix)))
          (if fst (signed_suffix (- Z.of_N n) suffix) then push_error InvalidUnsignedNum s2 else s2), rest).
Proof.
  intros Hn Hsfx Hst Hsep. pose proof (dec_digits n) as Hdig. destruct (dec_nonempty n) as (c & ds & Hd).
  rewrite minus_dispatch.
  2:{ rewrite Hd. cbn [app]. rewrite Hd in Hdig. inversion Hdig; subst. now apply digit_not_eq_gt. }
  unfold scan_minus. rewrite (take_while_app is_digit (dec n) s (suffix ++ rest) Hdig Hst).
  assert (is_empty (dec n) = false) as Hne by (rewrite Hd; reflexivity). cbv beta iota. rewrite Hne.
  unfold parse_neg_i64. rewrite dec_value. apply N.leb_le in Hn. rewrite Hn.
  rewrite (take_while_app is_alphanumeric suffix _ rest Hsfx (sep_stops_alnum rest Hsep)).
  eexists. split; [|destruct (signed_suffix (- Z.of_N n) suffix) as [bad ty]; reflexivity].
  eapply same_trans; apply same_adv_n.
Qed.

Lemma scan_minus_overflow f s n rest : i64_min_abs < n -> stops is_digit rest ->
  exists s1, same s s1 /\ scan_char f s 45 (dec n ++ rest) = Ok (push_error InvalidSignedNum s1, rest).
Proof.
  intros Hn Hst. pose proof (dec_digits n) as Hdig. destruct (dec_nonempty n) as (c & ds & Hd).
  rewrite minus_dispatch.
  2:{ rewrite Hd. cbn [app]. rewrite Hd in Hdig. inversion Hdig; subst. now apply digit_not_eq_gt. }
  unfold scan_minus. rewrite (take_while_app is_digit (dec n) s rest Hdig Hst).
  assert (is_empty (dec n) = false) as Hne by (rewrite Hd; reflexivity). cbv beta iota. rewrite Hne.
  unfold parse_neg_i64. rewrite dec_value. apply N.leb_gt in Hn. rewrite Hn.
  eexists. split; [apply same_adv_n|reflexivity].
Qed.

(* ------------------------------------------------------------------ texts *)

Definition ascii (l : list N) : Prop := Forall (fun b => b < 128) l.

Lemma chars_ascii l : ascii l -> chars_of_bytes l = l.
Proof.
  unfold chars_of_bytes. induction 1 as [|b l Hb _ IH]; [reflexivity|]. cbn [filter].
  assert (is_cont b = false) as -> by (unfold is_cont; destruct (N.leb_spec 128 b); [lia|reflexivity]).
  cbn [negb]. now rewrite IH.
Qed.

Lemma alnum_ascii l : Forall (fun x => is_alphanumeric x = true) l -> ascii l.
Proof. intro H. eapply Forall_impl; [|exact H]. intros a Ha. cbv beta. pose proof (alnum_range a Ha). lia. Qed.

Lemma digits_alnum l : Forall (fun x => is_digit x = true) l -> Forall (fun x => is_alphanumeric x = true) l.
Proof. intro H. eapply Forall_impl; [|exact H]. intros a Ha. cbv beta. unfold is_alphanumeric. rewrite Ha. apply orb_true_r. Qed.

Lemma finish_same s s' : same s s' -> finish s' = finish s.
Proof. intros [H1 H2]. unfold finish. now rewrite H1, H2. Qed.

(* a text that one iteration of the scanner loop consumes entirely *)
Lemma scan_text_one c rest s1 : ascii (c :: rest) ->
  scan_char (length (c :: rest)) init c rest = Ok (s1, []) -> scan_text (c :: rest) = Ok (finish s1).
Proof.
  intros Ha H. unfold scan_text, scan, fuel_for. rewrite (chars_ascii _ Ha).
  cbn [scan_loop]. rewrite H. cbn [bind fst snd length scan_loop]. reflexivity.
Qed.

(* a text whose first iteration records an error: [ScanProofs.good] counts the errors *)
Lemma scan_text_error bytes c rest s1 r1 : chars_of_bytes bytes = c :: rest ->
  scan_char (length bytes) init c rest = Ok (s1, r1) -> errors s1 <> [] ->
  exists es, scan_text bytes = Ok (SErrors es).
Proof.
  intros Hc H He. pose proof (chars_length bytes) as Hl. rewrite Hc in Hl. cbn [length] in Hl.
  assert (G0 : good (nl bytes) 0 init (c :: rest)) by (apply good_init; rewrite <- Hc, chars_nl; lia).
  destruct (scan_char_spec (nl bytes) 0%nat (length bytes) init c rest) as (s1' & r1' & E1 & G1 & L1); [lia|exact G0|].
  rewrite H in E1. injection E1 as <- <-.
  assert (G1' : good (nl bytes) 1 (Scan.advance s1) r1).
  { apply good_advance, (good_errs _ 0); [exact G1|]. destruct (errors s1); [congruence|cbn [length]; lia]. }
  destruct (scan_loop_spec (nl bytes) 1%nat (length bytes) (Scan.advance s1) r1) as (s' & E' & _ & _ & _ & _ & Hk);
    [lia|exact G1'|].
  unfold scan_text, scan, fuel_for. rewrite Hc. cbn [scan_loop]. rewrite H. cbn [bind fst snd]. rewrite E'. cbn [bind].
  unfold finish. destruct (errors s'); [cbn [length] in Hk; lia|]. eauto.
Qed.

Lemma usuffix_alnum t : Forall (fun x => is_alphanumeric x = true) (usuffix_text t).
Proof. destruct t; repeat constructor. Qed.
Lemma ssuffix_alnum t : Forall (fun x => is_alphanumeric x = true) (ssuffix_text t).
Proof. destruct t; repeat constructor. Qed.
Lemma usuffix_stops t rest : stops is_digit rest -> stops is_digit (usuffix_text t ++ rest).
Proof. destruct t; cbn; auto. Qed.
Lemma ssuffix_stops t rest : stops is_digit rest -> stops is_digit (ssuffix_text t ++ rest).
Proof. destruct t; cbn; auto. Qed.

Lemma usuffix_stops0 t : stops is_digit (usuffix_text t).
Proof. destruct t; cbn; auto. Qed.
Lemma ssuffix_stops0 t : stops is_digit (ssuffix_text t).
Proof. destruct t; cbn; auto. Qed.

Lemma number_text_ascii n sfx : Forall (fun x => is_alphanumeric x = true) sfx -> ascii (dec n ++ sfx).
Proof. intro H. apply alnum_ascii, Forall_app. split; [apply digits_alnum, dec_digits|exact H]. Qed.

(* (1) beyond the bound of its suffix, or of u64, a number is an error *)
Lemma number_beyond n sfx : Forall (fun x => is_alphanumeric x = true) sfx -> stops is_digit sfx ->
  (n <= u64_max -> fst (unsigned_suffix n sfx) = true) -> exists es, scan_text (dec n ++ sfx) = Ok (SErrors es).
Proof.
  intros Hal Hst Hbad. destruct (dec_nonempty n) as (c & ds & Hd).
  pose proof (number_text_ascii n _ Hal) as Ha.
  destruct (N.le_gt_cases n u64_max) as [Hu|Hu].
  - destruct (scan_number_text (length (dec n ++ sfx)) init n sfx [] c ds Hd Hu Hal) as (s2 & _ & H);
      [rewrite app_nil_r; exact Hst|now left|].
    rewrite app_nil_r, (Hbad Hu) in H.
    eapply scan_text_error; [rewrite (chars_ascii _ Ha), Hd; reflexivity|exact H|]. cbn. discriminate.
  - destruct (scan_number_overflow (length (dec n ++ sfx)) init n sfx c ds Hd Hu Hst) as (s1 & _ & H).
    eapply scan_text_error; [rewrite (chars_ascii _ Ha), Hd; reflexivity|exact H|]. cbn. discriminate.
Qed.

Theorem scan_unsigned_beyond n t : ubound t < n -> exists es, scan_text (dec n ++ usuffix_text t) = Ok (SErrors es).
Proof.
  intro Hb. apply number_beyond; [apply usuffix_alnum|apply usuffix_stops0|]. intro Hu.
  now rewrite (unsigned_suffix_u n t Hu), (proj2 (N.leb_gt _ _) Hb).
Qed.

Theorem scan_signed_pos_beyond n t b : sbound_pos t = Some b -> b < n ->
  exists es, scan_text (dec n ++ ssuffix_text t) = Ok (SErrors es).
Proof.
  intros Hsb Hb. apply number_beyond; [apply ssuffix_alnum|apply ssuffix_stops0|]. intros _.
  now rewrite (unsigned_suffix_s n t b Hsb), (proj2 (N.leb_gt _ _) Hb).
Qed.

(* (1c) "-" followed by the digits of n: ONE signed token with the value -n (also for n = 0) *)
Theorem scan_signed_neg n t : n <= sbound_neg t ->
  exists m, scan_text (45 :: dec n ++ ssuffix_text t) = Ok (STokens [Token (TSignedNum (- Z.of_N n) t) m]).
Proof.
  intro Hb.
  assert (Hu : n <= i64_min_abs) by (destruct t; cbn [sbound_neg] in Hb; unfold i64_min_abs in *; lia).
  destruct (scan_minus_text (length (45 :: dec n ++ ssuffix_text t)) init n (ssuffix_text t) [] Hu
              (ssuffix_alnum t) (ssuffix_stops t [] I) (or_introl eq_refl)) as (s2 & [Ht He] & H).
  rewrite app_nil_r, (signed_suffix_neg n t Hu), (proj2 (N.leb_le _ _) Hb) in H. cbn [fst snd] in H.
  assert (Ha : ascii (45 :: dec n ++ ssuffix_text t)) by (constructor; [lia|apply number_text_ascii, ssuffix_alnum]).
  rewrite (scan_text_one 45 _ _ Ha H). unfold finish, push_token. cbn [errors tokens]. rewrite He, Ht.
  cbn [init errors tokens rev app]. eauto.
Qed.

Theorem scan_signed_neg_beyond n t : sbound_neg t < n ->
  exists es, scan_text (45 :: dec n ++ ssuffix_text t) = Ok (SErrors es).
Proof.
  intro Hb.
  assert (Ha : ascii (45 :: dec n ++ ssuffix_text t)) by (constructor; [lia|apply number_text_ascii, ssuffix_alnum]).
  destruct (N.le_gt_cases n i64_min_abs) as [Hu|Hu].
  - destruct (scan_minus_text (length (45 :: dec n ++ ssuffix_text t)) init n (ssuffix_text t) [] Hu
                (ssuffix_alnum t) (ssuffix_stops t [] I) (or_introl eq_refl)) as (s2 & _ & H).
    rewrite app_nil_r, (signed_suffix_neg n t Hu), (proj2 (N.leb_gt _ _) Hb) in H.
    eapply scan_text_error; [rewrite (chars_ascii _ Ha); reflexivity|exact H|]. cbn. discriminate.
  - destruct (scan_minus_overflow (length (45 :: dec n ++ ssuffix_text t)) init n (ssuffix_text t) Hu
                (ssuffix_stops0 t)) as (s1 & _ & H).
    eapply scan_text_error; [rewrite (chars_ascii _ Ha); reflexivity|exact H|]. cbn. discriminate.
Qed.

Print Assumptions scan_unsigned_beyond.
Print Assumptions scan_signed_neg.
Print Assumptions scan_signed_neg_beyond.

(* ------------------------------------------------------------------ (2) printing tokens *)

Local Open Scope string_scope.
Definition text_of (t : token_enum) : list N :=
  match t with
  | TIdentifier s => s
  | TUnsignedNum n ty => dec n ++ usuffix_text ty
  | TSignedNum z ty =>
      if (z <? 0)%Z then 45 :: dec (Z.abs_N z) ++ ssuffix_text ty else dec (Z.to_N z) ++ ssuffix_text ty
  | TKeywordConst => codes "const" | TKeywordStruct => codes "struct" | TKeywordEnum => codes "enum"
  | TKeywordFn => codes "fn" | TKeywordLet => codes "let" | TKeywordIf => codes "if"
  | TKeywordElse => codes "else" | TKeywordMatch => codes "match" | TKeywordMut => codes "mut"
  | TKeywordAs => codes "as" | TKeywordPub => codes "pub" | TKeywordFor => codes "for"
  | TKeywordIn => codes "in"
  | TDot => codes "." | TDoubleDot => codes ".." | TDoubleDotEquals => codes "..=" | TComma => codes ","
  | TSemicolon => codes ";" | TColon => codes ":" | TDoubleColon => codes "::"
  | TArrow => codes "->" | TFatArrow => codes "=>" | TLeftParen => codes "(" | TRightParen => codes ")"
  | TLeftBrace => codes "{" | TRightBrace => codes "}" | TLeftBracket => codes "["
  | TRightBracket => codes "]" | TPlus => codes "+" | TMinus => codes "-" | TSlash => codes "/"
  | TStar => codes "*" | TPercent => codes "%" | TAmpersand => codes "&"
  | TDoubleAmpersand => codes "&&" | TBar => codes "|" | TDoubleBar => codes "||" | TCaret => codes "^"
  | TBang => codes "!" | TEq => codes "=" | TDoubleEq => codes "==" | TBangEq => codes "!="
  | TGreaterThan => codes ">" | TLessThan => codes "<" | TGreaterThanEquals => codes ">="
  | TLessThanEquals => codes "<=" | TDoubleGreaterThan => codes ">>" | TDoubleLessThan => codes "<<"
  | TAddAssign => codes "+=" | TSubAssign => codes "-=" | TMulAssign => codes "*=" | TDivAssign => codes "/="
  | TRemAssign => codes "%=" | TBitXorAssign => codes "^=" | TBitAndAssign => codes "&="
  | TBitOrAssign => codes "|=" | TShrAssign => codes ">>=" | TShlAssign => codes "<<="
  end.
Local Close Scope string_scope.

(* the texts of the tokens, separated by single spaces *)
Fixpoint print_tokens (ts : list token_enum) : list N :=
  match ts with
  | [] => []
  | t :: r => match r with [] => text_of t | _ => (text_of t ++ 32 :: print_tokens r)%list end
  end.

(* what can be printed and read back:
   - an identifier is a non-empty string of letters, digits and `_` that does not start with a
     digit and is not a keyword;
   - an unsigned number is within the bound of its suffix;
   - a negative number is within the bound of its suffix; a non-negative SIGNED number has a suffix
     (unsuffixed it would be read as an unsigned number; `-0` is not printed) and is within its bound *)
Definition tok_printable (t : token_enum) : Prop :=
  match t with
  | TIdentifier s =>
      Forall (fun x => is_alphanumeric x = true) s /\ lookup_keyword keywords s = TIdentifier s /\
      match s with c :: _ => is_digit c = false | [] => False end
  | TUnsignedNum n ty => n <= ubound ty
  | TSignedNum z ty =>
      if (z <? 0)%Z then Z.abs_N z <= sbound_neg ty
      else match sbound_pos ty with Some b => Z.to_N z <= b | None => False end
  | _ => True
  end.

(* one token: its text, followed by a separator, is read as that token in one iteration *)
Definition tok_reads (t : token_enum) : Prop :=
  exists c cs, text_of t = c :: cs /\ ascii (text_of t) /\
    forall f s rest, sep_ok rest ->
      exists s1, scan_char f s c (cs ++ rest) = Ok (s1, rest) /\ kinds s1 = t :: kinds s /\ errors s1 = errors s.

Lemma pushed t s s1 : same s s1 -> kinds (push_token t s1) = t :: kinds s /\ errors (push_token t s1) = errors s.
Proof. intros [Ht He]. unfold kinds, push_token. cbn [tokens errors map kind]. now rewrite Ht, He. Qed.

Lemma word_reads t c cs : text_of t = c :: cs -> Forall (fun x => is_alphanumeric x = true) (c :: cs) ->
  is_digit c = false -> lookup_keyword keywords (c :: cs) = t -> tok_reads t.
Proof.
  intros Htx Hal Hd Hkw. inversion Hal as [|? ? Hc Hcs]. exists c, cs. split; [exact Htx|].
  split; [rewrite Htx; now apply alnum_ascii|].
  intros f s rest Hsep. rewrite (word_dispatch f s c _ Hc Hd). unfold scan_word.
  rewrite (take_while_app is_alphanumeric cs s rest Hcs (sep_stops_alnum rest Hsep)), Hkw.
  eexists. split; [reflexivity|]. apply pushed, same_adv_n.
Qed.

Lemma op_reads t c cs tr : text_of t = c :: cs -> ascii (c :: cs) -> simple_op c = Some tr ->
  (forall s rest, sep_ok rest -> run_optree tr s (cs ++ rest) = (push_token t (adv_n (length cs) s), rest)) ->
  tok_reads t.
Proof.
  intros Htx Ha Hop Hrun. exists c, cs. split; [exact Htx|]. split; [rewrite Htx; exact Ha|].
  intros f s rest Hsep. unfold scan_char.
  assert (Hne : forall x, simple_op x = None -> (c =? x) = false) by (intros x Hx; apply N.eqb_neq; congruence).
  rewrite !Hne, Hop, (Hrun s rest Hsep) by reflexivity. cbn [orb].
  eexists. split; [reflexivity|]. apply pushed, same_adv_n.
Qed.

Ltac word_token := eapply word_reads; [reflexivity|repeat constructor|reflexivity|reflexivity].
Ltac op_token := eapply op_reads; [reflexivity|repeat constructor|reflexivity|intros s rest [->|[r ->]]; reflexivity].
(* `/`, `/=`, `-`, `-=`, `->` have arms of their own in [scan_char] *)
Ltac slash_minus_token :=
  eexists _, _; split; [reflexivity|]; split; [repeat constructor|];
  intros f s rest [->|[r ->]]; eexists; (split; [reflexivity|split; reflexivity]).

Lemma tok_scan t : tok_printable t -> tok_reads t.
Proof.
  intro Hp. destruct t; try word_token; try op_token; try slash_minus_token.
  - (* identifier *)
    destruct Hp as (Hal & Hkw & Hd). destruct s as [|c cs]; [contradiction|]. exact (word_reads (TIdentifier (c :: cs)) c cs eq_refl Hal Hd Hkw).
  - (* unsigned number *)
    cbn [tok_printable] in Hp. destruct (dec_nonempty n) as (c & ds & Hd).
    exists c, (ds ++ usuffix_text t)%list. cbn [text_of]. rewrite Hd. split; [reflexivity|].
    split; [rewrite <- Hd; apply number_text_ascii, usuffix_alnum|].
    intros f s rest Hsep.
    assert (Hu : n <= u64_max) by (destruct t; cbn [ubound] in Hp; unfold u64_max in *; lia).
    destruct (scan_number_text f s n (usuffix_text t) rest c ds Hd Hu (usuffix_alnum t)
                (usuffix_stops t rest (sep_stops_digit rest Hsep)) Hsep) as (s2 & Hs2 & H).
    rewrite <- app_assoc. rewrite H, (unsigned_suffix_u n t Hu), (proj2 (N.leb_le _ _) Hp). cbn [fst snd].
    eexists. split; [reflexivity|]. now apply pushed.
  - (* signed number *)
    unfold tok_reads. cbn [tok_printable text_of] in *. destruct (z <? 0)%Z eqn:Ez.
    + exists 45, (dec (Z.abs_N z) ++ ssuffix_text t)%list. split; [reflexivity|].
      split; [constructor; [lia|apply number_text_ascii, ssuffix_alnum]|].
      intros f s rest Hsep.
      assert (Hu : Z.abs_N z <= i64_min_abs) by (destruct t; cbn [sbound_neg] in Hp; unfold i64_min_abs in *; lia).
      destruct (scan_minus_text f s (Z.abs_N z) (ssuffix_text t) rest Hu (ssuffix_alnum t)
                  (ssuffix_stops t rest (sep_stops_digit rest Hsep)) Hsep) as (s2 & Hs2 & H).
      rewrite <- app_assoc. rewrite H, (signed_suffix_neg _ t Hu), (proj2 (N.leb_le _ _) Hp). cbn [fst snd].
      apply Z.ltb_lt in Ez. replace (- Z.of_N (Z.abs_N z))%Z with z by (rewrite N2Z.inj_abs_N; lia).
      eexists. split; [reflexivity|]. now apply pushed.
    + destruct (sbound_pos t) as [b|] eqn:Eb; [|contradiction]. apply Z.ltb_ge in Ez.
      destruct (dec_nonempty (Z.to_N z)) as (c & ds & Hd).
      exists c, (ds ++ ssuffix_text t)%list. rewrite Hd. split; [reflexivity|].
      split; [rewrite <- Hd; apply number_text_ascii, ssuffix_alnum|].
      intros f s rest Hsep.
      assert (Hu : Z.to_N z <= u64_max) by (destruct t; try discriminate Eb; injection Eb as <-; unfold u64_max; lia).
      destruct (scan_number_text f s (Z.to_N z) (ssuffix_text t) rest c ds Hd Hu (ssuffix_alnum t)
                  (ssuffix_stops t rest (sep_stops_digit rest Hsep)) Hsep) as (s2 & Hs2 & H).
      rewrite <- app_assoc. rewrite H, (unsigned_suffix_s _ t b Eb), (proj2 (N.leb_le _ _) Hp). cbn [fst snd].
      rewrite Z2N.id by exact Ez.
      eexists. split; [reflexivity|]. now apply pushed.
Qed.

Lemma print_tokens_cons t r : r <> [] -> print_tokens (t :: r) = (text_of t ++ 32 :: print_tokens r)%list.
Proof. destruct r; [congruence|reflexivity]. Qed.

Lemma print_tokens_ascii ts : Forall tok_printable ts -> ascii (print_tokens ts).
Proof.
  induction 1 as [|t r Ht _ IH]; [constructor|]. destruct (tok_scan t Ht) as (c & cs & _ & Ha & _).
  destruct r as [|t2 r]; [exact Ha|]. rewrite print_tokens_cons by discriminate.
  apply Forall_app. split; [exact Ha|]. constructor; [lia|exact IH].
Qed.

(* the loop of the scanner on a printed token list *)
Lemma scan_loop_print : forall ts s fuel, Forall tok_printable ts -> (length (print_tokens ts) < fuel)%nat ->
  exists s', scan_loop fuel s (print_tokens ts) = Ok s' /\
             kinds s' = (rev ts ++ kinds s)%list /\ errors s' = errors s.
Proof.
  induction ts as [|t r IH]; intros s fuel Hp Hf.
  - destruct fuel as [|f]; [lia|]. exists s. repeat split.
  - inversion Hp as [|? ? Ht Hr]; subst. destruct (tok_scan t Ht) as (c & cs & Htx & _ & Hscan).
    destruct r as [|t2 r].
    + cbn [print_tokens] in *. rewrite Htx in *. destruct fuel as [|f]; [lia|]. cbn [scan_loop].
      destruct (Hscan f s [] (or_introl eq_refl)) as (s1 & H1 & Hk & He). rewrite app_nil_r in H1.
      rewrite H1. cbn [bind fst snd]. destruct f as [|f]; [cbn [length] in Hf; lia|]. cbn [scan_loop].
      eexists. split; [reflexivity|]. split; [|exact He]. cbn [rev app]. exact Hk.
    + rewrite print_tokens_cons in * by discriminate. rewrite Htx in *. cbn [app] in *.
      destruct fuel as [|f]; [lia|]. cbn [scan_loop].
      destruct (Hscan f s (32 :: print_tokens (t2 :: r)) (or_intror (ex_intro _ _ eq_refl))) as (s1 & H1 & Hk & He).
      rewrite H1. cbn [bind fst snd].
      destruct f as [|f]; [cbn [length] in Hf; rewrite app_length in Hf; cbn [length] in Hf; lia|].
      cbn [scan_loop]. change (scan_char f (Scan.advance s1) 32 (print_tokens (t2 :: r)))
        with (Ok (mark_start (Scan.advance s1), print_tokens (t2 :: r))). cbn [bind fst snd].
      destruct (IH (Scan.advance (mark_start (Scan.advance s1))) f Hr) as (s' & Hs' & Hk' & He').
      { cbn [length] in Hf. rewrite app_length in Hf. cbn [length] in Hf. lia. }
      exists s'. split; [exact Hs'|]. split.
      * rewrite Hk'. change (kinds (Scan.advance (mark_start (Scan.advance s1)))) with (kinds s1). rewrite Hk.
        cbn [rev]. rewrite <- !app_assoc. reflexivity.
      * rewrite He'. exact He.
Qed.

(* (2) scanning the printed tokens gives them back, locations aside *)
Theorem scan_print ts : Forall tok_printable ts ->
  exists ts', scan_text (print_tokens ts) = Ok (STokens ts') /\ map kind ts' = ts.
Proof.
  intro Hp. unfold scan_text, scan, fuel_for. rewrite (chars_ascii _ (print_tokens_ascii ts Hp)).
  destruct (scan_loop_print ts init (S (length (print_tokens ts))) Hp ltac:(lia)) as (s' & Hs' & Hk & He).
  rewrite Hs'. cbn [bind]. unfold finish. rewrite He. cbn [init errors].
  eexists. split; [reflexivity|]. rewrite map_rev. fold (kinds s'). rewrite Hk. cbn [init tokens kinds map].
  now rewrite app_nil_r, rev_involutive.
Qed.
Print Assumptions scan_print.

Lemma scan_one t : tok_printable t -> exists m, scan_text (text_of t) = Ok (STokens [Token t m]).
Proof.
  intro H. destruct (scan_print [t] (Forall_cons _ H (Forall_nil _))) as (ts' & Hs & Hk).
  destruct ts' as [|[k m] [|? ?]]; try discriminate Hk. injection Hk as ->. exists m. exact Hs.
Qed.

(* (1a) an unsigned number with its suffix *)
Theorem scan_unsigned n t : n <= ubound t ->
  exists m, scan_text (dec n ++ usuffix_text t) = Ok (STokens [Token (TUnsignedNum n t) m]).
Proof. intro H. exact (scan_one (TUnsignedNum n t) H). Qed.

(* (1b) a non-negative number with a signed suffix *)
Theorem scan_signed_pos n t b : sbound_pos t = Some b -> n <= b ->
  exists m, scan_text (dec n ++ ssuffix_text t) = Ok (STokens [Token (TSignedNum (Z.of_N n) t) m]).
Proof.
  intros Hsb Hb. assert (E : (Z.of_N n <? 0)%Z = false) by (apply Z.ltb_ge; lia).
  destruct (scan_one (TSignedNum (Z.of_N n) t)) as [m H].
  - cbn [tok_printable]. now rewrite E, Hsb, N2Z.id.
  - exists m. cbn [text_of] in H. now rewrite E, N2Z.id in H.
Qed.
Print Assumptions scan_unsigned.

(* ------------------------------------------------------------------ (3) the round trip on texts *)

(* forget the locations *)
Definition unloc (ts : list token) : list token := map (fun t => tk (kind t)) ts.

Definition is_tk (l : list token) : Prop := unloc l = l.

Lemma is_tk_nil : is_tk []. Proof. reflexivity. Qed.
Lemma is_tk_cons k l : is_tk l -> is_tk (tk k :: l).
Proof. unfold is_tk, unloc. intro H. cbn [map kind]. now rewrite H. Qed.
Lemma is_tk_app a b : is_tk a -> is_tk b -> is_tk (a ++ b).
Proof. unfold is_tk, unloc. intros Ha Hb. now rewrite map_app, Ha, Hb. Qed.
Lemma is_tk_at j right x sx : is_tk sx -> is_tk (at_ j right x sx).
Proof.
  intro H. unfold at_, parens. destruct (paren_needed j right x); [|exact H].
  apply is_tk_cons, is_tk_app; [exact H|apply is_tk_cons, is_tk_nil].
Qed.

Ltac tk_auto := repeat first [assumption | apply is_tk_nil | apply is_tk_app | apply is_tk_at | apply is_tk_cons].

Lemma is_tk_more es : Forall (fun e => is_tk (show_raw e)) es -> is_tk (more_toks es).
Proof. induction 1 as [|y r Hy _ IH]; cbn [more_toks]; tk_auto. Qed.

(* the printer of ParseExprProofs builds all its tokens with the default location *)
Lemma show_raw_tk : forall e, is_tk (show_raw e).
Proof.
  apply (uexpr_ind2 (fun e => is_tk (show_raw e))); intros; try (cbn [show_raw]; tk_auto; fail).
  - rewrite show_tuple. destruct es as [|x r]; [tk_auto|]. inversion H as [|? ? Hx Hr]; subst.
    pose proof (is_tk_more r Hr). destruct r; tk_auto.
  - rewrite show_call. destruct args as [|x r]; [tk_auto|]. inversion H as [|? ? Hx Hr]; subst.
    pose proof (is_tk_more r Hr). tk_auto.
  - cbn [show_raw]. destruct e; tk_auto.
Qed.

Lemma unloc_kind ts ts' : map kind ts' = map kind ts -> unloc ts' = unloc ts.
Proof. unfold unloc. intro H. rewrite <- !(map_map kind (fun k => Token k m0)). now rewrite H. Qed.

(* the text of the minimal-parentheses rendering of e *)
Definition show_text (e : uexpr) : list N := print_tokens (map kind (show_min e)).

(* (3) scanning the text of a well-formed tree and parsing the tokens (their locations
   forgotten) gives the tree back.  That the parser does not look at the locations is shown in
   ParseUnloc.v; [scan_parse_show_min_loc] there is this round trip for the scanned tokens
   themselves. *)
Theorem scan_parse_show_min e : wf_expr e -> Forall tok_printable (map kind (show_min e)) ->
  exists ts' fuel, scan_text (show_text e) = Ok (STokens ts') /\
                   map kind ts' = map kind (show_min e) /\
                   parse_expr fuel (unloc ts') = Some (e, []).
Proof.
  intros Hwf Hp. destruct (scan_print _ Hp) as (ts' & Hs & Hk). destruct (parse_show_min_all e Hwf) as [fuel Hf].
  exists ts', fuel. split; [exact Hs|]. split; [exact Hk|].
  rewrite (unloc_kind (show_min e) ts' Hk). unfold show_min in *. rewrite (show_raw_tk e). exact Hf.
Qed.
Print Assumptions scan_parse_show_min.

(* which trees have printable tokens: identifiers (variables, functions, fields, type names) that
   the scanner reads as identifiers, numbers within the bounds of their suffixes *)
Example show_text_example :
  let e := UOp BAdd (UArrayAccess (UIdentifier (codes "a")) (UNumUnsigned 1 Usize))
                    (UUnaryOp UoNeg (UCast (UTUnsigned U8) (UIdentifier (codes "x_1")))) in
  show_text e = codes "a [ 1usize ] + - ( x_1 as u8 )" /\
  match scan_text (show_text e) with Ok (STokens ts') => parse_expr 20 ts' | _ => None end = Some (e, []).
Proof. split; vm_compute; reflexivity. Qed.

(* around a minus sign: `- 1` and `--1` start with a Minus token, `1-1` is two numbers
   (the second one negative: NO Minus token), `1 -1` likewise *)
Definition scans_to (s : string) (ks : list token_enum) : Prop :=
  match scan_text (codes s) with Ok (STokens ts) => Some (map kind ts) | _ => None end = Some ks.
Definition scan_fails (s : string) : Prop :=
  match scan_text (codes s) with Ok (SErrors _) => true | _ => false end = true.
Ltac sc := vm_compute; reflexivity.
Ltac sf := vm_compute; reflexivity.

Example minus_space : scans_to "- 1" [TMinus; TUnsignedNum 1 UnspecifiedU]. Proof. sc. Qed.
Example minus_minus : scans_to "--1" [TMinus; TSignedNum (-1) UnspecifiedS]. Proof. sc. Qed.
Example one_minus_one : scans_to "1-1" [TUnsignedNum 1 UnspecifiedU; TSignedNum (-1) UnspecifiedS]. Proof. sc. Qed.
Example one_space_minus_one : scans_to "1 -1" [TUnsignedNum 1 UnspecifiedU; TSignedNum (-1) UnspecifiedS]. Proof. sc. Qed.
Example one_minus_spaced : scans_to "1 - 1" [TUnsignedNum 1 UnspecifiedU; TMinus; TUnsignedNum 1 UnspecifiedU]. Proof. sc. Qed.
Example x_minus_one : scans_to "x-1" [TIdentifier (codes "x"); TSignedNum (-1) UnspecifiedS]. Proof. sc. Qed.
Example minus_zero : scans_to "-0" [TSignedNum 0 UnspecifiedS]. Proof. sc. Qed.
Example leading_zeros : scans_to "007" [TUnsignedNum 7 UnspecifiedU]. Proof. sc. Qed.
Example i64_min_text : scans_to "-9223372036854775808" [TSignedNum (-9223372036854775808) UnspecifiedS]. Proof. sc. Qed.
Example underscore_number : scan_fails "1_000". Proof. sf. Qed.
Example u8_256 : scan_fails "256u8". Proof. sf. Qed.
Example usize_2_32 : scan_fails "4294967296usize". Proof. sf. Qed.
Example i8_minus_129 : scan_fails "-129i8". Proof. sf. Qed.
Example minus_unsigned_suffix : scan_fails "-1u8". Proof. sf. Qed.
Example u64_overflow : scan_fails "18446744073709551616". Proof. sf. Qed.

(* a consequence for the parser: without spaces `x-1` is the identifier x followed by the NUMBER -1,
   not a subtraction (parse_expr stops after x; as a statement it is a parse error); `x - 1` and
   `x -1`... only the former is a subtraction *)
Example x_minus_1_is_not_a_subtraction :
  match scan_text (codes "x-1") with Ok (STokens ts) => parse_expr 20 ts | _ => None end
    = Some (UIdentifier (codes "x"), [Token (TSignedNum (-1) UnspecifiedS) (Meta (0, 1) (0, 3))]) /\
  match scan_text (codes "x - 1") with Ok (STokens ts) => parse_expr 20 ts | _ => None end
    = Some (UOp BSub (UIdentifier (codes "x")) (UNumUnsigned 1 UnspecifiedU), []).
Proof. split; vm_compute; reflexivity. Qed.
