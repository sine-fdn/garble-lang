(* The parser model of Front/ParseExpr.v implements Rust's precedence and associativity:
   parsing the MINIMAL-PARENTHESES rendering of an expression tree gives the tree back.

   [show_min] prints a tree as TOKENS with the conventions of /verif/tools/gen_prec.py `show`:
   left-associative binary operators (the right operand is parenthesised at equal precedence),
   the six comparison operators do not chain (both operands are printed above all of them),
   `as` binds tighter than every binary operator and looser than the unary ones, unary
   operators take the tightest operand, an if-chain is parenthesised as a LEFT operand and as
   the operand of `as` / a unary operator / a postfix form, bare as a right operand, a cast is
   also parenthesised as an operand of a comparison / bit operator / shift (rustc's generics
   ambiguity), a negative literal as the operand of `as`, a unary or a postfix operator.
   One convention of this grammar: a one-element tuple is `(e,)`.  An index is printed as it
   is (`a[1 + i]`: the index of `[..]` is a full expression); the parser retypes an index that
   is exactly an unsuffixed number to usize, so such a tree (`UArrayAccess a (UNumUnsigned i
   UnspecifiedU)`) is not the result of any parse and is excluded by [wf_expr]; a usize index
   prints with its suffix (`a[1usize]`) and parses back to itself (so does `a[1]`, to the same tree).

   [parse_show_min]: for every well-formed tree, [parse_expr] on [show_min e ++ rest] returns
   (e, rest), provided rest does not start with a token that continues an expression
   ([stops]); also from any value of the struct-literal flag, which is given back unchanged
   ([parse_show_min_st]).  Corollaries: precedence, left associativity, THE ELSE-IF PROPERTY
   (an operator after an if-chain applies to the whole chain), the header flag is restored.

   Proof: levels 1 (or) .. 10 (times, divide, remainder), 11 (as), 12 (if), 13 (unary), 14 (primary and postfix).
   For every level k the parser is "parse at k+1, then loop at k"; the statement proved by
   induction on the tree ([cp_all]) is: if continuing the loop of level prec(e) from (e, rest)
   yields r, then parsing show e ++ rest at that level yields r ([CP]).  Everything is stated
   for all sufficiently large fuel ([ev]), so no monotonicity lemma is needed. *)
From Coq Require Import Lia ZArith String.
From GV Require Import Base.Util Front.Scan Front.ParseExpr.
Local Open Scope N_scope.

(* ------------------------------------------------------------------ the printer *)

Definition m0 : meta := Meta (0, 0) (0, 0).
Notation tk t := (Token t m0) (only parsing).

Definition op_level (o : bin_op) : nat :=
  match o with
  | BShortCircuitOr => 1 | BShortCircuitAnd => 2 | BEq | BNotEq => 3
  | BGreaterThan | BLessThan => 4 | BBitOr => 5 | BBitXor => 6 | BBitAnd => 7
  | BShiftLeft | BShiftRight => 8 | BAdd | BSub => 9 | BMul | BDiv | BMod => 10
  end%nat.

Definition op_token (o : bin_op) : token_enum :=
  match o with
  | BShortCircuitOr => TDoubleBar | BShortCircuitAnd => TDoubleAmpersand | BEq => TDoubleEq
  | BNotEq => TBangEq | BGreaterThan => TGreaterThan | BLessThan => TLessThan | BBitOr => TBar
  | BBitXor => TCaret | BBitAnd => TAmpersand | BShiftLeft => TDoubleLessThan
  | BShiftRight => TDoubleGreaterThan | BAdd => TPlus | BSub => TMinus | BMul => TStar
  | BDiv => TSlash | BMod => TPercent
  end.

Definition is_cmp (o : bin_op) : bool :=
  match o with BEq | BNotEq | BGreaterThan | BLessThan => true | _ => false end.

Definition unary_token (o : unary_op) : token_enum := match o with UoNot => TBang | UoNeg => TMinus end.

Definition prec (e : uexpr) : nat :=
  match e with
  | UOp o _ _ => op_level o
  | UCast _ _ => 11
  | UIf _ _ _ => 12
  | UUnaryOp _ _ => 13
  | _ => 14
  end%nat.

(* is e parenthesised as an operand printed at level j ([right]: a right operand)? *)
Definition paren_needed (j : nat) (right : bool) (e : uexpr) : bool :=
  match e with
  | UIf _ _ _ => ((0 <? j) && negb right) || (12 <? j)
  | UCast _ _ => (11 <? j) || ((3 <=? j) && (j <=? 8))
  | UNumSigned z _ => (z <? 0)%Z && (11 <=? j)
  | _ => prec e <? j
  end%nat.

Definition type_name (ty : utype) : list N :=
  match ty with
  | UTBool => s_bool
  | UTUnsigned Usize => s_usize | UTUnsigned U8 => s_u8 | UTUnsigned U16 => s_u16
  | UTUnsigned U32 => s_u32 | UTUnsigned U64 => s_u64 | UTUnsigned UnspecifiedU => []
  | UTSigned I8 => s_i8 | UTSigned I16 => s_i16 | UTSigned I32 => s_i32 | UTSigned I64 => s_i64
  | UTSigned UnspecifiedS => []
  | UTNamed s => s
  | UTTuple _ | UTArray _ _ | UTArrayConst _ _ | UTArrayConstExpr _ _ => []     (* not named by an identifier *)
  end.

Definition parens (s : list token) : list token := tk TLeftParen :: s ++ [tk TRightParen].

Definition at_ (j : nat) (right : bool) (x : uexpr) (sx : list token) : list token :=
  if paren_needed j right x then parens sx else sx.

Fixpoint show_raw (e : uexpr) : list token :=
  let more := fix more (es : list uexpr) : list token :=
    match es with [] => [] | y :: r => tk TComma :: show_raw y ++ more r end in
  match e with
  | UTrue => [tk (TIdentifier s_true)]
  | UFalse => [tk (TIdentifier s_false)]
  | UNumUnsigned n t => [tk (TUnsignedNum n t)]
  | UNumSigned z t => [tk (TSignedNum z t)]
  | UIdentifier s => [tk (TIdentifier s)]
  | UArrayAccess a i =>
      at_ 14 false a (show_raw a) ++ tk TLeftBracket :: show_raw i ++ [tk TRightBracket]
  | UTupleLiteral es =>
      tk TLeftParen ::
        match es with
        | [] => []
        | x :: r => show_raw x ++ more r ++ (match r with [] => [tk TComma] | _ => [] end)
        end ++ [tk TRightParen]
  | UTupleAccess x i => at_ 14 false x (show_raw x) ++ [tk TDot; tk (TUnsignedNum i UnspecifiedU)]
  | UStructAccess x f => at_ 14 false x (show_raw x) ++ [tk TDot; tk (TIdentifier f)]
  | UUnaryOp o x => tk (unary_token o) :: at_ 13 false x (show_raw x)
  | UOp o l r =>
      let p := op_level o in
      at_ (if is_cmp o then 5 else p)%nat false l (show_raw l)
        ++ tk (op_token o) :: at_ (if is_cmp o then 5 else S p)%nat true r (show_raw r)
  | UFnCall f args =>
      tk (TIdentifier f) :: tk TLeftParen ::
        match args with [] => [] | x :: r => show_raw x ++ more r end ++ [tk TRightParen]
  | UIf c t e' =>
      tk TKeywordIf :: show_raw c ++ tk TLeftBrace :: show_raw t ++ tk TRightBrace :: tk TKeywordElse ::
        match e' with
        | UIf _ _ _ => show_raw e'
        | _ => tk TLeftBrace :: show_raw e' ++ [tk TRightBrace]
        end
  | UCast ty x => at_ 11 false x (show_raw x) ++ [tk TKeywordAs; tk (TIdentifier (type_name ty))]
  | UBlock _ | UMatch _ _ | UArrayLiteral _ | UArrayRepeat _ _ | UArrayRepeatConst _ _ | URange _ _ _ | UStructLiteral _ _ | UEnumLiteral _ _ _ =>
      [tk TLeftParen; tk TRightParen]     (* not printed: outside [wf_expr] *)
  end.

Definition show_min (e : uexpr) : list token := show_raw e.
Definition show_at (j : nat) (right : bool) (e : uexpr) : list token := at_ j right e (show_raw e).

Fixpoint more_toks (es : list uexpr) : list token :=
  match es with [] => [] | y :: r => tk TComma :: show_raw y ++ more_toks r end.

(* ------------------------------------------------------------------ well-formed trees: what
   the grammar can express *)

(* `true` / `false` are literals, not identifiers *)
Definition ident_ok (s : list N) : Prop := list_eqb s s_true = false /\ list_eqb s s_false = false.

(* a type `as` can name by an identifier, and that is not read as another type *)
Definition wf_type (ty : utype) : Prop := type_of_name (type_name ty) = ty.

Fixpoint wf_expr (e : uexpr) : Prop :=
  let all := fix all (es : list uexpr) : Prop :=
    match es with [] => True | y :: r => wf_expr y /\ all r end in
  match e with
  | UTrue | UFalse | UNumUnsigned _ _ | UNumSigned _ _ => True
  | UIdentifier s => ident_ok s
  (* an index that is a bare unsuffixed number is retyped to usize by the parser *)
  | UArrayAccess a i => wf_expr a /\ wf_expr i /\ retype_index i = i
  | UTupleLiteral es => all es
  | UTupleAccess x _ => wf_expr x
  | UStructAccess x _ => wf_expr x
  | UUnaryOp _ x => wf_expr x
  | UOp _ l r => wf_expr l /\ wf_expr r
  | UFnCall f args => ident_ok f /\ all args
  | UIf c t e' => wf_expr c /\ wf_expr t /\ wf_expr e'
  | UCast ty x => wf_type ty /\ wf_expr x
  | UBlock _ | UMatch _ _ | UArrayLiteral _ | UArrayRepeat _ _ | UArrayRepeatConst _ _ | URange _ _ _ | UStructLiteral _ _ | UEnumLiteral _ _ _ =>
      False     (* the expression printer does not cover blocks, match and these literals *)
  end.

Fixpoint wf_all (es : list uexpr) : Prop :=
  match es with [] => True | y :: r => wf_expr y /\ wf_all r end.

(* induction principle with the lists *)
Section UexprInd.
  Variable Q : uexpr -> Prop.
  Hypothesis HTrue : Q UTrue.
  Hypothesis HFalse : Q UFalse.
  Hypothesis HNumU : forall n t, Q (UNumUnsigned n t).
  Hypothesis HNumS : forall z t, Q (UNumSigned z t).
  Hypothesis HId : forall s, Q (UIdentifier s).
  Hypothesis HArr : forall a i, Q a -> Q i -> Q (UArrayAccess a i).
  Hypothesis HTup : forall es, Forall Q es -> Q (UTupleLiteral es).
  Hypothesis HTupAcc : forall x i, Q x -> Q (UTupleAccess x i).
  Hypothesis HStructAcc : forall x f, Q x -> Q (UStructAccess x f).
  Hypothesis HUn : forall o x, Q x -> Q (UUnaryOp o x).
  Hypothesis HOp : forall o l r, Q l -> Q r -> Q (UOp o l r).
  Hypothesis HCall : forall f args, Forall Q args -> Q (UFnCall f args).
  Hypothesis HIf : forall c t e, Q c -> Q t -> Q e -> Q (UIf c t e).
  Hypothesis HCast : forall ty x, Q x -> Q (UCast ty x).
  Hypothesis HBlock : forall b, Q (UBlock b).
  Hypothesis HMatch : forall e arms, Q (UMatch e arms).
  Hypothesis HArrLit : forall es, Q (UArrayLiteral es).
  Hypothesis HArrRep : forall e k, Q (UArrayRepeat e k).
  Hypothesis HArrRepC : forall e c, Q (UArrayRepeatConst e c).
  Hypothesis HRange : forall lo hi t, Q (URange lo hi t).
  Hypothesis HStructLit : forall name fields, Q (UStructLiteral name fields).
  Hypothesis HEnumLit : forall e v args, Q (UEnumLiteral e v args).

  Fixpoint uexpr_ind2 (e : uexpr) : Q e :=
    let all := fix all (es : list uexpr) : Forall Q es :=
      match es with [] => Forall_nil Q | y :: r => Forall_cons y (uexpr_ind2 y) (all r) end in
    match e with
    | UTrue => HTrue | UFalse => HFalse | UNumUnsigned n t => HNumU n t | UNumSigned z t => HNumS z t
    | UIdentifier s => HId s
    | UArrayAccess a i => HArr a i (uexpr_ind2 a) (uexpr_ind2 i)
    | UTupleLiteral es => HTup es (all es)
    | UTupleAccess x i => HTupAcc x i (uexpr_ind2 x)
    | UStructAccess x f => HStructAcc x f (uexpr_ind2 x)
    | UUnaryOp o x => HUn o x (uexpr_ind2 x)
    | UOp o l r => HOp o l r (uexpr_ind2 l) (uexpr_ind2 r)
    | UFnCall f args => HCall f args (all args)
    | UIf c t e' => HIf c t e' (uexpr_ind2 c) (uexpr_ind2 t) (uexpr_ind2 e')
    | UCast ty x => HCast ty x (uexpr_ind2 x)
    | UBlock b => HBlock b
    | UMatch e arms => HMatch e arms
    | UArrayLiteral es => HArrLit es
    | UArrayRepeat e k => HArrRep e k
    | UArrayRepeatConst e c => HArrRepC e c
    | URange lo hi t => HRange lo hi t
    | UStructLiteral name fields => HStructLit name fields
    | UEnumLiteral e v args => HEnumLit e v args
    end.
End UexprInd.

(* ------------------------------------------------------------------ levels *)

Definition PE (g : nat) : pstate -> pres uexpr := parse_expr_st g.

Definition parse_at (k : nat) (pe : pstate -> pres uexpr) (n : nat) (s : pstate) : pres uexpr :=
  match k with
  | 1 => parse_short_circuiting_or pe n s
  | 2 => parse_short_circuiting_and pe n s
  | 3 => parse_equality pe n s
  | 4 => parse_comparison pe n s
  | 5 => parse_or pe n s
  | 6 => parse_xor pe n s
  | 7 => parse_and pe n s
  | 8 => parse_shift pe n s
  | 9 => parse_term pe n s
  | 10 => parse_factor pe n s
  | 11 => parse_cast pe n s
  | 12 => parse_if_or_match pe n s
  | 13 => parse_unary pe n s
  | _ => parse_primary pe n s
  end%nat.

Definition ops_at (k : nat) : opt :=
  match k with
  | 1 => ops_sc_or | 2 => ops_sc_and | 3 => ops_equality | 4 => ops_comparison | 5 => ops_or
  | 6 => ops_xor | 7 => ops_and | 8 => ops_shift | 9 => ops_term | 10 => ops_factor
  | _ => fun _ => None
  end%nat.

Definition loop_at (k : nat) (pe : pstate -> pres uexpr) (n : nat) (x : uexpr) (s : pstate) : pres uexpr :=
  match k with
  | 11 => cast_loop pe n x s
  | 12 | 13 | 0 => POk x s
  | 14 => postfix_loop pe n x s
  | _ => binloop (ops_at k) (parse_at (S k) pe) n x s
  end%nat.

Lemma parse_at_step k pe n s : (1 <= k <= 11)%nat ->
  parse_at k pe n s = bindp (parse_at (S k) pe n s) (fun x s1 => loop_at k pe n x s1).
Proof.
  intro H. do 12 (destruct k as [|k]; [try lia; try reflexivity|]). lia.
Qed.

Lemma parse_at_14 pe n s :
  parse_at 14 pe n s = bindp (parse_primary_base pe n s) (fun x s1 => loop_at 14 pe n x s1).
Proof. reflexivity. Qed.

Lemma loop_at_bin k pe n x s : (1 <= k <= 10)%nat ->
  loop_at k pe n x s = binloop (ops_at k) (parse_at (S k) pe) n x s.
Proof.
  intro H. do 11 (destruct k as [|k]; [try lia; try reflexivity|]). lia.
Qed.

(* the levels of the tokens that continue an expression *)
Definition tok_level (t : token_enum) : option nat :=
  match t with
  | TDoubleBar => Some 1 | TDoubleAmpersand => Some 2 | TDoubleEq | TBangEq => Some 3
  | TLessThan | TGreaterThan | TLessThanEquals | TGreaterThanEquals => Some 4
  | TBar => Some 5 | TCaret => Some 6 | TAmpersand => Some 7
  | TDoubleLessThan | TDoubleGreaterThan => Some 8 | TPlus | TMinus => Some 9
  | TStar | TSlash | TPercent => Some 10 | TKeywordAs => Some 11
  | TLeftBracket | TDot => Some 14
  | _ => None
  end%nat.

(* tokens that change the reading of the identifier / number before them *)
Definition hard_tok (b : bool) (t : token_enum) : bool :=
  match t with
  | TLeftParen | TDoubleColon | TDoubleDot => true
  | TLeftBrace => b
  | _ => false
  end.

(* rest does not continue an expression parsed at level k (flag b) *)
Definition nofollow (k : nat) (b : bool) (rest : list token) : Prop :=
  match rest with
  | [] => True
  | Token t _ :: _ => hard_tok b t = false /\ forall l, tok_level t = Some l -> (l < k)%nat
  end.

Lemma nofollow_mono k k' b rest : (k <= k')%nat -> nofollow k b rest -> nofollow k' b rest.
Proof.
  intros Hk. destruct rest as [|[t m] r]; [auto|]. intros [H1 H2]. split; [exact H1|].
  intros l Hl. specialize (H2 l Hl). lia.
Qed.

Lemma ops_at_level k t mk : ops_at k t = Some mk -> tok_level t = Some k.
Proof.
  do 11 (destruct k as [|k]; [try discriminate; destruct t; try discriminate; reflexivity|]).
  discriminate.
Qed.

Lemma teqb_refl t : teqb t t = true.
Proof. unfold teqb. destruct (token_enum_eq_dec t t); [reflexivity|congruence]. Qed.

Lemma teqb_neq a b : a <> b -> teqb a b = false.
Proof. intro H. unfold teqb. destruct (token_enum_eq_dec a b); [contradiction|reflexivity]. Qed.

Lemma teqb_true a b : teqb a b = true -> a = b.
Proof. unfold teqb. destruct (token_enum_eq_dec a b); [auto|discriminate]. Qed.

(* ------------------------------------------------------------------ "for all sufficiently large
   fuel" *)

Definition ev {A} (F : nat -> nat -> pres A) (r : pres A) : Prop :=
  exists f, forall g n, (f <= g)%nat -> (f <= n)%nat -> F g n = r.

Definition Ev (k : nat) (s : pstate) (r : uexpr) (s' : pstate) : Prop :=
  ev (fun g n => parse_at k (PE g) n s) (POk r s').
Definition EvL (k : nat) (x : uexpr) (s : pstate) (r : uexpr) (s' : pstate) : Prop :=
  ev (fun g n => loop_at k (PE g) n x s) (POk r s').
Definition EvE (s : pstate) (r : uexpr) (s' : pstate) : Prop :=
  ev (fun g _ => PE g s) (POk r s').
Definition EvB (s : pstate) (x : uexpr) (s1 : pstate) : Prop :=
  ev (fun g n => parse_primary_base (PE g) n s) (POk x s1).

(* the loops of the levels above k stop at once *)
Lemma loop_exit m k pe n x rest b : (k < m <= 14)%nat -> nofollow (S k) b rest ->
  loop_at m pe (S n) x (PState rest b) = POk x (PState rest b).
Proof.
  intros Hm Hnf.
  assert (Hlev : forall t mt r, rest = Token t mt :: r -> tok_level t <> Some m).
  { intros t mt r -> Hl. destruct Hnf as [_ H]. specialize (H m Hl). lia. }
  destruct (Nat.eq_dec m 11) as [->|N11].
  - cbn [loop_at cast_loop]. unfold next_matches. cbn [toks].
    destruct rest as [|[t mt] r]; [reflexivity|].
    destruct (teqb t TKeywordAs) eqn:E; [|reflexivity]. apply teqb_true in E. subst t.
    exfalso. exact (Hlev _ _ _ eq_refl eq_refl).
  - destruct (Nat.eq_dec m 12) as [->|N12]; [reflexivity|].
    destruct (Nat.eq_dec m 13) as [->|N13]; [reflexivity|].
    destruct (Nat.eq_dec m 14) as [->|N14].
    + cbn [loop_at postfix_loop]. unfold peek. cbn [toks].
      destruct rest as [|[t mt] r]; [reflexivity|].
      destruct (teqb t TLeftBracket) eqn:E1.
      { apply teqb_true in E1. subst t. exfalso. exact (Hlev _ _ _ eq_refl eq_refl). }
      destruct (teqb t TDot) eqn:E2; [|reflexivity].
      apply teqb_true in E2. subst t. exfalso. exact (Hlev _ _ _ eq_refl eq_refl).
    + rewrite loop_at_bin by lia. cbn [binloop]. unfold next_op. cbn [toks].
      destruct rest as [|[t mt] r]; [reflexivity|].
      destruct (ops_at m t) as [mk|] eqn:E; [|reflexivity].
      apply ops_at_level in E. exfalso. exact (Hlev _ _ _ eq_refl E).
Qed.

Lemma evl_exit m k x rest b : (k < m <= 14)%nat -> nofollow (S k) b rest ->
  EvL m x (PState rest b) x (PState rest b).
Proof.
  intros Hm Hnf. exists 1%nat. intros g n _ Hn. destruct n as [|n]; [lia|]. now apply (loop_exit m k).
Qed.

(* ------------------------------------------------------------------ from a tighter level to a
   looser one *)

Lemma evl_ret k x s r s' : (k = 12 \/ k = 13)%nat -> EvL k x s r s' -> r = x /\ s' = s.
Proof.
  intros Hk [f H]. specialize (H f f (le_n _) (le_n _)). destruct Hk as [-> | ->]; cbn [loop_at] in H;
    injection H as <- <-; auto.
Qed.

(* the head conditions under which parse_if_or_match / parse_unary fall through *)
Definition falls12 (s : pstate) : Prop := next_matches TKeywordIf s = None /\ next_matches TKeywordMatch s = None.
Definition falls13 (s : pstate) : Prop := next_matches TBang s = None /\ next_matches TMinus s = None.

Lemma ev_up k s x s1 r s' : (1 <= k <= 13)%nat -> (k = 12%nat -> falls12 s) -> (k = 13%nat -> falls13 s) ->
  Ev (S k) s x s1 -> EvL k x s1 r s' -> Ev k s r s'.
Proof.
  intros Hk H12 H13 [f1 H1] HL.
  destruct (Nat.eq_dec k 12) as [->|N12].
  - destruct (evl_ret 12 x s1 r s' (or_introl eq_refl) HL) as [-> ->]. destruct (H12 eq_refl) as [Ha Hb].
    exists (S f1). intros g n Hg Hn. destruct n as [|n]; [lia|].
    cbn [parse_at parse_if_or_match]. rewrite Ha, Hb. apply (H1 g n); lia.
  - destruct (Nat.eq_dec k 13) as [->|N13].
    + destruct (evl_ret 13 x s1 r s' (or_intror eq_refl) HL) as [-> ->]. destruct (H13 eq_refl) as [Ha Hb].
      exists (S f1). intros g n Hg Hn. destruct n as [|n]; [lia|].
      cbn [parse_at parse_unary]. rewrite Ha, Hb. apply (H1 g n); lia.
    + destruct HL as [f2 H2]. exists (Nat.max f1 f2). intros g n Hg Hn.
      rewrite parse_at_step by lia. rewrite H1 by lia. cbn [bindp]. apply H2; lia.
Qed.

Lemma chain_ev : forall d k m, m = (S k + d)%nat -> (1 <= k)%nat -> (m <= 14)%nat ->
  forall s e rest b r s',
  ((k <= 12 < m)%nat -> falls12 s) -> ((k <= 13 < m)%nat -> falls13 s) ->
  Ev m s e (PState rest b) -> nofollow (S k) b rest -> EvL k e (PState rest b) r s' -> Ev k s r s'.
Proof.
  induction d as [|d IH]; intros k m Hm Hk Hm14 s e rest b r s' H12 H13 He Hnf HL.
  - replace m with (S k) in * by lia.
    exact (ev_up k s e (PState rest b) r s' ltac:(lia) (fun E => H12 ltac:(lia)) (fun E => H13 ltac:(lia)) He HL).
  - assert (Hmid : Ev (S k) s e (PState rest b)).
    { apply (IH (S k) m ltac:(lia) ltac:(lia) Hm14 s e rest b e (PState rest b)).
      - intro H. apply H12. lia.
      - intro H. apply H13. lia.
      - exact He.
      - apply (nofollow_mono (S k)); [lia|exact Hnf].
      - apply (evl_exit (S k) k); [lia|exact Hnf]. }
    exact (ev_up k s e (PState rest b) r s' ltac:(lia) (fun E => H12 ltac:(lia)) (fun E => H13 ltac:(lia)) Hmid HL).
Qed.

Lemma ev_14 s x s1 r s' : EvB s x s1 -> EvL 14 x s1 r s' -> Ev 14 s r s'.
Proof.
  intros [f1 H1] [f2 H2]. exists (Nat.max f1 f2). intros g n Hg Hn.
  rewrite parse_at_14, H1 by lia. cbn [bindp]. apply H2; lia.
Qed.

(* parse_expr is the loosest level when the text does not start with `{` *)
Lemma eve_of_ev1 s r s' : next_matches TLeftBrace s = None -> Ev 1 s r s' -> EvE s r s'.
Proof.
  intros Hb [f H]. exists (S f). intros g n Hg _. destruct g as [|g]; [lia|].
  unfold PE. cbn [parse_expr_st]. unfold parse_expr_body. rewrite Hb. apply (H g g); lia.
Qed.

(* ------------------------------------------------------------------ heads of printed expressions *)

Definition hd_tok (s : list token) : option token_enum :=
  match s with Token t _ :: _ => Some t | [] => None end.

Lemma hd_tok_app s r t : hd_tok s = Some t -> hd_tok (s ++ r) = Some t.
Proof. destruct s as [|[t' m] s']; [discriminate|]. auto. Qed.

(* the token a primary expression starts with *)
Definition atom_start (t : token_enum) : bool :=
  match t with TIdentifier _ | TUnsignedNum _ _ | TSignedNum _ _ | TLeftParen => true | _ => false end.

(* ... an expression *)
Definition expr_start (t : token_enum) : bool :=
  match t with
  | TIdentifier _ | TUnsignedNum _ _ | TSignedNum _ _ | TLeftParen | TBang | TMinus | TKeywordIf => true
  | _ => false
  end.

Lemma atom_expr_start t : atom_start t = true -> expr_start t = true.
Proof. destruct t; try discriminate; reflexivity. Qed.

Lemma at_head j right x sx t : (paren_needed j right x = false -> hd_tok sx = Some t) ->
  (paren_needed j right x = true -> t = TLeftParen) -> hd_tok (at_ j right x sx) = Some t.
Proof. unfold at_, parens. destruct (paren_needed j right x); intros H1 H2; [now rewrite (H2 eq_refl)|auto]. Qed.

Lemma show_head : forall e, exists t, hd_tok (show_raw e) = Some t /\
  ((prec e = 14)%nat -> atom_start t = true) /\
  ((prec e = 13)%nat -> t = TBang \/ t = TMinus) /\
  ((prec e = 12)%nat -> t = TKeywordIf) /\
  expr_start t = true.
Proof.
  assert (Hat : forall j x, (exists t, hd_tok (show_raw x) = Some t /\
      ((prec x = 14)%nat -> atom_start t = true) /\ ((prec x = 13)%nat -> t = TBang \/ t = TMinus) /\
      ((prec x = 12)%nat -> t = TKeywordIf) /\ expr_start t = true) ->
      forall right r, exists t, hd_tok (at_ j right x (show_raw x) ++ r) = Some t /\ expr_start t = true /\
        ((j = 14)%nat -> atom_start t = true)).
  { intros j x (t & Ht & H14 & _ & _ & Hs) right r. unfold at_.
    destruct (paren_needed j right x) eqn:Ep.
    - exists TLeftParen. repeat split.
    - exists t. split; [now apply hd_tok_app|]. split; [exact Hs|]. intros ->. apply H14.
      destruct x; cbn [paren_needed prec] in Ep |- *; try reflexivity;
        try (apply Nat.ltb_ge in Ep; destruct o; cbn [op_level] in Ep; lia);
        try (apply Nat.ltb_ge in Ep; lia).
      + apply orb_false_iff in Ep. destruct Ep as [_ Ep]. apply Nat.ltb_ge in Ep. lia.
      + apply orb_false_iff in Ep. destruct Ep as [Ep _]. apply Nat.ltb_ge in Ep. lia. }
  apply (uexpr_ind2 (fun e => exists t, hd_tok (show_raw e) = Some t /\
    ((prec e = 14)%nat -> atom_start t = true) /\ ((prec e = 13)%nat -> t = TBang \/ t = TMinus) /\
    ((prec e = 12)%nat -> t = TKeywordIf) /\ expr_start t = true)).
  - eexists. cbn. repeat split; intros; try discriminate; auto.
  - eexists. cbn. repeat split; intros; try discriminate; auto.
  - intros. eexists. cbn. repeat split; intros; try discriminate; auto.
  - intros. eexists. cbn. repeat split; intros; try discriminate; auto.
  - intros. eexists. cbn. repeat split; intros; try discriminate; auto.
  - intros a i IHa _. destruct (Hat 14%nat a IHa false (tk TLeftBracket :: show_raw i ++ [tk TRightBracket]))
      as (t & Ht & Hs & H14).
    exists t. cbn [show_raw prec].
    split; [exact Ht|]. repeat split; intros; try discriminate; auto.
  - intros es _. exists TLeftParen. cbn [show_raw prec]. repeat split; intros; try discriminate; auto.
  - intros x i IHx. destruct (Hat 14%nat x IHx false [tk TDot; tk (TUnsignedNum i UnspecifiedU)]) as (t & Ht & Hs & H14).
    exists t. cbn [show_raw prec]. split; [exact Ht|]. repeat split; intros; try discriminate; auto.
  - intros x f IHx. destruct (Hat 14%nat x IHx false [tk TDot; tk (TIdentifier f)]) as (t & Ht & Hs & H14).
    exists t. cbn [show_raw prec]. split; [exact Ht|]. repeat split; intros; try discriminate; auto.
  - intros o x _. exists (unary_token o). cbn [show_raw prec]. split; [reflexivity|].
    repeat split; intros; try discriminate; destruct o; auto.
  - intros o l r IHl _.
    destruct (Hat (if is_cmp o then 5 else op_level o)%nat l IHl false
                (tk (op_token o) :: at_ (if is_cmp o then 5 else S (op_level o))%nat true r (show_raw r)))
      as (t & Ht & Hs & _).
    exists t. cbn [show_raw prec]. split; [exact Ht|].
    repeat split; try exact Hs; intros Hp; destruct o; cbn [op_level] in Hp; discriminate Hp.
  - intros f args _. eexists. cbn [show_raw prec hd_tok]. repeat split; intros; try discriminate; auto.
  - intros c t e' _ _ _. exists TKeywordIf. cbn [show_raw prec hd_tok]. repeat split; intros; try discriminate; auto.
  - intros ty x IHx. destruct (Hat 11%nat x IHx false [tk TKeywordAs; tk (TIdentifier (type_name ty))]) as (t & Ht & Hs & _).
    exists t. cbn [show_raw prec]. split; [exact Ht|]. repeat split; intros; try discriminate; auto.
  - intros. eexists. cbn. repeat split; intros; try discriminate; auto.
  - intros. eexists. cbn. repeat split; intros; try discriminate; auto.
  - intros. eexists. cbn. repeat split; intros; try discriminate; auto.
  - intros. eexists. cbn. repeat split; intros; try discriminate; auto.
  - intros. eexists. cbn. repeat split; intros; try discriminate; auto.
  - intros. eexists. cbn. repeat split; intros; try discriminate; auto.
  - intros. eexists. cbn. repeat split; intros; try discriminate; auto.
  - intros. eexists. cbn. repeat split; intros; try discriminate; auto.
Qed.

(* ------------------------------------------------------------------ next token tests *)

Lemma nm_hd t x m r b : next_matches x (PState (Token t m :: r) b) = if teqb t x then Some (PState r b) else None.
Proof. reflexivity. Qed.

Lemma peek_hd t x m r b : peek x (PState (Token t m :: r) b) = teqb t x.
Proof. reflexivity. Qed.

Lemma hd_tok_inv s t : hd_tok s = Some t -> exists m r, s = Token t m :: r.
Proof. destruct s as [|[t' m] r]; [discriminate|]. intros [= ->]. eauto. Qed.

Lemma prec_range e : (1 <= prec e <= 14)%nat.
Proof. destruct e; cbn [prec]; try lia. destruct o; cbn [op_level]; lia. Qed.

Lemma paren_false_prec j right e : (j <= 14)%nat -> paren_needed j right e = false -> (j <= prec e)%nat.
Proof.
  intro Hj. destruct e; cbn [paren_needed prec]; intro H; try exact Hj;
    try (apply Nat.ltb_ge in H; exact H).
  - apply orb_false_iff in H. destruct H as [_ H]. apply Nat.ltb_ge in H. exact H.
  - apply orb_false_iff in H. destruct H as [H _]. apply Nat.ltb_ge in H. exact H.
Qed.

(* ------------------------------------------------------------------ the statements about one
   tree, and how they follow from the one proved by induction *)

Definition CP (e : uexpr) : Prop := forall b rest r s',
  nofollow (S (prec e)) b rest -> EvL (prec e) e (PState rest b) r s' ->
  Ev (prec e) (PState (show_raw e ++ rest) b) r s'.

Definition Bare (e : uexpr) : Prop := forall k b rest r s', (1 <= k <= prec e)%nat ->
  nofollow (S k) b rest -> EvL k e (PState rest b) r s' -> Ev k (PState (show_raw e ++ rest) b) r s'.

Definition Top (e : uexpr) : Prop := forall b rest, nofollow 1 b rest ->
  EvE (PState (show_raw e ++ rest) b) e (PState rest b).

Definition Par (e : uexpr) : Prop := forall k b rest r s', (1 <= k <= 14)%nat ->
  nofollow (S k) b rest -> EvL k e (PState rest b) r s' -> Ev k (PState (parens (show_raw e) ++ rest) b) r s'.

Definition Gen (e : uexpr) : Prop := forall k j right b rest r s', (1 <= k <= j)%nat -> (j <= 14)%nat ->
  nofollow (S k) b rest -> EvL k e (PState rest b) r s' -> Ev k (PState (show_at j right e ++ rest) b) r s'.

Lemma head_falls12 s t : hd_tok (toks s) = Some t -> t <> TKeywordIf -> t <> TKeywordMatch -> falls12 s.
Proof.
  intros H N1 N2. destruct s as [ts b]. cbn [toks] in H. apply hd_tok_inv in H as (m & r & ->).
  split; rewrite nm_hd; now rewrite teqb_neq.
Qed.

Lemma head_falls13 s t : hd_tok (toks s) = Some t -> t <> TBang -> t <> TMinus -> falls13 s.
Proof.
  intros H N1 N2. destruct s as [ts b]. cbn [toks] in H. apply hd_tok_inv in H as (m & r & ->).
  split; rewrite nm_hd; now rewrite teqb_neq.
Qed.

Lemma bare_of_cp e : CP e -> Bare e.
Proof.
  intros Hcp k b rest r s' Hk Hnf HL.
  destruct (Nat.eq_dec k (prec e)) as [->|Hne]; [now apply Hcp|].
  assert (Hlt : (k < prec e)%nat) by lia. pose proof (prec_range e) as Hp.
  assert (HD : Ev (prec e) (PState (show_raw e ++ rest) b) e (PState rest b)).
  { apply Hcp; [apply (nofollow_mono (S k)); [lia|exact Hnf]|].
    apply (evl_exit (prec e) k); [lia|exact Hnf]. }
  destruct (show_head e) as (t & Ht & H14 & H13 & H12 & Hs).
  assert (Hhd : hd_tok (toks (PState (show_raw e ++ rest) b)) = Some t) by (cbn [toks]; now apply hd_tok_app).
  apply (chain_ev (prec e - S k) k (prec e) ltac:(lia) ltac:(lia) ltac:(lia) _ e rest b r s'); try assumption.
  - intro H. apply (head_falls12 _ t Hhd).
    + destruct (Nat.eq_dec (prec e) 13) as [E|E]; [destruct (H13 E) as [-> | ->]; discriminate|].
      assert (E14 : prec e = 14%nat) by lia. specialize (H14 E14). destruct t; try discriminate.
    + destruct (Nat.eq_dec (prec e) 13) as [E|E]; [destruct (H13 E) as [-> | ->]; discriminate|].
      assert (E14 : prec e = 14%nat) by lia. specialize (H14 E14). destruct t; try discriminate.
  - intro H. assert (E14 : prec e = 14%nat) by lia. specialize (H14 E14).
    apply (head_falls13 _ t Hhd); destruct t; try discriminate.
Qed.

Lemma top_of_bare e : Bare e -> Top e.
Proof.
  intros HB b rest Hnf. pose proof (prec_range e) as Hp.
  destruct (show_head e) as (t & Ht & _ & _ & _ & Hs).
  apply eve_of_ev1.
  - pose proof (hd_tok_app _ rest _ Ht) as Hh. apply hd_tok_inv in Hh as (m & r & ->).
    rewrite nm_hd. rewrite teqb_neq; [reflexivity|]. destruct t; try discriminate.
  - apply (HB 1%nat b rest e (PState rest b)); [lia|apply (nofollow_mono 1); [lia|exact Hnf]|].
    apply (evl_exit 1 0); [lia|exact Hnf].
Qed.

Lemma nofollow_tok k b t r : hard_tok b t = false ->
  (forall l, tok_level t = Some l -> (l < k)%nat) -> nofollow k b (tk t :: r).
Proof. intros H1 H2. split; assumption. Qed.

(* the parenthesised expression, as the base of parse_primary *)
Lemma paren_base e : Top e -> forall b rest, EvB (PState (parens (show_raw e) ++ rest) b) e (PState rest b).
Proof.
  intros HT b rest. destruct (HT b (tk TRightParen :: rest)) as [f Hf].
  { apply nofollow_tok; [reflexivity|intros l H; discriminate H]. }
  destruct (show_head e) as (t & Ht & _ & _ & _ & Hs).
  exists f. intros g n Hg Hn. unfold parse_primary_base, parens. cbn [app advance toks sla].
  cbn [parse_literal parse_literal_gen]. rewrite <- app_assoc. cbn [app].
  pose proof (hd_tok_app _ (tk TRightParen :: rest) _ Ht) as Hh. apply hd_tok_inv in Hh as (m & r & Er).
  rewrite Er. rewrite peek_hd. rewrite teqb_neq by (destruct t; try discriminate). cbn [negb].
  rewrite <- Er. rewrite (Hf g n Hg Hn). cbn [bindp]. rewrite peek_hd.
  replace (teqb TRightParen TComma) with false by reflexivity.
  unfold expect. rewrite nm_hd, teqb_refl. reflexivity.
Qed.

Lemma par_of_top e : Top e -> Par e.
Proof.
  intros HT k b rest r s' Hk Hnf HL. pose proof (paren_base e HT b rest) as HB.
  destruct (Nat.eq_dec k 14) as [->|Hne]; [exact (ev_14 _ _ _ _ _ HB HL)|].
  assert (H14 : Ev 14 (PState (parens (show_raw e) ++ rest) b) e (PState rest b)).
  { apply (ev_14 _ _ _ _ _ HB). apply (evl_exit 14 k); [lia|exact Hnf]. }
  apply (chain_ev (14 - S k) k 14 ltac:(lia) ltac:(lia) ltac:(lia) _ e rest b r s'); try assumption.
  - intros _. apply (head_falls12 _ TLeftParen); [reflexivity|discriminate|discriminate].
  - intros _. apply (head_falls13 _ TLeftParen); [reflexivity|discriminate|discriminate].
Qed.

Lemma gen_of e : Bare e -> Par e -> Gen e.
Proof.
  intros HB HP k j right b rest r s' Hk Hj Hnf HL. unfold show_at, at_.
  destruct (paren_needed j right e) eqn:Ep.
  - apply HP; [lia|exact Hnf|exact HL].
  - apply HB; [|exact Hnf|exact HL]. pose proof (paren_false_prec j right e Hj Ep). lia.
Qed.

Lemma all_of_cp e : CP e -> Bare e /\ Top e /\ Par e /\ Gen e.
Proof.
  intro H. pose proof (bare_of_cp e H) as HB. pose proof (top_of_bare e HB) as HT.
  pose proof (par_of_top e HT) as HP. auto using gen_of.
Qed.

(* ------------------------------------------------------------------ equations for the lists *)

Lemma show_more es : (fix more (es : list uexpr) : list token :=
    match es with [] => [] | y :: r => tk TComma :: show_raw y ++ more r end) es = more_toks es.
Proof. induction es as [|y r IH]; [reflexivity|]. cbn [more_toks]. now rewrite <- IH. Qed.

Lemma show_call f args : show_raw (UFnCall f args) =
  tk (TIdentifier f) :: tk TLeftParen ::
    match args with [] => [] | x :: r => show_raw x ++ more_toks r end ++ [tk TRightParen].
Proof. destruct args as [|x r]; [reflexivity|]. cbn [show_raw]. now rewrite show_more. Qed.

Lemma show_tuple es : show_raw (UTupleLiteral es) =
  tk TLeftParen ::
    match es with
    | [] => []
    | x :: r => show_raw x ++ more_toks r ++ (match r with [] => [tk TComma] | _ => [] end)
    end ++ [tk TRightParen].
Proof. destruct es as [|x r]; [reflexivity|]. cbn [show_raw]. now rewrite show_more. Qed.

Lemma wf_all_eq es : (fix all (es : list uexpr) : Prop :=
    match es with [] => True | y :: r => wf_expr y /\ all r end) es = wf_all es.
Proof. induction es as [|y r IH]; [reflexivity|]. cbn [wf_all]. now rewrite <- IH. Qed.

Lemma wf_call f args : wf_expr (UFnCall f args) = (ident_ok f /\ wf_all args).
Proof. cbn [wf_expr]. now rewrite wf_all_eq. Qed.

Lemma wf_tuple es : wf_expr (UTupleLiteral es) = wf_all es.
Proof. cbn [wf_expr]. now rewrite wf_all_eq. Qed.

Lemma tops_of es : Forall (fun x => wf_expr x -> CP x) es -> wf_all es -> Forall Top es.
Proof.
  induction 1 as [|x r Hx _ IH]; intro Hw; [constructor|]. destruct Hw as [H1 H2].
  constructor; [exact (proj1 (proj2 (all_of_cp x (Hx H1))))|exact (IH H2)].
Qed.

(* ------------------------------------------------------------------ blocks and comma lists *)

Lemma expr_start_not t x : expr_start t = true -> expr_start x = false -> teqb t x = false.
Proof. intros H1 H2. apply teqb_neq. intros ->. congruence. Qed.

Lemma block_ev x : Top x -> forall b rest,
  ev (fun g n => parse_block_as_expr (PE g) n (PState (show_raw x ++ tk TRightBrace :: rest) b))
     (POk x (PState (tk TRightBrace :: rest) b)).
Proof.
  intros HT b rest. destruct (HT true (tk TRightBrace :: rest)) as [f Hf].
  { apply nofollow_tok; [reflexivity|intros l H; discriminate H]. }
  destruct (show_head x) as (t & Ht & _ & _ & _ & Hs).
  pose proof (hd_tok_app _ (tk TRightBrace :: rest) _ Ht) as Hh. apply hd_tok_inv in Hh as (m & r & Er).
  exists (S (S f)). intros g n Hg Hn. destruct n as [|[|n]]; [lia|lia|].
  unfold parse_block_as_expr, parse_stmts, parse_stmts_of_block, set_sla. cbn [toks sla stmts_loop].
  assert (Hbe : block_ends (PState (show_raw x ++ tk TRightBrace :: rest) true) = false).
  { rewrite Er. unfold block_ends. cbn [toks]. rewrite !peek_hd.
    rewrite !(expr_start_not t) by (exact Hs || reflexivity). reflexivity. }
  rewrite Hbe. unfold parse_stmt.
  assert (Hlet : next_matches TKeywordLet (PState (show_raw x ++ tk TRightBrace :: rest) true) = None).
  { rewrite Er, nm_hd. now rewrite (expr_start_not t) by (exact Hs || reflexivity). }
  assert (Hfor : next_matches TKeywordFor (PState (show_raw x ++ tk TRightBrace :: rest) true) = None).
  { rewrite Er, nm_hd. now rewrite (expr_start_not t) by (exact Hs || reflexivity). }
  rewrite Hlet, Hfor. rewrite (Hf g (S n)) by lia. cbn [bindp].
  assert (Hend : block_ends (PState (Token TRightBrace m0 :: rest) true) = true) by reflexivity.
  destruct (accessors x) as [[identifier accs]|].
  - rewrite nm_hd. replace (teqb TRightBrace TEq) with false by reflexivity. cbn [toks assign_op].
    unfold opt_semicolon. rewrite !peek_hd, teqb_refl. cbn [negb andb bindp stmts_loop].
    rewrite Hend. cbn [rev app bindp toks sla]. reflexivity.
  - rewrite !peek_hd. rewrite teqb_refl. cbn [negb]. rewrite andb_false_r. cbn [andb bindp stmts_loop].
    rewrite Hend. cbn [rev app bindp toks sla]. reflexivity.
Qed.

Lemma nofollow_more b r rest : nofollow 1 b (more_toks r ++ tk TRightParen :: rest).
Proof.
  destruct r as [|y r]; cbn [more_toks app]; (apply nofollow_tok; [reflexivity|intros l H; discriminate H]).
Qed.

Lemma comma_ev : forall xs, Forall Top xs -> forall acc b rest,
  ev (fun g n => comma_loop (PE g) TRightParen n acc (PState (more_toks xs ++ tk TRightParen :: rest) b))
     (POk (rev acc ++ xs) (PState (tk TRightParen :: rest) b)).
Proof.
  induction 1 as [|y r Hy _ IH]; intros acc b rest.
  - exists 1%nat. intros g n _ Hn. destruct n as [|n]; [lia|]. cbn [more_toks app comma_loop].
    rewrite nm_hd. replace (teqb TRightParen TComma) with false by reflexivity. now rewrite app_nil_r.
  - destruct (Hy b (more_toks r ++ tk TRightParen :: rest) (nofollow_more b r rest)) as [f1 H1].
    destruct (IH (y :: acc) b rest) as [f2 H2].
    destruct (show_head y) as (t & Ht & _ & _ & _ & Hs).
    exists (S (Nat.max f1 f2)). intros g n Hg Hn. destruct n as [|n]; [lia|].
    cbn [more_toks comma_loop app]. rewrite <- app_assoc. rewrite nm_hd, teqb_refl.
    pose proof (hd_tok_app _ (more_toks r ++ tk TRightParen :: rest) _ Ht) as Hh.
    apply hd_tok_inv in Hh as (m & r' & Er). rewrite Er at 1. rewrite peek_hd.
    rewrite (expr_start_not t) by (exact Hs || reflexivity).
    rewrite (H1 g n) by lia. cbn [bindp]. rewrite (H2 g n) by lia. cbn [rev]. now rewrite <- app_assoc.
Qed.

(* ------------------------------------------------------------------ the cases *)

Lemma nf_peek k b rest x : nofollow k b rest -> hard_tok b x = true -> peek x (PState rest b) = false.
Proof.
  intros Hnf Hx. destruct rest as [|[t m] r]; [reflexivity|]. rewrite peek_hd.
  destruct (teqb t x) eqn:E; [|reflexivity]. apply teqb_true in E. subst t. destruct Hnf as [H _]. congruence.
Qed.

Lemma nf_nm k b rest x : nofollow k b rest -> hard_tok b x = true -> next_matches x (PState rest b) = None.
Proof.
  intros Hnf Hx. destruct rest as [|[t m] r]; [reflexivity|]. rewrite nm_hd.
  destruct (teqb t x) eqn:E; [|reflexivity]. apply teqb_true in E. subst t. destruct Hnf as [H _]. congruence.
Qed.

Lemma nf_brace k b rest : nofollow k b rest -> peek TLeftBrace (PState rest b) && b = false.
Proof.
  intro Hnf. destruct b; [|apply andb_false_r]. now rewrite (nf_peek k true rest TLeftBrace Hnf eq_refl).
Qed.

Lemma cp_atom e t : prec e = 14%nat -> show_raw e = [tk t] ->
  (forall b rest, nofollow 15 b rest ->
     forall pe n, parse_primary_base pe n (PState (tk t :: rest) b) = POk e (PState rest b)) ->
  CP e.
Proof.
  intros Hp Hs Hb b rest r s' Hnf HL. rewrite Hp in *. rewrite Hs. cbn [app].
  apply (ev_14 _ e (PState rest b)); [|exact HL].
  exists 0%nat. intros g n _ _. now apply Hb.
Qed.

Lemma cp_true : CP UTrue.
Proof. apply (cp_atom UTrue (TIdentifier s_true)); try reflexivity. Qed.

Lemma cp_false : CP UFalse.
Proof. apply (cp_atom UFalse (TIdentifier s_false)); try reflexivity. Qed.

Lemma cp_numu n t : CP (UNumUnsigned n t).
Proof.
  apply (cp_atom _ (TUnsignedNum n t)); try reflexivity. intros b rest Hnf pe n0.
  unfold parse_primary_base. cbn [advance toks sla parse_literal parse_literal_gen].
  now rewrite (nf_nm 15 b rest TDoubleDot Hnf eq_refl).
Qed.

Lemma cp_nums z t : CP (UNumSigned z t).
Proof. apply (cp_atom _ (TSignedNum z t)); try reflexivity. Qed.

Lemma cp_ident s : ident_ok s -> CP (UIdentifier s).
Proof.
  intros [H1 H2]. apply (cp_atom _ (TIdentifier s)); try reflexivity. intros b rest Hnf pe n0.
  unfold parse_primary_base. cbn [advance toks sla]. rewrite H1, H2. cbn [orb].
  rewrite (nf_peek 15 b rest TDoubleColon Hnf eq_refl), (nf_nm 15 b rest TLeftParen Hnf eq_refl).
  now rewrite (nf_brace 15 b rest Hnf).
Qed.

(* unary operators *)
Lemma cp_unary o x : Gen x -> CP (UUnaryOp o x).
Proof.
  intros HG b rest r s' Hnf HL. cbn [prec] in *.
  destruct (evl_ret 13 _ _ _ _ (or_intror eq_refl) HL) as [-> ->].
  destruct (HG 13%nat 13%nat false b rest x (PState rest b) ltac:(lia) ltac:(lia) Hnf) as [f Hf].
  { exists 0%nat. intros; reflexivity. }
  exists (S f). intros g n Hg Hn. destruct n as [|n]; [lia|].
  cbn [show_raw app parse_at parse_unary]. rewrite !nm_hd.
  destruct o; cbn [unary_token].
  - rewrite teqb_refl. change (parse_unary (PE g) n) with (parse_at 13 (PE g) n).
    unfold show_at in Hf. rewrite (Hf g n) by lia. reflexivity.
  - replace (teqb TMinus TBang) with false by reflexivity. rewrite teqb_refl.
    change (parse_unary (PE g) n) with (parse_at 13 (PE g) n).
    unfold show_at in Hf. rewrite (Hf g n) by lia. reflexivity.
Qed.

(* casts *)
Lemma type_tok_ok ty : wf_type ty -> forall pe n rest b,
  parse_type pe (S n) (PState (tk (TIdentifier (type_name ty)) :: rest) b) = POk ty (PState rest b).
Proof.
  intros H pe n rest b. cbn [parse_type]. rewrite !nm_hd.
  replace (teqb (TIdentifier (type_name ty)) TLeftParen) with false by reflexivity.
  replace (teqb (TIdentifier (type_name ty)) TLeftBracket) with false by reflexivity.
  unfold expect_identifier. cbn [toks sla]. now rewrite H.
Qed.

Lemma cp_cast ty x : wf_type ty -> Gen x -> CP (UCast ty x).
Proof.
  intros Hty HG b rest r s' Hnf HL. cbn [prec] in *. cbn [show_raw]. rewrite <- app_assoc. cbn [app].
  apply (HG 11%nat 11%nat false b _ r s' ltac:(lia) ltac:(lia)).
  - apply nofollow_tok; [reflexivity|intros l [= <-]; lia].
  - destruct HL as [f Hf]. exists (S (S f)). intros g n Hg Hn. destruct n as [|[|n]]; [lia|lia|].
    cbn [loop_at cast_loop]. rewrite nm_hd, teqb_refl. rewrite (type_tok_ok ty Hty).
    cbn [bindp]. apply (Hf g (S n)); lia.
Qed.

(* binary operators *)
Lemma op_level_range o : (1 <= op_level o <= 10)%nat.
Proof. destruct o; cbn [op_level]; lia. Qed.

Lemma ops_at_op o : ops_at (op_level o) (op_token o) = Some (UOp o).
Proof. destruct o; reflexivity. Qed.

Lemma op_token_level o : tok_level (op_token o) = Some (op_level o).
Proof. destruct o; reflexivity. Qed.

Lemma op_token_soft b o : hard_tok b (op_token o) = false.
Proof. destruct o; reflexivity. Qed.

Lemma cp_op o l r0 : Gen l -> Gen r0 -> CP (UOp o l r0).
Proof.
  intros HGl HGr b rest r s' Hnf HL. cbn [prec] in *. pose proof (op_level_range o) as Hp.
  set (p := op_level o) in *.
  set (jl := (if is_cmp o then 5 else p)%nat). set (jr := (if is_cmp o then 5 else S p)%nat).
  assert (Hjl : (p <= jl <= 14)%nat) by (unfold jl, p; destruct o; cbn [is_cmp op_level]; lia).
  assert (Hjr : (S p <= jr <= 14)%nat) by (unfold jr, p; destruct o; cbn [is_cmp op_level]; lia).
  cbn [show_raw]. fold p. fold jl. fold jr. rewrite <- app_assoc. cbn [app].
  apply (HGl p jl false b _ r s' ltac:(lia) ltac:(lia)).
  - apply nofollow_tok; [apply op_token_soft|]. intros lv Hlv. rewrite op_token_level in Hlv.
    injection Hlv as <-. unfold p. lia.
  - destruct HL as [f Hf].
    destruct (HGr (S p) jr true b rest r0 (PState rest b) ltac:(lia) ltac:(lia)) as [f2 H2].
    { apply (nofollow_mono (S p)); [lia|exact Hnf]. }
    { apply (evl_exit (S p) p); [lia|exact Hnf]. }
    exists (S (Nat.max f f2)). intros g n Hg Hn. destruct n as [|n]; [lia|].
    rewrite loop_at_bin by lia. cbn [binloop]. unfold next_op. cbn [toks sla]. unfold p at 1.
    rewrite ops_at_op. fold p. unfold show_at in H2. rewrite (H2 g n) by lia. cbn [bindp].
    rewrite <- loop_at_bin by lia. apply (Hf g n); lia.
Qed.

(* if / else if / else *)
Lemma cp_if c t e' : Top c -> Top t -> Top e' -> (forall c2 t2 e2, e' = UIf c2 t2 e2 -> CP e') ->
  CP (UIf c t e').
Proof.
  intros HTc HTt HTe HCe b rest r s' Hnf HL. cbn [prec] in *.
  destruct (evl_ret 12 _ _ _ _ (or_introl eq_refl) HL) as [-> ->].
  destruct (HTc false (tk TLeftBrace :: show_raw t ++ tk TRightBrace :: tk TKeywordElse ::
              match e' with
              | UIf _ _ _ => show_raw e'
              | _ => tk TLeftBrace :: show_raw e' ++ [tk TRightBrace]
              end ++ rest)) as [f1 H1].
  { apply nofollow_tok; [reflexivity|intros l H; discriminate H]. }
  destruct (block_ev t HTt b (tk TKeywordElse :: match e' with
              | UIf _ _ _ => show_raw e'
              | _ => tk TLeftBrace :: show_raw e' ++ [tk TRightBrace]
              end ++ rest)) as [f2 H2].
  assert (Helse : exists f3, forall g n, (f3 <= g)%nat -> (f3 <= n)%nat ->
            (let s7 := PState (match e' with
                               | UIf _ _ _ => show_raw e'
                               | _ => tk TLeftBrace :: show_raw e' ++ [tk TRightBrace]
                               end ++ rest) b in
             if peek TKeywordIf s7 then
               bindp (parse_if_or_match (PE g) n s7) (fun elseif_expr s8 => POk (UIf c t elseif_expr) s8)
             else
               expect TLeftBrace s7 (fun s8 =>
                 bindp (parse_block_as_expr (PE g) n s8) (fun else_expr s9 =>
                   expect TRightBrace s9 (fun s10 => POk (UIf c t else_expr) s10))))
            = POk (UIf c t e') (PState rest b)).
  { destruct (block_ev e' HTe b rest) as [f3 H3].
    assert (Hblock : forall g n, (f3 <= g)%nat -> (f3 <= n)%nat ->
              (let s7 := PState ((tk TLeftBrace :: show_raw e' ++ [tk TRightBrace]) ++ rest) b in
               if peek TKeywordIf s7 then
                 bindp (parse_if_or_match (PE g) n s7) (fun elseif_expr s8 => POk (UIf c t elseif_expr) s8)
               else
                 expect TLeftBrace s7 (fun s8 =>
                   bindp (parse_block_as_expr (PE g) n s8) (fun else_expr s9 =>
                     expect TRightBrace s9 (fun s10 => POk (UIf c t else_expr) s10))))
              = POk (UIf c t e') (PState rest b)).
    { intros g n Hg Hn. cbv zeta. cbn [app]. rewrite peek_hd.
      replace (teqb TLeftBrace TKeywordIf) with false by reflexivity.
      unfold expect at 1. rewrite nm_hd, teqb_refl. rewrite <- app_assoc. cbn [app].
      rewrite (H3 g n Hg Hn). cbn [bindp]. unfold expect. rewrite nm_hd, teqb_refl. reflexivity. }
    destruct e' as [| | | | | | | | | | | |c2 t2 e2| | | | | | | | |]; try (exists f3; exact Hblock).
    destruct (HCe c2 t2 e2 eq_refl b rest (UIf c2 t2 e2) (PState rest b)) as [f4 H4].
    { exact Hnf. } { exists 0%nat. intros; reflexivity. }
    exists f4. intros g n Hg Hn. cbv zeta.
    change (peek TKeywordIf (PState (show_raw (UIf c2 t2 e2) ++ rest) b)) with true. cbv iota.
    change (parse_if_or_match (PE g) n) with (parse_at 12 (PE g) n). cbn [prec] in H4.
    rewrite (H4 g n Hg Hn). reflexivity. }
  destruct Helse as [f3 H3].
  exists (S (Nat.max f1 (Nat.max f2 f3))). intros g n Hg Hn. destruct n as [|n]; [lia|].
  cbn [show_raw parse_at parse_if_or_match]. cbn [app]. rewrite nm_hd, teqb_refl.
  cbn [sla set_sla toks]. rewrite <- !app_assoc. cbn [app]. rewrite <- !app_assoc. cbn [app].
  unfold set_sla at 1. cbn [toks sla]. rewrite (H1 g n) by lia. cbn [bindp]. unfold set_sla at 1. cbn [toks sla]. unfold expect at 1.
  rewrite nm_hd, teqb_refl. rewrite (H2 g n) by lia. cbn [bindp]. unfold expect at 1.
  rewrite nm_hd, teqb_refl. rewrite nm_hd, teqb_refl.
  apply (H3 g n); lia.
Qed.

(* postfix forms *)
Lemma cp_tupacc x i : Gen x -> CP (UTupleAccess x i).
Proof.
  intros HG b rest r s' Hnf HL. cbn [prec show_raw] in *. rewrite <- app_assoc. cbn [app].
  apply (HG 14%nat 14%nat false b _ r s' ltac:(lia) ltac:(lia)).
  - apply nofollow_tok; [reflexivity|intros l [= <-]; lia].
  - destruct HL as [f Hf]. exists (S f). intros g n Hg Hn. destruct n as [|n]; [lia|].
    cbn [loop_at postfix_loop]. rewrite !peek_hd, !nm_hd.
    replace (teqb TDot TLeftBracket) with false by reflexivity. rewrite teqb_refl. cbn [orb toks sla].
    apply (Hf g n); lia.
Qed.

Lemma cp_structacc x fld : Gen x -> CP (UStructAccess x fld).
Proof.
  intros HG b rest r s' Hnf HL. cbn [prec show_raw] in *. rewrite <- app_assoc. cbn [app].
  apply (HG 14%nat 14%nat false b _ r s' ltac:(lia) ltac:(lia)).
  - apply nofollow_tok; [reflexivity|intros l [= <-]; lia].
  - destruct HL as [f Hf]. exists (S f). intros g n Hg Hn. destruct n as [|n]; [lia|].
    cbn [loop_at postfix_loop]. rewrite !peek_hd, !nm_hd.
    replace (teqb TDot TLeftBracket) with false by reflexivity. rewrite teqb_refl. cbn [orb toks sla].
    apply (Hf g n); lia.
Qed.

Lemma index_ev i : Top i -> forall b rest,
  EvE (PState (show_raw i ++ tk TRightBracket :: rest) b) i (PState (tk TRightBracket :: rest) b).
Proof.
  intros HT b rest. apply HT. apply nofollow_tok; [reflexivity|intros l H; discriminate H].
Qed.

Lemma cp_arr a i : Gen a -> Top i -> retype_index i = i -> CP (UArrayAccess a i).
Proof.
  intros HG HT Hri b rest r s' Hnf HL. cbn [prec show_raw] in *. rewrite <- app_assoc. cbn [app].
  apply (HG 14%nat 14%nat false b _ r s' ltac:(lia) ltac:(lia)).
  - apply nofollow_tok; [reflexivity|intros l [= <-]; lia].
  - destruct HL as [f Hf]. destruct (index_ev i HT b rest) as [f2 H2].
    exists (S (Nat.max f f2)). intros g n Hg Hn. destruct n as [|n]; [lia|].
    cbn [loop_at postfix_loop]. rewrite !peek_hd, !nm_hd. rewrite teqb_refl. cbn [orb toks sla].
    rewrite <- app_assoc. cbn [app]. rewrite (H2 g n) by lia. cbn [bindp]. rewrite Hri.
    unfold expect. rewrite nm_hd, teqb_refl. apply (Hf g n); lia.
Qed.

(* calls *)
Lemma cp_call f args : ident_ok f -> Forall Top args -> CP (UFnCall f args).
Proof.
  intros [Hf1 Hf2] HT b rest r s' Hnf HL. cbn [prec] in *. rewrite show_call.
  apply (ev_14 _ (UFnCall f args) (PState rest b)); [|exact HL].
  destruct args as [|x xs].
  - exists 0%nat. intros g n _ _. unfold parse_primary_base. cbn [app advance toks sla].
    rewrite Hf1, Hf2. cbn [orb]. rewrite !peek_hd, !nm_hd.
    replace (teqb TLeftParen TDoubleColon) with false by reflexivity. rewrite teqb_refl.
    rewrite peek_hd, teqb_refl. cbn [negb bindp]. unfold expect. rewrite nm_hd, teqb_refl. reflexivity.
  - inversion HT as [|x' xs' Hx Hxs]; subst.
    destruct (Hx b (more_toks xs ++ tk TRightParen :: rest) (nofollow_more b xs rest)) as [f1 H1].
    destruct (comma_ev xs Hxs [x] b rest) as [f2 H2].
    destruct (show_head x) as (t & Ht & _ & _ & _ & Hs).
    exists (Nat.max f1 f2). intros g n Hg Hn. unfold parse_primary_base. cbn [app advance toks sla].
    rewrite Hf1, Hf2. cbn [orb]. rewrite !peek_hd, !nm_hd.
    replace (teqb TLeftParen TDoubleColon) with false by reflexivity. rewrite teqb_refl.
    rewrite <- !app_assoc. cbn [app].
    pose proof (hd_tok_app _ (more_toks xs ++ tk TRightParen :: rest) _ Ht) as Hh.
    apply hd_tok_inv in Hh as (m & r' & Er). rewrite Er at 1. rewrite peek_hd.
    rewrite (expr_start_not t) by (exact Hs || reflexivity). cbn [negb].
    rewrite (H1 g n) by lia. cbn [bindp]. rewrite (H2 g n) by lia. cbn [bindp rev app].
    unfold expect. rewrite nm_hd, teqb_refl. reflexivity.
Qed.

(* tuples *)
Lemma cp_tuple es : Forall Top es -> CP (UTupleLiteral es).
Proof.
  intros HT b rest r s' Hnf HL. cbn [prec] in *. rewrite show_tuple.
  apply (ev_14 _ (UTupleLiteral es) (PState rest b)); [|exact HL].
  destruct es as [|x xs].
  - exists 0%nat. intros g n _ _. unfold parse_primary_base. cbn [app advance toks sla parse_literal parse_literal_gen].
    rewrite peek_hd, teqb_refl. cbn [negb]. unfold expect. rewrite nm_hd, teqb_refl. reflexivity.
  - inversion HT as [|x' xs' Hx Hxs]; subst.
    destruct (show_head x) as (t & Ht & _ & _ & _ & Hs).
    destruct xs as [|y ys].
    + destruct (Hx b (tk TComma :: tk TRightParen :: rest)) as [f1 H1].
      { apply nofollow_tok; [reflexivity|intros l H; discriminate H]. }
      exists (S f1). intros g n Hg Hn. destruct n as [|n]; [lia|].
      unfold parse_primary_base. cbn [app advance toks sla parse_literal parse_literal_gen more_toks].
      rewrite <- !app_assoc. cbn [app].
      pose proof (hd_tok_app _ (tk TComma :: tk TRightParen :: rest) _ Ht) as Hh.
      apply hd_tok_inv in Hh as (m & r' & Er). rewrite Er at 1. rewrite peek_hd.
      rewrite (expr_start_not t) by (exact Hs || reflexivity). cbn [negb].
      rewrite (H1 g (S n)) by lia. cbn [bindp]. rewrite peek_hd, teqb_refl.
      cbn [comma_loop]. rewrite nm_hd, teqb_refl. rewrite peek_hd, teqb_refl. cbn [bindp rev app].
      unfold expect. rewrite nm_hd, teqb_refl. reflexivity.
    + destruct (Hx b (more_toks (y :: ys) ++ tk TRightParen :: rest) (nofollow_more b (y :: ys) rest)) as [f1 H1].
      destruct (comma_ev (y :: ys) Hxs [x] b rest) as [f2 H2].
      exists (Nat.max f1 f2). intros g n Hg Hn.
      unfold parse_primary_base. cbn [app advance toks sla parse_literal parse_literal_gen].
      rewrite app_nil_r. rewrite <- !app_assoc.
      pose proof (hd_tok_app _ (more_toks (y :: ys) ++ [tk TRightParen] ++ rest) _ Ht) as Hh.
      apply hd_tok_inv in Hh as (m & r' & Er). rewrite Er at 1. rewrite peek_hd.
      rewrite (expr_start_not t) by (exact Hs || reflexivity). cbn [negb].
      cbn [app] in H1 |- *. rewrite (H1 g n) by lia. cbn [bindp more_toks app]. rewrite peek_hd, teqb_refl.
      cbn [more_toks app] in H2. rewrite (H2 g n) by lia. cbn [bindp rev app].
      unfold expect. rewrite nm_hd, teqb_refl. reflexivity.
Qed.

(* ------------------------------------------------------------------ the induction *)

Theorem cp_all : forall e, wf_expr e -> CP e.
Proof.
  apply (uexpr_ind2 (fun e => wf_expr e -> CP e)).
  - intros _. exact cp_true.
  - intros _. exact cp_false.
  - intros n t _. apply cp_numu.
  - intros z t _. apply cp_nums.
  - intros s H. now apply cp_ident.
  - intros a i IHa IHi (Ha & Hi & Hri). destruct (all_of_cp a (IHa Ha)) as (_ & _ & _ & HGa).
    destruct (all_of_cp i (IHi Hi)) as (_ & HTi & _ & _). now apply cp_arr.
  - intros es IH H. rewrite wf_tuple in H. apply cp_tuple. now apply tops_of.
  - intros x i IHx H. destruct (all_of_cp x (IHx H)) as (_ & _ & _ & HG). now apply cp_tupacc.
  - intros x f IHx H. destruct (all_of_cp x (IHx H)) as (_ & _ & _ & HG). now apply cp_structacc.
  - intros o x IHx H. destruct (all_of_cp x (IHx H)) as (_ & _ & _ & HG). now apply cp_unary.
  - intros o l r IHl IHr [Hl Hr]. destruct (all_of_cp l (IHl Hl)) as (_ & _ & _ & HGl).
    destruct (all_of_cp r (IHr Hr)) as (_ & _ & _ & HGr). now apply cp_op.
  - intros f args IH H. rewrite wf_call in H. destruct H as [Hf Ha]. apply cp_call; [exact Hf|now apply tops_of].
  - intros c t e' IHc IHt IHe (Hc & Ht & He).
    destruct (all_of_cp c (IHc Hc)) as (_ & HTc & _). destruct (all_of_cp t (IHt Ht)) as (_ & HTt & _).
    destruct (all_of_cp e' (IHe He)) as (_ & HTe & _). apply cp_if; try assumption. intros; now apply IHe.
  - intros ty x IHx [Hty Hx]. destruct (all_of_cp x (IHx Hx)) as (_ & _ & _ & HG). now apply cp_cast.
  - intros b [].
  - intros e arms [].
  - intros es [].
  - intros e k [].
  - intros e c [].
  - intros lo hi t [].
  - intros name fields [].
  - intros e v args [].
Qed.

(* rest does not continue an expression: it is empty or starts with a token that is neither
   a binary operator, `as`, `[`, `.` nor one of `(`, `::`, `..` (which would change the reading
   of a final identifier / number) nor, where struct literals are allowed, `{` *)
Definition stops (b : bool) (rest : list token) : Prop :=
  match rest with
  | [] => True
  | Token t _ :: _ => hard_tok b t = false /\ tok_level t = None
  end.

Lemma stops_nofollow b rest : stops b rest -> nofollow 1 b rest.
Proof.
  destruct rest as [|[t m] r]; [auto|]. intros [H1 H2]. split; [exact H1|]. intros l Hl. congruence.
Qed.

Theorem parse_show_min_st e : wf_expr e -> forall b rest, stops b rest ->
  exists fuel, parse_expr_st fuel (PState (show_min e ++ rest) b) = POk e (PState rest b).
Proof.
  intros Hw b rest Hs. destruct (all_of_cp e (cp_all e Hw)) as (_ & HT & _).
  destruct (HT b rest (stops_nofollow b rest Hs)) as [f Hf]. exists f. exact (Hf f f (le_n _) (le_n _)).
Qed.

Theorem parse_show_min e : wf_expr e -> forall rest, stops true rest ->
  exists fuel, parse_expr fuel (show_min e ++ rest) = Some (e, rest).
Proof.
  intros Hw rest Hs. destruct (parse_show_min_st e Hw true rest Hs) as [f Hf]. exists f.
  unfold parse_expr. now rewrite Hf.
Qed.

(* in particular the whole input *)
Corollary parse_show_min_all e : wf_expr e -> exists fuel, parse_expr fuel (show_min e) = Some (e, []).
Proof.
  intro Hw. destruct (parse_show_min e Hw [] I) as [f Hf]. exists f. now rewrite app_nil_r in Hf.
Qed.

(* ------------------------------------------------------------------ corollaries *)

Definition id_ (s : list N) : uexpr := UIdentifier s.

(* (a) precedence: `a + b * c` and `a * b + c` *)
Corollary precedence_add_mul a b c : ident_ok a -> ident_ok b -> ident_ok c ->
  (exists fuel, parse_expr fuel [tk (TIdentifier a); tk TPlus; tk (TIdentifier b); tk TStar; tk (TIdentifier c)]
     = Some (UOp BAdd (id_ a) (UOp BMul (id_ b) (id_ c)), [])) /\
  (exists fuel, parse_expr fuel [tk (TIdentifier a); tk TStar; tk (TIdentifier b); tk TPlus; tk (TIdentifier c)]
     = Some (UOp BAdd (UOp BMul (id_ a) (id_ b)) (id_ c), [])).
Proof.
  intros Ha Hb Hc. split.
  - exact (parse_show_min_all (UOp BAdd (id_ a) (UOp BMul (id_ b) (id_ c))) (conj Ha (conj Hb Hc))).
  - exact (parse_show_min_all (UOp BAdd (UOp BMul (id_ a) (id_ b)) (id_ c)) (conj (conj Ha Hb) Hc)).
Qed.

(* (b) every binary operator that chains is left associative *)
Corollary left_associative o a b c : is_cmp o = false -> ident_ok a -> ident_ok b -> ident_ok c ->
  exists fuel, parse_expr fuel [tk (TIdentifier a); tk (op_token o); tk (TIdentifier b); tk (op_token o); tk (TIdentifier c)]
     = Some (UOp o (UOp o (id_ a) (id_ b)) (id_ c), []).
Proof.
  intros Ho Ha Hb Hc.
  destruct (parse_show_min_all (UOp o (UOp o (id_ a) (id_ b)) (id_ c)) (conj (conj Ha Hb) Hc)) as [f Hf].
  exists f. rewrite <- Hf. f_equal. destruct o; try discriminate Ho; reflexivity.
Qed.

(* (c) THE ELSE-IF PROPERTY: a binary operator after an UNPARENTHESISED if-chain (of any
   length) applies to the whole chain, not to its last `else if` *)
Theorem operator_after_if_chain c t e' o y : wf_expr (UIf c t e') -> wf_expr y ->
  forall b rest, stops b rest ->
  exists fuel,
    parse_expr_st fuel
      (PState (show_min (UIf c t e') ++ tk (op_token o)
                 :: show_at (if is_cmp o then 5 else S (op_level o))%nat true y ++ rest) b)
    = POk (UOp o (UIf c t e') y) (PState rest b).
Proof.
  intros Hw Hy b rest Hs. pose proof (stops_nofollow b rest Hs) as Hnf.
  pose proof (op_level_range o) as Hp. set (p := op_level o) in *.
  set (jr := (if is_cmp o then 5 else S p)%nat).
  assert (Hjr : (S p <= jr <= 14)%nat) by (unfold jr, p; destruct o; cbn [is_cmp op_level]; lia).
  destruct (all_of_cp _ (cp_all _ Hw)) as (HB & _). destruct (all_of_cp _ (cp_all _ Hy)) as (_ & _ & _ & HGy).
  set (chain := UIf c t e') in *.
  (* at the level of the operator *)
  assert (Hlev : Ev p (PState (show_raw chain ++ tk (op_token o) :: show_at jr true y ++ rest) b)
                   (UOp o chain y) (PState rest b)).
  { apply HB; [cbn [prec chain]; lia| |].
    - apply nofollow_tok; [apply op_token_soft|]. intros lv Hlv. rewrite op_token_level in Hlv.
      injection Hlv as <-. unfold p. lia.
    - destruct (HGy (S p) jr true b rest y (PState rest b) ltac:(lia) ltac:(lia)) as [f2 H2].
      { apply (nofollow_mono 1); [lia|exact Hnf]. }
      { apply (evl_exit (S p) p); [lia|apply (nofollow_mono 1); [lia|exact Hnf]]. }
      exists (S (S f2)). intros g n Hg Hn. destruct n as [|n]; [lia|].
      rewrite loop_at_bin by lia. cbn [binloop]. unfold next_op. cbn [toks sla]. unfold p at 1.
      rewrite ops_at_op. fold p. rewrite (H2 g n) by lia. cbn [bindp].
      destruct n as [|n]; [lia|]. rewrite <- loop_at_bin by lia.
      apply (loop_exit p 0); [lia|exact Hnf]. }
  (* down to parse_expr *)
  assert (H1 : Ev 1 (PState (show_raw chain ++ tk (op_token o) :: show_at jr true y ++ rest) b)
                 (UOp o chain y) (PState rest b)).
  { destruct (Nat.eq_dec p 1) as [E|NE]; [now rewrite E in Hlev|].
    apply (chain_ev (p - 2) 1 p ltac:(lia) ltac:(lia) ltac:(lia) _ (UOp o chain y) rest b); try assumption.
    - intro H. lia.
    - intro H. lia.
    - apply (nofollow_mono 1); [lia|exact Hnf].
    - apply (evl_exit 1 0); [lia|exact Hnf]. }
  assert (Hnb : next_matches TLeftBrace
            (PState (show_raw chain ++ tk (op_token o) :: show_at jr true y ++ rest) b) = None) by reflexivity.
  destruct (eve_of_ev1 _ _ _ Hnb H1) as [f Hf]. exists f. exact (Hf f f (le_n _) (le_n _)).
Qed.

(* the instance with identifiers and numbers:  if a { 1 } else if b { 2 } else { 3 } + 4 *)
Corollary else_if_then_plus a b : ident_ok a -> ident_ok b ->
  exists fuel, parse_expr fuel
    [tk TKeywordIf; tk (TIdentifier a); tk TLeftBrace; tk (TUnsignedNum 1 UnspecifiedU); tk TRightBrace;
     tk TKeywordElse; tk TKeywordIf; tk (TIdentifier b); tk TLeftBrace; tk (TUnsignedNum 2 UnspecifiedU); tk TRightBrace;
     tk TKeywordElse; tk TLeftBrace; tk (TUnsignedNum 3 UnspecifiedU); tk TRightBrace;
     tk TPlus; tk (TUnsignedNum 4 UnspecifiedU)]
  = Some (UOp BAdd (UIf (id_ a) (UNumUnsigned 1 UnspecifiedU)
                      (UIf (id_ b) (UNumUnsigned 2 UnspecifiedU) (UNumUnsigned 3 UnspecifiedU)))
                   (UNumUnsigned 4 UnspecifiedU), []).
Proof.
  intros Ha Hb.
  destruct (operator_after_if_chain (id_ a) (UNumUnsigned 1 UnspecifiedU)
              (UIf (id_ b) (UNumUnsigned 2 UnspecifiedU) (UNumUnsigned 3 UnspecifiedU)) BAdd
              (UNumUnsigned 4 UnspecifiedU)) with (b := true) (rest := @nil token) as [f Hf].
  - cbn. tauto.
  - exact I.
  - exact I.
  - exists f. unfold parse_expr. cbn in Hf. rewrite Hf. reflexivity.
Qed.

(* (d) the header flag is restored after a nested `if`:
       if (if a { 1 } else { 2 }) == v { x } else { y }
   the `v` before the `{` of the outer block is an identifier (not the start of a struct literal) *)
Corollary header_flag_restored a v x y : ident_ok a -> ident_ok v -> ident_ok x -> ident_ok y ->
  exists fuel, parse_expr fuel
    [tk TKeywordIf; tk TLeftParen; tk TKeywordIf; tk (TIdentifier a); tk TLeftBrace; tk (TUnsignedNum 1 UnspecifiedU);
     tk TRightBrace; tk TKeywordElse; tk TLeftBrace; tk (TUnsignedNum 2 UnspecifiedU); tk TRightBrace; tk TRightParen;
     tk TDoubleEq; tk (TIdentifier v); tk TLeftBrace; tk (TIdentifier x); tk TRightBrace;
     tk TKeywordElse; tk TLeftBrace; tk (TIdentifier y); tk TRightBrace]
  = Some (UIf (UOp BEq (UIf (id_ a) (UNumUnsigned 1 UnspecifiedU) (UNumUnsigned 2 UnspecifiedU)) (id_ v))
              (id_ x) (id_ y), []).
Proof.
  intros Ha Hv Hx Hy.
  exact (parse_show_min_all
           (UIf (UOp BEq (UIf (id_ a) (UNumUnsigned 1 UnspecifiedU) (UNumUnsigned 2 UnspecifiedU)) (id_ v)) (id_ x) (id_ y))
           (conj (conj (conj Ha (conj I I)) Hv) (conj Hx Hy))).
Qed.

(* the flag is state: every successful parse of a printed expression gives it back as it was
   (part of [parse_show_min_st]); and it matters: with the flag set, `v {` is not an identifier *)
Example flag_matters :
  parse_expr_st 10 (PState [tk (TIdentifier [118]); tk TLeftBrace; tk TRightBrace] true)
    = POk (UStructLiteral [118] []) (PState [] true) /\
  parse_expr_st 10 (PState [tk (TIdentifier [118]); tk TLeftBrace; tk TRightBrace] false)
    = POk (UIdentifier [118]) (PState [tk TLeftBrace; tk TRightBrace] false).
Proof. split; vm_compute; reflexivity. Qed.

Print Assumptions parse_show_min.
Print Assumptions parse_show_min_st.
Print Assumptions operator_after_if_chain.
Print Assumptions header_flag_restored.
Print Assumptions left_associative.

(* ------------------------------------------------------------------ examples: source text,
   scanned with the model of the real scanner (Front/Scan.v), then parsed *)

Module ParseExamples.
  Local Open Scope string_scope.
  Definition toks_of (s : string) : list token :=
    match scan_text (codes s) with Ok (STokens ts) => ts | _ => [] end.
  Definition p (s : string) : option (uexpr * list token) :=
    let ts := toks_of s in parse_expr (fuel_for_tokens ts) ts.
  Definition v (s : string) : uexpr := UIdentifier (codes s).
  Definition n (k : N) : uexpr := UNumUnsigned k UnspecifiedU.

  Example ex_precedence : p "a + b * c" = Some (UOp BAdd (v "a") (UOp BMul (v "b") (v "c")), []).
  Proof. vm_compute. reflexivity. Qed.

  Example ex_left_assoc : p "a - b - c" = Some (UOp BSub (UOp BSub (v "a") (v "b")) (v "c"), []).
  Proof. vm_compute. reflexivity. Qed.

  Example ex_levels : p "a || b && c == d < e | f ^ g & h << i + j * k as u8" =
    Some (UOp BShortCircuitOr (v "a") (UOp BShortCircuitAnd (v "b") (UOp BEq (v "c") (UOp BLessThan (v "d")
      (UOp BBitOr (v "e") (UOp BBitXor (v "f") (UOp BBitAnd (v "g") (UOp BShiftLeft (v "h")
        (UOp BAdd (v "i") (UOp BMul (v "j") (UCast (UTUnsigned U8) (v "k"))))))))))), []).
  Proof. vm_compute. reflexivity. Qed.

  (* the three defects found by testing (fixes 5ffd43e, f1c3e14, 792373e), on the repaired code *)
  Example ex_else_if : p "if a { 1 } else if b { 2 } else { 3 } + 4" =
    Some (UOp BAdd (UIf (v "a") (n 1) (UIf (v "b") (n 2) (n 3))) (n 4), []).
  Proof. vm_compute. reflexivity. Qed.

  Example ex_le : p "x <= y" = Some (UUnaryOp UoNot (UOp BGreaterThan (v "x") (v "y")), []) /\
                  p "x >= y" = Some (UUnaryOp UoNot (UOp BLessThan (v "x") (v "y")), []).
  Proof. split; vm_compute; reflexivity. Qed.

  Example ex_header_flag : p "if (if a { 1 } else { 2 }) == v { x } else { y }" =
    Some (UIf (UOp BEq (UIf (v "a") (n 1) (n 2)) (v "v")) (v "x") (v "y"), []).
  Proof. vm_compute. reflexivity. Qed.

  Example ex_unary_cast_postfix : p "-x as u8 + f(a, b)[1].0.g" =
    Some (UOp BAdd (UCast (UTUnsigned U8) (UUnaryOp UoNeg (v "x")))
            (UStructAccess (UTupleAccess (UArrayAccess (UFnCall (codes "f") [v "a"; v "b"]) (UNumUnsigned 1 Usize)) 0)
               (codes "g")), []).
  Proof. vm_compute. reflexivity. Qed.

  Example ex_negative_literal : p "x - -1i8" = Some (UOp BSub (v "x") (UNumSigned (-1) I8), []).
  Proof. vm_compute. reflexivity. Qed.

  Example ex_tuples : p "((a, b,), (c,), ())" =
    Some (UTupleLiteral [UTupleLiteral [v "a"; v "b"]; UTupleLiteral [v "c"]; UTupleLiteral []], []).
  Proof. vm_compute. reflexivity. Qed.

  (* the index of `[..]` is a full expression; an index that is exactly an unsuffixed number
     (also in parentheses) is a usize; a tree with a bare unsuffixed number as index is not the
     result of a parse ([wf_expr] excludes it: printed and parsed again it comes back as usize) *)
  Example ex_index :
    p "a[1 + i]" = Some (UArrayAccess (v "a") (UOp BAdd (n 1) (v "i")), []) /\
    p "a[i + 1]" = Some (UArrayAccess (v "a") (UOp BAdd (v "i") (n 1)), []) /\
    p "a[(1 + i)]" = Some (UArrayAccess (v "a") (UOp BAdd (n 1) (v "i")), []) /\
    p "a[1]" = Some (UArrayAccess (v "a") (UNumUnsigned 1 Usize), []) /\
    p "a[(1)]" = Some (UArrayAccess (v "a") (UNumUnsigned 1 Usize), []) /\
    p "a[1usize]" = Some (UArrayAccess (v "a") (UNumUnsigned 1 Usize), []) /\
    p "a[1u8]" = Some (UArrayAccess (v "a") (UNumUnsigned 1 U8), []) /\
    show_min (UArrayAccess (v "a") (UOp BAdd (n 1) (v "i"))) = map (fun t => match t with Token te _ => tk te end) (toks_of "a[1 + i]") /\
    show_min (UArrayAccess (v "a") (UNumUnsigned 1 Usize)) = map (fun t => match t with Token te _ => tk te end) (toks_of "a[1usize]").
  Proof. repeat split; vm_compute; reflexivity. Qed.

  Example ex_index_not_wf :
    parse_expr 9 (show_min (UArrayAccess (v "a") (n 1))) = Some (UArrayAccess (v "a") (UNumUnsigned 1 Usize), []).
  Proof. vm_compute. reflexivity. Qed.

  (* the printer on a larger tree, and back *)
  Definition big : uexpr :=
    UOp BMul
      (UOp BAdd (v "a") (UIf (UOp BLessThan (v "x") (UCast (UTSigned I8) (v "a")))
                           (UUnaryOp UoNeg (UOp BSub (v "x") (UNumSigned (-3) I8)))
                           (UIf (v "p") (v "y") (UOp BShiftLeft (v "x") (n 1)))))
      (UCast (UTUnsigned U8) (UUnaryOp UoNot (UIf (v "q") (v "b") (v "a")))).

  Example ex_big_text : show_min big = map (fun t => match t with Token te _ => tk te end)
    (toks_of "(a + if x < (a as i8) { -(x - -3i8) } else if p { y } else { x << 1 }) * !(if q { b } else { a }) as u8").
  Proof. vm_compute. reflexivity. Qed.

  Example ex_big_roundtrip : parse_expr (fuel_for_tokens (show_min big)) (show_min big) = Some (big, []).
  Proof. vm_compute. reflexivity. Qed.
End ParseExamples.

(* ------------------------------------------------------------------ statements *)

(* the target of an assignment, read back as an expression, is the parsed left-hand side
   itself: `x.acc op= v` is parsed to `x.acc = (x.acc op v)` with the SAME index expressions
   on both sides (they are evaluated twice: the recorded finding op-assign-index-evaluated-twice) *)
Lemma target_expr_snoc x accs a :
  target_expr x (accs ++ [a]) =
  match a with
  | AArray i => UArrayAccess (target_expr x accs) i
  | ATuple i => UTupleAccess (target_expr x accs) i
  | AStruct f => UStructAccess (target_expr x accs) f
  end.
Proof. unfold target_expr. rewrite fold_left_app. reflexivity. Qed.

Theorem target_expr_accessors : forall e x accs, accessors e = Some (x, accs) -> target_expr x accs = e.
Proof.
  fix IH 1. intros e x accs H. destruct e; cbn [accessors] in H; try discriminate H.
  - injection H as <- <-. reflexivity.
  - destruct (accessors e1) as [[id acc]|] eqn:E; [|discriminate H]. injection H as <- <-.
    rewrite target_expr_snoc. now rewrite (IH e1 id acc E).
  - destruct (accessors e) as [[id acc]|] eqn:E; [|discriminate H]. injection H as <- <-.
    rewrite target_expr_snoc. now rewrite (IH e id acc E).
  - destruct (accessors e) as [[id acc]|] eqn:E; [|discriminate H]. injection H as <- <-.
    rewrite target_expr_snoc. now rewrite (IH e id acc E).
Qed.
Print Assumptions target_expr_accessors.

Module StmtExamples.
  Local Open Scope string_scope.
  Import ParseExamples.
  (* the statements of a function body (the text between its braces) *)
  Definition pb (s : string) : option (list ustmt) :=
    let ts := toks_of s in
    match parse_block_text (fuel_for_tokens ts) ts with POk stmts _ => Some stmts | _ => None end.
  Definition x_ (s : string) : list N := codes s.
  Definition pid (s : string) : upattern := PIdentifier (codes s).

  Example ex_let : pb "let x = 1; let mut y: u8 = 2u8; let (a, b): (u8, [bool; 3]) = f(x); let mut z = y; x" =
    Some [SLet (pid "x") None (n 1);
          SLetMut (x_ "y") (Some (UTUnsigned U8)) (UNumUnsigned 2 U8);
          SLet (PTuple [pid "a"; pid "b"]) (Some (UTTuple [UTUnsigned U8; UTArray UTBool 3])) (UFnCall (x_ "f") [v "x"]);
          SLetMut (x_ "z") None (v "y");
          SExpr (v "x")].
  Proof. vm_compute. reflexivity. Qed.

  Example ex_let_types : pb "let a: [[u8; N]; 2usize] = b; let c: Foo = d; let u: () = ();" =
    Some [SLet (pid "a") (Some (UTArray (UTArrayConst (UTUnsigned U8) (x_ "N")) 2)) (v "b");
          SLet (pid "c") (Some (UTNamed (x_ "Foo"))) (v "d");
          SLet (pid "u") (Some (UTTuple [])) (UTupleLiteral [])].
  Proof. vm_compute. reflexivity. Qed.

  (* assignment through accessors; the compound assignments are desugared, the index expression
     `f(i)` occurs twice *)
  Example ex_assign : pb "a[i].0 = e; x += e; a[f(i)] *= 2u8; s.k.1 >>= 1u8" =
    Some [SVarAssign (x_ "a") [AArray (v "i"); ATuple 0] (v "e");
          SVarAssign (x_ "x") [] (UOp BAdd (v "x") (v "e"));
          SVarAssign (x_ "a") [AArray (UFnCall (x_ "f") [v "i"])]
            (UOp BMul (UArrayAccess (v "a") (UFnCall (x_ "f") [v "i"])) (UNumUnsigned 2 U8));
          SVarAssign (x_ "s") [AStruct (x_ "k"); ATuple 1]
            (UOp BShiftRight (UTupleAccess (UStructAccess (v "s") (x_ "k")) 1) (UNumUnsigned 1 U8))].
  Proof. vm_compute. reflexivity. Qed.

  (* an index that is a bare number is a usize also in an assignment target *)
  Example ex_assign_index : pb "a[1] = a[1 + 1]" =
    Some [SVarAssign (x_ "a") [AArray (UNumUnsigned 1 Usize)] (UArrayAccess (v "a") (UOp BAdd (n 1) (n 1)))].
  Proof. vm_compute. reflexivity. Qed.

  Example ex_for : pb "let mut s = 0; for x in xs { s = s + x; } for (i, y) in f(ys) { g(i); s += y } s" =
    Some [SLetMut (x_ "s") None (n 0);
          SForEach (pid "x") (v "xs") [SVarAssign (x_ "s") [] (UOp BAdd (v "s") (v "x"))];
          SForEach (PTuple [pid "i"; pid "y"]) (UFnCall (x_ "f") [v "ys"])
            [SExpr (UFnCall (x_ "g") [v "i"]); SVarAssign (x_ "s") [] (UOp BAdd (v "s") (v "y"))];
          SExpr (v "s")].
  Proof. vm_compute. reflexivity. Qed.

  (* blocks as expressions; a block of one expression statement in an `if` is that expression,
     an `if` without else has the unit tuple as else branch *)
  Example ex_blocks : pb "let z = { let y = 1; { y } }; if c { z } if d { let w = z; w } else { }" =
    Some [SLet (pid "z") None (UBlock [SLet (pid "y") None (n 1); SExpr (UBlock [SExpr (v "y")])]);
          SExpr (UIf (v "c") (v "z") (UTupleLiteral []));
          SExpr (UIf (v "d") (UBlock [SLet (pid "w") None (v "z"); SExpr (v "w")]) (UTupleLiteral []))].
  Proof. vm_compute. reflexivity. Qed.

  (* match: every arm body is a Block of one statement; exclusive ranges are stored inclusive;
     no comma is needed after an arm that ends with a brace; trailing comma *)
  Example ex_match : pb "match x { 0 => 1, 1..3 => 2, 4..=5 => { 3 } -3i8..0i8 => 4, _ => if a { b } else { c } }" =
    Some [SExpr (UMatch (v "x")
            [(PNumUnsigned 0 UnspecifiedU, UBlock [SExpr (n 1)]);
             (PUnsignedInclusiveRange 1 2 UnspecifiedU, UBlock [SExpr (n 2)]);
             (PUnsignedInclusiveRange 4 5 UnspecifiedU, UBlock [SExpr (UBlock [SExpr (n 3)])]);
             (PSignedInclusiveRange (-3) (-1) I8, UBlock [SExpr (n 4)]);
             (pid "_", UBlock [SExpr (UIf (v "a") (v "b") (v "c"))])])].
  Proof. vm_compute. reflexivity. Qed.

  Example ex_match_patterns : pb "match x { (true, A::B(y), A::C, S { b: 1, a, .. }) => y, T { q } => { q = 1; } _ => 0, }" =
    Some [SExpr (UMatch (v "x")
            [(PTuple [PTrue; PEnumTuple (x_ "A") (x_ "B") [pid "y"]; PEnumUnit (x_ "A") (x_ "C");
                      PStructIgnoreRemaining (x_ "S") [(x_ "a", pid "a"); (x_ "b", PNumUnsigned 1 UnspecifiedU)]],
              UBlock [SExpr (v "y")]);
             (PStruct (x_ "T") [(x_ "q", pid "q")], UBlock [SExpr (UBlock [SVarAssign (x_ "q") [] (n 1)])]);
             (pid "_", UBlock [SExpr (n 0)])])].
  Proof. vm_compute. reflexivity. Qed.

  (* errors of the real parser: an empty exclusive range, a missing `;`, range suffixes that differ *)
  Example ex_errors :
    pb "match x { 1..0 => 1 }" = None /\ pb "let x = 1 x" = None /\ pb "match x { 1u8..2u16 => 1 }" = None /\
    pb "x = 1 y" = None /\ pb "f(x) g(y)" = None /\ pb "if a { b } g(y)" = Some [SExpr (UIf (v "a") (v "b") (UTupleLiteral [])); SExpr (UFnCall (x_ "g") [v "y"])].
  Proof. repeat split; vm_compute; reflexivity. Qed.

  (* a struct literal is not allowed in the header of `for` / `match`, but again inside the braces *)
  Example ex_flag : pb "for x in xs { y } for x in (S { a: 1 }) { }" = None /\
    pb "for x in xs { S { a: 1 } }" =
      Some [SForEach (pid "x") (v "xs") [SExpr (UStructLiteral (x_ "S") [(x_ "a", n 1)])]].
  Proof. split; vm_compute; reflexivity. Qed.

  (* array literals and repeats *)
  Example ex_arrays : pb "let a = [1, x + 1, f(y),]; let b = [0u8; 4]; let c = [[true; N]; 2usize]; [a][0]" =
    Some [SLet (pid "a") None (UArrayLiteral [n 1; UOp BAdd (v "x") (n 1); UFnCall (x_ "f") [v "y"]]);
          SLet (pid "b") None (UArrayRepeat (UNumUnsigned 0 U8) 4);
          SLet (pid "c") None (UArrayRepeat (UArrayRepeatConst UTrue (x_ "N")) 2);
          SExpr (UArrayAccess (UArrayLiteral [v "a"]) (UNumUnsigned 0 Usize))].
  Proof. vm_compute. reflexivity. Qed.

  Example ex_array_errors :
    pb "let a = [];" = None /\ pb "let a = [1; 2u8];" = None /\ pb "let a = [1; n + 1];" = None /\
    pb "let a = [1, 2;];" = None /\ pb "let a = [1 2];" = None.
  Proof. repeat split; vm_compute; reflexivity. Qed.

  (* ranges: only `lo..hi` between two unsigned number tokens; the type is the specified suffix *)
  Example ex_ranges : pb "for i in 0..10 { } for j in 2u8..5 { } for k in 1..4u16 { } for l in 3usize..3usize { }" =
    Some [SForEach (pid "i") (URange 0 10 UnspecifiedU) [];
          SForEach (pid "j") (URange 2 5 U8) [];
          SForEach (pid "k") (URange 1 4 U16) [];
          SForEach (pid "l") (URange 3 3 Usize) []].
  Proof. vm_compute. reflexivity. Qed.

  Example ex_range_errors :
    pb "for i in 0u8..10u16 { }" = None /\ pb "for i in 0..n { }" = None /\ pb "for i in 0..=3 { }" = None /\
    pb "for i in n..3 { }" = None /\ pb "for i in 0..-1 { }" = None.
  Proof. repeat split; vm_compute; reflexivity. Qed.

  (* struct literals: shorthand fields, trailing comma, the fields sorted by name (stable) *)
  Example ex_structs : pb "let s = S { b: 1, a, c: T { }, }; let t = U { z: f(S { a }) }; s" =
    Some [SLet (pid "s") None (UStructLiteral (x_ "S") [(x_ "a", v "a"); (x_ "b", n 1); (x_ "c", UStructLiteral (x_ "T") [])]);
          SLet (pid "t") None (UStructLiteral (x_ "U") [(x_ "z", UFnCall (x_ "f") [UStructLiteral (x_ "S") [(x_ "a", v "a")]])]);
          SExpr (v "s")].
  Proof. vm_compute. reflexivity. Qed.

  Example ex_struct_duplicate_field : pb "S { a: 2, b: 0, a: 1 }" =
    Some [SExpr (UStructLiteral (x_ "S") [(x_ "a", n 2); (x_ "a", n 1); (x_ "b", n 0)])].
  Proof. vm_compute. reflexivity. Qed.

  Example ex_struct_errors :
    pb "let s = S { a 1 };" = None /\ pb "let s = S { a: };" = None /\ pb "let s = S { 1: a };" = None /\
    pb "if S { a: 1 } == s { }" = None /\ pb "match S { a } { _ => 0 }" = None /\
    pb "if (S { a: 1 }) == s { }" = None.
  Proof. repeat split; vm_compute; reflexivity. Qed.

  (* enum literals: unit variant, tuple variant (also with no field), nested *)
  Example ex_enums : pb "let e = E::A; let f = E::B(1, E::C(), x,); g(E::A == e)" =
    Some [SLet (pid "e") None (UEnumLiteral (x_ "E") (x_ "A") None);
          SLet (pid "f") None (UEnumLiteral (x_ "E") (x_ "B")
                                 (Some [n 1; UEnumLiteral (x_ "E") (x_ "C") (Some []); v "x"]));
          SExpr (UFnCall (x_ "g") [UOp BEq (UEnumLiteral (x_ "E") (x_ "A") None) (v "e")])].
  Proof. vm_compute. reflexivity. Qed.

  Example ex_enum_errors :
    pb "let e = E::;" = None /\ pb "let e = E::1;" = None /\ pb "let e = E::A(;" = None /\ pb "let e = E::A(1 2);" = None.
  Proof. repeat split; vm_compute; reflexivity. Qed.

  (* an array type whose size is a constant expression *)
  Example ex_const_size : pb "let a: [u8; const { N + 1 }] = b; x as [bool; const { max(A, P::n - 2usize) }]" =
    Some [SLet (pid "a") (Some (UTArrayConstExpr (UTUnsigned U8) (CAdd (CIdent (x_ "N")) (CNumUnsigned 1 UnspecifiedU)))) (v "b");
          SExpr (UCast (UTArrayConstExpr UTBool
                         (CMax [CIdent (x_ "A");
                                CSub (CExternalValue (x_ "P") (x_ "n")) (CNumUnsigned 2 Usize)])) (v "x"))].
  Proof. vm_compute. reflexivity. Qed.

  Example ex_const_size_errors :
    pb "let a: [u8; const { N * 2 }] = b;" = None /\ pb "let a: [u8; const N] = b;" = None /\
    pb "let a: [u8; const { f(1) }] = b;" = None.
  Proof. repeat split; vm_compute; reflexivity. Qed.
End StmtExamples.

(* ------------------------------------------------------------------ whole programs *)

Module ProgramExamples.
  Local Open Scope string_scope.
  Import ParseExamples StmtExamples.
  Definition pp (s : string) : option uprogram :=
    let ts := toks_of s in
    match parse_program_text (fuel_for_tokens ts) ts with POk prog _ => Some prog | _ => None end.
  Definition u8 := UTUnsigned U8.

  (* all four kinds of items; `pub fn`, a `mut` parameter, unit and tuple variants, trailing commas;
     struct fields are sorted by name *)
  Example ex_program : pp
    "const N: usize = max(PARTY_0::N, 2 + K) - 1usize;
     const FLAG: bool = true;
     struct S { b: [u8; N], a: (bool, u16), }
     enum E { A, B(u8, S,), C(), }
     fn helper(x: u8) -> u8 { x + 1 }
     pub fn main(mut acc: u8, s: S,) -> E { acc += helper(s.b[0]); E::B(acc, s) }"
    = Some (UProgram
        [(x_ "N", UConstDef (UTUnsigned Usize)
                    (CSub (CMax [CExternalValue (x_ "PARTY_0") (x_ "N"); CAdd (CNumUnsigned 2 UnspecifiedU) (CIdent (x_ "K"))])
                          (CNumUnsigned 1 Usize)));
         (x_ "FLAG", UConstDef UTBool CTrue)]
        [(x_ "S", [(x_ "a", UTTuple [UTBool; UTUnsigned U16]); (x_ "b", UTArrayConst u8 (x_ "N"))])]
        [(x_ "E", [VUnit (x_ "A"); VTuple (x_ "B") [u8; UTNamed (x_ "S")]; VTuple (x_ "C") []])]
        [(x_ "helper", UFnDef false (x_ "helper") u8 [UParam false (x_ "x") u8] [SExpr (UOp BAdd (v "x") (n 1))]);
         (x_ "main", UFnDef true (x_ "main") (UTNamed (x_ "E"))
                       [UParam true (x_ "acc") u8; UParam false (x_ "s") (UTNamed (x_ "S"))]
                       [SVarAssign (x_ "acc") []
                          (UOp BAdd (v "acc") (UFnCall (x_ "helper") [UArrayAccess (UStructAccess (v "s") (x_ "b")) (UNumUnsigned 0 Usize)]));
                        SExpr (UEnumLiteral (x_ "E") (x_ "B") (Some [v "acc"; v "s"]))])]).
  Proof. vm_compute. reflexivity. Qed.

  (* `pub` is accepted (and ignored) before const / struct / enum, and alone at the end of the text;
     a later definition of a name replaces the earlier one (HashMap::insert); the empty program *)
  Example ex_pub_and_duplicates : pp
    "pub struct T { } pub enum F { X } pub const C: u8 = 1u8; fn f() -> u8 { 1u8 } fn g() -> () { } fn f() -> u8 { 2u8 } pub"
    = Some (UProgram [(x_ "C", UConstDef u8 (CNumUnsigned 1 U8))] [(x_ "T", [])] [(x_ "F", [VUnit (x_ "X")])]
              [(x_ "g", UFnDef false (x_ "g") (UTTuple []) [] []);
               (x_ "f", UFnDef false (x_ "f") u8 [] [SExpr (UNumUnsigned 2 U8)])]) /\
    pp "" = Some (UProgram [] [] [] []).
  Proof. split; vm_compute; reflexivity. Qed.

  (* a tuple variant whose first field type does not start with an identifier is not accepted
     (parse_variant only looks for an identifier there); later fields may be any type *)
  Example ex_variant_first_field :
    pp "enum E { A((u8, u8)) }" = None /\ pp "enum E { A([u8; 2]) }" = None /\
    pp "enum E { A(u8, (u8, bool), [u8; 2]) }" =
      Some (UProgram [] [] [(x_ "E", [VTuple (x_ "A") [u8; UTTuple [u8; UTBool]; UTArray u8 2]])] []).
  Proof. repeat split; vm_compute; reflexivity. Qed.

  Example ex_program_errors :
    pp "let x = 1;" = None /\                       (* not an item *)
    pp "pub pub fn f() -> u8 { 1u8 }" = None /\      (* `pub` twice *)
    pp "fn f() { }" = None /\                        (* no return type *)
    pp "fn f() -> u8 { 1u8 " = None /\               (* missing brace *)
    pp "fn f(x u8) -> u8 { x }" = None /\
    pp "fn f(, x: u8) -> u8 { x }" = None /\
    pp "struct S { a: u8 b: u8 }" = None /\
    pp "struct S ( a: u8 )" = None /\
    pp "enum E { }" = None /\                        (* an enum has at least one variant *)
    pp "enum E { A B }" = None /\
    pp "const C: u8 = f(1);" = None /\               (* not a constant expression *)
    pp "const C: u8 = 1u8 * 2u8;" = None /\
    pp "const C: u8 = 1u8" = None /\                 (* missing `;` *)
    pp "const C = 1u8;" = None /\                    (* missing type *)
    pp "const C: u8 = P::n(1);" = None /\            (* only the unit form `PARTY::NAME` *)
    pp "fn f() -> u8 { 1u8 } ;" = None.
  Proof. repeat split; vm_compute; reflexivity. Qed.
End ProgramExamples.

(* ------------------------------------------------------------------ the literal mode
   (Tokens::parse_literal, used by Literal::parse for argument texts) *)

Module LiteralExamples.
  Local Open Scope string_scope.
  Import ParseExamples StmtExamples.
  Definition pl (s : string) : option uexpr :=
    let ts := toks_of s in
    match parse_literal_text (fuel_for_tokens ts) ts with POk e _ => Some e | _ => None end.

  (* scalars; a negative number is ONE token for the scanner when the digits follow the `-`
     directly, so `-1` is a literal, `- 1` and `--1` are not *)
  Example lit_scalars :
    pl "true" = Some UTrue /\ pl "false" = Some UFalse /\ pl "5" = Some (n 5) /\ pl "5u8" = Some (UNumUnsigned 5 U8) /\
    pl "-1" = Some (UNumSigned (-1) UnspecifiedS) /\ pl "-5i16" = Some (UNumSigned (-5) I16) /\
    pl "- 1" = None /\ pl "--1" = None.
  Proof. repeat split; vm_compute; reflexivity. Qed.

  (* the whole input must be one literal; errors that do not stop the parser are errors; no
     variables, no operators, no calls, no postfix forms *)
  Example lit_rejected :
    pl "5 6" = None /\ pl "true false" = None /\ pl "0u8..3u16" = None /\ pl "" = None /\ pl "x" = None /\
    pl "1 + 2" = None /\ pl "(1 + 2)" = None /\ pl "[f(1)]" = None /\ pl "a.b" = None /\ pl "[x; 2]" = None /\
    pl "E::V(x)" = None.
  Proof. repeat split; vm_compute; reflexivity. Qed.

  Example lit_tuples :
    pl "(1, 2)" = Some (UTupleLiteral [n 1; n 2]) /\ pl "()" = Some (UTupleLiteral []) /\
    pl "(1,)" = Some (UTupleLiteral [n 1]) /\ pl "(1)" = Some (n 1).
  Proof. repeat split; vm_compute; reflexivity. Qed.

  (* arrays: the size of a repeat must be a number in literal mode (`[1; N]` is rejected); ranges *)
  Example lit_arrays :
    pl "[1; 3]" = Some (UArrayRepeat (n 1) 3) /\ pl "[1; N]" = None /\ pl "[1, 2,]" = Some (UArrayLiteral [n 1; n 2]) /\
    pl "1..3" = Some (URange 1 3 UnspecifiedU) /\
    pl "[1..3, 0u8..2]" = Some (UArrayLiteral [URange 1 3 UnspecifiedU; URange 0 2 U8]).
  Proof. repeat split; vm_compute; reflexivity. Qed.

  (* structs (no shorthand field: it would read a variable) and enums, nested *)
  Example lit_structs_enums :
    pl "S { a: 1, b: [true, false] }" =
      Some (UStructLiteral (x_ "S") [(x_ "a", n 1); (x_ "b", UArrayLiteral [UTrue; UFalse])]) /\
    pl "S { a }" = None /\ pl "S { }" = Some (UStructLiteral (x_ "S") []) /\
    pl "E::V(1, (2, 3))" = Some (UEnumLiteral (x_ "E") (x_ "V") (Some [n 1; UTupleLiteral [n 2; n 3]])) /\
    pl "E::V" = Some (UEnumLiteral (x_ "E") (x_ "V") None) /\ pl "E::V()" = Some (UEnumLiteral (x_ "E") (x_ "V") (Some [])) /\
    pl "[S { a: E::A(-1i8) }; 2usize]" =
      Some (UArrayRepeat (UStructLiteral (x_ "S") [(x_ "a", UEnumLiteral (x_ "E") (x_ "A") (Some [UNumSigned (-1) I8]))]) 2).
  Proof. repeat split; vm_compute; reflexivity. Qed.
End LiteralExamples.
