(* TERMINATION of the parser model of Front/ParseExpr.v with a fuel that is LINEAR in the
   number of tokens, for EVERY token list (property C07: the front end returns promptly on every
   input), and independence of the results from the fuel once it suffices.

   The argument: a parser function called with fuel n on a state with L tokens left does not run
   out of fuel if n >= L + c, for a constant c that only depends on the function (its height in
   the call graph of one nesting level of parse_expr); every loop iteration and every nesting
   level of parse_expr consumes at least one token.  [okD d r L]: the result r is not [PNoFuel],
   and if it is [POk _ s'] then s' has at least d tokens fewer than L.  The induction carries
   [okDx], which also says that r is not [POutside] (ParseNoOutside.v). *)
From Coq Require Import Lia ZArith String List.
From GV Require Import Base.Util Front.Scan Front.ParseExpr Front.ParseRel.
Local Open Scope nat_scope.

Notation ln s := (length (toks s)).

Definition okD {A} (d : nat) (r : pres A) (L : nat) : Prop :=
  match r with
  | PNoFuel => False
  | POk _ s' => ln s' + d <= L
  | _ => True
  end.

(* the same, and not [POutside] either *)
Definition okDx {A} (d : nat) (r : pres A) (L : nat) : Prop :=
  match r with
  | PNoFuel | POutside _ => False
  | POk _ s' => ln s' + d <= L
  | PErr => True
  end.

Lemma okDx_le {A} d d' (r : pres A) L L' : okDx d r L -> d' + L <= d + L' -> okDx d' r L'.
Proof. destruct r; cbn [okDx]; auto. lia. Qed.

Lemma okDx_bind {A B} d1 d (m : pres A) (k : A -> pstate -> pres B) L1 L :
  okDx d1 m L1 -> (forall a s1, ln s1 + d1 <= L1 -> okDx d (k a s1) L) -> okDx d (bindp m k) L.
Proof. destruct m; cbn [okDx bindp]; auto. Qed.

Lemma next_matches_len t s s1 : next_matches t s = Some s1 -> ln s1 + 1 = ln s.
Proof.
  unfold next_matches. destruct (toks s) as [|[t' m] r] eqn:E; [discriminate|].
  destruct (teqb t' t); [|discriminate]. intros [= <-]. cbn [toks length]. lia.
Qed.

Lemma advance_len s t s1 : advance s = Some (t, s1) -> ln s1 + 1 = ln s.
Proof.
  unfold advance. destruct (toks s) as [|[t' m] r] eqn:E; [discriminate|]. intros [= <- <-]. cbn [toks length]. lia.
Qed.

Lemma next_op_len ops s mk s1 : next_op ops s = Some (mk, s1) -> ln s1 + 1 = ln s.
Proof.
  unfold next_op. destruct (toks s) as [|[t' m] r] eqn:E; [discriminate|].
  destruct (ops t'); [|discriminate]. intros [= <- <-]. cbn [toks length]. lia.
Qed.

Lemma okDx_expect {A} d t s (k : pstate -> pres A) L :
  (forall s1, ln s1 + 1 = ln s -> okDx d (k s1) L) -> okDx d (expect t s k) L.
Proof.
  intro H. unfold expect. destruct (next_matches t s) as [s1|] eqn:E; [|exact I].
  apply H. eapply next_matches_len; eassumption.
Qed.

Lemma okDx_expect_id {A} d s (k : list N -> pstate -> pres A) L :
  (forall id s1, ln s1 + 1 = ln s -> okDx d (k id s1) L) -> okDx d (expect_identifier s k) L.
Proof.
  intro H. unfold expect_identifier. destruct (toks s) as [|[t m] r] eqn:E; [exact I|].
  destruct t; try exact I. apply H. cbn [toks length]. lia.
Qed.

Ltac fin := cbn [okDx toks sla set_sla length] in *; lia.

(* parse_expr one level down, on states with fewer than L tokens: it consumes at least one token *)
Definition pe_ok (pe : pstate -> pres uexpr) (L : nat) : Prop :=
  forall s, ln s < L -> okD 1 (pe s) (ln s).

Lemma pe_ok_mono pe L L' : pe_ok pe L -> L' <= L -> pe_ok pe L'.
Proof. intros H Hl s Hs. apply H. lia. Qed.

Definition item_ok {A} (item : pstate -> pres A) (L : nat) : Prop :=
  forall s, ln s < L -> okDx 1 (item s) (ln s).

Lemma okDx_opt_semicolon {A} d s (k : pstate -> pres A) L :
  (forall s1, ln s1 <= ln s -> okDx d (k s1) L) -> okDx d (opt_semicolon s k) L.
Proof.
  intro Hk. unfold opt_semicolon. destruct (negb (peek TRightBrace s) && negb (peek TComma s)); [|apply Hk; lia].
  apply okDx_expect. intros s1 H1. apply Hk. lia.
Qed.

(* One step along the syntax of the result: everything but the call of another parser function.
   The tokens consumed are recorded as equations between lengths, which [fin] adds up at a [POk].
   An optional list `bindp (if .. then items else POk [] s) k` is bounded at the state s. *)
Ltac okd_step :=
  match goal with
  | |- okDx _ (POk _ _) _ => fin
  | |- okDx _ PErr _ => exact I
  | |- okDx _ (expect _ _ _) _ => apply okDx_expect; intros ? ?
  | |- okDx _ (expect_identifier _ _) _ => apply okDx_expect_id; intros ? ? ?
  | |- okDx _ (opt_semicolon _ _) _ => apply okDx_opt_semicolon; intros ? ?
  | |- okDx _ (bindp (if _ then _ else POk _ ?s) _) _ => eapply (okDx_bind 0 _ _ _ (ln s)); [|intros ? ? ?]
  | |- okDx _ (match next_matches ?t ?s with _ => _ end) _ =>
      let E := fresh "E" in destruct (next_matches t s) eqn:E; [apply next_matches_len in E|]
  | |- okDx _ (match advance ?s with _ => _ end) _ =>
      let E := fresh "E" in destruct (advance s) as [[? ?]|] eqn:E; [apply advance_len in E|]
  | |- okDx _ (match next_op ?o ?s with _ => _ end) _ =>
      let E := fresh "E" in destruct (next_op o s) as [[? ?]|] eqn:E; [apply next_op_len in E|]
  | |- okDx _ (match toks ?s with _ => _ end) _ =>
      let E := fresh "E" in destruct (toks s) as [|[? ?] ?] eqn:E; apply (f_equal (@length _)) in E; cbn [length] in E
  | |- okDx _ (match ?x with _ => _ end) _ => destruct x
  | |- context [comma_loop _ _ _ _ _] => rewrite comma_loop_sep
  end.
Ltac okd := cbv zeta; repeat okd_step.

(* the call of another parser function, bounded by the lemma H; [by_call]: in tail position *)
Tactic Notation "call" constr(H) := eapply okDx_bind; [apply H; fin|intros ? ? ?; okd].
Tactic Notation "by_call" constr(H) := eapply okDx_le; [apply H; fin|fin].

(* ------------------------------------------------------------------ the loops over lists *)

Lemma strict_comma_loop_ok {A} (item : pstate -> pres A) L : item_ok item L ->
  forall n acc s, ln s <= L -> ln s + 1 <= n -> okDx 0 (strict_comma_loop item n acc s) (ln s).
Proof.
  intro Hi. induction n as [|n IH]; intros acc s HL Hn; [lia|]. cbn [strict_comma_loop]. okd.
  call Hi. by_call IH.
Qed.

Lemma sep_loop_ok {A} (item : pstate -> pres A) close L : item_ok item L ->
  forall n acc s, ln s <= L -> ln s + 1 <= n -> okDx 0 (sep_loop item close n acc s) (ln s).
Proof.
  intro Hi. induction n as [|n IH]; intros acc s HL Hn; [lia|]. cbn [sep_loop]. okd.
  call Hi. by_call IH.
Qed.

(* ------------------------------------------------------------------ types *)

Lemma parse_type_ok pe L : item_ok pe L -> forall n s, ln s <= L -> ln s + 1 <= n ->
  okDx 1 (parse_type pe n s) (ln s).
Proof.
  intro Hpe. induction n as [|n IH]; intros s HL Hn; [lia|]. cbn [parse_type].
  assert (Hit : item_ok (parse_type pe n) (ln s)) by (intros s' Hs'; apply IH; lia). okd.
  - call IH. by_call (strict_comma_loop_ok _ _ Hit).
  - call IH. call Hpe.
Qed.

(* ------------------------------------------------------------------ patterns *)

Lemma pattern_field_ok pp L : item_ok pp L -> forall s, ln s <= L -> okDx 1 (pattern_field pp s) (ln s).
Proof. intros Hp s HL. unfold pattern_field. okd. call Hp. Qed.

Lemma field_loop_ok pp L : item_ok pp L ->
  forall n acc s, ln s <= L -> ln s + 1 <= n -> okDx 0 (field_loop pp n acc s) (ln s).
Proof.
  intro Hp. induction n as [|n IH]; intros acc s HL Hn; [lia|]. cbn [field_loop]. okd.
  call (pattern_field_ok pp L Hp). by_call IH.
Qed.

Lemma pattern_fields_ok pp L : item_ok pp L ->
  forall n s, ln s < L -> ln s + 1 <= n -> okDx 1 (pattern_fields pp n s) (ln s).
Proof.
  intros Hp n s HL Hn. unfold pattern_fields. okd. call Hp. by_call (sep_loop_ok pp TRightParen L Hp).
Qed.

Lemma parse_pattern_ok : forall n s, ln s + 1 <= n -> okDx 1 (parse_pattern n s) (ln s).
Proof.
  induction n as [|n IH]; intros s Hn; [lia|]. cbn [parse_pattern].
  assert (Hit : item_ok (parse_pattern n) (ln s)) by (intros s' Hs'; apply IH; lia). okd.
  - call (pattern_fields_ok _ _ Hit).
  - call (pattern_field_ok _ _ Hit). by_call (field_loop_ok _ _ Hit).
  - call (pattern_fields_ok _ _ Hit).
Qed.

(* ------------------------------------------------------------------ literals *)

Lemma struct_field_ok olc pe L : item_ok pe L -> forall s, ln s <= L -> okDx 1 (struct_field olc pe s) (ln s).
Proof. intros Hp s HL. unfold struct_field. okd. call Hp. Qed.

Lemma parse_literal_gen_ok olc pe L : item_ok pe L -> forall n t s, ln s < L -> ln s + 1 <= n ->
  okDx 0 (parse_literal_gen olc pe n t s) (ln s).
Proof.
  intros Hp n t s HL Hn. unfold parse_literal_gen.
  assert (Hsf : item_ok (struct_field olc pe) L) by (intros s' Hs'; apply (struct_field_ok olc pe L Hp); lia). okd.
  - call Hp. by_call (sep_loop_ok pe TRightParen L Hp).
  - call (struct_field_ok olc pe L Hp). by_call (sep_loop_ok _ TRightBrace L Hsf).
  - call Hp. call (sep_loop_ok pe TRightParen L Hp).
  - call Hp. call (sep_loop_ok pe TRightBracket L Hp).
Qed.

(* ------------------------------------------------------------------ one nesting level of parse_expr *)

Section Level.
  Variable pe : pstate -> pres uexpr.
  Variable L : nat.
  Hypothesis Hpe : item_ok pe L.

  Lemma postfix_loop_ok : forall n x s, ln s <= L -> ln s + 1 <= n -> okDx 0 (postfix_loop pe n x s) (ln s).
  Proof.
    induction n as [|n IH]; intros x s HL Hn; [lia|]. cbn [postfix_loop]. okd.
    - call Hpe. by_call IH.
    - by_call IH.
    - by_call IH.
  Qed.

  Lemma parse_primary_base_ok n s : ln s <= L -> ln s + 1 <= n -> okDx 1 (parse_primary_base pe n s) (ln s).
  Proof.
    intros HL Hn. unfold parse_primary_base. destruct (advance s) as [[t s1]|] eqn:E; [|exact I].
    apply advance_len in E.
    assert (Hlit : okDx 1 (parse_literal pe n t s1) (ln s)) by (by_call (parse_literal_gen_ok false pe L Hpe)).
    destruct t; try exact Hlit. okd; try exact Hlit.
    call Hpe. by_call (sep_loop_ok pe TRightParen L Hpe).
  Qed.

  Lemma parse_primary_ok n s : ln s <= L -> ln s + 1 <= n -> okDx 1 (parse_primary pe n s) (ln s).
  Proof. intros HL Hn. unfold parse_primary. call parse_primary_base_ok. by_call postfix_loop_ok. Qed.

  Lemma parse_unary_ok : forall n s, ln s <= L -> ln s + 2 <= n -> okDx 1 (parse_unary pe n s) (ln s).
  Proof.
    induction n as [|n IH]; intros s HL Hn; [lia|]. cbn [parse_unary]. okd.
    - call IH.
    - call IH.
    - by_call parse_primary_ok.
  Qed.

  (* a statement consumes at least one token *)
  Lemma parse_stmt_ok n s : ln s < L -> ln s + 1 <= n -> okDx 1 (parse_stmt pe n s) (ln s).
  Proof.
    intros HL Hn. unfold parse_stmt, opt_type. okd.
    - call (parse_type_ok pe L Hpe). call Hpe.
    - call Hpe.
    - call parse_pattern_ok; [call (parse_type_ok pe L Hpe)|]; call Hpe.
    - call parse_pattern_ok. call Hpe. call Hpe.
    - call Hpe; call Hpe.
  Qed.

  Lemma stmts_loop_ok : forall n acc s, ln s < L -> ln s + 2 <= n -> okDx 0 (stmts_loop pe n acc s) (ln s).
  Proof.
    induction n as [|n IH]; intros acc s HL Hn; [lia|]. cbn [stmts_loop]. okd. call parse_stmt_ok. by_call IH.
  Qed.

  Lemma parse_stmts_ok n s : ln s < L -> ln s + 2 <= n -> okDx 0 (parse_stmts pe n s) (ln s).
  Proof. intros HL Hn. unfold parse_stmts, parse_stmts_of_block. okd. call stmts_loop_ok. Qed.

  Lemma parse_block_as_expr_ok n s : ln s < L -> ln s + 2 <= n -> okDx 0 (parse_block_as_expr pe n s) (ln s).
  Proof. intros HL Hn. unfold parse_block_as_expr. call parse_stmts_ok. Qed.

  Lemma parse_match_clause_ok n s : ln s < L -> ln s + 1 <= n -> okDx 1 (parse_match_clause pe n s) (ln s).
  Proof. intros HL Hn. unfold parse_match_clause. call parse_pattern_ok. call parse_stmt_ok. Qed.

  Lemma match_loop_ok : forall n ewb acc s, ln s < L -> ln s + 2 <= n -> okDx 0 (match_loop pe n ewb acc s) (ln s).
  Proof.
    induction n as [|n IH]; intros ewb acc s HL Hn; [lia|]. cbn [match_loop]. okd.
    all: call parse_match_clause_ok; by_call IH.
  Qed.

  Lemma parse_if_or_match_ok : forall n s, ln s <= L -> ln s + 3 <= n -> okDx 1 (parse_if_or_match pe n s) (ln s).
  Proof.
    induction n as [|n IH]; intros s HL Hn; [lia|]. cbn [parse_if_or_match]. okd.
    - call Hpe. call parse_block_as_expr_ok; [call IH|call parse_block_as_expr_ok].
    - call Hpe. call parse_match_clause_ok. call match_loop_ok.
    - by_call parse_unary_ok.
  Qed.

  Lemma cast_loop_ok : forall n x s, ln s <= L -> ln s + 1 <= n -> okDx 0 (cast_loop pe n x s) (ln s).
  Proof.
    induction n as [|n IH]; intros x s HL Hn; [lia|]. cbn [cast_loop]. okd.
    call (parse_type_ok pe L Hpe). by_call IH.
  Qed.

  (* the levels of the precedence chain: with fuel >= tokens + 3 *)
  Definition level_ok (f : nat -> pstate -> pres uexpr) : Prop :=
    forall n s, ln s <= L -> ln s + 3 <= n -> okDx 1 (f n s) (ln s).

  Lemma parse_cast_ok : level_ok (parse_cast pe).
  Proof. intros n s HL Hn. unfold parse_cast. call parse_if_or_match_ok. by_call cast_loop_ok. Qed.

  Lemma binloop_ok ops sub : level_ok sub ->
    forall n x s, ln s <= L -> ln s + 3 <= n -> okDx 0 (binloop ops sub n x s) (ln s).
  Proof.
    intro Hsub. induction n as [|n IH]; intros x s HL Hn; [lia|]. cbn [binloop]. okd. call Hsub. by_call IH.
  Qed.

  Lemma binlevel_ok ops sub : level_ok sub -> level_ok (binlevel ops sub).
  Proof. intros Hsub n s HL Hn. unfold binlevel. call Hsub. by_call (binloop_ok ops sub Hsub). Qed.

  Lemma parse_short_circuiting_or_ok : level_ok (parse_short_circuiting_or pe).
  Proof.
    unfold parse_short_circuiting_or, parse_short_circuiting_and, parse_equality, parse_comparison, parse_or,
      parse_xor, parse_and, parse_shift, parse_term, parse_factor.
    repeat apply binlevel_ok. apply parse_cast_ok.
  Qed.

  Lemma parse_expr_body_ok n s : ln s <= L -> ln s + 3 <= n -> okDx 1 (parse_expr_body pe n s) (ln s).
  Proof.
    intros HL Hn. unfold parse_expr_body. okd; [call parse_stmts_ok|by_call parse_short_circuiting_or_ok].
  Qed.
End Level.

(* ------------------------------------------------------------------ parse_expr *)

Theorem parse_expr_st_ok : forall g s, ln s + 4 <= g -> okDx 1 (parse_expr_st g s) (ln s).
Proof.
  induction g as [|g IH]; intros s H; [lia|]. cbn [parse_expr_st].
  apply (parse_expr_body_ok (parse_expr_st g) (ln s)); [|lia|lia].
  intros s' Hs'. apply IH. lia.
Qed.

Lemma item_ok_fuel fuel M : M + 3 <= fuel -> item_ok (parse_expr_st fuel) M.
Proof. intros H s Hs. apply parse_expr_st_ok. lia. Qed.

Lemma okDx_not_nofuel {A} d (r : pres A) L : okDx d r L -> r <> PNoFuel.
Proof. destruct r; cbn [okDx]; intros H E; try discriminate E. exact H. Qed.

Lemma okDx_not_outside {A} d (r : pres A) L : okDx d r L -> forall o, r <> POutside o.
Proof. destruct r; cbn [okDx]; intros H o' E; try discriminate E. exact H. Qed.

(* ------------------------------------------------------------------ enough fuel *)

Theorem parse_expr_st_total fuel ts b : length ts + 4 <= fuel -> parse_expr_st fuel (PState ts b) <> PNoFuel.
Proof. intro H. eapply okDx_not_nofuel. apply (parse_expr_st_ok fuel (PState ts b)). exact H. Qed.

Lemma parse_block_text_ok fuel ts : length ts + 5 <= fuel -> okDx 0 (parse_block_text fuel ts) (S (length ts)).
Proof.
  intro H. unfold parse_block_text. cbv zeta. eapply okDx_bind.
  - apply (parse_stmts_ok (parse_expr_st fuel) (length ts + 2)); [apply item_ok_fuel; lia| |];
      cbn [toks]; rewrite app_length; cbn [length]; lia.
  - intros stmts s Hs. cbn [toks] in Hs. rewrite app_length in Hs. cbn [length] in Hs.
    apply okDx_expect. intros s1 H1. destruct (toks s1) eqn:E; [|exact I]. cbn [okDx]. rewrite E. cbn [length]. lia.
Qed.

Theorem parse_block_text_total fuel ts : length ts + 5 <= fuel -> parse_block_text fuel ts <> PNoFuel.
Proof. intro H. exact (okDx_not_nofuel _ _ _ (parse_block_text_ok fuel ts H)). Qed.

Lemma parse_literal_recursively_ok : forall n s, ln s + 1 <= n -> okDx 1 (parse_literal_recursively n s) (ln s).
Proof.
  induction n as [|n IH]; intros s Hn; [lia|]. cbn [parse_literal_recursively].
  assert (Hit : item_ok (parse_literal_recursively n) (ln s)) by (intros s' Hs'; apply IH; lia). okd.
  by_call (parse_literal_gen_ok true _ _ Hit).
Qed.

Lemma parse_literal_text_ok fuel ts : length ts + 1 <= fuel -> okDx 0 (parse_literal_text fuel ts) (length ts).
Proof.
  intro H. unfold parse_literal_text.
  assert (Hit : item_ok (parse_literal_recursively fuel) (length ts))
    by (intros s' Hs'; apply parse_literal_recursively_ok; lia). okd.
  call (parse_literal_gen_ok true _ _ Hit).
Qed.

Theorem parse_literal_text_total fuel ts : length ts + 1 <= fuel -> parse_literal_text fuel ts <> PNoFuel.
Proof. intro H. exact (okDx_not_nofuel _ _ _ (parse_literal_text_ok fuel ts H)). Qed.

(* ------------------------------------------------------------------ whole programs *)

Section Items.
  Variables fuel N : nat.
  Hypothesis Hf : N + 4 <= fuel.

  Let Hpe : item_ok (parse_expr_st fuel) (S N).
  Proof. apply item_ok_fuel. lia. Qed.

  Lemma ty_ok : item_ok (parse_type (parse_expr_st fuel) fuel) (S N).
  Proof. intros s H. apply (parse_type_ok _ (S N) Hpe); lia. Qed.

  Lemma parse_const_def_ok : item_ok (parse_const_def fuel) (S N).
  Proof. intros s HL. unfold parse_const_def. okd. call ty_ok. call Hpe. Qed.

  Lemma parse_field_def_ok : item_ok (parse_field_def fuel) (S N).
  Proof. intros s HL. unfold parse_field_def. okd. call ty_ok. Qed.

  Lemma parse_struct_def_ok : item_ok (parse_struct_def fuel) (S N).
  Proof.
    intros s HL. unfold parse_struct_def. okd.
    call parse_field_def_ok. by_call (sep_loop_ok _ TRightBrace _ parse_field_def_ok).
  Qed.

  Lemma parse_variant_ok : item_ok (parse_variant fuel) (S N).
  Proof.
    intros s HL. unfold parse_variant. apply okDx_expect_id. intros name s1 H1.
    destruct (next_matches TLeftParen s1) as [s2|] eqn:E; [apply next_matches_len in E|fin].
    eapply (okDx_bind 0 _ _ _ (ln s2)); [okd; call ty_ok|intros first s3 H3].
    call (sep_loop_ok _ TRightParen _ ty_ok).
  Qed.

  Lemma parse_enum_def_ok : item_ok (parse_enum_def fuel) (S N).
  Proof.
    intros s HL. unfold parse_enum_def. okd.
    call parse_variant_ok. call (sep_loop_ok _ TRightBrace _ parse_variant_ok).
  Qed.

  Lemma parse_param_ok : item_ok (parse_param fuel) (S N).
  Proof. intros s HL. unfold parse_param. destruct (next_matches TKeywordMut s) as [s1|] eqn:E; [apply next_matches_len in E|]; okd; call ty_ok.
  Qed.

  Lemma parse_fn_def_ok is_pub : item_ok (parse_fn_def fuel is_pub) (S N).
  Proof.
    intros s HL. unfold parse_fn_def, parse_params. okd.
    - call parse_param_ok. by_call (sep_loop_ok _ TRightParen _ parse_param_ok).
    - call ty_ok. call (parse_stmts_ok _ (S N) Hpe).
  Qed.

  Lemma items_loop_ok : forall n is_pub prog s, ln s <= N -> ln s + 1 <= n ->
    okDx 0 (items_loop fuel n is_pub prog s) (ln s).
  Proof.
    induction n as [|n IH]; intros is_pub prog s HL Hn; [lia|]. cbn [items_loop]. okd.
    - call parse_const_def_ok. by_call IH.
    - call parse_struct_def_ok. by_call IH.
    - call parse_enum_def_ok. by_call IH.
    - call parse_fn_def_ok. by_call IH.
    - by_call IH.
  Qed.
End Items.

Lemma parse_program_text_ok fuel ts : length ts + 4 <= fuel -> okDx 0 (parse_program_text fuel ts) (length ts).
Proof. intro H. apply (items_loop_ok fuel (length ts) H fuel false _ (PState ts true)); cbn [toks]; lia. Qed.

Theorem parse_program_text_total fuel ts : length ts + 4 <= fuel -> parse_program_text fuel ts <> PNoFuel.
Proof. intro H. exact (okDx_not_nofuel _ _ _ (parse_program_text_ok fuel ts H)). Qed.

(* the bound of the OCaml driver *)
Corollary parse_program_text_driver ts : parse_program_text (80 + 40 * length ts) ts <> PNoFuel.
Proof. apply parse_program_text_total. lia. Qed.
Corollary parse_block_text_driver ts : parse_block_text (80 + 40 * length ts) ts <> PNoFuel.
Proof. apply parse_block_text_total. lia. Qed.
Corollary parse_literal_text_driver ts : parse_literal_text (80 + 40 * length ts) ts <> PNoFuel.
Proof. apply parse_literal_text_total. lia. Qed.
Corollary parse_expr_st_default ts b : parse_expr_st (fuel_for_tokens ts + 2) (PState ts b) <> PNoFuel.
Proof. apply parse_expr_st_total. unfold fuel_for_tokens. lia. Qed.

Print Assumptions parse_program_text_total.
Print Assumptions parse_block_text_total.
Print Assumptions parse_literal_text_total.
Print Assumptions parse_expr_st_total.

(* ------------------------------------------------------------------ a result that is not
   [PNoFuel] does not depend on the fuel *)

Definition le_r {A} (r r' : pres A) : Prop := r <> PNoFuel -> r' = r.
Definition le_f {A} (f f' : pstate -> pres A) : Prop := forall s, le_r (f s) (f' s).

(* These are the statements of ParseRel.v for the identity relabelling and growing fuel. *)
Lemma le_of_rl {A} (f f' : pstate -> pres A) :
  (forall s, RL (fun m => m) true (f s) (f' (mp (fun m => m) s))) -> le_f f f'.
Proof. intros H s Hr. specialize (H s). rewrite mp_id in H. rewrite (H (fun _ => Hr)). apply rmapg_id. Qed.

Lemma rl_of_le {A} (f f' : pstate -> pres A) : le_f f f' -> RLf (fun m => m) true f f'.
Proof. intros H s Hr. rewrite mp_id, rmapg_id. apply H. now apply Hr. Qed.

Lemma strict_comma_loop_mono {A} (item item' : pstate -> pres A) : le_f item item' ->
  forall n n' acc s, n <= n' -> le_r (strict_comma_loop item n acc s) (strict_comma_loop item' n' acc s).
Proof. intros Hi n n' acc s Hle. revert s. apply le_of_rl. now apply strict_comma_loop_rl; [apply rl_of_le|]. Qed.

Lemma sep_loop_mono {A} (item item' : pstate -> pres A) close : le_f item item' ->
  forall n n' acc s, n <= n' -> le_r (sep_loop item close n acc s) (sep_loop item' close n' acc s).
Proof. intros Hi n n' acc s Hle. revert s. apply le_of_rl. now apply sep_loop_rl; [apply rl_of_le|]. Qed.

Lemma comma_loop_mono pe pe' close : le_f pe pe' ->
  forall n n' acc s, n <= n' -> le_r (comma_loop pe close n acc s) (comma_loop pe' close n' acc s).
Proof. intros Hi n n' acc s Hle. rewrite !comma_loop_sep. now apply sep_loop_mono. Qed.

Lemma pattern_field_mono pp pp' : le_f pp pp' -> forall s, le_r (pattern_field pp s) (pattern_field pp' s).
Proof. intro Hp. apply le_of_rl. now apply pattern_field_rl, rl_of_le. Qed.

Lemma field_loop_mono pp pp' : le_f pp pp' ->
  forall n n' acc s, n <= n' -> le_r (field_loop pp n acc s) (field_loop pp' n' acc s).
Proof. intros Hp n n' acc s Hle. revert s. apply le_of_rl. now apply field_loop_rl; [apply rl_of_le|]. Qed.

Lemma pattern_fields_mono pp pp' : le_f pp pp' ->
  forall n n' s, n <= n' -> le_r (pattern_fields pp n s) (pattern_fields pp' n' s).
Proof. intros Hp n n' s Hle. revert s. apply le_of_rl. now apply pattern_fields_rl; [apply rl_of_le|]. Qed.

Lemma parse_pattern_mono : forall n n' s, n <= n' -> le_r (parse_pattern n s) (parse_pattern n' s).
Proof. intros n n' s Hle. revert s. apply le_of_rl. now apply parse_pattern_rl. Qed.

Section LevelMono.
  Variables pe pe' : pstate -> pres uexpr.
  Hypothesis Hp : le_f pe pe'.

  Lemma postfix_loop_mono : forall n n' x s, n <= n' -> le_r (postfix_loop pe n x s) (postfix_loop pe' n' x s).
  Proof. intros n n' x s Hle. revert s. apply le_of_rl. now apply postfix_loop_rl; [apply rl_of_le|]. Qed.

  Lemma parse_primary_base_mono n n' s : n <= n' -> le_r (parse_primary_base pe n s) (parse_primary_base pe' n' s).
  Proof. intro Hle. revert s. apply le_of_rl. now apply parse_primary_base_rl; [apply rl_of_le|]. Qed.

  Lemma parse_primary_mono n n' s : n <= n' -> le_r (parse_primary pe n s) (parse_primary pe' n' s).
  Proof. intro Hle. revert s. apply le_of_rl. now apply parse_primary_rl; [apply rl_of_le|]. Qed.

  Lemma parse_unary_mono : forall n n' s, n <= n' -> le_r (parse_unary pe n s) (parse_unary pe' n' s).
  Proof. intros n n' s Hle. revert s. apply le_of_rl. now apply parse_unary_rl; [apply rl_of_le|]. Qed.

  Lemma parse_stmt_mono n n' s : n <= n' -> le_r (parse_stmt pe n s) (parse_stmt pe' n' s).
  Proof. intro Hle. revert s. apply le_of_rl. now apply parse_stmt_rl; [apply rl_of_le|]. Qed.

  Lemma stmts_loop_mono : forall n n' acc s, n <= n' -> le_r (stmts_loop pe n acc s) (stmts_loop pe' n' acc s).
  Proof. intros n n' acc s Hle. revert s. apply le_of_rl. now apply stmts_loop_rl; [apply rl_of_le|]. Qed.

  Lemma parse_block_as_expr_mono n n' s : n <= n' -> le_r (parse_block_as_expr pe n s) (parse_block_as_expr pe' n' s).
  Proof. intro Hle. revert s. apply le_of_rl. now apply parse_block_as_expr_rl; [apply rl_of_le|]. Qed.

  Lemma parse_match_clause_mono n n' s : n <= n' -> le_r (parse_match_clause pe n s) (parse_match_clause pe' n' s).
  Proof. intro Hle. revert s. apply le_of_rl. now apply parse_match_clause_rl; [apply rl_of_le|]. Qed.

  Lemma match_loop_mono : forall n n' ewb acc s, n <= n' -> le_r (match_loop pe n ewb acc s) (match_loop pe' n' ewb acc s).
  Proof. intros n n' ewb acc s Hle. revert s. apply le_of_rl. now apply match_loop_rl; [apply rl_of_le|]. Qed.

  Lemma parse_if_or_match_mono : forall n n' s, n <= n' -> le_r (parse_if_or_match pe n s) (parse_if_or_match pe' n' s).
  Proof. intros n n' s Hle. revert s. apply le_of_rl. now apply parse_if_or_match_rl; [apply rl_of_le|]. Qed.

  Lemma cast_loop_mono : forall n n' x s, n <= n' -> le_r (cast_loop pe n x s) (cast_loop pe' n' x s).
  Proof. intros n n' x s Hle. revert s. apply le_of_rl. now apply cast_loop_rl; [apply rl_of_le|]. Qed.
End LevelMono.

Theorem parse_expr_st_mono : forall f f', f <= f' -> le_f (parse_expr_st f) (parse_expr_st f').
Proof. intros f f' Hle. apply le_of_rl. now apply parse_expr_st_rl. Qed.

(* for the five entry points *)
Theorem parse_expr_st_fuel_independent f f' s r :
  parse_expr_st f s = r -> r <> PNoFuel -> f <= f' -> parse_expr_st f' s = r.
Proof. intros <- Hr Hle. now apply (parse_expr_st_mono f f' Hle s). Qed.

Theorem parse_expr_fuel_independent f f' ts r : parse_expr f ts = Some r -> f <= f' -> parse_expr f' ts = Some r.
Proof.
  unfold parse_expr. intros H Hle. destruct (parse_expr_st f (PState ts true)) as [e s| | |] eqn:E; try discriminate H.
  rewrite (parse_expr_st_fuel_independent f f' _ _ E ltac:(discriminate) Hle). exact H.
Qed.

Lemma fuel_independent {A} (F : nat -> list token -> pres A) :
  (forall f f' ts, f <= f' -> RE true (F f ts) (F f' (map (relabel (fun m => m)) ts))) ->
  forall f f' ts r, F f ts = r -> r <> PNoFuel -> f <= f' -> F f' ts = r.
Proof. intros H f f' ts r <- Hr Hle. specialize (H f f' ts Hle). rewrite relabel_id in H. now apply H. Qed.

Theorem parse_block_text_fuel_independent f f' ts r :
  parse_block_text f ts = r -> r <> PNoFuel -> f <= f' -> parse_block_text f' ts = r.
Proof. apply (fuel_independent parse_block_text). intros. now apply parse_block_text_rl. Qed.

Theorem parse_literal_text_fuel_independent f f' ts r :
  parse_literal_text f ts = r -> r <> PNoFuel -> f <= f' -> parse_literal_text f' ts = r.
Proof. apply (fuel_independent parse_literal_text). intros. now apply parse_literal_text_rl. Qed.

Theorem parse_program_text_fuel_independent f f' ts r :
  parse_program_text f ts = r -> r <> PNoFuel -> f <= f' -> parse_program_text f' ts = r.
Proof. apply (fuel_independent parse_program_text). intros. now apply parse_program_text_rl. Qed.

(* hence: the result with ANY sufficient fuel is the result with the linear bound *)
Corollary parse_program_text_canonical fuel ts : length ts + 4 <= fuel ->
  parse_program_text fuel ts = parse_program_text (length ts + 4) ts.
Proof.
  intro H. eapply parse_program_text_fuel_independent; [reflexivity| |exact H].
  apply parse_program_text_total. lia.
Qed.

Print Assumptions parse_expr_st_fuel_independent.
Print Assumptions parse_block_text_fuel_independent.
Print Assumptions parse_literal_text_fuel_independent.
Print Assumptions parse_program_text_fuel_independent.
