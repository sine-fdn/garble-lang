(* The parser model of Front/ParseExpr.v does not look at the locations of the tokens: on the
   tokens with their locations forgotten ([unloc]) every parser function gives the same tree and
   the same remaining tokens with their locations forgotten.  Consequently the functions that
   return no tokens ([parse_block_text], [parse_program_text], [parse_literal_text]) give EQUAL
   results, and the text-level round trip of ScanPrint.v holds for the scanned tokens themselves.

   PART 2 (below): a printer for statements, function bodies, function definitions and programs
   made of function definitions ([show_stmt], [show_stmts], [show_fn], [show_program]); the parser
   is a left inverse of it on the well-formed trees ([parse_show_block], [parse_show_program]),
   also from the printed TEXT through the scanner ([scan_parse_show_program]). *)
From Coq Require Import Lia ZArith String List.
From GV Require Import Base.Util Front.Scan Front.ParseExpr Front.ParseRel Front.ParseExprProofs Front.ScanPrint.
Local Open Scope N_scope.

Definition ul (s : pstate) : pstate := PState (unloc (toks s)) (sla s).

Definition rmap {A} (r : pres A) : pres A :=
  match r with
  | POk a s => POk a (ul s)
  | PErr => PErr
  | PNoFuel => PNoFuel
  | POutside o => POutside o
  end.

(* r' is r with the locations of the remaining tokens forgotten *)
Definition R {A} (r r' : pres A) : Prop := r' = rmap r.

Lemma R_refl_ok {A} (a : A) s : R (POk a s) (POk a (ul s)). Proof. reflexivity. Qed.

(* [ul] is the relabelling of ParseRel.v that puts [m0] everywhere; the fuel stays the same *)
Notation g0 := (fun _ : meta => m0).

Lemma unloc_relabel ts : unloc ts = map (relabel g0) ts.
Proof. apply map_ext. now intros [t m]. Qed.

Lemma ul_mp s : ul s = mp g0 s.
Proof. unfold ul, mp. now rewrite unloc_relabel. Qed.

Lemma R_of_rl {A} (r : pres A) (f : pstate -> pres A) s : RL g0 false r (f (mp g0 s)) -> R r (f (ul s)).
Proof.
  intro H. unfold R. rewrite ul_mp, H by discriminate. destruct r; cbn [rmap rmapg]; now rewrite ?ul_mp.
Qed.

Theorem parse_expr_st_ul f s : R (parse_expr_st f s) (parse_expr_st f (ul s)).
Proof. apply R_of_rl. now apply parse_expr_st_rl. Qed.

Corollary parse_expr_st_unloc f ts b :
  parse_expr_st f (PState (unloc ts) b) =
  match parse_expr_st f (PState ts b) with
  | POk e s => POk e (PState (unloc (toks s)) (sla s))
  | r => r
  end.
Proof.
  change (PState (unloc ts) b) with (ul (PState ts b)). rewrite (parse_expr_st_ul f (PState ts b)).
  destruct (parse_expr_st f (PState ts b)); reflexivity.
Qed.

Theorem parse_expr_unloc fuel ts :
  parse_expr fuel (unloc ts) = option_map (fun p => (fst p, unloc (snd p))) (parse_expr fuel ts).
Proof.
  unfold parse_expr. rewrite parse_expr_st_unloc. destruct (parse_expr_st fuel (PState ts true)); reflexivity.
Qed.

Corollary parse_expr_unloc_all fuel ts e :
  parse_expr fuel (unloc ts) = Some (e, []) <-> parse_expr fuel ts = Some (e, []).
Proof.
  rewrite parse_expr_unloc. destruct (parse_expr fuel ts) as [[e' [|t r]]|]; cbn [option_map fst snd unloc map];
    split; intro H; try discriminate; assumption.
Qed.

(* results that carry no tokens are EQUAL *)
Lemma unloc_eq {A} (F : list token -> pres A) ts : RE false (F ts) (F (map (relabel g0) ts)) -> F (unloc ts) = F ts.
Proof. intro H. rewrite unloc_relabel. apply H. discriminate. Qed.

Theorem parse_literal_text_unloc fuel ts : parse_literal_text fuel (unloc ts) = parse_literal_text fuel ts.
Proof. apply (unloc_eq (parse_literal_text fuel)). now apply parse_literal_text_rl. Qed.

Theorem parse_block_text_unloc fuel ts : parse_block_text fuel (unloc ts) = parse_block_text fuel ts.
Proof. apply (unloc_eq (parse_block_text fuel)). now apply parse_block_text_rl. Qed.

Theorem parse_program_text_unloc fuel ts : parse_program_text fuel (unloc ts) = parse_program_text fuel ts.
Proof. apply (unloc_eq (parse_program_text fuel)). now apply parse_program_text_rl. Qed.

(* ------------------------------------------------------------------ the text-level round trip,
   for the scanned tokens themselves (locations and all) *)

Theorem scan_parse_show_min_loc e : wf_expr e -> Forall tok_printable (map kind (show_min e)) ->
  exists ts' fuel, scan_text (show_text e) = Ok (STokens ts') /\
                   map kind ts' = map kind (show_min e) /\
                   parse_expr fuel ts' = Some (e, []).
Proof.
  intros Hwf Hp. destruct (scan_parse_show_min e Hwf Hp) as (ts' & fuel & Hs & Hk & Hf).
  exists ts', fuel. split; [exact Hs|]. split; [exact Hk|]. now apply parse_expr_unloc_all.
Qed.

Print Assumptions parse_expr_st_ul.
Print Assumptions parse_expr_unloc.
Print Assumptions parse_literal_text_unloc.
Print Assumptions parse_block_text_unloc.
Print Assumptions parse_program_text_unloc.
Print Assumptions scan_parse_show_min_loc.

(* ================================================================== PART 2: a printer for
   statements, blocks, function definitions and programs; the parser is a left inverse *)

(* ------------------------------------------------------------------ printing *)

(* the patterns printed here: one token *)
Definition pat_tok (p : upattern) : token_enum :=
  match p with
  | PIdentifier s => TIdentifier s
  | PTrue => TIdentifier s_true
  | PFalse => TIdentifier s_false
  | PNumUnsigned n t => TUnsignedNum n t
  | PNumSigned z t => TSignedNum z t
  | _ => TComma      (* not printed: outside [wf_pat] *)
  end.

Definition wf_pat (p : upattern) : Prop :=
  match p with
  | PIdentifier s => ident_ok s
  | PTrue | PFalse | PNumUnsigned _ _ | PNumSigned _ _ => True
  | _ => False
  end.

Definition show_ty (ty : utype) : list token := [tk (TIdentifier (type_name ty))].

Definition show_ty_ann (ty : option utype) : list token :=
  match ty with Some t => tk TColon :: show_ty t | None => [] end.

Definition wf_oty (ty : option utype) : Prop := match ty with Some t => wf_type t | None => True end.

Fixpoint show_stmt (st : ustmt) : list token :=
  match st with
  | SLet p ty e =>
      tk TKeywordLet :: tk (pat_tok p) :: show_ty_ann ty ++ tk TEq :: show_raw e ++ [tk TSemicolon]
  | SLetMut x ty e =>
      tk TKeywordLet :: tk TKeywordMut :: tk (TIdentifier x) :: show_ty_ann ty ++ tk TEq :: show_raw e ++ [tk TSemicolon]
  | SVarAssign x accs e => show_raw (target_expr x accs) ++ tk TEq :: show_raw e ++ [tk TSemicolon]
  | SForEach p e body =>
      tk TKeywordFor :: tk (pat_tok p) :: tk TKeywordIn :: show_raw e ++ tk TLeftBrace ::
        (fix go (l : list ustmt) : list token := match l with [] => [] | s :: r => show_stmt s ++ go r end) body
        ++ [tk TRightBrace]
  | SExpr e => parens (show_raw e) ++ [tk TSemicolon]
  end.

Fixpoint show_stmts (l : list ustmt) : list token :=
  match l with [] => [] | s :: r => show_stmt s ++ show_stmts r end.

Lemma go_stmts l :
  (fix go (l : list ustmt) : list token := match l with [] => [] | s :: r => show_stmt s ++ go r end) l = show_stmts l.
Proof. induction l as [|s r IH]; [reflexivity|]. cbn [show_stmts]. now rewrite <- IH. Qed.

Lemma show_for p e body : show_stmt (SForEach p e body) =
  tk TKeywordFor :: tk (pat_tok p) :: tk TKeywordIn :: show_raw e ++ tk TLeftBrace :: show_stmts body ++ [tk TRightBrace].
Proof.
  cbn [show_stmt]. now rewrite go_stmts.
Qed.

(* the statements the printer covers: expressions inside [wf_expr] (no blocks, match, array /
   struct / enum literals, ranges INSIDE expressions), one-token patterns, types that are named
   by an identifier; the bodies of `for` loops are statements of the same kind, nested at will *)
Fixpoint wf_stmt (st : ustmt) : Prop :=
  match st with
  | SLet p ty e => wf_pat p /\ wf_oty ty /\ wf_expr e
  | SLetMut x ty e => wf_oty ty /\ wf_expr e
  | SVarAssign x accs e => wf_expr (target_expr x accs) /\ wf_expr e
  | SForEach p e body =>
      wf_pat p /\ wf_expr e /\
      (fix all (l : list ustmt) : Prop := match l with [] => True | s :: r => wf_stmt s /\ all r end) body
  | SExpr e => wf_expr e
  end.

Fixpoint wf_stmts (l : list ustmt) : Prop :=
  match l with [] => True | s :: r => wf_stmt s /\ wf_stmts r end.

Lemma all_stmts l :
  (fix all (l : list ustmt) : Prop := match l with [] => True | s :: r => wf_stmt s /\ all r end) l = wf_stmts l.
Proof. induction l as [|s r IH]; [reflexivity|]. cbn [wf_stmts]. now rewrite <- IH. Qed.

Lemma wf_for p e body : wf_stmt (SForEach p e body) = (wf_pat p /\ wf_expr e /\ wf_stmts body).
Proof.
  cbn [wf_stmt]. now rewrite all_stmts.
Qed.

Section StmtInd.
  Variable P : ustmt -> Prop.
  Hypothesis Hlet : forall p ty e, P (SLet p ty e).
  Hypothesis Hmut : forall x ty e, P (SLetMut x ty e).
  Hypothesis Hasg : forall x accs e, P (SVarAssign x accs e).
  Hypothesis Hfor : forall p e body, Forall P body -> P (SForEach p e body).
  Hypothesis Hexp : forall e, P (SExpr e).
  Fixpoint stmt_ind_for (st : ustmt) : P st :=
    match st with
    | SLet p ty e => Hlet p ty e
    | SLetMut x ty e => Hmut x ty e
    | SVarAssign x accs e => Hasg x accs e
    | SForEach p e body =>
        Hfor p e body ((fix go (l : list ustmt) : Forall P l :=
                         match l with [] => Forall_nil P | s :: r => Forall_cons s (stmt_ind_for s) (go r) end) body)
    | SExpr e => Hexp e
    end.
End StmtInd.

Ltac tq := repeat first [rewrite teqb_refl
                        | match goal with |- context [teqb ?a ?b] => rewrite (teqb_neq a b) by discriminate end].
Ltac nrm := repeat (progress (rewrite <- ?app_assoc; cbn [app])).
Ltac hd := repeat (rewrite ?nm_hd, ?peek_hd, <- ?app_assoc; tq; unfold set_sla; cbn [negb andb orb app bindp toks sla]).

Lemma nf_tok b t r : hard_tok b t = false -> tok_level t = None -> nofollow 1 b (tk t :: r).
Proof. intros H1 H2. apply nofollow_tok; [exact H1|]. intros l H. congruence. Qed.

Lemma expr_ok e : wf_expr e -> forall b rest, nofollow 1 b rest ->
  EvE (PState (show_raw e ++ rest) b) e (PState rest b).
Proof. intros Hw. destruct (all_of_cp e (cp_all e Hw)) as (_ & HT & _). exact HT. Qed.

Lemma paren_ok e : wf_expr e -> forall b rest, nofollow 1 b rest ->
  EvE (PState (parens (show_raw e) ++ rest) b) e (PState rest b).
Proof.
  intros Hw b rest Hnf. destruct (all_of_cp e (cp_all e Hw)) as (_ & _ & HP & _).
  apply eve_of_ev1; [reflexivity|].
  apply (HP 1%nat b rest e (PState rest b)); [lia|apply (nofollow_mono 1); [lia|exact Hnf]|].
  apply (evl_exit 1 0); [lia|exact Hnf].
Qed.

Definition pat_follow (rest : list token) : Prop :=
  match rest with
  | Token t _ :: _ =>
      match t with TDoubleColon | TLeftBrace | TDoubleDot | TDoubleDotEquals => False | _ => True end
  | [] => True
  end.

Lemma pat_ok p : wf_pat p -> forall n rest b, pat_follow rest ->
  parse_pattern (S n) (PState (tk (pat_tok p) :: rest) b) = POk p (PState rest b).
Proof.
  intros Hp n rest b Hf. destruct p; try contradiction; cbn [parse_pattern pat_tok toks sla].
  - destruct Hp as [H1 H2]. rewrite H1, H2.
    destruct rest as [|[t m] r]; [reflexivity|]. rewrite !nm_hd.
    destruct t; try contradiction; reflexivity.
  - reflexivity.
  - reflexivity.
  - destruct rest as [|[t' m] r]; [reflexivity|]. rewrite !peek_hd. destruct t'; try contradiction; reflexivity.
  - destruct rest as [|[t' m] r]; [reflexivity|]. rewrite !peek_hd. destruct t'; try contradiction; reflexivity.
Qed.

Lemma pat_not_mut p : wf_pat p -> teqb (pat_tok p) TKeywordMut = false.
Proof. destruct p; try contradiction; reflexivity. Qed.

Lemma opt_type_ok {A} ty : wf_oty ty -> forall pe n rest b (k : option utype -> pstate -> pres A),
  opt_type pe (S n) (PState (show_ty_ann ty ++ tk TEq :: rest) b) k = k ty (PState (tk TEq :: rest) b).
Proof.
  intros H pe n rest b k. unfold opt_type. destruct ty as [t|]; cbn [show_ty_ann show_ty app].
  - rewrite nm_hd. tq. rewrite (type_tok_ok t H). reflexivity.
  - rewrite nm_hd. tq. reflexivity.
Qed.

Lemma accessors_target x accs : accessors (target_expr x accs) = Some (x, accs).
Proof.
  induction accs as [|a accs IH] using rev_ind; [reflexivity|].
  rewrite target_expr_snoc. destruct a; cbn [accessors]; rewrite IH; reflexivity.
Qed.

Lemma semi_ok {A} rest b (k : pstate -> pres A) :
  opt_semicolon (PState (tk TSemicolon :: rest) b) k = k (PState rest b).
Proof. unfold opt_semicolon, expect. hd. reflexivity. Qed.

(* the first token of a statement *)
Definition stmt_start (t : token_enum) : bool :=
  match t with
  | TKeywordLet | TKeywordFor | TIdentifier _ | TUnsignedNum _ _ | TSignedNum _ _ | TLeftParen | TBang | TMinus
  | TKeywordIf => true
  | _ => false
  end.

Lemma stmt_head st : exists t, hd_tok (show_stmt st) = Some t /\ stmt_start t = true.
Proof.
  destruct st; try (eexists; split; [reflexivity|reflexivity]).
  destruct (show_head (target_expr x accs)) as (t & Ht & _ & _ & _ & Hs).
  exists t. cbn [show_stmt]. split; [now apply hd_tok_app|]. destruct t; try discriminate; reflexivity.
Qed.

Lemma block_ends_stmt st rest b : block_ends (PState (show_stmt st ++ rest) b) = false.
Proof.
  destruct (stmt_head st) as (t & Ht & Hs). apply (hd_tok_app _ rest) in Ht. apply hd_tok_inv in Ht as (m & r & ->).
  unfold block_ends. cbn [toks]. rewrite !peek_hd. destruct t; try discriminate; reflexivity.
Qed.

(* ------------------------------------------------------------------ one statement *)

Definition EvS (st : ustmt) : Prop := forall b rest,
  ev (fun g n => parse_stmt (PE g) n (PState (show_stmt st ++ rest) b)) (POk st (PState rest b)).

Definition EvSs (l : list ustmt) : Prop := forall acc b rest,
  ev (fun g n => stmts_loop (PE g) n acc (PState (show_stmts l ++ tk TRightBrace :: rest) b))
     (POk (rev acc ++ l) (PState (tk TRightBrace :: rest) b)).

Lemma let_ok p ty e : wf_stmt (SLet p ty e) -> EvS (SLet p ty e).
Proof.
  intros (Hp & Ht & He) b rest.
  destruct (expr_ok e He b (tk TSemicolon :: rest)) as [f Hf]; [now apply nf_tok|].
  exists (S f). intros g n Hg Hn. destruct n as [|n]; [lia|].
  cbn [show_stmt]. unfold parse_stmt. nrm. rewrite nm_hd. tq.
  rewrite nm_hd, (pat_not_mut p Hp). nrm.
  rewrite (pat_ok p Hp).
  2:{ destruct ty; cbn [show_ty_ann app pat_follow]; exact I. }
  cbn [bindp]. rewrite (opt_type_ok ty Ht). unfold expect. hd.
  rewrite (Hf g g) by lia. hd. reflexivity.
Qed.

Lemma mut_ok x ty e : wf_stmt (SLetMut x ty e) -> EvS (SLetMut x ty e).
Proof.
  intros (Ht & He) b rest.
  destruct (expr_ok e He b (tk TSemicolon :: rest)) as [f Hf]; [now apply nf_tok|].
  exists (S f). intros g n Hg Hn. destruct n as [|n]; [lia|].
  cbn [show_stmt]. unfold parse_stmt. nrm. hd.
  unfold expect_identifier. cbn [toks sla]. nrm.
  rewrite (opt_type_ok ty Ht). unfold expect. hd.
  rewrite (Hf g g) by lia. hd. reflexivity.
Qed.

Lemma asg_ok x accs e : wf_stmt (SVarAssign x accs e) -> EvS (SVarAssign x accs e).
Proof.
  intros (Hx & He) b rest.
  destruct (expr_ok e He b (tk TSemicolon :: rest)) as [f Hf]; [now apply nf_tok|].
  destruct (expr_ok _ Hx b (tk TEq :: show_raw e ++ tk TSemicolon :: rest)) as [f' Hf']; [now apply nf_tok|].
  exists (S (max f f')). intros g n Hg Hn. destruct n as [|n]; [lia|].
  cbn [show_stmt]. unfold parse_stmt. nrm.
  destruct (show_head (target_expr x accs)) as (t & Ht & _ & _ & _ & Hs).
  pose proof (hd_tok_app _ (tk TEq :: show_raw e ++ tk TSemicolon :: rest) _ Ht) as Hh.
  apply hd_tok_inv in Hh as (m & r & Er). rewrite Er.
  rewrite !nm_hd. replace (teqb t TKeywordLet) with false by (destruct t; try discriminate; reflexivity).
  replace (teqb t TKeywordFor) with false by (destruct t; try discriminate; reflexivity).
  rewrite <- Er. rewrite (Hf' g g) by lia. cbn [bindp]. rewrite accessors_target. hd.
  rewrite (Hf g g) by lia. cbn [bindp]. now rewrite semi_ok.
Qed.

Lemma exp_ok e : wf_stmt (SExpr e) -> EvS (SExpr e).
Proof.
  intros He b rest. cbn [wf_stmt] in He.
  destruct (paren_ok e He b (tk TSemicolon :: rest)) as [f Hf]; [now apply nf_tok|].
  exists (S f). intros g n Hg Hn. destruct n as [|n]; [lia|].
  cbn [show_stmt]. unfold parse_stmt. nrm.
  assert (Ep : exists r, parens (show_raw e) ++ tk TSemicolon :: rest = tk TLeftParen :: r) by (eexists; reflexivity).
  destruct Ep as [r Er]. rewrite Er. hd. rewrite <- Er.
  rewrite (Hf g g) by lia. cbn [bindp].
  destruct (accessors e) as [[id accs]|].
  - hd. cbn [assign_op]. now rewrite semi_ok.
  - hd. unfold expect. hd. reflexivity.
Qed.

Lemma stmts_ok l : Forall EvS l -> EvSs l.
Proof.
  induction 1 as [|st l Hst Hl IH]; intros acc b rest.
  - exists 1%nat. intros g n Hg Hn. destruct n as [|n]; [lia|]. cbn [show_stmts app stmts_loop].
    replace (block_ends (PState (tk TRightBrace :: rest) b)) with true by reflexivity.
    now rewrite app_nil_r.
  - destruct (Hst b (show_stmts l ++ tk TRightBrace :: rest)) as [f1 H1].
    destruct (IH (st :: acc) b rest) as [f2 H2].
    exists (S (max f1 f2)). intros g n Hg Hn. destruct n as [|n]; [lia|]. cbn [show_stmts stmts_loop].
    rewrite <- app_assoc, block_ends_stmt, (H1 g n) by lia. cbn [bindp]. rewrite (H2 g n) by lia. cbn [rev]. now rewrite <- app_assoc.
Qed.

Lemma parse_stmts_ok l : EvSs l -> forall b rest,
  ev (fun g n => parse_stmts (PE g) n (PState (show_stmts l ++ tk TRightBrace :: rest) b))
     (POk l (PState (tk TRightBrace :: rest) b)).
Proof.
  intros Hl b rest. destruct (Hl [] true rest) as [f Hf]. exists f. intros g n Hg Hn.
  unfold parse_stmts, parse_stmts_of_block, set_sla. cbn [toks sla]. rewrite (Hf g n Hg Hn). reflexivity.
Qed.

(* a block expression `{ stmts }` *)
Lemma block_ok l : EvSs l -> forall b rest,
  EvE (PState (tk TLeftBrace :: show_stmts l ++ tk TRightBrace :: rest) b) (UBlock l) (PState rest b).
Proof.
  intros Hl b rest. destruct (parse_stmts_ok l Hl b rest) as [f Hf].
  exists (S f). intros g n Hg _. destruct g as [|g]; [lia|]. unfold PE. cbn [parse_expr_st].
  unfold parse_expr_body. hd. fold (PE g). rewrite (Hf g g) by lia. unfold expect. hd. reflexivity.
Qed.

Lemma for_ok p e body : EvSs body -> wf_stmt (SForEach p e body) -> EvS (SForEach p e body).
Proof.
  intros Hb Hw b rest. rewrite wf_for in Hw. destruct Hw as (Hp & He & _).
  destruct (expr_ok e He false (tk TLeftBrace :: show_stmts body ++ tk TRightBrace :: rest)) as [f Hf];
    [now apply nf_tok|].
  destruct (block_ok body Hb b rest) as [f' Hf'].
  exists (S (max f f')). intros g n Hg Hn. destruct n as [|n]; [lia|].
  rewrite show_for. unfold parse_stmt. nrm. hd.
  rewrite (pat_ok p Hp) by exact I. cbn [bindp]. unfold expect. hd.
  nrm.
  rewrite (Hf g g) by lia. hd.
  rewrite (Hf' g g) by lia. reflexivity.
Qed.

Theorem stmt_ok : forall st, wf_stmt st -> EvS st.
Proof.
  induction st as [p ty e|x ty e|x accs e|p e body IH|e] using stmt_ind_for; intro Hw.
  - now apply let_ok.
  - now apply mut_ok.
  - now apply asg_ok.
  - apply for_ok; [|exact Hw]. apply stmts_ok. rewrite wf_for in Hw. destruct Hw as (_ & _ & Hb).
    induction IH as [|s r Hs Hr IHr]; [constructor|]. destruct Hb as [H1 H2]. constructor; auto.
  - now apply exp_ok.
Qed.

Lemma wf_stmts_forall l : wf_stmts l -> Forall EvS l.
Proof. induction l as [|s r IH]; [constructor|]. intros [H1 H2]. constructor; [now apply stmt_ok|auto]. Qed.

(* ------------------------------------------------------------------ a function body *)

Theorem parse_show_block l : wf_stmts l ->
  exists f0, forall fuel, (f0 <= fuel)%nat -> parse_block_text fuel (show_stmts l) = POk l (PState [] true).
Proof.
  intro Hw. destruct (parse_stmts_ok l (stmts_ok l (wf_stmts_forall l Hw)) true []) as [f Hf].
  exists f. intros fuel Hfu. unfold parse_block_text. cbv zeta.
  change (Token TRightBrace (Meta (0, 0) (0, 0))) with (tk TRightBrace).
  fold (PE fuel). rewrite (Hf fuel fuel) by lia. unfold expect. hd. reflexivity.
Qed.
Print Assumptions parse_show_block.

(* ------------------------------------------------------------------ function definitions *)

Definition show_param (p : uparam) : list token :=
  (if p_mutable p then [tk TKeywordMut] else []) ++ tk (TIdentifier (p_name p)) :: tk TColon :: show_ty (p_ty p).

Fixpoint show_params_more (ps : list uparam) : list token :=
  match ps with [] => [] | p :: r => tk TComma :: show_param p ++ show_params_more r end.

Definition show_params (ps : list uparam) : list token :=
  match ps with [] => [] | p :: r => show_param p ++ show_params_more r end.

Definition show_fn (d : ufndef) : list token :=
  (if f_is_pub d then [tk TKeywordPub] else []) ++
  tk TKeywordFn :: tk (TIdentifier (f_identifier d)) :: tk TLeftParen :: show_params (f_params d) ++
  tk TRightParen :: tk TArrow :: show_ty (f_ty d) ++ tk TLeftBrace :: show_stmts (f_body d) ++ [tk TRightBrace].

Definition wf_param (p : uparam) : Prop := wf_type (p_ty p).

Definition wf_fn (d : ufndef) : Prop :=
  Forall wf_param (f_params d) /\ wf_type (f_ty d) /\ wf_stmts (f_body d).

Lemma param_ok p : wf_param p -> forall fuel rest b,
  parse_param (S fuel) (PState (show_param p ++ rest) b) = POk p (PState rest b).
Proof.
  intros Hw fuel rest b. destruct p as [mu nm ty]. unfold wf_param in Hw. cbn [p_ty] in Hw.
  unfold parse_param, show_param, show_ty. cbn [p_mutable p_name p_ty].
  destruct mu; nrm; hd; unfold expect_identifier; cbn [toks sla]; unfold expect; hd;
    rewrite (type_tok_ok ty Hw); reflexivity.
Qed.

Lemma param_not_close p rest b : peek TRightParen (PState (show_param p ++ rest) b) = false.
Proof. destruct p as [[] nm ty]; reflexivity. Qed.

Lemma params_more_ok fuel : forall ps, Forall wf_param ps -> forall n acc rest b, (length ps < n)%nat ->
  sep_loop (parse_param (S fuel)) TRightParen n acc (PState (show_params_more ps ++ tk TRightParen :: rest) b)
  = POk (rev acc ++ ps) (PState (tk TRightParen :: rest) b).
Proof.
  induction 1 as [|p ps Hp Hps IH]; intros n acc rest b Hn; (destruct n as [|n]; [cbn [length] in Hn; lia|]);
    cbn [sep_loop show_params_more app].
  - hd. now rewrite app_nil_r.
  - hd. rewrite param_not_close, (param_ok p Hp). cbn [bindp]. rewrite IH by (cbn [length] in Hn; lia).
    cbn [rev]. now rewrite <- app_assoc.
Qed.

Lemma params_ok fuel ps : Forall wf_param ps -> forall rest b, (length ps <= fuel)%nat ->
  (if negb (peek TRightParen (PState (show_params ps ++ tk TRightParen :: rest) b))
   then parse_params (S fuel) (PState (show_params ps ++ tk TRightParen :: rest) b)
   else POk [] (PState (show_params ps ++ tk TRightParen :: rest) b))
  = POk ps (PState (tk TRightParen :: rest) b).
Proof.
  intros Hw rest b Hl. destruct ps as [|p ps]; cbn [show_params app].
  - hd. reflexivity.
  - inversion Hw as [|? ? Hp Hps]; subst. rewrite <- app_assoc, param_not_close.
    cbn [negb]. unfold parse_params. rewrite (param_ok p Hp). cbn [bindp].
    rewrite (params_more_ok fuel ps Hps) by (cbn [length] in Hl; lia). reflexivity.
Qed.

(* after the keyword `fn` *)
Lemma fn_ok d : wf_fn d -> forall rest, exists f0, forall fuel, (f0 <= fuel)%nat -> forall is_pub,
  parse_fn_def fuel is_pub
    (PState (tk (TIdentifier (f_identifier d)) :: tk TLeftParen :: show_params (f_params d) ++
             tk TRightParen :: tk TArrow :: show_ty (f_ty d) ++ tk TLeftBrace :: show_stmts (f_body d) ++
             tk TRightBrace :: rest) true)
  = POk (UFnDef is_pub (f_identifier d) (f_ty d) (f_params d) (f_body d)) (PState rest true).
Proof.
  intros (Hps & Hty & Hb) rest. destruct (parse_stmts_ok _ (stmts_ok _ (wf_stmts_forall _ Hb)) true rest) as [f Hf].
  exists (S (max f (length (f_params d)))). intros fuel Hfu is_pub.
  destruct fuel as [|fuel]; [lia|]. unfold parse_fn_def, expect_identifier, show_ty. cbn [toks sla]. unfold expect. hd.
  rewrite (params_ok fuel _ Hps) by lia. cbn [bindp]. hd.
  rewrite (type_tok_ok _ Hty). cbn [bindp]. hd.
  fold (PE (S fuel)). rewrite (Hf (S fuel) (S fuel)) by lia. hd. reflexivity.
Qed.

(* ------------------------------------------------------------------ programs: the function
   definitions (the struct / enum / const maps empty) *)

Definition add_fn (prog : uprogram) (d : ufndef) : uprogram :=
  UProgram (up_const_defs prog) (up_struct_defs prog) (up_enum_defs prog)
           (map_insert (f_identifier d) d (up_fn_defs prog)).

Lemma fns_ok : forall fs, Forall wf_fn fs -> exists f0, forall fuel, (f0 <= fuel)%nat ->
  forall n prog, (2 * length fs < n)%nat ->
  items_loop fuel n false prog (PState (flat_map show_fn fs) true)
  = POk (fold_left add_fn fs prog) (PState [] true).
Proof.
  induction 1 as [|d fs Hd Hfs IH].
  - exists 0%nat. intros fuel _ n prog Hn. destruct n as [|n]; [cbn [length] in Hn; lia|]. reflexivity.
  - destruct IH as [f1 H1]. destruct (fn_ok d Hd (flat_map show_fn fs)) as [f2 H2].
    exists (max f1 f2). intros fuel Hfu n prog Hn. cbn [length] in Hn.
    destruct n as [|n]; [lia|]. destruct n as [|n]; [lia|].
    cbn [flat_map fold_left]. unfold show_fn at 1. nrm.
    destruct d as [[] nm ty ps body]; cbn [f_is_pub f_identifier f_ty f_params f_body app] in *.
    + cbn [items_loop advance toks sla]. nrm.
      rewrite (H2 fuel ltac:(lia) true). cbn [bindp]. apply (H1 fuel ltac:(lia)). lia.
    + remember (S n) as n1 eqn:En1. cbn [items_loop advance toks sla]. nrm.
      rewrite (H2 fuel ltac:(lia) false). cbn [bindp]. apply (H1 fuel ltac:(lia)). lia.
Qed.

(* the program: its function definitions in the order of the map (an association list) *)
Definition show_program (P : uprogram) : list token := flat_map show_fn (map snd (up_fn_defs P)).

(* what the parser can produce from function definitions alone: no const / struct / enum
   definitions, every function under its own name, no name twice (a later definition of the
   same name REPLACES the earlier one: HashMap::insert), the functions well-formed *)
Definition wf_program (P : uprogram) : Prop :=
  up_const_defs P = [] /\ up_struct_defs P = [] /\ up_enum_defs P = [] /\
  NoDup (map fst (up_fn_defs P)) /\
  Forall (fun kv => fst kv = f_identifier (snd kv) /\ wf_fn (snd kv)) (up_fn_defs P).

Lemma leqb_eq : forall a b : list N, list_eqb a b = true -> a = b.
Proof.
  induction a as [|x a IH]; destruct b as [|y b]; cbn [list_eqb]; intro H; try discriminate; auto.
  apply andb_true_iff in H. destruct H as [H1 H2]. apply N.eqb_eq in H1. f_equal; auto.
Qed.

Lemma map_insert_fresh {A} k (v : A) m : ~ In k (map fst m) -> map_insert k v m = m ++ [(k, v)].
Proof.
  intro H. unfold map_insert. f_equal. induction m as [|[k' v'] m IH]; [reflexivity|].
  cbn [filter fst map In] in *. destruct (list_eqb k' k) eqn:E.
  - apply leqb_eq in E. tauto.
  - cbn [negb]. f_equal. apply IH. tauto.
Qed.

Lemma fold_fns : forall l acc,
  NoDup (map fst (acc ++ l)) -> Forall (fun kv => fst kv = f_identifier (snd kv)) l ->
  fold_left add_fn (map snd l) (UProgram [] [] [] acc) = UProgram [] [] [] (acc ++ l).
Proof.
  induction l as [|[k d] l IH]; intros acc Hnd Hk; cbn [map fold_left snd].
  - now rewrite app_nil_r.
  - inversion Hk as [|? ? Hk1 Hk2]; subst. cbn [fst snd] in Hk1. subst k.
    unfold add_fn at 2. cbn [up_const_defs up_struct_defs up_enum_defs up_fn_defs].
    rewrite map_insert_fresh.
    + rewrite IH; [now rewrite <- app_assoc| |exact Hk2]. now rewrite <- app_assoc.
    + rewrite map_app in Hnd. cbn [map fst] in Hnd. apply NoDup_remove_2 in Hnd.
      intro Hin. apply Hnd. apply in_or_app. now left.
Qed.

Theorem parse_show_program P : wf_program P ->
  exists f0, forall fuel, (f0 <= fuel)%nat -> parse_program_text fuel (show_program P) = POk P (PState [] true).
Proof.
  intros (Hc & Hs & He & Hnd & Hf). destruct P as [cs ss es fs]. cbn [up_const_defs up_struct_defs up_enum_defs up_fn_defs] in *.
  subst cs ss es.
  assert (Hw : Forall wf_fn (map snd fs)).
  { clear Hnd. induction Hf as [|kv l [_ H1] _ IH]; cbn [map]; constructor; auto. }
  destruct (fns_ok _ Hw) as [f0 H0]. exists (max f0 (S (2 * length fs))). intros fuel Hfu.
  unfold parse_program_text, show_program. cbn [up_fn_defs].
  rewrite (H0 fuel ltac:(lia)) by (rewrite map_length; lia).
  rewrite (fold_fns fs []); [reflexivity|exact Hnd|].
  clear -Hf. induction Hf as [|kv l [H1 _] _ IH]; constructor; auto.
Qed.
Print Assumptions parse_show_program.

(* ------------------------------------------------------------------ at the level of the text:
   the printed tokens carry no locations, the parser ignores them (PART 1), the scanner reads
   the printed text back (ScanPrint.v) *)

Lemma show_stmt_tk : forall st, is_tk (show_stmt st).
Proof.
  induction st as [p ty e|x ty e|x accs e|p e body IH|e] using stmt_ind_for.
  - cbn [show_stmt]. pose proof (show_raw_tk e). destruct ty; cbn [show_ty_ann]; unfold show_ty; tk_auto.
  - cbn [show_stmt]. pose proof (show_raw_tk e). destruct ty; cbn [show_ty_ann]; unfold show_ty; tk_auto.
  - cbn [show_stmt]. pose proof (show_raw_tk e). pose proof (show_raw_tk (target_expr x accs)). tk_auto.
  - rewrite show_for. pose proof (show_raw_tk e).
    assert (is_tk (show_stmts body)) by (induction IH; cbn [show_stmts]; tk_auto). tk_auto.
  - cbn [show_stmt]. unfold parens. pose proof (show_raw_tk e). tk_auto.
Qed.

Lemma show_stmts_tk l : is_tk (show_stmts l).
Proof. induction l; cbn [show_stmts]; [apply is_tk_nil|]. pose proof (show_stmt_tk a). tk_auto. Qed.

Lemma show_fn_tk d : is_tk (show_fn d).
Proof.
  unfold show_fn, show_ty. pose proof (show_stmts_tk (f_body d)).
  assert (Hp : forall p, is_tk (show_param p)).
  { intro p. unfold show_param, show_ty. destruct (p_mutable p); tk_auto. }
  assert (Hm : forall ps, is_tk (show_params_more ps)).
  { induction ps as [|p ps IH]; cbn [show_params_more]; [apply is_tk_nil|]. pose proof (Hp p). tk_auto. }
  assert (is_tk (show_params (f_params d))).
  { destruct (f_params d) as [|p ps]; cbn [show_params]; [apply is_tk_nil|]. pose proof (Hp p). pose proof (Hm ps). tk_auto. }
  destruct (f_is_pub d); tk_auto.
Qed.

Lemma show_program_tk P : is_tk (show_program P).
Proof.
  unfold show_program. induction (map snd (up_fn_defs P)) as [|d l IH]; cbn [flat_map]; [apply is_tk_nil|].
  pose proof (show_fn_tk d). tk_auto.
Qed.

(* any tokens of the same kinds, whatever their locations *)
Corollary parse_show_program_kinds P ts : wf_program P -> map kind ts = map kind (show_program P) ->
  exists f0, forall fuel, (f0 <= fuel)%nat -> parse_program_text fuel ts = POk P (PState [] true).
Proof.
  intros Hw Hk. destruct (parse_show_program P Hw) as [f0 H0]. exists f0. intros fuel Hfu.
  rewrite <- parse_program_text_unloc, (unloc_kind _ _ Hk), (show_program_tk P). now apply H0.
Qed.

Corollary parse_show_block_kinds l ts : wf_stmts l -> map kind ts = map kind (show_stmts l) ->
  exists f0, forall fuel, (f0 <= fuel)%nat -> parse_block_text fuel ts = POk l (PState [] true).
Proof.
  intros Hw Hk. destruct (parse_show_block l Hw) as [f0 H0]. exists f0. intros fuel Hfu.
  rewrite <- parse_block_text_unloc, (unloc_kind _ _ Hk), (show_stmts_tk l). now apply H0.
Qed.

(* the text of a program: print the tokens, scan them, parse them *)
Definition program_text (P : uprogram) : list N := print_tokens (map kind (show_program P)).

Theorem scan_parse_show_program P : wf_program P -> Forall tok_printable (map kind (show_program P)) ->
  exists ts' f0, scan_text (program_text P) = Ok (STokens ts') /\
                 forall fuel, (f0 <= fuel)%nat -> parse_program_text fuel ts' = POk P (PState [] true).
Proof.
  intros Hw Hp. destruct (scan_print _ Hp) as (ts' & Hs & Hk).
  destruct (parse_show_program_kinds P ts' Hw) as [f0 H0].
  { rewrite Hk. reflexivity. }
  exists ts', f0. split; [exact Hs|exact H0].
Qed.
Print Assumptions scan_parse_show_program.

(* ------------------------------------------------------------------ an example: the predicate
   is inhabited, the text is what one expects, the round trip runs *)
Definition P0 : uprogram := UProgram [] [] []
  [(codes "main", UFnDef true (codes "main") (UTUnsigned U8)
      [UParam false (codes "x") (UTUnsigned U8); UParam true (codes "y") (UTUnsigned U8)]
      [SLet (PIdentifier (codes "z")) None (UOp BAdd (UIdentifier (codes "x")) (UIdentifier (codes "y")));
       SLetMut (codes "w") (Some (UTUnsigned U8)) (UIdentifier (codes "z"));
       SVarAssign (codes "w") [] (UOp BAdd (UIdentifier (codes "w")) (UNumUnsigned 1 U8));
       SForEach (PIdentifier (codes "i")) (UFnCall (codes "f") [UIdentifier (codes "x")])
         [SVarAssign (codes "a") [AArray (UIdentifier (codes "i")); ATuple 0]
                     (UOp BAdd (UIdentifier (codes "w")) (UIdentifier (codes "i")))];
       SExpr (UIf (UIdentifier (codes "c")) (UIdentifier (codes "w")) (UIdentifier (codes "z")))]);
   (codes "g", UFnDef false (codes "g") UTBool [] [SExpr UTrue])].

Example P0_wf : wf_program P0.
Proof.
  unfold wf_program, P0. cbn [up_const_defs up_struct_defs up_enum_defs up_fn_defs map fst snd].
  split; [reflexivity|]. split; [reflexivity|]. split; [reflexivity|]. split.
  - repeat constructor; vm_compute; intuition discriminate.
  - repeat constructor.
Qed.

Example P0_text : program_text P0 = codes
  "pub fn main ( x : u8 , mut y : u8 ) -> u8 { let z = x + y ; let mut w : u8 = z ; w = w + 1u8 ; for i in f ( x ) { a [ i ] . 0 = w + i ; } ( if c { w } else { z } ) ; } fn g ( ) -> bool { ( true ) ; }".
Proof. vm_compute. reflexivity. Qed.

Example P0_round_trip :
  match scan_text (program_text P0) with Ok (STokens ts) => parse_program_text 40 ts | _ => PErr end
  = POk P0 (PState [] true).
Proof. vm_compute. reflexivity. Qed.
