(* DESIGN.md §6-12, found as a failing fuel lemma.  The block-comment loop of the UNREPAIRED
   scanner (scan.rs:195-210 before fix a1cb1b4) is the loop of Front/Scan.v without the
   `if self.is_empty() { push_error; break }` test.  At the end of the input one iteration
   consumes nothing, only `advance()` increments the column and the level stays what it
   was, so no amount of fuel is enough: the Rust loop never terminates (observed on the
   real code through the harness: `1u8 /* unterminated` exceeds every deadline).  With the
   repaired loop, ScanProofs.comment_loop_spec shows that fuel [length rest + 1] suffices. *)
From GV Require Import Base.Util Front.Scan.

Fixpoint comment_loop_orig (fuel : nat) (level : N) (s : scanner) (rest : list N)
  : res (scanner * list N) :=
  match fuel with
  | O => OutOfFuel
  | S f =>
      let '(d, s', rest') := comment_step s rest in
      let level' := apply_change d level in
      if level' =? 0 then Ok (s', rest') else comment_loop_orig f level' s' rest'
  end.

(* on a non-empty input the two loops take the same step, so they differ only at the end
   of the input *)
Lemma orig_step_same f level s x r :
  comment_loop_orig (S f) level s (x :: r) =
  (let '(d, s', rest') := comment_step s (x :: r) in
   let level' := apply_change d level in
   if level' =? 0 then Ok (s', rest') else comment_loop_orig f level' s' rest').
Proof. reflexivity. Qed.

(* the fuel-adequacy statement is false for the unrepaired loop: *)
Lemma comment_loop_orig_diverges : forall fuel level s,
  level <> 0 -> comment_loop_orig fuel level s [] = OutOfFuel.
Proof.
  induction fuel as [|f IH]; intros level s Hl; [reflexivity|].
  cbn [comment_loop_orig comment_step next_matches peek negb andb tl apply_change].
  destruct (level =? 0) eqn:E; [apply N.eqb_eq in E; congruence|].
  apply IH. exact Hl.
Qed.

(* the state in which the real scanner enters the loop on the text "/*" *)
Example unterminated_comment_never_returns :
  forall fuel, comment_loop_orig fuel 1 (advance init) [] = OutOfFuel.
Proof. intro fuel. apply comment_loop_orig_diverges. discriminate. Qed.
