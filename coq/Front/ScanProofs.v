(* Proofs about the scanner model Front/Scan.v: totality (fuel adequacy), shape of the
   result, well-formedness of every reported location. *)
From GV Require Import Base.Util Front.Scan.

(* ------------------------------------------------------------------ specification side *)

(* number of '\n' in a text *)
Fixpoint nl (l : list N) : N :=
  match l with
  | [] => 0
  | c :: r => (if c =? 10 then 1 else 0) + nl r
  end.

(* (line, column) pairs, lexicographic order *)
Definition pos_le (a b : N * N) : Prop :=
  fst a < fst b \/ (fst a = fst b /\ snd a <= snd b).

(* a location is well formed w.r.t. a text with NL newlines: start is not after end, and
   the end (hence also the start) lies on a line that exists or just past the end *)
Definition meta_ok (NL : N) (m : meta) : Prop :=
  pos_le (m_start m) (m_end m) /\ fst (m_end m) <= NL.

Definition tok_meta (t : token) : meta := match t with Token _ m => m end.
Definition err_meta (e : scan_error) : meta := match e with ScanError _ m => m end.

Definition out_ok (NL : N) (o : scan_out) : Prop :=
  match o with
  | STokens ts => Forall (fun t => meta_ok NL (tok_meta t)) ts
  | SErrors es => es <> [] /\ Forall (fun e => meta_ok NL (err_meta e)) es
  end.

(* ------------------------------------------------------------------ invariant *)

(* [k]: at least k errors have been recorded *)
Definition good (NL : N) (k : nat) (s : scanner) (rest : list N) : Prop :=
  pos_le (cts s) (line s, column s) /\
  line s + nl rest <= NL /\
  Forall (fun t => meta_ok NL (tok_meta t)) (tokens s) /\
  Forall (fun e => meta_ok NL (err_meta e)) (errors s) /\
  (k <= length (errors s))%nat.

Lemma nl_cons c r : nl (c :: r) = (if c =? 10 then 1 else 0) + nl r.
Proof. reflexivity. Qed.

Lemma nl_cons_le c r : nl r <= nl (c :: r).
Proof. rewrite nl_cons. destruct (c =? 10); lia. Qed.

Lemma nl_tl r : nl (tl r) <= nl r.
Proof. destruct r as [|c r]; [cbn; lia|apply nl_cons_le]. Qed.

Lemma length_tl_le {A} (r : list A) : (length (tl r) <= length r)%nat.
Proof. destruct r; cbn [tl length]; lia. Qed.

Lemma length_tl_lt {A} (r : list A) : r <> [] -> (length (tl r) < length r)%nat.
Proof. destruct r; [congruence|cbn [tl length]; lia]. Qed.

Lemma pos_le_refl p : pos_le p p.
Proof. right. split; [reflexivity|lia]. Qed.

Lemma good_weaken NL k s r r' : good NL k s r -> nl r' <= nl r -> good NL k s r'.
Proof. intros (Hc & Hl & Ht & He & Hk) Hn. repeat split; try assumption. lia. Qed.

Lemma good_errs NL k k' s r : good NL k s r -> (k' <= length (errors s))%nat -> good NL k' s r.
Proof. intros (Hc & Hl & Ht & He & _) Hk. repeat split; assumption. Qed.

Lemma good_drop NL k s c r : good NL k s (c :: r) -> good NL k s r.
Proof. intro H. eapply good_weaken; [exact H|apply nl_cons_le]. Qed.

Lemma good_advance NL k s r : good NL k s r -> good NL k (advance s) r.
Proof.
  intros (Hc & Hl & Ht & He & Hk). unfold good. cbn [advance cts line column tokens errors].
  repeat split; try assumption.
  destruct Hc as [Hc|[Hc1 Hc2]]; [left; exact Hc|right]. cbn [fst snd] in *. split; [exact Hc1|lia].
Qed.

Lemma good_mark_start NL k s r : good NL k s r -> good NL k (mark_start s) r.
Proof.
  intros (Hc & Hl & Ht & He & Hk). unfold good. cbn [mark_start cts line column tokens errors].
  repeat split; try assumption. apply pos_le_refl.
Qed.

(* consuming a newline: `self.line += 1; self.column = 0` *)
Lemma good_newline NL k s r : good NL k s (10 :: r) -> good NL k (newline s) r.
Proof.
  intros (Hc & Hl & Ht & He & Hk). unfold good. cbn [newline cts line column tokens errors].
  rewrite nl_cons in Hl. change (10 =? 10) with true in Hl. cbv iota in Hl.
  repeat split; try assumption; [|lia].
  left. cbn [fst]. destruct Hc as [Hc|[Hc1 Hc2]]; cbn [fst snd] in *; lia.
Qed.

Lemma newline_advance s : newline (advance s) = newline s.
Proof. reflexivity. Qed.

Lemma good_push_token NL k t s r : good NL k s r -> good NL k (push_token t s) r.
Proof.
  intros (Hc & Hl & Ht & He & Hk). unfold good, push_token.
  cbn [cts line column tokens errors].
  set (col := if pair_eqb (cts s) (line s, column s) then column s + 1 else column s).
  assert (Hcol : column s <= col) by (subst col; destruct (pair_eqb _ _); lia).
  repeat split; try assumption.
  - apply pos_le_refl.
  - constructor; [|exact Ht]. cbn [tok_meta]. split; cbn [m_start m_end fst snd].
    + destruct Hc as [Hc|[Hc1 Hc2]]; [left; exact Hc|right]. cbn [fst snd] in *. split; [exact Hc1|lia].
    + lia.
Qed.

Lemma good_push_error NL k e s r : good NL k s r -> good NL k (push_error e s) r.
Proof.
  intros (Hc & Hl & Ht & He & Hk). unfold good, push_error.
  cbn [cts line column tokens errors].
  repeat split; try assumption.
  - constructor; [|exact He]. cbn [err_meta]. split; cbn [m_start m_end fst snd]; [apply pos_le_refl|lia].
  - cbn [length]. lia.
Qed.

(* from here on [good] is only used through the lemmas above; [splits] splits syntactic
   conjunctions only (plain [split] would unfold [good]) *)
Ltac splits := repeat match goal with |- _ /\ _ => split end.

(* ------------------------------------------------------------------ primitives *)

Lemma next_matches_spec NL k c s rest b s' r' :
  next_matches c s rest = (b, s', r') -> good NL k s rest ->
  good NL k s' r' /\ (length r' <= length rest)%nat /\
  (b = true -> rest = c :: r' /\ s' = advance s) /\
  (b = false -> s' = s /\ r' = rest /\ peek c rest = false).
Proof.
  unfold next_matches, peek. intros E G.
  destruct rest as [|x r].
  - inversion E; subst. split; [exact G|]. split; [lia|]. split; [discriminate|].
    intros _. splits; reflexivity.
  - destruct (x =? c) eqn:Ex; inversion E; subst.
    + apply N.eqb_eq in Ex. subst x.
      split; [apply good_advance; eapply good_drop; exact G|].
      split; [cbn [length]; lia|]. split; [|discriminate].
      intros _. split; reflexivity.
    + split; [exact G|]. split; [lia|]. split; [discriminate|].
      intros _. splits; reflexivity.
Qed.

Lemma take_while_spec NL k p : forall rest s xs s' r',
  take_while p s rest = (xs, s', r') -> good NL k s rest ->
  good NL k s' r' /\ (length r' <= length rest)%nat.
Proof.
  induction rest as [|x r IH]; intros s xs s' r' E G; cbn [take_while] in E.
  - inversion E; subst. split; [assumption|lia].
  - destruct (p x).
    + destruct (take_while p (advance s) r) as [[xs0 s0] r0] eqn:E0.
      inversion E; subst.
      destruct (IH _ _ _ _ E0) as [G' L'].
      { apply good_advance. eapply good_drop; exact G. }
      split; [assumption|cbn [length]; lia].
    + inversion E; subst. split; [assumption|lia].
Qed.

Lemma run_optree_spec NL k : forall tr s rest, good NL k s rest ->
  good NL k (fst (run_optree tr s rest)) (snd (run_optree tr s rest)) /\
  (length (snd (run_optree tr s rest)) <= length rest)%nat.
Proof.
  induction tr as [t|c y IHy n IHn]; intros s rest G; cbn [run_optree].
  - cbn [fst snd]. split; [apply good_push_token; assumption|lia].
  - destruct (next_matches c s rest) as [[b s1] r1] eqn:E.
    destruct (next_matches_spec NL k _ _ _ _ _ _ E G) as (G1 & L1 & _ & _).
    destruct b.
    + destruct (IHy s1 r1 G1) as [G2 L2]. split; [assumption|lia].
    + destruct (IHn s1 r1 G1) as [G2 L2]. split; [assumption|lia].
Qed.

(* ------------------------------------------------------------------ block comments *)

(* the second test of a condition `next_matches(a) && next_matches(b)` *)
Lemma and_matches_spec NL k (b : bool) c s rest b' s' r' :
  (if b then next_matches c s rest else (false, s, rest)) = (b', s', r') -> good NL k s rest ->
  good NL k s' r' /\ (length r' <= length rest)%nat /\ (b' = true -> b = true).
Proof.
  intros E G. destruct b.
  - destruct (next_matches_spec NL k _ _ _ _ _ _ E G) as (G' & L' & _). auto.
  - inversion E; subst. splits; [assumption|lia|discriminate].
Qed.

Lemma comment_tail_spec NL k s rest (d : level_change) s' r' :
  (let '(b5, s5, r5) := next_matches c_nl s rest in
   if b5 then (LSame, newline s5, r5)
   else if negb (peek c_star r5) && negb (peek c_slash r5) then (LSame, advance s5, tl r5)
   else (LSame, s5, r5)) = (d, s', r') ->
  good NL k s rest ->
  good NL k s' r' /\ (length r' <= length rest)%nat /\
  (peek c_star rest = false -> peek c_slash rest = false -> rest <> [] -> (length r' < length rest)%nat).
Proof.
  intros E G. destruct (next_matches c_nl s rest) as [[b5 s5] r5] eqn:E5.
  destruct (next_matches_spec NL k _ _ _ _ _ _ E5 G) as (G5 & L5 & T5 & F5).
  destruct b5.
  - destruct (T5 eq_refl) as [R5 S5]. inversion E; subst.
    splits; [rewrite newline_advance; apply good_newline; exact G|cbn [length]; lia|intros; cbn [length]; lia].
  - destruct (F5 eq_refl) as (-> & -> & _).
    destruct (negb (peek c_star rest) && negb (peek c_slash rest)) eqn:Ep; inversion E; subst.
    + splits; [apply good_advance; eapply good_weaken; [exact G|apply nl_tl]|apply length_tl_le|].
      intros _ _. apply length_tl_lt.
    + splits; [assumption|lia|]. intros K1 K2. rewrite K1, K2 in Ep. discriminate.
Qed.

(* Progress: a successful match of `/` or `*` consumes a character; if both fail at the start,
   the next character is neither, and the tail consumes it. *)
Lemma comment_step_spec NL k s rest d s' r' :
  comment_step s rest = (d, s', r') -> good NL k s rest ->
  good NL k s' r' /\ (length r' <= length rest)%nat /\
  (rest <> [] -> (length r' < length rest)%nat).
Proof.
  unfold comment_step. intros E G.
  destruct (next_matches c_slash s rest) as [[b1 s1] r1] eqn:E1.
  destruct (next_matches_spec NL k _ _ _ _ _ _ E1 G) as (G1 & L1 & T1 & F1).
  assert (P1 : b1 = true -> (length r1 < length rest)%nat).
  { intro H. destruct (T1 H) as [-> _]. cbn [length]. lia. }
  destruct (if b1 then next_matches c_star s1 r1 else (false, s1, r1)) as [[b2 s2] r2] eqn:E2.
  destruct (and_matches_spec NL k _ _ _ _ _ _ _ E2 G1) as (G2 & L2 & B2).
  destruct b2.
  { inversion E; subst. specialize (P1 (B2 eq_refl)). splits; [assumption|lia|lia]. }
  destruct (next_matches c_star s2 r2) as [[b3 s3] r3] eqn:E3.
  destruct (next_matches_spec NL k _ _ _ _ _ _ E3 G2) as (G3 & L3 & T3 & F3).
  assert (P3 : b3 = true -> (length r3 < length r2)%nat).
  { intro H. destruct (T3 H) as [-> _]. cbn [length]. lia. }
  destruct (if b3 then next_matches c_slash s3 r3 else (false, s3, r3)) as [[b4 s4] r4] eqn:E4.
  destruct (and_matches_spec NL k _ _ _ _ _ _ _ E4 G3) as (G4 & L4 & B4).
  destruct b4.
  { inversion E; subst. specialize (P3 (B4 eq_refl)). splits; [assumption|lia|lia]. }
  destruct (comment_tail_spec NL k _ _ _ _ _ E G4) as (G5 & L5 & P5).
  splits; [assumption|lia|]. intro Hne.
  destruct b1; [specialize (P1 eq_refl); lia|]. destruct (F1 eq_refl) as (-> & -> & K1). inversion E2; subst.
  destruct b3; [specialize (P3 eq_refl); lia|]. destruct (F3 eq_refl) as (-> & -> & K3). inversion E4; subst.
  now apply P5.
Qed.

Lemma comment_loop_spec NL k : forall fuel level s rest,
  (length rest < fuel)%nat -> good NL k s rest ->
  exists s' r', comment_loop fuel level s rest = Ok (s', r') /\
                good NL k s' r' /\ (length r' <= length rest)%nat.
Proof.
  induction fuel as [|f IH]; intros level s rest Hf G; [lia|].
  cbn [comment_loop].
  destruct rest as [|x r].
  - cbn [is_empty]. exists (push_error UnterminatedBlockComment s), [].
    splits; [reflexivity|apply good_push_error; assumption|lia].
  - cbn [is_empty].
    destruct (comment_step s (x :: r)) as [[d s1] r1] eqn:E.
    destruct (comment_step_spec NL k _ _ _ _ _ E G) as (G1 & L1 & P1).
    assert (P : (length r1 < length (x :: r))%nat) by (apply P1; discriminate).
    destruct (apply_change d level =? 0).
    + exists s1, r1. splits; [reflexivity|assumption|lia].
    + destruct (IH (apply_change d level) s1 r1) as (s2 & r2 & E2 & G2 & L2); [lia|assumption|].
      exists s2, r2. splits; [assumption|assumption|lia].
Qed.

(* ------------------------------------------------------------------ numbers, words *)

Lemma scan_minus_spec NL k s rest : good NL k s rest ->
  good NL k (fst (scan_minus s rest)) (snd (scan_minus s rest)) /\
  (length (snd (scan_minus s rest)) <= length rest)%nat.
Proof.
  intro G. unfold scan_minus.
  destruct (take_while is_digit s rest) as [[ds s1] r1] eqn:E1.
  destruct (take_while_spec NL k _ _ _ _ _ _ E1 G) as [G1 L1].
  destruct (is_empty ds).
  - cbn [fst snd]. split; [apply good_push_token; assumption|lia].
  - destruct (parse_neg_i64 ds) as [n|].
    + destruct (take_while is_alphanumeric s1 r1) as [[suffix s2] r2] eqn:E2.
      destruct (take_while_spec NL k _ _ _ _ _ _ E2 G1) as [G2 L2].
      destruct (signed_suffix n suffix) as [bad ty].
      cbn [fst snd]. split; [|lia].
      apply good_push_token. destruct bad; [apply good_push_error|]; assumption.
    + cbn [fst snd]. split; [apply good_push_error; assumption|lia].
Qed.

Lemma scan_number_spec NL k c s rest : good NL k s rest ->
  good NL k (fst (scan_number c s rest)) (snd (scan_number c s rest)) /\
  (length (snd (scan_number c s rest)) <= length rest)%nat.
Proof.
  intro G. unfold scan_number.
  destruct (take_while is_digit s rest) as [[ds s1] r1] eqn:E1.
  destruct (take_while_spec NL k _ _ _ _ _ _ E1 G) as [G1 L1].
  destruct (parse_u64 (c :: ds)) as [n|].
  - destruct (take_while is_alphanumeric s1 r1) as [[suffix s2] r2] eqn:E2.
    destruct (take_while_spec NL k _ _ _ _ _ _ E2 G1) as [G2 L2].
    destruct (unsigned_suffix n suffix) as [bad tok].
    cbn [fst snd]. split; [|lia].
    apply good_push_token. destruct bad; [apply good_push_error|]; assumption.
  - cbn [fst snd]. split; [apply good_push_error; assumption|lia].
Qed.

Lemma scan_word_spec NL k c s rest : good NL k s rest ->
  good NL k (fst (scan_word c s rest)) (snd (scan_word c s rest)) /\
  (length (snd (scan_word c s rest)) <= length rest)%nat.
Proof.
  intro G. unfold scan_word.
  destruct (take_while is_alphanumeric s rest) as [[cs s1] r1] eqn:E1.
  destruct (take_while_spec NL k _ _ _ _ _ _ E1 G) as [G1 L1].
  cbn [fst snd]. split; [apply good_push_token; assumption|lia].
Qed.

(* ------------------------------------------------------------------ main loop *)

Lemma scan_char_spec NL k f s c rest :
  (length rest < f)%nat -> good NL k s (c :: rest) ->
  exists s' r', scan_char f s c rest = Ok (s', r') /\
                good NL k s' r' /\ (length r' <= length rest)%nat.
Proof.
  intros Hf G0. unfold scan_char.
  assert (G : good NL k s rest) by (eapply good_drop; exact G0).
  destruct ((c =? 32) || (c =? 13) || (c =? 9)).
  { eexists _, _. splits; [reflexivity|apply good_mark_start; exact G|lia]. }
  destruct (c =? c_nl) eqn:Enl.
  { apply N.eqb_eq in Enl. subst c. eexists _, _. splits; [reflexivity|apply good_newline; exact G0|lia]. }
  destruct (simple_op c) as [tr|].
  { destruct (run_optree_spec NL k tr s rest G) as [G1 L1].
    exists (fst (run_optree tr s rest)), (snd (run_optree tr s rest)).
    rewrite <- surjective_pairing. splits; [reflexivity|assumption|assumption]. }
  destruct (c =? c_slash).
  { destruct (next_matches c_eq s rest) as [[b1 s1] r1] eqn:E1.
    destruct (next_matches_spec NL k _ _ _ _ _ _ E1 G) as (G1 & L1 & _ & _).
    destruct b1.
    { eexists _, _. splits; [reflexivity|apply good_push_token; exact G1|lia]. }
    destruct (next_matches c_slash s1 r1) as [[b2 s2] r2] eqn:E2.
    destruct (next_matches_spec NL k _ _ _ _ _ _ E2 G1) as (G2 & L2 & _ & _).
    destruct b2.
    { destruct (take_while (fun x => negb (x =? c_nl)) s2 r2) as [[xs s3] r3] eqn:E3.
      destruct (take_while_spec NL k _ _ _ _ _ _ E3 G2) as [G3 L3].
      eexists _, _. splits; [reflexivity|exact G3|lia]. }
    destruct (next_matches c_star s2 r2) as [[b3 s3] r3] eqn:E3.
    destruct (next_matches_spec NL k _ _ _ _ _ _ E3 G2) as (G3 & L3 & _ & _).
    destruct b3.
    { destruct (comment_loop_spec NL k f 1 s3 r3) as (s4 & r4 & E4 & G4 & L4); [lia|exact G3|].
      exists s4, r4. splits; [exact E4|exact G4|lia]. }
    eexists _, _. splits; [reflexivity|apply good_push_token; exact G3|lia]. }
  destruct (c =? c_minus).
  { destruct (next_matches c_eq s rest) as [[b1 s1] r1] eqn:E1.
    destruct (next_matches_spec NL k _ _ _ _ _ _ E1 G) as (G1 & L1 & _ & _).
    destruct b1.
    { eexists _, _. splits; [reflexivity|apply good_push_token; exact G1|lia]. }
    destruct (next_matches c_gt s1 r1) as [[b2 s2] r2] eqn:E2.
    destruct (next_matches_spec NL k _ _ _ _ _ _ E2 G1) as (G2 & L2 & _ & _).
    destruct b2.
    { eexists _, _. splits; [reflexivity|apply good_push_token; exact G2|lia]. }
    destruct (scan_minus_spec NL k s2 r2 G2) as [G3 L3].
    exists (fst (scan_minus s2 r2)), (snd (scan_minus s2 r2)).
    rewrite <- surjective_pairing. splits; [reflexivity|exact G3|lia]. }
  destruct (is_digit c).
  { destruct (scan_number_spec NL k c s rest G) as [G1 L1].
    exists (fst (scan_number c s rest)), (snd (scan_number c s rest)).
    rewrite <- surjective_pairing. splits; [reflexivity|assumption|assumption]. }
  destruct (is_alphanumeric c).
  { destruct (scan_word_spec NL k c s rest G) as [G1 L1].
    exists (fst (scan_word c s rest)), (snd (scan_word c s rest)).
    rewrite <- surjective_pairing. splits; [reflexivity|assumption|assumption]. }
  eexists _, _. splits; [reflexivity|apply good_push_error; exact G|lia].
Qed.

Lemma scan_loop_spec NL k : forall fuel s rest,
  (length rest < fuel)%nat -> good NL k s rest ->
  exists s', scan_loop fuel s rest = Ok s' /\ good NL k s' [].
Proof.
  induction fuel as [|f IH]; intros s rest Hf G; [lia|].
  cbn [scan_loop]. destruct rest as [|c r].
  - exists s. split; [reflexivity|assumption].
  - cbn [length] in Hf.
    destruct (scan_char_spec NL k f s c r) as (s1 & r1 & E1 & G1 & L1); [lia|exact G|].
    rewrite E1. cbn [bind fst snd].
    apply IH; [lia|apply good_advance; exact G1].
Qed.

(* ------------------------------------------------------------------ whole scanner *)

Lemma good_init NL rest : nl rest <= NL -> good NL 0 init rest.
Proof.
  intro H. unfold good, init. cbn [cts line column tokens errors].
  split; [right; cbn [fst snd]; split; [reflexivity|lia]|].
  split; [cbn [line]; lia|]. repeat split; constructor.
Qed.

Lemma chars_length bs : (length (chars_of_bytes bs) <= length bs)%nat.
Proof.
  unfold chars_of_bytes. induction bs as [|b r IH]; cbn [filter length]; [lia|].
  destruct (negb (is_cont b)); cbn [length]; lia.
Qed.

(* '\n' (10) is not a UTF-8 continuation byte, so the bytes and the chars have the same
   number of newlines *)
Lemma chars_nl bs : nl (chars_of_bytes bs) = nl bs.
Proof.
  unfold chars_of_bytes. induction bs as [|b r IH]; [reflexivity|].
  cbn [filter]. destruct (is_cont b) eqn:Ec; cbn [negb].
  - rewrite nl_cons, IH.
    assert (b =? 10 = false) as ->; [|lia].
    unfold is_cont in Ec. apply andb_true_iff in Ec. destruct Ec as [E1 _].
    apply N.leb_le in E1. apply N.eqb_neq. lia.
  - rewrite !nl_cons, IH. reflexivity.
Qed.

Lemma finish_ok NL k s : good NL k s [] -> out_ok NL (finish s).
Proof.
  intros (_ & _ & Ht & He & _). unfold finish, out_ok.
  destruct (errors s) as [|e es] eqn:Ee.
  - apply Forall_rev. exact Ht.
  - split.
    + intro H. apply (f_equal (@length _)) in H. rewrite rev_length in H. cbn [length] in H. lia.
    + apply Forall_rev. exact He.
Qed.

(* the three scanner theorems in one statement *)
Lemma scan_text_spec bytes :
  exists out, scan_text bytes = Ok out /\ out_ok (nl bytes) out.
Proof.
  unfold scan_text, scan, fuel_for.
  destruct (scan_loop_spec (nl bytes) 0%nat (S (length bytes)) init (chars_of_bytes bytes)) as (s & E & G).
  - pose proof (chars_length bytes). lia.
  - apply good_init. rewrite chars_nl. lia.
  - rewrite E. cbn [bind]. exists (finish s). split; [reflexivity|eapply finish_ok; exact G].
Qed.

Lemma scan_total_lemma bytes : exists out, scan (fuel_for bytes) bytes = Ok out.
Proof. destruct (scan_text_spec bytes) as (out & E & _). exists out. exact E. Qed.

Lemma scan_result_lemma bytes out :
  scan (fuel_for bytes) bytes = Ok out ->
  match out with STokens _ => True | SErrors es => es <> [] end.
Proof.
  intro E. destruct (scan_text_spec bytes) as (out' & E' & O).
  unfold scan_text in E'. rewrite E in E'. inversion E'; subst out'.
  destruct out; [exact I|exact (proj1 O)].
Qed.

Lemma scan_locs_lemma bytes out :
  scan (fuel_for bytes) bytes = Ok out ->
  match out with
  | STokens ts => forall t m, In (Token t m) ts -> meta_ok (nl bytes) m
  | SErrors es => forall e m, In (ScanError e m) es -> meta_ok (nl bytes) m
  end.
Proof.
  intro E. destruct (scan_text_spec bytes) as (out' & E' & O).
  unfold scan_text in E'. rewrite E in E'. inversion E'; subst out'.
  destruct out as [ts|es]; cbn [out_ok] in O.
  - intros t m Hin. rewrite Forall_forall in O. exact (O _ Hin).
  - intros e m Hin. destruct O as [_ O]. rewrite Forall_forall in O. exact (O _ Hin).
Qed.

(* fuel monotonicity is not needed: the fuel is fixed by [fuel_for]. *)
