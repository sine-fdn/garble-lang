(* THE DECODER ONLY PRODUCES CANONICAL VALUES OF THE TYPE (C09).

   [from_bits_has_type] : dwf t = true -> from_bits t bits = Ok (Some l) -> has_type l t = true
   where [dwf] is what the decoder needs of the type: no `Unspecified` number type (the range test
   of [has_type] is false there; program types never have one) and pairwise distinct variant names
   in every enum (the decoder picks the variant by POSITION, [has_type] looks it up by NAME: first
   match).  Struct fields need no condition; neither does the enum environment of [Types.wf]. *)
From Coq Require Import ZArith List Lia.
Import ListNotations.
From GV Require Import Base.Util Lang.Types Lang.Literal Lang.LiteralProofs.
Local Open Scope N_scope.

(* ------------------------------------------------------------------ the condition on the type *)

Fixpoint vnames (vs : rvariants) : list N :=
  match vs with
  | RVNil => []
  | RVUnit n r | RVTuple n _ r => n :: vnames r
  end.

Fixpoint distinct (l : list N) : bool :=
  match l with
  | [] => true
  | x :: r => negb (existsb (N.eqb x) r) && distinct r
  end.

Fixpoint dwf (t : rty) : bool :=
  match t with
  | RBool => true
  | RUnsigned u => negb (uty_eqb u UUnspec)
  | RSigned s => negb (sty_eqb s SUnspec)
  | RArray t _ => dwf t
  | RTuple ts => dwf_tys ts
  | RStruct _ fs => dwf_fields fs
  | REnum _ vs => distinct (vnames vs) && dwf_variants vs
  end
with dwf_tys (ts : rtys) : bool :=
  match ts with RsNil => true | RsCons t r => dwf t && dwf_tys r end
with dwf_fields (fs : rfields) : bool :=
  match fs with RFNil => true | RFCons _ t r => dwf t && dwf_fields r end
with dwf_variants (vs : rvariants) : bool :=
  match vs with
  | RVNil => true
  | RVUnit _ r => dwf_variants r
  | RVTuple _ ts r => dwf_tys ts && dwf_variants r
  end.

(* ------------------------------------------------------------------ numbers *)

Lemma unsigned_decoded u bits : uty_eqb u UUnspec = false -> lenN bits = ubits u ->
  u_in_range (N_of_bits bits) u = true.
Proof.
  intros Hu Hl. pose proof (N_of_bits_bound bits) as Hb. rewrite Hl in Hb. unfold u_in_range.
  destruct u; try discriminate Hu; cbn [umax ubits] in *;
    match type of Hb with _ < ?p => let v := eval vm_compute in p in change p with v in Hb end; apply N.leb_le; lia.
Qed.

Lemma signed_decoded s bits : sty_eqb s SUnspec = false -> lenN bits = sbits s ->
  s_in_range (signed_of_bits (sbits s) bits) s = true.
Proof.
  intros Hs Hl. pose proof (N_of_bits_bound bits) as Hb. rewrite Hl in Hb. unfold s_in_range, signed_of_bits.
  destruct s; try discriminate Hs; cbn [smin smax sbits] in *;
    match type of Hb with _ < ?p => let v := eval vm_compute in p in change p with v in Hb end;
    match goal with |- context [?a <=? N_of_bits bits] =>
      let v := eval vm_compute in a in change a with v; destruct (N.leb_spec v (N_of_bits bits)) end;
    match goal with |- context [(Z.of_N (N_of_bits bits) - ?q)%Z] =>
      let v := eval vm_compute in q in change q with v | _ => idtac end;
    apply andb_true_intro; split; apply Z.leb_le; lia.
Qed.

(* ------------------------------------------------------------------ variants by position and by name *)

Fixpoint nth_variant (vs : rvariants) (k : N) : option (N * vinfo) :=
  match vs with
  | RVNil => None
  | RVUnit n r => if k =? 0 then Some (n, VIUnit) else nth_variant r (k - 1)
  | RVTuple n ts r => if k =? 0 then Some (n, VITuple ts) else nth_variant r (k - 1)
  end.

Lemma nth_variant_in : forall vs k n info, nth_variant vs k = Some (n, info) -> In n (vnames vs).
Proof.
  induction vs as [|n0 r IH|n0 ts r IH]; intros k n info H; cbn [nth_variant vnames] in *; [discriminate| |].
  - destruct (k =? 0); [injection H as <- _; now left|right; eapply IH; eassumption].
  - destruct (k =? 0); [injection H as <- _; now left|right; eapply IH; eassumption].
Qed.

Lemma existsb_eqb_false x l : existsb (N.eqb x) l = false -> ~ In x l.
Proof.
  intros H Hin. assert (existsb (N.eqb x) l = true) by (apply existsb_exists; exists x; split; [exact Hin|apply N.eqb_refl]).
  congruence.
Qed.

(* with distinct names the variant at a position is the one its name finds *)
Lemma nth_find : forall vs k n info i, distinct (vnames vs) = true -> nth_variant vs k = Some (n, info) ->
  exists j, find_variant vs n i = Some (j, info).
Proof.
  induction vs as [|n0 r IH|n0 ts r IH]; intros k n info i Hd H; cbn [nth_variant vnames distinct find_variant] in *;
    [discriminate| |].
  - apply andb_prop in Hd as [Hx Hr]. destruct (k =? 0).
    + injection H as <- <-. rewrite N.eqb_refl. eauto.
    + destruct (N.eqb_spec n0 n) as [->|_]; [|now apply (IH (k - 1))].
      exfalso. apply (existsb_eqb_false n (vnames r)); [now destruct (existsb (N.eqb n) (vnames r))|].
      eapply nth_variant_in; eassumption.
  - apply andb_prop in Hd as [Hx Hr]. destruct (k =? 0).
    + injection H as <- <-. rewrite N.eqb_refl. eauto.
    + destruct (N.eqb_spec n0 n) as [->|_]; [|now apply (IH (k - 1))].
      exfalso. apply (existsb_eqb_false n (vnames r)); [now destruct (existsb (N.eqb n) (vnames r))|].
      eapply nth_variant_in; eassumption.
Qed.

(* ------------------------------------------------------------------ the induction over the type *)

Lemma bindd_some {A B} (r : dres A) (k : A -> dres B) b :
  bindd r k = Ok (Some b) -> exists a, r = Ok (Some a) /\ k a = Ok (Some b).
Proof. destruct r as [[a|]| |]; cbn [bindd]; try discriminate. eauto. Qed.

Lemma lits_len_cons v vs : lits_len (LsCons v vs) = 1 + lits_len vs.
Proof. reflexivity. Qed.

Lemma from_bits_rep_typed (f : list bool -> dres lit) t sz :
  (forall bits l, f bits = Ok (Some l) -> has_type l t = true) ->
  forall count bits ls, from_bits_rep f sz count bits = Ok (Some ls) ->
    all_has_type ls t = true /\ lits_len ls = N.of_nat count.
Proof.
  intro Hf. induction count as [|c IH]; intros bits ls H; cbn [from_bits_rep] in H.
  - injection H as <-. split; reflexivity.
  - destruct (sz <=? lenN bits); [|discriminate H].
    apply bindd_some in H as (v & Hv & H). apply bindd_some in H as (vs & Hvs & H). injection H as <-.
    destruct (IH _ _ Hvs) as [Ha Hl]. split.
    + cbn [all_has_type]. now rewrite (Hf _ _ Hv), Ha.
    + rewrite lits_len_cons, Hl. lia.
Qed.

Definition Dt (t : rty) : Prop := dwf t = true -> forall bits l, from_bits t bits = Ok (Some l) -> has_type l t = true.
Definition Dts (ts : rtys) : Prop := dwf_tys ts = true -> forall bits ls,
  from_bits_tys ts bits = Ok (Some ls) -> zip_has_type ls ts = true.
Definition Dfs (fs : rfields) : Prop := dwf_fields fs = true -> forall bits lf,
  from_bits_fields fs bits = Ok (Some lf) -> fields_has_type lf fs = true.
Definition Dvs (vs : rvariants) : Prop := dwf_variants vs = true -> forall k name tsz bits l,
  from_bits_variant vs k name tsz bits = Ok (Some l) ->
  exists vn info, nth_variant vs k = Some (vn, info) /\
    match info with
    | VIUnit => l = LEnumUnit name vn
    | VITuple ts => exists es, l = LEnumTuple name vn es /\ zip_has_type es ts = true
    end.

Lemma from_bits_typed_mut : (forall t, Dt t) /\ (forall ts, Dts ts) /\ (forall fs, Dfs fs) /\ (forall vs, Dvs vs).
Proof.
  apply rty_mutind.
  - (* bool *) intros _ bits l H. cbn [from_bits] in H. destruct bits as [|b [|? ?]]; try discriminate H.
    injection H as <-. destruct b; reflexivity.
  - (* unsigned *) intros u Hw bits l H. cbn [from_bits dwf] in *. destruct (N.eqb_spec (lenN bits) (ubits u)) as [Hl|]; [|discriminate H].
    injection H as <-. cbn [has_type]. rewrite uty_eqb_refl. cbn [andb].
    apply unsigned_decoded; [now destruct (uty_eqb u UUnspec)|exact Hl].
  - (* signed *) intros s Hw bits l H. cbn [from_bits dwf] in *. destruct (N.eqb_spec (lenN bits) (sbits s)) as [Hl|]; [|discriminate H].
    injection H as <-. cbn [has_type]. rewrite sty_eqb_refl. cbn [andb].
    apply signed_decoded; [now destruct (sty_eqb s SUnspec)|exact Hl].
  - (* array *) intros et IH n Hw bits l H. cbn [from_bits dwf] in *. apply bindd_some in H as (vs & Hvs & H). injection H as <-.
    destruct (from_bits_rep_typed (from_bits et) et (size et) (IH Hw) _ _ _ Hvs) as [Ha Hl].
    cbn [has_type]. rewrite Ha, Hl, N2Nat.id, N.eqb_refl. reflexivity.
  - (* tuple *) intros ts IH Hw bits l H. cbn [from_bits dwf] in *. apply bindd_some in H as (vs & Hvs & H). injection H as <-.
    exact (IH Hw _ _ Hvs).
  - (* struct *) intros name fs IH Hw bits l H. cbn [from_bits dwf] in *. apply bindd_some in H as (vfs & Hvfs & H). injection H as <-.
    cbn [has_type]. rewrite N.eqb_refl. exact (IH Hw _ _ Hvfs).
  - (* enum *) intros name vs IH Hw bits l H. cbn [from_bits dwf] in *. apply andb_prop in Hw as [Hd Hw].
    destruct (IH Hw _ _ _ _ _ H) as (vn & info & Hn & Hl).
    destruct (nth_find vs _ vn info 0 Hd Hn) as [j Hj]. destruct info as [|ts].
    + subst l. cbn [has_type]. rewrite N.eqb_refl, Hj. reflexivity.
    + destruct Hl as (es & -> & Hes). cbn [has_type]. rewrite N.eqb_refl, Hj. exact Hes.
  - (* no types *) intros _ bits ls H. cbn [from_bits_tys] in H. injection H as <-. reflexivity.
  - intros t IHt r IHr Hw bits ls H. cbn [from_bits_tys dwf_tys] in *. apply andb_prop in Hw as [Hwt Hwr].
    destruct (size t <=? lenN bits); [|discriminate H].
    apply bindd_some in H as (v & Hv & H). apply bindd_some in H as (vs & Hvs & H). injection H as <-.
    cbn [zip_has_type]. now rewrite (IHt Hwt _ _ Hv), (IHr Hwr _ _ Hvs).
  - (* no fields *) intros _ bits lf H. cbn [from_bits_fields] in H. injection H as <-. reflexivity.
  - intros n t IHt r IHr Hw bits lf H. cbn [from_bits_fields dwf_fields] in *. apply andb_prop in Hw as [Hwt Hwr].
    destruct (size t <=? lenN bits); [|discriminate H].
    apply bindd_some in H as (v & Hv & H). apply bindd_some in H as (vs & Hvs & H). injection H as <-.
    cbn [fields_has_type]. now rewrite N.eqb_refl, (IHt Hwt _ _ Hv), (IHr Hwr _ _ Hvs).
  - (* no variants *) intros _ k name tsz bits l H. discriminate H.
  - (* unit variant *) intros vn r IHr Hw k name tsz bits l H. cbn [from_bits_variant dwf_variants nth_variant] in *.
    destruct (k =? 0).
    + injection H as <-. exists vn, VIUnit. split; reflexivity.
    + exact (IHr Hw _ _ _ _ _ H).
  - (* tuple variant *) intros vn ts IHts r IHr Hw k name tsz bits l H. cbn [from_bits_variant dwf_variants nth_variant] in *.
    apply andb_prop in Hw as [Hwt Hwr]. destruct (k =? 0).
    + destruct (match ts with RsNil => true | RsCons _ _ => tsz <=? lenN bits end); [|discriminate H].
      apply bindd_some in H as (es & Hes & H). injection H as <-.
      exists vn, (VITuple ts). split; [reflexivity|]. exists es. split; [reflexivity|exact (IHts Hwt _ _ Hes)].
    + exact (IHr Hwr _ _ _ _ _ H).
Qed.

(* (1) the decoder only produces canonical values of the type *)
Theorem from_bits_has_type t bits l : dwf t = true -> from_bits t bits = Ok (Some l) -> has_type l t = true.
Proof. intros Hw H. exact (proj1 from_bits_typed_mut t Hw bits l H). Qed.
Print Assumptions from_bits_has_type.

(* ... which the type test accepts, and which denote themselves *)
Corollary from_bits_is_of_type E t bits l : wf E t = true -> dwf t = true -> from_bits t bits = Ok (Some l) ->
  is_of_type l t = true /\ denote l = Some l.
Proof. intros W Hw H. apply (values_accepted_top E l t W). now apply (from_bits_has_type t bits). Qed.

(* [dwf] is needed: at an `Unspecified` number type the decoded number is not a value of the type *)
Example dwf_needed_unspecified :
  from_bits (RUnsigned UUnspec) (repeat false 32) = Ok (Some (LUnsigned 0 UUnspec)) /\
  has_type (LUnsigned 0 UUnspec) (RUnsigned UUnspec) = false.
Proof. split; vm_compute; reflexivity. Qed.
(* ... and with two variants of the same name the decoder's second variant is not what the name finds *)
Example dwf_needed_distinct :
  let t := REnum 1 (RVUnit 7 (RVTuple 7 (RsCons RBool RsNil) RVNil)) in
  from_bits t [true; true] = Ok (Some (LEnumTuple 1 7 (LsCons LTrue LsNil))) /\
  has_type (LEnumTuple 1 7 (LsCons LTrue LsNil)) t = false.
Proof. split; vm_compute; reflexivity. Qed.
