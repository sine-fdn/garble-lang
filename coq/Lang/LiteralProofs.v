From GV Require Import Base.Util Base.Bits Base.BitsProofs Base.BitViews Lang.Types Lang.Literal.

Scheme lit_mind := Induction for lit Sort Prop
  with lits_mind := Induction for lits Sort Prop
  with lfields_mind := Induction for lfields Sort Prop.
Combined Scheme lit_mutind from lit_mind, lits_mind, lfields_mind.

Scheme rty_mind := Induction for rty Sort Prop
  with rtys_mind := Induction for rtys Sort Prop
  with rfields_mind := Induction for rfields Sort Prop
  with rvariants_mind := Induction for rvariants Sort Prop.
Combined Scheme rty_mutind from rty_mind, rtys_mind, rfields_mind, rvariants_mind.

(* ------------------------------------------------------------------ small facts *)

Lemma uty_eqb_eq a b : uty_eqb a b = true -> a = b.
Proof. destruct a, b; cbn; congruence. Qed.
Lemma sty_eqb_eq a b : sty_eqb a b = true -> a = b.
Proof. destruct a, b; cbn; congruence. Qed.
Lemma uty_eqb_refl a : uty_eqb a a = true.
Proof. now destruct a. Qed.
Lemma sty_eqb_refl a : sty_eqb a a = true.
Proof. now destruct a. Qed.

Lemma rty_eqb_sound :
  (forall a b, rty_eqb a b = true -> a = b) /\
  (forall a b, rtys_eqb a b = true -> a = b) /\
  (forall a b, rfields_eqb a b = true -> a = b) /\
  (forall a b, rvariants_eqb a b = true -> a = b).
Proof.
  apply rty_mutind.
  - intros [] H; cbn in H; congruence.
  - intros u [] H; cbn in H; try discriminate. apply uty_eqb_eq in H. congruence.
  - intros s [] H; cbn in H; try discriminate. apply sty_eqb_eq in H. congruence.
  - intros t IH n [] H; cbn in H; try discriminate.
    apply andb_prop in H as [H1 H2]. apply IH in H1. apply N.eqb_eq in H2. congruence.
  - intros ts IH [] H; cbn in H; try discriminate. apply IH in H. congruence.
  - intros n fs IH [] H; cbn in H; try discriminate.
    apply andb_prop in H as [H1 H2]. apply IH in H2. apply N.eqb_eq in H1. congruence.
  - intros n vs IH [] H; cbn in H; try discriminate.
    apply andb_prop in H as [H1 H2]. apply IH in H2. apply N.eqb_eq in H1. congruence.
  - intros [] H; cbn in H; congruence.
  - intros t IHt r IHr [] H; cbn in H; try discriminate.
    apply andb_prop in H as [H1 H2]. apply IHt in H1. apply IHr in H2. congruence.
  - intros [] H; cbn in H; congruence.
  - intros n t IHt r IHr [] H; cbn in H; try discriminate.
    apply andb_prop in H as [H12 H3]. apply andb_prop in H12 as [H1 H2].
    apply IHt in H2. apply IHr in H3. apply N.eqb_eq in H1. congruence.
  - intros [] H; cbn in H; congruence.
  - intros n r IHr [] H; cbn in H; try discriminate.
    apply andb_prop in H as [H1 H2]. apply IHr in H2. apply N.eqb_eq in H1. congruence.
  - intros n ts IHt r IHr [] H; cbn in H; try discriminate.
    apply andb_prop in H as [H12 H3]. apply andb_prop in H12 as [H1 H2].
    apply IHt in H2. apply IHr in H3. apply N.eqb_eq in H1. congruence.
Qed.

Lemma wf_enum_closed E n vs :
  wf E (REnum n vs) = true -> assoc n E = Some vs /\ wf_variants E vs = true.
Proof.
  cbn [wf]. intro H. apply andb_prop in H as [H1 H2]. split; [|exact H2].
  destruct (assoc n E) as [vs'|]; [|discriminate].
  apply (proj2 (proj2 (proj2 rty_eqb_sound))) in H1. congruence.
Qed.

(* ------------------------------------------------------------------ bits *)

Lemma lenN_ubits_of k n : lenN (ubits_of (N.to_nat k) n) = k.
Proof. rewrite ubits_of_N_to_bits. apply lenN_N_to_bits. Qed.
Lemma lenN_sbits_of k z : lenN (sbits_of (N.to_nat k) z) = k.
Proof. rewrite (sbits_of_N_to_bits z _ _ (le_n _)). apply lenN_N_to_bits. Qed.

Lemma N_of_bits_ubits k n : N_of_bits (ubits_of k n) = n mod 2 ^ N.of_nat k.
Proof. rewrite N_of_bits_bits_to_N, ubits_of_N_to_bits. apply bits_to_N_N_to_bits. Qed.

Lemma signed_bits_value k z : Z.of_N (N_of_bits (sbits_of k z)) = (z mod 2 ^ Z.of_nat k)%Z.
Proof. rewrite N_of_bits_bits_to_N. apply bits_to_N_sbits_of. Qed.

Lemma N_of_bits_bound l : N_of_bits l < 2 ^ lenN l.
Proof. rewrite N_of_bits_bits_to_N. apply bits_to_N_lt. Qed.

(* the residue of z mod 2^k is z or z + 2^k according to the sign of z, which the comparison
   with 2^(k-1) tells apart *)
Lemma signed_roundtrip k z :
  (0 < k)%nat -> (- 2 ^ (Z.of_nat k - 1) <= z < 2 ^ (Z.of_nat k - 1))%Z ->
  signed_of_bits (N.of_nat k) (sbits_of k z) = z.
Proof.
  intros Hk Hz. unfold signed_of_bits. pose proof (signed_bits_value k z) as Hm.
  set (u := N_of_bits (sbits_of k z)) in *.
  assert (H2k : (2 ^ Z.of_nat k = 2 * 2 ^ (Z.of_nat k - 1))%Z).
  { rewrite <- Z.pow_succ_r by lia. f_equal. lia. }
  assert (Hpow : Z.of_N (2 ^ (N.of_nat k - 1)) = (2 ^ (Z.of_nat k - 1))%Z).
  { rewrite N2Z.inj_pow, N2Z.inj_sub by lia. rewrite nat_N_Z. reflexivity. }
  rewrite nat_N_Z. destruct (Z.neg_nonneg_cases z) as [Hneg|Hnn].
  - rewrite <- (Z.mod_add z 1), Z.mod_small in Hm by lia.
    destruct (N.leb_spec (2 ^ (N.of_nat k - 1)) u) as [H|H]; [|apply N2Z.inj_lt in H]; lia.
  - rewrite Z.mod_small in Hm by lia.
    destruct (N.leb_spec (2 ^ (N.of_nat k - 1)) u) as [H|H]; [apply N2Z.inj_le in H|]; lia.
Qed.

(* ------------------------------------------------------------------ lists of bits *)

Lemma firstn_exact {A} (a b : list A) sz :
  lenN a = sz -> firstn (N.to_nat sz) (a ++ b) = a.
Proof.
  unfold lenN. intros <-. rewrite Nat2N.id.
  induction a as [|x a IH]; cbn [length firstn app]; [now destruct b|]. now rewrite IH.
Qed.

Lemma skipn_exact {A} (a b : list A) sz :
  lenN a = sz -> skipn (N.to_nat sz) (a ++ b) = b.
Proof.
  unfold lenN. intros <-. rewrite Nat2N.id.
  induction a as [|x a IH]; cbn [length skipn app]; [reflexivity|]. exact IH.
Qed.

(* one step of the sequential decoders [from_bits_rep], [from_bits_tys], [from_bits_fields] *)
Lemma slice_step {A B} (f : list bool -> dres lit) (rest : list bool -> dres A) (mk : lit -> A -> B)
    sz b r v vs :
  lenN b = sz -> f b = Ok (Some v) -> rest r = Ok (Some vs) ->
  (if sz <=? lenN (b ++ r)
   then let+ v := f (firstn (N.to_nat sz) (b ++ r)) in
        let+ vs := rest (skipn (N.to_nat sz) (b ++ r)) in Ok (Some (mk v vs))
   else Crash) = Ok (Some (mk v vs)).
Proof.
  intros Hl Hf Hr. rewrite (firstn_exact _ _ _ Hl), (skipn_exact _ _ _ Hl), Hf, Hr.
  destruct (N.leb_spec sz (lenN (b ++ r))) as [_|Hc]; [reflexivity|]. rewrite lenN_app in Hc. lia.
Qed.

Lemma to_nat_1_add x : N.to_nat (1 + x) = S (N.to_nat x).
Proof. lia. Qed.

(* ------------------------------------------------------------------ integer ranges *)

Lemma u_in_range_lt n u : u_in_range n u = true -> n < 2 ^ ubits u.
Proof.
  unfold u_in_range. destruct u; cbn [umax ubits]; try discriminate; intro H;
    apply N.leb_le in H;
    match goal with |- _ < ?p => let v := eval vm_compute in p in change p with v end; lia.
Qed.

Lemma unsigned_roundtrip n u :
  u_in_range n u = true -> N_of_bits (ubits_of (N.to_nat (ubits u)) n) = n.
Proof.
  intro H. rewrite N_of_bits_ubits, N2Nat.id. apply N.mod_small. now apply u_in_range_lt.
Qed.

Lemma signed_roundtrip_sty z s :
  s_in_range z s = true ->
  signed_of_bits (sbits s) (sbits_of (N.to_nat (sbits s)) z) = z.
Proof.
  unfold s_in_range. destruct s; cbn [smin smax]; try discriminate; intro H;
    apply andb_prop in H as [H1 H2]; apply Z.leb_le in H1, H2.
  - apply (signed_roundtrip 8 z); [lia|]. change (2 ^ (Z.of_nat 8 - 1))%Z with 128%Z. lia.
  - apply (signed_roundtrip 16 z); [lia|]. change (2 ^ (Z.of_nat 16 - 1))%Z with 32768%Z. lia.
  - apply (signed_roundtrip 32 z); [lia|].
    change (2 ^ (Z.of_nat 32 - 1))%Z with 2147483648%Z. lia.
  - apply (signed_roundtrip 64 z); [lia|].
    change (2 ^ (Z.of_nat 64 - 1))%Z with 9223372036854775808%Z. lia.
Qed.

(* ------------------------------------------------------------------ variants *)

Lemma find_variant_payload vs v i idx ts :
  find_variant vs v i = Some (idx, VITuple ts) -> size_tys ts <= max_payload vs.
Proof.
  revert i. induction vs as [|n r IH|n ts' r IH]; intros i H; cbn [find_variant max_payload] in *.
  - discriminate.
  - destruct (n =? v); [discriminate|]. eauto.
  - destruct (n =? v).
    + inversion H; subst. lia.
    + apply IH in H. lia.
Qed.

Lemma find_variant_wf E vs v i idx ts :
  wf_variants E vs = true -> find_variant vs v i = Some (idx, VITuple ts) -> wf_tys E ts = true.
Proof.
  revert i. induction vs as [|n r IH|n ts' r IH]; intros i W H; cbn [find_variant wf_variants] in *.
  - discriminate.
  - destruct (n =? v); [discriminate|]. eauto.
  - apply andb_prop in W as [W1 W2]. destruct (n =? v).
    + inversion H; subst. exact W1.
    + eauto.
Qed.

Lemma find_variant_idx vs v i idx info :
  find_variant vs v i = Some (idx, info) -> i <= idx < i + nvariants vs.
Proof.
  revert i. induction vs as [|n r IH|n ts' r IH]; intros i H; cbn [find_variant nvariants] in *.
  - discriminate.
  - destruct (n =? v); [inversion H; subst; lia|]. apply IH in H. lia.
  - destruct (n =? v); [inversion H; subst; lia|]. apply IH in H. lia.
Qed.

Definition decode_variant (name v tsz : N) (bits : list bool) (info : vinfo) : dres lit :=
  match info with
  | VIUnit => Ok (Some (LEnumUnit name v))
  | VITuple ts =>
      if (match ts with RsNil => true | RsCons _ _ => tsz <=? lenN bits end) then
        let+ es := from_bits_tys ts (skipn (N.to_nat tsz) bits) in
        Ok (Some (LEnumTuple name v es))
      else Crash
  end.

Lemma find_variant_decode vs v i idx info name tsz bits :
  find_variant vs v i = Some (idx, info) ->
  from_bits_variant vs (idx - i) name tsz bits = decode_variant name v tsz bits info.
Proof.
  revert i. induction vs as [|n r IH|n ts' r IH]; intros i H; cbn [find_variant] in H.
  - discriminate.
  - cbn [from_bits_variant]. destruct (N.eqb_spec n v) as [->|Hne].
    + inversion H; subst. rewrite N.sub_diag. reflexivity.
    + pose proof (find_variant_idx _ _ _ _ _ H) as Hi.
      destruct (N.eqb_spec (idx - i) 0) as [Hz|_]; [lia|].
      replace (idx - i - 1) with (idx - (i + 1)) by lia. now apply IH.
  - cbn [from_bits_variant]. destruct (N.eqb_spec n v) as [->|Hne].
    + inversion H; subst. rewrite N.sub_diag. reflexivity.
    + pose proof (find_variant_idx _ _ _ _ _ H) as Hi.
      destruct (N.eqb_spec (idx - i) 0) as [Hz|_]; [lia|].
      replace (idx - i - 1) with (idx - (i + 1)) by lia. now apply IH.
Qed.

Lemma tag_size_bound n : n <= 2 ^ tag_size n.
Proof.
  unfold tag_size. destruct (N.le_gt_cases n 1) as [H|H].
  - rewrite N.log2_up_eqn0 by exact H. cbn. exact H.
  - apply N.log2_up_spec in H. lia.
Qed.

(* ------------------------------------------------------------------ [has_type] read as a
   relation given by rules: to prove something of every typed value (element list, payload,
   field list), prove it for each rule, with the premises already taken apart *)
Lemma has_type_ind (P : lit -> rty -> Prop) (PA : lits -> rty -> Prop) (PZ : lits -> rtys -> Prop)
      (PF : lfields -> rfields -> Prop) :
  P LTrue RBool -> P LFalse RBool ->
  (forall n u, u_in_range n u = true -> P (LUnsigned n u) (RUnsigned u)) ->
  (forall z s, s_in_range z s = true -> P (LSigned z s) (RSigned s)) ->
  (forall vs et, all_has_type vs et = true -> PA vs et -> P (LArray vs) (RArray et (lits_len vs))) ->
  (forall vs ts, zip_has_type vs ts = true -> PZ vs ts -> P (LTuple vs) (RTuple ts)) ->
  (forall n fs dfs, fields_has_type fs dfs = true -> PF fs dfs -> P (LStruct n fs) (RStruct n dfs)) ->
  (forall n v vs idx, find_variant vs v 0 = Some (idx, VIUnit) -> P (LEnumUnit n v) (REnum n vs)) ->
  (forall n v es vs idx ts, find_variant vs v 0 = Some (idx, VITuple ts) -> zip_has_type es ts = true -> PZ es ts ->
     P (LEnumTuple n v es) (REnum n vs)) ->
  (forall t, PA LsNil t) ->
  (forall v r t, has_type v t = true -> P v t -> all_has_type r t = true -> PA r t -> PA (LsCons v r) t) ->
  PZ LsNil RsNil ->
  (forall v r t tr, has_type v t = true -> P v t -> zip_has_type r tr = true -> PZ r tr -> PZ (LsCons v r) (RsCons t tr)) ->
  PF LFNil RFNil ->
  (forall n v r t dr, has_type v t = true -> P v t -> fields_has_type r dr = true -> PF r dr ->
     PF (LFCons n v r) (RFCons n t dr)) ->
  (forall v T, has_type v T = true -> P v T) /\
  (forall vs, (forall t, all_has_type vs t = true -> PA vs t) /\ (forall ts, zip_has_type vs ts = true -> PZ vs ts)) /\
  (forall fs dfs, fields_has_type fs dfs = true -> PF fs dfs).
Proof.
  intros Ht Hf Hu Hs Ha Htu Hst Heu Het Han Hac Hzn Hzc Hfn Hfc. apply lit_mutind.
  - intros [] H; try discriminate H. exact Ht.
  - intros [] H; try discriminate H. exact Hf.
  - intros n u [|u'| | | | |] H; try discriminate H. apply andb_prop in H as [E H]. apply uty_eqb_eq in E as <-. now apply Hu.
  - intros z s [| |s'| | | |] H; try discriminate H. apply andb_prop in H as [E H]. apply sty_eqb_eq in E as <-. now apply Hs.
  - intros e _ n [] H; discriminate H.
  - intros vs [IH _] [| | |et n| | |] H; try discriminate H. apply andb_prop in H as [E H]. apply N.eqb_eq in E as <-. auto.
  - intros vs [_ IH] [| | | |ts| |] H; try discriminate H. auto.
  - intros n fs IH [| | | | |n' dfs|] H; try discriminate H. apply andb_prop in H as [E H]. apply N.eqb_eq in E as <-. auto.
  - intros n v [| | | | | |n' vs] H; try discriminate H. apply andb_prop in H as [E H]. apply N.eqb_eq in E as <-.
    destruct (find_variant vs v 0) as [[idx [|ts]]|] eqn:HF; try discriminate H. exact (Heu n v vs idx HF).
  - intros n v es [_ IH] [| | | | | |n' vs] H; try discriminate H. apply andb_prop in H as [E H]. apply N.eqb_eq in E as <-.
    destruct (find_variant vs v 0) as [[idx [|ts]]|] eqn:HF; try discriminate H. exact (Het n v es vs idx ts HF H (IH ts H)).
  - intros mn mx u [] H; discriminate H.
  - split; [intros; apply Han|]. intros [|] H; [exact Hzn|discriminate H].
  - intros v IHv r [IHa IHz]. split.
    + intros t H. apply andb_prop in H as [H1 H2]. auto.
    + intros [|t tr] H; [discriminate H|]. apply andb_prop in H as [H1 H2]. auto.
  - intros [|] H; [exact Hfn|discriminate H].
  - intros n v IHv r IHr [|dn t dr] H; [discriminate H|]. apply andb_prop in H as [H H3]. apply andb_prop in H as [E H2].
    apply N.eqb_eq in E as <-. auto.
Qed.

(* ------------------------------------------------------------------ typed values:
   the encoder succeeds, yields size(T) bits, and the decoder inverts it *)
Section Encode.
Variable E : list (N * rvariants).

Definition enc_ok (v : lit) (T : rty) : Prop :=
  exists bits, as_bits E v = Ok bits /\ lenN bits = size T /\ from_bits T bits = Ok (Some v).

Definition enc_all_ok (vs : lits) (t : rty) : Prop :=
  exists bits, as_bits_list E vs = Ok bits /\ lenN bits = size t * lits_len vs /\
    forall extra, from_bits_rep (from_bits t) (size t) (N.to_nat (lits_len vs)) (bits ++ extra)
                  = Ok (Some vs).

Definition enc_zip_ok (vs : lits) (ts : rtys) : Prop :=
  exists bits, as_bits_list E vs = Ok bits /\ lenN bits = size_tys ts /\
    forall extra, from_bits_tys ts (bits ++ extra) = Ok (Some vs).

Definition enc_fields_ok (fs : lfields) (dfs : rfields) : Prop :=
  exists bits, as_bits_fields E fs = Ok bits /\ lenN bits = size_fields dfs /\
    forall extra, from_bits_fields dfs (bits ++ extra) = Ok (Some fs).

Lemma enum_encode name v vs idx info p :
  assoc name E = Some vs -> find_variant vs v 0 = Some (idx, info) ->
  lenN p <= max_payload vs ->
  exists bits,
    enum_bits E name v (Ok p) = Ok bits /\ lenN bits = enum_size vs /\
    bits = ubits_of (N.to_nat (tag_size (nvariants vs))) idx ++ p ++
           repeat false (N.to_nat (enum_size vs - tag_size (nvariants vs) - lenN p)) /\
    forall tsz, tsz = tag_size (nvariants vs) ->
      from_bits (REnum name vs) bits = decode_variant name v tsz bits info.
Proof.
  intros HA HF Hp. unfold enum_bits. rewrite HA, HF. cbn [bind].
  unfold enum_size in *.
  destruct (N.leb_spec (tag_size (nvariants vs) + lenN p)
                       (max_payload vs + tag_size (nvariants vs))) as [_|Hc]; [|lia].
  eexists. split; [reflexivity|]. split; [|split; [reflexivity|]].
  - rewrite !lenN_app, lenN_ubits_of, lenN_repeat. lia.
  - intros tsz ->. cbn [from_bits].
    set (tsz := tag_size (nvariants vs)).
    set (tagbits := ubits_of (N.to_nat tsz) idx).
    assert (Hlen : lenN tagbits = tsz) by apply lenN_ubits_of.
    assert (Htag : tag_of_bits tsz (tagbits ++ p ++ repeat false
                     (N.to_nat (max_payload vs + tsz - tsz - lenN p))) = idx).
    { unfold tag_of_bits. rewrite (firstn_exact _ _ _ Hlen), Hlen, N.sub_diag.
      unfold tagbits. rewrite N_of_bits_ubits, N2Nat.id.
      pose proof (find_variant_idx _ _ _ _ _ HF) as Hi.
      pose proof (tag_size_bound (nvariants vs)) as Hb. fold tsz in Hb.
      rewrite N.mod_small by lia. cbn. lia. }
    rewrite Htag. rewrite <- (N.sub_0_r idx) at 1.
    now apply find_variant_decode.
Qed.

Lemma has_type_encode :
  (forall v T, has_type v T = true -> wf E T = true -> enc_ok v T) /\
  (forall vs, (forall t, all_has_type vs t = true -> wf E t = true -> enc_all_ok vs t) /\
              (forall ts, zip_has_type vs ts = true -> wf_tys E ts = true -> enc_zip_ok vs ts)) /\
  (forall fs dfs, fields_has_type fs dfs = true -> wf_fields E dfs = true -> enc_fields_ok fs dfs).
Proof.
  apply has_type_ind.
  - exists [true]. now cbn.
  - exists [false]. now cbn.
  - intros n u H _. eexists. split; [reflexivity|]. split; [apply lenN_ubits_of|].
    cbn [from_bits]. rewrite lenN_ubits_of, N.eqb_refl. now rewrite unsigned_roundtrip.
  - intros z s H _. eexists. split; [reflexivity|]. split; [apply lenN_sbits_of|].
    cbn [from_bits]. rewrite lenN_sbits_of, N.eqb_refl. now rewrite signed_roundtrip_sty.
  - intros vs et _ IH W. destruct (IH W) as (bits & Hb & Hl & Hd).
    exists bits. split; [exact Hb|]. split; [cbn [size]; lia|].
    cbn [from_bits]. specialize (Hd []). rewrite app_nil_r in Hd. now rewrite Hd.
  - intros vs ts _ IH W. destruct (IH W) as (bits & Hb & Hl & Hd).
    exists bits. split; [exact Hb|]. split; [exact Hl|].
    cbn [from_bits]. specialize (Hd []). rewrite app_nil_r in Hd. now rewrite Hd.
  - intros name fs dfs _ IH W. cbn [wf] in W. apply andb_prop in W as [_ W].
    destruct (IH W) as (bits & Hb & Hl & Hd).
    exists bits. split; [exact Hb|]. split; [exact Hl|].
    cbn [from_bits]. specialize (Hd []). rewrite app_nil_r in Hd. now rewrite Hd.
  - intros name v vs idx HF W. apply wf_enum_closed in W as [HA WV].
    destruct (enum_encode name v vs idx VIUnit [] HA HF) as (bits & Hb & Hl & _ & Hd).
    { unfold lenN. cbn. lia. }
    exists bits. cbn [as_bits]. split; [exact Hb|]. split; [exact Hl|].
    now rewrite (Hd _ eq_refl).
  - intros name v es vs idx ts HF _ IH W. apply wf_enum_closed in W as [HA WV].
    destruct (IH (find_variant_wf _ _ _ _ _ _ WV HF)) as (p & Hp & Hpl & Hpd).
    pose proof (find_variant_payload _ _ _ _ _ HF) as Hle.
    destruct (enum_encode name v vs idx (VITuple ts) p HA HF) as (bits & Hb & Hl & Hshape & Hd);
      [lia|].
    exists bits. cbn [as_bits]. rewrite Hp. split; [exact Hb|]. split; [exact Hl|].
    rewrite (Hd _ eq_refl). unfold decode_variant.
    assert (Hts : (match ts with RsNil => true | RsCons _ _ =>
                     tag_size (nvariants vs) <=? lenN bits end) = true).
    { destruct ts; [reflexivity|]. apply N.leb_le. rewrite Hl. unfold enum_size. lia. }
    rewrite Hts. rewrite Hshape at 1.
    rewrite (skipn_exact _ _ _ (lenN_ubits_of _ _)), Hpd. reflexivity.
  - intros t _. exists []. cbn. split; [reflexivity|]. split; [unfold lenN; cbn; lia|].
    reflexivity.
  - intros v r t _ IHv _ IHr W.
    destruct (IHv W) as (b & Hb & Hbl & Hbd). destruct (IHr W) as (br & Hbr & Hbrl & Hbrd).
    exists (b ++ br). cbn [as_bits_list]. rewrite Hb, Hbr. cbn [bind].
    split; [reflexivity|]. split; [rewrite lenN_app; cbn [lits_len]; lia|].
    intro extra. cbn [lits_len]. rewrite to_nat_1_add, <- app_assoc.
    exact (slice_step _ (from_bits_rep _ _ _) LsCons _ _ _ _ _ Hbl Hbd (Hbrd extra)).
  - intros _. exists []. now cbn.
  - intros v r t tr _ IHv _ IHr W. cbn [wf_tys] in W. apply andb_prop in W as [W1 W2].
    destruct (IHv W1) as (b & Hb & Hbl & Hbd). destruct (IHr W2) as (br & Hbr & Hbrl & Hbrd).
    exists (b ++ br). cbn [as_bits_list]. rewrite Hb, Hbr. cbn [bind].
    split; [reflexivity|]. split; [rewrite lenN_app; cbn [size_tys]; lia|].
    intro extra. rewrite <- app_assoc.
    exact (slice_step _ (from_bits_tys tr) LsCons _ _ _ _ _ Hbl Hbd (Hbrd extra)).
  - intros _. exists []. now cbn.
  - intros n v r t dr _ IHv _ IHr W. cbn [wf_fields] in W. apply andb_prop in W as [W1 W2].
    destruct (IHv W1) as (b & Hb & Hbl & Hbd). destruct (IHr W2) as (br & Hbr & Hbrl & Hbrd).
    exists (b ++ br). cbn [as_bits_fields]. rewrite Hb, Hbr. cbn [bind].
    split; [reflexivity|]. split; [rewrite lenN_app; cbn [size_fields]; lia|].
    intro extra. rewrite <- app_assoc.
    exact (slice_step _ (from_bits_fields dr) (LFCons n) _ _ _ _ _ Hbl Hbd (Hbrd extra)).
Qed.

End Encode.

(* ------------------------------------------------------------------ spellings *)

Lemma replicate_len k v : lits_len (replicate k v) = N.of_nat k.
Proof. induction k as [|k IH]; cbn [replicate lits_len]; lia. Qed.

Lemma replicate_typed k v t : has_type v t = true -> all_has_type (replicate k v) t = true.
Proof. intro H. induction k as [|k IH]; cbn [replicate all_has_type]; [reflexivity|]. now rewrite H. Qed.

Lemma replicate_bits E k v b :
  as_bits E v = Ok b -> as_bits_list E (replicate k v) = Ok (repeat_bits k b).
Proof.
  intro H. induction k as [|k IH]; cbn [replicate as_bits_list repeat_bits]; [reflexivity|].
  now rewrite H, IH.
Qed.

Lemma range_lits_len c s u : lits_len (range_lits c s u) = N.of_nat c.
Proof. revert s. induction c as [|c IH]; intro s; cbn [range_lits lits_len]; [reflexivity|]. rewrite IH. lia. Qed.

Lemma u_in_range_mono i j u : i <= j -> u_in_range j u = true -> u_in_range i u = true.
Proof.
  unfold u_in_range. destruct (umax u); [|discriminate]. intros Hij H.
  apply N.leb_le in H. apply N.leb_le. lia.
Qed.

Lemma range_lits_typed u c s :
  (c = 0%nat \/ u_in_range (s + N.of_nat c - 1) u = true) ->
  all_has_type (range_lits c s u) (RUnsigned u) = true.
Proof.
  revert s. induction c as [|c IH]; intros s H; cbn [range_lits all_has_type]; [reflexivity|].
  destruct H as [H|H]; [discriminate|].
  cbn [has_type]. rewrite uty_eqb_refl. cbn [andb].
  assert (Hs : u_in_range s u = true).
  { apply (u_in_range_mono s (s + N.of_nat (S c) - 1) u); [lia|exact H]. }
  rewrite Hs. cbn [andb].
  apply IH. destruct c as [|c']; [now left|right].
  replace (s + 1 + N.of_nat (S c') - 1) with (s + N.of_nat (S (S c')) - 1) by lia. exact H.
Qed.

Lemma range_lits_bits E u c s :
  as_bits_list E (range_lits c s u) = Ok (range_bits c s (N.to_nat (ubits u))).
Proof.
  revert s. induction c as [|c IH]; intro s; cbn [range_lits as_bits_list range_bits]; [reflexivity|].
  cbn [as_bits bind]. now rewrite IH.
Qed.

Lemma sorted_fields_sort vfs : forall dfs lo,
  fields_has_type vfs dfs = true -> fields_sorted lo dfs = true -> sort_fields vfs = Some vfs.
Proof.
  induction vfs as [|n v r IH]; intros dfs lo H S; [reflexivity|].
  destruct dfs as [|dn t dr]; [discriminate|].
  cbn [fields_has_type] in H. apply andb_prop in H as [H12 H3].
  apply andb_prop in H12 as [H1 _]. apply N.eqb_eq in H1. subst dn.
  cbn [fields_sorted] in S. apply andb_prop in S as [_ S].
  cbn [sort_fields]. rewrite (IH dr (Some n) H3 S).
  destruct r as [|n2 v2 r']; [reflexivity|].
  destruct dr as [|dn2 t2 dr2]; [discriminate|].
  cbn [fields_has_type] in H3. apply andb_prop in H3 as [H12 _].
  apply andb_prop in H12 as [H1 _]. apply N.eqb_eq in H1. subst dn2.
  cbn [fields_sorted] in S. apply andb_prop in S as [S _].
  cbn [insert_field]. now rewrite S.
Qed.

Section Accept.
Variable E : list (N * rvariants).

Definition acc_ok (l : lit) (T : rty) : Prop :=
  exists v, denote l = Some v /\ has_type v T = true /\ as_bits E l = as_bits E v.

Lemma accept_denotes :
  (forall l T, wf E T = true -> is_of_type l T = true -> acc_ok l T) /\
  (forall ls,
     (forall t, wf E t = true -> all_of_type ls t = true ->
        exists vs, denote_list ls = Some vs /\ all_has_type vs t = true /\
                   lits_len vs = lits_len ls /\ as_bits_list E ls = as_bits_list E vs) /\
     (forall ts, wf_tys E ts = true -> zip_of_type ls ts = true ->
        exists vs, denote_list ls = Some vs /\ zip_has_type vs ts = true /\
                   as_bits_list E ls = as_bits_list E vs)) /\
  (forall fs dfs, wf_fields E dfs = true -> fields_of_type fs dfs = true ->
     exists vfs, denote_fields fs = Some vfs /\ fields_has_type vfs dfs = true /\
                 as_bits_fields E fs = as_bits_fields E vfs).
Proof.
  apply lit_mutind.
  - intros T W H. destruct T; try discriminate. exists LTrue. now cbn.
  - intros T W H. destruct T; try discriminate. exists LFalse. now cbn.
  - (* LUnsigned *) intros n u T W H. destruct T as [|u'| | | | |]; try discriminate.
    cbn [is_of_type] in H. pose proof H as H0. apply andb_prop in H as [H1 H2].
    apply uty_eqb_eq in H1. subst u'.
    exists (LUnsigned n u). cbn [denote]. rewrite H2.
    split; [reflexivity|]. split; [exact H0|reflexivity].
  - (* LSigned *) intros z s T W H. destruct T as [| |s'| | | |]; try discriminate.
    cbn [is_of_type] in H. pose proof H as H0. apply andb_prop in H as [H1 H2].
    apply sty_eqb_eq in H1. subst s'.
    exists (LSigned z s). cbn [denote]. rewrite H2.
    split; [reflexivity|]. split; [exact H0|reflexivity].
  - (* LRepeat *) intros e IHe n T W H. destruct T as [| | |et n'| | |]; try discriminate.
    cbn [is_of_type] in H. apply andb_prop in H as [H1 H2]. apply N.eqb_eq in H1. subst n'.
    cbn [wf] in W. destruct (IHe et W H2) as (v & Hd & Ht & Hb).
    destruct (proj1 (has_type_encode E) v et Ht W) as (b & Hvb & _ & _).
    exists (LArray (replicate (N.to_nat n) v)). cbn [denote]. rewrite Hd.
    split; [reflexivity|]. split.
    + cbn [has_type]. rewrite replicate_len, N2Nat.id, N.eqb_refl. cbn [andb].
      now apply replicate_typed.
    + cbn [as_bits]. rewrite Hb, Hvb. cbn [bind]. symmetry. now apply replicate_bits.
  - (* LArray *) intros es [IH _] T W H. destruct T as [| | |et n| | |]; try discriminate.
    cbn [is_of_type] in H. apply andb_prop in H as [H1 H2].
    cbn [wf] in W. destruct (IH et W H2) as (vs & Hd & Ht & Hl & Hb).
    exists (LArray vs). cbn [denote]. rewrite Hd. split; [reflexivity|]. split.
    + cbn [has_type]. rewrite Hl, H1. exact Ht.
    + cbn [as_bits]. exact Hb.
  - (* LTuple *) intros es [_ IH] T W H. destruct T as [| | | |ts| |]; try discriminate.
    cbn [is_of_type] in H. cbn [wf] in W. destruct (IH ts W H) as (vs & Hd & Ht & Hb).
    exists (LTuple vs). cbn [denote]. rewrite Hd. now cbn.
  - (* LStruct *) intros name fs IH T W H. destruct T as [| | | | |name' dfs|]; try discriminate.
    cbn [is_of_type] in H. apply andb_prop in H as [H1 H2].
    cbn [wf] in W. apply andb_prop in W as [S W].
    destruct (IH dfs W H2) as (vfs & Hd & Ht & Hb).
    exists (LStruct name vfs). cbn [denote]. rewrite Hd, (sorted_fields_sort _ _ _ Ht S).
    split; [reflexivity|]. split; [cbn [has_type]; now rewrite H1|]. exact Hb.
  - (* LEnumUnit *) intros name v T W H. destruct T as [| | | | | |name' vs]; try discriminate.
    exists (LEnumUnit name v). now cbn.
  - (* LEnumTuple *) intros name v es [_ IH] T W H.
    destruct T as [| | | | | |name' vs]; try discriminate.
    cbn [is_of_type] in H. apply andb_prop in H as [H1 H2].
    apply wf_enum_closed in W as [HA WV].
    destruct (find_variant vs v 0) as [[idx [|ts]]|] eqn:HF; try discriminate.
    pose proof (find_variant_wf _ _ _ _ _ _ WV HF) as Wts.
    destruct (IH ts Wts H2) as (vs' & Hd & Ht & Hb).
    exists (LEnumTuple name v vs'). cbn [denote]. rewrite Hd. split; [reflexivity|]. split.
    + cbn [has_type]. now rewrite H1, HF.
    + cbn [as_bits]. now rewrite Hb.
  - (* LRange *) intros mn mx u T W H. destruct T as [| | |et n| | |]; try discriminate.
    cbn [is_of_type] in H. apply andb_prop in H as [H12 H3]. apply andb_prop in H12 as [H1 H2].
    destruct et as [|u'| | | | |]; try discriminate. apply uty_eqb_eq in H1. subst u'.
    apply N.eqb_eq in H3.
    exists (LArray (range_lits (N.to_nat (mx - mn)) mn u)). cbn [denote]. rewrite H2.
    split; [reflexivity|]. split.
    + cbn [has_type]. rewrite range_lits_len, N2Nat.id, H3, N.eqb_refl. cbn [andb].
      apply range_lits_typed. unfold range_ok in H2. apply andb_prop in H2 as [Ha Hb].
      apply N.leb_le in Ha. apply orb_prop in Hb as [Hb|Hb].
      * apply N.eqb_eq in Hb. left. lia.
      * right. match goal with |- u_in_range ?x u = true => replace x with (mx - 1) by lia end.
        exact Hb.
    + cbn [as_bits]. symmetry. apply range_lits_bits.
  - (* LsNil *) split.
    + intros t W H. exists LsNil. now cbn.
    + intros ts W H. destruct ts; [|discriminate]. exists LsNil. now cbn.
  - (* LsCons *) intros l IHl r [IHr1 IHr2]. split.
    + intros t W H. cbn [all_of_type] in H. apply andb_prop in H as [H1 H2].
      destruct (IHl t W H1) as (v & Hd & Ht & Hb).
      destruct (IHr1 t W H2) as (vs & Hds & Hts & Hls & Hbs).
      exists (LsCons v vs). cbn [denote_list]. rewrite Hd, Hds. split; [reflexivity|].
      cbn [all_has_type lits_len as_bits_list]. rewrite Ht, Hts, Hls, Hb, Hbs. auto.
    + intros ts W H. destruct ts as [|t tr]; [discriminate|].
      cbn [zip_of_type] in H. apply andb_prop in H as [H1 H2].
      cbn [wf_tys] in W. apply andb_prop in W as [W1 W2].
      destruct (IHl t W1 H1) as (v & Hd & Ht & Hb).
      destruct (IHr2 tr W2 H2) as (vs & Hds & Hts & Hbs).
      exists (LsCons v vs). cbn [denote_list]. rewrite Hd, Hds. split; [reflexivity|].
      cbn [zip_has_type as_bits_list]. rewrite Ht, Hts, Hb, Hbs. auto.
  - (* LFNil *) intros dfs W H. destruct dfs; [|discriminate]. exists LFNil. now cbn.
  - (* LFCons *) intros n l IHl r IHr dfs W H. destruct dfs as [|dn t dr]; [discriminate|].
    cbn [fields_of_type] in H. apply andb_prop in H as [H12 H3].
    apply andb_prop in H12 as [H1 H2].
    cbn [wf_fields] in W. apply andb_prop in W as [W1 W2].
    destruct (IHl t W1 H2) as (v & Hd & Ht & Hb).
    destruct (IHr dr W2 H3) as (vs & Hds & Hts & Hbs).
    exists (LFCons n v vs). cbn [denote_fields]. rewrite Hd, Hds. split; [reflexivity|].
    cbn [fields_has_type as_bits_fields]. rewrite H1, Ht, Hts, Hb, Hbs. auto.
Qed.

End Accept.

(* ------------------------------------------------------------------ the statements
   used by Props/C09.v *)

Lemma encode_size E v T :
  wf E T = true -> has_type v T = true ->
  exists bits, as_bits E v = Ok bits /\ N.of_nat (length bits) = size T.
Proof.
  intros W H. destruct (proj1 (has_type_encode E) v T H W) as (bits & Hb & Hl & _). eauto.
Qed.

Lemma decode_encode E v T :
  wf E T = true -> has_type v T = true ->
  exists bits, as_bits E v = Ok bits /\ from_bits T bits = Ok (Some v).
Proof.
  intros W H. destruct (proj1 (has_type_encode E) v T H W) as (bits & Hb & _ & Hd). eauto.
Qed.

Lemma accept_sound E l T :
  wf E T = true -> is_of_type l T = true ->
  exists v bits,
    denote l = Some v /\ has_type v T = true /\
    as_bits E l = Ok bits /\ as_bits E v = Ok bits /\ N.of_nat (length bits) = size T.
Proof.
  intros W H. destruct (proj1 (accept_denotes E) l T W H) as (v & Hd & Ht & Hb).
  destruct (proj1 (has_type_encode E) v T Ht W) as (bits & Hvb & Hl & _).
  exists v, bits. rewrite Hb. auto.
Qed.

(* ------------------------------------------------------------------ typed values are
   accepted by the type test and denote themselves (the type test is not vacuous) *)

Lemma has_type_is_of_type :
  (forall v T, has_type v T = true -> is_of_type v T = true) /\
  (forall vs, (forall t, all_has_type vs t = true -> all_of_type vs t = true) /\
              (forall ts, zip_has_type vs ts = true -> zip_of_type vs ts = true)) /\
  (forall fs dfs, fields_has_type fs dfs = true -> fields_of_type fs dfs = true).
Proof.
  apply has_type_ind; cbn [is_of_type all_of_type zip_of_type fields_of_type]; try reflexivity.
  - intros n u H. now rewrite uty_eqb_refl.
  - intros z s H. now rewrite sty_eqb_refl.
  - intros vs et _ IH. now rewrite N.eqb_refl.
  - auto.
  - intros n fs dfs _ IH. now rewrite N.eqb_refl.
  - intros n v vs idx HF. now rewrite N.eqb_refl, HF.
  - intros n v es vs idx ts HF _ IH. now rewrite N.eqb_refl, HF.
  - intros v r t _ IHv _ IHr. now rewrite IHv.
  - intros v r t tr _ IHv _ IHr. now rewrite IHv.
  - intros n v r t dr _ IHv _ IHr. now rewrite N.eqb_refl, IHv.
Qed.

(* the type is needed for the struct fields: a value lists them in the order of the definition,
   which [wf] makes the sorted order that [denote] produces *)
Lemma has_type_denote E :
  (forall v T, has_type v T = true -> wf E T = true -> denote v = Some v) /\
  (forall vs,
     (forall t, all_has_type vs t = true -> wf E t = true -> denote_list vs = Some vs) /\
     (forall ts, zip_has_type vs ts = true -> wf_tys E ts = true -> denote_list vs = Some vs)) /\
  (forall fs dfs, fields_has_type fs dfs = true -> wf_fields E dfs = true -> denote_fields fs = Some fs).
Proof.
  apply has_type_ind; cbn [denote denote_list denote_fields]; try reflexivity.
  - intros n u H _. now rewrite H.
  - intros z s H _. now rewrite H.
  - intros vs et _ IH W. now rewrite (IH W).
  - intros vs ts _ IH W. now rewrite (IH W).
  - intros n fs dfs H IH W. cbn [wf] in W. apply andb_prop in W as [S W].
    now rewrite (IH W), (sorted_fields_sort _ _ _ H S).
  - intros n v es vs idx ts HF _ IH W. apply wf_enum_closed in W as [_ WV].
    now rewrite (IH (find_variant_wf _ _ _ _ _ _ WV HF)).
  - intros v r t _ IHv _ IHr W. now rewrite (IHv W), (IHr W).
  - intros v r t tr _ IHv _ IHr W. cbn [wf_tys] in W. apply andb_prop in W as [W1 W2]. now rewrite (IHv W1), (IHr W2).
  - intros n v r t dr _ IHv _ IHr W. cbn [wf_fields] in W. apply andb_prop in W as [W1 W2]. now rewrite (IHv W1), (IHr W2).
Qed.

Lemma values_accepted_top E v T :
  wf E T = true -> has_type v T = true -> is_of_type v T = true /\ denote v = Some v.
Proof.
  intros W H. split; [exact (proj1 has_type_is_of_type v T H)|exact (proj1 (has_type_denote E) v T H W)].
Qed.

(* ------------------------------------------------------------------ layout *)

Definition layout_statement : Prop :=
  (* bool: one bit *)
  (forall E, as_bits E LTrue = Ok [true] /\ as_bits E LFalse = Ok [false]) /\
  (* unsigned: size bits, most significant first; the bits read as a number give n mod 2^size *)
  (forall E n u, exists bits,
      as_bits E (LUnsigned n u) = Ok bits /\ length bits = N.to_nat (ubits u) /\
      (forall i, (i < length bits)%nat ->
         nth_error bits i = Some (N.testbit n (N.of_nat (length bits - 1 - i)))) /\
      N_of_bits bits = n mod 2 ^ ubits u) /\
  (* signed: the same bits as the two's-complement residue z mod 2^size *)
  (forall E z s, exists bits,
      as_bits E (LSigned z s) = Ok bits /\ length bits = N.to_nat (sbits s) /\
      (forall i, (i < length bits)%nat ->
         nth_error bits i = Some (Z.testbit z (Z.of_nat (length bits - 1 - i)))) /\
      Z.of_N (N_of_bits bits) = (z mod 2 ^ Z.of_N (sbits s))%Z) /\
  (* arrays, tuples, structs: the elements / fields concatenated in order *)
  (forall E, as_bits E (LArray LsNil) = Ok [] /\ as_bits E (LTuple LsNil) = Ok [] /\
             forall n, as_bits E (LStruct n LFNil) = Ok []) /\
  (forall E v r, as_bits E (LArray (LsCons v r)) =
                 (let* b := as_bits E v in let* br := as_bits E (LArray r) in Ok (b ++ br))) /\
  (forall E v r, as_bits E (LTuple (LsCons v r)) =
                 (let* b := as_bits E v in let* br := as_bits E (LTuple r) in Ok (b ++ br))) /\
  (forall E n f v r, as_bits E (LStruct n (LFCons f v r)) =
                 (let* b := as_bits E v in let* br := as_bits E (LStruct n r) in Ok (b ++ br))) /\
  (* enums: the variant's index in tag_size bits, the payload fields concatenated, zeros up
     to the size of the largest variant *)
  (forall E name v es vs idx info p,
      assoc name E = Some vs -> find_variant vs v 0 = Some (idx, info) ->
      as_bits_list E es = Ok p -> lenN p <= max_payload vs ->
      as_bits E (LEnumTuple name v es) =
        Ok (ubits_of (N.to_nat (tag_size (nvariants vs))) idx ++ p ++
            repeat false (N.to_nat (max_payload vs - lenN p)))) /\
  (forall E name v vs idx info,
      assoc name E = Some vs -> find_variant vs v 0 = Some (idx, info) ->
      as_bits E (LEnumUnit name v) =
        Ok (ubits_of (N.to_nat (tag_size (nvariants vs))) idx ++
            repeat false (N.to_nat (max_payload vs)))).

Lemma layout : layout_statement.
Proof.
  unfold layout_statement. repeat split; try reflexivity.
  - intros E n u. eexists. split; [reflexivity|]. rewrite ubits_of_N_to_bits, N_to_bits_length.
    split; [reflexivity|]. split.
    + intros i Hi. now apply N_to_bits_nth.
    + now rewrite N_of_bits_bits_to_N, bits_to_N_N_to_bits, N2Nat.id.
  - intros E z s. eexists. split; [reflexivity|].
    rewrite (sbits_of_N_to_bits z _ _ (le_n _)), N_to_bits_length. split; [reflexivity|]. split.
    + intros i Hi. rewrite N_to_bits_nth, testbit_low_mod by lia. reflexivity.
    + rewrite <- (sbits_of_N_to_bits z _ _ (le_n _)), signed_bits_value. do 2 f_equal. lia.
  - intros E name v es vs idx info p HA HF Hp Hle. cbn [as_bits]. rewrite Hp.
    destruct (enum_encode E name v vs idx info p HA HF Hle) as (bits & Hb & _ & Hs & _).
    rewrite Hb, Hs. unfold enum_size. do 4 f_equal. lia.
  - intros E name v vs idx info HA HF. cbn [as_bits].
    destruct (enum_encode E name v vs idx info [] HA HF) as (bits & Hb & _ & Hs & _).
    { unfold lenN. cbn. lia. }
    rewrite Hb, Hs. unfold enum_size, lenN. cbn [app length]. do 4 f_equal. lia.
Qed.

(* ------------------------------------------------------------------ non-vacuity: the
   hypotheses of the C09 theorems hold for a type with a struct, an enum with a payload, a
   tuple and an array; one canonical value; one non-canonical accepted spelling; and the
   spellings of DESIGN.md §6-16..19 are refused *)
Module Demo.
  Definition vsE : rvariants :=
    RVUnit 5 (RVTuple 6 (RsCons (RUnsigned U8) (RsCons (RUnsigned U16) RsNil)) RVNil).
  Definition E : list (N * rvariants) := [(10, vsE)].
  Definition S11 : rfields := RFCons 1 (RUnsigned U8) (RFCons 2 (REnum 10 vsE) RFNil).
  Definition T : rty :=
    RTuple (RsCons (RStruct 11 S11) (RsCons (RArray (RSigned I8) 2) RsNil)).
  Definition payload : lits := LsCons (LUnsigned 7 U8) (LsCons (LUnsigned 300 U16) LsNil).
  Definition v : lit :=
    LTuple (LsCons (LStruct 11 (LFCons 1 (LUnsigned 255 U8)
                                 (LFCons 2 (LEnumTuple 10 6 payload) LFNil)))
           (LsCons (LArray (LsCons (LSigned (-128) I8) (LsCons (LSigned (-128) I8) LsNil)))
            LsNil)).
  Definition l : lit :=
    LTuple (LsCons (LStruct 11 (LFCons 1 (LUnsigned 255 U8)
                                 (LFCons 2 (LEnumTuple 10 6 payload) LFNil)))
           (LsCons (LRepeat (LSigned (-128) I8) 2) LsNil)).
  Definition permuted : lit :=
    LStruct 11 (LFCons 2 (LEnumUnit 10 5) (LFCons 1 (LUnsigned 1 U8) LFNil)).
  Definition duplicated : lit :=
    LStruct 11 (LFCons 1 (LUnsigned 1 U8) (LFCons 1 (LUnsigned 1 U8) LFNil)).
  Definition short_payload : lit := LEnumTuple 10 6 (LsCons (LUnsigned 7 U8) LsNil).
  Definition long_payload : lit :=
    LEnumTuple 10 6 (LsCons (LUnsigned 7 U8) (LsCons (LUnsigned 3 U16) (LsCons LTrue LsNil))).
End Demo.

Example demo_hypotheses :
  wf Demo.E Demo.T = true /\ has_type Demo.v Demo.T = true /\
  is_of_type Demo.l Demo.T = true /\ has_type Demo.l Demo.T = false /\
  denote Demo.l = Some Demo.v /\ size Demo.T = 8 + 25 + 16.
Proof. vm_compute. repeat split; reflexivity. Qed.

Example demo_refused :
  is_of_type Demo.permuted (RStruct 11 Demo.S11) = false /\
  is_of_type Demo.duplicated (RStruct 11 Demo.S11) = false /\
  is_of_type Demo.short_payload (REnum 10 Demo.vsE) = false /\
  is_of_type Demo.long_payload (REnum 10 Demo.vsE) = false /\
  is_of_type (LUnsigned 300 U8) (RUnsigned U8) = false /\
  is_of_type (LSigned 200 I8) (RSigned I8) = false /\
  is_of_type (LRange 5 2 U8) (RArray (RUnsigned U8) 3) = false /\
  is_of_type (LRange 254 257 U8) (RArray (RUnsigned U8) 3) = false /\
  is_of_type (LRange 253 256 U8) (RArray (RUnsigned U8) 3) = true.
Proof. vm_compute. repeat split; reflexivity. Qed.
