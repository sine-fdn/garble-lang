(* Type soundness of the re-checker Lang/Wt.v with respect to the specification
   interpreter Lang/Sem.v (definitions in Lang/ValTy.v). *)
From GV Require Import Base.Util Lang.Ast Lang.Sem Lang.Wt Lang.ValTy.
From GV Require Export Base.ListFacts Lang.SemUnfold.
From GV Require Exhaust.EnvRel.
Open Scope N_scope.

Ltac andb_all :=
  repeat match goal with
         | H : _ && _ = true |- _ => apply andb_prop in H; destruct H
         end.

(* ------------------------------------------------------------ lists *)

Lemma forallb2_Forall2 {A B} (f : A -> B -> bool) xs ys :
  forallb2 f xs ys = true <-> Forall2 (fun x y => f x y = true) xs ys.
Proof.
  revert ys. induction xs as [|x xr IH]; intros [|y yr]; cbn [forallb2]; split; intro H;
    try discriminate; try constructor; try solve [inversion H].
  - apply andb_prop in H as [H1 H2]. assumption.
  - apply andb_prop in H as [H1 H2]. now apply IH.
  - inversion H; subst. apply andb_true_intro. split; [assumption|now apply IH].
Qed.

(* ------------------------------------------------------------ induction on values *)

Section ValueInd.
  Variable Q : value -> Prop.
  Hypothesis HB : forall b, Q (VBool b).
  Hypothesis HI : forall z, Q (VInt z).
  Hypothesis HA : forall vs, Forall Q vs -> Q (VArr vs).
  Hypothesis HT : forall vs, Forall Q vs -> Q (VTup vs).
  Hypothesis HE : forall tag vs, Forall Q vs -> Q (VEnum tag vs).
  Fixpoint value_ind2 (v : value) : Q v :=
    let go := fix go (l : list value) : Forall Q l :=
      match l with
      | [] => Forall_nil Q
      | x :: r => Forall_cons x (value_ind2 x) (go r)
      end in
    match v with
    | VBool b => HB b
    | VInt z => HI z
    | VArr vs => HA vs (go vs)
    | VTup vs => HT vs (go vs)
    | VEnum tag vs => HE tag vs (go vs)
    end.
End ValueInd.

(* ------------------------------------------------------------ has_ty: equations *)

(* the list loop local to [has_ty], [in_rng] and [ty_eqb] *)
Lemma list_ok_eq {A B} (f : A -> B -> bool) vs ts :
  (fix go (vs : list A) (ts : list B) : bool :=
     match vs, ts with
     | [], [] => true
     | v :: vr, t :: tr => f v t && go vr tr
     | _, _ => false
     end) vs ts = forallb2 f vs ts.
Proof.
  revert ts. induction vs as [|v vr IH]; intros [|t tr]; cbn [forallb2]; try reflexivity.
  now rewrite IH.
Qed.

Lemma forallb2_repeat_r {A B} (f : A -> B -> bool) xs y :
  forallb2 f xs (repeat y (length xs)) = forallb (fun x => f x y) xs.
Proof. induction xs as [|x xr IH]; cbn [forallb2 forallb repeat length]; [reflexivity|]. now rewrite IH. Qed.

Lemma forallb2_map_r {A B C} (f : A -> C -> bool) (h : B -> C) xs ys :
  forallb2 (fun x y => f x (h y)) xs ys = forallb2 f xs (map h ys).
Proof.
  revert ys. induction xs as [|x xr IH]; intros [|y yr]; cbn [forallb2 map]; try reflexivity.
  now rewrite IH.
Qed.

Lemma has_ty_tup P vs ts : has_ty P (VTup vs) (TTup ts) = forallb2 (has_ty P) vs ts.
Proof. exact (list_ok_eq (has_ty P) vs ts). Qed.

Lemma has_ty_struct P vs name :
  has_ty P (VTup vs) (TStruct name) =
  match assocN name (p_structs P) with
  | Some def => forallb2 (has_ty P) vs (map snd def)
  | None => false
  end.
Proof. cbn [has_ty]. destruct (assocN name (p_structs P)); [apply list_ok_eq|reflexivity]. Qed.

Lemma has_ty_enum P tag vs name :
  has_ty P (VEnum tag vs) (TEnum name) =
  match assocN name (p_enums P) with
  | Some variants => match nthN variants tag with Some ts => forallb2 (has_ty P) vs ts | None => false end
  | None => false
  end.
Proof.
  cbn [has_ty]. destruct (assocN name (p_enums P)) as [variants|]; [|reflexivity].
  destruct (nthN variants tag); [apply list_ok_eq|reflexivity].
Qed.

(* a [VTup] is a value of a tuple type or of a struct type; what follows treats the two alike *)
Definition pos_tys (P : program) (t : ty) : option (list ty) :=
  match t with
  | TTup ts => Some ts
  | TStruct name => option_map (map snd) (assocN name (p_structs P))
  | _ => None
  end.

Lemma pos_tys_struct P name def :
  assocN name (p_structs P) = Some def -> pos_tys P (TStruct name) = Some (map snd def).
Proof. cbn [pos_tys]. now intros ->. Qed.

Lemma pos_tys_case P (Q : ty -> list ty -> Prop) :
  (forall ts, Q (TTup ts) ts) ->
  (forall name def, assocN name (p_structs P) = Some def -> Q (TStruct name) (map snd def)) ->
  forall t ts, pos_tys P t = Some ts -> Q t ts.
Proof.
  intros HT HS t ts Hp. destruct t as [| | |ts'|name|]; try discriminate Hp; cbn [pos_tys] in Hp.
  - injection Hp as <-. apply HT.
  - destruct (assocN name (p_structs P)) as [def|] eqn:Hd; [|discriminate Hp].
    injection Hp as <-. now apply HS.
Qed.

Lemma has_ty_pos P vs : forall t ts,
  pos_tys P t = Some ts -> has_ty P (VTup vs) t = forallb2 (has_ty P) vs ts.
Proof.
  apply pos_tys_case; [intro ts; apply has_ty_tup|].
  intros name def Hd. now rewrite has_ty_struct, Hd.
Qed.

Lemma has_ty_arr P vs el n :
  has_ty P (VArr vs) (TArr el n) = (lenN vs =? n) && forallb (fun v => has_ty P v el) vs.
Proof.
  reflexivity.
Qed.

Lemma ty_eqb_tup xs ys : ty_eqb (TTup xs) (TTup ys) = forallb2 ty_eqb xs ys.
Proof. exact (list_ok_eq ty_eqb xs ys). Qed.

(* the compatibility relation of Wt.v does not distinguish values *)
Lemma has_ty_compat P v : forall a b, ty_eqb a b = true -> has_ty P v a = has_ty P v b.
Proof.
  induction v as [bb|z|vs IH|vs IH|tag vs IH] using value_ind2; intros a b Hab.
  - destruct a, b; try discriminate Hab; reflexivity.
  - destruct a, b; try discriminate Hab; reflexivity.
  - destruct a as [| | e1 n1 | | |], b as [| | e2 n2 | | |]; try discriminate Hab; try reflexivity.
    cbn [ty_eqb] in Hab. apply andb_prop in Hab as [He Hn]. apply N.eqb_eq in Hn. subst n2.
    rewrite !has_ty_arr. f_equal.
    induction IH as [|v vr Hv _ IHr]; cbn [forallb]; [reflexivity|]. now rewrite (Hv _ _ He), IHr.
  - destruct a as [| | | xs | n1 |], b as [| | | ys | n2 |]; try discriminate Hab; try reflexivity.
    + rewrite ty_eqb_tup in Hab. rewrite !has_ty_tup. revert xs ys Hab.
      induction IH as [|v vr Hv _ IHr]; intros [|x xr] [|y yr] Hab; cbn [forallb2] in *; try discriminate; try reflexivity.
      apply andb_prop in Hab as [H1 H2]. now rewrite (Hv _ _ H1), (IHr _ _ H2).
    + cbn [ty_eqb] in Hab. apply N.eqb_eq in Hab. now subst.
  - destruct a as [| | | | | n1], b as [| | | | | n2]; try discriminate Hab; try reflexivity.
    cbn [ty_eqb] in Hab. apply N.eqb_eq in Hab. now subst.
Qed.

Lemma has_ty_compat_l P v a b : ty_eqb a b = true -> has_ty P v a = true -> has_ty P v b = true.
Proof. intros H. now rewrite (has_ty_compat P v a b H). Qed.
Lemma has_ty_compat_r P v a b : ty_eqb a b = true -> has_ty P v b = true -> has_ty P v a = true.
Proof. intros H. now rewrite (has_ty_compat P v a b H). Qed.

(* ------------------------------------------------------------ has_ty: inversion *)

Lemma has_ty_bool_inv P v : has_ty P v TBool = true -> exists b, v = VBool b.
Proof. destruct v; try discriminate. eauto. Qed.

Lemma has_ty_int_inv P v s b : has_ty P v (TInt s b) = true -> exists z, v = VInt z.
Proof. destruct v; try discriminate. eauto. Qed.

Lemma has_ty_arr_inv P v el n : has_ty P v (TArr el n) = true ->
  exists vs, v = VArr vs /\ lenN vs = n /\ Forall (fun x => has_ty P x el = true) vs.
Proof.
  destruct v as [| |vs| |]; try discriminate. rewrite has_ty_arr. intro H.
  apply andb_prop in H as [H1 H2]. apply N.eqb_eq in H1. apply forallb_Forall in H2. eauto.
Qed.

Local Notation HT P := (fun x t => has_ty P x t = true).

Lemma has_ty_pos_inv P v t ts : pos_tys P t = Some ts -> has_ty P v t = true ->
  exists vs, v = VTup vs /\ Forall2 (HT P) vs ts.
Proof.
  intros Hp Hv. destruct v as [| | |vs|]; try (destruct t; discriminate).
  rewrite (has_ty_pos _ _ _ _ Hp) in Hv. apply forallb2_Forall2 in Hv. eauto.
Qed.

Lemma has_ty_pos_nth P v t ts i ti :
  pos_tys P t = Some ts -> nthN ts i = Some ti -> has_ty P v t = true ->
  exists vs x, v = VTup vs /\ nthN vs i = Some x /\ has_ty P x ti = true.
Proof.
  intros Hp Hi Hv. destruct (has_ty_pos_inv _ _ _ _ Hp Hv) as [vs [-> Hvs]].
  destruct (Forall2_nthN _ _ _ _ _ Hvs Hi) as [x Hx]. eauto.
Qed.

Lemma has_ty_tup_inv P v ts : has_ty P v (TTup ts) = true ->
  exists vs, v = VTup vs /\ Forall2 (HT P) vs ts.
Proof. exact (has_ty_pos_inv P v (TTup ts) ts eq_refl). Qed.

Lemma has_ty_enum_inv P v name variants :
  assocN name (p_enums P) = Some variants -> has_ty P v (TEnum name) = true ->
  exists tag vs ts, v = VEnum tag vs /\ nthN variants tag = Some ts /\ Forall2 (HT P) vs ts.
Proof.
  intro He. destruct v as [| | | |tag vs]; try discriminate. rewrite has_ty_enum, He.
  destruct (nthN variants tag) as [ts|] eqn:Et; [|discriminate]. intro H.
  apply forallb2_Forall2 in H. eauto 6.
Qed.

(* ------------------------------------------------------------ environments *)

(* [env_ok P] is [EnvRel.env_rel] at the relation [has_ty P], [binds_ok P] is [EnvRel.binds_rel] *)

Lemma lookup_ok P ss g x t m :
  env_ok P ss g -> tlookup g x = Some (t, m) ->
  exists v, lookup_scopes ss x = Some v /\ has_ty P v t = true.
Proof. exact (EnvRel.lookup_rel (HT P) ss g x t m). Qed.

Lemma bind_var_ok P en g x v t m :
  env_ok P (scopes en) g -> has_ty P v t = true ->
  env_ok P (scopes (bind_var en x v)) (tbind g x t m).
Proof. exact (EnvRel.bind_var_rel (HT P) en g x v t m). Qed.

Lemma bind_var_lenient en x v : lenient (bind_var en x v) = lenient en.
Proof. unfold bind_var. destruct (scopes en); reflexivity. Qed.

Definition binds_ok (P : program) (bs : list (N * value)) (tbs : list (N * ty)) : Prop :=
  Forall2 (fun b tb => fst b = fst tb /\ has_ty P (snd b) (snd tb) = true) bs tbs.

Lemma bind_all_ok P bs tbs m :
  binds_ok P bs tbs -> forall en g,
  env_ok P (scopes en) g -> env_ok P (scopes (bind_all en bs)) (tbind_all g tbs m).
Proof. exact (EnvRel.bind_all_rel (HT P) bs tbs m). Qed.

Lemma bind_all_lenient bs : forall en, lenient (bind_all en bs) = lenient en.
Proof.
  unfold bind_all. induction bs as [|[x v] bs IH]; intros en; cbn [fold_left]; [reflexivity|].
  rewrite IH. apply bind_var_lenient.
Qed.

Lemma push_ok P en g : env_ok P (scopes en) g -> env_ok P (scopes (push_scope en)) ([] :: g).
Proof. exact (EnvRel.push_rel (HT P) en g). Qed.

Lemma pop_ok P ss g : env_ok P ss g -> env_ok P (tl ss) (tl g).
Proof. exact (EnvRel.pop_rel (HT P) ss g). Qed.

Lemma assign_ok P en g x v t m :
  env_ok P (scopes en) g -> tlookup g x = Some (t, m) -> has_ty P v t = true ->
  exists en', assign_var en x v = Some en' /\ env_ok P (scopes en') g.
Proof. exact (EnvRel.assign_rel (HT P) en g x v t m). Qed.

(* shape of the checker's contexts *)
Lemma tbind_all_cons s r bs m :
  tbind_all (s :: r) bs m = (rev (map (fun b => (fst b, (snd b, m))) bs) ++ s) :: r.
Proof.
  unfold tbind_all. revert s. induction bs as [|[x t] bs IH]; intros s; cbn [fold_left map rev fst snd]; [reflexivity|].
  unfold tbind at 2. rewrite IH. now rewrite <- app_assoc.
Qed.

Definition gscope (P : program) : list (N * (ty * bool)) :=
  rev (map (fun b : N * ty => (fst b, (snd b, false))) (map (fun c => (fst c, e_ty (snd c))) (p_consts P))).

Lemma consts_tenv_one P : consts_tenv P = [gscope P].
Proof. unfold consts_tenv, gscope. rewrite tbind_all_cons. now rewrite app_nil_r. Qed.

(* contexts in which function bodies are checked: at least two scopes, the outermost one
   is the scope of the global constants *)
Definition genv (P : program) (g : tenv) : Prop := exists s gl, g = s :: gl ++ [gscope P].

Lemma genv_push P g : genv P g -> genv P ([] :: g).
Proof. intros [s [gl ->]]. exists [], (s :: gl). reflexivity. Qed.

Lemma genv_tbind P g x t m : genv P g -> genv P (tbind g x t m) /\ tl (tbind g x t m) = tl g.
Proof. intros [s [gl ->]]. unfold tbind. split; [|reflexivity]. eexists _, gl. reflexivity. Qed.

Lemma genv_tbind_all P bs m : forall g, genv P g -> genv P (tbind_all g bs m) /\ tl (tbind_all g bs m) = tl g.
Proof.
  intros g [s [gl ->]]. rewrite tbind_all_cons. split; [|reflexivity]. eexists _, gl. reflexivity.
Qed.

Lemma env_ok_last P ss g : env_ok P ss g -> scope_ok P (last ss []) (last g []).
Proof. exact (EnvRel.env_rel_last (HT P) ss g). Qed.

Lemma genv_last P g : genv P g -> last g [] = gscope P.
Proof.
  intros [s [gl ->]]. change (s :: gl ++ [gscope P]) with ((s :: gl) ++ [gscope P]). apply last_last.
Qed.

(* ------------------------------------------------------------ patterns *)

Definition pat_sub (Q : pattern -> Prop) (pi : pat_inner) : Prop :=
  match pi with
  | PTup ps => Forall Q ps
  | PStruct _ _ fs => Forall (fun fp => Q (snd fp)) fs
  | PEnumTup _ _ ps => Forall Q ps
  | _ => True
  end.

Section PatInd.
  Variable Q : pattern -> Prop.
  Hypothesis HP : forall pi m t, pat_sub Q pi -> Q (Pat pi m t).
  Fixpoint pattern_ind2 (p : pattern) : Q p :=
    match p with
    | Pat pi m t =>
        HP pi m t
          (match pi return pat_sub Q pi with
           | PTup ps =>
               (fix go (l : list pattern) : Forall Q l :=
                  match l with [] => Forall_nil Q | x :: r => Forall_cons x (pattern_ind2 x) (go r) end) ps
           | PStruct _ _ fs =>
               (fix go (l : list (N * pattern)) : Forall (fun fp => Q (snd fp)) l :=
                  match l with
                  | [] => Forall_nil _
                  | (f, x) :: r => Forall_cons (f, x) (pattern_ind2 x) (go r)
                  end) fs
           | PEnumTup _ _ ps =>
               (fix go (l : list pattern) : Forall Q l :=
                  match l with [] => Forall_nil Q | x :: r => Forall_cons x (pattern_ind2 x) (go r) end) ps
           | _ => I
           end)
    end.
End PatInd.

Section PatAux.
Variable P : program.
Fixpoint wt_pats (ps : list pattern) (ts : list ty) : option (list (N * ty)) :=
  match ps, ts with
  | [], [] => Some []
  | p :: pr, t :: tr =>
      if negb (ty_eqb (p_ty p) t) then None else
      match wt_pat P p, wt_pats pr tr with
      | Some a, Some b => Some (a ++ b)
      | _, _ => None
      end
  | _, _ => None
  end.

Section Def.
Variable def : list (N * ty).
Fixpoint wt_fpats (fs : list (N * pattern)) : option (list (N * ty)) :=
  match fs with
  | [] => Some []
  | (f, fp) :: r =>
      match assocN f def with
      | Some ft =>
          if negb (ty_eqb (p_ty fp) ft) then None else
          match wt_pat P fp, wt_fpats r with
          | Some a, Some b => Some (a ++ b)
          | _, _ => None
          end
      | None => None
      end
  end.

End Def.
End PatAux.

Lemma wt_pat_eq P pi m t :
  wt_pat P (Pat pi m t) =
  match pi with
  | PId x => Some [(x, t)]
  | PTrue | PFalse => if is_bool t then Some [] else None
  | PNumU n => if lit_fits t (Z.of_N n) then Some [] else None
  | PNumS z => if lit_fits t z then Some [] else None
  | PURange lo hi => if lit_fits t (Z.of_N lo) && lit_fits t (Z.of_N hi) then Some [] else None
  | PSRange lo hi => if lit_fits t lo && lit_fits t hi then Some [] else None
  | PTup ps => match t with TTup ts => wt_pats P ps ts | _ => None end
  | PStruct name _ fields =>
      match t, assocN name (p_structs P) with
      | TStruct n2, Some def => if negb (name =? n2) then None else wt_fpats P def fields
      | _, _ => None
      end
  | PEnumUnit en v =>
      match t, assocN en (p_enums P) with
      | TEnum n2, Some variants =>
          if negb (en =? n2) then None else
          match nthN variants v with Some [] => Some [] | _ => None end
      | _, _ => None
      end
  | PEnumTup en v ps =>
      match t, assocN en (p_enums P) with
      | TEnum n2, Some variants =>
          if negb (en =? n2) then None else
          match nthN variants v with Some ts => wt_pats P ps ts | None => None end
      | _, _ => None
      end
  end.
Proof. destruct pi; reflexivity. Qed.

Section PmAux.
Variable P : program.
Fixpoint pmatch_list (ps : list pattern) (vs : list value) : option (list (N * value)) :=
  match ps, vs with
  | [], [] => Some []
  | p :: pr, v :: vr =>
      match pmatch P p v, pmatch_list pr vr with
      | Some a, Some b => Some (a ++ b)
      | _, _ => None
      end
  | _, _ => None
  end.

Section Def.
Variable def : list (N * ty).
Variable vs : list value.
Fixpoint pmatch_fields (fs : list (N * pattern))
  : option (list (N * value)) :=
  match fs with
  | [] => Some []
  | (fname, fp) :: r =>
      match index_of fname (map fst def) 0%N with
      | Some k =>
          match nthN vs k with
          | Some fv =>
              match pmatch P fp fv, pmatch_fields r with
              | Some a, Some b => Some (a ++ b)
              | _, _ => None
              end
          | None => None
          end
      | None => None
      end
  end.

End Def.
End PmAux.

Lemma pmatch_eq P pi m t v :
  pmatch P (Pat pi m t) v =
  match pi, v with
  | PId x, _ => Some [(x, v)]
  | PTrue, VBool b => if b then Some [] else None
  | PFalse, VBool b => if b then None else Some []
  | PNumU n, VInt z => if (z =? Z.of_N n)%Z then Some [] else None
  | PNumS n, VInt z => if (z =? n)%Z then Some [] else None
  | PURange lo hi, VInt z => if ((Z.of_N lo <=? z) && (z <=? Z.of_N hi))%Z then Some [] else None
  | PSRange lo hi, VInt z => if ((lo <=? z) && (z <=? hi))%Z then Some [] else None
  | PTup ps, VTup vs => pmatch_list P ps vs
  | PStruct name _ fields, VTup vs =>
      match assocN name (p_structs P) with
      | Some def => pmatch_fields P def vs fields
      | None => None
      end
  | PEnumUnit _ variant, VEnum tag _ => if (tag =? variant)%N then Some [] else None
  | PEnumTup _ variant ps, VEnum tag vs => if (tag =? variant)%N then pmatch_list P ps vs else None
  | _, _ => None
  end.
Proof. destruct pi, v; reflexivity. Qed.

Lemma assoc_index_from {A} (def : list (N * A)) f ft : forall i,
  assocN f def = Some ft ->
  exists k, index_of f (map fst def) i = Some (i + k) /\ nthN (map snd def) k = Some ft.
Proof.
  induction def as [|[k0 a] def IH]; intros i; cbn [assocN map index_of fst snd]; [discriminate|].
  destruct (f =? k0).
  - intros [= <-]. exists 0. rewrite N.add_0_r. split; reflexivity.
  - intro H. destruct (IH (i + 1) H) as [k [H1 H2]]. exists (k + 1). split.
    + rewrite H1. f_equal. lia.
    + rewrite nthN_spec in *. replace (N.to_nat (k + 1)) with (S (N.to_nat k)) by lia. exact H2.
Qed.

Lemma assoc_index {A} (def : list (N * A)) f ft : assocN f def = Some ft ->
  exists k, index_of f (map fst def) 0 = Some k /\ nthN (map snd def) k = Some ft.
Proof. exact (assoc_index_from def f ft 0). Qed.

Definition pm_ok (P : program) (o : option (list (N * value))) (tbs : list (N * ty)) (irr : bool) : Prop :=
  (forall bs, o = Some bs -> binds_ok P bs tbs) /\ (irr = true -> exists bs, o = Some bs).

Lemma pm_ok_nil P : pm_ok P (Some []) [] true.
Proof. split; [intros bs [= <-]; constructor|eauto]. Qed.

Lemma pm_ok_app P oa ob ta tb ia ib : pm_ok P oa ta ia -> pm_ok P ob tb ib ->
  pm_ok P (match oa, ob with Some a, Some b => Some (a ++ b) | _, _ => None end) (ta ++ tb) (ia && ib).
Proof.
  intros [A1 A2] [B1 B2]. split.
  - destruct oa as [a|]; [|discriminate]. destruct ob as [b|]; [|discriminate]. intros bs [= <-].
    apply Forall2_app; [exact (A1 a eq_refl)|exact (B1 b eq_refl)].
  - intro Hi. apply andb_prop in Hi as [Hi1 Hi2]. destruct (A2 Hi1) as [a ->]. destruct (B2 Hi2) as [b ->]. eauto.
Qed.

Definition pat_sound (P : program) (p : pattern) : Prop :=
  forall v tbs, wt_pat P p = Some tbs -> has_ty P v (p_ty p) = true ->
    pm_ok P (pmatch P p v) tbs (irrefutable p).

Lemma pats_sound P ps : Forall (pat_sound P) ps ->
  forall ts vs tbs, wt_pats P ps ts = Some tbs -> Forall2 (HT P) vs ts ->
    pm_ok P (pmatch_list P ps vs) tbs (forallb irrefutable ps).
Proof.
  induction 1 as [|p pr Hp _ IH]; intros ts vs tbs Hw Hv.
  - destruct ts; [|discriminate]. inversion Hv; subst. cbn in Hw. injection Hw as <-. apply pm_ok_nil.
  - destruct ts as [|t tr]; [discriminate|]. inversion Hv as [|v t' vr tr' Hv1 Hvr]; subst.
    cbn [wt_pats] in Hw. destruct (ty_eqb (p_ty p) t) eqn:Et; [|discriminate]. cbn [negb] in Hw.
    destruct (wt_pat P p) as [a|] eqn:Ea; [|discriminate].
    destruct (wt_pats P pr tr) as [b|] eqn:Eb; [|discriminate]. injection Hw as <-.
    cbn [pmatch_list forallb]. apply pm_ok_app; [apply (Hp v a Ea)|exact (IH tr vr b Eb Hvr)].
    eapply has_ty_compat_r; eassumption.
Qed.

Lemma irrefutable_eq pi m t :
  irrefutable (Pat pi m t) =
  match pi with
  | PId _ => true
  | PTup ps => forallb irrefutable ps
  | PStruct _ _ fields => forallb (fun fp => irrefutable (snd fp)) fields
  | _ => false
  end.
Proof.
  destruct pi as [x| | |n|z|ps|name ir fields|en var|en var ps|lo hi|lo hi]; try reflexivity.
  cbn [irrefutable]. induction fields as [|[f p] r IH]; cbn [forallb snd]; [reflexivity|]. now rewrite <- IH.
Qed.

Lemma fpats_sound P def vs fs : Forall (fun fp => pat_sound P (snd fp)) fs ->
  Forall2 (HT P) vs (map snd def) ->
  forall tbs, wt_fpats P def fs = Some tbs ->
    pm_ok P (pmatch_fields P def vs fs) tbs (forallb (fun fp => irrefutable (snd fp)) fs).
Proof.
  intros HF Hv. induction HF as [|[f p] r Hp _ IH]; intros tbs Hw.
  - cbn in Hw. injection Hw as <-. apply pm_ok_nil.
  - cbn [wt_fpats] in Hw. destruct (assocN f def) as [ft|] eqn:Ef; [|discriminate].
    cbn [snd] in Hp.
    destruct (ty_eqb (p_ty p) ft) eqn:Et; [|discriminate]. cbn [negb] in Hw.
    destruct (wt_pat P p) as [a|] eqn:Ea; [|discriminate].
    destruct (wt_fpats P def r) as [b|] eqn:Eb; [|discriminate]. injection Hw as <-.
    destruct (assoc_index def f ft Ef) as [k [Hk1 Hk2]].
    destruct (Forall2_nthN _ _ _ _ _ Hv Hk2) as [fv [Hfv Hft]].
    cbn [pmatch_fields forallb snd]. rewrite Hk1, Hfv.
    apply pm_ok_app; [apply (Hp fv a Ea)|exact (IH b eq_refl)]. eapply has_ty_compat_r; eassumption.
Qed.

Lemma if_some_nil {A} (c : bool) (bs : list A) : (if c then Some [] else None) = Some bs -> bs = [].
Proof. destruct c; congruence. Qed.

(* a pattern without sub-patterns binds nothing, for the checker and for the matcher, and is refutable *)
Lemma leaf_sound P (c : bool) (o : option (list (N * value))) tbs :
  (if c then Some [] else None) = Some tbs -> (forall bs, o = Some bs -> bs = []) ->
  pm_ok P o tbs false.
Proof.
  intros Hw Ho. rewrite (if_some_nil c tbs Hw). split; [|discriminate].
  intros bs Hb. rewrite (Ho bs Hb). constructor.
Qed.

Lemma pmatch_sound P p : pat_sound P p.
Proof.
  induction p as [pi m t IH] using pattern_ind2. intros v tbs Hw Hv. cbn [p_ty] in Hv.
  rewrite wt_pat_eq in Hw. rewrite pmatch_eq, irrefutable_eq.
  destruct pi as [x| | |n|z|ps|name ir fields|en var|en var ps|lo hi|lo hi]; cbn [pat_sub] in IH.
  (* numbers and ranges, then the two booleans *)
  4,5,10,11: apply (leaf_sound P _ _ tbs Hw); intros bs Hb; destruct v; try discriminate Hb; exact (if_some_nil _ _ Hb).
  2,3: apply (leaf_sound P _ _ tbs Hw); intros bs Hb; destruct v as [[|]| | | |]; congruence.
  - injection Hw as <-. split.
    + intros bs [= <-]. constructor; [|constructor]. split; [reflexivity|exact Hv].
    + eauto.
  - destruct t as [| | |ts| |]; try discriminate.
    destruct (has_ty_tup_inv _ _ _ Hv) as [vs [-> Hvs]].
    exact (pats_sound P ps IH ts vs tbs Hw Hvs).
  - destruct t as [| | | |n2|]; try discriminate.
    destruct (assocN name (p_structs P)) as [def|] eqn:Ed; [|discriminate].
    destruct (name =? n2) eqn:En; [|discriminate]. cbn [negb] in Hw. apply N.eqb_eq in En. subst n2.
    destruct (has_ty_pos_inv _ _ _ _ (pos_tys_struct _ _ _ Ed) Hv) as [vs [-> Hvs]].
    exact (fpats_sound P def vs fields IH Hvs tbs Hw).
  - destruct t as [| | | | |n2]; try discriminate.
    destruct (assocN en (p_enums P)) as [variants|]; [|discriminate].
    destruct (negb (en =? n2)); [discriminate|].
    destruct (nthN variants var) as [[|]|]; try discriminate.
    apply (leaf_sound P true _ tbs Hw). intros bs Hb. destruct v; try discriminate Hb. exact (if_some_nil _ _ Hb).
  - split; [|discriminate]. destruct t as [| | | | |n2]; try discriminate.
    destruct (assocN en (p_enums P)) as [variants|] eqn:Ee; [|discriminate].
    destruct (en =? n2) eqn:En; [|discriminate]. cbn [negb] in Hw. apply N.eqb_eq in En. subst n2.
    destruct (nthN variants var) as [ts|] eqn:Ev; [|discriminate].
    destruct (has_ty_enum_inv _ _ _ _ Ee Hv) as [tag [vs [ts' [-> [Etag Hvs]]]]].
    intros bs Hb. destruct (tag =? var) eqn:Et; [|discriminate]. apply N.eqb_eq in Et. subst tag.
    rewrite Ev in Etag. injection Etag as <-.
    exact (proj1 (pats_sound P ps IH ts vs tbs Hw Hvs) bs Hb).
Qed.

(* ------------------------------------------------------------ the checker, unfolded *)

Section WtAux.
  Variable P : program.
  Variable ws : tenv -> stmt -> option (tenv * ty).
  Variable we : tenv -> expr -> bool.
  Fixpoint wt_go (ss : list stmt) (g : tenv) (last : ty) : option ty :=
    match ss with
    | [] => Some last
    | s :: r =>
        match ws g s with
        | Some (g', t) => wt_go r g' t
        | None => None
        end
    end.
  Section Accs.
    Variable g : tenv.
    Fixpoint wt_accs (accs : list accessor) (cur : ty) : option ty :=
      match accs with
      | [] => Some cur
      | AIdx aty i :: r =>
          match cur with
          | TArr el _ =>
              if ty_eqb aty cur && is_unsigned (e_ty i) && we g i then wt_accs r el else None
          | _ => None
          end
      | ATup tty i :: r =>
          match cur with
          | TTup ts =>
              if ty_eqb tty cur then
                match nthN ts i with Some ti => wt_accs r ti | None => None end
              else None
          | _ => None
          end
      | AFld sty fld :: r =>
          match cur with
          | TStruct name =>
              if ty_eqb sty cur then
                match assocN name (p_structs P) with
                | Some def => match assocN fld def with Some ft => wt_accs r ft | None => None end
                | None => None
                end
              else None
          | _ => None
          end
      end.
  End Accs.
End WtAux.

Lemma wt_block_eq f P g b : wt_block (S f) P g b = wt_go (wt_stmt f P) b g unit_ty.
Proof. reflexivity. Qed.

Lemma wt_stmt_eq f P g si m :
  wt_stmt (S f) P g (St si m) =
  match si with
  | SLet p e =>
      if wt_expr f P g e && ty_eqb (p_ty p) (e_ty e) then
        match wt_pat P p with
        | Some bs => Some (tbind_all g bs false, unit_ty)
        | None => None
        end
      else None
  | SLetMut x e => if wt_expr f P g e then Some (tbind g x (e_ty e) true, unit_ty) else None
  | SAssign x accs e =>
      match tlookup g x with
      | Some (tx, true) =>
          match wt_accs P (wt_expr f P) g accs tx with
          | Some tf => if ty_eqb tf (e_ty e) && wt_expr f P g e then Some (g, unit_ty) else None
          | None => None
          end
      | _ => None
      end
  | SFor p arr body =>
      match e_ty arr with
      | TArr el _ =>
          if wt_expr f P g arr && ty_eqb (p_ty p) el then
            match wt_pat P p with
            | Some bs =>
                match wt_block f P (tbind_all ([] :: g) bs false) body with
                | Some _ => Some (g, unit_ty)
                | None => None
                end
            | None => None
            end
          else None
      | _ => None
      end
  | SJoinLoop p _ a b body =>
      match e_ty a, e_ty b with
      | TArr ta _, TArr tb _ =>
          if wt_expr f P g a && wt_expr f P g b && ty_eqb (p_ty p) (TTup [ta; tb]) then
            match wt_pat P p with
            | Some bs =>
                match wt_block f P (tbind_all ([] :: g) bs false) body with
                | Some _ => Some (g, unit_ty)
                | None => None
                end
            | None => None
            end
          else None
      | _, _ => None
      end
  | SExpr e => if wt_expr f P g e then Some (g, e_ty e) else None
  end.
Proof. destruct si; reflexivity. Qed.

(* a statement only extends the innermost scope of the context *)
Lemma wt_stmt_genv P fw g s g' t :
  wt_stmt fw P g s = Some (g', t) -> genv P g -> genv P g' /\ tl g' = tl g.
Proof.
  destruct fw as [|f]; [discriminate|]. destruct s as [si m]. rewrite wt_stmt_eq. intros H Hg.
  destruct si as [p e|x e|x accs e|p arr body|p jt a b body|e].
  - destruct (_ && _); [|discriminate]. destruct (wt_pat P p); [|discriminate].
    injection H as <- <-. now apply genv_tbind_all.
  - destruct (wt_expr f P g e); [|discriminate]. injection H as <- <-. now apply genv_tbind.
  - destruct (tlookup g x) as [[tx [|]]|]; try discriminate.
    destruct (wt_accs _ _ _ _ _); [|discriminate]. destruct (_ && _); [|discriminate].
    injection H as <- <-. auto.
  - destruct (e_ty arr); try discriminate. destruct (_ && _); [|discriminate].
    destruct (wt_pat P p); [|discriminate]. destruct (wt_block _ _ _ _); [|discriminate].
    injection H as <- <-. auto.
  - destruct (e_ty a); try discriminate. destruct (e_ty b); try discriminate.
    destruct (_ && _); [|discriminate].
    destruct (wt_pat P p); [|discriminate]. destruct (wt_block _ _ _ _); [|discriminate].
    injection H as <- <-. auto.
  - destruct (wt_expr f P g e); [|discriminate]. injection H as <- <-. auto.
Qed.

Lemma binop_eq_dec_land (o : binop) : {o = OLAnd} + {o = OLOr} + {o <> OLAnd /\ o <> OLOr}.
Proof. destruct o; try (right; split; discriminate); [left; left|left; right]; reflexivity. Qed.

Lemma wt_fn_inv P gc d : wt_fn P gc d = true ->
  exists tb, wt_block wt_fuel P ([] :: tbind_all ([] :: gc) (fn_params d) true) (fn_body d) = Some tb /\
             ty_eqb tb (fn_ret d) = true.
Proof.
  unfold wt_fn. generalize wt_fuel. intros k H.
  destruct (wt_block k P _ (fn_body d)) as [tb|]; [|discriminate H]. eauto.
Qed.

Lemma wt_fuel_S : wt_fuel = S (pred wt_fuel).
Proof. reflexivity. Qed.

Global Opaque wt_fuel.

(* ------------------------------------------------------------ soundness *)

Lemma eval_lit_ok P n fw g en e :
  wt_expr fw P g e = true -> is_lit e = true ->
  exists v, eval (S n) P en e = Done (v, en) /\ has_ty P v (e_ty e) = true.
Proof.
  intros Hw Hl. destruct fw as [|f]; [discriminate Hw|]. destruct e as [ei m t].
  rewrite eval_eq. cbn zeta. cbn [wt_expr] in Hw. cbn [e_ty].
  destruct ei; try discriminate Hl; (eexists; split; [reflexivity|]).
  all: destruct t; try discriminate Hw; reflexivity.
Qed.

Section Sound.
  Variable P : program.
  Variable strict : bool.
  Hypothesis Hfns : forall d, In d (p_fns P) -> wt_fn P (consts_tenv P) d = true.
  Hypothesis Hfrag : strict = true -> forall d, In d (p_fns P) -> frag_block wt_fuel (fn_body d) = true.

  Definition SA (c : N) : Prop := In c stuck_allowed /\ strict = false.
  Definition res {A} (Q : A -> Prop) (o : outcome A) : Prop :=
    match o with Done a => Q a | Stuck c => SA c | _ => True end.

  Lemma res_bind {A B} (o : outcome A) (k : A -> outcome B) (Q : A -> Prop) (R : B -> Prop) :
    res Q o -> (forall a, Q a -> res R (k a)) -> res R (obind o k).
  Proof. destruct o; cbn [res obind]; auto. Qed.

  Lemma res_weaken {A} (Q Q' : A -> Prop) (o : outcome A) :
    res Q o -> (forall a, Q a -> Q' a) -> res Q' o.
  Proof. destruct o; cbn [res]; auto. Qed.

  Local Notation HT := (fun x t => has_ty P x t = true).

  Definition QE (g : tenv) (t : ty) (r : value * env) : Prop :=
    has_ty P (fst r) t = true /\ env_ok P (scopes (snd r)) g.

  Definition WTe (fw : nat) (g : tenv) (e : expr) : Prop :=
    wt_expr fw P g e = true /\ (strict = true -> frag_expr fw e = true).
  Definition WTb (fw : nat) (g : tenv) (b : list stmt) (t : ty) : Prop :=
    wt_block fw P g b = Some t /\ (strict = true -> frag_block fw b = true).
  Definition WTs (fw : nat) (g : tenv) (s : stmt) (g' : tenv) (t : ty) : Prop :=
    wt_stmt fw P g s = Some (g', t) /\ (strict = true -> frag_stmt fw s = true).

  Definition Pe (n : nat) : Prop := forall fw g e en,
    WTe fw g e -> genv P g -> env_ok P (scopes en) g -> res (QE g (e_ty e)) (eval n P en e).
  Definition Pb (n : nat) : Prop := forall fw g b en t,
    WTb fw g b t -> genv P g -> env_ok P (scopes en) g ->
    res (fun r => has_ty P (fst r) t = true /\ env_ok P (tl (scopes (snd r))) (tl g))
        (exec_block n P en b).
  Definition Ps (n : nat) : Prop := forall fw g s en g' t,
    WTs fw g s g' t -> genv P g -> env_ok P (scopes en) g -> res (QE g' t) (exec n P en s).

  Lemma compat_int v tx s b : ty_eqb tx (TInt s b) = true -> has_ty P v tx = true -> exists z, v = VInt z.
  Proof. intros H Hv. rewrite (has_ty_compat P v _ _ H) in Hv. eapply has_ty_int_inv; eassumption. Qed.
  Lemma compat_int' v tx s b : ty_eqb (TInt s b) tx = true -> has_ty P v tx = true -> exists z, v = VInt z.
  Proof. intros H Hv. rewrite <- (has_ty_compat P v _ _ H) in Hv. eapply has_ty_int_inv; eassumption. Qed.
  Lemma compat_bool v tx : ty_eqb tx TBool = true -> has_ty P v tx = true -> exists b, v = VBool b.
  Proof. intros H Hv. rewrite (has_ty_compat P v _ _ H) in Hv. eapply has_ty_bool_inv; eassumption. Qed.
  Lemma is_bool_inv t : is_bool t = true -> t = TBool.
  Proof. destruct t; try discriminate; reflexivity. Qed.
  Lemma is_int_inv t : is_int t = true -> exists s b, t = TInt s b.
  Proof. destruct t; try discriminate; eauto. Qed.

  (* operators *)
  Definition wtop (o : binop) (t tx ty : ty) : bool :=
    match o with
    | OAdd | OSub | OMul | ODiv | OMod => is_int t && ty_eqb tx t && ty_eqb ty t
    | OBitAnd | OBitXor | OBitOr => (is_int t || is_bool t) && ty_eqb tx t && ty_eqb ty t
    | OGt | OLt => is_bool t && is_int tx && ty_eqb tx ty
    | OEq | ONe => is_bool t && ty_eqb tx ty
    | OShl | OShr => is_int t && ty_eqb tx t && ty_eqb ty (TInt false 8)
    | OLAnd | OLOr => is_bool t && is_bool tx && is_bool ty
    end.

  Lemma binop_sound o m t tx ty vx vy len :
    wtop o t tx ty = true -> o <> OLAnd -> o <> OLOr ->
    has_ty P vx tx = true -> has_ty P vy ty = true ->
    res (fun r => has_ty P (fst r) t = true)
        (eval_binop o m (match o with OShl | OShr => tx | _ => t end) tx vx vy len).
  Proof.
    intros Hw Hn1 Hn2 Hx Hy.
    destruct o; try congruence; cbn [wtop] in Hw; andb_all;
      try match goal with H : is_bool t = true |- _ => apply is_bool_inv in H; subst t end;
      try (cbn [eval_binop res fst]; reflexivity).
    all: repeat match goal with
           | H : is_int ?a = true |- _ => destruct (is_int_inv _ H) as [? [? ->]]; clear H
           | H : is_int ?a || is_bool ?a = true |- _ =>
               apply orb_prop in H; destruct H as [H|H];
               [destruct (is_int_inv _ H) as [? [? ->]]; clear H | apply is_bool_inv in H; subst a]
           end.
    all: repeat match goal with
           | H : ty_eqb ?a (TInt _ _) = true, Hv : has_ty P ?v ?a = true |- _ =>
               destruct (compat_int _ _ _ _ H Hv) as [? ->]; clear Hv
           | H : ty_eqb (TInt _ _) ?a = true, Hv : has_ty P ?v ?a = true |- _ =>
               destruct (compat_int' _ _ _ _ H Hv) as [? ->]; clear Hv
           | H : ty_eqb ?a TBool = true, Hv : has_ty P ?v ?a = true |- _ =>
               destruct (compat_bool _ _ H Hv) as [? ->]; clear Hv
           | Hv : has_ty P ?v (TInt _ _) = true |- _ =>
               destruct (has_ty_int_inv _ _ _ _ Hv) as [? ->]; clear Hv
           end.
    all: try (cbn [eval_binop res fst int_ty obind]; unfold checked;
              repeat match goal with |- context [if ?c then _ else _] => destruct c end;
              cbn [res obind fst]; try reflexivity; exact I).
    (* shifts: the width comes from the left operand, which is an integer type *)
    all: match goal with H : ty_eqb ?a (TInt _ _) = true |- context [eval_binop _ _ ?a] => destruct a; try discriminate H end;
         cbn [eval_binop res fst int_ty obind];
         repeat match goal with |- context [if ?c then _ else _] => destruct c end;
         cbn [res obind fst]; try reflexivity; exact I.
  Qed.

  Lemma QE_compat g a b r : ty_eqb a b = true -> QE g a r -> QE g b r.
  Proof. intros H [H1 H2]. split; [|assumption]. eapply has_ty_compat_l; eassumption. Qed.
  Lemma QE_compat' g a b r : ty_eqb b a = true -> QE g a r -> QE g b r.
  Proof. intros H [H1 H2]. split; [|assumption]. eapply has_ty_compat_r; eassumption. Qed.

  Ltac sub_wte :=
    split; [ assumption
           | let Hs := fresh "Hs" in
             intro Hs;
             match goal with Hf : strict = true -> _ |- _ => specialize (Hf Hs); andb_all; assumption end ].

  Ltac use_IH IHe W Hg He v en1 Hv He1 :=
    eapply res_bind; [ eapply (IHe _ _ _ _ W Hg He) | ];
    intros [v en1] [Hv He1]; cbn [fst snd] in Hv, He1.

  Section Cases.
    Variable n : nat.
    Hypothesis IHe : Pe n.
    Hypothesis IHb : Pb n.

    (* what [Pe (S n)] asks of one construct *)
    Definition case_ok (ei : expr_inner) : Prop := forall fw g m t en,
      WTe fw g (Ex ei m t) -> genv P g -> env_ok P (scopes en) g ->
      res (QE g t) (eval (S n) P en (Ex ei m t)).

    (* first step of every case: checker and interpreter unfolded once at the construct *)
    Ltac case_start :=
      intros fw g m t en Hw Hg He; rewrite eval_eq; cbn zeta;
      destruct fw as [|f]; [destruct Hw as [Hw _]; discriminate Hw|];
      destruct Hw as [Hw Hf]; cbn [wt_expr] in Hw; cbn [frag_expr] in Hf.

    (* expressions evaluated left to right against a list of expected types *)
    Lemma ev_list_sound f g : genv P g -> forall es ts en,
      forallb2 (fun e t => ty_eqb (e_ty e) t && wt_expr f P g e) es ts = true ->
      (strict = true -> forallb (frag_expr f) es = true) -> env_ok P (scopes en) g ->
      res (fun r => Forall2 HT (fst r) ts /\ env_ok P (scopes (snd r)) g) (ev_list (eval n P) es en).
    Proof.
      intros Hg es. induction es as [|e r IH]; intros [|t tr] en Hw Hf He; try discriminate Hw; cbn [ev_list].
      - cbn [res fst snd]. split; [constructor|assumption].
      - cbn [forallb2 forallb] in Hw, Hf. andb_all.
        assert (We : WTe f g e) by sub_wte.
        use_IH IHe We Hg He v en1 Hv He1.
        eapply res_bind; [apply (IH tr en1); try assumption|].
        + intro Hs. specialize (Hf Hs). andb_all. assumption.
        + intros [vs en2] [Hvs He2]. cbn [res fst snd] in *. split; [|assumption].
          constructor; [|assumption]. eapply has_ty_compat_l; eassumption.
    Qed.

    Lemma case_lit ei :
      match ei with ETrue | EFalse | ENumU _ _ | ENumS _ _ | ERange _ _ _ => True | _ => False end ->
      case_ok ei.
    Proof.
      intro Hc. destruct ei; try contradiction.
      1-4: intros fw g m t en [Hw _] _ He;
           destruct (eval_lit_ok P n fw g en _ Hw eq_refl) as [v [-> Hv]]; exact (conj Hv He).
      case_start. cbn [res]. split; [|exact He]. cbn [fst].
      andb_all. eapply has_ty_compat_r; [eassumption|]. rewrite has_ty_arr.
      apply andb_true_intro. split.
      - apply N.eqb_eq. unfold lenN. rewrite map_length, seq_length. lia.
      - apply forallb_forall. intros v Hv. apply in_map_iff in Hv as [k [<- _]]. reflexivity.
    Qed.

    Lemma case_id x : case_ok (EId x).
    Proof.
      case_start.
      destruct (tlookup g x) as [[tx mx]|] eqn:El; [|discriminate].
      destruct (lookup_ok _ _ _ _ _ _ He El) as [v [Hv Ht]]. unfold lookup_var. rewrite Hv.
      cbn [res]. split; [|exact He]. cbn [fst]. eapply has_ty_compat_l; eassumption.
    Qed.

    Lemma case_arrlit es : case_ok (EArrLit es).
    Proof.
      case_start.
      destruct t as [| |el k| | |]; try discriminate Hw. apply andb_prop in Hw as [Hk Hw].
      pose proof (eq_trans (forallb2_repeat_r (fun e t => ty_eqb (e_ty e) t && wt_expr f P g e) es el) Hw) as Hw2.
      eapply res_bind; [apply (ev_list_sound f g Hg es _ en Hw2 Hf He)|].
      intros [vs en1] [Hvs He1]. cbn [fst snd] in *. cbn [res]. split; [|exact He1]. cbn [fst].
      pose proof (Forall2_length_eq _ _ _ Hvs) as Hl. rewrite repeat_length in Hl.
      rewrite <- Hl in Hvs. apply Forall2_repeat_r in Hvs.
      rewrite has_ty_arr. apply andb_true_intro. split.
      - apply N.eqb_eq in Hk. rewrite <- Hk. apply N.eqb_eq. unfold lenN. now rewrite Hl.
      - now apply forallb_Forall.
    Qed.

    Lemma case_arrrep e1 k : case_ok (EArrRep e1 k).
    Proof.
      case_start.
      destruct t as [| |el k2| | |]; try discriminate Hw. andb_all.
      assert (W1 : WTe f g e1) by sub_wte.
      use_IH IHe W1 Hg He v en1 Hv He1. cbn [res]. split; [|exact He1]. cbn [fst].
      rewrite has_ty_arr. apply andb_true_intro. split.
      - match goal with H : (k =? k2) = true |- _ => apply N.eqb_eq in H; subst k2 end.
        apply N.eqb_eq. unfold lenN. rewrite repeat_length. lia.
      - apply forallb_forall. intros x Hx. apply repeat_spec in Hx. subst x.
        eapply has_ty_compat_l; eassumption.
    Qed.

    Lemma is_unsigned_inv t : is_unsigned t = true -> exists b, t = TInt false b.
    Proof. destruct t as [|[|] b| | | |]; try discriminate. eauto. Qed.

    Lemma case_idx a i : case_ok (EIdx a i).
    Proof.
      case_start.
      destruct (e_ty a) as [| |el k| | |] eqn:Ea; try discriminate Hw. andb_all.
      assert (Wa : WTe f g a) by sub_wte. assert (Wi : WTe f g i) by sub_wte.
      use_IH IHe Wa Hg He va en1 Hva He1. use_IH IHe Wi Hg He1 vi en2 Hvi He2.
      rewrite Ea in Hva. destruct (has_ty_arr_inv _ _ _ _ Hva) as [vs [-> [Hlen Hall]]].
      match goal with H : is_unsigned (e_ty i) = true |- _ => destruct (is_unsigned_inv _ H) as [b Ei] end.
      rewrite Ei in Hvi. destruct (has_ty_int_inv _ _ _ _ Hvi) as [z ->].
      destruct ((0 <=? z)%Z && (z <? Z.of_nat (length vs))%Z) eqn:Eb; [|exact I].
      destruct (idx_in_bounds vs z Eb) as [v [-> [Hin _]]].
      cbn [res]. split; [|exact He2]. cbn [fst].
      rewrite Forall_forall in Hall. eapply has_ty_compat_l; [eassumption|]. now apply Hall.
    Qed.

    Lemma case_tuplit es : case_ok (ETupLit es).
    Proof.
      case_start.
      destruct t as [| | |ts| |]; try discriminate Hw.
      eapply res_bind; [apply (ev_list_sound f g Hg es ts en Hw Hf He)|].
      intros [vs en1] [Hvs He1]. cbn [fst snd] in *. cbn [res]. split; [|exact He1]. cbn [fst].
      rewrite has_ty_tup. now apply forallb2_Forall2.
    Qed.

    Lemma case_tupacc e1 i : case_ok (ETupAcc e1 i).
    Proof.
      case_start.
      destruct (e_ty e1) as [| | |ts| |] eqn:E1; try discriminate Hw.
      destruct (nthN ts i) as [ti|] eqn:Ei; [|discriminate Hw]. andb_all.
      assert (W1 : WTe f g e1) by (split; assumption).
      use_IH IHe W1 Hg He v en1 Hv He1. rewrite E1 in Hv.
      destruct (has_ty_pos_nth _ _ (TTup ts) _ _ _ eq_refl Ei Hv) as [vs [x [-> [-> Hx]]]].
      cbn [res]. split; [|exact He1]. cbn [fst]. eapply has_ty_compat_l; eassumption.
    Qed.

    Lemma case_fld e1 fld : case_ok (EFld e1 fld).
    Proof.
      case_start.
      destruct (e_ty e1) as [| | | |name|] eqn:E1; try discriminate Hw.
      destruct (assocN name (p_structs P)) as [def|] eqn:Ed; [|discriminate Hw].
      destruct (assocN fld def) as [ft|] eqn:Ef; [|discriminate Hw]. andb_all.
      assert (W1 : WTe f g e1) by (split; assumption).
      use_IH IHe W1 Hg He v en1 Hv He1. rewrite E1 in Hv.
      destruct (assoc_index def fld ft Ef) as [k [Hk1 Hk2]]. rewrite Hk1.
      destruct (has_ty_pos_nth _ _ _ _ _ _ (pos_tys_struct _ _ _ Ed) Hk2 Hv) as [vs [x [-> [-> Hx]]]].
      cbn [res]. split; [|exact He1]. cbn [fst]. eapply has_ty_compat_l; eassumption.
    Qed.

    Lemma case_if c a b : case_ok (EIf c a b).
    Proof.
      case_start. andb_all.
      assert (Wc : WTe f g c) by sub_wte. assert (Wa : WTe f g a) by sub_wte.
      assert (Wb : WTe f g b) by sub_wte.
      use_IH IHe Wc Hg He vc en1 Hvc He1.
      match goal with H : is_bool (e_ty c) = true |- _ => apply is_bool_inv in H; rewrite H in Hvc end.
      destruct (has_ty_bool_inv _ _ Hvc) as [[|] ->].
      - eapply res_weaken; [apply (IHe _ _ _ _ Wa Hg He1)|]. intros r. now apply QE_compat.
      - eapply res_weaken; [apply (IHe _ _ _ _ Wb Hg He1)|]. intros r. now apply QE_compat.
    Qed.

    Lemma case_neg e1 : case_ok (ENeg e1).
    Proof.
      case_start. andb_all.
      assert (W1 : WTe f g e1) by (split; assumption).
      use_IH IHe W1 Hg He v en1 Hv He1.
      destruct t as [|[|] b| | | |]; try discriminate.
      match goal with H : ty_eqb (e_ty e1) _ = true |- _ => destruct (compat_int _ _ _ _ H Hv) as [z ->] end.
      cbn [int_ty]. unfold checked. destruct (in_range true b (- z)); cbn [obind res]; [|exact I].
      split; [reflexivity|exact He1].
    Qed.

    Lemma case_not e1 : case_ok (ENot e1).
    Proof.
      case_start. andb_all.
      assert (W1 : WTe f g e1) by (split; assumption).
      use_IH IHe W1 Hg He v en1 Hv He1.
      match goal with H : ty_eqb (e_ty e1) t = true |- _ => rewrite (has_ty_compat P v _ _ H) in Hv end.
      match goal with H : is_bool t || is_int t = true |- _ => apply orb_prop in H; destruct H as [H|H] end.
      - match goal with H : is_bool t = true |- _ => apply is_bool_inv in H; subst t end.
        destruct (has_ty_bool_inv _ _ Hv) as [b ->]. cbn [res]. split; [reflexivity|exact He1].
      - match goal with H : is_int t = true |- _ => destruct (is_int_inv _ H) as [s [b ->]] end.
        destruct (has_ty_int_inv _ _ _ _ Hv) as [z ->]. cbn [res]. split; [reflexivity|exact He1].
    Qed.

    Lemma case_cast to e1 : case_ok (ECast to e1).
    Proof.
      case_start. andb_all.
      assert (W1 : WTe f g e1) by (split; assumption).
      use_IH IHe W1 Hg He v en1 Hv He1.
      assert (Hv' : exists x, v = VBool x \/ exists z, v = VInt z).
      { match goal with H : is_int (e_ty e1) || is_bool (e_ty e1) = true |- _ =>
          apply orb_prop in H; destruct H as [H|H] end.
        - match goal with H : is_int _ = true |- _ => destruct (is_int_inv _ H) as [s [b Eb]] end.
          rewrite Eb in Hv. destruct (has_ty_int_inv _ _ _ _ Hv) as [z ->]. exists true. right. eauto.
        - match goal with H : is_bool _ = true |- _ => apply is_bool_inv in H; rewrite H in Hv end.
          destruct (has_ty_bool_inv _ _ Hv) as [b ->]. exists b. now left. }
      assert (Hto : to = TBool \/ exists s b, to = TInt s b).
      { match goal with H : ty_eqb to t = true |- _ => destruct to, t; try discriminate H; eauto end.
        all: match goal with H : is_int _ || is_bool _ = true |- _ => discriminate H end. }
      destruct Hv' as [x [-> | [z ->]]]; destruct Hto as [-> | [s [b ->]]]; cbn [eval_cast obind res];
        (split; [|exact He1]); cbn [fst]; (eapply has_ty_compat_l; [eassumption|reflexivity]).
    Qed.

    (* [&&] stops on [false], [||] on [true] *)
    Lemma short_circuit_sound (stop : bool) f g x y en (k : value -> env -> outcome (value * env)) :
      WTe f g x -> WTe f g y -> e_ty x = TBool -> e_ty y = TBool ->
      genv P g -> env_ok P (scopes en) g ->
      (forall b en1, k (VBool b) en1 = if Bool.eqb b stop then Done (VBool stop, en1) else eval n P en1 y) ->
      res (QE g TBool) (do (vx, en1) <- eval n P en x; k vx en1).
    Proof.
      intros Wx Wy Ex Ey Hg He Hk.
      use_IH IHe Wx Hg He vx en1 Hvx He1. rewrite Ex in Hvx.
      destruct (has_ty_bool_inv _ _ Hvx) as [b ->]. rewrite Hk.
      destruct (Bool.eqb b stop).
      - cbn [res]. split; [now destruct stop|exact He1].
      - pose proof (IHe _ _ _ _ Wy Hg He1) as Hy. now rewrite Ey in Hy.
    Qed.

    Lemma case_op o x y : case_ok (EOp o x y).
    Proof.
      case_start.
      apply andb_prop in Hw as [Hw Ho]. apply andb_prop in Hw as [Hwx Hwy].
      assert (Wx : WTe f g x) by sub_wte. assert (Wy : WTe f g y) by sub_wte.
      change (wtop o t (e_ty x) (e_ty y) = true) in Ho.
      destruct (binop_eq_dec_land o) as [[-> | ->] | [N1 N2]].
      - cbn [wtop] in Ho. andb_all.
        repeat match goal with H : is_bool _ = true |- _ => apply is_bool_inv in H end. subst t.
        apply (short_circuit_sound false f g x y en); try assumption. now intros [|] en1.
      - cbn [wtop] in Ho. andb_all.
        repeat match goal with H : is_bool _ = true |- _ => apply is_bool_inv in H end. subst t.
        apply (short_circuit_sound true f g x y en); try assumption. now intros [|] en1.
      - assert (Hgen : res (QE g t)
          (do (vx, en1) <- eval n P en x;
           do (vy, en2) <- eval n P en1 y;
           do (v, len) <- eval_binop o m (match o with OShl | OShr => e_ty x | _ => t end)
                                     (e_ty x) vx vy (lenient en2);
           Done (v, mkEnv (scopes en2) len))).
        { use_IH IHe Wx Hg He vx en1 Hvx He1. use_IH IHe Wy Hg He1 vy en2 Hvy He2.
          eapply res_bind; [apply (binop_sound o m t _ _ vx vy (lenient en2) Ho N1 N2 Hvx Hvy)|].
          intros [v len] Hv. cbn [fst] in Hv. cbn [res]. split; [exact Hv|exact He2]. }
        destruct o; try congruence; exact Hgen.
    Qed.

    Lemma case_enumlit en0 var args : case_ok (EEnumLit en0 var args).
    Proof.
      case_start.
      destruct t as [| | | | |n2]; try discriminate Hw.
      destruct (assocN en0 (p_enums P)) as [variants|] eqn:Ee; [|discriminate Hw].
      apply andb_prop in Hw as [Hn Hw]. apply N.eqb_eq in Hn. subst n2.
      destruct (nthN variants var) as [ts|] eqn:Ev; [|discriminate Hw].
      eapply res_bind; [apply (ev_list_sound f g Hg args ts en Hw Hf He)|].
      intros [vs en1] [Hvs He1]. cbn [fst snd] in *. cbn [res]. split; [|exact He1]. cbn [fst].
      rewrite has_ty_enum, Ee, Ev. now apply forallb2_Forall2.
    Qed.

    Lemma filter_single_assoc {A} (fields : list (N * A)) k k' fe :
      filter (fun x => fst x =? k) fields = [(k', fe)] -> assocN k fields = Some fe /\ In (k', fe) fields.
    Proof.
      induction fields as [|[k0 e0] r IH]; cbn [filter assocN fst]; [discriminate|].
      rewrite (N.eqb_sym k k0). destruct (k0 =? k) eqn:E.
      - intros [= <- <- Hr]. split; [reflexivity|now left].
      - intro H. destruct (IH H) as [H1 H2]. split; [assumption|now right].
    Qed.

    Lemma ev_fields_sound f g fields : genv P g -> forall ds en,
      Forall (fun d : N * ty => exists fe, assocN (fst d) fields = Some fe /\
                                 ty_eqb (e_ty fe) (snd d) = true /\ WTe f g fe) ds ->
      env_ok P (scopes en) g ->
      res (fun r => Forall2 HT (fst r) (map snd ds) /\ env_ok P (scopes (snd r)) g)
          (ev_fields (eval n P) fields ds en).
    Proof.
      intros Hg ds. induction ds as [|[fname ft] r IH]; intros en HW He; cbn [ev_fields map].
      - cbn [res fst snd]. split; [constructor|assumption].
      - inversion HW as [|d' r' [fe [Ha [Ht We]]] Wr]; subst. cbn [fst snd] in *. rewrite Ha.
        use_IH IHe We Hg He v en1 Hv He1.
        eapply res_bind; [apply (IH en1 Wr He1)|]. intros [vs en2] [Hvs He2]. cbn [fst snd] in *.
        cbn [res fst snd]. split; [|assumption]. constructor; [|assumption].
        eapply has_ty_compat_l; eassumption.
    Qed.

    Lemma case_structlit name fields : case_ok (EStructLit name fields).
    Proof.
      case_start.
      destruct t as [| | | |n2|]; try discriminate Hw.
      destruct (assocN name (p_structs P)) as [def|] eqn:Ed; [|discriminate Hw].
      apply andb_prop in Hw as [Hw Hall]. apply andb_prop in Hw as [Hn Hlen].
      apply N.eqb_eq in Hn. subst n2.
      assert (HW : Forall (fun d : N * ty => exists fe, assocN (fst d) fields = Some fe /\
                                 ty_eqb (e_ty fe) (snd d) = true /\ WTe f g fe) def).
      { apply Forall_forall. intros d Hd. rewrite forallb_forall in Hall. specialize (Hall d Hd).
        destruct (filter (fun fe => fst fe =? fst d) fields) as [|[k' fe] [|]] eqn:Efl; try discriminate Hall.
        destruct (filter_single_assoc _ _ _ _ Efl) as [Ha Hin]. andb_all.
        exists fe. split; [assumption|]. split; [assumption|]. split; [assumption|].
        intro Hs. specialize (Hf Hs). rewrite forallb_forall in Hf. exact (Hf _ Hin). }
      eapply res_bind; [apply (ev_fields_sound f g fields Hg def en HW He)|].
      intros [vs en1] [Hvs He1]. cbn [fst snd] in *. cbn [res]. split; [|exact He1]. cbn [fst].
      rewrite has_ty_struct, Ed. now apply forallb2_Forall2.
    Qed.

    Lemma unit_has_ty : has_ty P unit_val unit_ty = true.
    Proof. reflexivity. Qed.

    (* one pattern-guarded body: match arm, loop iteration *)
    Lemma SA_of_nofrag c : In c stuck_allowed -> (strict = true -> False) -> SA c.
    Proof. intros H Hs. split; [assumption|]. destruct strict; [exfalso; now apply Hs|reflexivity]. Qed.

    Lemma ev_arms_sound f g v (ts t : ty) en arms :
      genv P g -> env_ok P (scopes en) g -> has_ty P v ts = true ->
      Forall (fun arm : pattern * expr =>
                ty_eqb (p_ty (fst arm)) ts = true /\ ty_eqb (e_ty (snd arm)) t = true /\
                exists bs, wt_pat P (fst arm) = Some bs /\
                           WTe f (tbind_all ([] :: g) bs false) (snd arm)) arms ->
      (strict = true -> existsb (fun arm => irrefutable (fst arm)) arms = true) ->
      res (QE g t) (ev_arms P (eval n P) v en arms).
    Proof.
      intros Hg He Hv HW. induction HW as [|[p body] r [Hp [Hb [tbs [Hwp Wb]]]] _ IH]; intros Hex; cbn [ev_arms].
      - apply SA_of_nofrag; [cbn; tauto|]. intro Hs. specialize (Hex Hs). discriminate Hex.
      - cbn [fst snd] in *.
        assert (Hvp : has_ty P v (p_ty p) = true) by (eapply has_ty_compat_r; eassumption).
        destruct (pmatch_sound P p v tbs Hwp Hvp) as [Hm1 Hm2].
        destruct (pmatch P p v) as [bs|] eqn:Em.
        + specialize (Hm1 bs eq_refl).
          destruct (genv_tbind_all P tbs false ([] :: g) (genv_push _ _ Hg)) as [Hg' Htl].
          assert (He' : env_ok P (scopes (bind_all (push_scope en) bs)) (tbind_all ([] :: g) tbs false))
            by (apply bind_all_ok; [assumption|now apply push_ok]).
          use_IH IHe Wb Hg' He' rv en1 Hrv He1.
          cbn [res]. split; cbn [fst snd].
          * eapply has_ty_compat_l; eassumption.
          * cbn [pop_scope scopes]. apply pop_ok in He1. now rewrite Htl in He1.
        + apply IH. intro Hs. specialize (Hex Hs). cbn [existsb fst] in Hex.
          apply orb_prop in Hex as [Hi|Hr]; [|assumption].
          destruct (Hm2 Hi) as [bs Hbs]. discriminate Hbs.
    Qed.

    Lemma case_match s arms : case_ok (EMatch s arms).
    Proof.
      case_start.
      apply andb_prop in Hw as [Hws Harms].
      assert (Ws : WTe f g s) by sub_wte.
      use_IH IHe Ws Hg He v en1 Hv He1.
      eapply ev_arms_sound with (f := f) (ts := e_ty s); try eassumption.
      - apply Forall_forall. intros arm Hin. rewrite forallb_forall in Harms. specialize (Harms arm Hin).
        andb_all. destruct (wt_pat P (fst arm)) as [bs|]; [|discriminate].
        split; [assumption|]. split; [assumption|]. exists bs. split; [reflexivity|]. split; [assumption|].
        intro Hs. specialize (Hf Hs). andb_all.
        match goal with H : forallb _ arms = true |- _ => rewrite forallb_forall in H; exact (H _ Hin) end.
      - intro Hs. specialize (Hf Hs). andb_all. assumption.
    Qed.

    Lemma case_block b : case_ok (EBlock b).
    Proof.
      case_start.
      destruct (wt_block f P ([] :: g) b) as [tb|] eqn:Eb; [|discriminate Hw].
      assert (Wb : WTb f ([] :: g) b tb) by (split; assumption).
      eapply res_bind; [apply (IHb _ _ _ _ _ Wb (genv_push _ _ Hg) (push_ok _ _ _ He))|].
      intros [v en1] [Hv He1]. cbn [fst snd tl] in *. cbn [res]. split; cbn [fst snd].
      - eapply has_ty_compat_l; eassumption.
      - exact He1.
    Qed.

    Lemma combine_binds_ok (params : list (N * ty)) vs :
      Forall2 HT vs (map snd params) -> binds_ok P (combine (map fst params) vs) params.
    Proof.
      revert vs. induction params as [|[x t] r IH]; intros vs H; inversion H; subst; cbn [map combine fst snd].
      - constructor.
      - constructor; [split; [reflexivity|assumption]|]. now apply IH.
    Qed.

    Lemma find_fn_in fn d : find_fn P fn = Some d -> In d (p_fns P).
    Proof. unfold find_fn. intro H. apply find_some in H. tauto. Qed.

    Lemma case_call fn args : case_ok (ECall fn args).
    Proof.
      case_start.
      destruct (find_fn P fn) as [d|] eqn:Efn; [|discriminate Hw].
      apply andb_prop in Hw as [Hret Hargs].
      rewrite (forallb2_map_r (fun e t => ty_eqb (e_ty e) t && wt_expr f P g e) snd) in Hargs.
      eapply res_bind; [apply (ev_list_sound f g Hg args _ en Hargs Hf He)|].
      intros [vs en1] [Hvt He1]. cbn [fst snd] in *.
      assert (Hl : length vs = length (fn_params d))
        by (rewrite (Forall2_length_eq _ _ _ Hvt); apply map_length).
      rewrite Hl, Nat.eqb_refl. cbn [negb].
      pose proof (find_fn_in _ _ Efn) as Hin.
      destruct (wt_fn_inv _ _ _ (Hfns d Hin)) as [tb [Eb Hwf]].
      assert (Hg0 : genv P ([] :: consts_tenv P)).
      { rewrite consts_tenv_one. exists [], []. reflexivity. }
      destruct (genv_tbind_all P (fn_params d) true _ Hg0) as [Hg1 _].
      assert (He0 : env_ok P (scopes (mkEnv [[]; last (scopes en1) []] (lenient en1))) ([] :: consts_tenv P)).
      { cbn [scopes]. rewrite consts_tenv_one. constructor; [constructor|]. constructor; [|constructor].
        rewrite <- (genv_last P g Hg). now apply env_ok_last. }
      pose proof (bind_all_ok P _ _ true (combine_binds_ok _ _ Hvt) _ _ He0) as He2.
      assert (Wb : WTb wt_fuel ([] :: tbind_all ([] :: consts_tenv P) (fn_params d) true) (fn_body d) tb).
      { split; [assumption|]. intro Hs. exact (Hfrag Hs d Hin). }
      eapply res_bind; [apply (IHb _ _ _ _ _ Wb (genv_push _ _ Hg1) (push_ok _ _ _ He2))|].
      intros [v en2] [Hv _]. cbn [fst snd] in *. cbn [res]. split; cbn [fst snd scopes].
      - eapply has_ty_compat_l; [exact Hret|]. eapply has_ty_compat_l; eassumption.
      - exact He1.
    Qed.

    Lemma case_join jt ha a b : case_ok (EJoin jt ha a b).
    Proof.
      case_start. cbn [res].
      apply SA_of_nofrag; [cbn; tauto|]. intro Hs. specialize (Hf Hs). discriminate Hf.
    Qed.

    Theorem Pe_step : Pe (S n).
    Proof.
      intros fw g [ei m t] en. cbn [e_ty]. revert fw g m t en. change (case_ok ei).
      destruct ei; auto using case_lit, case_id, case_arrlit, case_arrrep, case_idx, case_tuplit,
        case_tupacc, case_fld, case_structlit, case_enumlit, case_match, case_neg, case_not, case_op,
        case_block, case_call, case_join, case_if, case_cast.
    Qed.

  End Cases.

  (* ---------------------------------------------------------- blocks *)

  Lemma xb_go_sound n (IHs : Ps n) f : forall ss g lt lv en t,
    wt_go (wt_stmt f P) ss g lt = Some t ->
    (strict = true -> forallb (frag_stmt f) ss = true) ->
    genv P g -> env_ok P (scopes en) g -> has_ty P lv lt = true ->
    res (fun r => has_ty P (fst r) t = true /\ env_ok P (tl (scopes (snd r))) (tl g))
        (xb_go (exec n P) ss lv en).
  Proof.
    induction ss as [|s r IH]; intros g lt lv en t Hw Hf Hg He Hl; cbn [wt_go xb_go] in *.
    - injection Hw as <-. cbn [res fst snd]. split; [assumption|now apply pop_ok].
    - destruct (wt_stmt f P g s) as [[g' t1]|] eqn:Es; [|discriminate Hw].
      assert (Ws : WTs f g s g' t1).
      { split; [assumption|]. intro Hs. specialize (Hf Hs). cbn [forallb] in Hf. andb_all. assumption. }
      eapply res_bind; [apply (IHs _ _ _ _ _ _ Ws Hg He)|].
      intros [v en1] [Hv He1]. cbn [fst snd] in *.
      destruct (wt_stmt_genv _ _ _ _ _ _ Es Hg) as [Hg' Htl]. rewrite <- Htl.
      apply (IH g' t1 v en1 t Hw); try assumption.
      intro Hs. specialize (Hf Hs). cbn [forallb] in Hf. andb_all. assumption.
  Qed.

  Theorem Pb_step n : Ps n -> Pb (S n).
  Proof.
    intros IHs fw g b en t [Hw Hf] Hg He. destruct fw as [|f]; [discriminate Hw|].
    rewrite wt_block_eq in Hw. rewrite exec_block_eq. cbn [frag_block] in Hf.
    eapply xb_go_sound; try eassumption. reflexivity.
  Qed.

  (* ---------------------------------------------------------- statements *)

  Section Stmts.
    Variable n : nat.
    Hypothesis IHe : Pe n.
    Hypothesis IHb : Pb n.

    (* a body guarded by a pattern, run in its own scope (loop iterations) *)
    Lemma guarded_body f g p tbs body tb v en :
      genv P g -> env_ok P (scopes en) g ->
      wt_pat P p = Some tbs -> has_ty P v (p_ty p) = true ->
      WTb f (tbind_all ([] :: g) tbs false) body tb ->
      forall bs, pmatch P p v = Some bs ->
      res (fun r : value * env => env_ok P (scopes (pop_scope (snd r))) g)
          (exec_block n P (bind_all (push_scope en) bs) body).
    Proof.
      intros Hg He Hwp Hv Wb bs Hm.
      destruct (pmatch_sound P p v tbs Hwp Hv) as [Hm1 _]. specialize (Hm1 bs Hm).
      destruct (genv_tbind_all P tbs false ([] :: g) (genv_push _ _ Hg)) as [Hg' Htl].
      assert (He' : env_ok P (scopes (bind_all (push_scope en) bs)) (tbind_all ([] :: g) tbs false))
        by (apply bind_all_ok; [assumption|now apply push_ok]).
      eapply res_weaken; [apply (IHb _ _ _ _ _ Wb Hg' He')|].
      intros [rv en1] [_ He1]. cbn [fst snd pop_scope scopes] in *. now rewrite Htl in He1.
    Qed.

    Lemma x_for_sound f g p tbs body tb el :
      genv P g -> wt_pat P p = Some tbs -> ty_eqb (p_ty p) el = true ->
      WTb f (tbind_all ([] :: g) tbs false) body tb ->
      (strict = true -> irrefutable p = true) ->
      forall vs en, Forall (fun v => has_ty P v el = true) vs -> env_ok P (scopes en) g ->
      res (fun en' : env => env_ok P (scopes en') g) (x_for P (exec_block n P) p body vs en).
    Proof.
      intros Hg Hwp Hel Wb Hirr vs. induction vs as [|v r IH]; intros en Hvs He; cbn [x_for].
      - exact He.
      - inversion Hvs as [|v' r' Hv Hr]; subst.
        assert (Hvp : has_ty P v (p_ty p) = true) by (eapply has_ty_compat_r; eassumption).
        destruct (pmatch P p v) as [bs|] eqn:Em.
        + eapply res_bind; [apply (guarded_body f g p tbs body tb v en Hg He Hwp Hvp Wb bs Em)|].
          intros [rv en1] He1. cbn [snd] in He1. now apply IH.
        + apply SA_of_nofrag; [cbn; tauto|]. intro Hs.
          destruct (proj2 (pmatch_sound P p v tbs Hwp Hvp) (Hirr Hs)) as [bs Hbs]. congruence.
    Qed.

    Lemma x_join_sound f g p tbs body tb jt ta tb' ys :
      genv P g -> wt_pat P p = Some tbs -> ty_eqb (p_ty p) (TTup [ta; tb']) = true ->
      WTb f (tbind_all ([] :: g) tbs false) body tb ->
      strict = false ->
      Forall (fun v => has_ty P v tb' = true) ys ->
      forall xs en, Forall (fun v => has_ty P v ta = true) xs -> env_ok P (scopes en) g ->
      res (fun en' : env => env_ok P (scopes en') g)
          (x_join P (exec_block n P) p body jt ta tb' ys xs en).
    Proof.
      intros Hg Hwp Hel Wb Hns Hys xs. induction xs as [|x r IH]; intros en Hxs He; cbn [x_join].
      - exact He.
      - inversion Hxs as [|x' r' Hx Hr]; subst.
        destruct (join_key P jt ta x) as [kx|]; [|split; [cbn; tauto|assumption]].
        match goal with |- context [find ?h ys] => destruct (find h ys) as [y|] eqn:Efind end;
          [|now apply IH].
        apply find_some in Efind as [Hy _]. rewrite Forall_forall in Hys. specialize (Hys y Hy).
        assert (Hvp : has_ty P (VTup [x; y]) (p_ty p) = true).
        { eapply has_ty_compat_r; [eassumption|]. rewrite has_ty_tup. cbn [forallb2].
          now rewrite Hx, Hys. }
        destruct (pmatch P p (VTup [x; y])) as [bs|] eqn:Em; [|split; [cbn; tauto|assumption]].
        eapply res_bind; [apply (guarded_body f g p tbs body tb _ en Hg He Hwp Hvp Wb bs Em)|].
        intros [rv en1] He1. cbn [snd] in He1. now apply IH.
    Qed.

    (* accessor paths *)
    Fixpoint path_ok (path : list rstep) (t tf : ty) : Prop :=
      match path with
      | [] => t = tf
      | RIdx i :: r => exists el k, t = TArr el k /\ i < k /\ path_ok r el tf
      | RPos i :: r =>
          (exists ts ti, t = TTup ts /\ nthN ts i = Some ti /\ path_ok r ti tf) \/
          (exists name def ti, t = TStruct name /\ assocN name (p_structs P) = Some def /\
                               nthN (map snd def) i = Some ti /\ path_ok r ti tf)
      end.

    Lemma path_ok_pos i r t tf :
      path_ok (RPos i :: r) t tf <->
      exists ts ti, pos_tys P t = Some ts /\ nthN ts i = Some ti /\ path_ok r ti tf.
    Proof.
      cbn [path_ok]. split.
      - intros [[ts [ti [-> [Hn Hr]]]]|[name [def [ti [-> [Hd [Hn Hr]]]]]]].
        + exists ts, ti. auto.
        + exists (map snd def), ti. auto using pos_tys_struct.
      - intros [ts [ti [Hp [Hn Hr]]]]. destruct t as [| | |ts'|name|]; try discriminate Hp; cbn [pos_tys] in Hp.
        + injection Hp as ->. left. eauto.
        + destruct (assocN name (p_structs P)) as [def|] eqn:Hd; [|discriminate Hp].
          injection Hp as <-. right. eauto 7.
    Qed.

    Lemma path_ok_app p1 : forall p2 t tm tf, path_ok p1 t tm -> path_ok p2 tm tf -> path_ok (p1 ++ p2) t tf.
    Proof.
      induction p1 as [|[i|i] r IH]; intros p2 t tm tf H1 H2; cbn [app].
      - cbn [path_ok] in H1. now subst.
      - destruct H1 as [el [k [-> [Hi Hr]]]]. exists el, k. eauto.
      - apply path_ok_pos in H1 as [ts [ti [Hp [Hn Hr]]]]. apply path_ok_pos. eauto 6.
    Qed.

    Lemma path_step st prev g ct tm tf (o : outcome (list rstep * env)) :
      (forall path, path_ok path tm tf -> path_ok (st :: path) ct tf) ->
      res (fun r => (exists path, fst r = rev (st :: prev) ++ path /\ path_ok path tm tf) /\
                    env_ok P (scopes (snd r)) g) o ->
      res (fun r => (exists path, fst r = rev prev ++ path /\ path_ok path ct tf) /\
                    env_ok P (scopes (snd r)) g) o.
    Proof.
      intros Hst Ho. eapply res_weaken; [exact Ho|].
      intros r [[path [Hp1 Hp2]] He2]. split; [|assumption]. exists (st :: path). split; [|auto].
      rewrite Hp1. cbn [rev]. now rewrite <- app_assoc.
    Qed.

    Lemma x_accs_sound f g m tf : genv P g -> forall accs ct cur en prev,
      wt_accs P (wt_expr f P) g accs ct = Some tf ->
      (strict = true -> forallb (fun a => match a with AIdx _ i => frag_expr f i | _ => true end) accs = true) ->
      has_ty P cur ct = true -> env_ok P (scopes en) g ->
      res (fun r => (exists path, fst r = rev prev ++ path /\ path_ok path ct tf) /\
                    env_ok P (scopes (snd r)) g)
          (x_accs P (eval n P) m accs cur en prev).
    Proof.
      intros Hg accs. induction accs as [|a r IH]; intros ct cur en prev Hw Hf Hc He; cbn [wt_accs x_accs] in *.
      - injection Hw as <-. cbn [res fst snd]. split; [|assumption]. exists []. rewrite app_nil_r. now split.
      - assert (Hfr : strict = true -> forallb (fun a => match a with AIdx _ i => frag_expr f i | _ => true end) r = true).
        { intro Hs. specialize (Hf Hs). cbn [forallb] in Hf. andb_all. assumption. }
        destruct a as [aty ie|tty i|sty fld].
        + destruct ct as [| |el k| | |]; try discriminate Hw.
          destruct (ty_eqb aty (TArr el k) && is_unsigned (e_ty ie) && wt_expr f P g ie) eqn:Ec; [|discriminate Hw].
          andb_all.
          assert (Wi : WTe f g ie).
          { split; [assumption|]. intro Hs. specialize (Hf Hs). cbn [forallb] in Hf. andb_all. assumption. }
          use_IH IHe Wi Hg He vi en1 Hvi He1.
          destruct (has_ty_arr_inv _ _ _ _ Hc) as [vs [-> [Hlen Hall]]].
          match goal with H : is_unsigned (e_ty ie) = true |- _ => destruct (is_unsigned_inv _ H) as [b Ei] end.
          rewrite Ei in Hvi. destruct (has_ty_int_inv _ _ _ _ Hvi) as [z ->].
          destruct ((0 <=? z)%Z && (z <? Z.of_nat (length vs))%Z) eqn:Eb; [|exact I].
          destruct (idx_in_bounds vs z Eb) as [sub [-> [Hin Hlt]]].
          rewrite Forall_forall in Hall.
          eapply path_step; [|apply (IH el sub en1 _ Hw Hfr (Hall _ Hin) He1)].
          intros path Hp. exists el, k. rewrite <- Hlen. auto.
        + destruct ct as [| | |ts| |]; try discriminate Hw.
          destruct (ty_eqb tty (TTup ts)); [|discriminate Hw].
          destruct (nthN ts i) as [ti|] eqn:Ei; [|discriminate Hw].
          destruct (has_ty_pos_nth _ _ (TTup ts) _ _ _ eq_refl Ei Hc) as [vs [sub [-> [-> Hst]]]].
          eapply path_step; [|apply (IH ti sub en _ Hw Hfr Hst He)].
          intros path Hp. apply path_ok_pos. exists ts, ti. auto.
        + destruct ct as [| | | |name|]; try discriminate Hw.
          destruct (ty_eqb sty (TStruct name)) eqn:Es; [|discriminate Hw].
          destruct sty as [| | | |name'|]; try discriminate Es. cbn [ty_eqb] in Es. apply N.eqb_eq in Es. subst name'.
          destruct (assocN name (p_structs P)) as [def|] eqn:Ed; [|discriminate Hw].
          destruct (assocN fld def) as [ft|] eqn:Ef; [|discriminate Hw].
          destruct (assoc_index def fld ft Ef) as [k [Hk1 Hk2]]. rewrite Hk1.
          pose proof (pos_tys_struct _ _ _ Ed) as Hpos.
          destruct (has_ty_pos_nth _ _ _ _ _ _ Hpos Hk2 Hc) as [vs [sub [-> [-> Hst]]]].
          eapply path_step; [|apply (IH ft sub en _ Hw Hfr Hst He)].
          intros path Hp. apply path_ok_pos. exists (map snd def), ft. auto.
    Qed.

    Lemma set_nth_Forall (Q : value -> Prop) vs : forall i x,
      Forall Q vs -> Q x -> (i < length vs)%nat ->
      exists vs', set_nth_val vs i x = Some vs' /\ Forall Q vs' /\ length vs' = length vs.
    Proof.
      induction vs as [|v r IH]; intros i x Hall Hx Hi; cbn [length] in Hi; [lia|].
      inversion Hall; subst. destruct i as [|i]; cbn [set_nth_val].
      - eexists. split; [reflexivity|]. split; [constructor; assumption|reflexivity].
      - destruct (IH i x) as [r' [Hs [Hf Hl]]]; try assumption; [lia|]. rewrite Hs.
        eexists. split; [reflexivity|]. split; [constructor; assumption|]. cbn [length]. now rewrite Hl.
    Qed.

    Lemma set_nth_Forall2 (R : value -> ty -> Prop) vs ts : Forall2 R vs ts -> forall i x ti,
      nth_error ts i = Some ti -> R x ti ->
      exists vs', set_nth_val vs i x = Some vs' /\ Forall2 R vs' ts.
    Proof.
      induction 1 as [|v t vr tr Hv Hr IH]; intros i x ti Hn Hx; [destruct i; discriminate|].
      destruct i as [|i]; cbn [nth_error set_nth_val] in *.
      - injection Hn as ->. eexists. split; [reflexivity|]. constructor; assumption.
      - destruct (IH i x ti Hn Hx) as [r' [Hs Hf]]. rewrite Hs. eexists. split; [reflexivity|].
        constructor; assumption.
    Qed.

    Lemma write_path_ok tf nv : has_ty P nv tf = true -> forall path t v,
      path_ok path t tf -> has_ty P v t = true ->
      exists whole, write_path v path nv = Some whole /\ has_ty P whole t = true.
    Proof.
      intros Hnv path. induction path as [|[i|i] r IH]; intros t v Hp Hv; cbn [write_path].
      - cbn [path_ok] in Hp. subst. eauto.
      - destruct Hp as [el [k [-> [Hi Hr]]]].
        destruct (has_ty_arr_inv _ _ _ _ Hv) as [vs [-> [Hlen Hall]]].
        assert (Hsub : exists sub, nthN vs i = Some sub) by (apply nthN_Some; lia).
        destruct Hsub as [sub Hsub]. rewrite Hsub.
        assert (Hst : has_ty P sub el = true).
        { rewrite nthN_spec in Hsub. apply nth_error_In in Hsub. rewrite Forall_forall in Hall. now apply Hall. }
        destruct (IH el sub Hr Hst) as [sub' [Hw Hs']]. rewrite Hw.
        destruct (set_nth_Forall (fun x => has_ty P x el = true) vs (N.to_nat i) sub' Hall Hs')
          as [vs' [Hset [Hall' Hlen']]]; [unfold lenN in Hlen; lia|].
        rewrite Hset. eexists. split; [reflexivity|]. rewrite has_ty_arr. apply andb_true_intro. split.
        + apply N.eqb_eq. unfold lenN in *. now rewrite Hlen'.
        + now apply forallb_Forall.
      - apply path_ok_pos in Hp as [ts [ti [Hpos [Hn Hr]]]].
        destruct (has_ty_pos_inv _ _ _ _ Hpos Hv) as [vs [-> Hvs]].
        destruct (Forall2_nthN _ _ _ _ _ Hvs Hn) as [sub [Hsub Hst]]. rewrite Hsub.
        destruct (IH ti sub Hr Hst) as [sub' [Hw Hs']]. rewrite Hw.
        rewrite nthN_spec in Hn.
        destruct (set_nth_Forall2 _ _ _ Hvs (N.to_nat i) sub' ti Hn Hs') as [vs' [Hset Hall']].
        rewrite Hset. eexists. split; [reflexivity|]. rewrite (has_ty_pos _ _ _ _ Hpos). now apply forallb2_Forall2.
    Qed.

    Theorem Ps_step : Ps (S n).
    Proof.
      intros fw g [si m] en g' t [Hw Hf] Hg He. destruct fw as [|f]; [discriminate Hw|].
      rewrite wt_stmt_eq in Hw. rewrite exec_eq. cbn zeta. cbn [frag_stmt] in Hf.
      destruct si as [p e|x e|x accs e|p arr body|p jt a b body|e].
      - (* let *)
        destruct (wt_expr f P g e && ty_eqb (p_ty p) (e_ty e)) eqn:Ec; [|discriminate Hw].
        destruct (wt_pat P p) as [tbs|] eqn:Ep; [|discriminate Hw]. injection Hw as <- <-. andb_all.
        assert (We : WTe f g e) by sub_wte.
        use_IH IHe We Hg He v en1 Hv He1.
        assert (Hvp : has_ty P v (p_ty p) = true) by (eapply has_ty_compat_r; eassumption).
        destruct (pmatch_sound P p v tbs Ep Hvp) as [Hm1 Hm2].
        destruct (pmatch P p v) as [bs|] eqn:Em.
        + cbn [res]. split; cbn [fst snd]; [reflexivity|]. apply bind_all_ok; [now apply Hm1|assumption].
        + apply SA_of_nofrag; [cbn; tauto|]. intro Hs. specialize (Hf Hs). andb_all.
          match goal with H : irrefutable p = true |- _ => destruct (Hm2 H) as [bs Hbs]; discriminate Hbs end.
      - (* let mut *)
        destruct (wt_expr f P g e) eqn:Ec; [|discriminate Hw]. injection Hw as <- <-.
        assert (We : WTe f g e) by (split; assumption).
        use_IH IHe We Hg He v en1 Hv He1.
        cbn [res]. split; cbn [fst snd]; [reflexivity|]. now apply bind_var_ok.
      - (* assignment *)
        destruct (tlookup g x) as [[tx [|]]|] eqn:El; try discriminate Hw.
        destruct (wt_accs P (wt_expr f P) g accs tx) as [tf|] eqn:Ea; [|discriminate Hw].
        destruct (ty_eqb tf (e_ty e) && wt_expr f P g e) eqn:Ec; [|discriminate Hw].
        injection Hw as <- <-. andb_all.
        assert (We : WTe f g e) by sub_wte.
        use_IH IHe We Hg He nv en0 Hnv He0.
        destruct (lookup_ok _ _ _ _ _ _ He0 El) as [cur [Hcur Hct]]. unfold lookup_var at 1. rewrite Hcur.
        eapply res_bind; [apply (x_accs_sound f g m tf Hg accs tx cur en0 [] Ea)|]; try assumption.
        { intro Hs. specialize (Hf Hs). andb_all. assumption. }
        intros [path en2] [[path' [Hp1 Hp2]] He2]. cbn [fst snd rev app] in *. subst path'.
        destruct (lookup_ok _ _ _ _ _ _ He2 El) as [cur2 [Hcur2 Hct2]]. unfold lookup_var. rewrite Hcur2.
        assert (Hnv' : has_ty P nv tf = true) by (eapply has_ty_compat_r; eassumption).
        destruct (write_path_ok tf nv Hnv' path tx cur2 Hp2 Hct2) as [whole [Hwr Hwt]]. rewrite Hwr.
        destruct (assign_ok _ _ _ _ _ _ _ He2 El Hwt) as [en3 [Has He3]]. rewrite Has.
        cbn [res]. split; cbn [fst snd]; [reflexivity|assumption].
      - (* for *)
        destruct (e_ty arr) as [| |el k| | |] eqn:Earr; try discriminate Hw.
        destruct (wt_expr f P g arr && ty_eqb (p_ty p) el) eqn:Ec; [|discriminate Hw].
        destruct (wt_pat P p) as [tbs|] eqn:Ep; [|discriminate Hw].
        destruct (wt_block f P (tbind_all ([] :: g) tbs false) body) as [tb|] eqn:Eb; [|discriminate Hw].
        injection Hw as <- <-. andb_all.
        assert (Wa : WTe f g arr) by sub_wte.
        use_IH IHe Wa Hg He va en1 Hva He1. rewrite Earr in Hva.
        destruct (has_ty_arr_inv _ _ _ _ Hva) as [vs [-> [Hlen Hall]]].
        assert (Wb : WTb f (tbind_all ([] :: g) tbs false) body tb).
        { split; [assumption|]. intro Hs. specialize (Hf Hs). andb_all. assumption. }
        eapply res_bind; [eapply (x_for_sound f g p tbs body tb el Hg Ep)|]; try eassumption.
        { intro Hs. specialize (Hf Hs). andb_all. assumption. }
        intros en2 He2. cbn [res]. split; cbn [fst snd]; [reflexivity|assumption].
      - (* join loop *)
        assert (Hns : strict = false) by (destruct strict; [discriminate (Hf eq_refl)|reflexivity]).
        destruct (e_ty a) as [| |ta ka| | |] eqn:Eta; try discriminate Hw.
        destruct (e_ty b) as [| |tb' kb| | |] eqn:Etb; try discriminate Hw.
        destruct (wt_expr f P g a && wt_expr f P g b && ty_eqb (p_ty p) (TTup [ta; tb'])) eqn:Ec; [|discriminate Hw].
        destruct (wt_pat P p) as [tbs|] eqn:Ep; [|discriminate Hw].
        destruct (wt_block f P (tbind_all ([] :: g) tbs false) body) as [tb|] eqn:Eb; [|discriminate Hw].
        injection Hw as <- <-. andb_all.
        assert (Wa : WTe f g a) by (split; [assumption|intro Hs; congruence]).
        assert (Wb' : WTe f g b) by (split; [assumption|intro Hs; congruence]).
        use_IH IHe Wa Hg He va en1 Hva He1. use_IH IHe Wb' Hg He1 vb en2 Hvb He2.
        rewrite Eta in Hva. rewrite Etb in Hvb.
        destruct (has_ty_arr_inv _ _ _ _ Hva) as [xs [-> [_ Hxs]]].
        destruct (has_ty_arr_inv _ _ _ _ Hvb) as [ys [-> [_ Hys]]].
        cbn [elem_ty_of].
        assert (Wb : WTb f (tbind_all ([] :: g) tbs false) body tb)
          by (split; [assumption|intro Hs; congruence]).
        eapply res_bind; [eapply (x_join_sound f g p tbs body tb jt ta tb' ys Hg Ep)|]; try eassumption.
        intros en3 He3. cbn [res]. split; cbn [fst snd]; [reflexivity|assumption].
      - (* expression statement *)
        destruct (wt_expr f P g e) eqn:Ec; [|discriminate Hw]. injection Hw as <- <-.
        assert (We : WTe f g e) by (split; assumption).
        exact (IHe _ _ _ _ We Hg He).
    Qed.
  End Stmts.

  Theorem sound_all : forall n, Pe n /\ Pb n /\ Ps n.
  Proof.
    induction n as [|n [IHe [IHb IHs]]].
    - split; [|split]; red; intros; exact I.
    - assert (Hs : Ps (S n)) by (apply Ps_step; assumption).
      split; [apply Pe_step; assumption|]. split; [|exact Hs]. apply Pb_step. exact IHs.
  Qed.
End Sound.

Lemma wt_program_fns P : wt_program P = true ->
  forall d, In d (p_fns P) -> wt_fn P (consts_tenv P) d = true.
Proof.
  unfold wt_program. intros H d Hd. apply andb_prop in H as [_ H]. rewrite forallb_forall in H. now apply H.
Qed.

Lemma frag_program_fns P (strict : bool) : (strict = true -> frag_program P = true) ->
  strict = true -> forall d, In d (p_fns P) -> frag_block wt_fuel (fn_body d) = true.
Proof.
  intros H Hs d Hd. specialize (H Hs). unfold frag_program in H. rewrite forallb_forall in H. now apply H.
Qed.

(* Preservation and progress for expressions, every construct of the language.
   [strict = false]: evaluation of a checked expression in a typed environment never gets
   stuck except with one of the codes [stuck_allowed] (pattern-match failure, join);
   [strict = true]: inside the syntactic fragment [frag_*] it never gets stuck at all. *)
Theorem wt_sound_expr P (strict : bool) :
  wt_program P = true -> (strict = true -> frag_program P = true) ->
  forall n fw g e en,
    wt_expr fw P g e = true -> (strict = true -> frag_expr fw e = true) ->
    genv P g -> env_ok P (scopes en) g ->
    match eval n P en e with
    | Done (v, en') => has_ty P v (e_ty e) = true /\ env_ok P (scopes en') g
    | Stuck c => In c stuck_allowed /\ strict = false
    | Panicked _ _ | NoFuel => True
    end.
Proof.
  intros Hwt Hfr n fw g e en Hw Hf Hg He.
  destruct (sound_all P strict (wt_program_fns P Hwt) (frag_program_fns P strict Hfr) n) as [HPe _].
  specialize (HPe fw g e en (conj Hw Hf) Hg He). unfold res, SA, QE in HPe.
  destruct (eval n P en e) as [[v en']| | |]; exact HPe.
Qed.

Theorem wt_sound_block P (strict : bool) :
  wt_program P = true -> (strict = true -> frag_program P = true) ->
  forall n fw g b en t,
    wt_block fw P g b = Some t -> (strict = true -> frag_block fw b = true) ->
    genv P g -> env_ok P (scopes en) g ->
    match exec_block n P en b with
    | Done (v, en') => has_ty P v t = true /\ env_ok P (tl (scopes en')) (tl g)
    | Stuck c => In c stuck_allowed /\ strict = false
    | Panicked _ _ | NoFuel => True
    end.
Proof.
  intros Hwt Hfr n fw g b en t Hw Hf Hg He.
  destruct (sound_all P strict (wt_program_fns P Hwt) (frag_program_fns P strict Hfr) n) as [_ [HPb _]].
  specialize (HPb fw g b en t (conj Hw Hf) Hg He). unfold res, SA in HPb.
  destruct (exec_block n P en b) as [[v en']| | |]; exact HPb.
Qed.

Theorem wt_sound_stmt P (strict : bool) :
  wt_program P = true -> (strict = true -> frag_program P = true) ->
  forall n fw g s en g' t,
    wt_stmt fw P g s = Some (g', t) -> (strict = true -> frag_stmt fw s = true) ->
    genv P g -> env_ok P (scopes en) g ->
    match exec n P en s with
    | Done (v, en') => has_ty P v t = true /\ env_ok P (scopes en') g'
    | Stuck c => In c stuck_allowed /\ strict = false
    | Panicked _ _ | NoFuel => True
    end.
Proof.
  intros Hwt Hfr n fw g s en g' t Hw Hf Hg He.
  destruct (sound_all P strict (wt_program_fns P Hwt) (frag_program_fns P strict Hfr) n) as [_ [_ HPs]].
  specialize (HPs fw g s en g' t (conj Hw Hf) Hg He). unfold res, SA, QE in HPs.
  destruct (exec n P en s) as [[v en']| | |]; exact HPs.
Qed.

(* global constants: literals, evaluated into the outermost scope *)
Lemma eval_consts_ok P fuel : wt_program P = true ->
  match eval_consts fuel P with
  | Done en0 => env_ok P (scopes en0) (consts_tenv P)
  | NoFuel => True
  | _ => False
  end.
Proof.
  unfold wt_program, eval_consts, consts_tenv, tbind_all. intro H. apply andb_prop in H as [H _].
  assert (He : env_ok P (scopes (mkEnv [[]] false)) [[]]) by (repeat constructor).
  revert He. generalize (mkEnv [[]] false) as en. generalize ([[]] : tenv) as g.
  induction (p_consts P) as [|[x e] cs IH]; intros g en He; cbn [map fold_left].
  - exact He.
  - cbn [forallb] in H. apply andb_prop in H as [Hc Hr]. cbn [snd fst] in *. apply andb_prop in Hc as [Hl Hw].
    destruct fuel as [|n]; [exact I|].
    destruct (eval_lit_ok P n _ [] en e Hw Hl) as [v [-> Hv]]. cbn [obind]. apply (IH Hr). now apply bind_var_ok.
Qed.

(* WtShape.wt_main_shape at the level of values: the body of [main], run as [run_main] runs it *)
Theorem wt_main_values P d fuel args :
  wt_program P = true -> find_fn P (p_main P) = Some d -> binds_ok P args (fn_params d) ->
  match eval_consts fuel P with
  | Done en0 =>
      match exec_block fuel P (push_scope (bind_all (push_scope en0) args)) (fn_body d) with
      | Done (v, _) => has_ty P v (fn_ret d) = true
      | Stuck c => In c stuck_allowed /\ frag_program P = false
      | Panicked _ _ | NoFuel => True
      end
  | NoFuel => True
  | Stuck _ | Panicked _ _ => False
  end.
Proof.
  intros Hwt Hfn Hargs. pose proof (eval_consts_ok P fuel Hwt) as Hc.
  destruct (eval_consts fuel P) as [en0| | |]; try contradiction; [|exact I].
  assert (Hin : In d (p_fns P)) by (unfold find_fn in Hfn; apply find_some in Hfn; tauto).
  destruct (wt_fn_inv _ _ _ (wt_program_fns P Hwt d Hin)) as [tb [Eb Hret]].
  assert (Hg0 : genv P ([] :: consts_tenv P)) by (rewrite consts_tenv_one; exists [], []; reflexivity).
  destruct (genv_tbind_all P (fn_params d) true _ Hg0) as [Hg1 _].
  pose proof (bind_all_ok P _ _ true Hargs _ _ (push_ok _ _ _ Hc)) as He1.
  pose proof (wt_sound_block P (frag_program P) Hwt (fun H => H) fuel wt_fuel _ (fn_body d) _ tb Eb
                (fun Hs => frag_program_fns P (frag_program P) (fun H => H) Hs d Hin)
                (genv_push _ _ Hg1) (push_ok _ _ _ He1)) as Hb.
  destruct (exec_block fuel P _ (fn_body d)) as [[v en']| | |]; try exact Hb.
  destruct Hb as [Hv _]. eapply has_ty_compat_l; eassumption.
Qed.
