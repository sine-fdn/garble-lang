(* The local loops of the interpreter Lang/Sem.v as top-level functions, and one unfolding
   step of [eval], [exec_block] and [exec] stated with them. *)
From GV Require Import Base.Util Lang.Ast Lang.Sem.
Open Scope N_scope.

Section EvAux.
  Variable P : program.
  Variable ev : env -> expr -> outcome (value * env).
  Variable xb : env -> list stmt -> outcome (value * env).
  Variable ex : env -> stmt -> outcome (value * env).

  Fixpoint ev_list (es : list expr) (en : env) : outcome (list value * env) :=
    match es with
    | [] => Done ([], en)
    | e :: r =>
        do (v, en1) <- ev en e;
        do (vs, en2) <- ev_list r en1;
        Done (v :: vs, en2)
    end.

  Section Fields.
    Variable fields : list (N * expr).
    Fixpoint ev_fields (ds : list (N * ty)) (en : env) : outcome (list value * env) :=
      match ds with
      | [] => Done ([], en)
      | (fname, _) :: r =>
          match assocN fname fields with
          | Some fe =>
              do (v, en1) <- ev en fe;
              do (vs, en2) <- ev_fields r en1;
              Done (v :: vs, en2)
          | None => Stuck 39
          end
      end.
  End Fields.

  Section Arms.
    Variable v : value.
    Variable en : env.
    Fixpoint ev_arms (arms : list (pattern * expr)) : outcome (value * env) :=
      match arms with
      | [] => Stuck 41
      | (p, body) :: r =>
          match pmatch P p v with
          | Some bs =>
              do (res, en1) <- ev (bind_all (push_scope en) bs) body;
              Done (res, pop_scope en1)
          | None => ev_arms r
          end
      end.
  End Arms.

  Fixpoint xb_go (ss : list stmt) (last : value) (en : env) : outcome (value * env) :=
    match ss with
    | [] => Done (last, en)
    | s :: r => do (v, en1) <- ex en s; xb_go r v en1
    end.

  Section Accs.
    Variable m : meta.
    Fixpoint x_accs (accs : list accessor) (cur : value) (en : env) (path_rev : list rstep)
      : outcome (list rstep * env) :=
      match accs with
      | [] => Done (rev path_rev, en)
      | AIdx _ ie :: r =>
          do (vi, en1) <- ev en ie;
          match cur, vi with
          | VArr vs, VInt z =>
              if ((0 <=? z) && (z <? Z.of_nat (length vs)))%Z then
                match nth_error vs (Z.to_nat z) with
                | Some sub => x_accs r sub en1 (RIdx (Z.to_N z) :: path_rev)
                | None => Stuck 62
                end
              else Panicked ROutOfBounds m
          | _, _ => Stuck 63
          end
      | ATup _ i :: r =>
          match cur with
          | VTup vs => match nthN vs i with
                       | Some sub => x_accs r sub en (RPos i :: path_rev)
                       | None => Stuck 64 end
          | _ => Stuck 65
          end
      | AFld sty fld :: r =>
          match sty, cur with
          | TStruct name, VTup vs =>
              match assocN name (p_structs P) with
              | Some def =>
                  match index_of fld (map fst def) 0%N with
                  | Some k => match nthN vs k with
                              | Some sub => x_accs r sub en (RPos k :: path_rev)
                              | None => Stuck 66 end
                  | None => Stuck 67
                  end
              | None => Stuck 68
              end
          | _, _ => Stuck 69
          end
      end.
  End Accs.

  Section For.
    Variable p : pattern.
    Variable body : list stmt.
    Fixpoint x_for (vs : list value) (en : env) : outcome env :=
      match vs with
      | [] => Done en
      | v :: r =>
          match pmatch P p v with
          | Some bs =>
              do (_, en1) <- xb (bind_all (push_scope en) bs) body;
              x_for r (pop_scope en1)
          | None => Stuck 73
          end
      end.

    Variable join_ty ta tb : ty.
    Variable ys : list value.
    Fixpoint x_join (xs : list value) (en : env) : outcome env :=
      match xs with
      | [] => Done en
      | x :: r =>
          match join_key P join_ty ta x with
          | None => Stuck 75
          | Some kx =>
              let partner := find (fun y =>
                match join_key P join_ty tb y with
                | Some ky => bits_eqb kx ky | None => false end) ys in
              match partner with
              | None => x_join r en
              | Some y =>
                  match pmatch P p (VTup [x; y]) with
                  | Some bs =>
                      do (_, en1) <- xb (bind_all (push_scope en) bs) body;
                      x_join r (pop_scope en1)
                  | None => Stuck 76
                  end
              end
          end
      end.
  End For.
End EvAux.

Lemma eval_eq n P env0 ei m t :
  eval (S n) P env0 (Ex ei m t) =
  let ev := eval n P in
  match ei with
  | ETrue => Done (VBool true, env0)
  | EFalse => Done (VBool false, env0)
  | ENumU k _ => Done (VInt (Z.of_N k), env0)
  | ENumS z _ => Done (VInt z, env0)
  | EId x => match lookup_var env0 x with Some v => Done (v, env0) | None => Stuck 30 end
  | EArrLit es => do (vs, en) <- ev_list ev es env0; Done (VArr vs, en)
  | EArrRep e1 k => do (v, en) <- ev env0 e1; Done (VArr (repeat v (N.to_nat k)), en)
  | EIdx a i =>
      do (va, en1) <- ev env0 a;
      do (vi, en2) <- ev en1 i;
      match va, vi with
      | VArr vs, VInt z =>
          if ((0 <=? z) && (z <? Z.of_nat (length vs)))%Z then
            match nth_error vs (Z.to_nat z) with
            | Some v => Done (v, en2)
            | None => Stuck 31
            end
          else Panicked ROutOfBounds m
      | _, _ => Stuck 32
      end
  | ETupLit es => do (vs, en) <- ev_list ev es env0; Done (VTup vs, en)
  | ETupAcc e1 i =>
      do (v, en) <- ev env0 e1;
      match v with
      | VTup vs => match nthN vs i with Some x => Done (x, en) | None => Stuck 33 end
      | _ => Stuck 34
      end
  | EFld e1 fld =>
      do (v, en) <- ev env0 e1;
      match e_ty e1, v with
      | TStruct name, VTup vs =>
          match assocN name (p_structs P) with
          | Some def =>
              match index_of fld (map fst def) 0%N with
              | Some k => match nthN vs k with Some x => Done (x, en) | None => Stuck 35 end
              | None => Stuck 36
              end
          | None => Stuck 37
          end
      | _, _ => Stuck 38
      end
  | EStructLit name fields =>
      match assocN name (p_structs P) with
      | Some def => do (vs, en) <- ev_fields ev fields def env0; Done (VTup vs, en)
      | None => Stuck 40
      end
  | EEnumLit _ variant args => do (vs, en) <- ev_list ev args env0; Done (VEnum variant vs, en)
  | EMatch scrut arms => do (v, en) <- ev env0 scrut; ev_arms P ev v en arms
  | ENeg e1 =>
      do (v, en) <- ev env0 e1;
      match v, int_ty t with
      | VInt z, Some (sg, bits) => do r <- checked sg bits m (- z); Done (r, en)
      | _, _ => Stuck 42
      end
  | ENot e1 =>
      do (v, en) <- ev env0 e1;
      match v, t with
      | VBool b, _ => Done (VBool (negb b), en)
      | VInt z, TInt sg bits => Done (VInt (wrap sg bits (Z.lnot z)), en)
      | _, _ => Stuck 43
      end
  | EOp OLAnd x y =>
      do (vx, en1) <- ev env0 x;
      match vx with
      | VBool false => Done (VBool false, en1)
      | VBool true => ev en1 y
      | _ => Stuck 44
      end
  | EOp OLOr x y =>
      do (vx, en1) <- ev env0 x;
      match vx with
      | VBool true => Done (VBool true, en1)
      | VBool false => ev en1 y
      | _ => Stuck 45
      end
  | EOp o x y =>
      do (vx, en1) <- ev env0 x;
      do (vy, en2) <- ev en1 y;
      let rt := match o with OShl | OShr => e_ty x | _ => t end in
      do (v, len) <- eval_binop o m rt (e_ty x) vx vy (lenient en2);
      Done (v, mkEnv (scopes en2) len)
  | EBlock b => do (v, en) <- exec_block n P (push_scope env0) b; Done (v, pop_scope en)
  | ECall fn args =>
      match find_fn P fn with
      | Some d =>
          do (vs, en) <- ev_list ev args env0;
          if negb (length vs =? length (fn_params d))%nat then Stuck 46 else
          let en1 := bind_all (mkEnv [[]; last (scopes en) []] (lenient en))
                              (combine (map fst (fn_params d)) vs) in
          do (v, en2) <- exec_block n P (push_scope en1) (fn_body d);
          Done (v, mkEnv (scopes en) (lenient en2))
      | None => Stuck 47
      end
  | EJoin _ _ _ _ => Stuck 48
  | EIf c a b =>
      do (vc, en) <- ev env0 c;
      match vc with
      | VBool true => ev en a
      | VBool false => ev en b
      | _ => Stuck 49
      end
  | ECast to e1 => do (v, en) <- ev env0 e1; do r <- eval_cast to (e_ty e1) v; Done (r, en)
  | ERange lo hi _ =>
      Done (VArr (map (fun k => VInt (Z.of_N lo + Z.of_nat k)) (seq 0 (N.to_nat (hi - lo)))), env0)
  end.
Proof. destruct ei; reflexivity. Qed.

Lemma exec_block_eq n P env0 b :
  exec_block (S n) P env0 b = xb_go (exec n P) b unit_val env0.
Proof. reflexivity. Qed.

Lemma exec_eq n P env0 si m :
  exec (S n) P env0 (St si m) =
  let ev := eval n P in
  let xb := exec_block n P in
  match si with
  | SLet p e =>
      do (v, en) <- ev env0 e;
      match pmatch P p v with
      | Some bs => Done (unit_val, bind_all en bs)
      | None => Stuck 60
      end
  | SLetMut x e => do (v, en) <- ev env0 e; Done (unit_val, bind_var en x v)
  | SAssign x accs e =>
      do (nv, en0) <- ev env0 e;
      match lookup_var en0 x with
      | None => Stuck 61
      | Some cur =>
          do (path, en2) <- x_accs P ev m accs cur en0 [];
          match lookup_var en2 x with
          | Some cur2 =>
              match write_path cur2 path nv with
              | Some whole =>
                  match assign_var en2 x whole with
                  | Some en3 => Done (unit_val, en3)
                  | None => Stuck 70
                  end
              | None => Stuck 71
              end
          | None => Stuck 72
          end
      end
  | SFor p arr body =>
      do (va, en) <- ev env0 arr;
      match va with
      | VArr vs => do en2 <- x_for P xb p body vs en; Done (unit_val, en2)
      | _ => Stuck 74
      end
  | SJoinLoop p join_ty a b body =>
      do (va, en1) <- ev env0 a;
      do (vb, en2) <- ev en1 b;
      match va, vb, elem_ty_of (e_ty a), elem_ty_of (e_ty b) with
      | VArr xs, VArr ys, Some ta, Some tb =>
          do en3 <- x_join P xb p body join_ty ta tb ys xs en2; Done (unit_val, en3)
      | _, _, _, _ => Stuck 77
      end
  | SExpr e => ev env0 e
  end.
Proof. destruct si; reflexivity. Qed.
