(* THE TWO ENCODINGS OF VALUES ARE THE SAME.

   (A) Lang/Types.v + Lang/Literal.v: the model of the real crate's `Literal` API (type test
       `is_of_type`, encoder `as_bits`, decoder `from_bits`), tied to the Rust code;
   (B) Lang/Sem.v ([Sem.encode] / [Sem.decode]) and Compile/ValEnc.v ([has_enc]), which the
       theorems "bit-level semantics = source semantics" (Compile/TSemSemFull.v) speak about.

   1  translations:  [rty_of] / [ty_of_ast] (an Ast type with the struct / enum names of the
      program resolved into a Types.rty; variants are named by their position, which is what
      Sem's [VEnum tag] carries), [enum_env] (the enum environment `as_bits` consults),
      [lit_of_value] (the canonical literal of a value)
   2  [lit_enc_agree]: for [has_enc P t v w] the literal of v is a value of the translated
      type ([has_type], [is_of_type]), `as_bits` yields exactly w, and ([lit_enc_decode])
      `from_bits` at the translated type yields the literal back; sizes ([size_agree]) and
      tag widths ([tag_bits_log2_up]) of the two models agree
   3  [lit_program_agree]: for a program of the full fragment, from the real API's encoder
      to the real API's decoder through [tsem_program]
   4  [LitEncExample] *)
From Coq Require Import Lia ZArith.
From GV Require Import Base.Util Lang.Types Lang.Literal Lang.LiteralProofs.
From GV Require Import Lang.Ast Lang.Wt Lang.ValTy Lang.WtSound Lang.WtShape Compile.Lower Compile.TSem
  Compile.TSemArith1 Compile.TSemSemExpr Compile.ValEnc.
From GV Require Lang.Sem Base.BitViews.
Local Open Scope N_scope.

(* ------------------------------------------------------------------ 1. translations *)

(* integer types: the Ast carries the width only (usize and the unsuffixed types are 32 bits
   there); the translation picks the sized type of that width *)
Definition uty_of (b : N) : option uty :=
  if b =? 8 then Some U8 else if b =? 16 then Some U16 else if b =? 32 then Some U32
  else if b =? 64 then Some U64 else None.
Definition sty_of (b : N) : option sty :=
  if b =? 8 then Some I8 else if b =? 16 then Some I16 else if b =? 32 then Some I32
  else if b =? 64 then Some I64 else None.

Section RtyAux.
  Variable rt : Ast.ty -> option rty.

  Fixpoint rtys_of (ts : list Ast.ty) : option rtys :=
    match ts with
    | [] => Some RsNil
    | t :: r =>
        match rt t, rtys_of r with
        | Some a, Some b => Some (RsCons a b)
        | _, _ => None
        end
    end.

  (* fields in the order of the definition *)
  Fixpoint rfields_of (fs : list (N * Ast.ty)) : option rfields :=
    match fs with
    | [] => Some RFNil
    | (fn, ft) :: r =>
        match rt ft, rfields_of r with
        | Some a, Some b => Some (RFCons fn a b)
        | _, _ => None
        end
    end.

  (* variant number k is named k; no payload = unit variant *)
  Fixpoint rvariants_of (vs : list (list Ast.ty)) (k : N) : option rvariants :=
    match vs with
    | [] => Some RVNil
    | ts :: r =>
        match ts with
        | [] => option_map (RVUnit k) (rvariants_of r (k + 1))
        | _ :: _ =>
            match rtys_of ts, rvariants_of r (k + 1) with
            | Some a, Some b => Some (RVTuple k a b)
            | _, _ => None
            end
        end
    end.
End RtyAux.

Fixpoint rty_of (f : nat) (P : program) (t : Ast.ty) : option rty :=
  match f with
  | O => None
  | S f' =>
      match t with
      | TBool => Some RBool
      | TInt false b => option_map RUnsigned (uty_of b)
      | TInt true b => option_map RSigned (sty_of b)
      | TArr el n => option_map (fun r => RArray r n) (rty_of f' P el)
      | TTup ts => option_map RTuple (rtys_of (rty_of f' P) ts)
      | TStruct name =>
          match assocN name (p_structs P) with
          | Some def => option_map (RStruct name) (rfields_of (rty_of f' P) def)
          | None => None
          end
      | TEnum name =>
          match assocN name (p_enums P) with
          | Some variants => option_map (REnum name) (rvariants_of (rty_of f' P) variants 0)
          | None => None
          end
      end
  end.

Definition lit_fuel : nat := pred Sem.ty_fuel.

Definition ty_of_ast (P : program) (t : Ast.ty) : option rty := rty_of lit_fuel P t.

(* the enum environment `Literal::as_bits` looks enum names up in *)
Fixpoint enum_env_of (f : nat) (P : program) (es : list (N * list (list Ast.ty))) : list (N * rvariants) :=
  match es with
  | [] => []
  | (n, vs) :: r =>
      match rvariants_of (rty_of f P) vs 0 with
      | Some rvs => (n, rvs) :: enum_env_of f P r
      | None => enum_env_of f P r
      end
  end.

Definition enum_env (P : program) : list (N * rvariants) := enum_env_of lit_fuel P (p_enums P).

Section LitAux.
  Variable lo : Sem.value -> Ast.ty -> option lit.

  Fixpoint lits_zip (vs : list Sem.value) (ts : list Ast.ty) : option lits :=
    match vs, ts with
    | [], [] => Some LsNil
    | v :: vr, t :: tr =>
        match lo v t, lits_zip vr tr with
        | Some a, Some b => Some (LsCons a b)
        | _, _ => None
        end
    | _, _ => None
    end.

  Fixpoint lits_all (vs : list Sem.value) (el : Ast.ty) : option lits :=
    match vs with
    | [] => Some LsNil
    | v :: vr =>
        match lo v el, lits_all vr el with
        | Some a, Some b => Some (LsCons a b)
        | _, _ => None
        end
    end.

  Fixpoint lfields_zip (vs : list Sem.value) (fs : list (N * Ast.ty)) : option lfields :=
    match vs, fs with
    | [], [] => Some LFNil
    | v :: vr, (fn, ft) :: fr =>
        match lo v ft, lfields_zip vr fr with
        | Some a, Some b => Some (LFCons fn a b)
        | _, _ => None
        end
    | _, _ => None
    end.
End LitAux.

(* the canonical literal of a value of an Ast type *)
Fixpoint lit_of_value (P : program) (v : Sem.value) (t : Ast.ty) {struct v} : option lit :=
  match v, t with
  | Sem.VBool b, TBool => Some (if b then LTrue else LFalse)
  | Sem.VInt z, TInt false b => option_map (LUnsigned (Z.to_N z)) (uty_of b)
  | Sem.VInt z, TInt true b => option_map (LSigned z) (sty_of b)
  | Sem.VArr vs, TArr el n => option_map LArray (lits_all (lit_of_value P) vs el)
  | Sem.VTup vs, TTup ts => option_map LTuple (lits_zip (lit_of_value P) vs ts)
  | Sem.VTup vs, TStruct name =>
      match assocN name (p_structs P) with
      | Some def => option_map (LStruct name) (lfields_zip (lit_of_value P) vs def)
      | None => None
      end
  | Sem.VEnum tag vs, TEnum name =>
      match assocN name (p_enums P) with
      | Some variants =>
          match nthN variants tag with
          | Some [] => match vs with [] => Some (LEnumUnit name tag) | _ :: _ => None end
          | Some (t0 :: tr) => option_map (LEnumTuple name tag) (lits_zip (lit_of_value P) vs (t0 :: tr))
          | None => None
          end
      | None => None
      end
  | _, _ => None
  end.

(* ------------------------------------------------------------------ integers *)

Lemma ubits_of_bits_of_Z k n : ubits_of k n = Sem.bits_of_Z k (Z.of_N n).
Proof.
  induction k as [|k IH]; [reflexivity|]. cbn [ubits_of Sem.bits_of_Z]. rewrite IH. f_equal.
  rewrite <- nat_N_Z. symmetry. apply Z.testbit_of_N.
Qed.

Lemma uty_of_cases b u : uty_of b = Some u ->
  (b = 8 /\ u = U8) \/ (b = 16 /\ u = U16) \/ (b = 32 /\ u = U32) \/ (b = 64 /\ u = U64).
Proof.
  unfold uty_of. destruct (N.eqb_spec b 8); [intros [= <-]; auto|].
  destruct (N.eqb_spec b 16); [intros [= <-]; auto|].
  destruct (N.eqb_spec b 32); [intros [= <-]; auto|].
  destruct (N.eqb_spec b 64); [intros [= <-]; auto 6|discriminate].
Qed.

Lemma sty_of_cases b s : sty_of b = Some s ->
  (b = 8 /\ s = I8) \/ (b = 16 /\ s = I16) \/ (b = 32 /\ s = I32) \/ (b = 64 /\ s = I64).
Proof.
  unfold sty_of. destruct (N.eqb_spec b 8); [intros [= <-]; auto|].
  destruct (N.eqb_spec b 16); [intros [= <-]; auto|].
  destruct (N.eqb_spec b 32); [intros [= <-]; auto|].
  destruct (N.eqb_spec b 64); [intros [= <-]; auto 6|discriminate].
Qed.

Lemma uty_of_bits b u : uty_of b = Some u -> ubits u = b.
Proof. intro H. destruct (uty_of_cases b u H) as [[-> ->]|[[-> ->]|[[-> ->]|[-> ->]]]]; reflexivity. Qed.

Lemma sty_of_bits b s : sty_of b = Some s -> sbits s = b.
Proof. intro H. destruct (sty_of_cases b s H) as [[-> ->]|[[-> ->]|[[-> ->]|[-> ->]]]]; reflexivity. Qed.

(* the range of the Ast type is the range of the sized type *)
Lemma uty_of_range b u z : uty_of b = Some u -> Sem.in_range false b z = true ->
  (0 <= z)%Z /\ u_in_range (Z.to_N z) u = true.
Proof.
  intros H Hr. unfold Sem.in_range in Hr. apply andb_prop in Hr as [H1 H2].
  apply Z.leb_le in H1. apply Z.ltb_lt in H2. split; [exact H1|].
  unfold u_in_range.
  destruct (uty_of_cases b u H) as [[-> ->]|[[-> ->]|[[-> ->]|[-> ->]]]]; cbn [umax]; apply N.leb_le.
  - change (2 ^ Z.of_N 8)%Z with 256%Z in H2. lia.
  - change (2 ^ Z.of_N 16)%Z with 65536%Z in H2. lia.
  - change (2 ^ Z.of_N 32)%Z with 4294967296%Z in H2. lia.
  - change (2 ^ Z.of_N 64)%Z with 18446744073709551616%Z in H2. lia.
Qed.

Lemma sty_of_range b s z : sty_of b = Some s -> Sem.in_range true b z = true -> s_in_range z s = true.
Proof.
  intros H Hr. unfold Sem.in_range in Hr. apply andb_prop in Hr as [H1 H2].
  apply Z.leb_le in H1. apply Z.ltb_lt in H2. unfold s_in_range.
  destruct (sty_of_cases b s H) as [[-> ->]|[[-> ->]|[[-> ->]|[-> ->]]]]; cbn [smin smax];
    apply andb_true_intro; split; try apply Z.leb_le.
  - change (2 ^ (Z.of_N 8 - 1))%Z with 128%Z in H1. lia.
  - change (2 ^ (Z.of_N 8 - 1))%Z with 128%Z in H2. lia.
  - change (2 ^ (Z.of_N 16 - 1))%Z with 32768%Z in H1. lia.
  - change (2 ^ (Z.of_N 16 - 1))%Z with 32768%Z in H2. lia.
  - change (2 ^ (Z.of_N 32 - 1))%Z with 2147483648%Z in H1. lia.
  - change (2 ^ (Z.of_N 32 - 1))%Z with 2147483648%Z in H2. lia.
  - change (2 ^ (Z.of_N 64 - 1))%Z with 9223372036854775808%Z in H1. lia.
  - change (2 ^ (Z.of_N 64 - 1))%Z with 9223372036854775808%Z in H2. lia.
Qed.

(* ------------------------------------------------------------------ the tag width: Sem.tag_bits
   (a search up to 64) is compile.rs' enum_tag_size (log2_up) for at most 2^64 variants *)

Lemma tag_bits_aux_min fuel : forall b n k, (forall j, j < b -> 2 ^ j < n) ->
  k < Sem.tag_bits_aux fuel b n -> 2 ^ k < n.
Proof.
  induction fuel as [|f IH]; intros b n k Hb Hk; cbn [Sem.tag_bits_aux] in Hk.
  - now apply Hb.
  - destruct (N.ltb_spec (2 ^ b) n) as [Hlt|Hge]; [|now apply Hb].
    apply (IH (b + 1) n k); [|exact Hk]. intros j Hj.
    destruct (N.eq_dec j b) as [->|Hne]; [exact Hlt|apply Hb; lia].
Qed.

Lemma tag_bits_log2_up n : n <= 2 ^ 64 -> Sem.tag_bits n = N.log2_up n.
Proof.
  intro Hn. pose proof (tag_bits_spec n Hn) as Hup.
  assert (Hmin : forall k, k < Sem.tag_bits n -> 2 ^ k < n).
  { intros k Hk. apply (tag_bits_aux_min 64 0 n k); [intros j Hj; lia|exact Hk]. }
  destruct (N.le_gt_cases n 1) as [H1|H1].
  - rewrite N.log2_up_eqn0 by exact H1. destruct (N.eq_0_gt_0_cases (Sem.tag_bits n)) as [E|E]; [exact E|].
    specialize (Hmin 0 E). change (2 ^ 0) with 1 in Hmin. lia.
  - symmetry. assert (Hpos : 0 < Sem.tag_bits n).
    { destruct (N.eq_0_gt_0_cases (Sem.tag_bits n)) as [E|E]; [|exact E].
      rewrite E in Hup. change (2 ^ 0) with 1 in Hup. lia. }
    apply N.log2_up_unique; [exact Hpos|]. split; [apply Hmin; lia|exact Hup].
Qed.

(* ... and beyond 2^64 variants the two functions differ (only as mathematical objects) *)
Example tag_bits_capped : Sem.tag_bits (2 ^ 64 + 1) = 64 /\ N.log2_up (2 ^ 64 + 1) = 65.
Proof. split; vm_compute; reflexivity. Qed.

(* ------------------------------------------------------------------ the type translation:
   more fuel changes nothing; success means the type is within the fuel *)

Lemma rtys_of_ind r (Q : list Ast.ty -> rtys -> Prop) :
  Q [] RsNil ->
  (forall t ts a b, r t = Some a -> rtys_of r ts = Some b -> Q ts b -> Q (t :: ts) (RsCons a b)) ->
  forall ts x, rtys_of r ts = Some x -> Q ts x.
Proof.
  intros H0 H1. induction ts as [|t ts IH]; intros x Hx; cbn [rtys_of] in Hx.
  - injection Hx as <-. exact H0.
  - destruct (r t) as [a|] eqn:Ea; [|discriminate Hx].
    destruct (rtys_of r ts) as [b|] eqn:Eb; [|discriminate Hx]. injection Hx as <-.
    exact (H1 t ts a b Ea Eb (IH b eq_refl)).
Qed.

Lemma rfields_of_ind r (Q : list (N * Ast.ty) -> rfields -> Prop) :
  Q [] RFNil ->
  (forall fn ft fs a b, r ft = Some a -> rfields_of r fs = Some b -> Q fs b ->
     Q ((fn, ft) :: fs) (RFCons fn a b)) ->
  forall fs x, rfields_of r fs = Some x -> Q fs x.
Proof.
  intros H0 H1. induction fs as [|[fn ft] fs IH]; intros x Hx; cbn [rfields_of] in Hx.
  - injection Hx as <-. exact H0.
  - destruct (r ft) as [a|] eqn:Ea; [|discriminate Hx].
    destruct (rfields_of r fs) as [b|] eqn:Eb; [|discriminate Hx]. injection Hx as <-.
    exact (H1 fn ft fs a b Ea Eb (IH b eq_refl)).
Qed.

Lemma rvariants_of_ind r (Q : list (list Ast.ty) -> N -> rvariants -> Prop) :
  (forall k, Q [] k RVNil) ->
  (forall vs k b, rvariants_of r vs (k + 1) = Some b -> Q vs (k + 1) b -> Q ([] :: vs) k (RVUnit k b)) ->
  (forall t0 tr vs k a b, rtys_of r (t0 :: tr) = Some a -> rvariants_of r vs (k + 1) = Some b ->
     Q vs (k + 1) b -> Q ((t0 :: tr) :: vs) k (RVTuple k a b)) ->
  forall vs k x, rvariants_of r vs k = Some x -> Q vs k x.
Proof.
  intros H0 H1 H2. induction vs as [|ts vs IH]; intros k x Hx; cbn [rvariants_of] in Hx.
  - injection Hx as <-. apply H0.
  - destruct ts as [|t0 tr].
    + destruct (rvariants_of r vs (k + 1)) as [b|] eqn:Eb; [|discriminate Hx]. injection Hx as <-.
      exact (H1 vs k b Eb (IH _ b Eb)).
    + destruct (rtys_of r (t0 :: tr)) as [a|] eqn:Ea; [|discriminate Hx].
      destruct (rvariants_of r vs (k + 1)) as [b|] eqn:Eb; [|discriminate Hx]. injection Hx as <-.
      exact (H2 t0 tr vs k a b Ea Eb (IH _ b Eb)).
Qed.

Lemma rtys_of_mono (r1 r2 : Ast.ty -> option rty) : (forall t x, r1 t = Some x -> r2 t = Some x) ->
  forall ts x, rtys_of r1 ts = Some x -> rtys_of r2 ts = Some x.
Proof.
  intro H. apply rtys_of_ind; [reflexivity|]. intros t ts a b Ea _ IH. cbn [rtys_of]. now rewrite (H t a Ea), IH.
Qed.

Lemma rfields_of_mono (r1 r2 : Ast.ty -> option rty) : (forall t x, r1 t = Some x -> r2 t = Some x) ->
  forall fs x, rfields_of r1 fs = Some x -> rfields_of r2 fs = Some x.
Proof.
  intro H. apply rfields_of_ind; [reflexivity|]. intros fn ft fs a b Ea _ IH. cbn [rfields_of].
  now rewrite (H ft a Ea), IH.
Qed.

Lemma rvariants_of_mono (r1 r2 : Ast.ty -> option rty) : (forall t x, r1 t = Some x -> r2 t = Some x) ->
  forall vs k x, rvariants_of r1 vs k = Some x -> rvariants_of r2 vs k = Some x.
Proof.
  intro H. apply rvariants_of_ind.
  - reflexivity.
  - intros vs k b _ IH. cbn [rvariants_of]. now rewrite IH.
  - intros t0 tr vs k a b Ea _ IH. cbn [rvariants_of]. now rewrite (rtys_of_mono r1 r2 H _ a Ea), IH.
Qed.

Lemma rty_of_mono P : forall f t x, rty_of f P t = Some x -> forall g, (f <= g)%nat -> rty_of g P t = Some x.
Proof.
  induction f as [|f IH]; intros t x Hx g Hg; [discriminate Hx|].
  destruct g as [|g]; [lia|]. assert (Hfg : (f <= g)%nat) by lia.
  assert (Hm : forall t0 x0, rty_of f P t0 = Some x0 -> rty_of g P t0 = Some x0)
    by (intros t0 x0 H0; exact (IH t0 x0 H0 g Hfg)).
  destruct t as [|sg b|el n|ts|name|name]; cbn [rty_of] in Hx |- *; try exact Hx.
  - destruct (rty_of f P el) as [r|] eqn:Er; [|discriminate Hx]. now rewrite (Hm el r Er).
  - destruct (rtys_of (rty_of f P) ts) as [r|] eqn:Er; [|discriminate Hx].
    now rewrite (rtys_of_mono _ _ Hm ts r Er).
  - destruct (assocN name (p_structs P)) as [def|]; [|discriminate Hx].
    destruct (rfields_of (rty_of f P) def) as [r|] eqn:Er; [|discriminate Hx].
    now rewrite (rfields_of_mono _ _ Hm def r Er).
  - destruct (assocN name (p_enums P)) as [variants|]; [|discriminate Hx].
    destruct (rvariants_of (rty_of f P) variants 0) as [r|] eqn:Er; [|discriminate Hx].
    now rewrite (rvariants_of_mono _ _ Hm variants 0 r Er).
Qed.

Lemma rtys_of_In (r : Ast.ty -> option rty) : forall ts x, rtys_of r ts = Some x ->
  forall t, In t ts -> exists y, r t = Some y.
Proof.
  apply (rtys_of_ind r (fun ts _ => forall t, In t ts -> exists y, r t = Some y)); [intros t []|].
  intros t0 ts a b Ea _ IH t [<-|Hin]; eauto.
Qed.

Lemma rfields_of_In (r : Ast.ty -> option rty) : forall fs x, rfields_of r fs = Some x ->
  forall nt, In nt fs -> exists y, r (snd nt) = Some y.
Proof.
  apply (rfields_of_ind r (fun fs _ => forall nt, In nt fs -> exists y, r (snd nt) = Some y)); [intros nt []|].
  intros fn ft fs a b Ea _ IH nt [<-|Hin]; cbn [snd]; eauto.
Qed.

Lemma rvariants_of_In (r : Ast.ty -> option rty) : forall vs k x, rvariants_of r vs k = Some x ->
  forall ts t, In ts vs -> In t ts -> exists y, r t = Some y.
Proof.
  apply (rvariants_of_ind r (fun vs _ _ => forall ts t, In ts vs -> In t ts -> exists y, r t = Some y)).
  - intros k ts t [].
  - intros vs k b _ IH ts t [<-|Hin] Ht; [destruct Ht|eauto].
  - intros t0 tr vs k a b Ea _ IH ts t [<-|Hin] Ht; [exact (rtys_of_In r _ a Ea t Ht)|eauto].
Qed.

Lemma rty_of_ty_ok P : forall f t x, rty_of f P t = Some x -> ty_ok f P t = true.
Proof.
  induction f as [|f IH]; intros t x Hx; [discriminate Hx|].
  destruct t as [|sg b|el n|ts|name|name]; cbn [rty_of] in Hx; cbn [ty_ok]; try reflexivity.
  - destruct (rty_of f P el) as [r|] eqn:Er; [|discriminate Hx]. exact (IH el r Er).
  - destruct (rtys_of (rty_of f P) ts) as [r|] eqn:Er; [|discriminate Hx].
    apply forallb_forall. intros t Ht. destruct (rtys_of_In _ _ _ Er t Ht) as [y Hy]. exact (IH t y Hy).
  - destruct (assocN name (p_structs P)) as [def|]; [|discriminate Hx].
    destruct (rfields_of (rty_of f P) def) as [r|] eqn:Er; [|discriminate Hx].
    apply forallb_forall. intros nt Hnt. destruct (rfields_of_In _ _ _ Er nt Hnt) as [y Hy]. exact (IH _ y Hy).
  - destruct (assocN name (p_enums P)) as [variants|]; [|discriminate Hx].
    destruct (rvariants_of (rty_of f P) variants 0) as [r|] eqn:Er; [|discriminate Hx].
    apply forallb_forall. intros ts Hts. apply forallb_forall. intros t Ht.
    destruct (rvariants_of_In _ _ _ _ Er ts t Hts Ht) as [y Hy]. exact (IH t y Hy).
Qed.

Lemma rty_of_fits P f t x : rty_of f P t = Some x -> (f <= lit_fuel)%nat -> ty_fits P t.
Proof. intros Hx Hf. exact (ty_fits_of_ty_ok P f t (rty_of_ty_ok P f t x Hx) Hf). Qed.

Lemma ty_of_ast_fits P t x : ty_of_ast P t = Some x -> ty_fits P t.
Proof. intro H. exact (rty_of_fits P _ t x H (le_n _)). Qed.

(* ------------------------------------------------------------------ sizes agree *)

Lemma rvariants_of_count (r : Ast.ty -> option rty) : forall vs k x, rvariants_of r vs k = Some x ->
  nvariants x = lenN vs.
Proof.
  apply rvariants_of_ind; [reflexivity| |]; intros; rewrite lenN_cons; cbn [nvariants]; congruence.
Qed.

Section SizeAux.
  Variable r : Ast.ty -> option rty.
  Variable sz : Ast.ty -> N.
  Hypothesis Hr : forall t x, r t = Some x -> size x = sz t.

  Lemma size_rtys_of : forall ts x, rtys_of r ts = Some x -> size_tys x = Sem.sum_map sz ts.
  Proof.
    apply rtys_of_ind; [reflexivity|]. intros t ts a b Ea _ IH. cbn [size_tys Sem.sum_map]. now rewrite (Hr t a Ea), IH.
  Qed.

  Lemma size_rfields_of : forall fs x, rfields_of r fs = Some x ->
    size_fields x = Sem.sum_map (fun nt => sz (snd nt)) fs.
  Proof.
    apply rfields_of_ind; [reflexivity|]. intros fn ft fs a b Ea _ IH. cbn [size_fields Sem.sum_map snd].
    now rewrite (Hr ft a Ea), IH.
  Qed.

  Lemma size_rvariants_of : forall vs k x, rvariants_of r vs k = Some x ->
    max_payload x = fold_right N.max 0 (map (fun ts => Sem.sum_map sz ts) vs).
  Proof.
    apply rvariants_of_ind.
    - reflexivity.
    - intros vs k b _ IH. cbn [max_payload map fold_right Sem.sum_map]. rewrite IH. lia.
    - intros t0 tr vs k a b Ea _ IH. cbn [max_payload map fold_right]. now rewrite (size_rtys_of _ a Ea), IH.
  Qed.
End SizeAux.

(* the size of the translated type (compile.rs) is the size Sem.v / Lower.v use *)
Lemma size_agree_fuel P : enums_small P = true ->
  forall f t x, rty_of f P t = Some x -> size x = Sem.size_of f P t.
Proof.
  intros Hsm. induction f as [|f IH]; intros t x Hx; [discriminate Hx|].
  destruct t as [|sg b|el n|ts|name|name]; cbn [rty_of] in Hx; cbn [Sem.size_of].
  - injection Hx as <-. reflexivity.
  - destruct sg.
    + destruct (sty_of b) as [s|] eqn:Es; [|discriminate Hx]. injection Hx as <-. exact (sty_of_bits b s Es).
    + destruct (uty_of b) as [u|] eqn:Eu; [|discriminate Hx]. injection Hx as <-. exact (uty_of_bits b u Eu).
  - destruct (rty_of f P el) as [r|] eqn:Er; [|discriminate Hx]. injection Hx as <-.
    cbn [size]. now rewrite (IH el r Er).
  - destruct (rtys_of (rty_of f P) ts) as [r|] eqn:Er; [|discriminate Hx]. injection Hx as <-.
    cbn [size]. exact (size_rtys_of _ _ IH ts r Er).
  - destruct (assocN name (p_structs P)) as [def|]; [|discriminate Hx].
    destruct (rfields_of (rty_of f P) def) as [r|] eqn:Er; [|discriminate Hx]. injection Hx as <-.
    cbn [size]. exact (size_rfields_of _ _ IH def r Er).
  - destruct (assocN name (p_enums P)) as [variants|] eqn:Hd; [|discriminate Hx].
    destruct (rvariants_of (rty_of f P) variants 0) as [r|] eqn:Er; [|discriminate Hx]. injection Hx as <-.
    cbn [size]. rewrite (size_rvariants_of _ _ IH variants 0 r Er), (rvariants_of_count _ _ _ _ Er).
    unfold tag_size. rewrite <- tag_bits_log2_up by exact (enums_small_variants P name variants Hsm Hd). lia.
Qed.

Theorem size_agree P t x : enums_small P = true -> ty_of_ast P t = Some x -> size x = Sem.sizeof P t.
Proof.
  intros Hsm Hx. unfold Sem.sizeof. rewrite (size_agree_fuel P Hsm _ t x Hx).
  symmetry. apply (size_of_ge P _ t (rty_of_ty_ok P _ t x Hx)). unfold lit_fuel. apply Nat.le_pred_l.
Qed.

Lemma size_szn P f t x : enums_small P = true -> rty_of f P t = Some x -> (f <= lit_fuel)%nat ->
  szn P t = N.to_nat (size x).
Proof.
  intros Hsm Hx Hf. rewrite (size_agree_fuel P Hsm f t x Hx).
  apply szn_eq; [exact (rty_of_ty_ok P f t x Hx)|]. unfold lit_fuel in Hf.
  pose proof (Nat.le_pred_l Sem.ty_fuel). lia.
Qed.

(* ------------------------------------------------------------------ the enum environment *)

Lemma enum_env_lookup P f name variants rvs : assocN name (p_enums P) = Some variants ->
  rvariants_of (rty_of f P) variants 0 = Some rvs -> (f <= lit_fuel)%nat ->
  assoc name (enum_env P) = Some rvs.
Proof.
  intros Hd Hr Hf. unfold enum_env.
  assert (Hr' : rvariants_of (rty_of lit_fuel P) variants 0 = Some rvs).
  { apply (rvariants_of_mono (rty_of f P)); [|exact Hr]. intros t x Hx. exact (rty_of_mono P f t x Hx _ Hf). }
  clear Hr. revert Hd. generalize (p_enums P) as es.
  induction es as [|[n0 vs0] es IH]; intro Hd; cbn [assocN] in Hd; [discriminate Hd|].
  cbn [enum_env_of]. destruct (N.eqb_spec name n0) as [->|Hne].
  - injection Hd as ->. rewrite Hr'. cbn [assoc]. now rewrite N.eqb_refl.
  - destruct (rvariants_of (rty_of lit_fuel P) vs0 0) as [r0|]; [|exact (IH Hd)].
    cbn [assoc]. destruct (N.eqb_spec name n0) as [E|_]; [contradiction|exact (IH Hd)].
Qed.

(* variant number j of the translated definition is found under the name j, at index j *)
Lemma find_variant_of (r : Ast.ty -> option rty) : forall vs k x, rvariants_of r vs k = Some x ->
  forall j ts i, nth_error vs j = Some ts ->
  find_variant x (k + N.of_nat j) i =
    Some (i + N.of_nat j,
          match ts with [] => VIUnit | _ :: _ => match rtys_of r ts with Some a => VITuple a | None => VIUnit end end).
Proof.
  (* the head is found at once (its name is k); further on the names are larger than k *)
  assert (Hne : forall k j, (k =? k + N.of_nat (S j)) = false) by (intros; apply N.eqb_neq; lia).
  assert (Hk : forall k j, k + N.of_nat (S j) = k + 1 + N.of_nat j) by (intros; lia).
  apply (rvariants_of_ind r (fun vs k x => forall j ts i, nth_error vs j = Some ts -> find_variant x (k + N.of_nat j) i =
    Some (i + N.of_nat j,
          match ts with [] => VIUnit | _ :: _ => match rtys_of r ts with Some a => VITuple a | None => VIUnit end end))).
  - intros k [|j] ts i Hj; discriminate Hj.
  - intros vs k b _ IH [|j] ts i Hj; cbn [nth_error] in Hj; cbn [find_variant].
    + injection Hj as <-. now rewrite !N.add_0_r, N.eqb_refl.
    + rewrite Hne, !Hk. exact (IH j ts (i + 1) Hj).
  - intros t0 tr vs k a b Ea _ IH [|j] ts i Hj; cbn [nth_error] in Hj; cbn [find_variant].
    + injection Hj as <-. now rewrite !N.add_0_r, N.eqb_refl, Ea.
    + rewrite Hne, !Hk. exact (IH j ts (i + 1) Hj).
Qed.

(* the payload types of a variant translate *)
Lemma rvariants_of_nth (r : Ast.ty -> option rty) : forall vs k x, rvariants_of r vs k = Some x ->
  forall j t0 tr, nth_error vs j = Some (t0 :: tr) -> exists a, rtys_of r (t0 :: tr) = Some a.
Proof.
  apply (rvariants_of_ind r (fun vs _ _ => forall j t0 tr, nth_error vs j = Some (t0 :: tr) ->
                                          exists a, rtys_of r (t0 :: tr) = Some a)).
  - intros k [|j] t0 tr Hj; discriminate Hj.
  - intros vs k b _ IH [|j] t0 tr Hj; [discriminate Hj|exact (IH j t0 tr Hj)].
  - intros t1 tr1 vs k a b Ea _ IH [|j] t0 tr Hj; [injection Hj as <- <-; eauto|exact (IH j t0 tr Hj)].
Qed.

(* ------------------------------------------------------------------ well-formedness (Types.wf)
   of the translated types: enums are the environment's; struct fields ascending by name,
   which is a property of the program (the parser sorts the fields of a definition) *)

Fixpoint names_sorted (lo : option N) (l : list N) : bool :=
  match l with
  | [] => true
  | n :: r => (match lo with None => true | Some p => p <? n end) && names_sorted (Some n) r
  end.

Definition structs_sorted (P : program) : bool :=
  forallb (fun d : N * list (N * Ast.ty) => names_sorted None (map fst (snd d))) (p_structs P).

Lemma assocN_In_pair {A} k (l : list (N * A)) a : assocN k l = Some a -> In (k, a) l.
Proof.
  induction l as [|[k0 a0] l IH]; cbn [assocN]; [discriminate|].
  destruct (N.eqb_spec k k0) as [->|_]; [intros [= ->]; now left|intro H; right; now apply IH].
Qed.

Lemma rty_eqb_refl :
  (forall a, rty_eqb a a = true) /\ (forall a, rtys_eqb a a = true) /\
  (forall a, rfields_eqb a a = true) /\ (forall a, rvariants_eqb a a = true).
Proof.
  apply rty_mutind; intros; cbn [rty_eqb rtys_eqb rfields_eqb rvariants_eqb];
    rewrite ?N.eqb_refl, ?uty_eqb_refl, ?sty_eqb_refl; cbn [andb];
    repeat match goal with H : _ = true |- _ => rewrite H end; reflexivity.
Qed.

Section WfAux.
  Variable E : list (N * rvariants).
  Variable r : Ast.ty -> option rty.
  Hypothesis Hr : forall t x, r t = Some x -> wf E x = true.

  Lemma wf_rtys_of : forall ts x, rtys_of r ts = Some x -> wf_tys E x = true.
  Proof. apply rtys_of_ind; [reflexivity|]. intros t ts a b Ea _ IH. cbn [wf_tys]. now rewrite (Hr t a Ea), IH. Qed.

  Lemma wf_rfields_of : forall fs x, rfields_of r fs = Some x ->
    forall lo, names_sorted lo (map fst fs) = true -> wf_fields E x = true /\ fields_sorted lo x = true.
  Proof.
    apply (rfields_of_ind r (fun fs x => forall lo, names_sorted lo (map fst fs) = true ->
                                          wf_fields E x = true /\ fields_sorted lo x = true)); [split; reflexivity|].
    intros fn ft fs a b Ea _ IH lo Hs.
    cbn [map fst names_sorted] in Hs. apply andb_prop in Hs as [H1 H2]. destruct (IH (Some fn) H2) as [I1 I2].
    cbn [wf_fields fields_sorted]. now rewrite (Hr ft a Ea), I1, I2, H1.
  Qed.

  Lemma wf_rvariants_of : forall vs k x, rvariants_of r vs k = Some x -> wf_variants E x = true.
  Proof.
    apply rvariants_of_ind; [reflexivity|intros vs k b _ IH; exact IH|].
    intros t0 tr vs k a b Ea _ IH. cbn [wf_variants]. now rewrite (wf_rtys_of _ a Ea), IH.
  Qed.
End WfAux.

Lemma rty_of_wf P : structs_sorted P = true ->
  forall f t x, rty_of f P t = Some x -> (f <= lit_fuel)%nat -> wf (enum_env P) x = true.
Proof.
  intro Hss. induction f as [|f IH]; intros t x Hx Hf; [discriminate Hx|].
  assert (IH' : forall t0 x0, rty_of f P t0 = Some x0 -> wf (enum_env P) x0 = true)
    by (intros t0 x0 H0; apply (IH t0 x0 H0); lia).
  destruct t as [|sg b|el n|ts|name|name]; cbn [rty_of] in Hx.
  - injection Hx as <-. reflexivity.
  - destruct sg.
    + destruct (sty_of b); [|discriminate Hx]. injection Hx as <-. reflexivity.
    + destruct (uty_of b); [|discriminate Hx]. injection Hx as <-. reflexivity.
  - destruct (rty_of f P el) as [r|] eqn:Er; [|discriminate Hx]. injection Hx as <-. cbn [wf]. exact (IH' el r Er).
  - destruct (rtys_of (rty_of f P) ts) as [r|] eqn:Er; [|discriminate Hx]. injection Hx as <-.
    cbn [wf]. exact (wf_rtys_of _ _ IH' ts r Er).
  - destruct (assocN name (p_structs P)) as [def|] eqn:Hd; [|discriminate Hx].
    destruct (rfields_of (rty_of f P) def) as [r|] eqn:Er; [|discriminate Hx]. injection Hx as <-.
    cbn [wf]. unfold structs_sorted in Hss. rewrite forallb_forall in Hss.
    pose proof (Hss _ (assocN_In_pair _ _ _ Hd)) as Hs. cbn [snd] in Hs.
    destruct (wf_rfields_of _ _ IH' def r Er None Hs) as [I1 I2]. now rewrite I1, I2.
  - destruct (assocN name (p_enums P)) as [variants|] eqn:Hd; [|discriminate Hx].
    destruct (rvariants_of (rty_of f P) variants 0) as [r|] eqn:Er; [|discriminate Hx]. injection Hx as <-.
    cbn [wf]. rewrite (enum_env_lookup P f name variants r Hd Er) by lia.
    rewrite (proj2 (proj2 (proj2 rty_eqb_refl)) r). cbn [andb]. exact (wf_rvariants_of _ _ IH' variants 0 r Er).
Qed.

Theorem ty_of_ast_wf P t x : structs_sorted P = true -> ty_of_ast P t = Some x -> wf (enum_env P) x = true.
Proof. intros Hss Hx. exact (rty_of_wf P Hss _ t x Hx (le_n _)). Qed.

(* ------------------------------------------------------------------ 2. the encodings agree *)

Section Agree.
  Variable P : program.
  Hypothesis Hsmall : enums_small P = true.
  Let E := enum_env P.

  (* what is shown for a value v of type t with encoding w (Sem.v / has_enc) *)
  Definition agree_at (t : Ast.ty) (v : Sem.value) (w : list bool) : Prop :=
    forall f x, rty_of f P t = Some x -> (f <= lit_fuel)%nat ->
    exists l, lit_of_value P v t = Some l /\ has_type l x = true /\ as_bits E l = Ok w.

  Lemma agree_zip ts vs ws : Forall3 agree_at ts vs ws ->
    forall f rts, rtys_of (rty_of f P) ts = Some rts -> (f <= lit_fuel)%nat ->
    exists ls, lits_zip (lit_of_value P) vs ts = Some ls /\ zip_has_type ls rts = true /\
               as_bits_list E ls = Ok (concat ws).
  Proof.
    induction 1 as [|t v w ts vs ws Hq _ IH]; intros f rts Hr Hf; cbn [rtys_of] in Hr.
    - injection Hr as <-. exists LsNil. repeat split.
    - destruct (rty_of f P t) as [a|] eqn:Ea; [|discriminate Hr].
      destruct (rtys_of (rty_of f P) ts) as [b|] eqn:Eb; [|discriminate Hr]. injection Hr as <-.
      destruct (Hq f a Ea Hf) as (l & Hl & Ht & Hb). destruct (IH f b Eb Hf) as (ls & Hls & Hts & Hbs).
      exists (LsCons l ls). cbn [lits_zip zip_has_type as_bits_list concat]. rewrite Hl, Hls, Ht, Hts, Hb, Hbs.
      repeat split.
  Qed.

  Lemma agree_all el vs elems : Forall2 (agree_at el) vs elems ->
    forall f rel, rty_of f P el = Some rel -> (f <= lit_fuel)%nat ->
    exists ls, lits_all (lit_of_value P) vs el = Some ls /\ all_has_type ls rel = true /\
               lits_len ls = lenN vs /\ as_bits_list E ls = Ok (concat elems).
  Proof.
    induction 1 as [|v w vs elems Hq _ IH]; intros f rel Hr Hf.
    - exists LsNil. repeat split.
    - destruct (Hq f rel Hr Hf) as (l & Hl & Ht & Hb). destruct (IH f rel Hr Hf) as (ls & Hls & Hts & Hn & Hbs).
      exists (LsCons l ls). cbn [lits_all all_has_type as_bits_list concat lits_len].
      rewrite Hl, Hls, Ht, Hts, Hb, Hbs, Hn, lenN_cons. repeat split.
  Qed.

  Lemma agree_fields f : (f <= lit_fuel)%nat -> forall def rfs, rfields_of (rty_of f P) def = Some rfs ->
    forall vs ws, Forall3 agree_at (map snd def) vs ws ->
    exists lfs, lfields_zip (lit_of_value P) vs def = Some lfs /\ fields_has_type lfs rfs = true /\
                as_bits_fields E lfs = Ok (concat ws).
  Proof.
    intro Hf.
    apply (rfields_of_ind _ (fun def rfs => forall vs ws, Forall3 agree_at (map snd def) vs ws ->
      exists lfs, lfields_zip (lit_of_value P) vs def = Some lfs /\ fields_has_type lfs rfs = true /\
                  as_bits_fields E lfs = Ok (concat ws))).
    - intros vs ws H3. inversion H3; subst. exists LFNil. repeat split.
    - intros fn ft def a b Ea _ IH vs ws H3. inversion H3 as [|t v w ts vs' ws' Hq H3']; subst.
      destruct (Hq f a Ea Hf) as (l & Hl & Ht & Hb). destruct (IH _ _ H3') as (lfs & Hls & Hts & Hbs).
      exists (LFCons fn l lfs). cbn [lfields_zip fields_has_type as_bits_fields concat].
      rewrite Hl, Hls, Ht, Hts, Hb, Hbs, N.eqb_refl. repeat split.
  Qed.

  Lemma sum_szn_rtys f : (f <= lit_fuel)%nat -> forall ts rts, rtys_of (rty_of f P) ts = Some rts ->
    sum_szn P ts = N.to_nat (size_tys rts) /\ Forall (ty_fits P) ts.
  Proof.
    intro Hf. apply rtys_of_ind; [split; [reflexivity|constructor]|]. intros t ts a b Ea _ [I1 I2]. split.
    - rewrite sum_szn_cons, I1, (size_szn P f t a Hsmall Ea Hf). cbn [size_tys]. lia.
    - constructor; [exact (rty_of_fits P f t a Ea Hf)|exact I2].
  Qed.

  (* the enum layouts: tag (same width, same bits), payload, zero padding to the same size *)
  Lemma enum_bits_agree f name variants rvs tag p : assocN name (p_enums P) = Some variants ->
    rvariants_of (rty_of f P) variants 0 = Some rvs -> (S f <= lit_fuel)%nat ->
    ubits_of (N.to_nat (tag_size (nvariants rvs))) tag ++ p ++
      repeat false (N.to_nat (enum_size rvs - tag_size (nvariants rvs) - lenN p))
    = ValEnc.enum_bits P name variants tag p.
  Proof.
    intros Hd Hr Hf.
    assert (Hx : rty_of (S f) P (TEnum name) = Some (REnum name rvs)) by (cbn [rty_of]; now rewrite Hd, Hr).
    pose proof (size_szn P (S f) _ _ Hsmall Hx Hf) as Hsz. cbn [size] in Hsz. fold (enum_size rvs) in Hsz.
    assert (Hts : N.to_nat (tag_size (nvariants rvs)) = enum_tag_size variants).
    { unfold tag_size, enum_tag_size. rewrite (rvariants_of_count _ _ _ _ Hr).
      now rewrite <- tag_bits_log2_up by exact (enums_small_variants P name variants Hsmall Hd). }
    unfold ValEnc.enum_bits. cbv zeta. rewrite Hsz, Hts, ubits_of_bits_of_Z, enc_bits_of_Z, <- app_assoc.
    f_equal. f_equal. f_equal. rewrite app_length, WtShape.bits_of_Z_length. unfold lenN.
    rewrite <- Hts. unfold enum_size. lia.
  Qed.

  Lemma agree_all_types : forall t v w, has_enc P t v w -> agree_at t v w.
  Proof.
    apply has_enc_ind2.
    - (* bool *)
      intros b f x Hx _. destruct f as [|f]; [discriminate Hx|]. cbn [rty_of] in Hx. injection Hx as <-.
      exists (if b then LTrue else LFalse). destruct b; repeat split.
    - (* integers *)
      intros sg n z Hr f x Hx _. destruct f as [|f]; [discriminate Hx|]. cbn [rty_of] in Hx.
      rewrite enc_bits_of_Z. destruct sg; cbn [lit_of_value].
      + destruct (sty_of n) as [s|] eqn:Es; [|discriminate Hx]. injection Hx as <-.
        exists (LSigned z s). cbn [option_map has_type as_bits].
        rewrite sty_eqb_refl, (sty_of_range n s z Es Hr), (sty_of_bits n s Es), <- BitViews.bits_of_Z_sbits_of. repeat split.
      + destruct (uty_of n) as [u|] eqn:Eu; [|discriminate Hx]. injection Hx as <-.
        destruct (uty_of_range n u z Eu Hr) as [Hz Hur].
        exists (LUnsigned (Z.to_N z) u). cbn [option_map has_type as_bits].
        rewrite uty_eqb_refl, Hur, (uty_of_bits n u Eu), ubits_of_bits_of_Z, Z2N.id by exact Hz. repeat split.
    - (* arrays *)
      intros el n vs elems Hn _ HQ f x Hx Hf. destruct f as [|f]; [discriminate Hx|]. cbn [rty_of] in Hx.
      destruct (rty_of f P el) as [rel|] eqn:Er; [|discriminate Hx]. injection Hx as <-.
      destruct (agree_all el vs elems HQ f rel Er ltac:(lia)) as (ls & Hls & Ht & Hlen & Hb).
      exists (LArray ls). cbn [lit_of_value]. rewrite Hls. cbn [option_map has_type as_bits].
      rewrite Hlen, Hn, N.eqb_refl, Ht. repeat split. exact Hb.
    - (* tuples *)
      intros ts vs ws _ HQ f x Hx Hf. destruct f as [|f]; [discriminate Hx|]. cbn [rty_of] in Hx.
      destruct (rtys_of (rty_of f P) ts) as [rts|] eqn:Er; [|discriminate Hx]. injection Hx as <-.
      destruct (agree_zip ts vs ws HQ f rts Er ltac:(lia)) as (ls & Hls & Ht & Hb).
      exists (LTuple ls). cbn [lit_of_value]. rewrite Hls. cbn [option_map has_type as_bits]. auto.
    - (* structs *)
      intros name def vs ws Hd _ HQ f x Hx Hf. destruct f as [|f]; [discriminate Hx|]. cbn [rty_of] in Hx.
      rewrite Hd in Hx. destruct (rfields_of (rty_of f P) def) as [rfs|] eqn:Er; [|discriminate Hx]. injection Hx as <-.
      destruct (agree_fields f ltac:(lia) def rfs Er vs ws HQ) as (lfs & Hls & Ht & Hb).
      exists (LStruct name lfs). cbn [lit_of_value]. rewrite Hd, Hls. cbn [option_map has_type as_bits].
      rewrite N.eqb_refl, Ht. auto.
    - (* enums *)
      intros name variants tag ts vs ws Hd Hnth Henc HQ f x Hx Hf. destruct f as [|f]; [discriminate Hx|].
      cbn [rty_of] in Hx. rewrite Hd in Hx.
      destruct (rvariants_of (rty_of f P) variants 0) as [rvs|] eqn:Er; [|discriminate Hx]. injection Hx as <-.
      pose proof (enum_env_lookup P f name variants rvs Hd Er ltac:(lia)) as HE. fold E in HE.
      pose proof Hnth as Hnth'. rewrite nthN_spec in Hnth'.
      pose proof (find_variant_of _ variants 0 rvs Er (N.to_nat tag) ts 0 Hnth') as Hfv.
      rewrite N2Nat.id, !N.add_0_l in Hfv.
      cbn [lit_of_value]. rewrite Hd, Hnth.
      destruct ts as [|t0 tr].
      + inversion HQ; subst. cbn [concat].
        destruct (enum_encode E name tag rvs tag VIUnit [] HE Hfv ltac:(unfold lenN; cbn [length]; lia))
          as (bits & Hb & _ & Heq & _).
        exists (LEnumUnit name tag). cbn [has_type as_bits]. rewrite N.eqb_refl, Hfv, Hb. repeat split.
        f_equal. rewrite Heq. exact (enum_bits_agree f name variants rvs tag [] Hd Er Hf).
      + destruct (rvariants_of_nth _ variants 0 rvs Er _ t0 tr Hnth') as (rts & Hrts). rewrite Hrts in Hfv.
        destruct (agree_zip _ vs ws HQ f rts Hrts ltac:(lia)) as (ls & Hls & Ht & Hb).
        destruct (sum_szn_rtys f ltac:(lia) _ rts Hrts) as [Hsum Hfits].
        assert (Hlen : lenN (concat ws) = size_tys rts).
        { unfold lenN. rewrite (has_encs_length_sum P (t0 :: tr) vs (concat ws)); [rewrite Hsum; lia| |exact Hfits].
          apply has_encs_F3. eauto. }
        destruct (enum_encode E name tag rvs tag (VITuple rts) (concat ws) HE Hfv
                    ltac:(rewrite Hlen; exact (find_variant_payload _ _ _ _ _ Hfv)))
          as (bits & Hbits & _ & Heq & _).
        exists (LEnumTuple name tag ls). rewrite Hls. cbn [option_map has_type as_bits].
        rewrite N.eqb_refl, Hfv, Ht, Hb, Hbits. repeat split.
        f_equal. rewrite Heq. exact (enum_bits_agree f name variants rvs tag _ Hd Er Hf).
  Qed.
End Agree.

(* THE THEOREM: the literal of a value is a value of the translated type, accepted by the
   real type test, and the real encoder produces exactly the bits of Sem.encode / has_enc *)
Theorem lit_enc_agree P t v w rt : enums_small P = true ->
  has_enc P t v w -> ty_of_ast P t = Some rt ->
  exists l, lit_of_value P v t = Some l /\
            has_type l rt = true /\ is_of_type l rt = true /\
            as_bits (enum_env P) l = Ok w.
Proof.
  intros Hsm HV Hrt. destruct (agree_all_types P Hsm t v w HV _ rt Hrt (le_n _)) as (l & Hl & Ht & Hb).
  exists l. repeat split; try assumption. exact (proj1 has_type_is_of_type l rt Ht).
Qed.

(* ... and the real decoder, at the translated type, gives the literal back *)
Theorem lit_enc_decode P t v w rt l : enums_small P = true -> structs_sorted P = true ->
  has_enc P t v w -> ty_of_ast P t = Some rt -> lit_of_value P v t = Some l ->
  from_bits rt w = Ok (Some l) /\ lenN w = size rt.
Proof.
  intros Hsm Hss HV Hrt Hl. destruct (lit_enc_agree P t v w rt Hsm HV Hrt) as (l' & Hl' & Ht & _ & Hb).
  assert (l' = l) as -> by congruence.
  pose proof (ty_of_ast_wf P t rt Hss Hrt) as Hwf.
  destruct (LiteralProofs.decode_encode (enum_env P) l rt Hwf Ht) as (bits & Hb' & Hd).
  assert (bits = w) as -> by congruence. split; [exact Hd|].
  destruct (LiteralProofs.encode_size (enum_env P) l rt Hwf Ht) as (bits' & Hb'' & Hlen).
  assert (bits' = w) as -> by congruence. exact Hlen.
Qed.

(* in terms of the executable encoder / decoder of Sem.v *)
Corollary lit_enc_sem P t v w rt : enums_small P = true -> structs_sorted P = true ->
  ty_of_ast P t = Some rt -> Sem.encode Sem.ty_fuel P t v = Some w -> in_rng P v t = true ->
  exists l, lit_of_value P v t = Some l /\ is_of_type l rt = true /\
            as_bits (enum_env P) l = Ok w /\ from_bits rt w = Ok (Some l) /\
            Sem.decode Sem.ty_fuel P t w = Some (v, []).
Proof.
  intros Hsm Hss Hrt He Hr. pose proof (ty_of_ast_fits P t rt Hrt) as Hfit.
  pose proof (encode_has_enc P t v w Hfit He Hr) as HV.
  destruct (lit_enc_agree P t v w rt Hsm HV Hrt) as (l & Hl & _ & Hi & Hb).
  exists l. repeat split; try assumption.
  - exact (proj1 (lit_enc_decode P t v w rt l Hsm Hss HV Hrt Hl)).
  - exact (has_enc_decode_all P t v w Hsm HV Hfit).
Qed.

(* typed, in-range values: the literal exists and encodes without a panic *)
Corollary lit_enc_total P t v rt : enums_small P = true -> ty_of_ast P t = Some rt ->
  has_ty P v t = true -> in_rng P v t = true ->
  exists l w, lit_of_value P v t = Some l /\ is_of_type l rt = true /\
              as_bits (enum_env P) l = Ok w /\ has_enc P t v w.
Proof.
  intros Hsm Hrt Hty Hr. destruct (has_enc_total P t v (ty_of_ast_fits P t rt Hrt) Hty Hr) as (w & HV).
  destruct (lit_enc_agree P t v w rt Hsm HV Hrt) as (l & Hl & _ & Hi & Hb). exists l, w. auto.
Qed.

(* usize and u32 (and the unsuffixed types) are the same 32 bits: the choice of U32 / I32
   for width 32 in [uty_of] / [sty_of] does not matter for the bits *)
Lemma usize_bits_u32 E n : as_bits E (LUnsigned n Usize) = as_bits E (LUnsigned n U32) /\
  as_bits E (LUnsigned n UUnspec) = as_bits E (LUnsigned n U32) /\ size (RUnsigned Usize) = size (RUnsigned U32).
Proof. repeat split. Qed.

Print Assumptions lit_enc_agree.
Print Assumptions lit_enc_decode.
Print Assumptions lit_enc_sem.
Print Assumptions size_agree.

(* ------------------------------------------------------------------ 3. programs: from the real
   API's encoder to the real API's decoder, through the bit-level semantics *)
From GV Require Import Panic.PanicRec Panic.PanicSem Compile.TSemSemStmt Compile.TSemSemAgg Compile.TSemSemFull.

(* the value main returns in Sem.v (what [Sem.run_main] encodes) *)
Definition sem_main_value (fuel : nat) (P : program) (inputs : list (list bool)) : option Sem.value :=
  match find_fn P (p_main P) with
  | Some d =>
      match Sem.decode_args P (fn_params d) inputs with
      | Some args =>
          match Sem.eval_consts fuel P with
          | Sem.Done en0 =>
              match Sem.exec_block fuel P (Sem.push_scope (Sem.bind_all (Sem.push_scope en0) args)) (fn_body d) with
              | Sem.Done (v, _) => Some v
              | _ => None
              end
          | _ => None
          end
      | None => None
      end
  | None => None
  end.

Lemma run_main_value fuel P inputs bits len : Sem.run_main fuel P inputs = Sem.RunOk bits len ->
  exists d v, find_fn P (p_main P) = Some d /\ sem_main_value fuel P inputs = Some v /\
              Sem.encode Sem.ty_fuel P (fn_ret d) v = Some bits.
Proof.
  unfold Sem.run_main, sem_main_value. destruct (find_fn P (p_main P)) as [d|]; [|discriminate].
  destruct (Sem.decode_args P (fn_params d) inputs) as [args|]; [|discriminate].
  destruct (Sem.eval_consts fuel P) as [en0| | |]; try discriminate.
  destruct (Sem.exec_block fuel P _ (fn_body d)) as [[v en]| | |]; try discriminate.
  destruct (Sem.encode Sem.ty_fuel P (fn_ret d) v) as [b|] eqn:Ee; [|discriminate].
  intros [= <- _]. exists d, v. auto.
Qed.

(* the arguments: a value of each parameter type, its literal, the bits the encoder of the
   real API produces for the literal *)
Inductive args_enc (P : program) : list (N * Ast.ty) -> list Sem.value -> list lit -> list (list bool) -> Prop :=
| AE_nil : args_enc P [] [] [] []
| AE_cons x t ps v vs l ls a args rt :
    ty_of_ast P t = Some rt -> has_ty P v t = true -> in_rng P v t = true ->
    lit_of_value P v t = Some l -> as_bits (enum_env P) l = Ok a ->
    args_enc P ps vs ls args -> args_enc P ((x, t) :: ps) (v :: vs) (l :: ls) (a :: args).

Lemma bits_eqb_refl a : Sem.bits_eqb a a = true.
Proof. induction a as [|b a IH]; [reflexivity|]. cbn [Sem.bits_eqb]. now rewrite Bool.eqb_reflx, IH. Qed.

(* the encoded literals are accepted by the type test, are CANONICAL argument bits, and Sem.v
   decodes them to the values *)
Lemma args_enc_canonical P : enums_small P = true -> forall ps vs ls args, args_enc P ps vs ls args ->
  canonical_args P ps args = true /\
  Sem.decode_args P ps args = Some (combine (map fst ps) vs) /\
  Forall2 (fun (l : lit) (p : N * Ast.ty) => exists rt, ty_of_ast P (snd p) = Some rt /\ is_of_type l rt = true) ls ps.
Proof.
  intro Hsm. induction 1 as [|x t ps v vs l ls a args rt Hrt Hty Hr Hl Hb _ (IH1 & IH2 & IH3)].
  - repeat split. constructor.
  - destruct (lit_enc_total P t v rt Hsm Hrt Hty Hr) as (l' & w & Hl' & Hi & Hb' & HV).
    assert (l' = l) as -> by congruence. assert (w = a) as -> by congruence.
    pose proof (ty_of_ast_fits P t rt Hrt) as Hfit.
    pose proof (has_enc_decode_all P t v a Hsm HV Hfit) as Hd.
    split; [|split].
    + unfold canonical_args in *. cbn [forallb2 snd]. rewrite IH1, andb_true_r.
      unfold canonical_arg, ty_fits_b. rewrite Hfit, Hd, Hr, (has_enc_encode P t v a HV Hfit), bits_eqb_refl.
      reflexivity.
    + cbn [Sem.decode_args map fst combine]. now rewrite Hd, IH2.
    + constructor; [|exact IH3]. exists rt. auto.
Qed.

(* [tsem_sem_program_full] before the result is encoded *)
Lemma main_value_enc P d fuel fw fT args o outs v :
  enums_small P = true -> p_consts P = [] -> find_fn P (p_main P) = Some d ->
  scf_block fw P ([] :: tbind_all [[]; []] (fn_params d) true) (fn_body d) = Some (fn_ret d) ->
  canonical_args P (fn_params d) args = true ->
  tsem_program fT P args = Ok (o, outs) -> sem_main_value fuel P args = Some v ->
  o = None /\ has_enc P (fn_ret d) v outs /\ ty_fits P (fn_ret d).
Proof.
  intros Hsm Hc Hfind Hsc Hcan Hrun Hv. unfold sem_main_value in Hv. rewrite Hfind in Hv.
  destruct (Sem.decode_args P (fn_params d) args) as [vals|] eqn:Ed; [|discriminate Hv].
  pose proof (main_agrees P (VRa P) d [] fuel fT args vals o outs _ Hfind (no_consts_rel P _ fuel Hc)
                (init_rel_f P _ _ _ Ed Hcan)
                (fun en0 E w E' o' _ Hrel Hb => tsem_sem_full_block P fuel fw _ _ _ _ E fT w E' o' Hsm Hsc Hrel Hb)
                Hrun) as H.
  unfold main_obs in H. destruct (Sem.eval_consts fuel P) as [en0| | |]; try discriminate Hv.
  destruct (Sem.exec_block fuel P _ (fn_body d)) as [[v' en1]| | |]; try discriminate Hv.
  injection Hv as ->. destruct H as (-> & HV & Hfit). auto.
Qed.

(* THE COROLLARY.  A program of the full fragment (Compile/TSemSemFull.v), argument VALUES vs
   of the parameter types with their literals ls; [args] = what the model of
   `Literal::as_bits` produces for the literals.  Then the literals pass `is_of_type`; Sem.v
   runs main on exactly vs; and if Sem.v returns (RunOk) while the bit-level semantics of the
   compiled program returns [outs], then decoding [outs] with the model of
   `Literal::from_result_bits` at the translated return type yields exactly the literal of the
   value v that Sem.v computed (and nothing panicked). *)
Theorem lit_program_agree P fuel fw fT d vs ls args o outs bits len rt :
  in_full_fragment fw P = true -> structs_sorted P = true ->
  find_fn P (p_main P) = Some d -> args_enc P (fn_params d) vs ls args ->
  ty_of_ast P (fn_ret d) = Some rt ->
  tsem_program fT P args = Ok (o, outs) ->
  Sem.run_main fuel P args = Sem.RunOk bits len ->
  Sem.decode_args P (fn_params d) args = Some (combine (map fst (fn_params d)) vs) /\
  Forall2 (fun (l : lit) (p : N * Ast.ty) => exists rt', ty_of_ast P (snd p) = Some rt' /\ is_of_type l rt' = true)
          ls (fn_params d) /\
  exists v l,
    sem_main_value fuel P args = Some v /\ lit_of_value P v (fn_ret d) = Some l /\
    o = None /\ outs = bits /\
    is_of_type l rt = true /\ from_bits rt outs = Ok (Some l).
Proof.
  intros Hfrag Hss Hfind Hargs Hrt Hrun Hsem.
  unfold in_full_fragment in Hfrag. destruct (p_consts P) eqn:Hc; [|discriminate Hfrag].
  rewrite Hfind in Hfrag. apply andb_prop in Hfrag as [Hsm Hfrag].
  destruct (scf_block fw P _ (fn_body d)) as [t|] eqn:Hsc; [|discriminate Hfrag].
  apply ty_beq_eq in Hfrag. subst t.
  destruct (args_enc_canonical P Hsm _ _ _ _ Hargs) as (Hcan & Hdec & Hty).
  split; [exact Hdec|]. split; [exact Hty|].
  destruct (run_main_value fuel P args bits len Hsem) as (d' & v & Hfind' & Hv & He).
  assert (d' = d) as -> by congruence.
  destruct (main_value_enc P d fuel fw fT args o outs v Hsm Hc Hfind Hsc Hcan Hrun Hv) as (-> & HV & Hfit).
  assert (outs = bits) as -> by (pose proof (has_enc_encode P _ _ _ HV Hfit); congruence).
  destruct (lit_enc_agree P _ v bits rt Hsm HV Hrt) as (l & Hl & _ & Hi & _).
  exists v, l. repeat split; try assumption.
  exact (proj1 (lit_enc_decode P _ v bits rt l Hsm Hss HV Hrt Hl)).
Qed.
Print Assumptions lit_program_agree.

(* ------------------------------------------------------------------ 4. examples *)

Module LitEncExample.
  (* the program, type and value of Compile/ValEnc.v's example:
     struct S { a: u8, b: bool }   enum E { A, B(u8), C(S, bool) }   (S, E, [(bool, i8); 2], E) *)
  Definition prog := ValEncExample.prog.
  Definition t := ValEncExample.t.
  Definition v := ValEncExample.v.
  Definition bits := ValEncExample.bits.

  Definition rS : rty := RStruct 1 (RFCons 10 (RUnsigned U8) (RFCons 11 RBool RFNil)).
  Definition rE : rty :=
    REnum 2 (RVUnit 0 (RVTuple 1 (RsCons (RUnsigned U8) RsNil) (RVTuple 2 (RsCons rS (RsCons RBool RsNil)) RVNil))).
  Definition rt : rty :=
    RTuple (RsCons rS (RsCons rE
      (RsCons (RArray (RTuple (RsCons RBool (RsCons (RSigned I8) RsNil))) 2) (RsCons rE RsNil)))).

  Definition lS (a : N) (b : lit) : lit := LStruct 1 (LFCons 10 (LUnsigned a U8) (LFCons 11 b LFNil)).
  Definition l : lit :=
    LTuple (LsCons (lS 200 LTrue)
           (LsCons (LEnumTuple 2 1 (LsCons (LUnsigned 7 U8) LsNil))
           (LsCons (LArray (LsCons (LTuple (LsCons LTrue (LsCons (LSigned (-3) I8) LsNil)))
                           (LsCons (LTuple (LsCons LFalse (LsCons (LSigned 5 I8) LsNil))) LsNil)))
           (LsCons (LEnumTuple 2 2 (LsCons (lS 1 LFalse) (LsCons LTrue LsNil))) LsNil)))).

  Example translations : ty_of_ast prog t = Some rt /\ lit_of_value prog v t = Some l /\
    enums_small prog = true /\ structs_sorted prog = true /\ wf (enum_env prog) rt = true.
  Proof. vm_compute. auto. Qed.

  (* by computation: the real type test accepts, the real encoder gives the bits of Sem.encode,
     the real decoder gives the literal back *)
  Example computed : is_of_type l rt = true /\ as_bits (enum_env prog) l = Ok bits /\
    from_bits rt bits = Ok (Some l) /\ Sem.encode Sem.ty_fuel prog t v = Some bits /\ size rt = 51.
  Proof. vm_compute. auto. Qed.

  (* the same from the theorems *)
  Example by_theorem : is_of_type l rt = true /\ as_bits (enum_env prog) l = Ok bits /\
    from_bits rt bits = Ok (Some l).
  Proof.
    destruct translations as (Hrt & Hl & Hsm & Hss & _).
    destruct (lit_enc_agree prog t v bits rt Hsm ValEncExample.v_has_enc Hrt) as (l' & Hl' & _ & Hi & Hb).
    assert (l' = l) as -> by congruence.
    split; [exact Hi|]. split; [exact Hb|].
    exact (proj1 (lit_enc_decode prog t v bits rt l Hsm Hss ValEncExample.v_has_enc Hrt Hl)).
  Qed.

  (* a program: Compile/TSemSemFull.v's example
       pub fn main(a: [u8; 3], s: Shape) -> u8 { .. match s { Dot => t + p.x, Line(n) => t + n } }
     on the argument literals  [10u8, 20u8, 30u8]  and  Shape::Line(7u8)  : the result literal 52u8 *)
  Definition P0 := SanityFull.P0.
  Definition arg_values : list Sem.value :=
    [Sem.VArr [Sem.VInt 10; Sem.VInt 20; Sem.VInt 30]; Sem.VEnum 1 [Sem.VInt 7]].
  Definition arg_lits : list lit :=
    [LArray (LsCons (LUnsigned 10 U8) (LsCons (LUnsigned 20 U8) (LsCons (LUnsigned 30 U8) LsNil)));
     LEnumTuple 30 1 (LsCons (LUnsigned 7 U8) LsNil)].
  Definition arg_bits : list (list bool) :=
    Eval vm_compute in
      map (fun a => match as_bits (enum_env P0) a with Ok b => b | _ => [] end) arg_lits.

  Lemma args_ok : args_enc P0 (fn_params SanityFull.main_fn) arg_values arg_lits arg_bits.
  Proof.
    unfold arg_values, arg_lits, arg_bits. cbn [fn_params SanityFull.main_fn].
    eapply AE_cons; try (vm_compute; reflexivity).
    eapply AE_cons; try (vm_compute; reflexivity).
    constructor.
  Qed.

  Example program_level : exists o outs,
    tsem_program 16 P0 arg_bits = Ok (o, outs) /\ o = None /\
    sem_main_value 16 P0 arg_bits = Some (Sem.VInt 52) /\
    from_bits (RUnsigned U8) outs = Ok (Some (LUnsigned 52 U8)).
  Proof.
    destruct (tsem_program 16 P0 arg_bits) as [[o outs]| |] eqn:Hrun;
      [|vm_compute in Hrun; discriminate Hrun|vm_compute in Hrun; discriminate Hrun].
    assert (exists len, Sem.run_main 16 P0 arg_bits = Sem.RunOk (enc 8 52) len) as [len Hsem]
      by (eexists; vm_compute; reflexivity).
    assert (Hss : structs_sorted P0 = true) by (vm_compute; reflexivity).
    destruct (lit_program_agree P0 16 14 16 SanityFull.main_fn arg_values arg_lits arg_bits o outs _ len
                (RUnsigned U8) SanityFull.accepted Hss eq_refl args_ok eq_refl Hrun Hsem)
      as (_ & _ & v & l & Hv & Hl & -> & -> & _ & Hd).
    assert (Hv' : sem_main_value 16 P0 arg_bits = Some (Sem.VInt 52)) by (vm_compute; reflexivity).
    rewrite Hv' in Hv. injection Hv as <-. vm_compute in Hl. injection Hl as <-.
    exists None, (enc 8 52). auto.
  Qed.
End LitEncExample.
Print Assumptions LitEncExample.by_theorem.
Print Assumptions LitEncExample.program_level.
