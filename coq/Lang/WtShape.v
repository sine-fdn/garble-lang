(* Agreement of the value typing [has_ty] with the layout functions of Lang/Sem.v
   ([encode], [decode], [sizeof]) and the shape theorem for [run_main] (C05). *)
From GV Require Import Base.Util Lang.Ast Lang.Sem Lang.Wt Lang.ValTy Lang.WtSound.
From GV Require Export Base.ListFacts.
Open Scope N_scope.

Local Notation HT P := (fun x t => has_ty P x t = true).

Lemma ty_fuel_S : ty_fuel = S (pred ty_fuel).
Proof. reflexivity. Qed.
Global Opaque ty_fuel.

Lemma sum_map_ext {A} (f h : A -> N) l : (forall a, In a l -> f a = h a) -> sum_map f l = sum_map h l.
Proof.
  induction l as [|a r IH]; intro H; cbn [sum_map]; [reflexivity|].
  rewrite (H a (or_introl eq_refl)), IH; [reflexivity|]. intros b Hb. apply H. now right.
Qed.

Lemma sum_map_map {A B} (h : A -> B) (f : B -> N) l : sum_map f (map h l) = sum_map (fun a => f (h a)) l.
Proof. induction l as [|a r IH]; cbn [sum_map map]; [reflexivity|]. now rewrite IH. Qed.

(* ------------------------------------------------------------ the layout functions, unfolded *)

Lemma size_of_eq f P t :
  size_of (S f) P t =
  match t with
  | TBool => 1
  | TInt _ bits => bits
  | TArr el n => size_of f P el * n
  | TTup ts => sum_map (size_of f P) ts
  | TStruct name =>
      match assocN name (p_structs P) with
      | Some fields => sum_map (fun nt => size_of f P (snd nt)) fields
      | None => 0
      end
  | TEnum name =>
      match assocN name (p_enums P) with
      | Some variants =>
          tag_bits (lenN variants) + fold_right N.max 0 (map (fun ts => sum_map (size_of f P) ts) variants)
      | None => 0
      end
  end.
Proof. reflexivity. Qed.

Lemma size_of_enum f P name variants : assocN name (p_enums P) = Some variants ->
  size_of (S f) P (TEnum name) =
  tag_bits (lenN variants) + fold_right N.max 0 (map (fun ts => sum_map (size_of f P) ts) variants).
Proof. intro H. now rewrite size_of_eq, H. Qed.

Section EncAux.
  Variable enc : ty -> value -> option (list bool).
  Fixpoint enc_list (ts : list ty) (vs : list value) : option (list bool) :=
    match ts, vs with
    | [], [] => Some []
    | t :: tr, v :: vr =>
        match enc t v, enc_list tr vr with
        | Some a, Some b => Some (a ++ b)
        | _, _ => None
        end
    | _, _ => None
    end.
  Section Arr.
    Variable el : ty.
    Fixpoint enc_arr (vs : list value) : option (list bool) :=
      match vs with
      | [] => Some []
      | v :: r => match enc el v, enc_arr r with
                  | Some a, Some b => Some (a ++ b) | _, _ => None end
      end.
  End Arr.
End EncAux.

Lemma encode_eq f P t v :
  encode (S f) P t v =
  match t, v with
  | TBool, VBool b => Some [b]
  | TInt _ bits, VInt z => Some (bits_of_Z (N.to_nat bits) z)
  | TArr el n, VArr vs => if negb (lenN vs =? n)%N then None else enc_arr (encode f P) el vs
  | TTup ts, VTup vs => enc_list (encode f P) ts vs
  | TStruct name, VTup vs =>
      match assocN name (p_structs P) with
      | Some fields => enc_list (encode f P) (map snd fields) vs
      | None => None
      end
  | TEnum name, VEnum tag vs =>
      match assocN name (p_enums P) with
      | Some variants =>
          match nthN variants tag with
          | Some ts =>
              match enc_list (encode f P) ts vs with
              | Some payload =>
                  let total := N.to_nat (size_of f P t) in
                  let body := bits_of_Z (N.to_nat (tag_bits (lenN variants))) (Z.of_N tag) ++ payload in
                  Some (body ++ repeat false (total - length body))
              | None => None
              end
          | None => None
          end
      | None => None
      end
  | _, _ => None
  end.
Proof. destruct t, v; reflexivity. Qed.

Lemma bits_of_Z_length n z : length (bits_of_Z n z) = n.
Proof. induction n as [|n IH]; cbn [bits_of_Z length]; [reflexivity|]. now rewrite IH. Qed.

Section DecAux.
  Variable dec : ty -> list bool -> option (value * list bool).
  Fixpoint dec_list (ts : list ty) (bs : list bool) : option (list value * list bool) :=
    match ts with
    | [] => Some ([], bs)
    | t :: tr =>
        match dec t bs with
        | Some (v, bs1) =>
            match dec_list tr bs1 with
            | Some (vs, bs2) => Some (v :: vs, bs2)
            | None => None
            end
        | None => None
        end
    end.
End DecAux.

Lemma decode_eq f P t bs :
  decode (S f) P t bs =
  match t with
  | TBool => match bs with b :: r => Some (VBool b, r) | [] => None end
  | TInt sg bits =>
      let n := N.to_nat bits in
      if (length bs <? n)%nat then None else
      Some (VInt (to_signed sg bits (unsigned_of_bits (firstn n bs))), skipn n bs)
  | TArr el n =>
      match dec_list (decode f P) (repeat el (N.to_nat n)) bs with
      | Some (vs, r) => Some (VArr vs, r)
      | None => None
      end
  | TTup ts =>
      match dec_list (decode f P) ts bs with Some (vs, r) => Some (VTup vs, r) | None => None end
  | TStruct name =>
      match assocN name (p_structs P) with
      | Some fields =>
          match dec_list (decode f P) (map snd fields) bs with
          | Some (vs, r) => Some (VTup vs, r) | None => None end
      | None => None
      end
  | TEnum name =>
      match assocN name (p_enums P) with
      | Some variants =>
          let total := N.to_nat (size_of f P t) in
          let tb := N.to_nat (tag_bits (lenN variants)) in
          if (length bs <? total)%nat then None else
          let tag := Z.to_N (unsigned_of_bits (firstn tb bs)) in
          match nthN variants tag with
          | Some ts =>
              match dec_list (decode f P) ts (skipn tb (firstn total bs)) with
              | Some (vs, _) => Some (VEnum tag vs, skipn total bs)
              | None => None
              end
          | None => None
          end
      | None => None
      end
  end.
Proof. destruct t; reflexivity. Qed.

Lemma in_rng_tup P vs ts : in_rng P (VTup vs) (TTup ts) = forallb2 (in_rng P) vs ts.
Proof. exact (list_ok_eq (in_rng P) vs ts). Qed.
Lemma in_rng_struct P vs name :
  in_rng P (VTup vs) (TStruct name) =
  match assocN name (p_structs P) with
  | Some def => forallb2 (in_rng P) vs (map snd def)
  | None => false
  end.
Proof. cbn [in_rng]. destruct (assocN name (p_structs P)); [apply list_ok_eq|reflexivity]. Qed.
Lemma in_rng_enum P tag vs name :
  in_rng P (VEnum tag vs) (TEnum name) =
  match assocN name (p_enums P) with
  | Some variants => match nthN variants tag with Some ts => forallb2 (in_rng P) vs ts | None => false end
  | None => false
  end.
Proof.
  cbn [in_rng]. destruct (assocN name (p_enums P)) as [variants|]; [|reflexivity].
  destruct (nthN variants tag); [apply list_ok_eq|reflexivity].
Qed.
Lemma in_rng_arr P vs el n : in_rng P (VArr vs) (TArr el n) = forallb (fun v => in_rng P v el) vs.
Proof. reflexivity. Qed.

Section Pos.
  Variable P : program.

  Lemma in_rng_pos vs : forall t ts,
    pos_tys P t = Some ts -> in_rng P (VTup vs) t = forallb2 (in_rng P) vs ts.
  Proof.
    apply pos_tys_case; [intro ts; apply in_rng_tup|].
    intros name def Hd. now rewrite in_rng_struct, Hd.
  Qed.

  Lemma size_of_pos f : forall t ts, pos_tys P t = Some ts -> size_of (S f) P t = sum_map (size_of f P) ts.
  Proof.
    apply pos_tys_case; [reflexivity|].
    intros name def Hd. rewrite size_of_eq, Hd. symmetry. apply sum_map_map.
  Qed.

  Lemma ty_ok_pos f : forall t ts, pos_tys P t = Some ts -> ty_ok (S f) P t = forallb (ty_ok f P) ts.
  Proof.
    apply pos_tys_case; [reflexivity|].
    intros name def Hd. cbn [ty_ok]. rewrite Hd. clear Hd.
    induction def as [|[x t] r IH]; cbn [forallb map snd]; [reflexivity|]. now rewrite IH.
  Qed.

  Lemma encode_pos f vs : forall t ts,
    pos_tys P t = Some ts -> encode (S f) P t (VTup vs) = enc_list (encode f P) ts vs.
  Proof.
    apply pos_tys_case; [reflexivity|].
    intros name def Hd. now rewrite encode_eq, Hd.
  Qed.

  Lemma decode_pos f bs : forall t ts, pos_tys P t = Some ts ->
    decode (S f) P t bs =
    match dec_list (decode f P) ts bs with Some (vs, r) => Some (VTup vs, r) | None => None end.
  Proof.
    apply pos_tys_case; [reflexivity|].
    intros name def Hd. now rewrite decode_eq, Hd.
  Qed.

  Lemma pos_tys_none name : pos_tys P (TStruct name) = None -> assocN name (p_structs P) = None.
  Proof. cbn [pos_tys]. now destruct (assocN name (p_structs P)). Qed.
End Pos.

(* ------------------------------------------------------------ fuel of the type functions *)

Lemma size_of_stable P : forall f t, ty_ok f P t = true -> size_of (S f) P t = size_of f P t.
Proof.
  induction f as [|f IH]; intros t H; [discriminate H|].
  destruct (pos_tys P t) as [ts|] eqn:Ep.
  { rewrite (ty_ok_pos P f t ts Ep) in H. rewrite !(size_of_pos P _ t ts Ep).
    apply sum_map_ext. intros a Ha. apply IH. rewrite forallb_forall in H. now apply H. }
  rewrite (size_of_eq (S f)), (size_of_eq f).
  destruct t as [| |el n|ts|name|name]; cbn [ty_ok] in H; try reflexivity; try discriminate Ep.
  - now rewrite IH.
  - now rewrite (pos_tys_none P name Ep) in H.
  - destruct (assocN name (p_enums P)) as [variants|]; [|reflexivity]. f_equal. f_equal.
    apply map_ext_in. intros ts Hts. apply sum_map_ext. intros a Ha. apply IH.
    rewrite forallb_forall in H. specialize (H ts Hts). rewrite forallb_forall in H. now apply H.
Qed.

Section Enc.
  Variable P : program.

  Lemma enc_list_ok f ts : forall vs,
    (forall t v, In t ts -> has_ty P v t = true ->
       exists bits, encode (S f) P t v = Some bits /\ length bits = N.to_nat (size_of f P t)) ->
    Forall2 (HT P) vs ts ->
    exists bits, enc_list (encode (S f) P) ts vs = Some bits /\
                 length bits = N.to_nat (sum_map (size_of f P) ts).
  Proof.
    induction ts as [|t tr IH]; intros vs Henc Hvs; inversion Hvs as [|v t' vr tr' Hv Hr]; subst; cbn [enc_list sum_map].
    - eexists. split; reflexivity.
    - destruct (Henc t v (or_introl eq_refl) Hv) as [a [Ha La]]. rewrite Ha.
      destruct (IH vr) as [b [Hb Lb]]; [intros; apply Henc; [now right|assumption]|assumption|].
      rewrite Hb. eexists. split; [reflexivity|]. rewrite app_length, La, Lb. lia.
  Qed.

  Lemma enc_arr_ok f el vs :
    (forall v, has_ty P v el = true ->
       exists bits, encode (S f) P el v = Some bits /\ length bits = N.to_nat (size_of f P el)) ->
    Forall (fun v => has_ty P v el = true) vs ->
    exists bits, enc_arr (encode (S f) P) el vs = Some bits /\
                 length bits = (length vs * N.to_nat (size_of f P el))%nat.
  Proof.
    intros Henc. induction 1 as [|v r Hv _ IH]; cbn [enc_arr length].
    - eexists. split; reflexivity.
    - destruct (Henc v Hv) as [a [Ha La]]. rewrite Ha. destruct IH as [b [Hb Lb]]. rewrite Hb.
      eexists. split; [reflexivity|]. rewrite app_length, La, Lb. lia.
  Qed.

  Lemma encode_ok : forall f t v, ty_ok f P t = true -> has_ty P v t = true ->
    exists bits, encode (S f) P t v = Some bits /\ length bits = N.to_nat (size_of f P t).
  Proof.
    induction f as [|f IH]; intros t v Hok Hv; [discriminate Hok|].
    destruct (pos_tys P t) as [ts|] eqn:Ep.
    { destruct (has_ty_pos_inv _ _ _ _ Ep Hv) as [vs [-> Hvs]].
      rewrite (ty_ok_pos P f t ts Ep) in Hok. rewrite (encode_pos P _ vs t ts Ep), (size_of_pos P f t ts Ep).
      rewrite forallb_forall in Hok.
      exact (enc_list_ok f ts vs (fun t v Hin Hv => IH t v (Hok t Hin) Hv) Hvs). }
    rewrite encode_eq, size_of_eq.
    destruct t as [| |el n|ts|name|name]; cbn [ty_ok] in Hok; try discriminate Ep.
    - destruct (has_ty_bool_inv _ _ Hv) as [b ->]. eexists. split; reflexivity.
    - destruct (has_ty_int_inv _ _ _ _ Hv) as [z ->]. eexists. split; [reflexivity|].
      now rewrite bits_of_Z_length.
    - destruct (has_ty_arr_inv _ _ _ _ Hv) as [vs [-> [Hlen Hall]]].
      rewrite <- Hlen, N.eqb_refl. cbn [negb].
      destruct (enc_arr_ok f el vs (fun v Hv => IH el v Hok Hv) Hall) as [bits [Hb Lb]].
      rewrite Hb. eexists. split; [reflexivity|]. rewrite Lb. unfold lenN. lia.
    - now rewrite (pos_tys_none P name Ep) in Hok.
    - destruct (assocN name (p_enums P)) as [variants|] eqn:He; [|discriminate Hok].
      destruct (has_ty_enum_inv _ _ _ _ He Hv) as [tag [vs [ts [-> [Htag Hvs]]]]].
      rewrite Htag. rewrite forallb_forall in Hok.
      pose proof (nthN_In _ _ _ Htag) as Hin. pose proof (Hok ts Hin) as Hts. rewrite forallb_forall in Hts.
      destruct (enc_list_ok f ts vs (fun t v Hin Hv => IH t v (Hts t Hin) Hv) Hvs) as [payload [Hb Lb]].
      rewrite Hb. cbn zeta. eexists. split; [reflexivity|].
      rewrite !app_length, repeat_length, bits_of_Z_length, Lb.
      pose proof (fold_max_ge (fun ts => sum_map (size_of f P) ts) variants ts Hin). lia.
  Qed.

  Theorem encode_sizeof t v : ty_ok (pred ty_fuel) P t = true -> has_ty P v t = true ->
    exists bits, encode ty_fuel P t v = Some bits /\ length bits = N.to_nat (sizeof P t).
  Proof.
    intros Hok Hv. unfold sizeof. rewrite ty_fuel_S. rewrite (size_of_stable P _ _ Hok).
    now apply encode_ok.
  Qed.
End Enc.

(* ------------------------------------------------------------ decode yields typed values *)

Section Dec.
  Variable P : program.

  Lemma dec_list_has_ty (dec : ty -> list bool -> option (value * list bool)) :
    (forall t bs v r, dec t bs = Some (v, r) -> has_ty P v t = true) ->
    forall ts bs vs r, dec_list dec ts bs = Some (vs, r) -> Forall2 (HT P) vs ts.
  Proof.
    intros Hd ts. induction ts as [|t tr IH]; intros bs vs r H; cbn [dec_list] in H.
    - injection H as <- <-. constructor.
    - destruct (dec t bs) as [[v bs1]|] eqn:E1; [|discriminate H].
      destruct (dec_list dec tr bs1) as [[vs' bs2]|] eqn:E2; [|discriminate H].
      injection H as <- <-. constructor; [eapply Hd; eassumption|eapply IH; eassumption].
  Qed.

  Lemma decode_has_ty : forall f t bs v r, decode f P t bs = Some (v, r) -> has_ty P v t = true.
  Proof.
    induction f as [|f IH]; intros t bs v r H; [discriminate H|].
    destruct (pos_tys P t) as [ts|] eqn:Ep.
    { rewrite (decode_pos P f bs t ts Ep) in H.
      destruct (dec_list (decode f P) ts bs) as [[vs r']|] eqn:E; [|discriminate H].
      injection H as <- <-. apply (dec_list_has_ty _ IH) in E.
      rewrite (has_ty_pos P vs t ts Ep). now apply forallb2_Forall2. }
    rewrite decode_eq in H. destruct t as [|sg bits|el n|ts|name|name]; try discriminate Ep.
    - destruct bs; [discriminate H|]. injection H as <- <-. reflexivity.
    - cbn zeta in H. destruct (_ <? _)%nat; [discriminate H|]. injection H as <- <-. reflexivity.
    - destruct (dec_list (decode f P) (repeat el (N.to_nat n)) bs) as [[vs r']|] eqn:E; [|discriminate H].
      injection H as <- <-. apply (dec_list_has_ty _ IH) in E.
      pose proof (Forall2_length_eq _ _ _ E) as El. rewrite repeat_length in El.
      rewrite <- El in E. apply Forall2_repeat_r in E.
      rewrite has_ty_arr. apply andb_true_intro. split.
      + apply N.eqb_eq. unfold lenN. lia.
      + now apply forallb_Forall.
    - now rewrite (pos_tys_none P name Ep) in H.
    - destruct (assocN name (p_enums P)) as [variants|] eqn:Ed; [|discriminate H]. cbn zeta in H.
      destruct (_ <? _)%nat; [discriminate H|].
      match type of H with context [nthN variants ?tg] => destruct (nthN variants tg) as [ts|] eqn:Et; [|discriminate H] end.
      match type of H with context [dec_list ?d ts ?b] => destruct (dec_list d ts b) as [[vs r']|] eqn:E; [|discriminate H] end.
      injection H as <- <-. apply (dec_list_has_ty _ IH) in E. rewrite has_ty_enum, Ed, Et.
      now apply forallb2_Forall2.
  Qed.

  Lemma decode_args_ok : forall ps inputs args,
    decode_args P ps inputs = Some args -> binds_ok P args ps.
  Proof.
    induction ps as [|[x t] pr IH]; intros [|bs ir] args H; cbn [decode_args] in H; try discriminate H.
    - injection H as <-. constructor.
    - destruct (decode ty_fuel P t bs) as [[v [|]]|] eqn:E; try discriminate H.
      destruct (decode_args P pr ir) as [rest|] eqn:Er; [|discriminate H]. injection H as <-.
      constructor; [|now apply IH with (inputs := ir)].
      split; [reflexivity|]. cbn [snd]. eapply decode_has_ty; eassumption.
  Qed.

  (* C05: a program accepted by the re-checker, run on any inputs:
     - a result has exactly [sizeof (return type)] bits (the "right shape");
     - it is never stuck on a typing inconsistency: the only [RunStuck] codes are
       90 (no main), 91 (the inputs do not decode at the parameter types), 92 (the return
       type is deeper than [ty_fuel]) and the pattern-match / join codes [stuck_allowed],
       the latter only outside the fragment [frag_program]. *)
  Theorem wt_main_shape fuel inputs : wt_program P = true ->
    match run_main fuel P inputs with
    | RunOk bits _ =>
        exists d, find_fn P (p_main P) = Some d /\
          (ty_ok (pred ty_fuel) P (fn_ret d) = true -> length bits = N.to_nat (sizeof P (fn_ret d)))
    | RunStuck c =>
        (In c stuck_allowed /\ frag_program P = false) \/
        (c = 90 /\ find_fn P (p_main P) = None) \/ c = 91 \/
        (c = 92 /\ exists d, find_fn P (p_main P) = Some d /\ ty_ok (pred ty_fuel) P (fn_ret d) = false)
    | RunPanic _ _ | RunNoFuel => True
    end.
  Proof.
    intro Hwt. unfold run_main.
    destruct (find_fn P (p_main P)) as [d|] eqn:Efn; [|right; left; split; reflexivity].
    destruct (decode_args P (fn_params d) inputs) as [args|] eqn:Ea; [|right; right; left; reflexivity].
    pose proof (wt_main_values P d fuel args Hwt Efn (decode_args_ok _ _ _ Ea)) as H.
    destruct (eval_consts fuel P) as [en0| | |]; try contradiction; [|exact I].
    destruct (exec_block fuel P _ (fn_body d)) as [[v en']| | |]; try exact I; [|left; exact H].
    destruct (encode ty_fuel P (fn_ret d) v) as [bits|] eqn:Ee.
    - exists d. split; [reflexivity|]. intro Hok.
      destruct (encode_sizeof P _ _ Hok H) as [bits' [Hb Lb]]. rewrite Ee in Hb. now injection Hb as ->.
    - right. right. right. split; [reflexivity|]. exists d. split; [reflexivity|].
      destruct (ty_ok (pred ty_fuel) P (fn_ret d)) eqn:Hok; [|reflexivity].
      destruct (encode_sizeof P _ _ Hok H) as [bits' [Hb _]]. congruence.
  Qed.

  (* the same inside the fragment: evaluation is never stuck *)
  Corollary wt_main_shape_fragment fuel inputs d :
    wt_program P = true -> frag_program P = true ->
    find_fn P (p_main P) = Some d -> ty_ok (pred ty_fuel) P (fn_ret d) = true ->
    match run_main fuel P inputs with
    | RunOk bits _ => length bits = N.to_nat (sizeof P (fn_ret d))
    | RunStuck c => c = 91
    | RunPanic _ _ | RunNoFuel => True
    end.
  Proof.
    intros Hwt Hfr Hfn Hok. pose proof (wt_main_shape fuel inputs Hwt) as H.
    destruct (run_main fuel P inputs) as [bits l| | c |]; try exact I.
    - destruct H as [d' [Hd' Hl]]. rewrite Hfn in Hd'. injection Hd' as <-. now apply Hl.
    - destruct H as [[_ Hf]|[[_ Hn]|[->|[_ [d' [Hd' Hn]]]]]]; try congruence.
  Qed.
End Dec.

(* ------------------------------------------------------------ decode (encode v) = v *)

Lemma Z_of_bits_acc_bits n z : forall acc,
  Z_of_bits_acc acc (bits_of_Z n z) = (acc * 2 ^ Z.of_nat n + z mod 2 ^ Z.of_nat n)%Z.
Proof.
  induction n as [|k IH]; intros acc; cbn [bits_of_Z Z_of_bits_acc].
  - change (Z.of_nat 0) with 0%Z. rewrite Z.pow_0_r, Z.mod_1_r. lia.
  - rewrite IH. rewrite Nat2Z.inj_succ, Z.pow_succ_r by lia.
    rewrite (Z.mul_comm 2 (2 ^ Z.of_nat k)).
    rewrite (Z.rem_mul_r z (2 ^ Z.of_nat k) 2) by lia.
    rewrite <- (Z.testbit_spec' z (Z.of_nat k)) by lia.
    destruct (Z.testbit z (Z.of_nat k)); cbn [Z.b2z]; nia.
Qed.

Lemma unsigned_of_bits_of_Z n z : unsigned_of_bits (bits_of_Z n z) = (z mod 2 ^ Z.of_nat n)%Z.
Proof. unfold unsigned_of_bits. rewrite Z_of_bits_acc_bits. lia. Qed.

Lemma to_signed_roundtrip sg bits z : in_range sg bits z = true ->
  to_signed sg bits (z mod 2 ^ Z.of_N bits) = z.
Proof.
  unfold in_range, to_signed. destruct sg; intro H; apply andb_prop in H as [H1 H2].
  - apply Z.leb_le in H1. apply Z.ltb_lt in H2. cbn [andb].
    assert (Hb : (0 < Z.of_N bits)%Z).
    { destruct (Z.of_N bits) eqn:E; try lia; cbn in H1, H2; lia. }
    assert (Hp : (2 ^ Z.of_N bits = 2 * 2 ^ (Z.of_N bits - 1))%Z).
    { rewrite <- Z.pow_succ_r by lia. f_equal. lia. }
    assert (Hpos : (0 < 2 ^ (Z.of_N bits - 1))%Z) by (apply Z.pow_pos_nonneg; lia).
    destruct (Z.leb_spec 0 z) as [Hz|Hz].
    + rewrite Z.mod_small by lia. destruct (Z.leb_spec (2 ^ (Z.of_N bits - 1)) z); lia.
    + replace (z mod 2 ^ Z.of_N bits)%Z with (z + 2 ^ Z.of_N bits)%Z.
      * destruct (Z.leb_spec (2 ^ (Z.of_N bits - 1)) (z + 2 ^ Z.of_N bits)); lia.
      * symmetry. rewrite <- (Z.mod_add z 1) by lia. rewrite Z.mul_1_l. apply Z.mod_small. lia.
  - apply Z.leb_le in H1. apply Z.ltb_lt in H2. cbn [andb]. apply Z.mod_small. lia.
Qed.

Lemma enc_arr_list enc el vs : enc_arr enc el vs = enc_list enc (repeat el (length vs)) vs.
Proof. induction vs as [|v r IH]; cbn [enc_arr enc_list repeat length]; [reflexivity|]. now rewrite IH. Qed.

(* tag width *)
Lemma tag_bits_aux_spec fuel : forall bits n,
  n <= 2 ^ (bits + N.of_nat fuel) -> n <= 2 ^ tag_bits_aux fuel bits n.
Proof.
  induction fuel as [|f IH]; intros bits n H; cbn [tag_bits_aux].
  - now rewrite N.add_0_r in H.
  - destruct (N.ltb_spec (2 ^ bits) n) as [Hl|Hl]; [|assumption].
    apply IH. replace (bits + 1 + N.of_nat f) with (bits + N.of_nat (S f)) by lia. assumption.
Qed.
Lemma tag_bits_spec n : n <= 2 ^ 64 -> n <= 2 ^ tag_bits n.
Proof. intro H. unfold tag_bits. apply tag_bits_aux_spec. exact H. Qed.

Lemma assocN_In {A} k (l : list (N * A)) a : assocN k l = Some a -> exists k', In (k', a) l.
Proof.
  induction l as [|[k0 a0] r IH]; cbn [assocN]; [discriminate|].
  destruct (k =? k0).
  - intros [= <-]. exists k0. now left.
  - intro H. destruct (IH H) as [k' Hk]. exists k'. now right.
Qed.

Section RT.
  Variable P : program.
  Hypothesis Hsmall : enums_small P = true.

  Definition rt_at (f : nat) (t : ty) (v : value) : Prop :=
    forall bits rest, encode (S f) P t v = Some bits -> decode (S f) P t (bits ++ rest) = Some (v, rest).

  Lemma list_rt f ts : forall vs,
    (forall t v, In t ts -> has_ty P v t = true -> in_rng P v t = true -> rt_at f t v) ->
    Forall2 (HT P) vs ts -> forallb2 (in_rng P) vs ts = true ->
    forall bits rest, enc_list (encode (S f) P) ts vs = Some bits ->
      dec_list (decode (S f) P) ts (bits ++ rest) = Some (vs, rest).
  Proof.
    induction ts as [|t tr IH]; intros vs Hrt Hvs Hr bits rest He;
      inversion Hvs as [|v t' vr tr' Hv Hvr]; subst; cbn [enc_list dec_list forallb2] in *.
    - injection He as <-. reflexivity.
    - apply andb_prop in Hr as [Hr1 Hr2].
      destruct (encode (S f) P t v) as [a|] eqn:Ea; [|discriminate He].
      destruct (enc_list (encode (S f) P) tr vr) as [b|] eqn:Eb; [|discriminate He].
      injection He as <-. rewrite <- app_assoc.
      rewrite (Hrt t v (or_introl eq_refl) Hv Hr1 a (b ++ rest) Ea).
      rewrite (IH vr (fun t0 v0 Hin => Hrt t0 v0 (or_intror Hin)) Hvr Hr2 b rest Eb). reflexivity.
  Qed.

  Lemma decode_encode : forall f t v, ty_ok f P t = true -> has_ty P v t = true -> in_rng P v t = true ->
    rt_at f t v.
  Proof.
    induction f as [|f IH]; intros t v Hok Hv Hr bits rest He; [discriminate Hok|].
    destruct (pos_tys P t) as [ts|] eqn:Ep.
    { destruct (has_ty_pos_inv _ _ _ _ Ep Hv) as [vs [-> Hvs]].
      rewrite (in_rng_pos P vs t ts Ep) in Hr. rewrite (ty_ok_pos P f t ts Ep) in Hok.
      rewrite (encode_pos P _ vs t ts Ep) in He. rewrite (decode_pos P _ _ t ts Ep).
      rewrite forallb_forall in Hok.
      rewrite (list_rt f ts vs) with (bits := bits) (rest := rest); try assumption; [reflexivity|].
      intros t' v' Hin Hvt Hrt. apply IH; auto. }
    rewrite encode_eq in He. rewrite decode_eq.
    destruct t as [|sg nb|el n|ts|name|name]; cbn [ty_ok] in Hok; try discriminate Ep.
    - destruct (has_ty_bool_inv _ _ Hv) as [b ->]. injection He as <-. reflexivity.
    - destruct (has_ty_int_inv _ _ _ _ Hv) as [z ->]. injection He as <-. cbn zeta. cbn [in_rng] in Hr.
      rewrite app_length, bits_of_Z_length.
      destruct (Nat.ltb_spec (N.to_nat nb + length rest) (N.to_nat nb)) as [Hlt|_]; [lia|].
      rewrite firstn_app_exact, skipn_app_exact by apply bits_of_Z_length.
      rewrite unsigned_of_bits_of_Z, N_nat_Z. now rewrite (to_signed_roundtrip sg nb z Hr).
    - destruct (has_ty_arr_inv _ _ _ _ Hv) as [vs [-> [Hlen Hall]]].
      rewrite <- Hlen, N.eqb_refl in He. cbn [negb] in He. rewrite enc_arr_list in He.
      rewrite <- Hlen. unfold lenN. rewrite Nat2N.id. rewrite in_rng_arr, <- forallb2_repeat_r in Hr.
      rewrite (list_rt f (repeat el (length vs)) vs) with (bits := bits) (rest := rest); try assumption; [reflexivity| |].
      + intros t v Hin Hvt Hrt. apply repeat_spec in Hin. subst t. now apply IH.
      + now apply Forall2_repeat_r.
    - now rewrite (pos_tys_none P name Ep) in Hok.
    - destruct (assocN name (p_enums P)) as [variants|] eqn:Hen; [|discriminate Hok].
      destruct (has_ty_enum_inv _ _ _ _ Hen Hv) as [tag [vs [ts [-> [Htag Hvs]]]]].
      rewrite in_rng_enum, Hen, Htag in Hr. rewrite Htag in He. rewrite forallb_forall in Hok.
      rewrite (size_of_enum f P name variants Hen) in He |- *.
      pose proof (nthN_In _ _ _ Htag) as Hin. pose proof (Hok ts Hin) as Hts. rewrite forallb_forall in Hts.
      destruct (enc_list (encode (S f) P) ts vs) as [payload|] eqn:Ep'; [|discriminate He].
      cbv zeta in He. injection He as <-. cbv zeta.
      set (tb := N.to_nat (tag_bits (lenN variants))).
      set (total := N.to_nat (tag_bits (lenN variants) +
                              fold_right N.max 0 (map (fun ts => sum_map (size_of f P) ts) variants))).
      set (tagbits := bits_of_Z tb (Z.of_N tag)).
      assert (Ltag : length tagbits = tb) by apply bits_of_Z_length.
      (* the payload fits *)
      destruct (enc_list_ok P f ts vs (fun t v Hin Hv => encode_ok P f t v (Hts t Hin) Hv) Hvs) as [payload' [Hp' Lp]].
      rewrite Ep' in Hp'. injection Hp' as <-.
      pose proof (fold_max_ge (fun ts => sum_map (size_of f P) ts) variants ts Hin) as Hmax.
      assert (Hfit : (length (tagbits ++ payload) <= total)%nat).
      { rewrite app_length, Ltag, Lp. unfold total, tb. lia. }
      set (pad := repeat false (total - length (tagbits ++ payload))).
      assert (Lbody : length ((tagbits ++ payload) ++ pad) = total).
      { unfold pad. rewrite app_length, repeat_length. lia. }
      destruct (Nat.ltb_spec (length (((tagbits ++ payload) ++ pad) ++ rest)) total) as [Hlt|_];
        [rewrite app_length in Hlt; lia|].
      (* the tag *)
      assert (Etag : firstn tb ((((tagbits ++ payload) ++ pad) ++ rest)) = tagbits).
      { rewrite <- !app_assoc. now apply firstn_app_exact. }
      rewrite Etag.
      assert (Hlt : tag < 2 ^ tag_bits (lenN variants)).
      { pose proof (nthN_lt _ _ _ Htag) as H1.
        destruct (assocN_In _ _ _ Hen) as [k' Hk']. unfold enums_small in Hsmall.
        rewrite forallb_forall in Hsmall. specialize (Hsmall _ Hk'). cbn [snd] in Hsmall.
        apply N.leb_le in Hsmall. pose proof (tag_bits_spec _ Hsmall). lia. }
      assert (Emod : Z.to_N (unsigned_of_bits tagbits) = tag).
      { unfold tagbits. rewrite unsigned_of_bits_of_Z. unfold tb. rewrite N_nat_Z. rewrite Z.mod_small; [apply N2Z.id|].
        split; [lia|]. change 2%Z with (Z.of_N 2). rewrite <- N2Z.inj_pow. lia. }
      rewrite !Emod, Htag.
      rewrite (firstn_app_exact _ rest total Lbody), (skipn_app_exact _ rest total Lbody).
      rewrite <- app_assoc. rewrite (skipn_app_exact tagbits _ tb Ltag).
      rewrite (list_rt f ts vs) with (bits := payload) (rest := pad); try assumption; [reflexivity|].
      intros t v Hin' Hvt Hrt. apply IH; auto.
  Qed.

  Theorem decode_encode_top t v :
    ty_ok (pred ty_fuel) P t = true -> has_ty P v t = true -> in_rng P v t = true ->
    forall bits, encode ty_fuel P t v = Some bits -> decode ty_fuel P t bits = Some (v, []).
  Proof.
    intros Hok Hv Hr bits He. rewrite ty_fuel_S in *.
    rewrite <- (app_nil_r bits). now apply (decode_encode _ t v Hok Hv Hr).
  Qed.
End RT.
