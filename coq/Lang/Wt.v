(* A re-checker for typed ASTs: every node's annotated type agrees with its children under
   the documented rules, and the width of every value is determined by its static type.
   The real type checker (check.rs; its model is Check/Infer.v) is validated per program against this
   function: a tree it returns that fails [wt_program] is either an ill-typed program that
   was accepted (C17) or a tree whose types disagree with the wires the compiler will emit
   for it (C05). *)
From GV Require Import Base.Util Lang.Ast.

Fixpoint ty_eqb (a b : ty) {struct a} : bool :=
  let list_eqb := fix go (xs ys : list ty) : bool :=
    match xs, ys with
    | [], [] => true
    | x :: xr, y :: yr => ty_eqb x y && go xr yr
    | _, _ => false
    end in
  match a, b with
  | TBool, TBool => true
  (* the checker may leave an unsuffixed literal as 'unspecified' (32 bits, exported as u32/i32)
     where the context is another 32-bit integer type: same width, accepted *)
  | TInt s1 b1, TInt s2 b2 => (Bool.eqb s1 s2 && (b1 =? b2)) || ((b1 =? 32) && (b2 =? 32))
  | TArr e1 n1, TArr e2 n2 => ty_eqb e1 e2 && (n1 =? n2)
  | TTup xs, TTup ys => list_eqb xs ys
  | TStruct n1, TStruct n2 => n1 =? n2
  | TEnum n1, TEnum n2 => n1 =? n2
  | _, _ => false
  end.

Definition is_int (t : ty) : bool := match t with TInt _ _ => true | _ => false end.
Definition is_bool (t : ty) : bool := match t with TBool => true | _ => false end.
Definition is_unsigned (t : ty) : bool := match t with TInt false _ => true | _ => false end.
Definition is_signed_int (t : ty) : bool := match t with TInt true _ => true | _ => false end.

Definition lit_fits (t : ty) (z : Z) : bool :=
  match t with
  | TInt false bits => (0 <=? z)%Z && (z <? 2 ^ Z.of_N bits)%Z
  | TInt true bits => (- 2 ^ (Z.of_N bits - 1) <=? z)%Z && (z <? 2 ^ (Z.of_N bits - 1))%Z
  | _ => false
  end.

(* typing environment: innermost scope first; (type, mutable) *)
Definition tenv := list (list (N * (ty * bool))).

Fixpoint tlookup (g : tenv) (x : N) : option (ty * bool) :=
  match g with
  | [] => None
  | s :: r => match assocN x s with Some v => Some v | None => tlookup r x end
  end.

Definition tbind (g : tenv) (x : N) (t : ty) (m : bool) : tenv :=
  match g with
  | s :: r => ((x, (t, m)) :: s) :: r
  | [] => [[(x, (t, m))]]
  end.

Fixpoint forallb2 {A B} (f : A -> B -> bool) (xs : list A) (ys : list B) : bool :=
  match xs, ys with
  | [], [] => true
  | x :: xr, y :: yr => f x y && forallb2 f xr yr
  | _, _ => false
  end.

(* patterns: returns the bindings (name, type) if the pattern is consistent with type t *)
Fixpoint wt_pat (P : program) (p : pattern) {struct p} : option (list (N * ty)) :=
  match p with
  | Pat pi _ t =>
      let wt_list := fix go (ps : list pattern) (ts : list ty) : option (list (N * ty)) :=
        match ps, ts with
        | [], [] => Some []
        | p :: pr, t :: tr =>
            if negb (ty_eqb (p_ty p) t) then None else
            match wt_pat P p, go pr tr with
            | Some a, Some b => Some (a ++ b)
            | _, _ => None
            end
        | _, _ => None
        end in
      match pi with
      | PId x => Some [(x, t)]
      | PTrue | PFalse => if is_bool t then Some [] else None
      | PNumU n => if lit_fits t (Z.of_N n) then Some [] else None
      | PNumS z => if lit_fits t z then Some [] else None
      | PURange lo hi => if lit_fits t (Z.of_N lo) && lit_fits t (Z.of_N hi) then Some [] else None
      | PSRange lo hi => if lit_fits t lo && lit_fits t hi then Some [] else None
      | PTup ps => match t with TTup ts => wt_list ps ts | _ => None end
      | PStruct name _ fields =>
          match t, assocN name (p_structs P) with
          | TStruct n2, Some def =>
              if negb (name =? n2) then None else
              (fix go (fs : list (N * pattern)) : option (list (N * ty)) :=
                 match fs with
                 | [] => Some []
                 | (f, fp) :: r =>
                     match assocN f def with
                     | Some ft =>
                         if negb (ty_eqb (p_ty fp) ft) then None else
                         match wt_pat P fp, go r with
                         | Some a, Some b => Some (a ++ b)
                         | _, _ => None
                         end
                     | None => None
                     end
                 end) fields
          | _, _ => None
          end
      | PEnumUnit en v =>
          match t, assocN en (p_enums P) with
          | TEnum n2, Some variants =>
              if negb (en =? n2) then None else
              match nthN variants v with Some [] => Some [] | _ => None end
          | _, _ => None
          end
      | PEnumTup en v ps =>
          match t, assocN en (p_enums P) with
          | TEnum n2, Some variants =>
              if negb (en =? n2) then None else
              match nthN variants v with Some ts => wt_list ps ts | None => None end
          | _, _ => None
          end
      end
  end.

Definition tbind_all (g : tenv) (bs : list (N * ty)) (m : bool) : tenv :=
  fold_left (fun g b => tbind g (fst b) (snd b) m) bs g.

Definition unit_ty : ty := TTup [].

Fixpoint wt_expr (fuel : nat) (P : program) (g : tenv) (e : expr) {struct fuel} : bool :=
  match fuel with
  | O => false
  | S f =>
    match e with
    | Ex ei _ t =>
      match ei with
      | ETrue | EFalse => is_bool t
      | ENumU n _ => lit_fits t (Z.of_N n)
      | ENumS z _ => lit_fits t z
      | EId x => match tlookup g x with Some (tx, _) => ty_eqb tx t | None => false end
      | EArrLit es =>
          match t with
          | TArr el n => (lenN es =? n) && forallb (fun e => ty_eqb (e_ty e) el && wt_expr f P g e) es
          | _ => false
          end
      | EArrRep e1 n =>
          match t with
          | TArr el n2 => (n =? n2) && ty_eqb (e_ty e1) el && wt_expr f P g e1
          | _ => false
          end
      | EIdx a i =>
          match e_ty a with
          | TArr el _ => ty_eqb el t && is_unsigned (e_ty i) && wt_expr f P g a && wt_expr f P g i
          | _ => false
          end
      | ETupLit es =>
          match t with
          | TTup ts => forallb2 (fun e t => ty_eqb (e_ty e) t && wt_expr f P g e) es ts
          | _ => false
          end
      | ETupAcc e1 i =>
          match e_ty e1 with
          | TTup ts => match nthN ts i with Some ti => ty_eqb ti t && wt_expr f P g e1 | None => false end
          | _ => false
          end
      | EFld e1 fld =>
          match e_ty e1 with
          | TStruct name =>
              match assocN name (p_structs P) with
              | Some def => match assocN fld def with
                            | Some ft => ty_eqb ft t && wt_expr f P g e1 | None => false end
              | None => false
              end
          | _ => false
          end
      | EStructLit name fields =>
          match t, assocN name (p_structs P) with
          | TStruct n2, Some def =>
              (name =? n2) && (lenN fields =? lenN def) &&
              forallb (fun d => match filter (fun fe => fst fe =? fst d) fields with
                                | [(_, fe)] => ty_eqb (e_ty fe) (snd d) && wt_expr f P g fe
                                | _ => false          (* each field exactly once *)
                                end) def
          | _, _ => false
          end
      | EEnumLit en v args =>
          match t, assocN en (p_enums P) with
          | TEnum n2, Some variants =>
              (en =? n2) &&
              match nthN variants v with
              | Some ts => forallb2 (fun e t => ty_eqb (e_ty e) t && wt_expr f P g e) args ts
              | None => false
              end
          | _, _ => false
          end
      | EMatch s arms =>
          wt_expr f P g s &&
          forallb (fun arm =>
            ty_eqb (p_ty (fst arm)) (e_ty s) && ty_eqb (e_ty (snd arm)) t &&
            match wt_pat P (fst arm) with
            | Some bs => wt_expr f P (tbind_all ([] :: g) bs false) (snd arm)
            | None => false
            end) arms
      | ENeg e1 => is_signed_int t && ty_eqb (e_ty e1) t && wt_expr f P g e1
      | ENot e1 => (is_bool t || is_int t) && ty_eqb (e_ty e1) t && wt_expr f P g e1
      | EOp o x y =>
          wt_expr f P g x && wt_expr f P g y &&
          match o with
          | OAdd | OSub | OMul | ODiv | OMod => is_int t && ty_eqb (e_ty x) t && ty_eqb (e_ty y) t
          | OBitAnd | OBitXor | OBitOr => (is_int t || is_bool t) && ty_eqb (e_ty x) t && ty_eqb (e_ty y) t
          | OGt | OLt => is_bool t && is_int (e_ty x) && ty_eqb (e_ty x) (e_ty y)
          | OEq | ONe => is_bool t && ty_eqb (e_ty x) (e_ty y)
          | OShl | OShr => is_int t && ty_eqb (e_ty x) t && ty_eqb (e_ty y) (TInt false 8)
          | OLAnd | OLOr => is_bool t && is_bool (e_ty x) && is_bool (e_ty y)
          end
      | EBlock b =>
          match wt_block f P ([] :: g) b with
          | Some tb => ty_eqb tb t
          | None => false
          end
      | ECall fn args =>
          match find_fn P fn with
          | Some d =>
              ty_eqb (fn_ret d) t &&
              forallb2 (fun e pt => ty_eqb (e_ty e) (snd pt) && wt_expr f P g e) args (fn_params d)
          | None => false
          end
      | EJoin _ _ a b => wt_expr f P g a && wt_expr f P g b
      | EIf c a b =>
          is_bool (e_ty c) && ty_eqb (e_ty a) t && ty_eqb (e_ty b) t &&
          wt_expr f P g c && wt_expr f P g a && wt_expr f P g b
      | ECast to e1 => ty_eqb to t && (is_int t || is_bool t) && (is_int (e_ty e1) || is_bool (e_ty e1)) && wt_expr f P g e1
      | ERange lo hi bits =>
          (lo <=? hi) && ty_eqb t (TArr (TInt false bits) (hi - lo))
      end
    end
  end

(* returns the type of the block (type of a final expression statement, else unit) *)
with wt_block (fuel : nat) (P : program) (g : tenv) (b : list stmt) {struct fuel} : option ty :=
  match fuel with
  | O => None
  | S f =>
      (fix go (ss : list stmt) (g : tenv) (last : ty) : option ty :=
         match ss with
         | [] => Some last
         | s :: r =>
             match wt_stmt f P g s with
             | Some (g', t) => go r g' t
             | None => None
             end
         end) b g unit_ty
  end

with wt_stmt (fuel : nat) (P : program) (g : tenv) (s : stmt) {struct fuel} : option (tenv * ty) :=
  match fuel with
  | O => None
  | S f =>
    match s with
    | St si _ =>
      match si with
      | SLet p e =>
          if wt_expr f P g e && ty_eqb (p_ty p) (e_ty e) then
            match wt_pat P p with
            | Some bs => Some (tbind_all g bs false, unit_ty)
            | None => None
            end
          else None
      | SLetMut x e =>
          if wt_expr f P g e then Some (tbind g x (e_ty e) true, unit_ty) else None
      | SAssign x accs e =>
          match tlookup g x with
          | Some (tx, true) =>
              let final := (fix go (accs : list accessor) (cur : ty) : option ty :=
                 match accs with
                 | [] => Some cur
                 | AIdx aty i :: r =>
                     match cur with
                     | TArr el _ =>
                         if ty_eqb aty cur && is_unsigned (e_ty i) && wt_expr f P g i then go r el else None
                     | _ => None
                     end
                 | ATup tty i :: r =>
                     match cur with
                     | TTup ts =>
                         if ty_eqb tty cur then
                           match nthN ts i with Some ti => go r ti | None => None end
                         else None
                     | _ => None
                     end
                 | AFld sty fld :: r =>
                     match cur with
                     | TStruct name =>
                         if ty_eqb sty cur then
                           match assocN name (p_structs P) with
                           | Some def => match assocN fld def with Some ft => go r ft | None => None end
                           | None => None
                           end
                         else None
                     | _ => None
                     end
                 end) accs tx in
              match final with
              | Some tf => if ty_eqb tf (e_ty e) && wt_expr f P g e then Some (g, unit_ty) else None
              | None => None
              end
          | _ => None           (* unknown or immutable *)
          end
      | SFor p arr body =>
          match e_ty arr with
          | TArr el _ =>
              if wt_expr f P g arr && ty_eqb (p_ty p) el then
                match wt_pat P p with
                | Some bs =>
                    match wt_block f P (tbind_all ([] :: g) bs false) body with
                    | Some _ => Some (g, unit_ty)
                    | None => None
                    end
                | None => None
                end
              else None
          | _ => None
          end
      | SJoinLoop p _ a b body =>
          (* both operands are arrays and the pattern has the type of a pair of their
             elements (check.rs: elem_ty = Tuple [elem_a, elem_b]) *)
          match e_ty a, e_ty b with
          | TArr ta _, TArr tb _ =>
              if wt_expr f P g a && wt_expr f P g b && ty_eqb (p_ty p) (TTup [ta; tb]) then
                match wt_pat P p with
                | Some bs =>
                    match wt_block f P (tbind_all ([] :: g) bs false) body with
                    | Some _ => Some (g, unit_ty)
                    | None => None
                    end
                | None => None
                end
              else None
          | _, _ => None
          end
      | SExpr e => if wt_expr f P g e then Some (g, e_ty e) else None
      end
    end
  end.

Definition wt_fuel : nat := 400.

(* the scopes are built exactly as Sem.v builds them at run time ([tbind_all] mirrors
   [Sem.bind_all]: a later binding of the same name shadows an earlier one) *)
Definition wt_fn (P : program) (gc : tenv) (d : fndef) : bool :=
  let g := tbind_all ([] :: gc) (fn_params d) true in
  match wt_block wt_fuel P ([] :: g) (fn_body d) with
  | Some t => ty_eqb t (fn_ret d)
  | None => false
  end.

(* global constants are literals (the exporter substitutes computed constants, C12) *)
Definition is_lit (e : expr) : bool :=
  match e with
  | Ex ETrue _ _ | Ex EFalse _ _ | Ex (ENumU _ _) _ _ | Ex (ENumS _ _) _ _ => true
  | _ => false
  end.

Definition consts_tenv (P : program) : tenv :=
  tbind_all [[]] (map (fun c => (fst c, e_ty (snd c))) (p_consts P)) false.

Definition wt_program (P : program) : bool :=
  forallb (fun c => is_lit (snd c) && wt_expr wt_fuel P [] (snd c)) (p_consts P) &&
  forallb (wt_fn P (consts_tenv P)) (p_fns P).
