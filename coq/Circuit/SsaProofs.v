(* C16 for SSA circuits: validate accepts => eval on inputs of the declared shape does not
   panic and returns one bit per declared output. *)
From GV Require Import Base.Util Circuit.Ssa.

Lemma leb_true a b : a <= b -> (a <=? b) = true.
Proof. apply N.leb_le. Qed.
Lemma leb_false a b : b < a -> (a <=? b) = false.
Proof. apply N.leb_gt. Qed.
Lemma ltb_true a b : a < b -> (a <? b) = true.
Proof. apply N.ltb_lt. Qed.
Lemma ltb_false a b : b <= a -> (a <? b) = false.
Proof. apply N.ltb_ge. Qed.

Lemma mapM_ext_in {A B} (f g : A -> option B) l :
  (forall a, In a l -> f a = g a) -> mapM f l = mapM g l.
Proof.
  induction l as [|a r IH]; intro H; cbn [mapM]; [reflexivity|].
  rewrite (H a (or_introl eq_refl)), IH by (intros; apply H; now right). reflexivity.
Qed.

Lemma load_inputs_Some ig ins : shape_ok ig ins <-> exists v, load_inputs ig ins = Some v.
Proof.
  unfold shape_ok. revert ins. induction ig as [|n ig IH]; intros [|bits ins]; cbn [load_inputs].
  - split; [eauto|constructor].
  - split; [inversion 1|intros [v [=]]].
  - split; [inversion 1|intros [v [=]]].
  - split.
    + inversion 1 as [|? ? ? ? Hn Hr]; subst. apply IH in Hr. destruct Hr as [v ->].
      rewrite N.eqb_refl. eauto.
    + destruct (N.eqb_spec (lenN bits) n) as [Hn|]; [|intros [v [=]]].
      destruct (load_inputs ig ins) eqn:E; [|intros [v [=]]].
      intros _. constructor; [exact Hn|]. apply IH. eauto.
Qed.

Lemma load_inputs_len ig ins v0 : load_inputs ig ins = Some v0 -> lenN v0 = sumN ig.
Proof.
  revert ins v0. induction ig as [|n ig IH]; intros [|bits ins] v0; cbn [load_inputs sumN];
    try discriminate.
  - intros [= <-]. reflexivity.
  - destruct (lenN bits =? n) eqn:E; [|discriminate].
    destruct (load_inputs ig ins) eqn:L; [|discriminate]. intros [= <-].
    rewrite lenN_app. apply N.eqb_eq in E. rewrite (IH _ _ L). lia.
Qed.

Definition gate_ops (g : gate) : list N :=
  match g with GXor a b | GAnd a b => [a; b] | GNot a => [a] end.

Lemma gate_ok_ops i g : gate_ok i g = true <-> forall w, In w (gate_ops g) -> w < i.
Proof.
  destruct g; cbn [gate_ok gate_ops In]; rewrite negb_true_iff, ?orb_false_iff, !N.leb_gt;
    intuition (subst; auto).
Qed.

Lemma gate_ok_eval i g vals :
  gate_ok i g = true -> lenN vals = i -> exists b, eval_gate vals g = Some b.
Proof.
  intros Hok <-.
  assert (H : forall w, In w (gate_ops g) -> exists a, nthN vals w = Some a).
  { intros w Hw. apply nthN_Some, (proj1 (gate_ok_ops _ _) Hok w Hw). }
  destruct g as [x y|x y|x]; cbn [eval_gate gate_ops In] in *;
    destruct (H x) as [a ->]; auto; try (destruct (H y) as [b ->]; auto); eauto.
Qed.

Lemma eval_gates_app l1 : forall v l2,
  eval_gates v (l1 ++ l2) = match eval_gates v l1 with Some v1 => eval_gates v1 l2 | None => None end.
Proof.
  induction l1 as [|g r IH]; intros v l2; cbn [app eval_gates]; [reflexivity|].
  destruct (eval_gate v g); [apply IH|reflexivity].
Qed.

Lemma validate_gates_app l1 : forall i l2,
  validate_gates i (l1 ++ l2) =
  match validate_gates i l1 with Some e => Some e | None => validate_gates (i + lenN l1) l2 end.
Proof.
  induction l1 as [|g r IH]; intros i l2; cbn [app validate_gates].
  - now rewrite lenN_nil, N.add_0_r.
  - destruct (gate_ok i g); [|reflexivity]. rewrite IH, lenN_cons.
    replace (i + 1 + lenN r) with (i + (1 + lenN r)) by lia. reflexivity.
Qed.

Lemma validate_gates_eval gs : forall vals,
  validate_gates (lenN vals) gs = None ->
  exists vals', eval_gates vals gs = Some vals' /\ lenN vals' = lenN vals + lenN gs.
Proof.
  induction gs as [|g r IH]; intros vals H; cbn [validate_gates eval_gates] in *.
  - exists vals. split; [reflexivity|]. rewrite lenN_nil. lia.
  - destruct (gate_ok (lenN vals) g) eqn:Hok; [|discriminate].
    destruct (gate_ok_eval _ _ vals Hok eq_refl) as [b ->].
    destruct (IH (vals ++ [b])) as (vals' & Hev & Hlen).
    + rewrite lenN_app, lenN_cons, lenN_nil. now rewrite N.add_0_r.
    + exists vals'. split; [exact Hev|]. rewrite Hlen, lenN_app, !lenN_cons, lenN_nil. lia.
Qed.

Lemma eval_gates_len gs : forall vals vals',
  eval_gates vals gs = Some vals' -> lenN vals' = lenN vals + lenN gs.
Proof.
  induction gs as [|g r IH]; intros vals vals'; cbn [eval_gates].
  - intros [= <-]. rewrite lenN_nil. lia.
  - destruct (eval_gate vals g); [|discriminate]. intro H. apply IH in H.
    rewrite H, lenN_app, !lenN_cons, lenN_nil. lia.
Qed.

Lemma validate_outputs_None n os :
  validate_outputs n os = None <-> Forall (fun o => o < n) os.
Proof.
  induction os as [|o r IH]; cbn [validate_outputs]; [now split|].
  rewrite Forall_cons_iff, <- IH. destruct (N.leb_spec n o); [|tauto].
  split; [discriminate|lia].
Qed.

Lemma ssa_validate_None c :
  ssa_validate c = None <->
  input_gates c <> [] /\ validate_gates (num_inputs c) (gates c) = None /\
  output_gates c <> [] /\ Forall (fun o => o < wires_len c) (output_gates c) /\
  wires_len c + num_inputs c <= MAX_GATES.
Proof.
  unfold ssa_validate. rewrite <- validate_outputs_None.
  destruct (input_gates c), (validate_gates _ (gates c)), (output_gates c) eqn:Eo;
    cbn [is_nil andb forallb]; try (split; [discriminate|intuition congruence]).
  rewrite <- Eo. destruct (validate_outputs _ _); [split; [discriminate|intuition congruence]|].
  destruct (N.ltb_spec MAX_GATES (wires_len c + num_inputs c));
    [split; [discriminate|lia]|intuition congruence].
Qed.

Theorem ssa_validate_safe c ins :
  ssa_validate c = None -> shape_ok (input_gates c) ins ->
  exists out, ssa_eval c ins = Some out /\ length out = length (output_gates c).
Proof.
  unfold ssa_eval, ssa_wire_vals. intros (_ & Hg & _ & Ho & _)%ssa_validate_None Hs.
  destruct (proj1 (load_inputs_Some _ _) Hs) as (v0 & Hl). rewrite Hl.
  pose proof (load_inputs_len _ _ _ Hl) as Hlen.
  unfold num_inputs in Hg. rewrite <- Hlen in Hg.
  destruct (validate_gates_eval _ _ Hg) as (vals & -> & Hvl).
  destruct (mapM_all (nthN vals) (output_gates c)) as [out Hout].
  - intros o Hin. apply nthN_Some. rewrite Forall_forall in Ho. apply Ho in Hin.
    unfold wires_len, num_inputs in Hin. lia.
  - exists out. split; [exact Hout|]. eapply mapM_length; eauto.
Qed.

(* non-vacuity: a circuit that validates, with inputs of its shape *)
Example ssa_validate_safe_example :
  let c := mkCircuit [1; 2] [GXor 0 1; GAnd 0 2; GXor 3 4; GNot 5] [5; 6; 0] in
  ssa_validate c = None /\ shape_ok (input_gates c) [[true]; [false; true]] /\
  ssa_eval c [[true]; [false; true]] = Some [false; true; true].
Proof.
  split; [reflexivity|]. split; [|reflexivity].
  repeat constructor.
Qed.
