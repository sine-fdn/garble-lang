(* Proofs about the Bristol model (C11): the importer is total, the exporter writes
   well-formed Bristol, and import (export c) computes the non-panic outputs of c. *)
From GV Require Import Base.Util Base.ListFacts Circuit.Ssa Circuit.SsaProofs Circuit.Bristol.

Lemma nthN_cons_0 {A} (a : A) l : nthN (a :: l) 0 = Some a.
Proof. rewrite nthN_spec. reflexivity. Qed.

Lemma nthN_cons_succ {A} (a : A) l k : nthN (a :: l) (k + 1) = nthN l k.
Proof.
  rewrite !nthN_spec. replace (N.to_nat (k + 1)) with (S (N.to_nat k)) by lia. reflexivity.
Qed.

Lemma nthN_cons {A} (a : A) l k :
  nthN (a :: l) k = if k =? 0 then Some a else nthN l (k - 1).
Proof.
  destruct (N.eqb_spec k 0) as [->|H]; [apply nthN_cons_0|].
  replace k with (k - 1 + 1) at 1 by lia. apply nthN_cons_succ.
Qed.

Lemma nthN_nil {A} k : nthN (@nil A) k = None.
Proof. rewrite nthN_spec. now destruct (N.to_nat k). Qed.

Lemma validate_gates_nth gs : forall i k g,
  validate_gates i gs = None -> nthN gs k = Some g -> gate_ok (i + k) g = true.
Proof.
  induction gs as [|g0 r IH]; intros i k g Hv Hk; [now rewrite nthN_nil in Hk|].
  cbn [validate_gates] in Hv. destruct (gate_ok i g0) eqn:Hok; [|discriminate].
  rewrite nthN_cons in Hk. destruct (N.eqb_spec k 0) as [->|Hk0].
  - injection Hk as <-. now rewrite N.add_0_r.
  - replace (i + k) with (i + 1 + (k - 1)) by lia. now apply IH.
Qed.

(* The importer never panics, and its one fuelled loop never runs out of fuel. *)

Definition safe {A} (r : res A) : Prop := exists a, r = Ok a.

Lemma safe_not_crash {A} (r : res A) : safe r -> r <> Crash /\ r <> OutOfFuel.
Proof. intros [a ->]. split; discriminate. Qed.

Lemma safe_ebind {A B} (r : ires A) (f : A -> ires B) :
  safe r -> (forall a, safe (f a)) -> safe (ebind r f).
Proof.
  intros [[a|e] ->] Hf; cbn [ebind]; [apply Hf|]. eexists; reflexivity.
Qed.

Lemma safe_ret {A} (a : A) : safe (ret a).
Proof. eexists; reflexivity. Qed.

Lemma safe_fail {A} e : safe (@fail A e).
Proof. eexists; reflexivity. Qed.

Lemma safe_parse_line o : safe (parse_line o).
Proof.
  destruct o as [l|]; cbn [parse_line]; [|apply safe_fail].
  destruct (mapM tok_num l); [apply safe_ret|apply safe_fail].
Qed.

Lemma cadd_ok a b : a + b <= USIZE_MAX -> cadd a b = Ok (a + b).
Proof. intro H. unfold cadd. now rewrite leb_true. Qed.
Lemma csub_ok a b : b <= a -> csub a b = Ok (a - b).
Proof. intro H. unfold csub. now rewrite leb_true. Qed.
Lemma csum_ok l : sumN l <= USIZE_MAX -> csum l = Ok (sumN l).
Proof. intro H. unfold csum. now rewrite leb_true. Qed.
Lemma alloc_ok lim n : n <= lim -> alloc lim n = Ok tt.
Proof. intro H. unfold alloc. now rewrite leb_true. Qed.
Lemma checked_add_Some a b : a + b <= USIZE_MAX -> checked_add a b = Some (a + b).
Proof. intro H. unfold checked_add. now rewrite leb_true. Qed.
Lemma checked_sum_Some l : sumN l <= USIZE_MAX -> checked_sum l = Some (sumN l).
Proof. intro H. unfold checked_sum. now rewrite leb_true. Qed.

Lemma slice_ok {A} (l : list A) a b : a <= b -> b <= lenN l -> exists r, slice l a b = Ok r.
Proof. intros H1 H2. unfold slice. rewrite !leb_true by assumption. cbn [andb]. eauto. Qed.

Lemma safe_parse_gate_line l : safe (parse_gate_line l).
Proof.
  unfold parse_gate_line.
  destruct (is_nil l); [apply safe_ret|].
  destruct (N.ltb_spec (lenN l) 5) as [H5|H5]; [apply safe_fail|].
  destruct (nthN_Some l 0) as [t0 ->]; [lia|]. cbn [of_option bind].
  destruct (tok_num t0) as [ni|]; [|apply safe_fail].
  destruct (nthN_Some l 1) as [t1 ->]; [lia|]. cbn [of_option bind].
  destruct (tok_num t1) as [no|]; [|apply safe_fail].
  destruct (negb (no =? 1)); [apply safe_fail|].
  unfold checked_add.
  destruct (N.leb_spec (ni + 4) USIZE_MAX) as [Hle|Hgt]; [|apply safe_fail].
  destruct (N.eqb_spec (ni + 4) (lenN l)) as [Heq|Hne]; cbn [negb]; [|apply safe_fail].
  rewrite cadd_ok by lia. cbn [bind].
  destruct (slice_ok l 2 (2 + ni)) as [sl ->]; [lia|lia|]. cbn [bind].
  destruct (mapM tok_num sl); [|apply safe_fail].
  destruct (nthN_Some l (2 + ni)) as [t ->]; [lia|]. cbn [of_option bind].
  destruct (tok_num t); [apply safe_ret|apply safe_fail].
Qed.

Lemma safe_imp_step wn niw l ins o wmap next : safe (imp_step wn niw l ins o wmap next).
Proof.
  unfold imp_step.
  destruct (find _ ins); [apply safe_fail|].
  destruct (wn <=? o); [apply safe_fail|].
  destruct (last_opt l) as [gt|]; [|apply safe_fail].
  destruct (checked_add next 1) as [nx|]; [|apply safe_fail].
  destruct gt as [tn|[| | |]]; try apply safe_fail;
    destruct ins as [|a [|b [|c r]]]; try apply safe_fail; apply safe_ret.
Qed.

Lemma safe_imp_gates wn niw ls : forall wmap next, safe (imp_gates wn niw ls wmap next).
Proof.
  induction ls as [|l r IH]; intros wmap next; cbn [imp_gates]; [apply safe_ret|].
  apply safe_ebind; [apply safe_parse_gate_line|].
  intros [[ins o]|]; [|apply IH].
  apply safe_ebind; [apply safe_imp_step|].
  intros [[g wmap'] next'].
  apply safe_ebind; [apply IH|].
  intros [gs wm]. apply safe_ret.
Qed.

Lemma wfind_in w m g : wfind w m = Some g -> In w (map fst m).
Proof.
  induction m as [|[k v] r IH]; cbn [wfind map fst]; [discriminate|].
  destruct (N.eqb_spec k w) as [->|Hne]; [now left|]. intro H. right. now apply IH.
Qed.

Lemma filter_length_mono {A} (p q : A -> bool) l :
  (forall x, p x = true -> q x = true) -> (length (filter p l) <= length (filter q l))%nat.
Proof.
  intro Hpq. induction l as [|x r IH]; cbn [filter]; [lia|].
  destruct (p x) eqn:Ep; [rewrite (Hpq _ Ep)|destruct (q x)]; cbn [length]; lia.
Qed.

Lemma filter_length_lt {A} (p q : A -> bool) (a : A) l :
  (forall x, p x = true -> q x = true) -> In a l -> q a = true -> p a = false ->
  (length (filter p l) < length (filter q l))%nat.
Proof.
  intros Hpq Hin Hqa Hpa. induction l as [|x r IH]; [destruct Hin|]. cbn [filter].
  destruct Hin as [->|Hin].
  - rewrite Hpa, Hqa. cbn [length]. pose proof (filter_length_mono p q r Hpq). lia.
  - specialize (IH Hin).
    destruct (p x) eqn:Ep; [rewrite (Hpq _ Ep)|destruct (q x)]; cbn [length]; lia.
Qed.

Lemma filter_length_le' {A} (p : A -> bool) l : (length (filter p l) <= length l)%nat.
Proof.
  induction l as [|x r IH]; cbn [filter length]; [lia|].
  destruct (p x); cbn [length]; lia.
Qed.

(* fuel adequacy of the output loop: every successful step finds a distinct key *)
Lemma safe_collect_outs wn wmap : forall fuel w,
  (length (filter (fun k => (w <=? k)%N) (map fst wmap)) < fuel)%nat ->
  safe (collect_outs fuel w wn wmap).
Proof.
  induction fuel as [|f IH]; intros w Hlt; [lia|].
  cbn [collect_outs].
  destruct (w <? wn); [|apply safe_ret].
  destruct (wfind w wmap) as [g|] eqn:Ef; [|apply safe_fail].
  apply safe_ebind; [|intros; apply safe_ret].
  apply IH.
  assert (Hl : (length (filter (fun k => (w + 1 <=? k)%N) (map fst wmap)) <
                length (filter (fun k => (w <=? k)%N) (map fst wmap)))%nat).
  { apply filter_length_lt with (a := w).
    - intros x Hx. apply N.leb_le in Hx. apply N.leb_le. lia.
    - eapply wfind_in; eauto.
    - apply N.leb_le. lia.
    - apply N.leb_gt. lia. }
  lia.
Qed.

(* the header is read without a panic; its check num_output_wires <= wires_num is what makes
   the subtraction in imp_body safe *)
Definition header_ok (r : ires (N * list N * N * N * list line)) : Prop :=
  exists v, r = Ok v /\ match v with inl (wn, _, _, now, _) => now <= wn | inr _ => True end.

Lemma header_ok_fail e : header_ok (fail e).
Proof. now eexists. Qed.

Lemma imp_header_spec ls : header_ok (imp_header ls).
Proof.
  unfold imp_header.
  destruct (next_line ls) as [l1 ls1].
  destruct (safe_parse_line l1) as [[[parts1 s1]|e] ->]; cbn [ebind]; [|apply header_ok_fail].
  destruct (N.eqb_spec (lenN parts1) 2) as [H1|H1]; cbn [negb]; [|apply header_ok_fail].
  destruct (nthN_Some parts1 1) as [wn ->]; [lia|]. cbn [of_option bind].
  destruct (nthN_Some parts1 0) as [gn ->]; [lia|]. cbn [of_option bind].
  destruct (next_line ls1) as [l2 ls2].
  destruct (safe_parse_line l2) as [[[parts2 s2]|e] ->]; cbn [ebind]; [|apply header_ok_fail].
  destruct (N.ltb_spec (lenN parts2) 2) as [H2|H2]; [apply header_ok_fail|].
  destruct (slice_ok parts2 1 (lenN parts2)) as [ig ->]; [lia|lia|]. cbn [bind].
  destruct (nthN_Some parts2 0) as [ep ->]; [lia|]. cbn [of_option bind].
  destruct (negb (lenN ig =? ep)); [apply header_ok_fail|].
  destruct (checked_sum ig) as [niw|]; [|apply header_ok_fail].
  destruct (next_line ls2) as [l3 ls3].
  destruct (safe_parse_line l3) as [[[parts3 s3]|e] ->]; cbn [ebind]; [|apply header_ok_fail].
  destruct (N.ltb_spec (lenN parts3) 2) as [H3|H3]; [apply header_ok_fail|].
  destruct (nthN_Some parts3 0) as [no ->]; [lia|]. cbn [of_option bind].
  destruct (slice_ok parts3 1 (lenN parts3)) as [gpo ->]; [lia|lia|]. cbn [bind].
  destruct (negb (lenN gpo =? no)); [apply header_ok_fail|].
  destruct (checked_sum gpo) as [now|]; [|apply header_ok_fail].
  destruct (N.ltb_spec wn now) as [Hlt|Hge]; [apply header_ok_fail|].
  eexists. split; [reflexivity|exact Hge].
Qed.

Theorem import_safe ls : safe (import ls).
Proof.
  unfold import.
  destruct (imp_header_spec ls) as ([[[[[wn ig] niw] now] rest]|e] & -> & Hle); cbn [ebind];
    [|apply safe_fail].
  unfold imp_body. rewrite csub_ok by exact Hle. cbn [bind].
  apply safe_ebind; [apply safe_imp_gates|]. intros [gates wmap].
  apply safe_ebind; [|intros; apply safe_ret].
  apply safe_collect_outs.
  pose proof (filter_length_le' (fun k => wn - now <=? k) (map fst wmap)) as Hf.
  rewrite map_length in Hf. lia.
Qed.

Theorem import_total ls : import ls <> Crash /\ import ls <> OutOfFuel.
Proof. apply safe_not_crash, import_safe. Qed.

Lemma In_nthN {A} (l : list A) a : In a l -> exists k, nthN l k = Some a.
Proof.
  intro H. destruct (In_nth_error _ _ H) as [n Hn]. exists (N.of_nat n).
  rewrite nthN_spec, Nat2N.id. exact Hn.
Qed.

Lemma nseq_length n : forall a, length (nseq n a) = n.
Proof. induction n as [|n IH]; intro a; cbn [nseq length]; [reflexivity|now rewrite IH]. Qed.

Lemma nseq_in n : forall a x, In x (nseq n a) <-> a <= x < a + N.of_nat n.
Proof.
  induction n as [|n IH]; intros a x; cbn [nseq In]; [lia|].
  rewrite IH. lia.
Qed.

Lemma nseq_nodup n : forall a, NoDup (nseq n a).
Proof.
  induction n as [|n IH]; intro a; cbn [nseq]; constructor; [|apply IH].
  rewrite nseq_in. lia.
Qed.

(* pigeonhole: distinct numbers inside [a, b) are at most b - a *)
Lemma pigeon (l : list N) a b :
  NoDup l -> (forall x, In x l -> a <= x < b) -> lenN l <= b - a.
Proof.
  intros Hnd Hr.
  assert (Hincl : incl l (nseq (N.to_nat (b - a)) a)).
  { intros x Hx. apply nseq_in. specialize (Hr x Hx). lia. }
  pose proof (NoDup_incl_length Hnd Hincl) as Hlen.
  rewrite nseq_length in Hlen. unfold lenN. lia.
Qed.

Lemma pos_last_nth l x : forall k, pos_last l x = Some k -> nthN l k = Some x.
Proof.
  induction l as [|y r IH]; intros k; cbn [pos_last]; [discriminate|].
  destruct (pos_last r x) as [k'|].
  - intros [= <-]. rewrite nthN_cons_succ. now apply IH.
  - destruct (N.eqb_spec y x) as [->|Hne]; [|discriminate]. intros [= <-]. apply nthN_cons_0.
Qed.

Lemma pos_last_none l x : pos_last l x = None -> ~ In x l.
Proof.
  induction l as [|y r IH]; cbn [pos_last]; [intros _ []|].
  destruct (pos_last r x) as [k'|]; [discriminate|].
  destruct (N.eqb_spec y x) as [->|Hne]; [discriminate|].
  intros _ [H|H]; [congruence|]. now apply IH.
Qed.

Lemma pos_last_in l x : In x l -> exists k, pos_last l x = Some k.
Proof.
  intro H. destruct (pos_last l x) as [k|] eqn:E; [eauto|].
  exfalso. eapply pos_last_none; eauto.
Qed.

Lemma pos_last_unique l : NoDup l -> forall k x, nthN l k = Some x -> pos_last l x = Some k.
Proof.
  induction 1 as [|y r Hy Hnd IH]; intros k x Hk; [now rewrite nthN_nil in Hk|].
  cbn [pos_last]. rewrite nthN_cons in Hk. destruct (N.eqb_spec k 0) as [->|Hk0].
  - injection Hk as <-. destruct (pos_last r y) as [k'|] eqn:E.
    + exfalso. apply Hy. eapply nthN_In, pos_last_nth; eauto.
    + now rewrite N.eqb_refl.
  - rewrite (IH _ _ Hk). f_equal. lia.
Qed.

Definition cntlt (O : list N) (i : N) : N := lenN (filter (fun o => o <? i) O).

Lemma cntlt_nil i : cntlt [] i = 0.
Proof. reflexivity. Qed.

Lemma cntlt_cons o O i : cntlt (o :: O) i = (if o <? i then 1 else 0) + cntlt O i.
Proof.
  unfold cntlt. cbn [filter]. destruct (o <? i); [rewrite lenN_cons|]; lia.
Qed.

Lemma cntlt_succ_notin O i : ~ In i O -> cntlt O (i + 1) = cntlt O i.
Proof.
  induction O as [|o r IH]; intro Hn; [reflexivity|].
  rewrite !cntlt_cons, IH by (intro; apply Hn; now right).
  assert (o <> i) by (intro; apply Hn; now left).
  destruct (N.ltb_spec o (i + 1)), (N.ltb_spec o i); lia.
Qed.

Lemma cntlt_succ_in O i : NoDup O -> In i O -> cntlt O (i + 1) = cntlt O i + 1.
Proof.
  induction 1 as [|o r Ho Hnd IH]; intro Hin; [destruct Hin|].
  rewrite !cntlt_cons. destruct Hin as [->|Hin].
  - rewrite cntlt_succ_notin by exact Ho.
    destruct (N.ltb_spec i (i + 1)), (N.ltb_spec i i); lia.
  - rewrite IH by exact Hin. assert (o <> i) by congruence.
    destruct (N.ltb_spec o (i + 1)), (N.ltb_spec o i); lia.
Qed.

Lemma cntlt_split O i j :
  i <= j -> cntlt O j = cntlt O i + lenN (filter (fun o => (i <=? o) && (o <? j)) O).
Proof.
  intro Hij. induction O as [|o r IH]; [reflexivity|].
  rewrite !cntlt_cons, IH. cbn [filter].
  destruct (N.ltb_spec o j), (N.ltb_spec o i), (N.leb_spec i o); cbn [andb];
    try rewrite lenN_cons; lia.
Qed.

Lemma cntlt_all O t : (forall o, In o O -> o < t) -> cntlt O t = lenN O.
Proof.
  induction O as [|o r IH]; intro H; [reflexivity|].
  rewrite cntlt_cons, lenN_cons, IH by (intros; apply H; now right).
  rewrite ltb_true by (apply H; now left). lia.
Qed.

Lemma nseq_nth n : forall a k, (k < n)%nat -> nth_error (nseq n a) k = Some (a + N.of_nat k).
Proof.
  induction n as [|n IH]; intros a k Hk; [lia|]. cbn [nseq].
  destruct k as [|k]; cbn [nth_error]; [f_equal; lia|].
  rewrite IH by lia. f_equal. lia.
Qed.

Lemma mapM_tok_num_map l : mapM tok_num (map TNum l) = Some l.
Proof.
  induction l as [|a r IH]; cbn [map mapM tok_num]; [reflexivity|now rewrite IH].
Qed.

Lemma mapM_skipn {A B} (f : A -> option B) k : forall l bs,
  mapM f l = Some bs -> mapM f (skipn k l) = Some (skipn k bs).
Proof.
  induction k as [|k IH]; intros l bs H; [exact H|].
  destruct l as [|a r]; cbn [mapM] in H.
  - injection H as <-. reflexivity.
  - destruct (f a); [|discriminate]. destruct (mapM f r) eqn:E; [|discriminate].
    injection H as <-. cbn [skipn]. now apply IH.
Qed.

Lemma mapM_nseq_outs {B} (g h : N -> option B) : forall os a,
  (forall k o, nthN os k = Some o -> g (a + k) = h o) ->
  mapM g (nseq (length os) a) = mapM h os.
Proof.
  induction os as [|o r IH]; intros a H; cbn [length nseq mapM]; [reflexivity|].
  rewrite <- (H 0 o (nthN_cons_0 o r)), N.add_0_r.
  rewrite (IH (a + 1)); [reflexivity|].
  intros k o' Hk. replace (a + 1 + k) with (a + (k + 1)) by lia. apply H.
  now rewrite nthN_cons_succ.
Qed.

Lemma NoDup_map_inj_on {A B} (f : A -> B) l :
  NoDup l -> (forall a b, In a l -> In b l -> f a = f b -> a = b) -> NoDup (map f l).
Proof.
  induction 1 as [|x r Hx Hnd IH]; intro Hinj; cbn [map]; constructor.
  - intro Hin. apply in_map_iff in Hin. destruct Hin as (y & Hy & Hyr).
    assert (y = x) by (apply Hinj; [now right|now left|exact Hy]). now subst.
  - apply IH. intros a b Ha Hb. apply Hinj; now right.
Qed.

Lemma In_skipn {A} (a : A) n l : In a (skipn n l) -> In a l.
Proof. intro H. rewrite <- (firstn_skipn n l). apply in_or_app. now right. Qed.

Lemma existsb_false_all {A} (p : A -> bool) l :
  (forall a, In a l -> p a = false) -> existsb p l = false.
Proof.
  induction l as [|a r IH]; intro H; cbn [existsb]; [reflexivity|].
  rewrite (H a (or_introl eq_refl)), IH by (intros; apply H; now right). reflexivity.
Qed.

(* The exporter's wire renumbering in closed form, its range and injectivity. *)

Record renaming (n_in tw : N) (f : N -> N) : Prop := {
  ren_in : forall i, i < n_in -> f i = i;
  ren_range : forall i, n_in <= i < tw -> n_in <= f i < tw;
  ren_inj : forall i j, i < tw -> j < tw -> f i = f j -> i = j }.

Lemma ren_lt n_in tw f : renaming n_in tw f -> forall x, x < tw -> f x < tw.
Proof.
  intros Hf x H. destruct (N.ltb_spec x n_in) as [Hl|Hg]; [rewrite (ren_in _ _ _ Hf); lia|].
  apply (ren_range _ _ _ Hf). lia.
Qed.

Section WMF.
  Variables (n_in tw : N) (O : list N).
  Hypothesis HND : NoDup O.
  Hypothesis HR : forall o, In o O -> n_in <= o < tw.

  Definition wmf (i : N) : N :=
    if i <? n_in then i else
    match pos_last O i with
    | Some idx => tw - lenN O + idx
    | None => i - cntlt O i
    end.

  Lemma outs_le : lenN O <= tw - n_in.
  Proof. apply pigeon; assumption. Qed.

  Lemma cnt_le i : cntlt O i <= i - n_in.
  Proof.
    unfold cntlt. apply pigeon; [apply NoDup_filter; exact HND|].
    intros x Hx. apply filter_In in Hx. destruct Hx as [Hx Hlt].
    apply N.ltb_lt in Hlt. specialize (HR x Hx). lia.
  Qed.

  Lemma between_le i j : ~ In i O ->
    lenN (filter (fun o => (i <=? o) && (o <? j)) O) <= j - (i + 1).
  Proof.
    intro Hni. apply pigeon; [apply NoDup_filter; exact HND|].
    intros x Hx. apply filter_In in Hx. destruct Hx as [Hx Hb].
    apply andb_true_iff in Hb. destruct Hb as [H1 H2].
    apply N.leb_le in H1. apply N.ltb_lt in H2.
    assert (x <> i) by (intros ->; now apply Hni). lia.
  Qed.

  Lemma nonout_ub i : n_in <= i < tw -> ~ In i O -> i - cntlt O i < tw - lenN O.
  Proof.
    intros Hi Hni.
    pose proof (cntlt_split O i tw ltac:(lia)) as Hs.
    rewrite (cntlt_all O tw) in Hs by (intros o Ho; specialize (HR o Ho); lia).
    pose proof (between_le i tw Hni). pose proof (cnt_le i). pose proof outs_le. lia.
  Qed.

  Lemma wmf_in i : i < n_in -> wmf i = i.
  Proof. intro H. unfold wmf. now rewrite ltb_true. Qed.

  Lemma wmf_range i : n_in <= i < tw -> n_in <= wmf i < tw.
  Proof.
    intro Hi. unfold wmf. rewrite ltb_false by lia.
    pose proof outs_le.
    destruct (pos_last O i) as [idx|] eqn:E.
    - apply pos_last_nth, nthN_lt in E. lia.
    - apply pos_last_none in E. pose proof (nonout_ub i Hi E). pose proof (cnt_le i). lia.
  Qed.

  Lemma wmf_out idx o : nthN O idx = Some o -> wmf o = tw - lenN O + idx.
  Proof.
    intro H. unfold wmf. pose proof (HR o (nthN_In _ _ _ H)).
    rewrite ltb_false by lia. now rewrite (pos_last_unique O HND idx o H).
  Qed.

  Lemma wmf_lt_nonout i j : n_in <= i -> i < j -> j < tw -> ~ In i O -> ~ In j O ->
    i - cntlt O i < j - cntlt O j.
  Proof.
    intros Hi Hij Hj Hni Hnj.
    pose proof (cntlt_split O i j ltac:(lia)) as Hs.
    pose proof (between_le i j Hni). pose proof (cnt_le i). pose proof (cnt_le j). lia.
  Qed.

  Lemma wmf_inj i j : n_in <= i < tw -> n_in <= j < tw -> wmf i = wmf j -> i = j.
  Proof.
    intros Hi Hj. unfold wmf. rewrite !ltb_false by lia.
    pose proof outs_le.
    destruct (pos_last O i) as [a|] eqn:Ea, (pos_last O j) as [b|] eqn:Eb; intro Heq.
    - pose proof (pos_last_nth _ _ _ Ea) as Ha. pose proof (pos_last_nth _ _ _ Eb) as Hb.
      pose proof (nthN_lt _ _ _ Ha). pose proof (nthN_lt _ _ _ Hb).
      assert (a = b) by lia. subst b. congruence.
    - apply pos_last_none in Eb. pose proof (nonout_ub j Hj Eb).
      apply pos_last_nth, nthN_lt in Ea. lia.
    - apply pos_last_none in Ea. pose proof (nonout_ub i Hi Ea).
      apply pos_last_nth, nthN_lt in Eb. lia.
    - apply pos_last_none in Ea. apply pos_last_none in Eb.
      destruct (N.lt_trichotomy i j) as [Hlt|[Heq'|Hgt]]; [|exact Heq'|].
      + pose proof (wmf_lt_nonout i j ltac:(lia) Hlt ltac:(lia) Ea Eb). lia.
      + pose proof (wmf_lt_nonout j i ltac:(lia) Hgt ltac:(lia) Eb Ea). lia.
  Qed.

  Lemma wmf_renaming : renaming n_in tw wmf.
  Proof.
    split; [exact wmf_in|exact wmf_range|]. intros i j Hi Hj He.
    destruct (N.ltb_spec i n_in) as [Hil|Hig], (N.ltb_spec j n_in) as [Hjl|Hjg].
    - now rewrite !wmf_in in He.
    - rewrite (wmf_in i Hil) in He. pose proof (wmf_range j ltac:(lia)). lia.
    - rewrite (wmf_in j Hjl) in He. pose proof (wmf_range i ltac:(lia)). lia.
    - apply wmf_inj; [lia|lia|exact He].
  Qed.

  (* the loop of the exporter computes wmf *)
  Hypothesis HTW : tw <= USIZE_MAX.

  Lemma wmap_gates_step n i : n_in <= i < tw ->
    wmap_gates (S n) i (cntlt O i) tw O =
    let* r := wmap_gates n (i + 1) (cntlt O (i + 1)) tw O in Ok (wmf i :: r).
  Proof.
    intro Hi. cbn [wmap_gates]. unfold wmf. rewrite ltb_false by lia.
    pose proof outs_le. destruct (pos_last O i) as [idx|] eqn:E.
    - pose proof (pos_last_nth _ _ _ E) as Hn. pose proof (nthN_lt _ _ _ Hn).
      rewrite csub_ok by lia. cbn [bind]. rewrite cadd_ok by lia. cbn [bind].
      now rewrite (cntlt_succ_in O i HND (nthN_In _ _ _ Hn)).
    - apply pos_last_none in E. pose proof (cnt_le i).
      rewrite csub_ok by lia. cbn [bind]. now rewrite (cntlt_succ_notin O i E).
  Qed.

  Lemma wmap_gates_spec : forall n i,
    n_in <= i -> i + N.of_nat n = tw ->
    exists l, wmap_gates n i (cntlt O i) tw O = Ok l /\ length l = n /\
              forall k, (k < n)%nat -> nth_error l k = Some (wmf (i + N.of_nat k)).
  Proof.
    induction n as [|n IH]; intros i Hi Hn.
    - exists []. cbn [wmap_gates length]. repeat split. intros; lia.
    - rewrite wmap_gates_step by lia.
      destruct (IH (i + 1)) as (r & -> & Hlen & Hnth); [lia|lia|]. cbn [bind].
      eexists. split; [reflexivity|]. split; [cbn [length]; now rewrite Hlen|].
      intros [|k] Hk; cbn [nth_error]; [now rewrite N.add_0_r|].
      rewrite Hnth by lia. do 2 f_equal. lia.
  Qed.

  (* the complete wires_map of the exporter *)
  Lemma wires_map_spec :
    n_in <= tw ->
    exists wg, wmap_gates (N.to_nat (tw - n_in)) n_in 0 tw O = Ok wg /\
      forall i, i < tw -> nthN (nseq (N.to_nat n_in) 0 ++ wg) i = Some (wmf i).
  Proof.
    intro Hle.
    assert (Hc0 : cntlt O n_in = 0).
    { pose proof (cnt_le n_in). lia. }
    destruct (wmap_gates_spec (N.to_nat (tw - n_in)) n_in) as (wg & Hwg & Hlen & Hnth);
      [lia|lia|].
    rewrite Hc0 in Hwg. exists wg. split; [exact Hwg|].
    intros i Hi. rewrite nthN_spec.
    destruct (N.ltb_spec i n_in) as [Hin|Hge].
    - rewrite nth_error_app1 by (rewrite nseq_length; lia).
      rewrite nseq_nth by lia. rewrite wmf_in by exact Hin. f_equal. lia.
    - rewrite nth_error_app2 by (rewrite nseq_length; lia).
      rewrite nseq_length, Hnth by lia. do 2 f_equal. lia.
  Qed.
End WMF.

Lemma existsb_eqb_in o seen : existsb (N.eqb o) seen = true <-> In o seen.
Proof.
  rewrite existsb_exists. split.
  - intros (x & Hx & He). apply N.eqb_eq in He. now subst.
  - intro H. exists o. split; [exact H|apply N.eqb_refl].
Qed.

(* de-aliasing: the two extra XORs per repeated output copy its value, o ^ (o ^ o) *)
Lemma dealias_spec n_in bound : forall outs seen wmax,
  (forall o, In o outs -> n_in <= o < bound) ->
  bound <= wmax ->
  wmax + 2 * lenN outs <= USIZE_MAX ->
  exists extra outs' w',
    dealias outs seen wmax = Ok (extra, outs', w') /\
    w' = wmax + lenN extra /\ lenN outs' = lenN outs /\ lenN extra <= 2 * lenN outs /\
    NoDup outs' /\
    (forall o', In o' outs' ->
       (In o' outs /\ ~ In o' seen /\ o' < bound) \/ (wmax <= o' < w')) /\
    validate_gates wmax extra = None /\
    forall vals, lenN vals = wmax ->
      exists e, eval_gates vals extra = Some (vals ++ e) /\
                mapM (nthN (vals ++ e)) outs' = mapM (nthN vals) outs.
Proof.
  induction outs as [|o r IH]; intros seen wmax Hr Hb Hmax.
  - exists [], [], wmax. cbn [dealias validate_gates]. rewrite !lenN_nil.
    split; [reflexivity|]. split; [lia|]. split; [reflexivity|]. split; [lia|].
    split; [constructor|]. split; [intros o' []|]. split; [reflexivity|].
    intros vals _. exists []. cbn [eval_gates mapM]. now rewrite app_nil_r.
  - rewrite lenN_cons in Hmax. cbn [dealias].
    assert (Ho : n_in <= o < bound) by (apply Hr; now left).
    assert (Hr' : forall o, In o r -> n_in <= o < bound) by (intros; apply Hr; now right).
    destruct (existsb (N.eqb o) seen) eqn:Es.
    + rewrite !cadd_ok by lia. cbn [bind].
      destruct (IH seen (wmax + 2) Hr' ltac:(lia) ltac:(lia))
        as (ex & os & w' & -> & Hw & Hlen & Hex & Hnd & Hcl & Hval & Hsem).
      cbn [bind]. eexists _, _, _. split; [reflexivity|].
      rewrite !lenN_cons. repeat split; try lia.
      * constructor; [|exact Hnd]. intro Hin. destruct (Hcl _ Hin) as [(_ & _ & H)|H]; lia.
      * intros o' [<-|Hin]; [right; lia|].
        destruct (Hcl _ Hin) as [(H1 & H2 & H3)|H]; [left; repeat split; auto; now right|right; lia].
      * cbn [validate_gates gate_ok]. rewrite !leb_false by lia. cbn [orb negb].
        replace (wmax + 1 + 1) with (wmax + 2) by lia. exact Hval.
      * intros vals Hvl. destruct (nthN_Some vals o) as [a Ha]; [lia|].
        set (v1 := vals ++ [xorb a a]).
        set (v2 := v1 ++ [xorb a (xorb a a)]).
        assert (Hl1 : lenN v1 = wmax + 1).
        { unfold v1. rewrite lenN_app, lenN_cons, lenN_nil. lia. }
        assert (Hl2 : lenN v2 = wmax + 2).
        { unfold v2. rewrite lenN_app, lenN_cons, lenN_nil. lia. }
        destruct (Hsem v2 Hl2) as (e & He & Hm).
        exists ([xorb a a; xorb a (xorb a a)] ++ e).
        replace (vals ++ [xorb a a; xorb a (xorb a a)] ++ e) with (v2 ++ e)
          by (unfold v2, v1; now rewrite <- !app_assoc).
        split.
        -- cbn [eval_gates eval_gate]. rewrite Ha. fold v1.
           assert (H1 : nthN v1 o = Some a) by (unfold v1; rewrite nthN_app_l; [exact Ha|lia]).
           assert (H2 : nthN v1 wmax = Some (xorb a a)).
           { unfold v1. rewrite <- Hvl. apply nthN_app_here. }
           rewrite H1, H2. fold v2. exact He.
        -- cbn [mapM]. rewrite Hm, Ha.
           assert (H3 : nthN (v2 ++ e) (wmax + 1) = Some a).
           { rewrite nthN_app_l by lia. unfold v2. rewrite <- Hl1, nthN_app_here.
             f_equal. destruct a; reflexivity. }
           rewrite H3.
           rewrite (mapM_ext_in (nthN v2) (nthN vals) r); [reflexivity|].
           intros x Hx. specialize (Hr' x Hx). unfold v2, v1.
           rewrite <- app_assoc. apply nthN_app_l. lia.
    + assert (Hns : ~ In o seen).
      { intro H. apply existsb_eqb_in in H. congruence. }
      destruct (IH (o :: seen) wmax Hr' Hb ltac:(lia))
        as (ex & os & w' & -> & Hw & Hlen & Hex & Hnd & Hcl & Hval & Hsem).
      cbn [bind]. eexists _, _, _. split; [reflexivity|].
      rewrite !lenN_cons. repeat split; try lia; try exact Hval.
      * constructor; [|exact Hnd]. intro Hin.
        destruct (Hcl _ Hin) as [(_ & H & _)|H]; [apply H; now left|lia].
      * intros o' [<-|Hin]; [left; repeat split; auto; [now left|lia]|].
        destruct (Hcl _ Hin) as [(H1 & H2 & H3)|H]; [left|right; lia].
        repeat split; auto; [now right|]. intro H. apply H2. now right.
      * intros vals Hvl. destruct (Hsem vals Hvl) as (e & He & Hm).
        exists e. split; [exact He|]. cbn [mapM]. rewrite Hm.
        rewrite nthN_app_l by lia. reflexivity.
Qed.

(* The gate lines the exporter writes, and the importer run on them. *)

Definition gate_line (f : N -> N) (i : N) (g : gate) : line :=
  match g with
  | GXor x y => [TNum 2; TNum 1; TNum (f x); TNum (f y); TNum (f i); TWord WXor]
  | GAnd x y => [TNum 2; TNum 1; TNum (f x); TNum (f y); TNum (f i); TWord WAnd]
  | GNot x => [TNum 1; TNum 1; TNum (f x); TNum (f i); TWord WInv]
  end.

Fixpoint gate_lines (f : N -> N) (i : N) (gs : list gate) : list line :=
  match gs with
  | [] => []
  | g :: r => gate_line f i g :: gate_lines f (i + 1) r
  end.

Lemma gate_lines_length f gs : forall i, length (gate_lines f i gs) = length gs.
Proof. induction gs as [|g r IH]; intro i; cbn [gate_lines length]; [reflexivity|now rewrite IH]. Qed.

Lemma exp_gates_spec W f tw :
  (forall x, x < tw -> nthN W x = Some (f x)) ->
  forall gs i, validate_gates i gs = None -> i + lenN gs <= tw ->
  exp_gates W i gs = Ok (gate_lines f i gs).
Proof.
  intro HW. induction gs as [|g r IH]; intros i Hv Hle; cbn [exp_gates gate_lines];
    [reflexivity|].
  cbn [validate_gates] in Hv. destruct (gate_ok i g) eqn:Hok; [|discriminate].
  rewrite lenN_cons in Hle. rewrite (IH (i + 1) Hv) by lia.
  assert (Hg : forall x, In x (i :: gate_ops g) -> nthN W x = Some (f x)).
  { intros x [<-|Hx]; apply HW; [lia|]. apply (proj1 (gate_ok_ops i g) Hok) in Hx. lia. }
  destruct g; cbn [exp_gate gate_line]; rewrite !Hg by (cbn; auto); reflexivity.
Qed.

Definition gate_word (g : gate) : word :=
  match g with GXor _ _ => WXor | GAnd _ _ => WAnd | GNot _ => WInv end.

Definition to_bgate (f : N -> N) (i : N) (g : gate) : bgate :=
  mkBgate (map f (gate_ops g)) (f i) (gate_word g).

Fixpoint bgates (f : N -> N) (i : N) (gs : list gate) : list bgate :=
  match gs with
  | [] => []
  | g :: r => to_bgate f i g :: bgates f (i + 1) r
  end.

Lemma bgates_lines f gs : forall i, map bgate_line (bgates f i gs) = gate_lines f i gs.
Proof.
  induction gs as [|g r IH]; intro i; cbn [bgates map gate_lines]; [reflexivity|].
  rewrite IH. f_equal. destruct g; reflexivity.
Qed.

Lemma bgates_len f gs : forall i, lenN (bgates f i gs) = lenN gs.
Proof.
  induction gs as [|g r IH]; intro i; cbn [bgates]; [reflexivity|].
  now rewrite !lenN_cons, IH.
Qed.

Lemma nthN_bgates f gs : forall i k,
  nthN (bgates f i gs) k = option_map (to_bgate f (i + k)) (nthN gs k).
Proof.
  induction gs as [|g r IH]; intros i k; cbn [bgates]; [now rewrite !nthN_nil|].
  rewrite !nthN_cons. destruct (N.eqb_spec k 0) as [->|Hk]; [now rewrite N.add_0_r|].
  rewrite IH. now replace (i + 1 + (k - 1)) with (i + k) by lia.
Qed.

Lemma nthN_bgates_inv f gs i k b :
  nthN (bgates f i gs) k = Some b -> exists g, nthN gs k = Some g /\ b = to_bgate f (i + k) g.
Proof.
  rewrite nthN_bgates. destruct (nthN gs k) as [g|]; [|discriminate].
  intros [= <-]. eauto.
Qed.

Lemma bgates_outs f gs : forall i,
  map bg_out (bgates f i gs) = map f (nseq (length gs) i).
Proof.
  induction gs as [|g r IH]; intro i; cbn [bgates map nseq length]; [reflexivity|].
  now rewrite IH.
Qed.

Lemma parse_gate_line_export f i g :
  parse_gate_line (gate_line f i g) = ret (Some (map f (gate_ops g), f i)).
Proof. destruct g; reflexivity. Qed.

Lemma collect_outs_spec tw wm : forall os w fuel,
  w + lenN os = tw -> (length os <= fuel)%nat ->
  (forall k a, nthN os k = Some a -> wfind (w + k) wm = Some a) ->
  collect_outs fuel w tw wm = ret os.
Proof.
  induction os as [|a r IH]; intros w fuel Hw Hf Hk.
  - rewrite lenN_nil in Hw. destruct fuel; cbn [collect_outs]; now rewrite ltb_false by lia.
  - rewrite lenN_cons in Hw. cbn [length] in Hf.
    destruct fuel as [|fuel]; [lia|]. cbn [collect_outs]. rewrite ltb_true by lia.
    specialize (Hk 0 a (nthN_cons_0 a r)) as Hw0. rewrite N.add_0_r in Hw0. rewrite Hw0.
    rewrite (IH (w + 1) fuel); [reflexivity|lia|lia|].
    intros k b Hb. replace (w + 1 + k) with (w + (k + 1)) by lia.
    apply Hk. now rewrite nthN_cons_succ.
Qed.

Section IMPORT_OF_EXPORT.
  Variables (n_in tw : N) (f : N -> N).
  Hypothesis Hf : renaming n_in tw f.
  Hypothesis HTW : tw <= USIZE_MAX.

  Definition inv (wmap : list (N * N)) (i : N) : Prop :=
    (forall j, n_in <= j < i -> wfind (f j) wmap = Some j) /\
    (forall w, w < n_in -> wfind w wmap = None).

  Lemma inv_step wmap i : inv wmap i -> n_in <= i < tw -> inv ((f i, i) :: wmap) (i + 1).
  Proof.
    intros [H1 H2] Hi. split.
    - intros j Hj. cbn [wfind]. destruct (N.eqb_spec (f i) (f j)) as [He|Hne].
      + f_equal. apply (ren_inj _ _ _ Hf); [lia|lia|exact He].
      + apply H1. assert (j <> i) by congruence. lia.
    - intros w Hw. cbn [wfind]. pose proof (ren_range _ _ _ Hf i Hi).
      destruct (N.eqb_spec (f i) w); [lia|]. now apply H2.
  Qed.

  Lemma wire_of_inv wmap i x : inv wmap i -> x < i -> wire_of n_in wmap (f x) = x.
  Proof.
    intros [H1 H2] Hx. unfold wire_of.
    destruct (N.ltb_spec x n_in) as [Hl|Hg].
    - rewrite (ren_in _ _ _ Hf x Hl), (H2 x Hl). now rewrite ltb_true.
    - now rewrite H1 by lia.
  Qed.

  Lemma imp_step_export g i wmap :
    gate_ok i g = true -> n_in <= i < tw -> inv wmap i ->
    imp_step tw n_in (gate_line f i g) (map f (gate_ops g)) (f i) wmap i =
    ret (g, (f i, i) :: wmap, i + 1).
  Proof.
    intros Hok Hi Hinv. unfold imp_step.
    pose proof (proj1 (gate_ok_ops i g) Hok) as Hops.
    pose proof (inv_step wmap i Hinv Hi) as Hinv'.
    destruct (find _ _) as [w|] eqn:E.
    { apply find_some in E as [(x & <- & Hx)%in_map_iff E%N.leb_le].
      pose proof (ren_lt _ _ _ Hf x). specialize (Hops x Hx). lia. }
    rewrite leb_false by (apply (ren_lt _ _ _ Hf); lia).
    destruct g; cbn [gate_line last_opt gate_ops map]; rewrite checked_add_Some by lia;
      rewrite !(wire_of_inv _ (i + 1) _ Hinv') by (apply N.lt_lt_add_r, Hops; cbn; auto);
      reflexivity.
  Qed.

  Lemma imp_gates_spec : forall gs i wmap,
    n_in <= i -> i + lenN gs <= tw -> validate_gates i gs = None -> inv wmap i ->
    exists wm', imp_gates tw n_in (gate_lines f i gs) wmap i = ret (gs, wm') /\
                inv wm' (i + lenN gs) /\ length wm' = (length wmap + length gs)%nat.
  Proof.
    induction gs as [|g r IH]; intros i wmap Hi Hle Hv Hinv.
    - exists wmap. cbn [imp_gates gate_lines length]. rewrite lenN_nil, N.add_0_r.
      split; [reflexivity|]. split; [exact Hinv|lia].
    - cbn [validate_gates] in Hv. destruct (gate_ok i g) eqn:Hok; [|discriminate].
      rewrite lenN_cons in Hle |- *.
      destruct (IH (i + 1) ((f i, i) :: wmap) ltac:(lia) ltac:(lia) Hv
                  (inv_step wmap i Hinv ltac:(lia))) as (wm' & Hrec & Hinvf & Hlen).
      exists wm'. split; [|split].
      + cbn [gate_lines imp_gates]. rewrite parse_gate_line_export. cbn [ebind ret].
        rewrite imp_step_export by (assumption || lia). cbn [ebind ret]. now rewrite Hrec.
      + now replace (i + (1 + lenN r)) with (i + 1 + lenN r) by lia.
      + rewrite Hlen. cbn [length]. lia.
  Qed.
End IMPORT_OF_EXPORT.

Lemma bfind_combine_nseq v : forall a i b,
  nthN v i = Some b -> bfind (a + i) (combine (nseq (length v) a) v) = Some b.
Proof.
  induction v as [|x r IH]; intros a i b H; [now rewrite nthN_nil in H|].
  cbn [length nseq combine bfind]. rewrite nthN_cons in H.
  destruct (N.eqb_spec i 0) as [->|Hi].
  - injection H as <-. now rewrite N.add_0_r, N.eqb_refl.
  - rewrite (proj2 (N.eqb_neq a (a + i))) by lia.
    replace (a + i) with (a + 1 + (i - 1)) by lia. now apply IH.
Qed.

Section BEVAL.
  Variables (n_in tw : N) (f : N -> N).
  Hypothesis Hf : renaming n_in tw f.

  Definition binv (env : list (N * bool)) (vals : list bool) : Prop :=
    forall i b, nthN vals i = Some b -> bfind (f i) env = Some b.

  Lemma beval_gate_spec env vals g i b :
    binv env vals -> eval_gate vals g = Some b -> beval_gate env (to_bgate f i g) = Some b.
  Proof.
    intros Hinv Hb.
    destruct g as [x y|x y|x]; cbn [eval_gate] in Hb;
      cbn [beval_gate to_bgate bg_kind bg_ins gate_word gate_ops map];
      destruct (nthN vals x) as [a1|] eqn:E1; try discriminate; rewrite (Hinv _ _ E1).
    1,2: destruct (nthN vals y) as [a2|] eqn:E2; try discriminate; rewrite (Hinv _ _ E2).
    all: exact Hb.
  Qed.

  Lemma beval_gates_spec : forall gs vals env,
    lenN vals + lenN gs <= tw ->
    validate_gates (lenN vals) gs = None -> binv env vals ->
    exists vals' env', eval_gates vals gs = Some vals' /\
      beval_gates (bgates f (lenN vals) gs) env = Some env' /\ binv env' vals'.
  Proof.
    induction gs as [|g r IH]; intros vals env Hle Hv Hinv.
    - exists vals, env. cbn [eval_gates bgates beval_gates]. auto.
    - cbn [validate_gates] in Hv. destruct (gate_ok (lenN vals) g) eqn:Hok; [|discriminate].
      rewrite lenN_cons in Hle.
      destruct (gate_ok_eval _ _ vals Hok eq_refl) as [b Hb].
      assert (Hl : lenN (vals ++ [b]) = lenN vals + 1)
        by (rewrite lenN_app, lenN_cons, lenN_nil; lia).
      assert (Hinv' : binv ((f (lenN vals), b) :: env) (vals ++ [b])).
      { intros i c Hi. cbn [bfind]. pose proof (nthN_lt _ _ _ Hi) as Hlt.
        destruct (N.eqb_spec (f (lenN vals)) (f i)) as [He|Hne].
        - apply (ren_inj _ _ _ Hf) in He; [|lia|lia]. subst i.
          rewrite nthN_app_here in Hi. exact Hi.
        - assert (i <> lenN vals) by congruence.
          rewrite nthN_app_l in Hi by lia. now apply Hinv. }
      destruct (IH (vals ++ [b]) ((f (lenN vals), b) :: env)) as (vals' & env' & H1 & H2 & H3);
        [lia|now rewrite Hl|exact Hinv'|].
      exists vals', env'. cbn [eval_gates bgates beval_gates to_bgate bg_out].
      rewrite Hb, (beval_gate_spec env vals g _ b Hinv Hb). rewrite Hl in H2. auto.
  Qed.
End BEVAL.

Record bristol_ready (c : circuit) : Prop := {
  br_inputs : input_gates c <> [];
  br_gates : validate_gates (num_inputs c) (gates c) = None;
  br_nodup : NoDup (output_gates c);
  br_outs : forall o, In o (output_gates c) -> num_inputs c <= o < wires_len c;
  br_max : wires_len c <= USIZE_MAX }.

Definition rendering (c : circuit) : list line :=
  [TNum (lenN (gates c)); TNum (wires_len c)]
    :: (TNum (lenN (input_gates c)) :: map TNum (input_gates c))
    :: [TNum 1; TNum (lenN (output_gates c))]
    :: []
    :: gate_lines (wmf (num_inputs c) (wires_len c) (output_gates c)) (num_inputs c) (gates c).

Lemma slice_tail {A} (a : A) l : slice (a :: l) 1 (lenN (a :: l)) = Ok l.
Proof.
  unfold slice. rewrite lenN_cons, leb_true, N.leb_refl by lia. cbn [andb].
  replace (N.to_nat (1 + lenN l - 1)) with (length l) by (unfold lenN; lia).
  change (N.to_nat 1) with 1%nat. cbn [skipn]. now rewrite firstn_all.
Qed.

Lemma imp_header_export g tw ig m rest :
  ig <> [] -> sumN ig <= USIZE_MAX -> m <= tw -> tw <= USIZE_MAX ->
  imp_header ([TNum g; TNum tw] :: (TNum (lenN ig) :: map TNum ig) :: [TNum 1; TNum m] :: rest) =
  ret (tw, ig, sumN ig, m, rest).
Proof.
  intros Hig Hs Hm Htw. unfold imp_header.
  cbn [next_line parse_line mapM tok_num ebind ret].
  change (lenN [g; tw] =? 2) with true. cbn [negb].
  change (nthN [g; tw] 1) with (Some tw). change (nthN [g; tw] 0) with (Some g).
  cbn [of_option bind].
  rewrite mapM_tok_num_map. cbn [ebind ret].
  assert (Hl : 1 <= lenN ig).
  { destruct ig; [congruence|]. rewrite lenN_cons. lia. }
  rewrite ltb_false by (rewrite lenN_cons; lia).
  rewrite slice_tail. cbn [bind]. rewrite nthN_cons_0. cbn [of_option bind].
  rewrite N.eqb_refl. cbn [negb]. rewrite checked_sum_Some by exact Hs.
  change (lenN [1; m] <? 2) with false. change (nthN [1; m] 0) with (Some 1).
  cbn [of_option bind]. rewrite slice_tail. cbn [bind].
  change (lenN [m] =? 1) with true. cbn [negb].
  rewrite checked_sum_Some by (cbn [sumN]; lia). cbn [sumN]. rewrite N.add_0_r.
  now rewrite ltb_false by lia.
Qed.

Lemma circuit_eta c : mkCircuit (input_gates c) (gates c) (output_gates c) = c.
Proof. now destruct c. Qed.

Section RENDERING.
  Variable c : circuit.
  Hypothesis Hc : bristol_ready c.
  Local Notation n_in := (num_inputs c).
  Local Notation tw := (wires_len c).
  Local Notation outs := (output_gates c).
  Local Notation f := (wmf n_in tw outs).

  Lemma rendering_ren : renaming n_in tw f.
  Proof. apply wmf_renaming; [apply (br_nodup c Hc)|apply (br_outs c Hc)]. Qed.

  Lemma rendering_outs_le : lenN outs <= lenN (gates c).
  Proof.
    pose proof (outs_le n_in tw outs (br_nodup c Hc) (br_outs c Hc)).
    unfold wires_len in *. lia.
  Qed.

  Lemma rendering_out k o : nthN outs k = Some o -> f o = tw - lenN outs + k.
  Proof. apply wmf_out; [apply (br_nodup c Hc)|apply (br_outs c Hc)]. Qed.

  Lemma import_rendering : import (rendering c) = ret c.
  Proof.
    pose proof rendering_outs_le as Hm. pose proof (br_max c Hc) as HTW.
    assert (Htw : n_in + lenN (gates c) = tw) by reflexivity.
    unfold import, rendering.
    rewrite imp_header_export by (try apply (br_inputs c Hc); unfold num_inputs in *; lia).
    cbn [ebind ret]. unfold imp_body. rewrite csub_ok by lia. cbn [bind].
    cbn [imp_gates]. change (parse_gate_line []) with (@ret (option (list N * N)) None).
    cbn [ebind ret].
    destruct (imp_gates_spec n_in tw f rendering_ren HTW (gates c) n_in [] (N.le_refl _)
                ltac:(lia) (br_gates c Hc)) as (wm' & Himp & [Hinv _] & Hwlen).
    { split; [intros j Hj; lia|reflexivity]. }
    fold n_in. rewrite Himp. cbn [ebind ret].
    rewrite (collect_outs_spec tw wm' outs); [cbn [ebind ret]; now rewrite circuit_eta|lia| |].
    - rewrite Hwlen. cbn [length]. unfold lenN in Hm. lia.
    - intros k a Hk. pose proof (br_outs c Hc a (nthN_In _ _ _ Hk)).
      rewrite <- (rendering_out k a Hk). apply Hinv. lia.
  Qed.

  Lemma rendering_wf : bristol_wf (input_gates c) (lenN outs) (rendering c).
  Proof.
    pose proof rendering_ren as Hf. pose proof (br_gates c Hc) as Hv.
    exists (bgates f n_in (gates c)). cbv zeta. rewrite bgates_len, bgates_lines.
    split; [reflexivity|]. split; [apply rendering_outs_le|].
    split; [|split; [|split]].
    - intros b Hb. destruct (In_nthN _ _ Hb) as [k Hk].
      destruct (nthN_bgates_inv _ _ _ _ _ Hk) as (g & _ & ->). destruct g; reflexivity.
    - rewrite bgates_outs. apply NoDup_map_inj_on; [apply nseq_nodup|].
      intros a b Ha Hb. apply nseq_in in Ha, Hb.
      apply (ren_inj _ _ _ Hf); unfold wires_len, lenN in *; lia.
    - intros b Hb. destruct (In_nthN _ _ Hb) as [k Hk].
      destruct (nthN_bgates_inv _ _ _ _ _ Hk) as (g & Hg%nthN_lt & ->).
      apply (ren_range _ _ _ Hf). unfold wires_len. lia.
    - intros k b w Hk Hw.
      destruct (nthN_bgates_inv _ _ _ _ _ Hk) as (g & Hg & ->).
      apply in_map_iff in Hw as (x & <- & Hx).
      apply (proj1 (gate_ok_ops _ _) (validate_gates_nth _ _ _ _ Hv Hg)) in Hx.
      destruct (N.ltb_spec x n_in) as [Hl|Hge]; [left; now rewrite (ren_in _ _ _ Hf)|right].
      apply nthN_lt in Hg.
      destruct (nthN_Some (gates c) (x - n_in)) as [g' Hg']; [lia|].
      exists (x - n_in), (to_bgate f x g'). split; [lia|]. split; [|reflexivity].
      rewrite nthN_bgates, Hg'. cbn [option_map]. do 2 f_equal. lia.
  Qed.

  Lemma rendering_sem ins :
    bristol_eval (input_gates c) (lenN outs) (bgates f n_in (gates c)) ins = ssa_eval c ins.
  Proof.
    pose proof rendering_ren as Hf. pose proof rendering_outs_le as Hm.
    unfold bristol_eval, ssa_eval, ssa_wire_vals.
    destruct (load_inputs (input_gates c) ins) as [v0|] eqn:El; [|reflexivity].
    pose proof (load_inputs_len _ _ _ El) as Hv0. fold n_in in Hv0.
    destruct (beval_gates_spec n_in tw f Hf (gates c) v0 (combine (nseq (length v0) 0) v0))
      as (vals' & env' & Hev & Hbev & Hinv).
    { rewrite Hv0. unfold wires_len. lia. }
    { rewrite Hv0. apply (br_gates c Hc). }
    { intros i b Hi. pose proof (nthN_lt _ _ _ Hi) as Hlt.
      rewrite (ren_in _ _ _ Hf) by lia.
      rewrite <- (N.add_0_l i) at 1. now apply bfind_combine_nseq. }
    rewrite Hv0 in Hbev. rewrite Hbev, Hev.
    pose proof (eval_gates_len _ _ _ Hev) as Hvl.
    rewrite bgates_len.
    replace (N.to_nat (lenN outs)) with (length outs) by (unfold lenN; lia).
    apply mapM_nseq_outs.
    intros k o Hk. pose proof (br_outs c Hc o (nthN_In _ _ _ Hk)) as Ho.
    destruct (nthN_Some vals' o) as [b Hb]; [unfold wires_len in *; lia|].
    now rewrite Hb, <- (Hinv o b Hb), (rendering_out k o Hk).
  Qed.
End RENDERING.

(* export c writes out c with the panic outputs dropped and repeated outputs de-aliased, a
   circuit that computes the non-panic output bits of c. *)

Lemma appended_sem c n extra outs' :
  ssa_validate c = None ->
  (forall vals, lenN vals = wires_len c ->
     exists e, eval_gates vals extra = Some (vals ++ e) /\
               mapM (nthN (vals ++ e)) outs' = mapM (nthN vals) (skipn n (output_gates c))) ->
  forall ins, ssa_eval (mkCircuit (input_gates c) (gates c ++ extra) outs') ins =
              option_map (skipn n) (ssa_eval c ins).
Proof.
  intros (_ & Hvg & _ & Hvo & _)%ssa_validate_None Hsem ins.
  unfold ssa_eval, ssa_wire_vals. cbn [input_gates gates output_gates].
  destruct (load_inputs (input_gates c) ins) as [v0|] eqn:El; [|reflexivity].
  pose proof (load_inputs_len _ _ _ El) as Hv0. unfold num_inputs in Hvg.
  rewrite <- Hv0 in Hvg.
  destruct (validate_gates_eval _ _ Hvg) as (vals & Hev & Hvl).
  rewrite eval_gates_app, Hev.
  assert (Hvl' : lenN vals = wires_len c) by (unfold wires_len, num_inputs; lia).
  destruct (Hsem vals Hvl') as (e & -> & ->).
  destruct (mapM_all (nthN vals) (output_gates c)) as [bits Hbits].
  { intros o Ho. apply nthN_Some. rewrite Forall_forall in Hvo. specialize (Hvo o Ho). lia. }
  rewrite Hbits. cbn [option_map]. now apply mapM_skipn.
Qed.

Lemma export_rendering lim c :
  exportable lim c ->
  exists c', input_gates c' = input_gates c /\ bristol_ready c' /\
    lenN (output_gates c') = lenN (output_gates c) - N.of_nat PANIC_BITS /\
    (forall ins, ssa_eval c' ins = option_map (skipn PANIC_BITS) (ssa_eval c ins)) /\
    export lim c = Ok (inl (rendering c')).
Proof.
  intros (Hval & Hp & Hno & Hlim & Hfit).
  pose proof Hval as (Hig & Hvg & _ & Hvo & _)%ssa_validate_None.
  rewrite Forall_forall in Hvo. unfold wires_len, num_inputs in *.
  set (n_in := sumN (input_gates c)) in *.
  set (tw0 := lenN (gates c) + n_in).
  set (outs := skipn PANIC_BITS (output_gates c)) in *.
  assert (Houts_len : lenN outs = lenN (output_gates c) - N.of_nat PANIC_BITS).
  { unfold outs, lenN. rewrite skipn_length. lia. }
  assert (Houts : forall o, In o outs -> n_in <= o < tw0).
  { intros o Ho. split; [now apply Hno|].
    specialize (Hvo o (In_skipn _ _ _ Ho)). unfold tw0. lia. }
  destruct (dealias_spec n_in tw0 outs [] tw0 Houts ltac:(lia) ltac:(unfold tw0; lia))
    as (extra & outs' & tw' & Hd & Htw' & Hlen' & Hex & Hnd & Hcl & Hvex & Hsem).
  set (G := gates c ++ extra).
  assert (Htw : n_in + lenN G = tw') by (unfold G, tw0 in *; rewrite lenN_app; lia).
  assert (HR : forall o, In o outs' -> n_in <= o < tw').
  { intros o Ho. destruct (Hcl o Ho) as [(H1 & _ & H3)|H]; [specialize (Houts o H1)|];
      unfold tw0 in *; lia. }
  assert (HTW : tw' <= USIZE_MAX) by (unfold tw0 in *; lia).
  assert (HvG : validate_gates n_in G = None).
  { unfold G. rewrite validate_gates_app, Hvg.
    now replace (n_in + lenN (gates c)) with tw0 by (unfold tw0; lia). }
  exists (mkCircuit (input_gates c) G outs').
  split; [reflexivity|]. split; [|split; [cbn [output_gates]; lia|split]].
  - split; unfold wires_len, num_inputs; cbn [input_gates gates output_gates]; fold n_in;
      rewrite ?Htw; assumption.
  - apply appended_sem; [exact Hval|]. intros vals Hvl. apply Hsem.
    unfold wires_len, num_inputs in Hvl. unfold tw0. fold n_in in Hvl. lia.
  - destruct (wires_map_spec n_in tw' outs' Hnd HR HTW ltac:(lia)) as (wg & Hwg & HW).
    unfold rendering, export, wires_len, num_inputs. cbn [input_gates gates output_gates].
    fold n_in. rewrite Htw.
    rewrite csum_ok by (fold n_in; lia). cbn [bind]. fold n_in.
    rewrite cadd_ok by (fold tw0; unfold tw0 in *; lia). cbn [bind]. fold tw0.
    rewrite ltb_false by (unfold lenN; lia).
    rewrite alloc_ok by lia. cbn [bind]. fold outs.
    rewrite existsb_false_all by (intros a Ha; apply N.ltb_ge; now apply Hno).
    rewrite Hd. cbn [bind].
    rewrite alloc_ok by (unfold tw0 in *; lia). cbn [bind].
    rewrite Hwg. cbn [bind]. fold G.
    now rewrite (exp_gates_spec _ _ tw' HW G n_in HvG) by lia.
Qed.

Theorem export_import_roundtrip lim c :
  exportable lim c ->
  exists ls c',
    export lim c = Ok (inl ls) /\ import ls = Ok (inl c') /\
    input_gates c' = input_gates c /\
    forall ins, ssa_eval c' ins = option_map (skipn PANIC_BITS) (ssa_eval c ins).
Proof.
  intros (c' & Hig & Hc' & _ & Hsem & Hexp)%export_rendering.
  exists (rendering c'), c'. split; [exact Hexp|]. split; [exact (import_rendering c' Hc')|].
  split; assumption.
Qed.

(* a circuit with a non-panic output that is an input wire is refused *)
Theorem export_refuses_input_output lim c :
  ssa_validate c = None -> (PANIC_BITS <= length (output_gates c))%nat ->
  lim <= USIZE_MAX -> wires_len c + 2 * lenN (output_gates c) <= lim ->
  (exists o, In o (skipn PANIC_BITS (output_gates c)) /\ o < num_inputs c) ->
  export lim c = Ok (inr XOutputWireIsInput).
Proof.
  intros Hval Hp Hlim Hfit (o & Ho & Hlt).
  unfold wires_len, num_inputs in *. unfold export.
  rewrite csum_ok by lia. cbn [bind]. rewrite cadd_ok by lia. cbn [bind].
  rewrite ltb_false by (unfold lenN; lia).
  rewrite alloc_ok by lia. cbn [bind].
  assert (He : existsb (fun w => w <? sumN (input_gates c))
                 (skipn PANIC_BITS (output_gates c)) = true).
  { apply existsb_exists. exists o. split; [exact Ho|now apply N.ltb_lt]. }
  now rewrite He.
Qed.

Theorem export_wf lim c ls :
  exportable lim c -> export lim c = Ok (inl ls) ->
  bristol_wf (input_gates c) (lenN (output_gates c) - N.of_nat PANIC_BITS) ls.
Proof.
  intros (c' & Hig & Hc' & Hn & _ & Hexp)%export_rendering Hls.
  rewrite Hexp in Hls. injection Hls as <-. rewrite <- Hig, <- Hn.
  now apply rendering_wf.
Qed.

(* "exactly once", spelled out: in a well-formed file every non-input wire is the output of
   exactly one gate line *)
Lemma wf_assigned_exactly_once ig n_out ls gl :
  ls = [TNum (lenN gl); TNum (sumN ig + lenN gl)]
         :: (TNum (lenN ig) :: map TNum ig) :: [TNum 1; TNum n_out] :: [] :: map bgate_line gl ->
  NoDup (map bg_out gl) ->
  (forall g, In g gl -> sumN ig <= bg_out g < sumN ig + lenN gl) ->
  forall w, sumN ig <= w < sumN ig + lenN gl ->
  exists k g, nthN gl k = Some g /\ bg_out g = w /\
              forall k' g', nthN gl k' = Some g' -> bg_out g' = w -> k' = k.
Proof.
  intros _ Hnd Hr w Hw.
  (* as many distinct outputs as there are wires in the range: all of them are hit *)
  assert (Hwin : In w (map bg_out gl)).
  { apply (NoDup_length_incl Hnd (l' := nseq (length gl) (sumN ig))).
    - rewrite map_length, nseq_length. lia.
    - intros x (g & <- & Hg)%in_map_iff. apply nseq_in. exact (Hr g Hg).
    - apply nseq_in. exact Hw. }
  apply in_map_iff in Hwin. destruct Hwin as (g & Hgw & Hg).
  destruct (In_nthN _ _ Hg) as [k Hk]. exists k, g. split; [exact Hk|]. split; [exact Hgw|].
  intros k' g' Hk' Hg'w.
  (* two positions with the same output wire contradict NoDup *)
  rewrite nthN_spec in Hk, Hk'.
  assert (H1 : nth_error (map bg_out gl) (N.to_nat k) = Some w)
    by (rewrite nth_error_map, Hk; cbn [option_map]; now rewrite Hgw).
  assert (H2 : nth_error (map bg_out gl) (N.to_nat k') = Some w)
    by (rewrite nth_error_map, Hk'; cbn [option_map]; now rewrite Hg'w).
  assert (Hlt : (N.to_nat k' < length (map bg_out gl))%nat)
    by (apply nth_error_Some; congruence).
  pose proof (proj1 (NoDup_nth_error (map bg_out gl)) Hnd _ _ Hlt (eq_trans H2 (eq_sym H1))).
  lia.
Qed.

(* "the outputs are the last wires, in order": the exported file read with the reference
   Bristol semantics computes the non-panic outputs *)
Theorem export_bristol_sem lim c ls :
  exportable lim c -> export lim c = Ok (inl ls) ->
  exists gl,
    ls = [TNum (lenN gl); TNum (sumN (input_gates c) + lenN gl)]
           :: (TNum (lenN (input_gates c)) :: map TNum (input_gates c))
           :: [TNum 1; TNum (lenN (output_gates c) - N.of_nat PANIC_BITS)]
           :: []
           :: map bgate_line gl /\
    forall ins,
      bristol_eval (input_gates c) (lenN (output_gates c) - N.of_nat PANIC_BITS) gl ins =
      option_map (skipn PANIC_BITS) (ssa_eval c ins).
Proof.
  intros (c' & Hig & Hc' & Hn & Hsem & Hexp)%export_rendering Hls.
  rewrite Hexp in Hls. injection Hls as <-. rewrite <- Hig, <- Hn.
  eexists. split; [|intro ins; rewrite <- Hsem; now apply rendering_sem].
  unfold rendering. now rewrite bgates_len, bgates_lines.
Qed.

(* Non-vacuity: an exportable circuit with repeated outputs, an output feeding later gates
   and a Not gate; its export; the import of that export *)

Definition ex_circuit : circuit :=
  mkCircuit [1; 2] [GXor 0 1; GAnd 0 2; GXor 3 4; GNot 5] (repeat 0 161 ++ [5; 5; 6; 3; 5]).

Example ex_exportable : exportable 67108864 ex_circuit.
Proof.
  split; [vm_compute; reflexivity|].
  split; [vm_compute; repeat constructor|].
  split.
  - change (skipn PANIC_BITS (output_gates ex_circuit)) with [5; 5; 6; 3; 5].
    change (num_inputs ex_circuit) with 3.
    intros o [<-|[<-|[<-|[<-|[<-|[]]]]]]; lia.
  - split; vm_compute; discriminate.
Qed.

Example ex_roundtrip :
  export 67108864 ex_circuit =
    Ok (inl [[TNum 8; TNum 11]; [TNum 2; TNum 1; TNum 2]; [TNum 1; TNum 5]; [];
             [TNum 2; TNum 1; TNum 0; TNum 1; TNum 9; TWord WXor];
             [TNum 2; TNum 1; TNum 0; TNum 2; TNum 3; TWord WAnd];
             [TNum 2; TNum 1; TNum 9; TNum 3; TNum 6; TWord WXor];
             [TNum 1; TNum 1; TNum 6; TNum 8; TWord WInv];
             [TNum 2; TNum 1; TNum 6; TNum 6; TNum 4; TWord WXor];
             [TNum 2; TNum 1; TNum 6; TNum 4; TNum 7; TWord WXor];
             [TNum 2; TNum 1; TNum 6; TNum 6; TNum 5; TWord WXor];
             [TNum 2; TNum 1; TNum 6; TNum 5; TNum 10; TWord WXor]]) /\
  (forall ls, export 67108864 ex_circuit = Ok (inl ls) ->
     import ls = Ok (inl (mkCircuit [1; 2]
                            [GXor 0 1; GAnd 0 2; GXor 3 4; GNot 5;
                             GXor 5 5; GXor 5 7; GXor 5 5; GXor 5 9] [5; 8; 6; 3; 10]))) /\
  ssa_eval ex_circuit [[true]; [false; true]] =
    Some (repeat true 161 ++ [false; false; true; true; false]).
Proof.
  split; [vm_compute; reflexivity|].
  split; [|vm_compute; reflexivity].
  intros ls H.
  assert (E : export 67108864 ex_circuit = export 67108864 ex_circuit) by reflexivity.
  rewrite H in E at 1. vm_compute in E. injection E as ->. vm_compute. reflexivity.
Qed.

(* the malformed headers of DESIGN §6-20 (and the further overflow sites) are errors *)
Example ex_malformed_headers :
  import [[TNum 1; TNum 3]; [TNum 1; TNum 2]; [TNum 1; TNum 5]; [];
          [TNum 2; TNum 1; TNum 0; TNum 1; TNum 2; TWord WXor]]
    = Ok (inr (IMalformedLine [TNum 1; TNum 5])) /\
  import [[TNum 1; TNum USIZE_MAX]; [TNum 1; TNum 2]; [TNum 1; TNum 1]]
    = Ok (inr (IInvalidWireIndex (USIZE_MAX - 1))) /\
  import [[TNum 1; TNum 3]; [TNum 2; TNum USIZE_MAX; TNum 1]; [TNum 1; TNum 1]]
    = Ok (inr (IMalformedLine [TNum 2; TNum USIZE_MAX; TNum 1])) /\
  import [[TNum 1; TNum 3]; [TNum 1; TNum 2]; [TNum 1; TNum 1];
          [TNum USIZE_MAX; TNum 1; TNum 0; TNum 0; TWord WXor]]
    = Ok (inr (IMalformedLine [TNum USIZE_MAX; TNum 1; TNum 0; TNum 0; TWord WXor])) /\
  import [[TNum 1; TNum 1]; [TNum 1; TNum USIZE_MAX]; [TNum 1; TNum 1];
          [TNum 1; TNum 1; TNum 0; TNum 0; TWord WInv]]
    = Ok (inr (IInvalidWireIndex USIZE_MAX)).
Proof. repeat split; vm_compute; reflexivity. Qed.
