(* C16 for register circuits: validate accepts => strict evaluation (a register can only be
   read after it was written) succeeds, agrees with the Rust-style evaluation, and returns
   one bit per declared output; validate itself never panics. *)
From GV Require Import Base.Util Circuit.Ssa Circuit.SsaProofs Circuit.Reg.

Lemma set_nth_Some {A} (l : list A) i a : (i < length l)%nat -> exists l', set_nth l i a = Some l'.
Proof.
  revert i. induction l as [|x r IH]; intros i H; cbn [length] in H; [lia|].
  destruct i as [|i]; cbn [set_nth]; [eauto|].
  destruct (IH i) as [r' ->]; [lia|]. eauto.
Qed.

Lemma set_nth_spec {A} (l : list A) i a l' :
  set_nth l i a = Some l' ->
  length l' = length l /\ (i < length l)%nat /\
  forall j, nth_error l' j = if Nat.eqb j i then Some a else nth_error l j.
Proof.
  revert i l'. induction l as [|x r IH]; intros i l'; [destruct i; discriminate|].
  destruct i as [|i]; cbn [set_nth length].
  - intros [= <-]. repeat split; [lia|]. now intros [|j].
  - destruct (set_nth r i a) eqn:E; [|discriminate]. intros [= <-].
    destruct (IH _ _ E) as (Hlen & Hlt & Hnth). cbn [length]. repeat split; [lia..|].
    intros [|j]; [reflexivity|apply Hnth].
Qed.

Lemma setN_spec {A} (l : list A) i a : setN l i a = set_nth l (N.to_nat i) a.
Proof.
  unfold setN, lenN. destruct (N.ltb_spec i (N.of_nat (length l))) as [H|H]; [reflexivity|].
  destruct (set_nth l (N.to_nat i) a) eqn:E; [|reflexivity].
  apply set_nth_spec in E. lia.
Qed.

Lemma setN_Some {A} (l : list A) i a : i < lenN l -> exists l', setN l i a = Some l'.
Proof. rewrite setN_spec. unfold lenN. intro. apply set_nth_Some. lia. Qed.

Lemma setN_len {A} (l : list A) i a l' : setN l i a = Some l' -> lenN l' = lenN l.
Proof. rewrite setN_spec. unfold lenN. intros (H & _)%set_nth_spec. lia. Qed.

Lemma setN_same {A} (l : list A) i a l' : setN l i a = Some l' -> nthN l' i = Some a.
Proof.
  rewrite setN_spec, nthN_spec. intros (_ & _ & H)%set_nth_spec. now rewrite H, Nat.eqb_refl.
Qed.

Lemma setN_other {A} (l : list A) i j a l' :
  setN l i a = Some l' -> i <> j -> nthN l' j = nthN l j.
Proof.
  rewrite setN_spec, !nthN_spec. intros (_ & _ & H)%set_nth_spec Hne. rewrite H.
  destruct (Nat.eqb_spec (N.to_nat j) (N.to_nat i)); [lia|reflexivity].
Qed.

Lemma lenN_repeat {A} (a : A) n : lenN (repeat a (N.to_nat n)) = n.
Proof. unfold lenN. rewrite repeat_length. lia. Qed.

Lemma nthN_repeat {A} (a : A) n i : i < n -> nthN (repeat a (N.to_nat n)) i = Some a.
Proof.
  intro H. rewrite nthN_spec. apply nth_error_repeat. lia.
Qed.

Lemma shape_check_spec ig ins : shape_check ig ins = true <-> shape_ok ig ins.
Proof.
  unfold shape_check, shape_ok. revert ins.
  induction ig as [|n ig IH]; intros [|bits ins]; rewrite ?lenN_cons, ?lenN_nil, andb_true_iff, N.eqb_eq;
    cbn [combine forallb fst snd].
  - split; [constructor|auto].
  - split; [lia|inversion 1].
  - split; [lia|inversion 1].
  - rewrite andb_true_iff, N.eqb_eq. split.
    + intros (Hl & Hb & Hr). constructor; [exact Hb|]. apply IH, andb_true_iff.
      split; [apply N.eqb_eq; lia|exact Hr].
    + inversion 1 as [|? ? ? ? Hb Hr]; subst. apply IH, andb_true_iff in Hr.
      destruct Hr as [Hl%N.eqb_eq Hr]. repeat split; auto. lia.
Qed.

Lemma shape_ok_input ig ins p sz k :
  shape_ok ig ins -> nthN ig p = Some sz -> k < sz -> exists b, get_input ins p k = Some b.
Proof.
  intros H Hp Hk.
  assert (Hb : exists bits, nthN ins p = Some bits /\ lenN bits = sz).
  { revert Hp. rewrite !nthN_spec. generalize (N.to_nat p) as j.
    induction H as [|n bits ig' ins' Hn _ IH]; intros j Hj; [destruct j; discriminate|].
    destruct j as [|j]; cbn [nth_error] in *.
    - injection Hj as ->. eauto.
    - eauto. }
  destruct Hb as (bits & Hb & Hl). unfold get_input. rewrite Hb.
  apply nthN_Some. lia.
Qed.

Definition op_reads (o : op) : list N :=
  match o with OXor a b | OAnd a b => [a; b] | ONot a => [a] | OInput _ _ => [] end.

Definition inst_ok (c : rcircuit) (set : list bool) (i : N) (ins : inst) : Prop :=
  iout ins < max_reg_count c /\
  (forall r, In r (op_reads (iop ins)) -> r < max_reg_count c /\ nthN set r = Some true) /\
  match iop ins with
  | OInput p k => i = iout ins /\ exists sz, nthN (input_regs c) p = Some sz /\ k < sz
  | _ => True
  end.

(* validate never panics (it could before the repair: register_set[x] with max_reg_count = 0) *)
Lemma validate_inst_cases c set i ins :
  lenN set = max_reg_count c ->
  (exists e, validate_inst c set i ins = Ok (inl e)) \/
  (exists set', validate_inst c set i ins = Ok (inr set') /\
     setN set (iout ins) true = Some set' /\ inst_ok c set i ins).
Proof.
  intro Hl. unfold inst_ok, validate_inst.
  destruct (N.leb_spec (max_reg_count c) (iout ins)) as [Ho|Ho]; [eauto|].
  destruct (setN_Some set (iout ins) true) as [set' ->]; [lia|].
  assert (Hrd : forall r, r < max_reg_count c -> nthN set r = Some true \/ nthN set r = Some false).
  { intros r Hr. destruct (nthN_Some set r) as [[|] ->]; [lia| |]; auto. }
  destruct (iop ins) as [x y|x y|x|p k]; cbn [op_reads In].
  1,2: destruct (N.leb_spec (max_reg_count c) x) as [Hx|Hx], (N.leb_spec (max_reg_count c) y) as [Hy|Hy];
    cbn [orb]; eauto; destruct (Hrd x Hx) as [Ex|Ex]; rewrite Ex; eauto;
    destruct (Hrd y Hy) as [Ey|Ey]; rewrite Ey; eauto.
  1,2: right; eexists; repeat apply conj; auto; intros r [<-|[<-|[]]]; auto.
  - destruct (N.leb_spec (max_reg_count c) x) as [Hx|Hx]; eauto.
    destruct (Hrd x Hx) as [Ex|Ex]; rewrite Ex; eauto.
    right; eexists; repeat apply conj; auto; intros r [<-|[]]; auto.
  - destruct (N.eqb_spec i (iout ins)); cbn [negb]; eauto.
    destruct (nthN (input_regs c) p) as [sz|];
      [destruct (N.leb_spec sz k)|destruct (N.leb_spec 0 k)]; eauto; [|lia].
    right; eexists; repeat apply conj; eauto. intros r [].
Qed.

Lemma validate_inst_inr c set i ins set' :
  lenN set = max_reg_count c -> validate_inst c set i ins = Ok (inr set') ->
  setN set (iout ins) true = Some set' /\ inst_ok c set i ins.
Proof.
  intros Hl Hv. destruct (validate_inst_cases c set i ins Hl) as [(e & E)|(s & E & H)]; congruence.
Qed.

Lemma validate_inst_ok c set i ins set' :
  inst_ok c set i ins -> setN set (iout ins) true = Some set' ->
  validate_inst c set i ins = Ok (inr set').
Proof.
  intros (Ho & Hr & Hi) Hs. unfold validate_inst. rewrite (leb_false _ _ Ho), Hs.
  destruct (iop ins) as [x y|x y|x|p k]; cbn [op_reads In] in Hr.
  1,2: destruct (Hr x) as [Hx ->]; auto; destruct (Hr y) as [Hy ->]; auto; now rewrite !leb_false.
  - destruct (Hr x) as [Hx ->]; auto. now rewrite leb_false.
  - destruct Hi as (<- & sz & -> & Hk). now rewrite N.eqb_refl, leb_false.
Qed.

Lemma validate_insts_total c l : forall set i,
  lenN set = max_reg_count c ->
  (exists e, validate_insts c set i l = Ok (inl e)) \/
  (exists set', validate_insts c set i l = Ok (inr set') /\ lenN set' = max_reg_count c).
Proof.
  induction l as [|ins0 r IH]; intros set i Hl; cbn [validate_insts]; [eauto|].
  destruct (validate_inst_cases c set i ins0 Hl) as [(e & ->)|(s & -> & Hs & _)]; [eauto|].
  apply IH. now rewrite (setN_len _ _ _ _ Hs).
Qed.

Lemma first_bad_output_None n os :
  first_bad_output n os = None <-> Forall (fun o => o < n) os.
Proof.
  induction os as [|o r IH]; cbn [first_bad_output]; [now split|].
  rewrite Forall_cons_iff, <- IH. destruct (N.leb_spec n o); [|tauto].
  split; [discriminate|lia].
Qed.

Lemma first_unset_output_ok set k os :
  first_unset_output set k os = Ok None <-> Forall (fun o => nthN set o = Some true) os.
Proof.
  induction os as [|o r IH]; cbn [first_unset_output]; [now split|].
  rewrite Forall_cons_iff, <- IH. destruct (nthN set o) as [[|]|]; [tauto|..];
    (split; [discriminate|intros [[=] _]]).
Qed.

Lemma reg_validate_Ok c :
  reg_validate c = Ok None <->
  forallb (N.eqb 0) (input_regs c) = false /\ output_regs c <> [] /\
  Forall (fun o => o < max_reg_count c) (output_regs c) /\ lenN (insts c) <= MAX_GATES_R /\
  exists set, validate_insts c (repeat false (N.to_nat (max_reg_count c))) 0 (insts c) = Ok (inr set) /\
              Forall (fun o => nthN set o = Some true) (output_regs c).
Proof.
  unfold reg_validate. rewrite <- first_bad_output_None.
  destruct (forallb _ (input_regs c)); [split; [discriminate|intuition congruence]|].
  destruct (output_regs c) as [|o0 os0] eqn:Eo; [split; [discriminate|intuition congruence]|].
  rewrite <- Eo. destruct (first_bad_output _ _); [split; [discriminate|intuition congruence]|].
  destruct (N.ltb_spec MAX_GATES_R (lenN (insts c))); [split; [discriminate|lia]|].
  destruct (validate_insts c _ 0 (insts c)) as [[e|set]| |];
    try (split; [discriminate|intros (_ & _ & _ & _ & s & [=] & _)]).
  rewrite first_unset_output_ok. split.
  - intro Hs. repeat apply conj; try congruence; eauto.
  - now intros (_ & _ & _ & _ & s & [= <-] & Hs).
Qed.

(* ---- the loop invariant ---- *)

Section Inv.
  Variable c : rcircuit.
  Variable ins : list (list bool).
  Hypothesis Hshape : shape_ok (input_regs c) ins.

  Definition rel (set : list bool) (regs : list (option bool)) (lregs : list bool) : Prop :=
    lenN set = max_reg_count c /\ lenN regs = max_reg_count c /\ lenN lregs = max_reg_count c /\
    forall r, nthN set r = Some true ->
      exists v, nthN regs r = Some (Some v) /\ nthN lregs r = Some v.

  Lemma rel_rd set regs lregs r :
    rel set regs lregs -> nthN set r = Some true ->
    exists v, rd regs r = Some v /\ nthN lregs r = Some v.
  Proof.
    intros (_ & _ & _ & H) Hr. destruct (H r Hr) as (v & H1 & H2).
    exists v. unfold rd. rewrite H1. auto.
  Qed.

  Lemma validate_inst_step set regs lregs i ins0 set' :
    rel set regs lregs ->
    validate_inst c set i ins0 = Ok (inr set') ->
    exists b regs' lregs',
      op_val_strict ins regs (iop ins0) = Some b /\
      op_val ins lregs (iop ins0) = Some b /\
      setN regs (iout ins0) (Some b) = Some regs' /\
      setN lregs (iout ins0) b = Some lregs' /\
      rel set' regs' lregs'.
  Proof.
    intros Hrel Hv. pose proof Hrel as (Hl1 & Hl2 & Hl3 & Hall).
    destruct (validate_inst_inr _ _ _ _ _ Hl1 Hv) as (Hset & Hout & Hrd & Hin).
    assert (Hop : exists b, op_val_strict ins regs (iop ins0) = Some b /\
                            op_val ins lregs (iop ins0) = Some b).
    { assert (Hr : forall r, In r (op_reads (iop ins0)) ->
                exists v, rd regs r = Some v /\ nthN lregs r = Some v).
      { intros r Hr. apply (rel_rd _ _ _ _ Hrel), Hrd, Hr. }
      destruct (iop ins0) as [x y|x y|x|p k]; cbn [op_val_strict op_val op_reads In] in *.
      1,2: destruct (Hr x) as (vx & -> & ->); auto; destruct (Hr y) as (vy & -> & ->); eauto.
      - destruct (Hr x) as (vx & -> & ->); eauto.
      - destruct Hin as (_ & sz & Hp & Hk).
        destruct (shape_ok_input _ _ _ _ _ Hshape Hp Hk) as [b ->]. eauto. }
    destruct Hop as (b & Hs & Hlx).
    destruct (setN_Some regs (iout ins0) (Some b)) as [regs' Hr']; [lia|].
    destruct (setN_Some lregs (iout ins0) b) as [lregs' Hlr']; [lia|].
    exists b, regs', lregs'. repeat split; auto.
    - rewrite (setN_len _ _ _ _ Hset). exact Hl1.
    - rewrite (setN_len _ _ _ _ Hr'). exact Hl2.
    - rewrite (setN_len _ _ _ _ Hlr'). exact Hl3.
    - intros r Hr. destruct (N.eq_dec (iout ins0) r) as [<-|Hne].
      + exists b. rewrite (setN_same _ _ _ _ Hr'), (setN_same _ _ _ _ Hlr'). auto.
      + rewrite (setN_other _ _ _ _ _ Hset Hne) in Hr.
        rewrite (setN_other _ _ _ _ _ Hr' Hne), (setN_other _ _ _ _ _ Hlr' Hne). auto.
  Qed.

  Lemma validate_insts_run l : forall set regs lregs i set',
    rel set regs lregs ->
    validate_insts c set i l = Ok (inr set') ->
    exists regs' lregs',
      run_insts_strict ins regs l = Some regs' /\
      run_insts ins lregs l = Some lregs' /\
      rel set' regs' lregs'.
  Proof.
    induction l as [|ins0 r IH]; intros set regs lregs i set' Hrel Hv;
      cbn [validate_insts run_insts_strict run_insts] in *.
    - injection Hv as <-. eauto.
    - destruct (validate_inst c set i ins0) as [[e|set1]| |] eqn:Hstep; try discriminate.
      destruct (validate_inst_step _ _ _ _ _ _ Hrel Hstep)
        as (b & regs1 & lregs1 & -> & -> & -> & -> & Hrel1).
      eapply IH; eauto.
  Qed.
End Inv.

Theorem reg_validate_safe c ins :
  reg_validate c = Ok None -> shape_ok (input_regs c) ins ->
  exists out, reg_eval_strict c ins = Some out /\ reg_eval c ins = Some out /\
              length out = length (output_regs c).
Proof.
  unfold reg_eval_strict, reg_eval. intros (_ & _ & _ & _ & set & Hi & Hset)%reg_validate_Ok Hs.
  rewrite (proj2 (shape_check_spec _ _) Hs). cbn [negb].
  assert (Hrel0 : rel c (repeat false (N.to_nat (max_reg_count c)))
                        (repeat None (N.to_nat (max_reg_count c)))
                        (repeat false (N.to_nat (max_reg_count c)))).
  { unfold rel. rewrite !lenN_repeat. repeat split; auto.
    intros r Hr. assert (r < max_reg_count c).
    { apply nthN_lt in Hr. now rewrite lenN_repeat in Hr. }
    rewrite nthN_repeat in Hr by assumption. discriminate. }
  destruct (validate_insts_run c ins Hs _ _ _ _ _ _ Hrel0 Hi) as (regs & lregs & -> & -> & Hrel).
  assert (Hboth : exists out, mapM (rd regs) (output_regs c) = Some out /\
                              mapM (nthN lregs) (output_regs c) = Some out).
  { induction Hset as [|o r Ho _ IH]; cbn [mapM]; [eauto|].
    destruct (rel_rd c _ _ _ o Hrel Ho) as (v & -> & ->).
    destruct IH as (out & -> & ->). eauto. }
  destruct Hboth as (out & H1 & H2).
  exists out. repeat split; auto. eapply mapM_length; eauto.
Qed.

Theorem reg_validate_total c : reg_validate c <> Crash /\ reg_validate c <> OutOfFuel.
Proof.
  unfold reg_validate.
  destruct (forallb (N.eqb 0) (input_regs c)); [split; discriminate|].
  destruct (output_regs c) as [|o0 os0] eqn:Hos; [split; discriminate|]. rewrite <- Hos.
  destruct (first_bad_output (max_reg_count c) (output_regs c)) eqn:Hb; [split; discriminate|].
  destruct (MAX_GATES_R <? lenN (insts c)); [split; discriminate|].
  destruct (validate_insts_total c (insts c) (repeat false (N.to_nat (max_reg_count c))) 0)
    as [(e & ->)|(set & -> & Hl)]; [apply lenN_repeat|split; discriminate|].
  apply first_bad_output_None in Hb. clear Hos.
  induction Hb as [|o r Ho _ IH]; cbn [first_unset_output]; [split; discriminate|].
  destruct (nthN_Some set o) as [[|] ->]; [lia|exact IH|split; discriminate].
Qed.

Example reg_validate_safe_example :
  let c := mkRCircuit [1; 2]
    [mkInst 0 (OInput 0 0); mkInst 1 (OInput 1 0); mkInst 2 (OInput 1 1);
     mkInst 1 (OXor 0 1); mkInst 0 (OAnd 0 2); mkInst 1 (OXor 1 0); mkInst 0 (OAnd 0 1)]
    3 [1; 0] 2 in
  reg_validate c = Ok None /\ reg_eval_strict c [[true]; [false; true]] = Some [false; false].
Proof. split; reflexivity. Qed.
