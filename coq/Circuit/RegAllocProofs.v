(* C10: the register circuit produced by the conversion validates, computes the same
   outputs as the SSA circuit for every input, never reads an unwritten register, needs
   no more registers than there are wires, keeps the AND count and loads the inputs in
   order. *)
From Coq Require Import Permutation.
From GV Require Import Base.Util Base.ListFacts Base.NMap Circuit.Ssa Circuit.Reg Circuit.RegAlloc
  Circuit.SsaProofs Circuit.RegProofs.

(* ---------------------------------------------------------------- last_use_map *)

(* both passes of last_use_map overwrite the entries of a list of wires with one value *)
Definition mark {A} (v : A) (ws : list N) (m : nmap A) : nmap A :=
  fold_left (fun m w => nadd w v m) ws m.

Lemma nfind_mark {A} (v : A) ws : forall m w,
  nfind w (mark v ws m) = if in_dec N.eq_dec w ws then Some v else nfind w m.
Proof.
  induction ws as [|a r IH]; intros m w; cbn [mark fold_left]; [reflexivity|].
  fold (mark v r (nadd a v m)). rewrite IH, nfind_add.
  destruct (in_dec N.eq_dec w r), (in_dec N.eq_dec w (a :: r)) as [H|H]; cbn [In] in H;
    try reflexivity; try tauto; destruct (N.eqb_spec a w); try reflexivity; tauto.
Qed.

Lemma last_use_gates_cons g gt r m :
  last_use_gates g (gt :: r) m = last_use_gates (g + 1) r (mark (LU g) (gate_ops gt) m).
Proof. now destruct gt. Qed.

Lemma pin_outputs_mark os : forall m, pin_outputs os m = mark Pinned os m.
Proof. induction os as [|o r IH]; intro m; [reflexivity|apply IH]. Qed.

Definition later (m : nmap lastuse) (w g : N) : Prop :=
  nfind w m = Some Pinned \/ exists k, nfind w m = Some (LU k) /\ g <= k.

Lemma last_use_gates_mono gs : forall g m w,
  nfind w (last_use_gates g gs m) = nfind w m \/
  exists k, nfind w (last_use_gates g gs m) = Some (LU k) /\ g <= k.
Proof.
  induction gs as [|gt r IH]; intros g m w; [now left|]. rewrite last_use_gates_cons.
  destruct (IH (g + 1) (mark (LU g) (gate_ops gt) m) w) as [E|(k & E & Hk)].
  - rewrite E, nfind_mark. destruct (in_dec N.eq_dec w (gate_ops gt)); [right|now left].
    exists g. split; [reflexivity|lia].
  - right. exists k. split; [exact E|lia].
Qed.

Lemma last_use_gates_uses gs : forall g m j gt w,
  nth_error gs j = Some gt -> In w (gate_ops gt) ->
  exists k, nfind w (last_use_gates g gs m) = Some (LU k) /\ g + N.of_nat j <= k.
Proof.
  induction gs as [|g0 r IH]; intros g m j gt w Hj Hin; [destruct j; discriminate|].
  rewrite last_use_gates_cons. destruct j as [|j]; cbn [nth_error] in Hj.
  - injection Hj as ->.
    destruct (last_use_gates_mono r (g + 1) (mark (LU g) (gate_ops gt) m) w) as [E|(k & E & Hk)].
    + exists g. rewrite E, nfind_mark. destruct (in_dec N.eq_dec w (gate_ops gt)); [|contradiction].
      split; [reflexivity|lia].
    + exists k. split; [exact E|lia].
  - edestruct (IH (g + 1)) as (k & E & Hk); [exact Hj|exact Hin|]. exists k. split; [exact E|lia].
Qed.

Lemma last_use_map_uses c j gt w :
  nth_error (gates c) j = Some gt -> In w (gate_ops gt) ->
  later (last_use_map c) w (num_inputs c + N.of_nat j).
Proof.
  intros Hj Hin. unfold later, last_use_map. rewrite pin_outputs_mark, nfind_mark.
  destruct (in_dec N.eq_dec w (output_gates c)); [now left|right].
  eapply last_use_gates_uses; eauto.
Qed.

Lemma last_use_map_output c o : In o (output_gates c) -> nfind o (last_use_map c) = Some Pinned.
Proof.
  intro H. unfold last_use_map. rewrite pin_outputs_mark, nfind_mark.
  now destruct (in_dec N.eq_dec o (output_gates c)).
Qed.

(* ---------------------------------------------------------------- allocator phases *)

Definition wm_inj (wm : nmap N) : Prop :=
  forall w1 w2 r, nfind w1 wm = Some r -> nfind w2 wm = Some r -> w1 = w2.
Definition wm_bound (wm : nmap N) (next : N) : Prop :=
  forall w r, nfind w wm = Some r -> r < next.
Definition fresh_for (wm : nmap N) (r : N) : Prop := forall w, nfind w wm <> Some r.
Definition sub_wm (wm' wm : nmap N) : Prop :=
  forall w r, nfind w wm' = Some r -> nfind w wm = Some r.
Definition only_dying (lu : nmap lastuse) (g : N) (wm' wm : nmap N) : Prop :=
  forall w, nfind w wm <> None -> nfind w wm' = None -> dies_here lu w g = true.

Record alloc_ok (wm : nmap N) (free : list N) (next : N) : Prop := {
  ao_bound : wm_bound wm next;
  ao_inj : wm_inj wm;
  ao_nodup : NoDup free;
  ao_free : forall r, In r free -> r < next /\ fresh_for wm r
}.

(* a register taken out of the map and not yet given back is a free register set aside *)
Definition held (reuse : option N) (free : list N) : list N :=
  match reuse with Some r => r :: free | None => free end.

Lemma sub_wm_refl wm : sub_wm wm wm.
Proof. intros w r H. exact H. Qed.

Lemma sub_wm_trans a b c : sub_wm a b -> sub_wm b c -> sub_wm a c.
Proof. intros H1 H2 w r E. auto. Qed.

Lemma only_dying_refl lu g wm : only_dying lu g wm wm.
Proof. intros w H1 H2. congruence. Qed.

Lemma only_dying_trans lu g a b c :
  only_dying lu g a b -> only_dying lu g b c -> only_dying lu g a c.
Proof.
  intros H1 H2 w Hc Ha. destruct (nfind w b) eqn:E; [apply H1; congruence|now apply H2].
Qed.

Lemma alloc_release lu g wm free next a r :
  alloc_ok wm free next -> nfind a wm = Some r -> dies_here lu a g = true ->
  alloc_ok (nremove a wm) (r :: free) next /\ sub_wm (nremove a wm) wm /\
  only_dying lu g (nremove a wm) wm.
Proof.
  intros [Hb Hi Hnd Hfr] Ha Hd.
  assert (Hs : sub_wm (nremove a wm) wm).
  { intros w x. rewrite nfind_remove. destruct (a =? w); [discriminate|auto]. }
  split; [|split; [exact Hs|]].
  - constructor.
    + intros w x E. eapply Hb; eauto.
    + intros w1 w2 x E1 E2. eapply Hi; eauto.
    + constructor; [|exact Hnd]. intro Hin. apply (proj2 (Hfr r Hin) a Ha).
    + intros x [<-|Hin].
      * split; [eapply Hb; eauto|]. intros w. rewrite nfind_remove.
        destruct (N.eqb_spec a w) as [->|Hne]; [discriminate|]. intro E. apply Hne. eapply Hi; eauto.
      * destruct (Hfr x Hin) as [H1 H2]. split; [exact H1|]. intros w E. apply (H2 w). auto.
  - intros w H1 H2. rewrite nfind_remove in H2.
    destruct (N.eqb_spec a w) as [<-|Hne]; [exact Hd|congruence].
Qed.

Lemma alloc_perm wm free free' next :
  Permutation free free' -> alloc_ok wm free next -> alloc_ok wm free' next.
Proof.
  intros P [Hb Hi Hnd Hfr]. constructor; auto.
  - eapply Permutation_NoDup; eauto.
  - intros r Hin. apply Hfr. eapply Permutation_in; [symmetry|]; eauto.
Qed.

Lemma alloc_pop wm r free next :
  alloc_ok wm (r :: free) next ->
  alloc_ok wm free next /\ r < next /\ fresh_for wm r /\ ~ In r free.
Proof.
  intros [Hb Hi Hnd Hfr]. inversion Hnd; subst. destruct (Hfr r (or_introl eq_refl)).
  split; [constructor; auto; intros x Hx; apply Hfr; now right|auto].
Qed.

Lemma alloc_bump wm next : alloc_ok wm [] next -> alloc_ok wm [] (next + 1) /\ fresh_for wm next.
Proof.
  intros [Hb Hi Hnd Hfr].
  split; [constructor; auto; [intros w r E|intros r []]|intros w E]; apply Hb in E; lia.
Qed.

Lemma take_a_spec lu wm free next g a :
  alloc_ok wm free next ->
  (dies_here lu a g = true -> nfind a wm <> None) ->
  exists reuse wm1, take_a lu wm g a = Ok (reuse, wm1) /\
    alloc_ok wm1 (held reuse free) next /\ sub_wm wm1 wm /\ only_dying lu g wm1 wm.
Proof.
  intros Hh Hpre. unfold take_a. destruct (dies_here lu a g) eqn:Hd.
  - destruct (nfind a wm) as [ra|] eqn:Ha; [|exfalso; now apply Hpre].
    eexists _, _. split; [reflexivity|]. eapply alloc_release; eauto.
  - exists None, wm. auto using sub_wm_refl, only_dying_refl.
Qed.

Lemma take_b_spec lu g b reuse wm1 free next :
  alloc_ok wm1 (held reuse free) next ->
  exists reuse' wm2 free', take_b lu g b reuse wm1 free = (reuse', wm2, free') /\
    alloc_ok wm2 (held reuse' free') next /\ sub_wm wm2 wm1 /\ only_dying lu g wm2 wm1.
Proof.
  intros Hh. unfold take_b.
  assert (Hsame : exists reuse' wm2 free', (reuse, wm1, free) = (reuse', wm2, free') /\
            alloc_ok wm2 (held reuse' free') next /\ sub_wm wm2 wm1 /\ only_dying lu g wm2 wm1)
    by (eexists _, _, _; eauto using sub_wm_refl, only_dying_refl).
  destruct b as [b|]; [|exact Hsame].
  destruct (dies_here lu b g) eqn:Hd; [|exact Hsame].
  destruct (nfind b wm1) as [rb|] eqn:Hbm; [|exact Hsame].
  destruct (alloc_release lu g _ _ _ b rb Hh Hbm Hd) as (H1 & H2 & H3).
  destruct reuse as [r0|]; eexists _, _, _; (split; [reflexivity|]); cbn [held] in *; auto.
  split; [|auto]. eapply alloc_perm; [apply perm_swap|exact H1].
Qed.

Lemma pick_reg_spec reuse wm2 free next :
  alloc_ok wm2 (held reuse free) next ->
  let '(out, st') := pick_reg reuse wm2 free next in
  wire_map st' = wm2 /\ next <= next_reg st' <= next + 1 /\ out < next_reg st' /\
  fresh_for wm2 out /\ ~ In out (free_regs st') /\
  alloc_ok wm2 (free_regs st') (next_reg st').
Proof.
  intros Hh. unfold pick_reg.
  destruct reuse as [r0|]; [|destruct free as [|r0 free]]; cbn [held wire_map next_reg free_regs] in *.
  1,3: destruct (alloc_pop _ _ _ _ Hh) as (H1 & H2 & H3 & H4); repeat apply conj; auto; lia.
  destruct (alloc_bump _ _ Hh). repeat apply conj; auto; lia.
Qed.

Lemma find_out_reg_spec lu st g a b :
  alloc_ok (wire_map st) (free_regs st) (next_reg st) ->
  (dies_here lu a g = true -> nfind a (wire_map st) <> None) ->
  exists out st', find_out_reg lu st g a b = Ok (out, st') /\
    next_reg st <= next_reg st' <= next_reg st + 1 /\ out < next_reg st' /\
    sub_wm (wire_map st') (wire_map st) /\ only_dying lu g (wire_map st') (wire_map st) /\
    fresh_for (wire_map st') out /\ ~ In out (free_regs st') /\
    alloc_ok (wire_map st') (free_regs st') (next_reg st').
Proof.
  intros Hh Hpre. unfold find_out_reg.
  destruct (take_a_spec lu _ _ _ g a Hh Hpre) as (reuse & wm1 & -> & Hh1 & Hs1 & Hd1).
  cbn [bind].
  destruct (take_b_spec lu g b _ _ _ _ Hh1) as (reuse' & wm2 & free' & -> & Hh2 & Hs2 & Hd2).
  pose proof (pick_reg_spec _ _ _ _ Hh2) as Hp.
  destruct (pick_reg reuse' wm2 free' (next_reg st)) as [out st'].
  destruct Hp as (<- & Hn & Ho & Hf & Hnf & Hh3).
  eexists _, _. split; [reflexivity|].
  eauto 10 using sub_wm_trans, only_dying_trans.
Qed.

Definition reg_of (st : astate) (w : N) : N :=
  match nfind w (wire_map st) with Some r => r | None => 0 end.

Definition reg_op (gt : gate) (f : N -> N) : op :=
  match gt with
  | GXor a b => OXor (f a) (f b)
  | GAnd a b => OAnd (f a) (f b)
  | GNot a => ONot (f a)
  end.

Lemma conv_gate_eq lu st g gt out st' :
  (forall w, In w (gate_ops gt) -> nfind w (wire_map st) = Some (reg_of st w)) ->
  find_out_reg lu st g (hd 0 (gate_ops gt)) (hd_error (tl (gate_ops gt))) = Ok (out, st') ->
  conv_gate lu st g gt =
  Ok (mkInst out (reg_op gt (reg_of st)),
      mkAState (nadd g out (wire_map st')) (free_regs st') (next_reg st')).
Proof.
  intros Hw Ef.
  destruct gt as [a b|a b|a]; cbn [conv_gate gate_ops hd tl hd_error reg_op] in *;
    rewrite !Hw by (cbn; auto); cbn [of_option bind]; now rewrite Ef.
Qed.

Lemma reg_op_reads gt f : op_reads (reg_op gt f) = map f (gate_ops gt).
Proof. now destruct gt. Qed.

Lemma reg_op_val ins gt f vals regs :
  (forall w, In w (gate_ops gt) -> exists v, nthN vals w = Some v /\ nthN regs (f w) = Some v) ->
  exists b, eval_gate vals gt = Some b /\ op_val ins regs (reg_op gt f) = Some b.
Proof.
  intro H. destruct gt as [a b|a b|a]; cbn [eval_gate op_val reg_op gate_ops In] in *.
  1,2: destruct (H a) as (va & -> & ->); auto; destruct (H b) as (vb & -> & ->); eauto.
  destruct (H a) as (va & -> & ->); eauto.
Qed.

(* ---------------------------------------------------------------- simulation invariant *)

(* value part: [vals] are the wire values, [regs] the register file after the
   instructions emitted so far, [set] the register_set of validate *)
Record vinv (rc : rcircuit) (st : astate) (g : N) (vals regs set : list bool) : Prop := {
  vi_val : forall w r, nfind w (wire_map st) = Some r ->
           exists v, nthN vals w = Some v /\ nthN regs r = Some v /\ nthN set r = Some true;
  vi_lens : lenN vals = g /\ lenN regs = max_reg_count rc /\ lenN set = max_reg_count rc
}.

Section Sim.
  Variable lu : nmap lastuse.

  (* allocator part: [g] wires are defined *)
  Record ainv (st : astate) (g : N) : Prop := {
    ai_alloc : alloc_ok (wire_map st) (free_regs st) (next_reg st);
    ai_dom : forall w r, nfind w (wire_map st) = Some r -> w < g;
    ai_gone : forall w, w < g -> nfind w (wire_map st) = None ->
              exists k, nfind w lu = Some (LU k) /\ k < g;
    ai_next : next_reg st <= g
  }.

  Lemma operand_present st g w :
    ainv st g -> w < g -> later lu w g ->
    nfind w (wire_map st) = Some (reg_of st w) /\ reg_of st w < next_reg st.
  Proof.
    intros [Hh Hdom Hgone Hnext] Hw Hlater. unfold reg_of.
    destruct (nfind w (wire_map st)) as [r|] eqn:E.
    - split; [reflexivity|]. now apply (ao_bound _ _ _ Hh w).
    - destruct (Hgone w Hw E) as (k & Hk & Hlt).
      destruct Hlater as [Hp|(k' & Hk' & Hge)]; rewrite Hk in *; [discriminate|].
      injection Hk' as <-. lia.
  Qed.

  Lemma ainv_step st g out st' :
    ainv st g ->
    next_reg st <= next_reg st' <= next_reg st + 1 -> out < next_reg st' ->
    sub_wm (wire_map st') (wire_map st) -> only_dying lu g (wire_map st') (wire_map st) ->
    fresh_for (wire_map st') out -> ~ In out (free_regs st') ->
    alloc_ok (wire_map st') (free_regs st') (next_reg st') ->
    ainv (mkAState (nadd g out (wire_map st')) (free_regs st') (next_reg st')) (g + 1).
  Proof.
    intros [Hh Hdom Hgone Hl4] Hnext Hout Hsub Hdying Hfresh Hnotfree [Hb' Hi' Hnd' Hfr'].
    constructor; cbn [wire_map free_regs next_reg].
    - constructor.
      + intros w r. rewrite nfind_add. destruct (g =? w); [intros [= <-]; exact Hout|apply Hb'].
      + intros w1 w2 r. rewrite !nfind_add.
        destruct (N.eqb_spec g w1) as [<-|N1]; destruct (N.eqb_spec g w2) as [<-|N2]; auto.
        * intros [= <-] E. exfalso. now apply (Hfresh w2).
        * intros E [= <-]. exfalso. now apply (Hfresh w1).
        * apply Hi'.
      + exact Hnd'.
      + intros r Hin. destruct (Hfr' r Hin) as [H1 H2]. split; [exact H1|].
        intros w. rewrite nfind_add. destruct (g =? w); [|apply H2].
        intros [= ->]. contradiction.
    - intros w r. rewrite nfind_add. destruct (N.eqb_spec g w) as [<-|Hne]; [lia|].
      intro E. apply Hsub in E. apply Hdom in E. lia.
    - intros w Hw. rewrite nfind_add. destruct (N.eqb_spec g w) as [<-|Hne]; [discriminate|].
      intro E. assert (Hw' : w < g) by lia.
      destruct (nfind w (wire_map st)) eqn:E0.
      + assert (Hd : dies_here lu w g = true) by (apply Hdying; congruence).
        unfold dies_here in Hd. destruct (nfind w lu) as [[l|]|]; try discriminate.
        apply N.eqb_eq in Hd. subst l. exists g. split; [reflexivity|lia].
      + destruct (Hgone w Hw' E0) as (k & Hk & Hlt). exists k. split; [exact Hk|lia].
    - lia.
  Qed.

  Lemma vinv_step rc st g vals regs set out st' v regs' set' :
    ainv st g -> vinv rc st g vals regs set ->
    sub_wm (wire_map st') (wire_map st) -> fresh_for (wire_map st') out ->
    setN regs out v = Some regs' -> setN set out true = Some set' ->
    vinv rc (mkAState (nadd g out (wire_map st')) (free_regs st') (next_reg st')) (g + 1)
         (vals ++ [v]) regs' set'.
  Proof.
    intros [_ Hdom _ _] [Hval (Hl1 & Hl2 & Hl3)] Hsub Hfresh Hregs Hset.
    constructor; cbn [wire_map free_regs next_reg].
    - intros w r. rewrite nfind_add. destruct (N.eqb_spec g w) as [<-|Hne].
      + intros [= <-]. exists v. rewrite <- Hl1. split; [apply nthN_app_here|].
        split; [eapply setN_same; eauto|eapply setN_same; eauto].
      + intro E. assert (Hro : out <> r) by (intros ->; now apply (Hfresh w)).
        pose proof (Hsub _ _ E) as E0. destruct (Hval w r E0) as (x & H1 & H2 & H3).
        exists x. split; [rewrite nthN_app_l; [exact H1|]; apply Hdom in E0; lia|].
        split.
        * rewrite (setN_other _ _ _ _ _ Hregs Hro). exact H2.
        * rewrite (setN_other _ _ _ _ _ Hset Hro). exact H3.
    - rewrite lenN_app, lenN_cons, lenN_nil, (setN_len _ _ _ _ Hregs), (setN_len _ _ _ _ Hset).
      repeat split; lia.
  Qed.

  Definition step_sim (st : astate) (g : N) (gt : gate) (i : inst) (st' : astate) : Prop :=
    forall ins rc vals regs set, vinv rc st g vals regs set -> next_reg st' <= max_reg_count rc ->
      exists b regs' set', eval_gate vals gt = Some b /\
        op_val ins regs (iop i) = Some b /\ setN regs (iout i) b = Some regs' /\
        (forall pos, validate_inst rc set pos i = Ok (inr set')) /\
        vinv rc st' (g + 1) (vals ++ [b]) regs' set'.

  Lemma conv_gate_sim st g gt :
    ainv st g -> gate_ok g gt = true ->
    (forall w, In w (gate_ops gt) -> later lu w g) ->
    exists i st', conv_gate lu st g gt = Ok (i, st') /\
      next_reg st <= next_reg st' /\ ainv st' (g + 1) /\ step_sim st g gt i st'.
  Proof.
    intros Hinv Hok Hlater. pose proof Hinv as [Hh _ _ Hl4].
    assert (Hop : forall w, In w (gate_ops gt) ->
              nfind w (wire_map st) = Some (reg_of st w) /\ reg_of st w < next_reg st).
    { intros w Hw. apply (operand_present st g); auto. now apply (proj1 (gate_ok_ops g gt) Hok). }
    destruct (find_out_reg_spec lu st g (hd 0 (gate_ops gt)) (hd_error (tl (gate_ops gt))) Hh)
      as (out & st1 & Ef & Hn & Ho & Hsub & Hdy & Hfr & Hnf & Hh1).
    { intros _. destruct (Hop (hd 0 (gate_ops gt))) as [E _]; [destruct gt; now left|congruence]. }
    eexists _, _. split; [apply conv_gate_eq; [intros; now apply Hop|exact Ef]|].
    cbn [next_reg]. split; [lia|]. split; [eapply ainv_step; eauto|].
    intros ins rc vals regs set Hv HM. cbn [next_reg] in HM.
    pose proof Hv as [Hval (Hl1 & Hl2 & Hl3)].
    destruct (reg_op_val ins gt (reg_of st) vals regs) as (b & Eb & Eo).
    { intros w Hw. destruct (Hval w _ (proj1 (Hop w Hw))) as (v & ? & ? & _). eauto. }
    destruct (setN_Some regs out b) as [regs' Hr']; [lia|].
    destruct (setN_Some set out true) as [set' Hs']; [lia|].
    exists b, regs', set'. cbn [iop iout]. repeat apply conj; auto.
    - intro pos. apply validate_inst_ok; [|exact Hs']. unfold inst_ok. cbn [iop iout].
      split; [lia|]. split; [|now destruct gt].
      rewrite reg_op_reads. intros r (w & <- & Hw)%in_map_iff.
      destruct (Hop w Hw) as [E Hlt]. destruct (Hval w _ E) as (v & _ & _ & Es).
      split; [lia|exact Es].
    - eapply vinv_step; eauto.
  Qed.

  Lemma conv_gates_sim gs : forall st g,
    ainv st g -> validate_gates g gs = None ->
    (forall j gt w, nth_error gs j = Some gt -> In w (gate_ops gt) -> later lu w (g + N.of_nat j)) ->
    exists is st', conv_gates lu st g gs = Ok (is, st') /\
      next_reg st <= next_reg st' /\ lenN is = lenN gs /\ ainv st' (g + lenN gs) /\
      forall ins rc vals regs set, vinv rc st g vals regs set -> next_reg st' <= max_reg_count rc ->
       exists vals' regs' set', eval_gates vals gs = Some vals' /\
         run_insts ins regs is = Some regs' /\
         (forall pos, validate_insts rc set pos is = Ok (inr set')) /\
         vinv rc st' (g + lenN gs) vals' regs' set'.
  Proof.
    induction gs as [|gt r IH]; intros st g Hinv Hval Hlater;
      cbn [conv_gates validate_gates eval_gates] in *.
    - exists [], st. split; [reflexivity|]. split; [lia|]. split; [reflexivity|].
      rewrite lenN_nil, N.add_0_r. split; [exact Hinv|]. intros ins rc vals regs set Hv _.
      exists vals, regs, set. cbn [run_insts validate_insts]. auto.
    - destruct (gate_ok g gt) eqn:Hok; [|discriminate].
      destruct (conv_gate_sim st g gt Hinv Hok) as (i & st1 & -> & Hn1 & Hinv1 & Hstep).
      { intros w Hin. specialize (Hlater O gt w eq_refl Hin). now rewrite N.add_0_r in Hlater. }
      cbn [bind].
      destruct (IH st1 (g + 1) Hinv1 Hval) as (is & st' & -> & Hn2 & Hlen & Hinv' & Hrest).
      { intros j gt' w Hj Hin. specialize (Hlater (S j) gt' w Hj Hin).
        replace (g + 1 + N.of_nat j) with (g + N.of_nat (S j)) by lia. exact Hlater. }
      cbn [bind]. exists (i :: is), st'. split; [reflexivity|]. split; [lia|].
      split; [rewrite !lenN_cons; lia|].
      rewrite lenN_cons. replace (g + (1 + lenN r)) with (g + 1 + lenN r) by lia.
      split; [exact Hinv'|]. intros ins rc vals regs set Hv HM.
      destruct (Hstep ins rc vals regs set Hv) as (b & regs1 & set1 & Eb & Eop & Eset & Hvi & Hv1); [lia|].
      destruct (Hrest ins rc _ _ _ Hv1 HM) as (vals' & regs' & set' & Ev & Er & Evs & Hv').
      exists vals', regs', set'. rewrite Eb. cbn [run_insts validate_insts].
      rewrite Eop, Eset. split; [exact Ev|]. split; [exact Er|]. split; [|exact Hv'].
      intro pos. rewrite Hvi. apply Evs.
  Qed.
End Sim.
(* ---------------------------------------------------------------- inputs *)

Definition ival (ins : list (list bool)) (o : op) : option bool :=
  match o with OInput p k => get_input ins p k | _ => None end.

Definition valid_input (ir : list N) (o : op) : Prop :=
  match o with OInput p k => exists sz, nthN ir p = Some sz /\ k < sz | _ => False end.

Lemma mapM_app {A B} (f : A -> option B) l1 l2 :
  mapM f (l1 ++ l2) =
  match mapM f l1, mapM f l2 with Some a, Some b => Some (a ++ b) | _, _ => None end.
Proof.
  induction l1 as [|x r IH]; cbn [mapM app].
  - now destruct (mapM f l2).
  - destruct (f x); [|reflexivity]. rewrite IH.
    destruct (mapM f r); [|reflexivity]. now destruct (mapM f l2).
Qed.

Lemma mapM_seq_nth {A} (l pre : list A) :
  mapM (fun k => nth_error (pre ++ l) k) (seq (length pre) (length l)) = Some l.
Proof.
  revert pre. induction l as [|x r IH]; intro pre; cbn [length seq mapM]; [reflexivity|].
  rewrite nth_error_app2 by lia. rewrite Nat.sub_diag. cbn [nth_error].
  specialize (IH (pre ++ [x])). rewrite <- app_assoc in IH. cbn [app] in IH.
  rewrite app_length in IH. cbn [length] in IH. rewrite Nat.add_1_r in IH. now rewrite IH.
Qed.

Lemma skipn_cons_nth {A} (l : list A) : forall p x r,
  skipn p l = x :: r -> nth_error l p = Some x /\ skipn (S p) l = r.
Proof.
  induction l as [|y l IH]; intros p x r H.
  - destruct p; discriminate.
  - destruct p as [|p]; cbn [skipn] in H.
    + injection H as -> ->. split; reflexivity.
    + cbn [nth_error]. apply IH in H. destruct H as [H1 H2]. split; [exact H1|exact H2].
Qed.

Lemma input_ops_len ig : forall p, lenN (input_ops p ig) = sumN ig.
Proof.
  induction ig as [|n r IH]; intro p; cbn [input_ops sumN]; [reflexivity|].
  rewrite lenN_app, IH. unfold lenN at 1. rewrite map_length, seq_length. lia.
Qed.

Lemma input_ops_vals ins_all ig : forall p0 v,
  load_inputs ig (skipn p0 ins_all) = Some v ->
  mapM (ival ins_all) (input_ops (N.of_nat p0) ig) = Some v.
Proof.
  induction ig as [|n r IH]; intros p0 v H; cbn [input_ops].
  - destruct (skipn p0 ins_all); cbn [load_inputs] in H; [|discriminate]. injection H as <-. reflexivity.
  - destruct (skipn p0 ins_all) as [|bits rest] eqn:Hs; cbn [load_inputs] in H; [discriminate|].
    destruct (lenN bits =? n) eqn:Hn; [|discriminate]. apply N.eqb_eq in Hn.
    destruct (load_inputs r rest) as [v'|] eqn:Hl; [|discriminate]. injection H as <-.
    destruct (skipn_cons_nth _ _ _ _ Hs) as [Hnth Hs'].
    rewrite mapM_app.
    replace (N.of_nat p0 + 1) with (N.of_nat (S p0)) by lia.
    rewrite (IH (S p0) v') by (rewrite Hs'; exact Hl).
    assert (E : mapM (ival ins_all) (map (fun k => OInput (N.of_nat p0) (N.of_nat k)) (seq 0 (N.to_nat n)))
                = Some bits).
    { assert (Hlen : N.to_nat n = length bits) by (unfold lenN in Hn; lia).
      rewrite Hlen. transitivity (mapM (fun k => nth_error bits k) (seq 0 (length bits)));
        [|exact (mapM_seq_nth bits [])].
      generalize (seq 0 (length bits)). intro l. induction l as [|k l IHl]; cbn [map mapM]; [reflexivity|].
      cbn [ival]. unfold get_input. rewrite nthN_spec, Nat2N.id, Hnth, nthN_spec, Nat2N.id.
      destruct (nth_error bits k); [|reflexivity]. now rewrite IHl. }
    now rewrite E.
Qed.

Lemma input_ops_valid ig_all ig : forall p0,
  skipn p0 ig_all = ig -> Forall (valid_input ig_all) (input_ops (N.of_nat p0) ig).
Proof.
  induction ig as [|n r IH]; intros p0 Hs; cbn [input_ops]; [constructor|].
  destruct (skipn_cons_nth _ _ _ _ Hs) as [Hnth Hs'].
  apply Forall_app. split.
  - apply Forall_forall. intros o Hin. apply in_map_iff in Hin. destruct Hin as (k & <- & Hk).
    apply in_seq in Hk. cbn [valid_input]. exists n.
    rewrite nthN_spec, Nat2N.id. split; [exact Hnth|lia].
  - replace (N.of_nat p0 + 1) with (N.of_nat (S p0)) by lia. now apply IH.
Qed.

Section Inputs.
  Variable lu : nmap lastuse.
  Variable ins : list (list bool).
  Variable rc : rcircuit.

  Lemma input_step_ainv i m :
    ainv lu (mkAState m [] i) i -> ainv lu (mkAState (nadd i i m) [] (i + 1)) (i + 1).
  Proof.
    intro Ha. pose proof Ha as [Hh _ _ _]. cbn [wire_map free_regs next_reg] in Hh.
    destruct (alloc_bump _ _ Hh) as [Hh' Hfr].
    apply (ainv_step lu (mkAState m [] i) i i (mkAState m [] (i + 1)));
      cbn [wire_map free_regs next_reg]; auto using sub_wm_refl, only_dying_refl; lia.
  Qed.

  Lemma input_phase_ainv ops : forall i m,
    ainv lu (mkAState m [] i) i ->
    ainv lu (mkAState (init_wire_map (number_insts i ops) m) [] (i + lenN ops)) (i + lenN ops).
  Proof.
    induction ops as [|o r IH]; intros i m Ha; cbn [number_insts init_wire_map].
    - rewrite lenN_nil, N.add_0_r. exact Ha.
    - cbn [iout]. rewrite lenN_cons. replace (i + (1 + lenN r)) with (i + 1 + lenN r) by lia.
      apply IH. now apply input_step_ainv.
  Qed.

  Lemma input_phase_vinv ops : forall i m vals regs set v,
    ainv lu (mkAState m [] i) i -> vinv rc (mkAState m [] i) i vals regs set ->
    mapM (ival ins) ops = Some v -> Forall (valid_input (input_regs rc)) ops ->
    i + lenN ops <= max_reg_count rc ->
    exists regs' set', run_insts ins regs (number_insts i ops) = Some regs' /\
      validate_insts rc set i (number_insts i ops) = Ok (inr set') /\
      vinv rc (mkAState (init_wire_map (number_insts i ops) m) [] (i + lenN ops)) (i + lenN ops)
           (vals ++ v) regs' set'.
  Proof.
    induction ops as [|o r IH]; intros i m vals regs set v Ha Hv Hm Hf HM;
      cbn [number_insts init_wire_map mapM run_insts validate_insts] in *.
    - injection Hm as <-. exists regs, set. rewrite app_nil_r, lenN_nil, N.add_0_r. auto.
    - destruct (ival ins o) as [b|] eqn:Eb; [|discriminate].
      destruct (mapM (ival ins) r) as [v'|] eqn:Ev; [|discriminate]. injection Hm as <-.
      inversion Hf as [|? ? Hvo Hf']; subst. rewrite lenN_cons in HM.
      destruct o as [? ?|? ?|?|p k]; cbn [ival valid_input] in *; try contradiction.
      pose proof Hv as [_ (Hl1 & Hl2 & Hl3)]. pose proof Ha as [Hh _ _ _].
      cbn [wire_map free_regs next_reg] in Hh.
      destruct (setN_Some regs i b) as [regs1 Hr1]; [lia|].
      destruct (setN_Some set i true) as [set1 Hs1]; [lia|].
      cbn [iop iout op_val]. rewrite Eb, Hr1.
      assert (Hvi : validate_inst rc set i (mkInst i (OInput p k)) = Ok (inr set1)).
      { apply validate_inst_ok; [|exact Hs1]. unfold inst_ok. cbn [iop iout op_reads].
        split; [lia|]. split; [intros x []|split; [reflexivity|exact Hvo]]. }
      rewrite Hvi.
      destruct (alloc_bump _ _ Hh) as [_ Hfresh].
      pose proof (input_step_ainv i m Ha) as Ha1.
      assert (Hv1 : vinv rc (mkAState (nadd i i m) [] (i + 1)) (i + 1) (vals ++ [b]) regs1 set1).
      { apply (vinv_step lu rc (mkAState m [] i) i vals regs set i (mkAState m [] (i + 1)) b);
          cbn [wire_map]; auto. apply sub_wm_refl. }
      destruct (IH (i + 1) (nadd i i m) (vals ++ [b]) regs1 set1 v' Ha1 Hv1 eq_refl Hf')
        as (regs' & set' & Er & Es & Hv'); [lia|].
      exists regs', set'. rewrite lenN_cons.
      replace (i + (1 + lenN r)) with (i + 1 + lenN r) by lia.
      split; [exact Er|]. split; [exact Es|].
      rewrite <- app_assoc in Hv'. exact Hv'.
  Qed.
End Inputs.

(* ---------------------------------------------------------------- assembly *)

Lemma run_insts_app ins l1 : forall regs l2,
  run_insts ins regs (l1 ++ l2) =
  match run_insts ins regs l1 with Some r1 => run_insts ins r1 l2 | None => None end.
Proof.
  induction l1 as [|i r IH]; intros regs l2; cbn [app run_insts]; [reflexivity|].
  destruct (op_val ins regs (iop i)); [|reflexivity].
  destruct (setN regs (iout i) b); [apply IH|reflexivity].
Qed.

Lemma validate_insts_app c l1 : forall set i l2,
  validate_insts c set i (l1 ++ l2) =
  match validate_insts c set i l1 with
  | Ok (inr s1) => validate_insts c s1 (i + lenN l1) l2
  | other => other
  end.
Proof.
  induction l1 as [|x r IH]; intros set i l2; cbn [app validate_insts].
  - now rewrite lenN_nil, N.add_0_r.
  - destruct (validate_inst c set i x) as [[e|s]| |]; try reflexivity.
    rewrite IH, lenN_cons. replace (i + 1 + lenN r) with (i + (1 + lenN r)) by lia. reflexivity.
Qed.

Lemma number_insts_len ops : forall i, lenN (number_insts i ops) = lenN ops.
Proof.
  induction ops as [|o r IH]; intro i; cbn [number_insts]; [reflexivity|].
  now rewrite !lenN_cons, IH.
Qed.

Lemma sumN_pos_not_all_zero l : 0 < sumN l -> forallb (N.eqb 0) l = false.
Proof.
  induction l as [|x r IH]; cbn [sumN forallb]; [lia|]. intro H.
  destruct (N.eqb_spec 0 x) as [<-|Hne]; [|reflexivity]. apply IH. lia.
Qed.

Lemma gate_ok_zero g : gate_ok 0 g = false.
Proof.
  assert (H : forall x, (0 <=? x) = true) by (intro; apply N.leb_le; lia).
  destruct g; cbn [gate_ok]; rewrite !H; reflexivity.
Qed.

Lemma alloc_empty next : alloc_ok nempty [] next.
Proof.
  constructor; [intros w r E|intros w1 w2 r E|constructor|intros r []]; now rewrite nfind_empty in E.
Qed.

Theorem convert_correct c :
  ssa_validate c = None ->
  exists r, convert c = Ok r /\
    reg_validate r = Ok None /\
    (forall ins, reg_eval r ins = ssa_eval c ins) /\
    max_reg_count r <= wires_len c /\
    and_ops r = and_gates c /\
    input_regs r = input_gates c /\
    exists rest, insts r = number_insts 0 (input_ops 0 (input_gates c)) ++ rest /\
                 lenN rest = lenN (gates c).
Proof.
  intros (Hin & Hg & Hos & Ho & Hmax)%ssa_validate_None. rewrite Forall_forall in Ho.
  set (lu := last_use_map c). set (n := num_inputs c) in *.
  set (iops := input_ops 0 (input_gates c)).
  assert (Hnlen : lenN iops = n) by apply input_ops_len.
  (* at least one input bit: an output names a wire, and a first gate would read wire 0 *)
  assert (Hnpos : 0 < n).
  { destruct (N.eq_dec n 0) as [E|E]; [|lia]. exfalso.
    destruct (output_gates c) as [|o0 os0]; [congruence|]. specialize (Ho o0 (or_introl eq_refl)).
    unfold wires_len in Ho. fold n in Ho.
    destruct (gates c) as [|g0 gs]; [rewrite lenN_nil in Ho; lia|].
    cbn [validate_gates] in Hg. rewrite E, gate_ok_zero in Hg. discriminate. }
  assert (Ha0 : ainv lu (mkAState nempty [] 0) 0).
  { constructor; cbn [wire_map free_regs next_reg]; [apply alloc_empty| | |]; try lia.
    intros w r E. rewrite nfind_empty in E. discriminate. }
  pose proof (input_phase_ainv lu iops 0 nempty Ha0) as Ha1.
  rewrite Hnlen, N.add_0_l in Ha1.
  set (st0 := mkAState (init_wire_map (number_insts 0 iops) nempty) [] n) in *.
  destruct (conv_gates_sim lu (gates c) st0 n Ha1 Hg)
    as (is & st' & Econv & Hmono & Hislen & Ha' & Hrest).
  { intros. eapply last_use_map_uses; eauto. }
  cbn [next_reg st0] in Hmono.
  assert (Hout : forall o, In o (output_gates c) ->
            nfind o (wire_map st') = Some (reg_of st' o) /\ reg_of st' o < next_reg st').
  { intros o Hi. apply (operand_present lu st' (n + lenN (gates c)) o Ha' (Ho o Hi)).
    left. now apply last_use_map_output. }
  set (r := mkRCircuit (input_gates c) (number_insts 0 iops ++ is) (next_reg st')
                       (map (reg_of st') (output_gates c)) (and_gates c)).
  assert (Hconv : convert c = Ok r).
  { unfold convert. fold lu n iops st0. rewrite Econv. cbn [bind].
    rewrite (mapM_res_map _ (reg_of st')); [reflexivity|].
    intros o Hi. now rewrite (proj1 (Hout o Hi)). }
  (* the simulation for inputs of the right shape *)
  assert (Hsim : forall ins v0, load_inputs (input_gates c) ins = Some v0 ->
            exists vals' regs' set',
              eval_gates v0 (gates c) = Some vals' /\
              run_insts ins (repeat false (N.to_nat (next_reg st'))) (insts r) = Some regs' /\
              validate_insts r (repeat false (N.to_nat (next_reg st'))) 0 (insts r) = Ok (inr set') /\
              vinv r st' (n + lenN (gates c)) vals' regs' set').
  { intros ins v0 Hload.
    assert (Hv0 : vinv r (mkAState nempty [] 0) 0 [] (repeat false (N.to_nat (next_reg st')))
                       (repeat false (N.to_nat (next_reg st')))).
    { constructor; cbn [wire_map max_reg_count r].
      - intros w x E. rewrite nfind_empty in E. discriminate.
      - rewrite !lenN_repeat. auto. }
    destruct (input_phase_vinv lu ins r iops 0 nempty [] _ _ v0 Ha0 Hv0)
      as (regs1 & set1 & Er1 & Es1 & Hv1).
    { apply (input_ops_vals ins (input_gates c) O v0). exact Hload. }
    { apply (input_ops_valid (input_gates c) (input_gates c) O). reflexivity. }
    { cbn [max_reg_count r]. lia. }
    rewrite Hnlen, N.add_0_l in Hv1. cbn [app] in Hv1. fold st0 in Hv1.
    destruct (Hrest ins r v0 regs1 set1 Hv1) as (vals' & regs' & set' & Ev & Er & Evs & Hv');
      [cbn [max_reg_count r]; lia|].
    exists vals', regs', set'. cbn [insts r].
    rewrite run_insts_app, Er1, validate_insts_app, Es1. auto. }
  exists r. split; [exact Hconv|]. split; [|split; [|split; [|split; [|split]]]].
  - (* validate: run the simulation on all-zero inputs *)
    destruct (proj1 (load_inputs_Some (input_gates c)
                (map (fun k => repeat false (N.to_nat k)) (input_gates c)))) as (v0 & Hload).
    { unfold shape_ok. clear. induction (input_gates c); constructor; auto. apply lenN_repeat. }
    destruct (Hsim _ _ Hload) as (vals' & regs' & set' & _ & _ & Es & [Hval _]).
    apply reg_validate_Ok. cbn [input_regs output_regs max_reg_count r].
    split; [now apply sumN_pos_not_all_zero|].
    split; [intros E%map_eq_nil; contradiction|].
    split; [apply Forall_map, Forall_forall; intros o Hi; now apply Hout|].
    split.
    { cbn [insts r]. rewrite lenN_app, number_insts_len, Hnlen, Hislen.
      unfold MAX_GATES_R. unfold MAX_GATES, wires_len in Hmax. fold n in Hmax. lia. }
    exists set'. split; [exact Es|]. apply Forall_map, Forall_forall. intros o Hi.
    now destruct (Hval o _ (proj1 (Hout o Hi))) as (v & _ & _ & E).
  - (* evaluation *)
    intro ins. unfold reg_eval, ssa_eval, ssa_wire_vals. cbn [input_regs max_reg_count output_regs r].
    destruct (load_inputs (input_gates c) ins) as [v0|] eqn:Hload.
    + rewrite (proj2 (shape_check_spec _ _)) by (apply load_inputs_Some; eauto). cbn [negb].
      destruct (Hsim _ _ Hload) as (vals' & regs' & set' & -> & -> & _ & [Hval _]).
      rewrite mapM_map. apply mapM_ext_in. intros o Hi.
      now destruct (Hval o _ (proj1 (Hout o Hi))) as (v & -> & -> & _).
    + destruct (shape_check (input_gates c) ins) eqn:Hsc; [|reflexivity].
      apply shape_check_spec, load_inputs_Some in Hsc. destruct Hsc as [v E]. congruence.
  - cbn [max_reg_count r]. destruct Ha' as [_ _ _ Hn]. exact Hn.
  - reflexivity.
  - reflexivity.
  - exists is. split; [reflexivity|exact Hislen].
Qed.

Example convert_example :
  convert (mkCircuit [1; 2] [GXor 0 1; GAnd 0 2; GXor 3 4; GAnd 4 5] [5; 6]) =
  Ok (mkRCircuit [1; 2]
        [mkInst 0 (OInput 0 0); mkInst 1 (OInput 1 0); mkInst 2 (OInput 1 1);
         mkInst 1 (OXor 0 1); mkInst 0 (OAnd 0 2); mkInst 1 (OXor 1 0); mkInst 0 (OAnd 0 1)]
        3 [1; 0] 2).
Proof. reflexivity. Qed.
