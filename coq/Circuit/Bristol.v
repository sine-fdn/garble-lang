(* Model of garble_lang::convert (src/convert.rs): Circuit::format_as_bristol (export) and
   Circuit::bristol_to_garble + parse_line (import), on *token lines*.

   A Bristol file is a list of lines, a line is the list of its whitespace-separated tokens.
   A token is [TNum n] when Rust's [str::parse::<usize>] accepts it (value n <= 2^64-1) and a
   word otherwise; of the words only XOR / AND / INV are distinguished.  Splitting text into
   lines and tokens and reading decimal numbers is glue on both sides of the tie (the Rust
   side runs the real tokeniser: it writes the lines to a file and calls the importer).

   [Crash] = the Rust code panics here: usize overflow (debug build), slice/index out of
   range, or an allocation whose size exceeds the limit parameter [lim].
   The import model follows the *repaired* importer (fixes 2e307c9 and 9ad46a2: checked
   sums, header consistency, no allocation sized by the header). *)
From GV Require Import Base.Util Circuit.Ssa.

Inductive word := WXor | WAnd | WInv | WOther.
Inductive tok := TNum (n : N) | TWord (w : word).
Definition line := list tok.

Definition USIZE_MAX : N := 18446744073709551615.
Definition PANIC_BITS : nat := 161.          (* PANIC_RESULT_SIZE_IN_BITS = 1 + 5 * 32 *)

(* usize arithmetic as the debug build performs it *)
Definition cadd (a b : N) : res N := if a + b <=? USIZE_MAX then Ok (a + b) else Crash.
Definition csub (a b : N) : res N := if b <=? a then Ok (a - b) else Crash.
(* iter().sum::<usize>() : partial sums are monotone, so it overflows iff the total does *)
Definition csum (l : list N) : res N := if sumN l <=? USIZE_MAX then Ok (sumN l) else Crash.
(* usize::checked_add and the checked sum the repaired importer uses *)
Definition checked_add (a b : N) : option N := if a + b <=? USIZE_MAX then Some (a + b) else None.
Definition checked_sum (l : list N) : option N := if sumN l <=? USIZE_MAX then Some (sumN l) else None.
(* vec![0; n], (0..n).collect() : sizes beyond [lim] words abort/panic *)
Definition alloc (lim n : N) : res unit := if n <=? lim then Ok tt else Crash.

(* l[a..b] *)
Definition slice {A} (l : list A) (a b : N) : res (list A) :=
  if (a <=? b) && (b <=? lenN l) then Ok (firstn (N.to_nat (b - a)) (skipn (N.to_nat a) l))
  else Crash.

Fixpoint last_opt {A} (l : list A) : option A :=
  match l with
  | [] => None
  | [a] => Some a
  | _ :: r => last_opt r
  end.

(* ------------------------------------------------------------------------------------ *)
(* Export: format_as_bristol (convert.rs:158-268)                                        *)

Inductive xerr :=
| XOutputWireIsInput
| XIoError.                (* file system; never produced by the model *)

(* the loop that de-aliases repeated outputs (convert.rs:183-196); [seen] holds the original
   values only, exactly as the HashSet does *)
Fixpoint dealias (outs seen : list N) (wmax : N) : res (list gate * list N * N) :=
  match outs with
  | [] => Ok ([], [], wmax)
  | o :: r =>
      if existsb (N.eqb o) seen then
        let* w1 := cadd wmax 1 in
        let* w2 := cadd wmax 2 in
        let* x := dealias r seen w2 in
        let '(gs, os, w) := x in
        Ok (GXor o o :: GXor o wmax :: gs, w1 :: os, w)
      else
        let* x := dealias r (o :: seen) wmax in
        let '(gs, os, w) := x in
        Ok (gs, o :: os, w)
  end.

(* HashMap built by collect(): a later duplicate overwrites, so the *last* position wins *)
Fixpoint pos_last (l : list N) (x : N) : option N :=
  match l with
  | [] => None
  | y :: r =>
      match pos_last r x with
      | Some k => Some (k + 1)
      | None => if y =? x then Some 0 else None
      end
  end.

Fixpoint nseq (n : nat) (a : N) : list N :=
  match n with
  | O => []
  | S k => a :: nseq k (a + 1)
  end.

(* the loop filling wires_map for the non-input wires (convert.rs:232-240) *)
Fixpoint wmap_gates (n : nat) (i oc tw : N) (outs : list N) : res (list N) :=
  match n with
  | O => Ok []
  | S n' =>
      match pos_last outs i with
      | Some idx =>
          let* base := csub tw (lenN outs) in
          let* v := cadd base idx in
          let* r := wmap_gates n' (i + 1) (oc + 1) tw outs in
          Ok (v :: r)
      | None =>
          let* v := csub i oc in
          let* r := wmap_gates n' (i + 1) oc tw outs in
          Ok (v :: r)
      end
  end.

Definition exp_gate (W : list N) (i : N) (g : gate) : res line :=
  match g with
  | GXor x y =>
      let* a := of_option (nthN W x) in
      let* b := of_option (nthN W y) in
      let* o := of_option (nthN W i) in
      Ok [TNum 2; TNum 1; TNum a; TNum b; TNum o; TWord WXor]
  | GAnd x y =>
      let* a := of_option (nthN W x) in
      let* b := of_option (nthN W y) in
      let* o := of_option (nthN W i) in
      Ok [TNum 2; TNum 1; TNum a; TNum b; TNum o; TWord WAnd]
  | GNot x =>
      let* a := of_option (nthN W x) in
      let* o := of_option (nthN W i) in
      Ok [TNum 1; TNum 1; TNum a; TNum o; TWord WInv]
  end.

Fixpoint exp_gates (W : list N) (i : N) (gs : list gate) : res (list line) :=
  match gs with
  | [] => Ok []
  | g :: r =>
      let* l := exp_gate W i g in
      let* ls := exp_gates W (i + 1) r in
      Ok (l :: ls)
  end.

Definition export (lim : N) (c : circuit) : res (list line + xerr) :=
  let* tig := csum (input_gates c) in
  let* tw := cadd (lenN (gates c)) tig in
  if lenN (output_gates c) <? N.of_nat PANIC_BITS then Crash else
  let outs := skipn PANIC_BITS (output_gates c) in
  let* _ := alloc lim tig in
  if existsb (fun w => w <? tig) outs then Ok (inr XOutputWireIsInput) else
  let* x := dealias outs [] tw in
  let '(extra, outs', tw') := x in
  let gs := gates c ++ extra in
  let* _ := alloc lim tw' in
  let* wg := wmap_gates (N.to_nat (tw' - tig)) tig 0 tw' outs' in
  let W := nseq (N.to_nat tig) 0 ++ wg in
  let* ls := exp_gates W tig gs in
  Ok (inl ([TNum (lenN gs); TNum tw']
             :: (TNum (lenN (input_gates c)) :: map TNum (input_gates c))
             :: [TNum 1; TNum (lenN outs')]
             :: []
             :: ls)).

(* ------------------------------------------------------------------------------------ *)
(* Import: bristol_to_garble (convert.rs:270-, repaired) and parse_line                   *)

Inductive ierr :=
| IOtherParse                         (* OtherParseError: a header token is not a usize *)
| IParseInt                           (* ParseIntError: a gate-line number is not a usize *)
| IUnknownGate
| IMissingGateType
| IMissingLine
| IInputPartiesMismatch (actual expected : N)
| IOutputCountMismatch (actual expected : N)
| IMalformedLine (l : line)
| IInvalidWireIndex (w : N).

Definition ires (A : Type) : Type := res (A + ierr).
Definition ret {A} (a : A) : ires A := Ok (inl a).
Definition fail {A} (e : ierr) : ires A := Ok (inr e).
Definition ebind {A B} (r : ires A) (f : A -> ires B) : ires B :=
  match r with
  | Ok (inl a) => f a
  | Ok (inr e) => Ok (inr e)
  | Crash => Crash
  | OutOfFuel => OutOfFuel
  end.
Notation "'let+' x ':=' r 'in' k" := (ebind r (fun x => k))
  (at level 200, x pattern, r at level 100, k at level 200).

Definition tok_num (t : tok) : option N := match t with TNum n => Some n | TWord _ => None end.

(* parse_line (convert.rs): the line must exist and consist of usize tokens *)
Definition parse_line (o : option line) : ires (list N * line) :=
  match o with
  | None => fail IMissingLine
  | Some l =>
      match mapM tok_num l with
      | None => fail IOtherParse
      | Some ns => ret (ns, l)
      end
  end.

Definition next_line (ls : list line) : option line * list line :=
  match ls with
  | [] => (None, [])
  | l :: r => (Some l, r)
  end.

(* wires_map of the importer: the wires assigned by gate lines, newest first; an input wire
   that no gate assigned maps to itself, any other unassigned wire to 0 *)
Fixpoint wfind (w : N) (m : list (N * N)) : option N :=
  match m with
  | [] => None
  | (k, v) :: r => if k =? w then Some v else wfind w r
  end.

Definition wire_of (niw : N) (m : list (N * N)) (w : N) : N :=
  match wfind w m with
  | Some g => g
  | None => if w <? niw then w else 0
  end.

(* first part of the loop body: the numbers of a gate line ([None]: blank line, skipped) *)
Definition parse_gate_line (l : line) : ires (option (list N * N)) :=
  if is_nil l then ret None else
  if lenN l <? 5 then fail (IMalformedLine l) else
  let* t0 := of_option (nthN l 0) in
  match tok_num t0 with
  | None => fail IParseInt
  | Some num_inputs =>
  let* t1 := of_option (nthN l 1) in
  match tok_num t1 with
  | None => fail IParseInt
  | Some num_outputs =>
  if negb (num_outputs =? 1) then fail (IMalformedLine l) else
  match checked_add num_inputs 4 with
  | None => fail (IMalformedLine l)
  | Some n4 =>
  if negb (n4 =? lenN l) then fail (IMalformedLine l) else
  let* hi := cadd 2 num_inputs in
  let* sl := slice l 2 hi in
  match mapM tok_num sl with
  | None => fail IParseInt
  | Some input_wires =>
  let* t_out := of_option (nthN l hi) in
  match tok_num t_out with
  | None => fail IParseInt
  | Some output_wire => ret (Some (input_wires, output_wire))
  end end end end end.

(* second part: bounds, gate type, new wire, gate *)
Definition imp_step (wn niw : N) (l : line) (ins : list N) (o : N)
    (wmap : list (N * N)) (next : N) : ires (gate * list (N * N) * N) :=
  match find (fun w => wn <=? w) ins with
  | Some w => fail (IInvalidWireIndex w)
  | None =>
  if wn <=? o then fail (IInvalidWireIndex o) else
  match last_opt l with
  | None => fail IMissingGateType
  | Some gt =>
  match checked_add next 1 with
  | None => fail (IInvalidWireIndex next)
  | Some next' =>
  let wmap' := (o, next) :: wmap in
  match gt with
  | TWord WXor =>
      match ins with
      | [a; b] => ret (GXor (wire_of niw wmap' a) (wire_of niw wmap' b), wmap', next')
      | _ => fail (IMalformedLine l)
      end
  | TWord WAnd =>
      match ins with
      | [a; b] => ret (GAnd (wire_of niw wmap' a) (wire_of niw wmap' b), wmap', next')
      | _ => fail (IMalformedLine l)
      end
  | TWord WInv =>
      match ins with
      | [a] => ret (GNot (wire_of niw wmap' a), wmap', next')
      | _ => fail (IMalformedLine l)
      end
  | _ => fail IUnknownGate
  end end end end.

Fixpoint imp_gates (wn niw : N) (ls : list line) (wmap : list (N * N)) (next : N)
    : ires (list gate * list (N * N)) :=
  match ls with
  | [] => ret ([], wmap)
  | l :: r =>
      let+ pg := parse_gate_line l in
      match pg with
      | None => imp_gates wn niw r wmap next
      | Some (ins, o) =>
          let+ x := imp_step wn niw l ins o wmap next in
          let '(g, wmap', next') := x in
          let+ y := imp_gates wn niw r wmap' next' in
          let '(gs, wm) := y in
          ret (g :: gs, wm)
      end
  end.

(* the final loop over the output wires first..wires_num: stops at the first wire no gate
   assigned, so it runs at most (number of assigned wires + 1) times *)
Fixpoint collect_outs (fuel : nat) (w wn : N) (wmap : list (N * N)) : ires (list N) :=
  if w <? wn then
    match wfind w wmap with
    | None => fail (IInvalidWireIndex w)
    | Some g =>
        match fuel with
        | O => OutOfFuel
        | S f =>
            let+ r := collect_outs f (w + 1) wn wmap in
            ret (g :: r)
        end
    end
  else ret [].

(* the three header lines: (wires_num, input_gates, input_wires_num, num_output_wires, rest) *)
Definition imp_header (ls : list line) : ires (N * list N * N * N * list line) :=
  (* wire and gate counts *)
  let (l1, ls1) := next_line ls in
  let+ p1 := parse_line l1 in
  let '(parts1, s1) := p1 in
  if negb (lenN parts1 =? 2) then fail (IMalformedLine s1) else
  let* wires_num := of_option (nthN parts1 1) in
  let* _gates_num := of_option (nthN parts1 0) in
  (* input line *)
  let (l2, ls2) := next_line ls1 in
  let+ p2 := parse_line l2 in
  let '(parts2, s2) := p2 in
  if lenN parts2 <? 2 then fail (IMalformedLine s2) else
  let* input_gates := slice parts2 1 (lenN parts2) in
  let* expected_parties := of_option (nthN parts2 0) in
  if negb (lenN input_gates =? expected_parties)
  then fail (IInputPartiesMismatch (lenN input_gates) expected_parties) else
  match checked_sum input_gates with
  | None => fail (IMalformedLine s2)
  | Some input_wires_num =>
  (* output line *)
  let (l3, ls3) := next_line ls2 in
  let+ p3 := parse_line l3 in
  let '(parts3, s3) := p3 in
  if lenN parts3 <? 2 then fail (IMalformedLine s3) else
  let* num_outputs := of_option (nthN parts3 0) in
  let* gates_per_output := slice parts3 1 (lenN parts3) in
  if negb (lenN gates_per_output =? num_outputs)
  then fail (IOutputCountMismatch (lenN gates_per_output) num_outputs) else
  match checked_sum gates_per_output with
  | None => fail (IMalformedLine s3)
  | Some num_output_wires =>
  if wires_num <? num_output_wires then fail (IMalformedLine s3) else
  ret (wires_num, input_gates, input_wires_num, num_output_wires, ls3)
  end end.

(* the gate lines and the final collection of the output wires *)
Definition imp_body (h : N * list N * N * N * list line) : ires circuit :=
  let '(wires_num, input_gates, input_wires_num, num_output_wires, ls3) := h in
  let* first_output_wire := csub wires_num num_output_wires in
  let+ x := imp_gates wires_num input_wires_num ls3 [] input_wires_num in
  let '(gates, wmap) := x in
  let+ output_gates := collect_outs (S (length wmap)) first_output_wire wires_num wmap in
  ret (mkCircuit input_gates gates output_gates).

Definition import (ls : list line) : ires circuit :=
  let+ h := imp_header ls in
  imp_body h.

(* ------------------------------------------------------------------------------------ *)
(* Specification-side definitions used by the C11 theorems                                *)

(* the circuits the round-trip theorem quantifies over: valid, shaped like compiled circuits
   (at least the 161 panic outputs), no non-panic output is an input wire, and the circuit
   fits the machine: [lim] bounds the words the exporter allocates *)
Definition exportable (lim : N) (c : circuit) : Prop :=
  ssa_validate c = None /\
  (PANIC_BITS <= length (output_gates c))%nat /\
  (forall o, In o (skipn PANIC_BITS (output_gates c)) -> num_inputs c <= o) /\
  lim <= USIZE_MAX /\
  wires_len c + 2 * lenN (output_gates c) <= lim.

(* a gate line of a Bristol fashion file *)
Record bgate := mkBgate { bg_ins : list N; bg_out : N; bg_kind : word }.

Definition bgate_line (g : bgate) : line :=
  TNum (lenN (bg_ins g)) :: TNum 1 :: map TNum (bg_ins g) ++ [TNum (bg_out g); TWord (bg_kind g)].

Definition bgate_arity_ok (g : bgate) : Prop :=
  match bg_kind g with
  | WXor | WAnd => lenN (bg_ins g) = 2
  | WInv => lenN (bg_ins g) = 1
  | WOther => False
  end.

(* well-formed Bristol for parties [ig] and [n_out] output bits: the declared gate and wire
   counts are right; the gates assign pairwise distinct non-input wires and there are as many
   gates as non-input wires, i.e. every non-input wire is assigned exactly once
   (BristolProofs.wf_assigned_exactly_once spells this out); every wire a gate reads is an
   input wire or was assigned by an earlier line; the outputs are the last [n_out] wires *)
Definition bristol_wf (ig : list N) (n_out : N) (ls : list line) : Prop :=
  exists gl : list bgate,
    let n_in := sumN ig in
    let nw := n_in + lenN gl in
    ls = [TNum (lenN gl); TNum nw]
           :: (TNum (lenN ig) :: map TNum ig)
           :: [TNum 1; TNum n_out]
           :: []
           :: map bgate_line gl /\
    n_out <= lenN gl /\
    (forall g, In g gl -> bgate_arity_ok g) /\
    NoDup (map bg_out gl) /\
    (forall g, In g gl -> n_in <= bg_out g < nw) /\
    (forall k g w, nthN gl k = Some g -> In w (bg_ins g) ->
       w < n_in \/ exists j g', j < k /\ nthN gl j = Some g' /\ bg_out g' = w).

(* Reference semantics of a Bristol fashion file, independent of the importer: wire values
   are kept in an association list; the inputs of the parties fill the first wires in
   order; each gate line assigns its output wire; the result is read from the last [n_out]
   wires in ascending order. *)
Fixpoint bfind (w : N) (env : list (N * bool)) : option bool :=
  match env with
  | [] => None
  | (k, v) :: r => if k =? w then Some v else bfind w r
  end.

Definition beval_gate (env : list (N * bool)) (g : bgate) : option bool :=
  match bg_kind g, bg_ins g with
  | WXor, [a; b] =>
      match bfind a env, bfind b env with Some x, Some y => Some (xorb x y) | _, _ => None end
  | WAnd, [a; b] =>
      match bfind a env, bfind b env with Some x, Some y => Some (andb x y) | _, _ => None end
  | WInv, [a] => match bfind a env with Some x => Some (negb x) | None => None end
  | _, _ => None
  end.

Fixpoint beval_gates (gl : list bgate) (env : list (N * bool)) : option (list (N * bool)) :=
  match gl with
  | [] => Some env
  | g :: r =>
      match beval_gate env g with
      | Some v => beval_gates r ((bg_out g, v) :: env)
      | None => None
      end
  end.

Definition bristol_eval (ig : list N) (n_out : N) (gl : list bgate) (ins : list (list bool))
    : option (list bool) :=
  match load_inputs ig ins with
  | None => None
  | Some v0 =>
      match beval_gates gl (combine (nseq (length v0) 0) v0) with
      | None => None
      | Some env =>
          mapM (fun w => bfind w env)
               (nseq (N.to_nat n_out) (sumN ig + lenN gl - n_out))
      end
  end.

