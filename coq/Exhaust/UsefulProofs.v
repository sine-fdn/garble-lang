(* C08 -- the model of the real exhaustiveness algorithm (Useful.v) is SOUND and COMPLETE:
   every witness it returns is a well-typed, inhabited pattern stack all of whose values are
   matched by no row; and it returns at least one witness whenever some value is matched by
   no row.  Hence check_exhaustive answers [Some []] exactly when the arms cover the type,
   and agrees with the reference procedure Covers.covers wherever both answer. *)
From Coq Require Import Sorting.Sorted.
From GV Require Import Base.Util Exhaust.Pat Exhaust.Covers Exhaust.CoversProofs Exhaust.Useful.
Local Open Scope Z_scope.

(* ================================================================ lists *)

Lemma forall2b_length {A B} (f : A -> B -> bool) l1 l2 : forall2b f l1 l2 = true -> length l1 = length l2.
Proof. intro H. apply forall2b_Forall2 in H. eapply Forall2_length'; eauto. Qed.

Lemma forall2b_app {A B} (f : A -> B -> bool) l1 : forall l2 r1 r2, length l1 = length l2 ->
  forall2b f (l1 ++ r1) (l2 ++ r2) = forall2b f l1 l2 && forall2b f r1 r2.
Proof.
  induction l1 as [|a l1 IH]; intros [|b l2] r1 r2 L; cbn [length] in L; try discriminate.
  - reflexivity.
  - cbn [app]. rewrite !forall2b_cons, IH by congruence. now rewrite andb_assoc.
Qed.

Lemma forall2b_split {A B} (f : A -> B -> bool) l1 r1 l : forall2b f (l1 ++ r1) l = true ->
  exists l2 r2, l = l2 ++ r2 /\ length l2 = length l1 /\ forall2b f l1 l2 = true /\ forall2b f r1 r2 = true.
Proof.
  revert l. induction l1 as [|a l1 IH]; intros l H.
  - exists [], l. repeat split; auto.
  - destruct l as [|b l]; [discriminate|]. cbn [app] in H. rewrite forall2b_cons in H.
    apply andb_true_iff in H. destruct H as [H1 H2]. destruct (IH l H2) as (l2 & r2 & -> & L & F1 & F2).
    exists (b :: l2), r2. cbn [app length]. rewrite forall2b_cons, H1, F1. repeat split; auto.
Qed.

Lemma forall2b_split_r {A B} (f : A -> B -> bool) l l2 r2 : forall2b f l (l2 ++ r2) = true ->
  exists l1 r1, l = l1 ++ r1 /\ length l1 = length l2 /\ forall2b f l1 l2 = true /\ forall2b f r1 r2 = true.
Proof.
  revert l. induction l2 as [|b l2 IH]; intros l H.
  - exists [], l. repeat split; auto.
  - destruct l as [|a l]; [discriminate|]. cbn [app] in H. rewrite forall2b_cons in H.
    apply andb_true_iff in H. destruct H as [H1 H2]. destruct (IH l H2) as (l1 & r1 & -> & L & F1 & F2).
    exists (a :: l1), r1. cbn [app length]. rewrite forall2b_cons, H1, F1. repeat split; auto.
Qed.

Lemma oconcat_Some {A} (l : list (option (list A))) ws : oconcat l = Some ws ->
  exists xs, Forall2 (fun o x => o = Some x) l xs /\ ws = concat xs.
Proof.
  revert ws. induction l as [|[x|] r IH]; intros ws H; cbn [oconcat] in H; try discriminate.
  - injection H as <-. exists []. split; [constructor|reflexivity].
  - destruct (oconcat r) as [y|]; [|discriminate]. injection H as <-.
    destruct (IH y eq_refl) as (xs & HF & ->). exists (x :: xs). split; [constructor; auto|reflexivity].
Qed.

(* ================================================================ sorting and windows *)

Lemma insert_uniq_In x y l : In y (insert_uniq x l) <-> y = x \/ In y l.
Proof.
  induction l as [|z r IH]; cbn [insert_uniq].
  - cbn [In]. intuition.
  - destruct (Z.ltb_spec x z); [cbn [In]; intuition|].
    destruct (Z.eqb_spec x z) as [->|Hne]; [cbn [In]; intuition|].
    cbn [In]. rewrite IH. intuition.
Qed.

Lemma sort_dedup_In y l : In y (sort_dedup l) <-> In y l.
Proof.
  unfold sort_dedup. induction l as [|x r IH]; cbn [fold_right]; [reflexivity|].
  rewrite insert_uniq_In, IH. cbn [In]. intuition.
Qed.

Lemma insert_uniq_sorted x l : StronglySorted Z.lt l -> StronglySorted Z.lt (insert_uniq x l).
Proof.
  induction 1 as [|z r Hs IH Hz]; cbn [insert_uniq]; [repeat constructor|].
  destruct (Z.ltb_spec x z) as [Hlt|Hge].
  - constructor; [constructor; assumption|]. constructor; [exact Hlt|].
    eapply Forall_impl; [|exact Hz]. intros a Ha. cbn beta in Ha. lia.
  - destruct (Z.eqb_spec x z) as [->|Hne]; [constructor; assumption|].
    constructor; [exact IH|]. apply Forall_forall. intros a Ha. apply insert_uniq_In in Ha.
    destruct Ha as [->|Ha]; [lia|]. rewrite Forall_forall in Hz. auto.
Qed.

Lemma sort_dedup_sorted l : StronglySorted Z.lt (sort_dedup l).
Proof.
  unfold sort_dedup. induction l as [|x r IH]; cbn [fold_right]; [constructor|].
  apply insert_uniq_sorted. exact IH.
Qed.

(* [a], [b] are adjacent in [sp] *)
Definition consec (a b : Z) (sp : list Z) : Prop := exists pre post, sp = pre ++ a :: b :: post.

Lemma consec_cons a b x sp : consec a b sp -> consec a b (x :: sp).
Proof. intros (pre & post & ->). exists (x :: pre), post. reflexivity. Qed.

Lemma sorted_app_inv pre (post : list Z) : StronglySorted Z.lt (pre ++ post) ->
  StronglySorted Z.lt post /\ forall x y, In x pre -> In y post -> x < y.
Proof.
  induction pre as [|p pre IH]; cbn [app]; intro H.
  - split; [exact H|]. intros x y [].
  - inversion H as [|p' l Hs Hall]; subst. destruct (IH Hs) as [Hp Hlt]. split; [exact Hp|].
    intros x y [->|Hx] Hy; [|auto]. rewrite Forall_forall in Hall. apply Hall. apply in_or_app. now right.
Qed.

(* no point of a sorted list lies strictly between two adjacent ones *)
Lemma consec_gap a b sp : StronglySorted Z.lt sp -> consec a b sp ->
  a < b /\ forall s, In s sp -> s <= a \/ b <= s.
Proof.
  intros Hs (pre & post & ->). destruct (sorted_app_inv _ _ Hs) as [Hp Hlt].
  inversion Hp as [|a' l Hs1 Hall1]; subst. inversion Hs1 as [|b' l' Hs2 Hall2]; subst.
  rewrite Forall_forall in Hall1, Hall2. split; [apply Hall1; now left|].
  intros s Hin. apply in_app_or in Hin. destruct Hin as [Hin|[->|[->|Hin]]]; try lia.
  - left. assert (s < a) by (apply Hlt; [exact Hin|now left]). lia.
  - right. assert (b < s) by auto. lia.
Qed.

Lemma windows_u_In mn mx sp c : In c (windows_u mn mx sp) ->
  exists a b, consec a b sp /\
    ((a < b - 1 /\ c = CRange false a a) \/
     (mn <= a /\ b - 1 <= mx /\ a < b - 1 /\ c = CRange false (a + 1) (b - 1)) \/
     (mn <= a /\ b - 1 <= mx /\ ~ a < b - 1 /\ c = CRange false a (b - 1))).
Proof.
  induction sp as [|a [|b r] IH]; cbn [windows_u]; try (intros []).
  intro H. apply in_app_or in H. destruct H as [H|H]; [|apply in_app_or in H; destruct H as [H|H]].
  - destruct (Z.ltb_spec a (b - 1)); [|destruct H]. destruct H as [<-|[]].
    exists a, b. split; [exists [], r; reflexivity|]. left. auto.
  - destruct ((mn <=? a) && (b - 1 <=? mx)) eqn:E; [|destruct H].
    apply andb_true_iff in E. destruct E as [E1 E2]. apply Z.leb_le in E1, E2.
    destruct (Z.ltb_spec a (b - 1)); destruct H as [<-|[]]; exists a, b; (split; [exists [], r; reflexivity|]).
    + right. left. auto.
    + right. right. repeat split; auto. lia.
  - destruct (IH H) as (a' & b' & Hc & Hd). exists a', b'. split; [apply consec_cons; exact Hc|exact Hd].
Qed.

Lemma windows_s_In mn mx sp c : In c (windows_s mn mx sp) ->
  exists a b, consec a b sp /\ mn <= a /\ b - 1 <= mx /\
    ((a < b - 1 /\ c = CRange true a a) \/
     (a < b - 1 /\ c = CRange true (a + 1) (b - 1)) \/
     (~ a < b - 1 /\ c = CRange true a (b - 1))).
Proof.
  induction sp as [|a [|b r] IH]; cbn [windows_s]; try (intros []).
  intro H. apply in_app_or in H. destruct H as [H|H].
  - destruct ((mn <=? a) && (b - 1 <=? mx)) eqn:E; [|destruct H].
    apply andb_true_iff in E. destruct E as [E1 E2]. apply Z.leb_le in E1, E2.
    exists a, b. split; [exists [], r; reflexivity|]. split; [exact E1|]. split; [exact E2|].
    destruct (Z.ltb_spec a (b - 1)).
    + destruct H as [<-|[<-|[]]]; [left|right; left]; auto.
    + destruct H as [<-|[]]. right. right. split; [lia|reflexivity].
  - destruct (IH H) as (a' & b' & Hc & Hd). exists a', b'. split; [apply consec_cons; exact Hc|exact Hd].
Qed.

(* converse: the constructors of an adjacent pair inside the bounds are produced *)
Lemma windows_u_complete mn mx sp a b : consec a b sp -> mn <= a -> b - 1 <= mx ->
  (a < b - 1 -> In (CRange false a a) (windows_u mn mx sp) /\ In (CRange false (a + 1) (b - 1)) (windows_u mn mx sp)) /\
  (~ a < b - 1 -> In (CRange false a (b - 1)) (windows_u mn mx sp)).
Proof.
  intros (pre & post & ->) H1 H2. induction pre as [|p pre IH].
  - cbn [app windows_u]. rewrite (proj2 (Z.leb_le _ _) H1), (proj2 (Z.leb_le _ _) H2). cbn [andb].
    destruct (Z.ltb_spec a (b - 1)); split; intro Hc; try lia.
    + split; [now left|]. apply in_or_app. right. apply in_or_app. left. now left.
    + apply in_or_app. right. apply in_or_app. left. now left.
  - cbn [app]. destruct (pre ++ a :: b :: post) as [|x r] eqn:E; [destruct pre; discriminate|].
    cbn [windows_u]. destruct IH as [IH1 IH2]. split; intro Hc.
    + destruct (IH1 Hc). split; apply in_or_app; right; apply in_or_app; right; assumption.
    + apply in_or_app; right; apply in_or_app; right; auto.
Qed.

Lemma windows_s_complete mn mx sp a b : consec a b sp -> mn <= a -> b - 1 <= mx ->
  (a < b - 1 -> In (CRange true a a) (windows_s mn mx sp) /\ In (CRange true (a + 1) (b - 1)) (windows_s mn mx sp)) /\
  (~ a < b - 1 -> In (CRange true a (b - 1)) (windows_s mn mx sp)).
Proof.
  intros (pre & post & ->) H1 H2. induction pre as [|p pre IH].
  - cbn [app windows_s]. rewrite (proj2 (Z.leb_le _ _) H1), (proj2 (Z.leb_le _ _) H2). cbn [andb].
    destruct (Z.ltb_spec a (b - 1)); split; intro Hc; try lia.
    + split; apply in_or_app; left; [now left|right; now left].
    + apply in_or_app. left. now left.
  - cbn [app]. destruct (pre ++ a :: b :: post) as [|x r] eqn:E; [destruct pre; discriminate|].
    cbn [windows_s]. destruct IH as [IH1 IH2]. split; intro Hc.
    + destruct (IH1 Hc). split; apply in_or_app; right; assumption.
    + apply in_or_app; right; auto.
Qed.

(* the adjacent pair around z *)
Lemma find_consec sp : forall z, StronglySorted Z.lt sp ->
  (exists s, In s sp /\ s <= z) -> (exists s, In s sp /\ z < s) ->
  exists a b, consec a b sp /\ a <= z < b.
Proof.
  induction sp as [|a [|b r] IH]; intros z Hs (s1 & Hin1 & Hle) (s2 & Hin2 & Hlt).
  - destruct Hin1.
  - destruct Hin1 as [<-|[]]. destruct Hin2 as [<-|[]]. lia.
  - inversion Hs as [|a' l Hs' Hall]; subst. rewrite Forall_forall in Hall.
    destruct (Z.ltb_spec z b) as [Hzb|Hbz].
    + assert (a <= z).
      { destruct Hin1 as [<-|Hin1]; [exact Hle|]. assert (a < s1) by auto.
        destruct Hin1 as [<-|Hin1]; [lia|]. inversion Hs' as [|b' l' _ Hall']; subst.
        rewrite Forall_forall in Hall'. assert (b < s1) by auto. lia. }
      exists a, b. split; [exists [], r; reflexivity|lia].
    + destruct (IH z Hs') as (a' & b' & Hc & Hz).
      * exists b. split; [now left|exact Hbz].
      * exists s2. split; [|exact Hlt]. destruct Hin2 as [Heq|Hin2]; [|exact Hin2].
        assert (a < b) by (apply Hall; now left). lia.
      * exists a', b'. split; [apply consec_cons; exact Hc|exact Hz].
Qed.

Definition vmatch (ps : list pattern) (vs : list value) : bool := forall2b pat_matches ps vs.
Definition vtyped (env : tyenv) (vs : list value) (ts : list ty) : bool := forall2b (has_type env) vs ts.
(* a pattern stack is well typed against the column types *)
Definition swt (env : tyenv) (ts : list ty) (ps : list pattern) : bool :=
  forall2b (fun p t => pat_wt env t p) ps ts.
Definition allvar (q : list pattern) : bool := forallb is_var q.

(* definitions are well formed: variant names and field names are distinct *)
Definition env_wf (env : tyenv) : bool :=
  env_ok env && forallb (fun sd : N * list (N * ty) => nodupN (map fst (snd sd))) (structs env).

(* [t] unfolds within depth [d] through the definitions (closed, non-recursive), integer
   types are non-empty and enums have at least one variant: every such type is inhabited *)
Fixpoint tok (env : tyenv) (d : nat) (t : ty) {struct d} : bool :=
  match d with
  | O => false
  | S d' =>
      match t with
      | TBool => true
      | TInt sg w => int_lo sg w <=? int_hi sg w
      | TTuple ts => forallb (tok env d') ts
      | TStruct n =>
          match assocN n (structs env) with
          | Some fts => forallb (fun ft : N * ty => tok env d' (snd ft)) fts
          | None => false
          end
      | TEnum n =>
          match assocN n (enums env) with
          | Some variants =>
              match variants with [] => false | _ => true end &&
              forallb (fun vd : N * option (list ty) =>
                         match snd vd with Some ts => forallb (tok env d') ts | None => true end) variants
          | None => false
          end
      end
  end.

Lemma tok_mono env d : forall t, tok env d t = true -> tok env (S d) t = true.
Proof.
  induction d as [|d IH]; intros t H; [discriminate|].
  cbn [tok] in H. change (tok env (S (S d)) t) with
    (match t with
     | TBool => true
     | TInt sg w => int_lo sg w <=? int_hi sg w
     | TTuple ts => forallb (tok env (S d)) ts
     | TStruct n => match assocN n (structs env) with
                    | Some fts => forallb (fun ft : N * ty => tok env (S d) (snd ft)) fts | None => false end
     | TEnum n => match assocN n (enums env) with
                  | Some variants =>
                      match variants with [] => false | _ => true end &&
                      forallb (fun vd : N * option (list ty) =>
                                 match snd vd with Some ts => forallb (tok env (S d)) ts | None => true end) variants
                  | None => false end
     end).
  destruct t as [|sg w|ts|n|n]; try exact H.
  - rewrite forallb_forall in *. intros x Hx. apply IH, H, Hx.
  - destruct (assocN n (structs env)) as [fts|]; [|discriminate].
    rewrite forallb_forall in *. intros x Hx. apply IH, H, Hx.
  - destruct (assocN n (enums env)) as [variants|]; [|discriminate].
    apply andb_true_iff in H. destruct H as [H1 H2]. rewrite H1. cbn [andb].
    rewrite forallb_forall in *. intros x Hx. specialize (H2 x Hx). destruct (snd x) as [ts|]; [|reflexivity].
    rewrite forallb_forall in *. intros y Hy. apply IH, H2, Hy.
Qed.

(* every such type has a value *)
Lemma tok_inhabited env d : forall t, tok env d t = true -> exists v, has_type env v t = true.
Proof.
  induction d as [|d IH]; intros t H; [discriminate|].
  assert (Hl : forall ts, forallb (tok env d) ts = true -> exists vs, forall2b (has_type env) vs ts = true).
  { induction ts as [|t' ts IHt]; cbn [forallb]; intro Hts; [exists []; reflexivity|].
    apply andb_true_iff in Hts. destruct Hts as [H1 H2]. destruct (IH t' H1) as [v Hv]. destruct (IHt H2) as [vs Hvs].
    exists (v :: vs). rewrite forall2b_cons, Hv, Hvs. reflexivity. }
  cbn [tok] in H. destruct t as [|sg w|ts|n|n].
  - exists (VBool true). reflexivity.
  - exists (VInt (int_lo sg w)). cbn [has_type]. unfold in_int. rewrite Z.leb_refl, H. reflexivity.
  - destruct (Hl ts H) as [vs Hvs]. exists (VTuple vs). exact Hvs.
  - destruct (assocN n (structs env)) as [fts|] eqn:En; [|discriminate].
    assert (Hf : exists fvs, forall2b (ht_field env) fvs fts = true).
    { clear En. induction fts as [|[f t'] fts IHf]; cbn [forallb] in H; [exists []; reflexivity|].
      apply andb_true_iff in H. destruct H as [H1 H2]. cbn [snd] in H1. destruct (IH t' H1) as [v Hv].
      destruct (IHf H2) as [fvs Hfvs]. exists ((f, v) :: fvs). rewrite forall2b_cons, Hfvs.
      cbn [ht_field]. rewrite N.eqb_refl, Hv. reflexivity. }
    destruct Hf as [fvs Hfvs]. exists (VStruct n fvs). rewrite ht_struct, N.eqb_refl, En. exact Hfvs.
  - destruct (assocN n (enums env)) as [variants|] eqn:En; [|discriminate].
    destruct variants as [|[x o] variants]; [discriminate|]. cbn [andb forallb snd] in H.
    apply andb_true_iff in H. destruct H as [H1 _].
    destruct o as [ts|].
    + destruct (Hl ts H1) as [vs Hvs]. exists (VEnum n x vs). rewrite ht_enum, N.eqb_refl, En.
      cbn [assocN]. rewrite N.eqb_refl. exact Hvs.
    + exists (VEnum n x []). rewrite ht_enum, N.eqb_refl, En. cbn [assocN]. rewrite N.eqb_refl. reflexivity.
Qed.

Lemma toks_inhabited env d ts : Forall (fun t => tok env d t = true) ts -> exists vs, vtyped env vs ts = true.
Proof.
  induction 1 as [|t ts Ht _ IH]; [exists []; reflexivity|].
  destruct (tok_inhabited env d t Ht) as [v Hv]. destruct IH as [vs Hvs].
  exists (v :: vs). unfold vtyped in *. rewrite forall2b_cons, Hv, Hvs. reflexivity.
Qed.

(* ================================================================ constructors *)

(* the class of values of a constructor, and the sub-values it exposes *)
Definition in_ctor (c : ctor) (v : value) : bool :=
  match c, v with
  | CTrue, VBool b => b
  | CFalse, VBool b => negb b
  | CRange _ lo hi, VInt z => (lo <=? z) && (z <=? hi)
  | CTuple _, VTuple _ => true
  | CStruct _ _, VStruct _ _ => true
  | CVariant _ x _, VEnum _ x' _ => N.eqb x x'
  | _, _ => false
  end.

Definition args (v : value) : list value :=
  match v with
  | VTuple vs => vs
  | VStruct _ fvs => map snd fvs
  | VEnum _ _ vs => vs
  | _ => []
  end.

(* [c] is a constructor of type [t] *)
Definition ctor_for (env : tyenv) (t : ty) (c : ctor) : Prop :=
  match t, c with
  | TBool, CTrue | TBool, CFalse => True
  | TInt sg w, CRange sg' lo hi => sg' = sg /\ int_lo sg w <= lo /\ lo <= hi /\ hi <= int_hi sg w
  | TTuple ts, CTuple ts' => ts' = ts
  | TStruct n, CStruct n' fts => n' = n /\ assocN n (structs env) = Some fts
  | TEnum n, CVariant n' x o =>
      n' = n /\ exists variants, assocN n (enums env) = Some variants /\ In (x, o) variants
  | _, _ => False
  end.

(* a number / range pattern does not cut the class of a range constructor *)
Definition hom (c : ctor) (p : pattern) : Prop :=
  match c, p with
  | CRange _ lo hi, PNum _ n => (n = lo /\ n = hi) \/ n < lo \/ hi < n
  | CRange _ lo hi, PRange _ l h => (l <= lo /\ hi <= h) \/ h < lo \/ hi < l
  | _, _ => True
  end.

Definition heads (rows : list (list pattern)) : list pattern :=
  flat_map (fun r => match r with p :: _ => [p] | [] => [] end) rows.

Lemma heads_In p r rows : In (p :: r) rows -> In p (heads rows).
Proof. intro H. unfold heads. apply in_flat_map. exists (p :: r). split; [exact H|now left]. Qed.

Lemma head_points_In pts p rows s : In p (heads rows) -> In s (pts p) -> In s (head_points pts rows).
Proof.
  unfold heads, head_points. intros Hp Hs. apply in_flat_map in Hp. destruct Hp as (r & Hr & Hp).
  apply in_flat_map. exists r. split; [exact Hr|]. destruct r as [|p' r']; [destruct Hp|].
  destruct Hp as [->|[]]. exact Hs.
Qed.

Lemma head_points_inv pts rows s : In s (head_points pts rows) -> exists p, In p (heads rows) /\ In s (pts p).
Proof.
  unfold heads, head_points. intro H. apply in_flat_map in H. destruct H as (r & Hr & Hs).
  destruct r as [|p r']; [destruct Hs|]. exists p. split; [|exact Hs].
  apply in_flat_map. exists (p :: r'). split; [exact Hr|now left].
Qed.

Lemma pts_u_wt env w p : pat_wt env (TInt false w) p = true -> pts_u p = pts_s p.
Proof. destruct p as [x|b|sl z|sl lo hi|ps|n fs rest|n x pl]; try reflexivity; destruct sl; try reflexivity; discriminate. Qed.

Lemma pts_s_range env sg w p s : pat_wt env (TInt sg w) p = true -> In s (pts_s p) ->
  int_lo sg w <= s <= int_hi sg w + 1.
Proof.
  destruct p as [x|b|sl z|sl lo hi|ps|n fs rest|n x pl]; cbn [pts_s pat_wt]; try (intros _ Hin; destruct Hin; fail).
  - intros H [<-|[]]. apply andb_true_iff in H. destruct H as [_ Hz]. apply int_lo_le_hi_or_empty in Hz. lia.
  - intros H Hin. apply andb_true_iff in H. destruct H as [H0 H2]. apply andb_true_iff in H0. destruct H0 as [_ H1].
    apply int_lo_le_hi_or_empty in H1, H2. destruct Hin as [<-|[<-|[]]]; lia.
Qed.

(* the classes cut out of a sorted set of split points are homogeneous for every pattern
   whose bounds are among the points *)
Lemma class_hom sg sp a b p : StronglySorted Z.lt sp -> consec a b sp -> incl (pts_s p) sp ->
  hom (CRange sg a a) p /\ (a < b - 1 -> hom (CRange sg (a + 1) (b - 1)) p) /\
  (~ a < b - 1 -> hom (CRange sg a (b - 1)) p).
Proof.
  intros Hs Hc Hi. destruct (consec_gap _ _ _ Hs Hc) as [Hab Hgap].
  destruct p as [x|bb|sl z|sl lo hi|ps|n fs rest|n x pl]; cbn [hom]; try (repeat split; exact I).
  - assert (Hz : z <= a \/ b <= z) by (apply Hgap, Hi; now left). repeat split; intros; lia.
  - assert (H1 : lo <= a \/ b <= lo) by (apply Hgap, Hi; now left).
    assert (H2 : hi + 1 <= a \/ b <= hi + 1) by (apply Hgap, Hi; right; now left).
    repeat split; intros; lia.
Qed.

(* split_unsigned_range / split_signed_range on the whole type *)
Lemma split_range_ok env sg w rows c :
  int_lo sg w <= int_hi sg w ->
  (forall p, In p (heads rows) -> pat_wt env (TInt sg w) p = true) ->
  In c (if sg then split_signed_range rows (int_lo sg w) (int_hi sg w)
        else split_unsigned_range rows (int_lo sg w) (int_hi sg w)) ->
  ctor_for env (TInt sg w) c /\ forall p, In p (heads rows) -> hom c p.
Proof.
  intros Hne Hwt Hin.
  set (mn := int_lo sg w) in *. set (mx := int_hi sg w) in *.
  set (sp := sort_dedup ([mn; mx + 1] ++ head_points pts_s rows)).
  assert (Hsp : StronglySorted Z.lt sp) by apply sort_dedup_sorted.
  assert (Hu : head_points pts_u rows = head_points pts_s rows \/ sg = true).
  { destruct sg; [now right|left]. unfold head_points.
    assert (G : forall rs, (forall p, In p (heads rs) -> pat_wt env (TInt false w) p = true) ->
              flat_map (fun r => match r with p :: _ => pts_u p | [] => [] end) rs =
              flat_map (fun r => match r with p :: _ => pts_s p | [] => [] end) rs).
    { induction rs as [|r rs IH]; intro Hr; [reflexivity|]. cbn [flat_map]. rewrite IH.
      - destruct r as [|p r']; [reflexivity|]. rewrite (pts_u_wt env w p); [reflexivity|].
        apply Hr. unfold heads. cbn [flat_map]. now left.
      - intros p Hp. apply Hr. unfold heads in *. cbn [flat_map]. apply in_or_app. now right. }
    apply G. exact Hwt. }
  assert (Hbound : forall s, In s sp -> mn <= s <= mx + 1).
  { intros s Hs. unfold sp in Hs. apply (proj1 (sort_dedup_In _ _)) in Hs. apply in_app_or in Hs. destruct Hs as [[<-|[<-|[]]]|Hs]; try lia.
    destruct (head_points_inv _ _ _ Hs) as (p & Hp & Hsp'). apply (pts_s_range env sg w p s (Hwt p Hp) Hsp'). }
  assert (Hinc : forall p, In p (heads rows) -> incl (pts_s p) sp).
  { intros p Hp s Hs. apply sort_dedup_In. apply in_or_app. right. eapply head_points_In; eauto. }
  assert (Core : forall a b, consec a b sp ->
    forall lo hi, (lo = a /\ hi = a) \/ (a < b - 1 /\ lo = a + 1 /\ hi = b - 1) \/ (~ a < b - 1 /\ lo = a /\ hi = b - 1) ->
    ctor_for env (TInt sg w) (CRange sg lo hi) /\ forall p, In p (heads rows) -> hom (CRange sg lo hi) p).
  { intros a b Hc lo hi Hcase. destruct (consec_gap _ _ _ Hsp Hc) as [Hab _].
    assert (Ha : In a sp) by (destruct Hc as (pre & post & ->); apply in_or_app; right; now left).
    assert (Hb : In b sp) by (destruct Hc as (pre & post & ->); apply in_or_app; right; right; now left).
    pose proof (Hbound a Ha) as Ba. pose proof (Hbound b Hb) as Bb. split.
    - cbn [ctor_for]. split; [reflexivity|]. destruct Hcase as [[-> ->]|[(H1 & -> & ->)|(H1 & -> & ->)]]; lia.
    - intros p Hp. destruct (class_hom sg sp a b p Hsp Hc (Hinc p Hp)) as (C1 & C2 & C3).
      destruct Hcase as [[-> ->]|[(H1 & -> & ->)|(H1 & -> & ->)]]; auto. }
  destruct sg.
  - unfold split_signed_range in Hin. fold mn mx sp in Hin.
    destruct (windows_s_In _ _ _ _ Hin) as (a & b & Hc & _ & _ & Hcase).
    destruct Hcase as [(H1 & ->)|[(H1 & ->)|(H1 & ->)]]; apply (Core a b Hc); auto.
  - unfold split_unsigned_range in Hin. destruct Hu as [Hu|Hu]; [|discriminate]. rewrite Hu in Hin. fold mn mx sp in Hin.
    destruct (windows_u_In _ _ _ _ Hin) as (a & b & Hc & Hcase).
    destruct Hcase as [(H1 & ->)|[(_ & _ & H1 & ->)|(_ & _ & H1 & ->)]]; apply (Core a b Hc); auto.
Qed.

Lemma split_range_cover env sg w rows z :
  (forall p, In p (heads rows) -> pat_wt env (TInt sg w) p = true) ->
  int_lo sg w <= z <= int_hi sg w ->
  exists c, In c (if sg then split_signed_range rows (int_lo sg w) (int_hi sg w)
                  else split_unsigned_range rows (int_lo sg w) (int_hi sg w)) /\ in_ctor c (VInt z) = true.
Proof.
  intros Hwt Hz.
  set (mn := int_lo sg w) in *. set (mx := int_hi sg w) in *.
  assert (G : forall pts, let sp := sort_dedup ([mn; mx + 1] ++ head_points pts rows) in
     exists a b, consec a b sp /\ mn <= a /\ b - 1 <= mx /\ a <= z < b).
  { intros pts sp. assert (Hsp : StronglySorted Z.lt sp) by apply sort_dedup_sorted.
    assert (Hmn : In mn sp) by (apply sort_dedup_In; now left).
    assert (Hmx : In (mx + 1) sp) by (apply sort_dedup_In; right; now left).
    destruct (find_consec sp z Hsp) as (a & b & Hc & Hab); [exists mn; split; [exact Hmn|lia]|exists (mx + 1); split; [exact Hmx|lia]|].
    destruct (consec_gap _ _ _ Hsp Hc) as [_ Hgap]. exists a, b. split; [exact Hc|].
    pose proof (Hgap _ Hmn). pose proof (Hgap _ Hmx). lia. }
  assert (Hin : forall lo hi, (lo <=? z) && (z <=? hi) = true <-> lo <= z <= hi).
  { intros lo hi. rewrite andb_true_iff, !Z.leb_le. tauto. }
  destruct sg.
  - destruct (G pts_s) as (a & b & Hc & H1 & H2 & Hab). destruct (windows_s_complete mn mx _ a b Hc H1 H2) as [C1 C2].
    unfold split_signed_range. destruct (Z.lt_ge_cases a (b - 1)) as [Hlt|Hge].
    + destruct (C1 Hlt) as [I1 I2]. destruct (Z.eq_dec z a) as [->|Hne].
      * exists (CRange true a a). split; [exact I1|]. cbn [in_ctor]. apply Hin. lia.
      * exists (CRange true (a + 1) (b - 1)). split; [exact I2|]. cbn [in_ctor]. apply Hin. lia.
    + exists (CRange true a (b - 1)). split; [apply C2; lia|]. cbn [in_ctor]. apply Hin. lia.
  - destruct (G pts_u) as (a & b & Hc & H1 & H2 & Hab). destruct (windows_u_complete mn mx _ a b Hc H1 H2) as [C1 C2].
    unfold split_unsigned_range. destruct (Z.lt_ge_cases a (b - 1)) as [Hlt|Hge].
    + destruct (C1 Hlt) as [I1 I2]. destruct (Z.eq_dec z a) as [->|Hne].
      * exists (CRange false a a). split; [exact I1|]. cbn [in_ctor]. apply Hin. lia.
      * exists (CRange false (a + 1) (b - 1)). split; [exact I2|]. cbn [in_ctor]. apply Hin. lia.
    + exists (CRange false a (b - 1)). split; [apply C2; lia|]. cbn [in_ctor]. apply Hin. lia.
Qed.

(* ================================================================ split_ctor *)

Lemma env_wf_enum env n variants : env_wf env = true -> assocN n (enums env) = Some variants ->
  nodupN (map fst variants) = true.
Proof.
  intros H E. apply andb_true_iff in H. destruct H as [H _]. unfold env_ok in H. rewrite forallb_forall in H.
  apply (H (n, variants)). apply assocN_In. exact E.
Qed.

Lemma env_wf_struct env n fts : env_wf env = true -> assocN n (structs env) = Some fts ->
  nodupN (map fst fts) = true.
Proof.
  intros H E. apply andb_true_iff in H. destruct H as [_ H]. rewrite forallb_forall in H.
  apply (H (n, fts)). apply assocN_In. exact E.
Qed.

Lemma split_ctor_ok env d t rows qh c :
  tok env d t = true -> is_var qh = true ->
  (forall p, In p (heads rows) -> pat_wt env t p = true) ->
  In c (split_ctor env t rows qh) ->
  ctor_for env t c /\ forall p, In p (heads rows) -> hom c p.
Proof.
  intros Ht Hq Hwt Hin. destruct qh as [x| | | | | |]; try discriminate. clear Hq.
  destruct d as [|d]; [discriminate|]. cbn [tok] in Ht.
  destruct t as [|sg w|ts|n|n]; cbn [split_ctor] in Hin.
  - destruct Hin as [<-|[<-|[]]]; split; cbn; auto.
  - apply Z.leb_le in Ht. destruct sg.
    + apply (split_range_ok env true w rows c Ht Hwt Hin).
    + apply (split_range_ok env false w rows c Ht Hwt). exact Hin.
  - destruct Hin as [<-|[]]. split; [reflexivity|]. intros p _. exact I.
  - destruct (assocN n (structs env)) as [fts|] eqn:En; [|destruct Hin]. destruct Hin as [<-|[]].
    split; [split; [reflexivity|exact En]|]. intros p _. exact I.
  - destruct (assocN n (enums env)) as [variants|] eqn:En; [|destruct Hin].
    apply in_map_iff in Hin. destruct Hin as ([x' o] & <- & Hv). cbn [fst snd].
    split; [split; [reflexivity|]; exists variants; auto|]. intros p _. exact I.
Qed.

Lemma split_ctor_cover env t rows qh v :
  is_var qh = true -> (forall p, In p (heads rows) -> pat_wt env t p = true) ->
  has_type env v t = true ->
  exists c, In c (split_ctor env t rows qh) /\ in_ctor c v = true.
Proof.
  intros Hq Hwt Hv. destruct qh as [x| | | | | |]; try discriminate. clear Hq.
  destruct t as [|sg w|ts|n|n]; destruct v as [b|z|vs|n' fvs|n' x' vs]; try discriminate Hv; cbn [split_ctor].
  - destruct b; [exists CTrue|exists CFalse]; split; cbn; auto.
  - cbn [has_type] in Hv. apply int_lo_le_hi_or_empty in Hv. destruct sg.
    + apply (split_range_cover env true w rows z Hwt Hv).
    + apply (split_range_cover env false w rows z Hwt Hv).
  - exists (CTuple ts). split; [now left|reflexivity].
  - rewrite ht_struct in Hv. apply andb_true_iff in Hv. destruct Hv as [Hn Hv]. apply N.eqb_eq in Hn. subst n'.
    destruct (assocN n (structs env)) as [fts|]; [|discriminate]. exists (CStruct n fts). split; [now left|reflexivity].
  - rewrite ht_enum in Hv. apply andb_true_iff in Hv. destruct Hv as [Hn Hv]. apply N.eqb_eq in Hn. subst n'.
    destruct (assocN n (enums env)) as [variants|]; [|discriminate].
    destruct (assocN x' variants) as [o|] eqn:Ex; [|discriminate].
    exists (CVariant n x' o). split; [|cbn [in_ctor]; apply N.eqb_refl].
    apply in_map_iff. exists (x', o). split; [reflexivity|apply assocN_In; exact Ex].
Qed.

(* ================================================================ wildcards, alignment *)

Lemma wilds_length {A} (l : list A) : length (wilds l) = length l.
Proof. unfold wilds. apply map_length. Qed.

Lemma swt_wilds env {A} (l : list A) : forall ts, length l = length ts -> swt env ts (wilds l) = true.
Proof.
  unfold swt, wilds. induction l as [|a l IH]; intros [|t ts] L; cbn [length] in L; try discriminate; [reflexivity|].
  cbn [map]. rewrite forall2b_cons. cbn [pat_wt wild]. apply IH. congruence.
Qed.

Lemma vmatch_wilds {A} (l : list A) : forall vs, length l = length vs -> vmatch (wilds l) vs = true.
Proof.
  unfold vmatch, wilds. induction l as [|a l IH]; intros [|v vs] L; cbn [length] in L; try discriminate; [reflexivity|].
  cbn [map]. rewrite forall2b_cons. cbn [pat_matches wild]. apply IH. congruence.
Qed.

Lemma allvar_wilds {A} (l : list A) : allvar (wilds l) = true.
Proof. unfold allvar, wilds. induction l as [|a l IH]; [reflexivity|]. cbn [map forallb is_var wild]. exact IH. Qed.

Lemma vmatch_allvar q : forall vs, allvar q = true -> length q = length vs -> vmatch q vs = true.
Proof.
  unfold vmatch, allvar. induction q as [|p q IH]; intros [|v vs] Ha L; cbn [length] in L; try discriminate; [reflexivity|].
  cbn [forallb] in Ha. apply andb_true_iff in Ha. destruct Ha as [Hp Ha]. rewrite forall2b_cons.
  destruct p; try discriminate. cbn [pat_matches]. apply IH; [exact Ha|congruence].
Qed.

Lemma in_map_fst_inv {A} (f : N) (l : list (N * A)) : In f (map fst l) -> exists a, In (f, a) l.
Proof. intro H. apply in_map_iff in H. destruct H as ([f' a] & <- & Hin). exists a. exact Hin. Qed.

(* the columns of a struct pattern against the fields of a struct value *)
Lemma cols_spec (g : N -> pattern) (fts : list (N * ty)) : forall fvs : list (N * value),
  map fst fvs = map fst fts ->
  (forall2b pat_matches (map (fun ft : N * ty => g (fst ft)) fts) (map snd fvs) = true <->
   forall f v, In (f, v) fvs -> pat_matches (g f) v = true).
Proof.
  induction fts as [|[f t] fts IH]; intros [|[f' v] fvs] E; cbn [map fst] in E; try discriminate.
  - split; [intros _ f v []|reflexivity].
  - injection E as -> E. cbn [map fst snd]. rewrite forall2b_cons, andb_true_iff, (IH fvs E). split.
    + intros [H1 H2] f0 v0 [Heq|Hin]; [injection Heq as <- <-; exact H1|auto].
    + intro H. split; [apply H; now left|]. intros f0 v0 Hin. apply H. now right.
Qed.

Lemma struct_cols fs (fts : list (N * ty)) (fvs : list (N * value)) :
  map fst fvs = map fst fts -> nodupN (map fst fts) = true -> nodupN (map fst fs) = true ->
  (forall f p, In (f, p) fs -> In f (map fst fts)) ->
  forallb (fun fp : N * pattern => let '(f, p') := fp in
             match assocN f fvs with Some v' => pat_matches p' v' | None => false end) fs
  = forall2b pat_matches
      (map (fun ft : N * ty => match assocN (fst ft) fs with Some p => p | None => wild end) fts) (map snd fvs).
Proof.
  intros E Nd Ndf Hsub. apply Bool.eq_true_iff_eq.
  rewrite (cols_spec (fun f => match assocN f fs with Some p => p | None => wild end) fts fvs E).
  rewrite forallb_forall.
  assert (Ndv : nodupN (map fst fvs) = true) by (rewrite E; exact Nd).
  split.
  - intros H f v Hin. destruct (assocN f fs) as [p|] eqn:Ef; [|reflexivity].
    specialize (H (f, p) (assocN_In _ _ _ Ef)). cbn beta iota in H.
    rewrite (assocN_nodup f fvs v Ndv Hin) in H. exact H.
  - intros H [f p] Hin. specialize (Hsub f p Hin). rewrite <- E in Hsub.
    destruct (in_map_fst_inv f fvs Hsub) as [v Hv]. rewrite (assocN_nodup f fvs v Ndv Hv).
    specialize (H f v Hv). rewrite (assocN_nodup f fs p Ndf Hin) in H. exact H.
Qed.

(* ================================================================ specialize *)

(* the payload of the variant of a constructor is the one has_type uses *)
Lemma variant_payload env n x o variants : env_wf env = true ->
  assocN n (enums env) = Some variants -> In (x, o) variants -> assocN x variants = Some o.
Proof. intros W E Hin. apply assocN_nodup; [eapply env_wf_enum; eauto|exact Hin]. Qed.

(* [v] is a value of [t] in the class of the constructor [c]; its sub-values have the types of
   the columns that [c] opens *)
Inductive cview (env : tyenv) : ty -> ctor -> value -> Prop :=
| CV_true : cview env TBool CTrue (VBool true)
| CV_false : cview env TBool CFalse (VBool false)
| CV_range sg w lo hi z : int_lo sg w <= lo -> lo <= z <= hi -> hi <= int_hi sg w ->
    cview env (TInt sg w) (CRange sg lo hi) (VInt z)
| CV_tuple ts vs : vtyped env vs ts = true -> cview env (TTuple ts) (CTuple ts) (VTuple vs)
| CV_struct n fts fvs : assocN n (structs env) = Some fts -> nodupN (map fst fts) = true ->
    map fst fvs = map fst fts -> vtyped env (map snd fvs) (map snd fts) = true ->
    cview env (TStruct n) (CStruct n fts) (VStruct n fvs)
| CV_variant n x o variants vs : assocN n (enums env) = Some variants -> assocN x variants = Some o ->
    vtyped env vs (match o with Some ts => ts | None => [] end) = true ->
    cview env (TEnum n) (CVariant n x o) (VEnum n x vs).

Lemma cview_intro env t c v : env_wf env = true -> ctor_for env t c -> has_type env v t = true ->
  in_ctor c v = true -> cview env t c v.
Proof.
  intros W Hc Hv Hin.
  destruct t as [|sg w|ts|n|n]; destruct c as [| |sg' lo hi|ts'|n' fts|n' x o]; try contradiction Hc;
    destruct v as [b|z|vs|n'' fvs|n'' x'' vs]; try discriminate Hv; try discriminate Hin; cbn [in_ctor] in Hin.
  - subst b. constructor.
  - apply negb_true_iff in Hin. subst b. constructor.
  - destruct Hc as (-> & H1 & _ & H3). apply andb_true_iff in Hin. rewrite !Z.leb_le in Hin. now constructor.
  - cbn [ctor_for] in Hc. subst ts'. now constructor.
  - destruct Hc as (-> & En). rewrite ht_struct in Hv. apply andb_true_iff in Hv. destruct Hv as [Hn Hv].
    apply N.eqb_eq in Hn. subst n''. rewrite En in Hv. apply forall2b_Forall2, fields_split in Hv as [Ea Et].
    apply forall2b_Forall2 in Et. constructor; [exact En|exact (env_wf_struct env n fts W En)|exact Ea|exact Et].
  - destruct Hc as (-> & variants & En & Hvar). rewrite ht_enum in Hv. apply andb_true_iff in Hv. destruct Hv as [Hn Hv].
    apply N.eqb_eq in Hn. subst n''. apply N.eqb_eq in Hin. subst x''.
    pose proof (variant_payload env n x o variants W En Hvar) as Ex. rewrite En, Ex in Hv.
    apply (CV_variant env n x o variants vs En Ex).
    destruct o as [ts|]; [exact Hv|destruct vs; [reflexivity|discriminate Hv]].
Qed.

(* For a value [v] of the class of [c]: specializing a row by [c] fails exactly when the head
   pattern does not match [v]; otherwise the head is replaced by well-typed sub-patterns
   that match the sub-values of [v] exactly when the head matches [v]. *)
Lemma spec_match env t c p tl v :
  env_wf env = true -> ctor_for env t c -> pat_wt env t p = true -> has_type env v t = true ->
  in_ctor c v = true -> hom c p ->
  match specialize c (p :: tl) with
  | [] => pat_matches p v = false
  | [r'] => exists sub, r' = sub ++ tl /\ swt env (ctor_tys c) sub = true /\
                        pat_matches p v = vmatch sub (args v)
  | _ => False
  end.
Proof.
  intros W Hc Hp Hv Hin Hh.
  destruct (cview_intro env t c v W Hc Hv Hin)
    as [| |sg w lo hi z _ [H1 H2] _|ts vs Hvs|n fts fvs En Nd Ea Et|n x o variants vs En Ex Hvs].
  - (* true *) destruct p as [y|[|]| | | | |]; try discriminate Hp; cbn [specialize]; [now exists []|now exists []|reflexivity].
  - (* false *) destruct p as [y|[|]| | | | |]; try discriminate Hp; cbn [specialize]; [now exists []|reflexivity|now exists []].
  - (* range *) destruct p as [y| |sl m|sl l h| | |]; try discriminate Hp.
    + destruct sg; cbn [specialize]; now exists [].
    + cbn [pat_wt] in Hp. apply andb_true_iff in Hp. destruct Hp as [Hsl _]. cbn [hom] in Hh.
      assert (E : specialize (CRange sg lo hi) (PNum sl m :: tl) = if (m =? lo) && (m =? hi) then [tl] else []).
      { destruct sg; [reflexivity|]. destruct sl; [discriminate Hsl|reflexivity]. }
      rewrite E. destruct ((m =? lo) && (m =? hi)) eqn:Et.
      * apply andb_true_iff in Et. destruct Et as [E1 E2]. apply Z.eqb_eq in E1, E2.
        exists []. split; [reflexivity|]. split; [reflexivity|]. cbn [pat_matches args vmatch]. apply Z.eqb_eq. lia.
      * cbn [pat_matches]. apply Z.eqb_neq. apply andb_false_iff in Et.
        destruct Et as [Et|Et]; apply Z.eqb_neq in Et; lia.
    + cbn [pat_wt] in Hp. apply andb_true_iff in Hp. destruct Hp as [Hp _]. apply andb_true_iff in Hp. destruct Hp as [Hsl _].
      cbn [hom] in Hh.
      assert (E : specialize (CRange sg lo hi) (PRange sl l h :: tl) = if (l <=? lo) && (hi <=? h) then [tl] else []).
      { destruct sg; [reflexivity|]. destruct sl; [discriminate Hsl|reflexivity]. }
      rewrite E. destruct ((l <=? lo) && (hi <=? h)) eqn:Et.
      * apply andb_true_iff in Et. destruct Et as [E1 E2]. apply Z.leb_le in E1, E2.
        exists []. split; [reflexivity|]. split; [reflexivity|]. cbn [pat_matches args vmatch].
        apply andb_true_iff. split; apply Z.leb_le; lia.
      * cbn [pat_matches]. apply andb_false_iff. apply andb_false_iff in Et.
        assert (Hz : z < l \/ h < z) by (destruct Et as [Et|Et]; apply Z.leb_gt in Et; lia).
        destruct Hz as [Hz|Hz]; [left|right]; apply Z.leb_gt; lia.
  - (* tuple *) destruct p as [y| | | |ps| |]; try discriminate Hp; cbn [specialize ctor_tys args].
    + exists (wilds ts). split; [reflexivity|]. split; [apply swt_wilds; reflexivity|].
      cbn [pat_matches]. symmetry. apply vmatch_wilds. symmetry. exact (forall2b_length _ _ _ Hvs).
    + exists ps. split; [reflexivity|]. split; [exact Hp|]. apply pm_tuple.
  - (* struct *) destruct p as [y| | | | |n0 fs rest|]; try discriminate Hp; cbn [specialize ctor_tys args].
    + exists (wilds fts). split; [reflexivity|]. split; [apply swt_wilds; now rewrite map_length|].
      cbn [pat_matches]. symmetry. apply vmatch_wilds. rewrite map_length.
      apply (f_equal (@length N)) in Ea. rewrite !map_length in Ea. congruence.
    + cbn [pat_wt] in Hp. apply andb_true_iff in Hp. destruct Hp as [Hn0 Hp]. apply N.eqb_eq in Hn0. subst n0.
      rewrite En in Hp. apply andb_true_iff in Hp. destruct Hp as [Hp _]. apply andb_true_iff in Hp. destruct Hp as [Hfs Ndf].
      rewrite forallb_forall in Hfs. rewrite N.eqb_refl.
      eexists. split; [reflexivity|]. split.
      * (* well typed *) unfold swt. clear - Hfs Nd.
        assert (G : forall l, (forall ft, In ft l -> In ft fts) ->
          forall2b (fun p t => pat_wt env t p)
            (map (fun ft : N * ty => match assocN (fst ft) fs with Some p => p | None => wild end) l) (map snd l) = true).
        { induction l as [|[f t] l IH]; intro Hl; [reflexivity|]. cbn [map fst snd]. rewrite forall2b_cons.
          rewrite IH by (intros ft Hft; apply Hl; now right). rewrite andb_true_r.
          destruct (assocN f fs) as [p|] eqn:Ef; [|reflexivity].
          specialize (Hfs (f, p) (assocN_In _ _ _ Ef)). cbn beta iota in Hfs.
          rewrite (assocN_nodup f fts t Nd (Hl (f, t) (or_introl eq_refl))) in Hfs. exact Hfs. }
        apply G. auto.
      * rewrite pm_struct, N.eqb_refl. cbn [andb]. apply struct_cols; auto.
        intros f p Hfp. specialize (Hfs (f, p) Hfp). cbn beta iota in Hfs.
        destruct (assocN f fts) as [t'|] eqn:Ef; [|discriminate]. apply assocN_In in Ef.
        apply in_map_iff. exists (f, t'). split; [reflexivity|exact Ef].
  - (* enum *) destruct p as [y| | | | | |n0 x0 pl]; try discriminate Hp; cbn [specialize ctor_tys args].
    + exists (wilds (match o with Some ts => ts | None => [] end)). split; [reflexivity|].
      split; [apply swt_wilds; reflexivity|]. cbn [pat_matches]. symmetry. apply vmatch_wilds.
      symmetry. exact (forall2b_length _ _ _ Hvs).
    + cbn [pat_wt] in Hp. apply andb_true_iff in Hp. destruct Hp as [Hn0 Hp]. apply N.eqb_eq in Hn0. subst n0.
      rewrite En in Hp. rewrite pm_enum, N.eqb_refl. cbn [andb].
      destruct (N.eqb_spec x x0) as [<-|Hne].
      * rewrite Ex in Hp. rewrite N.eqb_refl. cbn [andb].
        destruct o as [ts|], pl as [ps|]; try discriminate Hp.
        -- exists ps. split; [reflexivity|]. split; [exact Hp|reflexivity].
        -- exists []. split; [reflexivity|]. split; [reflexivity|]. destruct vs; [reflexivity|discriminate Hvs].
      * assert (Ex0 : N.eqb x0 x = false) by (apply N.eqb_neq; congruence). rewrite Ex0.
        destruct pl; reflexivity.
Qed.

(* the sub-values of a value of the class of [c] have the types of the columns [c] opens *)
Lemma args_typed env t c v : env_wf env = true -> ctor_for env t c -> has_type env v t = true ->
  in_ctor c v = true -> vtyped env (args v) (ctor_tys c) = true.
Proof. intros W Hc Hv Hin. destruct (cview_intro env t c v W Hc Hv Hin); try reflexivity; assumption. Qed.

Lemma combine_fst {A B} (l : list A) : forall (r : list B), length l = length r -> map fst (combine l r) = l.
Proof. induction l as [|a l IH]; intros [|b r] L; cbn [length] in L; try discriminate; [reflexivity|]. cbn [combine map fst]. f_equal. apply IH. congruence. Qed.

Lemma combine_snd {A B} (l : list A) : forall (r : list B), length l = length r -> map snd (combine l r) = r.
Proof. induction l as [|a l IH]; intros [|b r] L; cbn [length] in L; try discriminate; [reflexivity|]. cbn [combine map snd]. f_equal. apply IH. congruence. Qed.

(* every typed stack of sub-values is the argument list of a value of the class *)
Lemma mk_value env t c vs : env_wf env = true -> ctor_for env t c -> vtyped env vs (ctor_tys c) = true ->
  exists v, has_type env v t = true /\ in_ctor c v = true /\ args v = vs.
Proof.
  intros W Hc Hvs.
  destruct t as [|sg w|ts|n|n]; destruct c as [| |sg' lo hi|ts'|n' fts|n' x o]; try contradiction Hc; cbn [ctor_tys] in Hvs.
  - exists (VBool true). destruct vs; [auto|discriminate].
  - exists (VBool false). destruct vs; [auto|discriminate].
  - destruct Hc as (-> & H1 & H2 & H3). exists (VInt lo). split; [|split].
    + cbn [has_type]. unfold in_int. apply andb_true_iff. split; apply Z.leb_le; lia.
    + cbn [in_ctor]. apply andb_true_iff. split; apply Z.leb_le; lia.
    + destruct vs; [reflexivity|discriminate].
  - cbn [ctor_for] in Hc. subst ts'. exists (VTuple vs). auto.
  - destruct Hc as (-> & En). exists (VStruct n (combine (map fst fts) vs)).
    pose proof (forall2b_length _ _ _ Hvs) as L. rewrite map_length in L.
    split; [|split; [reflexivity|apply combine_snd; now rewrite map_length]].
    rewrite ht_struct, N.eqb_refl, En. apply fields_typed, forall2b_Forall2, Hvs.
  - destruct Hc as (-> & variants & En & Hvar). exists (VEnum n x vs). split; [|split; [apply N.eqb_refl|reflexivity]].
    rewrite ht_enum, N.eqb_refl, En, (variant_payload env n x o variants W En Hvar). cbn [andb].
    destruct o as [ts|]; [exact Hvs|destruct vs; [reflexivity|discriminate]].
Qed.

(* ================================================================ witness reconstruction *)

Lemma cols_combine (fts : list (N * ty)) : forall sub : list pattern,
  nodupN (map fst fts) = true -> length sub = length fts ->
  map (fun ft : N * ty => match assocN (fst ft) (combine (map fst fts) sub) with Some p => p | None => wild end) fts = sub.
Proof.
  induction fts as [|[f t] fts IH]; intros [|p sub] Nd L; cbn [length] in L; try discriminate; [reflexivity|].
  cbn [map fst nodupN] in Nd. apply andb_true_iff in Nd. destruct Nd as [Hnot Nd]. apply negb_true_iff in Hnot.
  cbn [map fst combine assocN]. rewrite N.eqb_refl. f_equal.
  etransitivity; [|apply (IH sub Nd); congruence]. apply map_ext_in. intros [f' t'] Hin. cbn [fst].
  destruct (N.eqb_spec f' f) as [->|Hne]; [|reflexivity].
  exfalso. assert (Hm : memN f (map fst fts) = true) by (apply memN_In; apply in_map_iff; exists (f, t'); auto).
  congruence.
Qed.

Lemma firstn_skipn_app {A} (l r : list A) n : length l = n -> firstn n (l ++ r) = l /\ skipn n (l ++ r) = r.
Proof.
  intros <-. split.
  - rewrite firstn_app, Nat.sub_diag, firstn_all. cbn [firstn]. apply app_nil_r.
  - rewrite skipn_app, Nat.sub_diag, skipn_all. reflexivity.
Qed.

Lemma rebuild_match env t c w' v vs trest :
  env_wf env = true -> ctor_for env t c -> has_type env v t = true ->
  swt env (ctor_tys c ++ trest) w' = true ->
  swt env (t :: trest) (rebuild c w') = true /\
  vmatch (rebuild c w') (v :: vs) = in_ctor c v && vmatch w' (args v ++ vs).
Proof.
  intros W Hc Hv Hw. unfold swt in Hw. destruct (forall2b_split_r _ _ _ _ Hw) as (sub & rest & -> & L & Hsub & Hrest).
  assert (Hk : forall k, k = length (ctor_tys c) -> Nat.min k (length (sub ++ rest)) = length sub).
  { intros k ->. rewrite app_length. lia. }
  unfold swt, vmatch.
  destruct t as [|sg w|ts|n|n]; destruct c as [| |sg' lo hi|ts'|n' fts|n' x o]; try contradiction Hc;
    destruct v as [b|z|vs0|n'' fvs|n'' x'' vs0]; try discriminate Hv; cbn [ctor_tys] in *.
  - destruct sub; [|discriminate L]. cbn [rebuild app args]. rewrite !forall2b_cons. cbn [pat_wt pat_matches in_ctor].
    split; [exact Hrest|]. destruct b; reflexivity.
  - destruct sub; [|discriminate L]. cbn [rebuild app args]. rewrite !forall2b_cons. cbn [pat_wt pat_matches in_ctor].
    split; [exact Hrest|]. destruct b; reflexivity.
  - destruct sub; [|discriminate L]. destruct Hc as (-> & H1 & H2 & H3). cbn [rebuild app args]. rewrite !forall2b_cons.
    cbn [pat_wt pat_matches in_ctor]. split; [|reflexivity]. rewrite Hrest, andb_true_r.
    unfold in_int. destruct sg; cbn [implb andb]; repeat (apply andb_true_iff; split); apply Z.leb_le; lia.
  - cbn [ctor_for] in Hc. subst ts'. cbn [rebuild]. rewrite (Hk _ eq_refl).
    destruct (firstn_skipn_app sub rest _ eq_refl) as [-> ->]. rewrite !forall2b_cons. cbn [pat_wt in_ctor args].
    rewrite pm_tuple. split; [rewrite Hsub, Hrest; reflexivity|].
    rewrite ht_tuple in Hv. rewrite forall2b_app; [reflexivity|].
    rewrite L. symmetry. eapply forall2b_length; eauto.
  - destruct Hc as (-> & En). rewrite ht_struct in Hv. apply andb_true_iff in Hv. destruct Hv as [Hn Hv].
    apply N.eqb_eq in Hn. subst n''. rewrite En in Hv. apply forall2b_Forall2, fields_split in Hv as [Ea _].
    pose proof (env_wf_struct env n fts W En) as Nd. rewrite map_length in L.
    cbn [rebuild]. rewrite (Hk _ (eq_sym (map_length _ _))).
    destruct (firstn_skipn_app sub rest _ eq_refl) as [-> ->]. rewrite !forall2b_cons. cbn [in_ctor args andb].
    assert (Efst : map fst (combine (map fst fts) sub) = map fst fts) by (apply combine_fst; rewrite map_length; congruence).
    split.
    + rewrite Hrest, andb_true_r. cbn [pat_wt]. rewrite N.eqb_refl, En. cbn [andb orb]. rewrite Efst, Nd, andb_true_r.
      apply andb_true_iff. split.
      * clear - Hsub L Nd. revert sub Hsub L. induction fts as [|[f t] fts IH]; intros [|p sub] Hsub L; try discriminate; [reflexivity|].
        cbn [map fst snd combine forallb] in *. rewrite forall2b_cons in Hsub. apply andb_true_iff in Hsub. destruct Hsub as [Hp Hs].
        cbn [nodupN] in Nd. apply andb_true_iff in Nd. destruct Nd as [Hnot Nd]. apply negb_true_iff in Hnot.
        cbn [assocN]. rewrite N.eqb_refl, Hp. cbn [andb].
        specialize (IH Nd sub Hs (f_equal pred L)). rewrite forallb_forall in IH |- *. intros [f' p'] Hin.
        specialize (IH (f', p') Hin). cbn beta iota in IH |- *.
        destruct (N.eqb_spec f' f) as [->|Hne]; [|exact IH].
        exfalso. assert (Hm : memN f (map fst fts) = true).
        { apply memN_In. apply in_combine_l in Hin. exact Hin. }
        congruence.
      * apply forallb_forall. intros ft Hft. apply memN_In. apply in_map. exact Hft.
    + rewrite pm_struct, N.eqb_refl. cbn [andb].
      rewrite (struct_cols (combine (map fst fts) sub) fts fvs Ea Nd); [| rewrite Efst; exact Nd |].
      * rewrite (cols_combine fts sub Nd L). rewrite forall2b_app; [reflexivity|].
        rewrite map_length. apply (f_equal (@length N)) in Ea. rewrite !map_length in Ea. congruence.
      * intros f p Hin. apply in_combine_l in Hin. exact Hin.
  - destruct Hc as (-> & variants & En & Hvar). rewrite ht_enum in Hv. apply andb_true_iff in Hv. destruct Hv as [Hn Hv].
    apply N.eqb_eq in Hn. subst n''. rewrite En in Hv.
    pose proof (variant_payload env n x o variants W En Hvar) as Ex.
    destruct o as [ts|].
    + cbn [rebuild]. rewrite (Hk _ eq_refl).
      destruct (firstn_skipn_app sub rest _ eq_refl) as [-> ->]. rewrite !forall2b_cons. cbn [in_ctor args].
      split.
      * cbn [pat_wt]. rewrite N.eqb_refl, En, Ex, Hsub, Hrest. reflexivity.
      * rewrite pm_enum, N.eqb_refl. cbn [andb]. destruct (N.eqb_spec x x'') as [<-|Hne]; [|reflexivity].
        rewrite Ex in Hv. cbn [andb]. rewrite forall2b_app; [reflexivity|].
        rewrite L. symmetry. eapply forall2b_length; eauto.
    + destruct sub; [|discriminate L]. cbn [rebuild app]. rewrite !forall2b_cons. cbn [in_ctor args].
      split.
      * cbn [pat_wt]. rewrite N.eqb_refl, En, Ex, Hrest. reflexivity.
      * rewrite pm_enum, N.eqb_refl. cbn [andb]. destruct (N.eqb_spec x x'') as [<-|Hne]; [|reflexivity].
        rewrite Ex in Hv. destruct vs0; [|discriminate Hv]. reflexivity.
Qed.

(* ================================================================ the main induction *)

Lemma oconcat_map_In {A B} (F : A -> option (list B)) l : forall ws, oconcat (map F l) = Some ws ->
  (forall w, In w ws -> exists a x, In a l /\ F a = Some x /\ In w x) /\
  (forall a, In a l -> exists x, F a = Some x /\ incl x ws).
Proof.
  induction l as [|a l IH]; intros ws H; cbn [map oconcat] in H.
  - injection H as <-. split; [intros w []|intros a []].
  - destruct (F a) as [x|] eqn:Ea; [|discriminate]. destruct (oconcat (map F l)) as [y|] eqn:Ey; [|discriminate].
    injection H as <-. destruct (IH y eq_refl) as [I1 I2]. split.
    + intros w Hw. apply in_app_or in Hw. destruct Hw as [Hw|Hw].
      * exists a, x. split; [now left|]. split; assumption.
      * destruct (I1 w Hw) as (a' & x' & Ha' & E' & Hw'). exists a', x'. split; [now right|]. split; assumption.
    + intros a' [<-|Ha'].
      * exists x. split; [exact Ea|]. intros w Hw. apply in_or_app. now left.
      * destruct (I2 a' Ha') as (x' & E' & Hi). exists x'. split; [exact E'|]. intros w Hw. apply in_or_app. right. auto.
Qed.

Lemma swt_allvar env q : forall ts, allvar q = true -> length q = length ts -> swt env ts q = true.
Proof.
  unfold swt, allvar. induction q as [|p q IH]; intros [|t ts] Ha L; cbn [length] in L; try discriminate; [reflexivity|].
  cbn [forallb] in Ha. apply andb_true_iff in Ha. destruct Ha as [Hp Ha]. rewrite forall2b_cons.
  destruct p; try discriminate. cbn [pat_wt]. apply IH; [exact Ha|congruence].
Qed.

(* q[0] is an identifier: every constructor specializes q to wildcards *)
Lemma spec_var c qh qt : is_var qh = true -> allvar qt = true ->
  exists q', specialize c (qh :: qt) = [q'] /\ allvar q' = true /\ length q' = (length (ctor_tys c) + length qt)%nat.
Proof.
  intros Hq Ha. destruct qh as [x| | | | | |]; try discriminate.
  assert (G : forall {A} (l : list A) n, length l = n ->
    allvar (wilds l ++ qt) = true /\ length (wilds l ++ qt) = (n + length qt)%nat).
  { intros A l n <-. split; [|rewrite app_length, wilds_length; reflexivity].
    unfold allvar. rewrite forallb_app. fold (allvar (wilds l)). rewrite allvar_wilds. exact Ha. }
  destruct c as [| |[|] lo hi|ts|n fts|n y [ts|]]; cbn [specialize ctor_tys];
    try (exists qt; split; [reflexivity|]; split; [exact Ha|reflexivity]).
  - exists (wilds ts ++ qt). split; [reflexivity|]. apply G. reflexivity.
  - exists (wilds fts ++ qt). split; [reflexivity|]. apply G. now rewrite map_length.
  - exists (wilds ts ++ qt). split; [reflexivity|]. apply G. reflexivity.
Qed.

Lemma ctor_tys_tok_gen env d t c : tok env d t = true -> ctor_for env t c ->
  Forall (fun t' => tok env d t' = true) (ctor_tys c).
Proof.
  intros Ht Hc. destruct d as [|d']; [discriminate|]. cbn [tok] in Ht.
  destruct t as [|sg w|ts|n|n]; destruct c as [| |sg' lo hi|ts'|n' fts|n' x o]; try contradiction Hc; cbn [ctor_tys];
    try constructor.
  - cbn [ctor_for] in Hc. subst ts'. apply Forall_forall. intros t' Hin. apply tok_mono.
    rewrite forallb_forall in Ht. auto.
  - destruct Hc as (-> & En). rewrite En in Ht. apply Forall_forall. intros t' Hin. apply tok_mono.
    rewrite forallb_forall in Ht. apply in_map_iff in Hin. destruct Hin as (ft & <- & Hft). auto.
  - destruct Hc as (-> & variants & En & Hvar). rewrite En in Ht. apply andb_true_iff in Ht. destruct Ht as [_ Ht].
    rewrite forallb_forall in Ht. specialize (Ht (x, o) Hvar). cbn [snd] in Ht.
    destruct o as [ts|]; [|constructor]. apply Forall_forall. intros t' Hin. apply tok_mono.
    rewrite forallb_forall in Ht. auto.
Qed.

Section Main.
Variable env : tyenv.
Variable d : nat.
Hypothesis W : env_wf env = true.

Definition toks (ts : list ty) : Prop := Forall (fun t => tok env d t = true) ts.

Lemma ctor_tys_tok t c : tok env d t = true -> ctor_for env t c -> toks (ctor_tys c).
Proof. apply ctor_tys_tok_gen. Qed.

Lemma row_inv t trest r : swt env (t :: trest) r = true ->
  exists p tl, r = p :: tl /\ pat_wt env t p = true /\ swt env trest tl = true.
Proof.
  unfold swt. destruct r as [|p tl]; [discriminate|]. rewrite forall2b_cons. intro H. apply andb_true_iff in H.
  destruct H as [H1 H2]. exists p, tl. auto.
Qed.

Lemma heads_wt t trest rows : Forall (fun r => swt env (t :: trest) r = true) rows ->
  forall p, In p (heads rows) -> pat_wt env t p = true.
Proof.
  intros Hrows p Hp. unfold heads in Hp. apply in_flat_map in Hp. destruct Hp as (r & Hr & Hp).
  rewrite Forall_forall in Hrows. destruct (row_inv _ _ _ (Hrows r Hr)) as (p' & tl & -> & Hp' & _).
  destruct Hp as [<-|[]]. exact Hp'.
Qed.

Lemma tl_rows_wt t trest rows : Forall (fun r => swt env (t :: trest) r = true) rows ->
  Forall (fun r => swt env trest r = true) (map (@tl pattern) rows).
Proof.
  intro Hrows. apply Forall_forall. intros r' Hr'. apply in_map_iff in Hr'. destruct Hr' as (r & <- & Hr).
  rewrite Forall_forall in Hrows. destruct (row_inv _ _ _ (Hrows r Hr)) as (p & tl & -> & _ & Htl). exact Htl.
Qed.

Lemma spec_row t trest c r v vs :
  ctor_for env t c -> swt env (t :: trest) r = true -> (forall p tl, r = p :: tl -> hom c p) ->
  has_type env v t = true -> in_ctor c v = true ->
  (specialize c r = [] /\ vmatch r (v :: vs) = false) \/
  (exists r', specialize c r = [r'] /\ swt env (ctor_tys c ++ trest) r' = true /\
              vmatch r' (args v ++ vs) = vmatch r (v :: vs)).
Proof.
  intros Hc Hr Hh Hv Hin. destruct (row_inv _ _ _ Hr) as (p & tl & -> & Hp & Htl).
  pose proof (spec_match env t c p tl v W Hc Hp Hv Hin (Hh p tl eq_refl)) as H.
  destruct (specialize c (p :: tl)) as [|r' [|r'' l]]; [left|right|contradiction].
  - split; [reflexivity|]. unfold vmatch. rewrite forall2b_cons, H. reflexivity.
  - destruct H as (sub & -> & Hsub & Hm). exists (sub ++ tl). split; [reflexivity|].
    pose proof (forall2b_length _ _ _ Hsub) as L1.
    pose proof (forall2b_length _ _ _ (args_typed env t c v W Hc Hv Hin)) as L2.
    split.
    + unfold swt in *. rewrite forall2b_app by exact L1. rewrite Hsub, Htl. reflexivity.
    + unfold vmatch in *. rewrite forall2b_app by congruence. rewrite forall2b_cons, Hm. reflexivity.
Qed.

Lemma spec_rows_wt t trest c rows :
  tok env d t = true -> ctor_for env t c -> (forall p, In p (heads rows) -> hom c p) ->
  Forall (fun r => swt env (t :: trest) r = true) rows ->
  Forall (fun r => swt env (ctor_tys c ++ trest) r = true) (flat_map (specialize c) rows).
Proof.
  intros Ht Hc Hh Hrows.
  destruct (toks_inhabited env d _ (ctor_tys_tok t c Ht Hc)) as [vs0 Hvs0].
  destruct (mk_value env t c vs0 W Hc Hvs0) as (v & Hv & Hin & _).
  apply Forall_forall. intros r' Hr'. apply in_flat_map in Hr'. destruct Hr' as (r & Hr & Hr').
  rewrite Forall_forall in Hrows.
  destruct (spec_row t trest c r v [] Hc (Hrows r Hr)) as [[E _]|(r'' & E & Hwt & _)]; auto.
  - intros p tl ->. apply Hh. eapply heads_In; eauto.
  - rewrite E in Hr'. destruct Hr'.
  - rewrite E in Hr'. destruct Hr' as [<-|[]]. exact Hwt.
Qed.

Theorem useful_correct f : forall ts rows q ws,
  toks ts -> Forall (fun r => swt env ts r = true) rows -> allvar q = true -> length q = length ts ->
  useful f env ts rows q = Some ws ->
  (forall w, In w ws ->
     swt env ts w = true /\
     (exists vs, vtyped env vs ts = true /\ vmatch w vs = true) /\
     (forall vs, vtyped env vs ts = true -> vmatch w vs = true -> forall r, In r rows -> vmatch r vs = false)) /\
  (forall vs, vtyped env vs ts = true -> (forall r, In r rows -> vmatch r vs = false) -> ws <> []).
Proof.
  induction f as [|f IH]; intros ts rows q ws Hts Hrows Hq Lq H; [discriminate|].
  cbn [useful] in H. destruct rows as [|r0 rows'].
  { (* no row: q is the witness *)
    injection H as <-. split; [|intros; discriminate].
    intros w [<-|[]]. split; [apply swt_allvar; assumption|]. split; [|intros vs _ _ r []].
    destruct (toks_inhabited env d ts Hts) as [vs Hvs]. exists vs. split; [exact Hvs|].
    apply vmatch_allvar; [exact Hq|]. rewrite Lq. symmetry. eapply forall2b_length; eauto. }
  set (rows := r0 :: rows') in *.
  assert (Hr0 : swt env ts r0 = true) by (inversion Hrows; assumption).
  destruct r0 as [|p0 r0'].
  { (* no column left *)
    assert (ts = []) by (destruct ts; [reflexivity|discriminate Hr0]). subst ts.
    injection H as <-. split; [intros w []|]. intros vs Hvs Hno. exfalso.
    destruct vs; [|discriminate Hvs]. specialize (Hno [] (or_introl eq_refl)). discriminate Hno. }
  destruct q as [|qh qt]; [destruct ts; [discriminate Hr0|discriminate Lq]|].
  destruct ts as [|t trest]; [discriminate Lq|].
  cbn [allvar forallb] in Hq. apply andb_true_iff in Hq. destruct Hq as [Hqh Hqt]. fold (allvar qt) in Hqt.
  assert (Ht : tok env d t = true) by (inversion Hts; assumption).
  assert (Htr : toks trest) by (inversion Hts; assumption).
  destruct (existsb (forallb is_var) rows) eqn:Hany.
  { (* a row of identifiers: nothing is missing *)
    injection H as <-. split; [intros w []|]. intros vs Hvs Hno. exfalso.
    apply existsb_exists in Hany. destruct Hany as (r & Hr & Hvar).
    rewrite Forall_forall in Hrows. pose proof (forall2b_length _ _ _ (Hrows r Hr)) as L1.
    pose proof (forall2b_length _ _ _ Hvs) as L2.
    specialize (Hno r Hr). rewrite (vmatch_allvar r vs Hvar) in Hno by congruence. discriminate Hno. }
  clear Hany.
  rewrite Hqh in H. cbn [andb] in H.
  destruct (forallb (fun r => match r with p :: _ => is_var p | [] => false end) rows) eqn:Hall.
  { (* the identifier-column shortcut *)
    destruct (useful f env trest (map (@tl pattern) rows) qt) as [ws0|] eqn:E0; [|discriminate]. injection H as <-.
    rewrite forallb_forall in Hall.
    assert (Hrow : forall r, In r rows -> exists x r', r = PVar x :: r' /\ swt env trest r' = true).
    { intros r Hr. rewrite Forall_forall in Hrows. destruct (row_inv _ _ _ (Hrows r Hr)) as (p & tl & -> & _ & Htl).
      specialize (Hall _ Hr). cbn beta iota in Hall. destruct p; try discriminate. eauto. }
    destruct (IH trest _ qt ws0 Htr (tl_rows_wt t trest rows Hrows) Hqt (f_equal pred Lq) E0) as [S0 C0]. split.
    - intros w Hw. apply in_map_iff in Hw. destruct Hw as (w0 & <- & Hw0). destruct (S0 w0 Hw0) as (S1 & (vs0 & Hvs0 & Hm0) & S3).
      split; [unfold swt in *; rewrite forall2b_cons; exact S1|]. split.
      + destruct (tok_inhabited env d t Ht) as [v Hv]. exists (v :: vs0). unfold vtyped, vmatch in *.
        rewrite !forall2b_cons, Hv, Hvs0, Hm0. split; reflexivity.
      + intros vs Hvs Hm r Hr. destruct vs as [|v vs']; [discriminate Hvs|].
        unfold vtyped, vmatch in *. rewrite forall2b_cons in Hvs. rewrite forall2b_cons in Hm. apply andb_true_iff in Hvs. destruct Hvs as [_ Hvs].
        cbn [pat_matches wild andb] in Hm. destruct (Hrow r Hr) as (x & r' & -> & _). rewrite forall2b_cons. cbn [pat_matches andb].
        apply (S3 vs' Hvs Hm r'). apply in_map_iff. exists (PVar x :: r'). split; [reflexivity|exact Hr].
    - intros vs Hvs Hno. destruct vs as [|v vs']; [discriminate Hvs|].
      unfold vtyped in Hvs. rewrite forall2b_cons in Hvs. apply andb_true_iff in Hvs. destruct Hvs as [_ Hvs].
      assert (ws0 <> []).
      { apply (C0 vs' Hvs). intros r' Hr'. apply in_map_iff in Hr'. destruct Hr' as (r & <- & Hr).
        destruct (Hrow r Hr) as (x & r' & -> & _). specialize (Hno _ Hr). unfold vmatch in *. rewrite forall2b_cons in Hno. exact Hno. }
      destruct ws0; [congruence|discriminate]. }
  (* the constructors of the head column *)
  clear Hall.
  pose proof (heads_wt t trest rows Hrows) as Hheads.
  destruct (oconcat_map_In _ _ _ H) as [I1 I2]. clear H.
  assert (Hsub : forall c, In c (split_ctor env t rows qh) -> forall x,
    oconcat (map (fun q' => match useful f env (ctor_tys c ++ trest) (flat_map (specialize c) rows) q' with
                            | Some ws => Some (map (rebuild c) ws) | None => None end) (specialize c (qh :: qt))) = Some x ->
    ctor_for env t c /\ (forall p, In p (heads rows) -> hom c p) /\
    exists wsc, x = map (rebuild c) wsc /\
      (forall w, In w wsc ->
         swt env (ctor_tys c ++ trest) w = true /\
         (exists vs, vtyped env vs (ctor_tys c ++ trest) = true /\ vmatch w vs = true) /\
         (forall vs, vtyped env vs (ctor_tys c ++ trest) = true -> vmatch w vs = true ->
                     forall r, In r (flat_map (specialize c) rows) -> vmatch r vs = false)) /\
      (forall vs, vtyped env vs (ctor_tys c ++ trest) = true ->
                  (forall r, In r (flat_map (specialize c) rows) -> vmatch r vs = false) -> wsc <> [])).
  { intros c Hc x Hx. destruct (split_ctor_ok env d t rows qh c Ht Hqh Hheads Hc) as [Hcf Hhom].
    split; [exact Hcf|]. split; [exact Hhom|].
    destruct (spec_var c qh qt Hqh Hqt) as (q' & Eq & Hq' & Lq'). rewrite Eq in Hx. cbn [map oconcat] in Hx.
    destruct (useful f env (ctor_tys c ++ trest) (flat_map (specialize c) rows) q') as [wsc|] eqn:Eu; [|discriminate].
    injection Hx as <-. exists wsc. split; [apply app_nil_r|].
    apply (IH _ _ q' wsc); auto.
    - apply Forall_app. split; [apply (ctor_tys_tok t c Ht Hcf)|exact Htr].
    - apply (spec_rows_wt t trest c rows Ht Hcf Hhom Hrows).
    - rewrite Lq', app_length. cbn [length] in Lq. lia. }
  split.
  - (* soundness *)
    intros w Hw. destruct (I1 w Hw) as (c & x & Hc & Ex & Hwx).
    destruct (Hsub c Hc x Ex) as (Hcf & Hhom & wsc & -> & Sc & _).
    apply in_map_iff in Hwx. destruct Hwx as (w' & <- & Hw'). destruct (Sc w' Hw') as (S1 & (vs0 & Hvs0 & Hm0) & S3).
    destruct (tok_inhabited env d t Ht) as [vdummy Hvd].
    split; [exact (proj1 (rebuild_match env t c w' vdummy [] trest W Hcf Hvd S1))|]. split.
    + unfold vtyped in Hvs0. destruct (forall2b_split_r _ _ _ _ Hvs0) as (as_ & vs' & -> & La & Has & Hvs').
      destruct (mk_value env t c as_ W Hcf Has) as (v & Hv & Hin & Hargs).
      exists (v :: vs'). split; [unfold vtyped; rewrite forall2b_cons, Hv, Hvs'; reflexivity|].
      rewrite (proj2 (rebuild_match env t c w' v vs' trest W Hcf Hv S1)), Hin, Hargs. exact Hm0.
    + intros vs Hvs Hm r Hr. destruct vs as [|v vs']; [discriminate Hvs|].
      unfold vtyped in Hvs. rewrite forall2b_cons in Hvs. apply andb_true_iff in Hvs. destruct Hvs as [Hv Hvs'].
      rewrite (proj2 (rebuild_match env t c w' v vs' trest W Hcf Hv S1)) in Hm. apply andb_true_iff in Hm. destruct Hm as [Hin Hm].
      assert (Hty : vtyped env (args v ++ vs') (ctor_tys c ++ trest) = true).
      { unfold vtyped. pose proof (args_typed env t c v W Hcf Hv Hin) as Ha.
        rewrite forall2b_app by (eapply forall2b_length; eauto). unfold vtyped in Ha. rewrite Ha, Hvs'. reflexivity. }
      rewrite Forall_forall in Hrows.
      destruct (spec_row t trest c r v vs' Hcf (Hrows r Hr)) as [[_ E]|(r' & E & _ & Em)]; auto.
      * intros p tl ->. apply Hhom. eapply heads_In; eauto.
      * rewrite <- Em. apply (S3 _ Hty Hm). apply in_flat_map. exists r. split; [exact Hr|]. rewrite E. now left.
  - (* completeness *)
    intros vs Hvs Hno. destruct vs as [|v vs']; [discriminate Hvs|].
    unfold vtyped in Hvs. rewrite forall2b_cons in Hvs. apply andb_true_iff in Hvs. destruct Hvs as [Hv Hvs'].
    destruct (split_ctor_cover env t rows qh v Hqh Hheads Hv) as (c & Hc & Hin).
    destruct (I2 c Hc) as (x & Ex & Hincl). destruct (Hsub c Hc x Ex) as (Hcf & Hhom & wsc & -> & _ & Cc).
    assert (Hty : vtyped env (args v ++ vs') (ctor_tys c ++ trest) = true).
    { unfold vtyped. pose proof (args_typed env t c v W Hcf Hv Hin) as Ha.
      rewrite forall2b_app by (eapply forall2b_length; eauto). unfold vtyped in Ha. rewrite Ha, Hvs'. reflexivity. }
    assert (Hne : wsc <> []).
    { apply (Cc _ Hty). intros r' Hr'. apply in_flat_map in Hr'. destruct Hr' as (r & Hr & Hr').
      rewrite Forall_forall in Hrows.
      destruct (spec_row t trest c r v vs' Hcf (Hrows r Hr)) as [[E _]|(r'' & E & _ & Em)]; auto.
      - intros p tl ->. apply Hhom. eapply heads_In; eauto.
      - rewrite E in Hr'. destruct Hr'.
      - rewrite E in Hr'. destruct Hr' as [<-|[]]. rewrite Em. apply Hno. exact Hr. }
    destruct wsc as [|w0 wsc]; [congruence|]. intro Hws. subst ws.
    apply (Hincl (rebuild c w0)). now left.
Qed.

End Main.

(* ================================================================ enough fuel *)

Lemma ty_size_S env d t : ty_size env (S d) t =
  match t with
  | TBool | TInt _ _ => 1%nat
  | TTuple ts => S (list_sum (map (ty_size env d) ts))
  | TStruct n =>
      match assocN n (structs env) with
      | Some fts => S (list_sum (map (fun ft : N * ty => ty_size env d (snd ft)) fts))
      | None => 1%nat
      end
  | TEnum n =>
      match assocN n (enums env) with
      | Some variants =>
          S (list_sum (map (fun vd : N * option (list ty) =>
                              match snd vd with
                              | Some ts => list_sum (map (ty_size env d) ts)
                              | None => O
                              end) variants))
      | None => 1%nat
      end
  end.
Proof. reflexivity. Qed.

Lemma ty_size_stable env d : forall t, tok env d t = true -> ty_size env (S d) t = ty_size env d t.
Proof.
  induction d as [|d IH]; intros t H; [discriminate|].
  assert (Hl : forall ts, forallb (tok env d) ts = true -> map (ty_size env (S d)) ts = map (ty_size env d) ts).
  { intros ts Hts. apply map_ext_in. intros t' Hin. apply IH. rewrite forallb_forall in Hts. auto. }
  cbn [tok] in H. rewrite (ty_size_S env (S d) t), (ty_size_S env d t).
  destruct t as [|sg w|ts|n|n]; try reflexivity.
  - rewrite (Hl ts H). reflexivity.
  - destruct (assocN n (structs env)) as [fts|]; [|reflexivity]. f_equal. f_equal.
    apply map_ext_in. intros ft Hin. apply IH. rewrite forallb_forall in H. auto.
  - destruct (assocN n (enums env)) as [variants|]; [|reflexivity]. f_equal. f_equal.
    apply andb_true_iff in H. destruct H as [_ H]. rewrite forallb_forall in H.
    apply map_ext_in. intros vd Hin. specialize (H vd Hin). destruct (snd vd) as [ts|]; [|reflexivity].
    rewrite (Hl ts H). reflexivity.
Qed.

Lemma list_sum_In (l : list nat) x : In x l -> (x <= list_sum l)%nat.
Proof.
  induction l as [|y l IH]; [intros []|]. change (list_sum (y :: l)) with (y + list_sum l)%nat.
  intros [->|Hin]; [lia|]. specialize (IH Hin). lia.
Qed.

(* the columns a constructor opens are smaller than the column it closes *)
Lemma ctor_tys_size env d t c : tok env d t = true -> ctor_for env t c ->
  (list_sum (map (ty_size env d) (ctor_tys c)) < ty_size env d t)%nat.
Proof.
  intros Ht Hc. destruct d as [|d]; [discriminate|]. cbn [tok] in Ht.
  assert (Hl : forall ts, forallb (tok env d) ts = true -> map (ty_size env (S d)) ts = map (ty_size env d) ts).
  { intros ts Hts. apply map_ext_in. intros t' Hin. apply ty_size_stable. rewrite forallb_forall in Hts. auto. }
  rewrite (ty_size_S env d t).
  destruct t as [|sg w|ts|n|n]; destruct c as [| |sg' lo hi|ts'|n' fts|n' x o]; try contradiction Hc;
    cbn [ctor_tys]; try (cbn [map list_sum fold_right]; lia).
  - cbn [ctor_for] in Hc. subst ts'. rewrite (Hl ts Ht). lia.
  - destruct Hc as (-> & En). rewrite En in Ht. rewrite map_map, En.
    rewrite (map_ext_in (fun ft : N * ty => ty_size env (S d) (snd ft)) (fun ft => ty_size env d (snd ft))); [lia|].
    intros ft Hin. apply ty_size_stable. rewrite forallb_forall in Ht. auto.
  - destruct Hc as (-> & variants & En & Hvar). rewrite En in Ht. apply andb_true_iff in Ht. destruct Ht as [_ Ht].
    rewrite forallb_forall in Ht. specialize (Ht (x, o) Hvar). cbn [snd] in Ht. rewrite En.
    assert (Hle : (match o with Some ts => list_sum (map (ty_size env d) ts) | None => O end
                   <= list_sum (map (fun vd : N * option (list ty) =>
                         match snd vd with Some ts => list_sum (map (ty_size env d) ts) | None => O end) variants))%nat).
    { apply list_sum_In. apply in_map_iff. exists (x, o). split; [reflexivity|exact Hvar]. }
    destruct o as [ts|]; [rewrite (Hl ts Ht)|cbn [map list_sum fold_right]]; lia.
Qed.

Lemma oconcat_not_None {A} (l : list (option (list A))) : (forall o, In o l -> o <> None) -> oconcat l <> None.
Proof.
  induction l as [|[x|] l IH]; intro H; cbn [oconcat]; [discriminate| |exfalso; apply (H None); [now left|reflexivity]].
  destruct (oconcat l) eqn:E; [discriminate|]. exfalso. apply IH; [|reflexivity]. intros o Ho. apply H. now right.
Qed.

(* [fuel_bound] is enough: the model never answers None on the inputs of the theorems *)
Theorem useful_fuel env d : env_wf env = true -> forall f ts rows q,
  Forall (fun t => tok env d t = true) ts -> Forall (fun r => swt env ts r = true) rows -> allvar q = true ->
  (fuel_bound env d ts <= f)%nat -> useful f env ts rows q <> None.
Proof.
  intros W. induction f as [|f IH]; intros ts rows q Hts Hrows Hq Hf; [unfold fuel_bound in Hf; lia|].
  cbn [useful]. destruct rows as [|r0 rows']; [discriminate|]. set (rows := r0 :: rows') in *.
  destruct r0 as [|p0 r0']; [discriminate|]. destruct q as [|qh qt]; [discriminate|].
  destruct ts as [|t trest]; [discriminate|].
  cbn [allvar forallb] in Hq. apply andb_true_iff in Hq. destruct Hq as [Hqh Hqt]. fold (allvar qt) in Hqt.
  assert (Ht : tok env d t = true) by (inversion Hts; assumption).
  assert (Htr : Forall (fun t => tok env d t = true) trest) by (inversion Hts; assumption).
  unfold fuel_bound in Hf.
  change (list_sum (map (ty_size env d) (t :: trest))) with (ty_size env d t + list_sum (map (ty_size env d) trest))%nat in Hf.
  assert (H1 : (1 <= ty_size env d t)%nat).
  { destruct d as [|d0]; [discriminate|]. rewrite ty_size_S. destruct t; try lia; destruct (assocN _ _); lia. }
  destruct (existsb (forallb is_var) rows); [discriminate|].
  rewrite Hqh. cbn [andb].
  destruct (forallb (fun r => match r with p :: _ => is_var p | [] => false end) rows) eqn:Hall.
  - pose proof (IH trest (map (@tl pattern) rows) qt Htr (tl_rows_wt env t trest rows Hrows) Hqt) as Hn.
    destruct (useful f env trest (map (@tl pattern) rows) qt); [discriminate|]. exfalso. apply Hn; [|reflexivity].
    unfold fuel_bound. lia.
  - clear Hall.
    pose proof (heads_wt env t trest rows Hrows) as Hheads.
    apply oconcat_not_None. intros o Ho. apply in_map_iff in Ho. destruct Ho as (c & <- & Hc).
    destruct (split_ctor_ok env d t rows qh c Ht Hqh Hheads Hc) as [Hcf Hhom].
    destruct (spec_var c qh qt Hqh Hqt) as (q' & -> & Hq' & _). cbn [map oconcat].
    pose proof (IH (ctor_tys c ++ trest) (flat_map (specialize c) rows) q') as Hn.
    destruct (useful f env (ctor_tys c ++ trest) (flat_map (specialize c) rows) q'); [discriminate|].
    exfalso. apply Hn; auto.
    + apply Forall_app. split; [apply (ctor_tys_tok_gen env d t c Ht Hcf)|exact Htr].
    + apply (spec_rows_wt env d W t trest c rows Ht Hcf Hhom Hrows).
    + unfold fuel_bound. rewrite map_app, list_sum_app. pose proof (ctor_tys_size env d t c Ht Hcf). lia.
Qed.

(* ================================================================ check_exhaustive *)

Section Check.
Variable env : tyenv.
Variable d : nat.
Variable t : ty.
Variable ps : list pattern.
Hypothesis W : env_wf env = true.
Hypothesis Ht : tok env d t = true.
Hypothesis Hps : forall p, In p ps -> pat_wt env t p = true.

Lemma check_rows_wt : Forall (fun r => swt env [t] r = true) (map (fun p => [p]) ps).
Proof.
  apply Forall_forall. intros r Hr. apply in_map_iff in Hr. destruct Hr as (p & <- & Hp).
  unfold swt. rewrite forall2b_cons, (Hps p Hp). reflexivity.
Qed.

(* (a) every reported missing case is one well-typed pattern that denotes at least one value
   of the scrutinee type, and only values that no arm matches; (b) if some value of the type
   is matched by no arm, at least one missing case is reported *)
Theorem check_exhaustive_correct f ws : check_exhaustive f env t ps = Some ws ->
  (forall w, In w ws -> exists p, w = [p] /\ pat_wt env t p = true /\
      (exists v, has_type env v t = true /\ pat_matches p v = true) /\
      (forall v, has_type env v t = true -> pat_matches p v = true ->
                 forall a, In a ps -> pat_matches a v = false)) /\
  ((exists v, has_type env v t = true /\ forall a, In a ps -> pat_matches a v = false) -> ws <> []).
Proof.
  intro H. unfold check_exhaustive in H.
  destruct (useful_correct env d W f [t] _ [wild] ws (Forall_cons _ Ht (Forall_nil _)) check_rows_wt eq_refl eq_refl H)
    as [S C]. split.
  - intros w Hw. destruct (S w Hw) as (S1 & (vs & Hvs & Hm) & S3).
    unfold swt in S1. pose proof (forall2b_length _ _ _ S1) as Lw. destruct w as [|p [|p' w']]; try discriminate Lw.
    rewrite forall2b_cons in S1. apply andb_true_iff in S1. destruct S1 as [Hp _].
    exists p. split; [reflexivity|]. split; [exact Hp|]. split.
    + unfold vtyped, vmatch in *. pose proof (forall2b_length _ _ _ Hvs) as Lv.
      destruct vs as [|v [|v' vs']]; try discriminate Lv.
      rewrite forall2b_cons in Hvs. rewrite forall2b_cons in Hm. exists v. split.
      * apply andb_true_iff in Hvs. apply Hvs.
      * apply andb_true_iff in Hm. apply Hm.
    + intros v Hv Hm' a Ha.
      assert (E : vmatch [a] [v] = false).
      { apply (S3 [v]); [unfold vtyped; rewrite forall2b_cons, Hv; reflexivity|unfold vmatch; rewrite forall2b_cons, Hm'; reflexivity|].
        apply in_map_iff. exists a. auto. }
      unfold vmatch in E. rewrite forall2b_cons in E. cbn [forall2b] in E. rewrite andb_true_r in E. exact E.
  - intros (v & Hv & Hno). apply (C [v]); [unfold vtyped; rewrite forall2b_cons, Hv; reflexivity|].
    intros r Hr. apply in_map_iff in Hr. destruct Hr as (a & <- & Ha). unfold vmatch. rewrite forall2b_cons, (Hno a Ha). reflexivity.
Qed.

(* no missing case is reported exactly when the arms cover every value of the type *)
Lemma check_exhaustive_nil_iff f ws : check_exhaustive f env t ps = Some ws ->
  (ws = [] <-> forall v, has_type env v t = true -> exists p, In p ps /\ pat_matches p v = true).
Proof.
  intro E. destruct (check_exhaustive_correct f ws E) as [S C]. split.
  - intros -> v Hv. apply arm_matches_iff. destruct (arm_matches ps v) eqn:Ex; [reflexivity|].
    exfalso. apply C; [|reflexivity]. exists v. split; [exact Hv|]. now apply arm_matches_false.
  - intro Hcov. destruct ws as [|w ws']; [reflexivity|]. exfalso.
    destruct (S w (or_introl eq_refl)) as (p & _ & _ & (v & Hv & Hm) & Hno).
    destruct (Hcov v Hv) as (a & Ha & Hma). rewrite (Hno v Hv Hm a Ha) in Hma. discriminate.
Qed.

(* (c) the checker accepts the match exactly when the arms cover every value of the type *)
Theorem useful_iff_covers f : (fuel_bound env d [t] <= f)%nat ->
  (check_exhaustive f env t ps = Some [] <->
   forall v, has_type env v t = true -> exists p, In p ps /\ pat_matches p v = true).
Proof.
  intro Hf. destruct (check_exhaustive f env t ps) as [ws|] eqn:E.
  - rewrite <- (check_exhaustive_nil_iff f ws E). split; [now intros [= ->]|now intros ->].
  - exfalso. apply (useful_fuel env d W f [t] (map (fun p => [p]) ps) [wild]); auto using check_rows_wt.
Qed.

(* the real algorithm and the reference procedure Covers.covers agree wherever both answer *)
Theorem useful_agrees_with_covers f ws cap fuel b :
  check_exhaustive f env t ps = Some ws -> covers env cap fuel t ps = Some b ->
  (b = true <-> ws = []).
Proof.
  intros E Ec. rewrite (covers_iff env cap fuel t ps b Ec). symmetry. exact (check_exhaustive_nil_iff f ws E).
Qed.

End Check.

(* ================================================================ non-vacuity
   (on each input the real checker, run through the `exhaust` job of the harness, lists exactly
   these witnesses in its `(missing ..)` field, which is sorted) *)

Module UsefulExamples.
Definition u8 := TInt false 8.
Definition i8 := TInt true 8.
(* struct S { a: bool, b: u8 }   enum E { A, B(u8, bool) } *)
Definition env1 : tyenv :=
  {| structs := [(1%N, [(10%N, TBool); (11%N, u8)])];
     enums := [(2%N, [(20%N, None); (21%N, Some [u8; TBool])])] |}.
Definition tb := TTuple [u8; TBool].

Example env1_wf : env_wf env1 = true. Proof. reflexivity. Qed.
Example tb_tok : tok env1 2 tb = true. Proof. vm_compute. reflexivity. Qed.
Example tb_fuel : fuel_bound env1 2 [tb] = 4%nat. Proof. reflexivity. Qed.

(* match x { (0..=9, true) => .., (10..=255, _) => .., (_, false) => .. }: accepted *)
Example ex_exhaustive :
  check_exhaustive 4 env1 tb
    [PTuple [PRange false 0 9; PBool true]; PTuple [PRange false 10 255; PVar 0]; PTuple [PVar 0; PBool false]]
  = Some [].
Proof. vm_compute. reflexivity. Qed.

(* ... hence (theorem) every value of (u8, bool) is matched by some arm *)
Definition arms3 : list pattern :=
  [PTuple [PRange false 0 9; PBool true]; PTuple [PRange false 10 255; PVar 0]; PTuple [PVar 0; PBool false]].
Example arms3_wt : forall p, In p arms3 -> pat_wt env1 tb p = true.
Proof. intros p Hp. repeat (destruct Hp as [<-|Hp]; [reflexivity|]). destruct Hp. Qed.
Example ex_exhaustive_covers :
  forall v, has_type env1 v tb = true -> exists p, In p arms3 /\ pat_matches p v = true.
Proof. apply (proj1 (useful_iff_covers env1 2 tb arms3 env1_wf tb_tok arms3_wt 4 (le_n _))). exact ex_exhaustive. Qed.

(* match x { (0..=9, true) => .., (11..=255, _) => .. }: rejected; the missing cases, in the
   order the Rust code pushes them *)
Example ex_missing :
  check_exhaustive 4 env1 tb [PTuple [PRange false 0 9; PBool true]; PTuple [PRange false 11 255; PVar 0]]
  = Some [[PTuple [PRange false 0 0; PBool false]];
          [PTuple [PRange false 1 9; PBool false]];
          [PTuple [PRange false 10 10; PVar 0]]].
Proof. vm_compute. reflexivity. Qed.

(* an enum with a payload: match e { E::B(5, true) => .., E::A => .. } *)
Example ex_enum :
  check_exhaustive 4 env1 (TEnum 2) [PEnum 2 21 (Some [PNum false 5; PBool true]); PEnum 2 20 None]
  = Some [[PEnum 2 21 (Some [PRange false 0 0; PVar 0])];
          [PEnum 2 21 (Some [PRange false 1 4; PVar 0])];
          [PEnum 2 21 (Some [PRange false 5 5; PBool false])];
          [PEnum 2 21 (Some [PRange false 6 255; PVar 0])]].
Proof. vm_compute. reflexivity. Qed.

(* a signed range across zero and an unsigned literal on i8: match x { -5i8..=5i8 => .., 100 => .. } *)
Example ex_signed :
  check_exhaustive 2 env1 i8 [PRange true (-5) 5; PNum false 100]
  = Some [[PRange true (-128) (-128)]; [PRange true (-127) (-6)]; [PRange true 6 6];
          [PRange true 7 99]; [PRange true 101 127]].
Proof. vm_compute. reflexivity. Qed.

(* the two halves of i8 (the match the unrepaired checker rejected): accepted, and the
   reference procedure agrees *)
Example ex_i8_halves :
  check_exhaustive 2 env1 i8 [PRange true (-128) (-1); PRange false 0 127] = Some [] /\
  covers env1 1000%N 8 i8 [PRange true (-128) (-1); PRange false 0 127] = Some true.
Proof. vm_compute. split; reflexivity. Qed.

(* struct patterns with `..`: the witnesses list all fields *)
Example ex_struct_rest :
  check_exhaustive 4 env1 (TStruct 1) [PStruct 1 [(11%N, PRange false 0 9)] true; PStruct 1 [(10%N, PBool false)] true]
  = Some [[PStruct 1 [(10%N, PBool true); (11%N, PRange false 10 10)] false];
          [PStruct 1 [(10%N, PBool true); (11%N, PRange false 11 255)] false]].
Proof. vm_compute. reflexivity. Qed.

(* the identifier-column shortcut: no constructor of the first two columns is enumerated *)
Example ex_shortcut :
  check_exhaustive 5 env1 (TTuple [TBool; TBool; u8]) [PTuple [PVar 5; PVar 6; PNum false 5]]
  = Some [[PTuple [PVar 0; PVar 0; PRange false 0 0]];
          [PTuple [PVar 0; PVar 0; PRange false 1 4]];
          [PTuple [PVar 0; PVar 0; PRange false 6 255]]].
Proof. vm_compute. reflexivity. Qed.

(* the diagonal shape: 6 bool columns, arm i tests column i only, a last arm of identifiers;
   the row-of-identifiers exit answers at once (without it: 2^6 constructor splits) *)
Definition diag_ty : ty := TTuple (repeat TBool 6).
Definition diag_arm (i : nat) : pattern :=
  PTuple (map (fun j => if Nat.eqb i j then PBool true else PVar 0) (seq 0 6)).
Definition diag_arms : list pattern := map diag_arm (seq 0 6) ++ [PTuple (repeat (PVar 0) 6)].
Example ex_diagonal :
  length diag_arms = 7%nat /\ check_exhaustive 8 env1 diag_ty diag_arms = Some [] /\
  check_exhaustive 8 env1 diag_ty (map diag_arm (seq 0 6))
  = Some [[PTuple (repeat (PBool false) 6)]].
Proof. vm_compute. repeat split. Qed.

(* too little fuel: no verdict *)
Example ex_no_fuel : check_exhaustive 3 env1 tb [PTuple [PRange false 0 9; PBool true]] = None.
Proof. vm_compute. reflexivity. Qed.
End UsefulExamples.

Print Assumptions useful_correct.
Print Assumptions useful_fuel.
Print Assumptions check_exhaustive_correct.
Print Assumptions useful_iff_covers.
Print Assumptions useful_agrees_with_covers.
Print Assumptions UsefulExamples.ex_exhaustive_covers.
