(* NO `Stuck` FOR CHECKED PROGRAMS WHOSE MATCHES ARE EXHAUSTIVE.

   Lang/WtSound.v proves that a program accepted by Wt.v only gets stuck with one of the codes
   [stuck_allowed] = [41; 48; 60; 73; 75; 76]; the codes 41 / 60 / 73 / 76 are pattern-match
   failures.  Here they are excluded by the exhaustiveness check [exh_fns] of Exhaust/ExhSem.v.

   The statement cannot be made at the level of Wt.v alone: [has_ty] carries no range condition
   (Wt.ty_eqb identifies i32 and u32), and exhaustiveness of integer patterns is a statement
   about the values IN THE RANGE of the type ([ExhExamples.wt_level_strengthening_false], proved
   at the end of this file).  So the theorem is
   proved for the strict checker [scf2_*] (Leibniz type equalities; it rejects `join`), with the
   invariant "every value is in the range of its type" ([in_rng]) on top of the shape invariant
   of WtSound.v, which is used as a black box for the shapes and for all the other Stuck codes.

     [exh_sound_all]     scf2 + wtx + exh: evaluation is never Stuck, results are in range
     [exh_main_values]   the body of main, run as [Sem.run_main] runs it
     [exh_run_main]      Sem.run_main is RunOk / RunPanic / RunNoFuel
     [wt_covered_exh_agrees]  the program theorem: wt_covered fw P && exh_fns P => three-way
                         conclusion, no Stuck disjunct *)
From Coq Require Import Lia ZArith.
From GV Require Import Base.Util Lang.Ast Lang.Wt Lang.ValTy Lang.WtSound Lang.WtShape
  Panic.PanicRec Panic.PanicSem Compile.Lower Compile.TSem Compile.TSemArith1 Compile.TSemSemExpr Compile.ValEnc
  Compile.TSemSemStmt Compile.TSemSemCall Compile.TSemSemAgg Compile.TSemSemFull
  Compile.TSemSemFullCall Compile.TSemSemFullConst Compile.TSemSemFullWt Exhaust.EnvRel Exhaust.ExhSem.
From GV Require Lang.Sem.
Local Open Scope N_scope.

(* ------------------------------------------------------------------ environments in range *)

Definition in_rngP (P : program) (v : Sem.value) (t : ty) : Prop := in_rng P v t = true.

(* [env_rng P] is [EnvRel.env_rel (in_rngP P)] spelled out *)
Section EnvRng.
  Variable P : program.

  Definition rbind_ok (b : N * Sem.value) (tb : N * (ty * bool)) : Prop :=
    fst b = fst tb /\ in_rng P (snd b) (fst (snd tb)) = true.
  Definition scope_rng (s : list (N * Sem.value)) (gs : list (N * (ty * bool))) : Prop :=
    Forall2 rbind_ok s gs.
  Definition env_rng (ss : list (list (N * Sem.value))) (g : tenv) : Prop := Forall2 scope_rng ss g.

  Definition binds_rng (bs : list (N * Sem.value)) (tbs : list (N * ty)) : Prop :=
    Forall2 (fun b tb => fst b = fst tb /\ in_rng P (snd b) (snd tb) = true) bs tbs.

  Lemma lookup_rng ss g x t m :
    env_rng ss g -> tlookup g x = Some (t, m) ->
    exists v, Sem.lookup_scopes ss x = Some v /\ in_rng P v t = true.
  Proof. exact (lookup_rel (in_rngP P) ss g x t m). Qed.

  Lemma bind_var_rng en g x v t m :
    env_rng (Sem.scopes en) g -> in_rng P v t = true ->
    env_rng (Sem.scopes (Sem.bind_var en x v)) (tbind g x t m).
  Proof. exact (bind_var_rel (in_rngP P) en g x v t m). Qed.

  Lemma bind_all_rng bs tbs m :
    binds_rng bs tbs -> forall en g,
    env_rng (Sem.scopes en) g -> env_rng (Sem.scopes (Sem.bind_all en bs)) (tbind_all g tbs m).
  Proof. exact (bind_all_rel (in_rngP P) bs tbs m). Qed.

  Lemma binds_rng_app a b ta tb : binds_rng a ta -> binds_rng b tb -> binds_rng (a ++ b) (ta ++ tb).
  Proof. apply Forall2_app. Qed.

  Lemma push_rng en g : env_rng (Sem.scopes en) g -> env_rng (Sem.scopes (Sem.push_scope en)) ([] :: g).
  Proof. exact (push_rel (in_rngP P) en g). Qed.

  Lemma pop_rng ss g : env_rng ss g -> env_rng (tl ss) (tl g).
  Proof. exact (pop_rel (in_rngP P) ss g). Qed.

  Lemma assign_rng en g x v t m :
    env_rng (Sem.scopes en) g -> tlookup g x = Some (t, m) -> in_rng P v t = true ->
    exists en', Sem.assign_var en x v = Some en' /\ env_rng (Sem.scopes en') g.
  Proof. exact (assign_rel (in_rngP P) en g x v t m). Qed.

  Lemma env_rng_last ss g : env_rng ss g -> scope_rng (last ss []) (last g []).
  Proof. exact (env_rel_last (in_rngP P) ss g). Qed.
End EnvRng.

(* ------------------------------------------------------------------ patterns: the bindings are in range *)

Section PatRng.
  Variable P : program.

  Lemma pat_ok_gpat_ok_mut :
    (forall p t bs, pat_ok P p t bs -> gpat_ok P p t bs) /\
    (forall ps ts bs, pats_ok P ps ts bs -> gpats_ok P ps ts bs) /\
    (forall fs ds bs, fields_ok P fs ds bs -> gfields_ok P fs ds bs).
  Proof.
    apply pat_ok_mutind.
    - intros. constructor.
    - intros ps m ts bs _ IH. now constructor.
    - intros name ig fields m def bs Hd Hnd _ IH. now apply (GP_struct P name ig fields m def bs).
    - constructor.
    - intros p t ps ts b bs Ht _ IH1 _ IH2. now constructor.
    - constructor.
    - intros fn fp fr fty r b bs _ IH1 _ IH2. now constructor.
    - intros fs fn fty r bs Hn _ IH. now constructor.
  Qed.

  Lemma binds_enc_rng vbs bs : binds_enc P vbs bs -> binds_rng P vbs bs.
  Proof.
    induction 1 as [|b tb vbs bs [H1 [w Hw]] _ IH]; constructor; [|exact IH]. split; [exact H1|].
    exact (has_enc_in_rng P _ _ _ Hw).
  Qed.

  Theorem pmatch_rng p t bs v vbs : gpat_ok P p t bs -> ty_fits P t ->
    has_ty P v t = true -> in_rng P v t = true -> Sem.pmatch P p v = Some vbs -> binds_rng P vbs bs.
  Proof.
    intros Hp Hf Ht Hr Hm. destruct (has_enc_total P t v Hf Ht Hr) as [w Hw].
    exact (binds_enc_rng _ _ (pmatch_enc P p t bs v w vbs Hp Hw Hm)).
  Qed.
End PatRng.

(* ------------------------------------------------------------------ the induction *)

Definition resT {A} (Q : A -> Prop) (o : Sem.outcome A) : Prop :=
  match o with Sem.Done a => Q a | Sem.Stuck _ => False | _ => True end.
(* the form of the conclusions of Lang/WtSound.v (strict = false) *)
Definition resW {A} (Q : A -> Prop) (o : Sem.outcome A) : Prop :=
  match o with Sem.Done a => Q a | Sem.Stuck c => In c stuck_allowed | _ => True end.
(* what is left to prove once WtSound.v has spoken *)
Definition resX {A} (Q1 Q2 : A -> Prop) (o : Sem.outcome A) : Prop :=
  match o with Sem.Done a => Q1 a -> Q2 a | Sem.Stuck c => ~ In c stuck_allowed | _ => True end.

Lemma resT_of {A} (Q1 Q2 : A -> Prop) o : resW Q1 o -> resX Q1 Q2 o -> resT (fun a => Q1 a /\ Q2 a) o.
Proof. destruct o; cbn [resW resX resT]; auto. Qed.

Lemma resT_bind {A B} (o : Sem.outcome A) (k : A -> Sem.outcome B) (Q : A -> Prop) (R : B -> Prop) :
  resT Q o -> (forall a, Q a -> resT R (k a)) -> resT R (Sem.obind o k).
Proof. destruct o; cbn [resT Sem.obind]; auto. Qed.

Lemma resX_bind {A B} (o : Sem.outcome A) (k : A -> Sem.outcome B) (Q : A -> Prop) (R1 R2 : B -> Prop) :
  resT Q o -> (forall a, Q a -> resX R1 R2 (k a)) -> resX R1 R2 (Sem.obind o k).
Proof. destruct o; cbn [resT resX Sem.obind]; auto; contradiction. Qed.

Lemma resT_weaken {A} (Q Q' : A -> Prop) (o : Sem.outcome A) :
  resT Q o -> (forall a, Q a -> Q' a) -> resT Q' o.
Proof. destruct o; cbn [resT]; auto. Qed.

Ltac nostuck :=
  let H := fresh "Hst" in
  intro H; unfold stuck_allowed in H; cbn [In] in H;
  repeat (destruct H as [H|H]; [discriminate H|]); exact H.

Section Sound.
  Variable P : program.
  Variable fwp : nat.
  Hypothesis Hwt : wt_program P = true.
  Hypothesis Hscf : scf2_fns fwp P (consts_scope P) = true.
  Hypothesis Hwx : wtx_fns P = true.
  Hypothesis Hexh : exh_fns P = true.

  Definition QE (g : tenv) (t : ty) (r : Sem.value * Sem.env) : Prop :=
    has_ty P (fst r) t = true /\ env_ok P (Sem.scopes (snd r)) g.
  Definition QR (g : tenv) (t : ty) (r : Sem.value * Sem.env) : Prop :=
    in_rng P (fst r) t = true /\ env_rng P (Sem.scopes (snd r)) g.
  Definition QF (g : tenv) (t : ty) (r : Sem.value * Sem.env) : Prop := QE g t r /\ QR g t r.

  Definition QEb (g : tenv) (t : ty) (r : Sem.value * Sem.env) : Prop :=
    has_ty P (fst r) t = true /\ env_ok P (tl (Sem.scopes (snd r))) (tl g).
  Definition QRb (g : tenv) (t : ty) (r : Sem.value * Sem.env) : Prop :=
    in_rng P (fst r) t = true /\ env_rng P (tl (Sem.scopes (snd r))) (tl g).

  Definition PE (n : nat) : Prop := forall fw g e en,
    scf2_expr fw P g e = true -> wtx_expr P e = true -> exh_expr P e = true ->
    genv P g -> env_ok P (Sem.scopes en) g -> env_rng P (Sem.scopes en) g ->
    resT (QF g (e_ty e)) (Sem.eval n P en e).
  Definition PE1 (n : nat) (e : expr) : Prop := forall fw g en,
    scf2_expr fw P g e = true -> wtx_expr P e = true -> exh_expr P e = true ->
    genv P g -> env_ok P (Sem.scopes en) g -> env_rng P (Sem.scopes en) g ->
    resT (QF g (e_ty e)) (Sem.eval n P en e).
  Definition PB (n : nat) : Prop := forall fw g b en t,
    scf2_block fw P g b = Some t -> forallb (wtx_stmt P) b = true -> forallb (exh_stmt P) b = true ->
    genv P g -> env_ok P (Sem.scopes en) g -> env_rng P (Sem.scopes en) g ->
    resT (fun r => QEb g t r /\ QRb g t r) (Sem.exec_block n P en b).
  Definition PS (n : nat) : Prop := forall fw g s en g' t,
    scf2_stmt fw P g s = Some (g', t) -> wtx_stmt P s = true -> exh_stmt P s = true ->
    genv P g -> env_ok P (Sem.scopes en) g -> env_rng P (Sem.scopes en) g ->
    resT (QF g' t) (Sem.exec n P en s).

  (* Lang/WtSound.v as a black box *)
  Lemma bb_expr n fw g e en :
    scf2_expr fw P g e = true -> wtx_expr P e = true -> genv P g -> env_ok P (Sem.scopes en) g ->
    resW (QE g (e_ty e)) (Sem.eval n P en e).
  Proof.
    intros Hsc Hx Hg He.
    pose proof (wt_sound_expr P false Hwt (fun H => False_ind _ (Bool.diff_false_true H)) n fw g e en
                  (proj1 (scf2_wtx_implies_wt P fw) g e Hsc Hx) (fun H => False_ind _ (Bool.diff_false_true H)) Hg He) as H.
    destruct (Sem.eval n P en e) as [[v en']| | |]; cbn [resW]; [exact H| exact I | exact (proj1 H) | exact I].
  Qed.

  Lemma bb_block n fw g b t en :
    scf2_block fw P g b = Some t -> forallb (wtx_stmt P) b = true -> genv P g -> env_ok P (Sem.scopes en) g ->
    resW (QEb g t) (Sem.exec_block n P en b).
  Proof.
    intros Hsc Hx Hg He.
    pose proof (wt_sound_block P false Hwt (fun H => False_ind _ (Bool.diff_false_true H)) n fw g b en t
                  (proj1 (proj2 (scf2_wtx_implies_wt P fw)) g b t Hsc Hx) (fun H => False_ind _ (Bool.diff_false_true H)) Hg He) as H.
    destruct (Sem.exec_block n P en b) as [[v en']| | |]; cbn [resW]; [exact H| exact I | exact (proj1 H) | exact I].
  Qed.

  Lemma bb_stmt n fw g s g' t en :
    scf2_stmt fw P g s = Some (g', t) -> wtx_stmt P s = true -> genv P g -> env_ok P (Sem.scopes en) g ->
    resW (QE g' t) (Sem.exec n P en s).
  Proof.
    intros Hsc Hx Hg He.
    pose proof (wt_sound_stmt P false Hwt (fun H => False_ind _ (Bool.diff_false_true H)) n fw g s en g' t
                  (proj2 (proj2 (scf2_wtx_implies_wt P fw)) g s (g', t) Hsc Hx) (fun H => False_ind _ (Bool.diff_false_true H)) Hg He) as H.
    destruct (Sem.exec n P en s) as [[v en']| | |]; cbn [resW]; [exact H| exact I | exact (proj1 H) | exact I].
  Qed.

  Lemma forallb_and {A} (a b : A -> bool) l :
    forallb (fun x => a x && b x) l = true -> forallb a l = true /\ forallb b l = true.
  Proof.
    rewrite !forallb_forall. intro H. split; intros x Hx; destruct (andb_prop _ _ (H x Hx)); assumption.
  Qed.

  Definition VOK (v : Sem.value) (t : ty) : Prop := has_ty P v t = true /\ in_rng P v t = true.

  Lemma VOK_list vs ts :
    Forall2 VOK vs ts <-> forallb2 (has_ty P) vs ts = true /\ forallb2 (in_rng P) vs ts = true.
  Proof.
    rewrite !forallb2_Forall2. split.
    - induction 1 as [|v t vs ts [H1 H2] _ [IH1 IH2]]; split; constructor; assumption.
    - intros [H1 H2]. induction H1; inversion H2; subst; constructor; [split; assumption|auto].
  Qed.

  Lemma VOK_tup v ts : VOK v (TTup ts) <-> exists vs, v = Sem.VTup vs /\ Forall2 VOK vs ts.
  Proof.
    unfold VOK at 1. split.
    - intros [H1 H2]. destruct (has_ty_tup_inv _ _ _ H1) as [vs [-> _]]. exists vs. split; [reflexivity|].
      rewrite has_ty_tup in H1. rewrite in_rng_tup in H2. now apply VOK_list.
    - intros (vs & -> & H). rewrite has_ty_tup, in_rng_tup. now apply VOK_list.
  Qed.

  Lemma VOK_struct v name def : assocN name (p_structs P) = Some def ->
    (VOK v (TStruct name) <-> exists vs, v = Sem.VTup vs /\ Forall2 VOK vs (map snd def)).
  Proof.
    intro Hd. unfold VOK at 1. split.
    - intros [H1 H2]. destruct (has_ty_pos_inv _ _ _ _ (pos_tys_struct _ _ _ Hd) H1) as (vs & -> & _). exists vs. split; [reflexivity|].
      rewrite has_ty_struct, Hd in H1. rewrite in_rng_struct, Hd in H2. now apply VOK_list.
    - intros (vs & -> & H). rewrite has_ty_struct, in_rng_struct, Hd. now apply VOK_list.
  Qed.

  Lemma VOK_arr v el k :
    VOK v (TArr el k) <-> exists vs, v = Sem.VArr vs /\ lenN vs = k /\ Forall (fun x => VOK x el) vs.
  Proof.
    unfold VOK. split.
    - intros [H1 H2]. destruct (has_ty_arr_inv _ _ _ _ H1) as (vs & -> & Hl & Hall). exists vs.
      rewrite in_rng_arr in H2. apply forallb_Forall in H2. split; [reflexivity|]. split; [exact Hl|]. now apply Forall_and.
    - intros (vs & -> & <- & H). apply Forall_and_inv in H as [H1 H2].
      rewrite has_ty_arr, in_rng_arr, N.eqb_refl. split; now apply forallb_Forall.
  Qed.

  Lemma vals_rng vs es : Forall2 (fun v e => VOK v (e_ty e)) vs es ->
    forallb2 (in_rng P) vs (map e_ty es) = true.
  Proof. induction 1 as [|v e vs es [_ Hr] _ IH]; cbn [map forallb2]; [reflexivity|]. now rewrite Hr, IH. Qed.

  Lemma vals_rng1 vs es el : Forall2 (fun v e => VOK v (e_ty e)) vs es ->
    forallb (fun e => ty_beq (e_ty e) el) es = true -> forallb (fun v => in_rng P v el) vs = true.
  Proof.
    induction 1 as [|v e vs es [_ Hr] _ IH]; cbn [forallb]; [reflexivity|]. intro H.
    apply andb_prop in H as [H1 H2]. apply ty_beq_eq in H1. subst el. now rewrite Hr, IH.
  Qed.

  Lemma ev_fields_list (ev : Sem.env -> expr -> Sem.outcome (Sem.value * Sem.env)) fields :
    forall ds es en, struct_exprs fields ds = Some es -> ev_fields ev fields ds en = ev_list ev es en.
  Proof.
    induction ds as [|[fname fty] r IH]; intros es en H; cbn [struct_exprs] in H.
    - injection H as <-. reflexivity.
    - destruct (assocN fname fields) as [fe|] eqn:Ef; [|discriminate H].
      destruct (struct_exprs fields r) as [es'|] eqn:Er; [|discriminate H]. injection H as <-.
      cbn [ev_fields ev_list]. rewrite Ef.
      destruct (ev en fe) as [[v en1]|r1 m1|c1|]; cbn [Sem.obind]; try reflexivity.
      now rewrite (IH es' en1 eq_refl).
  Qed.

  Lemma resX_of_T {A} (Q1 Q2 : A -> Prop) o : resT (fun a => Q1 a /\ Q2 a) o -> resX Q1 Q2 o.
  Proof. destruct o; cbn [resT resX]; tauto. Qed.

  Lemma resX_done g t v en : env_rng P (Sem.scopes en) g -> in_rng P v t = true ->
    resX (QE g t) (QR g t) (Sem.Done (v, en)).
  Proof. intros Hr Hv _. exact (conj Hv Hr). Qed.

  Section Cases.
    Variable n : nat.
    Hypothesis IHe : PE n.
    Hypothesis IHb : PB n.

    Ltac use_sub f g e1 en v en1 Hv He1 Hrv Hr1 :=
      eapply resX_bind; [apply (IHe f g e1 en); assumption|];
      intros [v en1] [[Hv He1] [Hrv Hr1]]; cbn [fst snd] in Hv, He1, Hrv, Hr1.

    (* opens a case of [PE1 (S n)]: Lang/WtSound.v gives the shape and the admissible Stuck codes;
       left is the range half, on the unfolded evaluator *)
    Ltac start :=
      intros fw g en Hsc Hx Hex Hg He Hr;
      cbn [e_ty]; apply resT_of; [exact (bb_expr _ _ _ _ _ Hsc Hx Hg He)|];
      rewrite eval_eq; cbn zeta; destruct fw as [|f]; [discriminate Hsc|];
      cbn [scf2_expr] in Hsc; cbn [wtx_expr] in Hx; cbn [exh_expr] in Hex.

    Lemma ev_list_exh f g : genv P g -> forall es en,
      forallb (scf2_expr f P g) es = true -> forallb (wtx_expr P) es = true -> forallb (exh_expr P) es = true ->
      env_ok P (Sem.scopes en) g -> env_rng P (Sem.scopes en) g ->
      resT (fun r => Forall2 (fun v e => VOK v (e_ty e)) (fst r) es /\
                     env_ok P (Sem.scopes (snd r)) g /\ env_rng P (Sem.scopes (snd r)) g)
           (ev_list (Sem.eval n P) es en).
    Proof.
      intros Hg es. induction es as [|e r IH]; intros en Hsc Hx Hex He Hr; cbn [ev_list].
      - cbn [resT fst snd]. split; [constructor|split; assumption].
      - cbn [forallb] in Hsc, Hx, Hex. andb_all.
        eapply resT_bind; [apply (IHe f g e en); assumption|].
        intros [v en1] [[Hv He1] [Hrv Hr1]]. cbn [fst snd] in *.
        eapply resT_bind; [apply (IH en1); assumption|]. intros [vs en2] (Hvs & He2 & Hr2). cbn [fst snd] in *.
        cbn [resT fst snd]. split; [constructor; [split; assumption|assumption]|split; assumption].
    Qed.

    Ltac use_list f g es en vs en1 Hvs He1 Hr1 :=
      eapply resX_bind; [apply (ev_list_exh f g ltac:(assumption) es en); assumption|];
      intros [vs en1] (Hvs & He1 & Hr1); cbn [fst snd] in Hvs, He1, Hr1.

    Lemma case_lit ei m t :
      match ei with ETrue | EFalse | ENumU _ _ | ENumS _ _ | ERange _ _ _ => True | _ => False end ->
      PE1 (S n) (Ex ei m t).
    Proof.
      intro Hc. start. destruct ei; try contradiction; apply resX_done; try exact Hr.
      - apply ty_beq_eq in Hsc. now subst.
      - apply ty_beq_eq in Hsc. now subst.
      - destruct t as [|sg b| | | |]; try discriminate Hsc. cbn [in_rng]. now rewrite <- lit_fits_in_range.
      - destruct t as [|sg b| | | |]; try discriminate Hsc. cbn [in_rng]. now rewrite <- lit_fits_in_range.
      - andb_all. match goal with H : ty_beq t _ = true |- _ => apply ty_beq_eq in H; subst t end.
        rewrite in_rng_arr. apply forallb_forall. intros v Hv. apply in_map_iff in Hv as [k [<- Hk]].
        apply in_seq in Hk. cbn [in_rng]. unfold Sem.in_range.
        match goal with H : (hi <=? 2 ^ bits) = true |- _ => apply N.leb_le in H; rename H into Hhi end.
        apply N.leb_le in Hx.
        assert (Hz : (Z.of_N hi <= 2 ^ Z.of_N bits)%Z) by (change 2%Z with (Z.of_N 2); rewrite <- N2Z.inj_pow; lia).
        apply andb_true_intro. split; [apply Z.leb_le; lia|apply Z.ltb_lt; lia].
    Qed.

    Lemma case_id x m t : PE1 (S n) (Ex (EId x) m t).
    Proof.
      start. destruct (tlookup g x) as [[tx mx]|] eqn:El; [|discriminate]. apply ty_beq_eq in Hsc. subst tx.
      destruct (lookup_rng P _ _ _ _ _ Hr El) as [v [Hv Ht]]. unfold Sem.lookup_var. rewrite Hv.
      exact (resX_done _ _ _ _ Hr Ht).
    Qed.

    Lemma case_arrlit es m t : PE1 (S n) (Ex (EArrLit es) m t).
    Proof.
      start. destruct t as [| |el k| | |]; try discriminate Hsc. andb_all.
      match goal with H : forallb (fun e1 => ty_beq (e_ty e1) el && _) es = true |- _ =>
        destruct (forallb_and _ _ _ H) as [Hty Hsc1] end.
      use_list f g es en vs en1 Hvs He1 Hr1. apply resX_done; [exact Hr1|].
      rewrite in_rng_arr. eapply vals_rng1; eassumption.
    Qed.

    Lemma case_arrrep e1 k m t : PE1 (S n) (Ex (EArrRep e1 k) m t).
    Proof.
      start. destruct t as [| |el k2| | |]; try discriminate Hsc. andb_all.
      use_sub f g e1 en v en1 Hv He1 Hrv Hr1. apply resX_done; [exact Hr1|].
      rewrite in_rng_arr. apply forallb_forall. intros x Hxx. apply repeat_spec in Hxx. subst x.
      match goal with H : ty_beq (e_ty e1) el = true |- _ => apply ty_beq_eq in H; now rewrite <- H end.
    Qed.

    Lemma case_idx a i m t : PE1 (S n) (Ex (EIdx a i) m t).
    Proof.
      start. destruct (e_ty a) as [| |el k| | |] eqn:Ea; try discriminate Hsc.
      destruct (e_ty i) as [|[|] b| | | |] eqn:Ei; try discriminate Hsc. andb_all.
      use_sub f g a en va en1 Hva He1 Hrva Hr1. use_sub f g i en1 vi en2 Hvi He2 Hrvi Hr2.
      rewrite Ea in Hva, Hrva. destruct (proj1 (VOK_arr _ _ _) (conj Hva Hrva)) as (vs & -> & _ & Hall).
      rewrite Ei in Hvi. destruct (has_ty_int_inv _ _ _ _ Hvi) as [z ->].
      destruct ((0 <=? z)%Z && (z <? Z.of_nat (length vs))%Z) eqn:Eb; [|exact I].
      destruct (nth_error vs (Z.to_nat z)) as [v|] eqn:En; [|cbn [resX]; nostuck].
      apply resX_done; [exact Hr2|]. rewrite Forall_forall in Hall.
      match goal with H : ty_beq el t = true |- _ => apply ty_beq_eq in H; subst t end.
      exact (proj2 (Hall v (nth_error_In _ _ En))).
    Qed.

    Lemma case_tuplit es m t : PE1 (S n) (Ex (ETupLit es) m t).
    Proof.
      start. andb_all. use_list f g es en vs en1 Hvs He1 Hr1. apply resX_done; [exact Hr1|].
      match goal with H : ty_beq t _ = true |- _ => apply ty_beq_eq in H; subst t end.
      rewrite in_rng_tup. now apply vals_rng.
    Qed.

    Lemma case_tupacc e1 i m t : PE1 (S n) (Ex (ETupAcc e1 i) m t).
    Proof.
      start. destruct (e_ty e1) as [| | |ts| |] eqn:E1; try discriminate Hsc.
      destruct (nthN ts i) as [ti|] eqn:Ei; [|discriminate Hsc]. andb_all.
      use_sub f g e1 en v en1 Hv He1 Hrv Hr1. rewrite E1 in Hv, Hrv.
      destruct (proj1 (VOK_tup _ _) (conj Hv Hrv)) as (vs & -> & Hvs).
      destruct (Forall2_nthN _ _ _ _ _ Hvs Ei) as [x [Hxn [_ Hxr]]]. rewrite Hxn.
      apply resX_done; [exact Hr1|].
      match goal with H : ty_beq ti t = true |- _ => apply ty_beq_eq in H; subst t end. exact Hxr.
    Qed.

    Lemma case_fld e1 fld m t : PE1 (S n) (Ex (EFld e1 fld) m t).
    Proof.
      start. destruct (e_ty e1) as [| | | |name|] eqn:E1; try discriminate Hsc.
      destruct (assocN name (p_structs P)) as [def|] eqn:Ed; [|discriminate Hsc].
      destruct (Sem.index_of fld (map fst def) 0) as [k|] eqn:Ek; [|discriminate Hsc].
      destruct (nthN (map snd def) k) as [tk|] eqn:Et; [|discriminate Hsc]. andb_all.
      use_sub f g e1 en v en1 Hv He1 Hrv Hr1. rewrite E1 in Hv, Hrv.
      destruct (proj1 (VOK_struct _ _ _ Ed) (conj Hv Hrv)) as (vs & -> & Hvs).
      destruct (Forall2_nthN _ _ _ _ _ Hvs Et) as [x [Hxn [_ Hxr]]]. rewrite Hxn.
      apply resX_done; [exact Hr1|].
      match goal with H : ty_beq tk t = true |- _ => apply ty_beq_eq in H; subst t end. exact Hxr.
    Qed.

    Lemma case_structlit name fields m t : PE1 (S n) (Ex (EStructLit name fields) m t).
    Proof.
      start. destruct (assocN name (p_structs P)) as [def|] eqn:Ed; [|discriminate Hsc].
      destruct (struct_exprs fields def) as [es|] eqn:Es; [|andb_all; discriminate]. andb_all.
      rewrite (ev_fields_list _ fields def es en Es).
      assert (Hsub : forall F : expr -> bool, forallb (fun fe => F (snd fe)) fields = true -> forallb F es = true).
      { intros F HF. apply forallb_forall. intros e He'. destruct (struct_exprs_in fields def es Es e He') as [k Hk].
        rewrite forallb_forall in HF. exact (HF _ Hk). }
      apply Hsub in Hex. match goal with H : forallb (fun fe => wtx_expr P (snd fe)) fields = true |- _ => apply Hsub in H end.
      use_list f g es en vs en1 Hvs He1 Hr1. apply resX_done; [exact Hr1|].
      match goal with H : ty_beq t _ = true |- _ => apply ty_beq_eq in H; subst t end.
      match goal with H : ty_beq (TTup _) (TTup _) = true |- _ => apply ty_beq_eq in H; injection H as Hts end.
      rewrite in_rng_struct, Ed, <- Hts. now apply vals_rng.
    Qed.

    Lemma case_enumlit ename variant args m t : PE1 (S n) (Ex (EEnumLit ename variant args) m t).
    Proof.
      start. destruct (assocN ename (p_enums P)) as [variants|] eqn:Ee; [|discriminate Hsc].
      destruct (nthN variants variant) as [ts|] eqn:Ev; [|discriminate Hsc]. andb_all.
      use_list f g args en vs en1 Hvs He1 Hr1. apply resX_done; [exact Hr1|].
      match goal with H : ty_beq t _ = true |- _ => apply ty_beq_eq in H; subst t end.
      match goal with H : ty_beq (TTup _) (TTup _) = true |- _ => apply ty_beq_eq in H; injection H as Hts end.
      rewrite in_rng_enum, Ee, Ev, <- Hts. now apply vals_rng.
    Qed.
    (* a body guarded by a matched pattern, run in a scope of its own *)
    Lemma bound_envs g p ts bs v vbs en :
      genv P g -> env_ok P (Sem.scopes en) g -> env_rng P (Sem.scopes en) g ->
      gpat_ok P p ts bs -> p_ty p = ts -> wt_pat P p = Some bs -> ty_fits P ts -> VOK v ts ->
      Sem.pmatch P p v = Some vbs ->
      genv P (tbind_all ([] :: g) bs false) /\ tl (tbind_all ([] :: g) bs false) = g /\
      env_ok P (Sem.scopes (Sem.bind_all (Sem.push_scope en) vbs)) (tbind_all ([] :: g) bs false) /\
      env_rng P (Sem.scopes (Sem.bind_all (Sem.push_scope en) vbs)) (tbind_all ([] :: g) bs false).
    Proof.
      intros Hg He Hr Hp Hpt Hwp Hfit [Hv Hrv] Hm.
      destruct (genv_tbind_all P bs false ([] :: g) (genv_push _ _ Hg)) as [Hg' Htl]. cbn [tl] in Htl.
      split; [exact Hg'|]. split; [exact Htl|]. split.
      - apply bind_all_ok; [|now apply push_ok]. subst ts.
        exact (proj1 (pmatch_sound P p v bs Hwp Hv) vbs Hm).
      - apply bind_all_rng; [|now apply push_rng]. exact (pmatch_rng P p ts bs v vbs Hp Hfit Hv Hrv Hm).
    Qed.

    Lemma ev_arms_exh f g v (ts t : ty) en :
      genv P g -> env_ok P (Sem.scopes en) g -> env_rng P (Sem.scopes en) g -> VOK v ts -> ty_fits P ts ->
      forall arms,
      Forall (fun arm : pattern * expr => exists bs, gpat_b P false (fst arm) ts = Some bs /\
                scf2_expr f P (tbind_all ([] :: g) bs false) (snd arm) = true /\ e_ty (snd arm) = t /\
                wtx_pat P (fst arm) = true /\ wtx_expr P (snd arm) = true /\ exh_expr P (snd arm) = true) arms ->
      (exists arm, In arm arms /\ Sem.pmatch P (fst arm) v <> None) ->
      resT (QF g t) (ev_arms P (Sem.eval n P) v en arms).
    Proof.
      intros Hg He Hr Hv Hfit arms. induction arms as [|[p body] r IH]; intros Harms (arm & Hin & Hm); [contradiction|].
      inversion Harms as [|a l (bs & Hgp & Hsc & Ht & Hxp & Hxb & Hexb) Hrest]; subst. cbn [fst snd] in *.
      cbn [ev_arms]. destruct (Sem.pmatch P p v) as [vbs|] eqn:Ep.
      - destruct (bound_envs g p ts bs v vbs en Hg He Hr (gpat_b_sound P p ts bs Hgp) (gpat_b_ty P _ _ _ _ Hgp)
                    (gpat_b_wt P false p ts bs Hgp Hxp) Hfit Hv Ep) as (Hg' & Htl & He' & Hr').
        eapply resT_bind; [apply (IHe f _ body _ Hsc Hxb Hexb Hg' He' Hr')|].
        intros [res en1] [[Hres He1] [Hrres Hr1]]. cbn [fst snd] in *. cbn [resT].
        split; split; cbn [fst snd Sem.pop_scope Sem.scopes]; try assumption.
        + rewrite <- Htl. now apply pop_ok.
        + rewrite <- Htl. now apply pop_rng.
      - apply IH; [exact Hrest|]. destruct Hin as [<-|Hin]; [cbn [fst] in Hm; congruence|]. eauto.
    Qed.

    Lemma case_match s arms m t : PE1 (S n) (Ex (EMatch s arms) m t).
    Proof.
      start. andb_all. use_sub f g s en v en1 Hv He1 Hrv Hr1. apply resX_of_T.
      match goal with H : exh_pats P (e_ty s) (map fst arms) = true |- _ => rename H into Hpats end.
      apply (ev_arms_exh f g v (e_ty s) t en1 Hg He1 Hr1 (conj Hv Hrv) (exh_pats_fits P _ _ Hpats)).
      - apply Forall_forall. intros arm Hin.
        repeat match goal with H : forallb _ arms = true |- _ => rewrite forallb_forall in H; specialize (H arm Hin) end.
        destruct (gpat_b P false (fst arm) (e_ty s)) as [bs|]; [|discriminate]. andb_all. exists bs.
        repeat split; try assumption. now apply ty_beq_eq.
      - destruct (exh_pats_sound_ty P (e_ty s) (map fst arms) v Hpats Hv Hrv) as (p & Hin & Hm).
        apply in_map_iff in Hin as (arm & <- & Hin). eauto.
    Qed.

    Lemma case_neg e1 m t : PE1 (S n) (Ex (ENeg e1) m t).
    Proof.
      start. destruct t as [|[|] b| | | |]; try discriminate Hsc. andb_all.
      use_sub f g e1 en v en1 Hv He1 Hrv Hr1.
      match goal with H : ty_beq (e_ty e1) _ = true |- _ => apply ty_beq_eq in H; rewrite H in Hv end.
      destruct (has_ty_int_inv _ _ _ _ Hv) as [z ->]. cbn [Sem.int_ty]. unfold Sem.checked.
      destruct (Sem.in_range true b (- z)) eqn:Er; cbn [Sem.obind]; [|exact I].
      exact (resX_done g (TInt true b) (Sem.VInt (- z)) en1 Hr1 Er).
    Qed.

    Lemma case_not e1 m t : PE1 (S n) (Ex (ENot e1) m t).
    Proof.
      start. andb_all. use_sub f g e1 en v en1 Hv He1 Hrv Hr1.
      match goal with H : ty_beq (e_ty e1) _ = true |- _ => apply ty_beq_eq in H; rewrite H in Hv end.
      destruct t as [|sg b| | | |]; try discriminate.
      - destruct (has_ty_bool_inv _ _ Hv) as [b ->]. now apply resX_done.
      - destruct (has_ty_int_inv _ _ _ _ Hv) as [z ->]. apply resX_done; [exact Hr1|]. cbn [in_rng].
        apply wrap_in_range. match goal with H : scalar_ty _ = true |- _ => cbn [scalar_ty] in H; apply ok_width_pos in H end. lia.
    Qed.

    Lemma val_ok_in_rng t v : val_ok t v -> in_rng P v t = true.
    Proof. destruct t, v; cbn [val_ok in_rng]; try contradiction; auto. Qed.

    Lemma VOK_int v sg b : VOK v (TInt sg b) -> exists z, v = Sem.VInt z /\ Sem.in_range sg b z = true.
    Proof. intros [H1 H2]. destruct (has_ty_int_inv _ _ _ _ H1) as [z ->]. eauto. Qed.
    Lemma VOK_bool v : VOK v TBool -> exists b, v = Sem.VBool b.
    Proof. intros [H1 _]. exact (has_ty_bool_inv _ _ H1). Qed.
    Lemma binop_rng o x y m t vx vy len :
      scf2_op o x y m t = true -> o <> OLAnd -> o <> OLOr -> VOK vx (e_ty x) -> VOK vy (e_ty y) ->
      match Sem.eval_binop o m (match o with OShl | OShr => e_ty x | _ => t end) (e_ty x) vx vy len with
      | Sem.Done (v, _) => in_rng P v t = true
      | Sem.Stuck _ => False
      | _ => True
      end.
    Proof.
      intros Hop Hn1 Hn2 Hvx Hvy. unfold scf2_op in Hop. apply orb_prop in Hop as [Hop|Hop].
      - assert (Hag : forall tx, e_ty x = tx -> e_ty y = tx ->
                  (match o with OShl | OShr => False | _ => True end) ->
                  (forall vx vy, VOK vx tx -> VOK vy tx -> binop_agrees o m t tx vx vy len) ->
                  match Sem.eval_binop o m (match o with OShl | OShr => e_ty x | _ => t end) (e_ty x) vx vy len with
                  | Sem.Done (v, _) => in_rng P v t = true
                  | Sem.Stuck _ => False
                  | _ => True
                  end).
        { intros tx Ex Ey Hns Hag. rewrite Ex in Hvx |- *. rewrite Ey in Hvy. specialize (Hag vx vy Hvx Hvy).
          unfold binop_agrees in Hag.
          replace (match o with OShl | OShr => tx | _ => t end) with t by (destruct o; try reflexivity; contradiction).
          destruct (Sem.eval_binop o m t tx vx vy len) as [[v l]| | |]; try exact I; try contradiction.
          apply val_ok_in_rng. exact (proj1 Hag). }
        assert (Hint : forall sg b (ot : ty), ok_width b = true ->
                  (op_arith o = true /\ ot = TInt sg b) \/ (op_cmp o || op_eq o = true /\ ot = TBool) ->
                  forall vx vy, VOK vx (TInt sg b) -> VOK vy (TInt sg b) -> binop_agrees o m ot (TInt sg b) vx vy len).
        { intros sg b ot Hb Hot ux uy Hux Huy.
          destruct (VOK_int _ _ _ Hux) as (a & -> & Ha). destruct (VOK_int _ _ _ Huy) as (c & -> & Hc).
          destruct sg; [now apply binop_signed_agrees|now apply binop_unsigned_agrees]. }
        assert (Hbool : op_bit o || op_eq o = true ->
                  forall vx vy, VOK vx TBool -> VOK vy TBool -> binop_agrees o m TBool TBool vx vy len).
        { intros Ho ux uy Hux Huy. destruct (VOK_bool _ Hux) as [p ->]. destruct (VOK_bool _ Huy) as [q ->].
          now apply binop_bool_agrees. }
        destruct o; cbn [sc_op] in Hop; try congruence.
        all: try (destruct t as [|sg b| | | |]; try discriminate Hop; andb_all;
                  repeat match goal with H : sty_eqb _ _ = true |- _ => apply sty_eqb_eq in H end;
                  first [ apply (Hag (TInt sg b)); [assumption|assumption|exact I|];
                          apply Hint; [assumption|left; split; reflexivity]
                        | apply (Hag TBool); [assumption|assumption|exact I|]; apply Hbool; reflexivity ]).
        (* left: > <, == !=, << >>, each pair by one script *)
        1,2: (andb_all; match goal with H : sty_eqb _ TBool = true |- _ => apply sty_eqb_eq in H; subst t end;
              destruct (e_ty x) as [|sg b| | | |] eqn:Ex; try discriminate; andb_all;
              match goal with H : sty_eqb (e_ty _) _ = true |- _ => apply sty_eqb_eq in H end;
              apply (Hag (TInt sg b)); [reflexivity|assumption|exact I|];
              apply Hint; [assumption|right; split; reflexivity]).
        1,2: (andb_all; match goal with H : sty_eqb _ TBool = true |- _ => apply sty_eqb_eq in H; subst t end; reflexivity).
        all: (destruct t as [|sg b| | | |]; try discriminate Hop; andb_all;
              repeat match goal with H : sty_eqb _ _ = true |- _ => apply sty_eqb_eq in H end;
              match goal with H1 : e_ty _ = _, H2 : e_ty _ = _ |- _ => rewrite H1 in Hvx |- *; rewrite H2 in Hvy end;
              destruct (VOK_int _ _ _ Hvx) as (a & -> & Ha); destruct (VOK_int _ _ _ Hvy) as (s & -> & Hs);
              match goal with H : ok_width _ = true |- context [Sem.eval_binop ?op] =>
                pose proof (shift_agrees (match op with OShl => true | _ => false end) m sg b a s len H Ha Hs) as HA end;
              cbv zeta in HA; cbv iota in HA;
              destruct (Sem.eval_binop _ m (TInt sg b) (TInt sg b) (Sem.VInt a) (Sem.VInt s) len) as [[v l]| | |];
              try exact I; try contradiction; apply val_ok_in_rng; exact (proj1 HA)).
      - (* a product with a literal operand: an ordinary checked product in Sem.v *)
        destruct o; try discriminate Hop.
        + destruct t as [|sg b| | | |]; try discriminate Hop. andb_all.
          repeat match goal with H : sty_eqb _ _ = true |- _ => apply sty_eqb_eq in H end.
          match goal with H1 : e_ty x = _, H2 : e_ty y = _ |- _ => rewrite H1 in Hvx |- *; rewrite H2 in Hvy end.
          destruct (VOK_int _ _ _ Hvx) as (a & -> & Ha). destruct (VOK_int _ _ _ Hvy) as (c & -> & Hc).
          cbn [Sem.eval_binop Sem.int_ty]. unfold Sem.checked.
          destruct (Sem.in_range sg b (a * c)) eqn:Er; cbn [Sem.obind]; [exact Er|exact I].
        + (* == on values of any one type: a Boolean *) destruct t; try discriminate Hop. reflexivity.
        + (* != *) destruct t; try discriminate Hop. reflexivity.
    Qed.

    Lemma case_op o x y m t : PE1 (S n) (Ex (EOp o x y) m t).
    Proof.
      start. andb_all.
      match goal with H : scf2_op o x y m t = true |- _ => rename H into Hop end.
      destruct (binop_eq_dec_land o) as [Hl|[Hn1 Hn2]].
      - (* && and ||: the right operand is evaluated or not *)
        assert (Hb : e_ty x = TBool /\ e_ty y = TBool /\ t = TBool).
        { unfold scf2_op in Hop. destruct Hl as [-> | ->]; cbn [sc_op] in Hop; rewrite orb_false_r in Hop; andb_all;
            repeat match goal with H : sty_eqb _ _ = true |- _ => apply sty_eqb_eq in H end; auto. }
        destruct Hb as (Ex & Ey & ->).
        assert (Hy : forall en1, env_ok P (Sem.scopes en1) g -> env_rng P (Sem.scopes en1) g ->
                       resX (QE g TBool) (QR g TBool) (Sem.eval n P en1 y)).
        { intros en1 He1 Hr1. apply resX_of_T. rewrite <- Ey. apply (IHe f g y en1); assumption. }
        destruct Hl as [-> | ->]; use_sub f g x en vx en1 Hvx He1 Hrvx Hr1; rewrite Ex in Hvx;
          destruct (has_ty_bool_inv _ _ Hvx) as [[|] ->]; solve [now apply Hy | now apply resX_done].
      - assert (Heq : forall R : Sem.outcome (Sem.value * Sem.env) -> Prop,
                  R (Sem.obind (Sem.eval n P en x) (fun '(vx, en1) =>
                     Sem.obind (Sem.eval n P en1 y) (fun '(vy, en2) =>
                     Sem.obind (Sem.eval_binop o m (match o with OShl | OShr => e_ty x | _ => t end) (e_ty x) vx vy (Sem.lenient en2))
                       (fun '(v, len) => Sem.Done (v, Sem.mkEnv (Sem.scopes en2) len))))) ->
                  R (match o with
                     | OLAnd => Sem.obind (Sem.eval n P en x) (fun '(vx, en1) =>
                         match vx with Sem.VBool false => Sem.Done (Sem.VBool false, en1) | Sem.VBool true => Sem.eval n P en1 y | _ => Sem.Stuck 44 end)
                     | OLOr => Sem.obind (Sem.eval n P en x) (fun '(vx, en1) =>
                         match vx with Sem.VBool true => Sem.Done (Sem.VBool true, en1) | Sem.VBool false => Sem.eval n P en1 y | _ => Sem.Stuck 45 end)
                     | _ => Sem.obind (Sem.eval n P en x) (fun '(vx, en1) =>
                         Sem.obind (Sem.eval n P en1 y) (fun '(vy, en2) =>
                         Sem.obind (Sem.eval_binop o m (match o with OShl | OShr => e_ty x | _ => t end) (e_ty x) vx vy (Sem.lenient en2))
                           (fun '(v, len) => Sem.Done (v, Sem.mkEnv (Sem.scopes en2) len))))
                     end)).
        { intros R HR. destruct o; try congruence; exact HR. }
        apply Heq. clear Heq.
        use_sub f g x en vx en1 Hvx He1 Hrvx Hr1. use_sub f g y en1 vy en2 Hvy He2 Hrvy Hr2.
        pose proof (binop_rng o x y m t vx vy (Sem.lenient en2) Hop Hn1 Hn2 (conj Hvx Hrvx) (conj Hvy Hrvy)) as HB.
        destruct (Sem.eval_binop o m _ (e_ty x) vx vy (Sem.lenient en2)) as [[v l]| | |]; cbn [Sem.obind resX];
          try exact I; [|contradiction].
        exact (resX_done g t v _ Hr2 HB).
    Qed.

    Lemma case_block b m t : PE1 (S n) (Ex (EBlock b) m t).
    Proof.
      start. destruct (scf2_block f P ([] :: g) b) as [tb|] eqn:Eb; [|discriminate Hsc]. apply ty_beq_eq in Hsc. subst tb.
      eapply resX_bind; [apply (IHb f ([] :: g) b (Sem.push_scope en) t Eb Hx Hex (genv_push _ _ Hg) (push_ok _ _ _ He) (push_rng _ _ _ Hr))|].
      intros [v en1] [[Hv He1] [Hrv Hr1]]. exact (resX_done g t v (Sem.pop_scope en1) Hr1 Hrv).
    Qed.
    Lemma forallb2_and {A B} (a b : A -> B -> bool) : forall l l',
      forallb2 (fun x y => a x y && b x y) l l' = true -> forallb2 a l l' = true /\ forallb2 b l l' = true.
    Proof.
      induction l as [|x l IH]; intros [|y l']; cbn [forallb2]; try discriminate; [auto|]. intro H.
      apply andb_prop in H as [H1 H2]. apply andb_prop in H1 as [Ha Hb]. destruct (IH _ H2) as [I1 I2].
      now rewrite Ha, Hb, I1, I2.
    Qed.

    Lemma forallb2_r {A B} (b : A -> bool) : forall (l : list A) (l' : list B),
      forallb2 (fun x _ => b x) l l' = true -> forallb b l = true.
    Proof.
      induction l as [|x l IH]; intros [|y l']; cbn [forallb2 forallb]; try discriminate; [auto|]. intro H.
      apply andb_prop in H as [H1 H2]. now rewrite H1, (IH _ H2).
    Qed.

    Lemma args_VOK vs : forall args (params : list (N * ty)),
      Forall2 (fun v e => VOK v (e_ty e)) vs args ->
      forallb2 (fun (a : expr) (p : N * ty) => ty_beq (e_ty a) (snd p)) args params = true ->
      Forall2 VOK vs (map snd params).
    Proof.
      induction vs as [|v vs IH]; intros args params H Hb; inversion H as [|v' e vs' es Hv Hr]; subst;
        destruct params as [|[x t] pr]; cbn [forallb2] in Hb; try discriminate; cbn [map]; constructor.
      - apply andb_prop in Hb as [Hb _]. apply ty_beq_eq in Hb. cbn [snd] in *. now rewrite <- Hb.
      - apply andb_prop in Hb as [_ Hb]. now apply (IH es).
    Qed.

    Lemma combine_binds (params : list (N * ty)) : forall vs, Forall2 VOK vs (map snd params) ->
      binds_ok P (combine (map fst params) vs) params /\ binds_rng P (combine (map fst params) vs) params.
    Proof.
      induction params as [|[x t] r IH]; intros vs H; inversion H; subst; cbn [map combine fst snd].
      - split; constructor.
      - match goal with H1 : VOK _ _, H2 : Forall2 VOK _ _ |- _ => destruct H1 as [Ht Hr]; destruct (IH _ H2) as [I1 I2] end.
        split; (constructor; [split; [reflexivity|assumption]|assumption]).
    Qed.

    Lemma gscope_consts : gscope P = consts_scope P.
    Proof. pose proof (consts_tenv_one P) as H1. rewrite (consts_tenv_scope P) in H1. now injection H1. Qed.

    Lemma fn_checked d : In d (p_fns P) ->
      scf2_block fwp P ([] :: tbind_all ([] :: consts_tenv P) (fn_params d) true) (fn_body d) = Some (fn_ret d) /\
      forallb (wtx_stmt P) (fn_body d) = true /\ forallb (exh_stmt P) (fn_body d) = true.
    Proof.
      intro Hin. split; [|split].
      - unfold scf2_fns in Hscf. rewrite forallb_forall in Hscf. specialize (Hscf d Hin). unfold scf2_fn in Hscf.
        rewrite consts_tenv_scope.
        destruct (scf2_block fwp P _ (fn_body d)) as [tb|]; [|discriminate Hscf]. apply ty_beq_eq in Hscf. now subst tb.
      - unfold wtx_fns in Hwx. rewrite forallb_forall in Hwx. exact (Hwx d Hin).
      - unfold exh_fns in Hexh. rewrite forallb_forall in Hexh. exact (Hexh d Hin).
    Qed.

    Lemma case_call fn args m t : PE1 (S n) (Ex (ECall fn args) m t).
    Proof.
      start. destruct (find_fn P fn) as [d|] eqn:Efn; [|discriminate Hsc]. andb_all.
      match goal with H : forallb2 _ args (fn_params d) = true |- _ => destruct (forallb2_and _ _ _ _ H) as [Hty Hsc1] end.
      apply forallb2_r in Hsc1.
      use_list f g args en vs en1 Hvs He1 Hr1.
      pose proof (args_VOK vs args (fn_params d) Hvs Hty) as Hvt.
      assert (Hl : length vs = length (fn_params d))
        by (rewrite (Forall2_length_eq _ _ _ Hvt); apply map_length).
      rewrite Hl, Nat.eqb_refl. cbn [negb].
      assert (Hin : In d (p_fns P)) by (unfold find_fn in Efn; apply find_some in Efn; tauto).
      destruct (fn_checked d Hin) as (Eb & Hxb & Hexb).
      assert (Hg0 : genv P ([] :: consts_tenv P)).
      { rewrite consts_tenv_one. exists [], []. reflexivity. }
      destruct (genv_tbind_all P (fn_params d) true _ Hg0) as [Hg1 _].
      (* the callee starts in an empty scope over the scope of the constants *)
      set (en0 := Sem.mkEnv [[]; last (Sem.scopes en1) []] (Sem.lenient en1)).
      assert (He0 : env_ok P (Sem.scopes en0) ([] :: consts_tenv P)).
      { cbn [en0 Sem.scopes]. rewrite consts_tenv_one. constructor; [constructor|]. constructor; [|constructor].
        rewrite <- (genv_last P g Hg). now apply env_ok_last. }
      assert (Hr0 : env_rng P (Sem.scopes en0) ([] :: consts_tenv P)).
      { cbn [en0 Sem.scopes]. rewrite consts_tenv_one. constructor; [constructor|]. constructor; [|constructor].
        rewrite <- (genv_last P g Hg). now apply env_rng_last. }
      destruct (combine_binds (fn_params d) vs Hvt) as [Hbo Hbr].
      pose proof (bind_all_ok P _ _ true Hbo _ _ He0) as He2.
      pose proof (bind_all_rng P _ _ true Hbr _ _ Hr0) as Hr2.
      eapply resX_bind; [apply (IHb fwp _ (fn_body d) _ (fn_ret d) Eb Hxb Hexb (genv_push _ _ Hg1) (push_ok _ _ _ He2) (push_rng _ _ _ Hr2))|].
      intros [v en2] [[Hv _] [Hrv _]]. cbn [fst] in Hrv.
      match goal with H : ty_beq (fn_ret d) t = true |- _ => apply ty_beq_eq in H; subst t end.
      exact (resX_done _ _ _ _ Hr1 Hrv).
    Qed.

    Lemma case_if c a b m t : PE1 (S n) (Ex (EIf c a b) m t).
    Proof.
      start. andb_all.
      repeat match goal with H : ty_beq _ _ = true |- _ => apply ty_beq_eq in H end.
      use_sub f g c en vc en1 Hvc He1 Hrvc Hr1.
      match goal with H : e_ty c = TBool |- _ => rewrite H in Hvc end.
      destruct (has_ty_bool_inv _ _ Hvc) as [[|] ->]; apply resX_of_T.
      - match goal with H : e_ty a = t |- _ => rewrite <- H end. apply (IHe f g a en1); assumption.
      - match goal with H : e_ty b = t |- _ => rewrite <- H end. apply (IHe f g b en1); assumption.
    Qed.

    Lemma in_range_01 sg b (p : bool) : ok_width b = true -> Sem.in_range sg b (if p then 1 else 0) = true.
    Proof. intro H. destruct (ok_width_cases b H) as [-> | [-> | [-> | ->]]]; destruct sg, p; reflexivity. Qed.

    Lemma case_cast to e1 m t : PE1 (S n) (Ex (ECast to e1) m t).
    Proof.
      start. andb_all.
      match goal with H : ty_beq to t = true |- _ => apply ty_beq_eq in H; subst to end.
      use_sub f g e1 en v en1 Hv He1 Hrv Hr1.
      match goal with H : scalar_ty t = true |- _ => rename H into Hst end.
      match goal with H : scalar_ty (e_ty e1) = true |- _ => rename H into Hs1 end.
      destruct (e_ty e1) as [|sg1 b1| | | |]; try discriminate Hs1.
      - destruct (has_ty_bool_inv _ _ Hv) as [p ->]. destruct t as [|sg b| | | |]; try discriminate Hst;
          cbn [Sem.eval_cast Sem.obind]; apply resX_done; try exact Hr1; [reflexivity|].
        now apply in_range_01.
      - destruct (has_ty_int_inv _ _ _ _ Hv) as [z ->]. destruct t as [|sg b| | | |]; try discriminate Hst;
          cbn [Sem.eval_cast Sem.obind]; apply resX_done; try exact Hr1; [reflexivity|].
        apply wrap_in_range. cbn [scalar_ty] in Hst. apply ok_width_pos in Hst. lia.
    Qed.

    Theorem PE_step : PE (S n).
    Proof.
      intros fw g [ei m t] en. revert fw g en. change (PE1 (S n) (Ex ei m t)).
      destruct ei; try (apply case_lit; exact I).
      - apply case_id.
      - apply case_arrlit.
      - apply case_arrrep.
      - apply case_idx.
      - apply case_tuplit.
      - apply case_tupacc.
      - apply case_fld.
      - apply case_structlit.
      - apply case_enumlit.
      - apply case_match.
      - apply case_neg.
      - apply case_not.
      - apply case_op.
      - apply case_block.
      - apply case_call.
      - (* join: rejected by the strict checker *) intros [|f] g en Hsc; discriminate Hsc.
      - apply case_if.
      - apply case_cast.
    Qed.
  End Cases.

  (* ---------------------------------------------------------- blocks *)

  Lemma scf2_stmt_genv fw g s g' t : scf2_stmt fw P g s = Some (g', t) -> wtx_stmt P s = true ->
    genv P g -> genv P g' /\ tl g' = tl g.
  Proof.
    intros Hsc Hx Hg.
    exact (wt_stmt_genv P fw g s g' t (proj2 (proj2 (scf2_wtx_implies_wt P fw)) g s (g', t) Hsc Hx) Hg).
  Qed.

  Lemma xb_go_exh n (IHs : PS n) f : forall ss g lt lv en g' t,
    scf2_stmts f P ss g lt = Some (g', t) ->
    forallb (wtx_stmt P) ss = true -> forallb (exh_stmt P) ss = true ->
    genv P g -> env_ok P (Sem.scopes en) g -> env_rng P (Sem.scopes en) g -> VOK lv lt ->
    resT (fun r => QEb g t r /\ QRb g t r) (xb_go (Sem.exec n P) ss lv en).
  Proof.
    induction ss as [|s r IH]; intros g lt lv en g' t Hsc Hx Hex Hg He Hr [Hl Hlr]; cbn [scf2_stmts xb_go] in *.
    - injection Hsc as <- <-. cbn [resT]. split; split; cbn [fst snd]; try assumption; [now apply pop_ok|now apply pop_rng].
    - destruct (scf2_stmt f P g s) as [[g1 t1]|] eqn:Es; [|discriminate Hsc]. cbn [forallb] in Hx, Hex. andb_all.
      eapply resT_bind; [apply (IHs f g s en g1 t1 Es); assumption|].
      intros [v en1] [[Hv He1] [Hrv Hr1]]. cbn [fst snd] in *.
      destruct (scf2_stmt_genv _ _ _ _ _ Es ltac:(assumption) Hg) as [Hg1 Htl].
      unfold QEb, QRb. rewrite <- Htl.
      apply (IH g1 t1 v en1 g' t Hsc); try assumption. split; assumption.
  Qed.

  Theorem PB_step n : PS n -> PB (S n).
  Proof.
    intros IHs fw g b en t Hsc Hx Hex Hg He Hr. destruct fw as [|f]; [discriminate Hsc|].
    rewrite scf2_block_S in Hsc. rewrite exec_block_eq.
    destruct (scf2_stmts f P b g unit_ty) as [[g' t']|] eqn:Es; [|discriminate Hsc]. cbn [option_map snd] in Hsc.
    injection Hsc as ->.
    apply (xb_go_exh n IHs f b g unit_ty Sem.unit_val en g' t Es Hx Hex Hg He Hr). split; reflexivity.
  Qed.

  (* ---------------------------------------------------------- statements *)

  Definition resY {A} (Q : A -> Prop) (o : Sem.outcome A) : Prop :=
    match o with Sem.Done a => Q a | Sem.Stuck c => ~ In c stuck_allowed | _ => True end.

  Lemma resY_bindT {A B} (o : Sem.outcome A) (k : A -> Sem.outcome B) (Q : A -> Prop) (R : B -> Prop) :
    resT Q o -> (forall a, Q a -> resY R (k a)) -> resY R (Sem.obind o k).
  Proof. destruct o; cbn [resT resY Sem.obind]; auto; contradiction. Qed.

  Lemma resX_bindY {A B} (o : Sem.outcome A) (k : A -> Sem.outcome B) (Q : A -> Prop) (R1 R2 : B -> Prop) :
    resY Q o -> (forall a, Q a -> resX R1 R2 (k a)) -> resX R1 R2 (Sem.obind o k).
  Proof. destruct o; cbn [resY resX Sem.obind]; auto. Qed.

  Lemma resY_weaken {A} (Q Q' : A -> Prop) (o : Sem.outcome A) :
    resY Q o -> (forall a, Q a -> Q' a) -> resY Q' o.
  Proof. destruct o; cbn [resY]; auto. Qed.

  (* accessor chains, typed as the strict checker types them *)
  Inductive acc_ty (f : nat) (g : tenv) : list accessor -> ty -> ty -> Prop :=
  | AT_nil t : acc_ty f g [] t t
  | AT_idx aty ie r el k b tf : scf2_expr f P g ie = true -> e_ty ie = TInt false b ->
      acc_ty f g r el tf -> acc_ty f g (AIdx aty ie :: r) (TArr el k) tf
  | AT_tup tty i r ts ti tf : nthN ts i = Some ti -> acc_ty f g r ti tf ->
      acc_ty f g (ATup tty i :: r) (TTup ts) tf
  | AT_fld fld r name def k tk tf :
      assocN name (p_structs P) = Some def -> Sem.index_of fld (map fst def) 0 = Some k ->
      nthN (map snd def) k = Some tk -> acc_ty f g r tk tf ->
      acc_ty f g (AFld (TStruct name) fld :: r) (TStruct name) tf.

  Fixpoint path_ty (path : list Sem.rstep) (t tf : ty) : Prop :=
    match path with
    | [] => t = tf
    | Sem.RIdx i :: r => exists el k, t = TArr el k /\ i < k /\ path_ty r el tf
    | Sem.RPos i :: r =>
        (exists ts ti, t = TTup ts /\ nthN ts i = Some ti /\ path_ty r ti tf) \/
        (exists name def ti, t = TStruct name /\ assocN name (p_structs P) = Some def /\
                             nthN (map snd def) i = Some ti /\ path_ty r ti tf)
    end.

  Lemma set_nth_Forall_fwd (Q : Sem.value -> Prop) : forall vs i x vs',
    Forall Q vs -> Q x -> Sem.set_nth_val vs i x = Some vs' -> Forall Q vs'.
  Proof.
    induction vs as [|v r IH]; intros i x vs' Hall Hx H; cbn [Sem.set_nth_val] in H; [discriminate H|].
    inversion Hall; subst. destruct i as [|i]; cbn [Sem.set_nth_val] in H.
    - injection H as <-. now constructor.
    - destruct (Sem.set_nth_val r i x) as [r'|] eqn:E; [|discriminate H]. injection H as <-.
      constructor; [assumption|]. apply (IH i x r'); assumption.
  Qed.

  Lemma set_nth_Forall2_fwd (R : Sem.value -> ty -> Prop) vs ts : Forall2 R vs ts -> forall i x ti vs',
    nth_error ts i = Some ti -> R x ti -> Sem.set_nth_val vs i x = Some vs' -> Forall2 R vs' ts.
  Proof.
    induction 1 as [|v t vr tr Hv Hr IH]; intros i x ti vs' Hn Hx H; [destruct i; discriminate|].
    destruct i as [|i]; cbn [nth_error Sem.set_nth_val] in *.
    - injection Hn as ->. injection H as <-. now constructor.
    - destruct (Sem.set_nth_val vr i x) as [r'|] eqn:E; [|discriminate H]. injection H as <-.
      constructor; [assumption|]. apply (IH i x ti r'); assumption.
  Qed.

  Lemma write_path_rng tf nv : VOK nv tf -> forall path t v whole,
    path_ty path t tf -> VOK v t -> Sem.write_path v path nv = Some whole -> VOK whole t.
  Proof.
    intros Hnv path. induction path as [|[i|i] r IH]; intros t v whole Hp Hv Hw; cbn [path_ty] in Hp.
    - subst. cbn [Sem.write_path] in Hw. now injection Hw as <-.
    - destruct Hp as (el & k & -> & Hi & Hr). apply VOK_arr in Hv as (vs & -> & <- & Hall).
      cbn [Sem.write_path] in Hw. destruct (nthN vs i) as [sub|] eqn:Hsub; [|discriminate Hw].
      destruct (Sem.write_path sub r nv) as [sub'|] eqn:Hw'; [|discriminate Hw].
      destruct (Sem.set_nth_val vs (N.to_nat i) sub') as [vs'|] eqn:Hset; [|discriminate Hw]. injection Hw as <-.
      apply VOK_arr. exists vs'. split; [reflexivity|].
      split; [unfold lenN; now rewrite (set_nth_val_length _ _ _ _ Hset)|].
      refine (set_nth_Forall_fwd _ vs _ _ _ Hall _ Hset). apply (IH el sub sub' Hr); [|exact Hw'].
      rewrite nthN_spec in Hsub. rewrite Forall_forall in Hall. exact (Hall _ (nth_error_In _ _ Hsub)).
    - (* a tuple and a struct are written alike *)
      assert (Hgen : forall ts ti vs, nthN ts i = Some ti -> path_ty r ti tf -> Forall2 VOK vs ts ->
                Sem.write_path (Sem.VTup vs) (Sem.RPos i :: r) nv = Some whole ->
                exists vs', whole = Sem.VTup vs' /\ Forall2 VOK vs' ts).
      { intros ts ti vs Hn Hr Hvs Hw0. cbn [Sem.write_path] in Hw0.
        destruct (Forall2_nthN _ _ _ _ _ Hvs Hn) as [sub [Hsub Hst]]. rewrite Hsub in Hw0.
        destruct (Sem.write_path sub r nv) as [sub'|] eqn:Hw'; [|discriminate Hw0].
        destruct (Sem.set_nth_val vs (N.to_nat i) sub') as [vs'|] eqn:Hset; [|discriminate Hw0]. injection Hw0 as <-.
        rewrite nthN_spec in Hn. exists vs'. split; [reflexivity|].
        exact (set_nth_Forall2_fwd VOK vs ts Hvs _ _ _ _ Hn (IH ti sub sub' Hr Hst Hw') Hset). }
      destruct Hp as [(ts & ti & -> & Hn & Hr)|(name & def & ti & -> & Hd & Hn & Hr)].
      + apply VOK_tup in Hv as (vs & -> & Hvs). apply VOK_tup. exact (Hgen ts ti vs Hn Hr Hvs Hw).
      + apply (VOK_struct _ _ _ Hd) in Hv as (vs & -> & Hvs). apply (VOK_struct _ _ _ Hd).
        exact (Hgen _ ti vs Hn Hr Hvs Hw).
  Qed.

  Section Stmts.
    Variable n : nat.
    Hypothesis IHe : PE n.
    Hypothesis IHb : PB n.

    Ltac use_sub f g e1 en v en1 Hv He1 Hrv Hr1 :=
      eapply resX_bind; [apply (IHe f g e1 en); assumption|];
      intros [v en1] [[Hv He1] [Hrv Hr1]]; cbn [fst snd] in Hv, He1, Hrv, Hr1.

    Lemma path_extend g st prev ct ct' tf (o : Sem.outcome (list Sem.rstep * Sem.env)) :
      (forall path, path_ty path ct' tf -> path_ty (st :: path) ct tf) ->
      resY (fun r => (exists path, fst r = rev (st :: prev) ++ path /\ path_ty path ct' tf) /\
                     env_ok P (Sem.scopes (snd r)) g /\ env_rng P (Sem.scopes (snd r)) g) o ->
      resY (fun r => (exists path, fst r = rev prev ++ path /\ path_ty path ct tf) /\
                     env_ok P (Sem.scopes (snd r)) g /\ env_rng P (Sem.scopes (snd r)) g) o.
    Proof.
      intros Hst H. apply (resY_weaken _ _ _ H). intros [p e] [(path & Hp1 & Hp2) HQ]. split; [|exact HQ].
      exists (st :: path). split; [|exact (Hst path Hp2)]. cbn [fst rev] in *. now rewrite Hp1, <- app_assoc.
    Qed.

    Lemma x_accs_exh f g m tf : genv P g -> forall accs ct, acc_ty f g accs ct tf -> forall cur en prev,
      forallb (fun a => match a with AIdx _ i => wtx_expr P i | _ => true end) accs = true ->
      forallb (exh_acc P) accs = true ->
      has_ty P cur ct = true -> env_ok P (Sem.scopes en) g -> env_rng P (Sem.scopes en) g ->
      resY (fun r => (exists path, fst r = rev prev ++ path /\ path_ty path ct tf) /\
                     env_ok P (Sem.scopes (snd r)) g /\ env_rng P (Sem.scopes (snd r)) g)
           (x_accs P (Sem.eval n P) m accs cur en prev).
    Proof.
      intros Hg accs ct Hacc.
      induction Hacc as [t|aty ie r el k b tf Hsc Eie _ IH|tty i r ts ti tf Hn _ IH|fld r name def k tk tf Hd Hk Hn _ IH];
        intros cur en prev Hx Hex Hc He Hr; cbn [x_accs].
      - cbn [resY fst snd]. split; [|split; assumption]. exists []. rewrite app_nil_r. split; reflexivity.
      - cbn [forallb exh_acc] in Hx, Hex. andb_all.
        eapply resY_bindT; [apply (IHe f g ie en); assumption|].
        intros [vi en1] [[Hvi He1] [Hrvi Hr1]]. cbn [fst snd] in *.
        destruct (has_ty_arr_inv _ _ _ _ Hc) as [vs [-> [Hlen Hall]]].
        rewrite Eie in Hvi. destruct (has_ty_int_inv _ _ _ _ Hvi) as [z ->].
        destruct ((0 <=? z)%Z && (z <? Z.of_nat (length vs))%Z) eqn:Eb; [|exact I].
        apply andb_prop in Eb as [E1 E2]. apply Z.leb_le in E1. apply Z.ltb_lt in E2.
        destruct (nth_error vs (Z.to_nat z)) as [sub|] eqn:En; [|cbn [resY]; nostuck].
        apply path_extend with (st := Sem.RIdx (Z.to_N z)) (ct' := el).
        + intros path Hp. exists el, k. split; [reflexivity|]. split; [|exact Hp]. unfold lenN in Hlen. lia.
        + apply IH; try assumption. rewrite Forall_forall in Hall. exact (Hall _ (nth_error_In _ _ En)).
      - cbn [forallb exh_acc] in Hx, Hex. andb_all.
        destruct (has_ty_tup_inv _ _ _ Hc) as [vs [-> Hvs]].
        destruct (Forall2_nthN _ _ _ _ _ Hvs Hn) as [sub [Hsub Hst]]. rewrite Hsub.
        apply path_extend with (st := Sem.RPos i) (ct' := ti); [|now apply IH].
        intros path Hp. left. exists ts, ti. auto.
      - cbn [forallb exh_acc] in Hx, Hex. andb_all.
        destruct (has_ty_pos_inv _ _ _ _ (pos_tys_struct _ _ _ Hd) Hc) as [vs [-> Hvs]].
        rewrite Hd, Hk.
        destruct (Forall2_nthN _ _ _ _ _ Hvs Hn) as [sub [Hsub Hst]]. rewrite Hsub.
        apply path_extend with (st := Sem.RPos k) (ct' := tk); [|now apply IH].
        intros path Hp. right. exists name, def, tk. auto.
    Qed.

    Lemma x_for_exh f g p bs body tb el :
      genv P g -> gpat_ok P p el bs -> p_ty p = el -> wt_pat P p = Some bs -> exh_pats P el [p] = true ->
      scf2_block f P (tbind_all ([] :: g) bs false) body = Some tb ->
      forallb (wtx_stmt P) body = true -> forallb (exh_stmt P) body = true ->
      forall vs en, Forall (fun v => VOK v el) vs -> env_ok P (Sem.scopes en) g -> env_rng P (Sem.scopes en) g ->
      resT (fun en' => env_ok P (Sem.scopes en') g /\ env_rng P (Sem.scopes en') g)
           (x_for P (Sem.exec_block n P) p body vs en).
    Proof.
      intros Hg Hp Hpt Hwp Hpats Hb Hxb Hexb vs. induction vs as [|v r IH]; intros en Hvs He Hr; cbn [x_for].
      - cbn [resT]. split; assumption.
      - inversion Hvs as [|v' r' Hv Hrest]; subst.
        destruct (Sem.pmatch P p v) as [vbs|] eqn:Em.
        + destruct (bound_envs g p (p_ty p) bs v vbs en Hg He Hr Hp eq_refl Hwp (exh_pats_fits P _ _ Hpats) Hv Em)
            as (Hg' & Htl & He' & Hr').
          eapply resT_bind; [apply (IHb f _ body _ tb Hb Hxb Hexb Hg' He' Hr')|].
          intros [rv en1] [[_ He1] [_ Hr1]]. cbn [fst snd] in *. rewrite Htl in He1, Hr1.
          apply IH; [exact Hrest|exact He1|exact Hr1].
        + exfalso. destruct Hv as [Hv Hrv].
          destruct (exh_pats_sound_ty P (p_ty p) [p] v Hpats Hv Hrv) as (p' & [<-|[]] & Hm). congruence.
    Qed.

    Theorem PS_step : PS (S n).
    Proof.
      intros fw g [si m] en g' t Hsc Hx Hex Hg He Hr.
      apply resT_of; [exact (bb_stmt _ _ _ _ _ _ _ Hsc Hx Hg He)|].
      rewrite exec_eq. cbn zeta. destruct fw as [|f]; [discriminate Hsc|].
      cbn [scf2_stmt] in Hsc. cbn [wtx_stmt] in Hx. cbn [exh_stmt] in Hex.
      destruct si as [p e|x e|x accs e|p arr body|p jt a b body|e].
      - (* let *)
        destruct (scf2_expr f P g e) eqn:Ee; [|discriminate Hsc].
        destruct (gpat_b P true p (e_ty e)) as [bs|] eqn:Ep; [|discriminate Hsc]. injection Hsc as <- <-. andb_all.
        match goal with H : exh_pats P (e_ty e) [p] = true |- _ => rename H into Hpats end.
        use_sub f g e en v en1 Hv He1 Hrv Hr1.
        destruct (Sem.pmatch P p v) as [vbs|] eqn:Em.
        + apply (resX_done _ unit_ty); [|reflexivity]. apply bind_all_rng; [|exact Hr1].
          apply (pmatch_rng P p (e_ty e) bs v vbs); try assumption; [|exact (exh_pats_fits P _ _ Hpats)].
          exact (proj1 (pat_ok_gpat_ok_mut P) _ _ _ (pat_b_sound P p _ bs Ep)).
        + destruct (exh_pats_sound_ty P (e_ty e) [p] v Hpats Hv Hrv) as (p' & [<-|[]] & Hm). congruence.
      - (* let mut *)
        destruct (scf2_expr f P g e) eqn:Ee; [|discriminate Hsc]. injection Hsc as <- <-.
        use_sub f g e en v en1 Hv He1 Hrv Hr1. apply (resX_done _ unit_ty); [|reflexivity]. now apply bind_var_rng.
      - (* assignment *)
        destruct (tlookup g x) as [[tx [|]]|] eqn:El; try discriminate Hsc.
        destruct (scf2_expr f P g e) eqn:Ee; [|discriminate Hsc]. andb_all.
        assert (Hacc : acc_ty f g accs tx (e_ty e) /\ g' = g /\ t = unit_ty).
        { clear - Hsc. revert Hsc. generalize tx. induction accs as [|ac accs IH]; intros cur HH.
          - destruct (ty_beq cur (e_ty e)) eqn:Et; [|discriminate HH]. injection HH as <- <-. apply ty_beq_eq in Et.
            subst cur. repeat split. constructor.
          - destruct ac as [aty ie|tty i|sty fld]; cbv beta iota fix in HH.
            + destruct cur as [| |el nn| | |]; try discriminate HH.
              destruct (e_ty ie) as [|[] bb| | | |] eqn:Ei; try discriminate HH.
              match type of HH with match (if ?c then _ else _) with _ => _ end = _ => destruct c eqn:Ec end; [|discriminate HH].
              destruct (IH _ HH) as (Ha & Hr'). split; [|exact Hr']. andb_all. econstructor; eassumption.
            + destruct cur as [| | |ts| |]; try discriminate HH.
              destruct (ty_beq tty (TTup ts)) eqn:Et; [|discriminate HH].
              destruct (nthN ts i) as [ti|] eqn:En; [|discriminate HH].
              destruct (IH _ HH) as (Ha & Hr'). split; [|exact Hr']. econstructor; eassumption.
            + destruct cur as [| | | |name|]; try discriminate HH.
              destruct (ty_beq sty (TStruct name)) eqn:Et; [|discriminate HH]. apply ty_beq_eq in Et. subst sty.
              destruct (assocN name (p_structs P)) as [def|] eqn:Ed; [|discriminate HH].
              destruct (Sem.index_of fld (map fst def) 0) as [k|] eqn:Ek; [|discriminate HH].
              destruct (nthN (map snd def) k) as [tk|] eqn:En; [|discriminate HH].
              destruct (IH _ HH) as (Ha & Hr'). split; [|exact Hr']. econstructor; eassumption. }
        destruct Hacc as (Hacc & -> & ->). clear Hsc.
        use_sub f g e en nv en0 Hnv He0 Hrnv Hr0.
        destruct (lookup_ok _ _ _ _ _ _ He0 El) as [cur [Hcur Hct]]. unfold Sem.lookup_var at 1. rewrite Hcur.
        eapply resX_bindY; [apply (x_accs_exh f g m (e_ty e) Hg accs tx Hacc cur en0 [])|]; try assumption.
        intros [path en2] [[path' [Hp1 Hp2]] [He2 Hr2]]. cbn [fst snd rev app] in *. subst path'.
        destruct (lookup_ok _ _ _ _ _ _ He2 El) as [cur2 [Hcur2 Hct2]].
        destruct (lookup_rng P _ _ _ _ _ Hr2 El) as [cur2' [Hcur2' Hcr2]].
        assert (cur2' = cur2) as -> by congruence.
        unfold Sem.lookup_var. rewrite Hcur2.
        destruct (Sem.write_path cur2 path nv) as [whole|] eqn:Hwr; [|cbn [resX]; nostuck].
        destruct (write_path_rng (e_ty e) nv (conj Hnv Hrnv) path tx cur2 whole Hp2 (conj Hct2 Hcr2) Hwr) as [_ Hwr'].
        destruct (assign_rng P en2 g x whole tx true Hr2 El Hwr') as [en3 [-> Hr3]].
        now apply (resX_done _ unit_ty).
      - (* for *)
        destruct (e_ty arr) as [| |el k| | |] eqn:Earr; try discriminate Hsc.
        destruct (scf2_expr f P g arr) eqn:Ea; [|discriminate Hsc].
        destruct (gpat_b P true p el) as [bs|] eqn:Ep; [|discriminate Hsc].
        destruct (scf2_block f P (tbind_all ([] :: g) bs false) body) as [tb|] eqn:Eb; [|discriminate Hsc].
        injection Hsc as <- <-. andb_all.
        use_sub f g arr en va en1 Hva He1 Hrva Hr1. rewrite Earr in Hva, Hrva.
        destruct (proj1 (VOK_arr _ _ _) (conj Hva Hrva)) as (vs & -> & _ & Hboth).
        eapply resX_bind; [eapply (x_for_exh f g p bs body tb el Hg)|]; try eassumption.
        + exact (proj1 (pat_ok_gpat_ok_mut P) _ _ _ (pat_b_sound P p _ bs Ep)).
        + exact (gpat_b_ty P _ _ _ _ Ep).
        + now apply (gpat_b_wt P true p el bs Ep).
        + intros en2 [He2 Hr2]. now apply (resX_done _ unit_ty).
      - discriminate Hsc.
      - (* expression statement *)
        destruct (scf2_expr f P g e) eqn:Ec; [|discriminate Hsc]. injection Hsc as <- <-.
        apply resX_of_T. exact (IHe f g e en Ec Hx Hex Hg He Hr).
    Qed.
  End Stmts.

  Theorem exh_sound_all : forall n, PE n /\ PB n /\ PS n.
  Proof.
    induction n as [|n [IHe [IHb IHs]]].
    - split; [|split]; red; intros; exact I.
    - assert (Hs : PS (S n)) by (apply PS_step; assumption).
      split; [apply PE_step; assumption|]. split; [|exact Hs]. apply PB_step. exact IHs.
  Qed.

  (* ---------------------------------------------------------- whole programs *)

  Lemma scf_const_rng c fuel en : scf_const c = true ->
    match Sem.eval fuel P en (snd c) with
    | Sem.Done (v, en') => en' = en /\ in_rng P v (e_ty (snd c)) = true
    | Sem.NoFuel => True
    | _ => False
    end.
  Proof.
    unfold scf_const. destruct (snd c) as [ei m t]. destruct fuel as [|k]; [intros _; exact I|].
    rewrite eval_eq. cbn zeta. cbn [e_ty].
    destruct ei; try discriminate; intro H; (split; [reflexivity|]).
    - apply ty_beq_eq in H. now subst t.
    - apply ty_beq_eq in H. now subst t.
    - destruct t as [|sg b| | | |]; try discriminate H. apply andb_prop in H as [H _].
      cbn [in_rng]. now rewrite <- lit_fits_in_range.
    - destruct t as [|sg b| | | |]; try discriminate H. apply andb_prop in H as [H _].
      cbn [in_rng]. now rewrite <- lit_fits_in_range.
  Qed.

  Lemma eval_consts_rng fuel : scf_consts P = true ->
    match Sem.eval_consts fuel P with
    | Sem.Done en0 => env_rng P (Sem.scopes en0) (consts_tenv P)
    | Sem.NoFuel => True
    | _ => False
    end.
  Proof.
    unfold scf_consts, Sem.eval_consts, consts_tenv, tbind_all. intro H.
    assert (He : env_rng P (Sem.scopes (Sem.mkEnv [[]] false)) [[]]) by (repeat constructor).
    revert He. generalize (Sem.mkEnv [[]] false) as en. generalize ([[]] : tenv) as g.
    induction (p_consts P) as [|[x e] cs IH]; intros g en He; cbn [map fold_left].
    - exact He.
    - cbn [forallb] in H. apply andb_prop in H as [Hc Hr]. cbn [snd fst] in *.
      pose proof (scf_const_rng (x, e) fuel en Hc) as Hev. cbn [snd] in Hev.
      destruct (Sem.eval fuel P en e) as [[v en1]| | |]; try contradiction; [|exact I].
      destruct Hev as [-> Hv]. cbn [Sem.obind]. apply (IH Hr). now apply bind_var_rng.
  Qed.

  Lemma decode_args_rng : forall ps inputs args, canonical_args P ps inputs = true ->
    Sem.decode_args P ps inputs = Some args -> binds_rng P args ps.
  Proof.
    unfold canonical_args.
    induction ps as [|[x t] pr IH]; intros [|bs ir] args Hc H; cbn [Sem.decode_args forallb2] in H, Hc; try discriminate H.
    - injection H as <-. constructor.
    - apply andb_prop in Hc as [Hc1 Hc2]. cbn [snd] in Hc1. unfold canonical_arg in Hc1.
      destruct (Sem.decode Sem.ty_fuel P t bs) as [[v [|]]|] eqn:E; try discriminate H.
      destruct (Sem.decode_args P pr ir) as [rest|] eqn:Er; [|discriminate H]. injection H as <-.
      constructor; [|now apply IH with (inputs := ir)].
      split; [reflexivity|]. cbn [snd]. apply andb_prop in Hc1 as [_ Hc1]. apply andb_prop in Hc1 as [Hc1 _]. exact Hc1.
  Qed.

  (* the body of main, run as [Sem.run_main] runs it: never Stuck, the result is a value of the
     declared type with all integers in range *)
  Theorem exh_main_values d fuel args :
    scf_consts P = true -> find_fn P (p_main P) = Some d ->
    binds_ok P args (fn_params d) -> binds_rng P args (fn_params d) ->
    match Sem.eval_consts fuel P with
    | Sem.Done en0 =>
        match Sem.exec_block fuel P (Sem.push_scope (Sem.bind_all (Sem.push_scope en0) args)) (fn_body d) with
        | Sem.Done (v, _) => has_ty P v (fn_ret d) = true /\ in_rng P v (fn_ret d) = true
        | Sem.Stuck _ => False
        | Sem.Panicked _ _ | Sem.NoFuel => True
        end
    | Sem.NoFuel => True
    | Sem.Stuck _ | Sem.Panicked _ _ => False
    end.
  Proof.
    intros Hcs Hfn Hargs Hargr. pose proof (eval_consts_ok P fuel Hwt) as Hc. pose proof (eval_consts_rng fuel Hcs) as Hcr.
    destruct (Sem.eval_consts fuel P) as [en0| | |]; try contradiction; [|exact I].
    assert (Hin : In d (p_fns P)) by (unfold find_fn in Hfn; apply find_some in Hfn; tauto).
    destruct (fn_checked d Hin) as (Eb & Hxb & Hexb).
    assert (Hg0 : genv P ([] :: consts_tenv P)) by (rewrite consts_tenv_one; exists [], []; reflexivity).
    destruct (genv_tbind_all P (fn_params d) true _ Hg0) as [Hg1 _].
    pose proof (bind_all_ok P _ _ true Hargs _ _ (push_ok _ _ _ Hc)) as He1.
    pose proof (bind_all_rng P _ _ true Hargr _ _ (push_rng _ _ _ Hcr)) as Hr1.
    destruct (exh_sound_all fuel) as (_ & HPB & _).
    pose proof (HPB fwp _ (fn_body d) _ (fn_ret d) Eb Hxb Hexb (genv_push _ _ Hg1) (push_ok _ _ _ He1) (push_rng _ _ _ Hr1)) as Hb.
    destruct (Sem.exec_block fuel P _ (fn_body d)) as [[v en']| | |]; cbn [resT] in Hb; try exact Hb.
    destruct Hb as [[Hv _] [Hrv _]]. split; assumption.
  Qed.

  Theorem exh_run_main fuel args :
    scf_consts P = true -> main_ret_fits P = true -> canonical_main_args P args = true ->
    (exists bits l, Sem.run_main fuel P args = Sem.RunOk bits l) \/
    (exists r m, Sem.run_main fuel P args = Sem.RunPanic r m) \/
    Sem.run_main fuel P args = Sem.RunNoFuel.
  Proof.
    intros Hcs Hfit Hcan. unfold main_ret_fits in Hfit. unfold canonical_main_args in Hcan.
    destruct (find_fn P (p_main P)) as [d|] eqn:Hfind; [|discriminate Hcan].
    destruct (canonical_args_decode P _ _ Hcan) as [vals Hdec].
    pose proof (exh_main_values d fuel vals Hcs Hfind (decode_args_ok P _ _ _ Hdec) (decode_args_rng _ _ _ Hcan Hdec)) as H.
    unfold Sem.run_main. rewrite Hfind, Hdec.
    destruct (Sem.eval_consts fuel P) as [en0| | |]; try contradiction; [|right; right; reflexivity].
    destruct (Sem.exec_block fuel P _ (fn_body d)) as [[v en']|r m|c|]; try contradiction.
    - destruct H as [Hv _]. destruct (encode_sizeof P _ _ Hfit Hv) as [bits [Hb _]]. rewrite Hb. left. eauto.
    - right. left. eauto.
    - right. right. reflexivity.
  Qed.
End Sound.

Print Assumptions exh_sound_all.

(* THE STRENGTHENING OF Lang/WtSound.v.  A program whose functions pass the strict checker
   [scf2_fns] (in the context of the constants), Wt.v's extra checks [wtx_fns] and the
   exhaustiveness check [exh_fns]; an expression that passes the three checks, evaluated in an
   environment typed by the checker's context with all integers in range: the result has the
   annotated type with all integers in range, the environment is still typed and in range,
   and the evaluation is NEVER Stuck -- [stuck_allowed] shrinks to the empty list (the strict
   checker rejects `join`, so the codes 48 / 75 / 76 do not arise either). *)
Theorem exh_sound_expr P fwp : wt_program P = true -> scf2_fns fwp P (consts_scope P) = true ->
  wtx_fns P = true -> exh_fns P = true ->
  forall n fw g e en,
    scf2_expr fw P g e = true -> wtx_expr P e = true -> exh_expr P e = true ->
    genv P g -> env_ok P (Sem.scopes en) g -> env_rng P (Sem.scopes en) g ->
    match Sem.eval n P en e with
    | Sem.Done (v, en') =>
        has_ty P v (e_ty e) = true /\ in_rng P v (e_ty e) = true /\
        env_ok P (Sem.scopes en') g /\ env_rng P (Sem.scopes en') g
    | Sem.Stuck _ => False
    | Sem.Panicked _ _ | Sem.NoFuel => True
    end.
Proof.
  intros Hwt Hscf Hwx Hexh n fw g e en Hsc Hx Hex Hg He Hr.
  apply (resT_weaken _ _ _ (proj1 (exh_sound_all P fwp Hwt Hscf Hwx Hexh n) fw g e en Hsc Hx Hex Hg He Hr)).
  intros [v en'] [[H1 H2] [H3 H4]]. auto.
Qed.

Theorem exh_sound_block P fwp : wt_program P = true -> scf2_fns fwp P (consts_scope P) = true ->
  wtx_fns P = true -> exh_fns P = true ->
  forall n fw g b en t,
    scf2_block fw P g b = Some t -> forallb (wtx_stmt P) b = true -> forallb (exh_stmt P) b = true ->
    genv P g -> env_ok P (Sem.scopes en) g -> env_rng P (Sem.scopes en) g ->
    match Sem.exec_block n P en b with
    | Sem.Done (v, en') =>
        has_ty P v t = true /\ in_rng P v t = true /\
        env_ok P (tl (Sem.scopes en')) (tl g) /\ env_rng P (tl (Sem.scopes en')) (tl g)
    | Sem.Stuck _ => False
    | Sem.Panicked _ _ | Sem.NoFuel => True
    end.
Proof.
  intros Hwt Hscf Hwx Hexh n fw g b en t Hsc Hx Hex Hg He Hr.
  apply (resT_weaken _ _ _ (proj1 (proj2 (exh_sound_all P fwp Hwt Hscf Hwx Hexh n)) fw g b en t Hsc Hx Hex Hg He Hr)).
  intros [v en'] [[H1 H2] [H3 H4]]. auto.
Qed.

Theorem exh_sound_stmt P fwp : wt_program P = true -> scf2_fns fwp P (consts_scope P) = true ->
  wtx_fns P = true -> exh_fns P = true ->
  forall n fw g s en g' t,
    scf2_stmt fw P g s = Some (g', t) -> wtx_stmt P s = true -> exh_stmt P s = true ->
    genv P g -> env_ok P (Sem.scopes en) g -> env_rng P (Sem.scopes en) g ->
    match Sem.exec n P en s with
    | Sem.Done (v, en') =>
        has_ty P v t = true /\ in_rng P v t = true /\
        env_ok P (Sem.scopes en') g' /\ env_rng P (Sem.scopes en') g'
    | Sem.Stuck _ => False
    | Sem.Panicked _ _ | Sem.NoFuel => True
    end.
Proof.
  intros Hwt Hscf Hwx Hexh n fw g s en g' t Hsc Hx Hex Hg He Hr.
  apply (resT_weaken _ _ _ (proj2 (proj2 (exh_sound_all P fwp Hwt Hscf Hwx Hexh n)) fw g s en g' t Hsc Hx Hex Hg He Hr)).
  intros [v en'] [[H1 H2] [H3 H4]]. auto.
Qed.
Print Assumptions exh_sound_expr.
Print Assumptions exh_sound_block.
Print Assumptions exh_sound_stmt.

(* ------------------------------------------------------------------ programs, from the booleans *)

Lemma wt_covered_parts fw P : (fw <= wt_fuel)%nat -> wt_covered fw P = true ->
  wt_program P = true /\ scf_consts P = true /\ scf2_fns fw P (consts_scope P) = true /\
  wtx_fns P = true /\ main_ret_fits P = true.
Proof.
  intros Hle H. unfold wt_covered in H. apply andb_prop in H as [H Hfit]. apply andb_prop in H as [H3 Hx].
  pose proof (in_full_fragment3_wt fw P Hle H3 Hx) as Hwt. unfold in_full_fragment3 in H3.
  destruct (find_fn P (p_main P)); [|discriminate H3].
  apply andb_prop in H3 as [H3 Hf]. apply andb_prop in H3 as [_ Hc]. auto.
Qed.

(* Sem.v alone: a covered program with exhaustive matches, run on canonical inputs, ends with a
   result, a panic, or out of fuel *)
Theorem covered_exh_run_main P fuel fw args : (fw <= wt_fuel)%nat ->
  wt_covered fw P = true -> exh_fns P = true -> canonical_main_args P args = true ->
  (exists bits l, Sem.run_main fuel P args = Sem.RunOk bits l) \/
  (exists r m, Sem.run_main fuel P args = Sem.RunPanic r m) \/
  Sem.run_main fuel P args = Sem.RunNoFuel.
Proof.
  intros Hle Hcov Hexh Hcan. destruct (wt_covered_parts fw P Hle Hcov) as (Hwt & Hcs & Hf & Hx & Hfit).
  exact (exh_run_main P fw Hwt Hf Hx Hexh fuel args Hcs Hfit Hcan).
Qed.
Print Assumptions covered_exh_run_main.

(* THE PROGRAM THEOREM: the bit-level semantics and Sem.v agree, with a three-way conclusion --
   [TSemSemFullWt.wt_covered_agrees] without its Stuck disjunct.  ([wt_covered] rejects the
   `join` built-in, so no side condition on EJoin is needed.) *)
Theorem wt_covered_exh_agrees P fuel fw fT args o outs : (fw <= wt_fuel)%nat ->
  wt_covered fw P = true -> exh_fns P = true ->
  canonical_main_args P args = true -> tsem_program fT P args = Ok (o, outs) ->
  (exists bits l, Sem.run_main fuel P args = Sem.RunOk bits l /\ o = None /\ outs = bits) \/
  (exists r m, Sem.run_main fuel P args = Sem.RunPanic r m /\ o = Some (preason_num (pr r), ploc32 (ploc_of m))) \/
  Sem.run_main fuel P args = Sem.RunNoFuel.
Proof.
  intros Hle Hcov Hexh Hcan Hrun.
  destruct (wt_covered_agrees P fuel fw fT args o outs Hle Hcov Hcan Hrun) as [_ [H|[H|[H|(_ & c & Hc & _)]]]]; auto.
  exfalso. destruct (covered_exh_run_main P fuel fw args Hle Hcov Hexh Hcan) as [(b & l & E)|[(r & m & E)|E]]; congruence.
Qed.
Print Assumptions wt_covered_exh_agrees.

(* ------------------------------------------------------------------ non-vacuity, findings *)

Module ExhExamples.
  Definition mm : meta := mkMeta 1 1 1 9.
  Definition u8 := TInt false 8.
  Definition u32 := TInt false 32.
  Definition i32 := TInt true 32.
  Definition five : list bool := [false; false; false; false; false; true; false; true].
  Definition one : list bool := [false; false; false; false; false; false; false; true].

  (* 1. the escape of a non-exhaustive match:  fn main(x: u8) -> u8 { match x { 0 => 1 } }
     Wt.v accepts it, the strict checker covers it, [frag_program] does not hold, the run on 5 is
     Stuck 41 while the bit-level semantics returns 0 -- and [exh_fns] REJECTS it *)
  Definition body1 : list stmt :=
    [St (SExpr (Ex (EMatch (Ex (EId 1) mm u8) [(Pat (PNumU 0) mm u8, Ex (ENumU 1 8) mm u8)]) mm u8)) mm].
  Definition P1 : program := mkProgram [] [] [mkFn 0 [(1, u8)] u8 body1] [] 0.
  Lemma P1_checks : (exh_fns P1, wt_program P1, frag_program P1, wt_covered 14 P1) = (false, true, false, true).
  Proof. vm_compute. reflexivity. Qed.
  Lemma P1_stuck : Sem.run_main 10 P1 [five] = Sem.RunStuck 41.
  Proof. vm_compute. reflexivity. Qed.
  Lemma P1_bits : tsem_program 10 P1 [five] = Ok (None, [false; false; false; false; false; false; false; false]).
  Proof. vm_compute. reflexivity. Qed.

  (* 2. an exhaustive match WITHOUT a catch-all arm:
        enum E { A, B(u8) }   fn main(e: E) -> u8 { match e { E::A => 0, E::B(x) => x } }
     outside [frag_program] (no irrefutable arm), accepted by [exh_fns]: the three-way theorem
     applies where [wt_covered_agrees_frag] does not *)
  Definition tE := TEnum 5.
  Definition body2 : list stmt :=
    [St (SExpr (Ex (EMatch (Ex (EId 1) mm tE)
       [(Pat (PEnumUnit 5 0) mm tE, Ex (ENumU 0 8) mm u8);
        (Pat (PEnumTup 5 1 [Pat (PId 2) mm u8]) mm tE, Ex (EId 2) mm u8)]) mm u8)) mm].
  Definition P2 : program := mkProgram [] [(5, [[]; [u8]])] [mkFn 0 [(1, tE)] u8 body2] [] 0.
  Lemma P2_checks : (exh_fns P2, wt_program P2, frag_program P2, wt_covered 14 P2) = (true, true, false, true).
  Proof. vm_compute. reflexivity. Qed.
  (* the value E::B(5): tag 1, payload 5 *)
  Lemma P2_runs : Sem.run_main 10 P2 [true :: five] = Sem.RunOk five false /\
                  tsem_program 10 P2 [true :: five] = Ok (None, five).
  Proof. split; vm_compute; reflexivity. Qed.
  Corollary P2_agrees fuel fT args o outs : canonical_main_args P2 args = true ->
    tsem_program fT P2 args = Ok (o, outs) ->
    (exists bits l, Sem.run_main fuel P2 args = Sem.RunOk bits l /\ o = None /\ outs = bits) \/
    (exists r m, Sem.run_main fuel P2 args = Sem.RunPanic r m /\ o = Some (preason_num (pr r), ploc32 (ploc_of m))) \/
    Sem.run_main fuel P2 args = Sem.RunNoFuel.
  Proof.
    apply (wt_covered_exh_agrees P2 fuel 14 fT args o outs).
    - rewrite wt_fuel_400. lia.
    - vm_compute. reflexivity.
    - vm_compute. reflexivity.
  Qed.

  (* 3. ranges that cover u8 without a catch-all: match x { 0..=9 => 1, 10..=255 => 2 } *)
  Definition body3 : list stmt :=
    [St (SExpr (Ex (EMatch (Ex (EId 1) mm u8)
       [(Pat (PURange 0 9) mm u8, Ex (ENumU 1 8) mm u8); (Pat (PURange 10 255) mm u8, Ex (ENumU 2 8) mm u8)]) mm u8)) mm].
  Definition P3 : program := mkProgram [] [] [mkFn 0 [(1, u8)] u8 body3] [] 0.
  Lemma P3_checks : (exh_fns P3, wt_program P3, frag_program P3, wt_covered 14 P3) = (true, true, false, true).
  Proof. vm_compute. reflexivity. Qed.
  (* ... and with a gap (10 is missing) the check fails *)
  Definition body3' : list stmt :=
    [St (SExpr (Ex (EMatch (Ex (EId 1) mm u8)
       [(Pat (PURange 0 9) mm u8, Ex (ENumU 1 8) mm u8); (Pat (PURange 11 255) mm u8, Ex (ENumU 2 8) mm u8)]) mm u8)) mm].
  Definition P3' : program := mkProgram [] [] [mkFn 0 [(1, u8)] u8 body3'] [] 0.
  Lemma P3'_checks : (exh_fns P3', wt_covered 14 P3') = (false, true).
  Proof. vm_compute. reflexivity. Qed.

  (* 4. FINDING: at the level of Wt.v alone the strengthening is FALSE.  Wt.ty_eqb identifies
     i32 and u32 (c05-literal-width-divergence), so Wt.v accepts
        fn main(x: i32) -> u8 { match x { 0..=4294967295 => 1 } }
     with the scrutinee and the pattern annotated u32; the match is exhaustive at the annotated
     type ([exh_fns] holds), and the run on x = -1 is Stuck 41.  The strict checker (Leibniz
     type equality at the variable) rejects the program, which is why the theorems above are
     stated for [scf2_*] / [wt_covered] and carry the range invariant. *)
  Definition body4 : list stmt :=
    [St (SExpr (Ex (EMatch (Ex (EId 1) mm u32)
       [(Pat (PURange 0 4294967295) mm u32, Ex (ENumU 1 8) mm u8)]) mm u8)) mm].
  Definition P4 : program := mkProgram [] [] [mkFn 0 [(1, i32)] u8 body4] [] 0.
  Lemma P4_checks : (exh_fns P4, wt_program P4, wt_covered 14 P4) = (true, true, false).
  Proof. vm_compute. reflexivity. Qed.
  Lemma P4_stuck : Sem.run_main 10 P4 [repeat true 32] = Sem.RunStuck 41.
  Proof. vm_compute. reflexivity. Qed.
  Theorem wt_level_strengthening_false :
    exists P args, wt_program P = true /\ exh_fns P = true /\ main_ret_fits P = true /\
      (exists d vals, find_fn P (p_main P) = Some d /\ Sem.decode_args P (fn_params d) args = Some vals) /\
      Sem.run_main 10 P args = Sem.RunStuck 41.
  Proof.
    exists P4, [repeat true 32].
    split; [vm_compute; reflexivity|]. split; [vm_compute; reflexivity|]. split; [vm_compute; reflexivity|].
    split; [|vm_compute; reflexivity].
    exists (mkFn 0 [(1, i32)] u8 body4), [(1, Sem.VInt (-1))]. split; vm_compute; reflexivity.
  Qed.

  (* 5. a CONSERVATIVE rejection (Wt.v / the strict checker are laxer than the real checker here):
     the literal pattern with the SIGNED spelling [PNumS 5] at the type u8.  Wt.v and [gpat_b]
     accept it (5 is in the range of u8) and Sem.pmatch matches the value 5; the real checker
     (check.rs, expect_signed_num_type) and Pat.pat_wt (implb sl sg) reject a signed literal
     pattern at an unsigned type, so [exh_fns] is false although the match has a catch-all arm *)
  Definition body5 : list stmt :=
    [St (SExpr (Ex (EMatch (Ex (EId 1) mm u8)
       [(Pat (PNumS 5) mm u8, Ex (ENumU 1 8) mm u8); (Pat (PId 2) mm u8, Ex (ENumU 2 8) mm u8)]) mm u8)) mm].
  Definition P5 : program := mkProgram [] [] [mkFn 0 [(1, u8)] u8 body5] [] 0.
  Lemma P5_checks : (exh_fns P5, wt_program P5, frag_program P5, wt_covered 14 P5) = (false, true, true, true).
  Proof. vm_compute. reflexivity. Qed.
  Lemma P5_pat_wt : EP.pat_wt (tr_env P5) (tr_ty u8) (tr_pat P5 (Pat (PNumS 5) mm u8)) = false.
  Proof. reflexivity. Qed.
End ExhExamples.
