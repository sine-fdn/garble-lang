(* C08 — proofs about Pat.v / Covers.v. *)
From GV Require Import Base.Util Base.ListFacts Exhaust.Pat Exhaust.Covers.
Local Open Scope Z_scope.

(* ================================================================ generic list lemmas *)

Lemma forall2b_nil {A B} (f : A -> B -> bool) : forall2b f [] [] = true.
Proof. reflexivity. Qed.

Lemma forall2b_cons {A B} (f : A -> B -> bool) a r1 b r2 :
  forall2b f (a :: r1) (b :: r2) = f a b && forall2b f r1 r2.
Proof. reflexivity. Qed.

Lemma forall2b_Forall2 {A B} (f : A -> B -> bool) l1 l2 :
  forall2b f l1 l2 = true <-> Forall2 (fun a b => f a b = true) l1 l2.
Proof.
  revert l2. induction l1 as [|a r1 IH]; intros [|b r2].
  - split; [constructor|reflexivity].
  - split; [discriminate|intro H; inversion H].
  - split; [discriminate|intro H; inversion H].
  - rewrite forall2b_cons, andb_true_iff, IH. split.
    + intros [Hab Hr]. now constructor.
    + intro H. inversion H; subst. now split.
Qed.

Lemma Forall2_length' {A B} (R : A -> B -> Prop) l1 l2 : Forall2 R l1 l2 -> length l1 = length l2.
Proof. induction 1; cbn [length]; congruence. Qed.

Lemma mapM_Forall2 {A B} (f : A -> option B) l bs :
  mapM f l = Some bs <-> Forall2 (fun a b => f a = Some b) l bs.
Proof.
  revert bs. induction l as [|a r IH]; intros bs; cbn [mapM].
  - split.
    + intro H. inversion H. constructor.
    + intro H. inversion H. reflexivity.
  - split.
    + intro H. destruct (f a) as [b|] eqn:Ea; [|discriminate].
      destruct (mapM f r) as [bs'|] eqn:Er; [|discriminate].
      inversion H; subst. constructor; [assumption|]. now apply IH.
    + intro H. inversion H as [|a' b r' bs' Hab Hr]; subst.
      rewrite Hab. apply IH in Hr. now rewrite Hr.
Qed.

Lemma Forall2_In_l {A B} (R : A -> B -> Prop) l1 l2 a :
  Forall2 R l1 l2 -> In a l1 -> exists b, In b l2 /\ R a b.
Proof.
  induction 1 as [|x y r1 r2 Hxy Hr IH]; intro Hin; [destruct Hin|].
  destruct Hin as [->|Hin].
  - exists y. split; [now left|assumption].
  - destruct (IH Hin) as [b [Hb HR]]. exists b. split; [now right|assumption].
Qed.

Lemma Forall2_In_r {A B} (R : A -> B -> Prop) l1 l2 b :
  Forall2 R l1 l2 -> In b l2 -> exists a, In a l1 /\ R a b.
Proof.
  induction 1 as [|x y r1 r2 Hxy Hr IH]; intro Hin; [destruct Hin|].
  destruct Hin as [->|Hin].
  - exists x. split; [now left|assumption].
  - destruct (IH Hin) as [a [Ha HR]]. exists a. split; [now right|assumption].
Qed.

Lemma assocN_In {A} k (l : list (N * A)) a : assocN k l = Some a -> In (k, a) l.
Proof.
  induction l as [|[k' a'] r IH]; cbn [assocN]; [discriminate|].
  destruct (N.eqb_spec k k') as [->|Hne]; intro H.
  - inversion H; subst. now left.
  - right. now apply IH.
Qed.

Lemma memN_In k l : memN k l = true <-> In k l.
Proof.
  unfold memN. rewrite existsb_exists. split.
  - intros [x [Hin Hx]]. apply N.eqb_eq in Hx. now subst.
  - intro Hin. exists k. split; [assumption|apply N.eqb_refl].
Qed.

Lemma assocN_nodup {A} k (l : list (N * A)) a :
  nodupN (map fst l) = true -> In (k, a) l -> assocN k l = Some a.
Proof.
  induction l as [|[k' a'] r IH]; cbn [map fst nodupN assocN]; intros Hnd Hin; [destruct Hin|].
  apply andb_true_iff in Hnd. destruct Hnd as [Hnot Hnd].
  destruct Hin as [Heq|Hin].
  - inversion Heq; subst. now rewrite N.eqb_refl.
  - destruct (N.eqb_spec k k') as [->|Hne]; [|now apply IH].
    exfalso. apply negb_true_iff in Hnot.
    assert (Hm : memN k' (map fst r) = true).
    { apply memN_In. change k' with (fst (k', a)). now apply in_map. }
    congruence.
Qed.

Lemma incl_flat_map {A B} (f : A -> list B) l a sp :
  incl (flat_map f l) sp -> In a l -> incl (f a) sp.
Proof.
  intros Hincl Hin x Hx. apply Hincl. apply in_flat_map. now exists a.
Qed.

Lemma forallb_ext_in' {A} (f g : A -> bool) l :
  (forall a, In a l -> f a = g a) -> forallb f l = forallb g l.
Proof.
  induction l as [|a r IH]; intro H; cbn [forallb]; [reflexivity|].
  rewrite (H a (or_introl eq_refl)). f_equal. apply IH. intros; apply H; now right.
Qed.

(* ================================================================ induction on patterns *)

Section PatternInd.
  Variable P : pattern -> Prop.
  Hypothesis HVar : forall x, P (PVar x).
  Hypothesis HBool : forall b, P (PBool b).
  Hypothesis HNum : forall sl z, P (PNum sl z).
  Hypothesis HRange : forall sl lo hi, P (PRange sl lo hi).
  Hypothesis HTuple : forall ps, Forall P ps -> P (PTuple ps).
  Hypothesis HStruct : forall n fs rest, Forall (fun fp => P (snd fp)) fs -> P (PStruct n fs rest).
  Hypothesis HEnumU : forall n x, P (PEnum n x None).
  Hypothesis HEnumT : forall n x ps, Forall P ps -> P (PEnum n x (Some ps)).

  Fixpoint pattern_ind' (p : pattern) : P p :=
    match p with
    | PVar x => HVar x
    | PBool b => HBool b
    | PNum sl z => HNum sl z
    | PRange sl lo hi => HRange sl lo hi
    | PTuple ps =>
        HTuple ps ((fix go (l : list pattern) : Forall P l :=
                      match l with
                      | [] => Forall_nil P
                      | q :: r => Forall_cons q (pattern_ind' q) (go r)
                      end) ps)
    | PStruct n fs rest =>
        HStruct n fs rest
                ((fix go (l : list (N * pattern)) : Forall (fun fp => P (snd fp)) l :=
                    match l with
                    | [] => Forall_nil _
                    | (f, q) :: r => Forall_cons (f, q) (pattern_ind' q) (go r)
                    end) fs)
    | PEnum n x None => HEnumU n x
    | PEnum n x (Some ps) =>
        HEnumT n x ps ((fix go (l : list pattern) : Forall P l :=
                          match l with
                          | [] => Forall_nil P
                          | q :: r => Forall_cons q (pattern_ind' q) (go r)
                          end) ps)
    end.
End PatternInd.

(* ================================================================ unfolding lemmas *)

Lemma pm_tuple ps vs : pat_matches (PTuple ps) (VTuple vs) = forall2b pat_matches ps vs.
Proof. reflexivity. Qed.

Lemma pm_struct n fs rest n' fvs :
  pat_matches (PStruct n fs rest) (VStruct n' fvs) =
  N.eqb n n' &&
  forallb (fun fp : N * pattern =>
             let '(f, p') := fp in
             match assocN f fvs with Some v' => pat_matches p' v' | None => false end) fs.
Proof. reflexivity. Qed.

Lemma pm_enum n x pl n' x' vs :
  pat_matches (PEnum n x pl) (VEnum n' x' vs) =
  N.eqb n n' && N.eqb x x' &&
  match pl with None => true | Some ps => forall2b pat_matches ps vs end.
Proof. reflexivity. Qed.

Lemma simb_tuple sp vs rs : simb sp (VTuple vs) (VTuple rs) = forall2b (simb sp) vs rs.
Proof. reflexivity. Qed.

Definition sim_field (sp : list Z) (fv fr : N * value) : bool :=
  let '(f, v') := fv in let '(f', r') := fr in N.eqb f f' && simb sp v' r'.

Lemma simb_struct sp n fvs n' frs :
  simb sp (VStruct n fvs) (VStruct n' frs) = N.eqb n n' && forall2b (sim_field sp) fvs frs.
Proof. reflexivity. Qed.

Lemma simb_enum sp n x vs n' x' rs :
  simb sp (VEnum n x vs) (VEnum n' x' rs) = N.eqb n n' && N.eqb x x' && forall2b (simb sp) vs rs.
Proof. reflexivity. Qed.

Definition ht_field (env : tyenv) (fv : N * value) (ft : N * ty) : bool :=
  let '(f, v') := fv in let '(f', t') := ft in N.eqb f f' && has_type env v' t'.

Lemma ht_tuple env vs ts : has_type env (VTuple vs) (TTuple ts) = forall2b (has_type env) vs ts.
Proof. reflexivity. Qed.

Lemma ht_struct env n fvs n' :
  has_type env (VStruct n fvs) (TStruct n') =
  N.eqb n n' &&
  match assocN n (structs env) with
  | Some fts => forall2b (ht_field env) fvs fts
  | None => false
  end.
Proof. reflexivity. Qed.

Lemma ht_enum env n x vs n' :
  has_type env (VEnum n x vs) (TEnum n') =
  N.eqb n n' &&
  match assocN n (enums env) with
  | Some variants =>
      match assocN x variants with
      | Some None => match vs with [] => true | _ => false end
      | Some (Some ts) => forall2b (has_type env) vs ts
      | None => false
      end
  | None => false
  end.
Proof. reflexivity. Qed.

(* ================================================================ regions *)

Lemma same_side_spec sp a b s :
  same_side sp a b = true -> In s sp -> (s <= a <-> s <= b).
Proof.
  unfold same_side. rewrite forallb_forall. intros H Hin.
  specialize (H s Hin). apply eqb_prop in H.
  split; intro Hle.
  - apply Z.leb_le. rewrite <- H. now apply Z.leb_le.
  - apply Z.leb_le. rewrite H. now apply Z.leb_le.
Qed.

Lemma same_side_refl sp a : same_side sp a a = true.
Proof. unfold same_side. apply forallb_forall. intros s _. apply eqb_reflx. Qed.

(* an association list lookup sees similar values in similar field lists *)
Lemma sim_assoc sp f fvs frs :
  forall2b (sim_field sp) fvs frs = true ->
  match assocN f fvs, assocN f frs with
  | Some v', Some r' => simb sp v' r' = true
  | None, None => True
  | _, _ => False
  end.
Proof.
  revert frs. induction fvs as [|[g v'] r IH]; intros [|[g' r'] rr] H.
  - exact I.
  - discriminate.
  - discriminate.
  - rewrite forall2b_cons in H. apply andb_true_iff in H. destruct H as [Hhd Htl].
    unfold sim_field in Hhd. apply andb_true_iff in Hhd. destruct Hhd as [Hg Hs].
    apply N.eqb_eq in Hg. subst g'. cbn [assocN].
    destruct (N.eqb f g); [assumption|]. now apply IH.
Qed.

Lemma sim_forall2 sp (ps : list pattern) :
  Forall (fun p => forall v r, simb sp v r = true -> pat_matches p v = pat_matches p r) ps ->
  forall vs rs, forall2b (simb sp) vs rs = true ->
  forall2b pat_matches ps vs = forall2b pat_matches ps rs.
Proof.
  induction 1 as [|p ps' Hp Hps IH]; intros vs rs Hs.
  - destruct vs, rs; try reflexivity; discriminate.
  - destruct vs as [|v vs'], rs as [|r rs']; try reflexivity; try discriminate.
    rewrite forall2b_cons in Hs. apply andb_true_iff in Hs. destruct Hs as [Hv Hvs].
    rewrite !forall2b_cons. rewrite (Hp v r Hv). now rewrite (IH vs' rs' Hvs).
Qed.

(* patterns cannot tell apart two values of one region *)
Lemma sim_matches sp p :
  incl (pat_points p) sp ->
  forall v r, simb sp v r = true -> pat_matches p v = pat_matches p r.
Proof.
  induction p as [x|b|sl z|sl lo hi|ps IH|n fs rest IH|n x|n x ps IH] using pattern_ind';
    intros Hincl v r Hsim.
  - reflexivity.
  - destruct v, r; try discriminate; try reflexivity.
    cbn [simb] in Hsim. apply eqb_prop in Hsim. now subst.
  - destruct v as [| a | | |], r as [| c | | |]; try discriminate; try reflexivity.
    cbn [simb] in Hsim. cbn [pat_matches].
    assert (H1 := same_side_spec sp a c z Hsim (Hincl z (or_introl eq_refl))).
    assert (H2 := same_side_spec sp a c (z + 1) Hsim (Hincl (z + 1) (or_intror (or_introl eq_refl)))).
    destruct (Z.eqb_spec a z), (Z.eqb_spec c z); try reflexivity; lia.
  - destruct v as [| a | | |], r as [| c | | |]; try discriminate; try reflexivity.
    cbn [simb] in Hsim. cbn [pat_matches].
    assert (H1 := same_side_spec sp a c lo Hsim (Hincl lo (or_introl eq_refl))).
    assert (H2 := same_side_spec sp a c (hi + 1) Hsim (Hincl (hi + 1) (or_intror (or_introl eq_refl)))).
    destruct (Z.leb_spec lo a), (Z.leb_spec lo c), (Z.leb_spec a hi), (Z.leb_spec c hi);
      try reflexivity; lia.
  - destruct v as [| | vs | |], r as [| | rs | |]; try discriminate; try reflexivity.
    rewrite simb_tuple in Hsim. rewrite !pm_tuple.
    apply sim_forall2 with (sp := sp); [|assumption].
    rewrite Forall_forall in IH |- *. intros p Hp. apply IH; [assumption|].
    cbn [pat_points] in Hincl. now apply incl_flat_map with (l := ps).
  - destruct v as [| | | n1 fvs |], r as [| | | n2 frs |]; try discriminate; try reflexivity.
    rewrite simb_struct in Hsim. apply andb_true_iff in Hsim. destruct Hsim as [Hn Hf].
    apply N.eqb_eq in Hn. subst n2. rewrite !pm_struct. f_equal.
    apply forallb_ext_in'. intros [f p] Hin.
    assert (Hp := sim_assoc sp f fvs frs Hf).
    destruct (assocN f fvs) as [v'|], (assocN f frs) as [r'|]; try reflexivity; try contradiction.
    rewrite Forall_forall in IH. apply (IH (f, p) Hin); [|assumption].
    cbn [pat_points] in Hincl.
    apply (incl_flat_map (fun fp : N * pattern => let '(_, p') := fp in pat_points p') fs (f, p) sp Hincl Hin).
  - destruct v as [| | | | n1 x1 vs], r as [| | | | n2 x2 rs]; try discriminate; try reflexivity.
    rewrite simb_enum in Hsim. apply andb_true_iff in Hsim. destruct Hsim as [Hnx _].
    apply andb_true_iff in Hnx. destruct Hnx as [Hn Hx].
    apply N.eqb_eq in Hn. apply N.eqb_eq in Hx. subst. reflexivity.
  - destruct v as [| | | | n1 x1 vs], r as [| | | | n2 x2 rs]; try discriminate; try reflexivity.
    rewrite simb_enum in Hsim. apply andb_true_iff in Hsim. destruct Hsim as [Hnx Hvs].
    apply andb_true_iff in Hnx. destruct Hnx as [Hn Hx].
    apply N.eqb_eq in Hn. apply N.eqb_eq in Hx. subst. rewrite !pm_enum. f_equal.
    apply sim_forall2 with (sp := sp); [|assumption].
    rewrite Forall_forall in IH |- *. intros p Hp. apply IH; [assumption|].
    cbn [pat_points] in Hincl. now apply incl_flat_map with (l := ps).
Qed.


(* ================================================================ integer representatives *)

Lemma int_lo_le_hi_or_empty sg w z : in_int sg w z = true -> int_lo sg w <= z <= int_hi sg w.
Proof.
  unfold in_int. intro H. apply andb_true_iff in H. destruct H as [H1 H2].
  apply Z.leb_le in H1. apply Z.leb_le in H2. lia.
Qed.

(* the largest split point in (lo, v], or lo *)
Definition best (sp : list Z) (lo v : Z) : Z :=
  fold_right (fun s acc => if (acc <? s) && (s <=? v) then s else acc) lo sp.

Lemma best_spec sp lo v :
  lo <= v ->
  lo <= best sp lo v <= v /\
  (best sp lo v = lo \/ (In (best sp lo v) sp /\ lo < best sp lo v)) /\
  (forall s, In s sp -> s <= v -> s <= best sp lo v).
Proof.
  intro Hlo. induction sp as [|s r IH]; cbn [best fold_right].
  - split; [lia|]. split; [now left|]. intros s [].
  - fold (best r lo v). destruct IH as [Hr [Hin Hmax]].
    destruct ((best r lo v <? s) && (s <=? v)) eqn:E.
    + (* s is a better point *) apply andb_true_iff in E. rewrite Z.ltb_lt, Z.leb_le in E. split; [lia|]. split.
      * right. split; [now left|lia].
      * intros s' [<-|Hs'] Hle; [lia|]. specialize (Hmax s' Hs' Hle). lia.
    + (* the best point of r stays *) apply andb_false_iff in E. rewrite Z.ltb_ge, Z.leb_gt in E. split; [lia|]. split.
      * destruct Hin as [Heq|[Hi Hl]]; [now left|right; split; [now right|assumption]].
      * intros s' [<-|Hs'] Hle; [lia|]. now apply Hmax.
Qed.

Lemma int_reps_In sp lo hi r :
  In r (int_reps sp lo hi) <-> lo <= hi /\ (r = lo \/ (In r sp /\ lo < r <= hi)).
Proof.
  unfold int_reps. destruct (Z.ltb_spec hi lo) as [Hlt|Hge].
  - split; [intros []|]. intros [H _]. lia.
  - cbn [In]. rewrite nodup_In, filter_In. split.
    + intros [<-|[Hin Hb]]; (split; [assumption|]); [now left|].
      apply andb_true_iff in Hb. destruct Hb as [H1 H2].
      apply Z.ltb_lt in H1. apply Z.leb_le in H2. right. split; [assumption|lia].
    + intros [_ [->|[Hin [H1 H2]]]]; [now left|].
      right. split; [assumption|]. apply andb_true_iff. split; [now apply Z.ltb_lt|now apply Z.leb_le].
Qed.

Lemma int_reps_complete sp lo hi v :
  lo <= v <= hi -> exists r, In r (int_reps sp lo hi) /\ same_side sp v r = true.
Proof.
  intros [Hlo Hhi]. exists (best sp lo v).
  destruct (best_spec sp lo v Hlo) as [Hr [Hin Hmax]]. split.
  - apply int_reps_In. split; [lia|].
    destruct Hin as [Heq|[Hi Hl]]; [now left|right; split; [assumption|lia]].
  - unfold same_side. apply forallb_forall. intros s Hs.
    destruct (Z.leb_spec s v) as [Hsv|Hsv], (Z.leb_spec s (best sp lo v)) as [Hsb|Hsb];
      try reflexivity; exfalso.
    + specialize (Hmax s Hs Hsv). lia.
    + lia.
Qed.

Lemma int_reps_range sp lo hi r : In r (int_reps sp lo hi) -> lo <= r <= hi.
Proof. rewrite int_reps_In. intros [H [->|[_ H2]]]; lia. Qed.

(* ================================================================ products *)

Lemma lprod_In {A} cap (ls : list (list A)) out :
  lprod cap ls = Some out ->
  forall xs, In xs out <-> Forall2 (fun x l => In x l) xs ls.
Proof.
  revert out. induction ls as [|l rest IH]; intros out H xs; cbn [lprod] in H.
  - inversion H; subst. cbn [In]. split.
    + intros [<-|[]]. constructor.
    + intro HF. inversion HF. now left.
  - destruct (lprod cap rest) as [tails|] eqn:Et; [|discriminate].
    destruct (N.leb (lenN l * lenN tails) cap); [|discriminate].
    inversion H; subst. rewrite in_flat_map. split.
    + intros [x [Hx Hin]]. apply in_map_iff in Hin. destruct Hin as [t [<- Ht]].
      constructor; [assumption|]. now apply (IH tails eq_refl).
    + intro HF. inversion HF as [|x l' t rest' Hx Ht]; subst.
      exists x. split; [assumption|]. apply in_map. now apply (IH tails eq_refl).
Qed.

(* ================================================================ representatives *)

Lemma mapM_ext {A B} (f g : A -> option B) l : (forall a, f a = g a) -> mapM f l = mapM g l.
Proof. intro H. induction l as [|a r IH]; cbn [mapM]; [reflexivity|]. now rewrite H, IH. Qed.

Lemma mapM_mono {A B} (f g : A -> option B) l bs :
  (forall a b, f a = Some b -> g a = Some b) -> mapM f l = Some bs -> mapM g l = Some bs.
Proof. intros H Hm. apply mapM_Forall2. apply mapM_Forall2 in Hm. induction Hm; constructor; auto. Qed.

Definition reps_list (env : tyenv) (sp : list Z) (cap : N) (f : nat) (ts : list ty) : option (list (list value)) :=
  match mapM (reps env sp cap f) ts with Some rss => lprod cap rss | None => None end.

Lemma reps_S env sp cap f t : reps env sp cap (S f) t =
  match t with
  | TBool => Some [VBool true; VBool false]
  | TInt sg w => Some (map VInt (int_reps sp (int_lo sg w) (int_hi sg w)))
  | TTuple ts => option_map (map VTuple) (reps_list env sp cap f ts)
  | TStruct n =>
      match assocN n (structs env) with
      | None => None
      | Some fts => option_map (map (fun vs => VStruct n (combine (map fst fts) vs))) (reps_list env sp cap f (map snd fts))
      end
  | TEnum n =>
      match assocN n (enums env) with
      | None => None
      | Some variants =>
          concat_opt (mapM (fun vd : N * option (list ty) =>
                              match snd vd with
                              | None => Some [VEnum n (fst vd) []]
                              | Some ts => option_map (map (VEnum n (fst vd))) (reps_list env sp cap f ts)
                              end) variants)
      end
  end.
Proof.
  unfold reps_list. destruct t as [|sg w|ts|n|n]; cbn [reps]; try reflexivity.
  - now destruct (mapM (reps env sp cap f) ts).
  - destruct (assocN n (structs env)) as [fts|]; [|reflexivity]. rewrite <- mapM_map.
    now destruct (mapM (reps env sp cap f) (map snd fts)).
  - destruct (assocN n (enums env)) as [variants|]; [|reflexivity]. f_equal. apply mapM_ext. intros [x [ts|]]; [|reflexivity].
    cbn [snd]. now destruct (mapM (reps env sp cap f) ts).
Qed.

Section Reps.
  Variable env : tyenv.
  Variable sp : list Z.
  Variable cap : N.

  (* picking, for a list of values, one similar representative per position *)
  Lemma reps_list_complete f ts prod :
    (forall t rs, reps env sp cap f t = Some rs ->
                  forall v, has_type env v t = true -> exists r, In r rs /\ simb sp v r = true) ->
    reps_list env sp cap f ts = Some prod ->
    forall vs, Forall2 (fun v t => has_type env v t = true) vs ts ->
    exists rl, In rl prod /\ Forall2 (fun v r => simb sp v r = true) vs rl.
  Proof.
    unfold reps_list. intros IH H. destruct (mapM (reps env sp cap f) ts) as [rss|] eqn:Em; [|discriminate].
    intros vs Hvs. setoid_rewrite (lprod_In cap rss prod H). apply mapM_Forall2 in Em. clear H. revert vs Hvs.
    induction Em as [|t rs ts' rss' Ht _ IHl]; intros vs Hvs; inversion Hvs as [|v t' vs' ts'' Hv Hvs']; subst.
    - exists []. split; constructor.
    - destruct (IH t rs Ht v Hv) as [r [Hr Hsim]]. destruct (IHl vs' Hvs') as [rl [Hrl Hsl]].
      exists (r :: rl). split; now constructor.
  Qed.

  Lemma reps_list_typed f ts prod :
    (forall t rs, reps env sp cap f t = Some rs -> forall r, In r rs -> has_type env r t = true) ->
    reps_list env sp cap f ts = Some prod ->
    forall rl, In rl prod -> Forall2 (fun r t => has_type env r t = true) rl ts.
  Proof.
    unfold reps_list. intros IH H. destruct (mapM (reps env sp cap f) ts) as [rss|] eqn:Em; [|discriminate].
    intros rl Hrl. apply (lprod_In cap rss prod H) in Hrl. apply mapM_Forall2 in Em. clear H. revert rl Hrl.
    induction Em as [|t rs ts' rss' Ht _ IHl]; intros rl Hrl; inversion Hrl as [|r rs' rl' rss'' Hr Hrl']; subst;
      constructor; [exact (IH t rs Ht r Hr)|exact (IHl rl' Hrl')].
  Qed.

  Lemma fields_split fvs fts :
    Forall2 (fun fv ft => ht_field env fv ft = true) fvs fts ->
    map fst fvs = map fst fts /\
    Forall2 (fun v t => has_type env v t = true) (map snd fvs) (map snd fts).
  Proof.
    induction 1 as [|[f v] [f' t] r1 r2 Hhd Htl IH]; cbn [map fst snd].
    - split; [reflexivity|constructor].
    - unfold ht_field in Hhd. apply andb_true_iff in Hhd. destruct Hhd as [Hf Hv].
      apply N.eqb_eq in Hf. subst f'. destruct IH as [IH1 IH2].
      split; [now f_equal|now constructor].
  Qed.

  Lemma fields_sim fvs names rl :
    map fst fvs = names ->
    Forall2 (fun v r => simb sp v r = true) (map snd fvs) rl ->
    forall2b (sim_field sp) fvs (combine names rl) = true.
  Proof.
    revert names rl. induction fvs as [|[f v] r IH]; intros names rl Hn HF; cbn [map fst snd] in *.
    - subst names. reflexivity.
    - subst names. inversion HF as [|v' r' vs' rl' Hv Hvs]; subst.
      cbn [combine]. rewrite forall2b_cons. apply andb_true_iff. split.
      + unfold sim_field. now rewrite N.eqb_refl.
      + now apply IH.
  Qed.

  Lemma fields_typed fts rl :
    Forall2 (fun r t => has_type env r t = true) rl (map snd fts) ->
    forall2b (ht_field env) (combine (map fst fts) rl) fts = true.
  Proof.
    revert rl. induction fts as [|[f t] r IH]; intros rl HF; cbn [map fst snd] in *.
    - inversion HF; subst. reflexivity.
    - inversion HF as [|r0 t0 rl' ts' Hr Hrl]; subst.
      cbn [combine]. rewrite forall2b_cons. apply andb_true_iff. split.
      + unfold ht_field. now rewrite N.eqb_refl.
      + now apply IH.
  Qed.

  (* every value of the type lies in the region of a representative *)
  Lemma reps_complete fuel : forall t rs,
    reps env sp cap fuel t = Some rs ->
    forall v, has_type env v t = true -> exists r, In r rs /\ simb sp v r = true.
  Proof.
    induction fuel as [|f IH]; intros t rs Hreps v Hty; [discriminate|].
    rewrite reps_S in Hreps. destruct t as [|sg w|ts|n|n].
    - (* bool *) inversion Hreps; subst.
      destruct v as [b| | | |]; try discriminate.
      exists (VBool b). split; [destruct b; cbn [In]; auto|]. cbn [simb]. apply eqb_reflx.
    - (* int *) inversion Hreps; subst.
      destruct v as [|z| | |]; try discriminate. cbn [has_type] in Hty.
      apply int_lo_le_hi_or_empty in Hty.
      destruct (int_reps_complete sp _ _ z Hty) as [r [Hin Hs]].
      exists (VInt r). split; [now apply in_map|exact Hs].
    - (* tuple *)
      destruct (reps_list env sp cap f ts) as [prod|] eqn:Ep; [|discriminate]. injection Hreps as <-.
      destruct v as [| |vs| |]; try discriminate. rewrite ht_tuple in Hty. apply forall2b_Forall2 in Hty.
      destruct (reps_list_complete f ts prod IH Ep vs Hty) as [rl [Hrl Hsl]].
      exists (VTuple rl). split; [now apply in_map|]. rewrite simb_tuple. now apply forall2b_Forall2.
    - (* struct *)
      destruct (assocN n (structs env)) as [fts|] eqn:Ea; [|discriminate].
      destruct (reps_list env sp cap f (map snd fts)) as [prod|] eqn:Ep; [|discriminate]. injection Hreps as <-.
      destruct v as [| | |n1 fvs|]; try discriminate.
      rewrite ht_struct in Hty. apply andb_true_iff in Hty. destruct Hty as [Hn Hf].
      apply N.eqb_eq in Hn. subst n1. rewrite Ea in Hf.
      apply forall2b_Forall2, fields_split in Hf as [Hnames Hvals].
      destruct (reps_list_complete f _ prod IH Ep _ Hvals) as [rl [Hrl Hsl]].
      exists (VStruct n (combine (map fst fts) rl)). split.
      + now apply in_map with (f := fun vs => VStruct n (combine (map fst fts) vs)).
      + rewrite simb_struct, N.eqb_refl. cbn [andb]. now apply fields_sim.
    - (* enum *)
      destruct (assocN n (enums env)) as [variants|] eqn:Ea; [|discriminate].
      destruct (mapM _ variants) as [lists|] eqn:Em; [|discriminate].
      cbn [concat_opt] in Hreps. injection Hreps as <-.
      destruct v as [| | | |n1 x vs]; try discriminate.
      rewrite ht_enum in Hty. apply andb_true_iff in Hty. destruct Hty as [Hn Hp].
      apply N.eqb_eq in Hn. subst n1. rewrite Ea in Hp.
      destruct (assocN x variants) as [payload|] eqn:Ex; [|discriminate].
      apply assocN_In in Ex. apply mapM_Forall2 in Em.
      destruct (Forall2_In_l _ _ _ _ Em Ex) as [l [Hl HG]]. cbn [fst snd] in HG.
      destruct payload as [ts|].
      + destruct (reps_list env sp cap f ts) as [prod|] eqn:Ep; [|discriminate]. injection HG as <-.
        apply forall2b_Forall2 in Hp. destruct (reps_list_complete f ts prod IH Ep vs Hp) as [rl [Hrl Hsl]].
        exists (VEnum n x rl). split; [apply in_concat; eexists; split; [exact Hl|now apply in_map]|].
        rewrite simb_enum, !N.eqb_refl. cbn [andb]. now apply forall2b_Forall2.
      + injection HG as <-. destruct vs; [|discriminate].
        exists (VEnum n x []). split; [apply in_concat; eexists; split; [exact Hl|now left]|].
        rewrite simb_enum, !N.eqb_refl. reflexivity.
  Qed.

  (* every representative is a value of the type *)
  Lemma reps_typed fuel : env_ok env = true -> forall t rs,
    reps env sp cap fuel t = Some rs ->
    forall r, In r rs -> has_type env r t = true.
  Proof.
    intro Hok. induction fuel as [|f IH]; intros t rs Hreps r Hin; [discriminate|].
    rewrite reps_S in Hreps. destruct t as [|sg w|ts|n|n].
    - inversion Hreps; subst. destruct Hin as [<-|[<-|[]]]; reflexivity.
    - inversion Hreps; subst. apply in_map_iff in Hin. destruct Hin as [z [<- Hz]].
      cbn [has_type]. apply int_reps_range in Hz. unfold in_int.
      apply andb_true_iff. split; apply Z.leb_le; lia.
    - destruct (reps_list env sp cap f ts) as [prod|] eqn:Ep; [|discriminate]. injection Hreps as <-.
      apply in_map_iff in Hin. destruct Hin as [rl [<- Hrl]].
      rewrite ht_tuple. apply forall2b_Forall2. exact (reps_list_typed f ts prod IH Ep rl Hrl).
    - destruct (assocN n (structs env)) as [fts|] eqn:Ea; [|discriminate].
      destruct (reps_list env sp cap f (map snd fts)) as [prod|] eqn:Ep; [|discriminate]. injection Hreps as <-.
      apply in_map_iff in Hin. destruct Hin as [rl [<- Hrl]].
      rewrite ht_struct, N.eqb_refl, Ea. cbn [andb]. apply fields_typed.
      exact (reps_list_typed f _ prod IH Ep rl Hrl).
    - destruct (assocN n (enums env)) as [variants|] eqn:Ea; [|discriminate].
      destruct (mapM _ variants) as [lists|] eqn:Em; [|discriminate].
      cbn [concat_opt] in Hreps. injection Hreps as <-.
      apply in_concat in Hin. destruct Hin as [l [Hl Hr]].
      apply mapM_Forall2 in Em.
      destruct (Forall2_In_r _ _ _ _ Em Hl) as [[x payload] [Hvd HG]]. cbn [fst snd] in HG.
      assert (Hnd : nodupN (map fst variants) = true).
      { unfold env_ok in Hok. rewrite forallb_forall in Hok.
        apply (Hok (n, variants)). now apply assocN_In. }
      assert (Hx := assocN_nodup x variants payload Hnd Hvd).
      destruct payload as [ts|].
      + destruct (reps_list env sp cap f ts) as [prod|] eqn:Ep; [|discriminate]. injection HG as <-.
        apply in_map_iff in Hr. destruct Hr as [rl [<- Hrl]].
        rewrite ht_enum, N.eqb_refl, Ea, Hx. apply forall2b_Forall2. exact (reps_list_typed f ts prod IH Ep rl Hrl).
      + injection HG as <-. destruct Hr as [<-|[]]. rewrite ht_enum, N.eqb_refl, Ea, Hx. reflexivity.
  Qed.
End Reps.

(* ================================================================ the decision procedures *)

Lemma arm_matches_iff ps v :
  arm_matches ps v = true <-> exists p, In p ps /\ pat_matches p v = true.
Proof. unfold arm_matches. apply existsb_exists. Qed.

Lemma arm_matches_false ps v :
  arm_matches ps v = false <-> forall p, In p ps -> pat_matches p v = false.
Proof.
  split.
  - intros H p Hin. destruct (pat_matches p v) eqn:E; [|reflexivity].
    assert (arm_matches ps v = true) by (apply arm_matches_iff; eauto). congruence.
  - intro H. destruct (arm_matches ps v) eqn:E; [|reflexivity].
    apply arm_matches_iff in E. destruct E as [p [Hin Hp]]. rewrite (H p Hin) in Hp. discriminate.
Qed.

Lemma points_incl ps p : In p ps -> incl (pat_points p) (points ps).
Proof. intros Hin x Hx. unfold points. apply in_flat_map. now exists p. Qed.

(* values of one region are matched by the same arms *)
Lemma region_constant_lemma ps v r :
  simb (points ps) v r = true ->
  forall p, In p ps -> pat_matches p v = pat_matches p r.
Proof.
  intros Hsim p Hin. apply sim_matches with (sp := points ps); [now apply points_incl|assumption].
Qed.

Lemma region_arm_matches ps v r :
  simb (points ps) v r = true -> arm_matches ps v = arm_matches ps r.
Proof.
  intro Hsim. unfold arm_matches.
  destruct (existsb (fun p => pat_matches p r) ps) eqn:Er.
  - apply existsb_exists in Er. destruct Er as [p [Hin Hp]].
    apply existsb_exists. exists p. split; [assumption|].
    now rewrite (region_constant_lemma ps v r Hsim p Hin).
  - destruct (existsb (fun p => pat_matches p v) ps) eqn:Ev; [|reflexivity].
    apply existsb_exists in Ev. destruct Ev as [p [Hin Hp]].
    rewrite (region_constant_lemma ps v r Hsim p Hin) in Hp.
    assert (existsb (fun p => pat_matches p r) ps = true) by (apply existsb_exists; eauto).
    congruence.
Qed.

Lemma covers_iff env cap fuel t ps b :
  covers env cap fuel t ps = Some b ->
  (b = true <->
   forall v, has_type env v t = true -> exists p, In p ps /\ pat_matches p v = true).
Proof.
  unfold covers. destruct (env_ok env) eqn:Hok; [|discriminate].
  destruct (reps env (points ps) cap fuel t) as [rs|] eqn:Er; [|discriminate].
  intro H. inversion H; subst. clear H. split.
  - intros Hall v Hty. rewrite forallb_forall in Hall.
    destruct (reps_complete env (points ps) cap fuel t rs Er v Hty) as [r [Hin Hsim]].
    apply arm_matches_iff. rewrite (region_arm_matches ps v r Hsim). now apply Hall.
  - intro Hall. apply forallb_forall. intros r Hin. apply arm_matches_iff. apply Hall.
    now apply (reps_typed env (points ps) cap fuel Hok t rs Er).
Qed.

Lemma uncovered_covers env cap fuel t ps :
  uncovered env cap fuel t ps = Some None <-> covers env cap fuel t ps = Some true.
Proof.
  unfold uncovered, covers. destruct (env_ok env); [|split; discriminate].
  destruct (reps env (points ps) cap fuel t) as [rs|]; [|split; discriminate].
  split; intro H.
  - inversion H as [Hf]. f_equal. apply forallb_forall. intros r Hin.
    destruct (arm_matches ps r) eqn:E; [reflexivity|].
    exfalso. apply (find_none _ _ Hf) in Hin. rewrite E in Hin. discriminate.
  - inversion H as [Hf]. f_equal.
    destruct (find (fun r => negb (arm_matches ps r)) rs) as [r|] eqn:E; [|reflexivity].
    apply find_some in E. destruct E as [Hin Hn]. rewrite forallb_forall in Hf.
    rewrite (Hf r Hin) in Hn. discriminate.
Qed.

Lemma uncovered_sound env cap fuel t ps v :
  uncovered env cap fuel t ps = Some (Some v) ->
  has_type env v t = true /\ forall p, In p ps -> pat_matches p v = false.
Proof.
  unfold uncovered. destruct (env_ok env) eqn:Hok; [|discriminate].
  destruct (reps env (points ps) cap fuel t) as [rs|] eqn:Er; [|discriminate].
  intro H. inversion H as [Hf]. apply find_some in Hf. destruct Hf as [Hin Hn]. split.
  - now apply (reps_typed env (points ps) cap fuel Hok t rs Er).
  - apply arm_matches_false. now apply negb_true_iff.
Qed.

Lemma witness_iff env cap fuel t ps w b :
  witness_ok env cap fuel t ps w = Some b ->
  (b = true <->
   (exists v, has_type env v t = true /\ pat_matches w v = true) /\
   (forall v, has_type env v t = true -> pat_matches w v = true ->
              forall p, In p ps -> pat_matches p v = false)).
Proof.
  unfold witness_ok. destruct (env_ok env) eqn:Hok; [|discriminate].
  destruct (reps env (points (w :: ps)) cap fuel t) as [rs|] eqn:Er; [|discriminate].
  intro H. inversion H; subst. clear H.
  assert (Hw : forall v r, simb (points (w :: ps)) v r = true -> pat_matches w v = pat_matches w r).
  { intros v r Hs. apply (region_constant_lemma (w :: ps) v r Hs). now left. }
  assert (Hps : forall v r, simb (points (w :: ps)) v r = true -> arm_matches ps v = arm_matches ps r).
  { intros v r Hs. unfold arm_matches.
    assert (Hall : forall p, In p ps -> pat_matches p v = pat_matches p r).
    { intros p Hin. apply (region_constant_lemma (w :: ps) v r Hs). now right. }
    clear - Hall. induction ps as [|q qs IH]; cbn [existsb]; [reflexivity|].
    rewrite (Hall q (or_introl eq_refl)). f_equal. apply IH. intros p Hp. apply Hall. now right. }
  rewrite andb_true_iff, existsb_exists, forallb_forall. split.
  - intros [[r0 [Hin0 Hm0]] Hall]. split.
    + exists r0. split; [|assumption]. now apply (reps_typed env _ cap fuel Hok t rs Er).
    + intros v Hty Hm. apply arm_matches_false.
      destruct (reps_complete env _ cap fuel t rs Er v Hty) as [r [Hin Hsim]].
      specialize (Hall r Hin). rewrite (Hw v r Hsim) in Hm. rewrite Hm in Hall.
      cbn [negb orb] in Hall. rewrite (Hps v r Hsim). now apply negb_true_iff.
  - intros [[v [Hty Hm]] Hall]. split.
    + destruct (reps_complete env _ cap fuel t rs Er v Hty) as [r [Hin Hsim]].
      exists r. split; [assumption|]. now rewrite <- (Hw v r Hsim).
    + intros r Hin. destruct (pat_matches w r) eqn:Em; [|reflexivity]. cbn [negb orb].
      apply negb_true_iff. apply arm_matches_false.
      apply Hall; [|assumption]. now apply (reps_typed env _ cap fuel Hok t rs Er).
Qed.

Lemma region_reps_spec env cap fuel t ps rs :
  region_reps env cap fuel t ps = Some rs ->
  (forall r, In r rs -> has_type env r t = true) /\
  (forall v, has_type env v t = true ->
             exists r, In r rs /\ simb (points ps) v r = true).
Proof.
  unfold region_reps. destruct (env_ok env) eqn:Hok; [|discriminate]. intro Er. split.
  - intros r Hin. now apply (reps_typed env (points ps) cap fuel Hok t rs Er).
  - intros v Hty. now apply (reps_complete env (points ps) cap fuel t rs Er).
Qed.

(* ================================================================ first matching arm *)

Lemma select_from_spec ps : forall i v j bs,
  select_from i ps v = Some (j, bs) <->
  exists k p, j = (i + k)%nat /\ nth_error ps k = Some p /\ pat_matches p v = true /\
              bs = pat_bind p v /\
              forall k' q, (k' < k)%nat -> nth_error ps k' = Some q -> pat_matches q v = false.
Proof.
  induction ps as [|p0 r IH]; intros i v j bs; cbn [select_from].
  - split; [discriminate|]. intros [k [p [_ [Hn _]]]]. destruct k; discriminate.
  - destruct (pat_matches p0 v) eqn:E0.
    + split.
      * intro H. inversion H; subst. exists 0%nat, p0.
        split; [lia|]. split; [reflexivity|]. split; [assumption|]. split; [reflexivity|].
        intros k' q Hlt. lia.
      * intros [k [p [Hj [Hn [Hm [Hb Hprev]]]]]]. destruct k as [|k].
        -- cbn [nth_error] in Hn. inversion Hn; subst. f_equal. f_equal. lia.
        -- specialize (Hprev 0%nat p0 (Nat.lt_0_succ k) eq_refl). congruence.
    + rewrite IH. split.
      * intros [k [p [Hj [Hn [Hm [Hb Hprev]]]]]]. exists (S k), p.
        split; [lia|]. split; [assumption|]. split; [assumption|]. split; [assumption|].
        intros k' q Hlt Hq. destruct k' as [|k']; cbn [nth_error] in Hq.
        -- inversion Hq; subst. assumption.
        -- apply (Hprev k' q); [lia|assumption].
      * intros [k [p [Hj [Hn [Hm [Hb Hprev]]]]]]. destruct k as [|k].
        -- cbn [nth_error] in Hn. inversion Hn; subst. congruence.
        -- exists k, p. split; [lia|]. split; [assumption|]. split; [assumption|].
           split; [assumption|]. intros k' q Hlt Hq. apply (Hprev (S k') q); [lia|assumption].
Qed.

Lemma select_arm_spec ps v j bs :
  select_arm ps v = Some (j, bs) <->
  exists p, nth_error ps j = Some p /\ pat_matches p v = true /\ bs = pat_bind p v /\
            forall k q, (k < j)%nat -> nth_error ps k = Some q -> pat_matches q v = false.
Proof.
  unfold select_arm. rewrite select_from_spec. split.
  - intros [k [p [Hj H]]]. cbn in Hj. subst j. now exists p.
  - intros [p H]. exists j, p. split; [reflexivity|assumption].
Qed.

Lemma select_from_none ps : forall i v,
  select_from i ps v = None <-> forall p, In p ps -> pat_matches p v = false.
Proof.
  induction ps as [|p0 r IH]; intros i v; cbn [select_from].
  - split; [intros _ p []|reflexivity].
  - destruct (pat_matches p0 v) eqn:E0.
    + split; [discriminate|]. intro H. rewrite (H p0 (or_introl eq_refl)) in E0. discriminate.
    + rewrite IH. split.
      * intros H p [<-|Hin]; [assumption|now apply H].
      * intros H p Hin. apply H. now right.
Qed.

Lemma select_arm_none ps v :
  select_arm ps v = None <-> forall p, In p ps -> pat_matches p v = false.
Proof. apply select_from_none. Qed.

Lemma covers_select_total env cap fuel t ps v :
  covers env cap fuel t ps = Some true ->
  has_type env v t = true -> select_arm ps v <> None.
Proof.
  intros Hc Hty Hnone. rewrite select_arm_none in Hnone.
  destruct (proj1 (covers_iff env cap fuel t ps true Hc) eq_refl v Hty) as [p [Hin Hp]].
  rewrite (Hnone p Hin) in Hp. discriminate.
Qed.

(* ================================================================ bounds are exact *)

Lemma range_exact sl lo hi z :
  pat_matches (PRange sl lo hi) (VInt z) = true <-> lo <= z <= hi.
Proof.
  cbn [pat_matches]. rewrite andb_true_iff, !Z.leb_le. reflexivity.
Qed.

Lemma num_exact sl n z : pat_matches (PNum sl n) (VInt z) = true <-> z = n.
Proof. cbn [pat_matches]. apply Z.eqb_eq. Qed.

(* a well-typed number or range pattern only mentions values of the scrutinee's type
   (the repaired pattern type check): nothing is truncated *)
Lemma wt_num_in_type env sg w sl n :
  pat_wt env (TInt sg w) (PNum sl n) = true -> has_type env (VInt n) (TInt sg w) = true.
Proof.
  cbn [pat_wt has_type]. intro H. apply andb_true_iff in H. now destruct H.
Qed.

(* monotonicity in the fuel: a decided answer stays the same with more fuel *)
Lemma reps_fuel_mono env sp cap fuel : forall t rs,
  reps env sp cap fuel t = Some rs -> reps env sp cap (S fuel) t = Some rs.
Proof.
  induction fuel as [|f IH]; intros t rs H; [discriminate|].
  assert (HL : forall ts prod, reps_list env sp cap f ts = Some prod -> reps_list env sp cap (S f) ts = Some prod).
  { intros ts prod. unfold reps_list. destruct (mapM (reps env sp cap f) ts) as [rss|] eqn:Em; [|discriminate].
    now rewrite (mapM_mono _ _ ts rss IH Em). }
  rewrite reps_S in H. rewrite reps_S. destruct t as [|sg w|ts|n|n]; try exact H.
  - destruct (reps_list env sp cap f ts) as [prod|] eqn:Ep; [|discriminate]. now rewrite (HL ts prod Ep).
  - destruct (assocN n (structs env)) as [fts|]; [|discriminate].
    destruct (reps_list env sp cap f (map snd fts)) as [prod|] eqn:Ep; [|discriminate]. now rewrite (HL _ prod Ep).
  - destruct (assocN n (enums env)) as [variants|]; [|discriminate].
    destruct (mapM _ variants) as [lists|] eqn:Em in H; [|discriminate].
    erewrite mapM_mono; [exact H| |exact Em]. intros [x [ts|]] l; cbn [fst snd]; [|trivial].
    destruct (reps_list env sp cap f ts) as [prod|] eqn:Ep; [|discriminate]. now rewrite (HL ts prod Ep).
Qed.

Lemma covers_fuel_mono env cap fuel t ps b :
  covers env cap fuel t ps = Some b -> covers env cap (S fuel) t ps = Some b.
Proof.
  unfold covers. destruct (env_ok env); [|discriminate].
  destruct (reps env (points ps) cap fuel t) as [rs|] eqn:Er; [|discriminate].
  now rewrite (reps_fuel_mono env (points ps) cap fuel t rs Er).
Qed.

(* `a..b` is stored by the parser as `a..=b-1` *)
Lemma excl_range_exact sl lo hi z :
  pat_matches (PRange sl lo (hi - 1)) (VInt z) = true <-> lo <= z < hi.
Proof. rewrite range_exact. lia. Qed.
