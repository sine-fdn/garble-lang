(* Run-time environments of Lang/Sem.v against the contexts of the checker, for an arbitrary
   relation [VP] between values and types: same names in the same order, related values.
   With [VP v t := has_ty P v t = true] this is [ValTy.env_ok], with [in_rng] it is
   [ExhSound.env_rng]; both unfold to [env_rel VP]. *)
From GV Require Import Base.Util Lang.Ast Lang.Wt.
From GV Require Lang.Sem.
Local Open Scope N_scope.

Section EnvRel.
  Variable VP : Sem.value -> ty -> Prop.

  Definition bind_rel (b : N * Sem.value) (tb : N * (ty * bool)) : Prop :=
    fst b = fst tb /\ VP (snd b) (fst (snd tb)).
  Definition scope_rel (s : list (N * Sem.value)) (gs : list (N * (ty * bool))) : Prop :=
    Forall2 bind_rel s gs.
  Definition env_rel (ss : list (list (N * Sem.value))) (g : tenv) : Prop := Forall2 scope_rel ss g.
  Definition binds_rel (bs : list (N * Sem.value)) (tbs : list (N * ty)) : Prop :=
    Forall2 (fun b tb => fst b = fst tb /\ VP (snd b) (snd tb)) bs tbs.

  Lemma assoc_scope_rel s gs x : scope_rel s gs ->
    match assocN x gs with
    | Some (t, _) => exists v, assocN x s = Some v /\ VP v t
    | None => assocN x s = None
    end.
  Proof.
    induction 1 as [|[k v] [k' [t m]] s gs [Hk Hv] _ IH]; cbn [assocN]; [reflexivity|].
    cbn [fst snd] in Hk, Hv. subst k'. destruct (x =? k); [eauto|exact IH].
  Qed.

  Lemma lookup_rel ss g x t m : env_rel ss g -> tlookup g x = Some (t, m) ->
    exists v, Sem.lookup_scopes ss x = Some v /\ VP v t.
  Proof.
    induction 1 as [|s gs ss g Hs _ IH]; cbn [tlookup Sem.lookup_scopes]; [discriminate|].
    pose proof (assoc_scope_rel s gs x Hs) as Ha. destruct (assocN x gs) as [[t' m']|].
    - intros [= <- <-]. destruct Ha as [v [-> Hv]]. eauto.
    - rewrite Ha. exact IH.
  Qed.

  Lemma bind_var_rel en g x v t m : env_rel (Sem.scopes en) g -> VP v t ->
    env_rel (Sem.scopes (Sem.bind_var en x v)) (tbind g x t m).
  Proof.
    unfold Sem.bind_var, tbind. intros H Hv. assert (Hb : bind_rel (x, v) (x, (t, m))) by (split; [reflexivity|exact Hv]).
    destruct H as [|s gs ss g' Hs Hr]; cbn [Sem.scopes]; repeat constructor; assumption.
  Qed.

  Lemma bind_all_rel bs tbs m : binds_rel bs tbs -> forall en g,
    env_rel (Sem.scopes en) g -> env_rel (Sem.scopes (Sem.bind_all en bs)) (tbind_all g tbs m).
  Proof.
    unfold Sem.bind_all, tbind_all.
    induction 1 as [|[x v] [y t] bs tbs [Hx Hv] _ IH]; intros en g He; cbn [fold_left]; [assumption|].
    cbn [fst snd] in *. subst y. apply IH. now apply bind_var_rel.
  Qed.

  Lemma push_rel en g : env_rel (Sem.scopes en) g -> env_rel (Sem.scopes (Sem.push_scope en)) ([] :: g).
  Proof. intro H. cbn [Sem.push_scope Sem.scopes]. constructor; [constructor|assumption]. Qed.

  Lemma pop_rel ss g : env_rel ss g -> env_rel (tl ss) (tl g).
  Proof. destruct 1; cbn [tl]; [constructor|assumption]. Qed.

  Lemma update_assoc_rel s gs x v : scope_rel s gs ->
    match assocN x gs with
    | Some (t, _) => VP v t -> exists s', Sem.update_assoc s x v = Some s' /\ scope_rel s' gs
    | None => Sem.update_assoc s x v = None
    end.
  Proof.
    induction 1 as [|[k w] [k' [t m]] s gs [Hk Hw] Hr IH]; cbn [assocN Sem.update_assoc]; [reflexivity|].
    cbn [fst snd] in Hk, Hw. subst k'. destruct (x =? k).
    - intro Hv. eexists. split; [reflexivity|]. constructor; [split; [reflexivity|exact Hv]|exact Hr].
    - destruct (assocN x gs) as [[t' m']|].
      + intro Hv. destruct (IH Hv) as [s' [-> Hs']]. eexists. split; [reflexivity|].
        constructor; [split; [reflexivity|exact Hw]|exact Hs'].
      + now rewrite IH.
  Qed.

  Lemma assign_scopes_rel ss g x v t m : env_rel ss g -> tlookup g x = Some (t, m) -> VP v t ->
    exists ss', Sem.assign_scopes ss x v = Some ss' /\ env_rel ss' g.
  Proof.
    induction 1 as [|s gs ss g Hs Hr IH]; cbn [tlookup Sem.assign_scopes]; [discriminate|].
    pose proof (update_assoc_rel s gs x v Hs) as Hu. destruct (assocN x gs) as [[t' m']|].
    - intros [= <- <-] Hv. destruct (Hu Hv) as [s' [-> Hs']]. eexists. split; [reflexivity|]. now constructor.
    - intros Hl Hv. rewrite Hu. destruct (IH Hl Hv) as [ss' [-> Hss']]. eexists. split; [reflexivity|]. now constructor.
  Qed.

  Lemma assign_rel en g x v t m : env_rel (Sem.scopes en) g -> tlookup g x = Some (t, m) -> VP v t ->
    exists en', Sem.assign_var en x v = Some en' /\ env_rel (Sem.scopes en') g.
  Proof.
    intros He Hl Hv. unfold Sem.assign_var.
    destruct (assign_scopes_rel _ _ _ _ _ _ He Hl Hv) as [ss' [-> Hok]]. eexists. split; [reflexivity|exact Hok].
  Qed.

  Lemma env_rel_last ss g : env_rel ss g -> scope_rel (last ss []) (last g []).
  Proof.
    induction 1 as [|s gs ss g Hs Hr IH]; [constructor|].
    destruct Hr; [exact Hs|exact IH].
  Qed.
End EnvRel.
