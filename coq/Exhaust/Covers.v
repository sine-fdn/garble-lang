(* C08 — a verified decision procedure for "the arms cover every value of the type"
   (region method).  Definitions only (proofs: CoversProofs.v).

   Every number or range bound written anywhere in the arms is a *split point*.  Two
   integers lie in the same region when they are on the same side of every split point;
   two values lie in the same region when they have the same shape (same bool, same enum
   variant) and their integers lie pairwise in the same region.  Patterns cannot tell
   values of one region apart ([region_constant_lemma]), every value of the type lies in the
   region of one of the finitely many representatives [reps] ([reps_complete]), and every
   representative is a value of the type ([reps_typed]); so testing the representatives
   decides coverage.

   The products for tuples/structs/enum payloads are capped ([cap]) and the recursion
   through the type definitions has [fuel]; beyond either the answer is [None] =
   "undecided" — never a wrong verdict. *)
From GV Require Import Base.Util Exhaust.Pat.
Local Open Scope Z_scope.

(* ---------------------------------------------------------------- split points *)

Fixpoint pat_points (p : pattern) {struct p} : list Z :=
  match p with
  | PVar _ | PBool _ => []
  | PNum _ z => [z; z + 1]
  | PRange _ lo hi => [lo; hi + 1]
  | PTuple ps => flat_map pat_points ps
  | PStruct _ fs _ => flat_map (fun fp : N * pattern => let '(_, p') := fp in pat_points p') fs
  | PEnum _ _ None => []
  | PEnum _ _ (Some ps) => flat_map pat_points ps
  end.

Definition points (ps : list pattern) : list Z := flat_map pat_points ps.

(* ---------------------------------------------------------------- regions *)

Definition same_side (sp : list Z) (a b : Z) : bool :=
  forallb (fun s => Bool.eqb (s <=? a) (s <=? b)) sp.

Fixpoint simb (sp : list Z) (v r : value) {struct v} : bool :=
  match v, r with
  | VBool a, VBool b => Bool.eqb a b
  | VInt a, VInt b => same_side sp a b
  | VTuple vs, VTuple rs => forall2b (simb sp) vs rs
  | VStruct n fvs, VStruct n' frs =>
      N.eqb n n' &&
      forall2b (fun (fv fr : N * value) =>
                  let '(f, v') := fv in
                  let '(f', r') := fr in
                  N.eqb f f' && simb sp v' r') fvs frs
  | VEnum n x vs, VEnum n' x' rs =>
      N.eqb n n' && N.eqb x x' && forall2b (simb sp) vs rs
  | _, _ => false
  end.

(* ---------------------------------------------------------------- representatives *)

Definition int_reps (sp : list Z) (lo hi : Z) : list Z :=
  if hi <? lo then []
  else lo :: nodup Z.eq_dec (filter (fun s => (lo <? s) && (s <=? hi)) sp).

(* cartesian product of a list of lists, refused beyond [cap] elements per step *)
Fixpoint lprod {A} (cap : N) (ls : list (list A)) : option (list (list A)) :=
  match ls with
  | [] => Some [[]]
  | l :: rest =>
      match lprod cap rest with
      | None => None
      | Some tails =>
          if (lenN l * lenN tails <=? cap)%N
          then Some (flat_map (fun x => map (cons x) tails) l)
          else None
      end
  end.

Definition concat_opt {A} (o : option (list (list A))) : option (list A) :=
  match o with Some ls => Some (concat ls) | None => None end.

Fixpoint reps (env : tyenv) (sp : list Z) (cap : N) (fuel : nat) (t : ty) {struct fuel}
  : option (list value) :=
  match fuel with
  | O => None
  | S f =>
      match t with
      | TBool => Some [VBool true; VBool false]
      | TInt sg w => Some (map VInt (int_reps sp (int_lo sg w) (int_hi sg w)))
      | TTuple ts =>
          match mapM (reps env sp cap f) ts with
          | None => None
          | Some rss => option_map (map VTuple) (lprod cap rss)
          end
      | TStruct n =>
          match assocN n (structs env) with
          | None => None
          | Some fts =>
              match mapM (fun ft : N * ty => reps env sp cap f (snd ft)) fts with
              | None => None
              | Some rss =>
                  option_map (map (fun vs => VStruct n (combine (map fst fts) vs)))
                             (lprod cap rss)
              end
          end
      | TEnum n =>
          match assocN n (enums env) with
          | None => None
          | Some variants =>
              concat_opt
                (mapM (fun vd : N * option (list ty) =>
                         match snd vd with
                         | None => Some [VEnum n (fst vd) []]
                         | Some ts =>
                             match mapM (reps env sp cap f) ts with
                             | None => None
                             | Some rss => option_map (map (VEnum n (fst vd))) (lprod cap rss)
                             end
                         end) variants)
          end
      end
  end.

(* variant names are distinct inside each enum definition (otherwise a later duplicate is
   unreachable for [has_type] and the procedure declines to answer) *)
Definition env_ok (env : tyenv) : bool :=
  forallb (fun ed : N * list (N * option (list ty)) => nodupN (map fst (snd ed))) (enums env).

(* ---------------------------------------------------------------- the decision procedures *)

Definition covers (env : tyenv) (cap : N) (fuel : nat) (t : ty) (ps : list pattern) : option bool :=
  if env_ok env then
    match reps env (points ps) cap fuel t with
    | Some rs => Some (forallb (arm_matches ps) rs)
    | None => None
    end
  else None.

(* Some None = covered; Some (Some v) = v is a value of the type that no arm matches *)
Definition uncovered (env : tyenv) (cap : N) (fuel : nat) (t : ty) (ps : list pattern)
  : option (option value) :=
  if env_ok env then
    match reps env (points ps) cap fuel t with
    | Some rs => Some (find (fun r => negb (arm_matches ps r)) rs)
    | None => None
    end
  else None.

(* a reported missing case [w]: it denotes at least one value of the type, and only values
   that no arm matches *)
Definition witness_ok (env : tyenv) (cap : N) (fuel : nat) (t : ty) (ps : list pattern)
           (w : pattern) : option bool :=
  if env_ok env then
    match reps env (points (w :: ps)) cap fuel t with
    | Some rs =>
        Some (existsb (pat_matches w) rs
              && forallb (fun r => negb (pat_matches w r) || negb (arm_matches ps r)) rs)
    | None => None
    end
  else None.

(* one representative per region, for the evaluation of compiled circuits *)
Definition region_reps (env : tyenv) (cap : N) (fuel : nat) (t : ty) (ps : list pattern)
  : option (list value) :=
  if env_ok env then reps env (points ps) cap fuel t else None.
