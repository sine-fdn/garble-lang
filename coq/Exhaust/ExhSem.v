(* THE EXHAUSTIVENESS DEVELOPMENT (Exhaust/Pat.v, Useful.v = the model of the real algorithm,
   proved exact in UsefulProofs.v) CONNECTED TO THE SOURCE SEMANTICS (Lang/Sem.v [pmatch] over
   the patterns and values of Lang/Ast.v).

   1  translations:  [tr_ty] (Ast types; an array becomes the unit type: no pattern looks inside
      an array), [tr_env] (struct / enum definitions; variant number k is named k, a variant
      without payload is a unit variant), [tr_pat] (PNumU / PURange: unsigned spelling, PNumS /
      PSRange: signed spelling; a unit pattern on a variant WITH payload becomes the pattern
      with wildcards), [tr_val] (type directed: structs get their field names, enums their name)
   2  [tr_val_typed]: a value of the type ([has_enc], i.e. shape and integers in range) is a value
      of the translated type; [match_agree]: for a pattern typed at the type of the value
      ([gpat_ok], the typing of the strict checker) Sem.pmatch succeeds iff Pat.pat_matches
   3  [exh_pats]: the boolean check of one match / one irrefutable pattern (the real
      algorithm with its proved fuel bound, plus the side conditions of its correctness theorem,
      evaluated); [exh_pats_sound]: then every value of the type is matched by some pattern, in
      Sem.v; [exh_expr] / [exh_stmt] / [exh_fns]: every match / let / for / join-loop pattern of a
      program
   4  the consequence for whole programs (no `Stuck`): Exhaust/ExhSound.v *)
From Coq Require Import Lia ZArith.
From GV Require Import Base.Util Lang.Ast Lang.Wt Lang.ValTy Lang.WtSound Lang.WtShape
  Compile.Lower Compile.TSemSemExpr Compile.ValEnc Compile.TSemSemStmt Compile.TSemSemAgg Compile.TSemSemFull.
From GV Require Lang.Sem.
From GV Require Exhaust.Pat Exhaust.Covers Exhaust.CoversProofs Exhaust.Useful Exhaust.UsefulProofs.
Module EP := GV.Exhaust.Pat.
Module EU := GV.Exhaust.Useful.
Module EUP := GV.Exhaust.UsefulProofs.
Local Open Scope N_scope.

(* ------------------------------------------------------------------ 1. translations *)

Fixpoint tr_ty (t : ty) : EP.ty :=
  match t with
  | TBool => EP.TBool
  | TInt sg b => EP.TInt sg b
  | TArr _ _ => EP.TTuple []            (* opaque for patterns *)
  | TTup ts => EP.TTuple (map tr_ty ts)
  | TStruct n => EP.TStruct n
  | TEnum n => EP.TEnum n
  end.

Definition tr_payload (ts : list ty) : option (list EP.ty) :=
  match ts with [] => None | _ :: _ => Some (map tr_ty ts) end.

Fixpoint tr_variants (vs : list (list ty)) (k : N) : list (N * option (list EP.ty)) :=
  match vs with
  | [] => []
  | ts :: r => (k, tr_payload ts) :: tr_variants r (k + 1)
  end.

Definition tr_fields (fs : list (N * ty)) : list (N * EP.ty) := map (fun ft => (fst ft, tr_ty (snd ft))) fs.

Definition tr_env (P : program) : EP.tyenv :=
  {| EP.structs := map (fun sd : N * list (N * ty) => (fst sd, tr_fields (snd sd))) (p_structs P);
     EP.enums := map (fun ed : N * list (list ty) => (fst ed, tr_variants (snd ed) 0)) (p_enums P) |}.

Definition wilds {A} (l : list A) : list EP.pattern := map (fun _ => EP.PVar 0) l.

Fixpoint tr_pat (P : program) (p : pattern) {struct p} : EP.pattern :=
  match p with
  | Pat pi _ _ =>
    match pi with
    | PId x => EP.PVar x
    | PTrue => EP.PBool true
    | PFalse => EP.PBool false
    | PNumU n => EP.PNum false (Z.of_N n)
    | PNumS z => EP.PNum true z
    | PURange lo hi => EP.PRange false (Z.of_N lo) (Z.of_N hi)
    | PSRange lo hi => EP.PRange true lo hi
    | PTup ps => EP.PTuple (map (tr_pat P) ps)
    | PStruct name _ fields =>
        (* the `..` flag: neither Sem.pmatch nor the matching of Exhaust/Pat.v looks at it, and the
           exporter prints 0 for a pattern with `..` (the checker has normalised it away); a
           struct pattern that names only some fields is `S { named fields, .. }` *)
        EP.PStruct name
          ((fix go (fs : list (N * pattern)) : list (N * EP.pattern) :=
              match fs with [] => [] | (f, fp) :: r => (f, tr_pat P fp) :: go r end) fields) true
    | PEnumUnit en v =>
        (* a unit pattern compares the tag only: on a variant with payload it is `V(_, .., _)` *)
        match assocN en (p_enums P) with
        | Some variants =>
            match nthN variants v with
            | Some (t0 :: tr) => EP.PEnum en v (Some (wilds (t0 :: tr)))
            | _ => EP.PEnum en v None
            end
        | None => EP.PEnum en v None
        end
    | PEnumTup en v ps =>
        match ps with
        | [] => EP.PEnum en v None
        | _ :: _ => EP.PEnum en v (Some (map (tr_pat P) ps))
        end
    end
  end.

Fixpoint tr_fpats (P : program) (fs : list (N * pattern)) : list (N * EP.pattern) :=
  match fs with [] => [] | (f, fp) :: r => (f, tr_pat P fp) :: tr_fpats P r end.

Lemma tr_pat_struct P name rest fields m t :
  tr_pat P (Pat (PStruct name rest fields) m t) = EP.PStruct name (tr_fpats P fields) true.
Proof.
  cbn [tr_pat]. f_equal. induction fields as [|[f fp] r IH]; [reflexivity|]. cbn [tr_fpats]. now rewrite <- IH.
Qed.

(* values, directed by the type *)
Section ValAux.
  Variable tv : Sem.value -> ty -> EP.value.
  Fixpoint tr_vals (vs : list Sem.value) (ts : list ty) : list EP.value :=
    match vs, ts with
    | v :: vr, t :: tr => tv v t :: tr_vals vr tr
    | _, _ => []
    end.
  Fixpoint tr_fvals (vs : list Sem.value) (fs : list (N * ty)) : list (N * EP.value) :=
    match vs, fs with
    | v :: vr, (f, t) :: fr => (f, tv v t) :: tr_fvals vr fr
    | _, _ => []
    end.
End ValAux.

Fixpoint tr_val (P : program) (v : Sem.value) (t : ty) {struct v} : EP.value :=
  match v, t with
  | Sem.VBool b, TBool => EP.VBool b
  | Sem.VInt z, TInt _ _ => EP.VInt z
  | Sem.VArr _, TArr _ _ => EP.VTuple []
  | Sem.VTup vs, TTup ts => EP.VTuple (tr_vals (tr_val P) vs ts)
  | Sem.VTup vs, TStruct name =>
      match assocN name (p_structs P) with
      | Some def => EP.VStruct name (tr_fvals (tr_val P) vs def)
      | None => EP.VTuple []
      end
  | Sem.VEnum tag vs, TEnum name =>
      match assocN name (p_enums P) with
      | Some variants =>
          match nthN variants tag with
          | Some ts => EP.VEnum name tag (tr_vals (tr_val P) vs ts)
          | None => EP.VTuple []
          end
      | None => EP.VTuple []
      end
  | _, _ => EP.VTuple []
  end.

(* ------------------------------------------------------------------ look-ups in the translated
   definitions *)

Lemma ep_assoc_map {A B} (h : A -> B) k (l : list (N * A)) :
  EP.assocN k (map (fun x => (fst x, h (snd x))) l) = option_map h (assocN k l).
Proof.
  induction l as [|[k0 a] l IH]; [reflexivity|]. cbn [map EP.assocN assocN fst snd].
  destruct (k =? k0); [reflexivity|exact IH].
Qed.

Lemma tr_env_struct P name : EP.assocN name (EP.structs (tr_env P)) = option_map tr_fields (assocN name (p_structs P)).
Proof. exact (ep_assoc_map tr_fields name (p_structs P)). Qed.

Lemma tr_env_enum P name :
  EP.assocN name (EP.enums (tr_env P)) = option_map (fun vs => tr_variants vs 0) (assocN name (p_enums P)).
Proof. exact (ep_assoc_map (fun vs => tr_variants vs 0) name (p_enums P)). Qed.

(* variant number j is found under the name j *)
Lemma tr_variants_assoc : forall vs k j ts, nth_error vs j = Some ts ->
  EP.assocN (k + N.of_nat j) (tr_variants vs k) = Some (tr_payload ts).
Proof.
  induction vs as [|ts0 vs IH]; intros k j ts Hj; [destruct j; discriminate Hj|].
  cbn [tr_variants EP.assocN]. destruct j as [|j]; cbn [nth_error] in Hj.
  - injection Hj as ->. replace (k + N.of_nat 0) with k by lia. now rewrite N.eqb_refl.
  - destruct (N.eqb_spec (k + N.of_nat (S j)) k) as [E|_]; [lia|].
    replace (k + N.of_nat (S j)) with (k + 1 + N.of_nat j) by lia. now apply IH.
Qed.

Lemma tr_variants_nth variants tag ts : nthN variants tag = Some ts ->
  EP.assocN tag (tr_variants variants 0) = Some (tr_payload ts).
Proof.
  rewrite nthN_spec. intro H. pose proof (tr_variants_assoc variants 0 (N.to_nat tag) ts H) as E.
  now rewrite N.add_0_l, N2Nat.id in E.
Qed.

(* ------------------------------------------------------------------ 2a. values stay typed *)

Lemma in_int_in_range sg b z : EP.in_int sg b z = Sem.in_range sg b z.
Proof.
  unfold EP.in_int, EP.int_lo, EP.int_hi, Sem.in_range. destruct sg.
  - f_equal. destruct (Z.leb_spec z (2 ^ (Z.of_N b - 1) - 1)); destruct (Z.ltb_spec z (2 ^ (Z.of_N b - 1))); try reflexivity; lia.
  - f_equal. destruct (Z.leb_spec z (2 ^ Z.of_N b - 1)); destruct (Z.ltb_spec z (2 ^ Z.of_N b)); try reflexivity; lia.
Qed.

Lemma forall2b_nil {A B} (h : A -> B -> bool) : EP.forall2b h (@nil A) (@nil B) = true.
Proof. reflexivity. Qed.

Section Typed.
  Variable P : program.
  Notation env := (tr_env P).

  Lemma tr_vals_typed ts vs ws :
    Forall3 (fun t v (_ : list bool) => EP.has_type env (tr_val P v t) (tr_ty t) = true) ts vs ws ->
    EP.forall2b (EP.has_type env) (tr_vals (tr_val P) vs ts) (map tr_ty ts) = true.
  Proof.
    induction 1 as [|t v w ts vs ws H _ IH]; [reflexivity|].
    cbn [tr_vals map]. now rewrite CoversProofs.forall2b_cons, H, IH.
  Qed.

  Theorem tr_val_typed : forall t v w, has_enc P t v w -> EP.has_type env (tr_val P v t) (tr_ty t) = true.
  Proof.
    apply has_enc_ind2.
    - reflexivity.
    - intros sg n z Hr. cbn [tr_val tr_ty EP.has_type]. now rewrite in_int_in_range.
    - reflexivity.
    - intros ts vs ws _ HQ. cbn [tr_val tr_ty EP.has_type]. exact (tr_vals_typed ts vs ws HQ).
    - intros name def vs ws Hd _ HQ. cbn [tr_val tr_ty]. rewrite Hd. cbn [EP.has_type].
      rewrite N.eqb_refl. rewrite tr_env_struct, Hd. cbn [option_map andb].
      apply (F3_map_l snd) in HQ. clear Hd. induction HQ as [|[f t] v w def vs ws H _ IH]; [reflexivity|].
      cbn [tr_fvals tr_fields map fst snd]. rewrite CoversProofs.forall2b_cons. cbv beta iota. cbn [snd] in H.
      rewrite N.eqb_refl, H. exact IH.
    - intros name variants tag ts vs ws Hd Ht _ HQ. cbn [tr_val tr_ty]. rewrite Hd, Ht. cbn [EP.has_type].
      rewrite N.eqb_refl. rewrite tr_env_enum, Hd. cbn [option_map andb].
      rewrite (tr_variants_nth variants tag ts Ht). destruct ts as [|t0 tr].
      + inversion HQ; subst. reflexivity.
      + cbn [tr_payload]. exact (tr_vals_typed _ vs ws HQ).
  Qed.
End Typed.

(* ------------------------------------------------------------------ 2b. the two meanings of
   patterns agree *)

Section Agree.
  Variable P : program.

  Lemma wilds_match {A} (ts : list A) : forall vals, length vals = length ts ->
    EP.forall2b EP.pat_matches (wilds ts) vals = true.
  Proof.
    induction ts as [|t ts IH]; intros [|v vals] H; cbn [length] in H; try discriminate; [reflexivity|].
    cbn [wilds map]. rewrite CoversProofs.forall2b_cons. cbn [EP.pat_matches andb]. apply IH. lia.
  Qed.

  Lemma tr_vals_length ts vs ws : Forall3 (has_enc P) ts vs ws -> length (tr_vals (tr_val P) vs ts) = length ts.
  Proof. induction 1; cbn [tr_vals length]; congruence. Qed.

  (* a field value by its name, in the translated struct value *)
  Lemma tr_fvals_assoc : forall def vs ws j fn fty, Forall3 (has_enc P) (map snd def) vs ws ->
    NoDup (map fst def) -> nth_error def j = Some (fn, fty) ->
    exists vj wj, nth_error vs j = Some vj /\ has_enc P fty vj wj /\
      EP.assocN fn (tr_fvals (tr_val P) vs def) = Some (tr_val P vj fty).
  Proof.
    induction def as [|[f0 t0] def IH]; intros vs ws j fn fty H3 Hnd Hj; [destruct j; discriminate Hj|].
    cbn [map snd fst] in H3, Hnd. inversion H3 as [|t v w ts vs' ws' Hv H3']; subst.
    inversion Hnd as [|x l Hnotin Hnd']; subst.
    destruct j as [|j]; cbn [nth_error] in Hj.
    - injection Hj as -> ->. exists v, w. cbn [tr_fvals EP.assocN]. rewrite N.eqb_refl. auto.
    - destruct (IH vs' ws' j fn fty H3' Hnd' Hj) as (vj & wj & H1 & H2 & H4).
      exists vj, wj. cbn [nth_error tr_fvals EP.assocN]. split; [exact H1|]. split; [exact H2|].
      destruct (N.eqb_spec fn f0) as [->|_]; [|exact H4].
      exfalso. apply Hnotin. apply nth_error_In in Hj. apply (in_map fst) in Hj. exact Hj.
  Qed.

  (* a declared field, as Sem.pmatch reaches it (by index) and as Pat.v does (by name) *)
  Lemma field_lookup def vs ws fn fty : Forall3 (has_enc P) (map snd def) vs ws ->
    NoDup (map fst def) -> In (fn, fty) def ->
    exists k vj wj, Sem.index_of fn (map fst def) 0 = Some k /\ nthN vs k = Some vj /\ has_enc P fty vj wj /\
      EP.assocN fn (tr_fvals (tr_val P) vs def) = Some (tr_val P vj fty).
  Proof.
    intros Hws Hnd Hin. destruct (In_nth_error _ _ Hin) as [j Hj].
    destruct (tr_fvals_assoc def vs ws j fn fty Hws Hnd Hj) as (vj & wj & Hvj & Hej & Has).
    exists (N.of_nat j), vj, wj. rewrite nthN_spec, Nat2N.id. repeat split; try assumption.
    rewrite (index_of_nth (map fst def) j fn 0 Hnd); [reflexivity|]. rewrite nth_error_map, Hj. reflexivity.
  Qed.

  Definition binds_enc (vbs : list (N * Sem.value)) (bs : list (N * ty)) : Prop :=
    Forall2 (fun b tb => fst b = fst tb /\ exists w, has_enc P (snd tb) (snd b) w) vbs bs.

  Definition agrees (o : option (list (N * Sem.value))) (m : bool) (bs : list (N * ty)) : Prop :=
    match o with Some vbs => m = true /\ binds_enc vbs bs | None => m = false end.

  Lemma agrees_test (c : bool) : agrees (if c then Some [] else None) c [].
  Proof. destruct c; [split; [reflexivity|constructor]|reflexivity]. Qed.

  Lemma agrees_app o1 o2 m1 m2 b1 b2 : agrees o1 m1 b1 -> agrees o2 m2 b2 ->
    agrees (match o1, o2 with Some a, Some b => Some (a ++ b) | _, _ => None end) (m1 && m2) (b1 ++ b2).
  Proof.
    destruct o1 as [a|]; [|intros -> _; reflexivity]. intros [-> H1].
    destruct o2 as [b|]; [|intros ->; reflexivity]. intros [-> H2]. split; [reflexivity|now apply Forall2_app].
  Qed.

  Definition agree_at (p : pattern) (t : ty) (bs : list (N * ty)) : Prop := forall v w, has_enc P t v w ->
    agrees (Sem.pmatch P p v) (EP.pat_matches (tr_pat P p) (tr_val P v t)) bs.

  Lemma pmatch_agree_mut :
    (forall p t bs, gpat_ok P p t bs -> agree_at p t bs) /\
    (forall ps ts bs, gpats_ok P ps ts bs -> forall vs ws, Forall3 (has_enc P) ts vs ws ->
       agrees (sem_match_list P ps vs)
              (EP.forall2b EP.pat_matches (map (tr_pat P) ps) (tr_vals (tr_val P) vs ts)) bs) /\
    (forall fs ds bs, gfields_ok P fs ds bs -> forall def vs ws,
       Forall3 (has_enc P) (map snd def) vs ws -> NoDup (map fst def) -> incl ds def ->
       agrees (sem_match_fields P def vs fs)
              (forallb (fun fp : N * EP.pattern => let '(f, p') := fp in
                          match EP.assocN f (tr_fvals (tr_val P) vs def) with
                          | Some v' => EP.pat_matches p' v' | None => false end) (tr_fpats P fs)) bs).
  Proof.
    apply gpat_ok_mutind.
    - (* identifier *) intros x m t v w Hv. rewrite pmatch_id. split; [reflexivity|].
      constructor; [|constructor]. cbn [fst snd]. eauto.
    - (* true *) intros m v w H. apply has_enc_inv in H as (b & -> & _).
      destruct b; [exact (agrees_test true)|exact (agrees_test false)].
    - (* false *) intros m v w H. apply has_enc_inv in H as (b & -> & _).
      destruct b; [exact (agrees_test false)|exact (agrees_test true)].
    - intros n m sg b _ v w H. apply has_enc_inv in H as (z & -> & _). apply agrees_test.
    - intros z0 m sg b _ v w H. apply has_enc_inv in H as (z & -> & _). apply agrees_test.
    - intros lo hi m sg b _ _ v w H. apply has_enc_inv in H as (z & -> & _). apply agrees_test.
    - intros lo hi m sg b _ _ v w H. apply has_enc_inv in H as (z & -> & _). apply agrees_test.
    - (* tuple *) intros ps m ts bs _ IH v w H. apply has_enc_inv in H as (vs & -> & Hs).
      apply has_encs_F3 in Hs as (ws & Hws & _). exact (IH vs ws Hws).
    - (* struct *) intros name ig fields m def bs Hd Hnd _ IH v w H.
      apply has_enc_inv in H as (def' & vs & -> & Hd' & Hs). assert (def' = def) as -> by congruence.
      apply has_encs_F3 in Hs as (ws & Hws & _).
      rewrite pmatch_struct, Hd, tr_pat_struct. cbn [tr_val]. rewrite Hd, CoversProofs.pm_struct, N.eqb_refl.
      exact (IH def vs ws Hws Hnd (incl_refl def)).
    - (* enum, unit pattern: the tag test *) intros ename variant m variants ts Hd Hv v w H.
      apply has_enc_inv in H as (variants' & tag & ts' & vs & pw & -> & Hd' & Ht' & Hs & _).
      assert (variants' = variants) as -> by congruence. apply has_encs_F3 in Hs as (ws & Hws & _).
      rewrite pmatch_enum_unit. cbn [tr_pat tr_val]. rewrite Hd, Hv, Ht'.
      replace (EP.pat_matches _ _) with (tag =? variant); [apply agrees_test|].
      destruct (N.eqb_spec tag variant) as [->|Hne].
      + assert (ts' = ts) as -> by congruence.
        destruct ts as [|t0 tr]; rewrite CoversProofs.pm_enum, !N.eqb_refl; [reflexivity|]. symmetry.
        apply wilds_match. exact (tr_vals_length _ vs ws Hws).
      + apply not_eq_sym, N.eqb_neq in Hne.
        destruct ts as [|t0 tr]; rewrite CoversProofs.pm_enum, Hne, andb_false_r; reflexivity.
    - (* enum, tuple pattern *) intros ename variant ps m variants ts bs Hd Hv Hps IH v w H.
      apply has_enc_inv in H as (variants' & tag & ts' & vs & pw & -> & Hd' & Ht' & Hs & _).
      assert (variants' = variants) as -> by congruence. apply has_encs_F3 in Hs as (ws & Hws & _).
      rewrite pmatch_enum_tup. cbn [tr_pat tr_val]. rewrite Hd, Ht'.
      destruct (N.eqb_spec tag variant) as [->|Hne].
      + assert (ts' = ts) as -> by congruence. specialize (IH vs ws Hws).
        destruct ps as [|p0 pr]; rewrite CoversProofs.pm_enum, !N.eqb_refl; [|exact IH].
        inversion Hps; subst. inversion Hws; subst. exact IH.
      + apply not_eq_sym, N.eqb_neq in Hne.
        destruct ps as [|p0 pr]; rewrite CoversProofs.pm_enum, Hne, andb_false_r; reflexivity.
    - (* no patterns *) intros vs ws H. inversion H; subst. split; [reflexivity|constructor].
    - (* a pattern *) intros p t ps ts b bs _ _ IH1 _ IH2 vs ws H.
      inversion H as [|t' v w ts' vs' ws' Hv H']; subst.
      cbn [map tr_vals]. rewrite CoversProofs.forall2b_cons. exact (agrees_app _ _ _ _ _ _ (IH1 v w Hv) (IH2 vs' ws' H')).
    - intros def vs ws _ _ _. split; [reflexivity|constructor].
    - intros fn fp fr fty r b bs _ IH1 _ IH2 def vs ws Hws Hnd Hincl.
      destruct (field_lookup def vs ws fn fty Hws Hnd (Hincl _ (or_introl eq_refl)))
        as (k & vj & wj & Hk & Hvj & Hej & Has).
      cbn [tr_fpats forallb sem_match_fields]. rewrite Has, Hk, Hvj.
      exact (agrees_app _ _ _ _ _ _ (IH1 vj wj Hej) (IH2 def vs ws Hws Hnd (fun x Hx => Hincl x (or_intror Hx)))).
    - intros fs fn fty r bs _ _ IH def vs ws Hws Hnd Hincl.
      exact (IH def vs ws Hws Hnd (fun x Hx => Hincl x (or_intror Hx))).
  Qed.

  Theorem match_agree p t bs v w : gpat_ok P p t bs -> has_enc P t v w ->
    (Sem.pmatch P p v <> None <-> EP.pat_matches (tr_pat P p) (tr_val P v t) = true).
  Proof.
    intros Hp Hv. pose proof (proj1 pmatch_agree_mut p t bs Hp v w Hv) as H.
    destruct (Sem.pmatch P p v); cbn [agrees] in H; [split; [intros _; apply H|discriminate]|].
    rewrite H. split; [congruence|discriminate].
  Qed.

  Lemma pmatch_enc p t bs v w vbs : gpat_ok P p t bs -> has_enc P t v w ->
    Sem.pmatch P p v = Some vbs -> binds_enc vbs bs.
  Proof. intros Hp Hv E. pose proof (proj1 pmatch_agree_mut p t bs Hp v w Hv) as H. rewrite E in H. apply H. Qed.
End Agree.

(* ------------------------------------------------------------------ 3. the check of one match *)

(* the depth to which type definitions are unfolded (types within [ty_fits] unfold within it) *)
Definition exh_depth : nat := Sem.ty_fuel.

Definition is_some {A} (o : option A) : bool := match o with Some _ => true | None => false end.

(* [ps] cover every value of [t]: the patterns are typed at t by the strict checker ([gpat_b]);
   the real algorithm (Exhaust/Useful.v), run with its proved fuel bound, reports no missing
   case; the side conditions of its correctness theorem hold (definitions with distinct names,
   the type is closed and non-recursive, the translated patterns are well typed); the type is
   within the depth [Sem.encode] handles ([ty_fits_b]) *)
Definition exh_pats (P : program) (t : ty) (ps : list pattern) : bool :=
  let env := tr_env P in
  let t' := tr_ty t in
  let ps' := map (tr_pat P) ps in
  ty_fits_b P t && forallb (fun p => is_some (gpat_b P false p t)) ps &&
  EUP.env_wf env && EUP.tok env exh_depth t' && forallb (EP.pat_wt env t') ps' &&
  match EU.check_exhaustive (EU.fuel_bound env exh_depth [t']) env t' ps' with
  | Some [] => true
  | _ => false
  end.

Theorem exh_pats_sound P t ps v w : exh_pats P t ps = true -> has_enc P t v w ->
  exists p, In p ps /\ Sem.pmatch P p v <> None.
Proof.
  unfold exh_pats. cbv zeta. intros H Hv.
  apply andb_prop in H as [H Hc]. apply andb_prop in H as [H Hwt]. apply andb_prop in H as [H Htok].
  apply andb_prop in H as [H Hwf]. apply andb_prop in H as [_ Hg].
  destruct (EU.check_exhaustive _ (tr_env P) (tr_ty t) (map (tr_pat P) ps)) as [[|? ?]|] eqn:Ec; try discriminate Hc.
  rewrite forallb_forall in Hwt.
  pose proof (proj1 (EUP.useful_iff_covers (tr_env P) exh_depth (tr_ty t) (map (tr_pat P) ps) Hwf Htok Hwt _ (le_n _)) Ec
                (tr_val P v t) (tr_val_typed P t v w Hv)) as (p' & Hin & Hm).
  apply in_map_iff in Hin as (p & <- & Hp). exists p. split; [exact Hp|].
  rewrite forallb_forall in Hg. specialize (Hg p Hp).
  destruct (gpat_b P false p t) as [bs|] eqn:Eg; [|discriminate Hg].
  apply (match_agree P p t bs v w (gpat_b_sound P p t bs Eg) Hv). exact Hm.
Qed.

Lemma exh_pats_fits P t ps : exh_pats P t ps = true -> ty_fits P t.
Proof.
  unfold exh_pats. cbv zeta. intro H. repeat (apply andb_prop in H as [H _]). exact H.
Qed.

(* the same on values given by their shape and ranges *)
Corollary exh_pats_sound_ty P t ps v : exh_pats P t ps = true ->
  has_ty P v t = true -> in_rng P v t = true -> exists p, In p ps /\ Sem.pmatch P p v <> None.
Proof.
  intros H Ht Hr. destruct (has_enc_total P t v (exh_pats_fits P t ps H) Ht Hr) as [w Hw].
  exact (exh_pats_sound P t ps v w H Hw).
Qed.

(* the arms of a match: Sem.v takes the first one that matches, so the match is not stuck *)
Lemma sem_arms_first P f v en : forall arms,
  (exists arm, In arm arms /\ Sem.pmatch P (fst arm) v <> None) ->
  exists pre p body post bs, arms = pre ++ (p, body) :: post /\
    Forall (fun a => Sem.pmatch P (fst a) v = None) pre /\ Sem.pmatch P p v = Some bs /\
    sem_arms P f v en arms =
      Sem.obind (Sem.eval f P (Sem.bind_all (Sem.push_scope en) bs) body)
        (fun '(res, en1) => Sem.Done (res, Sem.pop_scope en1)).
Proof.
  induction arms as [|[p body] arms IH]; intros (arm & Hin & Hm); [contradiction|].
  change (sem_arms P f v en ((p, body) :: arms)) with
    (match Sem.pmatch P p v with
     | Some bs => Sem.obind (Sem.eval f P (Sem.bind_all (Sem.push_scope en) bs) body)
                    (fun '(res, en1) => Sem.Done (res, Sem.pop_scope en1))
     | None => sem_arms P f v en arms end).
  destruct (Sem.pmatch P p v) as [bs|] eqn:Ep.
  - exists [], p, body, arms, bs. repeat split; auto.
  - destruct Hin as [<-|Hin]; [cbn [fst] in Hm; congruence|].
    destruct (IH (ex_intro _ arm (conj Hin Hm))) as (pre & p' & body' & post & bs & -> & Hpre & Hp' & E).
    exists ((p, body) :: pre), p', body', post, bs. split; [reflexivity|]. split; [constructor; [exact Ep|exact Hpre]|]. auto.
Qed.

(* THE SITE THEOREM: an exhaustive match on a value of the scrutinee's type evaluates the body of
   an arm -- `Stuck 41` can only come out of that body *)
Theorem exh_match_not_stuck P f v w en scrut_ty arms :
  exh_pats P scrut_ty (map fst arms) = true -> has_enc P scrut_ty v w ->
  exists p body bs, In (p, body) arms /\ Sem.pmatch P p v = Some bs /\
    sem_arms P f v en arms =
      Sem.obind (Sem.eval f P (Sem.bind_all (Sem.push_scope en) bs) body)
        (fun '(res, en1) => Sem.Done (res, Sem.pop_scope en1)).
Proof.
  intros He Hv. destruct (exh_pats_sound P scrut_ty (map fst arms) v w He Hv) as (p & Hin & Hm).
  apply in_map_iff in Hin as (arm & <- & Hin).
  destruct (sem_arms_first P f v en arms (ex_intro _ arm (conj Hin Hm))) as (pre & p' & body & post & bs & -> & _ & Hp & E).
  exists p', body, bs. split; [apply in_or_app; right; now left|]. auto.
Qed.

(* one pattern that must always match (let / for / join loop) *)
Corollary exh_irrefutable P t p v w : exh_pats P t [p] = true -> has_enc P t v w ->
  exists bs, Sem.pmatch P p v = Some bs.
Proof.
  intros He Hv. destruct (exh_pats_sound P t [p] v w He Hv) as (p' & [<-|[]] & Hm).
  destruct (Sem.pmatch P p v) as [bs|]; [eauto|congruence].
Qed.

(* ------------------------------------------------------------------ the walk over a program *)

Fixpoint exh_expr (P : program) (e : expr) {struct e} : bool :=
  match e with
  | Ex ei _ t =>
    match ei with
    | ETrue | EFalse | ENumU _ _ | ENumS _ _ | EId _ | ERange _ _ _ => true
    | EArrLit es | ETupLit es | EEnumLit _ _ es | ECall _ es => forallb (exh_expr P) es
    | EArrRep e1 _ | ETupAcc e1 _ | EFld e1 _ | ENeg e1 | ENot e1 | ECast _ e1 => exh_expr P e1
    | EIdx a i => exh_expr P a && exh_expr P i
    | EStructLit _ fields => forallb (fun fe => exh_expr P (snd fe)) fields
    | EMatch s arms =>
        exh_expr P s && exh_pats P (e_ty s) (map fst arms) && forallb (fun arm => exh_expr P (snd arm)) arms
    | EOp _ x y => exh_expr P x && exh_expr P y
    | EBlock b => forallb (exh_stmt P) b
    | EJoin _ _ a b => exh_expr P a && exh_expr P b
    | EIf c a b => exh_expr P c && exh_expr P a && exh_expr P b
    end
  end
with exh_stmt (P : program) (s : stmt) {struct s} : bool :=
  match s with
  | St si _ =>
    match si with
    | SLet p e => exh_pats P (e_ty e) [p] && exh_expr P e
    | SLetMut _ e => exh_expr P e
    | SAssign _ accs e => forallb (exh_acc P) accs && exh_expr P e
    | SFor p arr body =>
        match e_ty arr with TArr el _ => exh_pats P el [p] | _ => false end
        && exh_expr P arr && forallb (exh_stmt P) body
    | SJoinLoop p _ a b body =>
        match e_ty a, e_ty b with
        | TArr ta _, TArr tb _ => exh_pats P (TTup [ta; tb]) [p]
        | _, _ => false
        end && exh_expr P a && exh_expr P b && forallb (exh_stmt P) body
    | SExpr e => exh_expr P e
    end
  end
with exh_acc (P : program) (a : accessor) {struct a} : bool :=
  match a with
  | AIdx _ i => exh_expr P i
  | ATup _ _ | AFld _ _ => true
  end.

Definition exh_fns (P : program) : bool :=
  forallb (fun d => forallb (exh_stmt P) (fn_body d)) (p_fns P).

Print Assumptions tr_val_typed.
Print Assumptions match_agree.
Print Assumptions exh_pats_sound.
Print Assumptions exh_match_not_stuck.
