(* C15, builder / build layer: STRUCTURAL theorems about the executable models
   Builder.v (CircuitBuilder) and Build.v (remove_unused_gates + build).

   Part A  push_not never recurses;
   Part B  the structural invariant [sinv] (no constant / repeated AND operand, XOR shape,
           cache keys, AND uniqueness with dedup) is preserved by every primitive step
           ([xstep], [astep] of BuilderProofs.v: final_xor, the double push of the
           (a&b)^(a&c) rewrite, push_gate(And)), hence holds for every reachable builder;
   Part C  [build]: converse of the marking pass (a gate is kept only if it reaches a root);
   Part D  the theorems stated in Props/C15.v, through the injective renumbering;
   Part E  AND-gate counting;
   Part F  the folding facts at request level, symmetry of [negated] ([ninv]), double negation. *)
From GV Require Import Base.Util Base.NMap Circuit.Ssa Circuit.SsaProofs
  Builder.Builder Builder.Build Builder.BuilderSem Builder.BuilderSpec Builder.BuilderProofs
  Builder.BuildProofs Builder.Requests Builder.StructSpec.

Local Notation gops := BuilderProofs.gops.

(* ================================================================== Part A: push_not *)

Lemma lookup_one b : inv b -> lookup b 1 = Ok None.
Proof.
  intro I. pose proof (inv_shift b I). unfold lookup.
  destruct (N.ltb_spec 1 (b_shift b)); [reflexivity|lia].
Qed.

Lemma neg_one_none b : inv b -> nfind 1 (b_neg b) = None.
Proof.
  intro I. destruct (nfind 1 (b_neg b)) as [n|] eqn:E; [|reflexivity].
  destruct (inv_neg b I _ _ E) as (H & _). lia.
Qed.

(* the constant true is neither a gate nor a key of [negated], so push_not never recurses *)
Lemma push_not_cases b x :
  inv b -> valid b x ->
  (exists w, push_not b x = Ok (w, b) /\
     (optimize_xor b x 1 = Some w \/
      lookup b x = Ok (Some (BXor 1 w)) \/ lookup b x = Ok (Some (BXor w 1)))) \/
  (optimize_xor b x 1 = None /\ push_not b x = Ok (final_xor b x 1)).
Proof.
  intros I Hx. unfold push_not.
  pose proof (push_xor_top_ok b x 1) as T. unfold small_fuel in T. rewrite push_xor_S in T.
  destruct (optimize_xor b x 1) as [w|] eqn:Eo; [left; eauto|].
  destruct (lookup_ok b x I Hx) as [gx Lx]. rewrite Lx, (lookup_one b I) in T. cbn [bind] in T.
  unfold xstage1, xstage2, xstage3 in T. rewrite (neg_one_none b I) in T.
  destruct gx as [[x1 x2|x1 x2]|]; auto.
  destruct (N.eqb_spec x1 1) as [E|_]; [rewrite E in Lx; left; eauto 6|].
  destruct (N.eqb_spec x2 1) as [E|_]; [rewrite E in Lx; left; eauto 6|]. auto.
Qed.

(* ================================================================== Part B: the invariant *)

(* what is true of every gate the builder ever stores *)
Record sinv (b : builder) : Prop := {
  (* an AND never has a constant operand nor the same wire twice *)
  s_and : forall i x y, nthN (glist b) i = Some (BAnd x y) -> 2 <= x /\ 2 <= y /\ x <> y;
  (* an XOR never has the constant 0 as operand; the constant 1 only as "NOT" (the other
     operand is then a proper wire); the same wire twice only without de-duplication *)
  s_xor : forall i x y, nthN (glist b) i = Some (BXor x y) ->
          x <> 0 /\ y <> 0 /\ (x = y -> b_dedup b = false /\ 2 <= x);
  (* with de-duplication every stored AND is a key of the cache *)
  s_key : b_dedup b = true -> forall i x y, nthN (glist b) i = Some (BAnd x y) ->
          exists w, cache_get (b_cand b) x y = Some w;
  (* with de-duplication no two ANDs have the same unordered operand pair *)
  s_uniq : b_dedup b = true -> forall i j x y x' y',
          nthN (glist b) i = Some (BAnd x y) -> nthN (glist b) j = Some (BAnd x' y') ->
          same_pair x y x' y' -> i = j
}.

Lemma push_gate_glist b g : glist (snd (push_gate b g)) = glist b ++ [g].
Proof. reflexivity. Qed.

Lemma push_gate_dedup b g : b_dedup (snd (push_gate b g)) = b_dedup b.
Proof. reflexivity. Qed.

Lemma push_gate_shift b g : b_shift (snd (push_gate b g)) = b_shift b.
Proof. reflexivity. Qed.

Lemma push_gate_neg b g : b_neg (snd (push_gate b g)) = b_neg b.
Proof. reflexivity. Qed.

Lemma push_gate_cand b g :
  b_cand (snd (push_gate b g)) =
  if b_dedup b then match g with BAnd x y => cache_put (b_cand b) x y (counter b) | _ => b_cand b end
  else b_cand b.
Proof. reflexivity. Qed.

Lemma push_gate_cxor b g :
  b_cxor (snd (push_gate b g)) =
  if b_dedup b then match g with BXor x y => cache_put (b_cxor b) x y (counter b) | _ => b_cxor b end
  else b_cxor b.
Proof. reflexivity. Qed.

Lemma sinv_fields b b' :
  glist b' = glist b -> b_dedup b' = b_dedup b -> b_cand b' = b_cand b -> sinv b -> sinv b'.
Proof.
  intros Eg Ed Ec [A X K U]. constructor; rewrite ?Eg, ?Ed, ?Ec; assumption.
Qed.

Definition new_gate_ok (b : builder) (g : bgate) : Prop :=
  match g with
  | BAnd x y => 2 <= x /\ 2 <= y /\ x <> y /\
      (b_dedup b = true -> forall i x' y', nthN (glist b) i = Some (BAnd x' y') -> ~ same_pair x y x' y')
  | BXor x y => x <> 0 /\ y <> 0 /\ (x = y -> b_dedup b = false /\ 2 <= x)
  end.

Lemma sinv_push b g : sinv b -> new_gate_ok b g -> sinv (snd (push_gate b g)).
Proof.
  intros [A X K U] Hg. constructor; rewrite ?push_gate_glist, ?push_gate_dedup, ?push_gate_cand.
  - intros i x y H. destruct (nthN_snoc _ _ _ _ H) as [H0|[_ Eg]]; [eauto|].
    subst g. cbn [new_gate_ok] in Hg. tauto.
  - intros i x y H. destruct (nthN_snoc _ _ _ _ H) as [H0|[_ Eg]]; [eauto|].
    subst g. cbn [new_gate_ok] in Hg. tauto.
  - intros Hd i x y H. rewrite Hd. destruct (nthN_snoc _ _ _ _ H) as [H0|[_ Eg]]; [|subst g].
    + destruct (K Hd _ _ _ H0) as [w Hw]. destruct g as [p q|p q]; [eauto|].
      rewrite cache_get_put. destruct ((p =? x) && (q =? y)); eauto.
    + rewrite cache_get_put, !N.eqb_refl. cbn [andb]. eauto.
  - intros Hd i j x y x' y' Hi Hj Hs.
    destruct (nthN_snoc _ _ _ _ Hi) as [Hi0|[Ei Eg]]; destruct (nthN_snoc _ _ _ _ Hj) as [Hj0|[Ej Eg']].
    + eauto.
    + subst g. cbn [new_gate_ok] in Hg. destruct Hg as (_ & _ & _ & Hn). exfalso.
      apply (Hn Hd _ _ _ Hi0). unfold same_pair in *. intuition congruence.
    + subst g. cbn [new_gate_ok] in Hg. destruct Hg as (_ & _ & _ & Hn). exfalso.
      apply (Hn Hd _ _ _ Hj0). exact Hs.
    + congruence.
Qed.

Lemma final_xor_snd b x y :
  snd (final_xor b x y) =
  let b1 := snd (push_gate b (BXor x y)) in
  let gi := counter b in
  let b2 := if x =? 1 then set_negated (set_negated b1 y gi) gi y else b1 in
  if y =? 1 then set_negated (set_negated b2 x gi) gi x else b2.
Proof. reflexivity. Qed.

Lemma final_xor_fields b x y :
  let b' := snd (final_xor b x y) in
  glist b' = glist b ++ [BXor x y] /\ b_dedup b' = b_dedup b /\
  b_cand b' = b_cand (snd (push_gate b (BXor x y))).
Proof. rewrite final_xor_snd. cbn zeta. destruct (x =? 1), (y =? 1); repeat split. Qed.

Lemma sinv_final_xor b x y :
  sinv b -> optimize_xor b x y = None -> sinv (snd (final_xor b x y)).
Proof.
  intros S Eo. destruct (optimize_xor_none _ _ _ Eo) as (Hx0 & Hy0 & Hxy).
  destruct (final_xor_fields b x y) as (Eg & Ed & Ec).
  apply (sinv_fields (snd (push_gate b (BXor x y)))); [exact Eg|exact Ed|exact Ec|].
  apply sinv_push; [exact S|]. cbn [new_gate_ok]. repeat split; auto; contradiction.
Qed.

Lemma optimize_and_none b x y :
  optimize_and b x y = None -> 2 <= x /\ 2 <= y /\ x <> y /\ get_cached b (BAnd x y) = None.
Proof.
  unfold optimize_and.
  destruct (N.eqb_spec x 0); cbn [orb]; [discriminate|].
  destruct (N.eqb_spec y 0); cbn [orb]; [discriminate|].
  destruct (N.eqb_spec x 1); [discriminate|].
  destruct (N.eqb_spec y 1); cbn [orb]; [discriminate|].
  destruct (N.eqb_spec x y); [discriminate|].
  intro H. assert (Hc : get_cached b (BAnd x y) = None).
  { destruct (nfind x (b_neg b)) as [xn|].
    - destruct (xn =? y); [discriminate|exact H].
    - destruct (nfind y (b_neg b)) as [yn|]; [|exact H].
      destruct (yn =? x); [discriminate|exact H]. }
  repeat split; auto; lia.
Qed.

Lemma find_common_cases x1 x2 y1 y2 a1 a2 b2 :
  find_common (arrangements x1 x2 y1 y2) = Some (a1, a2, b2) ->
  (a1 = x1 /\ a2 = x2 /\ x1 = y1 /\ b2 = y2) \/ (a1 = x1 /\ a2 = x2 /\ x1 = y2 /\ b2 = y1) \/
  (a1 = x2 /\ a2 = x1 /\ x2 = y1 /\ b2 = y2) \/ (a1 = x2 /\ a2 = x1 /\ x2 = y2 /\ b2 = y1).
Proof.
  unfold arrangements. cbn [find_common].
  destruct (N.eqb_spec x1 y1); [intros [= <- <- <-]; tauto|].
  destruct (N.eqb_spec x1 y2); [intros [= <- <- <-]; tauto|].
  destruct (N.eqb_spec x2 y1); [intros [= <- <- <-]; tauto|].
  destruct (N.eqb_spec x2 y2); [intros [= <- <- <-]; tauto|discriminate].
Qed.

Lemma sinv_xstep b b' : inv b -> sinv b -> xstep b b' -> sinv b'.
Proof.
  intros I S [x y Eo Hx Hy|x y x1 x2 y1 y2 a1 a2 b2 Hxy Hx Hy Lx Ly Ef].
  - now apply sinv_final_xor.
  - destruct (lookup_gate _ _ _ I Lx) as [Sx Gx]. destruct (lookup_gate _ _ _ I Ly) as [Sy Gy].
    destruct (s_and b S _ _ _ Gx) as (X1 & X2 & X12). destruct (s_and b S _ _ _ Gy) as (Y1 & Y2 & Y12).
    pose proof (gate_operands b x _ I Sx Gx) as Ox. cbn [BuilderProofs.gops] in Ox.
    assert (Ha : 2 <= a1 /\ 2 <= a2 /\ 2 <= b2 /\ a1 < x /\
                 (a2 = b2 -> same_pair x1 x2 y1 y2)).
    { destruct (find_common_cases _ _ _ _ _ _ _ Ef) as [H|[H|[H|H]]];
        destruct H as (-> & -> & E & ->); unfold same_pair; repeat split; try lia; intro; subst; tauto. }
    destruct Ha as (A1 & A2 & B2 & A1x & Hsame).
    assert (S1 : sinv (snd (push_gate b (BXor a2 b2)))).
    { apply sinv_push; [exact S|]. cbn [new_gate_ok]. split; [lia|]. split; [lia|].
      intro E. split; [|lia]. destruct (b_dedup b) eqn:Hd; [exfalso|reflexivity].
      pose proof (s_uniq b S Hd _ _ _ _ _ _ Gx Gy (Hsame E)) as Epos. apply Hxy. lia. }
    apply sinv_push; [exact S1|]. cbn [new_gate_ok].
    pose proof (inv_shift b I) as Hs.
    assert (Hxc : x < counter b) by exact Hx.
    split; [lia|]. split; [unfold counter; lia|]. split; [lia|].
    intros _ i x' y' Hi. rewrite push_gate_glist in Hi.
    destruct (nthN_snoc _ _ _ _ Hi) as [Hi0|[_ Hg]]; [|discriminate].
    pose proof (inv_wf b I _ _ Hi0) as W. cbn [BuilderProofs.gops] in W.
    pose proof (nthN_lt _ _ _ Hi0) as Hlt. rewrite (glist_len b I) in Hlt.
    unfold same_pair, counter. lia.
Qed.

Lemma sinv_astep b b' : inv b -> sinv b -> astep b b' -> sinv b'.
Proof.
  intros I S [x y Eo Hx Hy|b'' Hs]; [|now apply (sinv_xstep b)].
  destruct (optimize_and_none _ _ _ Eo) as (X2 & Y2 & Hxy & Hc).
  apply sinv_push; [exact S|]. cbn [new_gate_ok]. repeat split; auto.
  intros Hd i x' y' Hi Hs. destruct (s_key b S Hd _ _ _ Hi) as [w Hw].
  unfold get_cached in Hc. rewrite Hd in Hc. cbn [negb] in Hc.
  destruct Hs as [[-> ->]|[-> ->]].
  - rewrite Hw in Hc. discriminate.
  - destruct (cache_get (b_cand b) y' x'); [discriminate|]. rewrite Hw in Hc. discriminate.
Qed.

Lemma sinv_new dedup inputs : sinv (new_builder dedup inputs).
Proof.
  constructor; unfold glist, new_builder; cbn [b_gates_rev rev]; intros;
    match goal with H : nthN [] _ = Some _ |- _ => apply nthN_lt in H; rewrite lenN_nil in H; lia end.
Qed.

(* ---------------------------------------------------------------- requests as step sequences *)

Lemma band_count_glist b : band_count b = lenN (filter is_band (glist b)).
Proof. reflexivity. Qed.

Lemma band_count_snoc l g :
  lenN (filter is_band (l ++ [g])) = lenN (filter is_band l) + (if is_band g then 1 else 0).
Proof.
  rewrite filter_app, lenN_app. cbn [filter]. destruct (is_band g); rewrite ?lenN_cons, lenN_nil; lia.
Qed.

Lemma band_count_push b g :
  band_count (snd (push_gate b g)) = band_count b + (if is_band g then 1 else 0).
Proof. rewrite !band_count_glist, push_gate_glist. apply band_count_snoc. Qed.

Lemma band_count_final_xor b x y : band_count (snd (final_xor b x y)) = band_count b.
Proof.
  destruct (final_xor_fields b x y) as (Eg & _). rewrite !band_count_glist, Eg, band_count_snoc.
  cbn [is_band]. lia.
Qed.

Lemma band_count_pos b i x y : nthN (glist b) i = Some (BAnd x y) -> 0 < band_count b.
Proof.
  intro H. rewrite band_count_glist. rewrite nthN_spec in H. apply nth_error_In in H.
  assert (Hin : In (BAnd x y) (filter is_band (glist b))) by (apply filter_In; auto).
  destruct (filter is_band (glist b)); [destruct Hin|]. rewrite lenN_cons. lia.
Qed.

Lemma band_xstep b b' : xstep b b' -> band_count b' <= band_count b + 1.
Proof.
  intros [x y _ _ _|x y x1 x2 y1 y2 a1 a2 b2 _ _ _ _ _ _].
  - rewrite band_count_final_xor. lia.
  - rewrite !band_count_push. cbn [is_band]. lia.
Qed.

(* an XOR adds an AND only when two AND gates are already there *)
Lemma band_xstep_zero b b' : inv b -> band_count b = 0 -> xstep b b' -> band_count b' = 0.
Proof.
  intros I Hz [x y _ _ _|x y x1 x2 y1 y2 a1 a2 b2 _ _ _ Lx _ _].
  - now rewrite band_count_final_xor.
  - destruct (lookup_gate _ _ _ I Lx) as [_ Gx]. pose proof (band_count_pos _ _ _ _ Gx). lia.
Qed.

Lemma band_astep b b' : astep b b' -> band_count b' <= band_count b + 1.
Proof.
  intros [x y _ _ _|b'' Hs]; [|now apply band_xstep].
  rewrite band_count_push. cbn [is_band]. lia.
Qed.

Definition apres (J : builder -> Prop) : Prop := forall b b', inv b -> J b -> astep b b' -> J b'.

Definition steps (n : nat) (b b' : builder) : Prop :=
  (forall J, apres J -> J b -> J b') /\ band_count b' <= band_count b + N.of_nat n.

Lemma steps_refl n b : steps n b b.
Proof. split; [auto|lia]. Qed.

Lemma steps_astep b b' : inv b -> astep b b' -> steps 1 b b'.
Proof. intros I A. split; [intros J HJ Jb; exact (HJ b b' I Jb A)|now apply band_astep]. Qed.

(* the plain path of push_xor: one XOR gate (possibly a NOT), never an AND *)
Lemma steps_final b x y :
  inv b -> optimize_xor b x y = None -> valid b x -> valid b y -> steps 0 b (snd (final_xor b x y)).
Proof.
  intros I Eo Hx Hy. split; [|rewrite band_count_final_xor; lia].
  intros J HJ Jb. apply (HJ b _ I Jb), as_xor. now apply xs_final.
Qed.

Lemma steps_trans n m b b1 b2 : steps n b b1 -> steps m b1 b2 -> steps (n + m) b b2.
Proof. intros [J1 B1] [J2 B2]. split; [|lia]. intros J HJ Jb. exact (J2 J HJ (J1 J HJ Jb)). Qed.

Definition req_post (n : nat) (b : builder) (p : N * builder) : Prop :=
  let '(w, b') := p in steps n b b' /\ inv b' /\ ext b b' /\ valid b' w.

Lemma xor_req_post b x y r b' :
  inv b -> valid b x -> valid b y -> push_xor_top b x y = Ok (r, b') -> req_post 1 b (r, b').
Proof.
  intros I Hx Hy E. destruct (push_xor_top_sound b x y I Hx Hy) as (r0 & b0 & E0 & I' & Ex & Vr & _).
  rewrite E in E0. injection E0 as <- <-. cbn [req_post]. split; [|auto].
  destruct (push_xor_top_step _ _ _ _ _ I Hx Hy E) as [->|S]; [apply steps_refl|].
  now apply steps_astep, as_xor.
Qed.

Lemma not_req_post b x r b' :
  inv b -> valid b x -> push_not b x = Ok (r, b') -> req_post 0 b (r, b').
Proof.
  intros I Hx E. destruct (push_not_sound b x I Hx) as (r0 & b0 & E0 & I' & Ex & Vr & _).
  rewrite E in E0. injection E0 as <- <-. cbn [req_post]. split; [|auto].
  destruct (push_not_cases b x I Hx) as [(w & E1 & _)|(Eo & E1)]; rewrite E1 in E.
  - injection E as _ <-. apply steps_refl.
  - assert (E' : final_xor b x 1 = (r, b')) by congruence.
    replace b' with (snd (final_xor b x 1)) by now rewrite E'.
    apply steps_final; [exact I|exact Eo|exact Hx|apply (valid_consts b I)].
Qed.

Lemma and_req_post b x y r b' :
  inv b -> valid b x -> valid b y -> push_and_top b x y = Ok (r, b') -> req_post 1 b (r, b').
Proof.
  intros I Hx Hy E. destruct (push_and_top_sound b x y I Hx Hy) as (r0 & b0 & E0 & I' & Ex & Vr & _).
  rewrite E in E0. injection E0 as <- <-. cbn [req_post]. split; [|auto].
  destruct (push_and_top_step _ _ _ _ _ I Hx Hy E) as [->|S]; [apply steps_refl|].
  now apply steps_astep.
Qed.

(* the postconditions of two requests in sequence add up *)
Lemma req_post_bind n m b (c : res (N * builder)) (k : N * builder -> res (N * builder)) p :
  (forall q, c = Ok q -> req_post n b q) ->
  (forall w b1, inv b1 -> ext b b1 -> valid b1 w -> k (w, b1) = Ok p -> req_post m b1 p) ->
  bind c k = Ok p -> req_post (n + m) b p.
Proof.
  intros Hc Hk. destruct c as [[w b1]| |]; cbn [bind]; try discriminate.
  destruct (Hc _ eq_refl) as (S1 & I1 & X1 & V1). intro E. destruct p as [r b2].
  destruct (Hk w b1 I1 X1 V1 E) as (S2 & I2 & X2 & V2).
  split; [eapply steps_trans; eauto|]. split; [exact I2|]. split; [eapply ext_trans; eauto|exact V2].
Qed.

Lemma or_req_post b x y r b' :
  inv b -> valid b x -> valid b y -> push_or b x y = Ok (r, b') -> req_post 3 b (r, b').
Proof.
  intros I Hx Hy. unfold push_or. apply (req_post_bind 1 2).
  { intros [xo b1]. now apply xor_req_post. }
  intros xo b1 I1 X1 V1. apply (req_post_bind 1 1).
  { intros [an b2]. apply and_req_post; eauto using ext_valid. }
  intros an b2 I2 X2 V2. apply xor_req_post; eauto using ext_valid.
Qed.

Lemma eq_req_post b x y r b' :
  inv b -> valid b x -> valid b y -> push_eq b x y = Ok (r, b') -> req_post 1 b (r, b').
Proof.
  intros I Hx Hy. unfold push_eq. apply (req_post_bind 1 0).
  { intros [xo b1]. now apply xor_req_post. }
  intros xo b1 I1 X1 V1. now apply not_req_post.
Qed.

Lemma mux_req_post b s x0 x1 r b' :
  inv b -> valid b s -> valid b x0 -> valid b x1 -> push_mux b s x0 x1 = Ok (r, b') -> req_post 3 b (r, b').
Proof.
  intros I Hs H0 H1. unfold push_mux.
  destruct (x0 =? x1).
  { intros [= <- <-]. cbn [req_post]. split; [apply steps_refl|]. split; [exact I|]. split; [apply ext_refl|exact H0]. }
  apply (req_post_bind 1 2).
  { intros [d b1]. now apply xor_req_post. }
  intros d b1 I1 X1 V1. apply (req_post_bind 0 2).
  { intros [ns b2]. apply not_req_post; eauto using ext_valid. }
  intros ns b2 I2 X2 V2. apply (req_post_bind 1 1).
  { intros [sw b3]. apply and_req_post; eauto using ext_valid. }
  intros sw b3 I3 X3 V3. apply xor_req_post; eauto 6 using ext_valid.
Qed.

(* ---- request sequences (the language of Requests.v) ---- *)

Lemma resolve_valid b hs o w :
  valids b hs -> opnd_ok (b_shift b) o -> resolve hs o = Some w -> valid b w.
Proof.
  intros Hh Ho. destruct o as [w0|k]; cbn [resolve opnd_ok] in *.
  - intros [= <-]. unfold valid, counter. lia.
  - intro Hk. apply nth_error_In in Hk. unfold valids in Hh. rewrite Forall_forall in Hh. auto.
Qed.

Lemma run_req_post b hs r w b' :
  inv b -> valids b hs -> req_ok (b_shift b) r -> run_req b hs r = Ok (w, b') ->
  req_post (req_cost r) b (w, b').
Proof.
  intros I Hh. pose proof (resolve_valid b hs) as RV.
  destruct (run_req_view b hs r) as [x y a c|x y a c|x y a c|x y a c|x a|s x y ws a c|r];
    cbn [req_ok req_cost]; intros Hr E; [..|discriminate].
  - destruct Hr. refine (xor_req_post _ _ _ _ _ I _ _ E); eauto.
  - destruct Hr. refine (and_req_post _ _ _ _ _ I _ _ E); eauto.
  - destruct Hr. refine (or_req_post _ _ _ _ _ I _ _ E); eauto.
  - destruct Hr. refine (eq_req_post _ _ _ _ _ I _ _ E); eauto.
  - refine (not_req_post _ _ _ _ I _ E); eauto.
  - destruct Hr as (? & ? & ?). refine (mux_req_post _ _ _ _ _ _ I _ _ _ E); eauto.
Qed.

Lemma run_reqs_post rs : forall b hs b' hs',
  inv b -> valids b hs -> Forall (req_ok (b_shift b)) rs -> run_reqs b hs rs = Ok (b', hs') ->
  steps (reqs_cost rs) b b' /\ inv b' /\ ext b b' /\ valids b' hs'.
Proof.
  induction rs as [|r rest IH]; intros b hs b' hs' I Hh Hr; cbn [run_reqs reqs_cost].
  - intros [= <- <-]. split; [apply steps_refl|]. split; [exact I|]. split; [apply ext_refl|exact Hh].
  - inversion Hr as [|r0 l0 Hr1 Hr2]; subst.
    destruct (run_req b hs r) as [[w b1]| |] eqn:E1; cbn [bind]; try discriminate.
    destruct (run_req_post _ _ _ _ _ I Hh Hr1 E1) as (S1 & I1 & X1 & V1).
    intro E2.
    assert (Hh1 : valids b1 (hs ++ [w])).
    { apply Forall_app. split; [eapply ext_valids; eauto|]. constructor; [exact V1|constructor]. }
    assert (Hs1 : b_shift b1 = b_shift b) by apply X1.
    rewrite <- Hs1 in Hr2.
    destruct (IH _ _ _ _ I1 Hh1 Hr2 E2) as (S2 & I2 & X2 & V2).
    split; [eapply steps_trans; eauto|]. split; [exact I2|]. split; [eapply ext_trans; eauto|exact V2].
Qed.

Lemma reachable_pres J b hs :
  apres J -> (forall dedup inputs, J (new_builder dedup inputs)) -> reachable b hs -> J b.
Proof.
  intros HJ Hnew (dedup & inputs & rs & Hr & E).
  destruct (run_reqs_post rs _ _ _ _ (inv_new dedup inputs) (Forall_nil _) Hr E) as ((S & _) & _).
  apply S; auto.
Qed.

Lemma reachable_inv b hs : reachable b hs -> inv b /\ valids b hs.
Proof.
  intros (dedup & inputs & rs & Hr & E).
  destruct (run_reqs_post rs _ _ _ _ (inv_new dedup inputs) (Forall_nil _) Hr E) as (_ & I & _ & V). auto.
Qed.

Theorem reachable_sinv b hs : reachable b hs -> sinv b.
Proof. apply reachable_pres; [exact sinv_astep|exact sinv_new]. Qed.

(* ================================================================== Part C: build *)

(* the marking computed by remove_unused_gates *)
Definition used_of (b : builder) (pw outs : list N) : nmap unit :=
  mark_pass (b_shift b) (b_gates_rev b) (b_ngates b)
    (fold_left (mark (b_shift b)) (outs ++ pw) nempty).

(* ---- the marking pass marks ONLY what reaches a root ---- *)

Lemma fold_mark_only shift roots : forall u j,
  isused (fold_left (mark shift) roots u) j = true -> isused u j = true \/ In (shift + j) roots.
Proof.
  induction roots as [|r rs IH]; intros u j H; cbn [fold_left] in H; [now left|].
  destruct (IH _ _ H) as [H1|H1]; [|right; now right].
  apply isused_mark_iff in H1. destruct H1 as [H1|[Hle Heq]]; [now left|]. right. left. lia.
Qed.

Section Compact.
  Variable shift : N.
  Variable used : nmap unit.

  Lemma renum_small w : w < shift -> renum shift used w = w.
  Proof. apply renum_lt. Qed.
End Compact.

Lemma final_idx_inj n a c : final_idx n a = final_idx n c -> a = c.
Proof.
  unfold final_idx.
  destruct (N.leb_spec a 1); destruct (N.leb_spec c 1);
    destruct (N.ltb_spec a (n + 2)); destruct (N.ltb_spec c (n + 2)); lia.
Qed.

Lemma final_idx_const n a : 2 <= a -> final_idx n a <> n /\ final_idx n a <> n + 1.
Proof.
  unfold final_idx. destruct (N.leb_spec a 1); destruct (N.ltb_spec a (n + 2)); lia.
Qed.

(* ================================================================== Part D: the built circuit *)

Lemma nthN_cons2 {A} (a c : A) l k : 2 <= k -> nthN (a :: c :: l) k = nthN l (k - 2).
Proof.
  intro H. rewrite !nthN_spec. replace (N.to_nat k) with (S (S (N.to_nat (k - 2)))) by lia. reflexivity.
Qed.

Lemma nthN_map {A B} (f : A -> B) l i : nthN (map f l) i = option_map f (nthN l i).
Proof. rewrite !nthN_spec. apply nth_error_map. Qed.

Section Built.
  Variable b : builder.
  Variables pw outs : list N.
  Hypothesis I : inv b.
  Hypothesis Hpw : valids b pw.
  Hypothesis Houts : valids b outs.

  Local Notation shift := (b_shift b).
  Local Notation used := (used_of b pw outs).
  Local Notation n_in := (b_shift b - 2).
  Local Notation pos j := (cnt (isused used) 0 (N.to_nat j)).
  Local Notation phi w := (final_idx n_in (renum shift used w)).

  Definition cbuilt : circuit :=
    mkCircuit (b_inputs b)
      (GXor 0 0 :: GNot n_in :: map (final_gate n_in) (compact shift used (glist b) 0))
      (map (final_idx n_in) (map (renum shift used) (pw ++ outs))).

  Definition surv (w : N) : Prop := shift <= w -> isused used (w - shift) = true.

  Lemma build_is_cbuilt : build b pw outs = Ok cbuilt.
  Proof. exact (proj1 (build_shape b pw outs I Hpw Houts)). Qed.

  Lemma built_num_inputs : num_inputs cbuilt = n_in.
  Proof. unfold num_inputs, cbuilt. cbn [input_gates]. pose proof (inv_inputs b I). lia. Qed.

  Lemma shift_ge2 : 2 <= shift.
  Proof. exact (inv_shift b I). Qed.

  Lemma used_ops j g :
    nthN (glist b) j = Some g -> isused used j = true ->
    let '(x, y) := Build.gops g in surv x /\ surv y.
  Proof.
    intros Hj Hu. destruct (build_shape b pw outs I Hpw Houts) as (_ & _ & Hclos & _).
    exact (Hclos j g Hj Hu).
  Qed.

  Lemma root_surv w : In w (pw ++ outs) -> surv w.
  Proof.
    intros Hin. destruct (build_shape b pw outs I Hpw Houts) as (_ & _ & _ & Hroot).
    exact (proj2 (Hroot w Hin)).
  Qed.

  (* every gate after the two constant gates is the image of a used gate of the store *)
  Lemma built_gate k fg :
    2 <= k -> nthN (gates cbuilt) k = Some fg ->
    exists j g, nthN (glist b) j = Some g /\ isused used j = true /\ k = 2 + pos j /\
                fg = final_gate n_in (regate shift used g).
  Proof.
    intros Hk. unfold cbuilt. cbn [gates]. rewrite nthN_cons2 by exact Hk. rewrite nthN_map.
    destruct (nthN (compact shift used (glist b) 0) (k - 2)) as [g'|] eqn:E; [|discriminate].
    cbn [option_map]. intros [= <-].
    destruct (compact_inv shift used _ _ _ E) as (j & g & Hj & Hu & Ei & ->).
    exists j, g. repeat split; auto. lia.
  Qed.

  Lemma built_gate_of j g :
    nthN (glist b) j = Some g -> isused used j = true ->
    nthN (gates cbuilt) (2 + pos j) = Some (final_gate n_in (regate shift used g)).
  Proof.
    intros Hj Hu. unfold cbuilt. cbn [gates]. rewrite nthN_cons2 by lia. rewrite nthN_map.
    replace (2 + pos j - 2) with (pos j) by lia.
    now rewrite (compact_nth shift used _ _ _ Hj Hu).
  Qed.

  Lemma phi_gate j : phi (shift + j) = n_in + 2 + pos j.
  Proof.
    rewrite renum_gate. pose proof shift_ge2. rewrite final_idx_high by lia. lia.
  Qed.

  Lemma phi_inj w1 w2 : surv w1 -> surv w2 -> phi w1 = phi w2 -> w1 = w2.
  Proof. intros S1 S2 E. apply final_idx_inj in E. eapply renum_inj; eauto. Qed.

  Lemma renum_eq1 w : renum shift used w = 1 <-> w = 1.
  Proof.
    pose proof shift_ge2 as Hs. destruct (N.lt_ge_cases w shift) as [Hl|Hg].
    - now rewrite renum_lt.
    - pose proof (renum_ge shift used w Hg). lia.
  Qed.

  Lemma renum_ge2 w : 2 <= w -> 2 <= renum shift used w.
  Proof.
    pose proof shift_ge2 as Hs. intro H. destruct (N.lt_ge_cases w shift) as [Hl|Hg].
    - now rewrite renum_lt.
    - pose proof (renum_ge shift used w Hg). lia.
  Qed.

  (* the final gate in terms of the store gate *)
  Lemma final_and x y :
    final_gate n_in (regate shift used (BAnd x y)) = GAnd (phi x) (phi y).
  Proof. reflexivity. Qed.

  Lemma final_xor_cases x y :
    x <> 0 -> y <> 0 -> ~ (x = 1 /\ y = 1) ->
    let fg := final_gate n_in (regate shift used (BXor x y)) in
    (x = 1 /\ 2 <= y /\ fg = GNot (phi y)) \/ (y = 1 /\ 2 <= x /\ fg = GNot (phi x)) \/
    (2 <= x /\ 2 <= y /\ fg = GXor (phi x) (phi y)).
  Proof.
    intros Hx Hy Hn. cbn zeta. cbn [regate final_gate].
    destruct (N.eqb_spec (renum shift used x) 1) as [E1|N1].
    { rewrite renum_eq1 in E1. left. split; [exact E1|]. split; [lia|reflexivity]. }
    destruct (N.eqb_spec (renum shift used y) 1) as [E2|N2].
    { rewrite renum_eq1 in E2. right. left. split; [exact E2|]. rewrite renum_eq1 in N1. split; [lia|reflexivity]. }
    right. right. rewrite renum_eq1 in N1, N2. split; [lia|]. split; [lia|reflexivity].
  Qed.

  Lemma final_ops_in g w :
    (w = fst (Build.gops g) \/ w = snd (Build.gops g)) -> shift <= w ->
    In (phi w) (g_ops (final_gate n_in (regate shift used g))).
  Proof.
    pose proof shift_ge2 as Hs. intros Hw Hge.
    destruct g as [x y|x y]; cbn [Build.gops fst snd regate final_gate] in *.
    - destruct (N.eqb_spec (renum shift used x) 1) as [E1|N1].
      { rewrite renum_eq1 in E1. destruct Hw as [->| ->]; [lia|]. cbn [g_ops In]. now left. }
      destruct (N.eqb_spec (renum shift used y) 1) as [E2|N2].
      { rewrite renum_eq1 in E2. destruct Hw as [->| ->]; [|lia]. cbn [g_ops In]. now left. }
      cbn [g_ops In]. destruct Hw as [->| ->]; auto.
    - cbn [g_ops In]. destruct Hw as [->| ->]; auto.
  Qed.

  (* 1. no dead gate survives *)
  Lemma built_all_used k :
    2 <= k < lenN (gates cbuilt) -> reaches cbuilt (num_inputs cbuilt + k).
  Proof.
    intros [Hk Hlt]. destruct (nthN_Some _ _ Hlt) as [fg Hfg].
    destruct (built_gate k fg Hk Hfg) as (j & g & Hj & Hu & -> & _).
    rewrite built_num_inputs. clear Hfg Hk Hlt fg Hj g.
    destruct (build_shape b pw outs I Hpw Houts) as (_ & Hwf & _ & _).
    set (P := fun j => reaches cbuilt (n_in + (2 + pos j))).
    revert j Hu. change (forall j, isused used j = true -> P j).
    assert (Hrev : b_gates_rev b = rev (glist b)) by (unfold glist; now rewrite rev_involutive).
    assert (Hn : b_ngates b = lenN (glist b)) by (symmetry; apply glist_len; exact I).
    assert (Eu : used = mark_pass shift (rev (glist b)) (lenN (glist b))
                          (fold_left (mark shift) (outs ++ pw) nempty)).
    { unfold used_of. now rewrite Hrev, Hn. }
    destruct (mark_pass_spec shift (glist b) (fold_left (mark shift) (outs ++ pw) nempty) Hwf) as (_ & _ & _ & M).
    rewrite <- Eu in M. apply (M P); clear M.
    - (* roots *)
      intros j Hj. destruct (fold_mark_only _ _ _ _ Hj) as [Hj0|Hin].
      { unfold isused in Hj0. rewrite nfind_empty in Hj0. discriminate. }
      unfold P. apply reach_out. unfold cbuilt. cbn [output_gates].
      replace (n_in + (2 + pos j)) with (phi (shift + j)) by (rewrite phi_gate; lia).
      rewrite map_map. apply (in_map (fun w => phi w)).
      apply in_or_app. apply in_app_or in Hin. tauto.
    - (* operands of a used gate *)
      intros k g w Hk Hu Pk Hw Hge. unfold P.
      apply (reach_op cbuilt _ (2 + pos k) (final_gate n_in (regate shift used g))).
      + now apply built_gate_of.
      + rewrite built_num_inputs. exact Pk.
      + replace (n_in + (2 + pos (w - shift))) with (phi (shift + (w - shift))) by (rewrite phi_gate; lia).
        replace (shift + (w - shift)) with w by lia. now apply final_ops_in.
  Qed.
  (* ---- transport of the store invariant ---- *)
  Hypothesis S : sinv b.

  Lemma nthN_01 {A} (a c : A) l k x :
    k < 2 -> nthN (a :: c :: l) k = Some x -> x = a \/ x = c.
  Proof.
    intros Hk H. assert (Hc : k = 0 \/ k = 1) by lia. rewrite nthN_spec in H.
    destruct Hc as [-> | ->]; cbn in H; injection H as <-; auto.
  Qed.

  Lemma xor_not_both_one j x y : nthN (glist b) j = Some (BXor x y) -> x <> 0 /\ y <> 0 /\ ~ (x = 1 /\ y = 1).
  Proof.
    intro Hj. destruct (s_xor b S _ _ _ Hj) as (Hx & Hy & Hxy). split; [exact Hx|]. split; [exact Hy|].
    intros [-> ->]. destruct (Hxy eq_refl) as [_ H]. lia.
  Qed.

  Lemma built_and_gate k x y :
    nthN (gates cbuilt) k = Some (GAnd x y) ->
    exists j x0 y0, nthN (glist b) j = Some (BAnd x0 y0) /\ isused used j = true /\ k = 2 + pos j /\
                    x = phi x0 /\ y = phi y0 /\ surv x0 /\ surv y0.
  Proof.
    intro H. destruct (N.lt_ge_cases k 2) as [Hlt|Hge].
    { unfold cbuilt in H. cbn [gates] in H. destruct (nthN_01 _ _ _ _ _ Hlt H); discriminate. }
    destruct (built_gate k _ Hge H) as (j & g & Hj & Hu & Ek & Eg).
    pose proof (used_ops j g Hj Hu) as Hs.
    destruct g as [x0 y0|x0 y0].
    - destruct (xor_not_both_one _ _ _ Hj) as (Hx & Hy & Hn).
      destruct (final_xor_cases x0 y0 Hx Hy Hn) as [(_ & _ & E)|[(_ & _ & E)|(_ & _ & E)]];
        rewrite E in Eg; discriminate.
    - rewrite final_and in Eg. injection Eg as -> ->. cbn [Build.gops] in Hs.
      exists j, x0, y0. tauto.
  Qed.

  (* 2. no gate after the two constant gates has a constant operand *)
  Lemma built_no_const k fg w :
    2 <= k -> nthN (gates cbuilt) k = Some fg -> In w (g_ops fg) -> w <> n_in /\ w <> n_in + 1.
  Proof.
    intros Hk H Hw. destruct (built_gate k _ Hk H) as (j & g & Hj & Hu & Ek & ->).
    destruct g as [x y|x y].
    - destruct (xor_not_both_one _ _ _ Hj) as (Hx & Hy & Hn).
      destruct (final_xor_cases x y Hx Hy Hn) as [(_ & G & E)|[(_ & G & E)|(Gx & Gy & E)]];
        rewrite E in Hw; cbn [g_ops In] in Hw.
      + destruct Hw as [<-|[]]. apply final_idx_const. now apply renum_ge2.
      + destruct Hw as [<-|[]]. apply final_idx_const. now apply renum_ge2.
      + destruct Hw as [<-|[<-|[]]]; apply final_idx_const; now apply renum_ge2.
    - destruct (s_and b S _ _ _ Hj) as (Gx & Gy & _). rewrite final_and in Hw. cbn [g_ops In] in Hw.
      destruct Hw as [<-|[<-|[]]]; apply final_idx_const; now apply renum_ge2.
  Qed.

  (* 4. no AND has the same wire twice; no XOR either with de-duplication *)
  Lemma built_and_distinct k x y : nthN (gates cbuilt) k = Some (GAnd x y) -> x <> y.
  Proof.
    intro H. destruct (built_and_gate _ _ _ H) as (j & x0 & y0 & Hj & _ & _ & -> & -> & Sx & Sy).
    destruct (s_and b S _ _ _ Hj) as (_ & _ & Hne). intro E. apply Hne. now apply phi_inj.
  Qed.

  Lemma built_xor_distinct k x y :
    b_dedup b = true -> 2 <= k -> nthN (gates cbuilt) k = Some (GXor x y) -> x <> y.
  Proof.
    intros Hd Hk H. destruct (built_gate k _ Hk H) as (j & g & Hj & Hu & Ek & Eg).
    pose proof (used_ops j g Hj Hu) as Hs.
    destruct g as [x0 y0|x0 y0]; [|rewrite final_and in Eg; discriminate].
    destruct (xor_not_both_one _ _ _ Hj) as (Hx & Hy & Hn).
    destruct (s_xor b S _ _ _ Hj) as (_ & _ & Hxy). cbn [Build.gops] in Hs. destruct Hs as [Sx Sy].
    destruct (final_xor_cases x0 y0 Hx Hy Hn) as [(_ & _ & E)|[(_ & _ & E)|(_ & _ & E)]];
      rewrite E in Eg; try discriminate.
    injection Eg as -> ->. intro E2. apply phi_inj in E2; auto.
    destruct (Hxy E2) as [Hf _]. congruence.
  Qed.

  (* 3. with de-duplication no two ANDs have the same unordered operand pair *)
  Lemma built_and_unique k1 k2 x y x' y' :
    b_dedup b = true ->
    nthN (gates cbuilt) k1 = Some (GAnd x y) -> nthN (gates cbuilt) k2 = Some (GAnd x' y') ->
    same_pair x y x' y' -> k1 = k2.
  Proof.
    intros Hd H1 H2 Hs.
    destruct (built_and_gate _ _ _ H1) as (j1 & x1 & y1 & Hj1 & _ & -> & -> & -> & Sx1 & Sy1).
    destruct (built_and_gate _ _ _ H2) as (j2 & x2 & y2 & Hj2 & _ & -> & -> & -> & Sx2 & Sy2).
    assert (Hs0 : same_pair x1 y1 x2 y2).
    { destruct Hs as [[E1 E2]|[E1 E2]]; [left|right]; split; apply phi_inj; auto. }
    now rewrite (s_uniq b S Hd _ _ _ _ _ _ Hj1 Hj2 Hs0).
  Qed.
End Built.

(* ---------------------------------------------------------------- the theorems, for every reachable builder *)

Lemma built_circuit b hs pw outs c :
  reachable b hs -> valids b pw -> valids b outs -> build b pw outs = Ok c ->
  inv b /\ sinv b /\ c = cbuilt b pw outs.
Proof.
  intros R Hpw Houts E. destruct (reachable_inv _ _ R) as [I _].
  split; [exact I|]. split; [eapply reachable_sinv; eauto|].
  rewrite (build_is_cbuilt b pw outs I Hpw Houts) in E. now injection E as <-.
Qed.

Theorem build_total b hs pw outs :
  reachable b hs -> valids b pw -> valids b outs -> exists c, build b pw outs = Ok c.
Proof.
  intros R Hpw Houts. destruct (reachable_inv _ _ R) as [I _].
  eexists. now apply build_is_cbuilt.
Qed.

(* handles and raw inputs/constants are valid roots *)
Lemma resolve_valids b hs outs ows :
  reachable b hs -> Forall (opnd_ok (b_shift b)) outs -> mapM (resolve hs) outs = Some ows ->
  valids b ows.
Proof.
  intros R. destruct (reachable_inv _ _ R) as [I Hh]. revert ows.
  induction outs as [|o r IH]; intros ows Ho; cbn [mapM].
  - intros [= <-]. constructor.
  - inversion Ho as [|o0 l0 Ho1 Ho2]; subst.
    destruct (resolve hs o) as [w|] eqn:Ew; [|discriminate].
    destruct (mapM (resolve hs) r) as [ws|] eqn:Er; [|discriminate]. intros [= <-].
    constructor; [eapply resolve_valid; eauto|now apply IH].
Qed.

(* the two gates that define the constants are always emitted *)
Theorem build_const_gates b hs pw outs c :
  reachable b hs -> valids b pw -> valids b outs -> build b pw outs = Ok c ->
  nthN (gates c) 0 = Some (GXor 0 0) /\ nthN (gates c) 1 = Some (GNot (num_inputs c)).
Proof.
  intros R Hpw Houts E. destruct (built_circuit _ _ _ _ _ R Hpw Houts E) as (I & S & ->).
  rewrite built_num_inputs by exact I. rewrite !nthN_spec. split; reflexivity.
Qed.

Theorem build_all_used b hs pw outs c :
  reachable b hs -> valids b pw -> valids b outs -> build b pw outs = Ok c ->
  forall k, 2 <= k < lenN (gates c) -> reaches c (num_inputs c + k).
Proof.
  intros R Hpw Houts E. destruct (built_circuit _ _ _ _ _ R Hpw Houts E) as (I & S & ->).
  now apply built_all_used.
Qed.

Theorem build_no_constant_operand b hs pw outs c :
  reachable b hs -> valids b pw -> valids b outs -> build b pw outs = Ok c ->
  forall k g w, 2 <= k -> nthN (gates c) k = Some g -> In w (g_ops g) ->
    w <> num_inputs c /\ w <> num_inputs c + 1.
Proof.
  intros R Hpw Houts E. destruct (built_circuit _ _ _ _ _ R Hpw Houts E) as (I & S & ->).
  rewrite built_num_inputs by exact I. now apply built_no_const.
Qed.

Theorem build_no_self_operand b hs pw outs c :
  reachable b hs -> valids b pw -> valids b outs -> build b pw outs = Ok c ->
  (forall k x y, nthN (gates c) k = Some (GAnd x y) -> x <> y) /\
  (b_dedup b = true -> forall k x y, 2 <= k -> nthN (gates c) k = Some (GXor x y) -> x <> y).
Proof.
  intros R Hpw Houts E. destruct (built_circuit _ _ _ _ _ R Hpw Houts E) as (I & S & ->). split.
  - now apply built_and_distinct.
  - intros Hd k x y. now apply built_xor_distinct.
Qed.

Theorem build_and_unique b hs pw outs c :
  reachable b hs -> valids b pw -> valids b outs -> build b pw outs = Ok c ->
  b_dedup b = true ->
  forall k1 k2 x y x' y',
    nthN (gates c) k1 = Some (GAnd x y) -> nthN (gates c) k2 = Some (GAnd x' y') ->
    same_pair x y x' y' -> k1 = k2.
Proof.
  intros R Hpw Houts E Hd. destruct (built_circuit _ _ _ _ _ R Hpw Houts E) as (I & S & ->).
  intros k1 k2 x y x' y'. now apply built_and_unique.
Qed.

(* 4, at the level of the gate store: what is NEVER stored, whether or not it is pruned later *)
Theorem store_gate_shape b hs :
  reachable b hs ->
  forall i g, nthN (rev (b_gates_rev b)) i = Some g ->
    match g with
    | BAnd x y => 2 <= x /\ 2 <= y /\ x <> y
    | BXor x y => x <> 0 /\ y <> 0 /\ (x = y -> b_dedup b = false /\ 2 <= x)
    end.
Proof.
  intros R i g Hg. pose proof (reachable_sinv _ _ R) as S. destruct g as [x y|x y].
  - exact (s_xor b S _ _ _ Hg).
  - exact (s_and b S _ _ _ Hg).
Qed.

Theorem store_and_unique b hs :
  reachable b hs -> b_dedup b = true ->
  forall i j x y x' y',
    nthN (rev (b_gates_rev b)) i = Some (BAnd x y) -> nthN (rev (b_gates_rev b)) j = Some (BAnd x' y') ->
    same_pair x y x' y' -> i = j.
Proof. intros R Hd. exact (s_uniq b (reachable_sinv _ _ R) Hd). Qed.

(* ================================================================== Part E: counting AND gates *)

(* pruning and renumbering never add an AND *)
Lemma and_gates_compact n shift used gs : forall i,
  lenN (filter is_and (map (final_gate n) (compact shift used gs i))) <= lenN (filter is_band gs).
Proof.
  induction gs as [|g r IH]; intro i; cbn [compact map filter]; [rewrite !lenN_nil; lia|].
  rewrite map_app, filter_app, lenN_app. specialize (IH (i + 1)).
  assert (Hg : lenN (filter is_and (map (final_gate n) (if isused used i then [regate shift used g] else [])))
               <= if is_band g then 1 else 0).
  { destruct (isused used i); cbn [map filter]; [|destruct (is_band g); rewrite lenN_nil; lia].
    destruct g as [x y|x y]; cbn [regate final_gate is_band].
    - destruct (renum shift used x =? 1); [|destruct (renum shift used y =? 1)]; cbn [is_and]; rewrite lenN_nil; lia.
    - cbn [is_and]. rewrite lenN_cons, lenN_nil. lia. }
  destruct (is_band g); rewrite ?lenN_cons; lia.
Qed.

Lemma and_gates_cbuilt b pw outs : and_gates (cbuilt b pw outs) <= band_count b.
Proof.
  unfold and_gates, cbuilt. cbn [gates filter is_and]. rewrite band_count_glist. apply and_gates_compact.
Qed.

(* 6a. the per-request bound: xor 1, and 1, eq 1, not 0, or 3, mux 3 *)
Theorem build_and_count_le dedup inputs rs b hs pw outs c :
  Forall (req_ok (2 + sumN inputs)) rs ->
  run_reqs (new_builder dedup inputs) [] rs = Ok (b, hs) ->
  valids b pw -> valids b outs -> build b pw outs = Ok c ->
  and_gates c <= N.of_nat (reqs_cost rs).
Proof.
  intros Hr E Hpw Houts Eb.
  assert (R : reachable b hs) by (exists dedup, inputs, rs; auto).
  destruct (built_circuit _ _ _ _ _ R Hpw Houts Eb) as (I & S & ->).
  destruct (run_reqs_post rs _ _ _ _ (inv_new dedup inputs) (Forall_nil _) Hr E) as ((_ & Hb) & _).
  pose proof (and_gates_cbuilt b pw outs) as Hc.
  assert (H0 : band_count (new_builder dedup inputs) = 0) by reflexivity. lia.
Qed.

(* ---- requests that add no AND at all ---- *)

Lemma xor_top_zero b x y r b' :
  inv b -> valid b x -> valid b y -> band_count b = 0 -> push_xor_top b x y = Ok (r, b') ->
  band_count b' = 0.
Proof.
  intros I Hx Hy Hz E. destruct (push_xor_top_step _ _ _ _ _ I Hx Hy E) as [->|S]; [exact Hz|].
  eapply band_xstep_zero; eauto.
Qed.

Lemma optimize_and_const b x y :
  (x <=? 1) || (y <=? 1) = true ->
  exists w, optimize_and b x y = Some w /\ (w = 0 \/ w = x \/ w = y).
Proof.
  intro H. unfold optimize_and.
  destruct (N.eqb_spec x 0); cbn [orb]; [eauto|].
  destruct (N.eqb_spec y 0); cbn [orb]; [eauto|].
  destruct (N.eqb_spec x 1); [eauto|].
  destruct (N.eqb_spec y 1); cbn [orb]; [eauto|].
  apply orb_true_iff in H. destruct H as [H|H]; apply N.leb_le in H; lia.
Qed.

Lemma push_and_top_const b x y :
  (x <=? 1) || (y <=? 1) = true -> exists w, push_and_top b x y = Ok (w, b) /\ (w = 0 \/ w = x \/ w = y).
Proof.
  intro H. destruct (optimize_and_const b x y H) as (w & E & Hw). exists w.
  split; [now apply push_and_top_opt|exact Hw].
Qed.

Lemma le1_cases x : x <= 1 -> x = 0 \/ x = 1.
Proof. lia. Qed.

Lemma push_not_const b s : s <= 1 -> exists w, push_not b s = Ok (w, b) /\ w <= 1.
Proof.
  intro Hs. destruct (le1_cases s Hs) as [->| ->]; eexists; (split; [reflexivity|lia]).
Qed.

Lemma resolve_const_valid hs o w : const_opnd hs o = true -> resolve hs o = Some w -> w <= 1.
Proof. unfold const_opnd. intros H E. rewrite E in H. now apply N.leb_le. Qed.

Lemma run_req_zero b hs r w b' :
  inv b -> valids b hs -> req_ok (b_shift b) r -> band_count b = 0 -> and_free_req hs r = true ->
  run_req b hs r = Ok (w, b') -> band_count b' = 0.
Proof.
  intros I Hh Hr Hz Hf. revert Hr Hf. pose proof (fun o w => resolve_valid b hs o w Hh) as RV.
  destruct (run_req_view b hs r) as [x y a c Ea Ec|x y a c Ea Ec|x y a c Ea Ec|x y a c Ea Ec|x a Ea|s x y ws a c Es Ea Ec|r];
    cbn [req_ok and_free_req]; intros Hr Hf; [..|discriminate].
  - destruct Hr. intro E. refine (xor_top_zero _ _ _ _ _ I _ _ Hz E); eauto.
  - destruct (push_and_top_const b a c) as (w0 & -> & _).
    { unfold const_opnd in Hf. now rewrite Ea, Ec in Hf. }
    intros [= _ <-]. exact Hz.
  - destruct Hr. assert (Va : valid b a) by eauto. assert (Vc : valid b c) by eauto.
    unfold push_or.
    destruct (push_xor_top b a c) as [[xo b1]| |] eqn:E1; cbn [bind]; try discriminate.
    destruct (xor_req_post _ _ _ _ _ I Va Vc E1) as (_ & I1 & X1 & V1).
    pose proof (xor_top_zero _ _ _ _ _ I Va Vc Hz E1) as Hz1.
    destruct (push_and_top_const b1 a c) as (an & -> & Han).
    { unfold const_opnd in Hf. now rewrite Ea, Ec in Hf. }
    cbn [bind]. intro E3.
    assert (Van : valid b1 an).
    { destruct (valid_consts b1 I1) as [V0 _].
      destruct Han as [->|[->| ->]]; [exact V0|eapply ext_valid; eauto|eapply ext_valid; eauto]. }
    exact (xor_top_zero _ _ _ _ _ I1 V1 Van Hz1 E3).
  - destruct Hr. assert (Va : valid b a) by eauto. assert (Vc : valid b c) by eauto.
    unfold push_eq.
    destruct (push_xor_top b a c) as [[xo b1]| |] eqn:E1; cbn [bind]; try discriminate.
    destruct (xor_req_post _ _ _ _ _ I Va Vc E1) as (_ & I1 & X1 & V1).
    pose proof (xor_top_zero _ _ _ _ _ I Va Vc Hz E1) as Hz1.
    destruct (valid_consts b1 I1) as [_ V1c].
    intro E2. exact (xor_top_zero _ _ _ _ _ I1 V1 V1c Hz1 E2).
  - destruct (valid_consts b I) as [_ V1c].
    unfold push_not. intro E. refine (xor_top_zero _ _ _ _ _ I _ V1c Hz E); eauto.
  - destruct Hr as (Hs & Ha & Hc).
    assert (Va : valid b a) by eauto. assert (Vc : valid b c) by eauto.
    unfold push_mux. destruct (N.eqb_spec a c) as [->|Hac]; [intros [= _ <-]; exact Hz|].
    assert (Hcs : ws <= 1).
    { apply orb_true_iff in Hf. destruct Hf as [Hf|Hf]; [eapply resolve_const_valid; eauto|].
      unfold same_opnd in Hf. rewrite Ea, Ec in Hf. apply N.eqb_eq in Hf. contradiction. }
    destruct (push_xor_top b a c) as [[d b1]| |] eqn:E1; cbn [bind]; try discriminate.
    destruct (xor_req_post _ _ _ _ _ I Va Vc E1) as (_ & I1 & X1 & V1).
    pose proof (xor_top_zero _ _ _ _ _ I Va Vc Hz E1) as Hz1.
    destruct (push_not_const b1 ws Hcs) as (ns & -> & Hns). cbn [bind].
    destruct (push_and_top_const b1 d ns) as (sw & -> & Hsw).
    { apply orb_true_iff. right. now apply N.leb_le. }
    cbn [bind]. intro E4.
    assert (Vsw : valid b1 sw).
    { destruct (valid_consts b1 I1) as [V0 V1c].
      destruct Hsw as [->|[->| ->]]; [exact V0|exact V1|].
      destruct (le1_cases ns Hns) as [-> | ->]; assumption. }
    exact (xor_top_zero _ _ _ _ _ I1 (ext_valid _ _ _ X1 Va) Vsw Hz1 E4).
Qed.

Lemma run_reqs_zero rs : forall b hs b' hs',
  inv b -> valids b hs -> Forall (req_ok (b_shift b)) rs -> band_count b = 0 -> and_free b hs rs ->
  run_reqs b hs rs = Ok (b', hs') -> band_count b' = 0.
Proof.
  induction rs as [|r rest IH]; intros b hs b' hs' I Hh Hr Hz Hf; cbn [run_reqs and_free] in *.
  - now intros [= <- _].
  - inversion Hr as [|r0 l0 Hr1 Hr2]; subst. destruct Hf as [Hf1 Hf2].
    destruct (run_req b hs r) as [[w b1]| |] eqn:E1; cbn [bind]; try discriminate.
    destruct (run_req_post _ _ _ _ _ I Hh Hr1 E1) as (_ & I1 & X1 & V1).
    pose proof (run_req_zero _ _ _ _ _ I Hh Hr1 Hz Hf1 E1) as Hz1.
    assert (Hh1 : valids b1 (hs ++ [w])).
    { apply Forall_app. split; [eapply ext_valids; eauto|]. constructor; [exact V1|constructor]. }
    assert (Hs1 : b_shift b1 = b_shift b) by apply X1. rewrite <- Hs1 in Hr2.
    eapply IH; eauto.
Qed.

(* 6b. "data movement costs zero AND gates" at builder level: a request sequence made of
   XOR / NOT / EQ requests, ANDs and ORs with a constant operand, and MUXes with a constant
   selector (or twice the same data wire) builds a circuit without any AND gate *)
Theorem and_free_requests_zero_and dedup inputs rs b hs pw outs c :
  Forall (req_ok (2 + sumN inputs)) rs ->
  and_free (new_builder dedup inputs) [] rs ->
  run_reqs (new_builder dedup inputs) [] rs = Ok (b, hs) ->
  valids b pw -> valids b outs -> build b pw outs = Ok c ->
  and_gates c = 0.
Proof.
  intros Hr Hf E Hpw Houts Eb.
  assert (R : reachable b hs) by (exists dedup, inputs, rs; auto).
  destruct (built_circuit _ _ _ _ _ R Hpw Houts Eb) as (I & S & ->).
  pose proof (run_reqs_zero rs _ _ _ _ (inv_new dedup inputs) (Forall_nil _) Hr eq_refl Hf E) as Hz.
  pose proof (and_gates_cbuilt b pw outs). lia.
Qed.

(* ================================================================== Part F: folding at request level *)

(* 5a. operations on constants never create a gate (no invariant needed: pure computation) *)
Lemma push_xor_top_const b x y :
  x <= 1 -> y <= 1 -> exists w, push_xor_top b x y = Ok (w, b) /\ w <= 1.
Proof.
  intros Hx Hy. destruct (le1_cases x Hx) as [->| ->], (le1_cases y Hy) as [->| ->];
    eexists; (split; [reflexivity|lia]).
Qed.

Lemma push_and_top_const01 b x y :
  x <= 1 -> y <= 1 -> exists w, push_and_top b x y = Ok (w, b) /\ w <= 1.
Proof.
  intros Hx Hy. destruct (le1_cases x Hx) as [->| ->], (le1_cases y Hy) as [->| ->];
    eexists; (split; [reflexivity|lia]).
Qed.

Lemma push_or_const b x y : x <= 1 -> y <= 1 -> exists w, push_or b x y = Ok (w, b) /\ w <= 1.
Proof.
  intros Hx Hy. destruct (le1_cases x Hx) as [->| ->], (le1_cases y Hy) as [->| ->];
    eexists; (split; [reflexivity|lia]).
Qed.

Lemma push_eq_const b x y : x <= 1 -> y <= 1 -> exists w, push_eq b x y = Ok (w, b) /\ w <= 1.
Proof.
  intros Hx Hy. destruct (le1_cases x Hx) as [->| ->], (le1_cases y Hy) as [->| ->];
    eexists; (split; [reflexivity|lia]).
Qed.

Lemma push_mux_const b s x y :
  s <= 1 -> x <= 1 -> y <= 1 -> exists w, push_mux b s x y = Ok (w, b) /\ w <= 1.
Proof.
  intros Hs Hx Hy.
  destruct (le1_cases s Hs) as [->| ->], (le1_cases x Hx) as [->| ->], (le1_cases y Hy) as [->| ->];
    eexists; (split; [reflexivity|lia]).
Qed.

Lemma resolve_const hs o w :
  Forall (fun v => v <= 1) hs -> raw_const o -> resolve hs o = Some w -> w <= 1.
Proof.
  intros Hh Ho. destruct o as [v|k]; cbn [resolve raw_const] in *.
  - now intros [= <-].
  - intro Hk. apply nth_error_In in Hk. rewrite Forall_forall in Hh. auto.
Qed.

Lemma const_result (m : res (N * builder)) b w b' :
  (exists w0, m = Ok (w0, b) /\ w0 <= 1) -> m = Ok (w, b') -> b' = b /\ w <= 1.
Proof. intros (w0 & -> & H) [= <- <-]. auto. Qed.

Lemma run_req_const b hs r w b' :
  Forall (fun v => v <= 1) hs -> req_raw_const r -> run_req b hs r = Ok (w, b') -> b' = b /\ w <= 1.
Proof.
  intros Hh. pose proof (resolve_const hs) as RC.
  destruct (run_req_view b hs r) as [x y a c|x y a c|x y a c|x y a c|x a|s x y ws a c|r];
    cbn [req_raw_const]; intros Hr E; [..|discriminate]; refine (const_result _ _ _ _ _ E).
  - destruct Hr. apply push_xor_top_const; eauto.
  - destruct Hr. apply push_and_top_const01; eauto.
  - destruct Hr. apply push_or_const; eauto.
  - destruct Hr. apply push_eq_const; eauto.
  - apply push_not_const; eauto.
  - destruct Hr as (? & ? & ?). apply push_mux_const; eauto.
Qed.

Theorem const_requests_no_gate rs : forall b hs b' hs',
  Forall (fun v => v <= 1) hs -> Forall req_raw_const rs -> run_reqs b hs rs = Ok (b', hs') ->
  b' = b /\ Forall (fun v => v <= 1) hs'.
Proof.
  induction rs as [|r rest IH]; intros b hs b' hs' Hh Hr; cbn [run_reqs].
  - intros [= <- <-]. auto.
  - inversion Hr as [|r0 l0 Hr1 Hr2]; subst.
    destruct (run_req b hs r) as [[w b1]| |] eqn:E1; cbn [bind]; try discriminate.
    destruct (run_req_const _ _ _ _ _ Hh Hr1 E1) as [-> Hw]. apply IH; [|exact Hr2].
    apply Forall_app. split; [exact Hh|]. constructor; [exact Hw|constructor].
Qed.

(* 5c. other folds the property text relies on, for every builder state *)
Lemma push_xor_top_self b x : push_xor_top b x x = Ok (0, b).
Proof.
  apply push_xor_top_opt. unfold optimize_xor.
  destruct (N.eqb_spec x 0) as [->|H0]; [reflexivity|]. now rewrite N.eqb_refl.
Qed.

Lemma push_xor_top_zero_l b x : push_xor_top b 0 x = Ok (x, b).
Proof. reflexivity. Qed.

Lemma push_xor_top_zero_r b x : push_xor_top b x 0 = Ok (x, b).
Proof. apply push_xor_top_opt, optimize_xor_zero_r. Qed.

Lemma push_and_top_zero_l b x : push_and_top b 0 x = Ok (0, b).
Proof. reflexivity. Qed.

Lemma push_and_top_zero_r b x : push_and_top b x 0 = Ok (0, b).
Proof. apply push_and_top_opt, optimize_and_zero_r. Qed.

Lemma push_and_top_one_l b x : push_and_top b 1 x = Ok (x, b).
Proof. apply push_and_top_opt, optimize_and_one_l. Qed.

Lemma push_and_top_one_r b x : push_and_top b x 1 = Ok (x, b).
Proof.
  apply push_and_top_opt. unfold optimize_and.
  destruct (N.eqb_spec x 0) as [->|H0]; cbn [orb]; [reflexivity|].
  destruct (N.eqb_spec x 1) as [->|H1]; reflexivity.
Qed.

Lemma push_and_top_self b x : push_and_top b x x = Ok (x, b).
Proof.
  apply push_and_top_opt. unfold optimize_and.
  destruct (N.eqb_spec x 0) as [->|H0]; cbn [orb]; [reflexivity|].
  destruct (N.eqb_spec x 1) as [->|H1]; [reflexivity|]. now rewrite N.eqb_refl.
Qed.

Lemma push_or_self b x : push_or b x x = Ok (x, b).
Proof.
  unfold push_or. rewrite push_xor_top_self. cbn [bind]. rewrite push_and_top_self. cbn [bind].
  apply push_xor_top_zero_l.
Qed.

Lemma push_eq_self b x : push_eq b x x = Ok (1, b).
Proof. unfold push_eq. rewrite push_xor_top_self. cbn [bind]. reflexivity. Qed.

Lemma push_mux_same b s x : push_mux b s x x = Ok (x, b).
Proof. unfold push_mux. now rewrite N.eqb_refl. Qed.

Theorem folding_facts b x s :
  push_xor_top b x x = Ok (0, b) /\ push_and_top b x x = Ok (x, b) /\
  push_xor_top b 0 x = Ok (x, b) /\ push_xor_top b x 0 = Ok (x, b) /\
  push_and_top b 0 x = Ok (0, b) /\ push_and_top b x 0 = Ok (0, b) /\
  push_and_top b 1 x = Ok (x, b) /\ push_and_top b x 1 = Ok (x, b) /\
  push_or b x x = Ok (x, b) /\ push_eq b x x = Ok (1, b) /\ push_mux b s x x = Ok (x, b).
Proof.
  split; [apply push_xor_top_self|]. split; [apply push_and_top_self|].
  split; [apply push_xor_top_zero_l|]. split; [apply push_xor_top_zero_r|].
  split; [apply push_and_top_zero_l|]. split; [apply push_and_top_zero_r|].
  split; [apply push_and_top_one_l|]. split; [apply push_and_top_one_r|].
  split; [apply push_or_self|]. split; [apply push_eq_self|apply push_mux_same].
Qed.

(* ---------------------------------------------------------------- 5b. the [negated] map *)

(* [negated] is a symmetric relation between wires; every stored NOT gate and every cached
   NOT key is recorded in it *)
Record ninv (b : builder) : Prop := {
  n_sym : forall a n, nfind a (b_neg b) = Some n -> nfind n (b_neg b) = Some a;
  n_cache : forall x y w, cache_get (b_cxor b) x y = Some w ->
            (x = 1 -> nfind y (b_neg b) <> None) /\ (y = 1 -> nfind x (b_neg b) <> None);
  n_gate : forall i x y, nthN (glist b) i = Some (BXor x y) ->
            (x = 1 -> nfind (b_shift b + i) (b_neg b) = Some y) /\
            (y = 1 -> nfind (b_shift b + i) (b_neg b) = Some x)
}.

Lemma ninv_new dedup inputs : ninv (new_builder dedup inputs).
Proof.
  constructor; unfold new_builder; cbn [b_neg b_cxor b_gates_rev glist rev].
  - intros a n. rewrite nfind_empty. discriminate.
  - intros x y w. unfold cache_get. rewrite nfind_empty. discriminate.
  - intros i x y H. unfold glist in H. cbn [b_gates_rev rev] in H. apply nthN_lt in H. rewrite lenN_nil in H. lia.
Qed.

Lemma ninv_push_and b x y : ninv b -> ninv (snd (push_gate b (BAnd x y))).
Proof.
  intros [Sy Ca Ga]. constructor; rewrite ?push_gate_neg, ?push_gate_cxor, ?push_gate_glist, ?push_gate_shift.
  - exact Sy.
  - destruct (b_dedup b); exact Ca.
  - intros i p q H. destruct (nthN_snoc _ _ _ _ H) as [H0|[_ Eg]]; [eauto|discriminate].
Qed.

Lemma ninv_push_xor_plain b x y : ninv b -> x <> 1 -> y <> 1 -> ninv (snd (push_gate b (BXor x y))).
Proof.
  intros [Sy Ca Ga] Hx Hy.
  constructor; rewrite ?push_gate_neg, ?push_gate_cxor, ?push_gate_glist, ?push_gate_shift.
  - exact Sy.
  - destruct (b_dedup b); [|exact Ca]. intros p q w. rewrite cache_get_put.
    destruct (N.eqb_spec x p) as [<-|Np]; destruct (N.eqb_spec y q) as [<-|Nq]; cbn [andb]; try apply Ca.
    intros _. split; intro; contradiction.
  - intros i p q H. destruct (nthN_snoc _ _ _ _ H) as [H0|[_ Eg]]; [eauto|].
    injection Eg as -> ->. split; intro; contradiction.
Qed.

Lemma optimize_xor_none_neg b x y :
  inv b -> optimize_xor b x y = None ->
  (x = 1 -> nfind y (b_neg b) = None) /\ (y = 1 -> nfind x (b_neg b) = None).
Proof.
  intros I. unfold optimize_xor.
  destruct (x =? 0); [discriminate|]. destruct (y =? 0); [discriminate|].
  destruct (N.eqb_spec x y) as [|Hxy]; [discriminate|].
  pose proof (neg_one_none b I) as H1.
  destruct (nfind x (b_neg b)) as [xn|] eqn:Ex.
  - destruct (xn =? y); [discriminate|]. destruct (N.eqb_spec y 1) as [->|Hy1]; [discriminate|].
    intros _. split; [intros ->; congruence|contradiction].
  - destruct (nfind y (b_neg b)) as [yn|] eqn:Ey.
    + destruct (yn =? x); [discriminate|]. destruct (N.eqb_spec x 1) as [->|Hx1]; [discriminate|].
      intros _. split; [contradiction|intros ->; congruence].
    + intros _. split; auto.
Qed.

(* recording a fresh NOT gate gi = !k *)
Lemma ninv_record_not b k xk yk :
  inv b -> ninv b -> 2 <= k -> valid b k -> nfind k (b_neg b) = None ->
  (xk = 1 /\ yk = k) \/ (yk = 1 /\ xk = k) ->
  ninv (set_negated (set_negated (snd (push_gate b (BXor xk yk))) k (counter b)) (counter b) k).
Proof.
  intros I [Sy Ca Ga] Hk Vk Nk Hg. set (gi := counter b).
  assert (Hkg : k < gi) by exact Vk.
  assert (Ngi : nfind gi (b_neg b) = None).
  { destruct (nfind gi (b_neg b)) as [n|] eqn:E; [|reflexivity].
    destruct (inv_neg b I _ _ E) as (_ & V & _). unfold valid in V. fold gi in V. lia. }
  assert (Hold : forall a n, nfind a (b_neg b) = Some n -> a <> gi /\ a <> k /\ n <> gi /\ n <> k).
  { intros a n E. destruct (inv_neg b I _ _ E) as (_ & Va & Vn & _). unfold valid in Va, Vn. fold gi in Va, Vn.
    repeat split; try lia; try congruence. intros ->. rewrite (Sy _ _ E) in Nk. discriminate. }
  assert (Hnew : forall a, nfind a (nadd gi k (nadd k gi (b_neg b))) =
                   if gi =? a then Some k else if k =? a then Some gi else nfind a (b_neg b)).
  { intro a. now rewrite !nfind_add. }
  set (b' := set_negated (set_negated (snd (push_gate b (BXor xk yk))) k gi) gi k).
  assert (Eg : glist b' = glist b ++ [BXor xk yk]) by reflexivity.
  assert (En : b_neg b' = nadd gi k (nadd k gi (b_neg b))) by reflexivity.
  assert (Ec : b_cxor b' = if b_dedup b then cache_put (b_cxor b) xk yk gi else b_cxor b) by reflexivity.
  assert (Es : b_shift b' = b_shift b) by reflexivity.
  clearbody b'. constructor; rewrite ?Eg, ?En, ?Ec, ?Es.
  - intros a n. rewrite !Hnew.
    destruct (N.eqb_spec gi a) as [<-|Na].
    { intros [= <-]. destruct (N.eqb_spec gi k); [lia|]. now rewrite N.eqb_refl. }
    destruct (N.eqb_spec k a) as [<-|Nka].
    { intros [= <-]. now rewrite N.eqb_refl. }
    intro E. destruct (Hold _ _ E) as (_ & _ & H1 & H2).
    destruct (N.eqb_spec gi n); [congruence|]. destruct (N.eqb_spec k n); [congruence|]. now apply Sy.
  - assert (Hmono : forall v, nfind v (b_neg b) <> None -> nfind v (nadd gi k (nadd k gi (b_neg b))) <> None).
    { intros v Hv. rewrite Hnew. destruct (gi =? v); [discriminate|]. destruct (k =? v); [discriminate|exact Hv]. }
    intros p q w.
    assert (Hca : cache_get (b_cxor b) p q = Some w ->
              (p = 1 -> nfind q (nadd gi k (nadd k gi (b_neg b))) <> None) /\
              (q = 1 -> nfind p (nadd gi k (nadd k gi (b_neg b))) <> None)).
    { intro E. destruct (Ca _ _ _ E) as [C1 C2]. split; intro; apply Hmono; auto. }
    destruct (b_dedup b); [|exact Hca]. rewrite cache_get_put.
    destruct (N.eqb_spec xk p) as [<-|Np]; destruct (N.eqb_spec yk q) as [<-|Nq]; cbn [andb]; try exact Hca.
    intros _. destruct Hg as [[-> ->]|[-> ->]].
    + split; [intros _|intros ->; lia]. rewrite Hnew. destruct (gi =? k); [discriminate|]. now rewrite N.eqb_refl.
    + split; [intros ->; lia|intros _]. rewrite Hnew. destruct (gi =? k); [discriminate|]. now rewrite N.eqb_refl.
  - intros i p q H.
    rewrite !Hnew. destruct (nthN_snoc _ _ _ _ H) as [H0|[Ei Eg']].
    + pose proof (nthN_lt _ _ _ H0) as Hlt. rewrite (glist_len b I) in Hlt.
      assert (N1 : gi <> b_shift b + i) by (unfold gi, counter; lia).
      destruct (Ga _ _ _ H0) as [G1 G2].
      destruct (N.eqb_spec gi (b_shift b + i)); [contradiction|].
      destruct (N.eqb_spec k (b_shift b + i)) as [Ek|_]; [|exact (conj G1 G2)].
      split; intro E1; [specialize (G1 E1)|specialize (G2 E1)]; rewrite <- Ek in *; congruence.
    + injection Eg' as -> ->. rewrite Ei, (glist_len b I).
      change (b_shift b + b_ngates b) with gi. rewrite N.eqb_refl.
      destruct Hg as [[-> ->]|[-> ->]]; split; auto; intros ->; lia.
Qed.

Lemma ninv_final_xor b x y :
  inv b -> ninv b -> valid b x -> valid b y -> optimize_xor b x y = None -> ninv (snd (final_xor b x y)).
Proof.
  intros I Nv Hx Hy Eo. destruct (optimize_xor_none _ _ _ Eo) as (Hx0 & Hy0 & Hxy).
  destruct (optimize_xor_none_neg _ _ _ I Eo) as [N1 N2].
  rewrite final_xor_snd. cbn zeta.
  destruct (N.eqb_spec x 1) as [->|Hx1].
  - destruct (N.eqb_spec y 1) as [->|Hy1]; [contradiction|].
    apply ninv_record_not; auto; lia.
  - destruct (N.eqb_spec y 1) as [->|Hy1].
    + apply ninv_record_not; auto; lia.
    + now apply ninv_push_xor_plain.
Qed.

Lemma ninv_astep b b' : inv b -> sinv b /\ ninv b -> astep b b' -> sinv b' /\ ninv b'.
Proof.
  intros I [S Nv] A. split; [eapply sinv_astep; eauto|].
  destruct A as [x y Eo Hx Hy|b'' [x y Eo Hx Hy|x y x1 x2 y1 y2 a1 a2 b2 Hxy Hx Hy Lx Ly Ef]].
  - now apply ninv_push_and.
  - now apply ninv_final_xor.
  - apply ninv_push_and.
    destruct (lookup_gate _ _ _ I Lx) as [_ Gx]. destruct (lookup_gate _ _ _ I Ly) as [_ Gy].
    destruct (s_and b S _ _ _ Gx) as (X1 & X2 & _). destruct (s_and b S _ _ _ Gy) as (Y1 & Y2 & _).
    apply ninv_push_xor_plain; [exact Nv| |];
      destruct (find_common_cases _ _ _ _ _ _ _ Ef) as [H|[H|[H|H]]]; destruct H as (-> & -> & _ & ->); lia.
Qed.

Theorem reachable_ninv b hs : reachable b hs -> ninv b.
Proof.
  intro R. apply (reachable_pres (fun b => sinv b /\ ninv b) b hs); [| |exact R].
  - intros b0 b1. apply ninv_astep.
  - intros. split; [apply sinv_new|apply ninv_new].
Qed.

(* negation of a wire that has a recorded negation: no gate *)
Lemma push_not_neg b a n :
  2 <= a -> 2 <= n -> nfind a (b_neg b) = Some n -> push_not b a = Ok (n, b).
Proof.
  intros Ha Hn E. apply push_xor_top_opt. unfold optimize_xor. rewrite E.
  destruct (N.eqb_spec a 0); [lia|]. destruct (N.eqb_spec 1 0); [lia|].
  destruct (N.eqb_spec a 1); [lia|]. destruct (N.eqb_spec n 1); [lia|]. now rewrite N.eqb_refl.
Qed.

Lemma push_not_recorded b a n :
  inv b -> ninv b -> nfind a (b_neg b) = Some n -> push_not b n = Ok (a, b).
Proof.
  intros I Nv E. pose proof (n_sym b Nv _ _ E) as E'.
  destruct (inv_neg b I _ _ E) as (A2 & _). destruct (inv_neg b I _ _ E') as (N2 & _).
  now apply push_not_neg.
Qed.

(* double negation returns the wire itself and stores nothing the second time *)
Theorem push_not_involutive b hs x r b' :
  reachable b hs -> valid b x -> push_not b x = Ok (r, b') -> push_not b' r = Ok (x, b').
Proof.
  intros R Hx E. destruct (reachable_inv _ _ R) as [I _]. pose proof (reachable_ninv _ _ R) as Nv.
  pose proof (inv_shift b I) as Hs.
  destruct (push_not_cases b x I Hx) as [(w & E1 & H)|(Eo & E1)]; rewrite E1 in E.
  - injection E as <- <-. destruct H as [Eo|[Lx|Lx]].
    + (* a cached NOT is always recorded *)
      unfold optimize_xor in Eo.
      destruct (N.eqb_spec x 0) as [->|Hx0]; [injection Eo as <-; apply push_xor_top_self|].
      destruct (N.eqb_spec 1 0); [lia|].
      destruct (N.eqb_spec x 1) as [->|Hx1]; [injection Eo as <-; reflexivity|].
      destruct (nfind x (b_neg b)) as [xn|] eqn:Ex.
      * destruct (inv_neg b I _ _ (n_sym b Nv _ _ Ex)) as (Xn2 & _).
        destruct (N.eqb_spec xn 1); [lia|]. rewrite N.eqb_refl in Eo. injection Eo as <-.
        now apply (push_not_recorded b x).
      * rewrite (neg_one_none b I) in Eo. exfalso. unfold get_cached in Eo.
        destruct (negb (b_dedup b)); [discriminate|].
        destruct (cache_get (b_cxor b) x 1) as [w1|] eqn:Ec.
        -- destruct (n_cache b Nv _ _ _ Ec) as [_ C]. now apply C.
        -- destruct (n_cache b Nv _ _ _ Eo) as [C _]. now apply C.
    + destruct (lookup_gate _ _ _ I Lx) as [Sx Gx]. destruct (n_gate b Nv _ _ _ Gx) as [G _].
      replace (b_shift b + (x - b_shift b)) with x in G by lia.
      exact (push_not_recorded b x w I Nv (G eq_refl)).
    + destruct (lookup_gate _ _ _ I Lx) as [Sx Gx]. destruct (n_gate b Nv _ _ _ Gx) as [_ G].
      replace (b_shift b + (x - b_shift b)) with x in G by lia.
      exact (push_not_recorded b x w I Nv (G eq_refl)).
  - destruct (optimize_xor_none _ _ _ Eo) as (Hx0 & _ & Hx1).
    assert (E' : final_xor b x 1 = (r, b')) by congruence.
    replace b' with (snd (final_xor b x 1)) by now rewrite E'.
    replace r with (counter b) by (change (fst (final_xor b x 1) = r); now rewrite E').
    apply push_not_neg; [unfold counter; lia|lia|].
    rewrite final_xor_snd. cbn zeta. destruct (N.eqb_spec x 1); [contradiction|].
    rewrite N.eqb_refl. unfold set_negated. cbn [b_neg]. apply nfind_add_eq.
Qed.

(* ---------------------------------------------------------------- headline: requests, then build *)

(* the setting of Requests.requests_then_build (C04): any request sequence, outputs chosen
   among the constants, the inputs and the results, the panic record of PanicResult::ok() *)
Theorem requests_build_structure dedup inputs rs outs b hs ows :
  Forall (req_ok (2 + sumN inputs)) rs -> Forall (opnd_ok (2 + sumN inputs)) outs ->
  run_reqs (new_builder dedup inputs) [] rs = Ok (b, hs) ->
  mapM (resolve hs) outs = Some ows ->
  exists c, build b panic_ok_wires ows = Ok c /\
    (forall k, 2 <= k < lenN (gates c) -> reaches c (num_inputs c + k)) /\
    (forall k g w, 2 <= k -> nthN (gates c) k = Some g -> In w (g_ops g) ->
       w <> num_inputs c /\ w <> num_inputs c + 1) /\
    (forall k x y, nthN (gates c) k = Some (GAnd x y) -> x <> y) /\
    (dedup = true -> forall k1 k2 x y x' y',
       nthN (gates c) k1 = Some (GAnd x y) -> nthN (gates c) k2 = Some (GAnd x' y') ->
       same_pair x y x' y' -> k1 = k2) /\
    and_gates c <= N.of_nat (reqs_cost rs).
Proof.
  intros Hr Ho E Eo.
  assert (R : reachable b hs) by (exists dedup, inputs, rs; auto).
  destruct (reachable_inv _ _ R) as [I Hh].
  destruct (run_reqs_post rs _ _ _ _ (inv_new dedup inputs) (Forall_nil _) Hr E) as (_ & _ & X & _).
  destruct X as (Es & _ & Ed & _). cbn [new_builder b_shift b_dedup] in Es, Ed.
  assert (Hpw : valids b panic_ok_wires) by now apply panic_ok_wires_valid.
  assert (Hov : valids b ows).
  { apply (resolve_valids b hs outs ows R); [rewrite Es; exact Ho|exact Eo]. }
  destruct (build_total _ _ _ _ R Hpw Hov) as [c Ec]. exists c. split; [exact Ec|].
  split; [exact (build_all_used _ _ _ _ _ R Hpw Hov Ec)|].
  split; [exact (build_no_constant_operand _ _ _ _ _ R Hpw Hov Ec)|].
  split; [exact (proj1 (build_no_self_operand _ _ _ _ _ R Hpw Hov Ec))|].
  split; [|exact (build_and_count_le _ _ _ _ _ _ _ _ Hr E Hpw Hov Ec)].
  intro Hd. apply (build_and_unique _ _ _ _ _ R Hpw Hov Ec). congruence.
Qed.
