(* Soundness of CircuitBuilder::build (pruning + final numbering): the built circuit passes
   its own validation and, on every input, outputs the denotations of the requested wires
   (the 161 panic-record wires first).  With BuilderProofs.v this gives the headline of C04:
   whatever simplifications fired, the circuit computes what the requests denote. *)
From GV Require Import Base.Util Base.ListFacts Base.NMap Circuit.Ssa Circuit.SsaProofs
  Builder.Builder Builder.Build Builder.BuilderSem Builder.BuilderSpec Builder.BuilderProofs.

Definition isused (used : nmap unit) (i : N) : bool :=
  match nfind i used with Some _ => true | None => false end.

Definition subset (u u' : nmap unit) : Prop := forall i, isused u i = true -> isused u' i = true.

Lemma subset_refl u : subset u u.
Proof. intros i H. exact H. Qed.

Lemma subset_trans a b c : subset a b -> subset b c -> subset a c.
Proof. intros H1 H2 i H. auto. Qed.

Lemma isused_mark shift u w i :
  isused (mark shift u w) i = isused u i || ((shift <=? w) && (w - shift =? i)).
Proof.
  unfold mark, isused. destruct (shift <=? w); cbn [andb].
  - rewrite nfind_add. destruct (w - shift =? i); [now rewrite orb_true_r|now rewrite orb_false_r].
  - now rewrite orb_false_r.
Qed.

Lemma isused_mark_iff shift u w i :
  isused (mark shift u w) i = true <-> isused u i = true \/ (shift <= w /\ w - shift = i).
Proof. now rewrite isused_mark, orb_true_iff, andb_true_iff, N.leb_le, N.eqb_eq. Qed.

Lemma mark_subset shift u w : subset u (mark shift u w).
Proof. intros i H. rewrite isused_mark, H. reflexivity. Qed.

(* operands of a used gate are marked (those that are gates) *)
Definition ops_marked (shift : N) (u : nmap unit) (g : bgate) : Prop :=
  let '(x, y) := Build.gops g in
  (shift <= x -> isused u (x - shift) = true) /\ (shift <= y -> isused u (y - shift) = true).

Definition gates_wf (shift : N) (gs : list bgate) : Prop :=
  forall i g, nthN gs i = Some g ->
    let '(x, y) := Build.gops g in x < shift + i /\ y < shift + i.

Lemma gates_wf_app_l shift gs0 g : gates_wf shift (gs0 ++ [g]) -> gates_wf shift gs0.
Proof.
  intros H i g0 Hi. apply H. rewrite nthN_app_l; [exact Hi|]. now apply nthN_lt in Hi.
Qed.

Lemma mark_pass_spec shift gs : forall u,
  gates_wf shift gs ->
  let u' := mark_pass shift (rev gs) (lenN gs) u in
  subset u u' /\
  (forall j, lenN gs <= j -> isused u' j = isused u j) /\
  (forall j g, nthN gs j = Some g -> isused u' j = true -> ops_marked shift u' g) /\
  (* and it marks nothing else: an induction principle over the marked gates *)
  (forall P : N -> Prop, (forall j, isused u j = true -> P j) ->
     (forall k g w, nthN gs k = Some g -> isused u' k = true -> P k ->
        (w = fst (Build.gops g) \/ w = snd (Build.gops g)) -> shift <= w -> P (w - shift)) ->
     forall j, isused u' j = true -> P j).
Proof.
  induction gs as [|g gs0 IH] using rev_ind; intros u Hwf; cbn zeta.
  - cbn [rev mark_pass]. split; [apply subset_refl|]. split; [reflexivity|]. split; [|auto].
    intros j g Hj. apply nthN_lt in Hj. rewrite lenN_nil in Hj. lia.
  - rewrite rev_app_distr. cbn [rev app mark_pass].
    rewrite lenN_app, lenN_cons, lenN_nil.
    replace (lenN gs0 + (1 + 0) - 1) with (lenN gs0) by lia.
    set (p := lenN gs0).
    set (u1 := match nfind p u with
               | Some _ => let '(x, y) := Build.gops g in mark shift (mark shift u x) y
               | None => u end).
    pose proof (gates_wf_app_l _ _ _ Hwf) as Hwf0.
    destruct (IH u1 Hwf0) as (Hsub & Hhigh & Hclos & Honly). fold p in Hsub, Hhigh, Hclos, Honly.
    assert (Hg : let '(x, y) := Build.gops g in x < shift + p /\ y < shift + p).
    { apply (Hwf p g). unfold p. apply nthN_app_here. }
    assert (Hu1 : subset u u1).
    { unfold u1. destruct (nfind p u); [|apply subset_refl].
      destruct (Build.gops g) as [x y]. eapply subset_trans; apply mark_subset. }
    assert (Hu1high : forall j, p <= j -> isused u1 j = isused u j).
    { intros j Hj. unfold u1. destruct (nfind p u); [|reflexivity].
      destruct (Build.gops g) as [x y]. destruct Hg as [Hx Hy]. rewrite !isused_mark.
      assert (E1 : (shift <=? x) && (x - shift =? j) = false).
      { destruct (N.leb_spec shift x); cbn [andb]; [|reflexivity]. apply N.eqb_neq. lia. }
      assert (E2 : (shift <=? y) && (y - shift =? j) = false).
      { destruct (N.leb_spec shift y); cbn [andb]; [|reflexivity]. apply N.eqb_neq. lia. }
      rewrite E1, E2. now rewrite !orb_false_r. }
    split; [eapply subset_trans; eauto|]. split; [|split].
    + intros j Hj. rewrite Hhigh by lia. apply Hu1high. lia.
    + intros j g0 Hj Hused.
      destruct (N.lt_ge_cases j p) as [Hlt|Hge].
      * rewrite nthN_app_l in Hj by exact Hlt. eapply Hclos; eauto.
      * assert (j = p).
        { apply nthN_lt in Hj. rewrite lenN_app, lenN_cons, lenN_nil in Hj. unfold p in *. lia. }
        subst j. unfold p in Hj. rewrite nthN_app_here in Hj. injection Hj as <-.
        rewrite Hhigh in Hused by lia.
        assert (Hup : isused u p = true) by (rewrite <- Hu1high; [exact Hused|lia]).
        unfold ops_marked. unfold u1 in Hsub. unfold isused in Hup.
        destruct (nfind p u) eqn:Ep; [|discriminate].
        destruct (Build.gops g) as [x y]. split; intro Hs; apply Hsub; apply isused_mark_iff; auto.
        left. apply isused_mark_iff. auto.
    + intros P Hinit HclosP. apply (Honly P).
      * intros j Hj. unfold u1 in Hj. destruct (nfind p u) eqn:Ep; [|now apply Hinit].
        assert (Hup : isused u p = true) by (unfold isused; now rewrite Ep).
        assert (Hgp : nthN (gs0 ++ [g]) p = Some g) by (unfold p; apply nthN_app_here).
        destruct (Build.gops g) as [x y] eqn:Eg.
        apply isused_mark_iff in Hj. destruct Hj as [Hj|[Hle <-]].
        -- apply isused_mark_iff in Hj. destruct Hj as [Hj|[Hle <-]]; [now apply Hinit|].
           apply (HclosP p g x Hgp); [apply Hsub, Hu1, Hup|now apply Hinit|rewrite Eg; now left|exact Hle].
        -- apply (HclosP p g y Hgp); [apply Hsub, Hu1, Hup|now apply Hinit|rewrite Eg; now right|exact Hle].
      * intros k g0 w Hk. apply HclosP. rewrite nthN_app_l; [exact Hk|]. now apply nthN_lt in Hk.
Qed.

Lemma fold_mark_roots shift roots : forall u w,
  In w roots -> shift <= w -> isused (fold_left (mark shift) roots u) (w - shift) = true.
Proof.
  induction roots as [|r rs IH]; intros u w Hin Hs; [destruct Hin|]. cbn [fold_left].
  destruct Hin as [->|Hin]; [|now apply IH].
  assert (Hm : isused (mark shift u w) (w - shift) = true) by (apply isused_mark_iff; auto).
  clear IH. revert Hm. generalize (mark shift u w). induction rs as [|r rs IH]; intros u0 H; cbn [fold_left]; [exact H|].
  apply IH. now apply mark_subset.
Qed.

(* ---------------------------------------------------------------- counting and renumbering *)

Fixpoint cnt (P : N -> bool) (i0 : N) (m : nat) : N :=
  match m with
  | O => 0
  | S m' => (if P i0 then 1 else 0) + cnt P (i0 + 1) m'
  end.

Lemma cnt_snoc P : forall m i0,
  cnt P i0 (S m) = cnt P i0 m + (if P (i0 + N.of_nat m) then 1 else 0).
Proof.
  induction m as [|m IH]; intro i0.
  - cbn [cnt]. replace (i0 + N.of_nat 0) with i0 by (cbn [N.of_nat]; lia). lia.
  - change (cnt P i0 (S (S m))) with ((if P i0 then 1 else 0) + cnt P (i0 + 1) (S m)).
    rewrite IH. cbn [cnt]. replace (i0 + 1 + N.of_nat m) with (i0 + N.of_nat (S m)) by lia. lia.
Qed.

Lemma cnt_split P : forall m i0, cnt P i0 m + cnt (fun i => negb (P i)) i0 m = N.of_nat m.
Proof.
  induction m as [|m IH]; intro i0; cbn [cnt]; [reflexivity|].
  specialize (IH (i0 + 1)). destruct (P i0); cbn [negb]; lia.
Qed.

Lemma cnt_le P m i0 : cnt P i0 m <= N.of_nat m.
Proof. pose proof (cnt_split P m i0). lia. Qed.

Lemma count_unused_spec used gs : forall i0 c tbl,
  let '(tbl', _) := count_unused gs i0 c used tbl in
  (forall j, (j < length gs)%nat ->
     nfind (i0 + N.of_nat j) tbl' = Some (c + cnt (fun i => negb (isused used i)) i0 (S j))) /\
  (forall k, k < i0 -> nfind k tbl' = nfind k tbl).
Proof.
  induction gs as [|g r IH]; intros i0 c tbl; cbn [count_unused].
  - split; [intros j Hj; cbn [length] in Hj; lia|reflexivity].
  - set (c' := match nfind i0 used with Some _ => c | None => c + 1 end).
    specialize (IH (i0 + 1) c' (nadd i0 c' tbl)).
    destruct (count_unused r (i0 + 1) c' used (nadd i0 c' tbl)) as [tbl' c2].
    destruct IH as [IH1 IH2]. split.
    + intros j Hj. destruct j as [|j].
      * cbn [N.of_nat]. rewrite N.add_0_r, IH2 by lia. rewrite nfind_add_eq.
        cbn [cnt]. unfold c', isused. destruct (nfind i0 used); cbn [negb]; f_equal; lia.
      * cbn [length] in Hj. replace (i0 + N.of_nat (S j)) with (i0 + 1 + N.of_nat j) by lia.
        rewrite IH1 by lia. f_equal.
        change (cnt (fun i => negb (isused used i)) i0 (S (S j)))
          with ((if negb (isused used i0) then 1 else 0) + cnt (fun i => negb (isused used i)) (i0 + 1) (S j)).
        unfold c', isused. destruct (nfind i0 used); cbn [negb]; lia.
    + intros k Hk. rewrite IH2 by lia. apply nfind_add_neq. lia.
Qed.

(* the new index of a builder wire *)
Definition renum (shift : N) (used : nmap unit) (w : N) : N :=
  if w <? shift then w
  else shift + cnt (isused used) 0 (N.to_nat (w - shift)).

Lemma shift_idx_spec shift used gs tbl c w :
  count_unused gs 0 0 used nempty = (tbl, c) ->
  w < shift + lenN gs ->
  (shift <= w -> isused used (w - shift) = true) ->
  shift_idx shift tbl w = Ok (renum shift used w).
Proof.
  intros Hc Hw Hu. unfold shift_idx, renum.
  pose proof (count_unused_spec used gs 0 0 nempty) as Hs. rewrite Hc in Hs. destruct Hs as [Hs _].
  destruct (N.ltb_spec shift w) as [Hlt|Hge].
  - destruct (N.ltb_spec w shift); [lia|].
    set (i := w - shift) in *.
    specialize (Hs (N.to_nat i)). rewrite N.add_0_l, N2Nat.id in Hs.
    rewrite Hs by (unfold lenN in Hw; lia). f_equal. rewrite N.add_0_l.
    rewrite cnt_snoc. rewrite N.add_0_l, N2Nat.id. rewrite Hu by lia. cbn [negb].
    pose proof (cnt_split (isused used) (N.to_nat i) 0) as Hsp. lia.
  - destruct (N.ltb_spec w shift) as [|Hge2]; [reflexivity|].
    assert (w = shift) by lia. subst w. rewrite N.sub_diag. cbn [N.to_nat cnt]. f_equal. lia.
Qed.

Lemma renum_lt shift used w : w < shift -> renum shift used w = w.
Proof. intro H. unfold renum. destruct (N.ltb_spec w shift); [reflexivity|lia]. Qed.

Lemma renum_gate shift used i :
  renum shift used (shift + i) = shift + cnt (isused used) 0 (N.to_nat i).
Proof.
  unfold renum. destruct (N.ltb_spec (shift + i) shift); [lia|].
  replace (shift + i - shift) with i by lia. reflexivity.
Qed.

(* ---------------------------------------------------------------- compaction *)

Definition regate (shift : N) (used : nmap unit) (g : bgate) : bgate :=
  match g with
  | BXor x y => BXor (renum shift used x) (renum shift used y)
  | BAnd x y => BAnd (renum shift used x) (renum shift used y)
  end.

Fixpoint compact (shift : N) (used : nmap unit) (gs : list bgate) (i : N) : list bgate :=
  match gs with
  | [] => []
  | g :: r =>
      (if isused used i then [regate shift used g] else []) ++ compact shift used r (i + 1)
  end.

Lemma compact_app shift used l1 : forall l2 i,
  compact shift used (l1 ++ l2) i = compact shift used l1 i ++ compact shift used l2 (i + lenN l1).
Proof.
  induction l1 as [|g r IH]; intros l2 i; cbn [app compact].
  - now rewrite lenN_nil, N.add_0_r.
  - rewrite IH, lenN_cons, <- app_assoc. replace (i + 1 + lenN r) with (i + (1 + lenN r)) by lia. reflexivity.
Qed.

Lemma compact_len shift used gs : forall i,
  lenN (compact shift used gs i) = cnt (isused used) i (length gs).
Proof.
  induction gs as [|g r IH]; intro i; cbn [compact cnt length]; [reflexivity|].
  rewrite lenN_app, IH. destruct (isused used i); [rewrite lenN_cons, lenN_nil|rewrite lenN_nil]; lia.
Qed.

Section Compaction.
  Variable shift : N.
  Variable used : nmap unit.
  Variable gs : list bgate.
  Variable tbl : nmap N.
  Variable c : N.
  Hypothesis Htbl : count_unused gs 0 0 used nempty = (tbl, c).
  Hypothesis Hwf : gates_wf shift gs.
  Hypothesis Hclos : forall j g, nthN gs j = Some g -> isused used j = true -> ops_marked shift used g.

  Lemma shift_idx_ok w : w < shift + lenN gs -> exists r, shift_idx shift tbl w = Ok r.
  Proof.
    intro Hw. unfold shift_idx. destruct (shift <? w) eqn:E; [|eauto].
    apply N.ltb_lt in E.
    pose proof (count_unused_spec used gs 0 0 nempty) as Hs. rewrite Htbl in Hs. destruct Hs as [Hs _].
    specialize (Hs (N.to_nat (w - shift))). rewrite N.add_0_l, N2Nat.id in Hs.
    rewrite Hs by (unfold lenN in Hw; lia). eauto.
  Qed.

  Lemma shift_gate_spec j g :
    nthN gs j = Some g ->
    exists g', shift_gate shift tbl g = Ok g' /\ (isused used j = true -> g' = regate shift used g).
  Proof.
    intro Hj. pose proof (Hwf j g Hj) as Hops. pose proof (nthN_lt _ _ _ Hj) as Hlt.
    destruct g as [x y|x y]; cbn [Build.gops shift_gate regate] in *; destruct Hops as [Hx Hy];
      (destruct (shift_idx_ok x) as [rx Ex]; [lia|]; destruct (shift_idx_ok y) as [ry Ey]; [lia|];
       rewrite Ex, Ey; cbn [bind]; eexists; split; [reflexivity|]; intro Hu;
       destruct (Hclos j _ Hj Hu) as [Cx Cy]; cbn [Build.gops] in Cx, Cy;
       rewrite (shift_idx_spec shift used gs tbl c x Htbl) in Ex by (auto; lia);
       rewrite (shift_idx_spec shift used gs tbl c y Htbl) in Ey by (auto; lia);
       injection Ex as <-; injection Ey as <-; reflexivity).
  Qed.

  Lemma keep_used_spec suf : forall pre,
    gs = pre ++ suf ->
    keep_used shift tbl used suf (lenN pre) = Ok (compact shift used suf (lenN pre)).
  Proof.
    induction suf as [|g r IH]; intros pre Hgs; cbn [keep_used compact]; [reflexivity|].
    assert (Hj : nthN gs (lenN pre) = Some g) by (rewrite Hgs; apply nthN_app_here).
    destruct (shift_gate_spec _ _ Hj) as (g' & -> & Hg'). cbn [bind].
    specialize (IH (pre ++ [g])). rewrite lenN_app, lenN_cons, lenN_nil in IH.
    replace (lenN pre + (1 + 0)) with (lenN pre + 1) in IH by lia.
    rewrite IH by (rewrite Hgs, <- app_assoc; reflexivity). cbn [bind].
    unfold isused in *. destruct (nfind (lenN pre) used); [|reflexivity].
    rewrite (Hg' eq_refl). reflexivity.
  Qed.

  Lemma cnt_lt_used i p : (i < p)%nat -> isused used (N.of_nat i) = true ->
    cnt (isused used) 0 i < cnt (isused used) 0 p.
  Proof.
    intros Hlt Hu. induction p as [|p IH]; [lia|].
    rewrite cnt_snoc, N.add_0_l. destruct (Nat.eq_dec i p) as [->|Hne].
    - rewrite Hu. lia.
    - assert (cnt (isused used) 0 i < cnt (isused used) 0 p) by (apply IH; lia).
      destruct (isused used (N.of_nat p)); lia.
  Qed.

  (* values: the compacted list computes, at the renumbered position, what the original
     computes, for every wire that survives *)
  Definition survives (w : N) : Prop := w < shift \/ isused used (w - shift) = true.

  Lemma compact_vals init :
    lenN init = shift ->
    let a := run_gates init gs in
    let a' := run_gates init (compact shift used gs 0) in
    lenN a' = shift + cnt (isused used) 0 (length gs) /\
    forall w, w < shift + lenN gs -> survives w -> nthd a' (renum shift used w) = nthd a w.
  Proof.
    intro Hinit. revert Hwf Hclos. clear Htbl. 
    induction gs as [|g gs0 IH] using rev_ind; intros Hwf' Hclos'; cbn zeta.
    - cbn [compact run_gates length cnt]. split; [lia|]. intros w Hw _.
      rewrite lenN_nil in Hw. now rewrite renum_lt by lia.
    - rewrite compact_app, !run_gates_app, N.add_0_l. cbn [compact run_gates].
      set (p := lenN gs0).
      assert (Hwf0 : gates_wf shift gs0) by (eapply gates_wf_app_l; eauto).
      assert (Hclos0 : forall j g0, nthN gs0 j = Some g0 -> isused used j = true -> ops_marked shift used g0).
      { intros j g0 Hj. apply Hclos'. rewrite nthN_app_l; [exact Hj|]. now apply nthN_lt in Hj. }
      destruct (IH Hwf0 Hclos0) as [Hlen Hval]. clear IH.
      set (a0 := run_gates init gs0) in *. set (a0' := run_gates init (compact shift used gs0 0)) in *.
      assert (Hla0 : lenN a0 = shift + p) by (unfold a0; rewrite run_gates_len; lia).
      assert (Hp : length gs0 = N.to_nat p) by (unfold p, lenN; lia).
      assert (Hg : let '(x, y) := Build.gops g in x < shift + p /\ y < shift + p).
      { apply (Hwf' p g). unfold p. apply nthN_app_here. }
      rewrite app_length. cbn [length]. rewrite Nat.add_1_r, cnt_snoc, N.add_0_l.
      replace (N.of_nat (length gs0)) with p by (unfold p, lenN; reflexivity).
      (* old wires *)
      assert (Hold : forall w, w < shift + p -> survives w ->
                renum shift used w < lenN a0' /\ nthd a0' (renum shift used w) = nthd a0 w).
      { intros w Hw Hs. split; [|apply Hval; [unfold p in Hw; exact Hw|exact Hs]].
        rewrite Hlen. destruct (N.lt_ge_cases w shift) as [Hl|Hge]; [rewrite renum_lt by exact Hl; lia|].
        replace w with (shift + (w - shift)) by lia. rewrite renum_gate.
        destruct Hs as [Hs|Hs]; [lia|]. rewrite Hp.
        apply N.add_lt_mono_l. apply cnt_lt_used; [lia|]. now rewrite N2Nat.id. }
      destruct (isused used p) eqn:Up.
      + cbn [app run_gates]. split.
        * rewrite lenN_app, lenN_cons, lenN_nil, Hlen. lia.
        * intros w Hw Hs. rewrite lenN_app, lenN_cons, lenN_nil in Hw.
          destruct (N.lt_ge_cases w (shift + p)) as [Hlt|Hge].
          -- destruct (Hold w Hlt Hs) as [H1 H2].
             rewrite nthd_app_l by exact H1. rewrite nthd_app_l by lia. exact H2.
          -- assert (w = shift + p) by (unfold p in *; lia). subst w.
             rewrite renum_gate, <- Hp, <- Hlen, nthd_app_here, <- Hla0, nthd_app_here.
             assert (Hcl : ops_marked shift used g).
             { apply (Hclos' p g); [unfold p; apply nthN_app_here|exact Up]. }
             destruct g as [x y|x y]; cbn [Build.gops regate gval ops_marked] in *;
               destruct Hg as [Hx Hy]; destruct Hcl as [Cx Cy];
               (assert (Sx : survives x) by (destruct (N.lt_ge_cases x shift); [now left|right; auto]);
                assert (Sy : survives y) by (destruct (N.lt_ge_cases y shift); [now left|right; auto]);
                destruct (Hold x Hx Sx) as [_ ->]; destruct (Hold y Hy Sy) as [_ ->]; reflexivity).
      + cbn [app run_gates]. split; [rewrite Hlen; lia|].
        intros w Hw Hs. rewrite lenN_app, lenN_cons, lenN_nil in Hw.
        destruct (N.lt_ge_cases w (shift + p)) as [Hlt|Hge].
        * destruct (Hold w Hlt Hs) as [H1 H2]. rewrite nthd_app_l by lia. exact H2.
        * assert (w = shift + p) by (unfold p in *; lia). subst w.
          destruct Hs as [Hs|Hs]; [lia|]. replace (shift + p - shift) with p in Hs by lia. congruence.
  Qed.
End Compaction.

Lemma nthN_snoc {A} (l : list A) g i g' :
  nthN (l ++ [g]) i = Some g' -> nthN l i = Some g' \/ (i = lenN l /\ g' = g).
Proof.
  intro H. destruct (N.lt_ge_cases i (lenN l)) as [Hlt|Hge].
  - left. now rewrite nthN_app_l in H.
  - right. assert (i = lenN l).
    { apply nthN_lt in H. rewrite lenN_app, lenN_cons, lenN_nil in H. lia. }
    subst i. rewrite nthN_app_here in H. now injection H as <-.
Qed.

(* ---- positions in the compacted list ---- *)

Section Positions.
  Variable shift : N.
  Variable used : nmap unit.

  Local Notation pos j := (cnt (isused used) 0 (N.to_nat j)).

  Lemma compact_nth gs : forall j g,
    nthN gs j = Some g -> isused used j = true ->
    nthN (compact shift used gs 0) (pos j) = Some (regate shift used g).
  Proof.
    induction gs as [|g0 gs0 IH] using rev_ind; intros j g Hj Hu.
    - apply nthN_lt in Hj. rewrite lenN_nil in Hj. lia.
    - rewrite compact_app, N.add_0_l. cbn [compact]. rewrite app_nil_r.
      destruct (nthN_snoc _ _ _ _ Hj) as [Hj0|[-> ->]].
      + rewrite nthN_app_l; [now apply IH|]. rewrite compact_len.
        pose proof (nthN_lt _ _ _ Hj0) as Hlt. unfold lenN in Hlt.
        apply cnt_lt_used; [lia|]. now rewrite N2Nat.id.
      + rewrite Hu. replace (pos (lenN gs0)) with (lenN (compact shift used gs0 0)).
        * apply nthN_app_here.
        * rewrite compact_len. unfold lenN. now rewrite Nat2N.id.
  Qed.

  Lemma compact_inv gs : forall i g',
    nthN (compact shift used gs 0) i = Some g' ->
    exists j g, nthN gs j = Some g /\ isused used j = true /\ i = pos j /\ g' = regate shift used g.
  Proof.
    induction gs as [|g0 gs0 IH] using rev_ind; intros i g' Hi.
    - cbn [compact] in Hi. apply nthN_lt in Hi. rewrite lenN_nil in Hi. lia.
    - rewrite compact_app, N.add_0_l in Hi. cbn [compact] in Hi. rewrite app_nil_r in Hi.
      assert (Hold : nthN (compact shift used gs0 0) i = Some g' ->
                exists j g, nthN (gs0 ++ [g0]) j = Some g /\ isused used j = true /\ i = pos j /\
                            g' = regate shift used g).
      { intro H. destruct (IH _ _ H) as (j & g & Hj & Hu & Ei & Eg). exists j, g.
        split; [|auto]. rewrite nthN_app_l; [exact Hj|]. now apply nthN_lt in Hj. }
      destruct (isused used (lenN gs0)) eqn:Up.
      + destruct (nthN_snoc _ _ _ _ Hi) as [H0|[Ei Eg]]; [now apply Hold|].
        exists (lenN gs0), g0. split; [apply nthN_app_here|]. split; [exact Up|]. split; [|exact Eg].
        rewrite Ei, compact_len. unfold lenN. now rewrite Nat2N.id.
      + rewrite app_nil_r in Hi. now apply Hold.
  Qed.

  (* renumbering is strictly increasing on the wires that survive *)
  Lemma renum_mono w1 w2 :
    (shift <= w1 -> isused used (w1 - shift) = true) -> w1 < w2 ->
    renum shift used w1 < renum shift used w2.
  Proof.
    intros H1 Hlt. unfold renum.
    destruct (N.ltb_spec w1 shift); destruct (N.ltb_spec w2 shift); try lia.
    apply N.add_lt_mono_l. apply cnt_lt_used; [lia|]. rewrite N2Nat.id. apply H1. lia.
  Qed.

  Lemma renum_inj w1 w2 :
    (shift <= w1 -> isused used (w1 - shift) = true) ->
    (shift <= w2 -> isused used (w2 - shift) = true) ->
    renum shift used w1 = renum shift used w2 -> w1 = w2.
  Proof.
    intros H1 H2 E. destruct (N.lt_trichotomy w1 w2) as [Hlt|[->|Hgt]]; [|reflexivity|].
    - pose proof (renum_mono _ _ H1 Hlt). lia.
    - pose proof (renum_mono _ _ H2 Hgt). lia.
  Qed.

  Lemma renum_ge w : shift <= w -> shift <= renum shift used w.
  Proof. intro H. unfold renum. destruct (N.ltb_spec w shift); lia. Qed.
End Positions.


(* ---------------------------------------------------------------- final numbering *)

Lemma final_idx_high n w : 2 + n <= w -> final_idx n w = w.
Proof.
  intro H. unfold final_idx. destruct (N.leb_spec w 1); [lia|].
  destruct (N.ltb_spec w (n + 2)); lia.
Qed.

Section Final.
  Variable inp : list bool.              (* flat inputs, at least one bit *)
  Hypothesis Hinp : 1 <= lenN inp.
  Let n_in := lenN inp.

  (* builder-style values (false :: true :: inp ++ vs) against final-style (inp ++ false :: true :: vs) *)
  Definition rel (ab af : list bool) : Prop :=
    lenN ab = lenN af /\ 2 + n_in <= lenN ab /\
    nthd ab 0 = false /\ nthd ab 1 = true /\
    forall w, w < lenN ab -> nthN af (final_idx n_in w) = Some (nthd ab w).

  Lemma final_idx_lt w len : 2 + n_in <= len -> w < len -> final_idx n_in w < len.
  Proof.
    intros Hl Hw. unfold final_idx. destruct (N.leb_spec w 1); [lia|].
    destruct (N.ltb_spec w (n_in + 2)); lia.
  Qed.

  Lemma rel_step ab af g :
    rel ab af ->
    (let '(x, y) := Build.gops g in x < lenN ab /\ y < lenN ab) ->
    eval_gate af (final_gate n_in g) = Some (gval ab g) /\
    gate_ok (lenN af) (final_gate n_in g) = true /\
    rel (ab ++ [gval ab g]) (af ++ [gval ab g]).
  Proof.
    intros (Hl & Hmin & H0 & H1 & Hv) Hops.
    assert (Hrel' : forall v, rel (ab ++ [v]) (af ++ [v])).
    { intro v. unfold rel. rewrite !lenN_app, !lenN_cons, !lenN_nil. repeat split; try lia.
      - rewrite nthd_app_l by lia. exact H0.
      - rewrite nthd_app_l by lia. exact H1.
      - intros w Hw. destruct (N.lt_ge_cases w (lenN ab)) as [Hlt|Hge].
        + rewrite nthd_app_l by exact Hlt. rewrite nthN_app_l; [now apply Hv|].
          rewrite <- Hl. now apply final_idx_lt.
        + assert (w = lenN ab) by lia. subst w. rewrite nthd_app_here.
          rewrite final_idx_high by lia. rewrite Hl. apply nthN_app_here. }
    assert (Hlt : forall w, w < lenN ab -> (lenN af <=? final_idx n_in w) = false).
    { intros w Hw. apply N.leb_gt. rewrite <- Hl. now apply final_idx_lt. }
    split; [|split; [|apply Hrel']].
    - destruct g as [x y|x y]; cbn [Build.gops final_gate gval] in *; destruct Hops as [Hx Hy].
      + destruct (N.eqb_spec x 1) as [->|Nx].
        { cbn [eval_gate]. rewrite (Hv y Hy), H1. now destruct (nthd ab y). }
        destruct (N.eqb_spec y 1) as [->|Ny].
        { cbn [eval_gate]. rewrite (Hv x Hx), H1. now destruct (nthd ab x). }
        cbn [eval_gate]. now rewrite (Hv x Hx), (Hv y Hy).
      + cbn [eval_gate]. now rewrite (Hv x Hx), (Hv y Hy).
    - destruct g as [x y|x y]; cbn [Build.gops final_gate] in *; destruct Hops as [Hx Hy].
      + destruct (x =? 1); [|destruct (y =? 1)]; cbn [gate_ok]; rewrite ?Hlt by assumption; reflexivity.
      + cbn [gate_ok]. rewrite !Hlt by assumption. reflexivity.
  Qed.

  Lemma rel_run cg : forall ab af,
    rel ab af ->
    (forall i g, nthN cg i = Some g -> let '(x, y) := Build.gops g in x < lenN ab + i /\ y < lenN ab + i) ->
    exists af', eval_gates af (map (final_gate n_in) cg) = Some af' /\
      validate_gates (lenN af) (map (final_gate n_in) cg) = None /\
      rel (run_gates ab cg) af'.
  Proof.
    induction cg as [|g r IH]; intros ab af Hrel Hwf; cbn [map eval_gates validate_gates run_gates].
    - exists af. auto.
    - assert (Hg : let '(x, y) := Build.gops g in x < lenN ab /\ y < lenN ab).
      { specialize (Hwf 0 g eq_refl). destruct (Build.gops g). lia. }
      destruct (rel_step ab af g Hrel Hg) as (Ev & Ok1 & Hrel1). rewrite Ev, Ok1.
      destruct (IH _ _ Hrel1) as (af' & E & V & R).
      { intros i g0 Hi. specialize (Hwf (i + 1) g0).
        assert (Hn : nthN (g :: r) (i + 1) = Some g0).
        { rewrite nthN_spec in *. replace (N.to_nat (i + 1)) with (S (N.to_nat i)) by lia. exact Hi. }
        specialize (Hwf Hn). destruct (Build.gops g0). rewrite lenN_app, lenN_cons, lenN_nil. lia. }
      exists af'. split; [exact E|]. split; [|exact R].
      rewrite lenN_app, lenN_cons, lenN_nil in V. replace (lenN af + (1 + 0)) with (lenN af + 1) in V by lia.
      exact V.
  Qed.

  Lemma rel_init : exists b0,
    eval_gates inp [GXor 0 0; GNot n_in] = Some (inp ++ [false; true]) /\
    validate_gates n_in [GXor 0 0; GNot n_in] = None /\
    rel (false :: true :: inp) (inp ++ [false; true]) /\ nthN inp 0 = Some b0.
  Proof.
    destruct (nthN_Some inp 0) as [b0 Hb0]; [unfold n_in in *; lia|]. exists b0.
    split.
    - cbn [eval_gates eval_gate]. rewrite Hb0, xorb_nilpotent.
      fold n_in. unfold n_in at 1. rewrite nthN_app_here. cbn [negb]. now rewrite <- app_assoc.
    - split.
      + cbn [validate_gates gate_ok]. rewrite (leb_false n_in 0), (leb_false (n_in + 1) n_in); [reflexivity|lia|unfold n_in; lia].
      + split; [|exact Hb0]. unfold rel. rewrite lenN_app, !lenN_cons, lenN_nil. fold n_in.
        split; [lia|]. split; [lia|]. split; [reflexivity|].
        split; [exact (nthd_app_here [false] inp true)|].
        intros w Hw. unfold final_idx.
        destruct (N.leb_spec w 1) as [Hw1|Hw1].
        * assert (Hw01 : w = 0 \/ w = 1) by lia. destruct Hw01 as [E|E]; subst w.
          -- rewrite N.add_0_l. unfold n_in. now rewrite nthN_app_here.
          -- change (inp ++ [false; true]) with (inp ++ [false] ++ [true]). rewrite app_assoc.
             replace (1 + n_in) with (lenN (inp ++ [false])) by (rewrite lenN_app, lenN_cons, lenN_nil; unfold n_in; lia).
             rewrite nthN_app_here. f_equal. symmetry. exact (nthd_app_here [false] inp true).
        * destruct (N.ltb_spec w (n_in + 2)); [|lia].
          rewrite nthN_app_l by (unfold n_in in *; lia).
          unfold nthd. rewrite !nthN_spec. replace (N.to_nat w) with (S (S (N.to_nat (w - 2)))) by lia.
          cbn [nth_error]. destruct (nth_error inp (N.to_nat (w - 2))) eqn:E; [reflexivity|].
          apply nth_error_None in E. unfold n_in, lenN in *. lia.
  Qed.
End Final.

(* ---------------------------------------------------------------- assembly *)

Lemma mapM_map_some {A B} (f : A -> option B) (g : A -> B) l :
  (forall a, In a l -> f a = Some (g a)) -> mapM f l = Some (map g l).
Proof.
  induction l as [|a r IH]; intro H; cbn [mapM map]; [reflexivity|].
  rewrite (H a (or_introl eq_refl)), IH by (intros; apply H; now right). reflexivity.
Qed.

Lemma compact_wf shift used gs :
  gates_wf shift gs ->
  (forall j g, nthN gs j = Some g -> isused used j = true -> ops_marked shift used g) ->
  forall i g, nthN (compact shift used gs 0) i = Some g ->
    let '(x, y) := Build.gops g in x < shift + i /\ y < shift + i.
Proof.
  intros Hwf Hclos i g' Hi.
  destruct (compact_inv shift used gs i g' Hi) as (j & g & Hj & Hu & -> & ->).
  pose proof (Hwf j g Hj) as Hg. pose proof (Hclos j g Hj Hu) as Hc. unfold ops_marked in Hc.
  rewrite <- (renum_gate shift used j).
  destruct g as [x y|x y]; cbn [Build.gops regate] in *; destruct Hg, Hc; split; now apply renum_mono.
Qed.

Definition survives_in (b : builder) (used : nmap unit) (w : N) : Prop :=
  w < counter b /\ (b_shift b <= w -> isused used (w - b_shift b) = true).

(* [build] never fails on a reachable builder and valid roots, and this is its result *)
Lemma build_shape b pw outs :
  inv b -> valids b pw -> valids b outs ->
  let shift := b_shift b in
  let used := mark_pass shift (b_gates_rev b) (b_ngates b)
                (fold_left (mark shift) (outs ++ pw) nempty) in
  let n_in := shift - 2 in
  build b pw outs =
    Ok (mkCircuit (b_inputs b)
          (GXor 0 0 :: GNot n_in :: map (final_gate n_in) (compact shift used (glist b) 0))
          (map (final_idx n_in) (map (renum shift used) (pw ++ outs)))) /\
  gates_wf shift (glist b) /\
  (forall j g, nthN (glist b) j = Some g -> isused used j = true -> ops_marked shift used g) /\
  (forall w, In w (pw ++ outs) -> survives_in b used w).
Proof.
  intros I Hpw Houts. cbn zeta.
  set (shift := b_shift b). set (gs := glist b).
  assert (Hrev : b_gates_rev b = rev gs) by (unfold gs, glist; now rewrite rev_involutive).
  assert (Hn : b_ngates b = lenN gs) by (symmetry; apply glist_len; exact I).
  assert (Hwf : gates_wf shift gs).
  { intros i g Hi. exact (inv_wf b I i g Hi). }
  set (used0 := fold_left (mark shift) (outs ++ pw) nempty).
  rewrite Hrev, Hn. fold used0. set (used := mark_pass shift (rev gs) (lenN gs) used0).
  destruct (mark_pass_spec shift gs used0 Hwf) as (Hsub & _ & Hclos & _). fold used in Hsub, Hclos.
  assert (Hroot : forall w, In w (pw ++ outs) -> survives_in b used w).
  { intros w Hin. split.
    - apply in_app_or in Hin. destruct Hin as [Hin|Hin];
        [eapply (proj1 (Forall_forall _ _) Hpw); eauto|eapply (proj1 (Forall_forall _ _) Houts); eauto].
    - intro Hs. apply Hsub. apply fold_mark_roots; [|exact Hs].
      apply in_or_app. apply in_app_or in Hin. tauto. }
  split; [|split; [exact Hwf|split; [exact Hclos|exact Hroot]]].
  destruct (count_unused gs 0 0 used nempty) as [tbl c0] eqn:Htbl.
  pose proof (keep_used_spec shift used gs tbl c0 Htbl Hwf Hclos gs [] eq_refl) as Hkeep.
  rewrite lenN_nil in Hkeep.
  assert (Hidx : forall l, (forall w, In w l -> In w (pw ++ outs)) ->
            mapM_res (shift_idx shift tbl) l = Ok (map (renum shift used) l)).
  { intros l Hl. apply mapM_res_map. intros w Hin. destruct (Hroot w (Hl w Hin)) as [H1 H2].
    eapply shift_idx_spec; eauto. unfold counter in H1. fold shift in H1. now rewrite Hn in H1. }
  unfold build, remove_unused_gates. fold shift. rewrite frev_rev, Hrev, Hn. fold used0 used.
  rewrite rev_involutive. rewrite Htbl, Hkeep. cbn [bind].
  rewrite (Hidx pw) by (intros; apply in_or_app; now left).
  rewrite (Hidx outs) by (intros; apply in_or_app; now right). cbn [bind].
  now rewrite (map_app (renum shift used)).
Qed.


Theorem build_sound b pw outs :
  inv b -> valids b pw -> valids b outs -> pw ++ outs <> [] ->
  2 < b_shift b -> counter b + (b_shift b - 2) <= MAX_GATES ->
  exists c, build b pw outs = Ok c /\
    ssa_validate c = None /\
    input_gates c = b_inputs b /\
    length (output_gates c) = length (pw ++ outs) /\
    forall ins inp, load_inputs (b_inputs b) ins = Some inp ->
      ssa_eval c ins = Some (map (den inp b) (pw ++ outs)).
Proof.
  intros I Hpw Houts Hne Hshift Hmax.
  destruct (build_shape b pw outs I Hpw Houts) as (Hbuild & Hwf & Hclos & Hroot0). cbn zeta in *.
  set (shift := b_shift b) in *. set (gs := glist b) in *.
  set (used := mark_pass shift (b_gates_rev b) (b_ngates b) (fold_left (mark shift) (outs ++ pw) nempty)) in *.
  set (cg := compact shift used gs 0) in *. set (n_in := shift - 2) in *.
  assert (Hn : b_ngates b = lenN gs) by (symmetry; apply glist_len; exact I).
  assert (Hroot : forall w, In w (pw ++ outs) ->
            w < shift + lenN gs /\ (shift <= w -> isused used (w - shift) = true)).
  { intros w Hin. destruct (Hroot0 w Hin) as [H1 H2]. unfold counter in H1. rewrite Hn in H1. auto. }
  rewrite map_app in Hbuild.
  set (c := mkCircuit (b_inputs b) (GXor 0 0 :: GNot n_in :: map (final_gate n_in) cg)
              (map (final_idx n_in) (map (renum shift used) pw ++ map (renum shift used) outs))) in *.
  exists c. split; [exact Hbuild|].
  (* facts that do not depend on the inputs *)
  assert (Hcgwf : forall i g, nthN cg i = Some g -> let '(x, y) := Build.gops g in x < shift + i /\ y < shift + i)
    by (apply compact_wf; assumption).
  assert (Hsum : sumN (b_inputs b) = n_in).
  { pose proof (inv_inputs b I). unfold n_in, shift. lia. }
  assert (Hcglen : lenN cg <= lenN gs).
  { unfold cg. rewrite compact_len. pose proof (cnt_le (isused used) (length gs) 0). unfold lenN. lia. }
  assert (Hrn : forall w, In w (pw ++ outs) -> renum shift used w < shift + lenN cg).
  { intros w Hin. destruct (Hroot w Hin) as [H1 H2]. unfold cg. rewrite compact_len.
    destruct (N.lt_ge_cases w shift) as [Hl|Hge]; [rewrite renum_lt by exact Hl; lia|].
    replace w with (shift + (w - shift)) by lia. rewrite renum_gate.
    apply N.add_lt_mono_l. apply cnt_lt_used; [unfold lenN in H1; lia|]. rewrite N2Nat.id. now apply H2. }
  split; [|split; [reflexivity|split]].
  - (* validate: use an all-false input to drive the same induction *)
    assert (Hni : num_inputs c = n_in) by (unfold num_inputs, c; cbn [input_gates]; exact Hsum).
    assert (Hwl : wires_len c = n_in + 2 + lenN cg).
    { unfold wires_len. rewrite Hni. unfold c. cbn [gates]. rewrite !lenN_cons.
      unfold lenN. rewrite map_length. lia. }
    unfold ssa_validate. rewrite Hni, Hwl.
    change (input_gates c) with (b_inputs b).
    change (gates c) with ([GXor 0 0; GNot n_in] ++ map (final_gate n_in) cg).
    change (output_gates c) with
      (map (final_idx n_in) (map (renum shift used) pw ++ map (renum shift used) outs)).
    assert (Hnn : is_nil (b_inputs b) = false).
    { destruct (b_inputs b); [cbn [sumN] in Hsum; unfold n_in in Hsum; lia|reflexivity]. }
    rewrite Hnn. cbn [andb].
    set (inp0 := repeat false (N.to_nat n_in)).
    assert (Hl0 : lenN inp0 = n_in) by (unfold inp0, lenN; rewrite repeat_length; lia).
    assert (H1in : 1 <= lenN inp0) by (rewrite Hl0; unfold n_in; lia).
    destruct (rel_init inp0 H1in) as (b0 & _ & V0 & R0 & _).
    destruct (rel_run inp0 H1in cg _ _ R0) as (af' & _ & V1 & R1).
    { intros i g Hi. specialize (Hcgwf i g Hi). destruct (Build.gops g).
      rewrite !lenN_cons, Hl0. unfold n_in. lia. }
    rewrite Hl0 in V0, V1.
    rewrite validate_gates_app, V0, !lenN_cons, lenN_nil.
    rewrite lenN_app, !lenN_cons, lenN_nil, Hl0 in V1. rewrite V1.
    assert (Hout_nn : is_nil (map (final_idx n_in) (map (renum shift used) pw ++ map (renum shift used) outs)) = false).
    { rewrite <- map_app. destruct (pw ++ outs); [congruence|reflexivity]. }
    rewrite Hout_nn.
    assert (Hvo : validate_outputs (n_in + 2 + lenN cg)
              (map (final_idx n_in) (map (renum shift used) pw ++ map (renum shift used) outs)) = None).
    { rewrite <- !map_app, map_map. induction (pw ++ outs) as [|w r IHr] in Hrn |- *; cbn [map validate_outputs]; [reflexivity|].
      rewrite leb_false.
      - apply IHr. intros; apply Hrn; now right.
      - assert (Hx : renum shift used w < shift + lenN cg) by (apply Hrn; now left).
        replace (n_in + 2 + lenN cg) with (shift + lenN cg) by (unfold n_in; lia).
        rewrite <- Hl0 at 1. apply final_idx_lt; rewrite ?Hl0; unfold n_in in *; lia. }
    rewrite Hvo.
    assert (Hm : (MAX_GATES <? n_in + 2 + lenN cg + n_in) = false).
    { apply N.ltb_ge. unfold counter in Hmax. fold shift in Hmax. rewrite Hn in Hmax. unfold n_in. lia. }
    rewrite Hm. reflexivity.
  - unfold c. cbn [output_gates]. rewrite <- !map_app, !map_length. reflexivity.
  - intros ins inp Hload.
    assert (Hli : lenN inp = n_in) by (rewrite (load_inputs_len _ _ _ Hload); exact Hsum).
    assert (H1in : 1 <= lenN inp) by (rewrite Hli; unfold n_in; lia).
    destruct (rel_init inp H1in) as (b0 & E0 & _ & R0 & _).
    destruct (rel_run inp H1in cg _ _ R0) as (af' & E1 & _ & R1).
    { intros i g Hi. specialize (Hcgwf i g Hi). destruct (Build.gops g).
      rewrite !lenN_cons, Hli. unfold n_in. lia. }
    unfold ssa_eval, ssa_wire_vals, c. cbn [input_gates gates output_gates]. rewrite Hload.
    change (GXor 0 0 :: GNot n_in :: map (final_gate n_in) cg)
      with ([GXor 0 0; GNot n_in] ++ map (final_gate n_in) cg).
    rewrite Hli in E0, E1. rewrite eval_gates_app, E0, E1.
    rewrite <- !map_app, map_map.
    assert (Hinit : lenN (false :: true :: inp) = shift) by (rewrite !lenN_cons, Hli; unfold n_in; lia).
    destruct (compact_vals shift used gs Hwf Hclos (false :: true :: inp) Hinit) as [Hlen' Hval].
    fold cg in Hlen', Hval. destruct R1 as (Rl & _ & _ & _ & Rv). rewrite Hli in Rv.
    rewrite mapM_map. apply mapM_map_some. intros w Hin.
    assert (Hx : renum shift used w < lenN (run_gates (false :: true :: inp) cg)).
    { rewrite Hlen'. unfold cg. pose proof (Hrn w Hin) as H. unfold cg in H. now rewrite compact_len in H. }
    rewrite (Rv _ Hx). f_equal. destruct (Hroot w Hin) as [H1 H2].
    rewrite Hval; [reflexivity|exact H1|].
    destruct (N.lt_ge_cases w shift); [now left|right; auto].
Qed.
