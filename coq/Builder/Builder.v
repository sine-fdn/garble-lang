(* Model of CircuitBuilder (src/circuit.rs:256-285, 415-467, 795-1045): the gate store with
   its structural cache and negation map, and push_xor / push_and / not / or / eq / mux
   with every constant fold, cache hit and algebraic rewrite, branch for branch.
   Wires: 0/1 = constants false/true, 2..shift-1 = inputs, >= shift = gates.
   Recursion of push_xor/push_and is on explicit fuel; BuilderProofs.v shows that the fuel
   used by the [_top] entry points never runs out. *)
From GV Require Import Base.Util Base.NMap.

Inductive bgate :=
| BXor (x y : N)
| BAnd (x y : N).

Record builder := mkBuilder {
  b_dedup : bool;               (* opts.cache_gates *)
  b_shift : N;
  b_inputs : list N;            (* input_gates: bits per party *)
  b_gates_rev : list bgate;     (* newest first *)
  b_ngates : N;
  b_gmap : nmap bgate;          (* position in gates -> gate *)
  b_cxor : nmap (nmap N);       (* cache, Xor keys *)
  b_cand : nmap (nmap N);       (* cache, And keys *)
  b_neg : nmap N                (* negated *)
}.

Definition new_builder (dedup : bool) (inputs : list N) : builder :=
  mkBuilder dedup (2 + sumN inputs) inputs [] 0 nempty nempty nempty nempty.

Definition counter (b : builder) : N := b_shift b + b_ngates b.

Definition cache_get (m : nmap (nmap N)) (x y : N) : option N :=
  match nfind x m with
  | Some m2 => nfind y m2
  | None => None
  end.

Definition cache_put (m : nmap (nmap N)) (x y w : N) : nmap (nmap N) :=
  nadd x (nadd y w (match nfind x m with Some m2 => m2 | None => nempty end)) m.

Definition get_cached (b : builder) (g : bgate) : option N :=
  if negb (b_dedup b) then None else
  match g with
  | BXor x y =>
      match cache_get (b_cxor b) x y with
      | Some w => Some w
      | None => cache_get (b_cxor b) y x
      end
  | BAnd x y =>
      match cache_get (b_cand b) x y with
      | Some w => Some w
      | None => cache_get (b_cand b) y x
      end
  end.

Definition push_gate (b : builder) (g : bgate) : N * builder :=
  let idx := counter b in
  let cx := if b_dedup b then
              match g with BXor x y => cache_put (b_cxor b) x y idx | _ => b_cxor b end
            else b_cxor b in
  let ca := if b_dedup b then
              match g with BAnd x y => cache_put (b_cand b) x y idx | _ => b_cand b end
            else b_cand b in
  (idx, mkBuilder (b_dedup b) (b_shift b) (b_inputs b) (g :: b_gates_rev b) (b_ngates b + 1)
          (nadd (b_ngates b) g (b_gmap b)) cx ca (b_neg b)).

Definition set_negated (b : builder) (k v : N) : builder :=
  mkBuilder (b_dedup b) (b_shift b) (b_inputs b) (b_gates_rev b) (b_ngates b) (b_gmap b)
    (b_cxor b) (b_cand b) (nadd k v (b_neg b)).

(* self.gates[x - self.shift] for x >= shift; [Ok None] for constants and inputs *)
Definition lookup (b : builder) (x : N) : res (option bgate) :=
  if x <? b_shift b then Ok None else
  match nfind (x - b_shift b) (b_gmap b) with
  | Some g => Ok (Some g)
  | None => Crash
  end.

(* ------------------------------------------------------------------ XOR *)

Definition optimize_xor (b : builder) (x y : N) : option N :=
  if x =? 0 then Some y else
  if y =? 0 then Some x else
  if x =? y then Some 0 else
  match nfind x (b_neg b) with
  | Some xn =>
      if xn =? y then Some 1 else
      if y =? 1 then Some xn else get_cached b (BXor x y)
  | None =>
      match nfind y (b_neg b) with
      | Some yn =>
          if yn =? x then Some 1 else
          if x =? 1 then Some yn else get_cached b (BXor x y)
      | None => get_cached b (BXor x y)
      end
  end.

Definition final_xor (b : builder) (x y : N) : N * builder :=
  let '(gi, b1) := push_gate b (BXor x y) in
  let b2 := if x =? 1 then set_negated (set_negated b1 y gi) gi y else b1 in
  let b3 := if y =? 1 then set_negated (set_negated b2 x gi) gi x else b2 in
  (gi, b3).

Definition arrangements (x1 x2 y1 y2 : N) : list (N * N * N * N) :=
  [(x1, x2, y1, y2); (x1, x2, y2, y1); (x2, x1, y1, y2); (x2, x1, y2, y1)].

(* first loop of the AND/AND branch: an already cached a1 & (a2 ^ b2) *)
Fixpoint find_cached_and_xor (b : builder) (arr : list (N * N * N * N)) : option N :=
  match arr with
  | [] => None
  | (a1, a2, b1, b2) :: r =>
      if a1 =? b1 then
        match get_cached b (BXor a2 b2) with
        | Some t =>
            match get_cached b (BAnd a1 t) with
            | Some w => Some w
            | None => find_cached_and_xor b r
            end
        | None => find_cached_and_xor b r
        end
      else find_cached_and_xor b r
  end.

(* second loop: the first arrangement with a common operand *)
Fixpoint find_common (arr : list (N * N * N * N)) : option (N * N * N) :=
  match arr with
  | [] => None
  | (a1, a2, b1, b2) :: r => if a1 =? b1 then Some (a1, a2, b2) else find_common r
  end.

Section XorStages.
  Variable rec : builder -> N -> N -> res (N * builder).

  (* y is an XOR gate (circuit.rs:891-908) *)
  Definition xstage3 (b : builder) (x y : N) (gy : option bgate) : res (N * builder) :=
    match gy with
    | Some (BXor y1 y2) =>
        if x =? y1 then Ok (y2, b) else
        if x =? y2 then Ok (y1, b) else
        match nfind x (b_neg b) with
        | Some xn =>
            if xn =? y1 then rec b 1 y2 else
            if xn =? y2 then rec b 1 y1 else Ok (final_xor b x y)
        | None => Ok (final_xor b x y)
        end
    | _ => Ok (final_xor b x y)
    end.

  (* x is an XOR gate (circuit.rs:873-890) *)
  Definition xstage2 (b : builder) (x y : N) (gx gy : option bgate) : res (N * builder) :=
    match gx with
    | Some (BXor x1 x2) =>
        if x1 =? y then Ok (x2, b) else
        if x2 =? y then Ok (x1, b) else
        match nfind y (b_neg b) with
        | Some yn =>
            if x1 =? yn then rec b x2 1 else
            if x2 =? yn then rec b x1 1 else xstage3 b x y gy
        | None => xstage3 b x y gy
        end
    | _ => xstage3 b x y gy
    end.

  (* both are gates (circuit.rs:827-872) *)
  Definition xstage1 (b : builder) (x y : N) (gx gy : option bgate) : res (N * builder) :=
    match gx, gy with
    | Some (BXor x1 x2), Some (BXor y1 y2) =>
        if x1 =? y1 then rec b x2 y2 else
        if x1 =? y2 then rec b x2 y1 else
        if x2 =? y1 then rec b x1 y2 else
        if x2 =? y2 then rec b x1 y1 else xstage2 b x y gx gy
    | Some (BAnd x1 x2), Some (BAnd y1 y2) =>
        let arr := arrangements x1 x2 y1 y2 in
        match find_cached_and_xor b arr with
        | Some w => Ok (w, b)
        | None =>
            match find_common arr with
            | Some (a1, a2, b2) =>
                let '(t, b1) := push_gate b (BXor a2 b2) in
                Ok (push_gate b1 (BAnd a1 t))
            | None => xstage2 b x y gx gy
            end
        end
    | _, _ => xstage2 b x y gx gy
    end.
End XorStages.

Fixpoint push_xor (fuel : nat) (b : builder) (x y : N) : res (N * builder) :=
  match fuel with
  | O => OutOfFuel
  | S fuel' =>
      match optimize_xor b x y with
      | Some w => Ok (w, b)
      | None =>
          let* gx := lookup b x in
          let* gy := lookup b y in
          xstage1 (push_xor fuel') b x y gx gy
      end
  end.

Definition small_fuel : nat := 64.

(* entry point used by every client: a small fuel first (cheap to build), the adequate
   fuel x + y + 1 only if that runs out; BuilderProofs.push_xor_top_sound: on valid wires it
   returns Ok with a wire denoting the xor (in particular never OutOfFuel) *)
Definition push_xor_top (b : builder) (x y : N) : res (N * builder) :=
  match push_xor small_fuel b x y with
  | OutOfFuel => push_xor (S (N.to_nat (x + y))) b x y
  | r => r
  end.

(* ------------------------------------------------------------------ AND *)

Definition optimize_and (b : builder) (x y : N) : option N :=
  if (x =? 0) || (y =? 0) then Some 0 else
  if x =? 1 then Some y else
  if (y =? 1) || (x =? y) then Some x else
  match nfind x (b_neg b) with
  | Some xn => if xn =? y then Some 0 else get_cached b (BAnd x y)
  | None =>
      match nfind y (b_neg b) with
      | Some yn => if yn =? x then Some 0 else get_cached b (BAnd x y)
      | None => get_cached b (BAnd x y)
      end
  end.

Section AndStages.
  Variable rec : builder -> N -> N -> res (N * builder).

  (* y is a gate (circuit.rs:984-1004) *)
  Definition astage3 (b : builder) (x y : N) (gy : option bgate) : res (N * builder) :=
    match gy with
    | Some (BAnd y1 y2) =>
        if (x =? y1) || (x =? y2) then Ok (y, b) else
        match nfind x (b_neg b) with
        | Some xn =>
            if (xn =? y1) || (xn =? y2) then Ok (0, b) else Ok (push_gate b (BAnd x y))
        | None => Ok (push_gate b (BAnd x y))
        end
    | Some (BXor y1 y2) =>
        match get_cached b (BAnd x y1), get_cached b (BAnd x y2) with
        | Some w1, Some w2 => push_xor_top b w1 w2
        | _, _ => Ok (push_gate b (BAnd x y))
        end
    | None => Ok (push_gate b (BAnd x y))
    end.

  (* x is a gate (circuit.rs:963-983) *)
  Definition astage2 (b : builder) (x y : N) (gx gy : option bgate) : res (N * builder) :=
    match gx with
    | Some (BAnd x1 x2) =>
        if (x1 =? y) || (x2 =? y) then Ok (x, b) else
        match nfind y (b_neg b) with
        | Some yn =>
            if (x1 =? yn) || (x2 =? yn) then Ok (0, b) else astage3 b x y gy
        | None => astage3 b x y gy
        end
    | Some (BXor x1 x2) =>
        match get_cached b (BAnd x1 y), get_cached b (BAnd x2 y) with
        | Some w1, Some w2 => push_xor_top b w1 w2
        | _, _ => astage3 b x y gy
        end
    | None => astage3 b x y gy
    end.

  (* both are AND gates (circuit.rs:952-962) *)
  Definition astage1 (b : builder) (x y : N) (gx gy : option bgate) : res (N * builder) :=
    match gx, gy with
    | Some (BAnd x1 x2), Some (BAnd y1 y2) =>
        if (x1 =? y1) || (x2 =? y1) then rec b x y2 else
        if (x1 =? y2) || (x2 =? y2) then rec b x y1 else astage2 b x y gx gy
    | _, _ => astage2 b x y gx gy
    end.
End AndStages.

Fixpoint push_and (fuel : nat) (b : builder) (x y : N) : res (N * builder) :=
  match fuel with
  | O => OutOfFuel
  | S fuel' =>
      match optimize_and b x y with
      | Some w => Ok (w, b)
      | None =>
          let* gx := lookup b x in
          let* gy := lookup b y in
          astage1 (push_and fuel') b x y gx gy
      end
  end.

Definition push_and_top (b : builder) (x y : N) : res (N * builder) :=
  match push_and small_fuel b x y with
  | OutOfFuel => push_and (S (N.to_nat y)) b x y
  | r => r
  end.

(* ------------------------------------------------------------------ derived requests *)

Definition push_not (b : builder) (x : N) : res (N * builder) := push_xor_top b x 1.

Definition push_or (b : builder) (x y : N) : res (N * builder) :=
  let* (xo, b1) := push_xor_top b x y in
  let* (an, b2) := push_and_top b1 x y in
  push_xor_top b2 xo an.

Definition push_eq (b : builder) (x y : N) : res (N * builder) :=
  let* (xo, b1) := push_xor_top b x y in
  push_xor_top b1 xo 1.

Definition push_mux (b : builder) (s x0 x1 : N) : res (N * builder) :=
  if x0 =? x1 then Ok (x0, b) else
  let* (d, b1) := push_xor_top b x0 x1 in
  let* (ns, b2) := push_not b1 s in
  let* (sw, b3) := push_and_top b2 d ns in
  push_xor_top b3 x0 sw.
