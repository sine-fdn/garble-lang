(* C04, builder level: every wire handed back by push_xor / push_and (and the derived
   requests) denotes the requested Boolean function of its operands, for every reachable
   builder state; the explicit recursion fuel never runs out. *)
From GV Require Import Base.Util Base.NMap Builder.Builder Builder.BuilderSem Builder.BuilderSpec.

Definition gops (g : bgate) : N * N := match g with BXor x y | BAnd x y => (x, y) end.
Definition gfun (g : bgate) : bool -> bool -> bool :=
  match g with BXor _ _ => xorb | BAnd _ _ => andb end.
Definition glist (b : builder) : list bgate := rev (b_gates_rev b).

(* ---------------------------------------------------------------- run_gates *)

Lemma nthd_app_l l r w : w < lenN l -> nthd (l ++ r) w = nthd l w.
Proof. intro H. unfold nthd. now rewrite nthN_app_l. Qed.

Lemma nthd_app_here l r v : nthd (l ++ v :: r) (lenN l) = v.
Proof. unfold nthd. now rewrite nthN_app_here. Qed.

Lemma run_gates_app gs1 : forall acc gs2,
  run_gates acc (gs1 ++ gs2) = run_gates (run_gates acc gs1) gs2.
Proof. induction gs1 as [|g r IH]; intros acc gs2; cbn [app run_gates]; auto. Qed.

Lemma run_gates_prefix gs : forall acc, exists t,
  run_gates acc gs = acc ++ t /\ lenN t = lenN gs.
Proof.
  induction gs as [|g r IH]; intro acc; cbn [run_gates].
  - exists []. now rewrite app_nil_r.
  - destruct (IH (acc ++ [gval acc g])) as (t & -> & Hl).
    exists (gval acc g :: t). rewrite <- app_assoc. split; [reflexivity|].
    rewrite !lenN_cons. lia.
Qed.

Lemma run_gates_len gs acc : lenN (run_gates acc gs) = lenN acc + lenN gs.
Proof. destruct (run_gates_prefix gs acc) as (t & -> & Hl). rewrite lenN_app. lia. Qed.

Lemma gval_ext acc t g :
  (let '(x, y) := gops g in x < lenN acc /\ y < lenN acc) -> gval (acc ++ t) g = gval acc g.
Proof.
  destruct g as [x y|x y]; cbn [gops gval]; intros [Hx Hy]; now rewrite !nthd_app_l.
Qed.

(* value of the wire defined by the i-th gate *)
Lemma run_gates_nth gs : forall acc i g,
  nthN gs i = Some g ->
  (let '(x, y) := gops g in x < lenN acc + i /\ y < lenN acc + i) ->
  nthd (run_gates acc gs) (lenN acc + i) =
  (let '(x, y) := gops g in gfun g (nthd (run_gates acc gs) x) (nthd (run_gates acc gs) y)).
Proof.
  intros acc i g Hi Hwf.
  rewrite nthN_spec in Hi. apply nth_error_split in Hi. destruct Hi as (pre & post & -> & Hlen).
  rewrite run_gates_app. cbn [run_gates].
  set (acc1 := run_gates acc pre).
  assert (Hl1 : lenN acc1 = lenN acc + i).
  { unfold acc1. rewrite run_gates_len. unfold lenN. lia. }
  destruct (run_gates_prefix post (acc1 ++ [gval acc1 g])) as (t & -> & _).
  rewrite <- app_assoc. cbn [app]. rewrite <- Hl1, nthd_app_here.
  destruct g as [x y|x y]; cbn [gops gfun gval] in *; destruct Hwf as [Hx Hy];
    rewrite !nthd_app_l by lia; reflexivity.
Qed.

(* ---------------------------------------------------------------- the invariant *)

Definition sem_binop (b : builder) (op : bool -> bool -> bool) (x y w : N) : Prop :=
  valid b x /\ valid b y /\ valid b w /\
  forall inp, ins_ok b inp -> den inp b w = op (den inp b x) (den inp b y).

Record inv (b : builder) : Prop := {
  inv_shift : 2 <= b_shift b;
  inv_inputs : b_shift b = 2 + sumN (b_inputs b);
  inv_len : b_ngates b = lenN (b_gates_rev b);
  inv_gmap : forall i, nfind i (b_gmap b) = nthN (glist b) i;
  inv_wf : forall i g, nthN (glist b) i = Some g ->
           let '(x, y) := gops g in x < b_shift b + i /\ y < b_shift b + i;
  inv_cxor : forall x y w, cache_get (b_cxor b) x y = Some w -> sem_binop b xorb x y w;
  inv_cand : forall x y w, cache_get (b_cand b) x y = Some w -> sem_binop b andb x y w;
  inv_neg : forall a n, nfind a (b_neg b) = Some n ->
            2 <= a /\ valid b a /\ valid b n /\
            forall inp, ins_ok b inp -> den inp b n = negb (den inp b a)
}.

Lemma glist_len b : inv b -> lenN (glist b) = b_ngates b.
Proof. intros I. unfold glist, lenN. rewrite rev_length. rewrite (inv_len b I). reflexivity. Qed.

Lemma wire_vals_len b inp : inv b -> ins_ok b inp -> lenN (wire_vals inp b) = counter b.
Proof.
  intros I Hi. unfold wire_vals. fold (glist b). rewrite run_gates_len, (glist_len b I).
  rewrite !lenN_cons. unfold ins_ok in Hi. unfold counter. lia.
Qed.

Lemma den_low b inp w : w < 2 + lenN inp -> den inp b w = nthd (false :: true :: inp) w.
Proof.
  intro H. unfold den, wire_vals.
  destruct (run_gates_prefix (rev (b_gates_rev b)) (false :: true :: inp)) as (t & -> & _).
  apply nthd_app_l. rewrite !lenN_cons. lia.
Qed.

Lemma den_const0 b inp : den inp b 0 = false.
Proof. rewrite den_low by lia. reflexivity. Qed.

Lemma den_const1 b inp : den inp b 1 = true.
Proof. rewrite den_low by lia. exact (nthd_app_here [false] inp true). Qed.

(* a wire that is gate g denotes g applied to its (strictly smaller) operands *)
Lemma den_gate b inp i g :
  inv b -> ins_ok b inp -> nthN (glist b) i = Some g ->
  den inp b (b_shift b + i) =
  (let '(x, y) := gops g in gfun g (den inp b x) (den inp b y)).
Proof.
  intros I Hi Hg. unfold den, wire_vals. fold (glist b).
  assert (Hl : lenN (false :: true :: inp) = b_shift b).
  { rewrite !lenN_cons. unfold ins_ok in Hi. lia. }
  rewrite <- Hl. apply run_gates_nth; [exact Hg|]. rewrite Hl. now apply (inv_wf b I).
Qed.

Lemma lookup_gate b x g :
  inv b -> lookup b x = Ok (Some g) ->
  b_shift b <= x /\ nthN (glist b) (x - b_shift b) = Some g.
Proof.
  intros I. unfold lookup. destruct (N.ltb_spec x (b_shift b)); [discriminate|].
  rewrite (inv_gmap b I). destruct (nthN (glist b) (x - b_shift b)); [|discriminate].
  intros [= ->]. auto.
Qed.

Lemma lookup_ok b x : inv b -> valid b x -> exists og, lookup b x = Ok og.
Proof.
  intros I Hv. unfold lookup. destruct (N.ltb_spec x (b_shift b)); [eauto|].
  rewrite (inv_gmap b I). destruct (nthN_Some (glist b) (x - b_shift b)) as [g ->]; [|eauto].
  rewrite (glist_len b I). unfold valid, counter in Hv. lia.
Qed.

(* operands of a gate are valid and strictly smaller *)
Lemma gate_operands b x g :
  inv b -> b_shift b <= x -> nthN (glist b) (x - b_shift b) = Some g ->
  let '(x1, x2) := gops g in x1 < x /\ x2 < x.
Proof.
  intros I Hx Hg. pose proof (inv_wf b I _ _ Hg) as H.
  destruct (gops g) as [x1 x2]. destruct H. split; lia.
Qed.

Lemma den_lookup b inp x g :
  inv b -> ins_ok b inp -> lookup b x = Ok (Some g) ->
  den inp b x = (let '(x1, x2) := gops g in gfun g (den inp b x1) (den inp b x2)).
Proof.
  intros I Hi Hl. destruct (lookup_gate b x g I Hl) as [Hx Hg].
  replace x with (b_shift b + (x - b_shift b)) at 1 by lia. now apply den_gate.
Qed.

(* ---------------------------------------------------------------- push_gate *)

Lemma cache_get_put m x y w x' y' :
  cache_get (cache_put m x y w) x' y' =
  if (x =? x') && (y =? y') then Some w else cache_get m x' y'.
Proof.
  unfold cache_get, cache_put. rewrite nfind_add.
  destruct (N.eqb_spec x x') as [<-|Hx]; cbn [andb].
  - rewrite nfind_add. destruct (N.eqb_spec y y') as [<-|Hy]; [reflexivity|].
    destruct (nfind x m); [reflexivity|apply nfind_empty].
  - reflexivity.
Qed.

Lemma push_gate_vals b g inp :
  wire_vals inp (snd (push_gate b g)) = wire_vals inp b ++ [gval (wire_vals inp b) g].
Proof.
  unfold push_gate, wire_vals. cbn [snd b_gates_rev rev]. now rewrite run_gates_app.
Qed.

Lemma push_gate_ext b g : inv b -> ext b (snd (push_gate b g)).
Proof.
  intro I. unfold ext. unfold push_gate at 1 2 3 4. cbn [snd b_shift b_inputs b_dedup b_ngates counter].
  repeat split; auto.
  - unfold counter. cbn [b_shift b_ngates]. lia.
  - intros inp w Hi Hv. unfold den. rewrite push_gate_vals. apply nthd_app_l.
    rewrite (wire_vals_len b inp I Hi). exact Hv.
Qed.

Lemma push_gate_eq b g : push_gate b g = (counter b, snd (push_gate b g)).
Proof. reflexivity. Qed.

Lemma sem_binop_ext b b' op x y w : ext b b' -> sem_binop b op x y w -> sem_binop b' op x y w.
Proof.
  intros E (Hx & Hy & Hw & Hd). repeat split; try (eapply ext_valid; eassumption).
  intros inp Hi. assert (Hi0 : ins_ok b inp) by (destruct E as (S & _); unfold ins_ok in *; congruence).
  rewrite !(ext_den _ _ _ _ E Hi0) by assumption. now apply Hd.
Qed.

Lemma cache_put_sem b op m a c i :
  (forall x y w, cache_get m x y = Some w -> sem_binop b op x y w) -> sem_binop b op a c i ->
  forall x y w, cache_get (cache_put m a c i) x y = Some w -> sem_binop b op x y w.
Proof.
  intros Hm Hi x y w. rewrite cache_get_put. destruct ((a =? x) && (c =? y)) eqn:Eq; [|apply Hm].
  apply andb_true_iff in Eq. destruct Eq as [E1 E2]. apply N.eqb_eq in E1, E2. subst.
  now intros [= <-].
Qed.

Lemma push_gate_sound b g :
  inv b -> (let '(x, y) := gops g in valid b x /\ valid b y) ->
  let b' := snd (push_gate b g) in
  inv b' /\ ext b b' /\ valid b' (counter b) /\
  (let '(x, y) := gops g in sem_binop b' (gfun g) x y (counter b)).
Proof.
  intros I Hops b'. pose proof (push_gate_ext b g I) as E. fold b' in E.
  assert (Hgl : glist b' = glist b ++ [g]) by reflexivity.
  assert (Hvi : valid b' (counter b)) by (unfold valid, counter; cbn [b' push_gate snd b_shift b_ngates]; lia).
  assert (Hsem : let '(x, y) := gops g in sem_binop b' (gfun g) x y (counter b)).
  { destruct (gops g) as [x y] eqn:Hg. destruct Hops as [Hx Hy].
    split; [eapply ext_valid; eauto|]. split; [eapply ext_valid; eauto|]. split; [exact Hvi|].
    intros inp Hi. rewrite (ext_den _ _ _ _ E Hi Hx), (ext_den _ _ _ _ E Hi Hy).
    unfold den at 1, b'. rewrite push_gate_vals, <- (wire_vals_len b inp I Hi), nthd_app_here.
    destruct g as [a c|a c]; cbn [gops] in Hg; injection Hg as <- <-; reflexivity. }
  cut (inv b'); [tauto|].
  pose proof (fun op x y w => sem_binop_ext b b' op x y w E) as Hold.
  constructor.
  - exact (inv_shift b I).
  - exact (inv_inputs b I).
  - cbn [b' push_gate snd b_ngates b_gates_rev]. rewrite lenN_cons, (inv_len b I). lia.
  - intro i. rewrite Hgl. cbn [b' push_gate snd b_gmap].
    rewrite nfind_add. destruct (N.eqb_spec (b_ngates b) i) as [<-|Hne].
    + rewrite <- (glist_len b I). now rewrite nthN_app_here.
    + rewrite (inv_gmap b I). destruct (N.lt_ge_cases i (lenN (glist b))) as [Hlt|Hge].
      * now rewrite nthN_app_l.
      * rewrite (glist_len b I) in Hge.
        destruct (nthN (glist b) i) eqn:E1; [apply nthN_lt in E1; rewrite (glist_len b I) in E1; lia|].
        destruct (nthN (glist b ++ [g]) i) eqn:E2; [|reflexivity].
        apply nthN_lt in E2. rewrite lenN_app, lenN_cons, lenN_nil, (glist_len b I) in E2. lia.
  - intros i g0. rewrite Hgl. intro Hn. change (b_shift b') with (b_shift b).
    destruct (N.lt_ge_cases i (lenN (glist b))) as [Hlt|Hge].
    + rewrite nthN_app_l in Hn by exact Hlt. now apply (inv_wf b I).
    + assert (i = lenN (glist b)).
      { apply nthN_lt in Hn. rewrite lenN_app, lenN_cons, lenN_nil in Hn. lia. }
      subst i. rewrite nthN_app_here in Hn. injection Hn as <-.
      rewrite (glist_len b I). destruct (gops g) as [x y]. exact Hops.
  - assert (Hc : forall x y w, cache_get (b_cxor b) x y = Some w -> sem_binop b' xorb x y w)
      by (intros x y w H; apply Hold; now apply (inv_cxor b I)).
    cbn [b' push_gate snd b_cxor]. destruct (b_dedup b); [|exact Hc].
    destruct g as [a c|a c]; [|exact Hc]. now apply cache_put_sem.
  - assert (Hc : forall x y w, cache_get (b_cand b) x y = Some w -> sem_binop b' andb x y w)
      by (intros x y w H; apply Hold; now apply (inv_cand b I)).
    cbn [b' push_gate snd b_cand]. destruct (b_dedup b); [|exact Hc].
    destruct g as [a c|a c]; [exact Hc|]. now apply cache_put_sem.
  - intros a n H. change (b_neg b') with (b_neg b) in H.
    destruct (inv_neg b I a n H) as (H2 & Ha & Hn & Hd).
    split; [exact H2|]. split; [eapply ext_valid; eauto|]. split; [eapply ext_valid; eauto|].
    intros inp Hi. rewrite !(ext_den _ _ _ _ E Hi) by assumption. now apply Hd.
Qed.

(* ---------------------------------------------------------------- set_negated, caches *)

Lemma set_negated_sound b k v :
  inv b -> 2 <= k -> valid b k -> valid b v ->
  (forall inp, ins_ok b inp -> den inp b v = negb (den inp b k)) ->
  inv (set_negated b k v) /\ ext b (set_negated b k v).
Proof.
  intros I Hk Hvk Hvv Hd. split.
  - destruct I as [I1 I2 I3 I4 I5 I6 I7 I8]. constructor; auto.
    intros a n. unfold set_negated. cbn [b_neg]. rewrite nfind_add.
    destruct (N.eqb_spec k a) as [<-|Hne].
    + intros [= <-]. repeat split; auto.
    + apply I8.
  - unfold ext, set_negated, counter. cbn. repeat split; auto. lia.
Qed.

Lemma get_cached_xor_sound b x y w :
  inv b -> get_cached b (BXor x y) = Some w ->
  valid b w /\ forall inp, ins_ok b inp -> den inp b w = xorb (den inp b x) (den inp b y).
Proof.
  intros I. unfold get_cached. destruct (negb (b_dedup b)); [discriminate|].
  destruct (cache_get (b_cxor b) x y) as [w1|] eqn:E1.
  - intros [= <-]. destruct (inv_cxor b I _ _ _ E1) as (_ & _ & Hw & Hd). auto.
  - intro E2. destruct (inv_cxor b I _ _ _ E2) as (_ & _ & Hw & Hd). split; [exact Hw|].
    intros inp Hi. rewrite (Hd inp Hi). apply xorb_comm.
Qed.

Lemma get_cached_and_sound b x y w :
  inv b -> get_cached b (BAnd x y) = Some w ->
  valid b w /\ forall inp, ins_ok b inp -> den inp b w = andb (den inp b x) (den inp b y).
Proof.
  intros I. unfold get_cached. destruct (negb (b_dedup b)); [discriminate|].
  destruct (cache_get (b_cand b) x y) as [w1|] eqn:E1.
  - intros [= <-]. destruct (inv_cand b I _ _ _ E1) as (_ & _ & Hw & Hd). auto.
  - intro E2. destruct (inv_cand b I _ _ _ E2) as (_ & _ & Hw & Hd). split; [exact Hw|].
    intros inp Hi. rewrite (Hd inp Hi). apply andb_comm.
Qed.

(* ---------------------------------------------------------------- XOR *)

Definition xor_post (b : builder) (x y : N) (p : N * builder) : Prop :=
  let '(r, b') := p in
  inv b' /\ ext b b' /\ valid b' r /\
  forall inp, ins_ok b inp -> den inp b' r = xorb (den inp b x) (den inp b y).

(* [good P fuel m r]: the run never crashes, and is out of fuel only if [fuel <= m], where [m] is the
   measure of the call: x + y for push_xor, y for push_and (DESIGN.md, Appendix A).  push_xor recurses on
   operands of the gates x, y (smaller: [inv_wf]) or on (x', 1) where the replaced operand had a [b_neg]
   entry, hence is >= 2 ([inv_neg]: constants are never keys): x + y decreases. *)
Definition good {A} (P : A -> Prop) (fuel : nat) (m : N) (r : res A) : Prop :=
  match r with
  | Ok a => P a
  | Crash => False
  | OutOfFuel => (fuel <= N.to_nat m)%nat
  end.

Lemma valid_consts b : inv b -> valid b 0 /\ valid b 1.
Proof. intro I. pose proof (inv_shift b I). unfold valid, counter. split; lia. Qed.

Lemma ret_sound (op : bool -> bool -> bool) b x y w :
  inv b -> valid b w ->
  (forall inp, ins_ok b inp -> den inp b w = op (den inp b x) (den inp b y)) ->
  inv b /\ ext b b /\ valid b w /\
  forall inp, ins_ok b inp -> den inp b w = op (den inp b x) (den inp b y).
Proof. intros I Hw Hd. split; [exact I|]. split; [apply ext_refl|]. split; assumption. Qed.

Lemma optimize_xor_sound b x y w :
  inv b -> valid b x -> valid b y -> optimize_xor b x y = Some w -> xor_post b x y (w, b).
Proof.
  intros I Hx Hy. unfold optimize_xor, xor_post.
  pose proof (fun w' => ret_sound xorb b x y w' I) as Hbase.
  destruct (valid_consts b I) as [V0 V1].
  destruct (N.eqb_spec x 0) as [->|Hx0].
  { intros [= <-]. apply Hbase; auto. intros. now rewrite den_const0, xorb_false_l. }
  destruct (N.eqb_spec y 0) as [->|Hy0].
  { intros [= <-]. apply Hbase; auto. intros. rewrite den_const0. now rewrite xorb_false_r. }
  destruct (N.eqb_spec x y) as [->|Hxy].
  { intros [= <-]. apply Hbase; auto. intros. rewrite den_const0. now rewrite xorb_nilpotent. }
  assert (Hc : get_cached b (BXor x y) = Some w -> _) by
    (intro H; destruct (get_cached_xor_sound b x y w I H); apply Hbase; eassumption).
  destruct (nfind x (b_neg b)) as [xn|] eqn:Ex.
  - destruct (inv_neg b I _ _ Ex) as (_ & _ & Hvn & Hd).
    destruct (N.eqb_spec xn y) as [<-|_].
    { intros [= <-]. apply Hbase; auto. intros inp Hi. rewrite den_const1, (Hd inp Hi).
      now destruct (den inp b x). }
    destruct (N.eqb_spec y 1) as [->|_]; [|exact Hc].
    intros [= <-]. apply Hbase; auto. intros inp Hi. rewrite den_const1, (Hd inp Hi).
    now destruct (den inp b x).
  - destruct (nfind y (b_neg b)) as [yn|] eqn:Ey; [|exact Hc].
    destruct (inv_neg b I _ _ Ey) as (_ & _ & Hvn & Hd).
    destruct (N.eqb_spec yn x) as [->|_].
    { intros [= <-]. apply Hbase; auto. intros inp Hi. rewrite den_const1, (Hd inp Hi).
      now destruct (den inp b y). }
    destruct (N.eqb_spec x 1) as [->|_]; [|exact Hc].
    intros [= <-]. apply Hbase; auto. intros inp Hi. rewrite den_const1, (Hd inp Hi).
    now destruct (den inp b y).
Qed.

Lemma optimize_xor_none b x y : optimize_xor b x y = None -> x <> 0 /\ y <> 0 /\ x <> y.
Proof.
  unfold optimize_xor.
  destruct (N.eqb_spec x 0); [discriminate|].
  destruct (N.eqb_spec y 0); [discriminate|].
  destruct (N.eqb_spec x y); [discriminate|]. auto.
Qed.

Lemma push_xor_S f b x y :
  push_xor (S f) b x y =
  match optimize_xor b x y with
  | Some w => Ok (w, b)
  | None => let* gx := lookup b x in let* gy := lookup b y in xstage1 (push_xor f) b x y gx gy
  end.
Proof. reflexivity. Qed.

Lemma push_xor_top_ok b x y p : push_xor small_fuel b x y = Ok p -> push_xor_top b x y = Ok p.
Proof. unfold push_xor_top. now intros ->. Qed.

Lemma push_xor_top_opt b x y w : optimize_xor b x y = Some w -> push_xor_top b x y = Ok (w, b).
Proof. intro H. apply push_xor_top_ok. unfold small_fuel. now rewrite push_xor_S, H. Qed.

Lemma optimize_xor_zero_r b x : optimize_xor b x 0 = Some x.
Proof. unfold optimize_xor. destruct (N.eqb_spec x 0) as [->|H0]; reflexivity. Qed.

Lemma record_not_sound b c k g :
  inv b -> valid b k -> valid b g -> 2 <= g ->
  (c = 1 -> 2 <= k /\ forall inp, ins_ok b inp -> den inp b g = negb (den inp b k)) ->
  let b' := if c =? 1 then set_negated (set_negated b k g) g k else b in
  inv b' /\ ext b b'.
Proof.
  intros I Vk Vg Hg Hc. cbn zeta.
  destruct (N.eqb_spec c 1) as [E|_]; [|split; [exact I|apply ext_refl]].
  destruct (Hc E) as [Hk Hd].
  destruct (set_negated_sound b k g I Hk Vk Vg Hd) as [Ia Ea].
  destruct (set_negated_sound (set_negated b k g) g k Ia Hg (ext_valid _ _ _ Ea Vg) (ext_valid _ _ _ Ea Vk))
    as [Ib Eb].
  { intros inp Hi. change (den inp (set_negated b k g)) with (den inp b).
    rewrite (Hd inp Hi). now rewrite negb_involutive. }
  split; [exact Ib|]. eapply ext_trans; eauto.
Qed.

Lemma final_xor_sound b x y :
  inv b -> valid b x -> valid b y -> x <> 0 -> y <> 0 -> x <> y ->
  xor_post b x y (final_xor b x y).
Proof.
  intros I Hx Hy Hx0 Hy0 Hxy. unfold final_xor.
  pose proof (push_gate_sound b (BXor x y) I (conj Hx Hy)) as Hp.
  rewrite push_gate_eq. set (gi := counter b) in *. set (b1 := snd (push_gate b (BXor x y))) in *.
  destruct Hp as (I1 & E1 & Hvgi & (Hx1 & Hy1 & _ & Hd1)). cbn [gfun] in Hd1.
  assert (Hgi2 : 2 <= gi) by (pose proof (inv_shift b I); unfold gi, counter; lia).
  destruct (record_not_sound b1 x y gi I1 Hy1 Hvgi Hgi2) as [I2 E2].
  { intros ->. split; [lia|]. intros inp Hi. rewrite (Hd1 inp Hi), den_const1.
    now destruct (den inp b1 y). }
  set (b2 := if x =? 1 then _ else b1) in *.
  destruct (record_not_sound b2 y x gi I2 (ext_valid _ _ _ E2 Hx1) (ext_valid _ _ _ E2 Hvgi) Hgi2)
    as [I3 E3].
  { intros ->. split; [lia|]. intros inp Hi. assert (Hi1 : ins_ok b1 inp).
    { unfold ins_ok in *. destruct E2 as (S & _). congruence. }
    rewrite !(ext_den _ _ _ _ E2 Hi1) by assumption.
    rewrite (Hd1 inp Hi1), den_const1. now destruct (den inp b1 x). }
  set (b3 := if y =? 1 then _ else b2) in *.
  assert (E13 : ext b1 b3) by (eapply ext_trans; eauto).
  unfold xor_post. split; [exact I3|]. split; [eapply ext_trans; eauto|].
  split; [eapply ext_valid; eauto|].
  intros inp Hi. assert (Hi1 : ins_ok b1 inp) by (eapply ext_ins_ok; eauto).
  rewrite (ext_den _ _ _ _ E13 Hi1 Hvgi), (Hd1 inp Hi1).
  now rewrite !(ext_den _ _ _ _ E1 Hi) by assumption.
Qed.

Lemma gate_facts b x g :
  inv b -> valid b x -> lookup b x = Ok (Some g) ->
  let '(x1, x2) := gops g in
  x1 < x /\ x2 < x /\ valid b x1 /\ valid b x2 /\ b_shift b <= x /\
  forall inp, ins_ok b inp -> den inp b x = gfun g (den inp b x1) (den inp b x2).
Proof.
  intros I Hv Hl. destruct (lookup_gate b x g I Hl) as [Hs Hg].
  pose proof (gate_operands b x g I Hs Hg) as Hops.
  pose proof (fun inp Hi => den_lookup b inp x g I Hi Hl) as Hd.
  destruct (gops g) as [x1 x2]. destruct Hops as [H1 H2].
  unfold valid in *. repeat split; auto; lia.
Qed.

Ltac den_cases :=
  repeat match goal with
         | |- context [den ?i ?b ?w] => destruct (den i b w)
         end; reflexivity.


(* what [push_xor] can do to the builder *)
Inductive xstep (b : builder) : builder -> Prop :=
| xs_final x y :
    optimize_xor b x y = None -> valid b x -> valid b y ->
    xstep b (snd (final_xor b x y))
| xs_andand x y x1 x2 y1 y2 a1 a2 b2 :
    x <> y -> valid b x -> valid b y ->
    lookup b x = Ok (Some (BAnd x1 x2)) -> lookup b y = Ok (Some (BAnd y1 y2)) ->
    find_common (arrangements x1 x2 y1 y2) = Some (a1, a2, b2) ->
    xstep b (snd (push_gate (snd (push_gate b (BXor a2 b2))) (BAnd a1 (counter b)))).

(* what [push_and] can do *)
Inductive astep (b : builder) : builder -> Prop :=
| as_push x y :
    optimize_and b x y = None -> valid b x -> valid b y ->
    astep b (snd (push_gate b (BAnd x y)))
| as_xor b' : xstep b b' -> astep b b'.

Definition post (step : builder -> builder -> Prop) (op : bool -> bool -> bool)
    (b : builder) (x y : N) (p : N * builder) : Prop :=
  (let '(r, b') := p in
   inv b' /\ ext b b' /\ valid b' r /\
   forall inp, ins_ok b inp -> den inp b' r = op (den inp b x) (den inp b y)) /\
  (snd p = b \/ step b (snd p)).

Lemma post_ret step op b x y w :
  inv b -> valid b w ->
  (forall inp, ins_ok b inp -> den inp b w = op (den inp b x) (den inp b y)) ->
  post step op b x y (w, b).
Proof. intros I Hw Hd. split; [now apply ret_sound|now left]. Qed.

Lemma post_same step op b x y x' y' p :
  (forall inp, ins_ok b inp ->
     op (den inp b x') (den inp b y') = op (den inp b x) (den inp b y)) ->
  post step op b x' y' p -> post step op b x y p.
Proof.
  intros Ht [H St]. split; [|exact St]. destruct p as [r b'].
  destruct H as (I' & E & Hv & Hd). split; [exact I'|]. split; [exact E|]. split; [exact Hv|].
  intros inp Hi. rewrite (Hd inp Hi). now apply Ht.
Qed.

Lemma good_step {A} (P Q : A -> Prop) fuel m m' r :
  (forall a, P a -> Q a) -> m' < m -> good P fuel m' r -> good Q (S fuel) m r.
Proof. intros HPQ Hm. destruct r; cbn [good]; [apply HPQ|auto|lia]. Qed.

Lemma good_top {A} (P : A -> Prop) (f : nat -> res A) m :
  (forall fuel, good P fuel m (f fuel)) ->
  exists a, match f small_fuel with OutOfFuel => f (S (N.to_nat m)) | r => r end = Ok a /\ P a.
Proof.
  intro G. pose proof (G small_fuel) as G1. pose proof (G (S (N.to_nat m))) as G2.
  destruct (f small_fuel) as [a| |]; cbn [good] in G1; [eauto|contradiction|].
  destruct (f (S (N.to_nat m))) as [a| |]; cbn [good] in G2; [eauto|contradiction|lia].
Qed.

(* ---------------------------------------------------------------- XOR *)

Section XorSound.
  Variable rec : builder -> N -> N -> res (N * builder).
  Variable fuel' : nat.
  Variable b : builder.
  Variables x y : N.
  Hypothesis I : inv b.
  Hypothesis Hx : valid b x.
  Hypothesis Hy : valid b y.
  Hypothesis Eo : optimize_xor b x y = None.
  Hypothesis Hrec : forall x' y', valid b x' -> valid b y' -> x' + y' < x + y ->
    good (post xstep xorb b x' y') fuel' (x' + y') (rec b x' y').

  Lemma good_rec x' y' :
    valid b x' -> valid b y' -> x' + y' < x + y ->
    (forall inp, ins_ok b inp ->
       xorb (den inp b x') (den inp b y') = xorb (den inp b x) (den inp b y)) ->
    good (post xstep xorb b x y) (S fuel') (x + y) (rec b x' y').
  Proof.
    intros Hx' Hy' Hm Ht. eapply good_step; [|exact Hm|now apply Hrec].
    intro p. now apply post_same.
  Qed.

  Lemma good_ret w :
    valid b w ->
    (forall inp, ins_ok b inp -> den inp b w = xorb (den inp b x) (den inp b y)) ->
    good (post xstep xorb b x y) (S fuel') (x + y) (Ok (w, b)).
  Proof. now apply post_ret. Qed.

  Lemma good_final : good (post xstep xorb b x y) (S fuel') (x + y) (Ok (final_xor b x y)).
  Proof.
    destruct (optimize_xor_none _ _ _ Eo) as (Hx0 & Hy0 & Hxy).
    split; [now apply final_xor_sound|right; now constructor].
  Qed.

  Lemma xstage3_sound gy :
    lookup b y = Ok gy ->
    good (post xstep xorb b x y) (S fuel') (x + y) (xstage3 rec b x y gy).
  Proof.
    intro Ly. unfold xstage3.
    destruct gy as [[y1 y2|y1 y2]|]; try apply good_final.
    pose proof (gate_facts b y _ I Hy Ly) as F. cbn [gops gfun] in F.
    destruct F as (L1 & L2 & V1 & V2 & Hs & Hd).
    destruct (N.eqb_spec x y1) as [<-|N1].
    { apply good_ret; [exact V2|]. intros inp Hi. rewrite (Hd inp Hi). den_cases. }
    destruct (N.eqb_spec x y2) as [<-|N2].
    { apply good_ret; [exact V1|]. intros inp Hi. rewrite (Hd inp Hi). den_cases. }
    destruct (nfind x (b_neg b)) as [xn|] eqn:Ex; [|apply good_final].
    destruct (inv_neg b I _ _ Ex) as (Hx2 & _ & _ & Hdn).
    destruct (valid_consts b I) as [_ V1c].
    destruct (N.eqb_spec xn y1) as [->|_].
    { apply good_rec; auto; [lia|]. intros inp Hi.
      rewrite (Hd inp Hi), den_const1. rewrite (Hdn inp Hi). den_cases. }
    destruct (N.eqb_spec xn y2) as [->|_]; [|apply good_final].
    apply good_rec; auto; [lia|]. intros inp Hi.
    rewrite (Hd inp Hi), den_const1. rewrite (Hdn inp Hi). den_cases.
  Qed.

  Lemma xstage2_sound gx gy :
    lookup b x = Ok gx -> lookup b y = Ok gy ->
    good (post xstep xorb b x y) (S fuel') (x + y) (xstage2 rec b x y gx gy).
  Proof.
    intros Lx Ly. unfold xstage2.
    destruct gx as [[x1 x2|x1 x2]|]; try now apply xstage3_sound.
    pose proof (gate_facts b x _ I Hx Lx) as F. cbn [gops gfun] in F.
    destruct F as (L1 & L2 & V1 & V2 & Hs & Hd).
    destruct (N.eqb_spec x1 y) as [->|N1].
    { apply good_ret; [exact V2|]. intros inp Hi. rewrite (Hd inp Hi). den_cases. }
    destruct (N.eqb_spec x2 y) as [->|N2].
    { apply good_ret; [exact V1|]. intros inp Hi. rewrite (Hd inp Hi). den_cases. }
    destruct (nfind y (b_neg b)) as [yn|] eqn:Ey; [|now apply xstage3_sound].
    destruct (inv_neg b I _ _ Ey) as (Hy2 & _ & _ & Hdn).
    destruct (valid_consts b I) as [_ V1c].
    destruct (N.eqb_spec x1 yn) as [->|_].
    { apply good_rec; auto; [lia|]. intros inp Hi.
      rewrite (Hd inp Hi), den_const1. rewrite (Hdn inp Hi). den_cases. }
    destruct (N.eqb_spec x2 yn) as [->|_]; [|now apply xstage3_sound].
    apply good_rec; auto; [lia|]. intros inp Hi.
    rewrite (Hd inp Hi), den_const1. rewrite (Hdn inp Hi). den_cases.
  Qed.

  (* every arrangement lists the operands of x and of y *)
  Definition arr_ok (a : N * N * N * N) : Prop :=
    let '(a1, a2, b1, b2) := a in
    valid b a1 /\ valid b a2 /\ valid b b1 /\ valid b b2 /\
    forall inp, ins_ok b inp ->
      den inp b x = andb (den inp b a1) (den inp b a2) /\
      den inp b y = andb (den inp b b1) (den inp b b2).

  Lemma find_cached_and_xor_sound arr w :
    Forall arr_ok arr -> find_cached_and_xor b arr = Some w ->
    valid b w /\ forall inp, ins_ok b inp -> den inp b w = xorb (den inp b x) (den inp b y).
  Proof.
    induction 1 as [|[[[a1 a2] b1] b2] r Ha _ IH]; cbn [find_cached_and_xor]; [discriminate|].
    destruct Ha as (_ & _ & _ & _ & Hd).
    destruct (N.eqb_spec a1 b1) as [<-|_]; [|exact IH].
    destruct (get_cached b (BXor a2 b2)) as [t|] eqn:Et; [|exact IH].
    destruct (get_cached b (BAnd a1 t)) as [w'|] eqn:Ew; [|exact IH].
    intros [= <-]. destruct (get_cached_xor_sound _ _ _ _ I Et) as [_ Hdt].
    destruct (get_cached_and_sound _ _ _ _ I Ew) as [Hvw Hdw]. split; [exact Hvw|].
    intros inp Hi. destruct (Hd inp Hi) as [-> ->]. rewrite (Hdw inp Hi), (Hdt inp Hi). den_cases.
  Qed.

  Lemma find_common_sound arr a1 a2 b2 :
    Forall arr_ok arr -> find_common arr = Some (a1, a2, b2) ->
    valid b a1 /\ valid b a2 /\ valid b b2 /\
    forall inp, ins_ok b inp ->
      xorb (den inp b x) (den inp b y) = andb (den inp b a1) (xorb (den inp b a2) (den inp b b2)).
  Proof.
    induction 1 as [|[[[c1 c2] d1] d2] r Ha _ IH]; cbn [find_common]; [discriminate|].
    destruct (N.eqb_spec c1 d1) as [<-|_]; [|exact IH].
    intros [= <- <- <-]. destruct Ha as (H1 & H2 & _ & H4 & Hd). repeat split; auto.
    intros inp Hi. destruct (Hd inp Hi) as [-> ->]. den_cases.
  Qed.

  Lemma xstage1_sound gx gy :
    lookup b x = Ok gx -> lookup b y = Ok gy ->
    good (post xstep xorb b x y) (S fuel') (x + y) (xstage1 rec b x y gx gy).
  Proof.
    intros Lx Ly. unfold xstage1.
    destruct gx as [[x1 x2|x1 x2]|]; try now apply xstage2_sound.
    - (* x is an XOR gate *)
      destruct gy as [[y1 y2|y1 y2]|]; try now apply xstage2_sound.
      pose proof (gate_facts b x _ I Hx Lx) as F. cbn [gops gfun] in F.
      destruct F as (Lx1 & Lx2 & Vx1 & Vx2 & _ & Hdx).
      pose proof (gate_facts b y _ I Hy Ly) as F. cbn [gops gfun] in F.
      destruct F as (Ly1 & Ly2 & Vy1 & Vy2 & _ & Hdy).
      destruct (N.eqb_spec x1 y1) as [->|_].
      { apply good_rec; auto; [lia|]. intros inp Hi. rewrite (Hdx inp Hi), (Hdy inp Hi). den_cases. }
      destruct (N.eqb_spec x1 y2) as [->|_].
      { apply good_rec; auto; [lia|]. intros inp Hi. rewrite (Hdx inp Hi), (Hdy inp Hi). den_cases. }
      destruct (N.eqb_spec x2 y1) as [->|_].
      { apply good_rec; auto; [lia|]. intros inp Hi. rewrite (Hdx inp Hi), (Hdy inp Hi). den_cases. }
      destruct (N.eqb_spec x2 y2) as [->|_]; [|now apply xstage2_sound].
      apply good_rec; auto; [lia|]. intros inp Hi. rewrite (Hdx inp Hi), (Hdy inp Hi). den_cases.
    - (* x is an AND gate *)
      destruct gy as [[y1 y2|y1 y2]|]; try now apply xstage2_sound.
      pose proof (gate_facts b x _ I Hx Lx) as F. cbn [gops gfun] in F.
      destruct F as (Lx1 & Lx2 & Vx1 & Vx2 & _ & Hdx).
      pose proof (gate_facts b y _ I Hy Ly) as F. cbn [gops gfun] in F.
      destruct F as (Ly1 & Ly2 & Vy1 & Vy2 & _ & Hdy).
      assert (Harr : Forall arr_ok (arrangements x1 x2 y1 y2)).
      { assert (mk : forall a1 a2 b1 b2, valid b a1 -> valid b a2 -> valid b b1 -> valid b b2 ->
                  (forall inp, ins_ok b inp ->
                     den inp b x = andb (den inp b a1) (den inp b a2) /\
                     den inp b y = andb (den inp b b1) (den inp b b2)) -> arr_ok (a1, a2, b1, b2)).
        { intros a1 a2 b1 b2 H1 H2 H3 H4 H5. unfold arr_ok. auto. }
        unfold arrangements.
        apply Forall_cons; [apply mk; auto; intros inp Hi; rewrite (Hdx inp Hi), (Hdy inp Hi); split; den_cases|].
        apply Forall_cons; [apply mk; auto; intros inp Hi; rewrite (Hdx inp Hi), (Hdy inp Hi); split; den_cases|].
        apply Forall_cons; [apply mk; auto; intros inp Hi; rewrite (Hdx inp Hi), (Hdy inp Hi); split; den_cases|].
        apply Forall_cons; [apply mk; auto; intros inp Hi; rewrite (Hdx inp Hi), (Hdy inp Hi); split; den_cases|].
        apply Forall_nil. }
      destruct (find_cached_and_xor b (arrangements x1 x2 y1 y2)) as [w|] eqn:Ec.
      { destruct (find_cached_and_xor_sound _ _ Harr Ec) as [Hvw Hdw]. now apply good_ret. }
      destruct (find_common (arrangements x1 x2 y1 y2)) as [[[a1 a2] b2]|] eqn:Ef;
        [|now apply xstage2_sound].
      destruct (find_common_sound _ _ _ _ Harr Ef) as (Va1 & Va2 & Vb2 & Hid).
      rewrite (push_gate_eq b (BXor a2 b2)).
      pose proof (push_gate_sound b (BXor a2 b2) I (conj Va2 Vb2)) as P1.
      set (b1 := snd (push_gate b (BXor a2 b2))) in *. set (t := counter b) in *.
      destruct P1 as (I1 & E1 & Vt & _ & _ & _ & Hdt). cbn [gfun] in Hdt.
      assert (Va1' : valid b1 a1) by (eapply ext_valid; eauto).
      rewrite (push_gate_eq b1 (BAnd a1 t)).
      pose proof (push_gate_sound b1 (BAnd a1 t) I1 (conj Va1' Vt)) as P2.
      set (b2' := snd (push_gate b1 (BAnd a1 t))) in *.
      destruct P2 as (I2 & E2 & Vw & _ & _ & _ & Hdw). cbn [gfun] in Hdw.
      destruct (optimize_xor_none _ _ _ Eo) as (_ & _ & Hxy).
      split; [|right; eapply xs_andand; eauto].
      split; [exact I2|]. split; [eapply ext_trans; eauto|]. split; [exact Vw|].
      intros inp Hi. assert (Hi1 : ins_ok b1 inp) by (eapply ext_ins_ok; eauto).
      assert (Hi2 : ins_ok b2' inp) by (eapply ext_ins_ok; eauto).
      rewrite (Hdw inp Hi2), (ext_den _ _ _ _ E2 Hi1 Vt), (Hdt inp Hi1).
      rewrite (ext_den _ _ _ _ E2 Hi1 Va1').
      rewrite !(ext_den _ _ _ _ E1 Hi) by assumption.
      symmetry. now apply Hid.
  Qed.
End XorSound.

Lemma push_xor_good fuel : forall b x y,
  inv b -> valid b x -> valid b y ->
  good (post xstep xorb b x y) fuel (x + y) (push_xor fuel b x y).
Proof.
  induction fuel as [|fuel IH]; intros b x y I Hx Hy; cbn [push_xor].
  - cbn [good]. lia.
  - destruct (optimize_xor b x y) as [w|] eqn:Eo.
    + split; [now apply optimize_xor_sound|now left].
    + destruct (lookup_ok b x I Hx) as [gx Lx]. destruct (lookup_ok b y I Hy) as [gy Ly].
      rewrite Lx, Ly. cbn [bind].
      apply xstage1_sound; auto; intros x' y' Hx' Hy' _; now apply IH.
Qed.

Lemma push_xor_top_post b x y :
  inv b -> valid b x -> valid b y ->
  exists p, push_xor_top b x y = Ok p /\ post xstep xorb b x y p.
Proof.
  intros I Hx Hy. apply (good_top _ (fun fuel => push_xor fuel b x y)).
  intro fuel. now apply push_xor_good.
Qed.

Theorem push_xor_top_sound : binop_sound inv push_xor_top xorb.
Proof.
  intros b x y I Hx Hy. destruct (push_xor_top_post b x y I Hx Hy) as ([r b'] & E & P & _).
  now exists r, b'.
Qed.

Lemma push_xor_top_step b x y r b' :
  inv b -> valid b x -> valid b y -> push_xor_top b x y = Ok (r, b') -> b' = b \/ xstep b b'.
Proof.
  intros I Hx Hy E. destruct (push_xor_top_post b x y I Hx Hy) as (p & E' & _ & St).
  rewrite E in E'. injection E' as <-. exact St.
Qed.

(* ---------------------------------------------------------------- AND *)

Definition and_post (b : builder) (x y : N) (p : N * builder) : Prop :=
  let '(r, b') := p in
  inv b' /\ ext b b' /\ valid b' r /\
  forall inp, ins_ok b inp -> den inp b' r = andb (den inp b x) (den inp b y).

Lemma orb_eqb_cases a p q : ((a =? p) || (a =? q)) = true -> a = p \/ a = q.
Proof.
  intro H. apply orb_true_iff in H. destruct H as [H|H]; apply N.eqb_eq in H; auto.
Qed.

Lemma optimize_and_sound b x y w :
  inv b -> valid b x -> valid b y -> optimize_and b x y = Some w -> and_post b x y (w, b).
Proof.
  intros I Hx Hy. unfold optimize_and, and_post.
  pose proof (fun w' => ret_sound andb b x y w' I) as Hbase.
  destruct (valid_consts b I) as [V0 V1].
  destruct ((x =? 0) || (y =? 0)) eqn:E0.
  { intros [= <-]. apply Hbase; auto. intros inp Hi. rewrite den_const0.
    apply orb_true_iff in E0. destruct E0 as [E|E]; apply N.eqb_eq in E; subst;
      rewrite den_const0; [reflexivity|now rewrite andb_false_r]. }
  destruct (N.eqb_spec x 1) as [->|Hx1].
  { intros [= <-]. apply Hbase; auto. intros. now rewrite den_const1. }
  destruct ((y =? 1) || (x =? y)) eqn:E1.
  { intros [= <-]. apply Hbase; auto. intros inp Hi.
    apply orb_true_iff in E1. destruct E1 as [E|E]; apply N.eqb_eq in E; subst.
    - now rewrite den_const1, andb_true_r.
    - now rewrite andb_diag. }
  assert (Hc : get_cached b (BAnd x y) = Some w -> _) by
    (intro H; destruct (get_cached_and_sound b x y w I H); apply Hbase; eassumption).
  destruct (nfind x (b_neg b)) as [xn|] eqn:Ex.
  - destruct (inv_neg b I _ _ Ex) as (_ & _ & _ & Hd).
    destruct (N.eqb_spec xn y) as [<-|_]; [|exact Hc].
    intros [= <-]. apply Hbase; auto. intros inp Hi. rewrite den_const0, (Hd inp Hi).
    now destruct (den inp b x).
  - destruct (nfind y (b_neg b)) as [yn|] eqn:Ey; [|exact Hc].
    destruct (inv_neg b I _ _ Ey) as (_ & _ & _ & Hd).
    destruct (N.eqb_spec yn x) as [->|_]; [|exact Hc].
    intros [= <-]. apply Hbase; auto. intros inp Hi. rewrite den_const0, (Hd inp Hi).
    now destruct (den inp b y).
Qed.

Lemma push_and_S f b x y :
  push_and (S f) b x y =
  match optimize_and b x y with
  | Some w => Ok (w, b)
  | None => let* gx := lookup b x in let* gy := lookup b y in astage1 (push_and f) b x y gx gy
  end.
Proof. reflexivity. Qed.

Lemma push_and_top_ok b x y p : push_and small_fuel b x y = Ok p -> push_and_top b x y = Ok p.
Proof. unfold push_and_top. now intros ->. Qed.

Lemma push_and_top_opt b x y w : optimize_and b x y = Some w -> push_and_top b x y = Ok (w, b).
Proof. intro H. apply push_and_top_ok. unfold small_fuel. now rewrite push_and_S, H. Qed.

Lemma optimize_and_zero_r b x : optimize_and b x 0 = Some 0.
Proof. unfold optimize_and. now rewrite N.eqb_refl, orb_true_r. Qed.

Lemma optimize_and_one_l b x : optimize_and b 1 x = Some x.
Proof. unfold optimize_and. destruct (N.eqb_spec x 0) as [->|H0]; reflexivity. Qed.

Section AndSound.
  Variable rec : builder -> N -> N -> res (N * builder).
  Variable fuel' : nat.
  Variable b : builder.
  Variables x y : N.
  Hypothesis I : inv b.
  Hypothesis Hx : valid b x.
  Hypothesis Hy : valid b y.
  Hypothesis Eo : optimize_and b x y = None.
  Hypothesis Hrec : forall y', valid b y' -> y' < y ->
    good (post astep andb b x y') fuel' y' (rec b x y').

  Lemma agood_rec y' :
    valid b y' -> y' < y ->
    (forall inp, ins_ok b inp ->
       andb (den inp b x) (den inp b y') = andb (den inp b x) (den inp b y)) ->
    good (post astep andb b x y) (S fuel') y (rec b x y').
  Proof.
    intros Hy' Hm Ht. eapply good_step; [|exact Hm|now apply Hrec].
    intro p. now apply post_same.
  Qed.

  Lemma agood_ret w :
    valid b w ->
    (forall inp, ins_ok b inp -> den inp b w = andb (den inp b x) (den inp b y)) ->
    good (post astep andb b x y) (S fuel') y (Ok (w, b)).
  Proof. now apply post_ret. Qed.

  Lemma agood_push : good (post astep andb b x y) (S fuel') y (Ok (push_gate b (BAnd x y))).
  Proof.
    rewrite push_gate_eq. split; [|right; now constructor].
    destruct (push_gate_sound b (BAnd x y) I (conj Hx Hy)) as (I1 & E1 & Vw & (Vx & Vy & _ & Hd)).
    cbn [gfun] in Hd. split; [exact I1|]. split; [exact E1|]. split; [exact Vw|].
    intros inp Hi. assert (Hi1 : ins_ok (snd (push_gate b (BAnd x y))) inp) by (eapply ext_ins_ok; eauto).
    rewrite (Hd inp Hi1). now rewrite !(ext_den _ _ _ _ E1 Hi) by assumption.
  Qed.

  (* the distributed form: both partial products are cached *)
  Lemma agood_xor w1 w2 :
    valid b w1 -> valid b w2 ->
    (forall inp, ins_ok b inp ->
       xorb (den inp b w1) (den inp b w2) = andb (den inp b x) (den inp b y)) ->
    good (post astep andb b x y) (S fuel') y (push_xor_top b w1 w2).
  Proof.
    intros V1 V2 Hid.
    destruct (push_xor_top_post b w1 w2 I V1 V2) as ([r b'] & -> & (I' & E & Vr & Hd) & St).
    split; [|destruct St as [St|St]; [now left|right; now apply as_xor]].
    split; [exact I'|]. split; [exact E|]. split; [exact Vr|].
    intros inp Hi. rewrite (Hd inp Hi). now apply Hid.
  Qed.

  Lemma astage3_sound gy :
    lookup b y = Ok gy ->
    good (post astep andb b x y) (S fuel') y (astage3 b x y gy).
  Proof.
    intro Ly. unfold astage3. destruct gy as [[y1 y2|y1 y2]|]; [| |apply agood_push].
    - pose proof (gate_facts b y _ I Hy Ly) as F. cbn [gops gfun] in F.
      destruct F as (L1 & L2 & V1 & V2 & _ & Hd).
      destruct (get_cached b (BAnd x y1)) as [w1|] eqn:E1; [|apply agood_push].
      destruct (get_cached b (BAnd x y2)) as [w2|] eqn:E2; [|apply agood_push].
      destruct (get_cached_and_sound _ _ _ _ I E1) as [Vw1 Hd1].
      destruct (get_cached_and_sound _ _ _ _ I E2) as [Vw2 Hd2].
      apply agood_xor; auto. intros inp Hi. rewrite (Hd1 inp Hi), (Hd2 inp Hi), (Hd inp Hi). den_cases.
    - pose proof (gate_facts b y _ I Hy Ly) as F. cbn [gops gfun] in F.
      destruct F as (L1 & L2 & V1 & V2 & _ & Hd).
      destruct ((x =? y1) || (x =? y2)) eqn:Ec.
      { apply agood_ret; [exact Hy|]. intros inp Hi. rewrite (Hd inp Hi).
        destruct (orb_eqb_cases _ _ _ Ec) as [<-|<-]; den_cases. }
      destruct (nfind x (b_neg b)) as [xn|] eqn:Ex; [|apply agood_push].
      destruct (inv_neg b I _ _ Ex) as (_ & _ & _ & Hdn).
      destruct ((xn =? y1) || (xn =? y2)) eqn:Ec2; [|apply agood_push].
      destruct (valid_consts b I) as [V0 _].
      apply agood_ret; [exact V0|]. intros inp Hi. rewrite den_const0, (Hd inp Hi).
      destruct (orb_eqb_cases _ _ _ Ec2) as [<-|<-]; rewrite (Hdn inp Hi); den_cases.
  Qed.

  Lemma astage2_sound gx gy :
    lookup b x = Ok gx -> lookup b y = Ok gy ->
    good (post astep andb b x y) (S fuel') y (astage2 b x y gx gy).
  Proof.
    intros Lx Ly. unfold astage2. destruct gx as [[x1 x2|x1 x2]|]; [| |now apply astage3_sound].
    - pose proof (gate_facts b x _ I Hx Lx) as F. cbn [gops gfun] in F.
      destruct F as (L1 & L2 & V1 & V2 & _ & Hd).
      destruct (get_cached b (BAnd x1 y)) as [w1|] eqn:E1; [|now apply astage3_sound].
      destruct (get_cached b (BAnd x2 y)) as [w2|] eqn:E2; [|now apply astage3_sound].
      destruct (get_cached_and_sound _ _ _ _ I E1) as [Vw1 Hd1].
      destruct (get_cached_and_sound _ _ _ _ I E2) as [Vw2 Hd2].
      apply agood_xor; auto. intros inp Hi. rewrite (Hd1 inp Hi), (Hd2 inp Hi), (Hd inp Hi). den_cases.
    - pose proof (gate_facts b x _ I Hx Lx) as F. cbn [gops gfun] in F.
      destruct F as (L1 & L2 & V1 & V2 & _ & Hd).
      destruct ((x1 =? y) || (x2 =? y)) eqn:Ec.
      { apply agood_ret; [exact Hx|]. intros inp Hi. rewrite (Hd inp Hi).
        apply orb_true_iff in Ec. destruct Ec as [E|E]; apply N.eqb_eq in E; rewrite <- E; den_cases. }
      destruct (nfind y (b_neg b)) as [yn|] eqn:Ey; [|now apply astage3_sound].
      destruct (inv_neg b I _ _ Ey) as (_ & _ & _ & Hdn).
      destruct ((x1 =? yn) || (x2 =? yn)) eqn:Ec2; [|now apply astage3_sound].
      destruct (valid_consts b I) as [V0 _].
      apply agood_ret; [exact V0|]. intros inp Hi. rewrite den_const0, (Hd inp Hi).
      apply orb_true_iff in Ec2. destruct Ec2 as [E|E]; apply N.eqb_eq in E; rewrite E, (Hdn inp Hi); den_cases.
  Qed.

  Lemma astage1_sound gx gy :
    lookup b x = Ok gx -> lookup b y = Ok gy ->
    good (post astep andb b x y) (S fuel') y (astage1 rec b x y gx gy).
  Proof.
    intros Lx Ly. unfold astage1.
    destruct gx as [[x1 x2|x1 x2]|]; try now apply astage2_sound.
    destruct gy as [[y1 y2|y1 y2]|]; try now apply astage2_sound.
    pose proof (gate_facts b x _ I Hx Lx) as F. cbn [gops gfun] in F.
    destruct F as (Lx1 & Lx2 & Vx1 & Vx2 & _ & Hdx).
    pose proof (gate_facts b y _ I Hy Ly) as F. cbn [gops gfun] in F.
    destruct F as (Ly1 & Ly2 & Vy1 & Vy2 & _ & Hdy).
    destruct ((x1 =? y1) || (x2 =? y1)) eqn:Ec.
    { apply agood_rec; auto. intros inp Hi. rewrite (Hdx inp Hi), (Hdy inp Hi).
      apply orb_true_iff in Ec. destruct Ec as [E|E]; apply N.eqb_eq in E; rewrite <- E; den_cases. }
    destruct ((x1 =? y2) || (x2 =? y2)) eqn:Ec2; [|now apply astage2_sound].
    apply agood_rec; auto. intros inp Hi. rewrite (Hdx inp Hi), (Hdy inp Hi).
    apply orb_true_iff in Ec2. destruct Ec2 as [E|E]; apply N.eqb_eq in E; rewrite <- E; den_cases.
  Qed.
End AndSound.

Lemma push_and_good fuel : forall b x y,
  inv b -> valid b x -> valid b y ->
  good (post astep andb b x y) fuel y (push_and fuel b x y).
Proof.
  induction fuel as [|fuel IH]; intros b x y I Hx Hy; cbn [push_and].
  - cbn [good]. lia.
  - destruct (optimize_and b x y) as [w|] eqn:Eo.
    + split; [now apply optimize_and_sound|now left].
    + destruct (lookup_ok b x I Hx) as [gx Lx]. destruct (lookup_ok b y I Hy) as [gy Ly].
      rewrite Lx, Ly. cbn [bind].
      apply astage1_sound; auto; intros y' Hy' _; now apply IH.
Qed.

Lemma push_and_top_post b x y :
  inv b -> valid b x -> valid b y ->
  exists p, push_and_top b x y = Ok p /\ post astep andb b x y p.
Proof.
  intros I Hx Hy. apply (good_top _ (fun fuel => push_and fuel b x y)).
  intro fuel. now apply push_and_good.
Qed.

Theorem push_and_top_sound : binop_sound inv push_and_top andb.
Proof.
  intros b x y I Hx Hy. destruct (push_and_top_post b x y I Hx Hy) as ([r b'] & E & P & _).
  now exists r, b'.
Qed.

Lemma push_and_top_step b x y r b' :
  inv b -> valid b x -> valid b y -> push_and_top b x y = Ok (r, b') -> b' = b \/ astep b b'.
Proof.
  intros I Hx Hy E. destruct (push_and_top_post b x y I Hx Hy) as (p & E' & _ & St).
  rewrite E in E'. injection E' as <-. exact St.
Qed.

(* ---------------------------------------------------------------- derived requests *)

Theorem push_not_sound : unop_sound inv push_not negb.
Proof.
  intros b x I Hx. unfold push_not. destruct (valid_consts b I) as [_ V1].
  destruct (push_xor_top_sound b x 1 I Hx V1) as (r & b' & E & I' & Ex & Vr & Hd).
  exists r, b'. split; [exact E|]. split; [exact I'|]. split; [exact Ex|]. split; [exact Vr|].
  intros inp Hi. rewrite (Hd inp Hi), den_const1. now destruct (den inp b x).
Qed.

Theorem push_or_sound : binop_sound inv push_or orb.
Proof.
  intros b x y I Hx Hy. unfold push_or.
  destruct (push_xor_top_sound b x y I Hx Hy) as (xo & b1 & -> & I1 & E1 & V1 & D1). cbn [bind].
  destruct (push_and_top_sound b1 x y I1 (ext_valid _ _ _ E1 Hx) (ext_valid _ _ _ E1 Hy))
    as (an & b2 & -> & I2 & E2 & V2 & D2). cbn [bind].
  destruct (push_xor_top_sound b2 xo an I2 (ext_valid _ _ _ E2 V1) V2) as (r & b3 & -> & I3 & E3 & V3 & D3).
  exists r, b3. split; [reflexivity|]. split; [exact I3|].
  split; [eapply ext_trans; [eapply ext_trans|]; eauto|]. split; [exact V3|].
  intros inp Hi. assert (Hi1 : ins_ok b1 inp) by (eapply ext_ins_ok; eauto).
  assert (Hi2 : ins_ok b2 inp) by (eapply ext_ins_ok; eauto).
  rewrite (D3 inp Hi2), (D2 inp Hi1), (ext_den _ _ _ _ E2 Hi1 V1), (D1 inp Hi).
  rewrite (ext_den _ _ _ _ E1 Hi Hx), (ext_den _ _ _ _ E1 Hi Hy). den_cases.
Qed.

Theorem push_eq_sound : binop_sound inv push_eq (fun a b => negb (xorb a b)).
Proof.
  intros b x y I Hx Hy. unfold push_eq.
  destruct (push_xor_top_sound b x y I Hx Hy) as (xo & b1 & -> & I1 & E1 & V1 & D1). cbn [bind].
  destruct (valid_consts b1 I1) as [_ Vc].
  destruct (push_xor_top_sound b1 xo 1 I1 V1 Vc) as (r & b2 & -> & I2 & E2 & V2 & D2).
  exists r, b2. split; [reflexivity|]. split; [exact I2|]. split; [eapply ext_trans; eauto|].
  split; [exact V2|]. intros inp Hi. assert (Hi1 : ins_ok b1 inp) by (eapply ext_ins_ok; eauto).
  rewrite (D2 inp Hi1), (D1 inp Hi), den_const1. den_cases.
Qed.

Theorem push_mux_sound : mux_sound inv.
Proof.
  intros b s x0 x1 I Hs H0 H1. unfold push_mux.
  destruct (N.eqb_spec x0 x1) as [<-|Hne].
  { exists x0, b. split; [reflexivity|]. split; [exact I|]. split; [apply ext_refl|]. split; [exact H0|].
    intros inp Hi. now destruct (den inp b s). }
  destruct (push_xor_top_sound b x0 x1 I H0 H1) as (d & b1 & -> & I1 & E1 & V1 & D1). cbn [bind].
  destruct (push_not_sound b1 s I1 (ext_valid _ _ _ E1 Hs)) as (ns & b2 & -> & I2 & E2 & V2 & D2).
  cbn [bind].
  destruct (push_and_top_sound b2 d ns I2 (ext_valid _ _ _ E2 V1) V2) as (sw & b3 & -> & I3 & E3 & V3 & D3).
  cbn [bind].
  assert (E13 : ext b b3) by (eapply ext_trans; [eapply ext_trans|]; eauto).
  destruct (push_xor_top_sound b3 x0 sw I3 (ext_valid _ _ _ E13 H0) V3) as (r & b4 & -> & I4 & E4 & V4 & D4).
  exists r, b4. split; [reflexivity|]. split; [exact I4|]. split; [eapply ext_trans; eauto|].
  split; [exact V4|]. intros inp Hi.
  assert (Hi1 : ins_ok b1 inp) by (eapply ext_ins_ok; eauto).
  assert (Hi2 : ins_ok b2 inp) by (eapply ext_ins_ok; eauto).
  assert (Hi3 : ins_ok b3 inp) by (eapply ext_ins_ok; eauto).
  rewrite (D4 inp Hi3), (D3 inp Hi2), (D2 inp Hi1).
  rewrite (ext_den _ _ _ _ E13 Hi H0), (ext_den _ _ _ _ E2 Hi1 V1), (D1 inp Hi).
  rewrite (ext_den _ _ _ _ E1 Hi Hs). den_cases.
Qed.

Lemma inv_new dedup inputs : inv (new_builder dedup inputs).
Proof.
  unfold new_builder. constructor; cbn [b_shift b_inputs b_ngates b_gates_rev b_gmap b_cxor b_cand b_neg].
  - lia.
  - reflexivity.
  - reflexivity.
  - intro i. unfold glist. cbn [b_gates_rev rev]. rewrite nfind_empty.
    destruct (nthN (@nil bgate) i) eqn:E; [apply nthN_lt in E; rewrite lenN_nil in E; lia|reflexivity].
  - intros i g. unfold glist. cbn [b_gates_rev rev]. intro E. apply nthN_lt in E. rewrite lenN_nil in E. lia.
  - intros x y w. unfold cache_get. rewrite nfind_empty. discriminate.
  - intros x y w. unfold cache_get. rewrite nfind_empty. discriminate.
  - intros a n. rewrite nfind_empty. discriminate.
Qed.

Theorem builder_sound : builder_ops_sound inv.
Proof.
  constructor.
  - exact push_xor_top_sound.
  - exact push_and_top_sound.
  - exact push_or_sound.
  - exact push_eq_sound.
  - exact push_not_sound.
  - exact push_mux_sound.
  - intros. apply den_const0.
  - intros. apply den_const1.
  - exact valid_consts.
  - exact inv_new.
Qed.
