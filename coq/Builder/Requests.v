(* Request sequences against the builder and their literal execution (C04 headline):
   for ANY sequence of requests the built circuit computes exactly what the same requests
   compute when executed literally on Booleans, with no simplification. *)
From GV Require Import Base.Util Base.ListFacts Base.NMap Circuit.Ssa Circuit.SsaProofs
  Builder.Builder Builder.Build Builder.BuilderSem Builder.BuilderSpec Builder.BuilderProofs
  Builder.BuildProofs.

Inductive opnd := Raw (w : N) | Hnd (k : nat).

Inductive request :=
| RXor (a b : opnd)
| RAnd (a b : opnd)
| ROr (a b : opnd)
| REq (a b : opnd)
| RNot (a : opnd)
| RMux (s a b : opnd).

Definition resolve (hs : list N) (o : opnd) : option N :=
  match o with Raw w => Some w | Hnd k => nth_error hs k end.

Definition run_req (b : builder) (hs : list N) (r : request) : res (N * builder) :=
  let get o := of_option (resolve hs o) in
  match r with
  | RXor x y => let* a := get x in let* c := get y in push_xor_top b a c
  | RAnd x y => let* a := get x in let* c := get y in push_and_top b a c
  | ROr x y => let* a := get x in let* c := get y in push_or b a c
  | REq x y => let* a := get x in let* c := get y in push_eq b a c
  | RNot x => let* a := get x in push_not b a
  | RMux s x y => let* w := get s in let* a := get x in let* c := get y in push_mux b w a c
  end.

(* handles are appended in order of creation *)
Fixpoint run_reqs (b : builder) (hs : list N) (rs : list request) : res (builder * list N) :=
  match rs with
  | [] => Ok (b, hs)
  | r :: rest => let* (w, b') := run_req b hs r in run_reqs b' (hs ++ [w]) rest
  end.

Inductive req_view (b : builder) (hs : list N) : request -> res (N * builder) -> Prop :=
| rv_xor x y a c : resolve hs x = Some a -> resolve hs y = Some c ->
    req_view b hs (RXor x y) (push_xor_top b a c)
| rv_and x y a c : resolve hs x = Some a -> resolve hs y = Some c ->
    req_view b hs (RAnd x y) (push_and_top b a c)
| rv_or x y a c : resolve hs x = Some a -> resolve hs y = Some c ->
    req_view b hs (ROr x y) (push_or b a c)
| rv_eq x y a c : resolve hs x = Some a -> resolve hs y = Some c ->
    req_view b hs (REq x y) (push_eq b a c)
| rv_not x a : resolve hs x = Some a -> req_view b hs (RNot x) (push_not b a)
| rv_mux s x y w a c : resolve hs s = Some w -> resolve hs x = Some a -> resolve hs y = Some c ->
    req_view b hs (RMux s x y) (push_mux b w a c)
| rv_crash r : req_view b hs r Crash.

Lemma run_req_view b hs r : req_view b hs r (run_req b hs r).
Proof.
  destruct r as [x y|x y|x y|x y|x|s x y]; cbn [run_req].
  6: destruct (resolve hs s) eqn:Es; cbn [of_option bind]; [|constructor].
  all: destruct (resolve hs x) eqn:Ex; cbn [of_option bind]; [|constructor].
  1-4, 6: destruct (resolve hs y) eqn:Ey; cbn [of_option bind]; [|constructor].
  all: now constructor.
Qed.

(* ---- literal execution: no builder, no simplification ---- *)

Definition raw_val (inp : list bool) (w : N) : option bool :=
  if w =? 0 then Some false else if w =? 1 then Some true else nthN inp (w - 2).

Definition lit_opnd (inp vs : list bool) (o : opnd) : option bool :=
  match o with Raw w => raw_val inp w | Hnd k => nth_error vs k end.

Definition lit_req (inp vs : list bool) (r : request) : option bool :=
  let get := lit_opnd inp vs in
  match r with
  | RXor x y => match get x, get y with Some a, Some c => Some (xorb a c) | _, _ => None end
  | RAnd x y => match get x, get y with Some a, Some c => Some (andb a c) | _, _ => None end
  | ROr x y => match get x, get y with Some a, Some c => Some (orb a c) | _, _ => None end
  | REq x y => match get x, get y with Some a, Some c => Some (negb (xorb a c)) | _, _ => None end
  | RNot x => match get x with Some a => Some (negb a) | None => None end
  | RMux s x y => match get s, get x, get y with
                  | Some w, Some a, Some c => Some (if w then a else c) | _, _, _ => None end
  end.

Fixpoint lit_reqs (inp vs : list bool) (rs : list request) : option (list bool) :=
  match rs with
  | [] => Some vs
  | r :: rest => match lit_req inp vs r with Some v => lit_reqs inp (vs ++ [v]) rest | None => None end
  end.

(* the bits of PanicResult::ok(): flag clear, type field = 1, locations 0 *)
Definition panic_ok_bits : list bool := false :: (repeat false 31 ++ [true]) ++ repeat false 128.

(* ---- the theorem ---- *)

Lemma den_raw b inp w v :
  inv b -> ins_ok b inp -> raw_val inp w = Some v -> valid b w /\ den inp b w = v.
Proof.
  intros I Hi. unfold raw_val. pose proof (inv_shift b I) as Hs.
  destruct (N.eqb_spec w 0) as [->|N0].
  { intros [= <-]. split; [apply valid_consts; exact I|apply den_const0]. }
  destruct (N.eqb_spec w 1) as [->|N1].
  { intros [= <-]. split; [apply valid_consts; exact I|apply den_const1]. }
  intro Hn. pose proof (nthN_lt _ _ _ Hn) as Hlt. unfold ins_ok in Hi.
  split; [unfold valid, counter; lia|].
  rewrite den_low by lia.
  unfold nthd. rewrite nthN_spec in *. replace (N.to_nat w) with (S (S (N.to_nat (w - 2)))) by lia.
  cbn [nth_error]. now rewrite Hn.
Qed.

Definition hs_ok (b : builder) (inp : list bool) (hs : list N) (vs : list bool) : Prop :=
  Forall2 (fun w v => valid b w /\ den inp b w = v) hs vs.

Lemma hs_ok_ext b b' inp hs vs : ext b b' -> ins_ok b inp -> hs_ok b inp hs vs -> hs_ok b' inp hs vs.
Proof.
  intros E Hi H. induction H as [|w v hs vs [Hv Hd] _ IH]; constructor; auto.
  split; [eapply ext_valid; eauto|]. now rewrite (ext_den _ _ _ _ E Hi Hv).
Qed.

Lemma opnd_ok b inp hs vs o v :
  inv b -> ins_ok b inp -> hs_ok b inp hs vs -> lit_opnd inp vs o = Some v ->
  exists w, resolve hs o = Some w /\ valid b w /\ den inp b w = v.
Proof.
  intros I Hi Hh. destruct o as [w|k]; cbn [lit_opnd resolve].
  - intro Hr. exists w. split; [reflexivity|]. eapply den_raw; eauto.
  - revert k. induction Hh as [|w0 v0 hs vs H0 _ IH]; intros [|k] Hk; cbn [nth_error] in *; try discriminate.
    + injection Hk as <-. exists w0. auto.
    + auto.
Qed.

Lemma binop_req f op b inp hs vs x y v :
  binop_sound inv f op -> inv b -> ins_ok b inp -> hs_ok b inp hs vs ->
  match lit_opnd inp vs x, lit_opnd inp vs y with
  | Some a, Some c => Some (op a c) | _, _ => None end = Some v ->
  exists w b',
    (let* a := of_option (resolve hs x) in let* c := of_option (resolve hs y) in f b a c) = Ok (w, b') /\
    inv b' /\ ext b b' /\ valid b' w /\ den inp b' w = v.
Proof.
  intros S I Hi Hh.
  destruct (lit_opnd inp vs x) as [a|] eqn:Ea; [|discriminate].
  destruct (lit_opnd inp vs y) as [c|] eqn:Ec; [|discriminate]. intros [= <-].
  destruct (opnd_ok _ _ _ _ _ _ I Hi Hh Ea) as (wa & -> & Va & <-).
  destruct (opnd_ok _ _ _ _ _ _ I Hi Hh Ec) as (wc & -> & Vc & <-). cbn [of_option bind].
  destruct (S b wa wc I Va Vc) as (r & b' & -> & I' & E & Vr & Dr).
  exists r, b'. rewrite (Dr inp Hi). auto 6.
Qed.

Lemma run_req_sound b inp hs vs r v :
  inv b -> ins_ok b inp -> hs_ok b inp hs vs -> lit_req inp vs r = Some v ->
  exists w b', run_req b hs r = Ok (w, b') /\ inv b' /\ ext b b' /\ valid b' w /\ den inp b' w = v.
Proof.
  intros I Hi Hh. destruct r as [x y|x y|x y|x y|x|s x y]; cbn [lit_req run_req].
  - apply (binop_req _ xorb); auto using push_xor_top_sound.
  - apply (binop_req _ andb); auto using push_and_top_sound.
  - apply (binop_req _ orb); auto using push_or_sound.
  - apply (binop_req _ (fun a c => negb (xorb a c))); auto using push_eq_sound.
  - destruct (lit_opnd inp vs x) as [a|] eqn:Ea; [|discriminate]. intros [= <-].
    destruct (opnd_ok _ _ _ _ _ _ I Hi Hh Ea) as (wa & -> & Va & <-). cbn [of_option bind].
    destruct (push_not_sound b wa I Va) as (r & b' & -> & I' & E & Vr & Dr).
    exists r, b'. rewrite (Dr inp Hi). auto 6.
  - destruct (lit_opnd inp vs s) as [w|] eqn:Es; [|discriminate].
    destruct (lit_opnd inp vs x) as [a|] eqn:Ea; [|discriminate].
    destruct (lit_opnd inp vs y) as [c|] eqn:Ec; [|discriminate]. intros [= <-].
    destruct (opnd_ok _ _ _ _ _ _ I Hi Hh Es) as (ws & -> & Vs & <-).
    destruct (opnd_ok _ _ _ _ _ _ I Hi Hh Ea) as (wa & -> & Va & <-).
    destruct (opnd_ok _ _ _ _ _ _ I Hi Hh Ec) as (wc & -> & Vc & <-). cbn [of_option bind].
    destruct (push_mux_sound b ws wa wc I Vs Va Vc) as (r & b' & -> & I' & E & Vr & Dr).
    exists r, b'. rewrite (Dr inp Hi). auto 6.
Qed.

Lemma run_reqs_sound rs : forall b inp hs vs vs',
  inv b -> ins_ok b inp -> hs_ok b inp hs vs -> lit_reqs inp vs rs = Some vs' ->
  exists b' hs', run_reqs b hs rs = Ok (b', hs') /\ inv b' /\ ext b b' /\ hs_ok b' inp hs' vs'.
Proof.
  induction rs as [|r rest IH]; intros b inp hs vs vs' I Hi Hh Hl; cbn [lit_reqs run_reqs] in *.
  - injection Hl as <-. exists b, hs. split; [reflexivity|]. split; [exact I|]. split; [apply ext_refl|exact Hh].
  - destruct (lit_req inp vs r) as [v|] eqn:Er; [|discriminate].
    destruct (run_req_sound _ _ _ _ _ _ I Hi Hh Er) as (w & b1 & -> & I1 & E1 & V1 & D1). cbn [bind].
    assert (Hi1 : ins_ok b1 inp) by (eapply ext_ins_ok; eauto).
    assert (Hh1 : hs_ok b1 inp (hs ++ [w]) (vs ++ [v])).
    { apply Forall2_app; [eapply hs_ok_ext; eauto|]. constructor; [auto|constructor]. }
    destruct (IH b1 inp _ _ _ I1 Hi1 Hh1 Hl) as (b' & hs' & -> & I' & E' & Hh').
    exists b', hs'. split; [reflexivity|]. split; [exact I'|]. split; [eapply ext_trans; eauto|exact Hh'].
Qed.

Lemma panic_ok_wires_valid b : inv b -> valids b panic_ok_wires.
Proof.
  intro I. destruct (valid_consts b I) as [V0 V1]. unfold panic_ok_wires, valids.
  constructor; [exact V0|]. apply Forall_app. split.
  - apply Forall_app. split; [apply Forall_forall; intros x Hx; apply repeat_spec in Hx; now subst|].
    constructor; [exact V1|constructor].
  - apply Forall_forall. intros x Hx. apply repeat_spec in Hx. now subst.
Qed.

Theorem requests_then_build dedup inputs rs outs ins inp vs ovs :
  load_inputs inputs ins = Some inp -> 1 <= sumN inputs ->
  lit_reqs inp [] rs = Some vs ->
  mapM (lit_opnd inp vs) outs = Some ovs ->
  exists b hs ows,
    run_reqs (new_builder dedup inputs) [] rs = Ok (b, hs) /\
    mapM (resolve hs) outs = Some ows /\
    (counter b + (b_shift b - 2) <= MAX_GATES ->
     exists c, build b panic_ok_wires ows = Ok c /\
       ssa_validate c = None /\
       ssa_eval c ins = Some (panic_ok_bits ++ ovs)).
Proof.
  intros Hload Hpos Hlit Houts.
  pose proof (inv_new dedup inputs) as I0.
  assert (Hlen : lenN inp = sumN inputs) by (eapply load_inputs_len; eauto).
  assert (Hi0 : ins_ok (new_builder dedup inputs) inp).
  { unfold ins_ok, new_builder. cbn [b_shift]. lia. }
  destruct (run_reqs_sound rs _ inp [] [] vs I0 Hi0 (Forall2_nil _) Hlit) as (b & hs & Hrun & I & E & Hh).
  assert (Hi : ins_ok b inp) by (eapply ext_ins_ok; eauto).
  assert (Hows : exists ows, mapM (resolve hs) outs = Some ows /\
            Forall2 (fun w v => valid b w /\ den inp b w = v) ows ovs).
  { clear Hlit Hrun. revert ovs Houts. induction outs as [|o r IH]; intros ovs Houts; cbn [mapM] in *.
    - injection Houts as <-. exists []. split; [reflexivity|constructor].
    - destruct (lit_opnd inp vs o) as [v|] eqn:Eo; [|discriminate].
      destruct (mapM (lit_opnd inp vs) r) as [rest|] eqn:Er; [|discriminate]. injection Houts as <-.
      destruct (opnd_ok _ _ _ _ _ _ I Hi Hh Eo) as (w & -> & Vw & Dw).
      destruct (IH rest eq_refl) as (ows & -> & HF). exists (w :: ows). split; [reflexivity|].
      constructor; auto. }
  destruct Hows as (ows & Eows & HF).
  exists b, hs, ows. split; [exact Hrun|]. split; [exact Eows|]. intro Hmax.
  assert (Hsh : b_shift b = 2 + sumN inputs).
  { destruct E as (Es & _). rewrite Es. reflexivity. }
  assert (Hbi : b_inputs b = inputs) by (destruct E as (_ & Ei & _); rewrite Ei; reflexivity).
  pose proof (panic_ok_wires_valid b I) as Hpwv.
  assert (Hov : valids b ows).
  { unfold valids. clear -HF. induction HF as [|w v ws vs0 [Hv _] _ IH]; constructor; auto. }
  assert (Hne : panic_ok_wires ++ ows <> []) by (unfold panic_ok_wires; discriminate).
  assert (Hs2 : 2 < b_shift b) by lia.
  destruct (build_sound b panic_ok_wires ows I Hpwv Hov Hne Hs2 Hmax) as (c & Hb & Hv & _ & _ & Hev).
  exists c. split; [exact Hb|]. split; [exact Hv|].
  rewrite Hbi in Hev. rewrite (Hev ins inp Hload), map_app. f_equal. f_equal.
  - unfold panic_ok_wires, panic_ok_bits. cbn [map]. rewrite !map_app, !map_repeat. cbn [map].
    now rewrite den_const0, den_const1.
  - clear -HF. induction HF as [|w v ws vs0 [_ Hd] _ IH]; cbn [map]; [reflexivity|]. now rewrite Hd, IH.
Qed.
