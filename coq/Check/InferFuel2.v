(* C07 for the type checker, continued: the fuel of the model is only a recursion device.
   Part 1: fuel MONOTONICITY (any answer other than CNoFuel is kept with more fuel).
   Part 2: fuel ADEQUACY (with [check_fuel_needed P] units the answer is never CNoFuel). *)
From Coq Require Import Lia Bool.
From GV Require Import Base.Util Front.Scan Front.ParseExpr Check.UAst Check.Infer Check.InferProofs
  Check.InferTotal Check.InferFuel Check.InferAdequacy.
Local Open Scope nat_scope.

(* ================================================================ Part 1: monotonicity *)

(* r' refines r: r ran out of fuel, or r' is the same answer *)
Definition le_res {A} (r r' : cres A) : Prop := r = CNoFuel \/ r' = r.

Lemma le_refl {A} (r : cres A) : le_res r r.
Proof. right. reflexivity. Qed.

Lemma le_trans {A} (a b c : cres A) : le_res a b -> le_res b c -> le_res a c.
Proof. intros [H1|H1] H; subst; [left; reflexivity|exact H]. Qed.

Lemma le_nofuel {A} (r : cres A) : le_res CNoFuel r.
Proof. left. reflexivity. Qed.

Lemma le_bind {A B} (r r' : cres A) (k k' : A -> cres B) :
  le_res r r' -> (forall a, le_res (k a) (k' a)) -> le_res (cbind r k) (cbind r' k').
Proof.
  intros [H1|H1] Hk; subst; [left; reflexivity|]. destruct r; cbn [cbind]; [apply Hk|right; reflexivity..].
Qed.

Lemma le_mapM {A B} (g g' : A -> cres B) : (forall x, le_res (g x) (g' x)) ->
  forall l, le_res (mapM g l) (mapM g' l).
Proof.
  intros H. induction l as [|x l IH]; cbn [mapM]; [apply le_refl|].
  apply le_bind; [apply H|]. intros ?. apply le_bind; [exact IH|]. intros ?. apply le_refl.
Qed.

Lemma le_zipM {A B} (g g' : A -> B -> cres A) : (forall x y, le_res (g x y) (g' x y)) ->
  forall xs ys, le_res (zipM g xs ys) (zipM g' xs ys).
Proof.
  intros H. induction xs as [|x xs IH]; intros ys; cbn [zipM]; [apply le_refl|]. destruct ys; [apply le_refl|].
  apply le_bind; [apply H|]. intros ?. apply le_bind; [apply IH|]. intros ?. apply le_refl.
Qed.

Lemma le_map_last_expr (g g' : texpr -> cres texpr) : (forall x, le_res (g x) (g' x)) ->
  forall b, le_res (map_last_expr g b) (map_last_expr g' b).
Proof.
  intros H. induction b as [|s b IH]; cbn [map_last_expr]; [apply le_refl|].
  destruct b as [|s2 b].
  - destruct s; try apply le_refl. apply le_bind; [apply H|]. intro. apply le_refl.
  - destruct s; (apply le_bind; [exact IH|]; intro; apply le_refl).
Qed.

Lemma le_mapM_st {S A B} (g g' : S -> A -> cres (B * S)) : (forall st x, le_res (g st x) (g' st x)) ->
  forall l st, le_res (mapM_st g st l) (mapM_st g' st l).
Proof.
  intros H. induction l as [|x l IH]; intro st; cbn [mapM_st]; [apply le_refl|].
  apply le_bind; [apply H|]. intros ?. apply le_bind; [apply IH|]. intros ?. apply le_refl.
Qed.

(* Both sides are the same code run with f and S f: descend along the code of the left side.  What is
   left are calls: without fuel (the same on both sides), of a function whose monotonicity is a hint,
   or recursive (an induction hypothesis). *)
Create HintDb mono discriminated.
#[local] Hint Resolve le_refl le_nofuel : mono.

Ltac mono :=
  repeat (cbv beta zeta; lazymatch goal with
  | |- le_res (cbind _ _) _ => apply le_bind; [|intro]
  | |- le_res (mapM _ _) _ => apply le_mapM; intro
  | |- le_res (zipM _ _ _) _ => apply le_zipM; intros
  | |- le_res (map_last_expr _ _) _ => apply le_map_last_expr; intro
  | |- le_res (mapM_st _ _ _) _ => apply le_mapM_st; intros
  | |- le_res (match ?x with _ => _ end) _ => destruct x
  | |- _ => solve [auto 2 with mono nocore]
  end).

(* [S f] against [S (S f)]: unfolding must stop after one level on the right as on the left, so the
   inner [S f] is hidden behind a name while the definition is unfolded. *)
Lemma le_constrain_type : forall f e t, le_res (constrain_type f e t) (constrain_type (S f) e t).
Proof.
  induction f as [|f IH]; intros e t; [apply le_nofuel|].
  set (f1 := S f) at 2. cbn [constrain_type]. subst f1. mono.
Qed.
#[local] Hint Resolve le_constrain_type : mono.

Lemma le_check_type f e t : le_res (check_type f e t) (check_type (S f) e t).
Proof. unfold check_type. mono. Qed.
Lemma le_coc_unsigned_deep f e t : le_res (coc_unsigned_deep f e t) (coc_unsigned_deep (S f) e t).
Proof. unfold coc_unsigned_deep. mono. Qed.
Lemma le_coc_signed_deep f e t : le_res (coc_signed_deep f e t) (coc_signed_deep (S f) e t).
Proof. unfold coc_signed_deep. mono. Qed.
#[local] Hint Resolve le_check_type le_coc_unsigned_deep le_coc_signed_deep : mono.

Lemma le_unify f a b : le_res (unify f a b) (unify (S f) a b).
Proof. unfold unify. mono. Qed.

Lemma le_constrain_to_i32 : forall f b, le_res (constrain_to_i32 f b) (constrain_to_i32 (S f) b).
Proof.
  induction f as [|f IH]; intros b; [apply le_nofuel|].
  set (f1 := S f) at 2. cbn [constrain_to_i32]. subst f1. mono.
Qed.

Lemma le_accs_loop ce ce' f D : (forall st x, le_res (ce st x) (ce' st x)) ->
  forall accs st t, le_res (accs_loop ce f D st t accs) (accs_loop ce' (S f) D st t accs).
Proof. intros H. induction accs as [|a accs IH]; intros st t; cbn [accs_loop]; mono. Qed.

Lemma le_struct_lit_loop ce ce' f sd : (forall st x, le_res (ce st x) (ce' st x)) ->
  forall fields seen st, le_res (struct_lit_loop ce f sd seen st fields) (struct_lit_loop ce' (S f) sd seen st fields).
Proof. intros H. induction fields as [|[fname fv] fields IH]; intros seen st; cbn [struct_lit_loop]; mono. Qed.
#[local] Hint Resolve le_unify le_constrain_to_i32 le_accs_loop le_struct_lit_loop : mono.

Section Mono.
Variable intern : list N -> N.
Notation check_expr := (check_expr intern).
Notation check_stmt := (check_stmt intern).
Notation check_stmts := (check_stmts intern).
Notation check_block := (check_block intern).
Notation check_fn := (check_fn intern).

Theorem le_check D : forall f,
  (forall st e, le_res (check_expr f D st e) (check_expr (S f) D st e)) /\
  (forall st b, le_res (check_stmts f D st b) (check_stmts (S f) D st b)) /\
  (forall st b, le_res (check_block f D st b) (check_block (S f) D st b)) /\
  (forall st s, le_res (check_stmt f D st s) (check_stmt (S f) D st s)) /\
  (forall st fd, le_res (check_fn f D st fd) (check_fn (S f) D st fd)).
Proof.
  induction f as [|f (IHe & IHss & IHb & IHs & IHf)].
  { repeat split; intros; apply le_nofuel. }
  split; [|split; [|split; [|split]]].
  - intros st e. rewrite !check_expr_S. destruct e; cbn [expr_step]; unfold call_prefix, match_tail, match_arm, arm_retype; mono.
  - intros st b. rewrite !check_stmts_S. mono.
  - intros st b. rewrite !check_block_S. mono.
  - intros st s. rewrite !check_stmt_S. destruct s; cbn [stmt_step]; unfold annot; mono.
  - intros st fd. rewrite !check_fn_S. unfold fn_step, ret_check. mono.
Qed.
End Mono.

Lemma le_contains_type_def structs enums target : forall f visited ty,
  le_res (contains_type_def f structs enums target visited ty) (contains_type_def (S f) structs enums target visited ty).
Proof.
  induction f as [|f IH]; intros visited ty; [apply le_nofuel|].
  assert (Hany : forall tys visited0,
    le_res ((fix go (tys : list cty) (visited : list (list N)) : cres (bool * list (list N)) :=
               match tys with
               | [] => COk (false, visited)
               | t :: r => do r1 <- contains_type_def f structs enums target visited t;
                           if fst r1 then COk r1 else go r (snd r1)
               end) tys visited0)
           ((fix go (tys : list cty) (visited : list (list N)) : cres (bool * list (list N)) :=
               match tys with
               | [] => COk (false, visited)
               | t :: r => do r1 <- contains_type_def (S f) structs enums target visited t;
                           if fst r1 then COk r1 else go r (snd r1)
               end) tys visited0)).
  { induction tys as [|t tys IHt]; intro v0; [apply le_refl|].
    apply le_bind; [apply IH|]. intros r1. destruct (fst r1); [apply le_refl|apply IHt]. }
  cbn [contains_type_def]. destruct ty; try apply le_refl.
  - apply IH.
  - apply Hany.
  - destruct (memL name visited); [apply le_refl|apply Hany].
  - destruct (memL name visited); [apply le_refl|apply Hany].
Qed.

Section MonoProgram.
Variable intern : list N -> N.

Lemma le_pub_loop D f : forall fns st, le_res (pub_loop_fn intern f D fns st) (pub_loop_fn intern (S f) D fns st).
Proof.
  pose proof (proj2 (proj2 (proj2 (proj2 (le_check intern D f))))) as Hf.
  induction fns as [|fd fns IH]; intro st; cbn [pub_loop_fn]; mono.
Qed.

Lemma le_check_program_t f P : le_res (check_program_t intern f P) (check_program_t intern (S f) P).
Proof. unfold check_program_t. pose proof le_contains_type_def. mono. apply le_pub_loop. Qed.

Lemma le_check_program_t_le P : forall f f', f <= f' -> le_res (check_program_t intern f P) (check_program_t intern f' P).
Proof.
  induction 1 as [|f' Hle IH]; [apply le_refl|]. eapply le_trans; [exact IH|apply le_check_program_t].
Qed.

(* FUEL MONOTONICITY: an answer other than CNoFuel is kept with any larger fuel *)
Theorem check_program_t_mono f f' P r :
  check_program_t intern f P = r -> r <> CNoFuel -> f <= f' -> check_program_t intern f' P = r.
Proof.
  intros H Hr Hle. destruct (le_check_program_t_le P f f' Hle) as [E|E]; [congruence|]. rewrite E. exact H.
Qed.

Corollary check_program_mono f f' P r :
  check_program intern f P = r -> r <> CNoFuel -> f <= f' -> check_program intern f' P = r.
Proof.
  unfold check_program. intros H Hr Hle.
  destruct (check_program_t intern f P) as [T| | |] eqn:E; cbn [cbind] in H;
    try (rewrite (check_program_t_mono f f' P _ E ltac:(discriminate) Hle); exact H).
  congruence.
Qed.

(* the same for the components *)
Lemma le_check_le D : forall f f', f <= f' ->
  (forall st e, le_res (check_expr intern f D st e) (check_expr intern f' D st e)) /\
  (forall st fd, le_res (check_fn intern f D st fd) (check_fn intern f' D st fd)).
Proof.
  induction 1 as [|f' Hle [IH1 IH2]]; [split; intros; apply le_refl|].
  split; intros; (eapply le_trans; [apply IH1 || apply IH2|apply le_check]).
Qed.

End MonoProgram.

Print Assumptions le_check.
Print Assumptions check_program_t_mono.
Print Assumptions check_program_mono.

(* ================================================================ Part 2: adequacy *)

Lemma in_max_le {A} (g : A -> nat) l x n : In x l -> list_max (map g l) <= n -> g x <= n.
Proof. intros H Hn. pose proof (in_list_max g l x H). lia. Qed.

(* ================================================================ contains_type_def *)

Section TypeDefs.
Variable structs : list (list N * list (list N * cty)).
Variable enums : list (list N * list (list N * option (list cty))).
Variable target : list N.

Fixpoint ctd (t : cty) : nat :=
  match t with
  | CArray e _ => S (ctd e)
  | CTuple ts => S (list_max (map ctd ts))
  | _ => 1
  end.

Definition field_types_of (name : list N) : list cty :=
  match assocL name structs with
  | Some def => map snd def
  | None =>
      match assocL name enums with
      | Some vs => flat_map (fun v : list N * option (list cty) => match snd v with Some ts => ts | None => [] end) vs
      | None => []
      end
  end.

(* the named types, as dummy function definitions so that [cnt] / [cnt_enter] of InferFuel.v apply *)
Definition dummy (n : list N) : ufndef := mkUFn false n UTBool [] [].
Definition names : list ufndef := map dummy (map fst structs ++ map fst enums).
Definition un (visited : list (list N)) : nat := cnt names visited.

(* a bound on the depth of every field type *)
Variable Dm : nat.
Hypothesis Dm_ok : forall name t, In t (field_types_of name) -> ctd t <= Dm.

Definition sub_visited (v v' : list (list N)) : Prop := forall x, memL x v = true -> memL x v' = true.

Lemma un_mono v v' : sub_visited v v' -> un v' <= un v.
Proof.
  intro H. unfold un, cnt. apply filter_length_le. intros x Hx. apply negb_true_iff in Hx. apply negb_true_iff.
  destruct (memL (uf_name x) v) eqn:E; [|reflexivity]. rewrite (H _ E) in Hx. discriminate.
Qed.

Lemma defined_in_names name : field_types_of name <> [] -> In (dummy name) names.
Proof.
  unfold field_types_of, names. intro H. apply in_map. apply in_or_app.
  destruct (assocL name structs) eqn:Es.
  - left. apply assocL_In in Es. change name with (fst (name, l)). apply in_map. exact Es.
  - destruct (assocL name enums) eqn:Ee; [|contradiction]. right.
    apply assocL_In in Ee. change name with (fst (name, l)). apply in_map. exact Ee.
Qed.

Theorem ctd_adequate : forall f visited ty,
  ctd ty + un visited * S Dm <= f ->
  post (fun r => sub_visited visited (snd r)) (contains_type_def f structs enums target visited ty).
Proof.
  induction f as [|f IH]; intros visited ty Hf.
  { destruct ty; cbn [ctd] in Hf; lia. }
  assert (Hany : forall tys visited0 n, sub_visited visited visited0 -> (forall t, In t tys -> ctd t <= n) ->
            n + un visited0 * S Dm <= f ->
            post (fun r => sub_visited visited (snd r))
              ((fix go (tys : list cty) (visited : list (list N)) : cres (bool * list (list N)) :=
                  match tys with
                  | [] => COk (false, visited)
                  | t :: r => do r1 <- contains_type_def f structs enums target visited t;
                              if fst r1 then COk r1 else go r (snd r1)
                  end) tys visited0)).
  { induction tys as [|t tys IHt]; intros v0 n Hsub Hn Hb; [exact Hsub|].
    eapply post_bind; [apply IH; pose proof (Hn t (or_introl eq_refl)); lia|].
    intros r1 Hr1. cbv beta in Hr1.
    assert (Hs1 : sub_visited visited (snd r1)) by (intros x Hx; apply Hr1; apply Hsub; exact Hx).
    destruct (fst r1); [exact Hs1|].
    eapply IHt; [exact Hs1|intros; apply Hn; right; assumption|].
    pose proof (un_mono _ _ Hr1). nia. }
  cbn [contains_type_def]. destruct ty; try (intros x Hx; exact Hx).
  - (* array *) apply IH. cbn [ctd] in Hf. lia.
  - (* tuple *) eapply (Hany _ _ (list_max (map ctd ts))); [intros x Hx; exact Hx| |cbn [ctd] in Hf; lia].
    intros t Ht. apply (in_list_max ctd ts t Ht).
  - (* struct *)
    destruct (memL name visited) eqn:Em; [intros x Hx; exact Hx|]. cbv zeta.
    match goal with |- post _ (?g ?tys (name :: visited)) => change tys with (field_types_of name) end.
    assert (Hc : field_types_of name = [] \/ field_types_of name <> [])
      by (destruct (field_types_of name); [left; reflexivity|right; discriminate]).
    destruct Hc as [Hc|Hc].
    { rewrite Hc. cbn [post snd]. intros x Hx. rewrite memL_cons, Hx. apply orb_true_r. }
    assert (Hin : In (dummy name) names) by (apply defined_in_names; exact Hc).
    pose proof (cnt_enter names visited (dummy name) Hin Em) as Hlt. cbn [dummy uf_name] in Hlt. fold (un (name :: visited)) in Hlt. fold (un visited) in Hlt.
    eapply (Hany _ (name :: visited) Dm).
    + intros x Hx. rewrite memL_cons, Hx. apply orb_true_r.
    + intros t Ht. apply (Dm_ok name t Ht).
    + cbn [ctd] in Hf. nia.
  - (* enum *)
    destruct (memL name visited) eqn:Em; [intros x Hx; exact Hx|]. cbv zeta.
    match goal with |- post _ (?g ?tys (name :: visited)) => change tys with (field_types_of name) end.
    assert (Hc : field_types_of name = [] \/ field_types_of name <> [])
      by (destruct (field_types_of name); [left; reflexivity|right; discriminate]).
    destruct Hc as [Hc|Hc].
    { rewrite Hc. cbn [post snd]. intros x Hx. rewrite memL_cons, Hx. apply orb_true_r. }
    assert (Hin : In (dummy name) names) by (apply defined_in_names; exact Hc).
    pose proof (cnt_enter names visited (dummy name) Hin Em) as Hlt. cbn [dummy uf_name] in Hlt. fold (un (name :: visited)) in Hlt. fold (un visited) in Hlt.
    eapply (Hany _ (name :: visited) Dm).
    + intros x Hx. rewrite memL_cons, Hx. apply orb_true_r.
    + intros t Ht. apply (Dm_ok name t Ht).
    + cbn [ctd] in Hf. nia.
Qed.

End TypeDefs.
Print Assumptions ctd_adequate.

(* ================================================================ the type part of the bound *)

Lemma as_concrete_ctd sn en : forall t t', as_concrete_type sn en t = COk t' -> ctd t' <= utd t.
Proof.
  induction t using utype_ind'; intros t' HH; cbn [as_concrete_type] in HH; try discriminate HH.
  - inversion HH. cbn. lia.
  - inversion HH. cbn. lia.
  - inversion HH. cbn. lia.
  - destruct (memL s sn); [inversion HH; cbn; lia|]. destruct (memL s en); inversion HH. cbn. lia.
  - apply cbind_ok in HH. destruct HH as [ts' [Hts HH]]. inversion HH; subst; clear HH. cbn [ctd utd].
    apply le_n_S. revert ts' Hts. induction H as [|x xs Hx Hxs IH]; intros ts' Hts.
    + inversion Hts. cbn. lia.
    + apply cbind_ok in Hts. destruct Hts as [x' [Hx' Hts]]. apply cbind_ok in Hts. destruct Hts as [r' [Hr' Hts]].
      inversion Hts; subst; clear Hts. pose proof (Hx _ Hx'). pose proof (IH _ Hr'). unfold list_max in *. cbn [map fold_right] in *. lia.
  - apply cbind_ok in HH. destruct HH as [e' [He HH]]. inversion HH; subst. cbn [ctd utd]. pose proof (IHt _ He). lia.
Qed.

Lemma mapM_length {A B} (g : A -> cres B) : forall l l', mapM g l = COk l' -> length l' = length l.
Proof.
  induction l as [|a l IH]; intros l' H; cbn [mapM] in H; [inversion H; reflexivity|].
  apply cbind_ok in H. destruct H as [x [Hx H]]. apply cbind_ok in H. destruct H as [r [Hr H]]. inversion H; subst.
  cbn [length]. rewrite (IH _ Hr). reflexivity.
Qed.

Lemma struct_def_ctd sn en sd r n : check_struct_def sn en sd = COk r ->
  (forall ut, In ut (map snd (us_fields sd)) -> utd ut <= n) -> forall ft, In ft (snd r) -> ctd (snd ft) <= n.
Proof.
  unfold check_struct_def. intros H Hn. apply cbind_ok in H. destruct H as [fields [Hf H]]. inversion H; subst; clear H. cbn [snd].
  revert fields Hf Hn. generalize (@nil (list N)). induction (us_fields sd) as [|[nm ty] fs IH]; intros seen fields Hf Hn ft Hft.
  - inversion Hf; subst. destruct Hft.
  - destruct (memL nm seen); [discriminate|]. apply cbind_ok in Hf. destruct Hf as [ty' [Hty Hf]].
    apply cbind_ok in Hf. destruct Hf as [r' [Hr Hf]]. inversion Hf; subst; clear Hf.
    destruct Hft as [<-|Hft].
    + cbn [snd]. pose proof (as_concrete_ctd _ _ _ _ Hty). pose proof (Hn ty (or_introl eq_refl)). lia.
    + eapply IH; [exact Hr|intros; apply Hn; right; assumption|exact Hft].
Qed.

Lemma mapM_ctd sn en n : forall tys tys', mapM (as_concrete_type sn en) tys = COk tys' ->
  (forall ut, In ut tys -> utd ut <= n) -> forall t, In t tys' -> ctd t <= n.
Proof.
  intros tys tys' H Hn t Ht. destruct (mapM_In _ _ _ _ H Ht) as [ut [Hin Hc]].
  pose proof (as_concrete_ctd _ _ _ _ Hc). pose proof (Hn _ Hin). lia.
Qed.

Lemma enum_def_ctd sn en ed r n : check_enum_def sn en ed = COk r ->
  (forall v ut, In v (ue_variants ed) -> In ut (match v with UVTuple _ ts => ts | UVUnit _ => [] end) -> utd ut <= n) ->
  forall v ts t, In (v, Some ts) (snd r) -> In t ts -> ctd t <= n.
Proof.
  unfold check_enum_def. intros H Hn. apply cbind_ok in H. destruct H as [variants [Hv H]]. inversion H; subst; clear H. cbn [snd].
  revert variants Hv Hn. generalize (@nil (list N)). induction (ue_variants ed) as [|v vs IH]; intros seen variants Hv Hn v0 ts t Hin Ht.
  - inversion Hv; subst. destruct Hin.
  - destruct (memL (variant_name v) seen); [discriminate|]. apply cbind_ok in Hv. destruct Hv as [v' [Hv' Hv]].
    apply cbind_ok in Hv. destruct Hv as [r' [Hr Hv]]. inversion Hv; subst; clear Hv.
    destruct Hin as [Heq|Hin]; [|eapply IH; [exact Hr|intros; eapply Hn; [right; eassumption|eassumption]|exact Hin|exact Ht]].
    rewrite Heq in Hv'. destruct v as [nm|nm tys]; [discriminate Hv'|].
    apply cbind_ok in Hv'. destruct Hv' as [tys' [Htys Hv']]. inversion Hv'; subst.
    eapply mapM_ctd; [exact Htys| |exact Ht]. intros ut Hut. eapply (Hn _ ut); [left; reflexivity|cbn; exact Hut].
Qed.

(* ================================================================ whole programs *)

(* the recursion check of the type definitions has enough fuel *)
Lemma typedefs_nf fuel P structs enums :
  mapM (check_struct_def (map us_name (up_structs P)) (map ue_name (up_enums P))) (up_structs P) = COk structs ->
  mapM (check_enum_def (map us_name (up_structs P)) (map ue_name (up_enums P))) (up_enums P) = COk enums ->
  type_fuel_needed P <= fuel -> forall name,
  nf (contains_type_def fuel structs enums name []
        (match assocL name structs with Some _ => CStruct name | None => CEnum name end)).
Proof.
  intros Es Ee Hfuel name.
  set (field_tys := flat_map (fun sd => map snd (us_fields sd)) (up_structs P) ++
                    flat_map (fun ed => flat_map (fun v => match v with UVTuple _ ts => ts | UVUnit _ => [] end)
                                                 (ue_variants ed)) (up_enums P)).
  set (Dm := list_max (map utd field_tys)).
  assert (Hut : forall ut, In ut field_tys -> utd ut <= Dm) by (intros ut Hin; apply (in_list_max utd field_tys ut Hin)).
  assert (Dm_ok : forall name t, In t (field_types_of structs enums name) -> ctd t <= Dm).
  { intros nm t Ht. unfold field_types_of in Ht. destruct (assocL nm structs) as [def|] eqn:Ea.
    - apply assocL_In in Ea. destruct (mapM_In _ _ _ _ Es Ea) as [sd [Hsd Hc]].
      apply in_map_iff in Ht. destruct Ht as [ft [<- Hft]].
      eapply (struct_def_ctd _ _ _ _ Dm Hc); [|exact Hft].
      intros ut Hin. apply Hut. unfold field_tys. apply in_or_app. left. apply in_flat_map. exists sd. split; assumption.
    - destruct (assocL nm enums) as [vs|] eqn:Eb; [|destruct Ht].
      apply assocL_In in Eb. destruct (mapM_In _ _ _ _ Ee Eb) as [ed [Hed Hc]].
      apply in_flat_map in Ht. destruct Ht as [[vn [ts|]] [Hv Ht]]; [|destruct Ht]. cbn [snd] in Ht.
      eapply (enum_def_ctd _ _ _ _ Dm Hc); [|exact Hv|exact Ht].
      intros v ut Hvin Hin. apply Hut. unfold field_tys. apply in_or_app. right.
      apply in_flat_map. exists ed. split; [exact Hed|]. apply in_flat_map. exists v. split; assumption. }
  eapply post_to_nf. eapply (ctd_adequate structs enums name Dm Dm_ok).
  unfold un. rewrite cnt_nil. unfold names. rewrite map_length, app_length, !map_length.
  rewrite (mapM_length _ _ _ Es), (mapM_length _ _ _ Ee).
  unfold type_fuel_needed in Hfuel. fold field_tys in Hfuel. fold Dm in Hfuel.
  assert (Hc : ctd (match assocL name structs with Some _ => CStruct name | None => CEnum name end) = 1)
    by (destruct (assocL name structs); reflexivity).
  rewrite Hc. nia.
Qed.

(* with [check_fuel_needed P] units of fuel only the loop over the pub functions can still run out *)
Lemma check_program_t_nf intern fuel P : check_fuel_needed P <= fuel ->
  (forall consts structs enums,
     check_consts (up_consts P) [] = COk consts ->
     mapM (check_struct_def (map us_name (up_structs P)) (map ue_name (up_enums P))) (up_structs P) = COk structs ->
     mapM (check_enum_def (map us_name (up_structs P)) (map ue_name (up_enums P))) (up_enums P) = COk enums ->
     1 + length (up_fns P) * dmax (up_fns P) <= fuel ->
     post (fun _ => True)
       (pub_loop_fn intern fuel
          (prog_defs P consts structs enums) (up_fns P) (mkSt env_new [] []))) ->
  check_program_t intern fuel P <> CNoFuel.
Proof.
  intros Hfuel Hpub. apply (post_nofuel (fun _ => True)). unfold check_program_t.
  eapply post_bind; [apply post_self; apply np_check_consts|]. intros consts Ec.
  eapply post_bind; [apply post_self; apply np_mapM; intro; apply np_check_struct_def|]. intros structs Es.
  eapply post_bind; [apply post_self; apply np_mapM; intro; apply np_check_enum_def|]. intros enums Ee.
  unfold check_fuel_needed in Hfuel.
  eapply post_bind.
  { apply post_nf. apply np_mapM. intro name. apply np_bind; [|intros r _; destruct (fst r); reflexivity].
    apply (typedefs_nf fuel P structs enums Es Ee). lia. }
  intros u _. cbv zeta.
  eapply post_bind; [apply (Hpub consts structs enums Ec Es Ee); lia|].
  intros st _. destruct (existsb _ _); exact I.
Qed.

Section AdequacyProgram.
Variable intern : list N -> N.
(* the exhaustiveness oracle does not run out of ITS OWN fuel (it does not depend on the checker's) *)
Hypothesis Hex : forall D ps ty, nf (check_exhaustiveness intern D ps ty).

Theorem adequacy_all D : forall f,
  GoalE intern D f /\ GoalSS intern D f /\ GoalB intern D f /\ GoalS intern D f /\ GoalF intern D f.
Proof. exact (adequacy_whole intern D (fun ps ty _ => Hex D ps ty)). Qed.

(* FUEL ADEQUACY: with [check_fuel_needed P] units of fuel the checker never answers CNoFuel
   (given that the exhaustiveness oracle does not run out of its own, separate, fuel) *)
Theorem adequacy_program P fuel : check_fuel_needed P <= fuel -> check_program_t intern fuel P <> CNoFuel.
Proof.
  intros Hfuel. apply check_program_t_nf; [exact Hfuel|]. intros consts structs enums _ _ _ Hf.
  apply pub_loop_adequate; [apply adequacy_all|exact Hf|reflexivity].
Qed.

Corollary adequacy_program_gen P fuel :
  check_fuel_needed P <= fuel ->
  (forall structs enums name ty, nf (contains_type_def fuel structs enums name [] ty)) ->
  check_program_t intern fuel P <> CNoFuel.
Proof. intros Hfuel _. exact (adequacy_program P fuel Hfuel). Qed.

Corollary adequacy_program_no_typedefs P fuel :
  up_structs P = [] -> up_enums P = [] -> check_fuel_needed P <= fuel ->
  check_program_t intern fuel P <> CNoFuel.
Proof. intros _ _ Hfuel. exact (adequacy_program P fuel Hfuel). Qed.

(* Part 1 + Part 2: every sufficient fuel gives the answer computed with the bound *)
Corollary fuel_irrelevant_no_typedefs P fuel :
  up_structs P = [] -> up_enums P = [] -> check_fuel_needed P <= fuel ->
  check_program_t intern fuel P = check_program_t intern (check_fuel_needed P) P.
Proof.
  intros Hs He Hfuel.
  apply (check_program_t_mono intern (check_fuel_needed P) fuel P _ eq_refl); [|exact Hfuel].
  apply adequacy_program_no_typedefs; auto.
Qed.

Corollary fuel_irrelevant_gen P fuel :
  (forall structs enums name ty, nf (contains_type_def (check_fuel_needed P) structs enums name [] ty)) ->
  check_fuel_needed P <= fuel ->
  check_program_t intern fuel P = check_program_t intern (check_fuel_needed P) P.
Proof.
  intros Htd Hfuel.
  apply (check_program_t_mono intern (check_fuel_needed P) fuel P _ eq_refl); [|exact Hfuel].
  apply adequacy_program_gen; auto.
Qed.

(* Part 1 + Part 2: every sufficient fuel gives the answer computed with the bound *)
Corollary fuel_irrelevant P fuel : check_fuel_needed P <= fuel ->
  check_program_t intern fuel P = check_program_t intern (check_fuel_needed P) P.
Proof.
  intro Hfuel. apply (check_program_t_mono intern (check_fuel_needed P) fuel P _ eq_refl); [|exact Hfuel].
  apply adequacy_program. lia.
Qed.

End AdequacyProgram.

Print Assumptions adequacy_all.
Print Assumptions adequacy_program_gen.
Print Assumptions adequacy_program_no_typedefs.
Print Assumptions fuel_irrelevant_no_typedefs.
Print Assumptions adequacy_program.
Print Assumptions fuel_irrelevant.
