(* About the checker model Check/Infer.v: each ill-typed construct is rejected in every state (InferSub.v
   lifts this to every context); soundness w.r.t. Lang/Wt.v fails (three witnesses). *)
From GV Require Import Base.Util Front.Scan Front.ParseExpr Check.UAst Check.Infer Check.InferExamples.
From GV Require Export Check.InferBase.
From GV Require Lang.Ast Lang.Wt.
Local Open Scope N_scope.

Lemma cbind_not_ok {A B} (r : cres A) (k : A -> cres B) :
  is_ok r = false -> is_ok (cbind r k) = false.
Proof. destruct r; cbn; auto; discriminate. Qed.

Lemma cbind_is_ok {A B} (r : cres A) (k : A -> cres B) :
  is_ok (cbind r k) = true -> exists a, r = COk a /\ is_ok (k a) = true.
Proof. destruct r; cbn; intro H; try discriminate. eauto. Qed.

(* ------------------------------------------------------------------ check_type, unify *)

(* check_type returns an expression of exactly the expected type *)
Lemma check_type_ty f e t e' : check_type f e t = COk e' -> ty_of e' = t.
Proof.
  unfold check_type. intro H. inv_ok H.
  destruct (cty_eqb (ty_of a) t) eqn:E; [|discriminate].
  inv_ok H1. apply cty_eqb_eq; auto.
Qed.

Lemma ty_of_set_ty e t : ty_of (set_ty e t) = t.
Proof. destruct e; reflexivity. Qed.

(* unify gives both expressions the returned type *)
Lemma unify_ty f a b a' b' t : unify f a b = COk (a', b', t) -> ty_of a' = t /\ ty_of b' = t.
Proof.
  unfold unify. intro H.
  destruct (cty_eqb (ty_of a) (ty_of b)).
  - inv_ok H. rewrite !ty_of_set_ty. auto.
  - destruct (ty_of a) as [|[]|[]| | | |]; destruct (ty_of b) as [|[]|[]| | | |]; try discriminate;
      inv_ok H; inv_ok H1; rewrite !ty_of_set_ty; auto.
Qed.

(* the types unify accepts: equal, or one side is an unspecified number that the other side's
   number type can absorb *)
Definition unify_compat (t1 t2 : cty) : bool :=
  cty_eqb t1 t2 ||
  match t1, t2 with
  | CUnsigned UnspecifiedU, (CUnsigned _ | CSigned _) => true
  | (CUnsigned _ | CSigned _), CUnsigned UnspecifiedU => true
  | CSigned UnspecifiedS, CSigned _ => true
  | CSigned _, CSigned UnspecifiedS => true
  | _, _ => false
  end.

Lemma unify_incompat f a b : unify_compat (ty_of a) (ty_of b) = false -> unify f a b = CErr E_TypeMismatch.
Proof.
  unfold unify, unify_compat. intro H. apply orb_false_iff in H. destruct H as [H1 H2]. rewrite H1.
  destruct (ty_of a) as [|[]|[]| | | |]; destruct (ty_of b) as [|[]|[]| | | |]; try discriminate; reflexivity.
Qed.

(* constraining to bool never changes the type of the node *)
Lemma constrain_type_bool_ty f e e' : constrain_type f e CBool = COk e' -> ty_of e' = ty_of e.
Proof.
  destruct f as [|f]; cbn [constrain_type]; intro H; [discriminate|].
  inv_ok H. inv_ok H1. rewrite ty_of_set_ty. cbn [overwrite_ty].
  destruct e as [ei t]. cbn [inner_of ty_of] in *.
  destruct ei; try (inv_ok H0; reflexivity).
  - inv_ok H0. inv_ok H1. reflexivity.
  - inv_ok H0. inv_ok H1. reflexivity.
  - destruct o; try (inv_ok H0; reflexivity); inv_ok H0; try (inv_ok H1; reflexivity); inv_ok H1; inv_ok H2; reflexivity.
  - inv_ok H0. inv_ok H1. reflexivity.
  - inv_ok H0. inv_ok H1. inv_ok H2. reflexivity.
  - (* TRange: the arm of fix 7bf4e4f only fires at array types *)
    match goal with H : context [TRange _ _ ?u] |- _ => destruct u end; inv_ok H0; reflexivity.
Qed.

Lemma check_type_bool f e e' : check_type f e CBool = COk e' -> ty_of e = CBool.
Proof.
  intro H. pose proof (check_type_ty _ _ _ _ H) as Ht.
  unfold check_type in H. inv_ok H. destruct (cty_eqb (ty_of a) CBool); [|discriminate]. inv_ok H1.
  apply constrain_type_bool_ty in H0. congruence.
Qed.

(* ================================================================== rejection of ill-typed constructs
   (local form: the construct is rejected in EVERY state in which its sub-expressions are
   accepted; InferSub.context_rejected lifts "rejected" to every context) *)

Section Local.
Variable intern : list N -> N.
Notation check_expr := (check_expr intern).
Notation check_stmt := (check_stmt intern).
Notation check_stmts := (check_stmts intern).
Notation check_block := (check_block intern).
Notation check_fn := (check_fn intern).

Lemma unknown_identifier_rejected f D st x :
  env_get (st_env st) x = None -> assocL x (d_consts D) = None ->
  check_expr (S f) D st (XIdentifier x) = CErr E_UnknownIdentifier.
Proof. intros H1 H2. cbn [Infer.check_expr]. rewrite H1, H2. reflexivity. Qed.

(* an `if` whose condition is not bool *)
Lemma if_cond_not_bool_rejected f D st c a b c1 st1 :
  check_expr f D st c = COk (c1, st1) -> ty_of c1 <> CBool ->
  is_ok (check_expr (S f) D st (XIf c a b)) = false.
Proof.
  intros Hc Hn. cbn [Infer.check_expr]. rewrite Hc. cbn [cbind fst snd].
  destruct (check_expr f D st1 a) as [[a1 st2]| | |]; cbn [cbind is_ok fst snd]; auto.
  destruct (check_expr f D st2 b) as [[b1 st3]| | |]; cbn [cbind is_ok fst snd]; auto.
  destruct (check_type f c1 CBool) eqn:E; cbn [cbind is_ok]; auto.
  apply check_type_bool in E. contradiction.
Qed.

(* an `if` whose branches have different types *)
Lemma if_branches_differ_rejected f D st c a b c1 st1 a1 st2 b1 st3 :
  check_expr f D st c = COk (c1, st1) -> check_expr f D st1 a = COk (a1, st2) ->
  check_expr f D st2 b = COk (b1, st3) -> unify_compat (ty_of a1) (ty_of b1) = false ->
  is_ok (check_expr (S f) D st (XIf c a b)) = false.
Proof.
  intros Hc Ha Hb Hu. cbn [Infer.check_expr]. rewrite Hc. cbn [cbind fst snd]. rewrite Ha. cbn [cbind fst snd].
  rewrite Hb. cbn [cbind fst snd]. destruct (check_type f c1 CBool); cbn [cbind is_ok]; auto.
  rewrite (unify_incompat _ _ _ Hu). reflexivity.
Qed.

(* the operators that unify their operands: arithmetic, bitwise, comparisons, equality *)
Definition uses_unify (op : bin_op) : bool :=
  match op with
  | BShortCircuitAnd | BShortCircuitOr | BShiftLeft | BShiftRight => false
  | _ => true
  end.

Lemma operands_differ_rejected f D st op x y x1 st1 y1 st2 :
  uses_unify op = true ->
  check_expr f D st x = COk (x1, st1) -> check_expr f D st1 y = COk (y1, st2) ->
  unify_compat (ty_of x1) (ty_of y1) = false ->
  check_expr (S f) D st (XOp op x y) = CErr E_TypeMismatch.
Proof.
  intros Hop Hx Hy Hu. cbn [Infer.check_expr]. rewrite Hx. cbn [cbind fst snd]. rewrite Hy. cbn [cbind fst snd].
  destruct op; try discriminate Hop; rewrite (unify_incompat _ _ _ Hu); reflexivity.
Qed.

(* `&&` / `||` on a non-bool operand *)
Lemma logical_non_bool_rejected f D st op x y x1 st1 y1 st2 :
  op = BShortCircuitAnd \/ op = BShortCircuitOr ->
  check_expr f D st x = COk (x1, st1) -> check_expr f D st1 y = COk (y1, st2) ->
  ty_of x1 <> CBool \/ ty_of y1 <> CBool ->
  check_expr (S f) D st (XOp op x y) = CErr E_UnexpectedType.
Proof.
  intros Hop Hx Hy Hn. cbn [Infer.check_expr]. rewrite Hx. cbn [cbind fst snd]. rewrite Hy. cbn [cbind fst snd].
  destruct Hop; subst op; destruct (ty_of x1), (ty_of y1); try reflexivity; destruct Hn; congruence.
Qed.

(* assignment to an unbound / immutable variable *)
Lemma assign_unbound_rejected f D st x accs v :
  env_get (st_env st) x = None ->
  check_stmt (S f) D st (XSVarAssign x accs v) = CErr E_UnknownIdentifier.
Proof. intro H. cbn [Infer.check_stmt]. rewrite H. reflexivity. Qed.

Lemma assign_immutable_rejected f D st x accs v t :
  env_get (st_env st) x = Some (t, false) ->
  check_stmt (S f) D st (XSVarAssign x accs v) = CErr E_IdentifierNotDeclaredAsMutable.
Proof. intro H. cbn [Infer.check_stmt]. rewrite H. reflexivity. Qed.

(* an index that is neither usize nor an unsuffixed literal-typed expression *)
Lemma coc_unsigned_wrong_ty e u :
  ty_of e <> CUnsigned u -> ty_of e <> CUnsigned UnspecifiedU ->
  check_or_constrain_unsigned e u = CErr E_UnexpectedType.
Proof.
  intros H1 H2. unfold check_or_constrain_unsigned, is_uU, uU.
  rewrite (cty_eqb_neq _ _ H1), (cty_eqb_neq _ _ H2). reflexivity.
Qed.

(* the same for the version every caller outside constrain_type uses (fix 64720dd): the type test comes first *)
Lemma coc_unsigned_deep_wrong_ty f e u :
  ty_of e <> CUnsigned u -> ty_of e <> CUnsigned UnspecifiedU ->
  coc_unsigned_deep f e u = CErr E_UnexpectedType.
Proof.
  intros H1 H2. unfold coc_unsigned_deep, is_uU, uU.
  rewrite (cty_eqb_neq _ _ H1), (cty_eqb_neq _ _ H2). reflexivity.
Qed.

Lemma index_not_usize_rejected f D st a i a1 st1 i1 st2 :
  check_expr f D st a = COk (a1, st1) -> check_expr f D st1 i = COk (i1, st2) ->
  ty_of i1 <> CUnsigned Usize -> ty_of i1 <> CUnsigned UnspecifiedU ->
  is_ok (check_expr (S f) D st (XArrayAccess a i)) = false.
Proof.
  intros Ha Hi H1 H2. cbn [Infer.check_expr]. rewrite Ha. cbn [cbind fst snd]. rewrite Hi. cbn [cbind fst snd].
  destruct (expect_array_type (ty_of a1)); cbn [cbind is_ok]; auto.
  rewrite (coc_unsigned_deep_wrong_ty _ _ _ H1 H2). reflexivity.
Qed.

Lemma index_non_array_rejected f D st a i a1 st1 i1 st2 :
  check_expr f D st a = COk (a1, st1) -> check_expr f D st1 i = COk (i1, st2) ->
  (forall e n, ty_of a1 <> CArray e n) ->
  check_expr (S f) D st (XArrayAccess a i) = CErr E_ExpectedArrayType.
Proof.
  intros Ha Hi H. cbn [Infer.check_expr]. rewrite Ha. cbn [cbind fst snd]. rewrite Hi. cbn [cbind fst snd].
  destruct (ty_of a1) eqn:E; try reflexivity. exfalso. eapply H. reflexivity.
Qed.

(* tuple index out of range *)
Lemma tuple_index_out_of_range_rejected f D st e i e1 st1 ts :
  check_expr f D st e = COk (e1, st1) -> ty_of e1 = CTuple ts -> lenN ts <= i ->
  check_expr (S f) D st (XTupleAccess e i) = CErr E_TupleAccessOutOfBounds.
Proof.
  intros He Ht Hi. cbn [Infer.check_expr]. rewrite He. cbn [cbind fst snd]. rewrite Ht. cbn [expect_tuple_type cbind].
  unfold nthN. destruct (N.ltb_spec i (lenN ts)); [lia|reflexivity].
Qed.

(* a shift amount that is not u8 *)
Lemma shift_amount_not_u8_rejected f D st op x y x1 st1 y1 st2 :
  op = BShiftLeft \/ op = BShiftRight ->
  check_expr f D st x = COk (x1, st1) -> check_expr f D st1 y = COk (y1, st2) ->
  ty_of y1 <> CUnsigned U8 -> ty_of y1 <> CUnsigned UnspecifiedU ->
  is_ok (check_expr (S f) D st (XOp op x y)) = false.
Proof.
  intros Hop Hx Hy H1 H2. cbn [Infer.check_expr]. rewrite Hx. cbn [cbind fst snd]. rewrite Hy. cbn [cbind fst snd].
  destruct Hop; subst op; (destruct (expect_num_type (ty_of x1)); cbn [cbind is_ok]; auto;
    rewrite (coc_unsigned_deep_wrong_ty _ _ _ H1 H2); reflexivity).
Qed.

(* unary minus on something that is not a signed number *)
Lemma neg_unsigned_rejected f D st x x1 st1 :
  check_expr f D st x = COk (x1, st1) -> (forall s, ty_of x1 <> CSigned s) ->
  check_expr (S f) D st (XUnaryOp UoNeg x) = CErr E_ExpectedSignedNumberType.
Proof.
  intros Hx H. cbn [Infer.check_expr]. rewrite Hx. cbn [cbind fst snd].
  destruct (ty_of x1) eqn:E; try reflexivity. exfalso. eapply H. reflexivity.
Qed.

(* calls: unknown function, wrong number of arguments *)
Lemma unknown_function_rejected f D st g args :
  assocL g (st_typed st) = None -> find (fun d => list_eqb (uf_name d) g) (d_fns D) = None ->
  check_expr (S f) D st (XFnCall g args) = CErr E_UnknownIdentifier.
Proof. intros H1 H2. cbn [Infer.check_expr]. rewrite H1. cbn [negb]. rewrite H2. cbn [cbind]. rewrite H1. reflexivity. Qed.

End Local.

(* ================================================================== scoping *)

Lemma tl_env_let g x t m : tl (env_let g x t m) = tl g.
Proof. destruct g; reflexivity. Qed.

Lemma env_pop_tl g : env_pop g = tl g.
Proof. destruct g; reflexivity. Qed.

(* a pattern only adds bindings to the CURRENT scope *)
Definition pat_tl_ok (D : defs) (p : upattern) : Prop :=
  forall g ty r, check_pattern D g p ty = COk r -> tl (snd r) = tl g.

Lemma fields_loop_tl D fs : Forall (pat_tl_ok D) fs ->
  forall ts g r, pat_fields_loop D fs ts g = COk r -> tl (snd r) = tl g.
Proof.
  induction 1 as [|q fs Hq Hfs IHfs]; intros ts g0 r0 H0; cbn [pat_fields_loop] in H0.
  - inv_all. reflexivity.
  - destruct ts as [|t ts]; inv_all; [reflexivity|].
    cbn [snd]. etransitivity; [eapply IHfs|eapply Hq]; eassumption.
Qed.

Lemma struct_loop_tl D sd fs : Forall (fun f => pat_tl_ok D (snd f)) fs ->
  forall seen g r, pat_struct_loop D sd seen fs g = COk r -> tl (snd r) = tl g.
Proof.
  induction 1 as [|[fname fp] fs Hq Hfs IHfs]; intros seen g0 r0 H0; cbn [pat_struct_loop] in H0.
  - inv_all. reflexivity.
  - destruct (memL fname seen); [discriminate|]. destruct (assocL fname sd); inv_all.
    cbn [snd] in *. etransitivity; [eapply IHfs|eapply Hq]; eassumption.
Qed.

Lemma check_pattern_tl D : forall p g ty r, check_pattern D g p ty = COk r -> tl (snd r) = tl g.
Proof.
  intro p. change (pat_tl_ok D p). induction p using upattern_ind'; intros g ty r HH; cbn [check_pattern] in HH.
  - inv_all. cbn [snd]. apply tl_env_let.
  - destruct ty; inv_all. reflexivity.
  - destruct ty; inv_all. reflexivity.
  - inv_all. reflexivity.
  - inv_all. reflexivity.
  - inv_all. cbn [snd]. eapply fields_loop_tl; eassumption.
  - inv_all. destruct (assocL n (d_structs D)) as [sd|]; inv_all. cbn [snd]. eapply struct_loop_tl; eassumption.
  - inv_all. destruct (assocL n (d_structs D)) as [sd|]; inv_all. cbn [snd]. eapply struct_loop_tl; eassumption.
  - destruct ty; try discriminate. inv_all.
    destruct (assocL e (d_enums D)) as [ed|]; [|discriminate].
    destruct (assocL v ed) as [[?|]|]; inv_all. reflexivity.
  - destruct ty; try discriminate. inv_all.
    destruct (assocL e (d_enums D)) as [ed|]; [|discriminate].
    destruct (assocL v ed) as [[fts|]|]; inv_all. cbn [snd]. eapply fields_loop_tl; eassumption.
  - inv_all. reflexivity.
  - inv_all. reflexivity.
Qed.

Section Scoping.
Variable intern : list N -> N.
Notation check_expr := (check_expr intern).
Notation check_stmt := (check_stmt intern).
Notation check_stmts := (check_stmts intern).
Notation check_block := (check_block intern).
Notation check_fn := (check_fn intern).

Ltac fin := cbn [snd fst st_env with_env] in *; try congruence.

(* THE SCOPING THEOREM: checking an expression leaves the environment exactly as it was (whatever
   a block, a branch, a match arm or a called function binds is gone afterwards); a statement /
   statement list only changes the CURRENT scope; a function check restores the caller's Env. *)
Theorem check_env f D :
  (forall st e r, check_expr f D st e = COk r -> st_env (snd r) = st_env st) /\
  (forall st b r, check_stmts f D st b = COk r -> tl (st_env (snd r)) = tl (st_env st)) /\
  (forall st b r, check_block f D st b = COk r -> tl (st_env (snd r)) = tl (st_env st)) /\
  (forall st s r, check_stmt f D st s = COk r -> tl (st_env (snd r)) = tl (st_env st)) /\
  (forall st fd r, check_fn f D st fd = COk r -> st_env (snd r) = st_env st).
Proof.
  induction f as [|f IH].
  { repeat split; intros; discriminate. }
  destruct IH as (IHe & IHss & IHb & IHs & IHf).
  (* both relations are reflexive and transitive: the loops keep them *)
  set (same := fun a b : cstate => st_env b = st_env a).
  assert (Sr : forall s, same s s) by reflexivity.
  assert (Str : forall a b c, same a b -> same b c -> same a c) by (unfold same; congruence).
  pose proof (mapM_st_rel same Sr Str _ IHe) as IHes.
  pose proof (accs_loop_rel same Sr Str _ f D IHe) as IHac.
  pose proof (fun sd => struct_lit_loop_rel same Sr Str _ f sd IHe) as IHsf.
  pose proof (mapM_st_rel (fun a b => tl (st_env b) = tl (st_env a)) (fun _ => eq_refl)
                (fun a b c H1 H2 => eq_trans H2 H1) _ IHs) as IHsl.
  unfold same in *.
  split; [|split; [|split; [|split]]].
  - intros st e r H.
    destruct e; expr_step_in H rs Hs.
    all: try solve [inv_all'; use_IH IHe IHb IHss IHes IHsl IHac IHsf; fin].
    + destruct (env_get (st_env st) s) as [[? ?]|]; [|destruct (assocL s (d_consts D))]; inv_all; reflexivity.
    + inv_all. destruct (fst a); inv_all'. use_IH IHe IHb IHss IHes IHsl IHac IHsf. fin.
    + inv_all. destruct (nthN _ _); inv_all'. use_IH IHe IHb IHss IHes IHsl IHac IHsf. fin.
    + inv_all. destruct (assocL _ (d_structs D)); [|discriminate]. destruct (assocL _ _); inv_all'.
      use_IH IHe IHb IHss IHes IHsl IHac IHsf. fin.
    + destruct (assocL name (d_structs D)); inv_all'. use_IH IHe IHb IHss IHes IHsl IHac IHsf. fin.
    + destruct (assocL e (d_enums D)) as [ed|]; [|discriminate]. destruct (assocL v ed) as [[?|]|]; try discriminate;
        destruct args; inv_all'; use_IH IHe IHb IHss IHes IHsl IHac IHsf; fin.
    + (* match: a clause pushes a scope for its pattern and pops it after its body *)
      inv_all. destruct (fst a) as [|[? ?] ?]; inv_all'.
      match goal with Hm : mapM_st (match_arm _ _ _ _) _ _ = COk _ |- _ =>
        apply (mapM_st_rel _ Sr Str) in Hm;
        [|intros st0 pc r0 H0; unfold match_arm in H0; inv_all';
          match goal with Hp : check_pattern _ _ _ _ = _, He : Infer.check_expr _ _ _ _ _ = _ |- _ =>
            apply check_pattern_tl in Hp; apply IHe in He; cbn [snd fst st_env with_env env_push tl] in *;
            change env_pop with (@tl cscope); congruence end] end.
      use_IH IHe IHb IHss IHes IHsl IHac IHsf. fin.
    + inv_all. destruct o; inv_all;
        try match goal with H : match ty_of ?x with CBool => match ty_of ?y with _ => _ end | _ => _ end = COk _ |- _ =>
              destruct (ty_of x); try discriminate H; destruct (ty_of y); try discriminate H end;
        inv_all'; use_IH IHe IHb IHss IHes IHsl IHac IHsf; fin.
    + (* block *)
      inv_all'. use_IH IHe IHb IHss IHes IHsl IHac IHsf.
      cbn [snd st_env with_env env_push tl] in *. change env_pop with (@tl cscope). assumption.
    + (* call *)
      inv_all.
      assert (Hst1 : st_env a = st_env st).
      { match goal with Hp : call_prefix _ _ _ _ _ = COk _ |- _ =>
          destruct (call_prefix_ok _ _ _ _ _ _ Hp) as [->|(fd & r0 & _ & _ & Hc & ->)] end; [reflexivity|].
        exact (IHf _ _ _ Hc). }
      destruct (assocL f0 (st_typed a)); [|discriminate]. destruct (env_get (st_env a) f0); inv_all'.
      use_IH IHe IHb IHss IHes IHsl IHac IHsf. fin.
  - intros st b r H. rewrite check_stmts_S in H. exact (IHsl _ _ _ H).
  - intros st b r H. rewrite check_block_S in H. inv_all'. use_IH IHe IHb IHss IHes IHsl IHac IHsf. fin.
  - intros st s r H. rewrite check_stmt_S in H. destruct s; cbn [stmt_step] in H;
      try (destruct (env_get (st_env st) x) as [[t [|]]|]); inv_all';
      repeat match goal with Hp : check_pattern _ _ _ _ = _ |- _ => apply check_pattern_tl in Hp end;
      use_IH IHe IHb IHss IHes IHsl IHac IHsf;
      cbn [snd fst st_env with_env env_push tl] in *; rewrite ?tl_env_let; change env_pop with (@tl cscope); congruence.
  - intros st fd r H. rewrite check_fn_S in H. unfold fn_step in H. inv_all'. reflexivity.
Qed.

(* an identifier bound inside a block / branch / loop body / match arm / callee is not visible
   after it, and mutability does not leak: after ANY accepted expression (in particular a block
   that shadows x with a `let mut`), every name resolves exactly as before *)
Corollary scope_does_not_leak f D st e e' st' x :
  check_expr f D st e = COk (e', st') -> env_get (st_env st') x = env_get (st_env st) x.
Proof. intro H. apply (proj1 (check_env f D)) in H. cbn [snd] in H. rewrite H. reflexivity. Qed.

(* a `for` loop binds nothing that is visible afterwards *)
Corollary for_does_not_leak f D st p e body s' st' :
  check_stmt f D st (XSForEach p e body) = COk (s', st') -> st_env st' = st_env st.
Proof.
  destruct f as [|f]; [discriminate|]. rewrite check_stmt_S. cbn [stmt_step]. intro H. inv_all. cbn [st_env with_env].
  change env_pop with (@tl cscope).
  match goal with Hp : check_pattern _ _ _ _ = _, Hb : Infer.check_stmts _ _ _ _ _ = _, He : Infer.check_expr _ _ _ _ _ = _ |- _ =>
    apply check_pattern_tl in Hp; apply (proj1 (proj2 (check_env f D))) in Hb;
    apply (proj1 (check_env f D)) in He; cbn [st_env with_env env_push tl] in * end.
  congruence.
Qed.

(* hence: a name that is unbound before an expression / a `for` statement is still unbound after it *)
Corollary unbound_after_block f f' D st b e' st' x :
  check_expr f D st (XBlock b) = COk (e', st') ->
  env_get (st_env st) x = None -> assocL x (d_consts D) = None ->
  check_expr (S f') D st' (XIdentifier x) = CErr E_UnknownIdentifier.
Proof.
  intros H Hx Hc. apply unknown_identifier_rejected; [|exact Hc].
  rewrite (scope_does_not_leak _ _ _ _ _ _ x H). exact Hx.
Qed.

End Scoping.

(* ================================================================== soundness w.r.t. Lang/Wt.v is FALSE *)

(* `check_program .. P = COk P' -> Wt.wt_program P' = true` does not hold: three accepted
   programs whose typed tree is rejected by the re-checker (each confirmed on the real
   compiler, see InferExamples.v):
     pub fn main(x: u8) -> u8 { let y = 1 + 2; y + x }           (identifier re-typed at its use)
     pub fn main(x: u8) -> u8 { let z = [1, 2, 3][0] + x; z }    (access node re-typed over 32-bit elements)
     pub fn main(x: u8) -> u8 { let y = 5000000000; x }          (literal never range-checked)
   (`let y = 1 + 2 + x; y`, P_retype2, was a fourth witness until fix 64720dd: unify now constrains a compound
   operand deeply, InferExamples.retype2_now_wt) *)
Theorem check_sound_refuted :
  forall P, In P [P_retype; P_retype3; P_big] ->
  exists P', check_program ex_intern 50 P = COk P' /\ Wt.wt_program P' = false.
Proof.
  intros P HP. cbn [In] in HP.
  destruct HP as [<-|[<-|[<-|[]]]]; eexists; (split; [vm_compute; reflexivity|vm_compute; reflexivity]).
Qed.

(* ================================================================== determinism *)

(* determinism is by construction (the checker is a function); a rejected program is never
   also accepted *)
Lemma check_program_deterministic intern f P r1 r2 :
  check_program intern f P = r1 -> check_program intern f P = r2 -> r1 = r2.
Proof. congruence. Qed.

Print Assumptions cty_eqb_eq.
Print Assumptions check_type_ty.
Print Assumptions unify_ty.
Print Assumptions unify_incompat.
Print Assumptions check_type_bool.
Print Assumptions unknown_identifier_rejected.
Print Assumptions if_cond_not_bool_rejected.
Print Assumptions if_branches_differ_rejected.
Print Assumptions operands_differ_rejected.
Print Assumptions logical_non_bool_rejected.
Print Assumptions assign_unbound_rejected.
Print Assumptions assign_immutable_rejected.
Print Assumptions index_not_usize_rejected.
Print Assumptions index_non_array_rejected.
Print Assumptions tuple_index_out_of_range_rejected.
Print Assumptions shift_amount_not_u8_rejected.
Print Assumptions neg_unsigned_rejected.
Print Assumptions unknown_function_rejected.
Print Assumptions check_pattern_tl.
Print Assumptions check_env.
Print Assumptions scope_does_not_leak.
Print Assumptions for_does_not_leak.
Print Assumptions unbound_after_block.
Print Assumptions check_sound_refuted.
