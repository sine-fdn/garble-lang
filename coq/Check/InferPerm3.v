(* C06 with calls, the ACCEPTANCE half: if the checker accepts a function / expression in one state,
   it accepts it (with enough fuel, with the same result) in any other good state -- provided the
   functions it calls can be re-checked.  Proved here: global determinism of [canon]; the transfer
   theorem for an abstract relation on the typed maps ([Transfer.transfer]); its instance
   [check_imp] for callees that leave the typed map alone, and from it the re-check of functions
   WITHOUT calls and of functions whose callees have no calls (call graphs of depth <= 1). *)
From Coq Require Import Lia Bool Permutation.
From GV Require Import Base.Util Front.Scan Front.ParseExpr Check.UAst Check.Infer Check.InferProofs Check.InferSub
  Check.InferTotal Check.InferFuel2 Check.InferPerm Check.InferPerm2.
Local Open Scope N_scope.

(* ================================================================ canon is deterministic *)

Section CanonDet.
Variable intern : list N -> N.
Variable D : defs.
Notation canon := (canon intern D).
Notation Cgood := (Cgood intern D).
Notation Good := (Good intern D).

Lemma canon_det : forall id d, canon id d -> forall d', canon id d' -> d = d'.
Proof.
  fix IH 3. intros id d H. destruct H as [f st fd id r Hf HC Hr]. intros d' H'.
  assert (HG : Good (st_typed st)).
  { clear Hr. unfold InferPerm2.Good. induction HC as [|nd T Hnd HT IHT]; constructor; [|exact IHT].
    split; [exact Hnd|]. intros u Hu. exact (IH _ _ Hnd u Hu). }
  inversion H' as [f3 st3 fd3 id3 r3 Hf3 Hc3 Hr3]. subst. rewrite Hf in Hf3. injection Hf3 as <-.
  pose proof (proj2 (proj2 (proj2 (proj2 (check_det intern D f)))) f3 st st3 fd (conj HG Hc3)) as H.
  rewrite Hr, Hr3 in H. exact (proj1 H).
Qed.

Lemma Cgood_Good T : Cgood T -> Good T.
Proof.
  unfold InferPerm2.Cgood, InferPerm2.Good. apply Forall_impl. intros nd H. split; [exact H|].
  intros u Hu. eapply canon_det; eassumption.
Qed.
End CanonDet.

(* ================================================================ every call target satisfies [Hc] *)

Section Okc.
Variable Hc : list N -> bool.
Fixpoint okc_x (e : xexpr) : bool :=
  match e with
  | XTrue | XFalse | XNumUnsigned _ _ | XNumSigned _ _ | XIdentifier _ | XRange _ _ _ => true
  | XArrayLiteral es => forallb okc_x es
  | XArrayRepeatLiteral e _ => okc_x e
  | XArrayRepeatLiteralConst e _ => okc_x e
  | XArrayAccess a i => okc_x a && okc_x i
  | XTupleLiteral es => forallb okc_x es
  | XTupleAccess e _ => okc_x e
  | XStructAccess e _ => okc_x e
  | XStructLiteral _ fs => forallb (fun f => okc_x (snd f)) fs
  | XEnumLiteral _ _ None => true
  | XEnumLiteral _ _ (Some es) => forallb okc_x es
  | XMatch e arms => okc_x e && forallb (fun a => okc_x (snd a)) arms
  | XUnaryOp _ e => okc_x e
  | XOp _ l r => okc_x l && okc_x r
  | XBlock b => forallb okc_s b
  | XFnCall f args => Hc f && forallb okc_x args
  | XJoin args => forallb okc_x args
  | XIf c t e => okc_x c && okc_x t && okc_x e
  | XCast _ e => okc_x e
  end
with okc_s (s : xstmt) : bool :=
  match s with
  | XSLet _ _ e => okc_x e
  | XSLetMut _ _ e => okc_x e
  | XSVarAssign _ accs e => forallb okc_a accs && okc_x e
  | XSForEach _ e body => okc_x e && forallb okc_s body
  | XSExpr e => okc_x e
  end
with okc_a (a : xaccessor) : bool :=
  match a with
  | XAArray i => okc_x i
  | XATuple _ | XAStruct _ => true
  end.
End Okc.

(* ================================================================ accepted here => accepted there *)

(* The transfer argument, once, for an abstract relation [Rt] between the typed maps of the two runs.
   The checker reads the typed map only where a call looks its callee up and, if it is missing,
   checks it first ([call_prefix]); so what an instance owes is that one step ([Hcall]) and that
   related maps agree where both are defined ([Rt_det]). *)
Module Transfer.
Section T.
Variable intern : list N -> N.
Variable D : defs.
Notation check_expr := (check_expr intern).
Notation check_stmt := (check_stmt intern).
Notation check_stmts := (check_stmts intern).
Notation check_block := (check_block intern).
Notation check_fn := (check_fn intern).

Variable K : nat.                                  (* the extra fuel of the second run *)
Variable Hc : list N -> bool.                      (* the functions that may be called *)
Variable Pc : list (list N) -> Prop.               (* what is known about the second run's st_checking *)
Variable fb : nat.                                 (* the bound on the fuel of the first run *)
Variable Rt : list (list N * tfndef) -> list (list N * tfndef) -> Prop.

Definition st_rel (s s' : cstate) : Prop :=
  st_env s = st_env s' /\ Rt (st_typed s) (st_typed s') /\ Pc (st_checking s').

(* the first run accepted => the second run accepted, with related results *)
Definition rimp {A} (RA : A -> A -> Prop) (r r' : cres A) : Prop :=
  match r with
  | COk a => match r' with COk a' => RA a a' | _ => False end
  | _ => True
  end.
Definition RP {B} (r r' : B * cstate) : Prop := fst r = fst r' /\ st_rel (snd r) (snd r').

Lemma rimp_bind {A B} (RA : A -> A -> Prop) (RB : B -> B -> Prop) r r' (k k' : A -> cres B) :
  rimp RA r r' -> (forall a a', RA a a' -> rimp RB (k a) (k' a')) -> rimp RB (cbind r k) (cbind r' k').
Proof. destruct r; cbn [rimp cbind]; auto. destruct r'; cbn [cbind]; try contradiction. auto. Qed.

Lemma rimp_eq {A} (r : cres A) : rimp eq r r.
Proof. destruct r; cbn [rimp]; auto. Qed.

Lemma rimp_pure {A B} (RB : B -> B -> Prop) (r : cres A) (k k' : A -> cres B) :
  (forall a, rimp RB (k a) (k' a)) -> rimp RB (cbind r k) (cbind r k').
Proof. exact (rel_pure (@rimp) (@rimp_bind) (@rimp_eq) RB r k k'). Qed.

Lemma rimp_le {A} (r r' : cres A) : le_res r r' -> rimp eq r r'.
Proof. intros [-> | ->]; [exact I|apply rimp_eq]. Qed.

Lemma rimp_check_type f e t : rimp eq (check_type f e t) (check_type (f + K) e t).
Proof. apply rimp_le. apply (le_iter (fun n => check_type n e t)). intro n. apply le_check_type. Qed.
Lemma rimp_coc_u f e t : rimp eq (coc_unsigned_deep f e t) (coc_unsigned_deep (f + K) e t).
Proof. apply rimp_le. apply (le_iter (fun n => coc_unsigned_deep n e t)). intro n. apply le_coc_unsigned_deep. Qed.
Lemma rimp_coc_s f e t : rimp eq (coc_signed_deep f e t) (coc_signed_deep (f + K) e t).
Proof. apply rimp_le. apply (le_iter (fun n => coc_signed_deep n e t)). intro n. apply le_coc_signed_deep. Qed.
Lemma rimp_unify f a b : rimp eq (unify f a b) (unify (f + K) a b).
Proof. apply rimp_le. apply (le_iter (fun n => unify n a b)). intro n. apply le_unify. Qed.
Lemma rimp_i32 f e : rimp eq (constrain_to_i32 f e) (constrain_to_i32 (f + K) e).
Proof. apply rimp_le. apply (le_iter (fun n => constrain_to_i32 n e)). intro n. apply le_constrain_to_i32. Qed.

Lemma rimp_clause f ret_ty (pc : tpattern * texpr) :
  rimp eq (if negb (cty_eqb ret_ty (ty_of (snd pc))) then
            match ret_ty with
            | CUnsigned expected => do x <- coc_unsigned_deep f (snd pc) expected; COk (fst pc, x)
            | CSigned expected => do x <- coc_signed_deep f (snd pc) expected; COk (fst pc, x)
            | _ => CErr E_UnexpectedType
            end
          else COk pc)
         (if negb (cty_eqb ret_ty (ty_of (snd pc))) then
            match ret_ty with
            | CUnsigned expected => do x <- coc_unsigned_deep (f + K) (snd pc) expected; COk (fst pc, x)
            | CSigned expected => do x <- coc_signed_deep (f + K) (snd pc) expected; COk (fst pc, x)
            | _ => CErr E_UnexpectedType
            end
          else COk pc).
Proof.
  destruct (negb _); [|apply rimp_eq]. destruct ret_ty; try exact I;
    (eapply rimp_bind; [first [apply rimp_coc_u|apply rimp_coc_s]|]; intros x x' <-; apply rimp_eq).
Qed.

Lemma rimp_mapM_st {A B} (g g' : cstate -> A -> cres (B * cstate)) l :
  (forall st st' x, In x l -> st_rel st st' -> rimp RP (g st x) (g' st' x)) ->
  forall st st', st_rel st st' -> rimp RP (mapM_st g st l) (mapM_st g' st' l).
Proof. exact (rel_mapM_st (@rimp) (@rimp_bind) (fun _ _ _ _ H => H) st_rel g g' l). Qed.

Lemma st_rel_mk g t t' c c' : Rt t t' -> Pc c' -> st_rel (mkSt g t c) (mkSt g t' c').
Proof. intros H1 H2. split; [reflexivity|split; assumption]. Qed.

Ltac rr_intro :=
  let a := fresh "a" in let a' := fresh "a'" in let HR := fresh "HR" in
  intros a a' HR;
  first
   [ destruct a as [?b [?g ?t ?c]], a' as [?b [?g ?t ?c]]; destruct HR as [?E (?E & ?E & ?E)];
     cbn [fst snd st_env st_checking st_typed] in *; subst
   | subst a' ].

Ltac seq_solve := cbn [with_env st_env st_checking st_typed fst snd]; first [apply st_rel_mk; assumption | assumption].

Ltac oksolve Hs :=
  cbn [okc_x okc_s okc_a] in Hs; repeat rewrite andb_true_iff in Hs;
  first [ tauto
        | match goal with Hin : In ?x ?l |- _ =>
            first [ exact (forallb_In _ _ _ Hs Hin)
                  | exact (forallb_In _ _ _ (proj1 Hs) Hin) | exact (forallb_In _ _ _ (proj2 Hs) Hin) ] end ].

Ltac rr_core IHt :=
  repeat (cbn [st_env st_typed st_checking with_env];
    match goal with
    | |- rimp _ (COk _) (COk _) => cbn [rimp]
    | |- rimp _ (CErr _) _ => exact I
    | |- rimp _ COutside _ => exact I
    | |- rimp _ CNoFuel _ => exact I
    | |- rimp _ (cbind (check_type _ ?e ?t) _) (cbind (check_type _ ?e ?t) _) =>
        eapply rimp_bind; [apply rimp_check_type|intros ? ? <-]
    | |- rimp _ (cbind (unify _ ?a ?b) _) (cbind (unify _ ?a ?b) _) =>
        eapply rimp_bind; [apply rimp_unify|intros ? ? <-]
    | |- rimp _ (cbind (coc_unsigned_deep _ ?e ?t) _) (cbind (coc_unsigned_deep _ ?e ?t) _) =>
        eapply rimp_bind; [apply rimp_coc_u|intros ? ? <-]
    | |- rimp _ (cbind (coc_signed_deep _ ?e ?t) _) (cbind (coc_signed_deep _ ?e ?t) _) =>
        eapply rimp_bind; [apply rimp_coc_s|intros ? ? <-]
    | |- rimp _ (cbind (constrain_to_i32 _ ?e) _) (cbind (constrain_to_i32 _ ?e) _) =>
        eapply rimp_bind; [apply rimp_i32|intros ? ? <-]
    | |- rimp _ (cbind (mapM _ ?l) _) (cbind (mapM _ ?l) _) =>
        eapply rimp_bind; [apply (rel_mapM (@rimp) (@rimp_bind) (@rimp_eq)); intros ?; first [apply rimp_check_type|apply rimp_eq|apply rimp_clause]|intros ? ? <-]
    | |- rimp _ (cbind (zipM _ ?l ?m) _) (cbind (zipM _ ?l ?m) _) =>
        eapply rimp_bind; [apply (rel_zipM (@rimp) (@rimp_bind) (@rimp_eq)); intros ? ?; first [apply rimp_check_type|apply rimp_eq]|intros ? ? <-]
    | |- rimp _ (cbind ?r _) (cbind ?r _) => apply rimp_pure; intros ?
    | |- rimp _ (cbind _ _) (cbind _ _) => eapply rimp_bind; [solve [IHt] | rr_intro]
    | |- rimp _ (if ?c then _ else _) (if ?c then _ else _) => destruct c eqn:?
    | |- rimp _ (match ?x with _ => _ end) (match ?x with _ => _ end) => destruct x eqn:?
    end).

Ltac rp_fin := first [ split; [reflexivity|seq_solve] | exact I | reflexivity ].

Definition RF (r r' : tfndef * cstate) : Prop := fst r = fst r' /\ Rt (st_typed (snd r)) (st_typed (snd r')).

Definition GE f := forall st st' e, st_rel st st' -> okc_x Hc e = true ->
  rimp RP (check_expr f D st e) (check_expr (f + K) D st' e).
Definition GSS f := forall st st' b, st_rel st st' -> forallb (okc_s Hc) b = true ->
  rimp RP (check_stmts f D st b) (check_stmts (f + K) D st' b).
Definition GB f := forall st st' b, st_rel st st' -> forallb (okc_s Hc) b = true ->
  rimp RP (check_block f D st b) (check_block (f + K) D st' b).
Definition GS f := forall st st' s, st_rel st st' -> okc_s Hc s = true ->
  rimp RP (check_stmt f D st s) (check_stmt (f + K) D st' s).
Definition GF f := forall st st' fd, Rt (st_typed st) (st_typed st') -> Pc (uf_name fd :: st_checking st') ->
  memL (uf_name fd) (st_checking st') = false -> forallb (okc_s Hc) (uf_body fd) = true ->
  rimp RF (check_fn f D st fd) (check_fn (f + K) D st' fd).

Ltac ih_tac IHe IHss IHb IHs Hs :=
  first [ apply IHe; [seq_solve|oksolve Hs]
        | apply IHss; [seq_solve|oksolve Hs]
        | apply IHb; [seq_solve|oksolve Hs]
        | apply IHs; [seq_solve|oksolve Hs]
        | apply rimp_mapM_st; [intros ? ? ? ? ?; first [apply IHe|apply IHs]; [assumption|oksolve Hs]|seq_solve] ].

Hypothesis Rt_det : forall t t' id d d', Rt t t' -> assocL id t = Some d -> assocL id t' = Some d' -> d = d'.
Hypothesis Hcall : forall f id g t c t' c', (S f <= fb)%nat -> Hc id = true -> Rt t t' -> Pc c' ->
  rimp (fun s1 s1' => st_rel s1 s1' /\ (defd id (st_typed s1) -> defd id (st_typed s1')))
       (call_prefix intern f D (mkSt g t c) id) (call_prefix intern (f + K) D (mkSt g t' c') id).

Lemma imp_expr f : (S f <= fb)%nat -> GE f -> GB f -> GE (S f).
Proof.
  intros Hle IHe IHb st st' e Hq Hs. change (S f + K)%nat with (S (f + K)).
  destruct st as [g t c], st' as [g' t' c']. destruct Hq as (Eg & Ht & Hp). cbn [st_env st_checking st_typed] in *. subst g'.
  rewrite !check_expr_S. destruct e; cbn [expr_step st_env st_checking st_typed with_env].
  (* every constructor but struct literal (13), match (15) and call (19) *)
  1-12, 14, 16-18, 20-23: solve [rr_core ltac:(ih_tac IHe IHe IHb IHe Hs); rp_fin].
  - (* struct literal *)
    destruct (assocL name (d_structs D)); [|exact I].
    eapply rimp_bind; [apply (rel_struct_lit_loop (@rimp) (@rimp_bind) (fun _ _ _ _ H => H) (@rimp_eq) st_rel _ _ _ _ _ (rimp_check_type _)); [intros st0 st0' fl Hin Hq0; apply IHe; [exact Hq0|oksolve Hs]|seq_solve]|rr_intro].
    rr_core ltac:(ih_tac IHe IHe IHb IHe Hs); rp_fin.
  - (* match *)
    eapply rimp_bind; [apply IHe; [seq_solve|oksolve Hs]|rr_intro].
    match goal with |- rimp _ (match ty_of ?x with _ => _ end) _ => destruct (ty_of x) end; try exact I;
    (unfold match_tail; eapply rimp_bind;
      [apply rimp_mapM_st; [|seq_solve];
       intros st0 st0' pc Hin Hq0; destruct st0 as [gq tq cq], st0' as [gq' tq' cq']; destruct Hq0 as (Eg0 & Ht0 & Hp0);
       cbn [st_env st_checking st_typed] in Eg0, Ht0, Hp0; subst gq'; unfold match_arm;
       rr_core ltac:(ih_tac IHe IHe IHb IHe Hs); rp_fin
      |rr_intro]; rr_core ltac:(ih_tac IHe IHe IHb IHe Hs); rp_fin).
  - (* call *)
    cbn [okc_x] in Hs. apply andb_true_iff in Hs. destruct Hs as [Hcf Hargs].
    eapply rimp_bind; [exact (Hcall f f0 g t c t' c' Hle Hcf Ht Hp)|].
    intros [g1 t1 c1] [g1' t1' c1'] [(Eg1 & Ht1 & Hp1) Hdef]. cbn [st_env st_checking st_typed] in *. subst g1'.
    destruct (assocL f0 t1) as [d|] eqn:EL1; [|exact I].
    destruct (assocL f0 t1') as [d'|] eqn:ER1; [|exfalso; apply Hdef; [unfold defd; rewrite EL1; discriminate|exact ER1]].
    assert (Ed : d = d') by (eapply Rt_det; eassumption). subst d'.
    destruct (env_get g1 f0); [exact I|].
    assert (Hs : forallb (okc_x Hc) args = true) by exact Hargs.
    rr_core ltac:(ih_tac IHe IHe IHb IHe Hs); rp_fin.
Qed.
Lemma imp_stmts f : GS f -> GSS (S f) /\ GB (S f).
Proof.
  intro IHs. split; intros st st' b Hq Hs; change (S f + K)%nat with (S (f + K)); cbn [Infer.check_stmts Infer.check_block].
  - apply rimp_mapM_st; [|exact Hq]. intros st0 st0' x Hin Hq0. apply IHs; [exact Hq0|exact (forallb_In _ _ _ Hs Hin)].
  - eapply rimp_bind; [apply rimp_mapM_st; [|exact Hq]; intros st0 st0' x Hin Hq0; apply IHs; [exact Hq0|exact (forallb_In _ _ _ Hs Hin)]|].
    intros [b1 s1] [b1' s1'] [E1 S1]. cbn [fst snd] in *. subst b1'. split; [reflexivity|exact S1].
Qed.

Lemma rimp_annot f (ty : option utype) b : rimp eq (annot f D ty b) (annot (f + K) D ty b).
Proof. unfold annot. destruct ty; [|reflexivity]. apply rimp_pure. intro ty'. apply rimp_check_type. Qed.

Lemma imp_stmt f : GE f -> GSS f -> GS (S f).
Proof.
  intros IHe IHss st st' s Hq Hs. change (S f + K)%nat with (S (f + K)).
  destruct st as [g t c], st' as [g' t' c']. destruct Hq as (Eg & Ht & Hp). cbn [st_env st_checking st_typed] in *. subst g'.
  rewrite !check_stmt_S. destruct s; cbn [stmt_step st_env st_checking st_typed with_env].
  4-5: solve [rr_core ltac:(ih_tac IHe IHss IHss IHe Hs); rp_fin].
  - eapply rimp_bind; [apply IHe; [seq_solve|oksolve Hs]|rr_intro].
    eapply rimp_bind; [apply rimp_annot|intros ? ? <-]. rr_core ltac:(ih_tac IHe IHss IHss IHe Hs); rp_fin.
  - eapply rimp_bind; [apply IHe; [seq_solve|oksolve Hs]|rr_intro].
    eapply rimp_bind; [apply rimp_annot|intros ? ? <-]. rr_core ltac:(ih_tac IHe IHss IHss IHe Hs); rp_fin.
  - destruct (env_get g x) as [[ety [|]]|]; try exact I.
    cbn [okc_s] in Hs. apply andb_true_iff in Hs. destruct Hs as [Hacc Hval].
    eapply rimp_bind.
    + apply (rel_accs_loop (@rimp) (@rimp_bind) (fun _ _ _ _ H => H) (@rimp_eq) st_rel _ _ _ _ D D (fun _ => eq_refl) (rimp_coc_u _)); [|apply st_rel_mk; assumption].
      intros st0 st0' a Hin Hq0. destruct a; try exact I. apply IHe; [exact Hq0|exact (forallb_In _ _ _ Hacc Hin)].
    + intros [[tas ty1] [g1 t1 c1]] [[tas' ty1'] [g1' t1' c1']] [E1 (Eg1 & Ht1 & Hp1)].
      cbn [fst snd st_env st_checking st_typed] in *. injection E1 as <- <-. subst g1'.
      assert (Hs : okc_x Hc e = true) by exact Hval.
      rr_core ltac:(ih_tac IHe IHss IHss IHe Hs); rp_fin.
Qed.

Lemma imp_fn f : GB f -> GF (S f).
Proof.
  intros IHb st st' fd Ht Hp Hm Hs. change (S f + K)%nat with (S (f + K)).
  destruct st as [g t c], st' as [g' t' c']. cbn [st_env st_checking st_typed] in *.
  cbn [Infer.check_fn]. cbn [st_env st_checking st_typed]. rewrite Hm.
  destruct (memL (uf_name fd) c); [exact I|]. cbv zeta.
  apply rimp_pure. intros rp.
  eapply rimp_bind; [apply IHb; [apply st_rel_mk; assumption|exact Hs]|].
  intros [[body bty] [g1 t1 c1]] [[body' bty'] [g1' t1' c1']] [E1 (Eg1 & Ht1 & Hp1)].
  cbn [fst snd st_env st_checking st_typed] in *. injection E1 as <- <-. subst g1'.
  apply rimp_pure. intros ret_ty.
  eapply rimp_bind with (RA := eq).
  - destruct (last (map Some body) None) as [[]|]; try apply rimp_eq.
    apply (rel_map_last_expr (@rimp) (@rimp_bind) (@rimp_eq)). intro e0. apply rimp_check_type.
  - intros b1 b1' <-. cbn [rimp]. split; [reflexivity|exact Ht1].
Qed.

Theorem transfer f : (f <= fb)%nat -> GE f /\ GSS f /\ GB f /\ GS f /\ GF f.
Proof.
  induction f as [|f IH]; intro Hle; [|destruct (IH ltac:(lia)) as (IHe & IHss & IHb & IHs & IHf)].
  { repeat split; intros ? ? ? ? ?; try intro; try intro; exact I. }
  pose proof (imp_stmts f IHs) as [H1 H2].
  split; [apply imp_expr; assumption|]. split; [exact H1|]. split; [exact H2|].
  split; [apply imp_stmt; assumption|apply imp_fn; assumption].
Qed.
End T.
End Transfer.

Section Imp.
Variable intern : list N -> N.
Variable D : defs.
Notation check_expr := (check_expr intern).
Notation check_stmt := (check_stmt intern).
Notation check_stmts := (check_stmts intern).
Notation check_block := (check_block intern).
Notation check_fn := (check_fn intern).
Notation canon := (canon intern D).
Notation Cgood := (Cgood intern D).

Variable K : nat.                                  (* the extra fuel of the second run *)
Variable Hc : list N -> bool.                      (* the functions that may be called *)
Variable Pc : list (list N) -> Prop.               (* what is known about the second run's st_checking *)
Variable L0 : list (list N * tfndef).              (* the typed map the first run started from *)

(* a callee can be re-checked wherever the second run needs it, and does not touch the typed map *)
Hypothesis Hcallee : forall id fd F st', Hc id = true ->
  find (fun d => list_eqb (uf_name d) id) (d_fns D) = Some fd -> (exists d, canon id d) ->
  (K <= F)%nat -> Cgood (st_typed st') -> Pc (st_checking st') ->
  exists r', check_fn F D st' fd = COk r' /\ st_typed (snd r') = st_typed st'.

Hypothesis Hcallee_frame : forall id fd f st r, Hc id = true ->
  find (fun d => list_eqb (uf_name d) id) (d_fns D) = Some fd ->
  check_fn f D st fd = COk r -> st_typed (snd r) = st_typed st.

Definition Rt (T T' : list (list N * tfndef)) : Prop :=
  Cgood T /\ Cgood T' /\ (forall n, defd n T -> defd n L0 \/ defd n T').
Definition st_rel (s s' : cstate) : Prop :=
  st_env s = st_env s' /\ Rt (st_typed s) (st_typed s') /\ Pc (st_checking s').

(* the first run accepted => the second run accepted, with related results *)
Definition rimp {A} (RA : A -> A -> Prop) (r r' : cres A) : Prop :=
  match r with
  | COk a => match r' with COk a' => RA a a' | _ => False end
  | _ => True
  end.
Definition RP {B} (r r' : B * cstate) : Prop := fst r = fst r' /\ st_rel (snd r) (snd r').
Definition RF (r r' : tfndef * cstate) : Prop := fst r = fst r' /\ Rt (st_typed (snd r)) (st_typed (snd r')).

Definition GE f := forall st st' e, st_rel st st' -> okc_x Hc e = true ->
  rimp RP (check_expr f D st e) (check_expr (f + K) D st' e).
Definition GSS f := forall st st' b, st_rel st st' -> forallb (okc_s Hc) b = true ->
  rimp RP (check_stmts f D st b) (check_stmts (f + K) D st' b).
Definition GB f := forall st st' b, st_rel st st' -> forallb (okc_s Hc) b = true ->
  rimp RP (check_block f D st b) (check_block (f + K) D st' b).
Definition GS f := forall st st' s, st_rel st st' -> okc_s Hc s = true ->
  rimp RP (check_stmt f D st s) (check_stmt (f + K) D st' s).
Definition GF f := forall st st' fd, Rt (st_typed st) (st_typed st') -> Pc (uf_name fd :: st_checking st') ->
  memL (uf_name fd) (st_checking st') = false -> forallb (okc_s Hc) (uf_body fd) = true ->
  rimp RF (check_fn f D st fd) (check_fn (f + K) D st' fd).

Lemma imp_call f f0 g t c t' c' : Hc f0 = true -> Rt t t' -> Pc c' ->
  rimp (fun s1 s1' => st_rel s1 s1' /\ (defd f0 (st_typed s1) -> defd f0 (st_typed s1')))
       (call_prefix intern f D (mkSt g t c) f0) (call_prefix intern (f + K) D (mkSt g t' c') f0).
Proof.
  intros Hcf (HC & HC' & HK) Hp. unfold call_prefix. cbn [st_typed].
  assert (HL : forall s1, (if negb match assocL f0 t with Some _ => true | None => false end
               then match find (fun d => list_eqb (uf_name d) f0) (d_fns D) with
                    | Some fn_def => do r <- check_fn f D (mkSt g t c) fn_def;
                        COk (mkSt (st_env (snd r)) ((f0, fst r) :: st_typed (snd r)) (st_checking (snd r)))
                    | None => COk (mkSt g t c) end
               else COk (mkSt g t c)) = COk s1 ->
            st_env s1 = g /\ Cgood (st_typed s1) /\ (forall n, defd n (st_typed s1) -> n = f0 \/ defd n t) /\
            (defd f0 (st_typed s1) -> exists d, canon f0 d)).
  { intros s1 H1. destruct (assocL f0 t) as [d|] eqn:EL; cbn [negb] in H1.
    - injection H1 as <-. cbn [st_env st_typed]. split; [reflexivity|]. split; [exact HC|]. split; [intros n Hn; right; exact Hn|].
      intros _. exists d. exact (Cgood_get intern D t f0 d HC EL).
    - destruct (find _ (d_fns D)) as [fd|] eqn:Ef.
      + destruct (check_fn f D (mkSt g t c) fd) as [r1| | |] eqn:E1; cbn [cbind] in H1; try discriminate H1. injection H1 as <-.
        destruct (ins_right intern D f (mkSt g t c) fd f0 r1 Ef HC E1) as [HC1 He1].
        pose proof (Hcallee_frame f0 fd f _ r1 Hcf Ef E1) as Hfr. cbn [st_env st_typed] in *.
        split; [exact He1|]. split; [exact HC1|]. split.
        * intros n Hn. unfold defd in *. cbn [assocL] in Hn. destruct (list_eqb n f0) eqn:En; [left; apply list_eqb_eq; exact En|].
          right. rewrite <- Hfr. exact Hn.
        * intros _. exists (fst r1). inversion HC1; assumption.
      + injection H1 as <-. cbn [st_env st_typed]. split; [reflexivity|]. split; [exact HC|]. split; [intros n Hn; right; exact Hn|].
        intros Hd. exfalso. apply Hd. exact EL. }
  match goal with |- rimp _ ?L _ => destruct L as [s1| | |] eqn:EL1; try exact I end.
  destruct (HL s1 eq_refl) as (E1 & C1 & K1 & X1). clear HL.
  (* the right run *)
  destruct (assocL f0 t') as [d'|] eqn:ER; cbn [negb].
  * cbn [rimp]. split; [|intros _; unfold defd; cbn [st_typed]; rewrite ER; discriminate].
    split; [cbn [st_env]; exact E1|]. split; [|exact Hp]. cbn [st_typed]. split; [exact C1|]. split; [exact HC'|].
    intros n Hn. destruct (K1 n Hn) as [->|Hd]; [right; unfold defd; rewrite ER; discriminate|apply HK; exact Hd].
  * destruct (find _ (d_fns D)) as [fd|] eqn:Ef.
    -- assert (Hex : exists d, canon f0 d).
       { apply X1. destruct (assocL f0 t) eqn:EL; cbn [negb] in EL1.
         - injection EL1 as <-. unfold defd. cbn [st_typed]. rewrite EL. discriminate.
         - destruct (check_fn f D (mkSt g t c) fd); cbn [cbind] in EL1; try discriminate EL1. injection EL1 as <-.
           unfold defd. cbn [st_typed assocL]. rewrite list_eqb_refl. discriminate. }
       destruct (Hcallee f0 fd (f + K)%nat (mkSt g t' c') Hcf Ef Hex ltac:(lia) HC' Hp) as (r' & Er' & Hfr').
       rewrite Er'. cbn [cbind rimp].
       destruct (ins_right intern D (f + K)%nat (mkSt g t' c') fd f0 r' Ef HC' Er') as [HC2 He2].
       destruct (check_fn_frame _ _ _ _ _ _ Er') as [_ Hck]. cbn [st_env st_typed st_checking] in *.
       split; [|intros _; unfold defd; cbn [assocL]; rewrite list_eqb_refl; discriminate].
       split; [cbn [st_env]; congruence|]. split; [|cbn [st_checking]; rewrite Hck; exact Hp]. cbn [st_typed].
       split; [exact C1|]. split; [exact HC2|].
       intros n Hn. destruct (K1 n Hn) as [->|Hd]; [right; unfold defd; cbn [assocL]; rewrite list_eqb_refl; discriminate|].
       destruct (HK n Hd) as [H0|H0]; [left; exact H0|right]. unfold defd in *. cbn [assocL]. destruct (list_eqb n f0); [discriminate|].
       rewrite Hfr'. exact H0.
    -- (* unknown function: the left run cannot go on *)
       cbn [rimp]. split; [|intro Hd; destruct (X1 Hd) as [d Hcn]; inversion Hcn as [? ? ? ? ? Hf3 _ _]; subst; congruence].
       split; [cbn [st_env]; exact E1|]. split; [|exact Hp]. cbn [st_typed]. split; [exact C1|]. split; [exact HC'|].
       intros n Hn. destruct (K1 n Hn) as [->|Hd]; [|apply HK; exact Hd].
       exfalso. destruct (X1 Hn) as [d Hcn]. inversion Hcn as [? ? ? ? ? Hf3 _ _]; subst. congruence.
Qed.

(* ACCEPTED IN ONE STATE => ACCEPTED (with K more fuel, same result) IN THE OTHER *)
Theorem check_imp f : GE f /\ GSS f /\ GB f /\ GS f /\ GF f.
Proof.
  refine (Transfer.transfer intern D K Hc Pc f Rt _ _ f (le_n f)).
  - intros t t' id d d' (HG & HC & _) EL ER.
    eapply canon_det; [exact (Cgood_get intern D t id d HG EL)|exact (Cgood_get intern D t' id d' HC ER)].
  - intros f0 id g t c t' c' _. apply imp_call.
Qed.
End Imp.

(* ================================================================ instance 1: functions without calls *)

Ltac lst := match goal with |- forallb _ ?l = forallb _ ?l =>
  let y0 := fresh "y" in let ys := fresh "ys" in let IHys := fresh "IHys" in
  induction l as [|y0 ys IHys]; cbn [forallb snd]; [reflexivity|]; rewrite IHys; f_equal end.

Lemma okc_ncb_x : forall e, okc_x (fun _ => false) e = ncb_x e
with okc_ncb_s : forall s, okc_s (fun _ => false) s = ncb_s s
with okc_ncb_a : forall a, okc_a (fun _ => false) a = ncb_a a.
Proof.
  - intros e. destruct e; cbn [okc_x ncb_x]; try reflexivity; try (destruct args);
      repeat first [reflexivity | apply okc_ncb_x | apply okc_ncb_s | lst | f_equal].
  - intros s. destruct s; cbn [okc_s ncb_s];
      repeat first [reflexivity | apply okc_ncb_x | apply okc_ncb_s | apply okc_ncb_a | lst | f_equal].
  - intros a. destruct a; cbn [okc_a ncb_a]; [apply okc_ncb_x|reflexivity|reflexivity].
Qed.

Lemma okc_nocall fd : nocall_fn fd -> forallb (okc_s (fun _ => false)) (uf_body fd) = true.
Proof.
  unfold nocall_fn. intro H. rewrite <- H. clear H. induction (uf_body fd) as [|s b IH]; cbn [forallb]; [reflexivity|].
  rewrite okc_ncb_s, IH. reflexivity.
Qed.

Section NoCallRecheck.
Variable intern : list N -> N.
Variable D : defs.

(* a function without calls, accepted once (in a good state), is accepted in every good state in which it is not
   being checked, with any larger fuel, with the same typed function *)
Theorem nocall_recheck fd f st r K st' : nocall_fn fd ->
  Cgood intern D (st_typed st) -> check_fn intern f D st fd = COk r ->
  Cgood intern D (st_typed st') -> memL (uf_name fd) (st_checking st') = false ->
  exists r', check_fn intern (f + K) D st' fd = COk r' /\ fst r' = fst r /\ st_typed (snd r') = st_typed st'.
Proof.
  intros Hnc HC Hr HC' Hm.
  pose proof (check_imp intern D K (fun _ => false) (fun _ => True) (st_typed st)
                ltac:(intros; discriminate) ltac:(intros; discriminate) f) as (_ & _ & _ & _ & HF).
  specialize (HF st st' fd).
  assert (HR : Rt intern D (st_typed st) (st_typed st) (st_typed st')) by (split; [exact HC|split; [exact HC'|intros n Hn; now left]]).
  specialize (HF HR Logic.I Hm (okc_nocall fd Hnc)). rewrite Hr in HF. cbn [rimp] in HF.
  destruct (check_fn intern (f + K) D st' fd) as [r'| | |] eqn:Er'; try contradiction.
  exists r'. split; [reflexivity|]. split; [symmetry; exact (proj1 HF)|]. eapply nocall_frame; eassumption.
Qed.
End NoCallRecheck.

Print Assumptions canon_det.
Print Assumptions check_imp.
Print Assumptions nocall_recheck.

(* ================================================================ instance 2: call graphs of depth <= 1 *)

Section Depth1.
Variable intern : list N -> N.
Variable D : defs.
Variable Hp : list N -> bool.            (* the helpers: the functions that are called *)
Variable K : nat.
(* helpers have no calls, and each accepted helper has a witness check within K units of fuel
   (in a run of check_program_t with fuel f every check has fuel <= f: K := f) *)
Hypothesis Hhelp : forall id fd, Hp id = true ->
  find (fun d => list_eqb (uf_name d) id) (d_fns D) = Some fd -> nocall_fn fd.
Hypothesis HK : forall id d, Hp id = true -> canon intern D id d ->
  exists w st0 fd r0, (w <= K)%nat /\ Cgood intern D (st_typed st0) /\
    find (fun d => list_eqb (uf_name d) id) (d_fns D) = Some fd /\ check_fn intern w D st0 fd = COk r0.

Definition no_helper_checked (c : list (list N)) : Prop := forall id, Hp id = true -> memL id c = false.

(* a function all of whose callees are helpers: accepted once => accepted in every good state
   (with K more fuel), with the same typed function, whatever is memoised there *)
Theorem depth1_recheck g f st r st' :
  forallb (okc_s Hp) (uf_body g) = true -> Hp (uf_name g) = false ->
  Cgood intern D (st_typed st) -> check_fn intern f D st g = COk r ->
  Cgood intern D (st_typed st') -> memL (uf_name g) (st_checking st') = false -> no_helper_checked (st_checking st') ->
  exists r', check_fn intern (f + K) D st' g = COk r' /\ fst r' = fst r.
Proof.
  intros Hbody Hg HC Hr HC' Hm Hnh.
  assert (Hcallee : forall id fd F st2, Hp id = true ->
    find (fun d => list_eqb (uf_name d) id) (d_fns D) = Some fd -> (exists d, canon intern D id d) ->
    (K <= F)%nat -> Cgood intern D (st_typed st2) -> no_helper_checked (st_checking st2) ->
    exists r2, check_fn intern F D st2 fd = COk r2 /\ st_typed (snd r2) = st_typed st2).
  { intros id fd F st2 Hid Hf [d Hd] HF HC2 Hn2.
    destruct (HK id d Hid Hd) as (w & st0 & fd0 & r0 & Hw & HC0 & Hf0 & Hr0). rewrite Hf in Hf0. injection Hf0 as <-.
    assert (Hname : uf_name fd = id) by (apply find_some in Hf; destruct Hf as [_ Hf]; apply list_eqb_eq in Hf; exact Hf).
    destruct (nocall_recheck intern D fd w st0 r0 (F - w) st2 (Hhelp id fd Hid Hf) HC0 Hr0 HC2) as (r2 & E2 & _ & Hfr).
    { rewrite Hname. apply Hn2. exact Hid. }
    replace (w + (F - w))%nat with F in E2 by lia. exists r2. split; assumption. }
  assert (Hframe : forall id fd f0 st0 r0, Hp id = true ->
    find (fun d => list_eqb (uf_name d) id) (d_fns D) = Some fd ->
    check_fn intern f0 D st0 fd = COk r0 -> st_typed (snd r0) = st_typed st0).
  { intros id fd f0 st0 r0 Hid Hf Hr0. eapply nocall_frame; [eapply Hhelp; eassumption|exact Hr0]. }
  pose proof (check_imp intern D K Hp no_helper_checked (st_typed st) Hcallee Hframe f) as (_ & _ & _ & _ & HF).
  specialize (HF st st' g).
  assert (HR : Rt intern D (st_typed st) (st_typed st) (st_typed st')) by (split; [exact HC|split; [exact HC'|intros n Hn; now left]]).
  assert (HP : no_helper_checked (uf_name g :: st_checking st')).
  { intros id Hid. change (memL id (uf_name g :: st_checking st')) with (list_eqb id (uf_name g) || memL id (st_checking st')). pose proof (Hnh id Hid) as Hn. rewrite Hn, orb_false_r.
    destruct (list_eqb id (uf_name g)) eqn:E; [|reflexivity]. apply list_eqb_eq in E. subst id. congruence. }
  specialize (HF HR HP Hm Hbody). rewrite Hr in HF. cbn [rimp] in HF.
  destruct (check_fn intern (f + K) D st' g) as [r'| | |]; try contradiction.
  exists r'. split; [reflexivity|symmetry; exact (proj1 HF)].
Qed.
End Depth1.

Print Assumptions depth1_recheck.
