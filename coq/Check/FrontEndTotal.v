(* C07, the headline statement for the modelled stages, FROM THE TEXT: bytes -> scanner (Front/Scan.v) ->
   parser (Front/ParseExpr.v) -> type checker and exporter (Check/Infer.v), each run with a fuel computed
   from its input.  The front end always answers with tokens errors, a parse error, a type error, "outside
   the checker model" or a typed program: it never runs out of fuel, never crashes, never panics. *)
From Coq Require Import Lia Bool.
From GV Require Import Base.Util Front.Scan Front.ScanProofs Front.ParseExpr Front.ParseTotal Check.UAst Check.Infer
  Check.InferTotal Front.ParseWf Check.InferFuel Check.InferFuel2 Check.InferFuel4.
From GV Require Lang.Ast.
Local Open Scope N_scope.

Inductive front_result :=
| FOk (A : Ast.program)                 (* accepted: the exported typed program *)
| FScanErrors (es : list scan_error)    (* the scanner's errors *)
| FParseError                           (* the parser's Err (POutside, which the parser model never produces (Front/ParseNoOutside.v), is folded in here) *)
| FTypeError (code : N)                 (* the checker's first TypeError *)
| FOutside                              (* a construct outside the checker model: join, const-sized arrays, non-literal consts *)
| FInternal.                            (* out of fuel / crash / panic: NEVER the answer (front_end_total) *)

Definition front_end (intern : list N -> N) (bytes : list N) (main : list N) : front_result :=
  match scan_text bytes with
  | Ok (STokens ts) =>
      match parse_program_text (length ts + 4) ts with
      | POk up _ =>
          let P := uprogram_of_parsed up main in
          match check_program intern (check_fuel_needed P) P with
          | COk A => FOk A
          | CErr c => if c =? E_Panic then FInternal else FTypeError c
          | COutside => FOutside
          | CNoFuel => FInternal
          end
      | PNoFuel => FInternal
      | PErr | POutside _ => FParseError
      end
  | Ok (SErrors es) => FScanErrors es
  | Crash | OutOfFuel => FInternal
  end.

(* the program the checker is run on, if the text scans and parses *)
Definition parsed_program (bytes : list N) (main : list N) : option uprogram :=
  match scan_text bytes with
  | Ok (STokens ts) =>
      match parse_program_text (length ts + 4) ts with
      | POk up _ => Some (uprogram_of_parsed up main)
      | _ => None
      end
  | _ => None
  end.

(* (1) the scanner never runs out of fuel and never crashes *)
Lemma scan_text_total bytes : exists out, scan_text bytes = Ok out.
Proof. unfold scan_text. apply scan_total_lemma. Qed.

(* (2) the parser never runs out of fuel *)
Lemma parse_total ts : parse_program_text (length ts + 4) ts <> PNoFuel.
Proof. apply parse_program_text_total. lia. Qed.

(* (3) the checker never panics on what the parser produces, whatever the fuel *)
Lemma check_no_panic intern ts f up st main g :
  parse_program_text f ts = POk up st -> check_program intern g (uprogram_of_parsed up main) <> CErr E_Panic.
Proof. apply front_end_never_panics. Qed.

Lemma check_program_nofuel intern f P : check_program intern f P = CNoFuel -> check_program_t intern f P = CNoFuel.
Proof. unfold check_program. destruct (check_program_t intern f P); cbn [cbind]; congruence. Qed.

(* the common part: if the checker's fuel is adequate for the parsed program, the front end is total *)
Lemma front_end_total_gen intern bytes main :
  (forall P, parsed_program bytes main = Some P -> check_program_t intern (check_fuel_needed P) P <> CNoFuel) ->
  front_end intern bytes main <> FInternal.
Proof.
  intro Hfuel. unfold front_end. unfold parsed_program in Hfuel.
  destruct (scan_text_total bytes) as [out Eo]. rewrite Eo in *. destruct out as [ts|es]; [|discriminate].
  pose proof (parse_total ts) as Hp.
  destruct (parse_program_text (length ts + 4) ts) as [up st| | |o] eqn:Ep; try discriminate; [|congruence].
  cbv zeta. specialize (Hfuel _ eq_refl).
  pose proof (check_no_panic intern ts _ up st main (check_fuel_needed (uprogram_of_parsed up main)) Ep) as Hnp.
  destruct (check_program intern _ (uprogram_of_parsed up main)) as [A|c| |] eqn:Ec; try discriminate.
  - destruct (c =? E_Panic) eqn:E; [|discriminate]. apply N.eqb_eq in E. subst c. congruence.
  - exfalso. apply Hfuel. apply check_program_nofuel. exact Ec.
Qed.

(* THE FRONT END IS TOTAL, unconditionally for programs that never run the exhaustiveness oracle (no `match`,
   irrefutable `let` / `for` patterns: the computable test InferFuel4.no_oracle on the parsed program) *)
Theorem front_end_total intern bytes main :
  match parsed_program bytes main with Some P => no_oracle P = true | None => True end ->
  front_end intern bytes main <> FInternal.
Proof.
  intro H. apply front_end_total_gen. intros P EP. rewrite EP in H.
  apply check_terminates_no_oracle; [exact H|apply le_n].
Qed.

(* ... and for ALL programs, provided the exhaustiveness oracle (Exhaust/Useful.v, run with its own fuel bound)
   does not run out of ITS fuel (UsefulProofs.useful_fuel proves that for well-typed patterns) *)
Theorem front_end_total_hex intern bytes main :
  (forall D ps ty, nf (check_exhaustiveness intern D ps ty)) ->
  front_end intern bytes main <> FInternal.
Proof.
  intro Hex. apply front_end_total_gen. intros P _. apply adequacy_program; [exact Hex|apply le_n].
Qed.

(* the result is one of the five answers *)
Corollary front_end_five intern bytes main :
  match parsed_program bytes main with Some P => no_oracle P = true | None => True end ->
  (exists A, front_end intern bytes main = FOk A) \/ (exists es, front_end intern bytes main = FScanErrors es) \/
  front_end intern bytes main = FParseError \/ (exists c, front_end intern bytes main = FTypeError c /\ c <> E_Panic) \/
  front_end intern bytes main = FOutside.
Proof.
  intro H. pose proof (front_end_total intern bytes main H) as Ht.
  destruct (front_end intern bytes main) as [A|es| |c| |] eqn:E; try (exfalso; apply Ht; reflexivity); eauto 6.
  right. right. right. left. exists c. split; [reflexivity|]. intro Hc. subst c.
  unfold front_end in E. destruct (scan_text bytes) as [[ts|es]| |]; try discriminate E.
  destruct (parse_program_text (length ts + 4) ts) as [up st| | |]; try discriminate E. cbv zeta in E.
  destruct (check_program intern _ _) as [A|c| |]; try discriminate E.
  destruct (c =? E_Panic) eqn:Ec; [discriminate E|]. injection E as ->. rewrite N.eqb_refl in Ec. discriminate Ec.
Qed.

Print Assumptions front_end_total.
Print Assumptions front_end_total_hex.
Print Assumptions front_end_five.

(* non-vacuity (vm_compute): the five answers from texts *)
From Coq Require Import String.
From GV Require Check.InferExamples.
Module FrontEndExamples.
Local Open Scope string_scope.
Definition kind (r : front_result) : N :=
  match r with FOk _ => 0 | FScanErrors _ => 1 | FParseError => 2 | FTypeError c => 100 + c | FOutside => 3 | FInternal => 4 end.
Definition run (txt : string) : N := kind (front_end InferExamples.ex_intern (codes txt) (codes "main")).
Example answers :
  map run [ "pub fn main(x: u8) -> u8 { let a = [x, 1]; a[0] + 1 }";
            "pub fn main(x: u8) -> u8 { x # 1 }";
            "pub fn main(x: u8) -> u8 { let a = []; x }";
            "pub fn main(x: u8) -> bool { x }";
            "pub fn main(x: [u8; 2]) -> u8 { for i in join(x, x) { } x[0] }" ]
  = [0; 1; 2; 100 + E_UnexpectedType; 3].
Proof. vm_compute. reflexivity. Qed.
End FrontEndExamples.
