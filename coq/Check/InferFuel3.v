(* C07 for the type checker, part 3: discharging the hypothesis about the exhaustiveness oracle.
   The patterns the checker hands to check_exhaustiveness come out of check_pattern at the scrutinee
   type: they are well typed in the sense of Exhaust/Pat.v ([pat_link]); the translated definitions
   are well formed ([pat_tyenv_wf]); hence UsefulProofs.useful_fuel applies as soon as the scrutinee
   type unfolds within the depth 64 the model gives the oracle ([exh_nf]). *)
From Coq Require Import Lia Bool.
From GV Require Import Base.Util Front.Scan Front.ParseExpr Check.UAst Check.Infer Check.InferProofs
  Check.InferTotal Check.InferFuel Check.InferAdequacy Check.InferFuel2.
From GV Require Exhaust.Pat Exhaust.Useful Exhaust.UsefulProofs.
Local Open Scope N_scope.

Section Link.
Variable intern : list N -> N.
Hypothesis intern_inj : forall a b, intern a = intern b -> a = b.

(* omap of a function that interns the key: lookups correspond *)
Lemma omap_assocN {A B} (g : list N * A -> option (N * B)) :
  (forall x y, g x = Some y -> fst y = intern (fst x)) ->
  forall l l', omap g l = Some l' -> forall k v, assocL k l = Some v ->
  exists y, g (k, v) = Some y /\ Pat.assocN (intern k) l' = Some (snd y).
Proof.
  intros Hg. induction l as [|[k0 v0] l IH]; intros l' H k v Ha; [discriminate|].
  cbn [omap] in H. destruct (g (k0, v0)) as [y0|] eqn:Eg; [|discriminate].
  destruct (omap g l) as [r|] eqn:Er; [|discriminate]. inversion H; subst; clear H.
  cbn [assocL] in Ha. destruct y0 as [n0 b0]. pose proof (Hg _ _ Eg) as Hn. cbn [fst] in Hn. subst n0.
  cbn [Pat.assocN]. rewrite (intern_eqb intern intern_inj). destruct (list_eqb k k0) eqn:E.
  - inversion Ha; subst. apply list_eqb_eq in E. subst. exists (intern k0, b0). auto.
  - apply (IH _ eq_refl _ _ Ha).
Qed.

Lemma omap_keys {A B} (g : list N * A -> option (N * B)) :
  (forall x y, g x = Some y -> fst y = intern (fst x)) ->
  forall l l', omap g l = Some l' -> map fst l' = map intern (map fst l).
Proof.
  intros Hg. induction l as [|x l IH]; intros l' H; cbn [omap] in H; [inversion H; reflexivity|].
  destruct (g x) as [y|] eqn:Eg; [|discriminate]. destruct (omap g l) as [r|] eqn:Er; [|discriminate].
  inversion H; subst. cbn [map]. rewrite (Hg _ _ Eg), (IH _ eq_refl). reflexivity.
Qed.

Lemma nodupN_intern (l : list (list N)) : NoDup l -> Pat.nodupN (map intern l) = true.
Proof.
  induction 1 as [|x l Hn Hnd IH]; [reflexivity|]. cbn [map Pat.nodupN]. rewrite IH, andb_true_r.
  apply negb_true_iff. unfold Pat.memN. destruct (existsb (N.eqb (intern x)) (map intern l)) eqn:E; [|reflexivity].
  apply existsb_exists in E. destruct E as [y [Hy Heq]]. apply N.eqb_eq in Heq. apply in_map_iff in Hy.
  destruct Hy as [z [<- Hz]]. apply intern_inj in Heq. subst. contradiction.
Qed.

(* a number / range bound that check_pattern accepts lies in the integer type of the translation *)
Lemma range_in_int z ty u1 u2 sg w :
  expect_num_type ty = COk u1 -> expect_pattern_num_in_range z ty = COk u2 ->
  pat_ty intern ty = Some (Pat.TInt sg w) -> Pat.in_int sg w z = true.
Proof.
  intros H1 H2 Ht. destruct ty as [|u|s| | | |]; try discriminate H1; cbn [pat_ty] in Ht; inversion Ht; subst; clear Ht;
    cbn [expect_pattern_num_in_range] in H2;
    (match type of H2 with (if ?c then _ else _) = _ => destruct c eqn:Ec; [discriminate|] end);
    apply orb_false_iff in Ec; destruct Ec as [E1 E2]; apply Z.ltb_ge in E1; apply Z.ltb_ge in E2;
    unfold Pat.in_int, Pat.int_lo, Pat.int_hi; apply andb_true_iff.
  - destruct u; cbn [unsigned_max ubits] in *; unfold u32_max in *.
    + change (2 ^ Z.of_N 32)%Z with 4294967296%Z. split; apply Z.leb_le; lia.
    + change (2 ^ Z.of_N 8)%Z with 256%Z. split; apply Z.leb_le; lia.
    + change (2 ^ Z.of_N 16)%Z with 65536%Z. split; apply Z.leb_le; lia.
    + change (2 ^ Z.of_N 32)%Z with 4294967296%Z. split; apply Z.leb_le; lia.
    + change (2 ^ Z.of_N 64)%Z with 18446744073709551616%Z. split; apply Z.leb_le; lia.
    + change (2 ^ Z.of_N 32)%Z with 4294967296%Z. split; apply Z.leb_le; lia.
  - destruct s; cbn [signed_min signed_max sbits] in *.
    + change (2 ^ (Z.of_N 8 - 1))%Z with 128%Z. split; apply Z.leb_le; lia.
    + change (2 ^ (Z.of_N 16 - 1))%Z with 32768%Z. split; apply Z.leb_le; lia.
    + change (2 ^ (Z.of_N 32 - 1))%Z with 2147483648%Z. split; apply Z.leb_le; lia.
    + change (2 ^ (Z.of_N 64 - 1))%Z with 9223372036854775808%Z. split; apply Z.leb_le; lia.
    + change (2 ^ (Z.of_N 32 - 1))%Z with 2147483648%Z. split; apply Z.leb_le; lia.
Qed.

(* ------------------------------------------------------------------ the translated definitions *)

Variable D : defs.
Variable env : Pat.tyenv.
Hypothesis Henv : pat_tyenv intern D = Some env.

Notation gF := (fun ft : list N * cty => match pat_ty intern (snd ft) with Some t => Some (intern (fst ft), t) | None => None end).
Notation gV := (fun v : list N * option (list cty) =>
                  match snd v with
                  | None => Some (intern (fst v), None)
                  | Some ts => match omap (pat_ty intern) ts with Some l => Some (intern (fst v), Some l) | None => None end
                  end).

Lemma env_parts :
  omap (fun sd : list N * list (list N * cty) => match omap gF (snd sd) with Some fs => Some (intern (fst sd), fs) | None => None end)
       (d_structs D) = Some (Pat.structs env) /\
  omap (fun ed : list N * list (list N * option (list cty)) => match omap gV (snd ed) with Some vs => Some (intern (fst ed), vs) | None => None end)
       (d_enums D) = Some (Pat.enums env).
Proof.
  unfold pat_tyenv in Henv.
  destruct (omap _ (d_structs D)) as [ss|]; [|discriminate]. destruct (omap _ (d_enums D)) as [es|]; [|discriminate].
  inversion Henv. split; reflexivity.
Qed.

Lemma struct_lookup n def : assocL n (d_structs D) = Some def ->
  exists fts, Pat.assocN (intern n) (Pat.structs env) = Some fts /\ omap gF def = Some fts.
Proof.
  intro Ha. pose proof (proj1 env_parts) as Hp.
  match type of Hp with omap ?g _ = _ =>
    assert (Hg : forall x y, g x = Some y -> fst y = intern (fst x))
      by (intros x y H; cbn [snd fst] in H; destruct (omap gF (snd x)); inversion H; reflexivity) end.
  destruct (omap_assocN _ Hg _ _ Hp _ _ Ha) as [y [Hy Hl]].
  cbn [snd fst] in Hy. destruct (omap gF def) as [fs|] eqn:Ef; [|discriminate]. inversion Hy; subst. exists fs. auto.
Qed.

Lemma enum_lookup n vs : assocL n (d_enums D) = Some vs ->
  exists variants, Pat.assocN (intern n) (Pat.enums env) = Some variants /\ omap gV vs = Some variants.
Proof.
  intro Ha. pose proof (proj2 env_parts) as Hp.
  match type of Hp with omap ?g _ = _ =>
    assert (Hg : forall x y, g x = Some y -> fst y = intern (fst x))
      by (intros x y H; cbn [snd fst] in H; destruct (omap gV (snd x)); inversion H; reflexivity) end.
  destruct (omap_assocN _ Hg _ _ Hp _ _ Ha) as [y [Hy Hl]].
  cbn [snd fst] in Hy. destruct (omap gV vs) as [l|] eqn:Ef; [|discriminate]. inversion Hy; subst. exists l. auto.
Qed.

Lemma field_lookup def fts f cty : omap gF def = Some fts -> assocL f def = Some cty ->
  exists t, pat_ty intern cty = Some t /\ Pat.assocN (intern f) fts = Some t.
Proof.
  intros Ho Ha.
  assert (Hg : forall x y, gF x = Some y -> fst y = intern (fst x))
    by (intros x y H; cbn [snd fst] in H; destruct (pat_ty intern (snd x)); inversion H; reflexivity).
  destruct (omap_assocN gF Hg _ _ Ho _ _ Ha) as [y [Hy Hl]].
  cbn [snd fst] in Hy. destruct (pat_ty intern cty) as [t|]; [|discriminate]. inversion Hy; subst. exists t. auto.
Qed.

Lemma variant_lookup vs variants v payload : omap gV vs = Some variants -> assocL v vs = Some payload ->
  match payload with
  | None => Pat.assocN (intern v) variants = Some None
  | Some ts => exists l, omap (pat_ty intern) ts = Some l /\ Pat.assocN (intern v) variants = Some (Some l)
  end.
Proof.
  intros Ho Ha.
  assert (Hg : forall x y, gV x = Some y -> fst y = intern (fst x))
    by (intros x y H; cbn [snd fst] in H; destruct (snd x) as [ts0|];
        [destruct (omap (pat_ty intern) ts0); inversion H; reflexivity|inversion H; reflexivity]).
  destruct (omap_assocN gV Hg _ _ Ho _ _ Ha) as [y [Hy Hl]].
  cbn [snd fst] in Hy. destruct payload as [ts|].
  - destruct (omap (pat_ty intern) ts) as [l|]; [|discriminate]. inversion Hy; subst. exists l. auto.
  - inversion Hy; subst. exact Hl.
Qed.

Lemma pat_ty_tuple ts : pat_ty intern (CTuple ts) =
  match omap (pat_ty intern) ts with Some l => Some (Pat.TTuple l) | None => None end.
Proof.
  cbn [pat_ty].
  assert (E : (fix go (l : list cty) : option (list Pat.ty) :=
                 match l with
                 | [] => Some []
                 | x :: r => match pat_ty intern x, go r with Some a, Some b => Some (a :: b) | _, _ => None end
                 end) ts = omap (pat_ty intern) ts).
  { induction ts as [|x r IH]; [reflexivity|]. cbn [omap]. rewrite IH. reflexivity. }
  rewrite E. reflexivity.
Qed.

(* ------------------------------------------------------------------ check_pattern produces well-typed patterns *)

Definition link_ok (p : upattern) : Prop := forall g ty tp g' t,
  check_pattern D g p ty = COk (tp, g') -> pat_ty intern ty = Some t -> Pat.pat_wt env t (pat_of intern tp) = true.

Lemma fields_loop_link fs : Forall link_ok fs ->
  forall ts l g r g', length fs = length ts -> omap (pat_ty intern) ts = Some l ->
    (fix go (fs : list upattern) (ts : list cty) (g : cenv) : cres (list tpattern * cenv) :=
       match fs, ts with
       | fp :: fr, t :: tr =>
           do r1 <- check_pattern D g fp t; do r2 <- go fr tr (snd r1); COk (fst r1 :: fst r2, snd r2)
       | _, _ => COk ([], g)
       end) fs ts g = COk (r, g') ->
  Pat.forall2b (fun p' t' => Pat.pat_wt env t' p') (map (pat_of intern) r) l = true.
Proof.
  induction 1 as [|q fs Hq Hfs IH]; intros ts l g r g' Hlen Ho H.
  - destruct ts; [|discriminate]. inversion H; subst. cbn in Ho. inversion Ho. reflexivity.
  - destruct ts as [|t ts]; [discriminate|]. cbn [omap] in Ho.
    destruct (pat_ty intern t) as [t1|] eqn:Et; [|discriminate]. destruct (omap (pat_ty intern) ts) as [l2|] eqn:El; [|discriminate].
    inversion Ho; subst; clear Ho.
    apply cbind_ok in H. destruct H as [[p1 g1] [H1 H]]. apply cbind_ok in H. destruct H as [[r2 g2] [H2 H]].
    cbn [fst snd] in *. inversion H; subst; clear H.
    cbn [map Pat.forall2b]. rewrite (Hq _ _ _ _ _ H1 Et). cbn [andb].
    apply (IH ts l2 g1 r2 g'); [cbn [length] in Hlen; congruence|exact El|exact H2].
Qed.

Lemma lenN_eq {A B} (a : list A) (b : list B) : negb (lenN a =? lenN b) = false -> length a = length b.
Proof. intro H. apply negb_false_iff in H. apply N.eqb_eq in H. unfold lenN in H. apply Nat2N.inj in H. exact H. Qed.

Lemma struct_loop_link sd fts fs : Forall (fun f : list N * upattern => link_ok (snd f)) fs ->
  omap gF sd = Some fts ->
  forall seen g r g',
    (fix go (seen : list (list N)) (fs : list (list N * upattern)) (g : cenv)
       : cres (list (list N * tpattern) * cenv) :=
       match fs with
       | [] => COk ([], g)
       | (field_name, field_value) :: fr =>
           if memL field_name seen then CErr E_PatternDoesNotMatchType else
           match assocL field_name sd with
           | Some field_type =>
               do r1 <- check_pattern D g field_value field_type;
               do r2 <- go (field_name :: seen) fr (snd r1);
               COk ((field_name, fst r1) :: fst r2, snd r2)
           | None => CErr E_UnknownStructField
           end
       end) seen fs g = COk (r, g') ->
  forallb (fun fp : N * Pat.pattern => let '(f, p') := fp in
             match Pat.assocN f fts with Some t' => Pat.pat_wt env t' p' | None => false end)
          (map (fun f : list N * tpattern => (intern (fst f), pat_of intern (snd f))) r) = true /\
  NoDup (map fst r) /\ (forall x, In x seen -> ~ In x (map fst r)).
Proof.
  intros HF Ho. induction HF as [|[fname fp] fs Hq Hfs IH]; intros seen g r g' H.
  - inversion H; subst. cbn. repeat split; [constructor|auto].
  - destruct (memL fname seen) eqn:Em; [discriminate|]. destruct (assocL fname sd) as [ft|] eqn:Ea; [|discriminate].
    apply cbind_ok in H. destruct H as [[p1 g1] [H1 H]]. apply cbind_ok in H. destruct H as [[r2 g2] [H2 H]].
    cbn [fst snd] in *. inversion H; subst; clear H.
    destruct (field_lookup _ _ _ _ Ho Ea) as [t [Ht Hl]].
    destruct (IH _ _ _ _ H2) as [Hfb [Hnd Hseen]].
    cbn [map forallb fst snd]. rewrite Hl, (Hq _ _ _ _ _ H1 Ht), Hfb. split; [reflexivity|]. split.
    + constructor; [apply Hseen; left; reflexivity|exact Hnd].
    + intros x Hx [Heq|Hin]; [subst x; unfold memL in Em; rewrite <- not_true_iff_false in Em; apply Em;
                               apply existsb_exists; exists fname; split; [exact Hx|apply list_eqb_refl]
                              |exact (Hseen x (or_intror Hx) Hin)].
Qed.

Theorem pat_link : forall p, link_ok p.
Proof.
  induction p using upattern_ind'; intros g ty tp g' pt HH Ht; cbn [check_pattern] in HH.
  - (* identifier *) inversion HH; subst. reflexivity.
  - destruct ty; try discriminate HH. inversion HH; subst. cbn in Ht. inversion Ht. reflexivity.
  - destruct ty; try discriminate HH. inversion HH; subst. cbn in Ht. inversion Ht. reflexivity.
  - (* unsigned number *)
    apply cbind_ok in HH. destruct HH as [u1 [H1 HH]]. apply cbind_ok in HH. destruct HH as [u2 [H2 HH]]. inversion HH; subst.
    cbn [pat_of Pat.pat_wt]. destruct ty; try discriminate H1; cbn in Ht; inversion Ht; subst; cbn [implb];
      (eapply range_in_int; [exact H1|exact H2|reflexivity]).
  - (* signed number *)
    apply cbind_ok in HH. destruct HH as [u1 [H1 HH]]. apply cbind_ok in HH. destruct HH as [u2 [H2 HH]]. inversion HH; subst.
    cbn [pat_of Pat.pat_wt]. destruct ty; try discriminate H1. cbn in Ht. inversion Ht; subst. cbn [implb andb].
    match goal with H2 : expect_pattern_num_in_range _ (CSigned ?ts) = _ |- _ => eapply (range_in_int _ (CSigned ts) tt); [reflexivity|exact H2|reflexivity] end.
  - (* tuple *)
    apply cbind_ok in HH. destruct HH as [fts [Hft HH]]. destruct ty; try discriminate Hft. cbn in Hft. inversion Hft; subst; clear Hft.
    destruct (negb (lenN fts =? lenN ps)) eqn:El; [discriminate|]. apply lenN_eq in El.
    apply cbind_ok in HH. destruct HH as [[r g2] [Hl HH]]. cbn [fst snd] in HH. inversion HH; subst; clear HH.
    rewrite pat_ty_tuple in Ht. destruct (omap (pat_ty intern) fts) as [l|] eqn:Eo; [|discriminate]. inversion Ht; subst.
    cbn [pat_of Pat.pat_wt]. eapply fields_loop_link; [exact H|symmetry; exact El|exact Eo|exact Hl].
  - (* struct *)
    apply cbind_ok in HH. destruct HH as [sname [Hsn HH]]. destruct ty as [| | | | |sn0|]; try discriminate Hsn. cbn in Hsn.
    assert (sn0 = sname) by congruence. subst sn0. clear Hsn.
    destruct (negb (list_eqb sname n)) eqn:Ene; [discriminate|]. apply negb_false_iff in Ene. apply list_eqb_eq in Ene. subst sname.
    destruct (assocL n (d_structs D)) as [sd|] eqn:Esd; [|discriminate].
    apply cbind_ok in HH. destruct HH as [[r g2] [Hl HH]]. cbn [fst snd] in HH.
    match type of HH with (if ?c then _ else _) = _ => destruct c; [discriminate|] end. inversion HH; subst; clear HH.
    cbn in Ht. inversion Ht; subst. destruct (struct_lookup _ _ Esd) as [fts [Hfts Ho]].
    destruct (struct_loop_link sd fts fs H Ho _ _ _ _ Hl) as [Hfb [Hnd _]].
    cbn [pat_of Pat.pat_wt]. rewrite N.eqb_refl, Hfts. cbn [andb]. rewrite Hfb. cbn [andb orb]. rewrite andb_true_r.
    rewrite map_map. cbn [fst]. rewrite <- (map_map fst intern). apply nodupN_intern. exact Hnd.
  - (* struct, `..` *)
    apply cbind_ok in HH. destruct HH as [sname [Hsn HH]]. destruct ty as [| | | | |sn0|]; try discriminate Hsn. cbn in Hsn.
    assert (sn0 = sname) by congruence. subst sn0. clear Hsn.
    destruct (negb (list_eqb sname n)) eqn:Ene; [discriminate|]. apply negb_false_iff in Ene. apply list_eqb_eq in Ene. subst sname.
    destruct (assocL n (d_structs D)) as [sd|] eqn:Esd; [|discriminate].
    apply cbind_ok in HH. destruct HH as [[r g2] [Hl HH]]. cbn [fst snd] in HH.
    match type of HH with (if ?c then _ else _) = _ => destruct c; [discriminate|] end. inversion HH; subst; clear HH.
    cbn in Ht. inversion Ht; subst. destruct (struct_lookup _ _ Esd) as [fts [Hfts Ho]].
    destruct (struct_loop_link sd fts fs H Ho _ _ _ _ Hl) as [Hfb [Hnd _]].
    cbn [pat_of Pat.pat_wt]. rewrite N.eqb_refl, Hfts. cbn [andb]. rewrite Hfb. cbn [andb orb]. rewrite andb_true_r.
    rewrite map_map. cbn [fst]. rewrite <- (map_map fst intern). apply nodupN_intern. exact Hnd.
  - (* enum unit *)
    destruct ty as [| | | | | |en0]; try discriminate HH.
    destruct (negb (list_eqb en0 e)) eqn:Ene; [discriminate|]. apply negb_false_iff in Ene. apply list_eqb_eq in Ene. subst en0.
    destruct (assocL e (d_enums D)) as [ed|] eqn:Eed; [|discriminate].
    destruct (assocL v ed) as [[pts|]|] eqn:Ev; try discriminate HH. inversion HH; subst.
    cbn in Ht. inversion Ht; subst. destruct (enum_lookup _ _ Eed) as [variants [Hvs Ho]].
    pose proof (variant_lookup _ _ _ _ Ho Ev) as Hv. cbn [pat_of Pat.pat_wt]. rewrite N.eqb_refl, Hvs, Hv. reflexivity.
  - (* enum tuple *)
    destruct ty as [| | | | | |en0]; try discriminate HH.
    destruct (negb (list_eqb en0 e)) eqn:Ene; [discriminate|]. apply negb_false_iff in Ene. apply list_eqb_eq in Ene. subst en0.
    destruct (assocL e (d_enums D)) as [ed|] eqn:Eed; [|discriminate].
    destruct (assocL v ed) as [[pts|]|] eqn:Ev; try discriminate HH.
    destruct (negb (lenN pts =? lenN ps)) eqn:El; [discriminate|]. apply lenN_eq in El.
    apply cbind_ok in HH. destruct HH as [[r g2] [Hl HH]]. cbn [fst snd] in HH. inversion HH; subst; clear HH.
    cbn in Ht. inversion Ht; subst. destruct (enum_lookup _ _ Eed) as [variants [Hvs Ho]].
    destruct (variant_lookup _ _ _ _ Ho Ev) as [l [Hol Hv]].
    cbn [pat_of Pat.pat_wt]. rewrite N.eqb_refl, Hvs, Hv. cbn [andb].
    eapply fields_loop_link; [exact H|symmetry; exact El|exact Hol|exact Hl].
  - (* unsigned range *)
    apply cbind_ok in HH. destruct HH as [u1 [H1 HH]]. apply cbind_ok in HH. destruct HH as [u2 [H2 HH]].
    apply cbind_ok in HH. destruct HH as [u3 [H3 HH]]. inversion HH; subst.
    cbn [pat_of Pat.pat_wt]. destruct ty; try discriminate H1; cbn in Ht; inversion Ht; subst; cbn [implb andb];
      (rewrite (range_in_int _ _ _ _ _ _ H1 H2 eq_refl), (range_in_int _ _ _ _ _ _ H1 H3 eq_refl); reflexivity).
  - (* signed range *)
    apply cbind_ok in HH. destruct HH as [u1 [H1 HH]]. apply cbind_ok in HH. destruct HH as [u2 [H2 HH]].
    apply cbind_ok in HH. destruct HH as [u3 [H3 HH]]. inversion HH; subst.
    cbn [pat_of Pat.pat_wt]. destruct ty; try discriminate H1. cbn in Ht. inversion Ht; subst. cbn [implb andb].
    match goal with H2 : expect_pattern_num_in_range _ (CSigned ?ts) = _ |- _ =>
      rewrite (range_in_int _ (CSigned ts) tt _ _ _ eq_refl H2 eq_refl), (range_in_int _ (CSigned ts) tt _ _ _ eq_refl H3 eq_refl) end. reflexivity.
Qed.

End Link.

(* ------------------------------------------------------------------ the oracle has enough fuel *)

Section Oracle.
Variable intern : list N -> N.
Hypothesis intern_inj : forall a b, intern a = intern b -> a = b.

Lemma omap_In {A B} (g : A -> option B) : forall l l' y, omap g l = Some l' -> In y l' -> exists x, In x l /\ g x = Some y.
Proof.
  induction l as [|a l IH]; intros l' y H Hy; cbn [omap] in H; [inversion H; subst; destruct Hy|].
  destruct (g a) as [b|] eqn:Eg; [|discriminate]. destruct (omap g l) as [r|] eqn:Er; [|discriminate]. inversion H; subst.
  destruct Hy as [<-|Hy]; [exists a; split; [left; reflexivity|exact Eg]|].
  destruct (IH _ _ eq_refl Hy) as [x [Hin Hg]]. exists x. split; [right; exact Hin|exact Hg].
Qed.

(* the definitions of D have pairwise distinct field / variant names *)
Definition defs_nodup (D : defs) : Prop :=
  (forall sd, In sd (d_structs D) -> NoDup (map fst (snd sd))) /\
  (forall ed, In ed (d_enums D) -> NoDup (map fst (snd ed))).

Lemma pat_tyenv_wf D env : defs_nodup D -> pat_tyenv intern D = Some env -> UsefulProofs.env_wf env = true.
Proof.
  intros [Hs He] Henv. destruct (env_parts intern D env Henv) as [Hps Hpe].
  unfold UsefulProofs.env_wf, Covers.env_ok. apply andb_true_iff. split; apply forallb_forall.
  - intros [n vs] Hin. destruct (omap_In _ _ _ _ Hpe Hin) as [[n0 vs0] [Hin0 Hg]]. cbn [fst snd] in Hg.
    destruct (omap _ vs0) as [l|] eqn:Eo; [|discriminate]. inversion Hg; subst. cbn [snd].
    match type of Eo with omap ?g _ = _ =>
      assert (Hg0 : forall x y, g x = Some y -> fst y = intern (fst x))
        by (intros x y H; cbn [snd fst] in H; destruct (snd x) as [ts0|];
            [destruct (omap (pat_ty intern) ts0); inversion H; reflexivity|inversion H; reflexivity]) end.
    rewrite (omap_keys intern _ Hg0 _ _ Eo).
    apply (nodupN_intern intern intern_inj). apply (He _ Hin0).
  - intros [n fs] Hin. destruct (omap_In _ _ _ _ Hps Hin) as [[n0 def] [Hin0 Hg]]. cbn [fst snd] in Hg.
    destruct (omap _ def) as [l|] eqn:Eo; [|discriminate]. inversion Hg; subst. cbn [snd].
    match type of Eo with omap ?g _ = _ =>
      assert (Hg0 : forall x y, g x = Some y -> fst y = intern (fst x))
        by (intros x y H; cbn [snd fst] in H; destruct (pat_ty intern (snd x)); inversion H; reflexivity) end.
    rewrite (omap_keys intern _ Hg0 _ _ Eo).
    apply (nodupN_intern intern intern_inj). apply (Hs _ Hin0).
Qed.

(* the scrutinee type unfolds within the depth the model gives the oracle *)
Definition tok_ok (D : defs) (ty : cty) : Prop :=
  forall env t, pat_tyenv intern D = Some env -> pat_ty intern ty = Some t -> UsefulProofs.tok env 64 t = true.

(* every pattern was produced by check_pattern at the type *)
Definition from_check (D : defs) (ty : cty) (tp : tpattern) : Prop :=
  exists g p g', check_pattern D g p ty = COk (tp, g').

Theorem exh_nf D ps ty : defs_nodup D -> tok_ok D ty -> Forall (from_check D ty) ps ->
  nf (check_exhaustiveness intern D ps ty).
Proof.
  intros Hnd Htok Hps.
  assert (Hmain : match pat_tyenv intern D, pat_ty intern ty with
                  | Some env, Some t =>
                      match Useful.check_exhaustive (Useful.fuel_bound env 64 [t]) env t (map (pat_of intern) ps) with
                      | Some [] => COk tt
                      | Some _ => CErr E_PatternsAreNotExhaustive
                      | None => CNoFuel
                      end
                  | _, _ => COutside
                  end <> CNoFuel).
  { destruct (pat_tyenv intern D) as [env|] eqn:Ee; [|discriminate]. destruct (pat_ty intern ty) as [t|] eqn:Et; [|discriminate].
    pose proof (UsefulProofs.useful_fuel env 64 (pat_tyenv_wf D env Hnd Ee) (Useful.fuel_bound env 64 [t]) [t]
                  (map (fun p => [p]) (map (pat_of intern) ps)) [Useful.wild]) as Hu.
    unfold Useful.check_exhaustive.
    destruct (Useful.useful _ env [t] _ [Useful.wild]) as [[|w ws]|] eqn:Eu; try discriminate.
    exfalso.
    assert (H1 : Forall (fun t0 : Pat.ty => UsefulProofs.tok env 64 t0 = true) [t])
      by (apply Forall_cons; [apply (Htok env t Ee Et)|apply Forall_nil]).
    assert (H2 : Forall (fun r : list Pat.pattern => UsefulProofs.swt env [t] r = true)
                   (map (fun p : Pat.pattern => [p]) (map (pat_of intern) ps))).
    { apply Forall_forall. intros r Hr. apply in_map_iff in Hr. destruct Hr as [p [<- Hp]].
      apply in_map_iff in Hp. destruct Hp as [tp [<- Htp]]. rewrite Forall_forall in Hps.
      destruct (Hps _ Htp) as [g [up [g' Hc]]].
      unfold UsefulProofs.swt. cbn. rewrite (pat_link intern intern_inj D env Ee up g ty tp g' t Hc Et). reflexivity. }
    exact (Hu H1 H2 eq_refl (le_n _) eq_refl). }
  unfold check_exhaustiveness.
  assert (Hnf : forall r : cres unit, r <> CNoFuel -> nf r) by (intros [] H; try reflexivity; [apply andb_false_r|contradiction]).
  destruct ps as [|p [|p2 ps']]; try (apply Hnf; exact Hmain).
  destruct (irrefutable p); [reflexivity|apply Hnf; exact Hmain].
Qed.

End Oracle.

Local Open Scope nat_scope.

(* the oracle is only asked about pattern lists that came out of check_pattern at the type *)
Theorem adequacy_all3 intern D
  (Hex2 : forall ps ty, Forall (from_check D ty) ps -> nf (check_exhaustiveness intern D ps ty)) :
  forall f, GoalE intern D f /\ GoalSS intern D f /\ GoalB intern D f /\ GoalS intern D f /\ GoalF intern D f.
Proof. exact (adequacy_whole intern D Hex2). Qed.

(* ================================================================ whole programs *)

Section Terminates.
Variable intern : list N -> N.
Hypothesis intern_inj : forall a b, intern a = intern b -> a = b.

Theorem check_terminates_depth P fuel :
  (forall D ty ps, d_fns D = up_fns P -> Forall (from_check D ty) ps -> tok_ok intern D ty) ->
  check_fuel_needed P <= fuel -> check_program_t intern fuel P <> CNoFuel.
Proof.
  intros Hdepth Hfuel. apply check_program_t_nf; [exact Hfuel|]. intros consts structs enums _ Es Ee Hf.
  match goal with |- context [pub_loop_fn intern fuel ?D0] => set (D := D0) end.
  assert (Hnd : defs_nodup D).
  { split; cbn [D d_structs d_enums].
    - intros sd Hin. destruct (mapM_In _ _ _ _ Es Hin) as [usd [_ Hc]]. exact (struct_def_nodup _ _ _ _ Hc).
    - intros ed Hin. destruct (mapM_In _ _ _ _ Ee Hin) as [ued [_ Hc]]. exact (enum_def_nodup _ _ _ _ Hc). }
  apply (pub_loop_adequate intern D fuel); [|exact Hf|reflexivity]. apply adequacy_all3.
  intros ps0 ty0 Hfc. apply (exh_nf intern intern_inj D ps0 ty0 Hnd); [|exact Hfc]. exact (Hdepth D ty0 ps0 eq_refl Hfc).
Qed.

End Terminates.

Print Assumptions pat_link.
Print Assumptions exh_nf.
Print Assumptions adequacy_all3.
Print Assumptions check_terminates_depth.
