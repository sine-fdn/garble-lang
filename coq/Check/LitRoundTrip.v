(* PRINT AND PARSE BACK (the first clause of C09): the model of `impl Display for Literal`
   (src/literal.rs) composed with the model of `Literal::parse` (Check/LitParse.v).

   [lit_tokens unintern l]   the tokens of the printed literal (numbers WITHOUT suffix, a negative
                             number is ONE signed token, `(x,)` for a one-element tuple,
                             `[elem; size]`, `Name {f: v, g: w}`, `E::V`, `E::V(a, b)`, ranges WITH
                             the suffix on both bounds: `{min}{num_ty}..{max}{num_ty}`)
   [lit_text unintern l]     the printed TEXT (bytes), for the examples through the scanner
   A. [parse_back]         for EVERY literal form (structs and enums included; side conditions
                             [pok]: no empty array literal, struct / enum names are not `true` /
                             `false`): parse_literal_text (default fuel) of the printed tokens is
                             the expected untyped literal [ulit l] (struct fields sorted by name).
   B. [roundtrip]            rt_ok intern unintern D l T = true ->
                             literal_parse_tokens intern D T (lit_tokens unintern l) = COk l
                             for the class [rt_ok] = EVERY literal form: bool, all integer types,
                             tuples, arrays (non-empty; elements all numbers, or all of the same
                             sign shape [pt]), repeat arrays, ranges (non-empty, at most u32::MAX
                             elements), struct values (fields exactly those of the definition, in
                             its order, which is name order: [names_ok]) and enum values, nested;
                             names: [name_ok] (unintern gives the byte string of the definition,
                             intern gives the number back), not `true` / `false`.
   C. [RoundTripExamples]    through the TEXT (scan_text of the printed string) with the LitExamples
                             program, every literal form; and the literals that are of their type
                             and do NOT come back ([mixed_sign_elements_refuted], [empty_array_refuted],
                             [empty_range_refuted], [full_range_refuted], [long_range_refuted]). *)
From Coq Require Import ZArith List String Lia.
Import ListNotations.
From GV Require Import Base.Util Front.Scan Front.ParseExpr Front.ParseTotal Check.UAst Check.Infer Check.InferProofs Check.LitParse
  Check.LitParseProofs.
From GV Require Lang.Types Lang.Literal Lang.LiteralProofs Front.ParseExprProofs.
Local Open Scope N_scope.

(* ------------------------------------------------------------------ Display *)

Definition m0 : meta := Meta (0, 0) (0, 0).
Definition tk (t : token_enum) : token := Token t m0.

Definition unum_of (u : LT.uty) : unsigned_num_type :=
  match u with
  | LT.Usize => Usize | LT.U8 => U8 | LT.U16 => U16 | LT.U32 => U32 | LT.U64 => U64 | LT.UUnspec => UnspecifiedU
  end.

Section Display.
  Variable unintern : N -> list N.

  (* `{n}` of an i64: the scanner reads `-digits` as one SignedNum token *)
  Definition signed_token (z : Z) : token_enum :=
    if (z <? 0)%Z then TSignedNum z UnspecifiedS else TUnsignedNum (Z.to_N z) UnspecifiedU.

  Fixpoint lit_tokens (l : LL.lit) : list token :=
    match l with
    | LL.LTrue => [tk (Scan.TIdentifier s_true)]
    | LL.LFalse => [tk (Scan.TIdentifier s_false)]
    | LL.LUnsigned n _ => [tk (TUnsignedNum n UnspecifiedU)]
    | LL.LSigned z _ => [tk (signed_token z)]
    | LL.LRepeat e n =>
        tk TLeftBracket :: lit_tokens e ++ [tk TSemicolon; tk (TUnsignedNum n UnspecifiedU); tk TRightBracket]
    | LL.LArray es =>
        tk TLeftBracket ::
        match es with
        | LL.LsNil => []
        | LL.LsCons e r => lit_tokens e ++ more_tokens r
        end ++ [tk TRightBracket]
    | LL.LTuple es =>
        tk TLeftParen ::
        match es with
        | LL.LsNil => []
        | LL.LsCons e LL.LsNil => lit_tokens e ++ [tk TComma]          (* `(x,)` *)
        | LL.LsCons e r => lit_tokens e ++ more_tokens r
        end ++ [tk TRightParen]
    | LL.LStruct name fs =>
        tk (Scan.TIdentifier (unintern name)) :: tk TLeftBrace ::
        match fs with
        | LL.LFNil => []
        | LL.LFCons f v r =>
            tk (Scan.TIdentifier (unintern f)) :: tk TColon :: lit_tokens v ++ more_fields r
        end ++ [tk TRightBrace]
    | LL.LEnumUnit name v =>
        [tk (Scan.TIdentifier (unintern name)); tk TDoubleColon; tk (Scan.TIdentifier (unintern v))]
    | LL.LEnumTuple name v es =>
        tk (Scan.TIdentifier (unintern name)) :: tk TDoubleColon :: tk (Scan.TIdentifier (unintern v)) :: tk TLeftParen ::
        match es with
        | LL.LsNil => []
        | LL.LsCons e r => lit_tokens e ++ more_tokens r
        end ++ [tk TRightParen]
    | LL.LRange mn mx u =>
        [tk (TUnsignedNum mn (unum_of u)); tk TDoubleDot; tk (TUnsignedNum mx (unum_of u))]
    end
  (* `, e` for every further element *)
  with more_tokens (es : LL.lits) : list token :=
    match es with
    | LL.LsNil => []
    | LL.LsCons e r => tk TComma :: lit_tokens e ++ more_tokens r
    end
  with more_fields (fs : LL.lfields) : list token :=
    match fs with
    | LL.LFNil => []
    | LL.LFCons f v r => tk TComma :: tk (Scan.TIdentifier (unintern f)) :: tk TColon :: lit_tokens v ++ more_fields r
    end.

  (* ---- the printed text *)
  Fixpoint dec_aux (fuel : nat) (n : N) (acc : list N) : list N :=
    match fuel with
    | O => acc
    | S f => let acc' := (48 + n mod 10) :: acc in if n / 10 =? 0 then acc' else dec_aux f (n / 10) acc'
    end.
  Definition dec (n : N) : list N := dec_aux 25 n [].
  Definition dec_z (z : Z) : list N := if (z <? 0)%Z then 45 :: dec (Z.to_N (- z)) else dec (Z.to_N z).
  Definition suffix_text (u : LT.uty) : list N :=
    match u with
    | LT.Usize => s_usize | LT.U8 => s_u8 | LT.U16 => s_u16 | LT.U32 => s_u32 | LT.U64 => s_u64
    | LT.UUnspec => codes "unspecified unsigned int"
    end.
  Definition sp : N := 32.
  Definition comma_sp : list N := [44; sp].

  Fixpoint lit_text (l : LL.lit) : list N :=
    match l with
    | LL.LTrue => s_true
    | LL.LFalse => s_false
    | LL.LUnsigned n _ => dec n
    | LL.LSigned z _ => dec_z z
    | LL.LRepeat e n => [91] ++ lit_text e ++ [59; sp] ++ dec n ++ [93]
    | LL.LArray es =>
        [91] ++ match es with LL.LsNil => [] | LL.LsCons e r => lit_text e ++ more_text r end ++ [93]
    | LL.LTuple es =>
        [40] ++ match es with
                | LL.LsNil => []
                | LL.LsCons e LL.LsNil => lit_text e ++ [44]
                | LL.LsCons e r => lit_text e ++ more_text r
                end ++ [41]
    | LL.LStruct name fs =>
        unintern name ++ [sp; 123] ++
        match fs with
        | LL.LFNil => []
        | LL.LFCons f v r => unintern f ++ [58; sp] ++ lit_text v ++ more_fields_text r
        end ++ [125]
    | LL.LEnumUnit name v => unintern name ++ [58; 58] ++ unintern v
    | LL.LEnumTuple name v es =>
        unintern name ++ [58; 58] ++ unintern v ++ [40] ++
        match es with LL.LsNil => [] | LL.LsCons e r => lit_text e ++ more_text r end ++ [41]
    | LL.LRange mn mx u => dec mn ++ suffix_text u ++ [46; 46] ++ dec mx ++ suffix_text u
    end
  with more_text (es : LL.lits) : list N :=
    match es with
    | LL.LsNil => []
    | LL.LsCons e r => comma_sp ++ lit_text e ++ more_text r
    end
  with more_fields_text (fs : LL.lfields) : list N :=
    match fs with
    | LL.LFNil => []
    | LL.LFCons f v r => comma_sp ++ unintern f ++ [58; sp] ++ lit_text v ++ more_fields_text r
    end.
End Display.

(* ------------------------------------------------------------------ A. the parser reads the printed tokens *)

Section ParseBack.
  Variable unintern : N -> list N.
  Notation ltoks := (lit_tokens unintern).
  Notation mtoks := (more_tokens unintern).
  Notation ftoks := (more_fields unintern).

  (* what parse_literal makes of the printed literal *)
  Fixpoint ulit (l : LL.lit) : uexpr :=
    match l with
    | LL.LTrue => UTrue
    | LL.LFalse => UFalse
    | LL.LUnsigned n _ => UNumUnsigned n UnspecifiedU
    | LL.LSigned z _ => if (z <? 0)%Z then UNumSigned z UnspecifiedS else UNumUnsigned (Z.to_N z) UnspecifiedU
    | LL.LRepeat e n => UArrayRepeat (ulit e) n
    | LL.LArray es => UArrayLiteral (ulits es)
    | LL.LTuple es => UTupleLiteral (ulits es)
    | LL.LStruct name fs => UStructLiteral (unintern name) (sort_fields (ufields fs))
    | LL.LEnumUnit name v => UEnumLiteral (unintern name) (unintern v) None
    | LL.LEnumTuple name v es => UEnumLiteral (unintern name) (unintern v) (Some (ulits es))
    | LL.LRange mn mx u => URange mn mx (unum_of u)
    end
  with ulits (es : LL.lits) : list uexpr :=
    match es with LL.LsNil => [] | LL.LsCons e r => ulit e :: ulits r end
  with ufields (fs : LL.lfields) : list (list N * uexpr) :=
    match fs with LL.LFNil => [] | LL.LFCons f v r => (unintern f, ulit v) :: ufields r end.

  Definition not_bool_name (id : list N) : bool := negb (list_eqb id s_true) && negb (list_eqb id s_false).

  (* printable so that the parser accepts: no empty array, struct / enum names are not `true` / `false` *)
  Fixpoint pok (l : LL.lit) : bool :=
    match l with
    | LL.LRepeat e _ => pok e
    | LL.LArray es => match es with LL.LsNil => false | _ => poks es end
    | LL.LTuple es => poks es
    | LL.LStruct name fs => not_bool_name (unintern name) && pokf fs
    | LL.LEnumUnit name _ => not_bool_name (unintern name)
    | LL.LEnumTuple name _ es => not_bool_name (unintern name) && poks es
    | _ => true
    end
  with poks (es : LL.lits) : bool :=
    match es with LL.LsNil => true | LL.LsCons e r => pok e && poks r end
  with pokf (fs : LL.lfields) : bool :=
    match fs with LL.LFNil => true | LL.LFCons _ v r => pok v && pokf r end.

  Fixpoint lsize (l : LL.lit) : nat :=
    match l with
    | LL.LRepeat e _ => 2 + lsize e
    | LL.LArray es | LL.LTuple es | LL.LEnumTuple _ _ es => 2 + lsizes es
    | LL.LStruct _ fs => 2 + lsizef fs
    | _ => 1
    end
  with lsizes (es : LL.lits) : nat :=
    match es with LL.LsNil => 0 | LL.LsCons e r => 1 + lsize e + lsizes r end
  with lsizef (fs : LL.lfields) : nat :=
    match fs with LL.LFNil => 0 | LL.LFCons _ v r => 1 + lsize v + lsizef r end.

  Definition lstart (t : token_enum) : bool :=
    match t with
    | Scan.TIdentifier _ | TUnsignedNum _ _ | TSignedNum _ _ | TLeftParen | TLeftBracket => true
    | _ => false
    end.

  Lemma lit_head l : exists t r, ltoks l = tk t :: r /\ lstart t = true.
  Proof.
    destruct l; cbn [lit_tokens]; try (eexists _, _; split; reflexivity).
    unfold signed_token. destruct (z <? 0)%Z; eexists _, _; split; reflexivity.
  Qed.

  Lemma peek_tk t t' r b : peek t (PState (tk t' :: r) b) = teqb t' t.
  Proof. reflexivity. Qed.
  Lemma next_tk t r b : next_matches t (PState (tk t :: r) b) = Some (PState r b).
  Proof. unfold next_matches. cbn [toks tk sla]. now rewrite ParseExprProofs.teqb_refl. Qed.
  Lemma next_tk_ne t t' r b : t' <> t -> next_matches t (PState (tk t' :: r) b) = None.
  Proof. intro H. unfold next_matches. cbn [toks tk]. now rewrite (ParseExprProofs.teqb_neq _ _ H). Qed.
  Lemma expect_tk {A} t r b (k : pstate -> pres A) : expect t (PState (tk t :: r) b) k = k (PState r b).
  Proof. unfold expect. now rewrite next_tk. Qed.

  Lemma lstart_ne t c : lstart t = true -> lstart c = false -> t <> c.
  Proof. intros H1 H2 ->. congruence. Qed.

  (* the first token of a literal is not a closing token / comma / semicolon *)
  Lemma peek_lit c l rest b : lstart c = false -> peek c (PState (ltoks l ++ rest) b) = false.
  Proof.
    intro Hc. destruct (lit_head l) as (t & r & -> & Ht). cbn [app]. rewrite peek_tk.
    apply ParseExprProofs.teqb_neq. now apply lstart_ne.
  Qed.

  Definition closing (c : token_enum) : Prop := c = TRightParen \/ c = TRightBracket.
  (* what may follow a literal: not `..` (a number would become a range), not `(` (E::V would get arguments) *)
  Definition no_dd (rest : list token) : Prop :=
    peek TDoubleDot (PState rest true) = false /\ peek TLeftParen (PState rest true) = false.

  Lemma closing_facts c : closing c -> lstart c = false /\ c <> TComma /\ c <> TDoubleDot /\ c <> TLeftParen.
  Proof. intros [-> | ->]; repeat split; discriminate. Qed.

  Lemma no_dd_tk c rest : c <> TDoubleDot -> c <> TLeftParen -> no_dd (tk c :: rest).
  Proof. intros H1 H2. unfold no_dd. rewrite !peek_tk. split; now apply ParseExprProofs.teqb_neq. Qed.
  Lemma no_dd_nil : no_dd [].
  Proof. split; reflexivity. Qed.
  Lemma no_dd_mtoks es c rest : c <> TDoubleDot -> c <> TLeftParen -> no_dd (mtoks es ++ tk c :: rest).
  Proof. intros H1 H2. destruct es; [apply no_dd_tk; assumption|apply no_dd_tk; discriminate]. Qed.
  Lemma no_dd_ftoks fs rest : no_dd (ftoks fs ++ tk TRightBrace :: rest).
  Proof. destruct fs; apply no_dd_tk; discriminate. Qed.

  (* a number token that is not followed by `..` *)
  Lemma gen_unsigned pe n v ty rest : no_dd rest ->
    parse_literal_gen true pe n (TUnsignedNum v ty) (PState rest true) = POk (UNumUnsigned v ty) (PState rest true).
  Proof.
    intros [H _]. cbn [parse_literal_gen]. unfold peek in H. unfold next_matches.
    destruct rest as [|[t' m'] r]; cbn [toks] in *; [reflexivity|]. now rewrite H.
  Qed.

  Lemma prec_S n t r b :
    parse_literal_recursively (S n) (PState (tk t :: r) b) =
    parse_literal_gen true (parse_literal_recursively n) n t (PState r b).
  Proof. reflexivity. Qed.

  Lemma not_bool_name_spec id : not_bool_name id = true -> list_eqb id s_true = false /\ list_eqb id s_false = false.
  Proof.
    unfold not_bool_name. intro H. apply andb_prop in H as [H1 H2].
    split; [destruct (list_eqb id s_true); [discriminate H1|reflexivity]|destruct (list_eqb id s_false); [discriminate H2|reflexivity]].
  Qed.

  (* equations (cbn does not refold the mutual fixpoints) *)
  Lemma ltoks_repeat e n : ltoks (LL.LRepeat e n) =
    tk TLeftBracket :: ltoks e ++ [tk TSemicolon; tk (TUnsignedNum n UnspecifiedU); tk TRightBracket].
  Proof. reflexivity. Qed.
  Lemma ltoks_array e r : ltoks (LL.LArray (LL.LsCons e r)) = tk TLeftBracket :: (ltoks e ++ mtoks r) ++ [tk TRightBracket].
  Proof. reflexivity. Qed.
  Lemma ltoks_tuple1 e : ltoks (LL.LTuple (LL.LsCons e LL.LsNil)) = tk TLeftParen :: (ltoks e ++ [tk TComma]) ++ [tk TRightParen].
  Proof. reflexivity. Qed.
  Lemma ltoks_tuple2 e e2 r : ltoks (LL.LTuple (LL.LsCons e (LL.LsCons e2 r))) =
    tk TLeftParen :: (ltoks e ++ mtoks (LL.LsCons e2 r)) ++ [tk TRightParen].
  Proof. reflexivity. Qed.
  Lemma mtoks_cons e r : mtoks (LL.LsCons e r) = tk TComma :: ltoks e ++ mtoks r.
  Proof. reflexivity. Qed.
  Lemma ftoks_cons f v r : ftoks (LL.LFCons f v r) = tk TComma :: tk (Scan.TIdentifier (unintern f)) :: tk TColon :: ltoks v ++ ftoks r.
  Proof. reflexivity. Qed.
  Lemma ltoks_struct name f v r : ltoks (LL.LStruct name (LL.LFCons f v r)) =
    tk (Scan.TIdentifier (unintern name)) :: tk TLeftBrace ::
    (tk (Scan.TIdentifier (unintern f)) :: tk TColon :: ltoks v ++ ftoks r) ++ [tk TRightBrace].
  Proof. reflexivity. Qed.
  Lemma ltoks_enum name v e r : ltoks (LL.LEnumTuple name v (LL.LsCons e r)) =
    tk (Scan.TIdentifier (unintern name)) :: tk TDoubleColon :: tk (Scan.TIdentifier (unintern v)) :: tk TLeftParen ::
    (ltoks e ++ mtoks r) ++ [tk TRightParen].
  Proof. reflexivity. Qed.
  Lemma poks_cons e r : poks (LL.LsCons e r) = pok e && poks r. Proof. reflexivity. Qed.
  Lemma pokf_cons f v r : pokf (LL.LFCons f v r) = pok v && pokf r. Proof. reflexivity. Qed.

  Definition Pst (l : LL.lit) : Prop := forall n rest, (lsize l <= n)%nat -> no_dd rest ->
    parse_literal_recursively n (PState (ltoks l ++ rest) true) = POk (ulit l) (PState rest true).
  Definition Lst (es : LL.lits) : Prop := forall n k c acc rest, (lsizes es <= n)%nat -> (lsizes es < k)%nat -> closing c ->
    comma_loop (parse_literal_recursively n) c k acc (PState (mtoks es ++ tk c :: rest) true) =
    POk (rev acc ++ ulits es) (PState (tk c :: rest) true).
  Definition Fst (fs : LL.lfields) : Prop := forall n k acc rest, (lsizef fs <= n)%nat -> (lsizef fs < k)%nat ->
    sep_loop (struct_field true (parse_literal_recursively n)) TRightBrace k acc
             (PState (ftoks fs ++ tk TRightBrace :: rest) true) =
    POk (rev acc ++ ufields fs) (PState (tk TRightBrace :: rest) true).

  Lemma struct_field_back n f v rest : Pst v -> (lsize v <= n)%nat -> no_dd rest ->
    struct_field true (parse_literal_recursively n)
      (PState (tk (Scan.TIdentifier (unintern f)) :: tk TColon :: ltoks v ++ rest) true) =
    POk (unintern f, ulit v) (PState rest true).
  Proof.
    intros Hv Hn Hdd. unfold struct_field. cbn [expect_identifier toks tk sla].
    rewrite !peek_tk. change (teqb TColon TComma) with false. change (teqb TColon TRightBrace) with false. cbn [orb].
    rewrite expect_tk. rewrite (Hv n rest Hn Hdd). reflexivity.
  Qed.

  Lemma parse_back_mut :
    (forall l, pok l = true -> Pst l) /\
    (forall es, poks es = true -> Lst es /\ match es with LL.LsNil => True | LL.LsCons e r => Pst e /\ Lst r end) /\
    (forall fs, pokf fs = true -> Fst fs /\ match fs with LL.LFNil => True | LL.LFCons _ v r => Pst v /\ Fst r end).
  Proof.
    apply LiteralProofs.lit_mutind.
    - (* true *) intros _ [|n] rest Hn _; [cbn in Hn; lia|]. reflexivity.
    - intros _ [|n] rest Hn _; [cbn in Hn; lia|]. reflexivity.
    - (* unsigned *) intros n0 u _ [|n] rest Hn Hdd; [cbn in Hn; lia|].
      change (ltoks (LL.LUnsigned n0 u) ++ rest) with (tk (TUnsignedNum n0 UnspecifiedU) :: rest).
      rewrite prec_S. now apply gen_unsigned.
    - (* signed *) intros z s _ [|n] rest Hn Hdd; [cbn in Hn; lia|].
      change (ltoks (LL.LSigned z s) ++ rest) with (tk (signed_token z) :: rest).
      change (ulit (LL.LSigned z s)) with (if (z <? 0)%Z then UNumSigned z UnspecifiedS else UNumUnsigned (Z.to_N z) UnspecifiedU).
      unfold signed_token. destruct (z <? 0)%Z; rewrite prec_S; [reflexivity|]. now apply gen_unsigned.
    - (* repeat *) intros e IH n0 Hp [|n] rest Hn Hdd; [cbn in Hn; lia|]. change (pok e = true) in Hp.
      cbn [lsize] in Hn. rewrite ltoks_repeat. cbn [app]. rewrite <- app_assoc. cbn [app].
      rewrite prec_S. cbn [parse_literal_gen].
      rewrite (IH Hp n); [|lia|apply no_dd_tk; discriminate]. cbn [bindp].
      rewrite peek_tk. change (teqb TSemicolon TSemicolon) with true. cbv iota. rewrite expect_tk.
      cbn [toks tk sla]. rewrite expect_tk. reflexivity.
    - (* array *) intros es IH Hp [|n] rest Hn Hdd; [cbn in Hn; lia|]. cbn [lsize] in Hn.
      destruct es as [|e r]; [discriminate Hp|]. change (poks (LL.LsCons e r) = true) in Hp.
      destruct (IH Hp) as (_ & He & Hr). cbn [lsizes] in Hn.
      rewrite ltoks_array. cbn [app]. rewrite <- !app_assoc. cbn [app]. rewrite prec_S. cbn [parse_literal_gen].
      rewrite (He n); [|lia|apply no_dd_mtoks; discriminate]. cbn [bindp].
      assert (Hps : peek TSemicolon (PState (mtoks r ++ tk TRightBracket :: rest) true) = false)
        by (destruct r; reflexivity).
      rewrite Hps. rewrite (Hr n n TRightBracket [ulit e] rest); [|lia|lia|right; reflexivity].
      cbn [bindp rev app]. rewrite expect_tk. reflexivity.
    - (* tuple *) intros es IH Hp [|n] rest Hn Hdd; [cbn in Hn; lia|]. cbn [lsize] in Hn.
      change (poks es = true) in Hp.
      destruct es as [|e r].
      + change (ltoks (LL.LTuple LL.LsNil) ++ rest) with (tk TLeftParen :: tk TRightParen :: rest).
        rewrite prec_S. cbn [parse_literal_gen].
        rewrite peek_tk. change (teqb TRightParen TRightParen) with true. cbn [negb]. rewrite expect_tk. reflexivity.
      + destruct (IH Hp) as (_ & He & Hr). cbn [lsizes] in Hn.
        assert (Hpk : forall rest', peek TRightParen (PState (ltoks e ++ rest') true) = false)
          by (intro; now apply peek_lit).
        destruct r as [|e2 r2].
        * (* `(x,)` *)
          rewrite ltoks_tuple1. cbn [app]. rewrite <- !app_assoc. cbn [app]. rewrite prec_S. cbn [parse_literal_gen].
          rewrite Hpk. cbn [negb]. rewrite (He n); [|lia|apply no_dd_tk; discriminate]. cbn [bindp].
          rewrite peek_tk. change (teqb TComma TComma) with true. cbv iota.
          destruct n as [|n']; [lia|]. cbn [comma_loop]. rewrite next_tk.
          rewrite peek_tk. change (teqb TRightParen TRightParen) with true. cbv iota. cbn [bindp rev app].
          rewrite expect_tk. reflexivity.
        * rewrite ltoks_tuple2. cbn [app]. rewrite <- !app_assoc. cbn [app]. rewrite prec_S. cbn [parse_literal_gen].
          rewrite Hpk. cbn [negb]. rewrite (He n); [|lia|apply no_dd_mtoks; discriminate]. cbn [bindp].
          assert (Hpc : peek TComma (PState (mtoks (LL.LsCons e2 r2) ++ tk TRightParen :: rest) true) = true) by reflexivity.
          rewrite Hpc. rewrite (Hr n n TRightParen [ulit e] rest); [|lia|lia|left; reflexivity].
          cbn [bindp rev app]. rewrite expect_tk. reflexivity.
    - (* struct *) intros name fs IH Hp [|n] rest Hn Hdd; [cbn in Hn; lia|]. cbn [lsize] in Hn.
      change (not_bool_name (unintern name) && pokf fs = true) in Hp. apply andb_prop in Hp as [Hnm Hp].
      destruct (not_bool_name_spec _ Hnm) as [Ht Hf]. destruct (IH Hp) as (_ & Hfs).
      destruct fs as [|f v r].
      + change (ltoks (LL.LStruct name LL.LFNil) ++ rest) with
          (tk (Scan.TIdentifier (unintern name)) :: tk TLeftBrace :: tk TRightBrace :: rest).
        rewrite prec_S. cbn [parse_literal_gen]. rewrite Ht, Hf.
        rewrite next_tk_ne by discriminate. rewrite next_tk. cbn [sla].
        rewrite peek_tk. change (teqb TRightBrace TRightBrace) with true. cbn [negb bindp]. rewrite expect_tk. reflexivity.
      + destruct Hfs as [Hv Hr]. cbn [lsizef] in Hn.
        rewrite ltoks_struct. cbn [app]. rewrite <- !app_assoc. cbn [app].
        rewrite prec_S. cbn [parse_literal_gen]. rewrite Ht, Hf.
        rewrite next_tk_ne by discriminate. rewrite next_tk. cbn [sla].
        rewrite peek_tk. change (teqb (Scan.TIdentifier (unintern f)) TRightBrace) with false. cbn [negb].
        rewrite (struct_field_back n f v _ Hv); [|lia|apply no_dd_ftoks]. cbn [bindp].
        rewrite (Hr n n [(unintern f, ulit v)] rest); [|lia|lia]. cbn [bindp rev app]. rewrite expect_tk. reflexivity.
    - (* enum, unit *) intros name v Hp [|n] rest Hn [Hd1 Hd2]; [cbn in Hn; lia|].
      change (not_bool_name (unintern name) = true) in Hp. destruct (not_bool_name_spec _ Hp) as [Ht Hf].
      change (ltoks (LL.LEnumUnit name v) ++ rest) with
        (tk (Scan.TIdentifier (unintern name)) :: tk TDoubleColon :: tk (Scan.TIdentifier (unintern v)) :: rest).
      rewrite prec_S. cbn [parse_literal_gen]. rewrite Ht, Hf. rewrite next_tk.
      cbn [expect_identifier toks tk sla].
      assert (Hnm : next_matches TLeftParen (PState rest true) = None).
      { unfold peek in Hd2. unfold next_matches. destruct rest as [|[t' m'] r']; cbn [toks] in *; [reflexivity|]. now rewrite Hd2. }
      rewrite Hnm. reflexivity.
    - (* enum, tuple *) intros name v es IH Hp [|n] rest Hn Hdd; [cbn in Hn; lia|]. cbn [lsize] in Hn.
      change (not_bool_name (unintern name) && poks es = true) in Hp. apply andb_prop in Hp as [Hnm Hp].
      destruct (not_bool_name_spec _ Hnm) as [Ht Hf]. destruct (IH Hp) as (_ & Hes).
      destruct es as [|e r].
      + change (ltoks (LL.LEnumTuple name v LL.LsNil) ++ rest) with
          (tk (Scan.TIdentifier (unintern name)) :: tk TDoubleColon :: tk (Scan.TIdentifier (unintern v)) ::
           tk TLeftParen :: tk TRightParen :: rest).
        rewrite prec_S. cbn [parse_literal_gen]. rewrite Ht, Hf. rewrite next_tk.
        cbn [expect_identifier toks tk sla]. rewrite next_tk.
        rewrite peek_tk. change (teqb TRightParen TRightParen) with true. cbn [negb bindp]. rewrite expect_tk. reflexivity.
      + destruct Hes as [He Hr]. cbn [lsizes] in Hn.
        rewrite ltoks_enum. cbn [app]. rewrite <- !app_assoc. cbn [app].
        rewrite prec_S. cbn [parse_literal_gen]. rewrite Ht, Hf. rewrite next_tk.
        cbn [expect_identifier toks tk sla]. rewrite next_tk.
        rewrite (peek_lit TRightParen e _ true eq_refl). cbn [negb].
        rewrite (He n); [|lia|apply no_dd_mtoks; discriminate]. cbn [bindp].
        rewrite (Hr n n TRightParen [ulit e] rest); [|lia|lia|left; reflexivity].
        cbn [bindp rev app]. rewrite expect_tk. reflexivity.
    - (* range *) intros mn mx u _ [|n] rest Hn Hdd; [cbn in Hn; lia|].
      change (ltoks (LL.LRange mn mx u) ++ rest) with
        (tk (TUnsignedNum mn (unum_of u)) :: tk TDoubleDot :: tk (TUnsignedNum mx (unum_of u)) :: rest).
      rewrite prec_S. cbn [parse_literal_gen]. rewrite next_tk. cbn [toks tk sla].
      assert (Hrt : range_type (unum_of u) (unum_of u) = Some (unum_of u)) by (destruct u; reflexivity).
      rewrite Hrt. reflexivity.
    - (* no more elements *) intros _. split; [|exact I]. intros n k c acc rest _ Hk Hc.
      destruct (closing_facts c Hc) as (_ & Hcc & _).
      destruct k as [|k']; [lia|]. cbn [comma_loop]. change (mtoks LL.LsNil ++ tk c :: rest) with (tk c :: rest).
      rewrite next_tk_ne by exact Hcc. now rewrite app_nil_r.
    - (* one more element *) intros e IHe r IHr Hp. rewrite poks_cons in Hp. apply andb_prop in Hp as [Hpe Hpr].
      specialize (IHe Hpe). destruct (IHr Hpr) as [Hr _]. split; [|split; assumption].
      intros n k c acc rest Hn Hk Hc. cbn [lsizes] in Hn, Hk.
      destruct (closing_facts c Hc) as (Hcs & Hcc & Hcd & Hcp).
      destruct k as [|k']; [lia|]. cbn [comma_loop]. rewrite mtoks_cons. cbn [app]. rewrite <- app_assoc.
      rewrite next_tk. rewrite (peek_lit c e _ true Hcs).
      rewrite (IHe n); [|lia|now apply no_dd_mtoks]. cbn [bindp].
      rewrite (Hr n k' c (ulit e :: acc) rest); [|lia|lia|exact Hc].
      cbn [rev]. rewrite <- app_assoc. reflexivity.
    - (* no more fields *) intros _. split; [|exact I]. intros n k acc rest _ Hk.
      destruct k as [|k']; [lia|]. cbn [sep_loop]. change (ftoks LL.LFNil ++ tk TRightBrace :: rest) with (tk TRightBrace :: rest).
      rewrite next_tk_ne by discriminate. now rewrite app_nil_r.
    - (* one more field *) intros f v IHv r IHr Hp. rewrite pokf_cons in Hp. apply andb_prop in Hp as [Hpv Hpr].
      specialize (IHv Hpv). destruct (IHr Hpr) as [Hr _]. split; [|split; assumption].
      intros n k acc rest Hn Hk. cbn [lsizef] in Hn, Hk.
      destruct k as [|k']; [lia|]. cbn [sep_loop]. rewrite ftoks_cons. cbn [app]. rewrite <- app_assoc.
      rewrite next_tk. rewrite peek_tk. change (teqb (Scan.TIdentifier (unintern f)) TRightBrace) with false. cbv iota.
      rewrite (struct_field_back n f v _ IHv); [|lia|apply no_dd_ftoks]. cbn [bindp].
      rewrite (Hr n k' ((unintern f, ulit v) :: acc) rest); [|lia|lia].
      cbn [rev]. rewrite <- app_assoc. reflexivity.
  Qed.

  (* the whole printed literal, with the parser's default fuel *)
  Theorem parse_back l : pok l = true ->
    parse_literal_text (fuel_for_tokens (ltoks l)) (ltoks l) = POk (ulit l) (PState [] true).
  Proof.
    intro Hp.
    set (F := (lsize l + fuel_for_tokens (ltoks l))%nat).
    assert (HF : parse_literal_text F (ltoks l) = POk (ulit l) (PState [] true)).
    { pose proof (proj1 parse_back_mut l Hp (S F) [] ltac:(lia) no_dd_nil) as H. rewrite app_nil_r in H.
      unfold parse_literal_text. destruct (lit_head l) as (t & r & E & _). rewrite E in H |- *.
      rewrite prec_S in H. cbn [advance toks tk sla]. rewrite H. reflexivity. }
    pose proof (parse_literal_text_total (fuel_for_tokens (ltoks l)) (ltoks l) ltac:(unfold fuel_for_tokens; lia)) as Ht.
    rewrite <- (parse_literal_text_fuel_independent _ F (ltoks l) _ eq_refl Ht ltac:(lia)). exact HF.
  Qed.
End ParseBack.

(* ------------------------------------------------------------------ B. the checker types the parsed literal back *)

Lemma overwrite_ty_idem : forall t, overwrite_ty t t = t.
Proof.
  fix IH 1. intros [| | |e n|ts| |]; cbn [overwrite_ty]; try reflexivity.
  - destruct (is_uU (CUnsigned t)); reflexivity.
  - destruct (is_uU (CSigned t) || is_sU (CSigned t)); reflexivity.
  - now rewrite IH.
  - f_equal. induction ts as [|x r IHr]; [reflexivity|]. now rewrite IH, IHr.
Qed.

Definition into_lits (intern : list N -> N) : list texpr -> cres LL.lits :=
  fix go (es : list texpr) : cres LL.lits :=
    match es with
    | [] => COk LL.LsNil
    | x :: r => do l <- into_literal intern x; do ls <- go r; COk (LL.LsCons l ls)
    end.

Definition into_fields (intern : list N -> N) : list (list N * texpr) -> cres LL.lfields :=
  fix go (fs : list (list N * texpr)) : cres LL.lfields :=
    match fs with
    | [] => COk LL.LFNil
    | (fname, x) :: r => do l <- into_literal intern x; do ls <- go r; COk (LL.LFCons (intern fname) l ls)
    end.

Section CheckBack.
  Variable intern : list N -> N.
  Variable unintern : N -> list N.
  Variable D : defs.
  Notation ul := (ulit unintern).
  Notation uls := (ulits unintern).

  Definition is_num (l : LL.lit) : bool :=
    match l with LL.LUnsigned _ _ | LL.LSigned _ _ => true | _ => false end.

  (* the inner node check.rs builds for a printed number *)
  Definition numinner (l : LL.lit) : texpr_inner :=
    match l with
    | LL.LUnsigned n _ => TNumUnsigned n UnspecifiedU
    | LL.LSigned z _ => if (z <? 0)%Z then TNumSigned z UnspecifiedS else TNumUnsigned (Z.to_N z) UnspecifiedU
    | _ => TTrue
    end.

  (* the type check.rs gives the parsed literal BEFORE it is constrained to the expected type *)
  Fixpoint pt (l : LL.lit) : cty :=
    match l with
    | LL.LTrue | LL.LFalse => CBool
    | LL.LUnsigned _ _ => uU
    | LL.LSigned z _ => if (z <? 0)%Z then sU else uU
    | LL.LRepeat e n => CArray (pt e) n
    | LL.LArray es =>
        CArray (match es with LL.LsNil => CBool | LL.LsCons e _ => pick_elem_ty (pt e) (pts es) end) (LL.lits_len es)
    | LL.LTuple es => CTuple (pts es)
    | LL.LStruct n _ => CStruct (unintern n)
    | LL.LEnumUnit n _ | LL.LEnumTuple n _ _ => CEnum (unintern n)
    | LL.LRange mn mx u => CArray (CUnsigned (unum_of u)) (mx - mn)
    end
  with pts (es : LL.lits) : list cty :=
    match es with LL.LsNil => [] | LL.LsCons e r => pt e :: pts r end.

  Fixpoint ldepth (l : LL.lit) : nat :=
    match l with
    | LL.LRepeat e _ => S (ldepth e)
    | LL.LArray es | LL.LTuple es | LL.LEnumTuple _ _ es => S (ldepths es)
    | LL.LStruct _ fs => S (ldepthf fs)
    | _ => 1
    end
  with ldepths (es : LL.lits) : nat :=
    match es with LL.LsNil => 0 | LL.LsCons e r => Nat.max (ldepth e) (ldepths r) end
  with ldepthf (fs : LL.lfields) : nat :=
    match fs with LL.LFNil => 0 | LL.LFCons _ v r => Nat.max (ldepth v) (ldepthf r) end.

  Fixpoint all_num (es : LL.lits) : bool :=
    match es with LL.LsNil => true | LL.LsCons e r => is_num e && all_num r end.
  Definition uniform (ps : list cty) : bool :=
    match ps with [] => true | p :: r => forallb (cty_eqb p) r end.

  (* the interned name n stands for the byte string [name], and is what [intern] gives back *)
  Definition name_ok (n : N) (name : list N) : bool := list_eqb (unintern n) name && (intern name =? n).
  (* the field names of a struct definition: in name order (as parse.rs sorts them), pairwise distinct *)
  Fixpoint names_ok (l : list (list N)) : bool :=
    match l with
    | [] => true
    | x :: r => forallb (fun y => negb (name_ltb y x) && negb (list_eqb y x)) r && names_ok r
    end.

  Definition u_fits (n : N) (u : unsigned_num_type) : bool :=
    match unsigned_max u with Some mx => n <=? mx | None => false end.
  Definition s_fits (z : Z) (s : signed_num_type) : bool :=
    match signed_min s, signed_max s with Some mn, Some mx => ((mn <=? z) && (z <=? mx))%Z | _, _ => false end.

  (* THE CLASS OF LITERALS COVERED: values of the type T (as is_of_type has it), where
     - an array literal is not empty and its elements are either all numbers or all have the
       same shape of signs (the same type before constraining: [pt]);
     - a range is not empty and has at most u32::MAX elements;
     - struct / enum values: the names are interned consistently ([name_ok]: unintern gives the byte
       string of the definition and intern gives the number back), are not `true` / `false`; the
       fields of the struct definition are in name order and distinct ([names_ok], as parse.rs
       sorts them) and the value has exactly these fields in this order. *)
  Fixpoint rt_ok (l : LL.lit) (T : cty) {struct l} : bool :=
    match l, T with
    | LL.LTrue, CBool | LL.LFalse, CBool => true
    | LL.LUnsigned n u, CUnsigned u' => LT.uty_eqb (uty_of u') u && u_fits n u'
    | LL.LSigned z s, CSigned s' => LT.sty_eqb (sty_of s') s && s_fits z s'
    | LL.LRepeat e n, CArray ET n' => (n =? n') && rt_ok e ET
    | LL.LArray es, CArray ET n =>
        match es with LL.LsNil => false | _ => true end &&
        (LL.lits_len es =? n) && rt_all es ET && (all_num es || uniform (pts es))
    | LL.LTuple es, CTuple Ts => rt_zip es Ts
    | LL.LRange mn mx u, CArray (CUnsigned u') n =>
        LT.uty_eqb (uty_of u') u && negb (unsigned_eqb u' UnspecifiedU) &&
        (mn <? mx) && (mx - mn =? n) && (mx - mn <=? u32_max)
    | LL.LStruct n fs, CStruct name =>
        name_ok n name && not_bool_name name &&
        match assocL name (d_structs D) with
        | Some def => names_ok (map fst def) && rt_fields fs def
        | None => false
        end
    | LL.LEnumUnit n v, CEnum name =>
        name_ok n name && not_bool_name name &&
        match assocL name (d_enums D) with
        | Some vs => match assocL (unintern v) vs with Some None => intern (unintern v) =? v | _ => false end
        | None => false
        end
    | LL.LEnumTuple n v es, CEnum name =>
        name_ok n name && not_bool_name name &&
        match assocL name (d_enums D) with
        | Some vs =>
            match assocL (unintern v) vs with
            | Some (Some tys) => (intern (unintern v) =? v) && rt_zip es tys
            | _ => false
            end
        | None => false
        end
    | _, _ => false
    end
  with rt_fields (fs : LL.lfields) (def : list (list N * cty)) {struct fs} : bool :=
    match fs, def with
    | LL.LFNil, [] => true
    | LL.LFCons f v r, (fname, ft) :: dr => name_ok f fname && rt_ok v ft && rt_fields r dr
    | _, _ => false
    end
  with rt_all (es : LL.lits) (T : cty) {struct es} : bool :=
    match es with LL.LsNil => true | LL.LsCons e r => rt_ok e T && rt_all r T end
  with rt_zip (es : LL.lits) (Ts : list cty) {struct es} : bool :=
    match es, Ts with
    | LL.LsNil, [] => true
    | LL.LsCons e r, T :: Tr => rt_ok e T && rt_zip r Tr
    | _, _ => false
    end.

  Lemma name_ok_spec n name : name_ok n name = true -> unintern n = name /\ intern name = n.
  Proof.
    unfold name_ok. intro H. apply andb_prop in H as [H1 H2]. split; [now apply list_eqb_eq|now apply N.eqb_eq].
  Qed.

  (* [rt_ok] read as a relation given by rules, the conditions of each rule taken apart (a name that is
     [name_ok] is written as [unintern] of its number) *)
  Lemma rt_ok_ind (P : LL.lit -> cty -> Prop) (PA : LL.lits -> cty -> Prop) (PZ : LL.lits -> list cty -> Prop)
        (PF : LL.lfields -> list (list N * cty) -> Prop) :
    P LL.LTrue CBool -> P LL.LFalse CBool ->
    (forall n u, u_fits n u = true -> P (LL.LUnsigned n (uty_of u)) (CUnsigned u)) ->
    (forall z s, s_fits z s = true -> P (LL.LSigned z (sty_of s)) (CSigned s)) ->
    (forall e n ET, rt_ok e ET = true -> P e ET -> P (LL.LRepeat e n) (CArray ET n)) ->
    (forall e r ET, rt_all (LL.LsCons e r) ET = true -> PA (LL.LsCons e r) ET ->
       all_num (LL.LsCons e r) || uniform (pts (LL.LsCons e r)) = true ->
       P (LL.LArray (LL.LsCons e r)) (CArray ET (LL.lits_len (LL.LsCons e r)))) ->
    (forall es Ts, rt_zip es Ts = true -> PZ es Ts -> P (LL.LTuple es) (CTuple Ts)) ->
    (forall n fs def, intern (unintern n) = n -> not_bool_name (unintern n) = true ->
       assocL (unintern n) (d_structs D) = Some def -> names_ok (map fst def) = true ->
       rt_fields fs def = true -> PF fs def -> P (LL.LStruct n fs) (CStruct (unintern n))) ->
    (forall n v vs, intern (unintern n) = n -> not_bool_name (unintern n) = true ->
       assocL (unintern n) (d_enums D) = Some vs -> assocL (unintern v) vs = Some None -> intern (unintern v) = v ->
       P (LL.LEnumUnit n v) (CEnum (unintern n))) ->
    (forall n v es vs tys, intern (unintern n) = n -> not_bool_name (unintern n) = true ->
       assocL (unintern n) (d_enums D) = Some vs -> assocL (unintern v) vs = Some (Some tys) -> intern (unintern v) = v ->
       rt_zip es tys = true -> PZ es tys -> P (LL.LEnumTuple n v es) (CEnum (unintern n))) ->
    (forall mn mx u, negb (unsigned_eqb u UnspecifiedU) = true -> mn < mx -> mx - mn <= u32_max ->
       P (LL.LRange mn mx (uty_of u)) (CArray (CUnsigned u) (mx - mn))) ->
    (forall T, PA LL.LsNil T) ->
    (forall e r T, rt_ok e T = true -> P e T -> rt_all r T = true -> PA r T -> PA (LL.LsCons e r) T) ->
    PZ LL.LsNil [] ->
    (forall e r T Tr, rt_ok e T = true -> P e T -> rt_zip r Tr = true -> PZ r Tr -> PZ (LL.LsCons e r) (T :: Tr)) ->
    PF LL.LFNil [] ->
    (forall f v r ft dr, intern (unintern f) = f -> rt_ok v ft = true -> P v ft -> rt_fields r dr = true -> PF r dr ->
       PF (LL.LFCons f v r) ((unintern f, ft) :: dr)) ->
    (forall l T, rt_ok l T = true -> P l T) /\
    (forall es, (forall T, rt_all es T = true -> PA es T) /\ (forall Ts, rt_zip es Ts = true -> PZ es Ts)) /\
    (forall fs def, rt_fields fs def = true -> PF fs def).
  Proof.
    intros Ht Hf Hu Hs Hrp Har Htu Hst Heu Het Hrg Han Hac Hzn Hzc Hfn Hfc. apply LiteralProofs.lit_mutind.
    - intros [] H; try discriminate H. exact Ht.
    - intros [] H; try discriminate H. exact Hf.
    - intros n u [|u'| | | | |] H; try discriminate H. apply andb_prop in H as [E H].
      apply LiteralProofs.uty_eqb_eq in E as <-. now apply Hu.
    - intros z s [| |s'| | | |] H; try discriminate H. apply andb_prop in H as [E H].
      apply LiteralProofs.sty_eqb_eq in E as <-. now apply Hs.
    - intros e IH n [| | |ET n'| | |] H; try discriminate H. apply andb_prop in H as [E H]. apply N.eqb_eq in E as <-. auto.
    - intros es [IH _] [| | |ET n| | |] H; try discriminate H. destruct es as [|e r]; [discriminate H|].
      apply andb_prop in H as [H Hsh]. apply andb_prop in H as [E H]. apply N.eqb_eq in E as <-. auto.
    - intros es [_ IH] [| | | |Ts| |] H; try discriminate H. auto.
    - intros n fs IH [| | | | |name|] H; try discriminate H. apply andb_prop in H as [H Hd]. apply andb_prop in H as [Hn Hnb].
      destruct (name_ok_spec _ _ Hn) as [<- Hi]. destruct (assocL (unintern n) (d_structs D)) as [def|] eqn:Ed; [|discriminate Hd].
      apply andb_prop in Hd as [Hso Hfs]. eauto.
    - intros n v [| | | | | |name] H; try discriminate H. apply andb_prop in H as [H Hd]. apply andb_prop in H as [Hn Hnb].
      destruct (name_ok_spec _ _ Hn) as [<- Hi]. destruct (assocL (unintern n) (d_enums D)) as [vs|] eqn:Ed; [|discriminate Hd].
      destruct (assocL (unintern v) vs) as [[tys|]|] eqn:Ev; try discriminate Hd. apply N.eqb_eq in Hd. eauto.
    - intros n v es [_ IH] [| | | | | |name] H; try discriminate H. apply andb_prop in H as [H Hd]. apply andb_prop in H as [Hn Hnb].
      destruct (name_ok_spec _ _ Hn) as [<- Hi]. destruct (assocL (unintern n) (d_enums D)) as [vs|] eqn:Ed; [|discriminate Hd].
      destruct (assocL (unintern v) vs) as [[tys|]|] eqn:Ev; try discriminate Hd. apply andb_prop in Hd as [Hv Hz].
      apply N.eqb_eq in Hv. eauto.
    - intros mn mx u [| | |ET n| | |] H; try discriminate H. destruct ET as [|u'| | | | |]; try discriminate H.
      apply andb_prop in H as [H Hmax].
      apply andb_prop in H as [H E]. apply andb_prop in H as [H Hlt]. apply andb_prop in H as [Eu Hnu].
      apply LiteralProofs.uty_eqb_eq in Eu as <-. apply N.eqb_eq in E as <-.
      apply Hrg; [exact Hnu|now apply N.ltb_lt|now apply N.leb_le].
    - split; [intros; apply Han|]. intros [|] H; [exact Hzn|discriminate H].
    - intros e IHe r [IHa IHz]. split.
      + intros T H. apply andb_prop in H as [H1 H2]. auto.
      + intros [|T Tr] H; [discriminate H|]. apply andb_prop in H as [H1 H2]. auto.
    - intros [|] H; [exact Hfn|discriminate H].
    - intros f v IHv r IHr [|[fname ft] dr] H; [discriminate H|]. apply andb_prop in H as [H H3]. apply andb_prop in H as [Hn H2].
      destruct (name_ok_spec _ _ Hn) as [<- Hi]. auto.
  Qed.

  (* a typed tree [te] of current type [p] that stands for the literal [l] of type [T] *)
  Definition Good (te : texpr) (l : LL.lit) (T p : cty) : Prop :=
    ty_of te = p /\ overwrite_ty p T = T /\
    (forall f, (ldepth l <= f)%nat -> constrain_type f te p = COk te) /\
    (forall f, (ldepth l <= f)%nat -> exists te', constrain_type f te T = COk te' /\ ty_of te' = T /\
                                                  into_literal intern te' = COk l) /\
    (is_num l = true -> inner_of te = numinner l).

  Inductive GoodAll (T : cty) (p : LL.lit -> cty) : list texpr -> LL.lits -> Prop :=
  | GA_nil : GoodAll T p [] LL.LsNil
  | GA_cons te e tes r : Good te e T (p e) -> GoodAll T p tes r -> GoodAll T p (te :: tes) (LL.LsCons e r).
  Inductive GoodZip : list texpr -> LL.lits -> list cty -> Prop :=
  | GZ_nil : GoodZip [] LL.LsNil []
  | GZ_cons te e T tes r Tr : Good te e T (pt e) -> GoodZip tes r Tr -> GoodZip (te :: tes) (LL.LsCons e r) (T :: Tr).

  Lemma ldepth_pos l : (1 <= ldepth l)%nat.
  Proof. destruct l; cbn [ldepth]; lia. Qed.

  Lemma Good_intro te l T p :
    ty_of te = p -> overwrite_ty p T = T ->
    (forall f, (ldepth l <= S f)%nat -> constrain_type (S f) te p = COk te) ->
    (forall f, (ldepth l <= S f)%nat -> exists te', constrain_type (S f) te T = COk te' /\ ty_of te' = T /\
                                                    into_literal intern te' = COk l) ->
    (is_num l = true -> inner_of te = numinner l) -> Good te l T p.
  Proof.
    intros H1 H2 H3 H4 H5. pose proof (ldepth_pos l). split; [exact H1|]. split; [exact H2|].
    split; [|split; [|exact H5]]; intros [|f] Hf; try lia; auto.
  Qed.

  Lemma Good_final te l T : ty_of te = T -> (forall f, constrain_type (S f) te T = COk te) ->
    into_literal intern te = COk l -> is_num l = false -> Good te l T T.
  Proof.
    intros H1 H3 H4 H5. apply Good_intro; [exact H1|apply overwrite_ty_idem|auto| |congruence].
    intros f _. exists te. auto.
  Qed.

  (* ---- numbers *)
  Lemma num_good l T p : is_num l = true -> rt_ok l T = true ->
    p = pt l \/ (p = sU /\ exists s, T = CSigned s) ->
    Good (TE (numinner l) p) l T p.
  Proof.
    intros Hn Hok Hp. destruct l; try discriminate Hn; destruct T; try discriminate Hok; cbn [rt_ok] in Hok;
      apply andb_prop in Hok as [Hty Hfit].
    - (* unsigned *)
      assert (p = uU) as -> by (destruct Hp as [->|[_ [s [=]]]]; reflexivity).
      assert (Ht : uty_of t = u) by (destruct t, u; try discriminate Hty; reflexivity). subst u.
      unfold u_fits in Hfit. destruct (unsigned_max t) as [mx|] eqn:Em; [|discriminate Hfit].
      apply N.leb_le in Hfit.
      assert (Hlt : (mx <? n) = false) by (apply N.ltb_ge; exact Hfit).
      assert (Hnu : t <> UnspecifiedU) by (intros ->; discriminate Em).
      apply Good_intro; cbn [ty_of numinner inner_of]; try reflexivity.
      intros f Hf. exists (TE (TNumUnsigned n UnspecifiedU) (CUnsigned t)).
      cbn [constrain_type inner_of ty_of]. unfold check_or_constrain_unsigned. cbn [ty_of inner_of set_ty].
      change (is_uU (CUnsigned UnspecifiedU)) with true. rewrite andb_false_r. rewrite Em, Hlt.
      cbn [cbind set_ty ty_of]. rewrite overwrite_ty_idem. split; [reflexivity|]. split; reflexivity.
    - (* signed *)
      assert (Ht : sty_of t = s) by (destruct t, s; try discriminate Hty; reflexivity). subst s.
      unfold s_fits in Hfit. destruct (signed_min t) as [mn|] eqn:En; [|discriminate Hfit].
      destruct (signed_max t) as [mx|] eqn:Em; [|discriminate Hfit].
      apply andb_prop in Hfit as [Hlo Hhi]. apply Z.leb_le in Hlo. apply Z.leb_le in Hhi.
      assert (Hnu : t <> UnspecifiedS) by (intros ->; discriminate Em).
      assert (Hmx : (mx < two63)%Z) by (destruct t; try congruence; injection Em as <-; unfold two63; lia).
      assert (Hp' : p = uU \/ p = sU).
      { destruct Hp as [->|[-> _]]; [|auto]. cbn [pt]. destruct (z <? 0)%Z; auto. }
      assert (Hneg : (z <? 0)%Z = true -> p = sU).
      { intro Hz. destruct Hp as [->|[-> _]]; [|reflexivity]. cbn [pt]. now rewrite Hz. }
      apply Good_intro; cbn [ty_of inner_of]; try reflexivity.
      + destruct Hp' as [-> | ->]; destruct t; try congruence; reflexivity.
      + intros f Hf.
        cbn [numinner]. destruct (z <? 0)%Z eqn:Ez.
        * rewrite (Hneg eq_refl). reflexivity.
        * destruct Hp' as [-> | ->]; reflexivity.
      + intros f Hf.
        cbn [numinner]. destruct (z <? 0)%Z eqn:Ez.
        * rewrite (Hneg eq_refl). exists (TE (TNumSigned z UnspecifiedS) (CSigned t)).
          cbn [constrain_type inner_of ty_of]. unfold check_or_constrain_signed. cbn [ty_of inner_of set_ty].
          change (is_sU (CSigned UnspecifiedS)) with true. cbn [negb]. rewrite andb_false_r. cbn [andb].
          rewrite En, Em. assert ((z <? mn)%Z = false) as -> by (apply Z.ltb_ge; lia).
          assert ((mx <? z)%Z = false) as -> by (apply Z.ltb_ge; lia).
          cbn [cbind set_ty ty_of]. rewrite overwrite_ty_idem. split; [reflexivity|]. split; reflexivity.
        * apply Z.ltb_ge in Ez.
          exists (TE (TNumUnsigned (Z.to_N z) UnspecifiedU) (CSigned t)).
          cbn [constrain_type inner_of ty_of]. unfold check_or_constrain_signed. cbn [ty_of inner_of set_ty].
          assert (Hc : negb (cty_eqb p (CSigned t)) && negb (is_sU p) && negb (is_uU p) = false).
          { destruct Hp' as [-> | ->]; [change (is_uU uU) with true; now rewrite andb_false_r|].
            change (is_sU sU) with true. cbn [negb]. now rewrite andb_false_r. }
          rewrite Hc. rewrite En, Em. rewrite Z2N.id by lia.
          assert ((mx <? z)%Z = false) as -> by (apply Z.ltb_ge; lia).
          cbn [cbind set_ty ty_of]. rewrite overwrite_ty_idem. split; [reflexivity|]. split; [reflexivity|].
          cbn [into_literal]. rewrite u64_as_i64_small by (rewrite Z2N.id by lia; lia). now rewrite Z2N.id by lia.
  Qed.

  (* ---- lists of element trees *)
  Lemma find_none' {A} (g : A -> bool) l : (forall x, In x l -> g x = false) -> find g l = None.
  Proof.
    induction l as [|x r IH]; intro H; [reflexivity|]. cbn [find]. rewrite (H x (or_introl eq_refl)).
    apply IH. intros y Hy. apply H. now right.
  Qed.

  Lemma find_none_iff {A} (g : A -> bool) l x : find g l = None -> In x l -> g x = false.
  Proof. intros H Hx. exact (find_none g l H x Hx). Qed.

  Lemma pick_uniform p ps : forallb (cty_eqb p) ps = true -> pick_elem_ty p (p :: ps) = p.
  Proof.
    intro H. assert (Hall : forall x, In x (p :: ps) -> x = p).
    { intros x [<-|Hx]; [reflexivity|]. rewrite forallb_forall in H. symmetry. apply cty_eqb_eq. now apply H. }
    unfold pick_elem_ty.
    assert (F1 : find (fun t => negb (cty_eqb t p)) (p :: ps) = None).
    { apply find_none'. intros x Hx. rewrite (Hall x Hx), cty_eqb_refl. reflexivity. }
    rewrite F1. assert (E1 : (if is_uU p then p else p) = p) by (destruct (is_uU p); reflexivity). rewrite E1.
    destruct (is_sU p); [|reflexivity].
    rewrite find_none'; [reflexivity|]. intros x Hx. rewrite (Hall x Hx), cty_eqb_refl. reflexivity.
  Qed.

  Lemma pick_num p ps : (forall x, In x (p :: ps) -> x = uU \/ x = sU) ->
    (pick_elem_ty p (p :: ps) = uU /\ forall x, In x (p :: ps) -> x = uU) \/
    (pick_elem_ty p (p :: ps) = sU /\ In sU (p :: ps)).
  Proof.
    intro H.
    assert (F2 : find (fun t => negb (cty_eqb t sU) && negb (is_uU t)) (p :: ps) = None).
    { apply find_none'. intros x Hx. destruct (H x Hx) as [-> | ->]; reflexivity. }
    unfold pick_elem_ty. destruct (H p (or_introl eq_refl)) as [-> | ->].
    - change (is_uU uU) with true. cbv iota.
      destruct (find (fun t => negb (cty_eqb t uU)) (uU :: ps)) as [t|] eqn:Ef.
      + apply find_some in Ef as [Hin Ht]. destruct (H t Hin) as [-> | ->]; [discriminate Ht|].
        change (is_sU sU) with true. cbv iota. rewrite F2. right. split; [reflexivity|exact Hin].
      + change (is_sU uU) with false. cbv iota. left. split; [reflexivity|].
        intros x Hx. destruct (H x Hx) as [-> | ->]; [reflexivity|].
        exfalso. pose proof (find_none_iff _ _ sU Ef Hx) as Hc. discriminate Hc.
    - change (is_uU sU) with false. change (is_sU sU) with true. cbv iota. rewrite F2.
      right. split; [reflexivity|now left].
  Qed.

  Lemma lenN_cons {A} (x : A) l : lenN (x :: l) = 1 + lenN l.
  Proof. unfold lenN. cbn [length]. lia. Qed.

  Lemma ga_tys T tes es : GoodAll T pt tes es -> map ty_of tes = pts es.
  Proof. induction 1 as [|te e tes r (H1 & _) _ IH]; cbn [map pts]; [reflexivity|]. now rewrite H1, IH. Qed.
  Lemma gz_tys tes es Ts : GoodZip tes es Ts -> map ty_of tes = pts es.
  Proof. induction 1 as [|te e T tes r Tr (H1 & _) _ IH]; cbn [map pts]; [reflexivity|]. now rewrite H1, IH. Qed.

  Lemma ga_len T p tes es : GoodAll T p tes es -> lenN tes = LL.lits_len es.
  Proof. induction 1 as [|te e tes r _ _ IH]; [reflexivity|]. rewrite lenN_cons, IH. reflexivity. Qed.

  Lemma ga_self T q tes es : GoodAll T (fun _ => q) tes es -> forall f, (ldepths es <= f)%nat ->
    mapM (fun el => constrain_type f el q) tes = COk tes.
  Proof.
    induction 1 as [|te e tes r (_ & _ & H3 & _) _ IH]; intros f Hf; [reflexivity|].
    cbn [ldepths] in Hf. cbn [mapM]. rewrite (H3 f) by lia. cbn [cbind]. rewrite (IH f) by lia. reflexivity.
  Qed.

  Lemma ga_fin T q tes es : GoodAll T (fun _ => q) tes es -> forall f, (ldepths es <= f)%nat ->
    exists tes', mapM (fun el => constrain_type f el T) tes = COk tes' /\ into_lits intern tes' = COk es.
  Proof.
    induction 1 as [|te e tes r (_ & _ & _ & H4 & _) _ IH]; intros f Hf; [exists []; split; reflexivity|].
    cbn [ldepths] in Hf. destruct (H4 f ltac:(lia)) as (te' & E1 & _ & E2).
    destruct (IH f ltac:(lia)) as (tes' & E3 & E4). exists (te' :: tes'). cbn [mapM into_lits].
    rewrite E1. cbn [cbind]. rewrite E3. cbn [cbind]. split; [reflexivity|].
    rewrite E2. cbn [cbind]. fold (into_lits intern). rewrite E4. reflexivity.
  Qed.

  Lemma gz_self tes es Ts : GoodZip tes es Ts -> forall f, (ldepths es <= f)%nat ->
    zipM (fun el t => constrain_type f el t) tes (pts es) = COk tes.
  Proof.
    induction 1 as [|te e T tes r Tr (_ & _ & H3 & _) _ IH]; intros f Hf; [reflexivity|].
    cbn [ldepths] in Hf. cbn [zipM pts]. rewrite (H3 f) by lia. cbn [cbind]. rewrite (IH f) by lia. reflexivity.
  Qed.

  Lemma gz_fin tes es Ts : GoodZip tes es Ts -> forall f, (ldepths es <= f)%nat ->
    exists tes', zipM (fun el t => constrain_type f el t) tes Ts = COk tes' /\ into_lits intern tes' = COk es.
  Proof.
    induction 1 as [|te e T tes r Tr (_ & _ & _ & H4 & _) _ IH]; intros f Hf; [exists []; split; reflexivity|].
    cbn [ldepths] in Hf. destruct (H4 f ltac:(lia)) as (te' & E1 & _ & E2).
    destruct (IH f ltac:(lia)) as (tes' & E3 & E4). exists (te' :: tes'). cbn [zipM into_lits].
    rewrite E1. cbn [cbind]. rewrite E3. cbn [cbind]. split; [reflexivity|].
    rewrite E2. cbn [cbind]. fold (into_lits intern). rewrite E4. reflexivity.
  Qed.

  Lemma gz_len tes es Ts : GoodZip tes es Ts -> lenN tes = lenN Ts.
  Proof. induction 1 as [|te e T tes r Tr _ _ IH]; [reflexivity|]. now rewrite !lenN_cons, IH. Qed.

  Lemma gz_ow tes es Ts : GoodZip tes es Ts -> overwrite_zip (pts es) Ts = Ts.
  Proof.
    induction 1 as [|te e T tes r Tr (_ & H2 & _) _ IH]; [reflexivity|]. cbn [pts overwrite_zip]. now rewrite H2, IH.
  Qed.

  Lemma overwrite_zip_idem ts : overwrite_zip ts ts = ts.
  Proof. induction ts as [|t r IH]; [reflexivity|]. cbn [overwrite_zip]. now rewrite overwrite_ty_idem, IH. Qed.

  (* the elements of an array literal, constrained to the element type check.rs picks *)
  Lemma ga_retype_same T q tes es : GoodAll T pt tes es -> (forall x, In x (pts es) -> x = q) ->
    forall f, (ldepths es <= f)%nat ->
    mapM (fun fld => check_type f fld q) tes = COk tes /\ GoodAll T (fun _ => q) tes es.
  Proof.
    induction 1 as [|te e tes r HG _ IH]; intros Hq f Hf; [split; [reflexivity|constructor]|].
    cbn [ldepths] in Hf. cbn [pts] in Hq. pose proof (Hq (pt e) (or_introl eq_refl)) as Ee.
    destruct (IH (fun x Hx => Hq x (or_intror Hx)) f ltac:(lia)) as [E1 G1].
    rewrite Ee in HG. destruct HG as (H1 & H2 & H3 & H4 & H5). split.
    - cbn [mapM]. unfold check_type at 1. rewrite (H3 f) by lia. cbn [cbind]. rewrite H1, cty_eqb_refl.
      cbn [cbind]. rewrite E1. reflexivity.
    - constructor; [|exact G1]. unfold Good. auto.
  Qed.

  Lemma num_retype l q f : is_num l = true -> q = pt l \/ q = sU -> q = uU \/ q = sU ->
    check_type (S f) (TE (numinner l) (pt l)) q = COk (TE (numinner l) q).
  Proof.
    intros Hn H1 H2. destruct l; try discriminate Hn; cbn [numinner pt] in *.
    - destruct H2 as [-> | ->]; reflexivity.
    - destruct (z <? 0)%Z.
      + destruct H1 as [-> | ->]; reflexivity.
      + destruct H2 as [-> | ->]; reflexivity.
  Qed.

  Lemma ga_retype_num T q tes es : GoodAll T pt tes es -> all_num es = true -> rt_all es T = true ->
    (forall x, In x (pts es) -> q = x \/ q = sU) -> q = uU \/ q = sU -> (q = sU -> exists s, T = CSigned s) ->
    forall f, exists tes'', mapM (fun fld => check_type (S f) fld q) tes = COk tes'' /\ GoodAll T (fun _ => q) tes'' es.
  Proof.
    induction 1 as [|te e tes r HG _ IH]; intros Hnum Hok Hq Hq2 Hs f; [exists []; split; [reflexivity|constructor]|].
    cbn [all_num] in Hnum. apply andb_prop in Hnum as [Hn Hnr].
    cbn [rt_all] in Hok. apply andb_prop in Hok as [Hoke Hokr]. cbn [pts] in Hq.
    destruct (IH Hnr Hokr (fun x Hx => Hq x (or_intror Hx)) Hq2 Hs f) as (tes'' & E1 & G1).
    destruct HG as (H1 & _ & _ & _ & H5). specialize (H5 Hn).
    destruct te as [inner t]. cbn [ty_of inner_of] in H1, H5. subst inner t.
    exists (TE (numinner e) q :: tes''). split.
    - cbn [mapM]. rewrite (num_retype e q f Hn (Hq _ (or_introl eq_refl)) Hq2). cbn [cbind]. rewrite E1. reflexivity.
    - constructor; [|exact G1]. apply num_good; [exact Hn|exact Hoke|].
      destruct (Hq _ (or_introl eq_refl)) as [E|E]; [left; exact E|right; split; [exact E|exact (Hs E)]].
  Qed.

  Lemma into_array tes t : into_literal intern (TE (TArrayLiteral tes) t) = (do ls <- into_lits intern tes; COk (LL.LArray ls)).
  Proof. reflexivity. Qed.
  Lemma into_tuple tes t : into_literal intern (TE (TTupleLiteral tes) t) = (do ls <- into_lits intern tes; COk (LL.LTuple ls)).
  Proof. reflexivity. Qed.

  (* ---- struct definitions in name order *)
  Lemma insert_last {A} (f : list N * A) : forall acc,
    (forall g, In g acc -> name_ltb (fst f) (fst g) = false) -> insert_field f acc = acc ++ [f].
  Proof.
    induction acc as [|g r IH]; intro H; [reflexivity|]. cbn [insert_field app].
    rewrite (H g (or_introl eq_refl)). rewrite IH; [reflexivity|]. intros g' Hg'. apply H. now right.
  Qed.

  Lemma names_ok_cons x r : names_ok (x :: r) = forallb (fun y => negb (name_ltb y x) && negb (list_eqb y x)) r && names_ok r.
  Proof. reflexivity. Qed.

  Lemma sort_fields_acc {A} : forall (l acc : list (list N * A)), names_ok (map fst l) = true ->
    (forall g f, In g acc -> In f l -> name_ltb (fst f) (fst g) = false) ->
    fold_left (fun a f => insert_field f a) l acc = acc ++ l.
  Proof.
    induction l as [|x r IH]; intros acc Hs Hacc; [now rewrite app_nil_r|].
    cbn [fold_left map] in *. rewrite names_ok_cons in Hs. apply andb_prop in Hs as [Hx Hr].
    rewrite insert_last by (intros g Hg; apply (Hacc g x Hg); now left).
    rewrite IH; [now rewrite <- app_assoc|exact Hr|].
    intros g f Hg Hf. apply in_app_or in Hg as [Hg|[<-|[]]].
    - apply (Hacc g f Hg). now right.
    - rewrite forallb_forall in Hx. specialize (Hx (fst f) (in_map fst _ _ Hf)).
      apply andb_prop in Hx as [Hx _]. now destruct (name_ltb (fst f) (fst x)).
  Qed.

  Lemma sort_fields_sorted {A} (l : list (list N * A)) : names_ok (map fst l) = true -> sort_fields l = l.
  Proof. intro H. unfold sort_fields. rewrite sort_fields_acc; [reflexivity|exact H|intros g f []]. Qed.

  Lemma assocL_distinct {A} : forall (def : list (list N * A)) k v, names_ok (map fst def) = true ->
    In (k, v) def -> assocL k def = Some v.
  Proof.
    induction def as [|[k0 v0] r IH]; intros k v Hs Hin; [destruct Hin|].
    cbn [map fst] in Hs. rewrite names_ok_cons in Hs. apply andb_prop in Hs as [Hx Hr]. cbn [assocL].
    destruct Hin as [[= -> ->]|Hin]; [now rewrite list_eqb_refl|].
    rewrite forallb_forall in Hx. specialize (Hx k (in_map fst _ _ Hin)). cbn [fst] in Hx.
    apply andb_prop in Hx as [_ Hx]. destruct (list_eqb k k0); [discriminate Hx|]. now apply IH.
  Qed.

  Lemma missing_field_same {A B} (def : list (list N * A)) (fields : list (list N * B)) :
    map fst fields = map fst def -> missing_field def fields = false.
  Proof.
    intro H. unfold missing_field. apply Bool.not_true_is_false. intro Hc. apply existsb_exists in Hc as (d & Hd & Hn).
    assert (Hin : In (fst d) (map fst fields)) by (rewrite H; now apply in_map).
    apply in_map_iff in Hin as (f & Ef & Hf).
    assert (He : existsb (fun f0 => list_eqb (fst f0) (fst d)) fields = true).
    { apply existsb_exists. exists f. split; [exact Hf|]. rewrite Ef. apply list_eqb_refl. }
    rewrite He in Hn. discriminate Hn.
  Qed.

  Lemma ufields_cons f v r : ufields unintern (LL.LFCons f v r) = (unintern f, ul v) :: ufields unintern r.
  Proof. reflexivity. Qed.
  Lemma rt_fields_cons f v r fname ft dr :
    rt_fields (LL.LFCons f v r) ((fname, ft) :: dr) = name_ok f fname && rt_ok v ft && rt_fields r dr.
  Proof. reflexivity. Qed.

  Lemma rt_fields_names : forall fs def, rt_fields fs def = true -> map fst (ufields unintern fs) = map fst def.
  Proof.
    fix IH 1. intros [|f v r] [|[fname ft] dr] H; try discriminate H; [reflexivity|].
    rewrite rt_fields_cons in H. apply andb_prop in H as [H Hr]. apply andb_prop in H as [Hn _].
    destruct (name_ok_spec _ _ Hn) as [<- _]. rewrite ufields_cons. cbn [map fst]. now rewrite (IH r dr Hr).
  Qed.

  Lemma gz_check tes es Ts : GoodZip tes es Ts -> forall f, (ldepths es <= f)%nat ->
    exists tes', zipM (fun v t => check_type f v t) tes Ts = COk tes' /\ into_lits intern tes' = COk es.
  Proof.
    induction 1 as [|te e T tes r Tr (_ & _ & _ & H4 & _) _ IH]; intros f Hf; [exists []; split; reflexivity|].
    cbn [ldepths] in Hf. destruct (H4 f ltac:(lia)) as (te' & E1 & E2 & E3).
    destruct (IH f ltac:(lia)) as (tes' & E4 & E5). exists (te' :: tes'). cbn [zipM into_lits].
    unfold check_type at 1. rewrite E1. cbn [cbind]. rewrite E2, cty_eqb_refl. cbn [cbind]. rewrite E4. cbn [cbind].
    split; [reflexivity|]. rewrite E3. cbn [cbind]. fold (into_lits intern). rewrite E5. reflexivity.
  Qed.

  Lemma gz_len2 tes es Ts : GoodZip tes es Ts -> lenN tes = LL.lits_len es.
  Proof. induction 1 as [|te e T tes r Tr _ _ IH]; [reflexivity|]. rewrite lenN_cons, IH. reflexivity. Qed.

  Lemma into_enum name v tes t :
    into_literal intern (TE (TEnumLiteral name v (Some tes)) t) =
    (do ls <- into_lits intern tes; COk (LL.LEnumTuple (intern name) (intern v) ls)).
  Proof. reflexivity. Qed.
  Lemma into_struct name tfs t :
    into_literal intern (TE (TStructLiteral name tfs) t) =
    (do fs <- into_fields intern tfs; COk (LL.LStruct (intern name) fs)).
  Proof. reflexivity. Qed.

  (* ---- the induction *)
  Definition CEst (l : LL.lit) : Prop := forall T, rt_ok l T = true -> forall f st, (ldepth l <= f)%nat ->
    exists te, check_expr intern f D st (xexpr_of_uexpr (ul l)) = COk (te, st) /\ Good te l T (pt l).
  Definition CAst (es : LL.lits) : Prop := forall ET, rt_all es ET = true -> forall f st, (ldepths es <= f)%nat ->
    exists tes, mapM_st (check_expr intern f D) st (map xexpr_of_uexpr (uls es)) = COk (tes, st) /\ GoodAll ET pt tes es.
  Definition CZst (es : LL.lits) : Prop := forall Ts, rt_zip es Ts = true -> forall f st, (ldepths es <= f)%nat ->
    exists tes, mapM_st (check_expr intern f D) st (map xexpr_of_uexpr (uls es)) = COk (tes, st) /\ GoodZip tes es Ts.

  Definition xfields (fs : LL.lfields) : list (list N * xexpr) :=
    map (fun f : list N * uexpr => (fst f, xexpr_of_uexpr (snd f))) (ufields unintern fs).
  (* the field loop of a struct literal whose fields are those of (the rest [dr] of) the definition, in order *)
  Definition CFst (fs : LL.lfields) : Prop := forall dr, rt_fields fs dr = true -> forall def_all seen f st,
    names_ok (map fst dr) = true ->
    (forall fname ft, In (fname, ft) dr -> assocL fname def_all = Some ft) ->
    (forall fname, In fname (map fst dr) -> memL fname seen = false) -> (ldepthf fs <= f)%nat ->
    exists tfs, struct_lit_loop (check_expr intern f D) f def_all seen st (xfields fs) = COk (tfs, st) /\
                into_fields intern tfs = COk fs.

  Lemma ul_array es : xexpr_of_uexpr (ul (LL.LArray es)) = XArrayLiteral (map xexpr_of_uexpr (uls es)).
  Proof. reflexivity. Qed.
  Lemma ul_tuple es : xexpr_of_uexpr (ul (LL.LTuple es)) = XTupleLiteral (map xexpr_of_uexpr (uls es)).
  Proof. reflexivity. Qed.
  Lemma ul_repeat e n : xexpr_of_uexpr (ul (LL.LRepeat e n)) = XArrayRepeatLiteral (xexpr_of_uexpr (ul e)) n.
  Proof. reflexivity. Qed.
  Lemma uls_cons e r : map xexpr_of_uexpr (uls (LL.LsCons e r)) = xexpr_of_uexpr (ul e) :: map xexpr_of_uexpr (uls r).
  Proof. reflexivity. Qed.
  Lemma pt_array e r : pt (LL.LArray (LL.LsCons e r)) =
    CArray (pick_elem_ty (pt e) (pts (LL.LsCons e r))) (LL.lits_len (LL.LsCons e r)).
  Proof. reflexivity. Qed.
  Lemma pt_tuple es : pt (LL.LTuple es) = CTuple (pts es). Proof. reflexivity. Qed.
  Lemma pts_cons e r : pts (LL.LsCons e r) = pt e :: pts r. Proof. reflexivity. Qed.

  Lemma all_num_pts : forall es, all_num es = true -> forall x, In x (pts es) -> x = uU \/ x = sU.
  Proof.
    fix IH 1. intros [|e r].
    - intros _ x [].
    - cbn [all_num]. rewrite pts_cons. intros H x [<-|Hx].
      + apply andb_prop in H as [H _]. destruct e; try discriminate H; cbn [pt]; auto. destruct (z <? 0)%Z; auto.
      + apply andb_prop in H as [_ H]. now apply (IH r).
  Qed.

  Lemma rt_all_cons e r T : rt_all (LL.LsCons e r) T = rt_ok e T && rt_all r T.
  Proof. reflexivity. Qed.

  Lemma neg_signed : forall es T, all_num es = true -> rt_all es T = true -> In sU (pts es) -> exists s, T = CSigned s.
  Proof.
    fix IH 1. intros [|e r] T.
    - intros _ _ [].
    - cbn [all_num]. rewrite rt_all_cons, pts_cons. intros Hn Hok [E|Hin].
      + apply andb_prop in Hn as [Hn _]. apply andb_prop in Hok as [Hok _].
        destruct e; try discriminate Hn; cbn [pt] in E; try discriminate E.
        destruct T; try discriminate Hok. eauto.
      + apply andb_prop in Hn as [_ Hn]. apply andb_prop in Hok as [_ Hok]. now apply (IH r T).
  Qed.

  Lemma uls_len : forall es, lenN (map xexpr_of_uexpr (uls es)) = LL.lits_len es.
  Proof.
    fix IH 1. intros [|e r]; [reflexivity|]. rewrite uls_cons, lenN_cons, (IH r). reflexivity.
  Qed.

  Lemma overwrite_ty_tuple acts exs : overwrite_ty (CTuple acts) (CTuple exs) = CTuple (overwrite_zip acts exs).
  Proof.
    cbn [overwrite_ty]. f_equal. revert acts. induction exs as [|x r IH]; intros [|a ar]; try reflexivity.
    cbn [overwrite_zip]. now rewrite IH.
  Qed.
  Lemma lenN_map' {A B} (g : A -> B) l : lenN (map g l) = lenN l.
  Proof. unfold lenN. now rewrite map_length. Qed.
  Lemma unum_uty u : unum_of (uty_of u) = u.
  Proof. destruct u; reflexivity. Qed.
  Lemma rt_zip_cons e r T Tr : rt_zip (LL.LsCons e r) (T :: Tr) = rt_ok e T && rt_zip r Tr.
  Proof. reflexivity. Qed.
  Lemma mapM_st_cons {S A B} (g : S -> A -> cres (B * S)) st x r :
    mapM_st g st (x :: r) = (do r1 <- g st x; do r2 <- mapM_st g (snd r1) r; COk (fst r1 :: fst r2, snd r2)).
  Proof. reflexivity. Qed.

  Lemma check_back_mut :
    (forall l, CEst l) /\ (forall es, CAst es /\ CZst es) /\ (forall fs, CFst fs).
  Proof.
    unfold CEst, CAst, CZst, CFst. apply rt_ok_ind.
    - (* true *) intros [|f] st Hf; [cbn in Hf; lia|]. exists (TE TTrue CBool). split; [reflexivity|]. now apply Good_final.
    - intros [|f] st Hf; [cbn in Hf; lia|]. exists (TE TFalse CBool). split; [reflexivity|]. now apply Good_final.
    - (* unsigned *) intros n u Hfit [|f] st Hf; [cbn in Hf; lia|].
      exists (TE (numinner (LL.LUnsigned n (uty_of u))) (pt (LL.LUnsigned n (uty_of u)))). split; [reflexivity|].
      apply num_good; [reflexivity| |left; reflexivity]. cbn [rt_ok]. now rewrite LiteralProofs.uty_eqb_refl.
    - (* signed *) intros z s Hfit [|f] st Hf; [cbn in Hf; lia|].
      exists (TE (numinner (LL.LSigned z (sty_of s))) (pt (LL.LSigned z (sty_of s)))). split.
      + cbn [ulit numinner pt]. destruct (z <? 0)%Z; reflexivity.
      + apply num_good; [reflexivity| |left; reflexivity]. cbn [rt_ok]. now rewrite LiteralProofs.sty_eqb_refl.
    - (* repeat *) intros e n0 ET _ IH [|f] st Hf; [cbn in Hf; lia|]. cbn [ldepth] in Hf.
      destruct (IH f st ltac:(lia)) as (te & Ece & (H1 & H2 & H3 & H4 & _)).
      exists (TE (TArrayRepeatLiteral te n0) (CArray (ty_of te) n0)). split.
      + rewrite ul_repeat. cbn [check_expr]. rewrite Ece. reflexivity.
      + cbn [pt]. rewrite H1. apply Good_intro.
        * reflexivity.
        * cbn [overwrite_ty]. now rewrite H2.
        * intros f' Hf'. cbn [ldepth] in Hf'. cbn [constrain_type inner_of ty_of].
          rewrite (H3 f') by lia. cbn [cbind overwrite_elem set_ty ty_of overwrite_ty]. now rewrite !overwrite_ty_idem.
        * intros f' Hf'. cbn [ldepth] in Hf'. destruct (H4 f' ltac:(lia)) as (te' & E1 & E2 & E3).
          exists (TE (TArrayRepeatLiteral te' n0) (CArray ET n0)). cbn [constrain_type inner_of ty_of].
          rewrite E1. cbn [cbind overwrite_elem set_ty ty_of overwrite_ty]. rewrite H2, overwrite_ty_idem.
          split; [reflexivity|]. split; [reflexivity|]. cbn [into_literal]. rewrite E3. reflexivity.
        * discriminate.
    - (* array *) intros e r ET Hall IHa Hshape [|f] st Hf; [cbn in Hf; lia|]. cbn [ldepth] in Hf.
      destruct (IHa f st ltac:(lia)) as (tes & Em & GA).
      pose proof (ga_tys _ _ _ GA) as Htys. pose proof (ga_len _ _ _ _ GA) as Hl.
      set (picked := pick_elem_ty (pt e) (pt e :: pts r)).
      assert (Hre : exists tes'', mapM (fun fld => check_type f fld picked) tes = COk tes'' /\
                                  GoodAll ET (fun _ => picked) tes'' (LL.LsCons e r)).
      { apply orb_prop in Hshape as [Hnum|Huni].
        - pose proof (all_num_pts _ Hnum) as Hps. rewrite pts_cons in Hps.
          destruct f as [|f0]; [pose proof (ldepth_pos e); cbn [ldepths] in Hf; lia|].
          destruct (pick_num (pt e) (pts r) Hps) as [[Ep Hallu]|[Ep Hin]]; fold picked in Ep.
          + apply (ga_retype_num ET picked tes _ GA Hnum Hall).
            * intros x Hx. left. rewrite pts_cons in Hx. rewrite Ep. symmetry. now apply Hallu.
            * now left.
            * rewrite Ep. discriminate.
          + apply (ga_retype_num ET picked tes _ GA Hnum Hall).
            * intros x Hx. now right.
            * now right.
            * intros _. apply (neg_signed _ _ Hnum Hall). now rewrite pts_cons.
        - rewrite pts_cons in Huni. cbn [uniform] in Huni.
          assert (Ep : picked = pt e) by (unfold picked; now apply pick_uniform).
          exists tes. apply (ga_retype_same ET picked tes _ GA); [|lia].
          intros x Hx. rewrite pts_cons in Hx. rewrite Ep. destruct Hx as [<-|Hx]; [reflexivity|].
          rewrite forallb_forall in Huni. symmetry. apply cty_eqb_eq. now apply Huni. }
      destruct Hre as (tes'' & Ect & GA').
      pose proof (ga_len _ _ _ _ GA') as Hl''.
      assert (Hlen'' : lenN (map xexpr_of_uexpr (uls (LL.LsCons e r))) = LL.lits_len (LL.LsCons e r)).
      { apply uls_len. }
      inversion GA as [|te0 e0 tes0 r0 G0 GAr]; subst.
      inversion GA' as [|te1 e1 tes1 r1 G1 GAr']; subst.
      exists (TE (TArrayLiteral (te1 :: tes1)) (CArray picked (lenN (map xexpr_of_uexpr (uls (LL.LsCons e r)))))). split.
      + rewrite ul_array. cbn [check_expr]. rewrite Em. cbn [cbind fst snd]. rewrite Htys, pts_cons, (proj1 G0).
        fold picked. rewrite Ect. reflexivity.
      + rewrite pt_array, pts_cons. fold picked. rewrite Hlen''. destruct G1 as (_ & G14 & _).
        apply Good_intro.
        * reflexivity.
        * cbn [overwrite_ty]. now rewrite G14.
        * intros f' Hf'. cbn [ldepth] in Hf'.
          cbn [constrain_type inner_of ty_of]. rewrite (ga_self _ _ _ _ GA' f') by lia.
          cbn [cbind overwrite_elem set_ty ty_of overwrite_ty]. now rewrite !overwrite_ty_idem.
        * intros f' Hf'. cbn [ldepth] in Hf'.
          destruct (ga_fin _ _ _ _ GA' f' ltac:(lia)) as (tes' & E3 & E4).
          exists (TE (TArrayLiteral tes') (CArray ET (LL.lits_len (LL.LsCons e r)))). cbn [constrain_type inner_of ty_of]. rewrite E3.
          cbn [cbind overwrite_elem set_ty ty_of overwrite_ty]. rewrite G14, overwrite_ty_idem.
          split; [reflexivity|]. split; [reflexivity|]. rewrite into_array, E4. reflexivity.
        * discriminate.
    - (* tuple *) intros es Ts _ IHz [|f] st Hf; [cbn in Hf; lia|]. cbn [ldepth] in Hf.
      destruct (IHz f st ltac:(lia)) as (tes & Em & GZ).
      pose proof (gz_tys _ _ _ GZ) as Htys.
      exists (TE (TTupleLiteral tes) (CTuple (map ty_of tes))). split.
      + rewrite ul_tuple. cbn [check_expr]. rewrite Em. reflexivity.
      + rewrite pt_tuple, Htys. apply Good_intro.
        * reflexivity.
        * rewrite overwrite_ty_tuple. now rewrite (gz_ow _ _ _ GZ).
        * intros f' Hf'. cbn [ldepth] in Hf'.
          cbn [constrain_type inner_of ty_of].
          assert (Hl : lenN tes =? lenN (pts es) = true) by (rewrite <- Htys, lenN_map'; apply N.eqb_refl).
          rewrite Hl. rewrite (gz_self _ _ _ GZ f') by lia. cbn [cbind overwrite_fields set_ty ty_of].
          rewrite overwrite_zip_idem, overwrite_ty_tuple, overwrite_zip_idem. reflexivity.
        * intros f' Hf'. cbn [ldepth] in Hf'.
          destruct (gz_fin _ _ _ GZ f' ltac:(lia)) as (tes' & E3 & E4).
          exists (TE (TTupleLiteral tes') (CTuple Ts)). cbn [constrain_type inner_of ty_of].
          rewrite (gz_len _ _ _ GZ), N.eqb_refl. rewrite E3. cbn [cbind overwrite_fields set_ty ty_of].
          rewrite (gz_ow _ _ _ GZ), overwrite_ty_tuple, overwrite_zip_idem.
          split; [reflexivity|]. split; [reflexivity|]. rewrite into_tuple, E4. reflexivity.
        * discriminate.
    - (* struct *) intros n fs def Hi _ Ed Hsorted Hfs IHf [|f] st Hf; [cbn in Hf; lia|].
      cbn [ldepth] in Hf.
      pose proof (rt_fields_names _ _ Hfs) as Hnames.
      assert (Hsort : sort_fields (ufields unintern fs) = ufields unintern fs)
        by (apply sort_fields_sorted; now rewrite Hnames).
      destruct (IHf def [] f st Hsorted (fun k v Hin => assocL_distinct def k v Hsorted Hin)
                    (fun _ _ => eq_refl) ltac:(lia)) as (tfs & El & Ei).
      exists (TE (TStructLiteral (unintern n) tfs) (CStruct (unintern n))). split.
      + change (xexpr_of_uexpr (ul (LL.LStruct n fs))) with
          (XStructLiteral (unintern n) (map (fun f0 : list N * uexpr => (fst f0, xexpr_of_uexpr (snd f0)))
                                            (sort_fields (ufields unintern fs)))).
        rewrite Hsort. fold (xfields fs). cbn [check_expr]. rewrite Ed, El. cbn [cbind fst snd].
        rewrite missing_field_same; [reflexivity|]. unfold xfields. rewrite map_map. cbn [fst]. exact Hnames.
      + apply Good_final; try reflexivity. rewrite into_struct, Ei. cbn [cbind]. now rewrite Hi.
    - (* enum, unit *) intros n v vs Hi _ Ed Ev Hv [|f] st Hf; [cbn in Hf; lia|].
      exists (TE (TEnumLiteral (unintern n) (unintern v) None) (CEnum (unintern n))). split.
      + change (xexpr_of_uexpr (ul (LL.LEnumUnit n v))) with (XEnumLiteral (unintern n) (unintern v) None).
        cbn [check_expr]. rewrite Ed, Ev. reflexivity.
      + apply Good_final; try reflexivity. cbn [into_literal]. now rewrite Hi, Hv.
    - (* enum, tuple *) intros n v es vs tys Hi _ Ed Ev Hv _ IHz [|f] st Hf; [cbn in Hf; lia|].
      cbn [ldepth] in Hf.
      destruct (IHz f st ltac:(lia)) as (tes & Em & GZ).
      destruct (gz_check _ _ _ GZ f ltac:(lia)) as (exprs & Ez & Ei).
      exists (TE (TEnumLiteral (unintern n) (unintern v) (Some exprs)) (CEnum (unintern n))). split.
      + change (xexpr_of_uexpr (ul (LL.LEnumTuple n v es))) with
          (XEnumLiteral (unintern n) (unintern v) (Some (map xexpr_of_uexpr (uls es)))).
        cbn [check_expr]. rewrite Ed, Ev.
        rewrite uls_len, <- (gz_len2 _ _ _ GZ), (gz_len _ _ _ GZ), N.eqb_refl. cbn [negb].
        rewrite Em. cbn [cbind fst snd]. rewrite Ez. reflexivity.
      + apply Good_final; try reflexivity. rewrite into_enum, Ei. cbn [cbind]. now rewrite Hi, Hv.
    - (* range *) intros mn mx u Hnu Hlt Hmax [|f] st Hf; [cbn in Hf; lia|].
      exists (TE (TRange mn mx u) (CArray (CUnsigned u) (mx - mn))). split.
      + change (xexpr_of_uexpr (ul (LL.LRange mn mx (uty_of u)))) with (XRange mn mx (unum_of (uty_of u))).
        rewrite unum_uty. cbn [check_expr].
        assert ((mx <=? mn) = false) as -> by (apply N.leb_gt; exact Hlt).
        assert ((u32_max <? mx - mn) = false) as -> by (apply N.ltb_ge; exact Hmax). reflexivity.
      + change (pt (LL.LRange mn mx (uty_of u))) with (CArray (CUnsigned (unum_of (uty_of u))) (mx - mn)).
        rewrite unum_uty. apply Good_final; try reflexivity.
        (* the number type of a printed range is never Unspecified: the arm of constrain_type for
           unsuffixed ranges does not fire *)
        intro f'. destruct u; try discriminate Hnu; cbn [constrain_type inner_of ty_of cbind set_ty];
          now rewrite overwrite_ty_idem.
    - (* no elements *) intros ET f st _. exists []. split; [reflexivity|constructor].
    - (* one more element *) intros e r ET _ IHe _ IHa f st Hf. cbn [ldepths] in Hf.
      destruct (IHe f st ltac:(lia)) as (te & E1 & G1). destruct (IHa f st ltac:(lia)) as (tes & E2 & G2).
      exists (te :: tes). split; [|constructor; assumption].
      rewrite uls_cons, mapM_st_cons, E1. cbn [cbind fst snd]. rewrite E2. reflexivity.
    - intros f st _. exists []. split; [reflexivity|constructor].
    - intros e r T Tr _ IHe _ IHz f st Hf. cbn [ldepths] in Hf.
      destruct (IHe f st ltac:(lia)) as (te & E1 & G1). destruct (IHz f st ltac:(lia)) as (tes & E2 & G2).
      exists (te :: tes). split; [|constructor; assumption].
      rewrite uls_cons, mapM_st_cons, E1. cbn [cbind fst snd]. rewrite E2. reflexivity.
    - (* no more fields *) intros def_all seen f st _ _ _ _. exists []. split; reflexivity.
    - (* one more field *) intros fn v r ft dr Hi _ IHv _ IHr def_all seen f st Hs Hassoc Hseen Hf.
      cbn [ldepthf] in Hf.
      cbn [map fst] in Hs. rewrite names_ok_cons in Hs. apply andb_prop in Hs as [Hx Hsr].
      destruct (IHv f st ltac:(lia)) as (te & Ece & (_ & _ & _ & H4 & _)).
      destruct (H4 f ltac:(lia)) as (te' & E1 & E2 & E3).
      destruct (IHr def_all (unintern fn :: seen) f st Hsr) as (tfs & El & Ei).
      { intros k t Hin. apply Hassoc. now right. }
      { intros k Hk. pose proof (Hseen k ltac:(cbn [map fst]; now right)) as Hk'. unfold memL in Hk' |- *.
        cbn [existsb]. rewrite Hk', orb_false_r.
        rewrite forallb_forall in Hx. specialize (Hx k Hk). apply andb_prop in Hx as [_ Hx].
        destruct (list_eqb k (unintern fn)); [discriminate Hx|reflexivity]. }
      { lia. }
      exists ((unintern fn, te') :: tfs). split.
      + unfold xfields. rewrite ufields_cons. cbn [map fst snd struct_lit_loop].
        rewrite (Hseen (unintern fn)) by (cbn [map fst]; now left).
        rewrite (Hassoc (unintern fn) ft) by now left. rewrite Ece. cbn [cbind fst snd].
        unfold check_type. rewrite E1. cbn [cbind]. rewrite E2, cty_eqb_refl. cbn [cbind].
        fold (xfields r). rewrite El. reflexivity.
      + cbn [into_fields]. rewrite E3. cbn [cbind]. fold (into_fields intern). rewrite Ei. cbn [cbind]. now rewrite Hi.
  Qed.

  Lemma rt_ok_pok_mut :
    (forall l T, rt_ok l T = true -> pok unintern l = true) /\
    (forall es, (forall T, rt_all es T = true -> poks unintern es = true) /\
                (forall Ts, rt_zip es Ts = true -> poks unintern es = true)) /\
    (forall fs, forall def, rt_fields fs def = true -> pokf unintern fs = true).
  Proof.
    apply rt_ok_ind; try reflexivity; try (intros; assumption).
    - intros n fs def _ Hnb _ _ _ IH. change (not_bool_name (unintern n) && pokf unintern fs = true). now rewrite Hnb.
    - intros n v es vs tys _ Hnb _ _ _ _ IH. change (not_bool_name (unintern n) && poks unintern es = true). now rewrite Hnb.
    - intros e r T _ IHe _ IHr. rewrite poks_cons, IHe. exact IHr.
    - intros e r T Tr _ IHe _ IHr. rewrite poks_cons, IHe. exact IHr.
    - intros f v r ft dr _ _ IHv _ IHr. rewrite pokf_cons, IHv. exact IHr.
  Qed.

  Notation ltk := (lit_tokens unintern).
  Notation mtk := (more_tokens unintern).

  Lemma ldepth_tokens_mut :
    (forall l, (ldepth l <= length (ltk l))%nat) /\
    (forall es, (ldepths es <= length (mtk es))%nat /\
                match es with LL.LsNil => True | LL.LsCons e r => (ldepths es <= length (ltk e ++ mtk r))%nat end) /\
    (forall fs, (ldepthf fs <= length (more_fields unintern fs))%nat /\
                match fs with LL.LFNil => True | LL.LFCons _ v r => (ldepthf fs <= length (ltk v ++ more_fields unintern r))%nat end).
  Proof.
    apply LiteralProofs.lit_mutind.
    - cbn. lia.
    - cbn. lia.
    - intros. cbn. lia.
    - intros. cbn. lia.
    - intros e IH n. cbn [ldepth]. rewrite ltoks_repeat. cbn [length]. rewrite app_length. lia.
    - intros es [_ IH]. cbn [ldepth]. destruct es as [|e r]; [cbn; lia|].
      rewrite ltoks_array. cbn [length]. rewrite app_length. cbn [length]. lia.
    - intros es [_ IH]. cbn [ldepth]. destruct es as [|e r]; [cbn; lia|].
      destruct r as [|e2 r2].
      + rewrite ltoks_tuple1. cbn [length]. rewrite !app_length in *. cbn [length more_tokens] in *. lia.
      + rewrite ltoks_tuple2. cbn [length]. rewrite app_length. cbn [length]. lia.
    - intros name fs [_ IH]. cbn [ldepth].
      destruct fs as [|f v r]; [cbn; lia|]. rewrite ltoks_struct. cbn [length]. rewrite app_length. cbn [length app]. lia.
    - intros. cbn. lia.
    - intros name v es [_ IH]. cbn [ldepth].
      destruct es as [|e r]; [cbn; lia|]. rewrite ltoks_enum. cbn [length]. rewrite app_length. cbn [length]. lia.
    - intros. cbn. lia.
    - split; [cbn; lia|exact I].
    - intros e IHe r [IHr _]. cbn [ldepths]. rewrite mtoks_cons. cbn [length]. rewrite !app_length. split; lia.
    - split; [cbn; lia|exact I].
    - intros f v IHv r [IHr _]. cbn [ldepthf]. rewrite ftoks_cons. cbn [length]. rewrite !app_length. split; lia.
  Qed.

  (* THE ROUND TRIP, over tokens: printing a value of the type T and parsing the tokens back as a T
     yields the value *)
  Theorem roundtrip l T : rt_ok l T = true ->
    literal_parse_tokens intern D T (lit_tokens unintern l) = COk l.
  Proof.
    intro Hok. unfold literal_parse_tokens.
    rewrite (parse_back unintern l (proj1 rt_ok_pok_mut l T Hok)).
    assert (Hf : (ldepth l <= lit_fuel (ltk l))%nat).
    { pose proof (proj1 ldepth_tokens_mut l). unfold lit_fuel. lia. }
    destruct (proj1 check_back_mut l T Hok (lit_fuel (ltk l)) st_new Hf) as (te & Ece & (_ & _ & _ & H4 & _)).
    rewrite Ece. cbn [cbind fst]. destruct (H4 _ Hf) as (te' & E1 & E2 & E3).
    unfold check_type. rewrite E1. cbn [cbind]. rewrite E2, cty_eqb_refl. cbn [cbind].
    destruct te' as [i t]. cbn [ty_of] in E2. subst t. exact E3.
  Qed.
End CheckBack.

Print Assumptions parse_back.
Print Assumptions roundtrip.

(* ------------------------------------------------------------------ through the TEXT: examples and findings *)

Module RoundTripExamples.
  Import LitExamples.
  Fixpoint unint_aux (fuel : nat) (n : N) (acc : list N) : list N :=
    match fuel with
    | O => acc
    | S f => if n <=? 1 then acc else unint_aux f (n / 256) (n mod 256 :: acc)
    end.
  (* the inverse of [ex_intern] *)
  Definition ex_unintern (n : N) : list N := unint_aux 40 n [].

  Definition toks_of (ts : list token) : list token_enum := map (fun t => match t with Token e _ => e end) ts.
  (* the scanner reads the printed text as the printed tokens *)
  Definition scans_as_printed (l : LL.lit) : bool :=
    match scan_text (lit_text ex_unintern l) with
    | Ok (STokens ts) =>
        if list_eq_dec token_enum_eq_dec (toks_of ts) (toks_of (lit_tokens ex_unintern l)) then true else false
    | _ => false
    end.
  (* prg.parse_arg(i, format!("{l}")) *)
  Definition back (i : N) (l : LL.lit) : cres LL.lit :=
    literal_parse_program ex_intern 50 P i (lit_text ex_unintern l).
  Definition run (cases : list (N * LL.lit)) : list (bool * cres LL.lit) :=
    map (fun il => (scans_as_printed (snd il), back (fst il) (snd il))) cases.
  Definition expect_back (cases : list (N * LL.lit)) : list (bool * cres LL.lit) :=
    map (fun il => (true, COk (snd il))) cases.
  Definition I8_ (z : Z) := LL.LSigned z LT.I8.
  Definition Sv (a : N) (b : bool) :=
    LL.LStruct S_ (LL.LFCons a_ (U a) (LL.LFCons b_ (if b then LL.LTrue else LL.LFalse) LL.LFNil)).

  Example rt_forms :
    let cases :=
      [ (2, LL.LTrue); (2, LL.LFalse); (0, U 0); (0, U 255); (1, I8_ (-128)); (1, I8_ 127); (1, I8_ 0);
        (11, LL.LUnsigned 18446744073709551615 LT.U64); (12, LL.LSigned (-9223372036854775808) LT.I64);
        (14, LL.LUnsigned 4294967295 LT.Usize);
        (3, LL.LTuple (ls [U 1; LL.LTrue])); (8, LL.LTuple LL.LsNil);
        (4, LL.LArray (ls [U 1; U 2; U 3])); (4, LL.LRepeat (U 7) 3); (4, LL.LRange 2 5 LT.U8);
        (9, LL.LArray (ls [I8_ 1; I8_ (-2); I8_ 3])); (9, LL.LRepeat (I8_ (-1)) 3);
        (5, Sv 1 true); (6, LL.LEnumUnit E_ A_); (6, LL.LEnumTuple E_ B_ (ls [U 1; LL.LSigned (-2) LT.I16]));
        (7, LL.LArray (ls [LL.LArray (ls [U 1; U 2]); LL.LRepeat (U 3) 2]));
        (7, LL.LArray (ls [LL.LRange 0 2 LT.U8; LL.LArray (ls [U 1; U 2])]));
        (13, LL.LArray (ls [LL.LTuple (ls [Sv 1 false; LL.LEnumUnit E_ A_]);
                            LL.LTuple (ls [Sv 2 true; LL.LEnumTuple E_ B_ (ls [U 3; LL.LSigned 4 LT.I16])])])) ] in
    run cases = expect_back cases.
  Proof. vm_compute. reflexivity. Qed.

  (* ---- literals that are of their type and do NOT come back *)
  Definition D0 : defs := mkDefs [] [] [] [] [] [].
  Definition typed (l : LL.lit) (ty : cty) : option bool := lit_is_of_type ex_intern D0 10 l ty.
  Definition reparse (l : LL.lit) (ty : cty) : cres LL.lit := literal_parse ex_intern D0 ty (lit_text ex_unintern l).
  Definition i8t := CSigned I8.
  Definition u8t := CUnsigned U8.

  (* 1. an array whose ELEMENTS are aggregates with a number that is negative in one element and
     not in another, at the same position: "[(1,), (-1,)]", "[[1], [-1]]", "[(1, -2), (-1, 2)]".
     check.rs types the elements one by one ((unsigned-unspecified,) and (signed-unspecified,)),
     takes the type of the FIRST element as the element type and then fails to constrain the
     other element to it (UnexpectedType).  (A flat array "[1, -1]" is accepted: for number
     elements check.rs looks for a more specific element type first.) *)
  Example mixed_sign_elements_refuted :
    let l1 := LL.LArray (ls [LL.LTuple (ls [I8_ 1]); LL.LTuple (ls [I8_ (-1)])]) in
    let l2 := LL.LArray (ls [LL.LArray (ls [I8_ 1]); LL.LArray (ls [I8_ (-1)])]) in
    let l3 := LL.LArray (ls [LL.LTuple (ls [I8_ 1; I8_ (-2)]); LL.LTuple (ls [I8_ (-1); I8_ 2])]) in
    (typed l1 (CArray (CTuple [i8t]) 2), reparse l1 (CArray (CTuple [i8t]) 2)) = (Some true, CErr E_UnexpectedType) /\
    (typed l2 (CArray (CArray i8t 1) 2), reparse l2 (CArray (CArray i8t 1) 2)) = (Some true, CErr E_UnexpectedType) /\
    (typed l3 (CArray (CTuple [i8t; i8t]) 2), reparse l3 (CArray (CTuple [i8t; i8t]) 2)) = (Some true, CErr E_UnexpectedType) /\
    lit_text ex_unintern l1 = codes "[(1,), (-1,)]" /\ lit_text ex_unintern l2 = codes "[[1], [-1]]" /\
    lit_text ex_unintern l3 = codes "[(1, -2), (-1, 2)]".
  Proof. repeat split; vm_compute; reflexivity. Qed.

  (* 2. the empty array (the value of every [T; 0], e.g. what from_unwrapped_bits returns for it)
     prints "[]", which is not a literal for the parser *)
  Example empty_array_refuted :
    (typed (LL.LArray LL.LsNil) (CArray u8t 0), reparse (LL.LArray LL.LsNil) (CArray u8t 0)) = (Some true, CErr E_ParseLiteral) /\
    lit_text ex_unintern (LL.LArray LL.LsNil) = codes "[]".
  Proof. split; vm_compute; reflexivity. Qed.

  (* 3. the empty range: of type [u8; 0] for is_of_type, InvalidRange for check.rs *)
  Example empty_range_refuted :
    (typed (LL.LRange 3 3 LT.U8) (CArray u8t 0), reparse (LL.LRange 3 3 LT.U8) (CArray u8t 0)) = (Some true, CErr E_InvalidRange) /\
    lit_text ex_unintern (LL.LRange 3 3 LT.U8) = codes "3u8..3u8".
  Proof. split; vm_compute; reflexivity. Qed.

  (* 4. a range that ends at max + 1 (0u8..256u8 = all of u8): of type [u8; 256], but the printed
     upper bound "256u8" is a scan error; the TOKENS would come back *)
  Example full_range_refuted :
    (typed (LL.LRange 0 256 LT.U8) (CArray u8t 256), reparse (LL.LRange 0 256 LT.U8) (CArray u8t 256)) = (Some true, CErr E_Scan) /\
    lit_text ex_unintern (LL.LRange 0 256 LT.U8) = codes "0u8..256u8" /\
    literal_parse_tokens ex_intern D0 (CArray u8t 256) (lit_tokens ex_unintern (LL.LRange 0 256 LT.U8)) = COk (LL.LRange 0 256 LT.U8).
  Proof. repeat split; vm_compute; reflexivity. Qed.

  (* 5. a range with more than u32::MAX elements: InvalidRange *)
  Example long_range_refuted :
    let l := LL.LRange 0 4294967296 LT.U64 in
    (typed l (CArray (CUnsigned U64) 4294967296), reparse l (CArray (CUnsigned U64) 4294967296)) = (Some true, CErr E_InvalidRange).
  Proof. vm_compute. reflexivity. Qed.

  Definition DSE : defs :=
    mkDefs [] [(nm "S", [(nm "a", u8t); (nm "b", CBool)])]
           [(nm "E", [(nm "A", None); (nm "B", Some [u8t; CSigned I16])])] [] [nm "S"] [nm "E"].

  (* ---- the class [rt_ok] of the theorem [roundtrip]: non-vacuity, and the refuted literals are outside *)
  Example rt_ok_covers :
    map (fun lt => rt_ok ex_intern ex_unintern D0 (fst lt) (snd lt))
      [ (LL.LTrue, CBool); (U 255, u8t); (I8_ (-128), i8t); (LL.LTuple LL.LsNil, CTuple []);
        (LL.LTuple (ls [U 1]), CTuple [u8t]); (LL.LTuple (ls [U 1; LL.LTrue; I8_ (-1)]), CTuple [u8t; CBool; i8t]);
        (LL.LArray (ls [I8_ 1; I8_ (-2); I8_ 3]), CArray i8t 3); (LL.LRepeat (I8_ (-1)) 3, CArray i8t 3);
        (LL.LRange 2 5 LT.U8, CArray u8t 3); (LL.LRange 0 256 LT.U8, CArray u8t 256);
        (LL.LArray (ls [LL.LArray (ls [U 1; U 2]); LL.LArray (ls [U 3; U 4])]), CArray (CArray u8t 2) 2);
        (LL.LArray (ls [LL.LTuple (ls [I8_ 1; I8_ (-2)]); LL.LTuple (ls [I8_ 3; I8_ (-4)])]), CArray (CTuple [i8t; i8t]) 2);
        (LL.LArray (ls [LL.LRepeat (U 0) 2; LL.LRepeat (U 1) 2]), CArray (CArray u8t 2) 2) ]
    = repeat true 13.
  Proof. vm_compute. reflexivity. Qed.

  (* struct S { a: u8, b: bool }  enum E { A, B(u8, i16) } *)
  Example rt_ok_covers_named :
    map (fun lt => rt_ok ex_intern ex_unintern DSE (fst lt) (snd lt))
      [ (Sv 1 true, CStruct (nm "S")); (LL.LEnumUnit E_ A_, CEnum (nm "E"));
        (LL.LEnumTuple E_ B_ (ls [U 3; LL.LSigned (-4) LT.I16]), CEnum (nm "E"));
        (LL.LArray (ls [LL.LTuple (ls [Sv 1 false; LL.LEnumUnit E_ A_]);
                        LL.LTuple (ls [Sv 2 true; LL.LEnumTuple E_ B_ (ls [U 3; LL.LSigned 4 LT.I16])])]),
         CArray (CTuple [CStruct (nm "S"); CEnum (nm "E")]) 2) ]
    = repeat true 4.
  Proof. vm_compute. reflexivity. Qed.

  Example rt_ok_excludes :
    map (fun lt => rt_ok ex_intern ex_unintern DSE (fst lt) (snd lt))
      [ (LL.LArray (ls [LL.LTuple (ls [I8_ 1]); LL.LTuple (ls [I8_ (-1)])]), CArray (CTuple [i8t]) 2);
        (LL.LArray LL.LsNil, CArray u8t 0); (LL.LRange 3 3 LT.U8, CArray u8t 0);
        (LL.LRange 0 4294967296 LT.U64, CArray (CUnsigned U64) 4294967296);
        (* a struct value whose fields are not in the order of the definition is not a value of the type *)
        (LL.LStruct S_ (LL.LFCons b_ LL.LTrue (LL.LFCons a_ (U 1) LL.LFNil)), CStruct (nm "S"));
        (LL.LEnumUnit E_ B_, CEnum (nm "E")) ]
    = repeat false 6.
  Proof. vm_compute. reflexivity. Qed.

  (* an instance of the theorem *)
  Example roundtrip_instance :
    let l := LL.LArray (ls [LL.LTuple (ls [I8_ 1; I8_ (-2)]); LL.LTuple (ls [I8_ 3; I8_ (-4)])]) in
    literal_parse_tokens ex_intern D0 (CArray (CTuple [i8t; i8t]) 2) (lit_tokens ex_unintern l) = COk l.
  Proof. intro l. apply roundtrip. vm_compute. reflexivity. Qed.
  Example roundtrip_instance_named :
    let l := LL.LTuple (ls [Sv 2 true; LL.LEnumTuple E_ B_ (ls [U 3; LL.LSigned (-4) LT.I16])]) in
    literal_parse_tokens ex_intern DSE (CTuple [CStruct (nm "S"); CEnum (nm "E")]) (lit_tokens ex_unintern l) = COk l.
  Proof. intro l. apply roundtrip. vm_compute. reflexivity. Qed.
End RoundTripExamples.
