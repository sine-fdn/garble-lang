(* Soundness of the checker model w.r.t. Lang/Wt.v on programs without unsuffixed numbers.
   Part 1 (this section): on a typed tree without `Unspecified` types the whole literal-inference
   machinery (constrain_type, check_type, unify, check_or_constrain_*, constrain_to_i32) is the
   IDENTITY and only compares types. *)
From GV Require Import Base.Util Front.Scan Front.ParseExpr Check.UAst Check.Infer Check.InferProofs.
From GV Require Lang.Ast Lang.Wt.
Local Open Scope N_scope.

(* no `Unspecified` number type anywhere in the type *)
Fixpoint conc_ty (t : cty) : bool :=
  match t with
  | CUnsigned UnspecifiedU => false
  | CSigned UnspecifiedS => false
  | CArray e _ => conc_ty e
  | CTuple ts => forallb conc_ty ts
  | _ => true
  end.

(* every type recorded in the typed tree is concrete *)
Fixpoint conc_e (e : texpr) : bool :=
  match e with
  | TE i t =>
      conc_ty t &&
      match i with
      | TArrayLiteral es | TTupleLiteral es | TFnCall _ es => forallb conc_e es
      | TArrayRepeatLiteral x _ | TTupleAccess x _ | TStructAccess x _ | TUnaryOp _ x | TCast _ x => conc_e x
      | TArrayAccess a i => conc_e a && conc_e i
      | TStructLiteral _ fs => forallb (fun f => conc_e (snd f)) fs
      | TEnumLiteral _ _ (Some es) => forallb conc_e es
      | TMatch s arms => conc_e s && forallb (fun a => conc_e (snd a)) arms
      | TOp _ a b => conc_e a && conc_e b
      | TBlock b => forallb conc_s b
      | TIf c a b => conc_e c && conc_e a && conc_e b
      | TRange _ _ u => negb (unsigned_eqb u UnspecifiedU)   (* the range's own number type *)
      | _ => true
      end
  end
with conc_s (s : tstmt) : bool :=
  match s with
  | TSLet _ e | TSLetMut _ e | TSExpr e | TSVarAssign _ _ e => conc_e e
  | TSForEach _ e body => conc_e e && forallb conc_s body
  end.

Lemma conc_e_ty e : conc_e e = true -> conc_ty (ty_of e) = true.
Proof. destruct e. cbn [conc_e ty_of]. intro H. apply andb_true_iff in H. tauto. Qed.

Lemma conc_not_uU t : conc_ty t = true -> is_uU t = false.
Proof. destruct t as [|[]|[]| | | |]; cbn; try reflexivity; discriminate. Qed.
Lemma conc_not_sU t : conc_ty t = true -> is_sU t = false.
Proof. destruct t as [|[]|[]| | | |]; cbn; try reflexivity; discriminate. Qed.

(* overwrite_ty_if_necessary does nothing on a concrete type *)
Lemma overwrite_ty_conc : forall ex a, conc_ty a = true -> overwrite_ty a ex = a.
Proof.
  induction ex using cty_ind'; intros a Ha; cbn [overwrite_ty]; auto.
  - rewrite (conc_not_uU _ Ha). reflexivity.
  - rewrite (conc_not_uU _ Ha), (conc_not_sU _ Ha). reflexivity.
  - destruct a; auto. cbn [conc_ty] in Ha. rewrite IHex; auto.
  - destruct a; auto. cbn [conc_ty] in Ha. f_equal.
    revert ts0 Ha. induction H as [|x xs Hx Hxs IH]; intros acts Ha; [destruct acts; reflexivity|].
    destruct acts as [|a acts]; [reflexivity|]. cbn [forallb] in Ha. apply andb_true_iff in Ha. destruct Ha as [Ha1 Ha2].
    rewrite Hx by assumption. f_equal. apply IH. assumption.
Qed.

Lemma overwrite_elem_conc t el : conc_ty t = true -> overwrite_elem t el = t.
Proof. destruct t; auto. cbn [conc_ty overwrite_elem]. intro H. rewrite overwrite_ty_conc; auto. Qed.

Lemma overwrite_zip_conc : forall exs acts, forallb conc_ty acts = true -> overwrite_zip acts exs = acts.
Proof.
  induction exs as [|ex exs IH]; intros acts H; [destruct acts; reflexivity|].
  destruct acts as [|a acts]; [reflexivity|]. cbn [forallb] in H. apply andb_true_iff in H. destruct H.
  cbn [overwrite_zip]. rewrite overwrite_ty_conc, IH; auto.
Qed.

Lemma overwrite_fields_conc t els : conc_ty t = true -> overwrite_fields t els = t.
Proof. destruct t; auto. cbn [conc_ty overwrite_fields]. intro H. rewrite overwrite_zip_conc; auto. Qed.

Lemma set_ty_same e : set_ty e (ty_of e) = e.
Proof. destruct e; reflexivity. Qed.

(* check_or_constrain_* on a concrete type: a pure comparison *)
Lemma coc_unsigned_conc e u e' :
  check_or_constrain_unsigned e u = COk e' -> conc_ty (ty_of e) = true -> e' = e /\ ty_of e = CUnsigned u.
Proof.
  unfold check_or_constrain_unsigned. intros H Hc. rewrite (conc_not_uU _ Hc) in H.
  destruct (cty_eqb (ty_of e) (CUnsigned u)) eqn:E; [|discriminate]. apply cty_eqb_eq in E.
  cbn [negb andb] in H.
  assert (e' = set_ty e (CUnsigned u)).
  { destruct (unsigned_max u); [destruct (inner_of e); try (inv_all; reflexivity)|inv_all; reflexivity]. }
  subst e'. rewrite <- E. rewrite set_ty_same. auto.
Qed.

Lemma coc_signed_conc e s e' :
  check_or_constrain_signed e s = COk e' -> conc_ty (ty_of e) = true -> e' = e /\ ty_of e = CSigned s.
Proof.
  unfold check_or_constrain_signed. intros H Hc. rewrite (conc_not_uU _ Hc), (conc_not_sU _ Hc) in H.
  destruct (cty_eqb (ty_of e) (CSigned s)) eqn:E; [|discriminate]. apply cty_eqb_eq in E.
  cbn [negb andb] in H. inv_all. rewrite <- E. rewrite set_ty_same. auto.
Qed.

(* the versions the callers outside constrain_type use (fix 64720dd): on a concrete type the deep branch
   cannot fire (it requires a type different from the expected one, which is then Unspecified) *)
Lemma coc_unsigned_deep_conc f e u e' :
  coc_unsigned_deep f e u = COk e' -> conc_ty (ty_of e) = true -> e' = e /\ ty_of e = CUnsigned u.
Proof.
  unfold coc_unsigned_deep. intros H Hc. rewrite (conc_not_uU _ Hc) in H.
  destruct (cty_eqb (ty_of e) (CUnsigned u)) eqn:E; [|discriminate]. cbn [negb andb] in H.
  apply coc_unsigned_conc; assumption.
Qed.

Lemma coc_signed_deep_conc f e s e' :
  coc_signed_deep f e s = COk e' -> conc_ty (ty_of e) = true -> e' = e /\ ty_of e = CSigned s.
Proof.
  unfold coc_signed_deep. intros H Hc. rewrite (conc_not_uU _ Hc), (conc_not_sU _ Hc) in H.
  destruct (cty_eqb (ty_of e) (CSigned s)) eqn:E; [|discriminate]. cbn [negb andb] in H.
  apply coc_signed_conc; assumption.
Qed.

Lemma mapM_id {A} (g : A -> cres A) : forall l l',
  mapM g l = COk l' -> (forall x x', In x l -> g x = COk x' -> x' = x) -> l' = l.
Proof.
  induction l as [|x l IH]; intros l' H Hg; cbn [mapM] in H; inv_all; [reflexivity|].
  f_equal; [eapply Hg; [left; reflexivity|eassumption]|apply IH; [assumption|intros; eapply Hg; [right|]; eauto]].
Qed.

Lemma zipM_id {A B} (g : A -> B -> cres A) : forall xs ys xs',
  zipM g xs ys = COk xs' -> (forall x y x', In x xs -> g x y = COk x' -> x' = x) -> xs' = xs.
Proof.
  induction xs as [|x xs IH]; intros ys xs' H Hg; cbn [zipM] in H; [inv_all; reflexivity|].
  destruct ys as [|y ys]; inv_all; [reflexivity|].
  f_equal; [eapply Hg; [left; reflexivity|eassumption]|eapply IH; [eassumption|intros; eapply Hg; [right|]; eauto]].
Qed.

Lemma map_last_expr_id (g : texpr -> cres texpr) : forall b b',
  map_last_expr g b = COk b' -> (forall x x', In (TSExpr x) b -> g x = COk x' -> x' = x) -> b' = b.
Proof.
  induction b as [|s b IH]; intros b' H Hg; [cbn in H; inv_all; reflexivity|].
  cbn [map_last_expr] in H. destruct b as [|s2 b].
  - destruct s; inv_all; try reflexivity. f_equal. f_equal. eapply Hg; [left; reflexivity|eassumption].
  - destruct s; inv_all; f_equal; (apply IH; [assumption|]; intros; eapply Hg; [right|]; eauto).
Qed.

(* constrain_type on a concrete tree is the identity *)
Lemma constrain_type_conc : forall f e t e',
  constrain_type f e t = COk e' -> conc_e e = true -> e' = e.
Proof.
  induction f as [|f IH]; intros e t e' H Hc; [discriminate|].
  cbn [constrain_type] in H. apply cbind_ok in H. destruct H as [e1 [H1 H2]]. inv_all.
  assert (He1 : e1 = e).
  { pose proof (conc_e_ty _ Hc) as Hty.
    assert (Hleaf : forall r, match t with
                              | CUnsigned t0 => check_or_constrain_unsigned e t0
                              | CSigned t0 => check_or_constrain_signed e t0
                              | _ => COk e end = COk r -> r = e).
    { intros r Hr. destruct t; inv_all; try reflexivity.
      - apply coc_unsigned_conc in Hr; tauto.
      - apply coc_signed_conc in Hr; tauto. }
    destruct e as [i ty]. cbn [inner_of ty_of] in *. cbn [conc_e] in Hc.
    apply andb_true_iff in Hc. destruct Hc as [_ Hc].
    destruct i; try (apply Hleaf; exact H1).
    - destruct t; try (apply Hleaf; exact H1); inv_all; cbn [set_ty].
      + rewrite overwrite_elem_conc by assumption. reflexivity.
      + rewrite overwrite_fields_conc by assumption. reflexivity.
    - destruct t; try (apply Hleaf; exact H1). inv_all. rewrite overwrite_elem_conc by assumption.
      f_equal. f_equal. eapply mapM_id; [eassumption|]. intros x x' Hin Hx.
      eapply IH; [exact Hx|]. rewrite forallb_forall in Hc. auto.
    - destruct t; try (apply Hleaf; exact H1). inv_all. rewrite overwrite_elem_conc by assumption.
      f_equal. f_equal. eapply IH; eauto.
    - destruct t; try (apply Hleaf; exact H1). inv_all; [|reflexivity]. rewrite overwrite_fields_conc by assumption.
      f_equal. f_equal. eapply zipM_id; [eassumption|]. intros x y x' Hin Hx.
      eapply IH; [exact Hx|]. rewrite forallb_forall in Hc. auto.
    - inv_all. f_equal. f_equal. apply andb_true_iff in Hc. destruct Hc as [_ Hc].
      eapply mapM_id; [eassumption|]. intros [p x] x' Hin Hx. inv_all. cbn [fst snd] in *. f_equal.
      eapply IH; [eassumption|]. rewrite forallb_forall in Hc. apply (Hc _ Hin).
    - inv_all. f_equal. f_equal. eapply IH; eauto.
    - apply andb_true_iff in Hc. destruct Hc as [Hc1 Hc2].
      destruct o; inv_all; try reflexivity; f_equal; f_equal; eapply IH; eauto.
    - inv_all. f_equal. f_equal. eapply map_last_expr_id; [eassumption|]. intros x x' Hin Hx.
      eapply IH; [exact Hx|]. rewrite forallb_forall in Hc. apply (Hc _ Hin).
    - apply andb_true_iff in Hc. destruct Hc as [Hc Hc3]. apply andb_true_iff in Hc. destruct Hc as [Hc1 Hc2].
      inv_all. f_equal. f_equal; eapply IH; eauto.
    - (* range: its number type is not Unspecified, the arm of fix 7bf4e4f cannot fire *)
      destruct t0; try discriminate Hc; apply Hleaf; exact H1. }
  subst e1. rewrite overwrite_ty_conc by (apply conc_e_ty; assumption). apply set_ty_same.
Qed.

(* check_type on a concrete tree: the identity, and the type IS the expected type *)
Lemma check_type_conc f e t e' :
  check_type f e t = COk e' -> conc_e e = true -> e' = e /\ ty_of e = t.
Proof.
  intros H Hc. pose proof (check_type_ty _ _ _ _ H) as Ht. unfold check_type in H. inv_all.
  apply constrain_type_conc in Hb; [|assumption]. subst. auto.
Qed.

(* unify on concrete trees: the identity, and the two types are EQUAL *)
Lemma unify_conc f a b a' b' t :
  unify f a b = COk (a', b', t) -> conc_ty (ty_of a) = true -> conc_ty (ty_of b) = true ->
  a' = a /\ b' = b /\ ty_of a = t /\ ty_of b = t.
Proof.
  unfold unify. intros H Ha Hb.
  destruct (cty_eqb (ty_of a) (ty_of b)) eqn:E.
  - apply cty_eqb_eq in E. inv_all. rewrite set_ty_same. rewrite E at 1. rewrite set_ty_same. auto.
  - exfalso. destruct (ty_of a) as [|[]|[]| | | |]; destruct (ty_of b) as [|[]|[]| | | |]; try discriminate.
Qed.

(* LetMut's defaulting on a concrete tree: the identity *)
Lemma i32_if_unspec_conc t : conc_ty t = true -> i32_if_unspec t = t.
Proof. intro H. unfold i32_if_unspec. rewrite (conc_not_uU _ H), (conc_not_sU _ H). reflexivity. Qed.

Lemma constrain_to_i32_conc : forall f b b', constrain_to_i32 f b = COk b' -> conc_e b = true -> b' = b.
Proof.
  induction f as [|f IH]; intros b b' H Hc; [discriminate|].
  cbn [constrain_to_i32] in H. pose proof (conc_e_ty _ Hc) as Hty.
  rewrite (conc_not_uU _ Hty), (conc_not_sU _ Hty) in H. cbn [orb cbind] in H.
  apply cbind_ok in H. destruct H as [b2 [H1 H2]]. inv_all.
  assert (Hb2 : b2 = b).
  { destruct b as [i ty]. cbn [inner_of ty_of] in *. cbn [conc_e] in Hc.
    apply andb_true_iff in Hc. destruct Hc as [_ Hc].
    destruct i; inv_all; try reflexivity; f_equal; f_equal.
    - eapply mapM_id; [eassumption|]. intros x x' Hin Hx. eapply IH; [exact Hx|]. rewrite forallb_forall in Hc. auto.
    - eapply IH; eauto.
    - eapply mapM_id; [eassumption|]. intros x x' Hin Hx. eapply IH; [exact Hx|]. rewrite forallb_forall in Hc. auto. }
  subst b2.
  destruct b as [i ty]. cbn [ty_of set_ty] in *. cbv zeta. f_equal.
  destruct ty; try reflexivity; cbn [conc_ty] in Hty.
  - rewrite i32_if_unspec_conc by assumption. reflexivity.
  - f_equal. clear - Hty. induction ts as [|x xs IHxs]; [reflexivity|]. cbn [forallb] in Hty.
    apply andb_true_iff in Hty. destruct Hty. cbn [map]. rewrite i32_if_unspec_conc, IHxs; auto.
Qed.

Print Assumptions constrain_type_conc.
Print Assumptions check_type_conc.
Print Assumptions unify_conc.
Print Assumptions constrain_to_i32_conc.

(* ================================================================== Part 2: soundness w.r.t. Lang/Wt.v *)

(* THE FRAGMENT: every number literal and range carries a suffix, literals lie in the range of
   their suffix type (what the scanner guarantees); casts go to a scalar type; patterns of
   `let` / `for` are identifiers and tuples of such. *)
Definition lit_u_ok (n : N) (t : unsigned_num_type) : bool :=
  match unsigned_max t with Some m => n <=? m | None => false end.
Definition lit_s_ok (z : Z) (t : signed_num_type) : bool :=
  match signed_min t, signed_max t with
  | Some a, Some b => (a <=? z)%Z && (z <=? b)%Z
  | _, _ => false
  end.
Definition scalar_uty (t : utype) : bool :=
  match t with
  | UTBool => true
  | UTUnsigned u => negb (unsigned_eqb u UnspecifiedU)
  | UTSigned s => negb (signed_eqb s UnspecifiedS)
  | _ => false
  end.

Fixpoint frag_p (p : upattern) : bool :=
  match p with
  | PIdentifier _ | PTrue | PFalse | PNumUnsigned _ _ | PNumSigned _ _ | PEnumUnit _ _
  | PUnsignedInclusiveRange _ _ _ | PSignedInclusiveRange _ _ _ => true
  | PTuple ps | PEnumTuple _ _ ps => forallb frag_p ps
  | PStruct _ fs | PStructIgnoreRemaining _ fs => forallb (fun f => frag_p (snd f)) fs
  end.

Fixpoint frag_e (e : xexpr) : bool :=
  match e with
  | XTrue | XFalse | XIdentifier _ => true
  | XNumUnsigned n t => lit_u_ok n t
  | XNumSigned z t => lit_s_ok z t
  | XArrayLiteral es | XTupleLiteral es => forallb frag_e es
  | XArrayRepeatLiteral e _ | XTupleAccess e _ | XUnaryOp _ e | XStructAccess e _ => frag_e e
  | XEnumLiteral _ _ None => true
  | XEnumLiteral _ _ (Some es) => forallb frag_e es
  | XArrayAccess a i => frag_e a && frag_e i
  | XOp _ l r => frag_e l && frag_e r
  | XBlock b => forallb frag_s b
  | XIf c a b => frag_e c && frag_e a && frag_e b
  | XCast ty e => scalar_uty ty && frag_e e
  | XRange _ _ t => negb (unsigned_eqb t UnspecifiedU)
  | XFnCall _ args => forallb frag_e args
  | XStructLiteral _ fields => forallb (fun nf => frag_e (snd nf)) fields
  | XMatch e arms => frag_e e && forallb (fun pa => frag_p (fst pa) && frag_e (snd pa)) arms
  | _ => false
  end
with frag_s (s : xstmt) : bool :=
  match s with
  | XSLet p _ e => frag_p p && frag_e e
  | XSLetMut _ _ e => frag_e e
  | XSVarAssign _ accs e => forallb frag_a accs && frag_e e
  | XSForEach p e body => frag_p p && frag_e e && forallb frag_s body
  | XSExpr e => frag_e e
  end
with frag_a (a : xaccessor) : bool :=
  match a with XAArray i => frag_e i | XATuple _ => true | XAStruct _ => true end.

(* types written in the program: no Unspecified number type, no named / const-sized type *)
Fixpoint conc_uty (t : utype) : bool :=
  match t with
  | UTBool => true
  | UTUnsigned u => negb (unsigned_eqb u UnspecifiedU)
  | UTSigned s => negb (signed_eqb s UnspecifiedS)
  | UTTuple ts => forallb conc_uty ts
  | UTArray e _ => conc_uty e
  | UTNamed _ => true
  | _ => false
  end.

Lemma as_concrete_conc sn en : forall t t', as_concrete_type sn en t = COk t' -> conc_uty t = true -> conc_ty t' = true.
Proof.
  induction t using utype_ind'; intros t' HH Hc; try discriminate Hc; cbn [as_concrete_type] in HH.
  - inv_all. reflexivity.
  - inv_all. destruct t; try discriminate Hc; reflexivity.
  - inv_all. destruct t; try discriminate Hc; reflexivity.
  - destruct (memL s sn); [inv_all; reflexivity|]. destruct (memL s en); inv_all. reflexivity.
  - apply cbind_ok in HH. destruct HH as [ts' [Hts HH]]. inversion HH; subst; clear HH. cbn [conc_uty conc_ty] in *.
    revert ts' Hts Hc. induction H as [|x xs Hx Hxs IH]; intros ts' Hts Hc.
    + inv_all. reflexivity.
    + apply cbind_ok in Hts. destruct Hts as [x' [Hx' Hts]]. apply cbind_ok in Hts. destruct Hts as [r' [Hr' Hts]].
      inversion Hts; subst; clear Hts. cbn [forallb] in *. apply andb_true_iff in Hc. destruct Hc as [Hc1 Hc2].
      rewrite (Hx _ Hx' Hc1), (IH _ Hr' Hc2). reflexivity.
  - apply cbind_ok in HH. destruct HH as [e' [He HH]]. inversion HH; subst; clear HH. cbn [conc_uty conc_ty] in *. eauto.
Qed.

Definition frag_fn (fd : ufndef) : bool :=
  forallb (fun p => conc_uty (upa_ty p)) (uf_params fd) && conc_uty (uf_ty fd) && forallb frag_s (uf_body fd).


(* ------------------------------------------------------------------ the signature of a typed function *)

(* the parameter list UntypedFnDef::type_check builds: a function of the definition alone *)
Fixpoint sig_params (D : defs) (ps : list uparam) : cres (list (bool * list N * cty)) :=
  match ps with
  | [] => COk []
  | p :: r => do ty <- concrete_of D (upa_ty p); do r' <- sig_params D r; COk ((upa_mut p, upa_name p, ty) :: r')
  end.

Lemma params_loop_sig D : forall ps seen g tps g',
  params_loop D seen ps g = COk (tps, g') -> sig_params D ps = COk tps.
Proof.
  induction ps as [|p ps IH]; intros seen g tps g' H; cbn [params_loop] in H.
  - inversion H; reflexivity.
  - destruct (memL (upa_name p) seen); inv_all'. cbn [sig_params].
    match goal with Hty : concrete_of _ _ = _, Hgo : params_loop _ _ _ _ = _ |- _ => rewrite Hty, (IH _ _ _ _ Hgo) end.
    reflexivity.
Qed.

Lemma check_fn_sig intern f D st fd tfd st' :
  check_fn intern f D st fd = COk (tfd, st') ->
  sig_params D (uf_params fd) = COk (tf_params tfd) /\ concrete_of D (uf_ty fd) = COk (tf_ty tfd) /\
  tf_name tfd = uf_name fd.
Proof.
  destruct f as [|f]; [discriminate|]. rewrite check_fn_S. unfold fn_step. intro H. inv_all'.
  cbn [tf_params tf_ty tf_name]. eauto using params_loop_sig.
Qed.

(* what every entry of `typed` satisfies: it has the static signature of the function of its name *)
Definition Qs (D : defs) (nd : list N * tfndef) : Prop :=
  exists ufd, find (fun d => list_eqb (uf_name d) (fst nd)) (d_fns D) = Some ufd /\
    sig_params D (uf_params ufd) = COk (tf_params (snd nd)) /\
    concrete_of D (uf_ty ufd) = COk (tf_ty (snd nd)) /\ tf_name (snd nd) = fst nd.

Lemma Qs_ins intern D f st ufd r id :
  find (fun d => list_eqb (uf_name d) id) (d_fns D) = Some ufd ->
  check_fn intern f D st ufd = COk r -> Qs D (id, fst r).
Proof.
  intros Hf Hc. destruct r as [tfd st']. destruct (check_fn_sig _ _ _ _ _ _ _ Hc) as [Hp [Hr Hn]].
  exists ufd. cbn [fst snd]. repeat split; try assumption.
  rewrite Hn. apply find_some in Hf. destruct Hf as [_ Hf]. apply list_eqb_eq in Hf. exact Hf.
Qed.

Theorem Qs_pres intern D f :
  (forall st e r, check_expr intern f D st e = COk r -> Forall (Qs D) (st_typed st) -> Forall (Qs D) (st_typed (snd r))) /\
  (forall st b r, check_stmts intern f D st b = COk r -> Forall (Qs D) (st_typed st) -> Forall (Qs D) (st_typed (snd r))) /\
  (forall st b r, check_block intern f D st b = COk r -> Forall (Qs D) (st_typed st) -> Forall (Qs D) (st_typed (snd r))) /\
  (forall st s r, check_stmt intern f D st s = COk r -> Forall (Qs D) (st_typed st) -> Forall (Qs D) (st_typed (snd r))) /\
  (forall st fd r, check_fn intern f D st fd = COk r -> Forall (Qs D) (st_typed st) -> Forall (Qs D) (st_typed (snd r))).
Proof.
  apply (check_typed_pres intern D f (Forall (Qs D))); [|apply le_n].
  intros f0 st ufd r id _ Hf Hc _ HQ. constructor; [eapply Qs_ins; eauto|exact HQ].
Qed.

Section Sound.
Variable intern : list N -> N.
Hypothesis intern_inj : forall a b, intern a = intern b -> a = b.
Variable en : list (list N * list (list N * option (list cty))).
Variable P' : Ast.program.
Variable D : defs.
Variable gc : Wt.tenv.      (* the consts environment of the re-checker (Wt.consts_tenv P') *)
Notation xe := (export_expr intern en).
Notation xs := (export_stmt intern en).
Notation xa := (export_accessor intern en).
Notation xt := (export_ty intern).

Definition xparams (tps : list (bool * list N * cty)) : list (N * Ast.ty) :=
  map (fun p => (intern (snd (fst p)), xt (snd p))) tps.

(* every function of the program is in the fragment, and the re-checked program P' lists every
   function with its static signature *)
Hypothesis en_eq : id (en = d_enums D).
Definition xfields (def : list (list N * cty)) : list (N * Ast.ty) := map (fun ft => (intern (fst ft), xt (snd ft))) def.
Definition xvariants (vs : list (list N * option (list cty))) : list (list Ast.ty) :=
  map (fun v => match snd v with Some ts => map xt ts | None => [] end) vs.
(* P' lists the struct / enum definitions of D (interned); their component types are concrete *)
Hypothesis P_structs : forall name def, assocL name (d_structs D) = Some def ->
  Ast.assocN (intern name) (Ast.p_structs P') = Some (xfields def).
Hypothesis P_enums : forall name vs, assocL name (d_enums D) = Some vs ->
  Ast.assocN (intern name) (Ast.p_enums P') = Some (xvariants vs).
Hypothesis D_conc_s : forall name def f t, assocL name (d_structs D) = Some def -> assocL f def = Some t -> conc_ty t = true.
Hypothesis D_nodup_s : forall name def, assocL name (d_structs D) = Some def -> NoDup (map fst def).
Hypothesis D_conc_c : forall x t, assocL x (d_consts D) = Some t -> conc_ty t = true.
Hypothesis gc_consts : forall x t, assocL x (d_consts D) = Some t -> exists m', Wt.tlookup gc (intern x) = Some (xt t, m').
Hypothesis D_conc_e : forall name vs v ts, assocL name (d_enums D) = Some vs -> assocL v vs = Some (Some ts) -> forallb conc_ty ts = true.
Hypothesis D_frag : forall ufd, In ufd (d_fns D) -> frag_fn ufd = true.
Hypothesis P_sig : forall id ufd tps rty,
  find (fun d => list_eqb (uf_name d) id) (d_fns D) = Some ufd ->
  sig_params D (uf_params ufd) = COk tps -> concrete_of D (uf_ty ufd) = COk rty ->
  exists d, Ast.find_fn P' (intern id) = Some d /\ Ast.fn_params d = xparams tps /\ Ast.fn_ret d = xt rty.

Lemma e_ty_xe e : Ast.e_ty (xe e) = xt (ty_of e).
Proof. destruct e; reflexivity. Qed.

Lemma xt_refl t : Wt.ty_eqb (xt t) (xt t) = true.
Proof.
  induction t using cty_ind'; cbn [export_ty Wt.ty_eqb].
  - reflexivity.
  - rewrite N.eqb_refl. reflexivity.
  - rewrite N.eqb_refl. reflexivity.
  - rewrite IHt, N.eqb_refl. reflexivity.
  - induction H as [|x l Hx Hl IH]; cbn [map]; [reflexivity|]. rewrite Hx. exact IH.
  - apply N.eqb_refl.
  - apply N.eqb_refl.
Qed.

(* environments *)
Definition env_ok (g : cenv) : Prop := forall x t m, env_get g x = Some (t, m) -> conc_ty t = true.
Definition env_rel (g : cenv) (G : Wt.tenv) : Prop :=
  (forall x t m, env_get g x = Some (t, m) ->
     exists m', Wt.tlookup G (intern x) = Some (xt t, m') /\ (m = true -> m' = true)) /\
  (* a name that no scope binds is looked up among the consts *)
  (forall x t, env_get g x = None -> assocL x (d_consts D) = Some t ->
     exists m', Wt.tlookup G (intern x) = Some (xt t, m')).

Lemma env_get_let g x t m y :
  env_get (env_let g x t m) y = if list_eqb y x then Some (t, m) else env_get g y.
Proof. destruct g as [|s r]; cbn [env_let env_get assocL]; destruct (list_eqb y x); reflexivity. Qed.

Lemma tlookup_tbind G x t m y :
  Wt.tlookup (Wt.tbind G x t m) y = if y =? x then Some (t, m) else Wt.tlookup G y.
Proof. destruct G as [|s r]; cbn [Wt.tbind Wt.tlookup Ast.assocN]; destruct (y =? x); reflexivity. Qed.

Lemma env_rel_let_mut g G x t m m' : (m = true -> m' = true) ->
  env_rel g G -> env_rel (env_let g x t m) (Wt.tbind G (intern x) (xt t) m').
Proof.
  intros Hm [H1 H2]. split.
  - intros y t' m0 Hy. rewrite env_get_let in Hy. rewrite tlookup_tbind.
    destruct (list_eqb y x) eqn:E.
    + apply list_eqb_eq in E. subst y. rewrite N.eqb_refl. inversion Hy; subst. eauto.
    + destruct (N.eqb_spec (intern y) (intern x)) as [Heq|Hne]; [|apply H1; assumption].
      apply intern_inj in Heq. subst y. rewrite list_eqb_refl in E. discriminate.
  - intros y t' Hy Hc. rewrite env_get_let in Hy. rewrite tlookup_tbind.
    destruct (list_eqb y x) eqn:E; [discriminate|].
    destruct (N.eqb_spec (intern y) (intern x)) as [Heq|Hne]; [|apply H2; assumption].
    apply intern_inj in Heq. subst y. rewrite list_eqb_refl in E. discriminate.
Qed.

Lemma env_rel_let g G x t m : env_rel g G -> env_rel (env_let g x t m) (Wt.tbind G (intern x) (xt t) m).
Proof. apply env_rel_let_mut. auto. Qed.

Lemma env_ok_let g x t m : env_ok g -> conc_ty t = true -> env_ok (env_let g x t m).
Proof.
  intros H Ht y t' m' Hy. rewrite env_get_let in Hy. destruct (list_eqb y x); [inversion Hy; subst; assumption|eauto].
Qed.

Lemma env_rel_push g G : env_rel g G -> env_rel (env_push g) ([] :: G).
Proof.
  intros [H1 H2]. split.
  - intros x t m Hx. cbn in Hx. apply H1 in Hx. cbn [Wt.tlookup Ast.assocN]. exact Hx.
  - intros x t Hx Hc. cbn in Hx. cbn [Wt.tlookup Ast.assocN]. eauto.
Qed.

Lemma env_ok_push g : env_ok g -> env_ok (env_push g).
Proof. intros H x t m Hx. cbn in Hx. eauto. Qed.

(* literals: the bounds of token.rs are those of the bit widths (an unspecified type counts as 32 bits) *)
Lemma umax_pow u :
  match unsigned_max u with Some m => Z.of_N m | None => Z.of_N u32_max end = (2 ^ Z.of_N (ubits u) - 1)%Z.
Proof. destruct u; reflexivity. Qed.
Lemma smin_pow s :
  match signed_min s with Some m => m | None => (-2147483648)%Z end = (- 2 ^ (Z.of_N (sbits s) - 1))%Z.
Proof. destruct s; reflexivity. Qed.
Lemma smax_pow s :
  match signed_max s with Some m => m | None => 2147483647%Z end = (2 ^ (Z.of_N (sbits s) - 1) - 1)%Z.
Proof. destruct s; reflexivity. Qed.

Lemma lit_u_fits n t : lit_u_ok n t = true -> Wt.lit_fits (Ast.TInt false (ubits t)) (Z.of_N n) = true.
Proof.
  unfold lit_u_ok, Wt.lit_fits. pose proof (umax_pow t) as Hm. destruct (unsigned_max t); [|discriminate].
  intro H. apply N.leb_le in H. apply andb_true_iff. split; [apply Z.leb_le|apply Z.ltb_lt]; lia.
Qed.

Lemma lit_s_fits z t : lit_s_ok z t = true -> Wt.lit_fits (Ast.TInt true (sbits t)) z = true.
Proof.
  unfold lit_s_ok, Wt.lit_fits. pose proof (smin_pow t) as Ha. pose proof (smax_pow t) as Hb.
  destruct (signed_min t); [|discriminate]. destruct (signed_max t); [|discriminate].
  intro H. apply andb_true_iff in H. destruct H as [H1 H2]. apply Z.leb_le in H1. apply Z.leb_le in H2.
  apply andb_true_iff. split; [apply Z.leb_le|apply Z.ltb_lt]; lia.
Qed.

Lemma lit_u_conc n t : lit_u_ok n t = true -> conc_ty (CUnsigned t) = true.
Proof. destruct t; cbn; auto. Qed.
Lemma lit_s_conc z t : lit_s_ok z t = true -> conc_ty (CSigned t) = true.
Proof. destruct t; cbn; auto. Qed.

(* type classes *)
Lemma expect_num_x t u : expect_num_type t = COk u -> Wt.is_int (xt t) = true.
Proof. destruct t; try discriminate; reflexivity. Qed.
Lemma expect_signed_x t u : expect_signed_num_type t = COk u -> Wt.is_signed_int (xt t) = true.
Proof. destruct t; try discriminate; reflexivity. Qed.
Lemma expect_bool_or_num_x t u : expect_bool_or_num_type t = COk u -> Wt.is_bool (xt t) || Wt.is_int (xt t) = true.
Proof. destruct t; try discriminate; reflexivity. Qed.

Lemma nthN_map {A B} (g : A -> B) l i : nthN (map g l) i = option_map g (nthN l i).
Proof. rewrite !nthN_spec. apply nth_error_map. Qed.

Lemma conc_nth ts i t : forallb conc_ty ts = true -> nthN ts i = Some t -> conc_ty t = true.
Proof.
  rewrite nthN_spec. intros H Hn. apply nth_error_In in Hn. rewrite forallb_forall in H. auto.
Qed.


Notation xp := (export_pattern intern en).

(* ------------------------------------------------------------------ unfolding lemmas *)

Lemma xe_block b t : xe (TE (TBlock b) t) = Ast.Ex (Ast.EBlock (map xs b)) m0 (xt t).
Proof. reflexivity. Qed.
Lemma xs_let p e : xs (TSLet p e) = Ast.St (Ast.SLet (xp p) (xe e)) m0.
Proof. reflexivity. Qed.
Lemma xs_letmut x e : xs (TSLetMut x e) = Ast.St (Ast.SLetMut (intern x) (xe e)) m0.
Proof. reflexivity. Qed.
Lemma xs_expr e : xs (TSExpr e) = Ast.St (Ast.SExpr (xe e)) m0.
Proof. reflexivity. Qed.
Lemma xs_assign x accs e : xs (TSVarAssign x accs e) = Ast.St (Ast.SAssign (intern x) (map xa accs) (xe e)) m0.
Proof. reflexivity. Qed.
Lemma xs_for p e body : xs (TSForEach p e body) = Ast.St (Ast.SFor (xp p) (xe e) (map xs body)) m0.
Proof. reflexivity. Qed.
Lemma xa_arr t i : xa (TAArray t i) = Ast.AIdx (xt t) (xe i).
Proof. reflexivity. Qed.
Lemma xa_tup t i : xa (TATuple t i) = Ast.ATup (xt t) i.
Proof. reflexivity. Qed.
Lemma xa_fld t fld : xa (TAStruct t fld) = Ast.AFld (xt t) (intern fld).
Proof. reflexivity. Qed.
Lemma xp_id s t : xp (TP (TPIdentifier s) t) = Ast.Pat (Ast.PId (intern s)) m0 (xt t).
Proof. reflexivity. Qed.
Lemma xp_tup ps t : xp (TP (TPTuple ps) t) = Ast.Pat (Ast.PTup (map xp ps)) m0 (xt t).
Proof. reflexivity. Qed.

Lemma wt_expr_block f G b t : Wt.wt_expr (S f) P' G (Ast.Ex (Ast.EBlock b) (m0) t) =
  match Wt.wt_block f P' ([] :: G) b with Some tb => Wt.ty_eqb tb t | None => false end.
Proof. reflexivity. Qed.
Lemma wt_stmt_let f G p e : Wt.wt_stmt (S f) P' G (Ast.St (Ast.SLet p e) m0) =
  if Wt.wt_expr f P' G e && Wt.ty_eqb (Ast.p_ty p) (Ast.e_ty e)
  then match Wt.wt_pat P' p with Some bs => Some (Wt.tbind_all G bs false, Wt.unit_ty) | None => None end
  else None.
Proof. reflexivity. Qed.
Lemma wt_stmt_letmut f G x e : Wt.wt_stmt (S f) P' G (Ast.St (Ast.SLetMut x e) m0) =
  if Wt.wt_expr f P' G e then Some (Wt.tbind G x (Ast.e_ty e) true, Wt.unit_ty) else None.
Proof. reflexivity. Qed.
Lemma wt_stmt_expr f G e : Wt.wt_stmt (S f) P' G (Ast.St (Ast.SExpr e) m0) =
  if Wt.wt_expr f P' G e then Some (G, Ast.e_ty e) else None.
Proof. reflexivity. Qed.
Lemma wt_stmt_for f G p arr body : Wt.wt_stmt (S f) P' G (Ast.St (Ast.SFor p arr body) m0) =
  match Ast.e_ty arr with
  | Ast.TArr el _ =>
      if Wt.wt_expr f P' G arr && Wt.ty_eqb (Ast.p_ty p) el then
        match Wt.wt_pat P' p with
        | Some bs =>
            match Wt.wt_block f P' (Wt.tbind_all ([] :: G) bs false) body with
            | Some _ => Some (G, Wt.unit_ty)
            | None => None
            end
        | None => None
        end
      else None
  | _ => None
  end.
Proof. reflexivity. Qed.

(* the accessor loop of Wt.wt_stmt (SAssign) *)
Definition ago (f : nat) (G : Wt.tenv) :=
  fix go (accs : list Ast.accessor) (cur : Ast.ty) : option Ast.ty :=
    match accs with
    | [] => Some cur
    | Ast.AIdx aty i :: r =>
        match cur with
        | Ast.TArr el _ =>
            if Wt.ty_eqb aty cur && Wt.is_unsigned (Ast.e_ty i) && Wt.wt_expr f P' G i then go r el else None
        | _ => None
        end
    | Ast.ATup tty i :: r =>
        match cur with
        | Ast.TTup ts =>
            if Wt.ty_eqb tty cur then
              match nthN ts i with Some ti => go r ti | None => None end
            else None
        | _ => None
        end
    | Ast.AFld sty fld :: r =>
        match cur with
        | Ast.TStruct name =>
            if Wt.ty_eqb sty cur then
              match Ast.assocN name (Ast.p_structs P') with
              | Some def => match Ast.assocN fld def with Some ft => go r ft | None => None end
              | None => None
              end
            else None
        | _ => None
        end
    end.
Lemma wt_stmt_assign f G x accs e : Wt.wt_stmt (S f) P' G (Ast.St (Ast.SAssign x accs e) m0) =
  match Wt.tlookup G x with
  | Some (tx, true) =>
      match ago f G accs tx with
      | Some tf => if Wt.ty_eqb tf (Ast.e_ty e) && Wt.wt_expr f P' G e then Some (G, Wt.unit_ty) else None
      | None => None
      end
  | _ => None
  end.
Proof. reflexivity. Qed.

(* the field loop of Wt.wt_pat (PTup) *)
Definition wlist :=
  fix go (ps : list Ast.pattern) (ts : list Ast.ty) : option (list (N * Ast.ty)) :=
    match ps, ts with
    | [], [] => Some []
    | p :: pr, t :: tr =>
        if negb (Wt.ty_eqb (Ast.p_ty p) t) then None else
        match Wt.wt_pat P' p, go pr tr with
        | Some a, Some b => Some (a ++ b)
        | _, _ => None
        end
    | _, _ => None
    end.
Lemma wt_pat_tup ps m ts : Wt.wt_pat P' (Ast.Pat (Ast.PTup ps) m (Ast.TTup ts)) = wlist ps ts.
Proof. reflexivity. Qed.

Lemma tbind_all_app G a b m : Wt.tbind_all G (a ++ b) m = Wt.tbind_all (Wt.tbind_all G a m) b m.
Proof. unfold Wt.tbind_all. apply fold_left_app. Qed.


Lemma index_of_shift {A} (k : list N) (l : list (list N * A)) : forall i, index_of k l i = i + index_of k l 0.
Proof.
  induction l as [|[k' v] l IH]; intro i; cbn [index_of]; [lia|].
  destruct (list_eqb k k'); [lia|]. rewrite (IH (i + 1)), (IH (0 + 1)). lia.
Qed.

Lemma index_of_nth {A B} (g : list N * A -> B) (k : list N) : forall (l : list (list N * A)) p,
  assocL k l = Some p -> exists k', nthN (map g l) (index_of k l 0) = Some (g (k', p)).
Proof.
  induction l as [|[k' v] l IH]; intros p H; [discriminate|]. cbn [assocL index_of] in *.
  destruct (list_eqb k k').
  - inversion H; subst. exists k'. reflexivity.
  - destruct (IH _ H) as [k2 Hk2]. exists k2. rewrite index_of_shift. rewrite nthN_spec in *.
    cbn [map]. replace (N.to_nat (0 + 1 + index_of k l 0)) with (S (N.to_nat (index_of k l 0))) by lia. exact Hk2.
Qed.

Lemma variant_nth e v ed p : assocL e (d_enums D) = Some ed -> assocL v ed = Some p ->
  nthN (xvariants ed) (variant_index en e v) = Some (match p with Some ts => map xt ts | None => [] end).
Proof.
  intros He Hv. assert (Hen : assocL e en = Some ed) by (pose proof en_eq as Hq; unfold id in Hq; rewrite Hq; exact He).
  unfold variant_index. rewrite Hen.
  destruct (index_of_nth (fun v0 : list N * option (list cty) => match snd v0 with Some ts => map xt ts | None => [] end) _ _ _ Hv) as [k' Hn].
  unfold xvariants. rewrite Hn. reflexivity.
Qed.

Lemma pat_range_fits z ty u1 u2 : expect_num_type ty = COk u1 -> expect_pattern_num_in_range z ty = COk u2 ->
  Wt.lit_fits (xt ty) z = true.
Proof.
  intros H1 H2. destruct ty as [|u|s| | | |]; try discriminate H1; cbn [expect_pattern_num_in_range] in H2.
  - rewrite umax_pow in H2.
    match type of H2 with (if ?c then _ else _) = _ => destruct c eqn:Ec; [discriminate|] end.
    apply orb_false_iff in Ec. destruct Ec as [E1 E2]. apply Z.ltb_ge in E1. apply Z.ltb_ge in E2.
    unfold Wt.lit_fits. cbn [export_ty]. apply andb_true_iff. split; [apply Z.leb_le|apply Z.ltb_lt]; lia.
  - rewrite smin_pow, smax_pow in H2.
    match type of H2 with (if ?c then _ else _) = _ => destruct c eqn:Ec; [discriminate|] end.
    apply orb_false_iff in Ec. destruct Ec as [E1 E2]. apply Z.ltb_ge in E1. apply Z.ltb_ge in E2.
    unfold Wt.lit_fits. cbn [export_ty]. apply andb_true_iff. split; [apply Z.leb_le|apply Z.ltb_lt]; lia.
Qed.

(* ------------------------------------------------------------------ patterns *)

Definition pat_ok (p : upattern) : Prop := forall g ty p' g',
  frag_p p = true -> check_pattern D g p ty = COk (p', g') ->
  Ast.p_ty (xp p') = xt ty /\
  exists bs, Wt.wt_pat P' (xp p') = Some bs /\
    (forall G, env_rel g G -> env_rel g' (Wt.tbind_all G bs false)) /\
    (conc_ty ty = true -> env_ok g -> env_ok g').

Lemma fields_loop_ok fs : Forall pat_ok fs -> forallb frag_p fs = true ->
  forall ts g ps' g', length fs = length ts -> pat_fields_loop D fs ts g = COk (ps', g') ->
  exists bs, wlist (map xp ps') (map xt ts) = Some bs /\
    (forall G, env_rel g G -> env_rel g' (Wt.tbind_all G bs false)) /\
    (forallb conc_ty ts = true -> env_ok g -> env_ok g').
Proof.
  induction 1 as [|q fs Hq Hfs IH]; intros Hf ts g ps' g' Hlen H; cbn [pat_fields_loop] in H.
  - destruct ts; [|discriminate]. inv_all. exists []. cbn. auto.
  - destruct ts as [|t ts]; [discriminate|]. cbn [forallb] in Hf. apply andb_true_iff in Hf. destruct Hf as [Hf1 Hf2].
    apply cbind_ok in H. destruct H as [[p1 g1] [H1 H]]. apply cbind_ok in H. destruct H as [[ps2 g2] [H2 H]].
    cbn [fst snd] in *. inv_all.
    destruct (Hq _ _ _ _ Hf1 H1) as [Hty [bs1 [Hw1 [Hr1 Ho1]]]].
    destruct (IH Hf2 ts g1 ps2 g' ltac:(cbn in Hlen; lia) H2) as [bs2 [Hw2 [Hr2 Ho2]]].
    exists (bs1 ++ bs2). cbn [map wlist]. fold wlist. rewrite Hty, xt_refl, Hw1, Hw2. cbn [negb].
    split; [reflexivity|]. split.
    + intros G HG. rewrite tbind_all_app. auto.
    + cbn [forallb]. intros Hc Hok. apply andb_true_iff in Hc. destruct Hc. auto.
Qed.

Lemma xp_struct n fs t : xp (TP (TPStruct n fs) t) =
  Ast.Pat (Ast.PStruct (intern n) false (map (fun f => (intern (fst f), xp (snd f))) fs)) m0 (xt t).
Proof. reflexivity. Qed.

(* the field loop of Wt.wt_pat (PStruct) *)
Definition wsfields (def : list (N * Ast.ty)) :=
  fix go (fs : list (N * Ast.pattern)) : option (list (N * Ast.ty)) :=
    match fs with
    | [] => Some []
    | (f, fp) :: r =>
        match Ast.assocN f def with
        | Some ft =>
            if negb (Wt.ty_eqb (Ast.p_ty fp) ft) then None else
            match Wt.wt_pat P' fp, go r with
            | Some a, Some b => Some (a ++ b)
            | _, _ => None
            end
        | None => None
        end
    end.
Lemma wt_pat_struct name rest fields m n2 def :
  Ast.assocN name (Ast.p_structs P') = Some def ->
  Wt.wt_pat P' (Ast.Pat (Ast.PStruct name rest fields) m (Ast.TStruct n2)) =
  if negb (name =? n2) then None else wsfields def fields.
Proof. intro H. cbn [Wt.wt_pat]. rewrite H. reflexivity. Qed.

Lemma assocN_map_intern {A B} (g : A -> B) k (l : list (list N * A)) :
  Ast.assocN (intern k) (map (fun x => (intern (fst x), g (snd x))) l) = option_map g (assocL k l).
Proof.
  induction l as [|[k0 v] l IH]; [reflexivity|]. cbn [map fst snd Ast.assocN assocL]. rewrite (intern_eqb intern intern_inj).
  destruct (list_eqb k k0); [reflexivity|exact IH].
Qed.

Lemma struct_loop_ok sd fs : Forall (fun f : list N * upattern => pat_ok (snd f)) fs ->
  forallb (fun f : list N * upattern => frag_p (snd f)) fs = true ->
  (forall f t, assocL f sd = Some t -> conc_ty t = true) ->
  forall seen g r g', pat_struct_loop D sd seen fs g = COk (r, g') ->
  exists bs, wsfields (xfields sd) (map (fun f : list N * tpattern => (intern (fst f), xp (snd f))) r) = Some bs /\
    (forall G, env_rel g G -> env_rel g' (Wt.tbind_all G bs false)) /\ (env_ok g -> env_ok g').
Proof.
  induction 1 as [|[fname fp] fs Hq Hfs IH]; intros Hf Hcs seen g r g' H; cbn [pat_struct_loop] in H.
  - inversion H; subst. exists []. cbn. auto.
  - cbn [forallb snd] in Hf. apply andb_true_iff in Hf. destruct Hf as [Hf1 Hf2].
    destruct (memL fname seen); [discriminate|]. destruct (assocL fname sd) as [ft|] eqn:Ea; [|discriminate].
    apply cbind_ok in H. destruct H as [[p1 g1] [H1 H]]. apply cbind_ok in H. destruct H as [[r2 g2] [H2 H]].
    cbn [fst snd] in *. inversion H; subst; clear H.
    destruct (Hq _ _ _ _ Hf1 H1) as [Hty [bs1 [Hw1 [Hr1 Ho1]]]].
    destruct (IH Hf2 Hcs _ _ _ _ H2) as [bs2 [Hw2 [Hr2 Ho2]]].
    exists (bs1 ++ bs2). cbn [map wsfields fst snd]. fold (wsfields (xfields sd)).
    unfold xfields at 1. rewrite assocN_map_intern, Ea. cbn [option_map]. rewrite Hty, xt_refl, Hw1, Hw2. cbn [negb].
    split; [reflexivity|]. split.
    + intros G HG. rewrite tbind_all_app. auto.
    + intro Hok. apply Ho2. apply Ho1; [eapply Hcs; exact Ea|exact Hok].
Qed.

Lemma pat_sound : forall p, pat_ok p.
Proof.
  induction p using upattern_ind'; intros g ty p' g' Hf HH; try discriminate Hf.
  (* struct, with or without `..` *)
  7-8: cbn [frag_p] in Hf; eapply check_pattern_struct_ok in HH; [|first [left; reflexivity|right; reflexivity]].
  7-8: destruct HH as (-> & sd & [r g2] & Esd & Hl & E); injection E as -> ->.
  7-8: destruct (struct_loop_ok sd fs H Hf (fun f0 t0 Hft => D_conc_s _ _ _ _ Esd Hft) _ _ _ _ Hl) as [bs [Hw [Hr Ho]]].
  7-8: rewrite xp_struct; cbn [Ast.p_ty export_ty]; split; [reflexivity|]; exists bs.
  7-8: rewrite (wt_pat_struct _ _ _ _ _ _ (P_structs _ _ Esd)), N.eqb_refl; cbn [negb].
  7-8: split; [exact Hw|]; split; [exact Hr|]; intros _; exact Ho.
  all: cbn [check_pattern] in HH.
  - (* identifier *) inv_all. rewrite xp_id. cbn [Ast.p_ty Wt.wt_pat]. split; [reflexivity|].
    exists [(intern s, xt ty)]. split; [reflexivity|]. split.
    + intros G HG. cbn. apply env_rel_let. exact HG.
    + intros Hc Hok. apply env_ok_let; assumption.
  - (* true *) destruct ty; try discriminate HH. inversion HH; subst. split; [reflexivity|]. exists []. cbn. auto.
  - (* false *) destruct ty; try discriminate HH. inversion HH; subst. split; [reflexivity|]. exists []. cbn. auto.
  - (* unsigned number *)
    apply cbind_ok in HH. destruct HH as [u1 [H1 HH]]. apply cbind_ok in HH. destruct HH as [u2 [H2 HH]]. inversion HH; subst.
    split; [reflexivity|]. exists []. cbn [export_pattern Wt.wt_pat]. rewrite (pat_range_fits _ _ _ _ H1 H2). cbn. auto.
  - (* signed number *)
    apply cbind_ok in HH. destruct HH as [u1 [H1 HH]]. apply cbind_ok in HH. destruct HH as [u2 [H2 HH]]. inversion HH; subst.
    assert (H1' : expect_num_type ty = COk tt) by (destruct ty; try discriminate H1; reflexivity).
    split; [reflexivity|]. exists []. cbn [export_pattern Wt.wt_pat]. rewrite (pat_range_fits _ _ _ _ H1' H2). cbn. auto.
  - (* tuple *)
    cbn [frag_p] in Hf. apply cbind_ok in HH. destruct HH as [fts [Ht HH]].
    destruct ty; try discriminate Ht. cbn [expect_tuple_type] in Ht. inv_all.
    match goal with Hl : negb (lenN _ =? lenN _) = false |- _ =>
      apply negb_false_iff in Hl; apply N.eqb_eq in Hl; unfold lenN in Hl; apply Nat2N.inj in Hl end.
    match goal with Hl : _ = COk a |- _ =>
      destruct a as [ps2 g2]; destruct (fields_loop_ok ps H Hf fts g ps2 g2 ltac:(lia) Hl) as [bs [Hw [Hr Ho]]] end.
    cbn [fst snd]. rewrite xp_tup. cbn [Ast.p_ty export_ty]. split; [reflexivity|].
    exists bs. rewrite wt_pat_tup. split; [exact Hw|]. split; [exact Hr|]. exact Ho.
  - (* enum unit *)
    destruct ty as [| | | | | |en0]; try discriminate HH.
    destruct (negb (list_eqb en0 e)) eqn:Ene; [discriminate|]. apply negb_false_iff in Ene. apply list_eqb_eq in Ene. subst en0.
    destruct (assocL e (d_enums D)) as [ed|] eqn:Eed; [|discriminate].
    destruct (assocL v ed) as [[pts|]|] eqn:Ev; try discriminate HH. inversion HH; subst.
    split; [reflexivity|]. exists []. cbn [export_pattern Wt.wt_pat export_ty].
    rewrite (P_enums _ _ Eed), N.eqb_refl. cbn [negb]. rewrite (variant_nth _ _ _ _ Eed Ev). cbn. auto.
  - (* enum tuple *)
    cbn [frag_p] in Hf. destruct ty as [| | | | | |en0]; try discriminate HH.
    destruct (negb (list_eqb en0 e)) eqn:Ene; [discriminate|]. apply negb_false_iff in Ene. apply list_eqb_eq in Ene. subst en0.
    destruct (assocL e (d_enums D)) as [ed|] eqn:Eed; [|discriminate].
    destruct (assocL v ed) as [[pts|]|] eqn:Ev; try discriminate HH.
    destruct (negb (lenN pts =? lenN ps)) eqn:El; [discriminate|].
    apply negb_false_iff in El. apply N.eqb_eq in El. unfold lenN in El. apply Nat2N.inj in El.
    apply cbind_ok in HH. destruct HH as [[ps2 g2] [Hl HH]]. cbn [fst snd] in HH. inversion HH; subst.
    destruct (fields_loop_ok ps H Hf pts g ps2 g' ltac:(lia) Hl) as [bs [Hw [Hr Ho]]].
    split; [reflexivity|]. exists bs. cbn [export_pattern Wt.wt_pat export_ty].
    rewrite (P_enums _ _ Eed), N.eqb_refl. cbn [negb]. rewrite (variant_nth _ _ _ _ Eed Ev).
    split; [exact Hw|]. split; [exact Hr|]. intros _ Hok. apply Ho; [|exact Hok]. eapply D_conc_e; eauto.
  - (* unsigned range *)
    apply cbind_ok in HH. destruct HH as [u1 [H1 HH]]. apply cbind_ok in HH. destruct HH as [u2 [H2 HH]].
    apply cbind_ok in HH. destruct HH as [u3 [H3 HH]]. inversion HH; subst.
    split; [reflexivity|]. exists []. cbn [export_pattern Wt.wt_pat].
    rewrite (pat_range_fits _ _ _ _ H1 H2), (pat_range_fits _ _ _ _ H1 H3). cbn. auto.
  - (* signed range *)
    apply cbind_ok in HH. destruct HH as [u1 [H1 HH]]. apply cbind_ok in HH. destruct HH as [u2 [H2 HH]].
    apply cbind_ok in HH. destruct HH as [u3 [H3 HH]]. inversion HH; subst.
    assert (H1' : expect_num_type ty = COk tt) by (destruct ty; try discriminate H1; reflexivity).
    split; [reflexivity|]. exists []. cbn [export_pattern Wt.wt_pat].
    rewrite (pat_range_fits _ _ _ _ H1' H2), (pat_range_fits _ _ _ _ H1' H3). cbn. auto.
Qed.



(* ------------------------------------------------------------------ the statement loop of Wt.wt_block *)

Definition wgo (f : nat) :=
  fix go (ss : list Ast.stmt) (g : Wt.tenv) (last : Ast.ty) : option Ast.ty :=
    match ss with
    | [] => Some last
    | s :: r => match Wt.wt_stmt f P' g s with Some (g', t) => go r g' t | None => None end
    end.
Lemma wt_block_S f G b : Wt.wt_block (S f) P' G b = wgo f b G Wt.unit_ty.
Proof. reflexivity. Qed.

Definition sty (s : tstmt) : Ast.ty := match s with TSExpr e => xt (ty_of e) | _ => Wt.unit_ty end.

(* what the checker state must satisfy *)
Definition good (st : cstate) : Prop := env_ok (st_env st) /\ Forall (Qs D) (st_typed st).

Lemma good_with_env st g : good st -> env_ok g -> good (with_env st g).
Proof. intros [_ H] Hg. split; [exact Hg|exact H]. Qed.

Definition E (f : nat) : Prop := forall e st e' st' G F,
  frag_e e = true -> check_expr intern f D st e = COk (e', st') ->
  good st -> env_rel (st_env st) G -> (f <= F)%nat ->
  conc_e e' = true /\ Wt.wt_expr F P' G (xe e') = true.

Definition St (f : nat) : Prop := forall s st s' st' G F,
  frag_s s = true -> check_stmt intern f D st s = COk (s', st') ->
  good st -> env_rel (st_env st) G -> (f <= F)%nat ->
  conc_s s' = true /\ exists G', Wt.wt_stmt F P' G (xs s') = Some (G', sty s') /\
                                 good st' /\ env_rel (st_env st') G'.

Definition Bl (f : nat) : Prop := forall b st b' ty st' G F,
  forallb frag_s b = true -> check_block intern f D st b = COk (b', ty, st') ->
  good st -> env_rel (st_env st) G -> (f <= F)%nat ->
  forallb conc_s b' = true /\ Wt.wt_block F P' G (map xs b') = Some (xt ty).

Definition Ss (f : nat) : Prop := forall b st b' st' G F,
  forallb frag_s b = true -> check_stmts intern f D st b = COk (b', st') ->
  good st -> env_rel (st_env st) G -> (f <= F)%nat ->
  forallb conc_s b' = true /\ exists t, Wt.wt_block F P' G (map xs b') = Some t.

Lemma good_e f st e r : check_expr intern f D st e = COk r -> good st -> good (snd r).
Proof.
  intros H [Hg1 Hg2]. split; [rewrite (proj1 (check_env intern f D) _ _ _ H); exact Hg1|].
  exact (proj1 (Qs_pres intern D f) _ _ _ H Hg2).
Qed.

Lemma fold_sty_last : forall b l,
  fold_left (fun _ s => sty s) b l = match last (map Some b) None with Some s => sty s | None => l end.
Proof.
  assert (Hne : forall (r : list tstmt) t, last (map Some (t :: r)) None <> None).
  { induction r as [|u r IHr]; intro t; [discriminate|]. specialize (IHr u). cbn [map last] in *. exact IHr. }
  induction b as [|s r IH]; intro l; [reflexivity|]. cbn [fold_left]. rewrite IH.
  destruct r as [|t r]; [reflexivity|].
  change (last (map Some (s :: t :: r)) None) with (last (map Some (t :: r)) None).
  destruct (last (map Some (t :: r)) None) eqn:El; [reflexivity|]. exfalso. exact (Hne _ _ El).
Qed.

Lemma last_expr_ty_x b : xt (last_expr_ty b) = fold_left (fun _ s => sty s) b Wt.unit_ty.
Proof.
  rewrite fold_sty_last. unfold last_expr_ty. destruct (last (map Some b) None) as [[]|]; reflexivity.
Qed.

Lemma last_expr_ty_conc b : forallb conc_s b = true -> conc_ty (last_expr_ty b) = true.
Proof.
  unfold last_expr_ty. intro H.
  assert (Hl : forall s, last (map Some b) None = Some s -> conc_s s = true).
  { intros s Hs. rewrite forallb_forall in H. apply H. clear H.
    induction b as [|u r IH]; [discriminate|]. destruct r as [|v r]; [inversion Hs; left; reflexivity|].
    right. apply IH. exact Hs. }
  destruct (last (map Some b) None) as [[]|] eqn:El; try reflexivity.
  apply conc_e_ty. apply (Hl _ eq_refl).
Qed.

Lemma stmts_sound f F : St f -> (f <= F)%nat -> forall b st b' st' G l,
  forallb frag_s b = true -> mapM_st (check_stmt intern f D) st b = COk (b', st') ->
  good st -> env_rel (st_env st) G ->
  forallb conc_s b' = true /\ wgo F (map xs b') G l = Some (fold_left (fun _ s => sty s) b' l).
Proof.
  intros HS HF. induction b as [|s b IH]; intros st b' st' G l Hf H Hok Hrel; cbn [mapM_st] in H; inv_all'.
  - split; reflexivity.
  - cbn [forallb] in Hf. apply andb_true_iff in Hf. destruct Hf as [Hf1 Hf2].
    destruct (HS _ _ _ _ _ F Hf1 Hb Hok Hrel HF) as [Hc [G' [Hw [Hok' Hrel']]]].
    destruct (IH _ _ _ _ (sty t) Hf2 Hb0 Hok' Hrel') as [Hc2 Hw2].
    split; [cbn [forallb]; rewrite Hc, Hc2; reflexivity|].
    cbn [map wgo fold_left]. fold (wgo F). rewrite Hw. exact Hw2.
Qed.

Lemma exprs_sound f F : E f -> (f <= F)%nat -> forall es st es' st' G,
  forallb frag_e es = true -> mapM_st (check_expr intern f D) st es = COk (es', st') ->
  good st -> env_rel (st_env st) G ->
  forallb conc_e es' = true /\ forallb (fun e => Wt.wt_expr F P' G (xe e)) es' = true /\
  length es' = length es /\ st_env st' = st_env st.
Proof.
  intros HE HF. induction es as [|e es IH]; intros st es' st' G Hf H Hok Hrel; cbn [mapM_st] in H; inv_all'.
  - repeat split; reflexivity.
  - cbn [forallb] in Hf. apply andb_true_iff in Hf. destruct Hf as [Hf1 Hf2].
    destruct (HE _ _ _ _ _ F Hf1 Hb Hok Hrel HF) as [Hc Hw].
    pose proof (proj1 (check_env intern f D) _ _ _ Hb) as Henv. cbn [snd] in Henv.
    pose proof (good_e _ _ _ _ Hb Hok) as Hok2. cbn [snd] in Hok2.
    rewrite <- Henv in Hrel.
    destruct (IH _ _ _ _ Hf2 Hb0 Hok2 Hrel) as [Hc2 [Hw2 [Hl He]]].
    cbn [forallb length]. rewrite Hc, Hc2, Hw, Hw2, Hl. repeat split; try reflexivity. congruence.
Qed.

Lemma mapM_check_type_conc f t : forall l l',
  mapM (fun x => check_type f x t) l = COk l' -> forallb conc_e l = true ->
  l' = l /\ forall x, In x l -> ty_of x = t.
Proof.
  induction l as [|x l IH]; intros l' H Hc; cbn [mapM] in H; inv_all; [split; [reflexivity|intros ? []]|].
  cbn [forallb] in Hc. apply andb_true_iff in Hc. destruct Hc as [Hc1 Hc2].
  destruct (check_type_conc _ _ _ _ Hb Hc1) as [-> Ht]. destruct (IH _ Hb0 Hc2) as [-> Hall].
  split; [reflexivity|]. intros y [<-|Hy]; auto.
Qed.

Lemma scalar_conc ty t : scalar_uty ty = true -> concrete_of D ty = COk t -> conc_ty t = true.
Proof.
  unfold concrete_of. destruct ty; try discriminate; cbn [scalar_uty as_concrete_type]; intros Hs H; inv_all.
  - reflexivity.
  - destruct t0; try discriminate; reflexivity.
  - destruct t0; try discriminate; reflexivity.
Qed.

Lemma pick_conc t l : conc_ty t = true -> pick_elem_ty t l = t.
Proof. intro H. unfold pick_elem_ty. rewrite (conc_not_uU _ H), (conc_not_sU _ H). reflexivity. Qed.

Lemma conc_tys l : forallb conc_e l = true -> forallb conc_ty (map ty_of l) = true.
Proof.
  induction l as [|x l IH]; [reflexivity|]. cbn [forallb map]. intro H. apply andb_true_iff in H. destruct H.
  rewrite (conc_e_ty _ H), IH; auto.
Qed.

Lemma forallb2_tuple f G l : forallb (fun e => Wt.wt_expr f P' G (xe e)) l = true ->
  Wt.forallb2 (fun e t => Wt.ty_eqb (Ast.e_ty e) t && Wt.wt_expr f P' G e) (map xe l) (map xt (map ty_of l)) = true.
Proof.
  induction l as [|x l IH]; [reflexivity|]. cbn [forallb map Wt.forallb2]. intro H. apply andb_true_iff in H. destruct H as [H1 H2].
  rewrite e_ty_xe, xt_refl, H1, IH; auto.
Qed.

Lemma forallb_arr f G l t : forallb (fun e => Wt.wt_expr f P' G (xe e)) l = true -> (forall x, In x l -> ty_of x = t) ->
  forallb (fun e => Wt.ty_eqb (Ast.e_ty e) (xt t) && Wt.wt_expr f P' G e) (map xe l) = true.
Proof.
  induction l as [|x l IH]; [reflexivity|]. cbn [forallb map]. intros H Ht. apply andb_true_iff in H. destruct H as [H1 H2].
  rewrite e_ty_xe, (Ht x (or_introl eq_refl)), xt_refl, H1, IH; auto. intros; apply Ht; right; assumption.
Qed.

Lemma lenN_map {A B} (g : A -> B) l : lenN (map g l) = lenN l.
Proof. unfold lenN. rewrite map_length. reflexivity. Qed.

(* the accessor loop of an assignment *)
Lemma accs_ok f F : E f -> (f <= F)%nat -> forall accs st t tas t' st' G,
  forallb frag_a accs = true ->
  accs_loop (check_expr intern f D) f D st t accs = COk (tas, t', st') ->
  good st -> env_rel (st_env st) G -> conc_ty t = true ->
  ago F G (map xa tas) (xt t) = Some (xt t') /\ conc_ty t' = true /\ st_env st' = st_env st /\ good st'.
Proof.
  intros HE HF. induction accs as [|a accs IH]; intros st t tas t' st' G Hf H Hok Hrel Hct; cbn [accs_loop] in H.
  - inv_all. repeat split; auto; apply Hok.
  - cbn [forallb] in Hf. apply andb_true_iff in Hf. destruct Hf as [Hf1 Hf2].
    apply cbind_ok in H. destruct H as [[[ta t1] st1] [H1 H]]. cbv beta iota in H.
    apply cbind_ok in H. destruct H as [[[tas2 tf] st2] [H2 H]]. cbv beta iota in H. inv_all.
    destruct a; cbn [frag_a] in Hf1.
    + (* [i] *)
      apply cbind_ok in H1. destruct H1 as [el [Hel H1]]. destruct t as [| | |el0 n| | |]; try discriminate Hel. cbn in Hel. assert (el0 = el) by congruence. subst el0. clear Hel.
      apply cbind_ok in H1. destruct H1 as [[i1 sti] [Hi H1]]. cbn [fst snd] in H1.
      apply cbind_ok in H1. destruct H1 as [i2 [Hcoc H1]]. inversion H1; subst ta t1 st1; clear H1.
      destruct (HE _ _ _ _ _ F Hf1 Hi Hok Hrel HF) as [Hci Hwi].
      destruct (coc_unsigned_deep_conc _ _ _ _ Hcoc (conc_e_ty _ Hci)) as [-> Ety].
      pose proof (proj1 (check_env intern f D) _ _ _ Hi) as Henv. cbn [snd] in Henv.
      pose proof (good_e _ _ _ _ Hi Hok) as Hok2. cbn [snd] in Hok2. rewrite <- Henv in Hrel.
      cbn [conc_ty] in Hct.
      destruct (IH _ _ _ _ _ _ Hf2 H2 Hok2 Hrel Hct) as [Hago [Hc' [He Hgd]]].
      cbn [map ago]. fold (ago F G). rewrite xa_arr. cbn [export_ty]. fold (xt (CArray el n)).
      rewrite e_ty_xe, Ety, Hwi. cbn [export_ty Wt.is_unsigned]. 
      change (Ast.TArr (xt el) n) with (xt (CArray el n)). rewrite xt_refl. cbn [andb].
      split; [exact Hago|]. split; [exact Hc'|]. split; [congruence|exact Hgd].
    + (* .i *)
      apply cbind_ok in H1. destruct H1 as [vts [Hvt H1]]. destruct t as [| | | |vts0| |]; try discriminate Hvt. cbn in Hvt. assert (vts0 = vts) by congruence. subst vts0. clear Hvt.
      destruct (nthN vts index) as [ti|] eqn:En; [|discriminate]. inversion H1; subst ta t1 st1; clear H1.
      cbn [conc_ty] in Hct. pose proof (conc_nth _ _ _ Hct En) as Hcti.
      destruct (IH _ _ _ _ _ _ Hf2 H2 Hok Hrel Hcti) as [Hago [Hc' [He Hgd]]].
      cbn [map ago]. fold (ago F G). rewrite xa_tup. cbn [export_ty].
      change (Ast.TTup (map xt vts)) with (xt (CTuple vts)). rewrite xt_refl. cbn [export_ty].
      rewrite nthN_map, En. cbn [option_map]. auto.
    + (* .field *)
      apply cbind_ok in H1. destruct H1 as [sname [Hsn H1]]. destruct t as [| | | | |sn0|]; try discriminate Hsn. cbn in Hsn.
      assert (sn0 = sname) by congruence. subst sn0. clear Hsn.
      destruct (assocL sname (d_structs D)) as [sd|] eqn:Esd; [|discriminate].
      destruct (assocL field sd) as [ft|] eqn:Eft; [|discriminate]. inversion H1; subst ta t1 st1; clear H1.
      pose proof (D_conc_s _ _ _ _ Esd Eft) as Hcft.
      destruct (IH _ _ _ _ _ _ Hf2 H2 Hok Hrel Hcft) as [Hago [Hc' [He Hgd]]].
      cbn [map ago]. fold (ago F G). rewrite xa_fld. cbn [export_ty].
      change (Ast.TStruct (intern sname)) with (xt (CStruct sname)). rewrite xt_refl. cbn [export_ty].
      rewrite (P_structs _ _ Esd). unfold xfields. rewrite assocN_map_intern, Eft. cbn [option_map]. auto.
Qed.

Lemma call_args f F G : forall l (ps : list (bool * list N * cty)) l',
  zipM (fun a (p : bool * list N * cty) => check_type f a (snd p)) l ps = COk l' ->
  forallb conc_e l = true -> forallb (fun e => Wt.wt_expr F P' G (xe e)) l = true -> length l = length ps ->
  l' = l /\ Wt.forallb2 (fun e pt => Wt.ty_eqb (Ast.e_ty e) (snd pt) && Wt.wt_expr F P' G e) (map xe l) (xparams ps) = true.
Proof.
  induction l as [|x l IH]; intros ps l' H Hc Hw Hlen.
  - destruct ps; [|discriminate]. cbn in H. inversion H. split; reflexivity.
  - destruct ps as [|p ps]; [discriminate|]. cbn [zipM] in H.
    apply cbind_ok in H. destruct H as [x' [Hx H]]. apply cbind_ok in H. destruct H as [r' [Hr H]]. inversion H; subst; clear H.
    cbn [forallb] in Hc, Hw. apply andb_true_iff in Hc. destruct Hc as [Hc1 Hc2]. apply andb_true_iff in Hw. destruct Hw as [Hw1 Hw2].
    destruct (check_type_conc _ _ _ _ Hx Hc1) as [-> Ht].
    destruct (IH _ _ Hr Hc2 Hw2 ltac:(cbn in Hlen; lia)) as [-> Hf2].
    split; [reflexivity|]. cbn [map xparams Wt.forallb2 snd]. fold (xparams ps). rewrite e_ty_xe, Ht, xt_refl, Hw1, Hf2. reflexivity.
Qed.

Lemma enum_args f F G : forall l (ts : list cty) l',
  zipM (fun a t => check_type f a t) l ts = COk l' ->
  forallb conc_e l = true -> forallb (fun e => Wt.wt_expr F P' G (xe e)) l = true -> length l = length ts ->
  l' = l /\ Wt.forallb2 (fun e t => Wt.ty_eqb (Ast.e_ty e) t && Wt.wt_expr F P' G e) (map xe l) (map xt ts) = true.
Proof.
  induction l as [|x l IH]; intros ts l' H Hc Hw Hlen.
  - destruct ts; [|discriminate]. cbn in H. inversion H. split; reflexivity.
  - destruct ts as [|t ts]; [discriminate|]. cbn [zipM] in H.
    apply cbind_ok in H. destruct H as [x' [Hx H]]. apply cbind_ok in H. destruct H as [r' [Hr H]]. inversion H; subst; clear H.
    cbn [forallb] in Hc, Hw. apply andb_true_iff in Hc. destruct Hc as [Hc1 Hc2]. apply andb_true_iff in Hw. destruct Hw as [Hw1 Hw2].
    destruct (check_type_conc _ _ _ _ Hx Hc1) as [-> Ht].
    destruct (IH _ _ Hr Hc2 Hw2 ltac:(cbn in Hlen; lia)) as [-> Hf2].
    split; [reflexivity|]. cbn [map Wt.forallb2]. rewrite e_ty_xe, Ht, xt_refl, Hw1, Hf2. reflexivity.
Qed.



(* the clauses of a match *)
Lemma arms_sound f F ty : E f -> (f <= F)%nat -> conc_ty ty = true -> forall clauses st rc st' G,
  forallb (fun pa : upattern * xexpr => frag_p (fst pa) && frag_e (snd pa)) clauses = true ->
  mapM_st (match_arm intern f D ty) st clauses = COk (rc, st') ->
  good st -> env_rel (st_env st) G ->
  forallb (fun a : tpattern * texpr => conc_e (snd a)) rc = true /\
  forallb (fun a : tpattern * texpr =>
             Wt.ty_eqb (Ast.p_ty (xp (fst a))) (xt ty) &&
             match Wt.wt_pat P' (xp (fst a)) with
             | Some bs => Wt.wt_expr F P' (Wt.tbind_all ([] :: G) bs false) (xe (snd a))
             | None => false
             end) rc = true /\
  good st' /\ st_env st' = st_env st.
Proof.
  intros HE HF Hcty. induction clauses as [|[p e] clauses IH]; intros st rc st' G Hf H Hok Hrel; cbn [mapM_st] in H.
  - inversion H; subst. repeat split; try reflexivity; apply Hok.
  - cbn [forallb fst snd] in Hf. apply andb_true_iff in Hf. destruct Hf as [Hf1 Hf2]. apply andb_true_iff in Hf1. destruct Hf1 as [Hfp Hfe].
    apply cbind_ok in H. destruct H as [[[p1 e1] st1] [H1 H]]. apply cbind_ok in H. destruct H as [[rc2 st2] [H2 H]].
    cbn [fst snd] in H. inversion H; subst; clear H. unfold match_arm in H1.
    apply cbind_ok in H1. destruct H1 as [[pp g1] [Hp H1]]. apply cbind_ok in H1. destruct H1 as [[ee st3] [He H1]].
    cbn [fst snd] in *. inversion H1; subst; clear H1.
    destruct (pat_sound p _ _ _ _ Hfp Hp) as [Hpty [bs [Hwp [Hrp Hop]]]].
    assert (Hg3 : good (with_env st g1)).
    { apply good_with_env; [exact Hok|]. apply Hop; [exact Hcty|]. apply env_ok_push. exact (proj1 Hok). }
    destruct (HE _ _ _ _ (Wt.tbind_all ([] :: G) bs false) F Hfe He Hg3) as [Hce Hwe].
    { cbn [st_env with_env]. apply Hrp. apply env_rel_push. exact Hrel. }
    { exact HF. }
    pose proof (proj1 (check_env intern f D) _ _ _ He) as Henv. cbn [snd st_env with_env] in Henv.
    pose proof (check_pattern_tl _ _ _ _ _ Hp) as Htl. cbn [snd env_push tl] in Htl.
    pose proof (good_e _ _ _ _ He Hg3) as Hg4. cbn [snd] in Hg4.
    assert (Henv1 : st_env (with_env st3 (env_pop (st_env st3))) = st_env st).
    { cbn [st_env with_env]. change env_pop with (@tl cscope). congruence. }
    assert (Hg1 : good (with_env st3 (env_pop (st_env st3)))).
    { split; [rewrite Henv1; exact (proj1 Hok)|exact (proj2 Hg4)]. }
    destruct (IH _ _ _ G Hf2 H2 Hg1 ltac:(rewrite Henv1; exact Hrel)) as [Hc2 [Hw2 [Hg2 He2]]].
    cbn [forallb fst snd]. rewrite Hce, Hc2, Hpty, xt_refl, Hwp, Hwe, Hw2.
    repeat split; try reflexivity; [apply Hg2|apply Hg2|congruence].
Qed.

Lemma match_retype fu ret_ty : forall rc rc',
  mapM (arm_retype fu ret_ty) rc = COk rc' ->
  forallb (fun a : tpattern * texpr => conc_e (snd a)) rc = true ->
  rc' = rc /\ forall a, In a rc -> ty_of (snd a) = ret_ty.
Proof.
  induction rc as [|[p e] rc IH]; intros rc' H Hc; cbn [mapM] in H.
  - inversion H. split; [reflexivity|intros a []].
  - apply cbind_ok in H. destruct H as [x [Hx H]]. apply cbind_ok in H. destruct H as [r [Hr H]]. inversion H; subst; clear H.
    cbn [forallb snd] in Hc. apply andb_true_iff in Hc. destruct Hc as [Hc1 Hc2].
    destruct (IH _ Hr Hc2) as [-> Hall]. unfold arm_retype in Hx. cbn [snd fst] in Hx.
    assert (Hxe : x = (p, e) /\ ty_of e = ret_ty).
    { destruct (cty_eqb ret_ty (ty_of e)) eqn:Eq.
      - cbn [negb] in Hx. inversion Hx. apply cty_eqb_eq in Eq. auto.
      - cbn [negb] in Hx. destruct ret_ty; try discriminate Hx.
        + apply cbind_ok in Hx. destruct Hx as [y [Hy Hx]]. inversion Hx; subst.
          destruct (coc_unsigned_deep_conc _ _ _ _ Hy (conc_e_ty _ Hc1)) as [-> Ht]. auto.
        + apply cbind_ok in Hx. destruct Hx as [y [Hy Hx]]. inversion Hx; subst.
          destruct (coc_signed_deep_conc _ _ _ _ Hy (conc_e_ty _ Hc1)) as [-> Ht]. auto. }
    destruct Hxe as [-> Hte]. split; [reflexivity|]. intros a [<-|Ha]; [exact Hte|auto].
Qed.

Lemma arms_wt F G sty rty : forall rc,
  forallb (fun a : tpattern * texpr =>
             Wt.ty_eqb (Ast.p_ty (xp (fst a))) sty &&
             match Wt.wt_pat P' (xp (fst a)) with
             | Some bs => Wt.wt_expr F P' (Wt.tbind_all ([] :: G) bs false) (xe (snd a))
             | None => false
             end) rc = true ->
  (forall a, In a rc -> ty_of (snd a) = rty) ->
  forallb (fun arm : Ast.pattern * Ast.expr =>
             Wt.ty_eqb (Ast.p_ty (fst arm)) sty && Wt.ty_eqb (Ast.e_ty (snd arm)) (xt rty) &&
             match Wt.wt_pat P' (fst arm) with
             | Some bs => Wt.wt_expr F P' (Wt.tbind_all ([] :: G) bs false) (snd arm)
             | None => false
             end) (map (fun a => (xp (fst a), xe (snd a))) rc) = true.
Proof.
  induction rc as [|a rc IH]; intros H Ht; [reflexivity|]. cbn [forallb map fst snd] in *.
  apply andb_true_iff in H. destruct H as [H1 H2]. apply andb_true_iff in H1. destruct H1 as [H1a H1b].
  rewrite H1a, H1b, e_ty_xe, (Ht a (or_introl eq_refl)), xt_refl. cbn [andb].
  apply IH; [exact H2|]. intros b Hb. apply Ht. right. exact Hb.
Qed.

(* ------------------------------------------------------------------ struct literals *)

Lemma slit_sound f F sd : E f -> (f <= F)%nat -> forall fields seen st tfields st' G,
  forallb (fun nf : list N * xexpr => frag_e (snd nf)) fields = true ->
  struct_lit_loop (check_expr intern f D) f sd seen st fields = COk (tfields, st') ->
  good st -> env_rel (st_env st) G ->
  map fst tfields = map fst fields /\ NoDup (map fst fields) /\
  (forall x, In x seen -> ~ In x (map fst fields)) /\
  Forall (fun nf : list N * texpr => exists t, assocL (fst nf) sd = Some t /\ ty_of (snd nf) = t /\
            conc_e (snd nf) = true /\ Wt.wt_expr F P' G (xe (snd nf)) = true) tfields /\
  good st' /\ st_env st' = st_env st.
Proof.
  intros HE HF. induction fields as [|[fname fv] fields IH]; intros seen st tfields st' G Hf H Hok Hrel; cbn [struct_lit_loop] in H.
  - inversion H; subst. repeat split; try constructor; auto; apply Hok.
  - cbn [forallb snd] in Hf. apply andb_true_iff in Hf. destruct Hf as [Hf1 Hf2].
    destruct (memL fname seen) eqn:Em; [discriminate|].
    destruct (assocL fname sd) as [ety|] eqn:Ea; [|discriminate].
    apply cbind_ok in H. destruct H as [[e1 st1] [He H]]. cbn [fst snd] in H.
    apply cbind_ok in H. destruct H as [tf [Hct H]]. apply cbind_ok in H. destruct H as [[tfs st2] [Hl H]].
    cbn [fst snd] in H. inversion H; subst; clear H.
    destruct (HE _ _ _ _ G F Hf1 He Hok Hrel HF) as [Hc Hw].
    destruct (check_type_conc _ _ _ _ Hct Hc) as [-> Ety].
    pose proof (proj1 (check_env intern f D) _ _ _ He) as Henv. cbn [snd] in Henv.
    pose proof (good_e _ _ _ _ He Hok) as Hg1. cbn [snd] in Hg1.
    destruct (IH (fname :: seen) _ _ _ G Hf2 Hl Hg1 ltac:(rewrite Henv; exact Hrel)) as [Hn [Hnd [Hseen [Hall [Hg2 He2]]]]].
    cbn [map fst]. split; [rewrite Hn; reflexivity|]. split.
    { constructor; [apply Hseen; left; reflexivity|exact Hnd]. }
    split.
    { intros x Hx [Heq|Hin]; [subst x; exact (memL_false_notin _ _ Em Hx)|exact (Hseen x (or_intror Hx) Hin)]. }
    split; [constructor; [exists ety; cbn [fst snd]; auto|exact Hall]|]. split; [exact Hg2|congruence].
Qed.

Lemma filter_none {A} (g : list N * A -> N * Ast.expr) k (l : list (list N * A)) :
  (forall x, fst (g x) = intern (fst x)) -> ~ In k (map fst l) ->
  filter (fun fe : N * Ast.expr => fst fe =? intern k) (map g l) = [].
Proof.
  intros Hg. induction l as [|x l IH]; intro Hn; [reflexivity|]. cbn [map filter]. rewrite Hg, (intern_eqb intern intern_inj).
  destruct (list_eqb (fst x) k) eqn:E.
  - apply list_eqb_eq in E. exfalso. apply Hn. left. exact E.
  - apply IH. intro H. apply Hn. right. exact H.
Qed.

Lemma filter_unique {A} (g : list N * A -> N * Ast.expr) k v (l : list (list N * A)) :
  (forall x, fst (g x) = intern (fst x)) -> NoDup (map fst l) -> In (k, v) l ->
  filter (fun fe : N * Ast.expr => fst fe =? intern k) (map g l) = [g (k, v)].
Proof.
  intros Hg. induction l as [|x l IH]; intros Hnd Hin; [destruct Hin|]. cbn [map fst] in Hnd. inversion Hnd as [|? ? Hn Hnd']; subst.
  cbn [map filter]. rewrite Hg, (intern_eqb intern intern_inj). destruct Hin as [->|Hin].
  - cbn [fst]. rewrite list_eqb_refl. f_equal. apply filter_none; assumption.
  - destruct (list_eqb (fst x) k) eqn:E; [|apply IH; assumption].
    apply list_eqb_eq in E. exfalso. apply Hn. rewrite E. change k with (fst (k, v)). apply in_map. exact Hin.
Qed.

Lemma In_assocL_nodup {A} (l : list (list N * A)) k v : NoDup (map fst l) -> In (k, v) l -> assocL k l = Some v.
Proof.
  induction l as [|[k0 v0] l IH]; intros Hnd Hin; [destruct Hin|]. cbn [map fst] in Hnd. inversion Hnd as [|? ? Hn Hnd']; subst.
  cbn [assocL]. destruct Hin as [Heq|Hin].
  - inversion Heq; subst. rewrite list_eqb_refl. reflexivity.
  - destruct (list_eqb k k0) eqn:E; [|apply IH; assumption].
    apply list_eqb_eq in E. subst. exfalso. apply Hn. change k0 with (fst (k0, v)). apply in_map. exact Hin.
Qed.

Lemma slit_wt F G sd (fields : list (list N * xexpr)) (tfields : list (list N * texpr)) :
  NoDup (map fst sd) -> map fst tfields = map fst fields -> NoDup (map fst fields) ->
  missing_field sd fields = false ->
  Forall (fun nf : list N * texpr => exists t, assocL (fst nf) sd = Some t /\ ty_of (snd nf) = t /\
            conc_e (snd nf) = true /\ Wt.wt_expr F P' G (xe (snd nf)) = true) tfields ->
  (lenN (map (fun f : list N * texpr => (intern (fst f), xe (snd f))) tfields) =? lenN (xfields sd)) &&
  forallb (fun d : N * Ast.ty =>
             match filter (fun fe : N * Ast.expr => fst fe =? fst d)
                          (map (fun f : list N * texpr => (intern (fst f), xe (snd f))) tfields) with
             | [(_, fe)] => Wt.ty_eqb (Ast.e_ty fe) (snd d) && Wt.wt_expr F P' G fe
             | _ => false
             end) (xfields sd) = true.
Proof.
  intros Hnds Hn Hndf Hmiss Hall.
  assert (Hndt : NoDup (map fst tfields)) by (rewrite Hn; exact Hndf).
  assert (Hin1 : incl (map fst tfields) (map fst sd)).
  { intros k Hk. apply in_map_iff in Hk. destruct Hk as [[k0 e0] [<- Hk]]. rewrite Forall_forall in Hall.
    destruct (Hall _ Hk) as [t [Ha _]]. cbn [fst] in *. apply assocL_In in Ha. change k0 with (fst (k0, t)). apply in_map. exact Ha. }
  assert (Hin2 : incl (map fst sd) (map fst tfields)).
  { intros k Hk. rewrite Hn. apply in_map_iff in Hk. destruct Hk as [d [<- Hd]].
    unfold missing_field in Hmiss. rewrite <- not_true_iff_false in Hmiss.
    destruct (existsb (fun f0 : list N * xexpr => list_eqb (fst f0) (fst d)) fields) eqn:Ex.
    - apply existsb_exists in Ex. destruct Ex as [f0 [Hf0 Heq]]. apply list_eqb_eq in Heq. rewrite <- Heq. apply in_map. exact Hf0.
    - exfalso. apply Hmiss. apply existsb_exists. exists d. split; [exact Hd|]. rewrite Ex. reflexivity. }
  apply andb_true_iff. split.
  - apply N.eqb_eq. unfold lenN, xfields. rewrite !map_length. f_equal.
    pose proof (NoDup_incl_length Hndt Hin1) as L1. pose proof (NoDup_incl_length Hnds Hin2) as L2.
    rewrite !map_length in L1, L2. lia.
  - apply forallb_forall. intros d Hd. unfold xfields in Hd. apply in_map_iff in Hd. destruct Hd as [[k t] [<- Hkt]].
    cbn [fst snd].
    assert (Hk : In k (map fst tfields)) by (apply Hin2; change k with (fst (k, t)); apply in_map; exact Hkt).
    apply in_map_iff in Hk. destruct Hk as [[k0 e0] [Hk0 He0]]. cbn [fst] in Hk0. subst k0.
    rewrite (filter_unique (fun f : list N * texpr => (intern (fst f), xe (snd f))) k e0 tfields (fun x => eq_refl) Hndt He0).
    cbn [fst snd]. rewrite Forall_forall in Hall. destruct (Hall _ He0) as [t' [Ha [Hty [_ Hw]]]]. cbn [fst snd] in *.
    rewrite (In_assocL_nodup _ _ _ Hnds Hkt) in Ha. injection Ha as Ha.
    rewrite e_ty_xe, Hty, <- Ha, xt_refl, Hw. reflexivity.
Qed.

Ltac env_tac := first [assumption | (repeat match goal with He : st_env _ = st_env _ |- _ => rewrite He end); assumption].

(* one sub-expression: the IH, the environment equality and [good] of the state after it *)
Ltac sub_e HE G F HF H :=
  let Hc := fresh "Hc" in let Hw := fresh "Hw" in let Henv := fresh "Henv" in let Hg := fresh "Hg" in
  pose proof (proj1 (check_env intern _ D) _ _ _ H) as Henv; cbn [snd] in Henv;
  match type of H with Infer.check_expr _ _ _ ?st ?e = _ =>
    let Hf := fresh in assert (Hf : frag_e e = true) by assumption;
    let Hg0 := fresh "Hg0" in
    assert (Hg0 : good st) by assumption;
    pose proof (good_e _ _ _ _ H Hg0) as Hg; cbn [snd] in Hg; clear Hg0;
    destruct (HE _ _ _ _ G F Hf H ltac:(assumption) ltac:(env_tac) HF) as [Hc Hw] end.

Ltac bind_e H x st Hx := apply cbind_ok in H; destruct H as [[x st] [Hx H]]; cbv beta zeta in H; cbn [fst snd] in H.

Theorem sound_all : forall f, E f /\ St f /\ Bl f /\ Ss f.
Proof.
  induction f as [|f [HE [HS [HB HSs]]]].
  { repeat split; intros; discriminate. }
  assert (HB' : Bl (S f)).
  { intros b st b' ty st' G F Hf H Hok Hrel HF. destruct F as [|F]; [lia|]. apply le_S_n in HF.
    rewrite check_block_S in H. inv_all'.
    destruct (stmts_sound f F HS HF _ _ _ _ _ Wt.unit_ty Hf Hb Hok Hrel) as [Hc Hw].
    split; [exact Hc|]. rewrite wt_block_S, Hw, last_expr_ty_x. reflexivity. }
  assert (HSs' : Ss (S f)).
  { intros b st b' st' G F Hf H Hok Hrel HF. destruct F as [|F]; [lia|]. apply le_S_n in HF.
    rewrite check_stmts_S in H.
    destruct (stmts_sound f F HS HF _ _ _ _ _ Wt.unit_ty Hf H Hok Hrel) as [Hc Hw].
    split; [exact Hc|]. eexists. rewrite wt_block_S. exact Hw. }
  split; [|split; [|split; assumption]].
  - (* ---------------------------------------------------------------- expressions *)
    intros e st e' st' G F Hf H Hok Hrel HF. destruct F as [|F]; [lia|]. apply le_S_n in HF. destruct e; try discriminate Hf; cbn [frag_e] in Hf;
      rewrite check_expr_S in H; cbn [expr_step] in H.
    + (* true *) inv_all. split; reflexivity.
    + inv_all. split; reflexivity.
    + (* unsigned literal *) inv_all. cbn [conc_e export_expr Wt.wt_expr export_ty].
      rewrite (lit_u_conc _ _ Hf), (lit_u_fits _ _ Hf). split; reflexivity.
    + inv_all. cbn [conc_e export_expr Wt.wt_expr export_ty].
      rewrite (lit_s_conc _ _ Hf), (lit_s_fits _ _ Hf). split; reflexivity.
    + (* identifier *)
      destruct (env_get (st_env st) s) as [[ty m]|] eqn:Eg.
      * inv_all. cbn [conc_e export_expr Wt.wt_expr]. rewrite (proj1 Hok _ _ _ Eg).
        destruct (proj1 Hrel _ _ _ Eg) as [m' [Hl _]]. rewrite Hl, xt_refl. split; reflexivity.
      * destruct (assocL s (d_consts D)) as [ty|] eqn:Ecn; [|discriminate]. inv_all.
        cbn [conc_e export_expr Wt.wt_expr]. rewrite (D_conc_c _ _ Ecn).
        destruct (proj2 Hrel _ _ Eg Ecn) as [m' Hl]. rewrite Hl, xt_refl. split; reflexivity.
    + (* array literal *)
      apply cbind_ok in H. destruct H as [[es1 st1] [Hes H]]. cbn [fst snd] in H.
      destruct (exprs_sound f F HE HF _ _ _ _ G Hf Hes Hok Hrel) as [Hces [Hwes [Hlen Henv]]].
      destruct es1 as [|first es1]; [discriminate|].
      assert (Hcf : conc_ty (ty_of first) = true).
      { cbn [forallb] in Hces. apply andb_true_iff in Hces. apply conc_e_ty. tauto. }
      rewrite (pick_conc _ _ Hcf) in H.
      apply cbind_ok in H. destruct H as [fields' [Hm H]]. inversion H; subst; clear H.
      destruct (mapM_check_type_conc _ _ _ _ Hm Hces) as [-> Hall].
      cbn [conc_e conc_ty export_expr Wt.wt_expr export_ty]. rewrite Hcf, Hces.
      rewrite lenN_map. unfold lenN. rewrite Hlen, N.eqb_refl.
      rewrite (forallb_arr _ _ _ _ Hwes Hall). split; reflexivity.
    + (* array repeat *) inv_all'. sub_e HE G F HF Hb. cbn [conc_e export_expr Wt.wt_expr export_ty ty_of conc_ty].
      rewrite Hc, (conc_e_ty _ Hc), Hw, N.eqb_refl, e_ty_xe, xt_refl. split; reflexivity.
    + (* array access *)
      apply andb_true_iff in Hf. destruct Hf as [Hf1 Hf2].
      bind_e H a1 st1 Ha. bind_e H i1 st2 Hi.
      apply cbind_ok in H. destruct H as [el [Hel H]]. apply cbind_ok in H. destruct H as [i2 [Hcoc H]].
      inversion H; subst; clear H.
      sub_e HE G F HF Ha. sub_e HE G F HF Hi.
      destruct (coc_unsigned_deep_conc _ _ _ _ Hcoc (conc_e_ty _ Hc0)) as [-> Ety].
      pose proof (conc_e_ty _ Hc) as Hca.
      destruct (ty_of a1) as [| | |el0 n0| | |] eqn:Eta; try discriminate Hel. cbn in Hel. inversion Hel; subst; clear Hel.
      cbn [conc_ty] in Hca.
      cbn [conc_e export_expr Wt.wt_expr]. rewrite !e_ty_xe, Eta, Ety, Hca, Hc, Hc0, Hw, Hw0.
      cbn [export_ty Wt.is_unsigned]. rewrite xt_refl. split; reflexivity.
    + (* tuple literal *)
      apply cbind_ok in H. destruct H as [[es1 st1] [Hes H]]. cbn [fst snd] in H. inversion H; subst; clear H.
      destruct (exprs_sound f F HE HF _ _ _ _ G Hf Hes Hok Hrel) as [Hces [Hwes [Hlen Henv]]].
      cbn [conc_e conc_ty export_expr Wt.wt_expr export_ty]. rewrite (conc_tys _ Hces), Hces.
      rewrite (forallb2_tuple _ _ _ Hwes). split; reflexivity.
    + (* tuple access *)
      bind_e H t1 st1 Ht. apply cbind_ok in H. destruct H as [vts [Hvt H]].
      sub_e HE G F HF Ht. pose proof (conc_e_ty _ Hc) as Hct.
      destruct (ty_of t1) as [| | | |vts0| |] eqn:Ett; try discriminate Hvt. cbn in Hvt. inversion Hvt; subst; clear Hvt.
      destruct (nthN vts i) as [ti|] eqn:En; [|discriminate]. inversion H; subst; clear H.
      cbn [conc_ty] in Hct.
      cbn [conc_e export_expr Wt.wt_expr]. rewrite e_ty_xe, Ett. cbn [export_ty]. rewrite nthN_map, En. cbn [option_map].
      rewrite xt_refl, Hw, Hc, (conc_nth _ _ _ Hct En). split; reflexivity.
    + (* field access *)
      bind_e H s1 st1 Hs. apply cbind_ok in H. destruct H as [sname [Hsn H]].
      sub_e HE G F HF Hs.
      destruct (ty_of s1) as [| | | | |sn0|] eqn:Ets; try discriminate Hsn. cbn in Hsn.
      assert (sn0 = sname) by congruence. subst sn0. clear Hsn.
      destruct (assocL sname (d_structs D)) as [sd|] eqn:Esd; [|discriminate].
      match type of H with context [assocL ?fld sd] => destruct (assocL fld sd) as [ft|] eqn:Eft; [|discriminate] end.
      inversion H; subst; clear H.
      cbn [conc_e export_expr Wt.wt_expr]. rewrite e_ty_xe, Ets. cbn [export_ty]. rewrite (P_structs _ _ Esd).
      unfold xfields. rewrite assocN_map_intern, Eft. cbn [option_map].
      rewrite xt_refl, Hw, Hc, (D_conc_s _ _ _ _ Esd Eft). split; reflexivity.
    + (* struct literal *)
      destruct (assocL name (d_structs D)) as [sd|] eqn:Esd; [|discriminate].
      apply cbind_ok in H. destruct H as [[tfields st1] [Hl H]]. cbn [fst snd] in H.
      destruct (missing_field sd fields) eqn:Em; [discriminate|]. inversion H; subst; clear H.
      destruct (slit_sound f F sd HE HF _ _ _ _ _ G Hf Hl Hok Hrel) as [Hn [Hnd [_ [Hall [_ _]]]]].
      assert (Hcf : forallb (fun f1 : list N * texpr => conc_e (snd f1)) tfields = true).
      { apply forallb_forall. intros x Hx. rewrite Forall_forall in Hall. destruct (Hall _ Hx) as [? [_ [_ [Hcx _]]]]. exact Hcx. }
      cbn [conc_e conc_ty export_expr Wt.wt_expr export_ty]. rewrite Hcf, (P_structs _ _ Esd), N.eqb_refl.
      pose proof (slit_wt F G sd fields tfields (D_nodup_s _ _ Esd) Hn Hnd Em Hall) as Hwt.
      cbn [andb]. rewrite Hwt. split; reflexivity.
    + (* enum literal *)
      match type of H with context [assocL ?en0 (d_enums D)] =>
        destruct (assocL en0 (d_enums D)) as [ed|] eqn:Eed; [|discriminate] end.
      match type of H with context [assocL ?v0 ed] =>
        destruct (assocL v0 ed) as [[pts|]|] eqn:Ev; [| |discriminate] end.
      * (* tuple variant *)
        destruct args as [es|]; [|discriminate].
        destruct (negb (lenN es =? lenN pts)) eqn:El; [discriminate|].
        apply cbind_ok in H. destruct H as [[es1 st1] [Hes H]]. cbn [fst snd] in H.
        apply cbind_ok in H. destruct H as [args' [Hz H]]. inversion H; subst; clear H.
        destruct (exprs_sound f F HE HF _ _ _ _ G Hf Hes Hok Hrel) as [Hces [Hwes [Hlen Henv]]].
        apply negb_false_iff in El. apply N.eqb_eq in El. unfold lenN in El. apply Nat2N.inj in El.
        destruct (enum_args _ F G _ _ _ Hz Hces Hwes ltac:(lia)) as [-> Hargs].
        cbn [conc_e conc_ty export_expr Wt.wt_expr export_ty]. rewrite (P_enums _ _ Eed), N.eqb_refl, Hces.
        rewrite (variant_nth _ _ _ _ Eed Ev), Hargs. split; reflexivity.
      * (* unit variant *)
        destruct args as [es|]; [discriminate|]. inversion H; subst; clear H.
        cbn [conc_e conc_ty export_expr Wt.wt_expr export_ty]. rewrite (P_enums _ _ Eed), N.eqb_refl.
        rewrite (variant_nth _ _ _ _ Eed Ev). cbn [map Wt.forallb2]. split; reflexivity.
    + (* match *)
      apply andb_true_iff in Hf. destruct Hf as [Hfs Hfa].
      bind_e H s1 st1 Hs. sub_e HE G F HF Hs. pose proof (conc_e_ty _ Hc) as Hcs.
      assert (Hrel1 : env_rel (st_env st1) G) by env_tac.
      destruct (ty_of s1) eqn:Ets; try discriminate H.
      all: (unfold match_tail in H; apply cbind_ok in H; destruct H as [[rc st2] [Hrc H]]; cbn [fst snd] in H;
            match type of Hrc with mapM_st _ _ _ = _ =>
              destruct (arms_sound f F _ HE HF Hcs _ _ _ _ G Hfa Hrc Hg Hrel1) as [Hca [Hwa [Hg2 Henv2]]] end;
            destruct rc as [|[p0 first] rc']; [discriminate|];
            assert (Hcf : conc_ty (ty_of first) = true)
              by (cbn [forallb snd] in Hca; apply andb_true_iff in Hca; apply conc_e_ty; tauto);
            rewrite (pick_conc _ _ Hcf) in H;
            apply cbind_ok in H; destruct H as [clauses' [Hm H]]; apply cbind_ok in H; destruct H as [u0 [_ H]];
            inversion H; subst; clear H;
            destruct (match_retype _ _ _ _ Hm Hca) as [-> Hall];
            cbn [conc_e export_expr Wt.wt_expr]; rewrite Hc, Hw, Hcf, Hca, e_ty_xe, Ets;
            rewrite (arms_wt F G _ _ _ Hwa Hall); split; reflexivity).
    + (* unary *)
      destruct o; inv_all';
        match goal with Hx : Infer.check_expr _ _ _ _ _ = COk _ |- _ => sub_e HE G F HF Hx end;
        pose proof (conc_e_ty _ Hc) as Hct;
        cbn [conc_e export_expr Wt.wt_expr export_ty ty_of]; rewrite ?e_ty_xe, ?xt_refl, Hc, Hct, Hw; split; try reflexivity.
      * match goal with H : expect_bool_or_num_type _ = COk _ |- _ =>
             pose proof (expect_bool_or_num_x _ _ H) as Hb1; cbn [ty_of] in Hb1; rewrite Hb1; reflexivity end.
      * match goal with H : expect_signed_num_type _ = COk _ |- _ =>
             pose proof (expect_signed_x _ _ H) as Hb1; cbn [ty_of] in Hb1; rewrite Hb1; reflexivity end.
    + (* binary *)
      apply andb_true_iff in Hf. destruct Hf as [Hf1 Hf2].
      bind_e H x1 st1 Hx. bind_e H y1 st2 Hy.
      sub_e HE G F HF Hx. sub_e HE G F HF Hy.
      pose proof (conc_e_ty _ Hc) as Htx. pose proof (conc_e_ty _ Hc0) as Hty.
      destruct o.
      1-12: (apply cbind_ok in H; destruct H as [[[x2 y2] ty] [Hu H]]; cbv beta iota in H;
             destruct (unify_conc _ _ _ _ _ _ Hu Htx Hty) as [-> [-> [Et1 Et2]]]; subst ty).
      1-10: (apply cbind_ok in H; destruct H as [u0 [Hex H]]).
      13-14: (apply cbind_ok in H; destruct H as [u0 [Hex H]]; apply cbind_ok in H; destruct H as [y2 [Hcoc H]];
              destruct (coc_unsigned_deep_conc _ _ _ _ Hcoc Hty) as [-> Ey]).
      15-16: (destruct (ty_of x1) eqn:Ex1; try discriminate H; destruct (ty_of y1) eqn:Ey1; try discriminate H).
      all: inversion H; subst; clear H.
      all: cbn [conc_e export_expr export_op Wt.wt_expr export_ty ty_of conc_ty];
           rewrite ?e_ty_xe, ?Et2, ?Ey, ?Ex1, ?Ey1, ?Hc, ?Hc0, ?Hw, ?Hw0, ?Htx, ?xt_refl.
      1-5: rewrite (expect_num_x _ _ Hex).
      6-8: rewrite (orb_comm (Wt.is_int _)), (expect_bool_or_num_x _ _ Hex).
      9-10: rewrite (expect_num_x _ _ Hex).
      13-14: rewrite (expect_num_x _ _ Hex).
      all: split; reflexivity.
    + (* block *)
      apply cbind_ok in H. destruct H as [[[body ty] st1] [Hblk H]]. cbv beta iota in H. inv_all.
      destruct (HB _ _ _ _ _ ([] :: G) F Hf Hblk) as [Hcb Hwb].
      { apply good_with_env; [exact Hok|]. apply env_ok_push. exact (proj1 Hok). }
      { apply env_rel_push. exact Hrel. }
      { exact HF. }
      assert (Ety : ty = last_expr_ty body).
      { destruct f as [|f0]; [discriminate|]. rewrite check_block_S in Hblk. inv_all. reflexivity. }
      rewrite xe_block, wt_expr_block, Hwb, xt_refl. cbn [conc_e]. rewrite Hcb.
      rewrite Ety, (last_expr_ty_conc _ Hcb). split; reflexivity.
    + (* call *)
      apply cbind_ok in H. destruct H as [st1 [Hst1 H]]. cbv beta in H.
      assert (Hg1 : good st1 /\ st_env st1 = st_env st).
      { destruct (call_prefix_ok _ _ _ _ _ _ Hst1) as [->|(fd1 & r1 & _ & Ef & Hcf & ->)]; [split; [exact Hok|reflexivity]|].
        pose proof (proj2 (proj2 (proj2 (proj2 (check_env intern f D)))) _ _ _ Hcf) as He2.
        pose proof (proj2 (proj2 (proj2 (proj2 (Qs_pres intern D f)))) _ _ _ Hcf (proj2 Hok)) as HQ2.
        split; [split|]; cbn [st_env st_typed].
        - rewrite He2. exact (proj1 Hok).
        - constructor; [exact (Qs_ins _ _ _ _ _ _ _ Ef Hcf)|exact HQ2].
        - exact He2. }
      destruct Hg1 as [Hg1 Henv1]. clear Hst1.
      destruct (assocL f0 (st_typed st1)) as [fn_def|] eqn:Ea; [|discriminate].
      destruct (env_get (st_env st1) f0); [discriminate|].
      apply cbind_ok in H. destruct H as [[es1 st2] [Hes H]]. cbn [fst snd] in H.
      destruct (negb (lenN (tf_params fn_def) =? lenN es1)) eqn:El; [discriminate|].
      apply cbind_ok in H. destruct H as [args' [Hz H]]. inversion H; subst; clear H.
      assert (Hrel1 : env_rel (st_env st1) G) by (rewrite Henv1; exact Hrel).
      destruct (exprs_sound f F HE HF _ _ _ _ G Hf Hes Hg1 Hrel1) as [Hces [Hwes [Hlen Henv2]]].
      assert (HQ : Qs D (f0, fn_def)).
      { pose proof (proj2 Hg1) as HQall. rewrite Forall_forall in HQall. apply HQall. apply assocL_In. exact Ea. }
      destruct HQ as [ufd [Hfind [Hsp [Hsr _]]]]. cbn [fst snd] in *.
      destruct (P_sig _ _ _ _ Hfind Hsp Hsr) as [d [Hd [Hdp Hdr]]].
      assert (Hcr : conc_ty (tf_ty fn_def) = true).
      { pose proof (find_some _ _ Hfind) as [Hin _]. pose proof (D_frag _ Hin) as Hfr. unfold frag_fn in Hfr.
        apply andb_true_iff in Hfr. destruct Hfr as [Hfr _]. apply andb_true_iff in Hfr. destruct Hfr as [_ Hfr].
        eapply as_concrete_conc; [exact Hsr|exact Hfr]. }
      apply negb_false_iff in El. apply N.eqb_eq in El. unfold lenN in El. apply Nat2N.inj in El.
      destruct (call_args _ F G _ _ _ Hz Hces Hwes ltac:(lia)) as [-> Hargs].
      cbn [conc_e export_expr Wt.wt_expr export_ty]. rewrite Hcr, Hces, Hd, Hdr, xt_refl, Hdp, Hargs. split; reflexivity.
    + (* if *)
      apply andb_true_iff in Hf. destruct Hf as [Hf Hf3]. apply andb_true_iff in Hf. destruct Hf as [Hf1 Hf2].
      bind_e H c1 st1 Hc1. bind_e H a1 st2 Ha. bind_e H b1 st3 Hb.
      apply cbind_ok in H. destruct H as [c2 [Hct H]].
      apply cbind_ok in H. destruct H as [[[a2 b2] ty] [Hu H]]. cbv beta iota in H. inversion H; subst; clear H.
      sub_e HE G F HF Hc1. sub_e HE G F HF Ha. sub_e HE G F HF Hb.
      destruct (check_type_conc _ _ _ _ Hct Hc) as [-> Etc].
      destruct (unify_conc _ _ _ _ _ _ Hu (conc_e_ty _ Hc0) (conc_e_ty _ Hc2)) as [-> [-> [Et1 Et2]]]. subst ty.
      cbn [conc_e export_expr Wt.wt_expr export_ty ty_of].
      rewrite !e_ty_xe, Etc, Et2, xt_refl, Hc, Hc0, Hc2, Hw, Hw0, Hw1, (conc_e_ty _ Hc0). split; reflexivity.
    + (* cast *)
      apply andb_true_iff in Hf. destruct Hf as [Hf1 Hf2].
      apply cbind_ok in H. destruct H as [ty' [Hty H]]. bind_e H x1 st1 Hx.
      apply cbind_ok in H. destruct H as [u1 [Hex1 H]]. apply cbind_ok in H. destruct H as [u2 [Hex2 H]].
      inversion H; subst; clear H. sub_e HE G F HF Hx.
      cbn [conc_e export_expr Wt.wt_expr export_ty ty_of].
      rewrite e_ty_xe, xt_refl, Hc, Hw, (scalar_conc _ _ Hf1 Hty).
      rewrite (orb_comm (Wt.is_int (xt ty'))), (expect_bool_or_num_x _ _ Hex2).
      rewrite (orb_comm (Wt.is_int (xt (ty_of x1)))), (expect_bool_or_num_x _ _ Hex1). split; reflexivity.
    + (* range *)
      destruct ((hi <=? lo) || (u32_max <? hi - lo)) eqn:Er; [discriminate|]. inversion H; subst; clear H.
      apply orb_false_iff in Er. destruct Er as [Er _]. apply N.leb_gt in Er.
      cbn [conc_e conc_ty export_expr Wt.wt_expr].
      change (Ast.TArr (Ast.TInt false (ubits t)) (hi - lo)) with (xt (CArray (CUnsigned t) (hi - lo))).
      rewrite xt_refl. destruct t; try discriminate Hf; cbn [conc_ty];
        (split; [reflexivity|]; apply andb_true_iff; split; [apply N.leb_le; lia|reflexivity]).
  - (* ---------------------------------------------------------------- statements *)
    intros s st s' st' G F Hf H Hok Hrel HF. destruct F as [|F]; [lia|]. apply le_S_n in HF. destruct s; cbn [frag_s] in Hf;
      rewrite check_stmt_S in H; cbn [stmt_step] in H.
    + (* let *)
      apply andb_true_iff in Hf. destruct Hf as [Hfp Hfe].
      bind_e H e1 st1 He. sub_e HE G F HF He. pose proof (conc_e_ty _ Hc) as Hct.
      apply cbind_ok in H. destruct H as [e2 [Hann H]].
      assert (e2 = e1).
      { unfold annot in Hann. destruct ty; [|inversion Hann; reflexivity]. apply cbind_ok in Hann. destruct Hann as [ty' [_ Hann]].
        apply check_type_conc in Hann; tauto. }
      subst e2. clear Hann.
      apply cbind_ok in H. destruct H as [[p1 g1] [Hp H]]. apply cbind_ok in H. destruct H as [u0 [_ H]].
      cbn [fst snd] in H. inversion H; subst; clear H.
      destruct (pat_sound p _ _ _ _ Hfp Hp) as [Hpty [bs [Hwp [Hrp Hop]]]].
      split; [exact Hc|]. exists (Wt.tbind_all G bs false). cbn [st_env with_env].
      split; [|split; [apply good_with_env; [exact Hg|]; apply Hop; [assumption|exact (proj1 Hg)]|apply Hrp; env_tac]].
      rewrite xs_let, wt_stmt_let, Hw, e_ty_xe, Hpty, xt_refl, Hwp. reflexivity.
    + (* let mut *)
      bind_e H e1 st1 He. sub_e HE G F HF He. pose proof (conc_e_ty _ Hc) as Hct.
      apply cbind_ok in H. destruct H as [e2 [Hann H]].
      assert (e2 = e1).
      { unfold annot in Hann. destruct ty; [|inversion Hann; reflexivity]. apply cbind_ok in Hann. destruct Hann as [ty' [_ Hann]].
        apply check_type_conc in Hann; tauto. }
      subst e2. clear Hann.
      apply cbind_ok in H. destruct H as [e3 [Hi H]]. inversion H; subst; clear H.
      apply constrain_to_i32_conc in Hi; [|exact Hc]. subst e3.
      split; [exact Hc|]. exists (Wt.tbind G (intern x) (xt (ty_of e1)) true).
      split; [|split; [apply good_with_env; [exact Hg|]; apply env_ok_let; [exact (proj1 Hg)|assumption]|cbn [st_env with_env]; rewrite Henv; apply env_rel_let; assumption]].
      rewrite xs_letmut, wt_stmt_letmut, Hw, e_ty_xe. reflexivity.
    + (* assignment *)
      apply andb_true_iff in Hf. destruct Hf as [Hfa Hfe].
      destruct (env_get (st_env st) x) as [[tx [|]]|] eqn:Eg; try discriminate H.
      apply cbind_ok in H. destruct H as [[[tas t'] st1] [Hacc H]]. cbv beta iota in H.
      bind_e H v1 st2 Hv. apply cbind_ok in H. destruct H as [v2 [Hct H]]. inversion H; subst; clear H.
      destruct (accs_ok f F HE HF _ _ _ _ _ _ G Hfa Hacc Hok Hrel (proj1 Hok _ _ _ Eg)) as [Hago [Hct' [Henv1 Hg1]]].
      assert (Hr1 : env_rel (st_env st1) G) by (rewrite Henv1; exact Hrel).
      sub_e HE G F HF Hv. destruct (check_type_conc _ _ _ _ Hct Hc) as [-> Etv].
      split; [exact Hc|]. exists G. split; [|split; [exact Hg|env_tac]].
      destruct (proj1 Hrel _ _ _ Eg) as [m' [Hl Hm]]. rewrite (Hm eq_refl) in Hl.
      rewrite xs_assign, wt_stmt_assign, Hl, Hago, e_ty_xe, Etv, xt_refl, Hw. reflexivity.
    + (* for *)
      apply andb_true_iff in Hf. destruct Hf as [Hf Hfb]. apply andb_true_iff in Hf. destruct Hf as [Hfp Hfe].
      match type of H with (if ?c then _ else _) = _ => destruct c; [discriminate|] end.
      bind_e H a1 st1 Ha. sub_e HE G F HF Ha. pose proof (conc_e_ty _ Hc) as Hca.
      apply cbind_ok in H. destruct H as [el [Hel H]].
      destruct (ty_of a1) as [| | |el0 n0| | |] eqn:Eta; try discriminate Hel. cbn in Hel. inversion Hel; subst; clear Hel.
      cbn [conc_ty] in Hca.
      apply cbind_ok in H. destruct H as [[p1 g1] [Hp H]]. apply cbind_ok in H. destruct H as [u0 [_ H]].
      cbn [fst snd] in H. apply cbind_ok in H. destruct H as [[body1 st2] [Hbody H]]. cbn [fst snd] in H.
      inversion H; subst; clear H.
      destruct (pat_sound p _ _ _ _ Hfp Hp) as [Hpty [bs [Hwp [Hrp Hop]]]].
      destruct (HSs _ _ _ _ (Wt.tbind_all ([] :: G) bs false) F Hfb Hbody) as [Hcb [tb Hwb]]; [| |exact HF|].
      { apply good_with_env; [exact Hg|]. apply Hop; [exact Hca|]. apply env_ok_push. exact (proj1 Hg). }
      { cbn [st_env with_env]. apply Hrp. apply env_rel_push. env_tac. }
      pose proof (proj1 (proj2 (check_env intern f D)) _ _ _ Hbody) as Htl. cbn [snd st_env with_env] in Htl.
      pose proof (check_pattern_tl _ _ _ _ _ Hp) as Htl2. cbn [snd env_push tl] in Htl2.
      split; [cbn [conc_s]; rewrite Hc, Hcb; reflexivity|]. exists G.
      assert (Henvf : env_pop (st_env st2) = st_env st).
      { change env_pop with (@tl cscope). congruence. }
      pose proof (proj1 (proj2 (Qs_pres intern D f)) _ _ _ Hbody) as HQb. cbn [snd st_typed with_env] in HQb.
      split; [|split; [split; [cbn [st_env with_env]; rewrite Henvf; exact (proj1 Hok)|cbn [st_typed with_env]; apply HQb; exact (proj2 Hg)]|cbn [st_env with_env]; rewrite Henvf; exact Hrel]].
      rewrite xs_for, wt_stmt_for, e_ty_xe, Eta. cbn [export_ty]. rewrite Hw, Hpty, xt_refl, Hwp, Hwb. reflexivity.
    + (* expression statement *)
      bind_e H e1 st1 He. inversion H; subst; clear H.
      sub_e HE G F HF He. split; [exact Hc|]. exists G.
      split; [|split; [exact Hg|env_tac]].
      rewrite xs_expr, wt_stmt_expr, Hw, e_ty_xe. reflexivity.
Qed.

Corollary check_block_sound f : Bl f.
Proof. apply sound_all. Qed.
Corollary check_expr_sound f : E f.
Proof. apply sound_all. Qed.


(* ------------------------------------------------------------------ functions *)

Lemma params_ok : forall ps seen g tps g' G,
  forallb (fun p => conc_uty (upa_ty p)) ps = true ->
  (fix go (seen : list (list N)) (ps : list uparam) (g : cenv)
     : cres (list (bool * list N * cty) * cenv) :=
     match ps with
     | [] => COk ([], g)
     | p :: r =>
         if memL (upa_name p) seen then CErr E_DuplicateFnParam else
         do ty <- concrete_of D (upa_ty p);
         do r2 <- go (upa_name p :: seen) r (env_let g (upa_name p) ty (upa_mut p));
         COk ((upa_mut p, upa_name p, ty) :: fst r2, snd r2)
     end) seen ps g = COk (tps, g') ->
  env_ok g -> env_rel g G ->
  env_ok g' /\ env_rel g' (Wt.tbind_all G (xparams tps) true).
Proof.
  induction ps as [|p ps IH]; intros seen g tps g' G Hc H Hok Hrel.
  - inversion H; subst. cbn. auto.
  - cbn [forallb] in Hc. apply andb_true_iff in Hc. destruct Hc as [Hc1 Hc2].
    destruct (memL (upa_name p) seen); [discriminate|].
    apply cbind_ok in H. destruct H as [ty [Hty H]]. apply cbind_ok in H. destruct H as [[tps2 g2] [Hgo H]].
    cbn [fst snd] in H. inversion H; subst; clear H.
    pose proof (as_concrete_conc _ _ _ _ Hty Hc1) as Hcty.
    destruct (IH _ _ _ _ (Wt.tbind G (intern (upa_name p)) (xt ty) true) Hc2 Hgo) as [Hok' Hrel'].
    { apply env_ok_let; assumption. }
    { apply env_rel_let_mut; [reflexivity|assumption]. }
    split; [exact Hok'|]. exact Hrel'.
Qed.

Lemma map_last_check f t : forall b b',
  map_last_expr (fun x => check_type f x t) b = COk b' -> forallb conc_s b = true ->
  b' = b /\ forall e0, last (map Some b) None = Some (TSExpr e0) -> ty_of e0 = t.
Proof.
  induction b as [|s b IH]; intros b' H Hc; [cbn in H; inversion H; split; [reflexivity|discriminate]|].
  cbn [forallb] in Hc. apply andb_true_iff in Hc. destruct Hc as [Hc1 Hc2].
  cbn [map_last_expr] in H. destruct b as [|s2 b].
  - destruct s; try (inversion H; subst; split; [reflexivity|intros e0 He0; discriminate He0]).
    apply cbind_ok in H. destruct H as [e' [Hct H]]. inversion H; subst; clear H.
    destruct (check_type_conc _ _ _ _ Hct Hc1) as [-> Ht]. split; [reflexivity|].
    intros e0 He0. cbn in He0. injection He0 as <-. exact Ht.
  - assert (Hr : exists r', map_last_expr (fun x => check_type f x t) (s2 :: b) = COk r' /\ b' = s :: r').
    { destruct s; apply cbind_ok in H; destruct H as [r' [Hr H]]; inversion H; subst; eauto. }
    destruct Hr as [r' [Hr ->]]. destruct (IH _ Hr Hc2) as [-> Hl]. split; [reflexivity|].
    intros e0 He0. apply Hl. exact He0.
Qed.

(* UntypedFnDef::type_check: the body of the typed function passes the re-checker in the
   environment Wt.wt_fn builds from the parameters (over the consts environment gc), with the declared return type *)
Lemma fn_sound f fd st tfd st' F :
  frag_fn fd = true -> check_fn intern f D st fd = COk (tfd, st') -> (f <= S F)%nat ->
  Forall (Qs D) (st_typed st) ->
  exists t,
    Wt.wt_block F P' ([] :: Wt.tbind_all ([] :: gc) (Ast.fn_params (export_fn intern en tfd)) true)
                (Ast.fn_body (export_fn intern en tfd)) = Some t /\
    Wt.ty_eqb t (Ast.fn_ret (export_fn intern en tfd)) = true.
Proof.
  intros Hfr H HF HQ. destruct f as [|f]; [discriminate|]. apply le_S_n in HF.
  unfold frag_fn in Hfr. apply andb_true_iff in Hfr. destruct Hfr as [Hfp Hfb]. apply andb_true_iff in Hfp. destruct Hfp as [Hfp _].
  rewrite check_fn_S in H. unfold fn_step in H.
  destruct (memL (uf_name fd) (st_checking st)); [discriminate|].
  apply cbind_ok in H. destruct H as [[tps g1] [Hps H]]. cbn [fst snd] in H.
  apply cbind_ok in H. destruct H as [[[body ty] st1] [Hblk H]]. cbv beta iota zeta in H.
  apply cbind_ok in H. destruct H as [ret_ty [Hret H]]. apply cbind_ok in H. destruct H as [body' [Hlast H]].
  inversion H; subst; clear H. unfold ret_check in Hlast.
  destruct (params_ok _ _ _ _ _ ([] :: gc) Hfp Hps) as [Hok1 Hrel1].
  { intros x t m Hx. discriminate Hx. }
  { split; [intros x t m Hx; discriminate Hx|]. intros x t _ Hc. cbn [Wt.tlookup Ast.assocN]. apply gc_consts. exact Hc. }
  destruct (proj1 (proj2 (proj2 (sound_all f))) _ _ _ _ _ ([] :: Wt.tbind_all ([] :: gc) (xparams tps) true) F Hfb Hblk) as [Hcb Hwb].
  { split; [exact Hok1|exact HQ]. }
  { cbn [st_env]. destruct Hrel1 as [Hr1 Hr2]. split.
    - intros x t m Hx. apply Hr1 in Hx. cbn [Wt.tlookup Ast.assocN]. exact Hx.
    - intros x t Hx Hc. cbn [Wt.tlookup Ast.assocN]. eauto. }
  { exact HF. }
  assert (Ety : ty = last_expr_ty body).
  { destruct f as [|f0]; [discriminate|]. rewrite check_block_S in Hblk. inv_all. reflexivity. }
  assert (Hb' : body' = body /\ ty = ret_ty).
  { unfold last_expr_ty in Ety. destruct (last (map Some body) None) as [[]|] eqn:El.
    all: try (destruct (cty_eqb ret_ty unit_cty) eqn:Eu; [|discriminate Hlast]; cbn [negb] in Hlast;
              inversion Hlast; subst; apply cty_eqb_eq in Eu; auto).
    destruct (map_last_check _ _ _ _ Hlast Hcb) as [-> Hl]. split; [reflexivity|]. rewrite Ety. apply Hl. exact El. }
  destruct Hb' as [-> ->].
  exists (xt ret_ty). cbn [export_fn Ast.fn_params Ast.fn_body Ast.fn_ret tf_params tf_body tf_ty].
  fold (xparams tps). split; [exact Hwb|apply xt_refl].
Qed.

End Sound.

(* ================================================================== whole programs *)

Fixpoint nodupL (l : list (list N)) : bool :=
  match l with
  | [] => true
  | x :: r => negb (memL x r) && nodupL r
  end.

Lemma nodupL_NoDup l : nodupL l = true -> NoDup l.
Proof.
  induction l as [|x r IH]; [constructor|]. cbn [nodupL]. intro H. apply andb_true_iff in H. destruct H as [H1 H2].
  constructor; [|auto]. intro Hin. apply negb_true_iff in H1. unfold memL in H1.
  rewrite <- not_true_iff_false in H1. apply H1. apply existsb_exists. exists x. split; [exact Hin|apply list_eqb_refl].
Qed.

(* THE BOOLEAN FRAGMENT TEST (over the untyped program): no consts; struct / enum / function
   names pairwise distinct (HashMaps); the field / payload / parameter / return types are concrete
   (no Unspecified, no const-sized arrays; named types allowed); every function body is made of
   the constructs of [frag_s]: all numbers suffixed and in the range of their suffix. *)
Definition variant_tys (v : uvariant) : list utype := match v with UVUnit _ => [] | UVTuple _ tys => tys end.

(* a const is a literal of exactly its declared type, in the range of that type *)
Definition const_frag (c : uconstdef) : bool :=
  match uc_ty c, uc_value c with
  | UTBool, (CETrue | CEFalse) => true
  | UTUnsigned t, CENumUnsigned n t' => unsigned_eqb t t' && lit_u_ok n t
  | UTSigned t, CENumSigned z t' => signed_eqb t t' && lit_s_ok z t
  | _, _ => false
  end.
Definition const_t (c : uconstdef) : list N * texpr :=
  (uc_name c,
   match uc_value c with
   | CEFalse => TE TFalse CBool
   | CENumUnsigned n t => TE (TNumUnsigned n t) (CUnsigned t)
   | CENumSigned z t => TE (TNumSigned z t) (CSigned t)
   | _ => TE TTrue CBool
   end).

Definition in_sound_fragment (P : uprogram) : bool :=
  nodupL (map uc_name (up_consts P)) && forallb const_frag (up_consts P) &&
  nodupL (map us_name (up_structs P)) && nodupL (map ue_name (up_enums P)) &&
  forallb (fun sd => forallb (fun ft => conc_uty (snd ft)) (us_fields sd)) (up_structs P) &&
  forallb (fun ed => forallb (fun v => forallb conc_uty (variant_tys v)) (ue_variants ed)) (up_enums P) &&
  nodupL (map uf_name (up_fns P)) && forallb frag_fn (up_fns P).

Lemma const_frag_inv c : const_frag c = true ->
  uc_ty c = UTBool /\ uc_value c = CETrue \/ uc_ty c = UTBool /\ uc_value c = CEFalse \/
  (exists n t, uc_ty c = UTUnsigned t /\ uc_value c = CENumUnsigned n t /\ lit_u_ok n t = true) \/
  (exists z t, uc_ty c = UTSigned t /\ uc_value c = CENumSigned z t /\ lit_s_ok z t = true).
Proof.
  unfold const_frag. destruct (uc_ty c) as [|tu|ts| | | | |]; try discriminate;
    destruct (uc_value c) as [| |n tv|z tv| | | | | |]; try discriminate; intro H; auto;
    apply andb_true_iff in H; destruct H as [He Hl]; right; right.
  - unfold unsigned_eqb in He. destruct (unsigned_num_type_eq_dec tu tv); [subst|discriminate]. left. eauto.
  - unfold signed_eqb in He. destruct (signed_num_type_eq_dec ts tv); [subst|discriminate]. right. eauto.
Qed.

Lemma check_consts_spec : forall cs done res,
  forallb const_frag cs = true -> check_consts cs done = COk res -> res = rev done ++ map const_t cs.
Proof.
  induction cs as [|c cs IH]; intros done res Hf H; cbn [check_consts] in H.
  - inversion H. cbn. rewrite app_nil_r. reflexivity.
  - cbn [forallb] in Hf. apply andb_true_iff in Hf. destruct Hf as [Hc Hf].
    assert (Hv : exists v, const_t c = (uc_name c, v) /\ check_consts cs ((uc_name c, v) :: done) = COk res).
    { unfold const_t. destruct (const_frag_inv _ Hc) as [[Et Ev]|[[Et Ev]|[(n & t & Et & Ev & Hl)|(z & t & Et & Ev & Hl)]]];
        rewrite Et, Ev in H; rewrite Ev; cbn [const_lit] in H; rewrite cty_eqb_refl in H; cbn [cbind] in H; eauto. }
    destruct Hv as [v [Hct Hr]]. rewrite (IH _ _ Hf Hr). cbn [rev map]. rewrite Hct, <- app_assoc. reflexivity.
Qed.

Lemma in_sound_fragment_parts P : in_sound_fragment P = true ->
  NoDup (map uc_name (up_consts P)) /\ forallb const_frag (up_consts P) = true /\
  NoDup (map us_name (up_structs P)) /\ NoDup (map ue_name (up_enums P)) /\
  forallb (fun sd => forallb (fun ft => conc_uty (snd ft)) (us_fields sd)) (up_structs P) = true /\
  forallb (fun ed => forallb (fun v => forallb conc_uty (variant_tys v)) (ue_variants ed)) (up_enums P) = true /\
  NoDup (map uf_name (up_fns P)) /\ forallb frag_fn (up_fns P) = true.
Proof.
  unfold in_sound_fragment. intro H. repeat (apply andb_true_iff in H; destruct H as [H ?]).
  auto 10 using nodupL_NoDup.
Qed.

Lemma frag_program_ok intern fuel P T : in_sound_fragment P = true -> check_program_t intern fuel P = COk T ->
  exists structs enums stf, let D := prog_defs P (map const_t (up_consts P)) structs enums in
    mapM (check_struct_def (map us_name (up_structs P)) (map ue_name (up_enums P))) (up_structs P) = COk structs /\
    mapM (check_enum_def (map us_name (up_structs P)) (map ue_name (up_enums P))) (up_enums P) = COk enums /\
    map fst structs = map us_name (up_structs P) /\ map fst enums = map ue_name (up_enums P) /\
    T = mkTProgram (map const_t (up_consts P)) structs enums (st_typed stf) (up_main P) /\
    (forall fd, In fd (up_fns P) ->
       find (fun d => list_eqb (uf_name d) (uf_name fd)) (d_fns D) = Some fd /\ exists tfd, In (uf_name fd, tfd) (st_typed stf)) /\
    (forall Q : list N * tfndef -> Prop,
       (forall f st fd r id, (f <= fuel)%nat -> find (fun d => list_eqb (uf_name d) id) (d_fns D) = Some fd ->
          check_fn intern f D st fd = COk r -> Forall Q (st_typed st) -> Q (id, fst r)) ->
       Forall Q (st_typed stf)).
Proof.
  intros Hfrag H. destruct (in_sound_fragment_parts _ Hfrag) as (_ & Hcc & _ & _ & _ & _ & Hnd & _).
  destruct (check_program_t_ok intern _ _ _ H) as (consts & structs & enums & _ & stf & Hc & Hs & He & _ & Hloop & -> & Hkey). unfold has_key in Hkey.
  apply (check_consts_spec _ _ _ Hcc) in Hc. cbn [rev app] in Hc. subst consts.
  exists structs, enums, stf. cbv zeta. pose proof (find_by_name _ Hnd) as Hfind.
  repeat split; try assumption; auto.
  - exact (mapM_names _ _ (struct_def_name _ _) _ _ Hs).
  - exact (mapM_names _ _ (enum_def_name _ _) _ _ He).
  - intros Q HQ. exact (pub_loop_Forall intern _ fuel Q HQ _ _ _ Hfind Hloop (Forall_nil _)).
Qed.

Section Program.
Variable intern : list N -> N.
Hypothesis intern_inj : forall a b, intern a = intern b -> a = b.

Lemma In_insert_field {A} (x f : list N * A) l : In x (insert_field f l) <-> x = f \/ In x l.
Proof.
  induction l as [|g r IH]; cbn [insert_field].
  - split; [intros [<-|[]]; auto|intros [->|[]]; left; reflexivity].
  - destruct (name_ltb (fst f) (fst g)).
    + split; [intros [<-|H]; auto|intros [->|H]; [left; reflexivity|right; exact H]].
    + split.
      * intros [<-|H]; [right; left; reflexivity|]. apply IH in H. destruct H; [auto|right; right; assumption].
      * intros [->|[<-|H]]; [right; apply IH; auto|left; reflexivity|right; apply IH; auto].
Qed.

Lemma In_sort_fields {A} (x : list N * A) l : In x (sort_fields l) <-> In x l.
Proof.
  unfold sort_fields.
  assert (H : forall l acc, In x (fold_left (fun acc f => insert_field f acc) l acc) <-> In x acc \/ In x l).
  { induction l0 as [|f r IH]; intros acc; cbn [fold_left]; [cbn; tauto|].
    rewrite IH, In_insert_field. cbn [In]. split; intros H; [|]; intuition (subst; auto). }
  rewrite H. cbn [In]. tauto.
Qed.

Lemma find_exists {A} (p : A -> bool) l x : In x l -> p x = true -> exists y, find p l = Some y.
Proof.
  induction l as [|a l IH]; [intros []|]. intros [->|Hin] Hp; cbn [find].
  - rewrite Hp. eauto.
  - destruct (p a); eauto.
Qed.

Lemma nodup_key_unique {A} (l : list (list N * A)) k v v' :
  NoDup (map fst l) -> In (k, v) l -> In (k, v') l -> v = v'.
Proof.
  induction l as [|[k0 v0] l IH]; intros Hnd H1 H2; [destruct H1|]. cbn [map fst] in Hnd. inversion Hnd as [|? ? Hn Hnd']; subst.
  destruct H1 as [H1|H1]; destruct H2 as [H2|H2].
  - congruence.
  - inversion H1; subst. exfalso. apply Hn. change k with (fst (k, v')). apply in_map. exact H2.
  - inversion H2; subst. exfalso. apply Hn. change k with (fst (k, v)). apply in_map. exact H1.
  - eauto.
Qed.

Lemma assocL_sort {A} (l : list (list N * A)) k v :
  NoDup (map fst l) -> assocL k l = Some v -> assocL k (sort_fields l) = Some v.
Proof.
  intros Hnd H. apply assocL_In in H.
  destruct (In_assocL (sort_fields l) k v (proj2 (In_sort_fields _ _) H)) as [v' Hv'].
  rewrite Hv'. f_equal. apply assocL_In in Hv'. apply (proj1 (In_sort_fields _ _)) in Hv'.
  eapply nodup_key_unique; eauto.
Qed.

Lemma struct_def_conc sn en sd r :
  check_struct_def sn en sd = COk r -> forallb (fun ft => conc_uty (snd ft)) (us_fields sd) = true ->
  fst r = us_name sd /\ forall f t, In (f, t) (snd r) -> conc_ty t = true.
Proof.
  unfold check_struct_def. intros H Hc. apply cbind_ok in H. destruct H as [fields [Hf H]]. inversion H; subst; clear H.
  split; [reflexivity|]. cbn [snd].
  revert fields Hf Hc. generalize (@nil (list N)). induction (us_fields sd) as [|[n ty] fs IH]; intros seen fields Hf Hc.
  - inversion Hf; subst. intros f t [].
  - destruct (memL n seen); [discriminate|]. apply cbind_ok in Hf. destruct Hf as [ty' [Hty Hf]].
    apply cbind_ok in Hf. destruct Hf as [r' [Hr Hf]]. inversion Hf; subst; clear Hf.
    cbn [forallb snd] in Hc. apply andb_true_iff in Hc. destruct Hc as [Hc1 Hc2].
    intros f t [Heq|Hin]; [inversion Heq; subst; eapply as_concrete_conc; eauto|eapply IH; eauto].
Qed.

Lemma mapM_conc sn en : forall tys tys', mapM (as_concrete_type sn en) tys = COk tys' ->
  forallb conc_uty tys = true -> forallb conc_ty tys' = true.
Proof.
  induction tys as [|t tys IH]; intros tys' H Hc; cbn [mapM] in H.
  - inversion H. reflexivity.
  - apply cbind_ok in H. destruct H as [x [Hx H]]. apply cbind_ok in H. destruct H as [r [Hr H]]. inversion H; subst.
    cbn [forallb] in *. apply andb_true_iff in Hc. destruct Hc as [Hc1 Hc2].
    rewrite (as_concrete_conc _ _ _ _ Hx Hc1), (IH _ Hr Hc2). reflexivity.
Qed.

Lemma enum_def_conc sn en ed r :
  check_enum_def sn en ed = COk r -> forallb (fun v => forallb conc_uty (variant_tys v)) (ue_variants ed) = true ->
  fst r = ue_name ed /\ forall v ts, In (v, Some ts) (snd r) -> forallb conc_ty ts = true.
Proof.
  unfold check_enum_def. intros H Hc. apply cbind_ok in H. destruct H as [variants [Hv H]]. inversion H; subst; clear H.
  split; [reflexivity|]. cbn [snd].
  revert variants Hv Hc. generalize (@nil (list N)). induction (ue_variants ed) as [|v vs IH]; intros seen variants Hv Hc.
  - inversion Hv; subst. intros v ts [].
  - destruct (memL (variant_name v) seen); [discriminate|]. apply cbind_ok in Hv. destruct Hv as [v' [Hv' Hv]].
    apply cbind_ok in Hv. destruct Hv as [r' [Hr Hv]]. inversion Hv; subst; clear Hv.
    cbn [forallb] in Hc. apply andb_true_iff in Hc. destruct Hc as [Hc1 Hc2].
    intros v0 ts [Heq|Hin]; [|eapply IH; eauto].
    rewrite Heq in Hv'. destruct v as [n|n tys]; [discriminate Hv'|].
    apply cbind_ok in Hv'. destruct Hv' as [tys' [Htys Hv']]. inversion Hv'; subst.
    cbn [variant_tys] in Hc1. eapply mapM_conc; eauto.
Qed.

Lemma tlookup_tbind_all_notin (l : list (N * Ast.ty)) m k : forall G,
  ~ In k (map fst l) -> Wt.tlookup (Wt.tbind_all G l m) k = Wt.tlookup G k.
Proof.
  unfold Wt.tbind_all. induction l as [|[k0 t0] l IH]; intros G Hn; [reflexivity|]. cbn [fold_left fst snd].
  rewrite IH; [|intro H; apply Hn; right; exact H]. rewrite tlookup_tbind.
  destruct (N.eqb_spec k k0) as [->|Hne]; [exfalso; apply Hn; left; reflexivity|reflexivity].
Qed.

Lemma tlookup_tbind_all_in (l : list (N * Ast.ty)) m k t : forall G,
  NoDup (map fst l) -> In (k, t) l -> Wt.tlookup (Wt.tbind_all G l m) k = Some (t, m).
Proof.
  induction l as [|[k0 t0] l IH]; intros G Hnd Hin; [destruct Hin|]. cbn [map fst] in Hnd. inversion Hnd as [|? ? Hn Hnd']; subst.
  change (Wt.tbind_all G ((k0, t0) :: l) m) with (Wt.tbind_all (Wt.tbind G k0 t0 m) l m).
  destruct Hin as [Heq|Hin].
  - inversion Heq; subst. rewrite tlookup_tbind_all_notin by exact Hn. rewrite tlookup_tbind, N.eqb_refl. reflexivity.
  - apply IH; assumption.
Qed.

(* the exported function passes Wt.wt_fn *)
Definition Qwt (ens : list (list N * list (list N * option (list cty)))) (P' : Ast.program) (nd : list N * tfndef) : Prop :=
  exists t,
    Wt.wt_block Wt.wt_fuel P' ([] :: Wt.tbind_all ([] :: Wt.consts_tenv P') (Ast.fn_params (export_fn intern ens (snd nd))) true)
                (Ast.fn_body (export_fn intern ens (snd nd))) = Some t /\
    Wt.ty_eqb t (Ast.fn_ret (export_fn intern ens (snd nd))) = true.

Theorem check_sound_fragment fuel P P' :
  in_sound_fragment P = true -> (fuel <= S Wt.wt_fuel)%nat ->
  check_program intern fuel P = COk P' -> Wt.wt_program P' = true.
Proof.
  intros Hfrag Hfuel H. unfold check_program in H. apply cbind_ok in H. destruct H as [T [HT H]]. inversion H; subst; clear H.
  destruct (in_sound_fragment_parts _ Hfrag) as (Hndc & Hcc & Hnds & Hnde & Hcs & Hce & Hnd & Hfragf).
  destruct (frag_program_ok intern _ _ _ Hfrag HT) as (structs & enums & stf & Hstructs & Henums & Hsn & Hen & -> & Hfn0 & Hents).
  set (D := prog_defs P (map const_t (up_consts P)) structs enums) in *.
  set (P' := export_program intern (mkTProgram (map const_t (up_consts P)) structs enums (st_typed stf) (up_main P))).
  (* the definitions *)
  assert (P_structs : forall name def, assocL name (d_structs D) = Some def ->
            Ast.assocN (intern name) (Ast.p_structs P') = Some (xfields intern def)).
  { intros name def Ha. cbn [P' export_program Ast.p_structs tp_structs].
    change (map (fun sd : list N * list (list N * cty) => (intern (fst sd), map (fun ft : list N * cty => (intern (fst ft), export_ty intern (snd ft))) (snd sd))) (sort_fields structs))
      with (map (fun sd : list N * list (list N * cty) => (intern (fst sd), xfields intern (snd sd))) (sort_fields structs)).
    rewrite (assocN_map_intern intern intern_inj). rewrite (assocL_sort structs name def); [reflexivity| |exact Ha].
    rewrite Hsn. exact Hnds. }
  assert (P_enums : forall name vs, assocL name (d_enums D) = Some vs ->
            Ast.assocN (intern name) (Ast.p_enums P') = Some (xvariants intern vs)).
  { intros name vs Ha. cbn [P' export_program Ast.p_enums tp_enums].
    change (map (fun ed : list N * list (list N * option (list cty)) => (intern (fst ed), map (fun v : list N * option (list cty) => match snd v with Some ts => map (export_ty intern) ts | None => [] end) (snd ed))) (sort_fields enums))
      with (map (fun ed : list N * list (list N * option (list cty)) => (intern (fst ed), xvariants intern (snd ed))) (sort_fields enums)).
    rewrite (assocN_map_intern intern intern_inj). rewrite (assocL_sort enums name vs); [reflexivity| |exact Ha].
    rewrite Hen. exact Hnde. }
  assert (D_conc_s : forall name def f t, assocL name (d_structs D) = Some def -> assocL f def = Some t -> conc_ty t = true).
  { intros name def f t Ha Hf. apply assocL_In in Ha. apply assocL_In in Hf. cbn [D prog_defs d_structs] in Ha.
    destruct (mapM_In _ _ _ _ Hstructs Ha) as [sd [Hsd Hcd]]. rewrite forallb_forall in Hcs.
    destruct (struct_def_conc _ _ _ _ Hcd (Hcs _ Hsd)) as [_ Hall]. eapply Hall. exact Hf. }
  assert (D_nodup_s : forall name def, assocL name (d_structs D) = Some def -> NoDup (map fst def)).
  { intros name def Ha. apply assocL_In in Ha. cbn [D prog_defs d_structs] in Ha.
    destruct (mapM_In _ _ _ _ Hstructs Ha) as [sd [Hsd Hcd]]. exact (struct_def_nodup _ _ _ _ Hcd). }
  assert (D_conc_e : forall name vs v ts, assocL name (d_enums D) = Some vs -> assocL v vs = Some (Some ts) -> forallb conc_ty ts = true).
  { intros name vs v ts Ha Hv. apply assocL_In in Ha. apply assocL_In in Hv. cbn [D prog_defs d_enums] in Ha.
    destruct (mapM_In _ _ _ _ Henums Ha) as [ed [Hed Hcd]]. rewrite forallb_forall in Hce.
    destruct (enum_def_conc _ _ _ _ Hcd (Hce _ Hed)) as [_ Hall]. eapply Hall. exact Hv. }
  assert (Hdc : forall x t, assocL x (d_consts D) = Some t -> exists c, In c (up_consts P) /\ uc_name c = x /\ ty_of (snd (const_t c)) = t).
  { intros x t Ha. apply assocL_In in Ha. cbn [D prog_defs d_consts] in Ha. rewrite map_map in Ha. apply in_map_iff in Ha.
    destruct Ha as [c [Hc Hin]]. inversion Hc; subst. exists c. auto. }
  assert (D_conc_c : forall x t, assocL x (d_consts D) = Some t -> conc_ty t = true).
  { intros x t Ha. destruct (Hdc _ _ Ha) as [c [Hin [_ <-]]]. rewrite forallb_forall in Hcc.
    unfold const_t. cbn [snd]. destruct (const_frag_inv _ (Hcc _ Hin)) as [[Et Ev]|[[Et Ev]|[(n & t & Et & Ev & Hl)|(z & t & Et & Ev & Hl)]]]; rewrite Ev; cbn [ty_of conc_ty];
      try reflexivity; destruct t; try discriminate Hl; reflexivity. }
  assert (gc_consts : forall x t, assocL x (d_consts D) = Some t ->
            exists m', Wt.tlookup (Wt.consts_tenv P') (intern x) = Some (export_ty intern t, m')).
  { intros x t Ha. destruct (Hdc _ _ Ha) as [c [Hin [<- <-]]]. exists false.
    unfold Wt.consts_tenv. cbn [P' export_program Ast.p_consts tp_consts tp_enums].
    apply tlookup_tbind_all_in.
    - rewrite !map_map. cbn [fst]. rewrite <- (map_map uc_name intern).
      apply NoDup_map_inj; [exact intern_inj|exact Hndc].
    - rewrite !map_map. apply in_map_iff. exists c. split; [|exact Hin]. cbn [fst snd].
      f_equal. destruct (snd (const_t c)); reflexivity. }
  assert (D_frag : forall ufd, In ufd (d_fns D) -> frag_fn ufd = true).
  { intros ufd Hin. rewrite forallb_forall in Hfragf. apply Hfragf. exact Hin. }
  (* the entries have the static signatures *)
  assert (HQs : Forall (Qs D) (st_typed stf)).
  { apply Hents. intros f st fd r id _ Hfd Hc _. exact (Qs_ins intern D f st fd r id Hfd Hc). }
  (* every function has an entry *)
  assert (Hkey : forall fd, In fd (up_fns P) -> exists tfd, In (uf_name fd, tfd) (st_typed stf)) by (intros; apply Hfn0; assumption).
  (* the exported program lists every function with its static signature *)
  assert (P_sig : forall id ufd tps rty,
            find (fun d => list_eqb (uf_name d) id) (d_fns D) = Some ufd ->
            sig_params D (uf_params ufd) = COk tps -> concrete_of D (uf_ty ufd) = COk rty ->
            exists d, Ast.find_fn P' (intern id) = Some d /\ Ast.fn_params d = xparams intern tps /\
                      Ast.fn_ret d = export_ty intern rty).
  { intros id ufd tps rty Hf Hsp Hsr.
    pose proof (find_some _ _ Hf) as [Hin Hname]. apply list_eqb_eq in Hname. subst id.
    destruct (Hkey _ Hin) as [tfd Htfd].
    rewrite Forall_forall in HQs.
    destruct (HQs _ Htfd) as [ufd0 [Hf0 [_ [_ Hn0]]]]. cbn [fst snd] in *.
    unfold Ast.find_fn. cbn [P' export_program Ast.p_fns tp_fns tp_enums].
    destruct (find_exists (fun d => Ast.fn_name d =? intern (uf_name ufd))
                (map (fun nd => export_fn intern enums (snd nd)) (sort_fields (st_typed stf)))
                (export_fn intern enums tfd)) as [d Hd].
    { apply in_map_iff. exists (uf_name ufd, tfd). split; [reflexivity|]. apply (proj2 (In_sort_fields _ _)). exact Htfd. }
    { cbn [export_fn Ast.fn_name]. rewrite Hn0. apply N.eqb_refl. }
    exists d. split; [exact Hd|].
    pose proof (find_some _ _ Hd) as [Hind Hpd]. apply in_map_iff in Hind. destruct Hind as [nd' [<- Hnd']].
    apply (proj1 (In_sort_fields _ _)) in Hnd'. cbn [export_fn Ast.fn_name] in Hpd. apply N.eqb_eq in Hpd. apply intern_inj in Hpd.
    destruct (HQs _ Hnd') as [ufd1 [Hf1 [Hsp1 [Hsr1 Hn1]]]]. rewrite <- Hn1, Hpd in Hf1. rewrite Hf in Hf1. inversion Hf1; subst ufd1.
    rewrite Hsp in Hsp1. rewrite Hsr in Hsr1. inversion Hsp1. inversion Hsr1.
    cbn [export_fn Ast.fn_params Ast.fn_ret]. split; reflexivity. }
  (* every entry passes wt_fn *)
  assert (Hfn : forall f fd st tfd st', (f <= S Wt.wt_fuel)%nat -> In fd (d_fns D) ->
            check_fn intern f D st fd = COk (tfd, st') -> Forall (Qs D) (st_typed st) -> Qwt enums P' (uf_name fd, tfd)).
  { intros f fd st tfd st' Hf Hin Hc HQ. unfold Qwt. cbn [snd].
    eapply (fn_sound intern intern_inj enums P' D (Wt.consts_tenv P') (eq_refl : id (enums = d_enums D)) P_structs P_enums D_conc_s D_nodup_s D_conc_c gc_consts D_conc_e D_frag P_sig f fd st tfd st' Wt.wt_fuel);
      [apply D_frag; exact Hin|exact Hc|exact Hf|exact HQ]. }
  assert (HQ : Forall (fun nd => Qs D nd /\ Qwt enums P' nd) (st_typed stf)).
  { apply Hents. intros f st ufd [tfd st'] id Hf Hfd Hc HQ. split; [exact (Qs_ins intern D f st ufd _ id Hfd Hc)|].
    destruct (find_name Hfd) as [Hin <-].
    apply (Hfn f ufd st tfd st' ltac:(lia) Hin Hc). eapply Forall_impl; [|exact HQ]. intros a [Ha _]. exact Ha. }
  (* the exported program *)
  fold P'. unfold Wt.wt_program. apply andb_true_iff. split.
  - (* the consts are literals of their types *)
    cbn [P' export_program Ast.p_consts tp_consts tp_enums]. apply forallb_forall. intros c' Hc'.
    apply in_map_iff in Hc'. destruct Hc' as [nc [<- Hnc]]. apply in_map_iff in Hnc. destruct Hnc as [c [<- Hin]].
    rewrite forallb_forall in Hcc. unfold const_t. cbn [snd fst].
    assert (HS : Wt.wt_fuel = S (pred Wt.wt_fuel)) by reflexivity. rewrite HS.
    destruct (const_frag_inv _ (Hcc _ Hin)) as [[Et Ev]|[[Et Ev]|[(n & t & Et & Ev & Hl)|(z & t & Et & Ev & Hl)]]]; rewrite Ev;
      cbn [export_expr export_ty Wt.is_lit Wt.wt_expr Wt.is_bool andb]; try reflexivity.
    + apply (lit_u_fits _ _ Hl).
    + apply (lit_s_fits _ _ Hl).
  - cbn [P' export_program Ast.p_fns tp_fns tp_enums].
    apply forallb_forall. intros d Hd. apply in_map_iff in Hd. destruct Hd as [nd [<- Hnd']].
    apply (proj1 (In_sort_fields _ _)) in Hnd'. rewrite Forall_forall in HQ. destruct (HQ _ Hnd') as [_ [t [Hw Ht]]].
    unfold Wt.wt_fn. fold P'. rewrite Hw. exact Ht.
Qed.

End Program.

Print Assumptions sound_all.
Print Assumptions fn_sound.
Print Assumptions check_sound_fragment.
