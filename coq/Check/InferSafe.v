(* C05, first clause, for the checker model: the typed program the checker returns passes the
   side conditions of Compile/TSemSafe.v, hence compiling it does not crash.
   TSemSafe.ok_expr = (every node type is [node_ok]) && (structure: index expressions have an index type,
   struct patterns are benign, no join).  The STRUCTURE part ([rest_e] / [rest_s]) is proved for the checker's
   output ([rest_all]); the TYPE part ([tys_e]: the node types are explorable within Sem.ty_fuel = 40 and
   arrays have at most 2^32 elements) is NOT implied by acceptance -- a tuple nested deeper than 40 is
   accepted -- and is a Boolean hypothesis on the output. *)
From Coq Require Import Lia Bool Sorted.
From GV Require Import Base.Util Front.Scan Front.ParseExpr Check.UAst Check.Infer Check.InferProofs Check.InferSound.
From GV Require Import Lang.Ast Lang.Wt Lang.ValTy.
From GV Require Lang.Sem Compile.TSemSafe Check.PermSort.
Local Open Scope N_scope.

(* ================================================================ ok_expr = types && structure *)

Section Split.
Variable P : program.
Notation node_ok := (TSemSafe.node_ok P).
Notation ok_pat := (TSemSafe.ok_pat P).

(* the node types *)
Fixpoint tys_e (e : expr) : bool :=
  match e with
  | Ex ei _ t =>
    node_ok t &&
    match ei with
    | ETrue | EFalse | ENumU _ _ | ENumS _ _ | EId _ | ERange _ _ _ => true
    | EArrLit es | ETupLit es | EEnumLit _ _ es | ECall _ es => forallb tys_e es
    | EArrRep e1 _ | ETupAcc e1 _ | EFld e1 _ | ENeg e1 | ENot e1 | ECast _ e1 => tys_e e1
    | EIdx a i => tys_e a && tys_e i
    | EStructLit _ fields => forallb (fun fe => tys_e (snd fe)) fields
    | EMatch s arms => tys_e s && forallb (fun arm => tys_e (snd arm)) arms
    | EOp _ x y => tys_e x && tys_e y
    | EBlock b => forallb tys_s b
    | EJoin _ _ a b => tys_e a && tys_e b
    | EIf c a b => tys_e c && tys_e a && tys_e b
    end
  end
with tys_s (s : stmt) : bool :=
  match s with
  | St si _ =>
    match si with
    | SLet _ e | SLetMut _ e | SExpr e => tys_e e
    | SAssign _ accs e => forallb tys_a accs && tys_e e
    | SFor _ arr body => tys_e arr && forallb tys_s body
    | SJoinLoop _ _ a b body => tys_e a && tys_e b && forallb tys_s body
    end
  end
with tys_a (a : accessor) : bool :=
  match a with
  | AIdx aty i => node_ok aty && tys_e i
  | ATup tty _ => node_ok tty
  | AFld sty _ => node_ok sty
  end.

(* the structure *)
Fixpoint rest_e (e : expr) : bool :=
  match e with
  | Ex ei _ _ =>
    match ei with
    | ETrue | EFalse | ENumU _ _ | ENumS _ _ | EId _ | ERange _ _ _ => true
    | EArrLit es | ETupLit es | EEnumLit _ _ es | ECall _ es => forallb rest_e es
    | EArrRep e1 _ | ETupAcc e1 _ | EFld e1 _ | ENeg e1 | ENot e1 | ECast _ e1 => rest_e e1
    | EIdx a i => TSemSafe.idx_ok (e_ty i) && rest_e a && rest_e i
    | EStructLit _ fields => forallb (fun fe => rest_e (snd fe)) fields
    | EMatch s arms => rest_e s && forallb (fun arm => ok_pat (fst arm) && rest_e (snd arm)) arms
    | EOp _ x y => rest_e x && rest_e y
    | EBlock b => forallb rest_s b
    | EJoin _ _ _ _ => false
    | EIf c a b => rest_e c && rest_e a && rest_e b
    end
  end
with rest_s (s : stmt) : bool :=
  match s with
  | St si _ =>
    match si with
    | SLet p e => ok_pat p && rest_e e
    | SLetMut _ e => rest_e e
    | SAssign _ accs e => forallb rest_a accs && rest_e e
    | SFor p arr body => ok_pat p && rest_e arr && forallb rest_s body
    | SJoinLoop _ _ _ _ _ => false
    | SExpr e => rest_e e
    end
  end
with rest_a (a : accessor) : bool :=
  match a with
  | AIdx _ i => TSemSafe.idx_ok (e_ty i) && rest_e i
  | ATup _ _ | AFld _ _ => true
  end.

Lemma rest_s_expr e m : rest_s (St (SExpr e) m) = rest_e e.
Proof. reflexivity. Qed.
Lemma rest_s_let p e m : rest_s (St (SLet p e) m) = ok_pat p && rest_e e.
Proof. reflexivity. Qed.
Lemma rest_s_letmut x e m : rest_s (St (SLetMut x e) m) = rest_e e.
Proof. reflexivity. Qed.
Lemma rest_s_assign x accs e m : rest_s (St (SAssign x accs e) m) = forallb rest_a accs && rest_e e.
Proof. reflexivity. Qed.
Lemma rest_s_for p arr body m : rest_s (St (SFor p arr body) m) = ok_pat p && rest_e arr && forallb rest_s body.
Proof. reflexivity. Qed.
Lemma rest_e_block b m t : rest_e (Ex (EBlock b) m t) = forallb rest_s b.
Proof. reflexivity. Qed.
Lemma rest_a_idx t i : rest_a (AIdx t i) = TSemSafe.idx_ok (e_ty i) && rest_e i.
Proof. reflexivity. Qed.

Lemma forallb_split {A} (p q r : A -> bool) (l : list A) :
  (forall x, In x l -> p x = true -> q x = true -> r x = true) ->
  forallb p l = true -> forallb q l = true -> forallb r l = true.
Proof.
  intros H Hp Hq. apply forallb_forall. intros x Hx. rewrite forallb_forall in Hp, Hq. apply H; auto.
Qed.

Fixpoint ok_split_e (e : expr) : tys_e e = true -> rest_e e = true -> TSemSafe.ok_expr P e = true
with ok_split_s (s : stmt) : tys_s s = true -> rest_s s = true -> TSemSafe.ok_stmt P s = true
with ok_split_a (a : accessor) : tys_a a = true -> rest_a a = true -> TSemSafe.ok_acc P a = true.
Proof.
  - destruct e as [ei m t]. cbn [tys_e rest_e TSemSafe.ok_expr]. intros Ht Hr.
    apply andb_true_iff in Ht. destruct Ht as [Hn Ht]. rewrite Hn. cbn [andb].
    destruct ei as [ | | n0 lb | z0 lb | x0 | es | e1 n0 | ei1 ei2 | es | e1 i0 | e1 fld | name fields | en v args | ei arms | e1 | e1 | o ei1 ei2 | b | fn args | jt ha ja jb | ei1 ei2 ei3 | to e1 | lo hi bits ];
      try reflexivity; try discriminate Hr.
    + induction es as [|x xs IH]; [reflexivity|]. cbn [forallb] in *. apply andb_true_iff in Ht, Hr. destruct Ht, Hr.
      rewrite (ok_split_e x) by assumption. apply IH; assumption.
    + apply ok_split_e; assumption.
    + apply andb_true_iff in Ht. destruct Ht as [Ha Hi]. apply andb_true_iff in Hr. destruct Hr as [Hr Hri]. apply andb_true_iff in Hr. destruct Hr as [Hx Hra].
      rewrite Hx, (ok_split_e ei1), (ok_split_e ei2) by assumption. reflexivity.
    + induction es as [|x xs IH]; [reflexivity|]. cbn [forallb] in *. apply andb_true_iff in Ht, Hr. destruct Ht, Hr.
      rewrite (ok_split_e x) by assumption. apply IH; assumption.
    + apply ok_split_e; assumption.
    + apply ok_split_e; assumption.
    + induction fields as [|[n x] xs IH]; [reflexivity|]. cbn [forallb snd] in *. apply andb_true_iff in Ht, Hr. destruct Ht, Hr.
      rewrite (ok_split_e x) by assumption. apply IH; assumption.
    + induction args as [|x xs IH]; [reflexivity|]. cbn [forallb] in *. apply andb_true_iff in Ht, Hr. destruct Ht, Hr.
      rewrite (ok_split_e x) by assumption. apply IH; assumption.
    + apply andb_true_iff in Ht. destruct Ht as [Hs Ha]. apply andb_true_iff in Hr. destruct Hr as [Hrs Hra].
      rewrite (ok_split_e ei) by assumption. cbn [andb].
      induction arms as [|[p x] xs IH]; [reflexivity|]. cbn [forallb fst snd] in *. apply andb_true_iff in Ha, Hra. destruct Ha, Hra as [Hpx Hrest].
      apply andb_true_iff in Hpx. destruct Hpx as [Hp Hx]. rewrite Hp, (ok_split_e x) by assumption. apply IH; assumption.
    + apply ok_split_e; assumption.
    + apply ok_split_e; assumption.
    + apply andb_true_iff in Ht, Hr. destruct Ht, Hr. rewrite (ok_split_e ei1), (ok_split_e ei2) by assumption. reflexivity.
    + induction b as [|x xs IH]; [reflexivity|]. cbn [forallb] in *. apply andb_true_iff in Ht, Hr. destruct Ht, Hr.
      rewrite (ok_split_s x) by assumption. apply IH; assumption.
    + induction args as [|x xs IH]; [reflexivity|]. cbn [forallb] in *. apply andb_true_iff in Ht, Hr. destruct Ht, Hr.
      rewrite (ok_split_e x) by assumption. apply IH; assumption.
    + apply andb_true_iff in Ht. destruct Ht as [Ht H3]. apply andb_true_iff in Ht. destruct Ht as [H1 H2].
      apply andb_true_iff in Hr. destruct Hr as [Hr R3]. apply andb_true_iff in Hr. destruct Hr as [R1 R2].
      rewrite (ok_split_e ei1), (ok_split_e ei2), (ok_split_e ei3) by assumption. reflexivity.
    + apply ok_split_e; assumption.
  - destruct s as [si m]. cbn [tys_s rest_s TSemSafe.ok_stmt]. intros Ht Hr.
    destruct si as [p e | vx e | vx accs e | p arr body | p jt ja jb body | e]; try discriminate Hr.
    + apply andb_true_iff in Hr. destruct Hr as [Hp Hr]. rewrite Hp. apply ok_split_e; assumption.
    + apply ok_split_e; assumption.
    + apply andb_true_iff in Ht, Hr. destruct Ht as [Hta Hte], Hr as [Hra Hre]. rewrite (ok_split_e e) by assumption. rewrite andb_true_r.
      induction accs as [|x xs IH]; [reflexivity|]. cbn [forallb] in *. apply andb_true_iff in Hta, Hra. destruct Hta, Hra.
      rewrite (ok_split_a x) by assumption. apply IH; assumption.
    + apply andb_true_iff in Ht. destruct Ht as [Hta Htb]. apply andb_true_iff in Hr. destruct Hr as [Hr Hrb]. apply andb_true_iff in Hr. destruct Hr as [Hp Hra].
      rewrite Hp, (ok_split_e arr) by assumption. cbn [andb].
      induction body as [|x xs IH]; [reflexivity|]. cbn [forallb] in *. apply andb_true_iff in Htb, Hrb. destruct Htb, Hrb.
      rewrite (ok_split_s x) by assumption. apply IH; assumption.
    + apply ok_split_e; assumption.
  - destruct a; cbn [tys_a rest_a TSemSafe.ok_acc]; intros Ht Hr.
    + apply andb_true_iff in Ht, Hr. destruct Ht as [Hn Hi], Hr as [Hx Hri]. rewrite Hn, Hx, (ok_split_e i) by assumption. reflexivity.
    + exact Ht.
    + exact Ht.
Qed.

End Split.

(* ================================================================ the structure of the checker's output *)

(* struct patterns name their fields in strictly increasing order (the parser sorts them:
   Front/ParseExpr.v sort_fields).  TSemSafe asks of a struct pattern: the fields in definition order,
   or no variable bound twice; the checker guarantees neither at the AST level *)
Fixpoint sortedb (l : list (list N)) : bool :=
  match l with
  | a :: r => match r with b :: _ => name_ltb a b | [] => true end && sortedb r
  | [] => true
  end.

Fixpoint sp_p (p : upattern) : bool :=
  match p with
  | PTuple ps | PEnumTuple _ _ ps => forallb sp_p ps
  | ParseExpr.PStruct _ fs | ParseExpr.PStructIgnoreRemaining _ fs =>
      sortedb (map fst fs) && forallb (fun f => sp_p (snd f)) fs
  | _ => true
  end.

Notation nlt := (fun a b : list N => name_ltb a b = true).

Lemma sortedb_SS l : sortedb l = true -> StronglySorted nlt l.
Proof.
  induction l as [|a r IH]; intro H; [constructor|]. cbn [sortedb] in H. apply andb_true_iff in H. destruct H as [Hab Hr].
  specialize (IH Hr). constructor; [exact IH|]. destruct r as [|b r]; [constructor|].
  inversion IH as [|? ? Hs Hall]; subst. constructor; [exact Hab|].
  eapply Forall_impl; [|exact Hall]. intros c Hbc. exact (PermSort.name_ltb_trans _ _ _ Hab Hbc).
Qed.

(* the parser's [sort_fields] establishes [sortedb] (fields with distinct names) *)
Lemma sort_fields_sortedb {A} (l : list (list N * A)) : NoDup (map fst l) -> sortedb (map fst (sort_fields l)) = true.
Proof.
  intro Hnd. pose proof (PermSort.sort_fields_sorted l Hnd) as Hs. unfold PermSort.fields_sorted in Hs.
  induction Hs as [|a r Hs IH Hall]; [reflexivity|]. cbn [map sortedb]. rewrite IH, andb_true_r.
  destruct r as [|b r]; [reflexivity|]. inversion Hall; subst. assumption.
Qed.

Lemma SS_nodupb (intern : list N -> N) (inj : forall a b, intern a = intern b -> a = b) l :
  StronglySorted nlt l -> TSemSafe.nodupb (map intern l) = true.
Proof.
  induction 1 as [|a r Hs IH Hall]; [reflexivity|]. cbn [map TSemSafe.nodupb]. rewrite IH, andb_true_r.
  apply negb_true_iff. apply not_true_iff_false. intro He. apply existsb_exists in He. destruct He as [y [Hy E]].
  apply N.eqb_eq in E. apply in_map_iff in Hy. destruct Hy as [b [Hb' Hb]]. rewrite <- Hb' in E. apply inj in E. subst b.
  rewrite Forall_forall in Hall. pose proof (Hall _ Hb) as Hlt. cbv beta in Hlt. rewrite PermSort.name_ltb_irrefl in Hlt. discriminate.
Qed.

Lemma SS_subseqb (intern : list N -> N) (inj : forall a b, intern a = intern b -> a = b) :
  forall ds fs, StronglySorted nlt ds -> StronglySorted nlt fs -> incl fs ds ->
  TSemSafe.subseqb (map intern fs) (map intern ds) = true.
Proof.
  induction ds as [|d dr IH]; intros fs Hd Hf Hi.
  - destruct fs as [|f fr]; [reflexivity|]. destruct (Hi f (or_introl eq_refl)).
  - destruct fs as [|f fr]; [reflexivity|]. cbn [map TSemSafe.subseqb].
    inversion Hd as [|? ? Hdr Hdall]; subst. inversion Hf as [|? ? Hfr Hfall]; subst.
    rewrite Forall_forall in Hdall, Hfall.
    destruct (N.eqb_spec (intern f) (intern d)) as [E|E].
    + apply inj in E. subst d. apply IH; [exact Hdr|exact Hfr|].
      intros x Hx. destruct (Hi x (or_intror Hx)) as [Heq|Hin]; [|exact Hin]. subst x.
      pose proof (Hfall _ Hx) as Hlt. cbv beta in Hlt. rewrite PermSort.name_ltb_irrefl in Hlt. discriminate.
    + change (intern f :: map intern fr) with (map intern (f :: fr)). apply IH; [exact Hdr|exact Hf|].
      assert (Hfd : In f dr). { destruct (Hi f (or_introl eq_refl)) as [Heq|Hin]; [subst; congruence|exact Hin]. }
      intros x [Heq|Hx]; [subst x; exact Hfd|].
      destruct (Hi x (or_intror Hx)) as [Heq|Hin]; [|exact Hin]. subst x.
      pose proof (Hdall _ Hfd) as H1. pose proof (Hfall _ Hx) as H2. cbv beta in H1, H2.
      rewrite (PermSort.name_ltb_asym _ _ H1) in H2. discriminate.
Qed.

Fixpoint sp_e (e : xexpr) : bool :=
  match e with
  | XArrayLiteral es | XTupleLiteral es | XFnCall _ es | XEnumLiteral _ _ (Some es) => forallb sp_e es
  | XArrayRepeatLiteral e _ | XTupleAccess e _ | XStructAccess e _ | XUnaryOp _ e | XCast _ e
  | XArrayRepeatLiteralConst e _ => sp_e e
  | XArrayAccess a i => sp_e a && sp_e i
  | XStructLiteral _ fs => forallb (fun f => sp_e (snd f)) fs
  | XMatch e arms => sp_e e && forallb (fun a => sp_p (fst a) && sp_e (snd a)) arms
  | XOp _ l r => sp_e l && sp_e r
  | XBlock b => forallb sp_s b
  | XIf c a b => sp_e c && sp_e a && sp_e b
  | XJoin es => forallb sp_e es
  | _ => true
  end
with sp_s (s : xstmt) : bool :=
  match s with
  | XSLet p _ e => sp_p p && sp_e e
  | XSLetMut _ _ e | XSExpr e => sp_e e
  | XSVarAssign _ accs e => forallb sp_a accs && sp_e e
  | XSForEach p e body => sp_p p && sp_e e && forallb sp_s body
  end
with sp_a (a : xaccessor) : bool :=
  match a with XAArray i => sp_e i | _ => true end.

Section Rest.
Variable intern : list N -> N.
Variable en : list (list N * list (list N * option (list cty))).
Variable P' : program.
Notation xe := (export_expr intern en).
Notation xs := (export_stmt intern en).
Notation xa := (export_accessor intern en).
Notation xp := (export_pattern intern en).
Notation re := (fun e : texpr => rest_e P' (xe e) = true).
Notation rs := (fun s : tstmt => rest_s P' (xs s) = true).

Lemma rest_set_ty e t : rest_e P' (xe (set_ty e t)) = rest_e P' (xe e).
Proof. destruct e as [i ty]. destruct i; reflexivity. Qed.

Lemma mapM_re (g : texpr -> cres texpr) : forall l l',
  mapM g l = COk l' -> (forall x x', In x l -> g x = COk x' -> re x -> re x') ->
  forallb (rest_e P') (map xe l) = true -> forallb (rest_e P') (map xe l') = true.
Proof.
  induction l as [|x l IH]; intros l' H Hg Hr; cbn [mapM] in H; inv_all; [reflexivity|].
  cbn [map forallb] in *. apply andb_true_iff in Hr. destruct Hr as [H1 H2].
  rewrite (Hg _ _ (or_introl eq_refl) Hb H1). apply IH; [assumption|intros; eapply Hg; [right|..]; eauto|assumption].
Qed.

Lemma zipM_re {B} (g : texpr -> B -> cres texpr) : forall l ys l',
  zipM g l ys = COk l' -> (forall x y x', In x l -> g x y = COk x' -> re x -> re x') ->
  forallb (rest_e P') (map xe l) = true -> forallb (rest_e P') (map xe l') = true.
Proof.
  induction l as [|x l IH]; intros ys l' H Hg Hr; cbn [zipM] in H; [inv_all; reflexivity|].
  destruct ys as [|y ys]; inv_all; [exact Hr|].
  cbn [map forallb] in *. apply andb_true_iff in Hr. destruct Hr as [H1 H2].
  rewrite (Hg _ _ _ (or_introl eq_refl) Hb H1). eapply IH; [eassumption|intros; eapply Hg; [right|..]; eauto|assumption].
Qed.

Lemma map_last_rs (g : texpr -> cres texpr) : forall b b',
  map_last_expr g b = COk b' -> (forall x x', g x = COk x' -> re x -> re x') ->
  forallb (rest_s P') (map xs b) = true -> forallb (rest_s P') (map xs b') = true.
Proof.
  induction b as [|s b IH]; intros b' H Hg Hr; [cbn in H; inv_all; reflexivity|].
  cbn [map_last_expr] in H. cbn [map forallb] in Hr. apply andb_true_iff in Hr. destruct Hr as [H1 H2].
  destruct b as [|s2 b].
  - destruct s; inv_all; cbn [map forallb]; try (rewrite H1; reflexivity).
    rewrite (xs_expr intern en), rest_s_expr in *. pose proof (Hg _ _ Hb H1) as Hx. cbv beta in Hx. rewrite Hx. reflexivity.
  - destruct s; inv_all; cbn [map forallb]; rewrite H1; cbn [andb]; (eapply IH; [eassumption|exact Hg|exact H2]).
Qed.

Lemma mapM_arms_re (g : texpr -> cres texpr) : (forall x x', g x = COk x' -> re x -> re x') ->
  forall (arms l' : list (tpattern * texpr)),
  mapM (fun pc : tpattern * texpr => do b <- g (snd pc); COk (fst pc, b)) arms = COk l' ->
  forallb (fun arm : pattern * expr => TSemSafe.ok_pat P' (fst arm) && rest_e P' (snd arm))
          (map (fun a : tpattern * texpr => (xp (fst a), xe (snd a))) arms) = true ->
  forallb (fun arm : pattern * expr => TSemSafe.ok_pat P' (fst arm) && rest_e P' (snd arm))
          (map (fun a : tpattern * texpr => (xp (fst a), xe (snd a))) l') = true.
Proof.
  intros Hg. induction arms as [|[p x] arms IH]; intros l' H Ha; cbn [mapM] in H.
  - inversion H. reflexivity.
  - apply cbind_ok in H. destruct H as [[p1 x1] [Hx H]]. apply cbind_ok in H. destruct H as [r [Hr H]]. inversion H; subst; clear H.
    apply cbind_ok in Hx. destruct Hx as [b [Hb Hx]]. inversion Hx; subst; clear Hx.
    cbn [map forallb fst snd] in *. apply andb_true_iff in Ha. destruct Ha as [Hpx Hrest]. apply andb_true_iff in Hpx. destruct Hpx as [Hp Hxx].
    rewrite Hp. pose proof (Hg _ _ Hb Hxx) as Hb'. cbv beta in Hb'. rewrite Hb'. cbn [andb]. apply IH; assumption.
Qed.

Lemma coc_u_shape e t e' : check_or_constrain_unsigned e t = COk e' -> exists t', e' = set_ty e t'.
Proof.
  unfold check_or_constrain_unsigned. destruct (_ && _); [discriminate|].
  destruct (unsigned_max t); [destruct (inner_of e); try (intro H; inv_all; eauto)|intro H; inv_all; eauto].
Qed.
Lemma coc_s_shape e t e' : check_or_constrain_signed e t = COk e' -> exists t', e' = set_ty e t'.
Proof. unfold check_or_constrain_signed. destruct (_ && _); [discriminate|]. cbv zeta. intro H. inv_all. eauto. Qed.

Lemma constrain_type_re : forall f e t e', constrain_type f e t = COk e' -> re e -> re e'.
Proof.
  induction f as [|f IH]; intros e t e' H Hr; [discriminate|].
  cbn [constrain_type] in H. apply cbind_ok in H. destruct H as [e1 [H1 H2]]. inversion H2; subst; clear H2.
  rewrite rest_set_ty.
  assert (Hleaf : forall r, match t with
                            | CUnsigned t0 => check_or_constrain_unsigned e t0
                            | CSigned t0 => check_or_constrain_signed e t0
                            | _ => COk e end = COk r -> re r).
  { intros r Hl. destruct t; inv_all; try exact Hr.
    - destruct (coc_u_shape _ _ _ Hl) as [t' ->]. rewrite rest_set_ty. exact Hr.
    - destruct (coc_s_shape _ _ _ Hl) as [t' ->]. rewrite rest_set_ty. exact Hr. }
  destruct e as [i ty]. cbn [inner_of ty_of] in *.
  destruct i as [ | | n0 u0 | z0 s0 | x0 | es | x n0 | a i | es | x i0 | x fld | sn fs | en0 v args | s arms | o x | o a b | b | fn args | c a b | cty0 x | lo hi u0 ];
    try (apply Hleaf; exact H1).
  - destruct t; try (apply Hleaf; exact H1); inv_all; reflexivity.
  - destruct t; try (apply Hleaf; exact H1). inv_all. cbn [export_expr rest_e] in Hr |- *.
    eapply mapM_re; [eassumption| |exact Hr]. intros x1 x1' _ Hg1 Hr1. exact (IH _ _ _ Hg1 Hr1).
  - destruct t; try (apply Hleaf; exact H1). inv_all. cbn [export_expr rest_e] in Hr |- *. eapply IH; eauto.
  - destruct t; try (apply Hleaf; exact H1). inv_all; [|exact Hr]. cbn [export_expr rest_e] in Hr |- *.
    eapply zipM_re; [eassumption| |exact Hr]. intros x1 y1 x1' _ Hg1 Hr1. exact (IH _ _ _ Hg1 Hr1).
  - (* match *) apply cbind_ok in H1. destruct H1 as [arms' [Hm H1]]. inversion H1; subst; clear H1.
    cbn [export_expr rest_e] in Hr |- *. apply andb_true_iff in Hr. destruct Hr as [Hs Ha]. rewrite Hs. cbn [andb].
    eapply (mapM_arms_re (fun x => constrain_type f x t)); [|exact Hm|exact Ha]. intros x1 x1' Hg1 Hr1. exact (IH _ _ _ Hg1 Hr1).
  - inv_all. destruct o; cbn [export_expr rest_e] in Hr |- *; eapply IH; eauto.
  - cbn [export_expr rest_e] in Hr. apply andb_true_iff in Hr. destruct Hr as [Ha Hb0].
    destruct o; inv_all; cbn [export_expr rest_e];
      repeat match goal with H : constrain_type f ?x _ = COk ?y |- _ =>
        first [rewrite (IH _ _ _ H Ha) | rewrite (IH _ _ _ H Hb0)]; clear H end;
      rewrite ?Ha, ?Hb0; reflexivity.
  - inv_all. rewrite (xe_block intern en) in Hr |- *. rewrite rest_e_block in Hr |- *. eapply map_last_rs; [eassumption| |exact Hr]. intros x1 x1' Hg1 Hr1. exact (IH _ _ _ Hg1 Hr1).
  - cbn [export_expr rest_e] in Hr. apply andb_true_iff in Hr. destruct Hr as [Hr H3]. apply andb_true_iff in Hr. destruct Hr as [Hc Ha].
    inv_all. cbn [export_expr rest_e]. rewrite Hc, (IH _ _ _ Hb Ha), (IH _ _ _ Hb0 H3). reflexivity.
  - (* range *) destruct u0; try (apply Hleaf; exact H1).
    destruct t; try (apply Hleaf; exact H1). destruct t; try (apply Hleaf; exact H1); try discriminate H1.
    match type of H1 with (if ?c then _ else _) = _ => destruct c; [discriminate|] end. inv_all. reflexivity.
Qed.

Lemma check_type_re f e t e' : check_type f e t = COk e' -> re e -> re e'.
Proof. unfold check_type. intros H Hr. inv_all. eapply constrain_type_re; eauto. Qed.

Lemma coc_u_deep_re f e t e' : coc_unsigned_deep f e t = COk e' -> re e -> re e'.
Proof.
  unfold coc_unsigned_deep. intros H Hr. destruct (_ && _); [discriminate|]. destruct (_ && _).
  - eapply constrain_type_re; eauto.
  - destruct (coc_u_shape _ _ _ H) as [t' ->]. rewrite rest_set_ty. exact Hr.
Qed.
Lemma coc_s_deep_re f e t e' : coc_signed_deep f e t = COk e' -> re e -> re e'.
Proof.
  unfold coc_signed_deep. intros H Hr. destruct (_ && _); [discriminate|]. destruct (_ && _).
  - eapply constrain_type_re; eauto.
  - destruct (coc_s_shape _ _ _ H) as [t' ->]. rewrite rest_set_ty. exact Hr.
Qed.

Lemma unify_re f a b a' b' t : unify f a b = COk (a', b', t) -> re a -> re b -> re a' /\ re b'.
Proof.
  unfold unify. cbv zeta. intros H Ha Hb. destruct (cty_eqb _ _).
  - inv_all. rewrite !rest_set_ty. auto.
  - destruct (ty_of a) as [|[]|[]| | | |]; destruct (ty_of b) as [|[]|[]| | | |]; try discriminate;
      inv_all; rewrite !rest_set_ty;
      first [ split; [eapply coc_u_deep_re; eassumption|assumption] | split; [eapply coc_s_deep_re; eassumption|assumption]
            | split; [assumption|eapply coc_u_deep_re; eassumption] | split; [assumption|eapply coc_s_deep_re; eassumption] ].
Qed.

Lemma constrain_to_i32_re : forall f b b', constrain_to_i32 f b = COk b' -> re b -> re b'.
Proof.
  induction f as [|f IH]; intros b b' H Hr; [discriminate|].
  cbn [constrain_to_i32] in H. apply cbind_ok in H. destruct H as [b1 [H1 H]]. apply cbind_ok in H. destruct H as [b2 [H2 H]].
  inversion H; subst; clear H. rewrite rest_set_ty.
  assert (Hr1 : re b1).
  { destruct (_ || _); [eapply coc_s_deep_re; eauto|inversion H1; subst; exact Hr]. }
  clear H1 Hr. destruct b1 as [i ty]. cbn [inner_of ty_of] in *.
  destruct i; try (inversion H2; subst; exact Hr1).
  - apply cbind_ok in H2. destruct H2 as [es' [Hm H2]]. inversion H2; subst; clear H2.
    cbn [export_expr rest_e] in Hr1 |- *. eapply mapM_re; [exact Hm| |exact Hr1]. intros x1 x1' _ Hg1 Hr2. exact (IH _ _ Hg1 Hr2).
  - apply cbind_ok in H2. destruct H2 as [x' [Hm H2]]. inversion H2; subst; clear H2.
    cbn [export_expr rest_e] in Hr1 |- *. exact (IH _ _ Hm Hr1).
  - apply cbind_ok in H2. destruct H2 as [es' [Hm H2]]. inversion H2; subst; clear H2.
    cbn [export_expr rest_e] in Hr1 |- *. eapply mapM_re; [exact Hm| |exact Hr1]. intros x1 x1' _ Hg1 Hr2. exact (IH _ _ Hg1 Hr2).
Qed.

(* the type a successful check_or_constrain_unsigned (deep) leaves on the node *)
Lemma coc_u_ty e u e' : check_or_constrain_unsigned e u = COk e' -> ty_of e' = CUnsigned u.
Proof.
  unfold check_or_constrain_unsigned. destruct (_ && _); [discriminate|].
  destruct (unsigned_max u); [destruct (inner_of e); try (intro H; inv_all; apply ty_of_set_ty)|intro H; inv_all; apply ty_of_set_ty].
Qed.

Lemma coc_u_deep_ty f e u e' : coc_unsigned_deep f e u = COk e' -> ty_of e' = CUnsigned u.
Proof.
  unfold coc_unsigned_deep. destruct (negb (cty_eqb (ty_of e) (CUnsigned u)) && negb (is_uU (ty_of e))) eqn:E1; [discriminate|].
  destruct (negb (cty_eqb (ty_of e) (CUnsigned u)) && is_compound e) eqn:E2; [|apply coc_u_ty].
  apply andb_true_iff in E2. destruct E2 as [Hne Hc]. rewrite Hne in E1. cbn [andb] in E1. apply negb_false_iff in E1.
  unfold is_uU in E1. apply cty_eqb_eq in E1.
  destruct f as [|f]; [discriminate|]. cbn [constrain_type]. intro H. apply cbind_ok in H. destruct H as [e1 [H1 H2]].
  inversion H2; subst; clear H2. rewrite ty_of_set_ty.
  assert (Ht : ty_of e1 = uU).
  { destruct e as [i ty]. cbn [inner_of ty_of is_compound] in *. subst ty.
    destruct i; try discriminate Hc.
    - apply cbind_ok in H1. destruct H1 as [? [_ H1]]. inversion H1. reflexivity.
    - apply cbind_ok in H1. destruct H1 as [? [_ H1]]. inversion H1. reflexivity.
    - destruct o; inv_all; reflexivity.
    - apply cbind_ok in H1. destruct H1 as [? [_ H1]]. inversion H1. reflexivity.
    - inv_all. reflexivity. }
  rewrite Ht. reflexivity.
Qed.

(* patterns *)
Hypothesis intern_inj : forall a b, intern a = intern b -> a = b.
(* P' lists the struct definitions of D (interned), and their fields are sorted by name *)
Definition structs_link (D : defs) : Prop := forall name def, assocL name (d_structs D) = Some def ->
  Ast.assocN (intern name) (Ast.p_structs P') = Some (map (fun ft => (intern (fst ft), export_ty intern (snd ft))) def) /\
  sortedb (map fst def) = true.

Lemma map_fst_intern {A B} (g : A -> B) (l : list (list N * A)) :
  map fst (map (fun x => (intern (fst x), g (snd x))) l) = map intern (map fst l).
Proof. rewrite !map_map. reflexivity. Qed.

Lemma sfields_loop_okpat D (sdef : list (list N * cty)) fs :
  Forall (fun f : list N * upattern => forall g ty tp g', sp_p (snd f) = true -> check_pattern D g (snd f) ty = COk (tp, g') -> TSemSafe.ok_pat P' (xp tp) = true) fs ->
  forallb (fun f => sp_p (snd f)) fs = true ->
  forall seen g r g', pat_struct_loop D sdef seen fs g = COk (r, g') ->
  map fst r = map fst fs /\ incl (map fst fs) (map fst sdef) /\
  forallb (fun f => TSemSafe.ok_pat P' (snd f)) (map (fun f => (intern (fst f), xp (snd f))) r) = true.
Proof.
  induction 1 as [|[fname q] fs Hq Hfs IH]; intros Hn seen g r g' H; cbn [pat_struct_loop] in H.
  - inversion H; subst. split; [reflexivity|]. split; [intros x []|reflexivity].
  - cbn [forallb snd] in Hn. apply andb_true_iff in Hn. destruct Hn as [Hn1 Hn2].
    destruct (memL fname seen); [discriminate|].
    destruct (assocL fname sdef) as [ft|] eqn:Ea; [|discriminate].
    apply cbind_ok in H. destruct H as [[p1 g1] [H1 H]]. apply cbind_ok in H. destruct H as [[r2 g2] [H2 H]].
    cbn [fst snd] in *. inversion H; subst; clear H.
    destruct (IH Hn2 _ _ _ _ H2) as [E1 [E2 E3]].
    split; [cbn [map fst]; rewrite E1; reflexivity|]. split.
    + intros x [Hx|Hx]; [|exact (E2 _ Hx)]. subst x. apply assocL_In in Ea. apply in_map_iff. exists (fname, ft). split; [reflexivity|exact Ea].
    + cbn [map forallb snd]. rewrite (Hq _ _ _ _ Hn1 H1). exact E3.
Qed.

Lemma fields_loop_okpat D fs : Forall (fun p => forall g ty tp g', sp_p p = true -> check_pattern D g p ty = COk (tp, g') -> TSemSafe.ok_pat P' (xp tp) = true) fs ->
  forallb sp_p fs = true ->
  forall ts g r g', pat_fields_loop D fs ts g = COk (r, g') ->
  forallb (TSemSafe.ok_pat P') (map xp r) = true.
Proof.
  induction 1 as [|q fs Hq Hfs IH]; intros Hn ts g r g' H; cbn [pat_fields_loop] in H.
  - inversion H; subst. reflexivity.
  - destruct ts as [|t ts]; [inversion H; subst; reflexivity|].
    cbn [forallb] in Hn. apply andb_true_iff in Hn. destruct Hn as [Hn1 Hn2].
    apply cbind_ok in H. destruct H as [[p1 g1] [H1 H]]. apply cbind_ok in H. destruct H as [[r2 g2] [H2 H]].
    cbn [fst snd] in *. inversion H; subst; clear H. cbn [map forallb]. rewrite (Hq _ _ _ _ Hn1 H1). exact (IH Hn2 _ _ _ _ H2).
Qed.

Lemma check_pattern_okpat D (HD : structs_link D) : forall p g ty tp g', sp_p p = true -> check_pattern D g p ty = COk (tp, g') ->
  TSemSafe.ok_pat P' (xp tp) = true.
Proof.
  induction p using upattern_ind'; intros g ty tp g' Hn HH; try discriminate Hn.
  (* struct, with or without `..` *)
  7-8: cbn [sp_p] in Hn; apply andb_true_iff in Hn; destruct Hn as [Hso Hn].
  7-8: eapply check_pattern_struct_ok in HH; [|first [left; reflexivity|right; reflexivity]].
  7-8: destruct HH as (-> & sdef & [r g2] & Ea & Hl & E); injection E as -> ->; destruct (HD _ _ Ea) as [Hlink Hsd].
  7-8: destruct (sfields_loop_okpat D sdef _ H Hn _ _ _ _ Hl) as [Hnames [Hincl Hok]]; apply sortedb_SS in Hso, Hsd.
  7-8: cbn [fst export_pattern TSemSafe.ok_pat]; rewrite Hlink, !map_fst_intern, Hnames,
         (SS_nodupb intern intern_inj _ Hsd), (SS_nodupb intern intern_inj _ Hso),
         (SS_subseqb intern intern_inj _ _ Hsd Hso Hincl), orb_true_r; exact Hok.
  all: cbn [check_pattern] in HH.
  - inversion HH; reflexivity.
  - destruct ty; inversion HH; reflexivity.
  - destruct ty; inversion HH; reflexivity.
  - inv_all. reflexivity.
  - inv_all. reflexivity.
  - cbn [sp_p] in Hn. apply cbind_ok in HH. destruct HH as [fts [_ HH]].
    destruct (negb _); [discriminate|]. apply cbind_ok in HH. destruct HH as [[r g2] [Hl HH]]. inversion HH; subst; clear HH.
    cbn [fst export_pattern TSemSafe.ok_pat]. exact (fields_loop_okpat D ps H Hn _ _ _ _ Hl).
  - destruct ty; try discriminate HH. destruct (negb _); [discriminate|]. destruct (assocL e (d_enums D)); [|discriminate].
    destruct (assocL v l) as [[?|]|]; try discriminate HH. inversion HH; reflexivity.
  - cbn [sp_p] in Hn. destruct ty; try discriminate HH. destruct (negb _); [discriminate|]. destruct (assocL e (d_enums D)); [|discriminate].
    destruct (assocL v l) as [[pts|]|]; try discriminate HH. destruct (negb _); [discriminate|].
    apply cbind_ok in HH. destruct HH as [[r g2] [Hl HH]]. inversion HH; subst; clear HH.
    cbn [fst export_pattern TSemSafe.ok_pat]. exact (fields_loop_okpat D ps H Hn _ _ _ _ Hl).
  - inv_all. reflexivity.
  - inv_all. reflexivity.
Qed.

End Rest.

(* ================================================================ the checker's output has the structure *)

Section RestCheck.
Variable intern : list N -> N.
Variable en : list (list N * list (list N * option (list cty))).
Variable P' : program.
Variable D : defs.
Hypothesis intern_inj : forall a b, intern a = intern b -> a = b.
Hypothesis D_link : structs_link intern P' D.
Notation xe := (export_expr intern en).
Notation xs := (export_stmt intern en).
Notation xa := (export_accessor intern en).
Notation xp := (export_pattern intern en).
Notation check_expr := (check_expr intern).
Notation check_stmt := (check_stmt intern).

Definition Re (f : nat) : Prop := forall st e e' st',
  sp_e e = true -> check_expr f D st e = COk (e', st') -> rest_e P' (xe e') = true.
Definition Rs (f : nat) : Prop := forall st s s' st',
  sp_s s = true -> check_stmt f D st s = COk (s', st') -> rest_s P' (xs s') = true.

Lemma Re_list f : Re f -> forall es st es' st', forallb sp_e es = true ->
  mapM_st (check_expr f D) st es = COk (es', st') -> forallb (rest_e P') (map xe es') = true.
Proof.
  intros HR. induction es as [|e es IH]; intros st es' st' Hn H; cbn [mapM_st] in H.
  - inversion H. reflexivity.
  - cbn [forallb] in Hn. apply andb_true_iff in Hn. destruct Hn as [Hn1 Hn2].
    apply cbind_ok in H. destruct H as [[e1 st1] [H1 H]]. apply cbind_ok in H. destruct H as [[r st2] [H2 H]].
    cbn [fst snd] in *. inversion H; subst; clear H. cbn [map forallb]. rewrite (HR _ _ _ _ Hn1 H1). exact (IH _ _ _ Hn2 H2).
Qed.

Lemma Rs_list f : Rs f -> forall b st b' st', forallb sp_s b = true ->
  mapM_st (check_stmt f D) st b = COk (b', st') -> forallb (rest_s P') (map xs b') = true.
Proof.
  intros HR. induction b as [|s b IH]; intros st b' st' Hn H; cbn [mapM_st] in H.
  - inversion H. reflexivity.
  - cbn [forallb] in Hn. apply andb_true_iff in Hn. destruct Hn as [Hn1 Hn2].
    apply cbind_ok in H. destruct H as [[s1 st1] [H1 H]]. apply cbind_ok in H. destruct H as [[r st2] [H2 H]].
    cbn [fst snd] in *. inversion H; subst; clear H. cbn [map forallb]. rewrite (HR _ _ _ _ Hn1 H1). exact (IH _ _ _ Hn2 H2).
Qed.

Lemma mapM_ct_re f t : forall l l', mapM (fun x => check_type f x t) l = COk l' ->
  forallb (rest_e P') (map xe l) = true -> forallb (rest_e P') (map xe l') = true.
Proof.
  intros l l' H Hr. eapply (mapM_re intern en P'); [exact H| |exact Hr].
  intros x x' _ Hx Hrx. exact (check_type_re intern en P' _ _ _ _ Hx Hrx).
Qed.

Lemma zipM_ct_re {B} f (ty : B -> cty) : forall l ys l', zipM (fun x y => check_type f x (ty y)) l ys = COk l' ->
  forallb (rest_e P') (map xe l) = true -> forallb (rest_e P') (map xe l') = true.
Proof.
  intros l ys l' H Hr. eapply (zipM_re intern en P'); [exact H| |exact Hr].
  intros x y x' _ Hx Hrx. exact (check_type_re intern en P' _ _ _ _ Hx Hrx).
Qed.

Lemma accs_re f : Re f -> forall accs st t tas t' st', forallb sp_a accs = true ->
  accs_loop (check_expr f D) f D st t accs = COk (tas, t', st') -> forallb (rest_a P') (map xa tas) = true.
Proof.
  intros HR. induction accs as [|a accs IH]; intros st t tas t' st' Hn H; cbn [accs_loop] in H.
  - inversion H. reflexivity.
  - cbn [forallb] in Hn. apply andb_true_iff in Hn. destruct Hn as [Hn1 Hn2].
    apply cbind_ok in H. destruct H as [[[ta t1] st1] [H1 H]]. cbv beta iota in H.
    apply cbind_ok in H. destruct H as [[[tas2 tf] st2] [H2 H]]. cbv beta iota in H. inversion H; subst; clear H.
    cbn [map forallb]. rewrite (IH _ _ _ _ _ Hn2 H2), andb_true_r.
    destruct a; cbn [sp_a] in Hn1.
    + apply cbind_ok in H1. destruct H1 as [el [_ H1]]. apply cbind_ok in H1. destruct H1 as [[i1 sti] [Hi H1]].
      cbn [fst snd] in H1. apply cbind_ok in H1. destruct H1 as [i2 [Hc H1]]. inversion H1; subst; clear H1.
      pose proof (HR _ _ _ _ Hn1 Hi) as Hri.
      change (xa (TAArray t i2)) with (AIdx (export_ty intern t) (xe i2)). rewrite rest_a_idx, (e_ty_xe intern en), (coc_u_deep_ty _ _ _ _ Hc).
      rewrite (coc_u_deep_re intern en P' _ _ _ _ Hc Hri). reflexivity.
    + apply cbind_ok in H1. destruct H1 as [vts [_ H1]]. destruct (nthN vts index); inversion H1; reflexivity.
    + apply cbind_ok in H1. destruct H1 as [nm [_ H1]]. destruct (assocL nm (d_structs D)); [|discriminate].
      destruct (assocL field l); inversion H1; reflexivity.
Qed.

Lemma struct_lit_re f sd : Re f -> forall fields seen st r st', forallb (fun fx : list N * xexpr => sp_e (snd fx)) fields = true ->
  struct_lit_loop (check_expr f D) f sd seen st fields = COk (r, st') ->
  forallb (fun fe : N * expr => rest_e P' (snd fe)) (map (fun fx : list N * texpr => (intern (fst fx), xe (snd fx))) r) = true.
Proof.
  intros HR. induction fields as [|[fname fv] fields IH]; intros seen st r st' Hn H; cbn [struct_lit_loop] in H.
  - inversion H. reflexivity.
  - cbn [forallb snd] in Hn. apply andb_true_iff in Hn. destruct Hn as [Hn1 Hn2].
    destruct (memL fname seen); [discriminate|]. destruct (assocL fname sd); [|discriminate].
    apply cbind_ok in H. destruct H as [[e1 st1] [H1 H]]. cbn [fst snd] in H.
    apply cbind_ok in H. destruct H as [tf [Hct H]]. apply cbind_ok in H. destruct H as [[r2 st2] [H2 H]].
    cbn [fst snd] in H. inversion H; subst; clear H. cbn [map forallb snd].
    rewrite (check_type_re intern en P' _ _ _ _ Hct (HR _ _ _ _ Hn1 H1)). exact (IH _ _ _ _ Hn2 H2).
Qed.

Notation arms_ok := (fun l : list (tpattern * texpr) =>
  forallb (fun arm : pattern * expr => TSemSafe.ok_pat P' (fst arm) && rest_e P' (snd arm))
          (map (fun a : tpattern * texpr => (xp (fst a), xe (snd a))) l) = true).

Lemma arms_re f ty : Re f -> forall arms st rc st',
  forallb (fun a : upattern * xexpr => sp_p (fst a) && sp_e (snd a)) arms = true ->
  mapM_st (match_arm intern f D ty) st arms = COk (rc, st') -> arms_ok rc.
Proof.
  intros HE. induction arms as [|[p x] arms IHa]; intros st rc st' Hna Hrc; cbn [mapM_st] in Hrc.
  - inversion Hrc. reflexivity.
  - cbn [forallb fst snd] in Hna. apply andb_true_iff in Hna. destruct Hna as [Hpx Hna]. apply andb_true_iff in Hpx. destruct Hpx as [Hnp Hnx].
    unfold match_arm at 1 in Hrc. inv_all'. cbn [map forallb fst snd].
    match goal with Hp : check_pattern _ _ _ _ = _, Hx : Infer.check_expr _ _ _ _ _ = _, Hr : mapM_st _ _ _ = _ |- _ =>
      rewrite (check_pattern_okpat intern en P' intern_inj D D_link _ _ _ _ _ Hnp Hp), (HE _ _ _ _ Hnx Hx); exact (IHa _ _ _ Hna Hr) end.
Qed.

Lemma retype_re f rt : forall l cl, mapM (arm_retype f rt) l = COk cl -> arms_ok l -> arms_ok cl.
Proof.
  induction l as [|[p x] l IHl]; intros cl Hm Ha; cbn [mapM] in Hm.
  - inversion Hm. reflexivity.
  - apply cbind_ok in Hm. destruct Hm as [[p1 x1] [Hx Hm]]. apply cbind_ok in Hm. destruct Hm as [r [Hr Hm]]. inversion Hm; subst; clear Hm.
    cbn [map forallb fst snd] in *. apply andb_true_iff in Ha. destruct Ha as [Hpx Ha]. apply andb_true_iff in Hpx. destruct Hpx as [Hp Hxx].
    rewrite (IHl _ Hr Ha), andb_true_r. unfold arm_retype in Hx. cbn [fst snd] in Hx.
    destruct (negb _); [|inversion Hx; subst; rewrite Hp, Hxx; reflexivity].
    destruct rt; try discriminate Hx; apply cbind_ok in Hx; destruct Hx as [y [Hy Hx]]; inversion Hx; subst; rewrite Hp.
    + rewrite (coc_u_deep_re intern en P' _ _ _ _ Hy Hxx). reflexivity.
    + rewrite (coc_s_deep_re intern en P' _ _ _ _ Hy Hxx). reflexivity.
Qed.

Ltac bind_e H x st Hx := apply cbind_ok in H; destruct H as [[x st] [Hx H]]; cbv beta zeta in H; cbn [fst snd] in H.
Ltac splitn := repeat match goal with H : _ && _ = true |- _ => apply andb_true_iff in H; destruct H end.

(* blocks and statement lists are carried along: a block at fuel S f checks its statements at fuel f *)
Theorem rest_all_blocks : forall f, Re f /\ Rs f /\
  (forall st b r, forallb sp_s b = true -> check_block intern f D st b = COk r -> forallb (rest_s P') (map xs (fst (fst r))) = true) /\
  (forall st b r, forallb sp_s b = true -> check_stmts intern f D st b = COk r -> forallb (rest_s P') (map xs (fst r)) = true).
Proof.
  induction f as [|f (HE & HS & HB & HSl)].
  { repeat split; repeat intro; discriminate. }
  split; [|split; [|split]].
  - intros st e e' st' Hn H. destruct e; cbn [sp_e] in Hn; expr_step_in H rs Hs; try discriminate H.
    + inversion H; reflexivity.
    + inversion H; reflexivity.
    + inversion H; reflexivity.
    + inversion H; reflexivity.
    + destruct (env_get (st_env st) s) as [[? ?]|]; [inversion H; reflexivity|]. destruct (assocL s (d_consts D)); inversion H; reflexivity.
    + (* array literal *)
      apply cbind_ok in H. destruct H as [[es1 st1] [Hes H]]. cbn [fst snd] in H. destruct es1 as [|first es1]; [discriminate|].
      apply cbind_ok in H. destruct H as [fl [Hm H]]. inversion H; subst; clear H.
      cbn [export_expr rest_e]. eapply mapM_ct_re; [exact Hm|]. exact (Re_list f HE _ _ _ _ Hn Hes).
    + bind_e H x1 st1 Hx. inversion H; subst. cbn [export_expr rest_e]. exact (HE _ _ _ _ Hn Hx).
    + (* array access *)
      splitn. bind_e H a1 st1 Ha. bind_e H i1 st2 Hi. apply cbind_ok in H. destruct H as [el [_ H]].
      apply cbind_ok in H. destruct H as [i2 [Hc H]]. inversion H; subst; clear H.
      cbn [export_expr rest_e]. rewrite (e_ty_xe intern en), (coc_u_deep_ty _ _ _ _ Hc), (HE _ _ _ _ H0 Ha).
      rewrite (coc_u_deep_re intern en P' _ _ _ _ Hc (HE _ _ _ _ H1 Hi)). reflexivity.
    + apply cbind_ok in H. destruct H as [[es1 st1] [Hes H]]. inversion H; subst. cbn [export_expr rest_e fst]. exact (Re_list f HE _ _ _ _ Hn Hes).
    + bind_e H x1 st1 Hx. apply cbind_ok in H. destruct H as [vts [_ H]]. destruct (nthN vts i); inversion H; subst.
      cbn [export_expr rest_e]. exact (HE _ _ _ _ Hn Hx).
    + bind_e H x1 st1 Hx. apply cbind_ok in H. destruct H as [nm [_ H]]. destruct (assocL nm (d_structs D)); [|discriminate].
      destruct (assocL f0 l); inversion H; subst. cbn [export_expr rest_e]. exact (HE _ _ _ _ Hn Hx).
    + (* struct literal *)
      destruct (assocL name (d_structs D)) as [sd|]; [|discriminate]. apply cbind_ok in H. destruct H as [[r st1] [Hl H]]. cbn [fst snd] in H.
      destruct (missing_field sd fields); inversion H; subst. cbn [export_expr rest_e]. exact (struct_lit_re f sd HE _ _ _ _ _ Hn Hl).
    + (* enum literal *)
      destruct (assocL e (d_enums D)) as [ed|]; [|discriminate]. destruct (assocL v ed) as [[pts|]|]; try discriminate H; destruct args as [es|]; try discriminate H.
      * destruct (negb _); [discriminate|]. apply cbind_ok in H. destruct H as [[es1 st1] [Hes H]]. cbn [fst snd] in H.
        apply cbind_ok in H. destruct H as [ex [Hz H]]. inversion H; subst. cbn [export_expr rest_e].
        exact (zipM_ct_re f (fun t => t) _ _ _ Hz (Re_list f HE _ _ _ _ Hn Hes)).
      * inversion H; reflexivity.
    + (* match *)
      splitn. destruct rs as [s1 st1]. cbn [fst snd] in H. apply cbind_ok in H. destruct H as [[rc st2] [Hrc H]]. cbn [fst snd] in H.
      pose proof (arms_re f _ HE _ _ _ _ H1 Hrc) as Harms.
      destruct rc as [|[p0 first] rc']; [discriminate|].
      apply cbind_ok in H. destruct H as [cl [Hm H]]. apply cbind_ok in H. destruct H as [u0 [_ H]]. inversion H; subst; clear H.
      cbn [export_expr rest_e]. rewrite (HE _ _ _ _ H0 Hs). exact (retype_re f _ _ _ Hm Harms).
    + (* unary *) destruct o; bind_e H x1 st1 Hx; apply cbind_ok in H; destruct H as [? [_ H]]; inversion H; subst;
        cbn [export_expr rest_e]; exact (HE _ _ _ _ Hn Hx).
    + (* binary *)
      splitn. bind_e H x1 st1 Hx. bind_e H y1 st2 Hy.
      pose proof (HE _ _ _ _ H0 Hx) as Hrx. pose proof (HE _ _ _ _ H1 Hy) as Hry.
      destruct o.
      1-12: (apply cbind_ok in H; destruct H as [[[x2 y2] ty] [Hu H]]; cbv beta iota in H;
             destruct (unify_re intern en P' _ _ _ _ _ _ Hu Hrx Hry) as [Hx2 Hy2]).
      1-10: (apply cbind_ok in H; destruct H as [u0 [_ H]]).
      13-14: (apply cbind_ok in H; destruct H as [u0 [_ H]]; apply cbind_ok in H; destruct H as [y2 [Hc H]];
              pose proof (coc_u_deep_re intern en P' _ _ _ _ Hc Hry) as Hy2).
      15-16: (destruct (ty_of x1); try discriminate H; destruct (ty_of y1); try discriminate H).
      all: inversion H; subst; cbn [export_expr rest_e]; rewrite ?Hrx, ?Hry, ?Hx2, ?Hy2; reflexivity.
    + (* block *)
      apply cbind_ok in H. destruct H as [[[body ty] st1] [Hb H]]. cbv beta iota in H. inversion H; subst; clear H.
      rewrite (xe_block intern en), rest_e_block. exact (HB _ _ _ Hn Hb).
    + (* call *)
      apply cbind_ok in H. destruct H as [st1 [_ H]]. cbv beta in H.
      destruct (assocL f0 (st_typed st1)) as [fd|]; [|discriminate]. destruct (env_get (st_env st1) f0); [discriminate|].
      apply cbind_ok in H. destruct H as [[es1 st2] [Hes H]]. cbn [fst snd] in H. destruct (negb _); [discriminate|].
      apply cbind_ok in H. destruct H as [ar [Hz H]]. inversion H; subst. cbn [export_expr rest_e].
      exact (zipM_ct_re f snd _ _ _ Hz (Re_list f HE _ _ _ _ Hn Hes)).
    + (* if *)
      splitn. bind_e H c1 st1 Hc. bind_e H a1 st2 Ha. bind_e H b1 st3 Hb.
      apply cbind_ok in H. destruct H as [c2 [Hct H]]. apply cbind_ok in H. destruct H as [[[a2 b2] ty] [Hu H]]. cbv beta iota in H.
      inversion H; subst; clear H.
      destruct (unify_re intern en P' _ _ _ _ _ _ Hu (HE _ _ _ _ H2 Ha) (HE _ _ _ _ H1 Hb)) as [Ha2 Hb2].
      cbn [export_expr rest_e]. rewrite (check_type_re intern en P' _ _ _ _ Hct (HE _ _ _ _ H0 Hc)), Ha2, Hb2. reflexivity.
    + (* cast *)
      apply cbind_ok in H. destruct H as [ty' [_ H]]. bind_e H x1 st1 Hx. apply cbind_ok in H. destruct H as [? [_ H]].
      apply cbind_ok in H. destruct H as [? [_ H]]. inversion H; subst. cbn [export_expr rest_e]. exact (HE _ _ _ _ Hn Hx).
    + (* range *) destruct (_ || _); inversion H; reflexivity.
  - intros st s s' st' Hn H. rewrite check_stmt_S in H. destruct s; cbn [sp_s] in Hn; cbn [stmt_step] in H.
    + (* let *)
      splitn. bind_e H e1 st1 He. apply cbind_ok in H. destruct H as [e2 [Hann H]].
      assert (Hr1 : rest_e P' (xe e1) = true) by (eapply HE; [|exact He]; assumption).
      assert (Hr2 : rest_e P' (xe e2) = true).
      { unfold annot in Hann. destruct ty; [apply cbind_ok in Hann; destruct Hann as [ty' [_ Hann]]; exact (check_type_re intern en P' _ _ _ _ Hann Hr1)
                     |inversion Hann; subst; exact Hr1]. }
      apply cbind_ok in H. destruct H as [[p1 g1] [Hp H]]. apply cbind_ok in H. destruct H as [u0 [_ H]]. cbn [fst snd] in H. inversion H; subst.
      change (xs (TSLet p1 e2)) with (St (SLet (xp p1) (xe e2)) m0).
      assert (Hop : TSemSafe.ok_pat P' (xp p1) = true) by (eapply (check_pattern_okpat intern en P' intern_inj D D_link); [|exact Hp]; assumption).
      rewrite rest_s_let, Hop, Hr2. reflexivity.
    + (* let mut *)
      bind_e H e1 st1 He. apply cbind_ok in H. destruct H as [e2 [Hann H]].
      pose proof (HE _ _ _ _ Hn He) as Hr1.
      assert (Hr2 : rest_e P' (xe e2) = true).
      { unfold annot in Hann. destruct ty; [apply cbind_ok in Hann; destruct Hann as [ty' [_ Hann]]; exact (check_type_re intern en P' _ _ _ _ Hann Hr1)
                     |inversion Hann; subst; exact Hr1]. }
      apply cbind_ok in H. destruct H as [e3 [Hi H]]. inversion H; subst.
      change (xs (TSLetMut x e3)) with (St (SLetMut (intern x) (xe e3)) m0).
      rewrite rest_s_letmut. exact (constrain_to_i32_re intern en P' _ _ _ Hi Hr2).
    + (* assignment *)
      splitn. destruct (env_get (st_env st) x) as [[tx [|]]|]; try discriminate H.
      apply cbind_ok in H. destruct H as [[[tas t'] st1] [Hacc H]]. cbv beta iota in H.
      bind_e H v1 st2 Hv. apply cbind_ok in H. destruct H as [v2 [Hct H]]. inversion H; subst.
      change (xs (TSVarAssign x tas v2)) with (St (SAssign (intern x) (map xa tas) (xe v2)) m0).
      assert (Hra : forallb (rest_a P') (map xa tas) = true) by (eapply (accs_re f HE); [|exact Hacc]; assumption).
      assert (Hrv : rest_e P' (xe v1) = true) by (eapply HE; [|exact Hv]; assumption).
      rewrite rest_s_assign, Hra, (check_type_re intern en P' _ _ _ _ Hct Hrv). reflexivity.
    + (* for *)
      splitn. match type of H with (if ?c then _ else _) = _ => destruct c; [discriminate|] end.
      bind_e H a1 st1 Ha. apply cbind_ok in H. destruct H as [el [_ H]].
      apply cbind_ok in H. destruct H as [[p1 g1] [Hp H]]. apply cbind_ok in H. destruct H as [u0 [_ H]]. cbn [fst snd] in H.
      apply cbind_ok in H. destruct H as [[body1 st2] [Hb H]]. cbn [fst snd] in H. inversion H; subst.
      change (xs (TSForEach p1 a1 body1)) with (St (SFor (xp p1) (xe a1) (map xs body1)) m0).
      assert (Hop : TSemSafe.ok_pat P' (xp p1) = true) by (eapply (check_pattern_okpat intern en P' intern_inj D D_link); [|exact Hp]; assumption).
      assert (Hra : rest_e P' (xe a1) = true) by (eapply HE; [|exact Ha]; assumption).
      rewrite rest_s_for, Hop, Hra. refine (HSl _ _ (_, _) _ Hb). assumption.
    + (* expression statement *)
      bind_e H e1 st1 He. inversion H; subst.
      change (xs (TSExpr e1)) with (St (SExpr (xe e1)) m0). rewrite rest_s_expr. exact (HE _ _ _ _ Hn He).
  - intros st b r Hn H. rewrite check_block_S in H. inv_all'. exact (Rs_list f HS _ _ _ _ Hn Hb).
  - intros st b [b' st'] Hn H. rewrite check_stmts_S in H. exact (Rs_list f HS _ _ _ _ Hn H).
Qed.

Corollary rest_all f : Re f /\ Rs f.
Proof. destruct (rest_all_blocks f) as (HE & HS & _). auto. Qed.

End RestCheck.

Print Assumptions ok_split_e.
Print Assumptions constrain_type_re.
Print Assumptions coc_u_deep_ty.
Print Assumptions check_pattern_okpat.
Print Assumptions rest_all.

(* ================================================================ whole programs *)

Definition sp_program (P : uprogram) : bool := forallb (fun fd => forallb sp_s (uf_body fd)) (up_fns P).
(* the Boolean on the OUTPUT: every node type of every function body is [TSemSafe.node_ok] *)
Definition tys_program (P' : program) : bool := forallb (fun d => forallb (tys_s P') (fn_body d)) (p_fns P').
(* the struct definitions list their fields in strictly increasing order (the parser sorts them) *)
Definition structs_sorted (P : uprogram) : bool := forallb (fun sd => sortedb (map fst (us_fields sd))) (up_structs P).
Definition main_declared (P : uprogram) : bool := memL (up_main P) (map uf_name (up_fns P)).

Lemma main_declared_In P : main_declared P = true <-> In (up_main P) (map uf_name (up_fns P)).
Proof.
  unfold main_declared, memL. rewrite existsb_exists. split.
  - intros [x [Hx He]]. apply list_eqb_eq in He. subst x. exact Hx.
  - intro H. exists (up_main P). split; [exact H|apply list_eqb_refl].
Qed.

Lemma struct_def_names sn en sd r : check_struct_def sn en sd = COk r -> map fst (snd r) = map fst (us_fields sd).
Proof.
  unfold check_struct_def. intro H. apply cbind_ok in H. destruct H as [fields [Hf H]]. inversion H; subst; clear H. cbn [snd].
  revert Hf. generalize (@nil (list N)). generalize fields. clear fields.
  induction (us_fields sd) as [|[n ty] fs IH]; intros fields0 seen H0.
  - inversion H0; subst. reflexivity.
  - destruct (memL n seen); [discriminate|]. apply cbind_ok in H0. destruct H0 as [ty' [_ H0]].
    apply cbind_ok in H0. destruct H0 as [r' [Hr H0]]. inversion H0; subst; clear H0.
    cbn [map fst]. rewrite (IH _ _ Hr). reflexivity.
Qed.

Section SafeProgram.
Variable intern : list N -> N.
Hypothesis intern_inj : forall a b, intern a = intern b -> a = b.

(* UntypedFnDef::type_check: the typed body has the structure *)
Lemma fn_rest en P' D (HD : structs_link intern P' D) f st fd tfd st' : forallb sp_s (uf_body fd) = true ->
  check_fn intern f D st fd = COk (tfd, st') ->
  forallb (rest_s P') (map (export_stmt intern en) (tf_body tfd)) = true.
Proof.
  intros Hn H. destruct f as [|f]; [discriminate|]. rewrite check_fn_S in H. unfold fn_step in H. inv_all'. cbn [tf_body].
  match goal with Hblk : Infer.check_block _ _ _ _ _ = COk _, Hlast : ret_check _ _ _ = COk _ |- _ =>
    pose proof (proj1 (proj2 (proj2 (rest_all_blocks intern en P' D intern_inj HD f))) _ _ _ Hn Hblk) as Hr;
    cbn [fst] in Hr; unfold ret_check in Hlast end.
  match goal with Hlast : match last (map Some ?b) None with _ => _ end = COk _ |- _ => destruct (last (map Some b) None) as [[]|] end.
  all: try (inv_all; exact Hr).
  eapply (map_last_rs intern en P'); [eassumption| |exact Hr].
  intros x x' Hx Hrx. exact (check_type_re intern en P' _ _ _ _ Hx Hrx).
Qed.

Theorem check_safe_fragment fuel P P' :
  in_sound_fragment P = true -> structs_sorted P = true -> sp_program P = true -> main_declared P = true ->
  (fuel <= S Wt.wt_fuel)%nat -> check_program intern fuel P = COk P' -> tys_program P' = true ->
  TSemSafe.safe_program_ok P' = true.
Proof.
  intros Hfrag Hsorted Hnosp Hmain Hfuel H Htys.
  pose proof (check_sound_fragment intern intern_inj fuel P P' Hfrag Hfuel H) as Hwt.
  unfold check_program in H. apply cbind_ok in H. destruct H as [T [HT H]]. inversion H; subst; clear H.
  destruct (in_sound_fragment_parts _ Hfrag) as (_ & Hcc & Hnds & _).
  destruct (frag_program_ok intern _ _ _ Hfrag HT) as (structs & enums & stf & Hstructs & _ & Hsn & _ & -> & Hfn & Hents).
  set (D := prog_defs P (map const_t (up_consts P)) structs enums) in *.
  set (P' := export_program intern (mkTProgram (map const_t (up_consts P)) structs enums (st_typed stf) (up_main P))) in *.
  assert (HD : structs_link intern P' D).
  { intros name def Ha. split.
    - cbn [P' export_program Ast.p_structs tp_structs].
      rewrite (assocN_map_intern intern intern_inj). cbn [D prog_defs d_structs] in Ha. rewrite (assocL_sort structs name def); [reflexivity| |exact Ha].
      rewrite Hsn. exact Hnds.
    - apply assocL_In in Ha. cbn [D prog_defs d_structs] in Ha.
      destruct (mapM_In _ _ _ _ Hstructs Ha) as [sd [Hsd Hcd]]. apply struct_def_names in Hcd. cbn [snd] in Hcd. rewrite Hcd.
      unfold structs_sorted in Hsorted. rewrite forallb_forall in Hsorted. exact (Hsorted _ Hsd). }
  (* the entries of `typed`: static signature (for the name), and the structure of the body *)
  assert (HQ : Forall (fun nd => Qs D nd /\ forallb (rest_s P') (map (export_stmt intern enums) (tf_body (snd nd))) = true) (st_typed stf)).
  { apply Hents. intros f st ufd [tfd st'] id _ Hfd Hc _. split; [exact (Qs_ins intern D f st ufd _ id Hfd Hc)|].
    unfold sp_program in Hnosp. rewrite forallb_forall in Hnosp.
    exact (fn_rest enums P' D HD f st ufd tfd st' (Hnosp _ (proj1 (find_name Hfd))) Hc). }
  rewrite Forall_forall in HQ.
  unfold TSemSafe.safe_program_ok. rewrite Hwt. cbn [andb].
  repeat (apply andb_true_iff; split).
  - (* fns_ok *)
    unfold TSemSafe.fns_ok. apply forallb_forall. intros d Hd.
    unfold tys_program in Htys. rewrite forallb_forall in Htys. pose proof (Htys d Hd) as Htd.
    cbn [P' export_program p_fns tp_fns tp_enums] in Hd. apply in_map_iff in Hd. destruct Hd as [nd [<- Hnd']].
    apply (proj1 (In_sort_fields _ _)) in Hnd'. destruct (HQ _ Hnd') as [_ Hrest].
    cbn [export_fn fn_body] in *. apply forallb_forall. intros s Hs.
    rewrite forallb_forall in Htd, Hrest. apply ok_split_s; auto.
  - (* consts_ok *)
    unfold TSemSafe.consts_ok. cbn [P' export_program p_consts tp_consts tp_enums]. apply forallb_forall. intros c' Hc'.
    apply in_map_iff in Hc'. destruct Hc' as [nc [<- Hnc]]. apply in_map_iff in Hnc. destruct Hnc as [c [<- Hin]].
    rewrite forallb_forall in Hcc. unfold const_t. cbn [snd fst].
    destruct (const_frag_inv _ (Hcc _ Hin)) as [[Et Ev]|[[Et Ev]|[(n & t & Et & Ev & Hl)|(z & t & Et & Ev & Hl)]]]; rewrite Ev;
      cbn [export_expr export_ty TSemSafe.const_ok]; try reflexivity; apply N.eqb_refl.
  - (* has_main *)
    unfold TSemSafe.has_main. unfold main_declared, memL in Hmain. apply existsb_exists in Hmain.
    destruct Hmain as [nm [Hnm Heq]]. apply list_eqb_eq in Heq. apply in_map_iff in Hnm. destruct Hnm as [fd [Hfdn Hfd]].
    destruct (proj2 (Hfn _ Hfd)) as [tfd Htfd]. destruct (HQ _ Htfd) as [[ufd [_ [_ [_ Hn0]]]] _].
    cbn [fst snd] in Hn0.
    unfold find_fn. cbn [P' export_program p_fns p_main tp_fns tp_main tp_enums].
    destruct (find_exists (fun d => fn_name d =? intern (up_main P))
                (map (fun nd => export_fn intern enums (snd nd)) (sort_fields (st_typed stf)))
                (export_fn intern enums tfd)) as [d Hd].
    { apply in_map_iff. exists (uf_name fd, tfd). split; [reflexivity|]. apply (proj2 (In_sort_fields _ _)). exact Htfd. }
    { cbn [export_fn fn_name]. rewrite Hn0, Hfdn, Heq. apply N.eqb_refl. }
    rewrite Hd. reflexivity.
Qed.

(* C05, first clause, for the fragment: the typed program the checker returns does not crash the
   lowering, for every fuel and all arguments of the parameter sizes, and the result has the size of
   the return type *)
Theorem accepted_programs_do_not_crash_the_compiler fuel P P' :
  in_sound_fragment P = true -> structs_sorted P = true -> sp_program P = true -> main_declared P = true ->
  (fuel <= S Wt.wt_fuel)%nat -> check_program intern fuel P = COk P' -> tys_program P' = true ->
  forall tfuel args, exists fd, find_fn P' (p_main P') = Some fd /\
    (Forall2 (fun p a => length a = Lower.szn P' (snd p)) (fn_params fd) args ->
     match TSem.tsem_program tfuel P' args with
     | Crash => False
     | OutOfFuel => True
     | Ok (_, outs) => length outs = Lower.szn P' (fn_ret fd)
     end).
Proof.
  intros H1 H1' H2 H3 H4 H5 H6 tfuel args.
  pose proof (check_safe_fragment fuel P P' H1 H1' H2 H3 H4 H5 H6) as Hs.
  exact (TSemSafe.tsem_program_safe_ok tfuel P' args Hs).
Qed.

End SafeProgram.

Print Assumptions check_safe_fragment.
Print Assumptions accepted_programs_do_not_crash_the_compiler.

(* ---------------------------------------------------------------- the hypotheses are satisfiable *)

From GV Require Check.InferExamples.
Module SafeExamples.
Import InferExamples. Import String. Local Open Scope string_scope. Local Open Scope N_scope.

Definition all_hyps (P : uprogram) : bool :=
  in_sound_fragment P && structs_sorted P && sp_program P && main_declared P &&
  match check_program ex_intern 50 P with COk P' => tys_program P' | _ => false end.

(* calls, a struct literal + access, an enum literal + match with enum patterns, a const, all suffixed *)
Definition P_all := mkUProgram [mkUConst (nm "K") u8 (CENumUnsigned 5 U8)] [s_P] [e_E]
  [main_fn [px "x" u8] u8
     [XSLet (pid "p") None (XStructLiteral (nm "P") [(nm "a", XFnCall (nm "inc") [id_ "x"]); (nm "b", XTrue)]);
      XSLet (ParseExpr.PStruct (nm "P") [(nm "a", pid "q"); (nm "b", pid "q")]) None (id_ "p");
      XSLet (ParseExpr.PStructIgnoreRemaining (nm "P") [(nm "b", pid "_")]) None (id_ "p");
      XSLet (pid "e") None (XEnumLiteral (nm "E") (nm "B") (Some [XStructAccess (id_ "p") (nm "a")]));
      XSExpr (XMatch (id_ "e") [(ParseExpr.PEnumUnit (nm "E") (nm "A"), id_ "K");
                               (ParseExpr.PEnumTuple (nm "E") (nm "B") [pid "v"], id_ "v")])];
   mkUFn false (nm "inc") u8 [px "a" u8] [XSExpr (XOp BAdd (id_ "a") (XNumUnsigned 1 U8))]] (nm "main").

Example hyps_satisfiable : forallb all_hyps [P_loop; P_ops; P_const; P_all] = true.
Proof. vm_compute. reflexivity. Qed.

(* the order hypothesis is needed: the checker accepts a struct pattern that names the fields out of
   definition order and binds a variable twice (never produced by the parser, which sorts the fields);
   TSemSafe.ok_pat refuses it *)
Definition P_unsorted := mkUProgram [] [s_P] []
  [main_fn [px "x" u8] u8
     [XSLet (pid "p") None (XStructLiteral (nm "P") [(nm "a", id_ "x"); (nm "b", XTrue)]);
      XSLet (ParseExpr.PStruct (nm "P") [(nm "b", pid "q"); (nm "a", pid "q")]) None (id_ "p");
      XSExpr (id_ "q")]] (nm "main").
Example unsorted_struct_pattern :
  in_sound_fragment P_unsorted = true /\ sp_program P_unsorted = false /\
  match check_program ex_intern 50 P_unsorted with
  | COk P' => tys_program P' = true /\ Wt.wt_program P' = true /\ TSemSafe.safe_program_ok P' = false
  | _ => False
  end.
Proof. vm_compute. repeat split; reflexivity. Qed.
End SafeExamples.
