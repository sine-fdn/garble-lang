(* C06 for the type checker: the result of the model of check.rs (Check/Infer.v) does not depend on
   the ORDER of the lists that stand for the HashMaps of a Program (fn_defs, struct_defs,
   enum_defs). *)
From Coq Require Import Lia Bool Permutation.
From GV Require Import Base.Util Front.Scan Front.ParseExpr Check.UAst Check.Infer Check.InferProofs Check.InferTotal.
From GV Require Exhaust.Pat Exhaust.Useful.
Local Open Scope N_scope.

(* ================================================================ part 1: two definition
   environments that answer every look-up alike *)

Section DefsEq.
Variable intern : list N -> N.
Variables D D' : defs.
Hypothesis Hc : d_consts D' = d_consts D.
Hypothesis Hs : forall n, assocL n (d_structs D') = assocL n (d_structs D).
Hypothesis He : forall n, assocL n (d_enums D') = assocL n (d_enums D).
Hypothesis Hf : forall id, find (fun d => list_eqb (uf_name d) id) (d_fns D') =
                           find (fun d => list_eqb (uf_name d) id) (d_fns D).
Hypothesis Hsn : forall n, memL n (d_struct_names D') = memL n (d_struct_names D).
Hypothesis Hen : forall n, memL n (d_enum_names D') = memL n (d_enum_names D).
Hypothesis Hexh : forall ps ty, check_exhaustiveness intern D' ps ty = check_exhaustiveness intern D ps ty.

Lemma as_concrete_type_eq sn en sn' en' : (forall n, memL n sn' = memL n sn) -> (forall n, memL n en' = memL n en) ->
  forall t, as_concrete_type sn' en' t = as_concrete_type sn en t.
Proof.
  intros H1 H2. induction t using utype_ind'; cbn [as_concrete_type]; try reflexivity.
  - rewrite H1, H2. reflexivity.
  - f_equal. induction H as [|x xs Hx _ IHxs]; [reflexivity|]. rewrite Hx, IHxs. reflexivity.
  - rewrite IHt. reflexivity.
Qed.

Lemma concrete_of_eq t : concrete_of D' t = concrete_of D t.
Proof. apply as_concrete_type_eq; assumption. Qed.

Lemma fields_loop_eq fs : Forall (fun p => forall g ty, check_pattern D' g p ty = check_pattern D g p ty) fs ->
  forall ts g,
    (fix go (fs : list upattern) (ts : list cty) (g : cenv) : cres (list tpattern * cenv) :=
       match fs, ts with
       | fp :: fr, t :: tr =>
           do r1 <- check_pattern D' g fp t; do r2 <- go fr tr (snd r1); COk (fst r1 :: fst r2, snd r2)
       | _, _ => COk ([], g)
       end) fs ts g =
    (fix go (fs : list upattern) (ts : list cty) (g : cenv) : cres (list tpattern * cenv) :=
       match fs, ts with
       | fp :: fr, t :: tr =>
           do r1 <- check_pattern D g fp t; do r2 <- go fr tr (snd r1); COk (fst r1 :: fst r2, snd r2)
       | _, _ => COk ([], g)
       end) fs ts g.
Proof.
  induction 1 as [|q fs Hq Hfs IHfs]; intros ts g; [reflexivity|].
  destruct ts as [|t ts]; [reflexivity|]. rewrite Hq. destruct (check_pattern D g q t) as [r1| | |]; cbn [cbind]; try reflexivity.
  rewrite IHfs. reflexivity.
Qed.

Lemma struct_loop_eq sd fs : Forall (fun f => forall g ty, check_pattern D' g (snd f) ty = check_pattern D g (snd f) ty) fs ->
  forall seen g,
    (fix go (seen : list (list N)) (fs : list (list N * upattern)) (g : cenv)
       : cres (list (list N * tpattern) * cenv) :=
       match fs with
       | [] => COk ([], g)
       | (field_name, field_value) :: fr =>
           if memL field_name seen then CErr E_PatternDoesNotMatchType else
           match assocL field_name sd with
           | Some field_type =>
               do r1 <- check_pattern D' g field_value field_type;
               do r2 <- go (field_name :: seen) fr (snd r1);
               COk ((field_name, fst r1) :: fst r2, snd r2)
           | None => CErr E_UnknownStructField
           end
       end) seen fs g =
    (fix go (seen : list (list N)) (fs : list (list N * upattern)) (g : cenv)
       : cres (list (list N * tpattern) * cenv) :=
       match fs with
       | [] => COk ([], g)
       | (field_name, field_value) :: fr =>
           if memL field_name seen then CErr E_PatternDoesNotMatchType else
           match assocL field_name sd with
           | Some field_type =>
               do r1 <- check_pattern D g field_value field_type;
               do r2 <- go (field_name :: seen) fr (snd r1);
               COk ((field_name, fst r1) :: fst r2, snd r2)
           | None => CErr E_UnknownStructField
           end
       end) seen fs g.
Proof.
  induction 1 as [|[fname fp] fs Hq Hfs IHfs]; intros seen g; [reflexivity|]. cbn [snd] in Hq.
  destruct (memL fname seen); [reflexivity|]. destruct (assocL fname sd); [|reflexivity].
  rewrite Hq. destruct (check_pattern D g fp c) as [r1| | |]; cbn [cbind]; try reflexivity. rewrite IHfs. reflexivity.
Qed.

Lemma check_pattern_eq : forall p g ty, check_pattern D' g p ty = check_pattern D g p ty.
Proof.
  induction p using upattern_ind'; intros g ty; cbn [check_pattern]; cbv zeta; try reflexivity.
  - destruct (expect_tuple_type ty) as [fts| | |]; cbn [cbind]; try reflexivity.
    destruct (negb _); [reflexivity|]. rewrite (fields_loop_eq ps H). reflexivity.
  - rewrite Hs. destruct (expect_struct_type ty); cbn [cbind]; try reflexivity.
    destruct (negb _); [reflexivity|]. destruct (assocL n (d_structs D)); [|reflexivity].
    rewrite (struct_loop_eq _ fs H). reflexivity.
  - rewrite Hs. destruct (expect_struct_type ty); cbn [cbind]; try reflexivity.
    destruct (negb _); [reflexivity|]. destruct (assocL n (d_structs D)); [|reflexivity].
    rewrite (struct_loop_eq _ fs H). reflexivity.
  - rewrite He. reflexivity.
  - rewrite He. destruct ty; try reflexivity. destruct (negb _); [reflexivity|].
    destruct (assocL e (d_enums D)); [|reflexivity]. destruct (assocL v l) as [[fts|]|]; try reflexivity.
    rewrite (fields_loop_eq ps H). reflexivity.
Qed.
(* ---------------------------------------------------------------- two runs side by side *)

(* no call anywhere *)
Fixpoint ncb_x (e : xexpr) : bool :=
  match e with
  | XTrue | XFalse | XNumUnsigned _ _ | XNumSigned _ _ | XIdentifier _ | XRange _ _ _ => true
  | XArrayLiteral es => forallb ncb_x es
  | XArrayRepeatLiteral e _ => ncb_x e
  | XArrayRepeatLiteralConst e _ => ncb_x e
  | XArrayAccess a i => ncb_x a && ncb_x i
  | XTupleLiteral es => forallb ncb_x es
  | XTupleAccess e _ => ncb_x e
  | XStructAccess e _ => ncb_x e
  | XStructLiteral _ fs => forallb (fun f => ncb_x (snd f)) fs
  | XEnumLiteral _ _ None => true
  | XEnumLiteral _ _ (Some es) => forallb ncb_x es
  | XMatch e arms => ncb_x e && forallb (fun a => ncb_x (snd a)) arms
  | XUnaryOp _ e => ncb_x e
  | XOp _ l r => ncb_x l && ncb_x r
  | XBlock b => forallb ncb_s b
  | XFnCall _ _ => false
  | XJoin args => forallb ncb_x args
  | XIf c t e => ncb_x c && ncb_x t && ncb_x e
  | XCast _ e => ncb_x e
  end
with ncb_s (s : xstmt) : bool :=
  match s with
  | XSLet _ _ e => ncb_x e
  | XSLetMut _ _ e => ncb_x e
  | XSVarAssign _ accs e => forallb ncb_a accs && ncb_x e
  | XSForEach _ e body => ncb_x e && forallb ncb_s body
  | XSExpr e => ncb_x e
  end
with ncb_a (a : xaccessor) : bool :=
  match a with
  | XAArray i => ncb_x i
  | XATuple _ | XAStruct _ => true
  end.

(* [nc = true]: the trees have no call, the typed maps of the two runs are related by an
   ARBITRARY relation [Rt] (they are never read);  [nc = false]: calls allowed, [Rt] must imply
   equal look-ups and be preserved by inserting the same entry *)
Variable nc : bool.
Variable Rt : list (list N * tfndef) -> list (list N * tfndef) -> Prop.
Hypothesis Rt_get : nc = false -> forall t t', Rt t t' -> forall n, assocL n t = assocL n t'.
Hypothesis Rt_ins : nc = false -> forall t t' e, Rt t t' -> Rt (e :: t) (e :: t').

Definition st_rel (s s' : cstate) : Prop :=
  st_env s = st_env s' /\ st_checking s = st_checking s' /\ Rt (st_typed s) (st_typed s').

Definition rres {A} (RA : A -> A -> Prop) (r r' : cres A) : Prop :=
  match r, r' with
  | COk a, COk a' => RA a a'
  | CErr c, CErr c' => c = c'
  | COutside, COutside => True
  | CNoFuel, CNoFuel => True
  | _, _ => False
  end.

Definition RP {B} (r r' : B * cstate) : Prop := fst r = fst r' /\ st_rel (snd r) (snd r').

Lemma rres_bind {A B} (RA : A -> A -> Prop) (RB : B -> B -> Prop) r r' (k k' : A -> cres B) :
  rres RA r r' -> (forall a a', RA a a' -> rres RB (k a) (k' a')) -> rres RB (cbind r k) (cbind r' k').
Proof. destruct r, r'; cbn [rres cbind]; auto; try contradiction. Qed.

Lemma rres_eq {A} (r : cres A) : rres eq r r.
Proof. destruct r; cbn [rres]; auto. Qed.

Lemma rres_pure {A B} (RB : B -> B -> Prop) (r : cres A) (k k' : A -> cres B) :
  (forall a, rres RB (k a) (k' a)) -> rres RB (cbind r k) (cbind r k').
Proof. exact (rel_pure (@rres) (@rres_bind) (@rres_eq) RB r k k'). Qed.

Lemma rres_mapM_st {A B} (g g' : cstate -> A -> cres (B * cstate)) l :
  (forall st st' x, In x l -> st_rel st st' -> rres RP (g st x) (g' st' x)) ->
  forall st st', st_rel st st' -> rres RP (mapM_st g st l) (mapM_st g' st' l).
Proof. exact (rel_mapM_st (@rres) (@rres_bind) (fun _ _ _ _ H => H) st_rel g g' l). Qed.
Notation check_expr := (check_expr intern).
Notation check_stmt := (check_stmt intern).
Notation check_stmts := (check_stmts intern).
Notation check_block := (check_block intern).
Notation check_fn := (check_fn intern).

Lemma seq_mk g t t' c : Rt t t' -> st_rel (mkSt g t c) (mkSt g t' c).
Proof. intro H. repeat split. exact H. Qed.

Ltac rr_intro :=
  let a := fresh "a" in let a' := fresh "a'" in let HR := fresh "HR" in
  intros a a' HR;
  first
   [ destruct a as [?b [?g ?t ?c]], a' as [?b [?g ?t ?c]]; destruct HR as [?E (?E & ?E & ?E)];
     cbn [fst snd st_env st_checking st_typed] in *; subst
   | subst a' ].

Ltac seq_solve := cbn [with_env st_env st_checking st_typed fst snd]; first [apply seq_mk; assumption | assumption].

Ltac ncsolve Hnc :=
  let Hn := fresh "Hn" in
  intro Hn; try congruence; specialize (Hnc Hn); cbn [ncb_x ncb_s ncb_a] in Hnc; repeat rewrite andb_true_iff in Hnc;
  first [ tauto | discriminate Hnc
        | match goal with Hin : In ?x ?l |- _ =>
            first [ exact (forallb_In _ _ _ Hnc Hin)
                  | exact (forallb_In _ _ _ (proj1 Hnc) Hin) | exact (forallb_In _ _ _ (proj2 Hnc) Hin) ] end ].

Ltac rr_core IHt :=
  repeat (cbn [st_env st_typed st_checking with_env];
    match goal with
    | |- rres _ (COk _) (COk _) => cbn [rres]
    | |- rres _ (CErr _) (CErr _) => reflexivity
    | |- rres _ COutside COutside => exact I
    | |- rres _ CNoFuel CNoFuel => exact I
    | |- rres _ (cbind ?r _) (cbind ?r _) => apply rres_pure; intros ?
    | |- rres _ (cbind _ _) (cbind _ _) => eapply rres_bind; [solve [IHt] | rr_intro]
    | |- rres _ (if ?c then _ else _) (if ?c then _ else _) => destruct c eqn:?
    | |- rres _ (match ?x with _ => _ end) (match ?x with _ => _ end) => destruct x eqn:?
    | |- _ => progress rewrite ?concrete_of_eq, ?check_pattern_eq, ?Hexh, ?Hs, ?He, ?Hf, ?Hc
    end).

Ltac rp_fin := first [ split; [reflexivity|seq_solve] | exact I | reflexivity ].

Lemma rres_accs_loop ce ce' fuel : forall accs,
  (forall st st' a, In a accs -> st_rel st st' -> match a with XAArray i => rres RP (ce st i) (ce' st' i) | _ => True end) ->
  forall st st' t, st_rel st st' -> rres RP (accs_loop ce fuel D st t accs) (accs_loop ce' fuel D' st' t accs).
Proof. exact (rel_accs_loop (@rres) (@rres_bind) (fun _ _ _ _ H => H) (@rres_eq) st_rel ce ce' fuel fuel D D' Hs (fun e t => rres_eq _)). Qed.

Lemma rres_struct_lit_loop ce ce' f sd : forall fields,
  (forall st st' fl, In fl fields -> st_rel st st' -> rres RP (ce st (snd fl)) (ce' st' (snd fl))) ->
  forall seen st st', st_rel st st' ->
  rres RP (struct_lit_loop ce f sd seen st fields) (struct_lit_loop ce' f sd seen st' fields).
Proof. exact (rel_struct_lit_loop (@rres) (@rres_bind) (fun _ _ _ _ H => H) (@rres_eq) st_rel ce ce' f f sd (fun e t => rres_eq _)). Qed.
Definition GE f := forall st st' e, st_rel st st' -> (nc = true -> ncb_x e = true) ->
  rres RP (check_expr f D st e) (check_expr f D' st' e).
Definition GSS f := forall st st' b, st_rel st st' -> (nc = true -> forallb ncb_s b = true) ->
  rres RP (check_stmts f D st b) (check_stmts f D' st' b).
Definition GB f := forall st st' b, st_rel st st' -> (nc = true -> forallb ncb_s b = true) ->
  rres RP (check_block f D st b) (check_block f D' st' b).
Definition GS f := forall st st' s, st_rel st st' -> (nc = true -> ncb_s s = true) ->
  rres RP (check_stmt f D st s) (check_stmt f D' st' s).
Definition GF f := forall st st' fd, st_rel st st' -> (nc = true -> forallb ncb_s (uf_body fd) = true) ->
  rres RP (check_fn f D st fd) (check_fn f D' st' fd).

Ltac ih_tac IHe IHss IHb IHs IHf Hnc :=
  first [ apply IHe; [seq_solve|ncsolve Hnc]
        | apply IHss; [seq_solve|ncsolve Hnc]
        | apply IHb; [seq_solve|ncsolve Hnc]
        | apply IHs; [seq_solve|ncsolve Hnc]
        | apply rres_mapM_st; [intros ? ? ? ? ?; first [apply IHe|apply IHs]; [assumption|ncsolve Hnc]|seq_solve] ].

Lemma rel_expr f : GE f -> GB f -> GF f -> GE (S f).
Proof.
  intros IHe IHb IHf st st' e Hq Hnc.
  destruct st as [g t c], st' as [g' t' c']. destruct Hq as (Eg & Ec & Ht). cbn [st_env st_checking st_typed] in *. subst g' c'.
  rewrite !check_expr_S. destruct e; cbn [expr_step st_env st_checking st_typed with_env].
  (* every constructor but struct literal (13), match (15) and call (19) *)
  1-12, 14, 16-18, 20-23: solve [rr_core ltac:(ih_tac IHe IHe IHb IHe IHf Hnc); rp_fin].
  - (* struct literal *)
    rewrite Hs. destruct (assocL name (d_structs D)); [|reflexivity].
    eapply rres_bind; [apply rres_struct_lit_loop; [intros st0 st0' fl Hin Hq0; apply IHe; [exact Hq0|ncsolve Hnc]|seq_solve]|rr_intro].
    rr_core ltac:(ih_tac IHe IHe IHb IHe IHf Hnc); rp_fin.
  - (* match *)
    eapply rres_bind; [apply IHe; [seq_solve|ncsolve Hnc]|rr_intro].
    match goal with |- rres _ (match ty_of ?x with _ => _ end) _ => destruct (ty_of x) end; try reflexivity;
    (unfold match_tail; eapply rres_bind;
      [apply rres_mapM_st; [|seq_solve];
       intros st0 st0' pc Hin Hq0; destruct st0 as [gq tq cq], st0' as [gq' tq' cq']; destruct Hq0 as (Eg0 & Ec0 & Ht0);
       cbn [st_env st_checking st_typed] in Eg0, Ec0, Ht0; subst gq' cq'; unfold match_arm;
       rr_core ltac:(ih_tac IHe IHe IHb IHe IHf Hnc); rp_fin
      |rr_intro]; rr_core ltac:(ih_tac IHe IHe IHb IHe IHf Hnc); rp_fin).
  - (* call *)
    assert (Enc : nc = false) by (clear - Hnc; destruct nc; [specialize (Hnc eq_refl); discriminate Hnc|reflexivity]).
    pose proof (Rt_get Enc) as Hget. pose proof (Rt_ins Enc) as Hins.
    unfold call_prefix. cbn [st_typed]. rewrite <- (Hget t t' Ht f0). rewrite Hf.
    eapply rres_bind with (RA := st_rel).
    + destruct (negb _); [|apply seq_mk; exact Ht].
      destruct (find _ (d_fns D)) as [fd|]; [|apply seq_mk; exact Ht].
      eapply rres_bind; [apply IHf; [apply seq_mk; exact Ht|intro Hn; congruence]|rr_intro].
      cbn [rres]. apply seq_mk. apply Hins. assumption.
    + intros [g1 t1 c1] [g1' t1' c1'] (Eg1 & Ec1 & Ht1). cbn [st_env st_checking st_typed] in *. subst g1' c1'.
      rewrite <- (Hget t1 t1' Ht1 f0).
      destruct (assocL f0 t1); [|reflexivity]. destruct (env_get g1 f0); [reflexivity|].
      rr_core ltac:(ih_tac IHe IHe IHb IHe IHf Hnc); rp_fin.
Qed.
Lemma rel_stmts f : GS f -> GSS (S f) /\ GB (S f).
Proof.
  intro IHs. split; intros st st' b Hq Hnc; cbn [Infer.check_stmts Infer.check_block].
  - apply rres_mapM_st; [|exact Hq]. intros st0 st0' x Hin Hq0. apply IHs; [exact Hq0|ncsolve Hnc].
  - eapply rres_bind; [apply rres_mapM_st; [|exact Hq]; intros st0 st0' x Hin Hq0; apply IHs; [exact Hq0|ncsolve Hnc]|].
    intros [b1 s1] [b1' s1'] [E1 S1]. cbn [fst snd] in *. subst b1'. split; [reflexivity|exact S1].
Qed.

Lemma rel_stmt f : GE f -> GSS f -> GS (S f).
Proof.
  intros IHe IHss st st' s Hq Hnc.
  destruct st as [g t c], st' as [g' t' c']. destruct Hq as (Eg & Ec & Ht). cbn [st_env st_checking st_typed] in *. subst g' c'.
  rewrite !check_stmt_S. destruct s as [p [u|] e|x [u|] e|x accs e|p e body|e]; cbn [stmt_step annot st_env st_checking st_typed with_env].
  1-4, 6-7: solve [rr_core ltac:(ih_tac IHe IHss IHss IHe IHe Hnc); rp_fin].
  (* assignment *)
  destruct (env_get g x) as [[ety [|]]|]; try reflexivity.
  eapply rres_bind.
  - apply rres_accs_loop; [|apply seq_mk; exact Ht].
    intros st0 st0' a Hin Hq0. destruct a; try exact I. apply IHe; [exact Hq0|].
    intro Hn. specialize (Hnc Hn). cbn [ncb_s] in Hnc. apply andb_true_iff in Hnc. exact (forallb_In _ _ _ (proj1 Hnc) Hin).
  - intros [[tas ty1] [g1 t1 c1]] [[tas' ty1'] [g1' t1' c1']] [E1 (Eg1 & Ec1 & Ht1)].
    cbn [fst snd st_env st_checking st_typed] in *. injection E1 as <- <-. subst g1' c1'.
    rr_core ltac:(ih_tac IHe IHss IHss IHe IHe Hnc); rp_fin.
Qed.

Lemma rel_fn f : GB f -> GF (S f).
Proof.
  intros IHb st st' fd Hq Hnc.
  destruct st as [g t c], st' as [g' t' c']. destruct Hq as (Eg & Ec & Ht). cbn [st_env st_checking st_typed] in *. subst g' c'.
  cbn [Infer.check_fn]. cbn [st_env st_checking st_typed].
  destruct (memL (uf_name fd) c); [reflexivity|]. cbv zeta.
  match goal with |- rres _ (cbind ?r _) (cbind ?r' _) => assert (Er : r' = r) end.
  { generalize (@nil (list N)) (env_push env_new). induction (uf_params fd) as [|p ps IHp]; intros seen g0; [reflexivity|].
    destruct (memL _ seen); [reflexivity|]. rewrite concrete_of_eq. destruct (concrete_of D (upa_ty p)); cbn [cbind]; try reflexivity.
    rewrite IHp. reflexivity. }
  rewrite Er. apply rres_pure. intros rp.
  eapply rres_bind; [apply IHb; [apply seq_mk; exact Ht|exact Hnc]|].
  intros [[body bty] [g1 t1 c1]] [[body' bty'] [g1' t1' c1']] [E1 (Eg1 & Ec1 & Ht1)].
  cbn [fst snd st_env st_checking st_typed] in *. injection E1 as <- <-. subst g1' c1'.
  rewrite concrete_of_eq. apply rres_pure. intros ret_ty. apply rres_pure. intros body'.
  cbn [rres]. split; [reflexivity|apply seq_mk; exact Ht1].
Qed.

(* THE TWO RUNS AGREE: same typed trees, same errors, related states *)
Theorem check_rel f : GE f /\ GSS f /\ GB f /\ GS f /\ GF f.
Proof.
  induction f as [|f (IHe & IHss & IHb & IHs & IHf)].
  { repeat split; intros ? ? ? ? ?; exact I. }
  pose proof (rel_stmts f IHs) as [H1 H2].
  split; [apply rel_expr; assumption|]. split; [exact H1|]. split; [exact H2|].
  split; [apply rel_stmt; assumption|apply rel_fn; assumption].
Qed.
End DefsEq.

Definition nocall_fn (fd : ufndef) : Prop := forallb ncb_s (uf_body fd) = true.

Corollary check_fn_defs_eq intern D D' : d_consts D' = d_consts D ->
  (forall n, assocL n (d_structs D') = assocL n (d_structs D)) -> (forall n, assocL n (d_enums D') = assocL n (d_enums D)) ->
  (forall id, find (fun d => list_eqb (uf_name d) id) (d_fns D') = find (fun d => list_eqb (uf_name d) id) (d_fns D)) ->
  (forall n, memL n (d_struct_names D') = memL n (d_struct_names D)) -> (forall n, memL n (d_enum_names D') = memL n (d_enum_names D)) ->
  (forall ps ty, check_exhaustiveness intern D' ps ty = check_exhaustiveness intern D ps ty) ->
  forall f st fd, check_fn intern f D' st fd = check_fn intern f D st fd.
Proof.
  intros Hc Hs He Hf Hsn Hen Hexh f st fd.
  pose proof (check_rel intern D D' Hc Hs He Hf Hsn Hen Hexh false eq
                (fun _ t t' E n => f_equal (assocL n) E) (fun _ t t' e E => f_equal (cons e) E) f) as (_ & _ & _ & _ & HF).
  specialize (HF st st fd ltac:(repeat split) ltac:(discriminate)).
  destruct (check_fn intern f D st fd) as [[t1 [g1 ty1 c1]]| | |], (check_fn intern f D' st fd) as [[t2 [g2 ty2 c2]]| | |];
    cbn [rres] in HF; try contradiction; try reflexivity; try congruence.
  destruct HF as [E1 (E2 & E3 & E4)]. cbn [fst snd st_env st_checking st_typed] in *. congruence.
Qed.

(* a function without calls neither reads nor changes the typed map *)
Corollary nocall_indep intern D D' : d_consts D' = d_consts D ->
  (forall n, assocL n (d_structs D') = assocL n (d_structs D)) -> (forall n, assocL n (d_enums D') = assocL n (d_enums D)) ->
  (forall id, find (fun d => list_eqb (uf_name d) id) (d_fns D') = find (fun d => list_eqb (uf_name d) id) (d_fns D)) ->
  (forall n, memL n (d_struct_names D') = memL n (d_struct_names D)) -> (forall n, memL n (d_enum_names D') = memL n (d_enum_names D)) ->
  (forall ps ty, check_exhaustiveness intern D' ps ty = check_exhaustiveness intern D ps ty) ->
  forall f st st' fd, nocall_fn fd -> st_env st = st_env st' -> st_checking st = st_checking st' ->
  rres (fun r r' => fst r = fst r' /\ st_typed (snd r') = st_typed st') (check_fn intern f D st fd) (check_fn intern f D' st' fd).
Proof.
  intros Hc Hs He Hf Hsn Hen Hexh f st st' fd Hn Eg Ec.
  pose proof (check_rel intern D D' Hc Hs He Hf Hsn Hen Hexh true (fun _ b => b = st_typed st')
                ltac:(discriminate) ltac:(discriminate) f) as (_ & _ & _ & _ & HF).
  specialize (HF st st' fd (conj Eg (conj Ec eq_refl)) (fun _ => Hn)).
  destruct (check_fn intern f D st fd), (check_fn intern f D' st' fd); cbn [rres] in *; auto.
  destruct HF as [E (_ & _ & T)]. split; assumption.
Qed.

Lemma nocall_frame intern D fd f st r : nocall_fn fd -> check_fn intern f D st fd = COk r -> st_typed (snd r) = st_typed st.
Proof.
  intros Hn Hr.
  pose proof (nocall_indep intern D D eq_refl (fun _ => eq_refl) (fun _ => eq_refl) (fun _ => eq_refl) (fun _ => eq_refl)
                (fun _ => eq_refl) (fun _ _ => eq_refl) f st st fd Hn eq_refl eq_refl) as H.
  rewrite Hr in H. exact (proj2 H).
Qed.

(* ================================================================ part 2: permuted lists *)

Lemma assocL_notin {A} k (l : list (list N * A)) : ~ In k (map fst l) -> assocL k l = None.
Proof.
  induction l as [|[k' v] l IH]; intro H; cbn [assocL]; [reflexivity|].
  destruct (list_eqb k k') eqn:E; [apply list_eqb_eq in E; subst; exfalso; apply H; now left|].
  apply IH. intro Hin. apply H. now right.
Qed.

Lemma assocL_perm {A} (l l' : list (list N * A)) : Permutation l l' -> NoDup (map fst l) ->
  forall k, assocL k l = assocL k l'.
Proof.
  induction 1 as [|[k1 v1] l l' Hp IH|[k1 v1] [k2 v2] l|l1 l2 l3 H1 IH1 H2 IH2]; intros Hnd k.
  - reflexivity.
  - cbn [assocL]. inversion Hnd; subst. rewrite IH by assumption. reflexivity.
  - cbn [assocL]. destruct (list_eqb k k2) eqn:E2, (list_eqb k k1) eqn:E1; try reflexivity.
    apply list_eqb_eq in E1, E2. subst. inversion Hnd as [|? ? Hn _]; subst. exfalso. apply Hn. now left.
  - rewrite IH1 by assumption. apply IH2. eapply Permutation_NoDup; [|exact Hnd]. apply Permutation_map. exact H1.
Qed.

Lemma existsb_perm {A} (p : A -> bool) l l' : Permutation l l' -> existsb p l = existsb p l'.
Proof.
  induction 1 as [|x l l' _ IH|x y l|l1 l2 l3 _ IH1 _ IH2]; cbn [existsb]; try congruence.
  destruct (p x), (p y); reflexivity.
Qed.

Lemma memL_perm x l l' : Permutation l l' -> memL x l = memL x l'.
Proof. apply existsb_perm. Qed.

Lemma find_perm_unique {A} (p : A -> bool) l l' : Permutation l l' ->
  (forall x y, In x l -> In y l -> p x = true -> p y = true -> x = y) -> find p l = find p l'.
Proof.
  induction 1 as [|x l l' Hp IH|x y l|l1 l2 l3 H1 IH1 H2 IH2]; intros Hu.
  - reflexivity.
  - cbn [find]. destruct (p x); [reflexivity|]. apply IH. intros a b Ha Hb. apply Hu; now right.
  - cbn [find]. destruct (p y) eqn:Ey, (p x) eqn:Ex; try reflexivity.
    f_equal. apply Hu; [now left|right; now left|assumption|assumption].
  - rewrite IH1 by assumption. apply IH2. intros a b Ha Hb. apply Hu; eapply Permutation_in; try eassumption; now apply Permutation_sym.
Qed.

Lemma fn_name_unique (x y : ufndef) : forall l, NoDup (map uf_name l) -> In x l -> In y l -> uf_name x = uf_name y -> x = y.
Proof.
  induction l as [|d l IH]; intros Hnd Hx Hy E; [destruct Hx|]. inversion Hnd as [|? ? Hn Hnd']; subst.
  destruct Hx as [->|Hx], Hy as [->|Hy]; auto.
  - exfalso. apply Hn. rewrite E. now apply in_map.
  - exfalso. apply Hn. rewrite <- E. now apply in_map.
Qed.

Lemma find_fn_perm (l l' : list ufndef) : Permutation l l' -> NoDup (map uf_name l) ->
  forall id, find (fun d => list_eqb (uf_name d) id) l = find (fun d => list_eqb (uf_name d) id) l'.
Proof.
  intros Hp Hnd id. apply find_perm_unique; [exact Hp|]. intros x y Hx Hy Ex Ey.
  apply list_eqb_eq in Ex, Ey.
  assert (G : forall l, NoDup (map uf_name l) -> In x l -> In y l -> uf_name x = uf_name y -> x = y).
  { clear. induction l as [|d l IH]; intros Hnd Hx Hy E; [destruct Hx|]. inversion Hnd as [|? ? Hn Hnd']; subst.
    destruct Hx as [->|Hx], Hy as [->|Hy]; auto.
    - exfalso. apply Hn. rewrite E. now apply in_map.
    - exfalso. apply Hn. rewrite <- E. now apply in_map. }
  apply (G l Hnd Hx Hy). congruence.
Qed.

(* acceptance of a mapM does not depend on the order; the outputs are permuted *)
Lemma mapM_perm {A B} (f : A -> cres B) l l' : Permutation l l' ->
  match mapM f l, mapM f l' with
  | COk r, COk r' => Permutation r r'
  | COk _, _ | _, COk _ => False
  | _, _ => True
  end.
Proof.
  induction 1 as [|x l l' _ IH|x y l|l1 l2 l3 _ IH1 _ IH2]; cbn [mapM].
  - constructor.
  - destruct (f x); cbn [cbind]; auto. destruct (mapM f l), (mapM f l'); cbn [cbind]; auto; try (now constructor).
  - destruct (f x), (f y); cbn [cbind]; auto; destruct (mapM f l); cbn [cbind]; auto; try apply perm_swap.
  - destruct (mapM f l1), (mapM f l2), (mapM f l3); auto; try contradiction. eapply Permutation_trans; eassumption.
Qed.

Lemma mapM_ext {A B} (f g : A -> cres B) l : (forall x, In x l -> f x = g x) -> mapM f l = mapM g l.
Proof.
  induction l as [|x l IH]; intro H; cbn [mapM]; [reflexivity|]. rewrite (H x) by now left.
  rewrite IH; [reflexivity|]. intros; apply H; now right.
Qed.

Lemma check_struct_def_eq sn en sn' en' sd : (forall n, memL n sn' = memL n sn) -> (forall n, memL n en' = memL n en) ->
  check_struct_def sn' en' sd = check_struct_def sn en sd.
Proof.
  intros H1 H2. unfold check_struct_def. f_equal. generalize (@nil (list N)).
  induction (us_fields sd) as [|[n t] fs IH]; intros seen; [reflexivity|].
  rewrite (as_concrete_type_eq sn en sn' en' H1 H2). rewrite IH. reflexivity.
Qed.

Lemma check_enum_def_eq sn en sn' en' ed : (forall n, memL n sn' = memL n sn) -> (forall n, memL n en' = memL n en) ->
  check_enum_def sn' en' ed = check_enum_def sn en ed.
Proof.
  intros H1 H2. unfold check_enum_def. f_equal. generalize (@nil (list N)).
  induction (ue_variants ed) as [|v vs IH]; intros seen; [reflexivity|].
  rewrite IH. destruct v; [reflexivity|].
  rewrite (mapM_ext (as_concrete_type sn' en') (as_concrete_type sn en)); [reflexivity|].
  intros; apply as_concrete_type_eq; assumption.
Qed.

Lemma contains_type_def_eq structs enums structs' enums' target :
  (forall n, assocL n structs' = assocL n structs) -> (forall n, assocL n enums' = assocL n enums) ->
  forall f visited ty, contains_type_def f structs' enums' target visited ty = contains_type_def f structs enums target visited ty.
Proof.
  intros H1 H2. induction f as [|f IH]; intros visited ty; [reflexivity|]. cbn [contains_type_def].
  assert (Hany : forall tys visited,
    (fix go (tys : list cty) (visited : list (list N)) : cres (bool * list (list N)) :=
          match tys with
          | [] => COk (false, visited)
          | t :: r => do r1 <- contains_type_def f structs' enums' target visited t; if fst r1 then COk r1 else go r (snd r1)
          end) tys visited =
    (fix go (tys : list cty) (visited : list (list N)) : cres (bool * list (list N)) :=
          match tys with
          | [] => COk (false, visited)
          | t :: r => do r1 <- contains_type_def f structs enums target visited t; if fst r1 then COk r1 else go r (snd r1)
          end) tys visited).
  { induction tys as [|t tys IHt]; intros v; [reflexivity|]. rewrite IH.
    destruct (contains_type_def f structs enums target v t) as [r1| | |]; cbn [cbind]; try reflexivity.
    destruct (fst r1); [reflexivity|apply IHt]. }
  cbv zeta. destruct ty; try reflexivity; try apply Hany; try apply IH.
  - rewrite H1, H2. destruct (memL name visited); [reflexivity|apply Hany].
  - rewrite H1, H2. destruct (memL name visited); [reflexivity|apply Hany].
Qed.

(* ================================================================ part 3: whole programs *)

From GV Require Import Check.PermSort Check.PermExh.

(* acceptance-equivalence of two results *)
Definition rel2 {A B} (X : A -> B -> Prop) (r : cres A) (r' : cres B) : Prop :=
  match r, r' with
  | COk a, COk a' => X a a'
  | COk _, _ | _, COk _ => False
  | _, _ => True
  end.

Lemma rres_rel2 {A} (X : A -> A -> Prop) r r' : rres X r r' -> rel2 X r r'.
Proof. destruct r, r'; cbn [rres rel2]; auto. Qed.

Lemma pub_loop_D_eq intern f D D' : (forall st fd, check_fn intern f D' st fd = check_fn intern f D st fd) ->
  forall fns st, pub_loop_fn intern f D' fns st = pub_loop_fn intern f D fns st.
Proof.
  intro H. induction fns as [|fd fns IH]; intro st; cbn [pub_loop_fn]; [reflexivity|].
  destruct (uf_pub fd); [|apply IH]. destruct (uf_params fd); [reflexivity|]. rewrite H.
  destruct (check_fn intern f D st fd); cbn [cbind]; try reflexivity. apply IH.
Qed.

Lemma check_fn_frame intern f D st fd r : check_fn intern f D st fd = COk r ->
  st_env (snd r) = st_env st /\ st_checking (snd r) = st_checking st.
Proof.
  intro H. split; [exact (proj2 (proj2 (proj2 (proj2 (check_env intern f D)))) st fd r H)|].
  destruct f as [|f]; [discriminate H|]. cbn [check_fn] in H.
  destruct (memL _ _); [discriminate H|]. cbv zeta in H.
  apply cbind_ok in H. destruct H as [rp [_ H]]. apply cbind_ok in H. destruct H as [[[body bty] st1] [_ H]].
  cbv beta iota in H. apply cbind_ok in H. destruct H as [rt [_ H]]. apply cbind_ok in H. destruct H as [b' [_ H]].
  injection H as <-. reflexivity.
Qed.

Definition tp_rel (T T' : tprogram) : Prop :=
  tp_consts T = tp_consts T' /\ Permutation (tp_structs T) (tp_structs T') /\ Permutation (tp_enums T) (tp_enums T') /\
  (forall n, assocL n (tp_fns T) = assocL n (tp_fns T')) /\
  NoDup (map fst (tp_fns T)) /\ NoDup (map fst (tp_fns T')) /\
  NoDup (map fst (tp_structs T)) /\ NoDup (map fst (tp_enums T)) /\ tp_main T = tp_main T'.

Section PermDefs.
Variable intern : list N -> N.
Hypothesis intern_inj : forall a b, intern a = intern b -> a = b.
Variables P Q : uprogram.
Hypothesis Hfns : Permutation (up_fns P) (up_fns Q).
Hypothesis Hstructs : Permutation (up_structs P) (up_structs Q).
Hypothesis Henums : Permutation (up_enums P) (up_enums Q).
Hypothesis ND_fns : NoDup (map uf_name (up_fns P)).
Hypothesis ND_structs : NoDup (map us_name (up_structs P)).
Hypothesis ND_enums : NoDup (map ue_name (up_enums P)).

Lemma perm_defs consts structs enums :
  mapM (check_struct_def (map us_name (up_structs P)) (map ue_name (up_enums P))) (up_structs P) = COk structs ->
  mapM (check_enum_def (map us_name (up_structs P)) (map ue_name (up_enums P))) (up_enums P) = COk enums ->
  exists structs' enums',
    mapM (check_struct_def (map us_name (up_structs Q)) (map ue_name (up_enums Q))) (up_structs Q) = COk structs' /\
    mapM (check_enum_def (map us_name (up_structs Q)) (map ue_name (up_enums Q))) (up_enums Q) = COk enums' /\
    Permutation structs structs' /\ Permutation enums enums' /\
    NoDup (map fst structs) /\ NoDup (map fst enums) /\
    (forall F x, rec_check F structs' enums' x = rec_check F structs enums x) /\
    (forall F st fd, check_fn intern F (prog_defs Q consts structs' enums') st fd =
                     check_fn intern F (prog_defs P consts structs enums) st fd).
Proof.
  intros Es Ee.
  assert (Msn : forall n, memL n (map us_name (up_structs Q)) = memL n (map us_name (up_structs P)))
    by (intro n; symmetry; apply memL_perm, Permutation_map, Hstructs).
  assert (Men : forall n, memL n (map ue_name (up_enums Q)) = memL n (map ue_name (up_enums P)))
    by (intro n; symmetry; apply memL_perm, Permutation_map, Henums).
  pose proof (mapM_perm (check_struct_def (map us_name (up_structs P)) (map ue_name (up_enums P))) _ _ Hstructs) as Ps.
  rewrite Es in Ps.
  rewrite <- (mapM_ext (check_struct_def (map us_name (up_structs Q)) (map ue_name (up_enums Q)))
                       (check_struct_def (map us_name (up_structs P)) (map ue_name (up_enums P)))) in Ps
    by (intros; apply check_struct_def_eq; assumption).
  destruct (mapM _ (up_structs Q)) as [structs'| | |]; try contradiction.
  pose proof (mapM_perm (check_enum_def (map us_name (up_structs P)) (map ue_name (up_enums P))) _ _ Henums) as Pe.
  rewrite Ee in Pe.
  rewrite <- (mapM_ext (check_enum_def (map us_name (up_structs Q)) (map ue_name (up_enums Q)))
                       (check_enum_def (map us_name (up_structs P)) (map ue_name (up_enums P)))) in Pe
    by (intros; apply check_enum_def_eq; assumption).
  destruct (mapM _ (up_enums Q)) as [enums'| | |]; try contradiction.
  assert (NDs : NoDup (map fst structs))
    by (rewrite (mapM_names _ us_name (fun x r => struct_def_name _ _ x r) _ _ Es); exact ND_structs).
  assert (NDe : NoDup (map fst enums))
    by (rewrite (mapM_names _ ue_name (fun x r => enum_def_name _ _ x r) _ _ Ee); exact ND_enums).
  assert (As : forall n, assocL n structs' = assocL n structs) by (intro n; symmetry; apply assocL_perm; assumption).
  assert (Ae : forall n, assocL n enums' = assocL n enums) by (intro n; symmetry; apply assocL_perm; assumption).
  exists structs', enums'. do 6 (split; [first [reflexivity|assumption]|]). split.
  - intros F x. unfold rec_check. rewrite As. cbv zeta.
    rewrite (contains_type_def_eq structs enums structs' enums' x As Ae). reflexivity.
  - apply check_fn_defs_eq; cbn [prog_defs d_consts d_structs d_enums d_fns d_struct_names d_enum_names]; try assumption.
    + reflexivity.
    + intro id. symmetry. apply find_fn_perm; assumption.
    + intros. symmetry. apply check_exhaustiveness_perm; assumption.
Qed.
End PermDefs.

Section GoSpec.
Variable intern : list N -> N.
Variable fuel : nat.
Variable D : defs.

Definition can (fd : ufndef) : cres (tfndef * cstate) := check_fn intern fuel D (mkSt env_new [] []) fd.

Definition pubfind (n : list N) (fns : list ufndef) : option ufndef :=
  find (fun fd => uf_pub fd && list_eqb (uf_name fd) n) fns.

Definition lookup_spec (fns : list ufndef) (T : list (list N * tfndef)) (n : list N) : option tfndef :=
  match pubfind n fns with
  | Some fd => match can fd with COk r => Some (fst r) | _ => None end
  | None => assocL n T
  end.

Lemma assocL_filter_neq {A} k k' (T : list (list N * A)) : list_eqb k k' = false ->
  assocL k (filter (fun nd => negb (list_eqb (fst nd) k')) T) = assocL k T.
Proof.
  intro H. induction T as [|[k0 v] T IH]; [reflexivity|]. cbn [filter fst].
  destruct (list_eqb k0 k') eqn:E; cbn [negb assocL].
  - apply list_eqb_eq in E. subst k0. rewrite H. exact IH.
  - destruct (list_eqb k k0); [reflexivity|exact IH].
Qed.

Lemma filter_keys_NoDup {A} p (T : list (list N * A)) : NoDup (map fst T) -> NoDup (map fst (filter p T)).
Proof.
  induction T as [|[k v] T IH]; intro H; [constructor|]. inversion H as [|? ? Hn Hnd]; subst. cbn [filter].
  destruct (p (k, v)); [|apply IH; exact Hnd]. cbn [map fst]. constructor; [|apply IH; exact Hnd].
  intro Hin. apply Hn. apply in_map_iff in Hin. destruct Hin as (x & <- & Hx). apply filter_In in Hx. apply in_map. apply Hx.
Qed.

Lemma filter_removes {A} k (T : list (list N * A)) : ~ In k (map fst (filter (fun nd => negb (list_eqb (fst nd) k)) T)).
Proof.
  intro Hin. apply in_map_iff in Hin. destruct Hin as ([k0 v] & E & Hx). cbn [fst] in E. subst k0.
  apply filter_In in Hx. destruct Hx as [_ Hx]. cbn [fst] in Hx. rewrite list_eqb_refl in Hx. discriminate.
Qed.

Lemma list_eqb_sym a b : list_eqb a b = list_eqb b a.
Proof.
  destruct (list_eqb a b) eqn:E1, (list_eqb b a) eqn:E2; try reflexivity.
  - apply list_eqb_eq in E1. subst. rewrite list_eqb_refl in E2. discriminate.
  - apply list_eqb_eq in E2. subst. rewrite list_eqb_refl in E1. discriminate.
Qed.

Lemma pubfind_notin n fns : ~ In n (map uf_name fns) -> pubfind n fns = None.
Proof.
  unfold pubfind. induction fns as [|fd fns IH]; intro H; [reflexivity|]. cbn [find].
  destruct (list_eqb (uf_name fd) n) eqn:E.
  - apply list_eqb_eq in E. exfalso. apply H. left. exact E.
  - rewrite andb_false_r. apply IH. intro Hin. apply H. now right.
Qed.

Lemma go_spec : forall fns T st', NoDup (map uf_name fns) -> (forall fd, In fd fns -> nocall_fn fd) ->
  pub_loop_fn intern fuel D fns (mkSt env_new T []) = COk st' ->
  forall n, assocL n (st_typed st') = lookup_spec fns T n.
Proof.
  induction fns as [|fd fns IH]; intros T st' Hnd Hnc H n; cbn [pub_loop_fn] in H.
  - injection H as <-. reflexivity.
  - inversion Hnd as [|? ? Hn Hnd']; subst.
    assert (Hnc' : forall fd0, In fd0 fns -> nocall_fn fd0) by (intros; apply Hnc; now right).
    unfold lookup_spec, pubfind. cbn [find].
    destruct (uf_pub fd); cbn [andb]; [|exact (IH T st' Hnd' Hnc' H n)].
    destruct (uf_params fd); [discriminate H|].
    pose proof (nocall_indep intern D D eq_refl (fun _ => eq_refl) (fun _ => eq_refl) (fun _ => eq_refl) (fun _ => eq_refl)
                  (fun _ => eq_refl) (fun _ _ => eq_refl) fuel (mkSt env_new [] []) (mkSt env_new T []) fd
                  (Hnc fd (or_introl eq_refl)) eq_refl eq_refl) as Hi.
    fold (can fd) in Hi.
    destruct (check_fn intern fuel D (mkSt env_new T []) fd) as [r'| | |] eqn:Erun; cbn [cbind] in H; try discriminate H.
    destruct (can fd) as [r| | |] eqn:Ecan; cbn [rres] in Hi; try contradiction. destruct Hi as [Hfst Hty].
    destruct (check_fn_frame _ _ _ _ _ _ Erun) as [Eg Ec]. rewrite Eg, Ec, Hty in H. cbn [st_env st_typed st_checking] in H.
    rewrite (IH _ st' Hnd' Hnc' H n). unfold lookup_spec, typed_insert. fold (pubfind n fns).
    destruct (list_eqb (uf_name fd) n) eqn:En.
    + apply list_eqb_eq in En. subst n. rewrite (pubfind_notin _ _ Hn), Ecan. cbn [assocL]. rewrite list_eqb_refl, Hfst. reflexivity.
    + destruct (pubfind n fns); [reflexivity|]. cbn [assocL]. rewrite list_eqb_sym, En.
      apply assocL_filter_neq. rewrite list_eqb_sym. exact En.
Qed.
End GoSpec.

(* when both orders are accepted the typed programs agree: same consts, the same struct / enum
   definitions up to order, and the SAME typed function for every name *)
Theorem check_perm_typed_nocalls intern P Q fuel TP TQ :
  (forall a b, intern a = intern b -> a = b) ->
  up_consts Q = up_consts P -> up_main Q = up_main P ->
  Permutation (up_fns P) (up_fns Q) -> Permutation (up_structs P) (up_structs Q) -> Permutation (up_enums P) (up_enums Q) ->
  NoDup (map uf_name (up_fns P)) -> NoDup (map us_name (up_structs P)) -> NoDup (map ue_name (up_enums P)) ->
  (forall fd, In fd (up_fns P) -> nocall_fn fd) ->
  check_program_t intern fuel P = COk TP -> check_program_t intern fuel Q = COk TQ ->
  tp_consts TP = tp_consts TQ /\ Permutation (tp_structs TP) (tp_structs TQ) /\ Permutation (tp_enums TP) (tp_enums TQ) /\
  (forall name, assocL name (tp_fns TP) = assocL name (tp_fns TQ)) /\ tp_main TP = tp_main TQ.
Proof.
  intros Hi Hconsts Hmain Hfns Hstructs Henums ND_fns ND_structs ND_enums Hnocall EP EQ.
  destruct (check_program_t_ok _ _ _ _ EP) as (consts & structs & enums & ru & stP & C1 & S1 & E1 & _ & G1 & -> & _).
  destruct (check_program_t_ok _ _ _ _ EQ) as (consts' & structs' & enums' & ru' & stQ & C2 & S2 & E2 & _ & G2 & -> & _).
  rewrite Hconsts, C1 in C2. injection C2 as <-.
  destruct (perm_defs intern Hi P Q Hfns Hstructs Henums ND_fns ND_structs ND_enums consts structs enums S1 E1)
    as (s' & e' & S2' & E2' & Ps & Pe & _ & _ & _ & HD).
  rewrite S2' in S2. injection S2 as <-. rewrite E2' in E2. injection E2 as <-.
  rewrite (pub_loop_D_eq intern fuel _ _ (HD fuel)) in G2.
  cbn [tp_consts tp_structs tp_enums tp_fns tp_main].
  split; [reflexivity|]. split; [exact Ps|]. split; [exact Pe|]. split; [|symmetry; exact Hmain].
  intro n. rewrite (go_spec intern fuel _ (up_fns P) [] stP ND_fns Hnocall G1 n).
  rewrite (go_spec intern fuel _ (up_fns Q) [] stQ) with (3 := G2).
  - unfold lookup_spec, pubfind. rewrite <- (find_perm_unique _ _ _ Hfns); [reflexivity|].
    intros x y Hx Hy Ex Ey. apply andb_true_iff in Ex, Ey. destruct Ex as [_ Ex], Ey as [_ Ey].
    apply list_eqb_eq in Ex, Ey. apply (fn_name_unique x y _ ND_fns Hx Hy). congruence.
  - eapply Permutation_NoDup; [apply Permutation_map; exact Hfns|exact ND_fns].
  - intros fd Hin. apply Hnocall. eapply Permutation_in; [apply Permutation_sym; exact Hfns|exact Hin].
Qed.

Print Assumptions check_rel.
Print Assumptions check_perm_typed_nocalls.

(* ================================================================ examples (vm_compute) *)

From Coq Require Import String.
From GV Require Check.InferExamples.

Module PermExamples.
Local Open Scope string_scope.

Definition parse_text (txt : string) : option uprogram :=
  match scan_text (codes txt) with
  | Ok (STokens ts) =>
      match parse_program_text (fuel_for_tokens ts) ts with
      | POk up _ => Some (uprogram_of_parsed up (codes "main"))
      | _ => None
      end
  | _ => None
  end.

(* the same program with its three maps walked in the opposite order *)
Definition reversed (P : uprogram) : uprogram :=
  mkUProgram (up_consts P) (rev (up_structs P)) (rev (up_enums P)) (rev (up_fns P)) (up_main P).

Definition both (txt : string) : option (cres Ast.program * cres Ast.program) :=
  match parse_text txt with
  | Some P => Some (check_program InferExamples.ex_intern 200 P, check_program InferExamples.ex_intern 200 (reversed P))
  | None => None
  end.
Definition same_export (txt : string) : Prop :=
  match both txt with Some (COk A, COk B) => A = B | _ => False end.
Definition codes_of (txt : string) : option (option N * option N) :=
  match both txt with
  | Some (a, b) => Some (InferExamples.code_of a, InferExamples.code_of b)
  | None => None
  end.

(* without calls: two pub functions, a struct and an enum (an instance of the theorems) *)
Definition t_nocalls := "
  struct S { a: u8, b: bool }
  enum E { A, B(u8) }
  pub fn first(x: u8) -> u8 { let s = S { a: x, b: true }; match E::B(s.a) { E::A => 0, E::B(y) => y } }
  pub fn main(x: u8, y: u8) -> bool { x < y }".
Example nocalls_same : same_export t_nocalls.
Proof. vm_compute. reflexivity. Qed.

(* WITH calls (beyond the theorems of this file): callees checked on demand and memoised, a function
   that is both called and pub, a chain of calls.  The EXPORTED programs are equal. *)
Definition t_calls := "
  fn inc(a: u8) -> u8 { a + 1 }
  fn twice(a: u8) -> u8 { inc(inc(a)) }
  pub fn other(y: u8) -> u8 { inc(y) }
  pub fn main(x: u8) -> u8 { twice(x) + other(x) }".
Example calls_same : same_export t_calls.
Proof. vm_compute. reflexivity. Qed.

(* rejected in both orders, same code: mutual recursion, an unused function *)
Example recursion_both : codes_of "
  fn f(a: u8) -> u8 { g(a) }
  fn g(a: u8) -> u8 { f(a) }
  pub fn main(x: u8) -> u8 { f(x) }" = Some (Some E_RecursiveFnDef, Some E_RecursiveFnDef).
Proof. vm_compute. reflexivity. Qed.
Example unused_both : codes_of "
  fn f(a: u8) -> u8 { a }
  pub fn main(x: u8) -> u8 { x }" = Some (Some E_UnusedFn, Some E_UnusedFn).
Proof. vm_compute. reflexivity. Qed.

(* rejected in both orders with DIFFERENT codes: the model stops at the first error, and which
   error is first depends on the order (check.rs reports both; not an acceptance difference) *)
Example first_error_depends_on_order : codes_of "
  pub fn a(x: u8) -> bool { x }
  pub fn b() -> u8 { 1u8 }" = Some (Some E_UnexpectedType, Some E_PubFnWithoutParams).
Proof. vm_compute. reflexivity. Qed.

(* FUEL can make the order visible: a callee reached through a call is checked with less fuel
   than in the pub-fn loop (CNoFuel is never a Rust behaviour) *)
Definition fuel_visible (txt : string) (fuel : nat) : option (bool * bool) :=
  match parse_text txt with
  | Some P => Some (is_ok (check_program_t InferExamples.ex_intern fuel P),
                    is_ok (check_program_t InferExamples.ex_intern fuel (reversed P)))
  | None => None
  end.
Definition t_fuel := "
  pub fn g(a: u8) -> u8 { (((a + 1) + 1) + 1) + 1 }
  pub fn main(x: u8) -> u8 { g(x) }".
Example fuel_makes_order_visible :
  fuel_visible t_fuel 8 = Some (true, false) /\ fuel_visible t_fuel 12 = Some (true, true).
Proof. vm_compute. split; reflexivity. Qed.
End PermExamples.

(* ================================================================ the exported program *)

Section ExportExt.
Variable intern : list N -> N.
Variables enums enums' : list (list N * list (list N * option (list cty))).
Hypothesis Hen : forall e, assocL e enums' = assocL e enums.

Lemma variant_index_ext e v : variant_index enums' e v = variant_index enums e v.
Proof. unfold variant_index. rewrite Hen. reflexivity. Qed.

Lemma export_pattern_ext : forall p, export_pattern intern enums' p = export_pattern intern enums p.
Proof.
  fix IH 1. intros [pi t]. destruct pi; cbn [export_pattern]; try reflexivity.
  - do 2 f_equal. induction ps as [|y0 ys IHys]; cbn [map]; [reflexivity|]. rewrite IH, IHys. reflexivity.
  - do 2 f_equal. induction fields as [|[n0 q] ys IHys]; cbn [map fst snd]; [reflexivity|]. rewrite IH, IHys. reflexivity.
  - rewrite variant_index_ext. reflexivity.
  - rewrite variant_index_ext. do 2 f_equal. induction ps as [|y0 ys IHys]; cbn [map]; [reflexivity|]. rewrite IH, IHys. reflexivity.
Qed.

Lemma export_expr_ext : forall e, export_expr intern enums' e = export_expr intern enums e
with export_stmt_ext : forall s, export_stmt intern enums' s = export_stmt intern enums s
with export_accessor_ext : forall a, export_accessor intern enums' a = export_accessor intern enums a.
Proof.
  - intros [i t]. destruct i; cbn [export_expr]; try reflexivity.
    + do 2 f_equal. induction es as [|y0 ys IHys]; cbn [map]; [reflexivity|]. rewrite export_expr_ext, IHys. reflexivity.
    + rewrite export_expr_ext. reflexivity.
    + rewrite (export_expr_ext a), (export_expr_ext i). reflexivity.
    + do 2 f_equal. induction es as [|y0 ys IHys]; cbn [map]; [reflexivity|]. rewrite export_expr_ext, IHys. reflexivity.
    + rewrite export_expr_ext. reflexivity.
    + rewrite export_expr_ext. reflexivity.
    + do 2 f_equal. induction fields as [|[n0 q] ys IHys]; cbn [map fst snd]; [reflexivity|]. rewrite export_expr_ext, IHys. reflexivity.
    + rewrite variant_index_ext. do 2 f_equal. destruct args as [es|]; [|reflexivity].
      induction es as [|y0 ys IHys]; cbn [map]; [reflexivity|]. rewrite export_expr_ext, IHys. reflexivity.
    + rewrite (export_expr_ext e). do 2 f_equal.
      induction arms as [|[p0 a0] ys IHys]; cbn [map fst snd]; [reflexivity|]. rewrite export_pattern_ext, export_expr_ext, IHys. reflexivity.
    + destruct o; rewrite export_expr_ext; reflexivity.
    + rewrite (export_expr_ext l), (export_expr_ext r). reflexivity.
    + do 2 f_equal. induction b as [|y0 ys IHys]; cbn [map]; [reflexivity|]. rewrite export_stmt_ext, IHys. reflexivity.
    + do 2 f_equal. induction args as [|y0 ys IHys]; cbn [map]; [reflexivity|]. rewrite export_expr_ext, IHys. reflexivity.
    + rewrite (export_expr_ext c), (export_expr_ext t0), (export_expr_ext e). reflexivity.
    + rewrite export_expr_ext. reflexivity.
  - intros s. destruct s; cbn [export_stmt].
    + rewrite export_pattern_ext, export_expr_ext. reflexivity.
    + rewrite export_expr_ext. reflexivity.
    + rewrite export_expr_ext. do 2 f_equal.
      induction accs as [|y0 ys IHys]; cbn [map]; [reflexivity|]. rewrite export_accessor_ext, IHys. reflexivity.
    + rewrite export_pattern_ext, export_expr_ext. do 2 f_equal.
      induction body as [|y0 ys IHys]; cbn [map]; [reflexivity|]. rewrite export_stmt_ext, IHys. reflexivity.
    + rewrite export_expr_ext. reflexivity.
  - intros a. destruct a; cbn [export_accessor]; try reflexivity. rewrite export_expr_ext. reflexivity.
Qed.
End ExportExt.

Lemma assocL_eq_perm {A} : forall (l l' : list (list N * A)), NoDup (map fst l) -> NoDup (map fst l') ->
  (forall k, assocL k l = assocL k l') -> Permutation l l'.
Proof.
  induction l as [|[k v] l1 IH]; intros l' N1 N2 H.
  - destruct l' as [|[k v] l']; [constructor|]. specialize (H k). cbn [assocL] in H. rewrite list_eqb_refl in H. discriminate.
  - pose proof (H k) as Hk. cbn [assocL] in Hk. rewrite list_eqb_refl in Hk. symmetry in Hk. apply assocL_In in Hk.
    apply in_split in Hk. destruct Hk as (a & b & ->).
    assert (Pm : Permutation (a ++ (k, v) :: b) ((k, v) :: a ++ b)) by (apply Permutation_sym, Permutation_middle).
    assert (N2' : NoDup (map fst ((k, v) :: a ++ b))) by (eapply Permutation_NoDup; [apply Permutation_map; exact Pm|exact N2]).
    eapply Permutation_trans; [|apply Permutation_sym; exact Pm]. constructor.
    inversion N1 as [|? ? Hn1 N1']; subst. cbn [map fst] in N2'. inversion N2' as [|? ? Hn2 N2'']; subst.
    apply IH; [assumption|assumption|]. intro n.
    pose proof (H n) as Hn. rewrite (assocL_perm _ _ Pm N2 n) in Hn. cbn [assocL] in Hn.
    destruct (list_eqb n k) eqn:E; [|exact Hn].
    apply list_eqb_eq in E. subst n. rewrite (assocL_notin _ _ Hn1), (assocL_notin _ _ Hn2). reflexivity.
Qed.

Lemma export_program_rel intern T T' : tp_rel T T' -> export_program intern T = export_program intern T'.
Proof.
  intros (Hc & Ps & Pe & Hl & N1 & N2 & Ns & Ne & Hm). unfold export_program.
  assert (Hen : forall e, assocL e (tp_enums T') = assocL e (tp_enums T)) by (intro e; symmetry; apply assocL_perm; assumption).
  rewrite <- (sort_fields_perm _ _ Ps Ns), <- (sort_fields_perm _ _ Pe Ne).
  rewrite <- (sort_fields_perm _ _ (assocL_eq_perm _ _ N1 N2 Hl) N1). rewrite <- Hc, <- Hm. f_equal.
  - apply map_ext. intros nd. unfold export_fn. f_equal. apply map_ext. intro s. symmetry. apply export_stmt_ext. exact Hen.
  - apply map_ext. intros c. f_equal. symmetry. apply export_expr_ext. exact Hen.
Qed.
