(* C07 for the type checker, part 5: the depth of the types the checker infers.
   If all types in the environment are [wf D B] (unfold within depth B, every named type
   defined, no empty enum, arrays counted), the result of check_expr on e is [wf D (B + agg_e e)],
   agg_e = number of aggregate-literal nodes (array / tuple literals, repeats, ranges); a statement
   raises the level of the environment by agg_s. *)
From Coq Require Import Lia Bool.
From GV Require Import Base.Util Base.ListFacts Front.Scan Front.ParseExpr Check.UAst Check.Infer Check.InferProofs
  Check.InferTotal Check.InferFuel.
Local Open Scope nat_scope.

(* like InferFuel4.ctok, but closed under taking the element type of an array *)
Fixpoint wf (D : defs) (d : nat) (t : cty) {struct d} : bool :=
  match d with
  | O => false
  | S d' =>
      match t with
      | CArray el _ => wf D d' el
      | CTuple ts => forallb (wf D d') ts
      | CStruct n => match assocL n (d_structs D) with
                     | Some fts => forallb (fun ft : list N * cty => wf D d' (snd ft)) fts
                     | None => false
                     end
      | CEnum n => match assocL n (d_enums D) with
                   | Some vs => match vs with [] => false | _ => true end &&
                                forallb (fun v : list N * option (list cty) =>
                                           match snd v with Some ts => forallb (wf D d') ts | None => true end) vs
                   | None => false
                   end
      | _ => true
      end
  end.

Lemma forallb_impl {A} (p q : A -> bool) l : (forall x, p x = true -> q x = true) -> forallb p l = true -> forallb q l = true.
Proof. intros H Hp. apply forallb_forall. intros x Hx. apply H. exact (proj1 (forallb_forall p l) Hp x Hx). Qed.

Lemma wf_S D : forall d t, wf D d t = true -> wf D (S d) t = true.
Proof.
  induction d as [|d IH]; intros t H; [discriminate|].
  cbn [wf] in H. change (wf D (S (S d)) t) with
    (match t with
     | CArray el _ => wf D (S d) el
     | CTuple ts => forallb (wf D (S d)) ts
     | CStruct n => match assocL n (d_structs D) with
                    | Some fts => forallb (fun ft : list N * cty => wf D (S d) (snd ft)) fts | None => false end
     | CEnum n => match assocL n (d_enums D) with
                  | Some vs => match vs with [] => false | _ => true end &&
                               forallb (fun v : list N * option (list cty) =>
                                          match snd v with Some ts => forallb (wf D (S d)) ts | None => true end) vs
                  | None => false end
     | _ => true
     end).
  destruct t as [|u|s|el n|ts|n|n]; try reflexivity.
  - exact (IH _ H).
  - exact (forallb_impl _ _ _ IH H).
  - destruct (assocL n (d_structs D)); [|discriminate]. eapply forallb_impl; [|exact H]. intros x Hx. exact (IH _ Hx).
  - destruct (assocL n (d_enums D)); [|discriminate]. apply andb_true_iff in H. destruct H as [H1 H2]. rewrite H1. cbn [andb].
    eapply forallb_impl; [|exact H2]. intros x Hx. cbv beta in Hx |- *. destruct (snd x); [|reflexivity]. exact (forallb_impl _ _ _ IH Hx).
Qed.

Lemma wf_le D d d' t : d <= d' -> wf D d t = true -> wf D d' t = true.
Proof. induction 1 as [|m Hle IH]; [auto|]. intro Hw. apply wf_S. auto. Qed.

Lemma wf_pos D d t : wf D d t = true -> 1 <= d.
Proof. destruct d; [discriminate|lia]. Qed.

(* components *)
Lemma wf_arr D d el n : wf D d (CArray el n) = true -> wf D d el = true.
Proof. destruct d; [discriminate|]. intro H. apply wf_S. exact H. Qed.
Lemma wf_tup D d ts t : wf D d (CTuple ts) = true -> In t ts -> wf D d t = true.
Proof. destruct d; [discriminate|]. intros H Hin. apply wf_S. exact (proj1 (forallb_forall _ _) H t Hin). Qed.
Lemma wf_struct D d n def f t : wf D d (CStruct n) = true -> assocL n (d_structs D) = Some def -> assocL f def = Some t -> wf D d t = true.
Proof.
  destruct d; [discriminate|]. cbn [wf]. intros H Ha Hf. rewrite Ha in H. apply wf_S.
  exact (proj1 (forallb_forall _ _) H (f, t) (assocL_In _ _ _ Hf)).
Qed.
Lemma wf_enum D d n vs v ts t : wf D d (CEnum n) = true -> assocL n (d_enums D) = Some vs -> assocL v vs = Some (Some ts) -> In t ts -> wf D d t = true.
Proof.
  destruct d; [discriminate|]. cbn [wf]. intros H Ha Hv Hin. rewrite Ha in H. apply andb_true_iff in H. destruct H as [_ H]. apply wf_S.
  pose proof (proj1 (forallb_forall _ _) H (v, Some ts) (assocL_In _ _ _ Hv)) as Hx. cbn [snd] in Hx.
  exact (proj1 (forallb_forall _ _) Hx t Hin).
Qed.
Lemma wf_num D d t : 1 <= d -> match t with CBool | CUnsigned _ | CSigned _ => True | _ => False end -> wf D d t = true.
Proof. destruct d; [lia|]. destruct t; intros _ H; try destruct H; reflexivity. Qed.
Lemma wf_unit D d : 1 <= d -> wf D d unit_cty = true.
Proof. destruct d; [lia|]. reflexivity. Qed.

(* the number of aggregate-literal nodes *)
Fixpoint agg_e (e : xexpr) : nat :=
  match e with
  | XArrayLiteral es | XTupleLiteral es => S (list_sum (map agg_e es))
  | XArrayRepeatLiteral e _ => S (agg_e e)
  | XRange _ _ _ => 1
  | XArrayAccess a i => agg_e a + agg_e i
  | XTupleAccess e _ | XStructAccess e _ | XUnaryOp _ e | XCast _ e => agg_e e
  | XStructLiteral _ fs => list_sum (map (fun f => agg_e (snd f)) fs)
  | XEnumLiteral _ _ (Some es) | XFnCall _ es => list_sum (map agg_e es)
  | XMatch e arms => agg_e e + list_sum (map (fun a => agg_e (snd a)) arms)
  | XOp _ l r => agg_e l + agg_e r
  | XBlock b => list_sum (map agg_s b)
  | XIf c a b => agg_e c + agg_e a + agg_e b
  | _ => 0
  end
with agg_s (s : xstmt) : nat :=
  match s with
  | XSLet _ _ e | XSLetMut _ _ e | XSExpr e => agg_e e
  | XSVarAssign _ accs e => list_sum (map agg_a accs) + agg_e e
  | XSForEach _ e body => agg_e e + list_sum (map agg_s body)
  end
with agg_a (a : xaccessor) : nat :=
  match a with XAArray i => agg_e i | _ => 0 end.

Lemma in_list_sum {A} (g : A -> nat) l x : In x l -> g x <= list_sum (map g l).
Proof.
  induction l as [|y l IH]; [intros []|]. change (list_sum (map g (y :: l))) with (g y + list_sum (map g l)).
  intros [->|H]; [lia|]. specialize (IH H). lia.
Qed.

Section Depth.
Variable D : defs.
Variable B0 : nat.

(* the declared types that occur (annotations, casts, literals of named types) are wf at B0 *)
Definition ann_t (u : utype) : bool := match concrete_of D u with COk t => wf D B0 t | _ => true end.
Definition ann_o (o : option utype) : bool := match o with Some u => ann_t u | None => true end.

Fixpoint ann_e (e : xexpr) : bool :=
  match e with
  | XArrayLiteral es | XTupleLiteral es | XFnCall _ es | XJoin es => forallb ann_e es
  | XArrayRepeatLiteral e _ | XTupleAccess e _ | XStructAccess e _ | XUnaryOp _ e => ann_e e
  | XCast u e => ann_t u && ann_e e
  | XArrayAccess a i => ann_e a && ann_e i
  | XStructLiteral n fs => wf D B0 (CStruct n) && forallb (fun f => ann_e (snd f)) fs
  | XEnumLiteral n _ args => wf D B0 (CEnum n) && match args with Some es => forallb ann_e es | None => true end
  | XMatch e arms => ann_e e && forallb (fun a => ann_e (snd a)) arms
  | XOp _ l r => ann_e l && ann_e r
  | XBlock b => forallb ann_s b
  | XIf c a b => ann_e c && ann_e a && ann_e b
  | _ => true
  end
with ann_s (s : xstmt) : bool :=
  match s with
  | XSLet _ o e | XSLetMut _ o e => ann_o o && ann_e e
  | XSExpr e => ann_e e
  | XSVarAssign _ accs e => forallb ann_a accs && ann_e e
  | XSForEach _ e body => ann_e e && forallb ann_s body
  end
with ann_a (a : xaccessor) : bool :=
  match a with XAArray i => ann_e i | _ => true end.

Definition ann_fn (fd : ufndef) : bool :=
  forallb (fun p => ann_t (upa_ty p)) (uf_params fd) && ann_t (uf_ty fd) && forallb ann_s (uf_body fd).

Definition env_all (B : nat) (g : cenv) : Prop :=
  Forall (Forall (fun b : list N * (cty * bool) => wf D B (fst (snd b)) = true)) g.
Definition typed_ok (l : list (list N * tfndef)) : Prop :=
  Forall (fun nd : list N * tfndef => wf D B0 (tf_ty (snd nd)) = true) l.
Definition SInv (B : nat) (st : cstate) : Prop :=
  B0 <= B /\ env_all B (st_env st) /\ typed_ok (st_typed st).

Lemma env_all_le B B' g : B <= B' -> env_all B g -> env_all B' g.
Proof.
  intros Hle H. unfold env_all in *. eapply Forall_impl; [|exact H]. intros s Hs.
  eapply Forall_impl; [|exact Hs]. intros b Hb. exact (wf_le D _ _ _ Hle Hb).
Qed.
Lemma env_all_get B g x t m : env_all B g -> env_get g x = Some (t, m) -> wf D B t = true.
Proof.
  induction 1 as [|s g Hs Hg IH]; cbn [env_get]; [discriminate|].
  destruct (assocL x s) as [v|] eqn:Ea; [|exact IH]. intro H. inversion H; subst.
  apply assocL_In in Ea. rewrite Forall_forall in Hs. exact (Hs _ Ea).
Qed.
Lemma env_all_let B g x t m : env_all B g -> wf D B t = true -> env_all B (env_let g x t m).
Proof.
  intros H Ht. destruct g as [|s r]; cbn [env_let].
  - constructor; [|constructor]. constructor; [exact Ht|constructor].
  - inversion H; subst. constructor; [|assumption]. constructor; [exact Ht|assumption].
Qed.
Lemma env_all_push B g : env_all B g -> env_all B (env_push g).
Proof. intro H. constructor; [constructor|exact H]. Qed.
Lemma env_all_tl B g : env_all B g -> env_all B (tl g).
Proof. intro H. destruct g; [exact H|]. inversion H; assumption. Qed.
Lemma env_all_tl_eq B g g' : tl g' = tl g -> env_all B g' -> env_all B (tl g).
Proof. intros <- H. apply env_all_tl. exact H. Qed.

Lemma SInv_le B B' st : B <= B' -> SInv B st -> SInv B' st.
Proof. intros Hle (H1 & H2 & H3). split; [lia|]. split; [exact (env_all_le _ _ _ Hle H2)|exact H3]. Qed.

(* ---------------------------------------------------------------- retyping keeps wf *)
Lemma pick_elem_ty_in first tys : pick_elem_ty first tys = first \/ In (pick_elem_ty first tys) tys.
Proof.
  unfold pick_elem_ty.
  set (t1 := if is_uU first then match find (fun t => negb (cty_eqb t first)) tys with Some t => t | None => first end else first).
  assert (H1 : t1 = first \/ In t1 tys).
  { unfold t1. destruct (is_uU first); [|left; reflexivity].
    destruct (find (fun t => negb (cty_eqb t first)) tys) eqn:Ef; [|left; reflexivity]. right. exact (proj1 (find_some _ _ Ef)). }
  destruct (is_sU t1); [|exact H1].
  destruct (find (fun t => negb (cty_eqb t t1) && negb (is_uU t)) tys) eqn:Ef; [|exact H1]. right. exact (proj1 (find_some _ _ Ef)).
Qed.

Lemma unify_wf f a b a' b' t d : unify f a b = COk (a', b', t) -> wf D d (ty_of a) = true -> wf D d t = true.
Proof.
  unfold unify. intros H Hw. pose proof (wf_pos _ _ _ Hw) as Hd.
  destruct (cty_eqb (ty_of a) (ty_of b)); [inversion H; subst; exact Hw|].
  destruct (ty_of a) as [|[]|[]| | | |]; destruct (ty_of b) as [|[]|[]| | | |]; try discriminate H;
    apply cbind_ok in H; destruct H as [? [_ H]]; inversion H; subst; apply wf_num; try exact Hd; exact I.
Qed.

Lemma coc_s_ty e s e' : check_or_constrain_signed e s = COk e' -> ty_of e' = CSigned s.
Proof.
  unfold check_or_constrain_signed. destruct (_ && _ && _); [discriminate|].
  match goal with |- (if ?c then _ else _) = _ -> _ => destruct c; [discriminate|] end.
  match goal with |- (if ?c then _ else _) = _ -> _ => destruct c; [discriminate|] end.
  intro H. inversion H. apply ty_of_set_ty.
Qed.

Lemma constrain_signed_ty f e s e' : constrain_type f e (CSigned s) = COk e' -> ty_of e' = CSigned s \/ ty_of e' = ty_of e.
Proof.
  destruct f as [|f]; [discriminate|]. cbn [constrain_type]. intro H. apply cbind_ok in H. destruct H as [e1 [H1 H2]].
  inversion H2; subst; clear H2. rewrite ty_of_set_ty.
  assert (Ht : ty_of e1 = CSigned s \/ ty_of e1 = ty_of e).
  { destruct e as [i ty]. cbn [inner_of ty_of] in *.
    destruct i; try (left; exact (coc_s_ty _ _ _ H1)); try (right; inv_all; reflexivity).
    all: try (destruct u; try (left; exact (coc_s_ty _ _ _ H1))).
    all: try (destruct o; right; inv_all; reflexivity).
    destruct t; left; exact (coc_s_ty _ _ _ H1). }
  cbn [overwrite_ty]. destruct (is_uU (ty_of e1) || is_sU (ty_of e1)); [left; reflexivity|exact Ht].
Qed.

Lemma coc_s_deep_ty f e s e' : coc_signed_deep f e s = COk e' -> ty_of e' = CSigned s \/ ty_of e' = ty_of e.
Proof.
  unfold coc_signed_deep. destruct (_ && _ && _); [discriminate|]. destruct (_ && _).
  - apply constrain_signed_ty.
  - intro H. left. exact (coc_s_ty _ _ _ H).
Qed.

Lemma wf_i32 d t : wf D d t = true -> wf D d (i32_if_unspec t) = true.
Proof. intro H. unfold i32_if_unspec. destruct (_ || _); [|exact H]. apply wf_num; [exact (wf_pos _ _ _ H)|exact I]. Qed.

Lemma constrain_to_i32_wf f b b' d : constrain_to_i32 f b = COk b' -> wf D d (ty_of b) = true -> wf D d (ty_of b') = true.
Proof.
  destruct f as [|f]; [discriminate|]. cbn [constrain_to_i32]. intros H Hw.
  apply cbind_ok in H. destruct H as [b1 [H1 H]]. apply cbind_ok in H. destruct H as [b2 [H2 H]].
  inversion H; subst; clear H. rewrite ty_of_set_ty.
  assert (Hw1 : wf D d (ty_of b1) = true).
  { destruct (is_uU (ty_of b) || is_sU (ty_of b)); [|inversion H1; subst; exact Hw].
    destruct (coc_s_deep_ty _ _ _ _ H1) as [E|E]; rewrite E; [|exact Hw]. apply wf_num; [exact (wf_pos _ _ _ Hw)|exact I]. }
  assert (E2 : ty_of b2 = ty_of b1).
  { destruct (inner_of b1); try (inversion H2; reflexivity); apply cbind_ok in H2; destruct H2 as [? [_ H2]]; inversion H2; reflexivity. }
  rewrite E2. destruct d as [|d]; [discriminate|]. destruct (ty_of b1) as [| | |el n|ts| |]; try exact Hw1.
  - cbn [wf] in *. destruct d as [|d']; [discriminate|]. apply wf_i32. exact Hw1.
  - cbn [wf] in *. rewrite forallb_forall in *. intros x Hx. apply in_map_iff in Hx. destruct Hx as [y [<- Hy]].
    destruct d as [|d']; [discriminate (Hw1 _ Hy)|]. apply wf_i32. exact (Hw1 _ Hy).
Qed.

(* ---------------------------------------------------------------- patterns bind components of the type *)
Definition pat_wf_ok (p : upattern) : Prop := forall B g ty r,
  wf D B ty = true -> env_all B g -> check_pattern D g p ty = COk r -> env_all B (snd r).

Lemma fields_loop_wf fs : Forall pat_wf_ok fs ->
  forall B ts g r, Forall (fun t => wf D B t = true) ts -> env_all B g ->
    (fix go (fs : list upattern) (ts : list cty) (g : cenv) : cres (list tpattern * cenv) :=
       match fs, ts with
       | fp :: fr, t :: tr =>
           do r1 <- check_pattern D g fp t; do r2 <- go fr tr (snd r1); COk (fst r1 :: fst r2, snd r2)
       | _, _ => COk ([], g)
       end) fs ts g = COk r -> env_all B (snd r).
Proof.
  induction 1 as [|q fs Hq Hfs IH]; intros B ts g r Hts Hg H.
  - inversion H; subst. exact Hg.
  - destruct ts as [|t ts]; [inversion H; subst; exact Hg|]. inversion Hts as [|? ? Ht Hts']; subst.
    apply cbind_ok in H. destruct H as [r1 [H1 H]]. apply cbind_ok in H. destruct H as [r2 [H2 H]].
    inversion H; subst; clear H. cbn [snd]. eapply IH; [exact Hts'| |exact H2]. eapply Hq; [exact Ht|exact Hg|exact H1].
Qed.

Lemma struct_loop_wf (sdef : list (list N * cty)) fs : Forall (fun f : list N * upattern => pat_wf_ok (snd f)) fs ->
  forall B seen g r, (forall f t, assocL f sdef = Some t -> wf D B t = true) -> env_all B g ->
    (fix go (seen : list (list N)) (fs : list (list N * upattern)) (g : cenv) : cres (list (list N * tpattern) * cenv) :=
       match fs with
       | [] => COk ([], g)
       | (field_name, field_value) :: fr =>
           if memL field_name seen then CErr E_PatternDoesNotMatchType else
           match assocL field_name sdef with
           | Some field_type =>
               do r1 <- check_pattern D g field_value field_type;
               do r2 <- go (field_name :: seen) fr (snd r1);
               COk ((field_name, fst r1) :: fst r2, snd r2)
           | None => CErr E_UnknownStructField
           end
       end) seen fs g = COk r -> env_all B (snd r).
Proof.
  induction 1 as [|[fname q] fs Hq Hfs IH]; intros B seen g r Hdef Hg H.
  - inversion H; subst. exact Hg.
  - destruct (memL fname seen); [discriminate|]. destruct (assocL fname sdef) as [ft|] eqn:Ea; [|discriminate].
    apply cbind_ok in H. destruct H as [r1 [H1 H]]. apply cbind_ok in H. destruct H as [r2 [H2 H]].
    inversion H; subst; clear H. cbn [snd] in *. eapply IH; [exact Hdef| |exact H2]. eapply Hq; [|exact Hg|exact H1]. exact (Hdef _ _ Ea).
Qed.

Lemma check_pattern_wf : forall p, pat_wf_ok p.
Proof.
  induction p using upattern_ind'; intros B g ty r Hty Hg HH; cbn [check_pattern] in HH.
  - inversion HH; subst. cbn [snd]. apply env_all_let; assumption.
  - destruct ty; inversion HH; subst; exact Hg.
  - destruct ty; inversion HH; subst; exact Hg.
  - inv_all. exact Hg.
  - inv_all. exact Hg.
  - apply cbind_ok in HH. destruct HH as [fts [Hf HH]]. destruct ty; try discriminate Hf. inversion Hf; subst.
    destruct (negb _); [discriminate|]. apply cbind_ok in HH. destruct HH as [r2 [Hl HH]]. inversion HH; subst; clear HH.
    cbn [snd]. eapply (fields_loop_wf ps H B fts); [|exact Hg|exact Hl].
    apply Forall_forall. intros t Ht. exact (wf_tup D _ _ _ Hty Ht).
  - apply cbind_ok in HH. destruct HH as [sdn [Hf HH]]. destruct ty; try discriminate Hf. inversion Hf; subst.
    destruct (negb (list_eqb sdn n)) eqn:En; [discriminate|]. apply negb_false_iff in En. apply list_eqb_eq in En. subst sdn.
    destruct (assocL n (d_structs D)) as [sdef|] eqn:Ea; [|discriminate].
    apply cbind_ok in HH. destruct HH as [r2 [Hl HH]].
    match type of HH with (if ?c then _ else _) = _ => destruct c; [discriminate|] end.
    inversion HH; subst; clear HH. cbn [snd]. eapply (struct_loop_wf sdef fs H B); [|exact Hg|exact Hl].
    intros f t Hft. exact (wf_struct D _ _ _ _ _ Hty Ea Hft).
  - apply cbind_ok in HH. destruct HH as [sdn [Hf HH]]. destruct ty; try discriminate Hf. inversion Hf; subst.
    destruct (negb (list_eqb sdn n)) eqn:En; [discriminate|]. apply negb_false_iff in En. apply list_eqb_eq in En. subst sdn.
    destruct (assocL n (d_structs D)) as [sdef|] eqn:Ea; [|discriminate].
    apply cbind_ok in HH. destruct HH as [r2 [Hl HH]].
    match type of HH with (if ?c then _ else _) = _ => destruct c; [discriminate|] end.
    inversion HH; subst; clear HH. cbn [snd]. eapply (struct_loop_wf sdef fs H B); [|exact Hg|exact Hl].
    intros f t Hft. exact (wf_struct D _ _ _ _ _ Hty Ea Hft).
  - destruct ty; try discriminate HH. destruct (negb _); [discriminate|]. destruct (assocL e (d_enums D)); [|discriminate].
    destruct (assocL v l) as [[?|]|]; try discriminate HH. inversion HH; subst; exact Hg.
  - destruct ty as [| | | | | |n]; try discriminate HH. destruct (negb (list_eqb n e)) eqn:En; [discriminate|].
    apply negb_false_iff in En. apply list_eqb_eq in En. subst n.
    destruct (assocL e (d_enums D)) as [vs|] eqn:Ea; [|discriminate].
    destruct (assocL v vs) as [[pts|]|] eqn:Ev; try discriminate HH. destruct (negb _); [discriminate|].
    apply cbind_ok in HH. destruct HH as [r2 [Hl HH]]. inversion HH; subst; clear HH.
    cbn [snd]. eapply (fields_loop_wf ps H B pts); [|exact Hg|exact Hl].
    apply Forall_forall. intros t Ht. exact (wf_enum D _ _ _ _ _ _ Hty Ea Ev Ht).
  - inv_all. exact Hg.
  - inv_all. exact Hg.
Qed.

(* ---------------------------------------------------------------- the invariant along the checker's path *)
Lemma SInv_push B st : SInv B st -> SInv B (with_env st (env_push (st_env st))).
Proof. intros (H1 & H2 & H3). split; [exact H1|]. split; [apply env_all_push; exact H2|exact H3]. Qed.

Lemma SInv_pop B st : SInv B st -> SInv B (with_env st (env_pop (st_env st))).
Proof. intros (H1 & H2 & H3). split; [exact H1|]. split; [exact (env_all_tl _ _ H2)|exact H3]. Qed.

Lemma SInv_pat B st p ty rp : wf D B ty = true -> SInv B st ->
  check_pattern D (env_push (st_env st)) p ty = COk rp -> SInv B (with_env st (snd rp)).
Proof.
  intros Hty (H1 & H2 & H3) Hp. split; [exact H1|]. split; [|exact H3].
  exact (check_pattern_wf p B _ _ _ Hty (env_all_push _ _ H2) Hp).
Qed.

(* ---------------------------------------------------------------- the five functions *)
Variable intern : list N -> N.
Hypothesis HB0 : 1 <= B0.
Hypothesis Hconsts : forall x t, assocL x (d_consts D) = Some t -> wf D B0 t = true.
Hypothesis Hfns : forall fd, In fd (d_fns D) -> ann_fn fd = true.
Notation check_expr := (check_expr intern).
Notation check_stmt := (check_stmt intern).
Notation check_stmts := (check_stmts intern).
Notation check_block := (check_block intern).
Notation check_fn := (check_fn intern).

Definition sumE (es : list xexpr) : nat := list_sum (map agg_e es).
Definition sumS (b : list xstmt) : nat := list_sum (map agg_s b).
Definition expr_ty_ok (B : nat) (s : tstmt) : Prop := forall e, s = TSExpr e -> wf D B (ty_of e) = true.

Definition GE (f : nat) : Prop := forall B st e r, ann_e e = true -> SInv B st -> check_expr f D st e = COk r ->
  wf D (B + agg_e e) (ty_of (fst r)) = true /\ SInv B (snd r).
Definition GSS (f : nat) : Prop := forall B st b r, forallb ann_s b = true -> SInv B st -> check_stmts f D st b = COk r ->
  SInv (B + sumS b) (snd r) /\ Forall (expr_ty_ok (B + sumS b)) (fst r).
Definition GB (f : nat) : Prop := forall B st b r, forallb ann_s b = true -> SInv B st -> check_block f D st b = COk r ->
  SInv (B + sumS b) (snd r) /\ wf D (B + sumS b) (snd (fst r)) = true.
Definition GS (f : nat) : Prop := forall B st s r, ann_s s = true -> SInv B st -> check_stmt f D st s = COk r ->
  SInv (B + agg_s s) (snd r) /\ expr_ty_ok (B + agg_s s) (fst r).
Definition GF (f : nat) : Prop := forall st fd r, In fd (d_fns D) -> typed_ok (st_typed st) -> check_fn f D st fd = COk r ->
  typed_ok (st_typed (snd r)) /\ wf D B0 (tf_ty (fst r)) = true /\ st_env (snd r) = st_env st.

Lemma sumE_cons e es : sumE (e :: es) = agg_e e + sumE es. Proof. reflexivity. Qed.
Lemma sumS_cons s b : sumS (s :: b) = agg_s s + sumS b. Proof. reflexivity. Qed.

Lemma exprs_wf f : GE f -> forall es B st r, forallb ann_e es = true -> SInv B st ->
  mapM_st (check_expr f D) st es = COk r ->
  Forall (fun te => wf D (B + sumE es) (ty_of te) = true) (fst r) /\ SInv B (snd r).
Proof.
  intro HE. induction es as [|e es IH]; intros B st r Hn HS H; cbn [mapM_st] in H.
  - inversion H; subst. split; [constructor|exact HS].
  - cbn [forallb] in Hn. apply andb_true_iff in Hn. destruct Hn as [Hn1 Hn2].
    apply cbind_ok in H. destruct H as [r1 [H1 H]]. apply cbind_ok in H. destruct H as [r2 [H2 H]]. inversion H; subst; clear H.
    destruct (HE _ _ _ _ Hn1 HS H1) as [Hw HS1]. destruct (IH _ _ _ Hn2 HS1 H2) as [Hall HS2].
    cbn [fst snd]. rewrite sumE_cons. split; [|exact HS2]. constructor.
    + eapply wf_le; [|exact Hw]. lia.
    + eapply Forall_impl; [|exact Hall]. intros te Hte. eapply wf_le; [|exact Hte]. lia.
Qed.

Lemma expr_ty_ok_le B B' s : B <= B' -> expr_ty_ok B s -> expr_ty_ok B' s.
Proof. intros Hle H e He. eapply wf_le; [exact Hle|]. exact (H e He). Qed.

Lemma stmts_wf f : GS f -> forall b B st r, forallb ann_s b = true -> SInv B st ->
  mapM_st (check_stmt f D) st b = COk r ->
  SInv (B + sumS b) (snd r) /\ Forall (expr_ty_ok (B + sumS b)) (fst r).
Proof.
  intro HS0. induction b as [|s b IH]; intros B st r Hn HS H; cbn [mapM_st] in H.
  - inversion H; subst. cbn [fst snd]. split; [eapply SInv_le; [|exact HS]; lia|constructor].
  - cbn [forallb] in Hn. apply andb_true_iff in Hn. destruct Hn as [Hn1 Hn2].
    apply cbind_ok in H. destruct H as [r1 [H1 H]]. apply cbind_ok in H. destruct H as [r2 [H2 H]]. inversion H; subst; clear H.
    destruct (HS0 _ _ _ _ Hn1 HS H1) as [HS1 Hx1]. destruct (IH _ _ _ Hn2 HS1 H2) as [HS2 Hall].
    cbn [fst snd]. rewrite sumS_cons, Nat.add_assoc. split; [exact HS2|]. constructor; [|exact Hall].
    eapply expr_ty_ok_le; [|exact Hx1]. lia.
Qed.

Lemma accs_wf f : GE f -> forall accs B st t r, forallb ann_a accs = true -> SInv B st ->
  accs_loop (check_expr f D) f D st t accs = COk r -> SInv B (snd r).
Proof.
  intro HE. induction accs as [|a accs IH]; intros B st t r Hn HS H; cbn [accs_loop] in H.
  - inversion H; subst. exact HS.
  - cbn [forallb] in Hn. apply andb_true_iff in Hn. destruct Hn as [Hn1 Hn2].
    apply cbind_ok in H. destruct H as [[[ta t1] st1] [H1 H]]. cbv beta iota in H.
    apply cbind_ok in H. destruct H as [[[tas2 tf] st2] [H2 H]]. cbv beta iota in H. inversion H; subst; clear H. cbn [snd].
    assert (HS1 : SInv B st1).
    { destruct a; cbn [ann_a] in Hn1.
      - apply cbind_ok in H1. destruct H1 as [el [_ H1]]. apply cbind_ok in H1. destruct H1 as [ri [Hi H1]].
        apply cbind_ok in H1. destruct H1 as [i2 [_ H1]]. inversion H1; subst. exact (proj2 (HE _ _ _ _ Hn1 HS Hi)).
      - apply cbind_ok in H1. destruct H1 as [vts [_ H1]]. destruct (nthN vts index); inversion H1; subst; exact HS.
      - apply cbind_ok in H1. destruct H1 as [nm [_ H1]]. destruct (assocL nm (d_structs D)); [|discriminate].
        destruct (assocL field l); inversion H1; subst; exact HS. }
    exact (IH _ _ _ _ Hn2 HS1 H2).
Qed.

Lemma struct_lit_wf f sd : GE f -> forall fields B seen st r, forallb (fun fx : list N * xexpr => ann_e (snd fx)) fields = true -> SInv B st ->
  struct_lit_loop (check_expr f D) f sd seen st fields = COk r -> SInv B (snd r).
Proof.
  intro HE. induction fields as [|[fname fv] fields IH]; intros B seen st r Hn HS H; cbn [struct_lit_loop] in H.
  - inversion H; subst. exact HS.
  - cbn [forallb snd] in Hn. apply andb_true_iff in Hn. destruct Hn as [Hn1 Hn2].
    destruct (memL fname seen); [discriminate|]. destruct (assocL fname sd); [|discriminate].
    apply cbind_ok in H. destruct H as [r1 [H1 H]]. apply cbind_ok in H. destruct H as [tf [_ H]].
    apply cbind_ok in H. destruct H as [r2 [H2 H]]. inversion H; subst; clear H. cbn [snd].
    exact (IH _ _ _ _ Hn2 (proj2 (HE _ _ _ _ Hn1 HS H1)) H2).
Qed.

Lemma arms_wf f : GE f -> forall arms B ty0 st r, wf D B ty0 = true -> forallb (fun a : upattern * xexpr => ann_e (snd a)) arms = true -> SInv B st ->
  mapM_st (fun (st0 : cstate) (pc : upattern * xexpr) =>
             do rp <- check_pattern D (env_push (st_env st0)) (fst pc) ty0;
             do re <- check_expr f D (with_env st0 (snd rp)) (snd pc);
             COk ((fst rp, fst re), with_env (snd re) (env_pop (st_env (snd re))))) st arms = COk r ->
  Forall (fun pc : tpattern * texpr => wf D (B + list_sum (map (fun a : upattern * xexpr => agg_e (snd a)) arms)) (ty_of (snd pc)) = true) (fst r) /\ SInv B (snd r).
Proof.
  intro HE. induction arms as [|[p x] arms IH]; intros B ty0 st r Hty Hn HS H; cbn [mapM_st] in H.
  - inversion H; subst. split; [constructor|exact HS].
  - cbn [forallb snd] in Hn. apply andb_true_iff in Hn. destruct Hn as [Hn1 Hn2].
    apply cbind_ok in H. destruct H as [r1 [H1 H]]. apply cbind_ok in H. destruct H as [r2 [H2 H]]. inversion H; subst; clear H.
    apply cbind_ok in H1. destruct H1 as [rp [Hp H1]]. apply cbind_ok in H1. destruct H1 as [re [Hx H1]]. inversion H1; subst; clear H1.
    cbn [fst snd] in *.
    destruct (HE _ _ _ _ Hn1 (SInv_pat _ _ _ _ _ Hty HS Hp) Hx) as [Hw HSe].
    destruct (IH _ _ _ _ Hty Hn2 (SInv_pop _ _ HSe) H2) as [Hall HS2].
    change (list_sum (map (fun a : upattern * xexpr => agg_e (snd a)) ((p, x) :: arms)))
      with (agg_e x + list_sum (map (fun a : upattern * xexpr => agg_e (snd a)) arms)).
    split; [|exact HS2]. constructor.
    + cbn [snd]. eapply wf_le; [|exact Hw]. lia.
    + eapply Forall_impl; [|exact Hall]. intros pc Hpc. eapply wf_le; [|exact Hpc]. lia.
Qed.

Lemma params_wf : forall ps seen g rp, forallb (fun p => ann_t (upa_ty p)) ps = true -> env_all B0 g ->
  (fix go (seen : list (list N)) (ps : list uparam) (g : cenv) : cres (list (bool * list N * cty) * cenv) :=
     match ps with
     | [] => COk ([], g)
     | p :: r =>
         if memL (upa_name p) seen then CErr E_DuplicateFnParam else
         do ty <- concrete_of D (upa_ty p);
         do r2 <- go (upa_name p :: seen) r (env_let g (upa_name p) ty (upa_mut p));
         COk ((upa_mut p, upa_name p, ty) :: fst r2, snd r2)
     end) seen ps g = COk rp -> env_all B0 (snd rp).
Proof.
  induction ps as [|p ps IH]; intros seen g rp Hn Hg H.
  - inversion H; subst. exact Hg.
  - cbn [forallb] in Hn. apply andb_true_iff in Hn. destruct Hn as [Hn1 Hn2].
    destruct (memL (upa_name p) seen); [discriminate|].
    apply cbind_ok in H. destruct H as [ty [Hty H]]. apply cbind_ok in H. destruct H as [r2 [H2 H]]. inversion H; subst; clear H.
    cbn [snd]. eapply IH; [exact Hn2| |exact H2]. apply env_all_let; [exact Hg|]. unfold ann_t in Hn1. rewrite Hty in Hn1. exact Hn1.
Qed.

Ltac bind_e H x st Hx := apply cbind_ok in H; destruct H as [[x st] [Hx H]]; cbv beta zeta in H; cbn [fst snd] in H.
Ltac splitn := repeat match goal with H : _ && _ = true |- _ => apply andb_true_iff in H; destruct H end.
Ltac wle Hw := eapply wf_le; [|exact Hw]; lia.

Lemma agg_e_block b : agg_e (XBlock b) = sumS b. Proof. reflexivity. Qed.
Lemma agg_s_for p e b : agg_s (XSForEach p e b) = agg_e e + sumS b. Proof. reflexivity. Qed.
Lemma ann_e_block b : ann_e (XBlock b) = forallb ann_s b. Proof. reflexivity. Qed.
Lemma ann_s_for p e b : ann_s (XSForEach p e b) = ann_e e && forallb ann_s b. Proof. reflexivity. Qed.

Theorem depth_all : forall f, GE f /\ GSS f /\ GB f /\ GS f /\ GF f.
Proof.
  induction f as [|f (IHe & IHss & IHb & IHs & IHf)].
  { split; [|split; [|split; [|split]]].
    - intros B st e r _ _ H; discriminate H.
    - intros B st b r _ _ H; discriminate H.
    - intros B st b r _ _ H; discriminate H.
    - intros B st s r _ _ H; discriminate H.
    - intros st fd r _ _ H; discriminate H. }
  split; [|split; [|split; [|split]]].
  - (* expressions *)
    intros B st e r Hn HS H.
    pose proof (proj1 (check_env intern (S f) D) st e r H) as Henv.
    pose proof HS as (HleB & HenvB & HtypB). assert (HB1 : 1 <= B) by lia.
    assert (Hsuff : wf D (B + agg_e e) (ty_of (fst r)) = true /\ typed_ok (st_typed (snd r)) ->
                    wf D (B + agg_e e) (ty_of (fst r)) = true /\ SInv B (snd r)).
    { intros [Ha Hb]. split; [exact Ha|]. split; [exact HleB|]. split; [rewrite Henv; exact HenvB|exact Hb]. }
    apply Hsuff. clear Hsuff Henv.
    rewrite check_expr_S in H.
    destruct e; cbn [expr_step] in H; unfold call_prefix, match_tail, match_arm, arm_retype in H; try discriminate H.
    + inversion H; subst. split; [apply wf_num; [lia|exact I]|exact HtypB].
    + inversion H; subst. split; [apply wf_num; [lia|exact I]|exact HtypB].
    + inversion H; subst. split; [apply wf_num; [lia|exact I]|exact HtypB].
    + inversion H; subst. split; [apply wf_num; [lia|exact I]|exact HtypB].
    + destruct (env_get (st_env st) s) as [[t m]|] eqn:Eg.
      * inversion H; subst. split; [|exact HtypB]. cbn [fst ty_of]. eapply wf_le; [|exact (env_all_get _ _ _ _ _ HenvB Eg)]. lia.
      * destruct (assocL s (d_consts D)) as [t|] eqn:Ec; inversion H; subst. split; [|exact HtypB].
        cbn [fst ty_of]. eapply wf_le; [|exact (Hconsts _ _ Ec)]. lia.
    + (* array literal *)
      cbn [ann_e] in Hn. apply cbind_ok in H. destruct H as [[es1 st1] [Hes H]]. cbn [fst snd] in H.
      destruct (exprs_wf f IHe _ _ _ _ Hn HS Hes) as [Hall (_ & _ & HT1)]. cbn [fst snd] in *.
      destruct es1 as [|first es1]; [discriminate|].
      apply cbind_ok in H. destruct H as [fl [_ H]]. inversion H; subst; clear H. split; [|exact HT1].
      assert (Hpt : wf D (B + sumE es) (pick_elem_ty (ty_of first) (map ty_of (first :: es1))) = true).
      { destruct (pick_elem_ty_in (ty_of first) (map ty_of (first :: es1))) as [E|E].
        - rewrite E. inversion Hall; assumption.
        - apply in_map_iff in E. destruct E as [te [Ete Hte]]. rewrite <- Ete. rewrite Forall_forall in Hall. exact (Hall _ Hte). }
      cbn [fst ty_of agg_e]. rewrite Nat.add_succ_r. cbn [wf]. exact Hpt.
    + (* array repeat *)
      cbn [ann_e] in Hn. bind_e H x1 st1 Hx. destruct (IHe _ _ _ _ Hn HS Hx) as [Hw (_ & _ & HT1)]. inversion H; subst.
      split; [|exact HT1]. cbn [fst ty_of agg_e]. rewrite Nat.add_succ_r. cbn [wf]. exact Hw.
    + (* array access *)
      cbn [ann_e] in Hn. splitn. bind_e H a1 st1 Ha. destruct (IHe _ _ _ _ H0 HS Ha) as [Hwa HS1].
      bind_e H i1 st2 Hi. destruct (IHe _ _ _ _ H1 HS1 Hi) as [_ (_ & _ & HT2)].
      apply cbind_ok in H. destruct H as [el [Hel H]]. apply cbind_ok in H. destruct H as [i2 [_ H]]. inversion H; subst; clear H.
      split; [|exact HT2]. cbn [fst snd ty_of agg_e] in *. destruct (ty_of a1); try discriminate Hel. inversion Hel; subst.
      apply wf_arr in Hwa. wle Hwa.
    + (* tuple literal *)
      cbn [ann_e] in Hn. apply cbind_ok in H. destruct H as [[es1 st1] [Hes H]]. inversion H; subst; clear H.
      destruct (exprs_wf f IHe _ _ _ _ Hn HS Hes) as [Hall (_ & _ & HT1)]. cbn [fst snd] in *. split; [|exact HT1].
      cbn [ty_of agg_e]. unfold sumE in Hall. rewrite Nat.add_succ_r. cbn [wf].
      apply forallb_forall. intros t Ht. apply in_map_iff in Ht. destruct Ht as [te [<- Hte]]. rewrite Forall_forall in Hall. exact (Hall _ Hte).
    + (* tuple access *)
      cbn [ann_e] in Hn. bind_e H x1 st1 Hx. destruct (IHe _ _ _ _ Hn HS Hx) as [Hw (_ & _ & HT1)].
      apply cbind_ok in H. destruct H as [vts [Hv H]]. destruct (nthN vts i) as [ty|] eqn:En; inversion H; subst; clear H.
      split; [|exact HT1]. cbn [fst snd ty_of agg_e] in *. destruct (ty_of x1); try discriminate Hv. inversion Hv; subst.
      exact (wf_tup D _ _ _ Hw (nthN_In _ _ _ En)).
    + (* struct access *)
      cbn [ann_e] in Hn. bind_e H x1 st1 Hx. destruct (IHe _ _ _ _ Hn HS Hx) as [Hw (_ & _ & HT1)].
      apply cbind_ok in H. destruct H as [nm [Hv H]]. destruct (assocL nm (d_structs D)) as [sd|] eqn:Ea; [|discriminate].
      destruct (assocL f0 sd) as [ft|] eqn:Ef; inversion H; subst; clear H.
      split; [|exact HT1]. cbn [fst snd ty_of agg_e] in *. destruct (ty_of x1); try discriminate Hv. inversion Hv; subst.
      exact (wf_struct D _ _ _ _ _ Hw Ea Ef).
    + (* struct literal *)
      cbn [ann_e] in Hn. splitn. destruct (assocL name (d_structs D)) as [sd|]; [|discriminate].
      apply cbind_ok in H. destruct H as [[r1 st1] [Hl H]]. cbn [fst snd] in H.
      destruct (missing_field sd fields); inversion H; subst; clear H.
      pose proof (struct_lit_wf f sd IHe _ _ _ _ _ H1 HS Hl) as (_ & _ & HT1). split; [|exact HT1].
      cbn [fst ty_of]. wle H0.
    + (* enum literal *)
      cbn [ann_e] in Hn. splitn.
      destruct (assocL e (d_enums D)) as [ed|]; [|discriminate]. destruct (assocL v ed) as [[pts|]|]; try discriminate H; destruct args as [es|]; try discriminate H.
      * destruct (negb _); [discriminate|]. apply cbind_ok in H. destruct H as [[es1 st1] [Hes H]]. cbn [fst snd] in H.
        apply cbind_ok in H. destruct H as [ex [_ H]]. inversion H; subst; clear H.
        destruct (exprs_wf f IHe _ _ _ _ H1 HS Hes) as [_ (_ & _ & HT1)]. split; [|exact HT1]. cbn [fst ty_of]. wle H0.
      * inversion H; subst. split; [|exact HtypB]. cbn [fst ty_of]. wle H0.
    + (* match *)
      cbn [ann_e] in Hn. splitn. bind_e H s1 st1 Hs. destruct (IHe _ _ _ _ H0 HS Hs) as [Hws HS1]. cbn [fst snd] in *.
      assert (Hmain : forall ty0 r0, wf D (B + agg_e e) ty0 = true ->
        (do rc <- mapM_st (fun (st0 : cstate) (pc : upattern * xexpr) =>
                    do rp <- check_pattern D (env_push (st_env st0)) (fst pc) ty0;
                    do re <- check_expr f D (with_env st0 (snd rp)) (snd pc);
                    COk ((fst rp, fst re), with_env (snd re) (env_pop (st_env (snd re))))) st1 arms;
         match fst rc with
         | [] => CErr E_Panic
         | (_, first) :: _ =>
             do clauses' <- mapM (fun pc : tpattern * texpr =>
                  if negb (cty_eqb (pick_elem_ty (ty_of first) (map (fun pc0 : tpattern * texpr => ty_of (snd pc0)) (fst rc))) (ty_of (snd pc)))
                  then match pick_elem_ty (ty_of first) (map (fun pc0 : tpattern * texpr => ty_of (snd pc0)) (fst rc)) with
                       | CUnsigned expected => do x <- coc_unsigned_deep f (snd pc) expected; COk (fst pc, x)
                       | CSigned expected => do x <- coc_signed_deep f (snd pc) expected; COk (fst pc, x)
                       | _ => CErr E_UnexpectedType
                       end
                  else COk pc) (fst rc);
             do _ <- check_exhaustiveness intern D (map fst clauses') ty0;
             COk (TE (TMatch s1 clauses') (pick_elem_ty (ty_of first) (map (fun pc0 : tpattern * texpr => ty_of (snd pc0)) (fst rc))), snd rc)
         end) = COk r0 ->
        wf D (B + agg_e (XMatch e arms)) (ty_of (fst r0)) = true /\ typed_ok (st_typed (snd r0))).
      { intros ty0 r0 Hty Hr. apply cbind_ok in Hr. destruct Hr as [[rc st2] [Hrc Hr]]. cbn [fst snd] in Hr.
        assert (HS1' : SInv (B + agg_e e) st1) by (eapply SInv_le; [|exact HS1]; lia).
        destruct (arms_wf f IHe arms (B + agg_e e) ty0 st1 _ Hty H1 HS1' Hrc) as [Hall (_ & _ & HT2)].
        cbn [fst snd] in *. destruct rc as [|[p0 first] rc']; [discriminate|].
        apply cbind_ok in Hr. destruct Hr as [cl [_ Hr]]. apply cbind_ok in Hr. destruct Hr as [u0 [_ Hr]]. inversion Hr; subst; clear Hr.
        split; [|exact HT2].
        assert (Hpt : wf D (B + agg_e e + list_sum (map (fun a : upattern * xexpr => agg_e (snd a)) arms))
                        (pick_elem_ty (ty_of first) (map (fun pc0 : tpattern * texpr => ty_of (snd pc0)) ((p0, first) :: rc'))) = true).
        { destruct (pick_elem_ty_in (ty_of first) (map (fun pc0 : tpattern * texpr => ty_of (snd pc0)) ((p0, first) :: rc'))) as [E|E].
          - rewrite E. inversion Hall; assumption.
          - apply in_map_iff in E. destruct E as [pc [Epc Hpc]]. rewrite <- Epc. rewrite Forall_forall in Hall. exact (Hall _ Hpc). }
        cbn [fst ty_of agg_e]. rewrite Nat.add_assoc. exact Hpt. }
      destruct (ty_of s1) eqn:Ety; try discriminate H; exact (Hmain _ _ Hws H).
    + (* unary *)
      cbn [ann_e] in Hn. destruct o; bind_e H x1 st1 Hx; destruct (IHe _ _ _ _ Hn HS Hx) as [Hw (_ & _ & HT1)];
        apply cbind_ok in H; destruct H as [? [_ H]]; inversion H; subst; (split; [exact Hw|exact HT1]).
    + (* binary *)
      cbn [ann_e] in Hn. splitn. bind_e H x1 st1 Hx. destruct (IHe _ _ _ _ H0 HS Hx) as [Hwx HS1].
      bind_e H y1 st2 Hy. destruct (IHe _ _ _ _ H1 HS1 Hy) as [_ (_ & _ & HT2)]. cbn [fst snd agg_e] in *.
      destruct o.
      1-12: (apply cbind_ok in H; destruct H as [[[x2 y2] ty] [Hu H]]; cbv beta iota in H;
             pose proof (unify_wf _ _ _ _ _ _ _ Hu Hwx) as Hwu).
      1-10: (apply cbind_ok in H; destruct H as [u0 [_ H]]).
      13-14: (apply cbind_ok in H; destruct H as [u0 [_ H]]; apply cbind_ok in H; destruct H as [y2 [_ H]]).
      15-16: (destruct (ty_of x1); try discriminate H; destruct (ty_of y1); try discriminate H).
      all: inversion H; subst; cbn [fst snd ty_of]; (split; [|exact HT2]);
           first [solve [apply wf_num; [lia|exact I]] | solve [wle Hwu] | solve [wle Hwx]].
    + (* block *)
      rewrite ann_e_block in Hn. apply cbind_ok in H. destruct H as [[[body ty] st1] [Hb H]]. cbv beta iota in H. inversion H; subst; clear H.
      destruct (IHb _ _ _ _ Hn (SInv_push _ _ HS) Hb) as [(_ & _ & HT1) Hw]. cbn [fst snd] in *. rewrite agg_e_block. split; [exact Hw|exact HT1].
    + (* call *)
      cbn [ann_e] in Hn. apply cbind_ok in H. destruct H as [st1 [Hst1 H]]. cbv beta in H.
      assert (HS1 : SInv B st1).
      { destruct (negb _) in Hst1; [|inversion Hst1; subst; exact HS].
        destruct (find (fun d => list_eqb (uf_name d) f0) (d_fns D)) as [fd|] eqn:Ef; [|inversion Hst1; subst; exact HS].
        apply cbind_ok in Hst1. destruct Hst1 as [rf [Hf Hst1]]. inversion Hst1; subst; clear Hst1.
        destruct (IHf _ _ _ (proj1 (find_some _ _ Ef)) HtypB Hf) as (HT & Hwr & Hev).
        split; [exact HleB|]. cbn [st_env st_typed]. split; [rewrite Hev; exact HenvB|]. constructor; [exact Hwr|exact HT]. }
      destruct (assocL f0 (st_typed st1)) as [fd|] eqn:Ea; [|discriminate]. destruct (env_get (st_env st1) f0); [discriminate|].
      apply cbind_ok in H. destruct H as [[es1 st2] [Hes H]]. cbn [fst snd] in H.
      match type of H with (if ?c then _ else _) = _ => destruct c; [discriminate|] end.
      apply cbind_ok in H. destruct H as [ar [_ H]]. inversion H; subst; clear H.
      destruct (exprs_wf f IHe _ _ _ _ Hn HS1 Hes) as [_ (_ & _ & HT2)]. cbn [fst snd ty_of]. split; [|exact HT2].
      destruct HS1 as (_ & _ & HT1). apply assocL_In in Ea. unfold typed_ok in HT1. rewrite Forall_forall in HT1.
      pose proof (HT1 _ Ea) as Hwf. cbn [snd] in Hwf. wle Hwf.
    + (* if *)
      cbn [ann_e] in Hn. splitn. bind_e H c1 st1 Hc. destruct (IHe _ _ _ _ H0 HS Hc) as [_ HS1].
      bind_e H a1 st2 Ha. destruct (IHe _ _ _ _ H2 HS1 Ha) as [Hwa HS2].
      bind_e H b1 st3 Hb. destruct (IHe _ _ _ _ H1 HS2 Hb) as [_ (_ & _ & HT3)].
      apply cbind_ok in H. destruct H as [c' [_ H]]. apply cbind_ok in H. destruct H as [[[a' b'] ty] [Hu H]]. cbv beta iota in H.
      inversion H; subst; clear H. cbn [fst snd ty_of agg_e] in *. split; [|exact HT3].
      pose proof (unify_wf _ _ _ _ _ _ _ Hu Hwa) as Hwu. wle Hwu.
    + (* cast *)
      cbn [ann_e] in Hn. splitn. apply cbind_ok in H. destruct H as [ty' [Hty H]].
      bind_e H x1 st1 Hx. destruct (IHe _ _ _ _ H1 HS Hx) as [_ (_ & _ & HT1)].
      apply cbind_ok in H. destruct H as [? [_ H]]. apply cbind_ok in H. destruct H as [? [_ H]]. inversion H; subst; clear H.
      cbn [fst snd ty_of]. split; [|exact HT1]. unfold ann_t in H0. rewrite Hty in H0. wle H0.
    + (* range *)
      destruct (_ || _); [discriminate|]. inversion H; subst. split; [|exact HtypB].
      cbn [fst ty_of agg_e]. replace (B + 1) with (S B) by lia. cbn [wf]. apply wf_num; [lia|exact I].
  - (* statement lists *)
    intros B st b r Hn HS H. rewrite check_stmts_S in H. exact (stmts_wf f IHs _ _ _ _ Hn HS H).
  - (* blocks *)
    intros B st b r Hn HS H. rewrite check_block_S in H.
    apply cbind_ok in H. destruct H as [[b1 st1] [Hm H]]. cbn [fst snd] in H. inversion H; subst; clear H.
    destruct (stmts_wf f IHs _ _ _ _ Hn HS Hm) as [HS1 Hall]. cbn [fst snd] in *. split; [exact HS1|].
    assert (H1 : 1 <= B + sumS b) by (destruct HS as (? & _ & _); lia).
    unfold last_expr_ty. destruct (last (map Some b1) None) as [[| | | |e0]|] eqn:El; try (apply wf_unit; exact H1).
    assert (Hin : In (TSExpr e0) b1).
    { clear - El. induction b1 as [|s1 b1 IH]; [discriminate|]. cbn [map] in El. destruct b1 as [|s2 b2].
      - cbn [map last] in El. inversion El. left. reflexivity.
      - right. apply IH. exact El. }
    rewrite Forall_forall in Hall. exact (Hall _ Hin e0 eq_refl).
  - (* statements *)
    intros B st s r Hn HS H. pose proof HS as (HleB & HenvB & HtypB).
    rewrite check_stmt_S in H. destruct s as [p o e|x o e|x accs e|p e body|e]; cbn [stmt_step] in H; unfold annot in H.
    + (* let *)
      cbn [ann_s] in Hn. splitn. bind_e H x1 st1 Hx. destruct (IHe _ _ _ _ H1 HS Hx) as [Hw (_ & Henv1 & HT1)]. cbn [fst snd] in *.
      apply cbind_ok in H. destruct H as [b' [Hb' H]].
      assert (Hwb : wf D (B + agg_e e) (ty_of b') = true).
      { destruct o as [u|]; [|inversion Hb'; subst; exact Hw].
        apply cbind_ok in Hb'. destruct Hb' as [ty' [Hty Hb']]. rewrite (check_type_ty _ _ _ _ Hb').
        cbn [ann_o] in H0. unfold ann_t in H0. rewrite Hty in H0. wle H0. }
      apply cbind_ok in H. destruct H as [rp [Hp H]]. apply cbind_ok in H. destruct H as [u0 [_ H]]. inversion H; subst; clear H.
      cbn [fst snd agg_s]. split; [|intros e0 He0; discriminate He0].
      split; [lia|]. split; [|exact HT1]. cbn [with_env st_env].
      assert (Henv1' : env_all (B + agg_e e) (st_env st1)) by (eapply env_all_le; [|exact Henv1]; lia).
      exact (check_pattern_wf p _ _ _ _ Hwb Henv1' Hp).
    + (* let mut *)
      cbn [ann_s] in Hn. splitn. bind_e H x1 st1 Hx. destruct (IHe _ _ _ _ H1 HS Hx) as [Hw (_ & Henv1 & HT1)]. cbn [fst snd] in *.
      apply cbind_ok in H. destruct H as [b' [Hb' H]].
      assert (Hwb : wf D (B + agg_e e) (ty_of b') = true).
      { destruct o as [u|]; [|inversion Hb'; subst; exact Hw].
        apply cbind_ok in Hb'. destruct Hb' as [ty' [Hty Hb']]. rewrite (check_type_ty _ _ _ _ Hb').
        cbn [ann_o] in H0. unfold ann_t in H0. rewrite Hty in H0. wle H0. }
      apply cbind_ok in H. destruct H as [b'' [Hc H]]. inversion H; subst; clear H.
      cbn [fst snd agg_s]. split; [|intros e0 He0; discriminate He0].
      split; [lia|]. split; [|exact HT1]. cbn [with_env st_env].
      apply env_all_let; [eapply env_all_le; [|exact Henv1]; lia|]. exact (constrain_to_i32_wf _ _ _ _ Hc Hwb).
    + (* assignment *)
      cbn [ann_s] in Hn. splitn. destruct (env_get (st_env st) x) as [[t [|]]|]; try discriminate H.
      apply cbind_ok in H. destruct H as [[[tas t'] st1] [Hl H]]. cbv beta iota in H.
      pose proof (accs_wf f IHe _ _ _ _ _ H0 HS Hl) as HS1. cbn [snd] in HS1.
      bind_e H v1 st2 Hv. destruct (IHe _ _ _ _ H1 HS1 Hv) as [_ HS2].
      apply cbind_ok in H. destruct H as [v' [_ H]]. inversion H; subst; clear H.
      cbn [fst snd] in *. split; [eapply SInv_le; [|exact HS2]; lia|intros e0 He0; discriminate He0].
    + (* for *)
      rewrite ann_s_for in Hn. splitn.
      match type of H with (if ?c then _ else _) = _ => destruct c; [discriminate|] end.
      bind_e H x1 st1 Hx. destruct (IHe _ _ _ _ H0 HS Hx) as [Hw (_ & Henv1 & HT1)]. cbn [fst snd] in *.
      apply cbind_ok in H. destruct H as [el [Hel H]]. apply cbind_ok in H. destruct H as [rp [Hp H]].
      apply cbind_ok in H. destruct H as [u0 [_ H]]. apply cbind_ok in H. destruct H as [rb [Hb H]]. inversion H; subst; clear H.
      assert (Hwel : wf D (B + agg_e e) el = true).
      { destruct (ty_of x1); try discriminate Hel. inversion Hel; subst. exact (wf_arr D _ _ _ Hw). }
      assert (HSb : SInv (B + agg_e e) (with_env st1 (snd rp))).
      { eapply SInv_pat; [exact Hwel| |exact Hp]. eapply SInv_le; [|split; [exact HleB|split; [exact Henv1|exact HT1]]]. lia. }
      destruct (IHss _ _ _ _ H1 HSb Hb) as [HS2 _].
      rewrite agg_s_for, Nat.add_assoc. cbn [fst snd]. split; [|intros e0 He0; discriminate He0].
      exact (SInv_pop _ _ HS2).
    + (* expression statement *)
      cbn [ann_s] in Hn. bind_e H x1 st1 Hx. destruct (IHe _ _ _ _ Hn HS Hx) as [Hw HS1]. inversion H; subst; clear H.
      cbn [fst snd agg_s] in *. split; [eapply SInv_le; [|exact HS1]; lia|]. intros e0 He0. inversion He0; subst. exact Hw.
  - (* functions *)
    intros st fd r Hin HT H. pose proof (proj2 (proj2 (proj2 (proj2 (check_env intern (S f) D)))) st fd r H) as Hev.
    rewrite check_fn_S in H. unfold fn_step, ret_check in H.
    destruct (memL (uf_name fd) (st_checking st)); [discriminate|].
    pose proof (Hfns fd Hin) as Hann. unfold ann_fn in Hann. splitn.
    apply cbind_ok in H. destruct H as [rp [Hp H]].
    apply cbind_ok in H. destruct H as [[[body ty] st1] [Hb H]]. cbv beta iota zeta in H.
    apply cbind_ok in H. destruct H as [ret_ty [Hret H]]. apply cbind_ok in H. destruct H as [body' [_ H]]. inversion H; subst; clear H.
    assert (Hg : env_all B0 (snd rp)).
    { eapply params_wf; [exact H0| |exact Hp]. apply env_all_push. constructor; [constructor|constructor]. }
    assert (HSb : SInv B0 (mkSt (snd rp) (st_typed st) (uf_name fd :: st_checking st))).
    { split; [lia|]. split; [exact Hg|exact HT]. }
    destruct (IHb _ _ _ _ H1 HSb Hb) as [(_ & _ & HT1) _]. cbn [fst snd st_typed tf_ty] in *.
    split; [exact HT1|]. split; [|exact Hev]. unfold ann_t in H2. rewrite Hret in H2. exact H2.
Qed.
End Depth.

Print Assumptions check_pattern_wf.
Print Assumptions depth_all.

(* ================================================================ the computable bound

   [defs_of P]: the definitions check_program_t builds before it checks the functions (fuel-free).
   [ty_depth_bound P]: the least level b at which all declared types that occur in P (const types,
   parameter / return / annotation / cast types, the named types of struct / enum literals) are wf,
   plus the largest number of aggregate-literal nodes of a function body. *)
Definition defs_of (P : uprogram) : option defs :=
  let sn := map us_name (up_structs P) in
  let en := map ue_name (up_enums P) in
  match check_consts (up_consts P) [], mapM (check_struct_def sn en) (up_structs P), mapM (check_enum_def sn en) (up_enums P) with
  | COk consts, COk structs, COk enums =>
      Some (mkDefs (map (fun c => (fst c, ty_of (snd c))) consts) structs enums (up_fns P) sn en)
  | _, _, _ => None
  end.

Definition depth_ok (D : defs) (b : nat) (P : uprogram) : bool :=
  forallb (fun c : list N * cty => wf D b (snd c)) (d_consts D) && forallb (ann_fn D b) (up_fns P).

Definition max_agg (P : uprogram) : nat := list_max (map (fun fd => sumS (uf_body fd)) (up_fns P)).

Definition ty_depth_bound (P : uprogram) : nat :=
  match defs_of P with
  | None => 0
  | Some D => match find (fun b => depth_ok D b P) (seq 1 64) with
              | Some b => b + max_agg P
              | None => 65
              end
  end.

Lemma defs_of_fns P D : defs_of P = Some D -> d_fns D = up_fns P.
Proof.
  unfold defs_of. destruct (check_consts _ _); try discriminate. destruct (mapM _ (up_structs P)); try discriminate.
  destruct (mapM _ (up_enums P)); try discriminate. intro H. inversion H. reflexivity.
Qed.

(* what [ty_depth_bound P <= 64] gives: the hypotheses of Section Depth for the definitions of P, and the budget *)
Lemma ty_depth_bound_spec P D : defs_of P = Some D -> ty_depth_bound P <= 64 ->
  exists b, 1 <= b /\
    (forall x t, assocL x (d_consts D) = Some t -> wf D b t = true) /\
    (forall fd, In fd (d_fns D) -> ann_fn D b fd = true) /\
    (forall fd, In fd (d_fns D) -> b + sumS (uf_body fd) <= 64).
Proof.
  intros Hd Hb. unfold ty_depth_bound in Hb. rewrite Hd in Hb. rewrite (defs_of_fns _ _ Hd).
  destruct (find (fun b => depth_ok D b P) (seq 1 64)) as [b|] eqn:Ef; [|lia].
  destruct (find_some _ _ Ef) as [Hin Hok]. apply in_seq in Hin. unfold depth_ok in Hok. apply andb_true_iff in Hok. destruct Hok as [Hc Hf].
  exists b. split; [lia|]. split; [|split].
  - intros x t Ha. exact (proj1 (forallb_forall _ _) Hc (x, t) (assocL_In _ _ _ Ha)).
  - intros fd Hfd. exact (proj1 (forallb_forall _ _) Hf fd Hfd).
  - intros fd Hfd. pose proof (in_list_max (fun fd => sumS (uf_body fd)) (up_fns P) fd Hfd) as Hm. unfold max_agg in Hb. cbv beta in Hm. lia.
Qed.

(* [depth_all] for the definitions of P *)
Corollary depth_program intern P D : defs_of P = Some D -> ty_depth_bound P <= 64 ->
  exists b, 1 <= b /\ (forall fd, In fd (d_fns D) -> b + sumS (uf_body fd) <= 64) /\
    forall f, GE D b intern f /\ GSS D b intern f /\ GB D b intern f /\ GS D b intern f /\ GF D b intern f.
Proof.
  intros Hd Hb. destruct (ty_depth_bound_spec P D Hd Hb) as (b & H1 & Hc & Hf & Hbud).
  exists b. split; [exact H1|]. split; [exact Hbud|]. intro f. exact (depth_all D b intern H1 Hc Hf f).
Qed.

Print Assumptions depth_program.

From GV Require Check.InferExamples.
Module Fuel5Examples.
Import InferExamples.
Example bounds : map ty_depth_bound [P_loop; P_ops; P_call; P_s3; P_const] = [2; 1; 1; 2; 1].
Proof. vm_compute. reflexivity. Qed.
End Fuel5Examples.
