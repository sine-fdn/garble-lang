(* C06 with calls, acceptance for ARBITRARY call depth under a decidable acyclicity hypothesis (a rank
   on the function names that decreases along every syntactic call). *)
From Coq Require Import Lia Bool Permutation.
From GV Require Import Base.Util Front.Scan Front.ParseExpr Check.UAst Check.Infer Check.InferProofs Check.InferSub
  Check.InferTotal Check.InferFuel2 Check.PermSort Check.PermExh Check.InferPerm Check.InferPerm2
  Check.InferPerm3 Check.InferPerm4.
Local Open Scope N_scope.

(* ================================================================ the transfer theorem of InferPerm3.v, with
   callees that may themselves call: the second run's typed map is CLOSED *)
Module Deep.
Section Imp.
Variable intern : list N -> N.
Variable D : defs.
Notation check_expr := (check_expr intern).
Notation check_stmt := (check_stmt intern).
Notation check_stmts := (check_stmts intern).
Notation check_block := (check_block intern).
Notation check_fn := (check_fn intern).
Notation canon := (canon intern D).
Notation Cgood := (Cgood intern D).

Variable K : nat.                                  (* the extra fuel of the second run *)
Variable Hc : list N -> bool.                      (* the functions that may be called *)
Variable Pc : list (list N) -> Prop.               (* what is known about the second run's st_checking *)
Variable L0 : list (list N * tfndef).              (* the typed map the first run started from *)

Variable fb : nat.                                 (* the bound on the fuel of the first run *)

(* what a (first-run, fuel <= fb) check of [id] adds to the typed map is in T' *)
Definition UK (id : list N) (T' : list (list N * tfndef)) : Prop :=
  forall F1 st1 r1 fd, (F1 <= fb)%nat -> find (fun d => list_eqb (uf_name d) id) (d_fns D) = Some fd ->
    Cgood (st_typed st1) -> check_fn F1 D st1 fd = COk r1 ->
    forall n, defd n (st_typed (snd r1)) -> defd n (st_typed st1) \/ defd n T'.
(* the second run's typed map contains, with every function, what its checks add *)
Definition Closed (T' : list (list N * tfndef)) : Prop := forall id, defd id T' -> UK id T'.

Lemma UK_mono id T T' : UK id T -> (forall n, defd n T -> defd n T') -> UK id T'.
Proof. intros H Hm F1 st1 r1 fd H1 H2 H3 H4 n Hn. destruct (H F1 st1 r1 fd H1 H2 H3 H4 n Hn); auto. Qed.

Lemma defd_cons {A} n id (v : A) T : defd n ((id, v) :: T) <-> (n = id \/ defd n T).
Proof.
  unfold defd. cbn [assocL]. destruct (list_eqb n id) eqn:E.
  - apply list_eqb_eq in E. split; [now left|discriminate].
  - split; [now right|]. intros [->|H]; [rewrite list_eqb_refl in E; discriminate|exact H].
Qed.

Lemma Closed_cons id v T : Closed T -> UK id T -> Closed ((id, v) :: T).
Proof.
  intros HC HU n Hn. apply defd_cons in Hn. assert (Hm : forall m, defd m T -> defd m ((id, v) :: T)) by (intros m Hm; apply defd_cons; now right).
  destruct Hn as [->|Hn]; [eapply UK_mono; eassumption|eapply UK_mono; [apply HC; exact Hn|exact Hm]].
Qed.

(* a callee can be re-checked wherever the second run needs it; its closure comes with it *)
Hypothesis Hcallee : forall id fd F st', Hc id = true ->
  find (fun d => list_eqb (uf_name d) id) (d_fns D) = Some fd ->
  (K <= F)%nat -> Cgood (st_typed st') -> Closed (st_typed st') -> Pc (st_checking st') ->
  exists r', check_fn F D st' fd = COk r' /\ Closed (st_typed (snd r')) /\ UK id (st_typed (snd r')).

Definition Rt (T T' : list (list N * tfndef)) : Prop :=
  Cgood T /\ Cgood T' /\ Closed T' /\ (forall n, defd n T -> defd n L0 \/ defd n T').
Definition st_rel (s s' : cstate) : Prop :=
  st_env s = st_env s' /\ Rt (st_typed s) (st_typed s') /\ Pc (st_checking s').

(* the first run accepted => the second run accepted, with related results *)
Definition rimp {A} (RA : A -> A -> Prop) (r r' : cres A) : Prop :=
  match r with
  | COk a => match r' with COk a' => RA a a' | _ => False end
  | _ => True
  end.
Definition RP {B} (r r' : B * cstate) : Prop := fst r = fst r' /\ st_rel (snd r) (snd r').
Definition RF (r r' : tfndef * cstate) : Prop := fst r = fst r' /\ Rt (st_typed (snd r)) (st_typed (snd r')).

Definition GE f := forall st st' e, st_rel st st' -> okc_x Hc e = true ->
  rimp RP (check_expr f D st e) (check_expr (f + K) D st' e).
Definition GSS f := forall st st' b, st_rel st st' -> forallb (okc_s Hc) b = true ->
  rimp RP (check_stmts f D st b) (check_stmts (f + K) D st' b).
Definition GB f := forall st st' b, st_rel st st' -> forallb (okc_s Hc) b = true ->
  rimp RP (check_block f D st b) (check_block (f + K) D st' b).
Definition GS f := forall st st' s, st_rel st st' -> okc_s Hc s = true ->
  rimp RP (check_stmt f D st s) (check_stmt (f + K) D st' s).
Definition GF f := forall st st' fd, Rt (st_typed st) (st_typed st') -> Pc (uf_name fd :: st_checking st') ->
  memL (uf_name fd) (st_checking st') = false -> forallb (okc_s Hc) (uf_body fd) = true ->
  rimp RF (check_fn f D st fd) (check_fn (f + K) D st' fd).

Lemma imp_call f f0 g t c t' c' : (S f <= fb)%nat -> Hc f0 = true -> Rt t t' -> Pc c' ->
  rimp (fun s1 s1' => st_rel s1 s1' /\ (defd f0 (st_typed s1) -> defd f0 (st_typed s1')))
       (call_prefix intern f D (mkSt g t c) f0) (call_prefix intern (f + K) D (mkSt g t' c') f0).
Proof.
  intros Hle Hcf (HC & HC' & HCl & HK) Hp. unfold call_prefix. cbn [st_typed].
  assert (HL : forall s1, (if negb match assocL f0 t with Some _ => true | None => false end
               then match find (fun d => list_eqb (uf_name d) f0) (d_fns D) with
                    | Some fn_def => do r <- check_fn f D (mkSt g t c) fn_def;
                        COk (mkSt (st_env (snd r)) ((f0, fst r) :: st_typed (snd r)) (st_checking (snd r)))
                    | None => COk (mkSt g t c) end
               else COk (mkSt g t c)) = COk s1 ->
            st_env s1 = g /\ Cgood (st_typed s1) /\
            (defd f0 (st_typed s1) -> find (fun d => list_eqb (uf_name d) f0) (d_fns D) <> None) /\
            (st_typed s1 = t \/ exists fd r1, find (fun d => list_eqb (uf_name d) f0) (d_fns D) = Some fd /\
               check_fn f D (mkSt g t c) fd = COk r1 /\ st_typed s1 = (f0, fst r1) :: st_typed (snd r1))).
  { intros s1 H1. destruct (assocL f0 t) as [d|] eqn:EL; cbn [negb] in H1.
    - injection H1 as <-. cbn [st_env st_typed]. split; [reflexivity|]. split; [exact HC|]. split; [|left; reflexivity].
      intros _ Hn. pose proof (Cgood_get intern D t f0 d HC EL) as Hcn. inversion Hcn as [? ? ? ? ? Hf3 _ _]; subst. congruence.
    - destruct (find _ (d_fns D)) as [fd|] eqn:Ef.
      + destruct (check_fn f D (mkSt g t c) fd) as [r1| | |] eqn:E1; cbn [cbind] in H1; try discriminate H1. injection H1 as <-.
        destruct (ins_right intern D f (mkSt g t c) fd f0 r1 Ef HC E1) as [HC1 He1]. cbn [st_env st_typed] in *.
        split; [exact He1|]. split; [exact HC1|]. split; [intros _; discriminate|].
        right. exists fd, r1. repeat split; auto.
      + injection H1 as <-. cbn [st_env st_typed]. split; [reflexivity|]. split; [exact HC|]. split; [|left; reflexivity].
        intros Hd. exfalso. apply Hd. exact EL. }
  match goal with |- rimp _ ?L _ => destruct L as [s1| | |] eqn:EL1; try exact I end.
  destruct (HL s1 eq_refl) as (E1 & C1 & X1 & Shape). clear HL.
  (* what is needed of the right state *)
  assert (Fin : forall g' RT c'', g' = g -> Cgood RT -> Closed RT -> Pc c'' -> (forall n, defd n t' -> defd n RT) ->
            (defd f0 (st_typed s1) -> defd f0 RT) ->
            st_rel s1 (mkSt g' RT c'') /\ (defd f0 (st_typed s1) -> defd f0 (st_typed (mkSt g' RT c'')))).
  { intros g' RT c'' -> HCR HClR HpR Hmono Hdf. split; [|exact Hdf].
    split; [cbn [st_env]; exact E1|]. split; [|exact HpR]. cbn [st_typed]. split; [exact C1|]. split; [exact HCR|]. split; [exact HClR|].
    intros n Hn. destruct Shape as [Et|(fd & r1 & Ef & Er1 & Et)]; rewrite Et in Hn.
    - destruct (HK n Hn) as [H0|H0]; [left; exact H0|right; apply Hmono; exact H0].
    - assert (Hdf0 : defd f0 RT) by (apply Hdf; rewrite Et; apply defd_cons; now left).
      apply defd_cons in Hn. destruct Hn as [->|Hn]; [right; exact Hdf0|].
      destruct (HClR f0 Hdf0 f (mkSt g t c) r1 fd ltac:(lia) Ef HC Er1 n Hn) as [H0|H0]; [|right; exact H0].
      cbn [st_typed] in H0. destruct (HK n H0) as [H1|H1]; [left; exact H1|right; apply Hmono; exact H1]. }
  (* the right run *)
  destruct (assocL f0 t') as [d'|] eqn:ER; cbn [negb].
  * cbn [rimp]. apply Fin; auto. intros _. unfold defd. rewrite ER. discriminate.
  * destruct (find _ (d_fns D)) as [fd|] eqn:Ef.
    -- destruct (Hcallee f0 fd (f + K)%nat (mkSt g t' c') Hcf Ef ltac:(lia) HC' HCl Hp) as (r' & Er' & HCl' & HU').
       rewrite Er'. cbn [cbind rimp].
       destruct (ins_right intern D (f + K)%nat (mkSt g t' c') fd f0 r' Ef HC' Er') as [HC2 He2].
       destruct (check_fn_frame _ _ _ _ _ _ Er') as [_ Hck]. cbn [st_env st_typed st_checking] in *.
       destruct (proj2 (proj2 (proj2 (proj2 (check_ext intern D (f + K))))) _ _ _ Er') as [(_ & _ & X3 & _) _].
       cbn [tc_of fst snd st_typed] in X3.
       apply Fin; [exact He2|exact HC2|apply Closed_cons; assumption|rewrite Hck; exact Hp| |].
       ++ intros n Hn. apply defd_cons. right. apply X3. exact Hn.
       ++ intros _. apply defd_cons. now left.
    -- cbn [rimp]. apply Fin; auto. intros Hd. exfalso. apply (X1 Hd). reflexivity.
Qed.

(* ACCEPTED IN ONE STATE => ACCEPTED (with K more fuel, same result) IN THE OTHER *)
Theorem check_imp f : (f <= fb)%nat -> GE f /\ GSS f /\ GB f /\ GS f /\ GF f.
Proof.
  refine (Transfer.transfer intern D K Hc Pc fb Rt _ imp_call f).
  intros t t' id d d' (HG & HC & _) EL ER.
  eapply canon_det; [exact (Cgood_get intern D t id d HG EL)|exact (Cgood_get intern D t' id d' HC ER)].
Qed.
End Imp.
End Deep.

(* ================================================================ re-checking by induction on the rank *)

Section Rank.
Variable intern : list N -> N.
Variable D : defs.
Variable f : nat.                         (* the fuel of the accepting run *)
Variable rk : list N -> nat.              (* decreases along every syntactic call *)
Notation Cgood := (Cgood intern D).
Notation Closed := (Deep.Closed intern D f).
Notation UK := (Deep.UK intern D f).
Hypothesis ND : NoDup (map uf_name (d_fns D)).
Hypothesis Hrank : forall fd, In fd (d_fns D) ->
  forallb (okc_s (fun id => Nat.ltb (rk id) (rk (uf_name fd)))) (uf_body fd) = true.
Hypothesis Hwit : forall fd, In fd (d_fns D) -> exists t0, canonb intern D f (uf_name fd) t0.

(* everything being checked has rank at least R *)
Definition geq (R : nat) (c : list (list N)) : Prop := forall n, memL n c = true -> (R <= rk n)%nat.

Lemma recheck_rank : forall r c, rk (uf_name c) = r -> In c (d_fns D) ->
  forall F st', (S r * f <= F)%nat -> Cgood (st_typed st') -> Closed (st_typed st') -> geq (S r) (st_checking st') ->
  exists r', check_fn intern F D st' c = COk r' /\ Closed (st_typed (snd r')) /\ UK (uf_name c) (st_typed (snd r')).
Proof.
  induction r as [r IH] using lt_wf_ind. intros c Hr Hin F st' HF HC' HCl' Hg.
  assert (Hfc : find (fun d => list_eqb (uf_name d) (uf_name c)) (d_fns D) = Some c) by (apply find_by_name; assumption).
  assert (Hm : memL (uf_name c) (st_checking st') = false).
  { destruct (memL (uf_name c) (st_checking st')) eqn:E; [|reflexivity]. specialize (Hg _ E). lia. }
  assert (HP : geq r (uf_name c :: st_checking st')).
  { intros n Hn. change (memL n (uf_name c :: st_checking st')) with (list_eqb n (uf_name c) || memL n (st_checking st')) in Hn.
    apply orb_true_iff in Hn. destruct Hn as [Hn|Hn]; [apply list_eqb_eq in Hn; subst n; lia|specialize (Hg _ Hn); lia]. }
  (* one first-run check of c (fuel <= f) transfers to st' with fuel F *)
  assert (Core : forall F1 st1 r1, (F1 <= f)%nat -> Cgood (st_typed st1) -> check_fn intern F1 D st1 c = COk r1 ->
            exists r', check_fn intern F D st' c = COk r' /\ Closed (st_typed (snd r')) /\
              (forall n, defd n (st_typed (snd r1)) -> defd n (st_typed st1) \/ defd n (st_typed (snd r')))).
  { intros F1 st1 r1 HF1 HC1 Hr1.
    assert (Hcallee : forall id fd F' st2, Nat.ltb (rk id) (rk (uf_name c)) = true ->
      find (fun d => list_eqb (uf_name d) id) (d_fns D) = Some fd ->
      (F - F1 <= F')%nat -> Cgood (st_typed st2) -> Closed (st_typed st2) -> geq r (st_checking st2) ->
      exists r2, check_fn intern F' D st2 fd = COk r2 /\ Closed (st_typed (snd r2)) /\ UK id (st_typed (snd r2))).
    { intros id fd F' st2 Hlt Hf HF' HC2 HCl2 Hg2. apply Nat.ltb_lt in Hlt. rewrite Hr in Hlt.
      pose proof Hf as Hf'. apply find_some in Hf'. destruct Hf' as [Hinf En]. apply list_eqb_eq in En. subst id.
      apply (IH (rk (uf_name fd)) Hlt fd eq_refl Hinf F' st2); try assumption.
      - assert (S (rk (uf_name fd)) * f <= r * f)%nat by (apply Nat.mul_le_mono_r; lia). cbn [Nat.mul] in HF. lia.
      - intros n Hn. specialize (Hg2 n Hn). lia. }
    pose proof (Deep.check_imp intern D (F - F1) (fun id => Nat.ltb (rk id) (rk (uf_name c))) (geq r) (st_typed st1) f Hcallee F1 HF1)
      as (_ & _ & _ & _ & HGF).
    specialize (HGF st1 st' c).
    assert (HR : Deep.Rt intern D (st_typed st1) f (st_typed st1) (st_typed st')).
    { split; [exact HC1|]. split; [exact HC'|]. split; [exact HCl'|]. intros n Hn. now left. }
    specialize (HGF HR HP Hm (Hrank c Hin)). rewrite Hr1 in HGF. cbn [Deep.rimp] in HGF.
    replace (F1 + (F - F1))%nat with F in HGF by (cbn [Nat.mul] in HF; lia).
    destruct (check_fn intern F D st' c) as [r'| | |]; try contradiction.
    exists r'. split; [reflexivity|]. destruct HGF as [_ (_ & _ & HClr & HKr)]. split; assumption. }
  destruct (Hwit c Hin) as [t0 Ht0]. inversion Ht0 as [w st0 fd0 id0 r0 Hw Hf0 HC0 Hr0]. subst.
  rewrite Hfc in Hf0. injection Hf0 as <-.
  destruct (Core w st0 r0 Hw (Cgoodb_Cgood intern D f _ HC0) Hr0) as (r' & Er' & HClr & _).
  exists r'. split; [exact Er'|]. split; [exact HClr|].
  intros F1 st1 r1 fd HF1 Hfd HC1 Hr1 n Hn. rewrite Hfc in Hfd. injection Hfd as <-.
  destruct (Core F1 st1 r1 HF1 HC1 Hr1) as (r'' & Er'' & _ & HK''). rewrite Er' in Er''. injection Er'' as <-.
  exact (HK'' n Hn).
Qed.
End Rank.

(* ================================================================ the loop in the other order *)

Section LoopQ.
Variable intern : list N -> N.
Variable D : defs.
Variable f : nat.
Variable rk : list N -> nat.
Variable F : nat.
Notation Cgood := (Cgood intern D).
Notation Closed := (Deep.Closed intern D f).
Hypothesis ND : NoDup (map uf_name (d_fns D)).
Hypothesis Hrank : forall fd, In fd (d_fns D) ->
  forallb (okc_s (fun id => Nat.ltb (rk id) (rk (uf_name fd)))) (uf_body fd) = true.
Hypothesis Hwit : forall fd, In fd (d_fns D) -> exists t0, canonb intern D f (uf_name fd) t0.
Hypothesis HF : forall fd, In fd (d_fns D) -> (S (rk (uf_name fd)) * f <= F)%nat.

Lemma Closed_ext T T' : (forall n, defd n T <-> defd n T') -> Closed T -> Closed T'.
Proof.
  intros He HC id Hid. apply He in Hid. eapply Deep.UK_mono; [apply HC; exact Hid|]. intros n Hn. apply He. exact Hn.
Qed.

Lemma pub_loop_Q2 : forall fns st',
  (forall fd, In fd fns -> In fd (d_fns D)) ->
  (forall fd, In fd fns -> uf_pub fd = true -> uf_params fd <> []) ->
  Cgood (st_typed st') -> Closed (st_typed st') -> st_checking st' = [] ->
  exists st'', pub_loop_fn intern F D fns st' = COk st'' /\ Cgood (st_typed st'') /\ Closed (st_typed st'') /\ st_checking st'' = [] /\
    (forall n, defd n (st_typed st') -> defd n (st_typed st'')) /\
    (forall fd, In fd fns -> uf_pub fd = true -> defd (uf_name fd) (st_typed st'')).
Proof.
  induction fns as [|fd fns IH]; intros st' Hin Hpar HC HCl Hck; cbn [pub_loop_fn].
  - exists st'. split; [reflexivity|]. split; [exact HC|]. split; [exact HCl|]. split; [exact Hck|]. split; [auto|intros ? []].
  - assert (Hin' : forall fd0, In fd0 fns -> In fd0 (d_fns D)) by (intros; apply Hin; now right).
    assert (Hpar' : forall fd0, In fd0 fns -> uf_pub fd0 = true -> uf_params fd0 <> []) by (intros; apply Hpar; [now right|assumption]).
    destruct (uf_pub fd) eqn:Epub.
    + pose proof (Hpar fd (or_introl eq_refl) Epub) as Hp0. destruct (uf_params fd) eqn:Epar; [congruence|].
      assert (Hg : geq rk (S (rk (uf_name fd))) (st_checking st')) by (rewrite Hck; intros n Hn; discriminate Hn).
      destruct (recheck_rank intern D f rk ND Hrank Hwit (rk (uf_name fd)) fd eq_refl (Hin fd (or_introl eq_refl)) F st'
                  (HF fd (Hin fd (or_introl eq_refl))) HC HCl Hg) as (r' & Er' & HClr & HUr).
      rewrite Er'. cbn [cbind].
      destruct (ins_right intern D F st' fd (uf_name fd) r' (find_by_name _ ND fd (Hin fd (or_introl eq_refl))) HC Er') as [HC2 _].
      destruct (check_fn_frame _ _ _ _ _ _ Er') as [_ Hck'].
      destruct (proj2 (proj2 (proj2 (proj2 (check_ext intern D F)))) _ _ _ Er') as [(_ & _ & X3 & _) _].
      cbn [tc_of fst snd] in X3.
      set (T1 := (uf_name fd, fst r') :: filter (fun nd => negb (list_eqb (fst nd) (uf_name fd))) (st_typed (snd r'))) in *.
      assert (HCT : Cgood T1).
      { unfold T1. inversion HC2 as [|? ? Hhd Htl]; subst. constructor; [exact Hhd|]. apply Forall_filter. exact Htl. }
      assert (HClT : Closed T1).
      { apply (Closed_ext ((uf_name fd, fst r') :: st_typed (snd r'))); [|apply Deep.Closed_cons; assumption].
        intro n. unfold T1. rewrite defd_cons_filter. apply Deep.defd_cons. }
      destruct (IH (mkSt (st_env (snd r')) T1 (st_checking (snd r'))) Hin' Hpar' HCT HClT ltac:(cbn [st_checking]; congruence))
        as (st'' & Ego & B1 & B2 & B3 & B4 & B5).
      cbn [st_typed] in *. exists st''. split; [exact Ego|]. split; [exact B1|]. split; [exact B2|]. split; [exact B3|]. split.
      * intros n Hn. apply B4. unfold T1. apply defd_cons_filter. right. apply X3. exact Hn.
      * intros fd0 [<-|Hi] Hp1; [|apply B5; assumption]. apply B4. unfold T1. apply defd_cons_filter. now left.
    + destruct (IH st' Hin' Hpar' HC HCl Hck) as (st'' & Ego & B1 & B2 & B3 & B4 & B5).
      exists st''. split; [exact Ego|]. split; [exact B1|]. split; [exact B2|]. split; [exact B3|]. split; [exact B4|].
      intros fd0 [<-|Hi] Hp1; [congruence|apply B5; assumption].
Qed.
End LoopQ.

(* ================================================================ the program *)

(* [rk] decreases along every syntactic call: the call graph is acyclic *)
Definition ranked (P : uprogram) (rk : list N -> nat) : bool :=
  forallb (fun fd => forallb (okc_s (fun id => Nat.ltb (rk id) (rk (uf_name fd)))) (uf_body fd)) (up_fns P).
Definition rank_bound (P : uprogram) (rk : list N -> nat) : nat := list_max (map (fun fd => rk (uf_name fd)) (up_fns P)).

Theorem check_perm_accept_ranked intern P Q f TP rk :
  (forall a b, intern a = intern b -> a = b) ->
  up_consts Q = up_consts P -> up_main Q = up_main P ->
  Permutation (up_fns P) (up_fns Q) -> Permutation (up_structs P) (up_structs Q) -> Permutation (up_enums P) (up_enums Q) ->
  NoDup (map uf_name (up_fns P)) -> NoDup (map us_name (up_structs P)) -> NoDup (map ue_name (up_enums P)) ->
  ranked P rk = true ->
  check_program_t intern f P = COk TP -> is_ok (check_program_t intern (S (rank_bound P rk) * f) Q) = true.
Proof.
  intros intern_inj Hconsts Hmain Hfns Hstructs Henums ND_fns ND_structs ND_enums Hdepth EP.
  set (Ft := (S (rank_bound P rk) * f)%nat).
  assert (HFt : Ft = (f + (Ft - f))%nat) by (unfold Ft; cbn [Nat.mul]; lia).
  destruct (check_program_t_ok _ _ _ _ EP) as (consts & structs & enums & ru & stP & C1 & S1 & E1 & R1 & Eg & _ & UP).
  destruct (perm_defs intern intern_inj P Q Hfns Hstructs Henums ND_fns ND_structs ND_enums consts structs enums S1 E1)
    as (structs' & enums' & S2 & E2 & Ps & Pe & _ & _ & HR & HD).
  (* recursive type definitions *)
  destruct (mapM_unit_ok (rec_check Ft structs' enums') (map fst structs' ++ map fst enums')) as [ru' R2].
  { intros x Hx. rewrite HR, HFt. apply rec_check_le. eapply mapM_unit_all; [exact R1|].
    eapply Permutation_in; [|exact Hx]. apply Permutation_sym. apply Permutation_app; apply Permutation_map; assumption. }
  (* the function loops, both in the definition environment of P *)
  set (D := prog_defs P consts structs enums) in *.
  assert (FP : forall fd, In fd (up_fns P) -> find (fun d => list_eqb (uf_name d) (uf_name fd)) (d_fns D) = Some fd)
    by (intros fd Hin; apply (find_by_name _ ND_fns fd Hin)).
  destruct (pub_loop_P intern D f (up_fns P) (mkSt env_new [] []) stP FP (Forall_nil _) eq_refl Eg) as (CbP & _ & WP & TrP).
  assert (AllP : forall fd, In fd (up_fns P) -> defd (uf_name fd) (st_typed stP)) by (intros fd Hin; apply has_key_defd, UP, Hin).
  assert (Hwit : forall fd, In fd (d_fns D) -> exists t0, canonb intern D f (uf_name fd) t0).
  { intros fd Hin. specialize (AllP fd Hin). unfold defd in AllP. destruct (assocL (uf_name fd) (st_typed stP)) as [t0|] eqn:E0; [|congruence].
    exists t0. apply assocL_In in E0. unfold Cgoodb in CbP. rewrite Forall_forall in CbP. exact (CbP _ E0). }
  assert (Hrank : forall fd, In fd (d_fns D) ->
            forallb (okc_s (fun id => Nat.ltb (rk id) (rk (uf_name fd)))) (uf_body fd) = true).
  { intros fd Hin. unfold ranked in Hdepth. exact (forallb_In _ _ _ Hdepth Hin). }
  assert (HFr : forall fd, In fd (d_fns D) -> (S (rk (uf_name fd)) * f <= Ft)%nat).
  { intros fd Hin. unfold Ft. apply Nat.mul_le_mono_r. apply le_n_S. unfold rank_bound.
    apply (in_list_max (fun fd0 => rk (uf_name fd0)) (up_fns P) fd Hin). }
  assert (InQ : forall fd, In fd (up_fns Q) -> In fd (d_fns D))
    by (intros fd Hin; eapply Permutation_in; [apply Permutation_sym; exact Hfns|exact Hin]).
  assert (Cl0 : Deep.Closed intern D f (@nil (list N * tfndef))) by (intros id Hid; exfalso; apply Hid; reflexivity).
  destruct (pub_loop_Q2 intern D f rk Ft ND_fns Hrank Hwit HFr (up_fns Q) (mkSt env_new [] []) InQ
              (fun fd Hin Hp => proj1 (WP fd (InQ fd Hin) Hp)) (Forall_nil _) Cl0 eq_refl) as (stQ & EgQ & _ & ClQ & _ & _ & PubQ).
  (* no unused function in the other order either: what a check in the first run defined, the second run has *)
  assert (AllQ : forall fd, In fd (up_fns Q) -> defd (uf_name fd) (st_typed stQ)).
  { intros fd Hin.
    destruct (TrP (uf_name fd) (AllP fd (InQ fd Hin))) as [H0|(g & st1 & r1 & Hg & Hpg & HCg & Hrg & Hor & Hnd1)].
    - exfalso. apply H0. reflexivity.
    - assert (HgQ : In g (up_fns Q)) by (eapply Permutation_in; [exact Hfns|exact Hg]).
      destruct Hor as [E|Hd]; [rewrite E; apply PubQ; assumption|].
      destruct (ClQ (uf_name g) (PubQ g HgQ Hpg) f st1 r1 g (le_n f) (FP g Hg) HCg Hrg _ Hd) as [H1|H1]; [contradiction|exact H1]. }
  rewrite <- (pub_loop_D_eq intern Ft D _ (HD Ft)) in EgQ. rewrite <- Hconsts in C1.
  rewrite (check_program_t_accept intern Ft Q consts structs' enums' ru' stQ C1 S2 E2 R2 EgQ AllQ). reflexivity.
Qed.

Print Assumptions check_perm_accept_ranked.

Lemma check_perm_accept_ranked_le intern P Q f TP rk b :
  (forall a b, intern a = intern b -> a = b) ->
  up_consts Q = up_consts P -> up_main Q = up_main P ->
  Permutation (up_fns P) (up_fns Q) -> Permutation (up_structs P) (up_structs Q) -> Permutation (up_enums P) (up_enums Q) ->
  NoDup (map uf_name (up_fns P)) -> NoDup (map us_name (up_structs P)) -> NoDup (map ue_name (up_enums P)) ->
  ranked P rk = true -> (rank_bound P rk <= b)%nat ->
  check_program_t intern f P = COk TP -> is_ok (check_program_t intern (S b * f) Q) = true.
Proof.
  intros Hi H1 H2 H3 H4 H5 H6 H7 H8 Hr Hb EP.
  pose proof (check_perm_accept_ranked intern P Q f TP rk Hi H1 H2 H3 H4 H5 H6 H7 H8 Hr EP) as HQ.
  assert (Hle : (S (rank_bound P rk) * f <= S b * f)%nat) by (apply Nat.mul_le_mono_r; lia).
  destruct (le_check_program_t_le intern Q _ _ Hle) as [E|E]; [rewrite E in HQ; discriminate HQ|]. rewrite E. exact HQ.
Qed.

(* with check_perm_export: an order that is accepted whenever P is exports the same program *)
Lemma accept_export intern P Q f F A :
  (forall a b, intern a = intern b -> a = b) ->
  up_consts Q = up_consts P -> up_main Q = up_main P ->
  Permutation (up_fns P) (up_fns Q) -> Permutation (up_structs P) (up_structs Q) -> Permutation (up_enums P) (up_enums Q) ->
  NoDup (map uf_name (up_fns P)) -> NoDup (map us_name (up_structs P)) -> NoDup (map ue_name (up_enums P)) ->
  (forall TP, check_program_t intern f P = COk TP -> is_ok (check_program_t intern F Q) = true) ->
  check_program intern f P = COk A -> check_program intern F Q = COk A.
Proof.
  intros Hi H1 H2 H3 H4 H5 H6 H7 H8 Hacc EP.
  assert (HQ : is_ok (check_program_t intern F Q) = true).
  { unfold check_program in EP. destruct (check_program_t intern f P) as [TP| | |]; try discriminate EP. exact (Hacc TP eq_refl). }
  destruct (check_program_t intern F Q) as [TQ| | |] eqn:EQ; try discriminate HQ.
  assert (EB : check_program intern F Q = COk (export_program intern TQ)) by (unfold check_program; rewrite EQ; reflexivity).
  rewrite EB. f_equal. symmetry. exact (check_perm_export intern P Q f F A _ Hi H1 H2 H3 H4 H5 H6 H7 H8 EP EB).
Qed.

Corollary check_perm_ranked intern P Q f A rk :
  (forall a b, intern a = intern b -> a = b) ->
  up_consts Q = up_consts P -> up_main Q = up_main P ->
  Permutation (up_fns P) (up_fns Q) -> Permutation (up_structs P) (up_structs Q) -> Permutation (up_enums P) (up_enums Q) ->
  NoDup (map uf_name (up_fns P)) -> NoDup (map us_name (up_structs P)) -> NoDup (map ue_name (up_enums P)) ->
  ranked P rk = true ->
  check_program intern f P = COk A -> check_program intern (S (rank_bound P rk) * f) Q = COk A.
Proof.
  intros Hi H1 H2 H3 H4 H5 H6 H7 H8 Hd. apply accept_export; try assumption.
  intros TP. apply check_perm_accept_ranked; assumption.
Qed.
Print Assumptions check_perm_ranked.

(* ================================================================ a computable acyclicity test *)

Section Mono.
Variables Hc Hc' : list N -> bool.
Hypothesis Himp : forall id, Hc id = true -> Hc' id = true.

Ltac lstm := match goal with |- forallb _ ?l = true -> forallb _ ?l = true =>
  let y0 := fresh "y" in let ys := fresh "ys" in let IHys := fresh "IHys" in let A := fresh "A" in let B := fresh "B" in
  induction l as [|y0 ys IHys]; cbn [forallb snd]; [auto|]; rewrite !andb_true_iff; intros [A B]; split; [revert A|apply IHys; exact B] end.

Lemma okc_mono_x : forall e, okc_x Hc e = true -> okc_x Hc' e = true
with okc_mono_s : forall s, okc_s Hc s = true -> okc_s Hc' s = true
with okc_mono_a : forall a, okc_a Hc a = true -> okc_a Hc' a = true.
Proof.
  - intros e. destruct e; cbn [okc_x]; try (intros _; reflexivity); try (destruct args);
      rewrite ?andb_true_iff;
      try (intros [[A1 A2] A3]; repeat split; apply okc_mono_x; assumption);
      try (intros [A1 A2]; split; first [apply okc_mono_x; assumption | apply Himp; assumption | revert A2; lstm; apply okc_mono_x]);
      try apply okc_mono_x; try (lstm; first [apply okc_mono_x | apply okc_mono_s]); auto.
  - intros s. destruct s; cbn [okc_s]; rewrite ?andb_true_iff;
      try apply okc_mono_x;
      intros [A1 A2]; split; first [apply okc_mono_x; assumption | revert A1; lstm; apply okc_mono_a | revert A2; lstm; apply okc_mono_s].
  - intros a. destruct a; cbn [okc_a]; [apply okc_mono_x|auto|auto].
Qed.
End Mono.

(* [lvl fns k id]: the calls below the function [id] nest less than k deep *)
Fixpoint lvl (fns : list ufndef) (k : nat) (id : list N) : bool :=
  match k with
  | O => false
  | S k' => match find (fun d => list_eqb (uf_name d) id) fns with
            | Some fd => forallb (okc_s (lvl fns k')) (uf_body fd)
            | None => false
            end
  end.

(* the least k (below n more steps from k) with lvl (S k) id *)
Fixpoint first_lvl (fns : list ufndef) (id : list N) (n k : nat) : nat :=
  match n with
  | O => k
  | S n' => if lvl fns (S k) id then k else first_lvl fns id n' (S k)
  end.
Definition call_rank (fns : list ufndef) (id : list N) : nat := first_lvl fns id (length fns) 0.

(* every function's calls nest less than (number of functions) deep: no cycle *)
Definition call_graph_acyclic (P : uprogram) : bool :=
  forallb (fun fd => lvl (up_fns P) (length (up_fns P)) (uf_name fd)) (up_fns P).

Lemma lvl_S fns : forall k id, lvl fns k id = true -> lvl fns (S k) id = true.
Proof.
  induction k as [|k IH]; intros id H; [discriminate H|]. cbn [lvl] in *.
  destruct (find _ fns) as [fd|]; [|discriminate H]. revert H.
  induction (uf_body fd) as [|s b IHb]; cbn [forallb]; [auto|]. rewrite !andb_true_iff. intros [A B].
  split; [exact (okc_mono_s _ _ IH s A)|apply IHb; exact B].
Qed.

Lemma lvl_le fns k k' id : (k <= k')%nat -> lvl fns k id = true -> lvl fns k' id = true.
Proof. induction 1 as [|k' _ IH]; [auto|]. intro H. apply lvl_S, IH, H. Qed.

Lemma first_lvl_spec fns id : forall n k j, (k < j)%nat -> (j <= k + n)%nat -> lvl fns j id = true ->
  (forall i, (i <= k)%nat -> lvl fns i id = false) ->
  let r := first_lvl fns id n k in (r < j)%nat /\ lvl fns (S r) id = true /\ (forall i, (i <= r)%nat -> lvl fns i id = false).
Proof.
  induction n as [|n IH]; intros k j Hkj Hjn Hj Hlow; [lia|]. cbn [first_lvl]. cbv zeta.
  destruct (lvl fns (S k) id) eqn:E.
  - split; [exact Hkj|]. split; [exact E|exact Hlow].
  - assert (Hk1 : (S k < j)%nat).
    { destruct (Nat.eq_dec j (S k)) as [->|Hne]; [congruence|lia]. }
    apply (IH (S k) j Hk1 ltac:(lia) Hj). intros i Hi. destruct (Nat.eq_dec i (S k)) as [->|Hne]; [exact E|apply Hlow; lia].
Qed.

Lemma body_mono_s Hc Hc' b : (forall id, Hc id = true -> Hc' id = true) ->
  forallb (okc_s Hc) b = true -> forallb (okc_s Hc') b = true.
Proof.
  intro H. induction b as [|s b IH]; cbn [forallb]; [auto|]. rewrite !andb_true_iff. intros [A B].
  split; [exact (okc_mono_s _ _ H s A)|apply IH; exact B].
Qed.

Theorem acyclic_ranked P : NoDup (map uf_name (up_fns P)) -> call_graph_acyclic P = true ->
  ranked P (call_rank (up_fns P)) = true /\ (rank_bound P (call_rank (up_fns P)) <= length (up_fns P))%nat.
Proof.
  intros ND Hac. set (fns := up_fns P) in *. set (Nf := length fns).
  assert (Spec : forall id j, (0 < j)%nat -> (j <= Nf)%nat -> lvl fns j id = true ->
            (call_rank fns id < j)%nat /\ lvl fns (S (call_rank fns id)) id = true /\
            (forall i, (i <= call_rank fns id)%nat -> lvl fns i id = false)).
  { intros id j H0 HN Hj. unfold call_rank. apply (first_lvl_spec fns id Nf 0 j H0 ltac:(lia) Hj).
    intros i Hi. assert (i = 0)%nat by lia. subst i. reflexivity. }
  assert (Hall : forall fd, In fd fns -> lvl fns Nf (uf_name fd) = true) by (intros fd Hin; exact (forallb_In _ _ _ Hac Hin)).
  assert (HNpos : forall fd, In fd fns -> (0 < Nf)%nat) by (intros fd Hin; unfold Nf; destruct fns; [destruct Hin|cbn [length]; lia]).
  split.
  - unfold ranked. apply forallb_forall. intros fd Hin.
    destruct (Spec (uf_name fd) Nf (HNpos fd Hin) (le_n _) (Hall fd Hin)) as (Hlt & Hs & _).
    cbn [lvl] in Hs. fold fns in Hs. rewrite (find_by_name fns ND fd Hin) in Hs.
    eapply body_mono_s; [|exact Hs]. intros id Hid. cbv beta. apply Nat.ltb_lt.
    set (r := call_rank fns (uf_name fd)) in *.
    destruct r as [|r']; [discriminate Hid|].
    exact (proj1 (Spec id (S r') ltac:(lia) ltac:(lia) Hid)).
  - unfold rank_bound. fold fns. fold Nf. apply list_max_le. rewrite Forall_map. apply Forall_forall. intros fd Hin.
    destruct (Spec (uf_name fd) Nf (HNpos fd Hin) (le_n _) (Hall fd Hin)) as (Hlt & _). lia.
Qed.

(* ACCEPTANCE DOES NOT DEPEND ON THE ORDER OF THE MAPS (programs whose syntactic call graph is acyclic):
   accepted with fuel f => every reordering is accepted with fuel (number of functions + 1) * f *)
Theorem check_perm_accept intern P Q f TP :
  (forall a b, intern a = intern b -> a = b) ->
  up_consts Q = up_consts P -> up_main Q = up_main P ->
  Permutation (up_fns P) (up_fns Q) -> Permutation (up_structs P) (up_structs Q) -> Permutation (up_enums P) (up_enums Q) ->
  NoDup (map uf_name (up_fns P)) -> NoDup (map us_name (up_structs P)) -> NoDup (map ue_name (up_enums P)) ->
  call_graph_acyclic P = true ->
  check_program_t intern f P = COk TP -> is_ok (check_program_t intern (S (length (up_fns P)) * f) Q) = true.
Proof.
  intros Hi H1 H2 H3 H4 H5 H6 H7 H8 Hac. destruct (acyclic_ranked P H6 Hac) as [Hr Hb].
  apply (check_perm_accept_ranked_le intern P Q f TP (call_rank (up_fns P))); assumption.
Qed.

Corollary check_perm_final intern P Q f A :
  (forall a b, intern a = intern b -> a = b) ->
  up_consts Q = up_consts P -> up_main Q = up_main P ->
  Permutation (up_fns P) (up_fns Q) -> Permutation (up_structs P) (up_structs Q) -> Permutation (up_enums P) (up_enums Q) ->
  NoDup (map uf_name (up_fns P)) -> NoDup (map us_name (up_structs P)) -> NoDup (map ue_name (up_enums P)) ->
  call_graph_acyclic P = true ->
  check_program intern f P = COk A -> check_program intern (S (length (up_fns P)) * f) Q = COk A.
Proof.
  intros Hi H1 H2 H3 H4 H5 H6 H7 H8 Hd. apply accept_export; try assumption.
  intros TP. apply check_perm_accept; assumption.
Qed.

Lemma nocall_okc Hc b : forallb ncb_s b = true -> forallb (okc_s Hc) b = true.
Proof.
  intro H. apply (body_mono_s (fun _ => false) Hc); [discriminate|].
  rewrite <- H. clear H. induction b as [|s b IH]; cbn [forallb]; [reflexivity|]. rewrite okc_ncb_s, IH. reflexivity.
Qed.

(* call depth <= 1: the functions that call nothing have rank 0, the others rank 1 *)
Theorem check_perm_accept_depth1 intern P Q f TP :
  (forall a b, intern a = intern b -> a = b) ->
  up_consts Q = up_consts P -> up_main Q = up_main P ->
  Permutation (up_fns P) (up_fns Q) -> Permutation (up_structs P) (up_structs Q) -> Permutation (up_enums P) (up_enums Q) ->
  NoDup (map uf_name (up_fns P)) -> NoDup (map us_name (up_structs P)) -> NoDup (map ue_name (up_enums P)) ->
  call_depth_le_1 P = true ->
  check_program_t intern f P = COk TP -> is_ok (check_program_t intern (2 * f) Q) = true.
Proof.
  intros Hi H1 H2 H3 H4 H5 H6 H7 H8 Hd.
  set (rk := fun id => if helperb (up_fns P) id then O else 1%nat).
  apply (check_perm_accept_ranked_le intern P Q f TP rk 1); try assumption.
  - unfold ranked. apply forallb_forall. intros fd Hin.
    pose proof (forallb_In _ _ _ Hd Hin) as Hc. cbv beta in Hc. apply orb_true_iff in Hc.
    destruct (nocallb fd) eqn:En; [apply nocall_okc; exact En|].
    destruct Hc as [Hc|Hc]; [discriminate|].
    eapply body_mono_s; [|exact Hc]. intros id Hid. cbv beta. apply Nat.ltb_lt. unfold rk. rewrite Hid.
    unfold helperb. rewrite (find_by_name _ H6 fd Hin), En. lia.
  - unfold rank_bound. apply list_max_le. rewrite Forall_map. apply Forall_forall. intros fd _. unfold rk. destruct (helperb _ _); lia.
Qed.
Print Assumptions check_perm_accept_depth1.

Corollary check_perm_depth1 intern P Q f A :
  (forall a b, intern a = intern b -> a = b) ->
  up_consts Q = up_consts P -> up_main Q = up_main P ->
  Permutation (up_fns P) (up_fns Q) -> Permutation (up_structs P) (up_structs Q) -> Permutation (up_enums P) (up_enums Q) ->
  NoDup (map uf_name (up_fns P)) -> NoDup (map us_name (up_structs P)) -> NoDup (map ue_name (up_enums P)) ->
  call_depth_le_1 P = true ->
  check_program intern f P = COk A -> check_program intern (2 * f) Q = COk A.
Proof.
  intros Hi H1 H2 H3 H4 H5 H6 H7 H8 Hd. apply accept_export; try assumption.
  intros TP. apply check_perm_accept_depth1; assumption.
Qed.
Print Assumptions check_perm_depth1.

(* no calls at all: rank 0 everywhere, no extra fuel, so the two orders are accepted together *)
Theorem check_perm_accept_nocalls intern P Q fuel :
  (forall a b, intern a = intern b -> a = b) ->
  up_consts Q = up_consts P -> up_main Q = up_main P ->
  Permutation (up_fns P) (up_fns Q) -> Permutation (up_structs P) (up_structs Q) -> Permutation (up_enums P) (up_enums Q) ->
  NoDup (map uf_name (up_fns P)) -> NoDup (map us_name (up_structs P)) -> NoDup (map ue_name (up_enums P)) ->
  (forall fd, In fd (up_fns P) -> nocall_fn fd) ->
  is_ok (check_program_t intern fuel P) = is_ok (check_program_t intern fuel Q).
Proof.
  assert (Dir : forall P Q TP,
    (forall a b, intern a = intern b -> a = b) ->
    up_consts Q = up_consts P -> up_main Q = up_main P ->
    Permutation (up_fns P) (up_fns Q) -> Permutation (up_structs P) (up_structs Q) -> Permutation (up_enums P) (up_enums Q) ->
    NoDup (map uf_name (up_fns P)) -> NoDup (map us_name (up_structs P)) -> NoDup (map ue_name (up_enums P)) ->
    (forall fd, In fd (up_fns P) -> nocall_fn fd) ->
    check_program_t intern fuel P = COk TP -> is_ok (check_program_t intern fuel Q) = true).
  { intros P0 Q0 TP Hi H1 H2 H3 H4 H5 H6 H7 H8 Hn EP. rewrite <- (Nat.mul_1_l fuel) at 1.
    apply (check_perm_accept_ranked_le intern P0 Q0 fuel TP (fun _ => O) 0); try assumption.
    - unfold ranked. apply forallb_forall. intros fd Hin. apply nocall_okc. exact (Hn fd Hin).
    - unfold rank_bound. apply list_max_le. rewrite Forall_map. apply Forall_forall. intros; lia. }
  intros Hi H1 H2 H3 H4 H5 H6 H7 H8 Hn.
  pose proof (fun TP => Dir P Q TP Hi H1 H2 H3 H4 H5 H6 H7 H8 Hn) as HPQ.
  assert (HQP : forall TQ, check_program_t intern fuel Q = COk TQ -> is_ok (check_program_t intern fuel P) = true).
  { intro TQ. apply Dir; try assumption; try (symmetry; assumption); try (apply Permutation_sym; assumption).
    - eapply Permutation_NoDup; [apply Permutation_map; exact H3|exact H6].
    - eapply Permutation_NoDup; [apply Permutation_map; exact H4|exact H7].
    - eapply Permutation_NoDup; [apply Permutation_map; exact H5|exact H8].
    - intros fd Hin. apply Hn. eapply Permutation_in; [apply Permutation_sym; exact H3|exact Hin]. }
  destruct (check_program_t intern fuel P) as [TP| | |], (check_program_t intern fuel Q) as [TQ| | |]; cbn [is_ok] in *;
    try reflexivity; first [discriminate (HPQ _ eq_refl) | discriminate (HQP _ eq_refl)].
Qed.
Print Assumptions check_perm_accept_nocalls.

Print Assumptions Deep.check_imp.
Print Assumptions acyclic_ranked.
Print Assumptions check_perm_accept.
Print Assumptions check_perm_final.

(* the test on the examples: the call chain of InferPerm.PermExamples is acyclic, a recursion is not *)
From Coq Require Import String.
Module AcyclicExamples.
Local Open Scope string_scope.
Definition acyclic (txt : string) : option bool :=
  match PermExamples.parse_text txt with Some P => Some (call_graph_acyclic P) | None => None end.
Example chain_acyclic : acyclic PermExamples.t_calls = Some true.
Proof. vm_compute. reflexivity. Qed.
Example recursion_cyclic : acyclic "
  fn f(a: u8) -> u8 { g(a) }
  fn g(a: u8) -> u8 { f(a) }
  pub fn main(x: u8) -> u8 { f(x) }" = Some false.
Proof. vm_compute. reflexivity. Qed.
End AcyclicExamples.
