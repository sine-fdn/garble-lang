(* C07, part C: FUEL ADEQUACY of the model of the type checker.  [check_fuel_needed P] units of
   fuel are enough: with that much the checker never answers CNoFuel -- provided the
   exhaustiveness oracle (Exhaust/Useful.v, run with its own bound [fuel_bound]) does not;
   unconditionally for programs whose `let` / `for` patterns are irrefutable and that have no
   `match`. *)
From Coq Require Import Lia Bool.
From GV Require Import Base.Util Front.Scan Front.ParseExpr Check.UAst Check.Infer Check.InferProofs Check.InferTotal.
Local Open Scope nat_scope.

(* ================================================================ the typed tree: how deep
   constrain_type / constrain_to_i32 can descend *)

Fixpoint td (e : texpr) : nat :=
  match e with
  | TE i _ =>
      match i with
      | TArrayLiteral es => S (list_max (map td es))
      | TArrayRepeatLiteral x _ => S (td x)
      | TTupleLiteral es => S (list_max (map td es))
      | TMatch _ arms => S (list_max (map (fun a => td (snd a)) arms))
      | TUnaryOp _ x => S (td x)
      | TOp _ a b => S (Nat.max (td a) (td b))
      | TBlock b => S (list_max (map tsd b))
      | TIf _ a b => S (Nat.max (td a) (td b))
      | _ => 1
      end
  end
with tsd (s : tstmt) : nat :=
  match s with TSExpr e => td e | _ => 0 end.

Lemma td_set_ty e t : td (set_ty e t) = td e.
Proof. destruct e; reflexivity. Qed.

Lemma td_pos e : 1 <= td e.
Proof. destruct e as [i t]; destruct i; cbn [td]; lia. Qed.

(* ================================================================ post-conditions *)

Definition post {A} (Q : A -> Prop) (r : cres A) : Prop :=
  match r with COk a => Q a | CNoFuel => False | _ => True end.

Lemma post_bind {A B} (Q : A -> Prop) (R : B -> Prop) (r : cres A) (k : A -> cres B) :
  post Q r -> (forall a, Q a -> post R (k a)) -> post R (cbind r k).
Proof. destruct r; cbn [cbind post]; auto. Qed.

Lemma post_nf {A} (r : cres A) : nf r -> post (fun _ => True) r.
Proof. destruct r; cbn [post]; auto. discriminate. Qed.

Lemma post_weaken {A} (Q R : A -> Prop) r : post Q r -> (forall a, Q a -> R a) -> post R r.
Proof. destruct r; cbn [post]; auto. Qed.

Lemma post_nofuel {A} (Q : A -> Prop) r : post Q r -> r <> CNoFuel.
Proof. intros H E. subst r. exact H. Qed.

Lemma post_to_nf {A} (Q : A -> Prop) (r : cres A) : post Q r -> nf r.
Proof. destruct r; cbn [post]; intro H; try reflexivity; [apply andb_false_r|destruct H]. Qed.

Lemma post_self {A} (r : cres A) : nf r -> post (fun a => r = COk a) r.
Proof. destruct r; cbn; auto. discriminate. Qed.

Lemma post_strengthen {A} (Q R : A -> Prop) (r : cres A) : post Q r -> (forall a, r = COk a -> R a) -> post (fun a => Q a /\ R a) r.
Proof. destruct r; cbn [post]; auto. Qed.

Lemma post_mapM {A B} (f : A -> cres B) (P : A -> Prop) (Q : B -> Prop) :
  (forall x, P x -> post Q (f x)) -> forall l, Forall P l -> post (Forall Q) (mapM f l).
Proof.
  intros H l Hl. induction Hl as [|x l Hx _ IH]; cbn [mapM]; [constructor|].
  eapply post_bind; [apply H; exact Hx|]. intros a Qa. eapply post_bind; [exact IH|]. intros b Qb. constructor; assumption.
Qed.

Lemma post_zipM {A B} (f : A -> B -> cres A) (P : A -> Prop) :
  (forall x y, P x -> post P (f x y)) -> forall xs ys, Forall P xs -> post (Forall P) (zipM f xs ys).
Proof.
  intros H xs. induction xs as [|x xs IH]; intros ys Hl; destruct ys as [|y ys]; cbn [zipM]; try exact Hl.
  inversion Hl; subst. eapply post_bind; [apply H; assumption|]. intros a Qa.
  eapply post_bind; [apply IH; assumption|]. intros b Qb. constructor; assumption.
Qed.

Lemma post_map_last_expr f n : (forall e, td e <= n -> post (fun e' => td e' <= n) (f e)) ->
  forall b, Forall (fun s => tsd s <= n) b -> post (Forall (fun s => tsd s <= n)) (map_last_expr f b).
Proof.
  intros H b Hb. induction Hb as [|s b Hs Hb IH]; cbn [map_last_expr]; [constructor|].
  destruct b as [|s2 b2].
  - destruct s; try (constructor; [exact Hs|constructor]).
    eapply post_bind; [apply H; exact Hs|]. intros e' He'. constructor; [exact He'|constructor].
  - destruct s; (eapply post_bind; [exact IH|]; intros r Hr; constructor; assumption).
Qed.

Lemma list_max_map_le {A} (g : A -> nat) l n : list_max (map g l) <= n <-> Forall (fun x => g x <= n) l.
Proof. rewrite list_max_le. rewrite Forall_map. reflexivity. Qed.

(* ---------------------------------------------------------------- the fuel-free helpers *)

Lemma post_coc_u e t : post (fun e' => td e' = td e) (check_or_constrain_unsigned e t).
Proof.
  unfold check_or_constrain_unsigned. destruct (_ && _); [exact I|].
  destruct (unsigned_max t); [|apply td_set_ty]. destruct (inner_of e); try apply td_set_ty.
  destruct (_ <? _)%N; [exact I|apply td_set_ty].
Qed.

Lemma post_coc_s e t : post (fun e' => td e' = td e) (check_or_constrain_signed e t).
Proof.
  unfold check_or_constrain_signed. destruct (_ && _); [exact I|]. cbv zeta.
  match goal with |- post _ (if ?c then _ else _) => destruct c end; [exact I|].
  match goal with |- post _ (if ?c then _ else _) => destruct c end; [exact I|]. apply td_set_ty.
Qed.

(* ---------------------------------------------------------------- constrain_type *)

Lemma post_constrain_type : forall f n e t, td e <= n -> n <= f -> post (fun e' => td e' <= n) (constrain_type f e t).
Proof.
  induction f as [|f IH]; intros n e t He Hn; [pose proof (td_pos e); lia|].
  cbn [constrain_type]. cbv zeta.
  assert (Hleaf : post (fun e' => td e' <= n)
            (match t with
             | CUnsigned t0 => check_or_constrain_unsigned e t0
             | CSigned t0 => check_or_constrain_signed e t0
             | _ => COk e end)).
  { destruct t; try exact He; (eapply post_weaken; [first [apply post_coc_u|apply post_coc_s]|]; intros a Ha; cbv beta in *; lia). }
  eapply post_bind; [|intros e1 He1; cbn [post]; rewrite td_set_ty; exact He1].
  destruct e as [i ty]. cbn [inner_of ty_of] in *. pose proof (td_pos (TE i ty)) as Hp.
  destruct n as [|n]; [lia|]. assert (Hn' : n <= f) by lia.
  destruct i; try exact Hleaf; cbn [td] in He.
  - (* identifier *)
    destruct t; try exact Hleaf; cbn [post]; rewrite td_set_ty; exact He.
  - (* array literal *)
    destruct t; try exact Hleaf.
    eapply post_bind; [apply (post_mapM _ (fun x => td x <= n) (fun x => td x <= n)); [intros x Hx; apply IH; assumption|]|].
    + apply list_max_map_le. lia.
    + intros es' Hes. cbn [post td]. apply le_n_S. apply list_max_map_le. exact Hes.
  - destruct t; try exact Hleaf.
    eapply post_bind; [apply (IH n); [lia|exact Hn']|]. intros x' Hx. cbv beta in *; cbn [post td]; lia.
  - (* tuple *)
    destruct t; try exact Hleaf. destruct (_ =? _)%N; [|exact He].
    eapply post_bind; [apply (post_zipM _ (fun x => td x <= n)); [intros x y Hx; apply IH; assumption|]|].
    + apply list_max_map_le. lia.
    + intros es' Hes. cbn [post td]. apply le_n_S. apply list_max_map_le. exact Hes.
  - (* match *)
    eapply post_bind; [apply (post_mapM _ (fun a => td (snd a) <= n) (fun a => td (snd a) <= n))|].
    + intros pc Hpc. eapply post_bind; [apply (IH n); [exact Hpc|exact Hn']|]. intros b Hb. exact Hb.
    + apply list_max_map_le. lia.
    + intros cl Hcl. cbn [post td]. apply le_n_S. apply list_max_map_le. exact Hcl.
  - (* unary *)
    eapply post_bind; [apply (IH n); [lia|exact Hn']|]. intros x' Hx. cbv beta in *; cbn [post td]; lia.
  - (* op *)
    destruct o; try exact He;
      try (eapply post_bind; [apply (IH n); [lia|exact Hn']|]; intros a' Ha;
           eapply post_bind; [apply (IH n); [lia|exact Hn']|]; intros b' Hb; cbv beta in *; cbn [post td]; lia);
      (eapply post_bind; [apply (IH n); [lia|exact Hn']|]; intros a' Ha; cbv beta in *; cbn [post td]; lia).
  - (* block *)
    eapply post_bind; [apply (post_map_last_expr _ n); [intros x Hx; apply IH; assumption|]|].
    + apply list_max_map_le. lia.
    + intros b' Hb'. cbn [post td]. apply le_n_S. apply list_max_map_le. exact Hb'.
  - (* if *)
    eapply post_bind; [apply (IH n); [lia|exact Hn']|]. intros a' Ha.
    eapply post_bind; [apply (IH n); [lia|exact Hn']|]. intros b' Hb. cbv beta in *; cbn [post td]; lia.
  - (* range: an unsuffixed range takes the element type of the array; the node stays a leaf *)
    repeat match goal with
           | |- post _ (match ?x with _ => _ end) => destruct x
           | |- post _ (if ?c then _ else _) => destruct c
           end; try exact Hleaf; try exact I; cbn [post td]; lia.
Qed.

(* fix 64720dd: the deep versions run constrain_type on compound operands: they need fuel for the depth *)
Lemma post_coc_u_deep f n e t : td e <= n -> n <= f -> post (fun e' => td e' <= n) (coc_unsigned_deep f e t).
Proof.
  intros He Hn. unfold coc_unsigned_deep. destruct (_ && _); [exact I|].
  destruct (_ && _); [apply post_constrain_type; assumption|].
  eapply post_weaken; [apply post_coc_u|]. intros e' E. cbv beta in E. lia.
Qed.

Lemma post_coc_s_deep f n e t : td e <= n -> n <= f -> post (fun e' => td e' <= n) (coc_signed_deep f e t).
Proof.
  intros He Hn. unfold coc_signed_deep. destruct (_ && _); [exact I|].
  destruct (_ && _); [apply post_constrain_type; assumption|].
  eapply post_weaken; [apply post_coc_s|]. intros e' E. cbv beta in E. lia.
Qed.

Lemma post_unify f n a b : td a <= n -> td b <= n -> n <= f ->
  post (fun u => td (fst (fst u)) <= n /\ td (snd (fst u)) <= n) (unify f a b).
Proof.
  intros Ha Hb Hn. unfold unify. cbv zeta. destruct (cty_eqb _ _); [cbn [post fst snd]; rewrite !td_set_ty; auto|].
  destruct (ty_of a) as [| [] | [] | | | |]; destruct (ty_of b) as [| [] | [] | | | |]; try exact I;
    (eapply post_bind; [first [apply (post_coc_u_deep f n)|apply (post_coc_s_deep f n)]; assumption|];
     intros e' He'; cbn [post fst snd]; rewrite !td_set_ty; auto).
Qed.

Lemma post_check_type f n e t : td e <= n -> n <= f -> post (fun e' => td e' <= n) (check_type f e t).
Proof.
  intros He Hn. unfold check_type. eapply post_bind; [apply post_constrain_type; eassumption|].
  intros e' He'. destruct (cty_eqb _ _); [exact He'|exact I].
Qed.

Lemma post_constrain_to_i32 : forall f n b, td b <= n -> n <= f -> post (fun b' => td b' <= n) (constrain_to_i32 f b).
Proof.
  induction f as [|f IH]; intros n b Hb Hn; [pose proof (td_pos b); lia|].
  cbn [constrain_to_i32].
  eapply post_bind with (Q := fun b1 => td b1 <= n).
  { destruct (_ || _); [apply (post_coc_s_deep (S f) n); assumption|exact Hb]. }
  intros b1 Hb1. eapply post_bind; [|intros b2 Hb2; cbn [post]; rewrite td_set_ty; exact Hb2].
  clear Hb. rename Hb1 into Hb. destruct b1 as [i ty]. cbn [inner_of ty_of].
  pose proof (td_pos (TE i ty)) as Hp. destruct n as [|n]; [lia|]. assert (Hn' : n <= f) by lia.
  destruct i; try exact Hb; cbn [td] in Hb.
  - eapply post_bind; [apply (post_mapM _ (fun x => td x <= n) (fun x => td x <= n)); [intros x Hx; apply IH; assumption|]|].
    + apply list_max_map_le. lia.
    + intros es' Hes. cbn [post td]. apply le_n_S. apply list_max_map_le. exact Hes.
  - eapply post_bind; [apply (IH n); [lia|exact Hn']|]. intros x' Hx. cbv beta in *; cbn [post td]; lia.
  - eapply post_bind; [apply (post_mapM _ (fun x => td x <= n) (fun x => td x <= n)); [intros x Hx; apply IH; assumption|]|].
    + apply list_max_map_le. lia.
    + intros es' Hes. cbn [post td]. apply le_n_S. apply list_max_map_le. exact Hes.
Qed.

(* ================================================================ the fuel needed *)

Fixpoint xd (e : xexpr) : nat :=
  match e with
  | XTrue | XFalse | XNumUnsigned _ _ | XNumSigned _ _ | XIdentifier _ | XRange _ _ _ => 1
  | XArrayLiteral es => S (list_max (map xd es))
  | XArrayRepeatLiteral e _ => S (xd e)
  | XArrayRepeatLiteralConst _ _ => 1
  | XArrayAccess a i => S (Nat.max (xd a) (xd i))
  | XTupleLiteral es => S (list_max (map xd es))
  | XTupleAccess e _ => S (xd e)
  | XStructAccess e _ => S (xd e)
  | XStructLiteral _ fs => S (list_max (map (fun f => xd (snd f)) fs))
  | XEnumLiteral _ _ None => 1
  | XEnumLiteral _ _ (Some es) => S (list_max (map xd es))
  | XMatch e arms => S (Nat.max (xd e) (list_max (map (fun a => xd (snd a)) arms)))
  | XUnaryOp _ e => S (xd e)
  | XOp _ l r => S (Nat.max (xd l) (xd r))
  | XBlock b => S (S (list_max (map sdx b)))
  | XFnCall _ args => S (S (list_max (map xd args)))
  | XJoin _ => 1
  | XIf c t e => S (Nat.max (xd c) (Nat.max (xd t) (xd e)))
  | XCast _ e => S (xd e)
  end
with sdx (s : xstmt) : nat :=
  match s with
  | XSLet _ _ e => S (xd e)
  | XSLetMut _ _ e => S (xd e)
  | XSExpr e => S (xd e)
  | XSVarAssign _ accs e => S (Nat.max (list_max (map adx accs)) (xd e))
  | XSForEach _ e body => S (Nat.max (xd e) (S (list_max (map sdx body))))
  end
with adx (a : xaccessor) : nat :=
  match a with XAArray i => xd i | _ => 0 end.

Lemma xd_pos e : 1 <= xd e.
Proof. destruct e; cbn [xd]; try lia. destruct args; lia. Qed.
Lemma sdx_pos s : 1 <= sdx s.
Proof. destruct s; cbn [sdx]; lia. Qed.

(* a block / statement list *)
Definition bdx (b : list xstmt) : nat := S (list_max (map sdx b)).
(* a function: its own level and its body *)
Definition fneed (fd : ufndef) : nat := S (bdx (uf_body fd)).
Definition dmax (fns : list ufndef) : nat := list_max (map fneed fns).

(* how many function definitions can still be entered: those whose name is not being checked *)
Definition cnt (fns : list ufndef) (chk : list (list N)) : nat :=
  length (filter (fun fd => negb (memL (uf_name fd) chk)) fns).

Lemma memL_cons x y l : memL x (y :: l) = list_eqb x y || memL x l.
Proof. reflexivity. Qed.

Lemma filter_length_le {A} (p q : A -> bool) l : (forall x, q x = true -> p x = true) ->
  length (filter q l) <= length (filter p l).
Proof.
  intro H. induction l as [|x l IH]; cbn [filter]; [lia|].
  destruct (q x) eqn:Eq; [rewrite (H x Eq); cbn [length]; lia|]. destruct (p x); cbn [length]; lia.
Qed.

Lemma cnt_enter fns chk fd : In fd fns -> memL (uf_name fd) chk = false ->
  cnt fns (uf_name fd :: chk) < cnt fns chk.
Proof.
  unfold cnt. intros Hin Hm. induction fns as [|g fns IH]; [destruct Hin|].
  cbn [filter]. rewrite memL_cons.
  destruct Hin as [->|Hin].
  - rewrite list_eqb_refl, Hm. cbn [orb negb length].
    pose proof (filter_length_le (fun fd0 => negb (memL (uf_name fd0) chk))
                  (fun fd0 => negb (memL (uf_name fd0) (uf_name fd :: chk))) fns) as Hle.
    assert (length (filter (fun fd0 => negb (memL (uf_name fd0) (uf_name fd :: chk))) fns) <=
            length (filter (fun fd0 => negb (memL (uf_name fd0) chk)) fns)).
    { apply Hle. intros x. rewrite memL_cons. destruct (list_eqb _ _); cbn [orb negb]; [discriminate|auto]. }
    lia.
  - specialize (IH Hin). destruct (memL (uf_name g) chk); cbn [orb negb].
    + rewrite orb_true_r. cbn [negb]. exact IH.
    + destruct (list_eqb _ _); cbn [orb negb length]; lia.
Qed.

Lemma cnt_nil fns : cnt fns [] = length fns.
Proof. unfold cnt. induction fns as [|a l IH]; [reflexivity|]. cbn [filter]. unfold memL at 1. cbn [existsb negb length]. f_equal. exact IH. Qed.

(* ================================================================ the checker proper *)

Section Fuel.
Variable intern : list N -> N.
Notation check_expr := (check_expr intern).
Notation check_stmt := (check_stmt intern).
Notation check_stmts := (check_stmts intern).
Notation check_block := (check_block intern).
Notation check_fn := (check_fn intern).

Definition chk_is (c0 : list (list N)) {A} (Q : A -> Prop) (r : A * cstate) : Prop :=
  st_checking (snd r) = c0 /\ Q (fst r).

Definition chkI (c0 : list (list N)) (I : cstate -> Prop) {A} (Q : A -> Prop) (r : A * cstate) : Prop :=
  st_checking (snd r) = c0 /\ I (snd r) /\ Q (fst r).

Lemma post_mapM_stI {A B} (g : cstate -> A -> cres (B * cstate)) c0 (I : cstate -> Prop) (Q : B -> Prop) l :
  (forall st x, In x l -> st_checking st = c0 -> I st -> post (chkI c0 I Q) (g st x)) ->
  forall st, st_checking st = c0 -> I st -> post (chkI c0 I (Forall Q)) (mapM_st g st l).
Proof.
  induction l as [|x l IH]; intros H st Hst HI; cbn [mapM_st]; [split; [exact Hst|split; [exact HI|constructor]]|].
  eapply post_bind; [apply H; [now left|exact Hst|exact HI]|]. intros r1 (H1 & I1 & Q1).
  eapply post_bind; [apply IH; [intros; apply H; [now right|assumption|assumption]|exact H1|exact I1]|]. intros r2 (H2 & I2 & Q2).
  split; [exact H2|split; [exact I2|constructor; assumption]].
Qed.

Variable D : defs.
Let M := dmax (d_fns D).

Definition GoalE (f : nat) : Prop := forall c0 k st e, st_checking st = c0 -> cnt (d_fns D) c0 <= k -> xd e + k * M <= f ->
  post (chk_is c0 (fun te => td te <= f)) (check_expr f D st e).
Definition GoalSS (f : nat) : Prop := forall c0 k st b, st_checking st = c0 -> cnt (d_fns D) c0 <= k -> bdx b + k * M <= f ->
  post (chk_is c0 (Forall (fun s => tsd s <= f))) (check_stmts f D st b).
Definition GoalB (f : nat) : Prop := forall c0 k st b, st_checking st = c0 -> cnt (d_fns D) c0 <= k -> bdx b + k * M <= f ->
  post (fun r => st_checking (snd r) = c0 /\ Forall (fun s => tsd s <= f) (fst (fst r))) (check_block f D st b).
Definition GoalS (f : nat) : Prop := forall c0 k st s, st_checking st = c0 -> cnt (d_fns D) c0 <= k -> sdx s + k * M <= f ->
  post (chk_is c0 (fun ts => tsd ts <= f)) (check_stmt f D st s).
Definition GoalF (f : nat) : Prop := forall c0 k st fd, st_checking st = c0 -> cnt (d_fns D) c0 <= k -> In fd (d_fns D) ->
  1 + k * M <= f -> post (fun r => st_checking (snd r) = c0) (check_fn f D st fd).

End Fuel.

(* ================================================================ the bound

   [check_fuel_needed P]: every function body needs at most [dmax] levels; a chain of calls
   enters each function definition at most once ([cnt_enter]: the checker rejects recursion
   through st_checking), so (number of functions + 1) * (dmax + 1) levels are enough for the
   function part; contains_type_def enters every named type at most once (its `visited` set)
   and otherwise descends in a field type.

   Here: the fuel of constrain_type / check_type / constrain_to_i32 is adequate as soon as it bounds
   the depth [td] of the typed tree they walk, and they do not increase [td] (post_constrain_type,
   post_check_type, post_constrain_to_i32); the measure of the call depth decreases at every function
   entry (cnt_enter).  The mutual induction over check_expr / check_stmt / check_fn that puts these
   together (statements GoalE .. GoalF) is InferAdequacy.v; contains_type_def and the program level
   are InferFuel2.v. *)

Fixpoint utd (t : utype) : nat :=
  match t with
  | UTTuple ts => S (list_max (map utd ts))
  | UTArray t _ => S (utd t)
  | UTArrayConst t _ => S (utd t)
  | UTArrayConstExpr t _ => S (utd t)
  | _ => 1
  end.

Definition type_fuel_needed (P : uprogram) : nat :=
  let field_tys := flat_map (fun sd => map snd (us_fields sd)) (up_structs P) ++
                   flat_map (fun ed => flat_map (fun v => match v with UVTuple _ ts => ts | UVUnit _ => [] end)
                                                (ue_variants ed)) (up_enums P) in
  S (S (length (up_structs P) + length (up_enums P)) * S (list_max (map utd field_tys))).

Definition check_fuel_needed (P : uprogram) : nat :=
  S (S (length (up_fns P)) * S (dmax (up_fns P))) + type_fuel_needed P.

Print Assumptions post_constrain_type.
Print Assumptions post_check_type.
Print Assumptions post_constrain_to_i32.
Print Assumptions cnt_enter.

(* sanity (vm_compute): with the bound the example programs of Check/InferExamples.v
   are checked without CNoFuel, and with one unit the checker does answer CNoFuel *)
From GV Require Check.InferExamples.
Definition out_of_fuel {A} (r : cres A) : bool := match r with CNoFuel => true | _ => false end.
Example candidate_bound_examples :
  map (fun P => (check_fuel_needed P, out_of_fuel (check_program_t InferExamples.ex_intern (check_fuel_needed P) P),
                 out_of_fuel (check_program_t InferExamples.ex_intern 1 P)))
      [InferExamples.P_loop; InferExamples.P_call; InferExamples.P_s3; InferExamples.P_ops] =
  map (fun P => (check_fuel_needed P, false, true))
      [InferExamples.P_loop; InferExamples.P_call; InferExamples.P_s3; InferExamples.P_ops].
Proof. vm_compute. reflexivity. Qed.
