(* Non-vacuity of Check/Infer.v: accepted programs for every part of the language (with the typed tree) and one
   program per error kind, all by vm_compute. *)
From GV Require Import Base.Util Front.Scan Front.ParseExpr Check.UAst Check.Infer.
From GV Require Lang.Ast Lang.Wt.
From Coq Require Import String.
Local Open Scope N_scope.

(* an injective interning function for the examples: the byte string read as a base-256 number
   with a leading 1 *)
Definition ex_intern (s : list N) : N := fold_left (fun a c => a * 256 + c) s 1.

Definition nm (s : string) : list N := codes s.
Definition u8 := UTUnsigned U8.
Definition n_ (n : N) := XNumUnsigned n UnspecifiedU.
Definition id_ (s : string) := XIdentifier (nm s).
Definition pid (s : string) := PIdentifier (nm s).

Definition main_fn (params : list uparam) (ret : utype) (body : list xstmt) : ufndef :=
  mkUFn true (nm "main") ret params body.
Definition prog1 (params : list uparam) (ret : utype) (body : list xstmt) : uprogram :=
  mkUProgram [] [] [] [main_fn params ret body] (nm "main").
Definition px (s : string) (t : utype) := mkUParam false (nm s) t.

Definition run (P : uprogram) := check_program_t ex_intern 50 P.
Definition code_of {A} (r : cres A) : option N := match r with CErr c => Some c | _ => None end.
Definition main_body (r : cres tprogram) : list tstmt :=
  match r with
  | COk T => match tp_fns T with (_, d) :: _ => tf_body d | [] => [] end
  | _ => []
  end.

Definition wt_of (P : uprogram) : option bool :=
  match check_program ex_intern 50 P with COk P' => Some (Wt.wt_program P') | _ => None end.

(* ================================================================== expressions and statements, accepted *)

(* pub fn main(x: u8) -> u8 { let mut s = 0u8; for i in 0u8..10u8 { s = s + i; } s + x } *)
Definition P_loop := prog1 [px "x" u8] u8
  [XSLetMut (nm "s") None (XNumUnsigned 0 U8);
   XSForEach (pid "i") (XRange 0 10 U8) [XSVarAssign (nm "s") [] (XOp BAdd (id_ "s") (id_ "i"))];
   XSExpr (XOp BAdd (id_ "s") (id_ "x"))].
Example loop_typed :
  main_body (run P_loop) =
  [TSLetMut (nm "s") (TE (TNumUnsigned 0 U8) (CUnsigned U8));
   TSForEach (TP (TPIdentifier (nm "i")) (CUnsigned U8))
     (TE (TRange 0 10 U8) (CArray (CUnsigned U8) 10))
     [TSVarAssign (nm "s") []
        (TE (TOp BAdd (TE (TIdentifier (nm "s")) (CUnsigned U8)) (TE (TIdentifier (nm "i")) (CUnsigned U8)))
            (CUnsigned U8))];
   TSExpr (TE (TOp BAdd (TE (TIdentifier (nm "s")) (CUnsigned U8)) (TE (TIdentifier (nm "x")) (CUnsigned U8)))
              (CUnsigned U8))].
Proof. vm_compute. reflexivity. Qed.
Example loop_wt : wt_of P_loop = Some true.
Proof. vm_compute. reflexivity. Qed.

(* literal inference: pub fn main(x: u8) -> u8 { 1 + 2 + x }  (the return check_type reaches the literals) *)
Definition P_lit := prog1 [px "x" u8] u8 [XSExpr (XOp BAdd (XOp BAdd (n_ 1) (n_ 2)) (id_ "x"))].
Example lit_typed :
  main_body (run P_lit) =
  [TSExpr (TE (TOp BAdd
     (TE (TOp BAdd (TE (TNumUnsigned 1 UnspecifiedU) (CUnsigned U8)) (TE (TNumUnsigned 2 UnspecifiedU) (CUnsigned U8)))
         (CUnsigned U8))
     (TE (TIdentifier (nm "x")) (CUnsigned U8))) (CUnsigned U8))].
Proof. vm_compute. reflexivity. Qed.
Example lit_wt : wt_of P_lit = Some true.
Proof. vm_compute. reflexivity. Qed.

(* let mut defaults to i32: pub fn main(x: i32) -> i32 { let mut a = (1, [2, 3]); a.1[0usize] = 7; a.0 + a.1[1usize] + x } *)
Definition P_i32 := prog1 [px "x" (UTSigned I32)] (UTSigned I32)
  [XSLetMut (nm "a") None (XTupleLiteral [n_ 1; XArrayLiteral [n_ 2; n_ 3]]);
   XSVarAssign (nm "a") [XATuple 1; XAArray (XNumUnsigned 0 Usize)] (n_ 7);
   XSExpr (XOp BAdd (XOp BAdd (XTupleAccess (id_ "a") 0)
                              (XArrayAccess (XTupleAccess (id_ "a") 1) (XNumUnsigned 1 Usize)))
                    (id_ "x"))].
Example i32_typed :
  let ta := CTuple [CSigned I32; CArray (CUnsigned UnspecifiedU) 2] in
  main_body (run P_i32) =
  [TSLetMut (nm "a")
     (TE (TTupleLiteral
            [TE (TNumUnsigned 1 UnspecifiedU) (CSigned I32);
             TE (TArrayLiteral [TE (TNumUnsigned 2 UnspecifiedU) (CSigned I32);
                                TE (TNumUnsigned 3 UnspecifiedU) (CSigned I32)]) (CArray (CSigned I32) 2)])
         ta);    (* constrain_to_i32 rewrites only the TOP-LEVEL components of the binding's type *)
   TSVarAssign (nm "a")
     [TATuple ta 1;
      TAArray (CArray (CUnsigned UnspecifiedU) 2) (TE (TNumUnsigned 0 Usize) (CUnsigned Usize))]
     (TE (TNumUnsigned 7 UnspecifiedU) (CUnsigned UnspecifiedU));
   TSExpr
     (TE (TOp BAdd
        (TE (TOp BAdd
           (TE (TTupleAccess (TE (TIdentifier (nm "a")) ta) 0) (CSigned I32))
           (TE (TArrayAccess
                  (TE (TTupleAccess (TE (TIdentifier (nm "a")) ta) 1) (CArray (CUnsigned UnspecifiedU) 2))
                  (TE (TNumUnsigned 1 Usize) (CUnsigned Usize))) (CSigned I32)))
           (CSigned I32))
        (TE (TIdentifier (nm "x")) (CSigned I32))) (CSigned I32))].
Proof. vm_compute. reflexivity. Qed.
Example i32_wt : wt_of P_i32 = Some true.
Proof. vm_compute. reflexivity. Qed.

(* operators, casts, if / else, blocks:
   pub fn main(x: u8, b: bool) -> u16 { let y = if b && (x > 3u8) { x << 1u8 } else { !x }; { (y as u16) ^ 1u16 } } *)
Definition P_ops := prog1 [px "x" u8; px "b" UTBool] (UTUnsigned U16)
  [XSLet (pid "y") None
     (XIf (XOp BShortCircuitAnd (id_ "b") (XOp BGreaterThan (id_ "x") (XNumUnsigned 3 U8)))
          (XBlock [XSExpr (XOp BShiftLeft (id_ "x") (XNumUnsigned 1 U8))])
          (XBlock [XSExpr (XUnaryOp UoNot (id_ "x"))]));
   XSExpr (XBlock [XSExpr (XOp BBitXor (XCast (UTUnsigned U16) (id_ "y")) (XNumUnsigned 1 U16))])].
Example ops_ok : is_ok (run P_ops) = true /\ wt_of P_ops = Some true.
Proof. vm_compute. split; reflexivity. Qed.

(* ================================================================== the recorded defects *)

(* pub fn main(x: u8) -> u8 { let y = 1 + 2; y + x }: ACCEPTED, `y` (32 wires) is re-typed u8 at its use *)
Definition P_retype := prog1 [px "x" u8] u8
  [XSLet (pid "y") None (XOp BAdd (n_ 1) (n_ 2)); XSExpr (XOp BAdd (id_ "y") (id_ "x"))].
Example retype_typed :
  main_body (run P_retype) =
  [TSLet (TP (TPIdentifier (nm "y")) (CUnsigned UnspecifiedU))
     (TE (TOp BAdd (TE (TNumUnsigned 1 UnspecifiedU) (CUnsigned UnspecifiedU))
                   (TE (TNumUnsigned 2 UnspecifiedU) (CUnsigned UnspecifiedU))) (CUnsigned UnspecifiedU));
   TSExpr (TE (TOp BAdd (TE (TIdentifier (nm "y")) (CUnsigned U8)) (TE (TIdentifier (nm "x")) (CUnsigned U8)))
              (CUnsigned U8))].
Proof. vm_compute. reflexivity. Qed.
Example retype_not_wt : wt_of P_retype = Some false.
Proof. vm_compute. reflexivity. Qed.

(* pub fn main(x: u8) -> u8 { let y = 1 + 2 + x; y }: before fix 64720dd unify re-typed only the node `1 + 2`
   (its literals stayed 32 bits wide, the compiled circuit had 32 output wires); now the compound operand is
   constrained deeply and the tree is well typed *)
Definition P_retype2 := prog1 [px "x" u8] u8
  [XSLet (pid "y") None (XOp BAdd (XOp BAdd (n_ 1) (n_ 2)) (id_ "x")); XSExpr (id_ "y")].
Example retype2_now_wt : is_ok (run P_retype2) = true /\ wt_of P_retype2 = Some true.
Proof. vm_compute. split; reflexivity. Qed.

(* pub fn main(x: u8) -> u8 { let z = [1, 2, 3][0] + x; z }: ACCEPTED; the access node is re-typed u8 over an
   array of 32-bit elements (the real compiler returns x, not x + 1) *)
Definition P_retype3 := prog1 [px "x" u8] u8
  [XSLet (pid "z") None
     (XOp BAdd (XArrayAccess (XArrayLiteral [n_ 1; n_ 2; n_ 3]) (XNumUnsigned 0 Usize)) (id_ "x"));
   XSExpr (id_ "z")].
Example retype3_not_wt : is_ok (run P_retype3) = true /\ wt_of P_retype3 = Some false.
Proof. vm_compute. split; reflexivity. Qed.

(* pub fn main(x: u8) -> u8 { let y = 5000000000; x }: ACCEPTED; an immutable `let` never defaults the
   literal to i32, so its range is never checked *)
Definition P_big := prog1 [px "x" u8] u8 [XSLet (pid "y") None (n_ 5000000000); XSExpr (id_ "x")].
Example big_not_wt : is_ok (run P_big) = true /\ wt_of P_big = Some false.
Proof. vm_compute. split; reflexivity. Qed.
(* ... while `let mut y = 5000000000;` is rejected *)
Example big_mut_rejected :
  code_of (run (prog1 [px "x" u8] u8 [XSLetMut (nm "y") None (n_ 5000000000); XSExpr (id_ "x")]))
  = Some E_UnexpectedType.
Proof. vm_compute. reflexivity. Qed.

(* ================================================================== calls *)

(* fn inc(a: u8) -> u8 { a + 1 }  pub fn main(x: u8) -> u8 { inc(inc(x)) } *)
Definition f_inc := mkUFn false (nm "inc") u8 [px "a" u8] [XSExpr (XOp BAdd (id_ "a") (n_ 1))].
Definition P_call := mkUProgram [] [] []
  [main_fn [px "x" u8] u8 [XSExpr (XFnCall (nm "inc") [XFnCall (nm "inc") [id_ "x"]])]; f_inc] (nm "main").
Example call_typed :
  match run P_call with
  | COk T => map fst (tp_fns T) = [nm "main"; nm "inc"] /\ main_body (COk T) =
      [TSExpr (TE (TFnCall (nm "inc") [TE (TFnCall (nm "inc") [TE (TIdentifier (nm "x")) (CUnsigned U8)]) (CUnsigned U8)])
                  (CUnsigned U8))]
  | _ => False
  end.
Proof. vm_compute. split; reflexivity. Qed.
Example call_wt : wt_of P_call = Some true.
Proof. vm_compute. reflexivity. Qed.

Definition P_with (fns : list ufndef) := mkUProgram [] [] [] fns (nm "main").
Example unknown_fn : code_of (run (prog1 [px "x" u8] u8 [XSExpr (XFnCall (nm "g") [id_ "x"])])) = Some E_UnknownIdentifier.
Proof. vm_compute. reflexivity. Qed.
Example wrong_arity :
  code_of (run (P_with [main_fn [px "x" u8] u8 [XSExpr (XFnCall (nm "inc") [id_ "x"; id_ "x"])]; f_inc])) = Some E_WrongNumberOfArgs.
Proof. vm_compute. reflexivity. Qed.
Example wrong_arg_type :
  code_of (run (P_with [main_fn [px "x" u8] u8 [XSExpr (XFnCall (nm "inc") [XTrue])]; f_inc])) = Some E_UnexpectedType.
Proof. vm_compute. reflexivity. Qed.
Example recursion_rejected :
  code_of (run (P_with [main_fn [px "x" u8] u8 [XSExpr (XFnCall (nm "r") [id_ "x"])];
                        mkUFn false (nm "r") u8 [px "a" u8] [XSExpr (XFnCall (nm "r") [id_ "a"])]])) = Some E_RecursiveFnDef.
Proof. vm_compute. reflexivity. Qed.
Example unused_fn : code_of (run (P_with [main_fn [px "x" u8] u8 [XSExpr (id_ "x")]; f_inc])) = Some E_UnusedFn.
Proof. vm_compute. reflexivity. Qed.
Example pub_without_params : code_of (run (prog1 [] u8 [XSExpr (XNumUnsigned 1 U8)])) = Some E_PubFnWithoutParams.
Proof. vm_compute. reflexivity. Qed.
Example local_shadows_fn :
  code_of (run (P_with [main_fn [px "inc" u8] u8 [XSExpr (XFnCall (nm "inc") [id_ "inc"])]; f_inc])) = Some E_NoTopLevelFn.
Proof. vm_compute. reflexivity. Qed.
Example duplicate_param : code_of (run (prog1 [px "x" u8; px "x" u8] u8 [XSExpr (id_ "x")])) = Some E_DuplicateFnParam.
Proof. vm_compute. reflexivity. Qed.

(* ================================================================== structs, enums, match *)

(* struct P { a: u8, b: bool }  enum E { A, B(u8) }
   pub fn main(x: u8) -> u8 { let p = P { a: x, b: true }; let e = E::B(p.a);
                                match e { E::A => 0, E::B(v) => v } } *)
Definition s_P := mkUStruct (nm "P") [(nm "a", u8); (nm "b", UTBool)].
Definition e_E := mkUEnum (nm "E") [UVUnit (nm "A"); UVTuple (nm "B") [u8]].
Definition P_s3 := mkUProgram [] [s_P] [e_E]
  [main_fn [px "x" u8] u8
     [XSLet (pid "p") None (XStructLiteral (nm "P") [(nm "a", id_ "x"); (nm "b", XTrue)]);
      XSLet (pid "e") None (XEnumLiteral (nm "E") (nm "B") (Some [XStructAccess (id_ "p") (nm "a")]));
      XSExpr (XMatch (id_ "e") [(PEnumUnit (nm "E") (nm "A"), n_ 0);
                               (PEnumTuple (nm "E") (nm "B") [pid "v"], id_ "v")])]] (nm "main").
Example s3_typed :
  main_body (run P_s3) =
  [TSLet (TP (TPIdentifier (nm "p")) (CStruct (nm "P")))
     (TE (TStructLiteral (nm "P") [(nm "a", TE (TIdentifier (nm "x")) (CUnsigned U8)); (nm "b", TE TTrue CBool)])
         (CStruct (nm "P")));
   TSLet (TP (TPIdentifier (nm "e")) (CEnum (nm "E")))
     (TE (TEnumLiteral (nm "E") (nm "B")
            (Some [TE (TStructAccess (TE (TIdentifier (nm "p")) (CStruct (nm "P"))) (nm "a")) (CUnsigned U8)]))
         (CEnum (nm "E")));
   TSExpr
     (TE (TMatch (TE (TIdentifier (nm "e")) (CEnum (nm "E")))
            [(TP (TPEnumUnit (nm "E") (nm "A")) (CEnum (nm "E")), TE (TNumUnsigned 0 UnspecifiedU) (CUnsigned U8));
             (TP (TPEnumTuple (nm "E") (nm "B") [TP (TPIdentifier (nm "v")) (CUnsigned U8)]) (CEnum (nm "E")),
              TE (TIdentifier (nm "v")) (CUnsigned U8))])
         (CUnsigned U8))].
Proof. vm_compute. reflexivity. Qed.
Example s3_wt : wt_of P_s3 = Some true.
Proof. vm_compute. reflexivity. Qed.

Definition P_s3_with (body : list xstmt) := mkUProgram [] [s_P] [e_E] [main_fn [px "x" u8] u8 body] (nm "main").
Example non_exhaustive :
  code_of (run (P_s3_with [XSExpr (XMatch (id_ "x") [(PNumUnsigned 0 UnspecifiedU, id_ "x")])])) = Some E_PatternsAreNotExhaustive.
Proof. vm_compute. reflexivity. Qed.
Example missing_field :
  code_of (run (P_s3_with [XSLet (pid "p") None (XStructLiteral (nm "P") [(nm "a", id_ "x")]); XSExpr (id_ "x")])) = Some E_MissingStructField.
Proof. vm_compute. reflexivity. Qed.
Example duplicate_field :
  code_of (run (P_s3_with [XSLet (pid "p") None (XStructLiteral (nm "P") [(nm "a", id_ "x"); (nm "a", id_ "x"); (nm "b", XTrue)]); XSExpr (id_ "x")]))
  = Some E_DuplicateStructField.
Proof. vm_compute. reflexivity. Qed.
Example unknown_field :
  code_of (run (P_s3_with [XSLet (pid "p") None (XStructLiteral (nm "P") [(nm "a", id_ "x"); (nm "b", XTrue)]);
                           XSExpr (XStructAccess (id_ "p") (nm "c"))])) = Some E_UnknownStructField.
Proof. vm_compute. reflexivity. Qed.
Example unknown_struct : code_of (run (P_s3_with [XSExpr (XStructLiteral (nm "Q") [])])) = Some E_UnknownStruct.
Proof. vm_compute. reflexivity. Qed.
Example unknown_enum : code_of (run (P_s3_with [XSExpr (XEnumLiteral (nm "F") (nm "A") None)])) = Some E_UnknownEnum.
Proof. vm_compute. reflexivity. Qed.
Example unknown_variant : code_of (run (P_s3_with [XSExpr (XEnumLiteral (nm "E") (nm "C") None)])) = Some E_UnknownEnumVariant.
Proof. vm_compute. reflexivity. Qed.
Example unit_variant_with_args : code_of (run (P_s3_with [XSExpr (XEnumLiteral (nm "E") (nm "A") (Some [id_ "x"]))])) = Some E_ExpectedUnitVariantFoundTupleVariant.
Proof. vm_compute. reflexivity. Qed.
Example tuple_variant_without_args : code_of (run (P_s3_with [XSExpr (XEnumLiteral (nm "E") (nm "B") None)])) = Some E_ExpectedTupleVariantFoundUnitVariant.
Proof. vm_compute. reflexivity. Qed.
Example variant_arity : code_of (run (P_s3_with [XSExpr (XEnumLiteral (nm "E") (nm "B") (Some [id_ "x"; id_ "x"]))])) = Some E_UnexpectedEnumVariantArity.
Proof. vm_compute. reflexivity. Qed.
Example pattern_out_of_range :
  code_of (run (P_s3_with [XSExpr (XMatch (id_ "x") [(PNumUnsigned 256 UnspecifiedU, id_ "x"); (pid "_", id_ "x")])])) = Some E_PatternDoesNotMatchType.
Proof. vm_compute. reflexivity. Qed.
Example match_on_array :
  code_of (run (P_s3_with [XSExpr (XMatch (XArrayLiteral [id_ "x"]) [(pid "_", id_ "x")])])) = Some E_TypeDoesNotSupportPatternMatching.
Proof. vm_compute. reflexivity. Qed.
Example struct_access_on_int : code_of (run (P_s3_with [XSExpr (XStructAccess (id_ "x") (nm "a"))])) = Some E_ExpectedStructType.
Proof. vm_compute. reflexivity. Qed.
Example unknown_type : code_of (run (prog1 [px "x" (UTNamed (nm "Q"))] u8 [XSExpr (n_ 1)])) = Some E_UnknownStructOrEnum.
Proof. vm_compute. reflexivity. Qed.
Example recursive_type :
  code_of (run (mkUProgram [] [mkUStruct (nm "R") [(nm "r", UTTuple [UTNamed (nm "R")])]] []
                  [main_fn [px "x" u8] u8 [XSExpr (id_ "x")]] (nm "main"))) = Some E_RecursiveTypeDef.
Proof. vm_compute. reflexivity. Qed.
Example duplicate_variant :
  code_of (run (mkUProgram [] [] [mkUEnum (nm "E") [UVUnit (nm "A"); UVUnit (nm "A")]]
                  [main_fn [px "x" u8] u8 [XSExpr (id_ "x")]] (nm "main"))) = Some E_DuplicateEnumVariant.
Proof. vm_compute. reflexivity. Qed.

(* ================================================================== consts *)

(* const K: u8 = 5u8;  pub fn main(x: u8) -> u8 { x + K } *)
Definition P_const := mkUProgram [mkUConst (nm "K") u8 (CENumUnsigned 5 U8)] [] []
  [main_fn [px "x" u8] u8 [XSExpr (XOp BAdd (id_ "x") (id_ "K"))]] (nm "main").
Example const_ok : is_ok (run P_const) = true /\ wt_of P_const = Some true.
Proof. vm_compute. split; reflexivity. Qed.
Example const_wrong_type :
  code_of (run (mkUProgram [mkUConst (nm "K") u8 CETrue] [] [] [main_fn [px "x" u8] u8 [XSExpr (id_ "x")]] (nm "main")))
  = Some E_UnexpectedType.
Proof. vm_compute. reflexivity. Qed.
Example const_struct_type :
  code_of (run (mkUProgram [mkUConst (nm "K") (UTNamed (nm "P")) CETrue] [s_P] [] [main_fn [px "x" u8] u8 [XSExpr (id_ "x")]] (nm "main")))
  = Some E_ExpectedBoolOrNumberType.
Proof. vm_compute. reflexivity. Qed.

(* ================================================================== one program per error kind *)

Definition bad (body : list xstmt) := code_of (run (prog1 [px "x" u8; px "b" UTBool] u8 body)).
Example e_unknown_identifier : bad [XSExpr (id_ "q")] = Some E_UnknownIdentifier.
Proof. vm_compute. reflexivity. Qed.
Example e_if_cond_not_bool : bad [XSExpr (XIf (id_ "x") (id_ "x") (id_ "x"))] = Some E_UnexpectedType.
Proof. vm_compute. reflexivity. Qed.
Example e_operands_differ : bad [XSExpr (XOp BAdd (id_ "x") (XNumUnsigned 1 U16))] = Some E_TypeMismatch.
Proof. vm_compute. reflexivity. Qed.
Example e_branches_differ : bad [XSExpr (XIf (id_ "b") (id_ "x") (id_ "b"))] = Some E_TypeMismatch.
Proof. vm_compute. reflexivity. Qed.
Example e_assign_immutable : bad [XSVarAssign (nm "x") [] (XNumUnsigned 1 U8); XSExpr (id_ "x")] = Some E_IdentifierNotDeclaredAsMutable.
Proof. vm_compute. reflexivity. Qed.
Example e_assign_unbound : bad [XSVarAssign (nm "q") [] (XNumUnsigned 1 U8); XSExpr (id_ "x")] = Some E_UnknownIdentifier.
Proof. vm_compute. reflexivity. Qed.
Example e_assign_wrong_type : bad [XSLetMut (nm "m") None (id_ "x"); XSVarAssign (nm "m") [] XTrue; XSExpr (id_ "x")] = Some E_UnexpectedType.
Proof. vm_compute. reflexivity. Qed.
Example e_index_not_usize : bad [XSExpr (XArrayAccess (XArrayLiteral [id_ "x"]) (id_ "x"))] = Some E_UnexpectedType.
Proof. vm_compute. reflexivity. Qed.
Example e_index_non_array : bad [XSExpr (XArrayAccess (id_ "x") (XNumUnsigned 0 Usize))] = Some E_ExpectedArrayType.
Proof. vm_compute. reflexivity. Qed.
Example e_tuple_oob : bad [XSExpr (XTupleAccess (XTupleLiteral [id_ "x"; id_ "b"]) 2)] = Some E_TupleAccessOutOfBounds.
Proof. vm_compute. reflexivity. Qed.
Example e_tuple_on_int : bad [XSExpr (XTupleAccess (id_ "x") 0)] = Some E_ExpectedTupleType.
Proof. vm_compute. reflexivity. Qed.
Example e_neg_unsigned : bad [XSExpr (XUnaryOp UoNeg (id_ "x"))] = Some E_ExpectedSignedNumberType.
Proof. vm_compute. reflexivity. Qed.
Example e_not_tuple : bad [XSExpr (XUnaryOp UoNot (XTupleLiteral []))] = Some E_ExpectedBoolOrNumberType.
Proof. vm_compute. reflexivity. Qed.
Example e_add_bool : bad [XSExpr (XOp BAdd (id_ "b") (id_ "b"))] = Some E_ExpectedNumberType.
Proof. vm_compute. reflexivity. Qed.
Example e_and_int : bad [XSExpr (XOp BShortCircuitAnd (id_ "x") (id_ "b"))] = Some E_UnexpectedType.
Proof. vm_compute. reflexivity. Qed.
Example e_invalid_range : bad [XSForEach (pid "i") (XRange 5 5 U8) []; XSExpr (id_ "x")] = Some E_InvalidRange.
Proof. vm_compute. reflexivity. Qed.
Example e_for_non_array : bad [XSForEach (pid "i") (id_ "x") []; XSExpr (id_ "x")] = Some E_ExpectedArrayType.
Proof. vm_compute. reflexivity. Qed.
Example e_wrong_return : bad [XSExpr (id_ "b")] = Some E_UnexpectedType.
Proof. vm_compute. reflexivity. Qed.
Example e_no_return : bad [XSLet (pid "y") None (id_ "x")] = Some E_UnexpectedType.
Proof. vm_compute. reflexivity. Qed.
Example e_let_annotation : bad [XSLet (pid "y") (Some (UTUnsigned U16)) (id_ "x"); XSExpr (id_ "x")] = Some E_UnexpectedType.
Proof. vm_compute. reflexivity. Qed.
Example e_literal_too_big : bad [XSExpr (XOp BAdd (id_ "x") (n_ 256))] = Some E_UnexpectedType.
Proof. vm_compute. reflexivity. Qed.
Example e_tuple_pattern_arity : bad [XSLet (PTuple [pid "p"; pid "q"; pid "r"]) None (XTupleLiteral [id_ "x"; id_ "b"]); XSExpr (id_ "x")]
  = Some E_UnexpectedEnumVariantArity.
Proof. vm_compute. reflexivity. Qed.
Example e_scope_block : bad [XSExpr (XBlock [XSLet (pid "y") None (id_ "x")]); XSExpr (id_ "y")] = Some E_UnknownIdentifier.
Proof. vm_compute. reflexivity. Qed.
Example e_scope_for : bad [XSForEach (pid "i") (XRange 0 3 U8) []; XSExpr (id_ "i")] = Some E_UnknownIdentifier.
Proof. vm_compute. reflexivity. Qed.
Example e_empty_array_panics : bad [XSExpr (XArrayLiteral [])] = Some E_Panic.
Proof. vm_compute. reflexivity. Qed.
(* outside the model *)
Example o_join : run (prog1 [px "x" u8] u8 [XSExpr (XJoin [])]) = COutside.
Proof. vm_compute. reflexivity. Qed.
Example o_array_const : run (prog1 [px "x" (UTArrayConst u8 (nm "N"))] u8 [XSExpr (n_ 1)]) = COutside.
Proof. vm_compute. reflexivity. Qed.
