(* The exhaustiveness check of the checker model (Infer.check_exhaustiveness) does not depend
   on the ORDER in which the struct / enum definitions are listed in [defs]. *)
From GV Require Import Base.Util Check.UAst Check.Infer Check.InferBase.
From GV Require Exhaust.Pat Exhaust.Useful.
From Coq Require Import Permutation.
Local Open Scope N_scope.

(* ------------------------------------------------------------------ (1) env_equiv *)

Definition env_equiv (e1 e2 : Pat.tyenv) : Prop :=
  (forall n, Pat.assocN n (Pat.structs e1) = Pat.assocN n (Pat.structs e2)) /\
  (forall n, Pat.assocN n (Pat.enums e1) = Pat.assocN n (Pat.enums e2)).

Lemma split_ctor_equiv e1 e2 :
  env_equiv e1 e2 -> forall t rows qh, Useful.split_ctor e1 t rows qh = Useful.split_ctor e2 t rows qh.
Proof.
  intros [Hs He] t rows qh. destruct t as [|sg w|ts|n|n]; cbn [Useful.split_ctor]; try reflexivity.
  - rewrite Hs. reflexivity.
  - rewrite He. reflexivity.
Qed.

Lemma useful_equiv e1 e2 :
  env_equiv e1 e2 ->
  forall f ts rows q, Useful.useful f e1 ts rows q = Useful.useful f e2 ts rows q.
Proof.
  intros Heq f. induction f as [|f IH]; intros ts rows q; [reflexivity|].
  cbn [Useful.useful].
  destruct rows as [|r0 rows']; [reflexivity|].
  destruct r0 as [|p r0']; [reflexivity|].
  destruct q as [|qh qt]; [reflexivity|].
  destruct ts as [|t trest]; [reflexivity|].
  rewrite (split_ctor_equiv e1 e2 Heq).
  rewrite (IH trest (map (@tl Pat.pattern) ((p :: r0') :: rows')) qt).
  match goal with |- (if ?b then _ else _) = _ => destruct b; [reflexivity|] end.
  match goal with |- (if ?b then _ else _) = _ => destruct b; [reflexivity|] end.
  f_equal. apply map_ext. intros c. cbv zeta. f_equal. apply map_ext. intros q'.
  rewrite IH. reflexivity.
Qed.

Lemma ty_size_equiv e1 e2 :
  env_equiv e1 e2 -> forall d t, Useful.ty_size e1 d t = Useful.ty_size e2 d t.
Proof.
  intros [Hs He] d. induction d as [|d IH]; intros t; [reflexivity|].
  cbn [Useful.ty_size]. destruct t as [|sg w|ts|n|n]; try reflexivity.
  - f_equal. f_equal. apply map_ext. exact IH.
  - rewrite Hs. destruct (Pat.assocN n (Pat.structs e2)) as [fts|]; [|reflexivity].
    f_equal. f_equal. apply map_ext. intros ft. apply IH.
  - rewrite He. destruct (Pat.assocN n (Pat.enums e2)) as [vs|]; [|reflexivity].
    f_equal. f_equal. apply map_ext. intros vd. destruct (snd vd) as [ts|]; [|reflexivity].
    f_equal. apply map_ext. exact IH.
Qed.

Lemma fuel_bound_equiv e1 e2 :
  env_equiv e1 e2 -> forall d ts, Useful.fuel_bound e1 d ts = Useful.fuel_bound e2 d ts.
Proof.
  intros Heq d ts. unfold Useful.fuel_bound. f_equal. f_equal. apply map_ext.
  apply ty_size_equiv. exact Heq.
Qed.

Lemma check_exhaustive_equiv e1 e2 :
  env_equiv e1 e2 ->
  forall f t ps, Useful.check_exhaustive f e1 t ps = Useful.check_exhaustive f e2 t ps.
Proof. intros Heq f t ps. unfold Useful.check_exhaustive. apply useful_equiv. exact Heq. Qed.

(* ------------------------------------------------------------------ (2) omap and Permutation *)

Lemma omap_perm {A B} (f : A -> option B) (l l' : list A) :
  Permutation l l' ->
  match omap f l, omap f l' with
  | Some r, Some r' => Permutation r r'
  | None, None => True
  | _, _ => False
  end.
Proof.
  intros HP. induction HP as [|x l l' HP IH|x y l|l l' l'' HP1 IH1 HP2 IH2].
  - cbn [omap]. constructor.
  - cbn [omap]. destruct (f x) as [a|].
    + destruct (omap f l) as [r|], (omap f l') as [r'|]; try exact IH. constructor. exact IH.
    + exact I.
  - cbn [omap]. destruct (f x) as [a|], (f y) as [b|], (omap f l) as [r|]; try exact I.
    apply perm_swap.
  - destruct (omap f l) as [r|], (omap f l') as [r'|], (omap f l'') as [r''|];
      try exact I; try contradiction.
    eapply perm_trans; eassumption.
Qed.

Lemma omap_fst {A B} (g : A -> option (N * B)) (k : A -> N) :
  (forall x y, g x = Some y -> fst y = k x) ->
  forall l r, omap g l = Some r -> map fst r = map k l.
Proof.
  intros Hg l. induction l as [|x l IH]; intros r Hr; cbn [omap] in Hr.
  - injection Hr as <-. reflexivity.
  - destruct (g x) as [y|] eqn:Ey; [|discriminate].
    destruct (omap g l) as [r0|]; [|discriminate].
    injection Hr as <-. cbn [map]. f_equal; [apply Hg; exact Ey | apply IH; reflexivity].
Qed.

(* ------------------------------------------------------------------ (3) look-ups *)

Lemma assocN_notin {A} n (r : list (N * A)) : ~ In n (map fst r) -> Pat.assocN n r = None.
Proof.
  induction r as [|[k a] r IH]; intros Hn; cbn [Pat.assocN]; [reflexivity|].
  destruct (N.eqb n k) eqn:E.
  - apply N.eqb_eq in E. exfalso. apply Hn. left. cbn [fst]. symmetry. exact E.
  - apply IH. intros Hin. apply Hn. right. exact Hin.
Qed.

Lemma assocN_perm {A} (r r' : list (N * A)) :
  Permutation r r' -> NoDup (map fst r) -> forall n, Pat.assocN n r = Pat.assocN n r'.
Proof.
  intros HP. induction HP as [|[k a] l l' HP IH|[k1 a1] [k2 a2] l|l l' l'' HP1 IH1 HP2 IH2];
    intros HN n.
  - reflexivity.
  - cbn [Pat.assocN]. destruct (N.eqb n k); [reflexivity|]. apply IH.
    cbn [map] in HN. inversion HN as [|k0 l0 Hnotin HN']. exact HN'.
  - cbn [Pat.assocN]. destruct (N.eqb n k1) eqn:E1, (N.eqb n k2) eqn:E2; try reflexivity.
    exfalso. apply N.eqb_eq in E1. apply N.eqb_eq in E2.
    cbn [map fst] in HN. inversion HN as [|k0 l0 Hnotin HN']. apply Hnotin. left. congruence.
  - rewrite IH1 by exact HN. apply IH2.
    eapply Permutation_NoDup; [|exact HN]. apply Permutation_map. exact HP1.
Qed.

(* an association list produced by [omap g] with keys [intern (fst x)] *)
Lemma omap_assoc_perm {A B} (intern : list N -> N) (g : list N * A -> option (N * B))
    (l l' : list (list N * A)) :
  (forall a b, intern a = intern b -> a = b) ->
  (forall x y, g x = Some y -> fst y = intern (fst x)) ->
  Permutation l l' -> NoDup (map fst l) ->
  match omap g l, omap g l' with
  | Some r, Some r' => forall n, Pat.assocN n r = Pat.assocN n r'
  | None, None => True
  | _, _ => False
  end.
Proof.
  intros Hinj Hg HP HN. pose proof (omap_perm g l l' HP) as H.
  destruct (omap g l) as [r|] eqn:Er, (omap g l') as [r'|]; try exact H.
  apply assocN_perm; [exact H|].
  rewrite (omap_fst g (fun x => intern (fst x)) Hg l r Er).
  rewrite <- map_map. apply NoDup_map_inj; assumption.
Qed.

(* ------------------------------------------------------------------ (4) pat_tyenv *)

Lemma pat_tyenv_perm intern D D' :
  (forall a b, intern a = intern b -> a = b) ->
  Permutation (d_structs D) (d_structs D') -> Permutation (d_enums D) (d_enums D') ->
  NoDup (map fst (d_structs D)) -> NoDup (map fst (d_enums D)) ->
  match pat_tyenv intern D, pat_tyenv intern D' with
  | Some e1, Some e2 => env_equiv e1 e2
  | None, None => True
  | _, _ => False
  end.
Proof.
  intros Hinj HPs HPe HNs HNe. unfold pat_tyenv.
  match goal with |- context [omap ?g (d_structs D)] => set (gs := g) end.
  match goal with |- context [omap ?g (d_enums D)] => set (ge := g) end.
  assert (Hgs : forall x y, gs x = Some y -> fst y = intern (fst x)).
  { intros x y Hy. unfold gs in Hy.
    match type of Hy with match ?o with _ => _ end = _ => destruct o end;
      [injection Hy as <-; reflexivity | discriminate]. }
  assert (Hge : forall x y, ge x = Some y -> fst y = intern (fst x)).
  { intros x y Hy. unfold ge in Hy.
    match type of Hy with match ?o with _ => _ end = _ => destruct o end;
      [injection Hy as <-; reflexivity | discriminate]. }
  pose proof (omap_assoc_perm intern gs (d_structs D) (d_structs D') Hinj Hgs HPs HNs) as Hs.
  pose proof (omap_assoc_perm intern ge (d_enums D) (d_enums D') Hinj Hge HPe HNe) as He.
  destruct (omap gs (d_structs D)) as [ss|], (omap gs (d_structs D')) as [ss'|];
    try contradiction; [|exact I].
  destruct (omap ge (d_enums D)) as [es|], (omap ge (d_enums D')) as [es'|];
    try contradiction; [|exact I].
  split; cbn [Pat.structs Pat.enums]; assumption.
Qed.

(* ------------------------------------------------------------------ the theorem *)

Theorem check_exhaustiveness_perm intern D D' ps ty :
  (forall a b, intern a = intern b -> a = b) ->
  Permutation (d_structs D) (d_structs D') -> Permutation (d_enums D) (d_enums D') ->
  NoDup (map fst (d_structs D)) -> NoDup (map fst (d_enums D)) ->
  check_exhaustiveness intern D ps ty = check_exhaustiveness intern D' ps ty.
Proof.
  intros Hinj HPs HPe HNs HNe.
  pose proof (pat_tyenv_perm intern D D' Hinj HPs HPe HNs HNe) as H.
  unfold check_exhaustiveness.
  destruct (pat_tyenv intern D) as [e1|], (pat_tyenv intern D') as [e2|];
    try contradiction; [|reflexivity].
  assert (Hgen : forall t qs,
    Useful.check_exhaustive (Useful.fuel_bound e1 64 [t]) e1 t qs =
    Useful.check_exhaustive (Useful.fuel_bound e2 64 [t]) e2 t qs).
  { intros t qs. rewrite (fuel_bound_equiv e1 e2 H). apply check_exhaustive_equiv. exact H. }
  destruct ps as [|p ps']; [|destruct ps' as [|p' ps'']].
  - destruct (pat_ty intern ty) as [t|]; [|reflexivity]. rewrite Hgen. reflexivity.
  - destruct (irrefutable p); [reflexivity|].
    destruct (pat_ty intern ty) as [t|]; [|reflexivity]. rewrite Hgen. reflexivity.
  - destruct (pat_ty intern ty) as [t|]; [|reflexivity]. rewrite Hgen. reflexivity.
Qed.

Print Assumptions check_exhaustiveness_perm.
