(* C06 with calls: canonical entries with a bound on the fuel of their witnesses, what the accepting
   pub-fn loop leaves behind, and the class of call graphs of depth <= 1. *)
From Coq Require Import Lia Bool Permutation.
From GV Require Import Base.Util Front.Scan Front.ParseExpr Check.UAst Check.Infer Check.InferProofs Check.InferSub
  Check.InferTotal Check.InferFuel2 Check.PermSort Check.PermExh Check.InferPerm Check.InferPerm2 Check.InferPerm3.
Local Open Scope N_scope.

(* ================================================================ canonical entries with a fuel bound
   ([canon] of InferPerm2.v, with the bound [nb] on the fuel of every witness) *)

Section UnaryB.
Variable intern : list N -> N.
Variable D : defs.
Variable nb : nat.                      (* the fuel bound *)
Notation check_expr := (check_expr intern).
Notation check_stmt := (check_stmt intern).
Notation check_stmts := (check_stmts intern).
Notation check_block := (check_block intern).
Notation check_fn := (check_fn intern).

(* the entry is the result of a successful check of the function of that name, in a state whose
   entries are such results *)
Inductive canonb : list N -> tfndef -> Prop :=
| canonb_intro f st fd id r :
    (f <= nb)%nat ->
    find (fun d => list_eqb (uf_name d) id) (d_fns D) = Some fd ->
    Forall (fun nd => canonb (fst nd) (snd nd)) (st_typed st) ->
    check_fn f D st fd = COk r -> canonb id (fst r).

Definition Cgoodb (T : list (list N * tfndef)) : Prop := Forall (fun nd => canonb (fst nd) (snd nd)) T.

Theorem check_extb f : (f <= nb)%nat ->
  (forall st e r, check_expr f D st e = COk r -> ExtC canonb st (snd r)) /\
  (forall st b r, check_stmts f D st b = COk r -> ExtC canonb st (snd r)) /\
  (forall st b r, check_block f D st b = COk r -> ExtC canonb st (snd r)) /\
  (forall st s r, check_stmt f D st s = COk r -> ExtC canonb st (snd r)) /\
  (forall st fd r, check_fn f D st fd = COk r -> ExtFC canonb st fd (snd r)).
Proof. exact (check_ext_gen intern D nb canonb canonb_intro f). Qed.
End UnaryB.
Lemma canonb_canon intern D nb : forall id t, canonb intern D nb id t -> canon intern D id t.
Proof.
  fix IH 3. intros id t H. destruct H as [f st fd id r Hle Hf HC Hr].
  eapply canon_intro; [exact Hf| |exact Hr].
  induction HC as [|nd T Hnd HT IHT]; constructor; [exact (IH _ _ Hnd)|exact IHT].
Qed.

Lemma Cgoodb_Cgood intern D nb T : Cgoodb intern D nb T -> Cgood intern D T.
Proof. apply Forall_impl. intros nd. apply canonb_canon. Qed.

(* ================================================================ the class: call graphs of depth <= 1 *)

Definition nocallb (fd : ufndef) : bool := forallb ncb_s (uf_body fd).
Definition helperb (fns : list ufndef) (id : list N) : bool :=
  match find (fun d => list_eqb (uf_name d) id) fns with Some fd => nocallb fd | None => false end.
(* every function either calls nothing or calls only functions that call nothing *)
Definition call_depth_le_1 (P : uprogram) : bool :=
  forallb (fun fd => nocallb fd || forallb (okc_s (helperb (up_fns P))) (uf_body fd)) (up_fns P).

(* ================================================================ the accepting pub-fn loop *)

Section Loops.
Variable intern : list N -> N.
Variable D : defs.
Variable f : nat.
Notation Cgood := (Cgood intern D).
Notation Cgoodb := (Cgoodb intern D f).

(* the accepting loop (fuel f): what it leaves behind *)
Lemma pub_loop_P : forall fns st st',
  (forall fd, In fd fns -> find (fun d => list_eqb (uf_name d) (uf_name fd)) (d_fns D) = Some fd) ->
  Cgoodb (st_typed st) -> st_checking st = [] ->
  pub_loop_fn intern f D fns st = COk st' ->
  Cgoodb (st_typed st') /\ st_checking st' = [] /\
  (forall fd, In fd fns -> uf_pub fd = true ->
     uf_params fd <> [] /\ exists st1 r1, Cgood (st_typed st1) /\ check_fn intern f D st1 fd = COk r1) /\
  (forall h, defd h (st_typed st') -> defd h (st_typed st) \/
     exists g st1 r1, In g fns /\ uf_pub g = true /\ Cgood (st_typed st1) /\ check_fn intern f D st1 g = COk r1 /\
       (h = uf_name g \/ defd h (st_typed (snd r1))) /\ ~ defd h (st_typed st1)).
Proof.
  induction fns as [|fd fns IH]; intros st st' Hfind HC Hck H; cbn [pub_loop_fn] in H.
  - injection H as <-. split; [exact HC|]. split; [exact Hck|]. split; [intros ? []|]. intros h Hh. left. exact Hh.
  - assert (Hfind' : forall fd0, In fd0 fns -> find (fun d => list_eqb (uf_name d) (uf_name fd0)) (d_fns D) = Some fd0)
      by (intros; apply Hfind; now right).
    destruct (uf_pub fd) eqn:Epub.
    + destruct (uf_params fd) eqn:Epar; [discriminate H|].
      destruct (check_fn intern f D st fd) as [r1| | |] eqn:E1; cbn [cbind] in H; try discriminate H.
      destruct (proj2 (proj2 (proj2 (proj2 (check_extb intern D f f (le_n f))))) _ _ _ E1) as [(X1 & X2 & X3 & X4 & X5) _].
      cbn [tc_of fst snd] in *.
      set (T1 := (uf_name fd, fst r1) :: filter (fun nd => negb (list_eqb (fst nd) (uf_name fd))) (st_typed (snd r1))) in *.
      assert (HC1 : Cgoodb T1).
      { unfold T1. constructor; [cbn [fst snd]; eapply canonb_intro; [apply le_n|apply Hfind; now left|exact HC|exact E1]|].
        apply Forall_filter. apply X2. exact HC. }
      specialize (IH (mkSt (st_env (snd r1)) T1 (st_checking (snd r1))) st' Hfind' HC1 ltac:(cbn [st_checking]; congruence) H).
      cbn [st_typed] in IH. destruct IH as (A1 & A2 & A3 & A4). split; [exact A1|]. split; [exact A2|]. split.
      * intros fd0 [<-|Hin] Hp0; [|apply A3; assumption]. split; [rewrite Epar; discriminate|].
        exists st, r1. split; [eapply Cgoodb_Cgood; exact HC|exact E1].
      * intros h Hh. destruct (assocL h (st_typed st)) eqn:Eh; [left; unfold defd; rewrite Eh; discriminate|].
        right. destruct (A4 h Hh) as [Hd|(g & st1 & r2 & Hin & Hpg & HCg & Hrg & Hor & Hnd)].
        -- exists fd, st, r1. split; [now left|]. split; [exact Epub|]. split; [eapply Cgoodb_Cgood; exact HC|]. split; [exact E1|].
           split; [|unfold defd; rewrite Eh; intro Hx; apply Hx; reflexivity].
           unfold T1 in Hd. apply defd_cons_filter in Hd. exact Hd.
        -- exists g, st1, r2. split; [now right|]. repeat split; assumption.
    + destruct (IH st st' Hfind' HC Hck H) as (A1 & A2 & A3 & A4). split; [exact A1|]. split; [exact A2|]. split.
      * intros fd0 [<-|Hin] Hp0; [congruence|apply A3; assumption].
      * intros h Hh. destruct (A4 h Hh) as [Hd|(g & st1 & r2 & Hin & Hpg & HCg & Hrg & Hor & Hnd)]; [left; exact Hd|].
        right. exists g, st1, r2. split; [now right|]. repeat split; assumption.
Qed.

End Loops.

(* ================================================================ the program *)

Lemma rec_check_le f K structs enums x : rec_check f structs enums x = COk tt -> rec_check (f + K) structs enums x = COk tt.
Proof.
  unfold rec_check. cbv zeta. intro H.
  destruct (le_iter (fun n => contains_type_def n structs enums x []
              match assocL x structs with Some _ => CStruct x | None => CEnum x end)
              (fun n => le_contains_type_def structs enums x n _ _) f K) as [E|E].
  - rewrite E in H. discriminate H.
  - rewrite E. exact H.
Qed.

Lemma mapM_unit_all {A} (g : A -> cres unit) l r : mapM g l = COk r -> forall x, In x l -> g x = COk tt.
Proof.
  revert r. induction l as [|y l IH]; intros r H x Hin; [destruct Hin|]. cbn [mapM] in H.
  destruct (g y) as [[]| | |] eqn:Ey; cbn [cbind] in H; try discriminate H.
  destruct (mapM g l) as [rl| | |] eqn:El; cbn [cbind] in H; try discriminate H.
  destruct Hin as [<-|Hin]; [exact Ey|eapply IH; [reflexivity|exact Hin]].
Qed.

Lemma mapM_unit_ok {A} (g : A -> cres unit) l : (forall x, In x l -> g x = COk tt) -> exists r, mapM g l = COk r.
Proof.
  induction l as [|y l IH]; intro H; cbn [mapM]; [eexists; reflexivity|].
  rewrite (H y (or_introl eq_refl)). cbn [cbind]. destruct IH as [r Er]; [intros; apply H; now right|]. rewrite Er. cbn [cbind]. eexists; reflexivity.
Qed.

(* the class is decidable: functions that call only functions that call nothing are in it; a chain of calls
   (main -> other -> inc) is not, nor is the program with calls of InferPerm.PermExamples *)
From Coq Require Import String.
Module Depth1Examples.
Local Open Scope string_scope.
Definition depth1 (txt : string) : option bool :=
  match PermExamples.parse_text txt with Some P => Some (call_depth_le_1 P) | None => None end.
Example depth1_yes : depth1 "
  fn inc(a: u8) -> u8 { a + 1 }
  pub fn other(y: u8) -> u8 { inc(y) }
  pub fn main(x: u8) -> u8 { inc(x) + inc(other(1)) }" = Some false /\
  depth1 "
  fn inc(a: u8) -> u8 { a + 1 }
  fn dec(a: u8) -> u8 { a - 1 }
  pub fn other(y: u8) -> u8 { inc(y) }
  pub fn main(x: u8) -> u8 { inc(x) + dec(x) }" = Some true.
Proof. vm_compute. split; reflexivity. Qed.
Example depth2_no : depth1 PermExamples.t_calls = Some false.
Proof. vm_compute. reflexivity. Qed.
End Depth1Examples.
