(* C07 for the type checker: FUEL ADEQUACY of check_expr / check_stmt / check_fn, once.

   With fuel f the checker does not answer CNoFuel on e as soon as [xd e + k * M <= f], where k
   bounds the number of function definitions that can still be entered ([cnt]) and M is the fuel
   one function body needs; the typed tree it returns is not deeper than f, so that the fuel of
   constrain_type / check_type / unify is adequate as well (InferFuel.v).

   The one thing that can still run out is the exhaustiveness oracle, which has a fuel of its own.
   What is known at the three places where it is consulted (let, for, match) differs from one
   termination theorem to the next, so the induction is parametrised by
   - [F]: the part of the program looked at, a set of nodes closed under [child];
   - [J B st], [Wt B ty]: an invariant of the state and a property of types, at a level B that rises
     by the number of aggregate nodes (InferFuel5.agg_e) along the checker's path, and a budget [Bud]
     for the level;
   - [Depth]: the partial-correctness half, proved separately: a successful check re-establishes J and
     gives a Wt type.  It is added to the result of every recursive call ([post_strengthen]), which
     is how the invariant reaches the next oracle site.
   With everything trivial except F this is adequacy for a syntactic fragment ([adequacy_frag]);
   with J, Wt the depth invariant of InferFuel5 it is InferFuel6.adequacy_all6. *)
From Coq Require Import Lia Bool.
From GV Require Import Base.Util Front.Scan Front.ParseExpr Check.UAst Check.Infer Check.InferProofs Check.InferSub
  Check.InferTotal Check.InferFuel Check.InferFuel5.
Local Open Scope nat_scope.

Definition pub_next (fd : ufndef) (r : tfndef * cstate) : cstate :=
  mkSt (st_env (snd r)) (typed_insert (uf_name fd) (fst r) (st_typed (snd r))) (st_checking (snd r)).

Lemma post_pub_loop_fn intern fuel D (Inv : cstate -> Prop) : forall fns,
  (forall st fd, In fd fns -> Inv st -> post (fun r => Inv (pub_next fd r)) (check_fn intern fuel D st fd)) ->
  forall st, Inv st -> post (fun _ => True) (pub_loop_fn intern fuel D fns st).
Proof.
  induction fns as [|fd fns IH]; intros H st HI; [exact I|]. cbn [pub_loop_fn].
  assert (IH' := IH (fun st0 fd0 Hin => H st0 fd0 (or_intror Hin))).
  destruct (uf_pub fd); [|exact (IH' st HI)]. destruct (uf_params fd); [exact I|].
  eapply post_bind; [exact (H st fd (or_introl eq_refl) HI)|]. intros r1 Hr1. exact (IH' _ Hr1).
Qed.

(* every function can be entered from the top level: nothing is being checked, all definitions are left *)
Lemma pub_loop_adequate intern D fuel : GoalF intern D fuel -> 1 + length (d_fns D) * dmax (d_fns D) <= fuel ->
  forall st, st_checking st = [] -> post (fun _ => True) (pub_loop_fn intern fuel D (d_fns D) st).
Proof.
  intros HF Hfuel st Hst. apply (post_pub_loop_fn intern fuel D (fun st0 => st_checking st0 = [])); [|exact Hst].
  intros st0 fd Hin Hst0. apply (HF [] (length (d_fns D)) st0 fd Hst0); [rewrite cnt_nil; lia|exact Hin|exact Hfuel].
Qed.

Lemma Forall_td_max (l : list texpr) n : Forall (fun e => td e <= n) l -> list_max (map td l) <= n.
Proof. intro H. apply list_max_map_le. exact H. Qed.

Section Adequacy.
Variable intern : list N -> N.
Variable D : defs.
Notation M := (dmax (d_fns D)).
Notation check_expr := (check_expr intern).
Notation check_stmt := (check_stmt intern).
Notation check_stmts := (check_stmts intern).
Notation check_block := (check_block intern).
Notation check_fn := (check_fn intern).

Variable F : node -> Prop.
Variable Bud : nat -> Prop.
Variable Wt : nat -> cty -> Prop.
Variable J : nat -> cstate -> Prop.
(* what check_fn needs of the caller's state, what it gives back, the level of a function body *)
Variable JT : cstate -> Prop.
Variable QF : cstate -> tfndef * cstate -> Prop.
Variable B0 : nat.

Definition Fb (b : list xstmt) : Prop := forall s, In s b -> F (NS s).
Definition Xs (B : nat) (s : tstmt) : Prop := forall e, s = TSExpr e -> Wt B (ty_of e).

Hypothesis F_child : forall c p, child c p -> F p -> F c.
Hypothesis F_fn : forall fd, In fd (d_fns D) -> Fb (uf_body fd).
Hypothesis Bud_le : forall n m, n <= m -> Bud m -> Bud n.
Hypothesis Bud_fn : forall fd, In fd (d_fns D) -> Bud (B0 + sumS (uf_body fd)).
Hypothesis Wt_arr : forall B el n, Wt B (CArray el n) -> Wt B el.
Hypothesis Wt_ann : forall B st p u e t, F (NS (XSLet p (Some u) e)) -> J B st -> concrete_of D u = COk t -> Wt B t.
Hypothesis J_le : forall B B' st, B <= B' -> J B st -> J B' st.
Hypothesis J_push : forall B st, J B st -> J B (with_env st (env_push (st_env st))).
Hypothesis J_pop : forall B st, J B st -> J B (with_env st (env_pop (st_env st))).
Hypothesis J_pat : forall B st p ty rp, Wt B ty -> J B st ->
  check_pattern D (env_push (st_env st)) p ty = COk rp -> J B (with_env st (snd rp)).
Hypothesis J_caller : forall B st, J B st -> JT st.
Hypothesis J_call : forall B st id r, J B st -> QF st r ->
  J B (mkSt (st_env (snd r)) ((id, fst r) :: st_typed (snd r)) (st_checking (snd r))).
Hypothesis J_fn : forall st fd rp, In fd (d_fns D) -> JT st ->
  params_loop D [] (uf_params fd) (env_push env_new) = COk rp ->
  J B0 (mkSt (snd rp) (st_typed st) (uf_name fd :: st_checking st)).

(* the oracle at its three sites; the patterns it is given came out of check_pattern at the type *)
Hypothesis Hex_let : forall B p o e g ty rp, F (NS (XSLet p o e)) -> Wt B ty -> Bud B ->
  check_pattern D g p ty = COk rp -> nf (check_exhaustiveness intern D [fst rp] ty).
Hypothesis Hex_for : forall B p e b g ty rp, F (NS (XSForEach p e b)) -> Wt B ty -> Bud B ->
  check_pattern D g p ty = COk rp -> nf (check_exhaustiveness intern D [fst rp] ty).
Hypothesis Hex_match : forall B e arms ps ty, F (NE (XMatch e arms)) -> Wt B ty -> Bud B ->
  Forall (fun tp => exists g p g', check_pattern D g p ty = COk (tp, g')) ps ->
  nf (check_exhaustiveness intern D ps ty).

Hypothesis Depth : forall f,
  (forall B st e r, F (NE e) -> J B st -> check_expr f D st e = COk r ->
     Wt (B + agg_e e) (ty_of (fst r)) /\ J B (snd r)) /\
  (forall B st b r, Fb b -> J B st -> check_stmts f D st b = COk r ->
     J (B + sumS b) (snd r) /\ Forall (Xs (B + sumS b)) (fst r)) /\
  (forall B st b r, Fb b -> J B st -> check_block f D st b = COk r ->
     J (B + sumS b) (snd r) /\ Wt (B + sumS b) (snd (fst r))) /\
  (forall B st s r, F (NS s) -> J B st -> check_stmt f D st s = COk r ->
     J (B + agg_s s) (snd r) /\ Xs (B + agg_s s) (fst r)) /\
  (forall st fd r, In fd (d_fns D) -> JT st -> check_fn f D st fd = COk r -> QF st r).

Definition AE (f : nat) : Prop := forall c0 k B st e, F (NE e) -> J B st -> Bud (B + agg_e e) ->
  st_checking st = c0 -> cnt (d_fns D) c0 <= k -> xd e + k * M <= f ->
  post (fun r => chk_is c0 (fun te => td te <= f) r /\ (Wt (B + agg_e e) (ty_of (fst r)) /\ J B (snd r))) (check_expr f D st e).
Definition ASS (f : nat) : Prop := forall c0 k B st b, Fb b -> J B st -> Bud (B + sumS b) ->
  st_checking st = c0 -> cnt (d_fns D) c0 <= k -> bdx b + k * M <= f ->
  post (fun r => chk_is c0 (Forall (fun s => tsd s <= f)) r /\ (J (B + sumS b) (snd r) /\ Forall (Xs (B + sumS b)) (fst r))) (check_stmts f D st b).
Definition AB (f : nat) : Prop := forall c0 k B st b, Fb b -> J B st -> Bud (B + sumS b) ->
  st_checking st = c0 -> cnt (d_fns D) c0 <= k -> bdx b + k * M <= f ->
  post (fun r => (st_checking (snd r) = c0 /\ Forall (fun s => tsd s <= f) (fst (fst r))) /\
                 (J (B + sumS b) (snd r) /\ Wt (B + sumS b) (snd (fst r)))) (check_block f D st b).
Definition AS (f : nat) : Prop := forall c0 k B st s, F (NS s) -> J B st -> Bud (B + agg_s s) ->
  st_checking st = c0 -> cnt (d_fns D) c0 <= k -> sdx s + k * M <= f ->
  post (fun r => chk_is c0 (fun ts => tsd ts <= f) r /\ (J (B + agg_s s) (snd r) /\ Xs (B + agg_s s) (fst r))) (check_stmt f D st s).
Definition AF (f : nat) : Prop := forall c0 k st fd, JT st -> st_checking st = c0 -> cnt (d_fns D) c0 <= k -> In fd (d_fns D) ->
  1 + k * M <= f -> post (fun r => st_checking (snd r) = c0 /\ QF st r) (check_fn f D st fd).

(* ---------------------------------------------------------------- the loops *)
Lemma post_accs_loop ce fu c0 (Inv : cstate -> Prop) : forall accs,
  (forall st x, In (XAArray x) accs -> st_checking st = c0 -> Inv st -> post (chkI c0 Inv (fun te : texpr => td te <= fu)) (ce st x)) ->
  forall st t, st_checking st = c0 -> Inv st ->
  post (fun r : list taccessor * cty * cstate => st_checking (snd r) = c0 /\ Inv (snd r)) (accs_loop ce fu D st t accs).
Proof.
  induction accs as [|a accs IH]; intros Hce st t Hst HI; cbn [accs_loop]; [split; assumption|].
  eapply (post_bind (fun r : taccessor * cty * cstate => st_checking (snd r) = c0 /\ Inv (snd r))).
  - destruct a.
    + eapply post_bind; [apply post_nf; apply np_expect_array_type|]. intros el _.
      eapply post_bind; [apply Hce; [left; reflexivity|exact Hst|exact HI]|]. intros ri (Hri & Iri & Hti).
      eapply post_bind; [apply (post_coc_u_deep fu fu); [exact Hti|lia]|]. intros i' _. split; assumption.
    + eapply post_bind; [apply post_nf; apply np_expect_tuple_type|]. intros vts _.
      destruct (nthN vts index); [split; assumption|exact I].
    + eapply post_bind; [apply post_nf; apply np_expect_struct_type|]. intros nm _.
      destruct (assocL nm (d_structs D)); [|exact I]. destruct (assocL field l); [split; assumption|exact I].
  - intros [[ta t'] st'] [Hst' HI']. cbn [snd] in *.
    eapply post_bind; [apply IH; [intros; apply Hce; [right; assumption|assumption|assumption]|exact Hst'|exact HI']|].
    intros [[tas tf] st''] [H2 I2]. cbn [post snd] in *. split; assumption.
Qed.

Lemma post_struct_lit_loop ce f c0 (Inv : cstate -> Prop) sd : forall fields,
  (forall st fn x, In (fn, x) fields -> st_checking st = c0 -> Inv st -> post (chkI c0 Inv (fun te : texpr => td te <= f)) (ce st x)) ->
  forall seen st, st_checking st = c0 -> Inv st ->
  post (fun r : list (list N * texpr) * cstate => st_checking (snd r) = c0 /\ Inv (snd r)) (struct_lit_loop ce f sd seen st fields).
Proof.
  induction fields as [|[fname fv] fields IH]; intros Hce seen st Hst HI; cbn [struct_lit_loop]; [split; assumption|].
  destruct (memL fname seen); [exact I|]. destruct (assocL fname sd); [|exact I].
  eapply post_bind; [apply (Hce st fname fv); [left; reflexivity|exact Hst|exact HI]|]. intros r1 (H1 & I1 & Ht).
  eapply post_bind; [apply (post_check_type f f); [exact Ht|lia]|]. intros tf _.
  eapply post_bind; [apply IH; [intros; eapply Hce; [right; eassumption|assumption|assumption]|exact H1|exact I1]|]. intros r2 H2. exact H2.
Qed.

Lemma strong_chkI c0 B {A} (Q : A -> Prop) (W : A * cstate -> Prop) (X : cres (A * cstate)) :
  post (fun r => chk_is c0 Q r /\ (W r /\ J B (snd r))) X -> post (chkI c0 (J B) Q) X.
Proof. intro H. eapply post_weaken; [exact H|]. intros r ((H1 & H2) & _ & H3). split; [exact H1|split; [exact H3|exact H2]]. Qed.

(* ---------------------------------------------------------------- one step of the five functions *)
Ltac destr_and := cbv beta in *; unfold chk_is, chkI in *; cbn [fst snd st_checking with_env] in *;
  repeat match goal with H : _ /\ _ |- _ => destruct H end.

Ltac bound :=
  cbn [xd sdx adx] in *; unfold bdx in *;
  repeat match goal with
  | Hin : In ?x ?l |- _ =>
      match goal with
      | _ : context [list_max (map ?g l)] |- _ =>
          lazymatch goal with
          | _ : g x <= list_max (map g l) |- _ => fail
          | _ => pose proof (in_list_max g l x Hin)
          end
      end
  end;
  cbv beta in *; cbn [xd sdx adx fst snd] in *; lia.

Ltac bud :=
  eapply Bud_le; [|eassumption];
  cbn [agg_e agg_s agg_a] in *;
  repeat match goal with
  | Hin : In ?x ?l |- _ =>
      match goal with
      | _ : context [list_sum (map ?g l)] |- _ =>
          lazymatch goal with
          | _ : g x <= list_sum (map g l) |- _ => fail
          | _ => pose proof (in_list_sum g l x Hin)
          end
      end
  end;
  cbv beta in *; cbn [agg_a fst snd] in *; lia.

Ltac frag := eapply F_child; [|eassumption]; econstructor; eassumption.

Ltac chk := first [eassumption | cbn [st_checking with_env]; eassumption | reflexivity].

Ltac nf_tac :=
  apply post_nf;
  first [ apply np_concrete_of | apply np_expect_array_type | apply np_expect_struct_type | apply np_expect_tuple_type
        | apply np_expect_num_type | apply np_expect_signed_num_type | apply np_expect_bool_or_num_type
        | apply np_check_pattern ].

Ltac ihe IHe c0 k := eapply (IHe c0 k); [frag | eassumption | bud | chk | eassumption | bound].

(* the post-condition of the computation at the head of a bind, by its head symbol *)
Ltac sub_post IHe c0 k f :=
  lazymatch goal with
  | |- post _ (Infer.check_expr _ _ _ _ _) => ihe IHe c0 k
  | |- post _ (mapM_st (Infer.check_expr _ _ _) ?st _) =>
      match goal with HS : J ?B st |- _ =>
        eapply (post_mapM_stI _ c0 (J B) (fun te => td te <= f));
          [intros ? ? ? ? ?; eapply strong_chkI; ihe IHe c0 k | chk | exact HS]
      end
  | |- post _ (check_type _ _ _) => eapply (post_check_type f f); [first [assumption | lia] | lia]
  | |- post _ (constrain_to_i32 _ _) => eapply (post_constrain_to_i32 f f); [first [assumption | lia] | lia]
  | |- post _ (mapM _ _) =>
      eapply (post_mapM _ (fun e => td e <= f) (fun e => td e <= f));
        [intros ? ?; eapply (post_check_type f f); [assumption | lia] | assumption]
  | |- post _ (zipM _ _ _) =>
      eapply (post_zipM _ (fun e => td e <= f));
        [intros ? ? ?; eapply (post_check_type f f); [assumption | lia] | assumption]
  | |- post _ (accs_loop _ _ _ ?st _ _) =>
      match goal with HS : J ?B st |- _ =>
        eapply (post_accs_loop _ f c0 (J B));
          [intros ? ? ? ? ?; eapply strong_chkI; ihe IHe c0 k | chk | exact HS]
      end
  | |- post _ (struct_lit_loop _ _ _ _ ?st _) =>
      match goal with HS : J ?B st |- _ =>
        eapply (post_struct_lit_loop _ f c0 (J B));
          [intros ? ? ? ? ? ?; eapply strong_chkI; ihe IHe c0 k | chk | exact HS]
      end
  | |- post _ (unify _ _ _) => eapply (post_unify f f); [first [assumption | lia] | first [assumption | lia] | lia]
  | |- post _ (coc_unsigned_deep _ _ _) => eapply (post_coc_u_deep f f); [first [assumption | lia] | lia]
  | |- post _ (coc_signed_deep _ _ _) => eapply (post_coc_s_deep f f); [first [assumption | lia] | lia]
  | |- post _ (check_or_constrain_unsigned _ _) => apply post_coc_u
  | |- post _ (check_or_constrain_signed _ _) => apply post_coc_s
  | |- post _ (check_pattern _ _ _ _) => apply post_self; apply np_check_pattern
  | |- _ => nf_tac
  end.

Ltac pg tac :=
  repeat (cbv beta zeta; lazymatch goal with
  | |- post _ (COk _) => cbn [post fst snd]; unfold chk_is; cbn [fst snd st_checking with_env]
  | |- post _ (CErr _) => exact I
  | |- post _ COutside => exact I
  | |- post _ (cbind _ _) => eapply post_bind; [tac | intros ? ?; destr_and]
  | |- post _ (if ?c then _ else _) => destruct c eqn:?
  | |- post _ (match ?x with _ => _ end) => destruct x eqn:?
  end).

Ltac fin :=
  repeat match goal with H : Forall (fun e => td e <= _) _ |- _ => apply Forall_td_max in H end;
  repeat match goal with H : Forall (fun s => tsd s <= _) _ |- _ => apply (proj2 (list_max_map_le tsd _ _)) in H end;
  try (split; [chk|]); cbn [td tsd fst snd] in *; try lia.

Definition WE (f : nat) : Prop := forall c0 k B st e, F (NE e) -> J B st -> Bud (B + agg_e e) ->
  st_checking st = c0 -> cnt (d_fns D) c0 <= k -> xd e + k * M <= f ->
  post (chk_is c0 (fun te => td te <= f)) (check_expr f D st e).

Lemma weakE f : AE f -> AB f -> AF f -> WE (S f).
Proof.
  intros IHe IHb IHf c0 k B st e Hn HS Hb Hst Hk Hf.
  rewrite check_expr_S. remember e as e0 eqn:Ee.
  destruct e; rewrite Ee in *; clear Ee; cbn [expr_step]; unfold call_prefix, match_tail, match_arm, arm_retype.
  all: try solve [pg ltac:(idtac; sub_post IHe c0 k f); fin].
  - (* match *)
    assert (Hb1 : Bud (B + agg_e e)) by bud.
    eapply post_bind; [eapply (IHe c0 k); [frag|exact HS|exact Hb1|chk|exact Hk|bound]|].
    intros rs ((Hrs1 & Hrs2) & Hws & HSs).
    assert (HSs' : J (B + agg_e e) (snd rs)) by (eapply J_le; [|exact HSs]; lia).
    assert (Hmain : forall ty0, Wt (B + agg_e e) ty0 ->
      post (chk_is c0 (fun te : texpr => td te <= S f))
        (do rc <- mapM_st (fun (st0 : cstate) (pc : upattern * xexpr) =>
                    do rp <- check_pattern D (env_push (st_env st0)) (fst pc) ty0;
                    do re <- check_expr f D (with_env st0 (snd rp)) (snd pc);
                    COk ((fst rp, fst re), with_env (snd re) (env_pop (st_env (snd re))))) (snd rs) arms;
         match fst rc with
         | [] => CErr E_Panic
         | (_, first) :: _ =>
             do clauses' <- mapM (fun pc : tpattern * texpr =>
                  if negb (cty_eqb (pick_elem_ty (ty_of first) (map (fun pc0 : tpattern * texpr => ty_of (snd pc0)) (fst rc))) (ty_of (snd pc)))
                  then match pick_elem_ty (ty_of first) (map (fun pc0 : tpattern * texpr => ty_of (snd pc0)) (fst rc)) with
                       | CUnsigned expected => do x <- coc_unsigned_deep f (snd pc) expected; COk (fst pc, x)
                       | CSigned expected => do x <- coc_signed_deep f (snd pc) expected; COk (fst pc, x)
                       | _ => CErr E_UnexpectedType
                       end
                  else COk pc) (fst rc);
             do _ <- check_exhaustiveness intern D (map fst clauses') ty0;
             COk (TE (TMatch (fst rs) clauses') (pick_elem_ty (ty_of first) (map (fun pc0 : tpattern * texpr => ty_of (snd pc0)) (fst rc))), snd rc)
         end)).
    { intros ty0 Hty0.
      set (QA := fun pc : tpattern * texpr => td (snd pc) <= f /\ exists g p g', check_pattern D g p ty0 = COk (fst pc, g')).
      eapply (post_bind (chkI c0 (J (B + agg_e e)) (Forall QA))).
      { eapply post_mapM_stI; [|exact Hrs1|exact HSs']. intros st0 [p x] Hin Hst0 HS0. cbn [fst snd].
        eapply post_bind; [apply post_self; apply np_check_pattern|]. intros rp Hrp.
        assert (Hba : Bud (B + agg_e e + agg_e x)).
        { pose proof (in_list_sum (fun a : upattern * xexpr => agg_e (snd a)) arms _ Hin) as Hs. eapply Bud_le; [|exact Hb]. cbn [agg_e snd] in *. lia. }
        eapply post_bind; [eapply (IHe c0 k (B + agg_e e)); [frag|exact (J_pat _ _ _ _ _ Hty0 HS0 Hrp)|exact Hba|chk|exact Hk|bound]|].
        intros re ((Hre1 & Hre2) & _ & HSe).
        cbn [post]. split; [chk|]. split; [exact (J_pop _ _ HSe)|].
        split; [exact Hre2|]. destruct rp as [tp g1]. eexists _, _, _. exact Hrp. }
      intros rc (Hrc1 & _ & Hrc2). destruct (fst rc) as [|[p0 first] rc'] eqn:Erc; [exact I|]. rewrite <- Erc in Hrc2 |- *.
      eapply (post_bind (Forall QA)).
      { eapply (post_mapM _ QA); [|exact Hrc2].
        intros pc [Hpc Hfc]. destruct (negb _); [|split; assumption].
        destruct (pick_elem_ty _ _); try exact I.
        - eapply post_bind; [apply (post_coc_u_deep f f); [exact Hpc|lia]|]. intros x Hx. split; [exact Hx|exact Hfc].
        - eapply post_bind; [apply (post_coc_s_deep f f); [exact Hpc|lia]|]. intros x Hx. split; [exact Hx|exact Hfc]. }
      intros cl Hcl. eapply post_bind.
      { apply post_nf. apply (Hex_match _ _ _ _ ty0 Hn Hty0 Hb1). rewrite Forall_map. eapply Forall_impl; [|exact Hcl]. intros a Ha. exact (proj2 Ha). }
      intros u _. cbn [post]. split; [chk|]. cbn [fst td].
      assert (Hcl2 : Forall (fun a : tpattern * texpr => td (snd a) <= f) cl) by (eapply Forall_impl; [|exact Hcl]; intros a [Ha _]; exact Ha).
      apply (proj2 (list_max_map_le (fun a : tpattern * texpr => td (snd a)) _ _)) in Hcl2. lia. }
    revert Hws. destruct (ty_of (fst rs)); intro Hws; try exact I; apply Hmain; exact Hws.
  - (* block *)
    eapply post_bind; [eapply (IHb c0 k B); [intros s0 Hs0; frag|exact (J_push _ _ HS)|exact Hb|chk|exact Hk|bound]|].
    intros [[body ty] st1] ((Hb1 & Hb2) & _). cbn [fst snd] in *. cbv beta iota zeta. cbn [post]. unfold chk_is. cbn [fst snd st_checking with_env].
    split; [exact Hb1|]. fin.
  - (* call *)
    eapply (post_bind (fun st1 : cstate => st_checking st1 = c0 /\ J B st1)).
    { destruct (negb _); [|split; [exact Hst|exact HS]]. destruct (find _ (d_fns D)) eqn:Ef; [|split; [exact Hst|exact HS]].
      eapply post_bind; [eapply (IHf c0 k); [exact (J_caller _ _ HS)|exact Hst|exact Hk|eapply find_In; exact Ef|bound]|].
      intros r (Hr & Hq). cbn [post st_checking]. split; [exact Hr|exact (J_call _ _ _ _ HS Hq)]. }
    intros st1 [Hst1 HS1]. pg ltac:(idtac; sub_post IHe c0 k f); fin.
Qed.

Definition WS (f : nat) : Prop := forall c0 k B st s, F (NS s) -> J B st -> Bud (B + agg_s s) ->
  st_checking st = c0 -> cnt (d_fns D) c0 <= k -> sdx s + k * M <= f ->
  post (chk_is c0 (fun ts => tsd ts <= f)) (check_stmt f D st s).

Lemma weakS f : AE f -> ASS f -> WS (S f).
Proof.
  intros IHe IHss c0 k B st s Hn HS Hb Hst Hk Hf.
  rewrite check_stmt_S. remember s as s0 eqn:Es. destruct s as [p o e|x o e|x accs e|p e body|e]; rewrite Es in *; clear Es; cbn [stmt_step]; unfold annot.
  all: try solve [pg ltac:(idtac; sub_post IHe c0 k f); fin].
  - (* let *)
    cbn [agg_s] in Hb.
    eapply post_bind; [eapply (IHe c0 k B); [frag|exact HS|exact Hb|chk|exact Hk|bound]|].
    intros r ((Hr1 & Hr2) & Hw & HSr).
    eapply (post_bind (fun b' : texpr => td b' <= f /\ Wt (B + agg_e e) (ty_of b'))).
    { destruct o as [u|]; [|split; [exact Hr2|exact Hw]].
      eapply post_bind; [apply post_self; apply np_concrete_of|]. intros ty' Hty'.
      eapply post_weaken; [apply post_strengthen; [eapply (post_check_type f f); [exact Hr2|lia]|intros a Ha; exact (check_type_ty _ _ _ _ Ha)]|].
      intros a [Ha1 Ha2]. cbv beta in Ha2. split; [exact Ha1|]. rewrite Ha2.
      eapply (Wt_ann _ (snd r)); [exact Hn| |exact Hty']. eapply J_le; [|exact HSr]. lia. }
    intros b' [Hb'1 Hb'2].
    eapply post_bind; [apply post_self; apply np_check_pattern|]. intros rp Hrp.
    eapply post_bind; [apply post_nf; exact (Hex_let _ _ _ _ _ _ _ Hn Hb'2 Hb Hrp)|].
    intros u0 _. cbn [post]. unfold chk_is. cbn [fst snd st_checking with_env]. split; [exact Hr1|]. cbn [tsd]. lia.
  - (* let mut *)
    cbn [agg_s] in Hb.
    eapply post_bind; [eapply (IHe c0 k B); [frag|exact HS|exact Hb|chk|exact Hk|bound]|].
    intros r ((Hr1 & Hr2) & _ & HSr).
    eapply (post_bind (fun b' : texpr => td b' <= f)).
    { destruct o; [|exact Hr2]. eapply post_bind; [nf_tac|]. intros ty' _. eapply (post_check_type f f); [exact Hr2|lia]. }
    intros b' Hb'. pg ltac:(idtac; sub_post IHe c0 k f); fin.
  - (* for *)
    rewrite agg_s_for in Hb.
    assert (Hbe : Bud (B + agg_e e)) by (eapply Bud_le; [|exact Hb]; lia).
    cbv zeta. match goal with |- post _ (if ?c then _ else _) => destruct c; [exact I|] end.
    eapply post_bind; [eapply (IHe c0 k B); [frag|exact HS|exact Hbe|chk|exact Hk|bound]|].
    intros r ((Hr1 & Hr2) & Hw & HSr).
    eapply post_bind; [apply post_self; apply np_expect_array_type|]. intros el Hel.
    assert (Hwel : Wt (B + agg_e e) el).
    { destruct (ty_of (fst r)); try discriminate Hel. inversion Hel; subst. exact (Wt_arr _ _ _ Hw). }
    eapply post_bind; [apply post_self; apply np_check_pattern|]. intros rp Hrp.
    eapply post_bind; [apply post_nf; exact (Hex_for _ _ _ _ _ _ _ Hn Hwel Hbe Hrp)|].
    intros u0 _.
    assert (HSb : J (B + agg_e e) (with_env (snd r) (snd rp))).
    { eapply J_pat; [exact Hwel| |exact Hrp]. eapply J_le; [|exact HSr]. lia. }
    eapply post_bind; [eapply (IHss c0 k (B + agg_e e)); [intros y Hy; frag|exact HSb|eapply Bud_le; [|exact Hb]; lia|chk|exact Hk|bound]|].
    intros rb ((Hrb1 & Hrb2) & _). cbn [post]. unfold chk_is. cbn [fst snd st_checking with_env]. split; [exact Hrb1|]. fin.
Qed.

(* statement lists: the level of the state rises along the list *)
Lemma stmts_post f : AS f -> forall b c0 k B st, Fb b -> J B st -> Bud (B + sumS b) ->
  st_checking st = c0 -> cnt (d_fns D) c0 <= k -> (forall x, In x b -> sdx x + k * M <= f) ->
  post (chk_is c0 (Forall (fun s => tsd s <= f))) (mapM_st (check_stmt f D) st b).
Proof.
  intro IHs. induction b as [|s b IH]; intros c0 k B st Hn HS Hb Hst Hk Hf; cbn [mapM_st].
  - split; [exact Hst|constructor].
  - rewrite sumS_cons in Hb.
    eapply post_bind; [eapply (IHs c0 k B); [exact (Hn s (or_introl eq_refl))|exact HS|eapply Bud_le; [|exact Hb]; lia|exact Hst|exact Hk|apply Hf; left; reflexivity]|].
    intros r1 ((H1 & Q1) & HS1 & _).
    eapply post_bind; [eapply (IH c0 k (B + agg_s s)); [intros x Hx; exact (Hn x (or_intror Hx))|exact HS1|eapply Bud_le; [|exact Hb]; lia|exact H1|exact Hk|intros x Hx; apply Hf; right; exact Hx]|].
    intros r2 (H2 & Q2). split; [exact H2|constructor; assumption].
Qed.

Definition WF (f : nat) : Prop := forall c0 k st fd, JT st -> st_checking st = c0 -> cnt (d_fns D) c0 <= k -> In fd (d_fns D) ->
  1 + k * M <= f -> post (fun r => st_checking (snd r) = c0) (check_fn f D st fd).

Lemma weakF f : AB f -> WF (S f).
Proof.
  intros IHb c0 k st fd HT Hst Hk Hin Hf. rewrite check_fn_S. unfold fn_step, ret_check.
  destruct (memL (uf_name fd) (st_checking st)) eqn:Em; [exact I|].
  eapply post_bind; [apply post_self; apply np_params_loop|]. intros rp Hrp. cbv beta in Hrp.
  (* entering fd uses up one of the k definitions that could still be entered *)
  rewrite Hst in Em. pose proof (cnt_enter (d_fns D) c0 fd Hin Em) as Hcnt.
  destruct k as [|k']; [lia|].
  assert (Hfn : S (bdx (uf_body fd)) <= dmax (d_fns D)) by exact (in_list_max fneed (d_fns D) fd Hin).
  eapply post_bind.
  { eapply (IHb (uf_name fd :: c0) k' B0); [exact (F_fn fd Hin)|exact (J_fn st fd rp Hin HT Hrp)|exact (Bud_fn fd Hin)|cbn [st_checking]; rewrite Hst; reflexivity|lia|].
    rewrite Nat.mul_succ_l in Hf. lia. }
  intros [[body ty] st1] ((Hb1 & Hb2) & _). cbn [fst snd] in *. cbv beta iota zeta.
  eapply post_bind; [nf_tac|]. intros ret_ty _.
  eapply (post_bind (fun _ : list tstmt => True)).
  { destruct (last (map Some body) None) as [[]|];
      try (destruct (negb _); [exact I|exact I]).
    eapply post_weaken; [eapply (post_map_last_expr _ f); [|exact Hb2]|auto].
    intros e1 He1. eapply (post_check_type f f); [exact He1|lia]. }
  intros body' _. cbn [post snd st_checking]. exact Hst.
Qed.

Theorem adequacy_gen : forall f, AE f /\ ASS f /\ AB f /\ AS f /\ AF f.
Proof.
  induction f as [|f (IHe & IHss & IHb & IHs & IHf)].
  { split; [|split; [|split; [|split]]].
    - intros c0 k B st e _ _ _ _ _ H. pose proof (xd_pos e). lia.
    - intros c0 k B st b _ _ _ _ _ H. unfold bdx in *. lia.
    - intros c0 k B st b _ _ _ _ _ H. unfold bdx in *. lia.
    - intros c0 k B st s _ _ _ _ _ H. pose proof (sdx_pos s). lia.
    - intros c0 k st fd _ _ _ _ H. lia. }
  pose proof (Depth (S f)) as (DE & DSS & DB & DS & DF).
  split; [|split; [|split; [|split]]].
  - intros c0 k B st e Hn HS Hb Hst Hk Hf. apply post_strengthen.
    + exact (weakE f IHe IHb IHf c0 k B st e Hn HS Hb Hst Hk Hf).
    + intros a Ha. exact (DE B st e a Hn HS Ha).
  - intros c0 k B st b Hn HS Hb Hst Hk Hf. apply post_strengthen.
    + rewrite check_stmts_S. unfold bdx in Hf.
      eapply post_weaken; [eapply (stmts_post f IHs b c0 k B st Hn HS Hb Hst Hk)|].
      * intros x Hx. pose proof (in_list_max sdx b x Hx). lia.
      * intros r [H1 H2]. split; [exact H1|]. eapply Forall_impl; [|exact H2]. intros a Ha. cbv beta in *. lia.
    + intros a Ha. exact (DSS B st b a Hn HS Ha).
  - intros c0 k B st b Hn HS Hb Hst Hk Hf. apply post_strengthen.
    + rewrite check_block_S. unfold bdx in Hf.
      eapply post_bind; [eapply (stmts_post f IHs b c0 k B st Hn HS Hb Hst Hk)|].
      * intros x Hx. pose proof (in_list_max sdx b x Hx). lia.
      * intros r [H1 H2]. cbn [post fst snd]. split; [exact H1|]. eapply Forall_impl; [|exact H2]. intros a Ha. cbv beta in *. lia.
    + intros a Ha. exact (DB B st b a Hn HS Ha).
  - intros c0 k B st s Hn HS Hb Hst Hk Hf. apply post_strengthen.
    + exact (weakS f IHe IHss c0 k B st s Hn HS Hb Hst Hk Hf).
    + intros a Ha. exact (DS B st s a Hn HS Ha).
  - intros c0 k st fd HT Hst Hk Hin Hf. apply post_strengthen.
    + exact (weakF f IHb c0 k st fd HT Hst Hk Hin Hf).
    + intros a Ha. exact (DF st fd a Hin HT Ha).
Qed.

End Adequacy.

Section Fragment.
Variable intern : list N -> N.
Variable D : defs.
Notation M := (dmax (d_fns D)).
Variable F : node -> Prop.
Hypothesis F_child : forall c p, child c p -> F p -> F c.
Hypothesis F_fn : forall fd, In fd (d_fns D) -> forall s, In s (uf_body fd) -> F (NS s).
Hypothesis Hex_let : forall p o e g ty rp, F (NS (XSLet p o e)) ->
  check_pattern D g p ty = COk rp -> nf (check_exhaustiveness intern D [fst rp] ty).
Hypothesis Hex_for : forall p e b g ty rp, F (NS (XSForEach p e b)) ->
  check_pattern D g p ty = COk rp -> nf (check_exhaustiveness intern D [fst rp] ty).
Hypothesis Hex_match : forall e arms ps ty, F (NE (XMatch e arms)) ->
  Forall (fun tp => exists g p g', check_pattern D g p ty = COk (tp, g')) ps ->
  nf (check_exhaustiveness intern D ps ty).

Let T1 := fun _ : nat => True.
Let T2 := fun (_ : nat) (_ : cty) => True.
Let T3 := fun (_ : nat) (_ : cstate) => True.

Lemma Forall_True {A} (P : A -> Prop) l : (forall x, P x) -> Forall P l.
Proof. intro H. apply Forall_forall. intros x _. apply H. Qed.

Theorem adequacy_frag : forall f,
  (forall c0 k st e, F (NE e) -> st_checking st = c0 -> cnt (d_fns D) c0 <= k -> xd e + k * M <= f ->
     post (chk_is c0 (fun te => td te <= f)) (check_expr intern f D st e)) /\
  (forall c0 k st b, (forall s, In s b -> F (NS s)) -> st_checking st = c0 -> cnt (d_fns D) c0 <= k -> bdx b + k * M <= f ->
     post (chk_is c0 (Forall (fun s => tsd s <= f))) (check_stmts intern f D st b)) /\
  (forall c0 k st b, (forall s, In s b -> F (NS s)) -> st_checking st = c0 -> cnt (d_fns D) c0 <= k -> bdx b + k * M <= f ->
     post (fun r => st_checking (snd r) = c0 /\ Forall (fun s => tsd s <= f) (fst (fst r))) (check_block intern f D st b)) /\
  (forall c0 k st s, F (NS s) -> st_checking st = c0 -> cnt (d_fns D) c0 <= k -> sdx s + k * M <= f ->
     post (chk_is c0 (fun ts => tsd ts <= f)) (check_stmt intern f D st s)) /\
  (forall c0 k st fd, st_checking st = c0 -> cnt (d_fns D) c0 <= k -> In fd (d_fns D) -> 1 + k * M <= f ->
     post (fun r => st_checking (snd r) = c0) (check_fn intern f D st fd)).
Proof.
  intro f.
  assert (G : AE intern D F T1 T2 T3 f /\ ASS intern D F T1 T2 T3 f /\ AB intern D F T1 T2 T3 f /\ AS intern D F T1 T2 T3 f /\
              AF intern D (fun _ => True) (fun _ _ => True) f).
  { apply adequacy_gen with (B0 := 0); try (intros; exact I); try assumption.
    - intros B p o e g ty rp Hn _ _. exact (Hex_let p o e g ty rp Hn).
    - intros B p e b g ty rp Hn _ _. exact (Hex_for p e b g ty rp Hn).
    - intros B e arms ps ty Hn _ _. exact (Hex_match e arms ps ty Hn).
    - intro f0. repeat split; try exact I; apply Forall_True; intros x e _; exact I. }
  destruct G as (HE & HSS & HB & HS & HF).
  split; [|split; [|split; [|split]]].
  - intros c0 k st e Hn Hst Hk Hf. eapply post_weaken; [exact (HE c0 k 0 st e Hn I I Hst Hk Hf)|]. intros r [H _]. exact H.
  - intros c0 k st b Hn Hst Hk Hf. eapply post_weaken; [exact (HSS c0 k 0 st b Hn I I Hst Hk Hf)|]. intros r [H _]. exact H.
  - intros c0 k st b Hn Hst Hk Hf. eapply post_weaken; [exact (HB c0 k 0 st b Hn I I Hst Hk Hf)|]. intros r [H _]. exact H.
  - intros c0 k st s Hn Hst Hk Hf. eapply post_weaken; [exact (HS c0 k 0 st s Hn I I Hst Hk Hf)|]. intros r [H _]. exact H.
  - intros c0 k st fd Hst Hk Hin Hf. eapply post_weaken; [exact (HF c0 k st fd I Hst Hk Hin Hf)|]. intros r [H _]. exact H.
Qed.

End Fragment.

(* the whole program: the oracle is only asked about pattern lists that came out of check_pattern at the type *)
Theorem adequacy_whole intern D :
  (forall ps ty, Forall (fun tp => exists g p g', check_pattern D g p ty = COk (tp, g')) ps -> nf (check_exhaustiveness intern D ps ty)) ->
  forall f, GoalE intern D f /\ GoalSS intern D f /\ GoalB intern D f /\ GoalS intern D f /\ GoalF intern D f.
Proof.
  intros Hex f.
  assert (Hex1 : forall g p ty rp, check_pattern D g p ty = COk rp -> nf (check_exhaustiveness intern D [fst rp] ty)).
  { intros g p ty [tp g'] Hp. apply Hex. constructor; [|constructor]. eexists _, _, _. exact Hp. }
  destruct (adequacy_frag intern D (fun _ => True) (fun _ _ _ _ => I) (fun _ _ _ _ => I)
              (fun p _ _ g ty rp _ => Hex1 g p ty rp) (fun p _ _ g ty rp _ => Hex1 g p ty rp) (fun _ _ ps ty _ => Hex ps ty) f)
    as (HE & HSS & HB & HS & HF).
  split; [|split; [|split; [|split]]].
  - intros c0 k st e. exact (HE c0 k st e I).
  - intros c0 k st b. exact (HSS c0 k st b (fun _ _ => I)).
  - intros c0 k st b. exact (HB c0 k st b (fun _ _ => I)).
  - intros c0 k st s. exact (HS c0 k st s I).
  - exact HF.
Qed.
