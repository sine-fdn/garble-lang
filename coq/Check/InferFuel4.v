(* C07 for the type checker, part 4: "the checker terminates" with COMPUTABLE premises.
   Programs that never consult the exhaustiveness oracle: no `match`, and every `let` / `for`
   pattern syntactically irrefutable (identifiers / tuples / struct patterns of those):
   [no_oracle P = true -> check_fuel_needed P <= fuel -> check_program_t intern fuel P <> CNoFuel],
   unconditionally (no hypothesis on the oracle, on type depths, or on intern).
   For programs with match (InferFuel6.v): the depth condition [ctok] on the checker's own types. *)
From Coq Require Import Lia Bool.
From GV Require Import Base.Util Front.Scan Front.ParseExpr Check.UAst Check.Infer Check.InferProofs Check.InferSub
  Check.InferTotal Check.InferFuel Check.InferAdequacy Check.InferFuel2 Check.InferFuel3.
From GV Require Exhaust.Pat Exhaust.Useful Exhaust.UsefulProofs.
Local Open Scope N_scope.

(* syntactically irrefutable patterns *)
Fixpoint irref_p (p : upattern) : bool :=
  match p with
  | PIdentifier _ => true
  | PTuple ps => forallb irref_p ps
  | PStruct _ fs | PStructIgnoreRemaining _ fs => forallb (fun f => irref_p (snd f)) fs
  | _ => false
  end.

(* no match; let / for patterns irrefutable *)
Fixpoint no_e (e : xexpr) : bool :=
  match e with
  | XMatch _ _ => false
  | XArrayLiteral es | XTupleLiteral es | XFnCall _ es | XEnumLiteral _ _ (Some es) | XJoin es => forallb no_e es
  | XArrayRepeatLiteral e _ | XTupleAccess e _ | XStructAccess e _ | XUnaryOp _ e | XCast _ e => no_e e
  | XArrayAccess a i => no_e a && no_e i
  | XStructLiteral _ fs => forallb (fun f => no_e (snd f)) fs
  | XOp _ l r => no_e l && no_e r
  | XBlock b => forallb no_s b
  | XIf c a b => no_e c && no_e a && no_e b
  | _ => true
  end
with no_s (s : xstmt) : bool :=
  match s with
  | XSLet p _ e => irref_p p && no_e e
  | XSLetMut _ _ e | XSExpr e => no_e e
  | XSVarAssign _ accs e => forallb no_a accs && no_e e
  | XSForEach p e body => irref_p p && no_e e && forallb no_s body
  end
with no_a (a : xaccessor) : bool :=
  match a with XAArray i => no_e i | _ => true end.

Definition no_oracle (P : uprogram) : bool := forallb (fun fd => forallb no_s (uf_body fd)) (up_fns P).

(* an irrefutable upattern yields an irrefutable tpattern *)
Lemma irref_fields_loop D fs :
  Forall (fun p => forall g ty tp g', irref_p p = true -> check_pattern D g p ty = COk (tp, g') -> irrefutable tp = true) fs ->
  forallb irref_p fs = true ->
  forall ts g r g',
    (fix go (fs : list upattern) (ts : list cty) (g : cenv) : cres (list tpattern * cenv) :=
       match fs, ts with
       | fp :: fr, t :: tr =>
           do r1 <- check_pattern D g fp t; do r2 <- go fr tr (snd r1); COk (fst r1 :: fst r2, snd r2)
       | _, _ => COk ([], g)
       end) fs ts g = COk (r, g') ->
  forallb irrefutable r = true.
Proof.
  induction 1 as [|q fs Hq Hfs IH]; intros Hn ts g r g' H.
  - inversion H; subst. reflexivity.
  - destruct ts as [|t ts]; [inversion H; subst; reflexivity|].
    cbn [forallb] in Hn. apply andb_true_iff in Hn. destruct Hn as [Hn1 Hn2].
    apply cbind_ok in H. destruct H as [[p1 g1] [H1 H]]. apply cbind_ok in H. destruct H as [[r2 g2] [H2 H]].
    cbn [fst snd] in *. inversion H; subst; clear H. cbn [forallb]. rewrite (Hq _ _ _ _ Hn1 H1). exact (IH Hn2 _ _ _ _ H2).
Qed.

Lemma irref_struct_loop D (sdef : list (list N * cty)) fs :
  Forall (fun f : list N * upattern => forall g ty tp g', irref_p (snd f) = true -> check_pattern D g (snd f) ty = COk (tp, g') -> irrefutable tp = true) fs ->
  forallb (fun f => irref_p (snd f)) fs = true ->
  forall seen g r g',
    (fix go (seen : list (list N)) (fs : list (list N * upattern)) (g : cenv) : cres (list (list N * tpattern) * cenv) :=
       match fs with
       | [] => COk ([], g)
       | (field_name, field_value) :: fr =>
           if memL field_name seen then CErr E_PatternDoesNotMatchType else
           match assocL field_name sdef with
           | Some field_type =>
               do r1 <- check_pattern D g field_value field_type;
               do r2 <- go (field_name :: seen) fr (snd r1);
               COk ((field_name, fst r1) :: fst r2, snd r2)
           | None => CErr E_UnknownStructField
           end
       end) seen fs g = COk (r, g') ->
  forallb (fun f => irrefutable (snd f)) r = true.
Proof.
  induction 1 as [|[fname q] fs Hq Hfs IH]; intros Hn seen g r g' H.
  - inversion H; subst. reflexivity.
  - cbn [forallb snd] in Hn. apply andb_true_iff in Hn. destruct Hn as [Hn1 Hn2].
    destruct (memL fname seen); [discriminate|].
    destruct (assocL fname sdef) as [ft|]; [|discriminate].
    apply cbind_ok in H. destruct H as [[p1 g1] [H1 H]]. apply cbind_ok in H. destruct H as [[r2 g2] [H2 H]].
    cbn [fst snd] in *. inversion H; subst; clear H. cbn [forallb snd]. rewrite (Hq _ _ _ _ Hn1 H1). exact (IH Hn2 _ _ _ _ H2).
Qed.

Lemma irref_check D : forall p g ty tp g', irref_p p = true -> check_pattern D g p ty = COk (tp, g') -> irrefutable tp = true.
Proof.
  induction p using upattern_ind'; intros g ty tp g' Hn HH; try discriminate Hn; cbn [check_pattern] in HH.
  - inversion HH; reflexivity.
  - cbn [irref_p] in Hn. apply cbind_ok in HH. destruct HH as [fts [_ HH]].
    destruct (negb _); [discriminate|]. apply cbind_ok in HH. destruct HH as [[r g2] [Hl HH]]. inversion HH; subst; clear HH.
    cbn [fst irrefutable]. exact (irref_fields_loop D ps H Hn _ _ _ _ Hl).
  - cbn [irref_p] in Hn. apply cbind_ok in HH. destruct HH as [sdn [_ HH]].
    destruct (negb _); [discriminate|]. destruct (assocL n (d_structs D)) as [sdef|]; [|discriminate].
    apply cbind_ok in HH. destruct HH as [[r g2] [Hl HH]].
    match type of HH with (if ?c then _ else _) = _ => destruct c; [discriminate|] end.
    inversion HH; subst; clear HH. cbn [fst irrefutable]. exact (irref_struct_loop D sdef _ H Hn _ _ _ _ Hl).
  - cbn [irref_p] in Hn. apply cbind_ok in HH. destruct HH as [sdn [_ HH]].
    destruct (negb _); [discriminate|]. destruct (assocL n (d_structs D)) as [sdef|]; [|discriminate].
    apply cbind_ok in HH. destruct HH as [[r g2] [Hl HH]].
    match type of HH with (if ?c then _ else _) = _ => destruct c; [discriminate|] end.
    inversion HH; subst; clear HH. cbn [fst irrefutable]. exact (irref_struct_loop D sdef _ H Hn _ _ _ _ Hl).
Qed.

(* the oracle is not consulted for a single irrefutable pattern *)
Lemma exh_irref intern D tp ty : irrefutable tp = true -> nf (check_exhaustiveness intern D [tp] ty).
Proof. intro H. unfold check_exhaustiveness. rewrite H. reflexivity. Qed.

Local Open Scope nat_scope.

(* the fragment as a set of nodes: closed under taking a direct sub-term *)
Definition no_n (n : node) : Prop := match n with NE e => no_e e = true | NS s => no_s s = true end.

Lemma no_child c p : child c p -> no_n p -> no_n c.
Proof.
  destruct 1; cbn [no_n no_e no_s no_a]; intro Hn; try discriminate Hn;
    repeat match goal with H : _ && _ = true |- _ => apply andb_true_iff in H; destruct H end;
    try assumption;
    match goal with H : forallb ?g ?l = true, Hin : In _ ?l |- _ => exact (proj1 (forallb_forall g l) H _ Hin) end.
Qed.

Section Terminates4.
Variable intern : list N -> N.

Theorem check_terminates_no_oracle P fuel :
  no_oracle P = true -> check_fuel_needed P <= fuel -> check_program_t intern fuel P <> CNoFuel.
Proof.
  intros Hno Hfuel. apply check_program_t_nf; [exact Hfuel|]. intros consts structs enums _ _ _ Hf.
  match goal with |- context [pub_loop_fn intern fuel ?D0] => set (D := D0) end.
  apply (pub_loop_adequate intern D fuel); [|exact Hf|reflexivity].
  refine (proj2 (proj2 (proj2 (proj2 (adequacy_frag intern D no_n no_child _ _ _ _ fuel))))).
  - intros fd Hin s Hs. unfold no_oracle in Hno.
    exact (proj1 (forallb_forall _ _) (proj1 (forallb_forall _ _) Hno fd Hin) s Hs).
  - intros p o e g ty [tp g'] Hn Hp. apply exh_irref. apply andb_true_iff in Hn. exact (irref_check D p g ty tp g' (proj1 Hn) Hp).
  - intros p e b g ty [tp g'] Hn Hp. apply exh_irref. cbn [no_n no_s] in Hn. apply andb_true_iff in Hn. destruct Hn as [Hn _].
    apply andb_true_iff in Hn. exact (irref_check D p g ty tp g' (proj1 Hn) Hp).
  - intros e arms ps ty Hn. discriminate Hn.
Qed.

End Terminates4.

Print Assumptions irref_check.
Print Assumptions check_terminates_no_oracle.

(* ================================================================ programs with match: the depth condition on cty

   [ctok D d ty]: the computable counterpart, on the checker's own types and definitions, of
   UsefulProofs.tok on the translated ones: ty unfolds within depth d (arrays are not pattern types:
   pat_ty gives None, the oracle is not run), every named type is defined, no enum is empty. *)
Fixpoint ctok (D : defs) (d : nat) (t : cty) {struct d} : bool :=
  match d with
  | O => false
  | S d' =>
      match t with
      | CTuple ts => forallb (ctok D d') ts
      | CStruct n => match assocL n (d_structs D) with
                     | Some fts => forallb (fun ft : list N * cty => ctok D d' (snd ft)) fts
                     | None => false
                     end
      | CEnum n => match assocL n (d_enums D) with
                   | Some vs => match vs with [] => false | _ => true end &&
                                forallb (fun v : list N * option (list cty) =>
                                           match snd v with Some ts => forallb (ctok D d') ts | None => true end) vs
                   | None => false
                   end
      | _ => true
      end
  end.

Lemma omap_forallb {A B} (g : A -> option B) (Pa : A -> bool) (Q : B -> bool) :
  (forall x y, Pa x = true -> g x = Some y -> Q y = true) ->
  forall l l', forallb Pa l = true -> omap g l = Some l' -> forallb Q l' = true.
Proof.
  intro H. induction l as [|x l IH]; intros l' Hp Ho; cbn [omap] in Ho.
  - inversion Ho. reflexivity.
  - cbn [forallb] in Hp. apply andb_true_iff in Hp. destruct Hp as [Hx Hl].
    destruct (g x) as [y|] eqn:Eg; [|discriminate]. destruct (omap g l) as [l0|] eqn:El; [|discriminate].
    inversion Ho; subst. cbn [forallb]. rewrite (H _ _ Hx Eg), (IH _ Hl eq_refl). reflexivity.
Qed.

Section CTok.
Variable intern : list N -> N.
Hypothesis intern_inj : forall a b, intern a = intern b -> a = b.
Variable D : defs.
Variable env : Pat.tyenv.
Hypothesis Henv : pat_tyenv intern D = Some env.

Lemma ctok_tok : forall d ty t, ctok D d ty = true -> pat_ty intern ty = Some t -> UsefulProofs.tok env d t = true.
Proof.
  induction d as [|d IH]; intros ty t Hc Ht; [discriminate|].
  assert (IHl : forall ts l, forallb (ctok D d) ts = true -> omap (pat_ty intern) ts = Some l -> forallb (UsefulProofs.tok env d) l = true).
  { intros ts l. apply omap_forallb. intros x y Hx Hy. exact (IH _ _ Hx Hy). }
  destruct ty as [|u|s|el n|ts|n|n]; cbn [ctok] in Hc.
  - inversion Ht. reflexivity.
  - inversion Ht. destruct u; reflexivity.
  - inversion Ht. destruct s; reflexivity.
  - discriminate Ht.
  - rewrite (pat_ty_tuple intern) in Ht. destruct (omap (pat_ty intern) ts) as [l|] eqn:El; [|discriminate].
    inversion Ht; subst. cbn [UsefulProofs.tok]. exact (IHl _ _ Hc El).
  - inversion Ht; subst. destruct (assocL n (d_structs D)) as [def|] eqn:Ea; [|discriminate].
    destruct (struct_lookup intern intern_inj D env Henv n def Ea) as [fts [Hl Ho]].
    cbn [UsefulProofs.tok]. rewrite Hl.
    eapply (omap_forallb _ (fun ft : list N * cty => ctok D d (snd ft))); [|exact Hc|exact Ho].
    intros x y Hx Hy. cbn beta in Hy. destruct (pat_ty intern (snd x)) as [t0|] eqn:Et; [|discriminate].
    inversion Hy; subst. cbn [snd]. exact (IH _ _ Hx Et).
  - inversion Ht; subst. destruct (assocL n (d_enums D)) as [vs|] eqn:Ea; [|discriminate].
    apply andb_true_iff in Hc. destruct Hc as [Hne Hc].
    destruct (enum_lookup intern intern_inj D env Henv n vs Ea) as [variants [Hl Ho]].
    cbn [UsefulProofs.tok]. rewrite Hl. apply andb_true_iff. split.
    + destruct vs as [|v vs]; [discriminate|]. cbn [omap] in Ho.
      match type of Ho with match ?a with _ => _ end = _ => destruct a; [|discriminate] end.
      match type of Ho with match ?a with _ => _ end = _ => destruct a; [|discriminate] end.
      inversion Ho. reflexivity.
    + eapply (omap_forallb _ (fun v : list N * option (list cty) => match snd v with Some ts => forallb (ctok D d) ts | None => true end)); [|exact Hc|exact Ho].
      intros x y Hx Hy. cbn beta in Hy. destruct (snd x) as [ts|].
      * destruct (omap (pat_ty intern) ts) as [l|] eqn:El; [|discriminate]. inversion Hy; subst. cbn [snd]. exact (IHl _ _ Hx El).
      * inversion Hy; subst. reflexivity.
Qed.
End CTok.

Lemma ctok_tok_ok intern (inj : forall a b, intern a = intern b -> a = b) D ty : ctok D 64 ty = true -> tok_ok intern D ty.
Proof. intros H env t He Ht. exact (ctok_tok intern inj D env He 64 ty t H Ht). Qed.

(* check_terminates_depth with the hypothesis on the checker's own types *)
Theorem check_terminates_ctok intern (inj : forall a b, intern a = intern b -> a = b) P fuel :
  (forall D ty ps, d_fns D = up_fns P -> Forall (from_check D ty) ps -> ctok D 64 ty = true) ->
  check_fuel_needed P <= fuel -> check_program_t intern fuel P <> CNoFuel.
Proof.
  intros H. apply (check_terminates_depth intern inj). intros D ty ps Hd Hf. apply (ctok_tok_ok intern inj). exact (H D ty ps Hd Hf).
Qed.

Print Assumptions ctok_tok.
Print Assumptions check_terminates_ctok.

(* ---------------------------------------------------------------- [no_oracle] is inhabited *)
From GV Require Check.InferExamples.
Module Fuel4Examples.
Import InferExamples. Import String. Local Open Scope string_scope. Local Open Scope N_scope.

(* let (a, b) = (x, x); let P { a: q, b: _ } = P { a: a, b: true }; for i in 0u8..3u8 { .. }; inc(q) *)
Definition P_irref := mkUProgram [] [s_P] []
  [main_fn [px "x" u8] u8
     [XSLet (PTuple [pid "a"; pid "b"]) None (XTupleLiteral [id_ "x"; id_ "x"]);
      XSLet (PStruct (nm "P") [(nm "a", pid "q"); (nm "b", pid "_")]) None
            (XStructLiteral (nm "P") [(nm "a", id_ "a"); (nm "b", XTrue)]);
      XSForEach (pid "i") (XRange 0 3 U8) [XSExpr (id_ "i")];
      XSExpr (XFnCall (nm "inc") [id_ "q"])];
   mkUFn false (nm "inc") u8 [px "a" u8] [XSExpr (XOp BAdd (id_ "a") (XNumUnsigned 1 U8))]] (nm "main").

Example no_oracle_examples :
  forallb no_oracle [P_loop; P_lit; P_i32; P_ops; P_call; P_const; P_irref] = true /\
  no_oracle P_s3 = false /\
  match check_program_t ex_intern (check_fuel_needed P_irref) P_irref with COk _ => True | _ => False end.
Proof. vm_compute. repeat split; reflexivity. Qed.
End Fuel4Examples.
