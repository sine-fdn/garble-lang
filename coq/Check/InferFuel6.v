(* C07 for the type checker, part 6: "the checker terminates" for programs WITH match, under the
   computable premise [ty_depth_bound P <= 64] (Check/InferFuel5.v).  The adequacy induction
   (InferAdequacy.adequacy_gen) with the depth invariant of InferFuel5.depth_all: at every oracle site
   the scrutinee type is wf within 64, hence (InferFuel4.ctok_tok, InferFuel3.exh_nf) the oracle does
   not run out of its fuel. *)
From Coq Require Import Lia Bool.
From GV Require Import Base.Util Front.Scan Front.ParseExpr Check.UAst Check.Infer Check.InferProofs Check.InferSub
  Check.InferTotal Check.InferFuel Check.InferFuel5 Check.InferAdequacy Check.InferFuel2 Check.InferFuel3 Check.InferFuel4.
From GV Require Exhaust.Pat Exhaust.Useful Exhaust.UsefulProofs.
Local Open Scope nat_scope.

Lemma wf_ctok D : forall d t, wf D d t = true -> ctok D d t = true.
Proof.
  induction d as [|d IH]; intros t H; [discriminate|]. cbn [wf] in H. cbn [ctok].
  destruct t as [|u|s|el n|ts|n|n]; try reflexivity.
  - exact (forallb_impl _ _ _ IH H).
  - destruct (assocL n (d_structs D)); [|discriminate]. eapply forallb_impl; [|exact H]. intros x Hx. exact (IH _ Hx).
  - destruct (assocL n (d_enums D)); [|discriminate]. apply andb_true_iff in H. destruct H as [H1 H2]. rewrite H1. cbn [andb].
    eapply forallb_impl; [|exact H2]. intros x Hx. cbv beta in Hx |- *. destruct (snd x); [|reflexivity]. exact (forallb_impl _ _ _ IH Hx).
Qed.

Section Adequacy6.
Variable intern : list N -> N.
Hypothesis intern_inj : forall a b, intern a = intern b -> a = b.
Variable D : defs.
Variable B0 : nat.
Hypothesis HB0 : 1 <= B0.
Hypothesis Hconsts : forall x t, assocL x (d_consts D) = Some t -> wf D B0 t = true.
Hypothesis Hfns : forall fd, In fd (d_fns D) -> ann_fn D B0 fd = true.
Hypothesis Hbud : forall fd, In fd (d_fns D) -> B0 + sumS (uf_body fd) <= 64.
Hypothesis Hnd : defs_nodup D.
Notation M := (dmax (d_fns D)).
Notation check_expr := (check_expr intern).
Notation check_stmt := (check_stmt intern).
Notation check_stmts := (check_stmts intern).
Notation check_block := (check_block intern).
Notation check_fn := (check_fn intern).
Notation SInv := (SInv D B0).
Notation ann_e := (ann_e D B0).
Notation ann_s := (ann_s D B0).
Notation ann_a := (ann_a D B0).
Notation typed_ok := (typed_ok D B0).

(* the oracle at a type that is wf within 64 *)
Lemma exh_wf ps ty d : wf D d ty = true -> d <= 64 -> Forall (from_check D ty) ps -> nf (check_exhaustiveness intern D ps ty).
Proof.
  intros Hw Hd Hps. apply (exh_nf intern intern_inj D ps ty Hnd); [|exact Hps].
  apply (ctok_tok_ok intern intern_inj). apply wf_ctok. exact (wf_le D _ _ _ Hd Hw).
Qed.

(* ---------------------------------------------------------------- the goals, with the depth invariant *)
Definition HE (f : nat) : Prop := forall c0 k B st e, ann_e e = true -> SInv B st -> B + agg_e e <= 64 ->
  st_checking st = c0 -> cnt (d_fns D) c0 <= k -> xd e + k * M <= f ->
  post (fun r => chk_is c0 (fun te => td te <= f) r /\ (wf D (B + agg_e e) (ty_of (fst r)) = true /\ SInv B (snd r))) (check_expr f D st e).
Definition HSS (f : nat) : Prop := forall c0 k B st b, forallb ann_s b = true -> SInv B st -> B + sumS b <= 64 ->
  st_checking st = c0 -> cnt (d_fns D) c0 <= k -> bdx b + k * M <= f ->
  post (fun r => chk_is c0 (Forall (fun s => tsd s <= f)) r /\ (SInv (B + sumS b) (snd r) /\ Forall (expr_ty_ok D (B + sumS b)) (fst r))) (check_stmts f D st b).
Definition HB (f : nat) : Prop := forall c0 k B st b, forallb ann_s b = true -> SInv B st -> B + sumS b <= 64 ->
  st_checking st = c0 -> cnt (d_fns D) c0 <= k -> bdx b + k * M <= f ->
  post (fun r => (st_checking (snd r) = c0 /\ Forall (fun s => tsd s <= f) (fst (fst r))) /\
                 (SInv (B + sumS b) (snd r) /\ wf D (B + sumS b) (snd (fst r)) = true)) (check_block f D st b).
Definition HS (f : nat) : Prop := forall c0 k B st s, ann_s s = true -> SInv B st -> B + agg_s s <= 64 ->
  st_checking st = c0 -> cnt (d_fns D) c0 <= k -> sdx s + k * M <= f ->
  post (fun r => chk_is c0 (fun ts => tsd ts <= f) r /\ (SInv (B + agg_s s) (snd r) /\ expr_ty_ok D (B + agg_s s) (fst r))) (check_stmt f D st s).
Definition HF (f : nat) : Prop := forall c0 k st fd, typed_ok (st_typed st) -> st_checking st = c0 -> cnt (d_fns D) c0 <= k -> In fd (d_fns D) ->
  1 + k * M <= f ->
  post (fun r => st_checking (snd r) = c0 /\ (typed_ok (st_typed (snd r)) /\ wf D B0 (tf_ty (fst r)) = true /\ st_env (snd r) = st_env st)) (check_fn f D st fd).

(* the nodes with declared types wf at B0: closed under taking a direct sub-term *)
Definition ann_n (n : node) : Prop := match n with NE e => ann_e e = true | NS s => ann_s s = true end.

Lemma ann_child c p : child c p -> ann_n p -> ann_n c.
Proof.
  destruct 1; cbn [ann_n InferFuel5.ann_e InferFuel5.ann_s InferFuel5.ann_a]; intro Hn;
    repeat match goal with H : _ && _ = true |- _ => apply andb_true_iff in H; destruct H end;
    try assumption;
    match goal with H : forallb ?g ?l = true, Hin : In _ ?l |- _ => exact (proj1 (forallb_forall g l) H _ Hin) end.
Qed.

Lemma ann_let_ty B st p u e t : ann_n (NS (XSLet p (Some u) e)) -> SInv B st -> concrete_of D u = COk t -> wf D B t = true.
Proof.
  intros Hn (HB & _ & _) Hu. apply andb_true_iff in Hn. destruct Hn as [Hn _].
  cbn [ann_o] in Hn. unfold ann_t in Hn. rewrite Hu in Hn. exact (wf_le D _ _ _ HB Hn).
Qed.

Lemma SInv_call B st id (r : tfndef * cstate) : SInv B st ->
  typed_ok (st_typed (snd r)) /\ wf D B0 (tf_ty (fst r)) = true /\ st_env (snd r) = st_env st ->
  SInv B (mkSt (st_env (snd r)) ((id, fst r) :: st_typed (snd r)) (st_checking (snd r))).
Proof.
  intros (H1 & H2 & _) (HT & Hw & Hev). split; [exact H1|]. cbn [st_env st_typed].
  split; [rewrite Hev; exact H2|]. constructor; [exact Hw|exact HT].
Qed.

Lemma SInv_fn st fd rp : In fd (d_fns D) -> typed_ok (st_typed st) ->
  params_loop D [] (uf_params fd) (env_push env_new) = COk rp ->
  SInv B0 (mkSt (snd rp) (st_typed st) (uf_name fd :: st_checking st)).
Proof.
  intros Hin HT Hrp. pose proof (Hfns fd Hin) as Hann. unfold ann_fn in Hann.
  apply andb_true_iff in Hann. destruct Hann as [Hann _]. apply andb_true_iff in Hann. destruct Hann as [Hp _].
  split; [lia|]. split; [|exact HT]. cbn [st_env]. eapply (params_wf D B0); [exact Hp| |exact Hrp].
  apply (env_all_push D). constructor; [constructor|constructor].
Qed.

Theorem adequacy_all6 : forall f, HE f /\ HSS f /\ HB f /\ HS f /\ HF f.
Proof.
  intro f.
  destruct (adequacy_gen intern D ann_n (fun n => n <= 64) (fun B t => wf D B t = true) SInv
              (fun st => typed_ok (st_typed st))
              (fun st r => typed_ok (st_typed (snd r)) /\ wf D B0 (tf_ty (fst r)) = true /\ st_env (snd r) = st_env st) B0
              ann_child) with (f := f) as (GE & GSS & GB & GS & GF).
  - intros fd Hin. pose proof (Hfns fd Hin) as Hann. unfold ann_fn in Hann. apply andb_true_iff in Hann.
    exact (proj1 (forallb_forall _ _) (proj2 Hann)).
  - intros n m Hle Hm. lia.
  - exact Hbud.
  - exact (wf_arr D).
  - exact ann_let_ty.
  - exact (SInv_le D B0).
  - exact (SInv_push D B0).
  - exact (SInv_pop D B0).
  - exact (SInv_pat D B0).
  - intros B st (_ & _ & HT). exact HT.
  - exact SInv_call.
  - exact SInv_fn.
  - intros B p o e g ty [tp g'] _ Hw Hb Hp. apply (exh_wf _ ty B Hw Hb). constructor; [|constructor]. eexists _, _, _. exact Hp.
  - intros B p e b g ty [tp g'] _ Hw Hb Hp. apply (exh_wf _ ty B Hw Hb). constructor; [|constructor]. eexists _, _, _. exact Hp.
  - intros B e arms ps ty _ Hw Hb Hps. exact (exh_wf ps ty B Hw Hb Hps).
  - intro f0. destruct (depth_all D B0 intern HB0 Hconsts Hfns f0) as (DE & DSS & DB & DS & DF).
    split; [exact DE|split; [|split; [|split; [exact DS|exact DF]]]].
    + intros B st b r Hn. exact (DSS B st b r (proj2 (forallb_forall _ _) Hn)).
    + intros B st b r Hn. exact (DB B st b r (proj2 (forallb_forall _ _) Hn)).
  - split; [exact GE|split; [|split; [|split; [exact GS|exact GF]]]].
    + intros c0 k B st b Hn. exact (GSS c0 k B st b (proj1 (forallb_forall _ _) Hn)).
    + intros c0 k B st b Hn. exact (GB c0 k B st b (proj1 (forallb_forall _ _) Hn)).
Qed.

End Adequacy6.
Print Assumptions adequacy_all6.

(* ================================================================ whole programs *)
Section Terminates6.
Variable intern : list N -> N.
Hypothesis intern_inj : forall a b, intern a = intern b -> a = b.

Theorem check_terminates_match P fuel :
  ty_depth_bound P <= 64 -> check_fuel_needed P <= fuel -> check_program_t intern fuel P <> CNoFuel.
Proof.
  intros Hbound Hfuel. apply check_program_t_nf; [exact Hfuel|]. intros consts structs enums Ec Es Ee Hf.
  match goal with |- context [pub_loop_fn intern fuel ?D0] => set (D := D0) end.
  assert (Hd : defs_of P = Some D) by (unfold defs_of; rewrite Ec, Es, Ee; reflexivity).
  destruct (ty_depth_bound_spec P D Hd Hbound) as (b & Hb1 & Hc & Hfn & Hbud).
  assert (Hnd : defs_nodup D).
  { split; cbn [D d_structs d_enums].
    - intros sd Hin. destruct (mapM_In _ _ _ _ Es Hin) as [usd [_ Hcd]]. exact (struct_def_nodup _ _ _ _ Hcd).
    - intros ed Hin. destruct (mapM_In _ _ _ _ Ee Hin) as [ued [_ Hcd]]. exact (enum_def_nodup _ _ _ _ Hcd). }
  apply (post_pub_loop_fn intern fuel D (fun st => st_checking st = [] /\ typed_ok D b (st_typed st))); [|split; [reflexivity|constructor]].
  intros st fd Hin [Hst HT].
  eapply post_weaken; [apply (proj2 (proj2 (proj2 (proj2 (adequacy_all6 intern intern_inj D b Hb1 Hc Hfn Hbud Hnd fuel)))) [] (length (d_fns D)) st fd HT Hst);
                        [rewrite cnt_nil; cbn [D d_fns]; lia|exact Hin|exact Hf]|].
  intros r1 (Hr1 & HT1 & Hw & _). split; [exact Hr1|]. cbn [pub_next st_typed]. constructor; [exact Hw|].
  apply Forall_forall. intros x Hx. apply filter_In in Hx. exact (proj1 (Forall_forall _ _) HT1 x (proj1 Hx)).
Qed.

End Terminates6.
Print Assumptions check_terminates_match.

From GV Require Check.InferExamples.
Module Fuel6Examples.
Import InferExamples.
(* programs with match within the bound: accepted at exactly check_fuel_needed *)
Example match_examples :
  ty_depth_bound P_s3 = 2 /\
  match check_program_t ex_intern (check_fuel_needed P_s3) P_s3 with COk _ => True | _ => False end.
Proof. vm_compute. split; [reflexivity|exact I]. Qed.
End Fuel6Examples.
