(* THE LAST LINK OF C09: EVERY OUTPUT THE API CAN DECODE PRINTS AND PARSES BACK.

   (1) Lang/LiteralDecode.v: the decoder only produces canonical values ([from_bits_has_type]).
   (2) [output_roundtrip] / [output_roundtrip_text]: from_bits r bits = Ok (Some v), the type r of T
       well formed ([wf], [dwf]), the names of the definitions interned injectively ([D_names_ok]),
       v printable ([printable_value]): printing v and parsing it back as a T yields v.
       [from_bits_plain]: a decoded value has no repeat / range spelling.
   (3) [type_always_printable t] (a boolean on the TYPE): no zero-length array, and the element type
       of every array is a number type or a type without a signed number outside struct / enum
       values ([sign_free]) => EVERY canonical (in particular: decoded) value of t is
       [printable_value] ([tap_printable]); so for such types the round trip holds for all decoded
       values with no condition on the value ([output_roundtrip_all], [output_roundtrip_all_text]).
       The condition is sharp in the sense of the two refuted families of Check/LitRoundTrip.v:
       [not_tap_examples]. *)
From Coq Require Import ZArith List String Lia.
Import ListNotations.
From GV Require Import Base.Util Front.Scan Front.ScanPrint Front.ParseExpr Check.UAst Check.Infer Check.InferProofs
  Check.LitParse Check.LitParseProofs Check.LitRoundTrip Check.LitRoundTripText.
From GV Require Lang.Types Lang.Literal Lang.LiteralProofs Lang.LiteralDecode.
Local Open Scope N_scope.

Module LD := GV.Lang.LiteralDecode.

(* ------------------------------------------------------------------ (2) decoded values *)

Theorem from_bits_plain t bits v : LD.dwf t = true -> LL.from_bits t bits = Ok (Some v) -> plain v = true.
Proof. intros Hw H. apply (has_type_plain v t). now apply (LD.from_bits_has_type t bits). Qed.

Section Output.
  Variable intern : list N -> N.
  Variable unintern : N -> list N.
  Variable D : defs.
  Hypothesis HD : D_names_ok intern unintern D.

  Theorem output_roundtrip E T r fuel bits v :
    LT.wf E r = true -> LD.dwf r = true -> rty_of_cty intern D fuel T = Some r ->
    LL.from_bits r bits = Ok (Some v) -> printable_value unintern v = true ->
    literal_parse_tokens intern D T (lit_tokens unintern v) = COk v.
  Proof.
    intros W Hw Hr Hb Hp.
    exact (proj2 (canonical_value_roundtrip intern unintern D HD E v T r fuel W
                    (LD.from_bits_has_type r bits v Hw Hb) Hr Hp)).
  Qed.

  Theorem output_roundtrip_text E T r fuel bits v :
    LT.wf E r = true -> LD.dwf r = true -> rty_of_cty intern D fuel T = Some r ->
    LL.from_bits r bits = Ok (Some v) -> printable_value unintern v = true -> aux_ok unintern false v ->
    literal_parse intern D T (print_tokens (map kind (lit_tokens unintern v))) = COk v.
  Proof.
    intros W Hw Hr Hb Hp Ha.
    apply (value_roundtrip_text intern unintern D HD v T r fuel); try assumption.
    exact (proj1 (LD.from_bits_is_of_type E r bits v W Hw Hb)).
  Qed.
End Output.

(* ------------------------------------------------------------------ (3) types all of whose values are printable *)

Section AlwaysPrintable.
  Variable unintern : N -> list N.
  Notation ptv := (pt unintern).
  Notation ptsv := (pts unintern).
  Notation pv := (printable_value unintern).
  Notation pvs := (printable_values unintern).
  Notation pvf := (printable_fields unintern).

  Definition is_numty (t : LT.rty) : bool :=
    match t with LT.RUnsigned _ | LT.RSigned _ => true | _ => false end.

  (* the printed form of a value of the type has the same sign shape whatever the value: no signed
     number outside struct / enum values (whose names hide their contents from check.rs' element type) *)
  Fixpoint sign_free (t : LT.rty) : bool :=
    match t with
    | LT.RSigned _ => false
    | LT.RArray et n => negb (n =? 0) && sign_free et
    | LT.RTuple ts => sign_frees ts
    | _ => true
    end
  with sign_frees (ts : LT.rtys) : bool :=
    match ts with LT.RsNil => true | LT.RsCons t r => sign_free t && sign_frees r end.

  (* ... and that shape: the type check.rs gives the printed value before constraining *)
  Fixpoint tpt (t : LT.rty) : cty :=
    match t with
    | LT.RBool => CBool
    | LT.RUnsigned _ => uU
    | LT.RSigned _ => sU
    | LT.RArray et n => CArray (tpt et) n
    | LT.RTuple ts => CTuple (tpts ts)
    | LT.RStruct n _ => CStruct (unintern n)
    | LT.REnum n _ => CEnum (unintern n)
    end
  with tpts (ts : LT.rtys) : list cty :=
    match ts with LT.RsNil => [] | LT.RsCons t r => tpt t :: tpts r end.

  Fixpoint type_always_printable (t : LT.rty) : bool :=
    match t with
    | LT.RBool | LT.RUnsigned _ | LT.RSigned _ => true
    | LT.RArray et n => negb (n =? 0) && type_always_printable et && (is_numty et || sign_free et)
    | LT.RTuple ts => taps ts
    | LT.RStruct _ fs => tapf fs
    | LT.REnum _ vs => tapv vs
    end
  with taps (ts : LT.rtys) : bool :=
    match ts with LT.RsNil => true | LT.RsCons t r => type_always_printable t && taps r end
  with tapf (fs : LT.rfields) : bool :=
    match fs with LT.RFNil => true | LT.RFCons _ t r => type_always_printable t && tapf r end
  with tapv (vs : LT.rvariants) : bool :=
    match vs with
    | LT.RVNil => true
    | LT.RVUnit _ r => tapv r
    | LT.RVTuple _ ts r => taps ts && tapv r
    end.
  Notation tap := type_always_printable.

  Lemma find_variant_taps : forall vs v i j ts, tapv vs = true -> LT.find_variant vs v i = Some (j, LT.VITuple ts) ->
    taps ts = true.
  Proof.
    induction vs as [|n r IH|n ts0 r IH]; intros v i j ts Ht H; cbn [tapv LT.find_variant] in *; [discriminate| |].
    - destruct (n =? v); [discriminate H|]. eapply IH; eassumption.
    - apply andb_prop in Ht as [H1 H2]. destruct (n =? v); [injection H as _ <-; exact H1|]. eapply IH; eassumption.
  Qed.

  Definition Tv (v : LL.lit) : Prop := forall t, LL.has_type v t = true ->
    (tap t = true -> pv v = true) /\ (sign_free t = true -> ptv v = tpt t) /\ (is_numty t = true -> is_num v = true).
  Definition Tall (es : LL.lits) : Prop := forall t, LL.all_has_type es t = true ->
    (tap t = true -> pvs es = true) /\ (sign_free t = true -> forall x, In x (ptsv es) -> x = tpt t) /\
    (is_numty t = true -> all_num es = true).
  Definition Tzip (es : LL.lits) : Prop := forall ts, LL.zip_has_type es ts = true ->
    (taps ts = true -> pvs es = true) /\ (sign_frees ts = true -> ptsv es = tpts ts).
  Definition Tfld (fs : LL.lfields) : Prop := forall dfs, LL.fields_has_type fs dfs = true -> tapf dfs = true -> pvf fs = true.

  Lemma tap_mut : (forall v, Tv v) /\ (forall es, Tall es /\ Tzip es) /\ (forall fs, Tfld fs).
  Proof.
    unfold Tv, Tall, Tzip, Tfld. apply LiteralProofs.has_type_ind.
    - repeat split; discriminate.
    - repeat split; discriminate.
    - intros n u _. split; [reflexivity|]. split; reflexivity.
    - intros z s _. split; [reflexivity|]. split; [discriminate|reflexivity].
    - (* array *) intros es et _ (Hp & Hs & Hn). split; [|split; [|discriminate]].
      + intro Ht. cbn [type_always_printable] in Ht. apply andb_prop in Ht as [Ht Hshape]. apply andb_prop in Ht as [Hn0 Ht].
        rewrite pv_array. destruct es as [|e r]; [discriminate Hn0|]. cbn [andb].
        rewrite (Hp Ht), andb_true_r. apply orb_prop in Hshape as [Hnum|Hsf].
        * rewrite (Hn Hnum). reflexivity.
        * apply orb_true_iff. right. rewrite pts_cons. cbn [uniform]. apply forallb_forall. intros x Hx.
          rewrite (Hs Hsf (ptv e)) by (rewrite pts_cons; now left).
          rewrite (Hs Hsf x) by (rewrite pts_cons; now right). apply cty_eqb_refl.
      + intro Hsf. cbn [sign_free] in Hsf. apply andb_prop in Hsf as [Hn0 Hsf].
        destruct es as [|e r]; [discriminate Hn0|].
        rewrite pt_array, pts_cons. rewrite (Hs Hsf (ptv e)) by (rewrite pts_cons; now left).
        rewrite pick_uniform; [reflexivity|].
        apply forallb_forall. intros x Hx. rewrite (Hs Hsf x) by (rewrite pts_cons; now right). apply cty_eqb_refl.
    - (* tuple *) intros es ts _ [Hp Hs]. split; [exact Hp|]. split; [|discriminate].
      intro Hsf. rewrite pt_tuple. cbn [tpt]. now rewrite (Hs Hsf).
    - (* struct *) intros n fs dfs _ IH. split; [exact IH|]. split; [reflexivity|discriminate].
    - (* enum, unit *) intros n v vs idx _. split; [reflexivity|]. split; [reflexivity|discriminate].
    - (* enum, tuple *) intros n v es vs idx ts Ef _ [Hp _]. split; [|split; [reflexivity|discriminate]].
      intro Ht. exact (Hp (find_variant_taps vs v 0 idx ts Ht Ef)).
    - (* no elements *) intros t. split; [reflexivity|]. split; [intros _ x []|reflexivity].
    - (* one more element *) intros e r t _ (Hp1 & Hs1 & Hn1) _ (Hp2 & Hs2 & Hn2). split; [|split].
      + intro Ht. now rewrite pvs_cons, (Hp1 Ht), (Hp2 Ht).
      + intros Hsf x Hx. rewrite pts_cons in Hx. destruct Hx as [<-|Hx]; [exact (Hs1 Hsf)|exact (Hs2 Hsf x Hx)].
      + intro Hnum. cbn [all_num]. now rewrite (Hn1 Hnum), (Hn2 Hnum).
    - split; reflexivity.
    - intros e r t tr _ (Hp1 & Hs1 & _) _ (Hp2 & Hs2). split.
      + intro Ht. cbn [taps] in Ht. apply andb_prop in Ht as [Ht1 Ht2]. now rewrite pvs_cons, (Hp1 Ht1), (Hp2 Ht2).
      + intro Hsf. cbn [sign_frees] in Hsf. apply andb_prop in Hsf as [Hsf1 Hsf2].
        rewrite pts_cons. cbn [tpts]. now rewrite (Hs1 Hsf1), (Hs2 Hsf2).
    - reflexivity.
    - intros f v r t dr _ (Hp & _) _ IHr Ht. cbn [tapf] in Ht. apply andb_prop in Ht as [Ht1 Ht2].
      rewrite pvf_cons, (Hp Ht1), (IHr Ht2). reflexivity.
  Qed.

  (* (3) every canonical value of an always-printable type is printable *)
  Theorem tap_printable v t : type_always_printable t = true -> LL.has_type v t = true -> printable_value unintern v = true.
  Proof. intros Ht H. exact (proj1 (proj1 tap_mut v t H) Ht). Qed.
End AlwaysPrintable.

Section OutputAll.
  Variable intern : list N -> N.
  Variable unintern : N -> list N.
  Variable D : defs.
  Hypothesis HD : D_names_ok intern unintern D.

  (* for an always-printable type: EVERY decoded value comes back, no condition on the value *)
  Theorem output_roundtrip_all E T r fuel bits v :
    LT.wf E r = true -> LD.dwf r = true -> type_always_printable r = true -> rty_of_cty intern D fuel T = Some r ->
    LL.from_bits r bits = Ok (Some v) ->
    literal_parse_tokens intern D T (lit_tokens unintern v) = COk v.
  Proof.
    intros W Hw Ht Hr Hb. apply (output_roundtrip intern unintern D HD E T r fuel bits v W Hw Hr Hb).
    apply (tap_printable unintern v r Ht). now apply (LD.from_bits_has_type r bits).
  Qed.

  Theorem output_roundtrip_all_text E T r fuel bits v :
    LT.wf E r = true -> LD.dwf r = true -> type_always_printable r = true -> rty_of_cty intern D fuel T = Some r ->
    LL.from_bits r bits = Ok (Some v) -> aux_ok unintern false v ->
    literal_parse intern D T (print_tokens (map kind (lit_tokens unintern v))) = COk v.
  Proof.
    intros W Hw Ht Hr Hb Ha. apply (output_roundtrip_text intern unintern D HD E T r fuel bits v W Hw Hr Hb); [|exact Ha].
    apply (tap_printable unintern v r Ht). now apply (LD.from_bits_has_type r bits).
  Qed.
End OutputAll.

(* ------------------------------------------------------------------ examples *)

Module OutputExamples.
  Import LitExamples RoundTripExamples.
  Definition bits8 (z : Z) : list bool := LL.sbits_of 8 z.
  Definition i8r := LT.RSigned LT.I8.
  Definition u8r := LT.RUnsigned LT.U8.

  (* always-printable types, and types that are not *)
  Example tap_examples :
    map type_always_printable
      [ LT.RArray i8r 3; LT.RArray (LT.RTuple (LT.RsCons u8r (LT.RsCons LT.RBool LT.RsNil))) 2;
        LT.RArray (LT.RArray u8r 2) 2; LT.RTuple (LT.RsCons i8r (LT.RsCons (LT.RArray i8r 2) LT.RsNil));
        (* an array of structs with a signed field: the struct name hides the sign *)
        LT.RArray (LT.RStruct 7 (LT.RFCons 8 i8r LT.RFNil)) 2 ]
    = repeat true 5 /\
    map type_always_printable
      [ LT.RArray u8r 0; LT.RArray (LT.RTuple (LT.RsCons i8r LT.RsNil)) 2; LT.RArray (LT.RArray i8r 1) 2;
        LT.RStruct 7 (LT.RFCons 8 (LT.RArray (LT.RArray i8r 1) 2) LT.RFNil) ]
    = repeat false 4.
  Proof. split; vm_compute; reflexivity. Qed.

  (* the condition is sharp: for the two kinds of types it excludes there ARE decoded values that do
     not come back (the refuted families of Check/LitRoundTrip.v, here from the bits) *)
  Example not_tap_examples :
    let t1 := LT.RArray (LT.RTuple (LT.RsCons i8r LT.RsNil)) 2 in
    let v1 := LL.LArray (ls [LL.LTuple (ls [I8_ 1]); LL.LTuple (ls [I8_ (-1)])]) in
    LL.from_bits t1 (bits8 1 ++ bits8 (-1)) = Ok (Some v1) /\ printable_value ex_unintern v1 = false /\
    reparse v1 (CArray (CTuple [i8t]) 2) = CErr E_UnexpectedType /\
    LL.from_bits (LT.RArray u8r 0) [] = Ok (Some (LL.LArray LL.LsNil)) /\
    printable_value ex_unintern (LL.LArray LL.LsNil) = false /\
    reparse (LL.LArray LL.LsNil) (CArray u8t 0) = CErr E_ParseLiteral.
  Proof. repeat split; vm_compute; reflexivity. Qed.

  (* an array of structs with a signed field does come back: struct T { a: i8 }, [T {a: 1}, T {a: -1}] *)
  Definition T_ : N := Eval vm_compute in ex_intern (nm "T").
  Definition DT : defs := mkDefs [] [(nm "T", [(nm "a", i8t)])] [] [] [nm "T"] [].
  Example struct_hides_sign :
    let v := LL.LArray (ls [LL.LStruct T_ (LL.LFCons a_ (I8_ 1) LL.LFNil); LL.LStruct T_ (LL.LFCons a_ (I8_ (-1)) LL.LFNil)]) in
    let r := LT.RArray (LT.RStruct T_ (LT.RFCons a_ i8r LT.RFNil)) 2 in
    rty_of_cty ex_intern DT 5 (CArray (CStruct (nm "T")) 2) = Some r /\
    LL.from_bits r (bits8 1 ++ bits8 (-1)) = Ok (Some v) /\ type_always_printable r = true /\
    literal_parse ex_intern DT (CArray (CStruct (nm "T")) 2) (lit_text ex_unintern v) = COk v /\
    lit_text ex_unintern v = codes "[T {a: 1}, T {a: -1}]".
  Proof. repeat split; vm_compute; reflexivity. Qed.
End OutputExamples.

Print Assumptions from_bits_plain.
Print Assumptions output_roundtrip.
Print Assumptions output_roundtrip_text.
Print Assumptions tap_printable.
Print Assumptions output_roundtrip_all.
Print Assumptions output_roundtrip_all_text.
