(* C06 with calls: the acyclicity premise of InferPerm5.check_perm_final follows from ACCEPTANCE.
   After a successful check every syntactic call target is defined in TypedFns.typed; the keys of
   typed can be enumerated so that the k-th one has calls nesting less than k deep (lvl). *)
From Coq Require Import Lia Bool Permutation.
From GV Require Import Base.Util Front.Scan Front.ParseExpr Check.UAst Check.Infer Check.InferProofs Check.InferSub
  Check.InferTotal Check.InferFuel2 Check.PermSort Check.PermExh Check.InferPerm Check.InferPerm2
  Check.InferPerm3 Check.InferPerm4 Check.InferPerm5.
Local Open Scope N_scope.

Definition dfb {A} (T : list (list N * A)) (c : list N) : bool :=
  match assocL c T with Some _ => true | None => false end.

Lemma dfb_defd {A} (T : list (list N * A)) c : dfb T c = true <-> defd c T.
Proof. unfold dfb, defd. destruct (assocL c T); split; congruence. Qed.

(* the keys, enumerated so that the k-th inserted has call depth < k *)
Definition PosLv (fns : list ufndef) (l : list (list N)) : Prop :=
  forall A id B, l = (A ++ id :: B)%list -> lvl fns (S (length B)) id = true.
Definition Inv {A} (fns : list ufndef) (T : list (list N * A)) : Prop :=
  exists l, Permutation l (map fst T) /\ PosLv fns l.

Lemma PosLv_in fns l id : PosLv fns l -> In id l -> lvl fns (length l) id = true.
Proof.
  intros H Hin. apply in_split in Hin. destruct Hin as (A & B & ->).
  eapply lvl_le; [|exact (H A id B eq_refl)]. rewrite app_length. cbn [length]. lia.
Qed.

Lemma PosLv_cons fns l id : PosLv fns l -> lvl fns (S (length l)) id = true -> PosLv fns (id :: l).
Proof.
  intros H Hid A x B E. destruct A as [|a A]; cbn [app] in E.
  - injection E as <- <-. exact Hid.
  - injection E as _ E. exact (H A x B E).
Qed.

Section Acyc.
Variable intern : list N -> N.
Variable D : defs.
Notation fns := (d_fns D).
Notation check_expr := (check_expr intern).
Notation check_stmt := (check_stmt intern).
Notation check_stmts := (check_stmts intern).
Notation check_block := (check_block intern).
Notation check_fn := (check_fn intern).

Definition PX (s : cstate) (e : xexpr) : Prop := okc_x (dfb (st_typed s)) e = true.
Definition PS (s : cstate) (x : xstmt) : Prop := okc_s (dfb (st_typed s)) x = true.
Definition PB (s : cstate) (b : list xstmt) : Prop := forallb (okc_s (dfb (st_typed s))) b = true.
Definition R (st st' : cstate) : Prop := Inv fns (st_typed st) -> Inv fns (st_typed st').

Definition sub (T T' : list (list N * tfndef)) : Prop := forall n, defd n T -> defd n T'.
Lemma sub_refl T : sub T T. Proof. intros n H. exact H. Qed.
Lemma sub_trans a b c : sub a b -> sub b c -> sub a c. Proof. intros H1 H2 n H. exact (H2 n (H1 n H)). Qed.

Lemma check_sub f :
  (forall st e r, check_expr f D st e = COk r -> sub (st_typed st) (st_typed (snd r))) /\
  (forall st b r, check_stmts f D st b = COk r -> sub (st_typed st) (st_typed (snd r))) /\
  (forall st b r, check_block f D st b = COk r -> sub (st_typed st) (st_typed (snd r))) /\
  (forall st s r, check_stmt f D st s = COk r -> sub (st_typed st) (st_typed (snd r))).
Proof.
  destruct (check_ext intern D f) as (He & Hss & Hb & Hs & _).
  repeat split; intros st x r H; [apply He in H|apply Hss in H|apply Hb in H|apply Hs in H]; exact (proj1 (proj2 (proj2 H))).
Qed.

(* [p] holds of [x] whatever is added to the typed map.  The induction carries the call targets in
   this form, so that what an earlier step established needs no transport to the state a later
   step ends in. *)
Definition after {A} (p : (list N -> bool) -> A -> bool) (T : list (list N * tfndef)) (x : A) : Prop :=
  forall T', sub T T' -> p (dfb T') x = true.

Lemma dfb_sub T T' c : sub T T' -> dfb T c = true -> dfb T' c = true.
Proof. intros Hs H. apply dfb_defd. apply Hs. apply dfb_defd. exact H. Qed.

Ltac norm := unfold R in *; cbn [snd fst st_typed with_env] in *.
Ltac sub_chain := first [ eassumption | apply sub_refl | eapply sub_trans; [eassumption|sub_chain] ].
Ltac inv_chain :=
  let HI := fresh "HI" in intro HI;
  repeat match goal with H : Inv _ ?x -> Inv _ _, HI' : Inv _ ?x |- _ => specialize (H HI') end; assumption.
Ltac after_tac :=
  let b := fresh "b" in let Hb := fresh "Hb" in
  intros b Hb; cbn [okc_x okc_s okc_a forallb]; rewrite ?andb_true_iff; repeat split;
  first [ reflexivity | match goal with H : after _ _ _ |- _ => apply H; sub_chain end ].
Ltac fin := norm; split; [inv_chain | after_tac].

Definition AE f := forall st e r, check_expr f D st e = COk r -> R st (snd r) /\ after okc_x (st_typed (snd r)) e.
Definition ASS f := forall st b r, check_stmts f D st b = COk r -> R st (snd r) /\ after (fun h => forallb (okc_s h)) (st_typed (snd r)) b.
Definition AB f := forall st b r, check_block f D st b = COk r -> R st (snd r) /\ after (fun h => forallb (okc_s h)) (st_typed (snd r)) b.
Definition AS f := forall st s r, check_stmt f D st s = COk r -> R st (snd r) /\ after okc_s (st_typed (snd r)) s.
Definition AF f := forall st fd r, check_fn f D st fd = COk r -> R st (snd r) /\ after (fun h => forallb (okc_s h)) (st_typed (snd r)) (uf_body fd).

Lemma mapM_st_after {A B} (g : cstate -> A -> cres (B * cstate)) (p : (list N -> bool) -> A -> bool) :
  (forall st x r, g st x = COk r -> sub (st_typed st) (st_typed (snd r))) ->
  (forall st x r, g st x = COk r -> R st (snd r) /\ after p (st_typed (snd r)) x) ->
  forall l st r, mapM_st g st l = COk r ->
  sub (st_typed st) (st_typed (snd r)) /\ R st (snd r) /\ after (fun h => forallb (p h)) (st_typed (snd r)) l.
Proof.
  intros HE Hg. induction l as [|x l IH]; intros st r H; cbn [mapM_st] in H; inv_all.
  - split; [apply sub_refl|]. split; [intro HI; exact HI|intros b _; reflexivity].
  - cbn [snd]. pose proof (HE _ _ _ Hb) as E1. destruct (Hg _ _ _ Hb) as [R1 A1]. destruct (IH _ _ Hb0) as (E2 & R2 & A2).
    split; [eapply sub_trans; eassumption|]. split; [intro HI; exact (R2 (R1 HI))|].
    intros b Hb'. cbn [forallb]. rewrite (A1 b (sub_trans _ _ _ E2 Hb')), (A2 b Hb'). reflexivity.
Qed.

Lemma struct_lit_after f (IHe : AE f) sd : forall fields seen st r,
  struct_lit_loop (check_expr f D) f sd seen st fields = COk r ->
  sub (st_typed st) (st_typed (snd r)) /\ R st (snd r) /\ after (fun h => forallb (fun fl => okc_x h (snd fl))) (st_typed (snd r)) fields.
Proof.
  induction fields as [|[fname fv] fields IH]; intros seen st r H; cbn [struct_lit_loop] in H; inv_all.
  - split; [apply sub_refl|]. split; [intro HI; exact HI|intros b _; reflexivity].
  - destruct (assocL fname sd); [|discriminate]. inv_all. cbn [snd].
    pose proof (proj1 (check_sub f) _ _ _ Hb) as E1. destruct (IHe _ _ _ Hb) as [R1 A1].
    destruct (IH _ _ _ Hb1) as (E2 & R2 & A2).
    split; [eapply sub_trans; eassumption|]. split; [intro HI; exact (R2 (R1 HI))|].
    intros b Hb'. cbn [forallb snd]. rewrite (A1 b (sub_trans _ _ _ E2 Hb')), (A2 b Hb'). reflexivity.
Qed.

Lemma Inv_insert (T : list (list N * tfndef)) id v fd :
  find (fun d => list_eqb (uf_name d) id) fns = Some fd ->
  forallb (okc_s (dfb T)) (uf_body fd) = true -> Inv fns T -> Inv fns ((id, v) :: T).
Proof.
  intros Hf Hb (l & Hp & Hl). exists (id :: l). split; [cbn [map fst]; constructor; exact Hp|].
  apply PosLv_cons; [exact Hl|]. cbn [lvl]. rewrite Hf. eapply body_mono_s; [|exact Hb].
  intros c Hc. apply PosLv_in; [exact Hl|]. eapply Permutation_in; [apply Permutation_sym; exact Hp|].
  apply defd_keys. apply dfb_defd. exact Hc.
Qed.

Ltac use_ih IHe IHb f :=
  repeat match goal with
  | H : Infer.check_expr _ _ _ _ _ = COk _ |- _ =>
      let E := fresh "Ex" in pose proof (proj1 (check_sub f) _ _ _ H) as E; apply IHe in H; destruct H as [? ?]
  | H : Infer.check_block _ _ _ _ _ = COk _ |- _ =>
      let E := fresh "Ex" in pose proof (proj1 (proj2 (proj2 (check_sub f))) _ _ _ H) as E; apply IHb in H; destruct H as [? ?]
  | H : mapM_st (Infer.check_expr _ _ _) _ _ = COk _ |- _ =>
      apply (mapM_st_after _ okc_x (proj1 (check_sub f)) IHe) in H; destruct H as (? & ? & ?)
  end.

Lemma acy_expr f : AE f -> AB f -> AF f -> AE (S f).
Proof.
  intros IHe IHb IHf st e r H. rewrite check_expr_S in H.
  destruct e; cbn [expr_step] in H; unfold call_prefix, match_tail, match_arm, arm_retype in H.
  all: try solve [inv_all; use_ih IHe IHb f; fin].
  - destruct (env_get (st_env st) s) as [[? ?]|]; [inv_all; fin|].
    destruct (assocL s (d_consts D)); inv_all; fin.
  - inv_all. destruct (fst a) eqn:E; [discriminate|]. inv_all. use_ih IHe IHb f. fin.
  - inv_all. destruct (nthN _ _); inv_all. use_ih IHe IHb f. fin.
  - inv_all. destruct (assocL _ (d_structs D)); [|discriminate]. destruct (assocL _ _); inv_all. use_ih IHe IHb f. fin.
  - destruct (assocL name (d_structs D)); [|discriminate]. inv_all.
    match goal with Hl : struct_lit_loop _ _ _ _ _ _ = COk _ |- _ => apply (struct_lit_after _ IHe) in Hl; destruct Hl as (? & ? & ?) end.
    fin.
  - destruct (assocL e (d_enums D)) as [ed|]; [|discriminate]. destruct (assocL v ed) as [[?|]|]; try discriminate;
      destruct args; try discriminate; inv_all; use_ih IHe IHb f; fin.
  - (* match: an arm is checked in the state the previous one ends in *)
    inv_all. destruct (ty_of (fst a)) eqn:Ety; try discriminate; inv_all;
    (destruct (fst a0) as [|[? ?] ?] eqn:E0; [discriminate|]; inv_all; cbn [snd];
     match goal with H1 : mapM_st _ _ _ = COk _ |- _ =>
       apply (mapM_st_after _ (fun h (pc : upattern * xexpr) => okc_x h (snd pc))) in H1;
       [destruct H1 as (? & ? & ?)
       |intros st0 pc r0 H0; inv_all;
        match goal with He : Infer.check_expr _ _ _ _ _ = COk _ |- _ => apply (proj1 (check_sub f)) in He end;
        norm; sub_chain
       |intros st0 pc r0 H0; inv_all; use_ih IHe IHb f; fin] end;
     use_ih IHe IHb f; fin).
  - destruct (check_op_inv intern f D st o e1 e2 r H) as (a & a0 & H1 & H2 & E). rewrite E. clear H E.
    use_ih IHe IHb f. fin.
  - apply cbind_ok in H. destruct H as [[[body ty] st'] [H1 H]]. cbv beta iota in H. inv_all. use_ih IHe IHb f. fin.
  - (* call: a callee checked here enters the typed map with its own call targets defined *)
    apply cbind_ok in H. destruct H as [st1 [H1 H]]. cbv beta in H.
    assert (Hst1 : R st st1).
    { destruct (assocL f0 (st_typed st)) eqn:Eas; cbn [negb] in H1; [inv_all; intro HI; exact HI|].
      destruct (find _ (d_fns D)) as [fd|] eqn:Ef; [|inv_all; intro HI; exact HI].
      apply cbind_ok in H1. destruct H1 as [[tfd st2] [H1 H2]]. cbv beta in H2. inv_all.
      destruct (IHf _ _ _ H1) as [Hr Hbody]. cbn [snd fst] in *. intro HI. cbn [st_typed].
      eapply Inv_insert; [exact Ef|exact (Hbody _ (sub_refl _))|apply Hr; exact HI]. }
    clear H1.
    destruct (assocL f0 (st_typed st1)) eqn:Edef; [|discriminate].
    destruct (env_get (st_env st1) f0); [discriminate|]. inv_all. use_ih IHe IHb f. norm. split; [inv_chain|].
    intros b Hb. cbn [okc_x]. apply andb_true_iff. split; [|match goal with H : after _ _ _ |- _ => apply H; sub_chain end].
    apply (dfb_sub (st_typed st1)); [sub_chain|]. unfold dfb. rewrite Edef. reflexivity.
  - inv_all. destruct a3 as [[? ?] ?]. inv_all. use_ih IHe IHb f. fin.
Qed.

Lemma accs_after f (IHe : AE f) : forall accs st t r,
  accs_loop (check_expr f D) f D st t accs = COk r ->
  sub (st_typed st) (st_typed (snd r)) /\ R st (snd r) /\ after (fun h => forallb (okc_a h)) (st_typed (snd r)) accs.
Proof.
  induction accs as [|a accs IH]; intros st t r H; cbn [accs_loop] in H.
  - inv_all. split; [apply sub_refl|]. split; [intro HI; exact HI|intros b _; reflexivity].
  - apply cbind_ok in H. destruct H as [[[ta t'] st'] [H1 H2]]. cbv beta iota in H2.
    apply cbind_ok in H2. destruct H2 as [[[tas tf] st''] [H2 H3]]. cbv beta iota in H3. inv_all. cbn [snd].
    destruct (IH _ _ _ H2) as (E2 & R2 & A2). cbn [snd] in *.
    assert (H0 : sub (st_typed st) (st_typed st') /\ R st st' /\ after okc_a (st_typed st') a).
    { destruct a; cbn [okc_a].
      - inv_all'. pose proof (proj1 (check_sub f) _ _ _ Hb0) as E1. destruct (IHe _ _ _ Hb0) as [R1 A1].
        cbn [snd] in *. split; [exact E1|split; assumption].
      - inv_all'. destruct (nthN _ _); inv_all. split; [apply sub_refl|]. split; [intro HI; exact HI|intros b _; reflexivity].
      - inv_all'. destruct (assocL _ (d_structs D)); [|discriminate]. destruct (assocL _ _); inv_all.
        split; [apply sub_refl|]. split; [intro HI; exact HI|intros b _; reflexivity]. }
    destruct H0 as (E1 & R1 & A1). split; [eapply sub_trans; eassumption|]. split; [intro HI; exact (R2 (R1 HI))|].
    intros b Hb'. cbn [forallb]. rewrite (A1 b (sub_trans _ _ _ E2 Hb')), (A2 b Hb'). reflexivity.
Qed.

Lemma acy_stmts f : AS f -> ASS (S f) /\ AB (S f).
Proof.
  intro IHs. split; intros st b r H; [rewrite check_stmts_S in H|rewrite check_block_S in H].
  - exact (proj2 (mapM_st_after _ okc_s (proj2 (proj2 (proj2 (check_sub f)))) IHs _ _ _ H)).
  - inv_all. cbn [snd]. exact (proj2 (mapM_st_after _ okc_s (proj2 (proj2 (proj2 (check_sub f)))) IHs _ _ _ Hb)).
Qed.

Lemma acy_stmt f : AE f -> ASS f -> AS (S f).
Proof.
  intros IHe IHss st s r H. rewrite check_stmt_S in H. destruct s; cbn [stmt_step] in H; unfold annot in H.
  - inv_all. use_ih IHe IHe f. fin.
  - inv_all. use_ih IHe IHe f. fin.
  - destruct (env_get (st_env st) x) as [[t [|]]|]; try discriminate.
    apply cbind_ok in H. destruct H as [[[tas t'] st1] [H1 H]]. cbv beta iota in H. inv_all.
    destruct (accs_after f IHe _ _ _ _ H1) as (E1 & R1 & A1). cbn [snd] in *. use_ih IHe IHe f. fin.
  - inv_all.
    match goal with Hss : Infer.check_stmts _ _ _ _ _ = COk _ |- _ =>
      pose proof (proj1 (proj2 (check_sub f)) _ _ _ Hss) as Ess; apply IHss in Hss; destruct Hss as [? ?] end.
    use_ih IHe IHe f. fin.
  - inv_all. use_ih IHe IHe f. fin.
Qed.

Lemma acy_fn f : AB f -> AF (S f).
Proof.
  intros IHb st fd r H. rewrite check_fn_S in H. unfold fn_step, ret_check in H.
  destruct (memL (uf_name fd) (st_checking st)); [discriminate|]. inv_all.
  destruct a0 as [[body ?] st1]. inv_all.
  match goal with Hb : Infer.check_block _ _ _ _ _ = COk _ |- _ => apply IHb in Hb; destruct Hb as [Rb Ab] end.
  split; [exact Rb|exact Ab].
Qed.

Lemma acy_all f : AE f /\ ASS f /\ AB f /\ AS f /\ AF f.
Proof.
  induction f as [|f (IHe & IHss & IHb & IHs & IHf)].
  { unfold AE, ASS, AB, AS, AF. split; [|split; [|split; [|split]]]; intros ? ? ? Hz; discriminate Hz. }
  pose proof (acy_stmts f IHs) as [H1 H2].
  split; [apply acy_expr; assumption|]. split; [exact H1|]. split; [exact H2|].
  split; [apply acy_stmt; assumption|apply acy_fn; assumption].
Qed.

Definition TE f := forall st e r, check_expr f D st e = COk r -> PX (snd r) e /\ R st (snd r).
Definition TSS f := forall st b r, check_stmts f D st b = COk r -> PB (snd r) b /\ R st (snd r).
Definition TB f := forall st b r, check_block f D st b = COk r -> PB (snd r) b /\ R st (snd r).
Definition TS f := forall st s r, check_stmt f D st s = COk r -> PS (snd r) s /\ R st (snd r).
Definition TF f := forall st fd r, check_fn f D st fd = COk r -> PB (snd r) (uf_body fd) /\ R st (snd r).

(* AFTER A SUCCESSFUL CHECK EVERY SYNTACTIC CALL TARGET IS DEFINED, and the keys of typed stay levelled *)
Theorem check_acy f : TE f /\ TSS f /\ TB f /\ TS f /\ TF f.
Proof.
  destruct (acy_all f) as (He & Hss & Hb & Hs & Hf).
  split; [|split; [|split; [|split]]]; intros st x r H;
    [destruct (He _ _ _ H) as [Hr Ha]|destruct (Hss _ _ _ H) as [Hr Ha]|destruct (Hb _ _ _ H) as [Hr Ha]
    |destruct (Hs _ _ _ H) as [Hr Ha]|destruct (Hf _ _ _ H) as [Hr Ha]];
    (split; [exact (Ha _ (sub_refl _))|exact Hr]).
Qed.
End Acyc.

(* ================================================================ the pub-fn loop and the program *)

Lemma keys_filter_perm {A} k (T : list (list N * A)) : NoDup (map fst T) -> In k (map fst T) ->
  Permutation (map fst T) (k :: map fst (filter (fun nd => negb (list_eqb (fst nd) k)) T)).
Proof.
  induction T as [|[k0 v] T IH]; intros ND Hin; [destruct Hin|]. cbn [map fst] in *. inversion ND as [|? ? Hn ND']; subst.
  cbn [filter fst]. destruct (list_eqb k0 k) eqn:E.
  - apply list_eqb_eq in E. subst k0. cbn [negb]. constructor.
    assert (Hid : filter (fun nd => negb (list_eqb (fst nd) k)) T = T).
    { clear - Hn. induction T as [|[k1 v1] T IH]; [reflexivity|]. cbn [filter fst]. cbn [map fst] in Hn.
      destruct (list_eqb k1 k) eqn:E1; [apply list_eqb_eq in E1; subst; exfalso; apply Hn; now left|].
      cbn [negb]. f_equal. apply IH. intro H. apply Hn. now right. }
    rewrite Hid. apply Permutation_refl.
  - cbn [negb map fst]. destruct Hin as [->|Hin]; [rewrite list_eqb_refl in E; discriminate|].
    eapply Permutation_trans; [constructor; apply IH; assumption|apply perm_swap].
Qed.

Lemma filter_notin_id {A} k (T : list (list N * A)) : ~ In k (map fst T) -> filter (fun nd => negb (list_eqb (fst nd) k)) T = T.
Proof.
  induction T as [|[k1 v1] T IH]; intro Hn; [reflexivity|]. cbn [filter fst]. cbn [map fst] in Hn.
  destruct (list_eqb k1 k) eqn:E1; [apply list_eqb_eq in E1; subst; exfalso; apply Hn; now left|].
  cbn [negb]. f_equal. apply IH. intro H. apply Hn. now right.
Qed.

Section AcycLoop.
Variable intern : list N -> N.
Variable D : defs.
Variable f : nat.

Lemma pub_loop_inv : forall fns' st st',
  (forall fd, In fd fns' -> find (fun d => list_eqb (uf_name d) (uf_name fd)) (d_fns D) = Some fd) ->
  NoDup (map fst (st_typed st)) -> Inv (d_fns D) (st_typed st) ->
  pub_loop_fn intern f D fns' st = COk st' -> NoDup (map fst (st_typed st')) /\ Inv (d_fns D) (st_typed st').
Proof.
  induction fns' as [|fd fns' IH]; intros st st' Hfind HN HI H; cbn [pub_loop_fn] in H.
  - injection H as <-. split; assumption.
  - assert (Hfind' : forall fd0, In fd0 fns' -> find (fun d => list_eqb (uf_name d) (uf_name fd0)) (d_fns D) = Some fd0)
      by (intros; apply Hfind; now right).
    destruct (uf_pub fd); [|apply (IH st st' Hfind' HN HI H)].
    destruct (uf_params fd); [discriminate H|].
    destruct (check_fn intern f D st fd) as [r1| | |] eqn:E1; cbn [cbind] in H; try discriminate H.
    destruct (proj2 (proj2 (proj2 (proj2 (check_ext intern D f)))) _ _ _ E1) as [(_ & _ & _ & X4 & _) _]. cbn [tc_of fst snd] in X4.
    destruct (proj2 (proj2 (proj2 (proj2 (check_acy intern D f)))) _ _ _ E1) as [Hbody Hr].
    specialize (Hr HI). specialize (X4 HN). unfold PB in Hbody.
    set (T1 := st_typed (snd r1)) in *.
    eapply (IH _ st' Hfind'); [| |exact H]; cbn [st_typed]; unfold typed_insert.
    + cbn [map fst]. constructor; [apply filter_removes|apply filter_keys_NoDup; exact X4].
    + destruct (in_dec (list_eq_dec N.eq_dec) (uf_name fd) (map fst T1)) as [Hin|Hnin].
      * destruct Hr as (lk & Hp & Hl). exists lk. split; [|exact Hl]. cbn [map fst].
        eapply Permutation_trans; [exact Hp|]. apply keys_filter_perm; assumption.
      * rewrite (filter_notin_id _ _ Hnin). eapply Inv_insert; [apply Hfind; now left|exact Hbody|exact Hr].
Qed.
End AcycLoop.

(* ACCEPTED PROGRAMS HAVE AN ACYCLIC CALL GRAPH *)
Theorem accepted_acyclic intern f P TP :
  NoDup (map uf_name (up_fns P)) -> check_program_t intern f P = COk TP -> call_graph_acyclic P = true.
Proof.
  intros ND EP.
  destruct (check_program_t_ok _ _ _ _ EP) as (consts & structs & enums & ru & stP & _ & _ & _ & _ & Eg & _ & UP).
  set (D := prog_defs P consts structs enums) in *.
  assert (FP : forall fd, In fd (up_fns P) -> find (fun d => list_eqb (uf_name d) (uf_name fd)) (d_fns D) = Some fd)
    by (intros fd Hin; apply (find_by_name _ ND fd Hin)).
  assert (I0 : Inv (d_fns D) (@nil (list N * tfndef))).
  { exists []. split; [constructor|]. intros A id B E. destruct A; discriminate E. }
  destruct (pub_loop_inv intern D f (up_fns P) (mkSt env_new [] []) stP FP (NoDup_nil _) I0 Eg) as [NDk (l & Hp & Hl)].
  assert (AllP : forall fd, In fd (up_fns P) -> defd (uf_name fd) (st_typed stP)) by (intros fd Hin; apply has_key_defd, UP, Hin).
  (* the keys are distinct function names: there are at most (number of functions) of them *)
  assert (Hlen : (length l <= length (up_fns P))%nat).
  { rewrite <- (map_length uf_name (up_fns P)). apply NoDup_incl_length.
    - eapply Permutation_NoDup; [apply Permutation_sym; exact Hp|exact NDk].
    - intros id Hid. apply in_split in Hid. destruct Hid as (A & B & ->).
      pose proof (Hl A id B eq_refl) as Hlv. cbn [lvl] in Hlv. change (d_fns D) with (up_fns P) in Hlv.
      destruct (find _ (up_fns P)) as [fd|] eqn:Ef; [|discriminate Hlv].
      apply find_some in Ef. destruct Ef as [Hin En]. apply list_eqb_eq in En. subst id. apply in_map. exact Hin. }
  unfold call_graph_acyclic. apply forallb_forall. intros fd Hin.
  eapply lvl_le; [exact Hlen|]. change (up_fns P) with (d_fns D). apply PosLv_in; [exact Hl|].
  eapply Permutation_in; [apply Permutation_sym; exact Hp|]. apply defd_keys. apply AllP. exact Hin.
Qed.

(* C06 FOR THE TYPE CHECKER, UNCONDITIONALLY: if one order of the three maps is accepted, every other order is
   accepted (with (number of functions + 1) times the fuel) and exports the same program *)
Theorem check_perm_accept_unconditional intern P Q f TP :
  (forall a b, intern a = intern b -> a = b) ->
  up_consts Q = up_consts P -> up_main Q = up_main P ->
  Permutation (up_fns P) (up_fns Q) -> Permutation (up_structs P) (up_structs Q) -> Permutation (up_enums P) (up_enums Q) ->
  NoDup (map uf_name (up_fns P)) -> NoDup (map us_name (up_structs P)) -> NoDup (map ue_name (up_enums P)) ->
  check_program_t intern f P = COk TP -> is_ok (check_program_t intern (S (length (up_fns P)) * f) Q) = true.
Proof.
  intros Hi H1 H2 H3 H4 H5 H6 H7 H8 EP.
  exact (check_perm_accept intern P Q f TP Hi H1 H2 H3 H4 H5 H6 H7 H8 (accepted_acyclic intern f P TP H6 EP) EP).
Qed.

Theorem check_perm_final_unconditional intern P Q f A :
  (forall a b, intern a = intern b -> a = b) ->
  up_consts Q = up_consts P -> up_main Q = up_main P ->
  Permutation (up_fns P) (up_fns Q) -> Permutation (up_structs P) (up_structs Q) -> Permutation (up_enums P) (up_enums Q) ->
  NoDup (map uf_name (up_fns P)) -> NoDup (map us_name (up_structs P)) -> NoDup (map ue_name (up_enums P)) ->
  check_program intern f P = COk A -> check_program intern (S (length (up_fns P)) * f) Q = COk A.
Proof.
  intros Hi H1 H2 H3 H4 H5 H6 H7 H8 EP.
  assert (exists TP, check_program_t intern f P = COk TP) as [TP ETP].
  { unfold check_program in EP. destruct (check_program_t intern f P) as [TP| | |]; try discriminate EP. eauto. }
  exact (check_perm_final intern P Q f A Hi H1 H2 H3 H4 H5 H6 H7 H8 (accepted_acyclic intern f P TP H6 ETP) EP).
Qed.

Print Assumptions check_acy.
Print Assumptions accepted_acyclic.
Print Assumptions check_perm_accept_unconditional.
Print Assumptions check_perm_final_unconditional.
