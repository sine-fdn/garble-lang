(* C06 for programs WITH calls: memoisation does not matter.  Every entry of TypedFns.typed is THE
   result of checking that function ([canon], deterministic), so two accepted runs of the
   checker over the same functions in different orders end with the same typed map. *)
From Coq Require Import Lia Bool Permutation.
From GV Require Import Base.Util Front.Scan Front.ParseExpr Check.UAst Check.Infer Check.InferProofs Check.InferSub
  Check.InferTotal Check.InferFuel2 Check.PermSort Check.PermExh Check.InferPerm.
Local Open Scope N_scope.

(* ================================================================ part 0: what a run does to the typed map *)

Definition defd {A} (n : list N) (T : list (list N * A)) : Prop := assocL n T <> None.

Lemma has_key_defd k (T : list (list N * tfndef)) : has_key k T -> defd k T.
Proof. intros [v Hv]. destruct (In_assocL _ _ _ Hv) as [v' E]. unfold defd. congruence. Qed.

Lemma defd_keys {A} n (T : list (list N * A)) : defd n T <-> In n (map fst T).
Proof.
  unfold defd. induction T as [|[k v] T IH]; cbn [assocL map fst In]; [split; [congruence|tauto]|].
  destruct (list_eqb n k) eqn:E.
  - apply list_eqb_eq in E. subst. split; [now left|discriminate].
  - rewrite IH. split; [now right|]. intros [->|H]; [rewrite list_eqb_refl in E; discriminate|exact H].
Qed.

Lemma check_op_inv intern f D st o l r res : check_expr intern (S f) D st (XOp o l r) = COk res ->
  exists a a0, check_expr intern f D st l = COk a /\ check_expr intern f D (snd a) r = COk a0 /\ snd res = snd a0.
Proof.
  rewrite check_expr_S. cbn [expr_step]. intro H. inv_all. exists a, a0. split; [eassumption|]. split; [eassumption|].
  destruct o; inv_all;
    try (match goal with x : texpr * texpr * cty |- _ => destruct x as [[? ?] ?] end; inv_all);
    try (destruct (ty_of (fst a)); try discriminate; destruct (ty_of (fst a0)); try discriminate; inv_all);
    reflexivity.
Qed.

(* (typed, checking): what a run reads and changes of the state besides the environment *)
Definition tc := (list (list N * tfndef) * list (list N))%type.
Definition tc_of (st : cstate) : tc := (st_typed st, st_checking st).

(* What a run does to (typed, checking), for any property [C] of the entries that a successful
   function check with fuel at most [nb] establishes of its result. *)
Section Frame.
Variable intern : list N -> N.
Variable D : defs.
Variable nb : nat.
Variable C : list N -> tfndef -> Prop.
Hypothesis C_intro : forall f st fd id r, (f <= nb)%nat ->
  find (fun d => list_eqb (uf_name d) id) (d_fns D) = Some fd ->
  Forall (fun nd => C (fst nd) (snd nd)) (st_typed st) ->
  Infer.check_fn intern f D st fd = COk r -> C id (fst r).
Notation check_expr := (check_expr intern).
Notation check_stmt := (check_stmt intern).
Notation check_stmts := (check_stmts intern).
Notation check_block := (check_block intern).
Notation check_fn := (check_fn intern).

Definition CgoodC (T : list (list N * tfndef)) : Prop := Forall (fun nd => C (fst nd) (snd nd)) T.

(* (typed, checking) before and after a run *)
Definition ExtPC (a b : tc) : Prop :=
  snd b = snd a /\
  (CgoodC (fst a) -> CgoodC (fst b)) /\
  (forall n, defd n (fst a) -> defd n (fst b)) /\
  (NoDup (map fst (fst a)) -> NoDup (map fst (fst b))) /\
  (forall n, defd n (fst b) -> defd n (fst a) \/ memL n (snd a) = false).
Definition ExtC (st st' : cstate) : Prop := ExtPC (tc_of st) (tc_of st').

Lemma ExtPC_refl a : ExtPC a a.
Proof. unfold ExtPC. repeat split; auto. Qed.
Lemma ExtPC_trans a b c : ExtPC a b -> ExtPC b c -> ExtPC a c.
Proof.
  intros (A1 & A2 & A3 & A4 & A5) (B1 & B2 & B3 & B4 & B5). unfold ExtPC. repeat split; auto; [congruence|].
  intros n Hn. destruct (B5 n Hn) as [H|H]; [auto|]. right. rewrite <- A1. exact H.
Qed.

(* what check_fn adds: besides ExtC, the new keys are not the function itself nor anything being checked *)
Definition ExtFPC (fd : ufndef) (a b : tc) : Prop :=
  ExtPC a b /\ memL (uf_name fd) (snd a) = false /\
  (forall n, defd n (fst b) -> defd n (fst a) \/ memL n (uf_name fd :: snd a) = false).
Definition ExtFC (st : cstate) (fd : ufndef) (st' : cstate) : Prop := ExtFPC fd (tc_of st) (tc_of st').

Lemma ExtPC_call f st fd r id : (f < nb)%nat ->
  assocL id (st_typed st) = None -> find (fun d => list_eqb (uf_name d) id) (d_fns D) = Some fd ->
  check_fn f D st fd = COk r -> ExtFPC fd (tc_of st) (tc_of (snd r)) ->
  ExtPC (tc_of st) ((id, fst r) :: st_typed (snd r), st_checking (snd r)).
Proof.
  intros Hf Eas Ef Hrun ((A1 & A2 & A3 & A4 & A5) & Hm & HK).
  destruct (find_name Ef) as [_ Hname]. unfold ExtPC, tc_of in *. cbn [snd fst] in *.
  split; [exact A1|]. split; [|split; [|split]].
  - intro HC. constructor; [|apply A2; exact HC]. exact (C_intro f st fd id r (Nat.lt_le_incl _ _ Hf) Ef HC Hrun).
  - intros n Hn. unfold defd in *. cbn [assocL]. destruct (list_eqb n id); [discriminate|auto].
  - intro HN. cbn [map fst]. constructor; [|apply A4; exact HN]. intro Hin. apply defd_keys in Hin.
    destruct (HK id Hin) as [Hd|Hd]; [apply Hd; exact Eas|].
    rewrite Hname in Hd. cbn [memL existsb] in Hd. rewrite list_eqb_refl in Hd. discriminate.
  - intros n Hn. unfold defd in Hn. cbn [assocL] in Hn. destruct (list_eqb n id) eqn:En; [|auto].
    apply list_eqb_eq in En. subst n. right. rewrite <- Hname. exact Hm.
Qed.

Lemma ExtPC_fn fd T Ck a : memL (uf_name fd) Ck = false ->
  ExtPC (T, uf_name fd :: Ck) a -> ExtFPC fd (T, Ck) (fst a, Ck).
Proof.
  intros Hm (A1 & A2 & A3 & A4 & A5). unfold ExtFPC, ExtPC in *. cbn [snd fst] in *. repeat split; auto.
  intros n Hn. destruct (A5 n Hn) as [Hd|Hd]; [auto|]. right.
  cbn [memL existsb] in Hd. apply orb_false_iff in Hd. apply Hd.
Qed.

Theorem check_ext_gen f : (f <= nb)%nat ->
  (forall st e r, check_expr f D st e = COk r -> ExtC st (snd r)) /\
  (forall st b r, check_stmts f D st b = COk r -> ExtC st (snd r)) /\
  (forall st b r, check_block f D st b = COk r -> ExtC st (snd r)) /\
  (forall st s r, check_stmt f D st s = COk r -> ExtC st (snd r)) /\
  (forall st fd r, check_fn f D st fd = COk r -> ExtFC st fd (snd r)).
Proof. exact (check_frame intern D nb ExtPC ExtFPC ExtPC_refl ExtPC_trans ExtPC_call ExtPC_fn f). Qed.
End Frame.

Section Unary.
Variable intern : list N -> N.
Variable D : defs.
Notation check_expr := (check_expr intern).
Notation check_stmt := (check_stmt intern).
Notation check_stmts := (check_stmts intern).
Notation check_block := (check_block intern).
Notation check_fn := (check_fn intern).

(* the entry is the result of a successful check of the function of that name, in a state whose
   entries are such results *)
Inductive canon : list N -> tfndef -> Prop :=
| canon_intro f st fd id r :
    find (fun d => list_eqb (uf_name d) id) (d_fns D) = Some fd ->
    Forall (fun nd => canon (fst nd) (snd nd)) (st_typed st) ->
    check_fn f D st fd = COk r -> canon id (fst r).

Definition Cgood (T : list (list N * tfndef)) : Prop := Forall (fun nd => canon (fst nd) (snd nd)) T.

Definition ExtP (a b : tc) : Prop :=
  snd b = snd a /\
  (Cgood (fst a) -> Cgood (fst b)) /\
  (forall n, defd n (fst a) -> defd n (fst b)) /\
  (NoDup (map fst (fst a)) -> NoDup (map fst (fst b))) /\
  (forall n, defd n (fst b) -> defd n (fst a) \/ memL n (snd a) = false).
Definition Ext (st st' : cstate) : Prop := ExtP (tc_of st) (tc_of st').

(* what check_fn adds: besides Ext, the new keys are not the function itself nor anything being checked *)
Definition ExtF (st : cstate) (fd : ufndef) (st' : cstate) : Prop :=
  Ext st st' /\ memL (uf_name fd) (st_checking st) = false /\
  (forall n, defd n (st_typed st') -> defd n (st_typed st) \/ memL n (uf_name fd :: st_checking st) = false).

Theorem check_ext f :
  (forall st e r, check_expr f D st e = COk r -> Ext st (snd r)) /\
  (forall st b r, check_stmts f D st b = COk r -> Ext st (snd r)) /\
  (forall st b r, check_block f D st b = COk r -> Ext st (snd r)) /\
  (forall st s r, check_stmt f D st s = COk r -> Ext st (snd r)) /\
  (forall st fd r, check_fn f D st fd = COk r -> ExtF st fd (snd r)).
Proof. exact (check_ext_gen intern D f canon (fun f0 st fd id r _ => canon_intro f0 st fd id r) f (le_n f)). Qed.
End Unary.

(* ================================================================ part 1: two successful runs agree *)

Lemma le_iter {A} (g : nat -> cres A) : (forall n, le_res (g n) (g (S n))) -> forall f K, le_res (g f) (g (f + K)%nat).
Proof.
  intros H f K. induction K as [|K IH]; [rewrite Nat.add_0_r; apply le_refl|].
  rewrite Nat.add_succ_r. eapply le_trans; [exact IH|apply H].
Qed.

Lemma le_det {A} (g : nat -> cres A) : (forall n, le_res (g n) (g (S n))) ->
  forall f f2 a a', g f = COk a -> g f2 = COk a' -> a = a'.
Proof.
  intros H f f2 a a' E1 E2. destruct (Nat.le_ge_cases f f2) as [L|L].
  - destruct (le_iter g H f (f2 - f)) as [E|E]; replace (f + (f2 - f))%nat with f2 in * by lia; congruence.
  - destruct (le_iter g H f2 (f - f2)) as [E|E]; replace (f2 + (f - f2))%nat with f in * by lia; congruence.
Qed.

Section Det.
Variable intern : list N -> N.
Variable D : defs.
Notation check_expr := (check_expr intern).
Notation check_stmt := (check_stmt intern).
Notation check_stmts := (check_stmts intern).
Notation check_block := (check_block intern).
Notation check_fn := (check_fn intern).
Notation canon := (canon intern D).
Notation Cgood := (Cgood intern D).

(* the left run: every entry is canonical AND every canonical result for that name equals it *)
Definition Good (T : list (list N * tfndef)) : Prop :=
  Forall (fun nd => canon (fst nd) (snd nd) /\ forall u, canon (fst nd) u -> snd nd = u) T.

Lemma Good_Cgood T : Good T -> Cgood T.
Proof. apply Forall_impl. intros nd [H _]. exact H. Qed.

Definition Rt (T T' : list (list N * tfndef)) : Prop := Good T /\ Cgood T'.
Definition st_rel (s s' : cstate) : Prop := st_env s = st_env s' /\ Rt (st_typed s) (st_typed s').

Definition rok {A} (RA : A -> A -> Prop) (r r' : cres A) : Prop :=
  match r, r' with COk a, COk a' => RA a a' | _, _ => True end.
Definition RP {B} (r r' : B * cstate) : Prop := fst r = fst r' /\ st_rel (snd r) (snd r').

Lemma rok_bind {A B} (RA : A -> A -> Prop) (RB : B -> B -> Prop) r r' (k k' : A -> cres B) :
  rok RA r r' -> (forall a a', RA a a' -> rok RB (k a) (k' a')) -> rok RB (cbind r k) (cbind r' k').
Proof. destruct r, r'; cbn [rok cbind]; auto; intros; destruct (k _); exact I. Qed.

Lemma rok_eq {A} (r : cres A) : rok eq r r.
Proof. destruct r; cbn [rok]; auto. Qed.

Lemma rok_pure {A B} (RB : B -> B -> Prop) (r : cres A) (k k' : A -> cres B) :
  (forall a, rok RB (k a) (k' a)) -> rok RB (cbind r k) (cbind r k').
Proof. exact (rel_pure (@rok) (@rok_bind) (@rok_eq) RB r k k'). Qed.

Lemma rok_left {A} (RA : A -> A -> Prop) r r' : (forall a, r <> COk a) -> rok RA r r'.
Proof. destruct r; cbn [rok]; auto. intro H. exfalso. eapply H. reflexivity. Qed.

Lemma rok_check_type f f2 e t : rok eq (check_type f e t) (check_type f2 e t).
Proof.
  unfold check_type. destruct (constrain_type f e t) as [a| | |] eqn:E1; cbn [cbind rok]; auto.
  destruct (constrain_type f2 e t) as [a'| | |] eqn:E2; cbn [cbind]; try (destruct (cty_eqb _ _); exact I).
  rewrite (le_det _ (fun n => le_constrain_type n e t) _ _ _ _ E1 E2). destruct (cty_eqb _ _); cbn [rok]; auto.
Qed.

Lemma rok_ct f f2 e t : rok eq (constrain_type f e t) (constrain_type f2 e t).
Proof.
  destruct (constrain_type f e t) as [a| | |] eqn:E1; cbn [rok]; auto.
  destruct (constrain_type f2 e t) as [a'| | |] eqn:E2; auto. exact (le_det _ (fun n => le_constrain_type n e t) _ _ _ _ E1 E2).
Qed.

Lemma rok_coc_u f f2 e t : rok eq (coc_unsigned_deep f e t) (coc_unsigned_deep f2 e t).
Proof. unfold coc_unsigned_deep. destruct (_ && _); [exact I|]. destruct (_ && _); [apply rok_ct|apply rok_eq]. Qed.

Lemma rok_coc_s f f2 e t : rok eq (coc_signed_deep f e t) (coc_signed_deep f2 e t).
Proof. unfold coc_signed_deep. destruct (_ && _); [exact I|]. destruct (_ && _); [apply rok_ct|apply rok_eq]. Qed.

Lemma rok_unify f f2 a b : rok eq (unify f a b) (unify f2 a b).
Proof.
  unfold unify. cbv zeta. destruct (cty_eqb _ _); [apply rok_eq|].
  destruct (ty_of a) as [| [] | [] | | | |]; destruct (ty_of b) as [| [] | [] | | | |]; try exact I;
    (eapply rok_bind; [first [apply rok_coc_u|apply rok_coc_s]|]; intros x x' <-; apply rok_eq).
Qed.

Lemma rok_clause f f2 ret_ty (pc : tpattern * texpr) :
  rok eq (if negb (cty_eqb ret_ty (ty_of (snd pc))) then
            match ret_ty with
            | CUnsigned expected => do x <- coc_unsigned_deep f (snd pc) expected; COk (fst pc, x)
            | CSigned expected => do x <- coc_signed_deep f (snd pc) expected; COk (fst pc, x)
            | _ => CErr E_UnexpectedType
            end
          else COk pc)
         (if negb (cty_eqb ret_ty (ty_of (snd pc))) then
            match ret_ty with
            | CUnsigned expected => do x <- coc_unsigned_deep f2 (snd pc) expected; COk (fst pc, x)
            | CSigned expected => do x <- coc_signed_deep f2 (snd pc) expected; COk (fst pc, x)
            | _ => CErr E_UnexpectedType
            end
          else COk pc).
Proof.
  destruct (negb _); [|apply rok_eq]. destruct ret_ty; try exact I;
    (eapply rok_bind; [first [apply rok_coc_u|apply rok_coc_s]|]; intros x x' <-; apply rok_eq).
Qed.

Lemma rok_i32 f f2 e : rok eq (constrain_to_i32 f e) (constrain_to_i32 f2 e).
Proof.
  destruct (constrain_to_i32 f e) as [a| | |] eqn:E1; cbn [rok]; auto.
  destruct (constrain_to_i32 f2 e) as [a'| | |] eqn:E2; auto. exact (le_det _ (fun n => le_constrain_to_i32 n e) _ _ _ _ E1 E2).
Qed.

Lemma rok_mapM_st {A B} (g g' : cstate -> A -> cres (B * cstate)) l :
  (forall st st' x, In x l -> st_rel st st' -> rok RP (g st x) (g' st' x)) ->
  forall st st', st_rel st st' -> rok RP (mapM_st g st l) (mapM_st g' st' l).
Proof. exact (rel_mapM_st (@rok) (@rok_bind) (fun _ _ _ _ H => H) st_rel g g' l). Qed.

Lemma st_rel_mk g t t' c c' : Rt t t' -> st_rel (mkSt g t c) (mkSt g t' c').
Proof. intro H. split; [reflexivity|exact H]. Qed.

Ltac rr_intro :=
  let a := fresh "a" in let a' := fresh "a'" in let HR := fresh "HR" in
  intros a a' HR;
  first
   [ destruct a as [?b [?g ?t ?c]], a' as [?b [?g ?t ?c]]; destruct HR as [?E (?E & ?E)];
     cbn [fst snd st_env st_checking st_typed] in *; subst
   | subst a' ].

Ltac seq_solve := cbn [with_env st_env st_checking st_typed fst snd]; first [apply st_rel_mk; assumption | assumption].

Ltac rr_core IHt :=
  repeat (cbn [st_env st_typed st_checking with_env];
    match goal with
    | |- rok _ (COk _) (COk _) => cbn [rok]
    | |- rok _ (CErr _) _ => exact I
    | |- rok _ COutside _ => exact I
    | |- rok _ CNoFuel _ => exact I
    | |- rok _ (cbind (check_type _ ?e ?t) _) (cbind (check_type _ ?e ?t) _) =>
        eapply rok_bind; [apply rok_check_type|intros ? ? <-]
    | |- rok _ (cbind (unify _ ?a ?b) _) (cbind (unify _ ?a ?b) _) =>
        eapply rok_bind; [apply rok_unify|intros ? ? <-]
    | |- rok _ (cbind (coc_unsigned_deep _ ?e ?t) _) (cbind (coc_unsigned_deep _ ?e ?t) _) =>
        eapply rok_bind; [apply rok_coc_u|intros ? ? <-]
    | |- rok _ (cbind (coc_signed_deep _ ?e ?t) _) (cbind (coc_signed_deep _ ?e ?t) _) =>
        eapply rok_bind; [apply rok_coc_s|intros ? ? <-]
    | |- rok _ (cbind (constrain_to_i32 _ ?e) _) (cbind (constrain_to_i32 _ ?e) _) =>
        eapply rok_bind; [apply rok_i32|intros ? ? <-]
    | |- rok _ (cbind (mapM _ ?l) _) (cbind (mapM _ ?l) _) =>
        eapply rok_bind; [apply (rel_mapM (@rok) (@rok_bind) (@rok_eq)); intros ?; first [apply rok_check_type|apply rok_eq|apply rok_clause]|intros ? ? <-]
    | |- rok _ (cbind (zipM _ ?l ?m) _) (cbind (zipM _ ?l ?m) _) =>
        eapply rok_bind; [apply (rel_zipM (@rok) (@rok_bind) (@rok_eq)); intros ? ?; first [apply rok_check_type|apply rok_eq]|intros ? ? <-]
    | |- rok _ (cbind ?r _) (cbind ?r _) => apply rok_pure; intros ?
    | |- rok _ (cbind _ _) (cbind _ _) => eapply rok_bind; [solve [IHt] | rr_intro]
    | |- rok _ (if ?c then _ else _) (if ?c then _ else _) => destruct c eqn:?
    | |- rok _ (match ?x with _ => _ end) (match ?x with _ => _ end) => destruct x eqn:?
    end).

Ltac rp_fin := first [ split; [reflexivity|seq_solve] | exact I | reflexivity ].

Lemma rok_nofuel_r {A} (RA : A -> A -> Prop) r : rok RA r CNoFuel.
Proof. destruct r; exact I. Qed.

Definition RF (r r' : tfndef * cstate) : Prop := fst r = fst r' /\ Rt (st_typed (snd r)) (st_typed (snd r')).

Definition GE f := forall f2 st st' e, st_rel st st' -> rok RP (check_expr f D st e) (check_expr f2 D st' e).
Definition GSS f := forall f2 st st' b, st_rel st st' -> rok RP (check_stmts f D st b) (check_stmts f2 D st' b).
Definition GB f := forall f2 st st' b, st_rel st st' -> rok RP (check_block f D st b) (check_block f2 D st' b).
Definition GS f := forall f2 st st' s, st_rel st st' -> rok RP (check_stmt f D st s) (check_stmt f2 D st' s).
Definition GF f := forall f2 st st' fd, Rt (st_typed st) (st_typed st') -> rok RF (check_fn f D st fd) (check_fn f2 D st' fd).

Ltac ih_tac IHe IHss IHb IHs :=
  first [ apply IHe; seq_solve
        | apply IHss; seq_solve
        | apply IHb; seq_solve
        | apply IHs; seq_solve
        | apply rok_mapM_st; [intros ? ? ? ? ?; first [apply IHe|apply IHs]; assumption|seq_solve] ].

Lemma rok_err_r {A} (RA : A -> A -> Prop) r c : rok RA r (CErr c).
Proof. destruct r; exact I. Qed.

Lemma ins_right f2 st' fd id r :
  find (fun d => list_eqb (uf_name d) id) (d_fns D) = Some fd -> Cgood (st_typed st') ->
  check_fn f2 D st' fd = COk r -> Cgood ((id, fst r) :: st_typed (snd r)) /\ st_env (snd r) = st_env st'.
Proof.
  intros Hf HC Hr. split; [|exact (proj1 (check_fn_frame _ _ _ _ _ _ Hr))].
  constructor; [cbn [fst snd]; eapply canon_intro; eassumption|].
  destruct (proj2 (proj2 (proj2 (proj2 (check_ext intern D f2)))) _ _ _ Hr) as [(_ & E2 & _) _]. apply E2. exact HC.
Qed.

Lemma ins_left f st fd id r : GF f ->
  find (fun d => list_eqb (uf_name d) id) (d_fns D) = Some fd -> Good (st_typed st) ->
  check_fn f D st fd = COk r -> Good ((id, fst r) :: st_typed (snd r)) /\ st_env (snd r) = st_env st.
Proof.
  intros IHf Hf HG Hr. split; [|exact (proj1 (check_fn_frame _ _ _ _ _ _ Hr))].
  constructor.
  - cbn [fst snd]. split; [eapply canon_intro; [exact Hf|apply Good_Cgood; exact HG|exact Hr]|].
    intros u Hu. inversion Hu as [f3 st3 fd3 id3 r3 Hf3 Hc3 Hr3]. subst. rewrite Hf in Hf3. injection Hf3 as <-.
    pose proof (IHf f3 st st3 fd (conj HG Hc3)) as H. rewrite Hr, Hr3 in H. exact (proj1 H).
  - pose proof (IHf f st st fd (conj HG (Good_Cgood _ HG))) as H. rewrite Hr in H. exact (proj1 (proj2 H)).
Qed.

Lemma Good_get T id d : Good T -> assocL id T = Some d -> forall u, canon id u -> d = u.
Proof. intros HG Ha. apply assocL_In in Ha. unfold Good in HG. rewrite Forall_forall in HG. exact (proj2 (HG _ Ha)). Qed.
Lemma Cgood_get T id d : Cgood T -> assocL id T = Some d -> canon id d.
Proof. intros HG Ha. apply assocL_In in Ha. unfold InferPerm2.Cgood in HG. rewrite Forall_forall in HG. exact (HG _ Ha). Qed.

Lemma rel_expr f : GE f -> GB f -> GF f -> GE (S f).
Proof.
  intros IHe IHb IHf f2 st st' e Hq. destruct f2 as [|f2]; [apply rok_nofuel_r|].
  destruct st as [g t c], st' as [g' t' c']. destruct Hq as (Eg & Ht). cbn [st_env st_checking st_typed] in *. subst g'.
  rewrite !check_expr_S. destruct e; cbn [expr_step st_env st_checking st_typed with_env].
  (* every constructor but struct literal (13), match (15) and call (19) *)
  1-12, 14, 16-18, 20-23: solve [rr_core ltac:(ih_tac IHe IHe IHb IHe); rp_fin].
  - (* struct literal *)
    destruct (assocL name (d_structs D)); [|exact I].
    eapply rok_bind; [apply (rel_struct_lit_loop (@rok) (@rok_bind) (fun _ _ _ _ H => H) (@rok_eq) st_rel _ _ _ _ _ (rok_check_type _ _)); [intros st0 st0' fl Hin Hq0; apply IHe; exact Hq0|seq_solve]|rr_intro].
    rr_core ltac:(ih_tac IHe IHe IHb IHe); rp_fin.
  - (* match *)
    eapply rok_bind; [apply IHe; seq_solve|rr_intro].
    match goal with |- rok _ (match ty_of ?x with _ => _ end) _ => destruct (ty_of x) end; try exact I;
    (unfold match_tail; eapply rok_bind;
      [apply rok_mapM_st; [|seq_solve];
       intros st0 st0' pc Hin Hq0; destruct st0 as [gq tq cq], st0' as [gq' tq' cq']; destruct Hq0 as (Eg0 & Ht0);
       cbn [st_env st_checking st_typed] in Eg0, Ht0; subst gq'; unfold match_arm;
       rr_core ltac:(ih_tac IHe IHe IHb IHe); rp_fin
      |rr_intro]; rr_core ltac:(ih_tac IHe IHe IHb IHe); rp_fin).
  - (* call *)
    destruct Ht as [HG HC]. unfold call_prefix. cbn [st_typed].
    eapply rok_bind with (RA := st_rel).
    + destruct (assocL f0 t) eqn:EL, (assocL f0 t') eqn:ER; cbn [negb].
      * apply st_rel_mk. split; assumption.
      * destruct (find _ (d_fns D)) as [fd|] eqn:Ef; [|apply st_rel_mk; split; assumption].
        destruct (check_fn f2 D (mkSt g t' c') fd) as [r2| | |] eqn:E2; cbn [cbind rok]; auto.
        destruct (ins_right f2 (mkSt g t' c') fd f0 r2 Ef HC E2) as [HC2 He2]. cbn [st_typed st_env] in *.
        split; [cbn [st_env]; congruence|split; assumption].
      * destruct (find _ (d_fns D)) as [fd|] eqn:Ef; [|apply st_rel_mk; split; assumption].
        destruct (check_fn f D (mkSt g t c) fd) as [r1| | |] eqn:E1; cbn [cbind rok]; auto.
        destruct (ins_left f (mkSt g t c) fd f0 r1 IHf Ef HG E1) as [HG1 He1]. cbn [st_typed st_env] in *.
        split; [cbn [st_env]; congruence|split; assumption].
      * destruct (find _ (d_fns D)) as [fd|] eqn:Ef; [|apply st_rel_mk; split; assumption].
        pose proof (IHf f2 (mkSt g t c) (mkSt g t' c') fd (conj HG HC)) as HF.
        destruct (check_fn f D (mkSt g t c) fd) as [r1| | |] eqn:E1; cbn [cbind rok]; auto.
        destruct (check_fn f2 D (mkSt g t' c') fd) as [r2| | |] eqn:E2; cbn [cbind rok]; auto.
        destruct (ins_left f (mkSt g t c) fd f0 r1 IHf Ef HG E1) as [HG1 He1]. destruct (ins_right f2 (mkSt g t' c') fd f0 r2 Ef HC E2) as [HC2 He2].
        cbn [st_typed st_env] in *. split; [cbn [st_env]; congruence|split; assumption].
    + intros [g1 t1 c1] [g1' t1' c1'] (Eg1 & HG1 & HC1). cbn [st_env st_checking st_typed] in *. subst g1'.
      destruct (assocL f0 t1) as [d|] eqn:EL1; [|exact I]. destruct (assocL f0 t1') as [d'|] eqn:ER1; [|apply rok_err_r].
      assert (Ed : d = d') by (eapply Good_get; [exact HG1|exact EL1|eapply Cgood_get; eassumption]). subst d'.
      destruct (env_get g1 f0); [exact I|].
      assert (Ht1 : Rt t1 t1') by (split; assumption).
      rr_core ltac:(ih_tac IHe IHe IHb IHe); rp_fin.
Qed.
Lemma rel_stmts f : GS f -> GSS (S f) /\ GB (S f).
Proof.
  intro IHs. split; intros f2 st st' b Hq; (destruct f2 as [|f2]; [apply rok_nofuel_r|]); cbn [Infer.check_stmts Infer.check_block].
  - apply rok_mapM_st; [|exact Hq]. intros st0 st0' x Hin Hq0. apply IHs; exact Hq0.
  - eapply rok_bind; [apply rok_mapM_st; [|exact Hq]; intros st0 st0' x Hin Hq0; apply IHs; exact Hq0|].
    intros [b1 s1] [b1' s1'] [E1 S1]. cbn [fst snd] in *. subst b1'. split; [reflexivity|exact S1].
Qed.

Lemma rok_annot f f2 (ty : option utype) b : rok eq (annot f D ty b) (annot f2 D ty b).
Proof. unfold annot. destruct ty; [|reflexivity]. apply rok_pure. intro ty'. apply rok_check_type. Qed.

Lemma rel_stmt f : GE f -> GSS f -> GS (S f).
Proof.
  intros IHe IHss f2 st st' s Hq. destruct f2 as [|f2]; [apply rok_nofuel_r|].
  destruct st as [g t c], st' as [g' t' c']. destruct Hq as (Eg & Ht). cbn [st_env st_checking st_typed] in *. subst g'.
  rewrite !check_stmt_S. destruct s; cbn [stmt_step st_env st_checking st_typed with_env].
  4-5: solve [rr_core ltac:(ih_tac IHe IHss IHss IHe); rp_fin].
  - eapply rok_bind; [apply IHe; seq_solve|rr_intro].
    eapply rok_bind; [apply rok_annot|intros ? ? <-]. rr_core ltac:(ih_tac IHe IHss IHss IHe); rp_fin.
  - eapply rok_bind; [apply IHe; seq_solve|rr_intro].
    eapply rok_bind; [apply rok_annot|intros ? ? <-]. rr_core ltac:(ih_tac IHe IHss IHss IHe); rp_fin.
  - destruct (env_get g x) as [[ety [|]]|]; try exact I.
    eapply rok_bind.
    + apply (rel_accs_loop (@rok) (@rok_bind) (fun _ _ _ _ H => H) (@rok_eq) st_rel _ _ _ _ D D (fun _ => eq_refl) (rok_coc_u _ _)); [|apply st_rel_mk; exact Ht].
      intros st0 st0' a Hin Hq0. destruct a; try exact I. apply IHe; exact Hq0.
    + intros [[tas ty1] [g1 t1 c1]] [[tas' ty1'] [g1' t1' c1']] [E1 (Eg1 & Ht1)].
      cbn [fst snd st_env st_checking st_typed] in *. injection E1 as <- <-. subst g1'.
      rr_core ltac:(ih_tac IHe IHss IHss IHe); rp_fin.
Qed.

Lemma rel_fn f : GB f -> GF (S f).
Proof.
  intros IHb f2 st st' fd Ht. destruct f2 as [|f2]; [apply rok_nofuel_r|].
  destruct st as [g t c], st' as [g' t' c']. cbn [st_env st_checking st_typed] in *.
  cbn [Infer.check_fn]. cbn [st_env st_checking st_typed].
  destruct (memL (uf_name fd) c); [exact I|]. destruct (memL (uf_name fd) c'); [apply rok_err_r|]. cbv zeta.
  apply rok_pure. intros rp.
  eapply rok_bind; [apply IHb; apply st_rel_mk; exact Ht|].
  intros [[body bty] [g1 t1 c1]] [[body' bty'] [g1' t1' c1']] [E1 (Eg1 & Ht1)].
  cbn [fst snd st_env st_checking st_typed] in *. injection E1 as <- <-. subst g1'.
  apply rok_pure. intros ret_ty.
  eapply rok_bind with (RA := eq).
  - destruct (last (map Some body) None) as [[]|]; try apply rok_eq.
    apply (rel_map_last_expr (@rok) (@rok_bind) (@rok_eq)). intro e0. apply rok_check_type.
  - intros b1 b1' <-. cbn [rok]. split; [reflexivity|exact Ht1].
Qed.

(* TWO SUCCESSFUL RUNS AGREE, whatever their fuels, whatever is memoised *)
Theorem check_det f : GE f /\ GSS f /\ GB f /\ GS f /\ GF f.
Proof.
  induction f as [|f (IHe & IHss & IHb & IHs & IHf)].
  { repeat split; intros ? ? ? ? ?; exact I. }
  pose proof (rel_stmts f IHs) as [H1 H2].
  split; [apply rel_expr; assumption|]. split; [exact H1|]. split; [exact H2|].
  split; [apply rel_stmt; assumption|apply rel_fn; assumption].
Qed.
End Det.

(* ================================================================ part 2: the pub-fn loop *)

Section Loop.
Variable intern : list N -> N.
Variable D : defs.
Notation Good := (Good intern D).
Notation canon := (canon intern D).

Lemma defd_cons_filter {A} n name (v : A) T :
  defd n ((name, v) :: filter (fun nd => negb (list_eqb (fst nd) name)) T) <-> (n = name \/ defd n T).
Proof.
  unfold defd. cbn [assocL]. destruct (list_eqb n name) eqn:E.
  - apply list_eqb_eq in E. split; [now left|discriminate].
  - rewrite (assocL_filter_neq _ _ _ E). split; [now right|]. intros [->|H]; [rewrite list_eqb_refl in E; discriminate|exact H].
Qed.

Lemma pub_loop_good f : forall fns st st',
  (forall fd, In fd fns -> find (fun d => list_eqb (uf_name d) (uf_name fd)) (d_fns D) = Some fd) ->
  Good (st_typed st) -> NoDup (map fst (st_typed st)) -> st_checking st = [] ->
  pub_loop_fn intern f D fns st = COk st' ->
  Good (st_typed st') /\ NoDup (map fst (st_typed st')) /\
  (forall n, defd n (st_typed st) -> defd n (st_typed st')) /\
  (forall fd, In fd fns -> uf_pub fd = true -> defd (uf_name fd) (st_typed st')).
Proof.
  induction fns as [|fd fns IH]; intros st st' Hfind HG HN Hc H; cbn [pub_loop_fn] in H.
  - injection H as <-. repeat split; auto. intros fd [].
  - assert (Hfind' : forall fd0, In fd0 fns -> find (fun d => list_eqb (uf_name d) (uf_name fd0)) (d_fns D) = Some fd0)
      by (intros; apply Hfind; now right).
    destruct (uf_pub fd) eqn:Epub.
    + destruct (uf_params fd) eqn:Epar; [discriminate H|].
      destruct (check_fn intern f D st fd) as [r1| | |] eqn:E1; cbn [cbind] in H; try discriminate H.
      pose proof (proj2 (proj2 (proj2 (proj2 (check_det intern D f))))) as HF.
      destruct (ins_left intern D f st fd (uf_name fd) r1 HF (Hfind fd (or_introl eq_refl)) HG E1) as [HG1 He1].
      destruct (proj2 (proj2 (proj2 (proj2 (check_ext intern D f)))) _ _ _ E1) as [(X1 & X2 & X3 & X4 & X5) _].
      cbn [tc_of fst snd] in *.
      set (T1 := (uf_name fd, fst r1) :: filter (fun nd => negb (list_eqb (fst nd) (uf_name fd))) (st_typed (snd r1))) in *.
      assert (HG' : Good T1).
      { unfold T1. inversion HG1 as [|? ? Hhd Htl]; subst. constructor; [exact Hhd|]. apply Forall_filter. exact Htl. }
      assert (HN' : NoDup (map fst T1)).
      { unfold T1. cbn [map fst]. constructor; [apply filter_removes|apply filter_keys_NoDup; apply X4; exact HN]. }
      specialize (IH (mkSt (st_env (snd r1)) T1 (st_checking (snd r1))) st' Hfind' HG' HN' ltac:(cbn [st_checking]; congruence) H).
      cbn [st_typed] in IH. destruct IH as (A1 & A2 & A3 & A4). repeat split; auto.
      * intros n Hn. apply A3. unfold T1. apply defd_cons_filter. right. apply X3. exact Hn.
      * intros fd0 [<-|Hin] Hp; [|apply A4; assumption]. apply A3. unfold T1. apply defd_cons_filter. now left.
    + destruct (IH st st' Hfind' HG HN Hc H) as (A1 & A2 & A3 & A4). repeat split; auto.
      intros fd0 [<-|Hin] Hp; [congruence|apply A4; assumption].
Qed.
End Loop.

(* ================================================================ part 3: whole programs *)

Section Prog.
Variable intern : list N -> N.
Hypothesis intern_inj : forall a b, intern a = intern b -> a = b.
Variables P Q : uprogram.
Variables f f' : nat.
Hypothesis Hconsts : up_consts Q = up_consts P.
Hypothesis Hmain : up_main Q = up_main P.
Hypothesis Hfns : Permutation (up_fns P) (up_fns Q).
Hypothesis Hstructs : Permutation (up_structs P) (up_structs Q).
Hypothesis Henums : Permutation (up_enums P) (up_enums Q).
Hypothesis ND_fns : NoDup (map uf_name (up_fns P)).
Hypothesis ND_structs : NoDup (map us_name (up_structs P)).
Hypothesis ND_enums : NoDup (map ue_name (up_enums P)).

Lemma check_perm_calls TP TQ :
  check_program_t intern f P = COk TP -> check_program_t intern f' Q = COk TQ -> tp_rel TP TQ.
Proof.
  intros EP EQ.
  destruct (check_program_t_ok _ _ _ _ EP) as (consts & structs & enums & ru & stP & C1 & S1 & E1 & _ & G1 & -> & U1).
  destruct (check_program_t_ok _ _ _ _ EQ) as (consts' & structs' & enums' & ru' & stQ & C2 & S2 & E2 & _ & G2 & -> & U2).
  rewrite Hconsts, C1 in C2. injection C2 as <-.
  destruct (perm_defs intern intern_inj P Q Hfns Hstructs Henums ND_fns ND_structs ND_enums consts structs enums S1 E1)
    as (s' & e' & S2' & E2' & Ps & Pe & NDs & NDe & _ & HD).
  rewrite S2' in S2. injection S2 as <-. rewrite E2' in E2. injection E2 as <-.
  (* the run on Q, in the definition environment of P *)
  rewrite (pub_loop_D_eq intern f' _ _ (HD f')) in G2.
  set (D := prog_defs P consts structs enums) in *.
  assert (FP : forall fd, In fd (up_fns P) -> find (fun d => list_eqb (uf_name d) (uf_name fd)) (d_fns D) = Some fd)
    by (intros fd Hin; apply (find_by_name _ ND_fns fd Hin)).
  assert (FQ : forall fd, In fd (up_fns Q) -> find (fun d => list_eqb (uf_name d) (uf_name fd)) (d_fns D) = Some fd)
    by (intros fd Hin; apply FP; eapply Permutation_in; [apply Permutation_sym; exact Hfns|exact Hin]).
  destruct (pub_loop_good intern D f (up_fns P) (mkSt env_new [] []) stP FP (Forall_nil _) (NoDup_nil _) eq_refl G1) as (GP & NP & _).
  destruct (pub_loop_good intern D f' (up_fns Q) (mkSt env_new [] []) stQ FQ (Forall_nil _) (NoDup_nil _) eq_refl G2) as (GQ & NQ & _).
  (* every entry is for a function *)
  assert (Key : forall n t, canon intern D n t -> exists fd, In fd (up_fns P) /\ uf_name fd = n).
  { intros n t Hc. inversion Hc as [f3 st3 fd3 id3 r3 Hf3 _ _]. subst. apply find_some in Hf3. destruct Hf3 as [Hin E].
    exists fd3. split; [exact Hin|apply list_eqb_eq; exact E]. }
  assert (Hmap : forall n, assocL n (st_typed stP) = assocL n (st_typed stQ)).
  { intro n. destruct (assocL n (st_typed stP)) as [tP|] eqn:LP, (assocL n (st_typed stQ)) as [tQ|] eqn:LQ; try reflexivity.
    - f_equal. eapply Good_get; [exact GP|exact LP|]. eapply Cgood_get; [apply Good_Cgood; exact GQ|exact LQ].
    - exfalso. destruct (Key n tP (Cgood_get intern D _ _ _ (Good_Cgood intern D _ GP) LP)) as (fd & Hin & <-).
      apply (has_key_defd _ _ (U2 fd (Permutation_in _ Hfns Hin))). exact LQ.
    - exfalso. destruct (Key n tQ (Cgood_get intern D _ _ _ (Good_Cgood intern D _ GQ) LQ)) as (fd & Hin & <-).
      apply (has_key_defd _ _ (U1 fd Hin)). exact LP. }
  unfold tp_rel. cbn [tp_consts tp_structs tp_enums tp_fns tp_main]. symmetry in Hmain. repeat split; assumption.
Qed.
End Prog.

(* WITH CALLS: two ACCEPTED runs -- different orders of the three maps, different fuels -- give
   the same typed program as maps ... *)
Theorem check_perm_typed intern P Q f f' TP TQ :
  (forall a b, intern a = intern b -> a = b) ->
  (forall f f2 e t a a', constrain_type f e t = COk a -> constrain_type f2 e t = COk a' -> a = a') ->
  (forall f f2 e a a', constrain_to_i32 f e = COk a -> constrain_to_i32 f2 e = COk a' -> a = a') ->
  up_consts Q = up_consts P -> up_main Q = up_main P ->
  Permutation (up_fns P) (up_fns Q) -> Permutation (up_structs P) (up_structs Q) -> Permutation (up_enums P) (up_enums Q) ->
  NoDup (map uf_name (up_fns P)) -> NoDup (map us_name (up_structs P)) -> NoDup (map ue_name (up_enums P)) ->
  check_program_t intern f P = COk TP -> check_program_t intern f' Q = COk TQ ->
  tp_consts TP = tp_consts TQ /\ Permutation (tp_structs TP) (tp_structs TQ) /\ Permutation (tp_enums TP) (tp_enums TQ) /\
  (forall name, assocL name (tp_fns TP) = assocL name (tp_fns TQ)) /\ Permutation (tp_fns TP) (tp_fns TQ) /\
  tp_main TP = tp_main TQ.
Proof.
  intros Hi _ _ H1 H2 H3 H4 H5 H6 H7 H8 EP EQ.
  destruct (check_perm_calls intern Hi P Q f f' H1 H2 H3 H4 H5 H6 H7 H8 TP TQ EP EQ) as (A & B & C & E & N1 & N2 & _ & _ & F). repeat split; try assumption.
  apply assocL_eq_perm; assumption.
Qed.

(* ... and the SAME exported program *)
Theorem check_perm_export intern P Q f f' A B :
  (forall a b, intern a = intern b -> a = b) ->
  up_consts Q = up_consts P -> up_main Q = up_main P ->
  Permutation (up_fns P) (up_fns Q) -> Permutation (up_structs P) (up_structs Q) -> Permutation (up_enums P) (up_enums Q) ->
  NoDup (map uf_name (up_fns P)) -> NoDup (map us_name (up_structs P)) -> NoDup (map ue_name (up_enums P)) ->
  check_program intern f P = COk A -> check_program intern f' Q = COk B -> A = B.
Proof.
  intros Hi H1 H2 H3 H4 H5 H6 H7 H8 EP EQ. unfold check_program in EP, EQ.
  destruct (check_program_t intern f P) as [TP| | |] eqn:ETP; cbn [cbind] in EP; try discriminate EP.
  destruct (check_program_t intern f' Q) as [TQ| | |] eqn:ETQ; cbn [cbind] in EQ; try discriminate EQ.
  injection EP as <-. injection EQ as <-. apply export_program_rel.
  exact (check_perm_calls intern Hi P Q f f' H1 H2 H3 H4 H5 H6 H7 H8 TP TQ ETP ETQ).
Qed.

Print Assumptions check_ext.
Print Assumptions check_det.
Print Assumptions check_perm_typed.
Print Assumptions check_perm_export.
