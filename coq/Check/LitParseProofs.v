(* PROPERTIES OF THE MODEL OF `Literal::parse` / `GarbleProgram::parse_arg` (Check/LitParse.v).

   (P1) the API contract "a parsed argument is of the parameter's type":
        - for parse_arg it holds BY CONSTRUCTION (lib.rs applies `is_of_type` to the parsed
          literal): [parse_arg_of_type], [literal_parse_program_of_type];
        - for `Literal::parse` itself (a public function) it is FALSE: a range that leaves its
          element type is accepted, and `is_of_type` rejects its literal
          ([parse_range_overflow_refuted]: "0u8..257" at [u8; 257]); a second family, ranges
          without type suffix ("2..5" at [u8; 3] used to be Range(2, 5, Unspecified)), was a
          defect of check.rs, repaired there and in the model
          ([LitExamples.unsuffixed_range_after_fix]);
        - for the scalar types (bool, every unsigned / signed integer type) it HOLDS for every
          text ([parse_scalar_of_type], [parse_scalar_of_type_text]); for the aggregate types
          no general theorem is proved here (only the examples of [LitExamples]); the two range
          families are the only divergences found.
   (P2) number tokens: accepted iff the number is in the range of the type, with the literal
        returned ([P2_unsigned], [P2_signed_of_unsigned_token], [P2_signed], the rejections
        [P2_unsigned_wrong_suffix] ...), over tokens; instances over texts by vm_compute.
   (P3) non-vacuity: every literal form, and rejections. *)
From Coq Require Import ZArith List String Lia.
Import ListNotations.
From GV Require Import Base.Util Front.Scan Front.ParseExpr Check.UAst Check.Infer Check.InferProofs Check.LitParse.
From GV Require Lang.Types Lang.Literal.
Local Open Scope N_scope.

(* ------------------------------------------------------------------ (P1) parse_arg *)

Theorem parse_arg_of_type intern fuel T i text l :
  parse_arg intern fuel T i text = COk l ->
  exists main mu name ty r,
    assocL (tp_main T) (tp_fns T) = Some main /\ nthN (tf_params main) i = Some (mu, name, ty) /\
    literal_parse intern (defs_of_tprogram T) ty text = COk l /\
    rty_of_cty intern (defs_of_tprogram T) fuel ty = Some r /\ LL.is_of_type l r = true.
Proof.
  unfold parse_arg. destruct (assocL (tp_main T) (tp_fns T)) as [main|]; [|discriminate].
  destruct (nthN (tf_params main) i) as [[[mu name] ty]|] eqn:En; [|discriminate].
  destruct (literal_parse intern (defs_of_tprogram T) ty text) as [l'| | |] eqn:El; try discriminate.
  cbn [cbind]. unfold lit_is_of_type.
  destruct (rty_of_cty intern (defs_of_tprogram T) fuel ty) as [r|] eqn:Er; [|discriminate].
  destruct (LL.is_of_type l' r) eqn:Ei; [|discriminate]. intros [= <-].
  exists main, mu, name, ty, r. auto.
Qed.

Theorem literal_parse_program_of_type intern fuel P i text l :
  literal_parse_program intern fuel P i text = COk l ->
  exists T main mu name ty r,
    check_program_t intern fuel P = COk T /\
    assocL (tp_main T) (tp_fns T) = Some main /\ nthN (tf_params main) i = Some (mu, name, ty) /\
    literal_parse intern (defs_of_tprogram T) ty text = COk l /\
    rty_of_cty intern (defs_of_tprogram T) fuel ty = Some r /\ LL.is_of_type l r = true.
Proof.
  unfold literal_parse_program. destruct (check_program_t intern fuel P) as [T| | |]; try discriminate.
  cbn [cbind]. intro H. destruct (parse_arg_of_type _ _ _ _ _ _ H) as (main & mu & name & ty & r & H1).
  exists T, main, mu, name, ty, r. tauto.
Qed.

(* ------------------------------------------------------------------ (P2) numbers, over tokens *)

Definition one_tok (t : token_enum) (m : meta) : list token := [Token t m].

Lemma u64_as_i64_small n : (Z.of_N n < two63)%Z -> u64_as_i64 n = Z.of_N n.
Proof.
  intro H. unfold u64_as_i64. assert (H0 : (0 <= Z.of_N n)%Z) by lia.
  rewrite Z.mod_small by (unfold two63, two64 in *; lia).
  destruct (Z.ltb_spec (Z.of_N n) two63); [reflexivity|lia].
Qed.

Section Numbers.
  Variable intern : list N -> N.
  Variable D : defs.

  (* an unsigned token, without suffix or with the suffix of the expected type *)
  Theorem P2_unsigned n sfx u m : u <> UnspecifiedU -> sfx = UnspecifiedU \/ sfx = u ->
    literal_parse_tokens intern D (CUnsigned u) (one_tok (TUnsignedNum n sfx) m) =
    if LL.u_in_range n (uty_of u) then COk (LL.LUnsigned n (uty_of u)) else CErr E_UnexpectedType.
  Proof.
    intros Hu [-> | ->]; destruct u; try congruence;
      lazy -[N.ltb N.leb u64_as_i64 i64_as_u64];
      match goal with |- context [?a <? n] => rewrite (N.ltb_antisym n a); destruct (n <=? a) end; reflexivity.
  Qed.

  (* ... with the suffix of another unsigned type: rejected *)
  Theorem P2_unsigned_wrong_suffix n sfx u m : sfx <> UnspecifiedU -> sfx <> u ->
    literal_parse_tokens intern D (CUnsigned u) (one_tok (TUnsignedNum n sfx) m) = CErr E_UnexpectedType.
  Proof. intros H1 H2. destruct sfx, u; try congruence; reflexivity. Qed.

  (* a signed token at an unsigned type: rejected *)
  Theorem P2_unsigned_signed_token z sfx u m :
    literal_parse_tokens intern D (CUnsigned u) (one_tok (TSignedNum z sfx) m) = CErr E_UnexpectedType.
  Proof. destruct sfx, u; reflexivity. Qed.

  (* a non-negative number without suffix at a signed type *)
  Theorem P2_signed_of_unsigned_token n s m : s <> UnspecifiedS ->
    literal_parse_tokens intern D (CSigned s) (one_tok (TUnsignedNum n UnspecifiedU) m) =
    if LL.s_in_range (Z.of_N n) (sty_of s) then COk (LL.LSigned (Z.of_N n) (sty_of s)) else CErr E_UnexpectedType.
  Proof.
    intros Hs. destruct s; try congruence;
      lazy -[Z.ltb Z.leb Z.of_N u64_as_i64 i64_as_u64 andb];
      match goal with |- context [(?a <? Z.of_N n)%Z] =>
        rewrite (Z.ltb_antisym (Z.of_N n) a); destruct (Z.leb_spec (Z.of_N n) a) as [Hle|Hgt] end;
      cbn [negb andb];
      match goal with
      | |- context [(?lo <=? Z.of_N n)%Z] =>
          replace (lo <=? Z.of_N n)%Z with true by (symmetry; apply Z.leb_le; lia)
      | _ => idtac
      end; cbn [andb]; try reflexivity;
      rewrite u64_as_i64_small by (unfold two63; lia); reflexivity.
  Qed.

  (* a non-negative number with an unsigned suffix at a signed type: rejected *)
  Theorem P2_signed_unsigned_suffix n sfx s m : sfx <> UnspecifiedU ->
    literal_parse_tokens intern D (CSigned s) (one_tok (TUnsignedNum n sfx) m) = CErr E_UnexpectedType.
  Proof. intros H. destruct sfx, s; try congruence; reflexivity. Qed.

  (* a signed token (negative numbers, and non-negative ones with a signed suffix), without
     suffix or with the suffix of the expected type *)
  Theorem P2_signed z sfx s m : s <> UnspecifiedS -> sfx = UnspecifiedS \/ sfx = s ->
    literal_parse_tokens intern D (CSigned s) (one_tok (TSignedNum z sfx) m) =
    if LL.s_in_range z (sty_of s) then COk (LL.LSigned z (sty_of s)) else CErr E_UnexpectedType.
  Proof.
    intros Hs [-> | ->]; destruct s; try congruence;
      lazy -[Z.ltb Z.leb u64_as_i64 i64_as_u64 andb];
      match goal with |- context [(z <? ?lo)%Z] =>
        rewrite (Z.ltb_antisym lo z); destruct (lo <=? z)%Z end; cbn [negb andb]; try reflexivity;
      match goal with |- context [(?hi <? z)%Z] =>
        rewrite (Z.ltb_antisym z hi); destruct (z <=? hi)%Z end; reflexivity.
  Qed.

  Theorem P2_signed_wrong_suffix z sfx s m : sfx <> UnspecifiedS -> sfx <> s ->
    literal_parse_tokens intern D (CSigned s) (one_tok (TSignedNum z sfx) m) = CErr E_UnexpectedType.
  Proof. intros H1 H2. destruct sfx, s; try congruence; reflexivity. Qed.

  Theorem P2_bool (b : bool) m :
    literal_parse_tokens intern D CBool (one_tok (Scan.TIdentifier (if b then s_true else s_false)) m) =
    COk (if b then LL.LTrue else LL.LFalse).
  Proof. destruct b; reflexivity. Qed.
End Numbers.

(* ------------------------------------------------------------------ (P1) scalar types *)

Ltac inv_do H :=
  repeat (first
    [ apply cbind_ok in H; let a := fresh "a" in let E := fresh "E" in destruct H as (a & E & H)
    | match type of H with
      | (if ?c then _ else _) = COk _ => destruct c eqn:?; try discriminate H
      | (match ?x with _ => _ end) = COk _ => destruct x eqn:?; try discriminate H
      end ]).

(* the kind of a literal node of the typed tree and the kind of its type, as check.rs builds them *)
Definition kind_ok (te : texpr) : Prop :=
  match te with
  | TE inner ty =>
      match inner with
      | TTrue | TFalse => ty = CBool
      | TNumUnsigned _ sfx => ty = CUnsigned sfx
      | TNumSigned _ sfx => ty = CSigned sfx
      | TArrayLiteral _ | TArrayRepeatLiteral _ _ | TRange _ _ _ => exists t n, ty = CArray t n
      | TTupleLiteral _ => exists ts, ty = CTuple ts
      | TStructLiteral name _ => ty = CStruct name
      | TEnumLiteral name _ _ => ty = CEnum name
      | _ => True
      end
  end.

Lemma check_expr_kind intern f D st e te st' :
  check_expr intern f D st e = COk (te, st') -> kind_ok te.
Proof.
  destruct f as [|f]; [discriminate|]. intro H.
  destruct e; cbn [check_expr] in H; try discriminate H; inv_do H;
    injection H as <- <-; cbn [kind_ok]; try exact I; try reflexivity; eauto.
Qed.

Definition scalar_rty (ty : cty) : option LT.rty :=
  match ty with
  | CBool => Some LT.RBool
  | CUnsigned u => Some (LT.RUnsigned (uty_of u))
  | CSigned s => Some (LT.RSigned (sty_of s))
  | _ => None
  end.

Lemma scalar_rty_spec intern D f ty r : scalar_rty ty = Some r -> rty_of_cty intern D (S f) ty = Some r.
Proof. destruct ty; try discriminate; cbn [scalar_rty rty_of_cty]; auto. Qed.

(* check_or_constrain_* on a node: the type it had, the type it gets, the range test on numbers *)
Lemma coc_unsigned inner t u e1 : check_or_constrain_unsigned (TE inner t) u = COk e1 ->
  (t = CUnsigned u \/ t = uU) /\ e1 = TE inner (CUnsigned u) /\
  (forall n sfx mx, inner = TNumUnsigned n sfx -> unsigned_max u = Some mx -> n <= mx).
Proof.
  unfold check_or_constrain_unsigned. cbn [ty_of inner_of set_ty].
  assert (Ht : negb (cty_eqb t (CUnsigned u)) && negb (is_uU t) = false -> t = CUnsigned u \/ t = uU).
  { unfold is_uU. destruct (cty_eqb t (CUnsigned u)) eqn:E1; [apply cty_eqb_eq in E1; auto|].
    destruct (cty_eqb t uU) eqn:E2; [apply cty_eqb_eq in E2; auto|discriminate]. }
  destruct (negb (cty_eqb t (CUnsigned u)) && negb (is_uU t)); [discriminate|]. specialize (Ht eq_refl).
  destruct (unsigned_max u) as [mx|] eqn:Em.
  - destruct inner; try (intros [= <-]; repeat split; auto; intros; discriminate).
    destruct (mx <? n) eqn:El; [discriminate|]. intros [= <-]. repeat split; auto.
    intros n0 sfx mx0 [= -> _] [= <-]. apply N.ltb_ge in El. exact El.
  - destruct inner; intros [= <-]; repeat split; auto; intros; discriminate.
Qed.

Lemma coc_signed inner t s e1 : check_or_constrain_signed (TE inner t) s = COk e1 ->
  (t = CSigned s \/ t = sU \/ t = uU) /\ e1 = TE inner (CSigned s) /\
  (forall n sfx mx, inner = TNumUnsigned n sfx -> signed_max s = Some mx -> (Z.of_N n <= mx)%Z) /\
  (forall z sfx, inner = TNumSigned z sfx ->
     (forall mn, signed_min s = Some mn -> (mn <= z)%Z) /\ (forall mx, signed_max s = Some mx -> (z <= mx)%Z)).
Proof.
  unfold check_or_constrain_signed. cbn [ty_of inner_of set_ty].
  assert (Ht : negb (cty_eqb t (CSigned s)) && negb (is_sU t) && negb (is_uU t) = false ->
               t = CSigned s \/ t = sU \/ t = uU).
  { unfold is_sU, is_uU. destruct (cty_eqb t (CSigned s)) eqn:E1; [apply cty_eqb_eq in E1; auto|].
    destruct (cty_eqb t sU) eqn:E2; [apply cty_eqb_eq in E2; auto|].
    destruct (cty_eqb t uU) eqn:E3; [apply cty_eqb_eq in E3; auto|]. discriminate. }
  destruct (negb (cty_eqb t (CSigned s)) && negb (is_sU t) && negb (is_uU t)); [discriminate|].
  specialize (Ht eq_refl).
  destruct inner;
    try (match goal with |- (if ?c then _ else _) = _ -> _ => destruct c; [discriminate|] end;
         match goal with |- (if ?c then _ else _) = _ -> _ => destruct c; [discriminate|] end;
         intros [= <-]; repeat split; auto; intros; discriminate).
  - (* unsigned number *)
    destruct (signed_min s); cbn zeta.
    all: destruct (signed_max s) as [mx|] eqn:Em;
      [destruct (mx <? Z.of_N n)%Z eqn:El; [discriminate|]|];
      intros [= <-]; repeat split; auto; try (intros; discriminate).
    all: intros n0 sfx mx0 [= -> _] [= <-]; apply Z.ltb_ge in El; exact El.
  - (* signed number *)
    destruct (signed_min s) as [mn|] eqn:En.
    + destruct (z <? mn)%Z eqn:El; [discriminate|]. apply Z.ltb_ge in El.
      destruct (signed_max s) as [mx|] eqn:Em.
      * destruct (mx <? z)%Z eqn:Eh; [discriminate|]. apply Z.ltb_ge in Eh.
        intros [= <-]. repeat split; auto; try (intros; discriminate).
        -- intros mn0 [= <-]. injection H as -> _. exact El.
        -- intros mx0 [= <-]. injection H as -> _. exact Eh.
      * intros [= <-]. repeat split; auto; try (intros; discriminate).
        intros mn0 [= <-]. injection H as -> _. exact El.
    + destruct (signed_max s) as [mx|] eqn:Em.
      * destruct (mx <? z)%Z eqn:Eh; [discriminate|]. apply Z.ltb_ge in Eh.
        intros [= <-]. repeat split; auto; try (intros; discriminate).
        intros mx0 [= <-]. injection H as -> _. exact Eh.
      * intros [= <-]. repeat split; auto; intros; discriminate.
Qed.

Definition lit_kind (i : texpr_inner) : bool :=
  match i with
  | TTrue | TFalse | TNumUnsigned _ _ | TNumSigned _ _ | TArrayLiteral _ | TArrayRepeatLiteral _ _
  | TTupleLiteral _ | TStructLiteral _ _ | TEnumLiteral _ _ _ | TRange _ _ _ => true
  | _ => false
  end.

Lemma into_literal_kind intern inner t l : into_literal intern (TE inner t) = COk l -> lit_kind inner = true.
Proof. destruct inner; cbn [into_literal lit_kind]; try discriminate; reflexivity. Qed.

Definition leaf_of (e : texpr) (expected : cty) : cres texpr :=
  match expected with
  | CUnsigned t => check_or_constrain_unsigned e t
  | CSigned t => check_or_constrain_signed e t
  | _ => COk e
  end.

(* constrain_type against a scalar type: a literal node goes to check_or_constrain_*, any other
   node stays a non-literal node *)
Lemma constrain_scalar f inner t ty e1 : scalar_rty ty <> None ->
  constrain_type (S f) (TE inner t) ty = COk e1 ->
  if lit_kind inner
  then exists e0, leaf_of (TE inner t) ty = COk e0 /\ e1 = set_ty e0 (overwrite_ty (ty_of e0) ty)
  else lit_kind (inner_of e1) = false.
Proof.
  intros Hs H. destruct ty; try (exfalso; apply Hs; reflexivity).
  all: destruct inner; try (match goal with |- context [lit_kind (TRange _ _ ?u)] => destruct u end);
       cbn [constrain_type inner_of ty_of lit_kind] in H |- *;
       try (apply cbind_ok in H; destruct H as (e0 & E0 & H); injection H as <-; exists e0; split; [exact E0|reflexivity]).
  all: inv_do H; try (injection H as <-; reflexivity).
  all: repeat match goal with
       | E : cbind _ _ = COk _ |- _ => apply cbind_ok in E; destruct E as (? & ? & E)
       | E : (match ?x with _ => _ end) = COk _ |- _ => destruct x eqn:?; try discriminate E
       | E : COk _ = COk _ |- _ => injection E as <-
       | E : check_or_constrain_unsigned _ _ = COk _ |- _ => apply coc_unsigned in E; destruct E as (_ & -> & _)
       | E : check_or_constrain_signed _ _ = COk _ |- _ => apply coc_signed in E; destruct E as (_ & -> & _)
       end; try reflexivity.
Qed.

Lemma unsigned_max_umax u : unsigned_max u = LT.umax (uty_of u).
Proof. destruct u; reflexivity. Qed.
Lemma signed_min_smin s : signed_min s = LT.smin (sty_of s).
Proof. destruct s; reflexivity. Qed.
Lemma signed_max_smax s : signed_max s = LT.smax (sty_of s).
Proof. destruct s; reflexivity. Qed.

(* (P1) for the scalar types: whatever the text, a literal `Literal::parse` returns at bool / an
   unsigned / a signed integer type is of that type *)
Theorem parse_scalar_of_type intern D ty ts l r :
  scalar_rty ty = Some r -> ty <> CUnsigned UnspecifiedU -> ty <> CSigned UnspecifiedS ->
  literal_parse_tokens intern D ty ts = COk l -> LL.is_of_type l r = true.
Proof.
  intros Hr Hu Hs H. unfold literal_parse_tokens in H.
  destruct (parse_literal_text (fuel_for_tokens ts) ts) as [u s| | |]; try discriminate H.
  apply cbind_ok in H. destruct H as ([te st'] & Ece & H). cbn [fst] in H.
  apply cbind_ok in H. destruct H as (e' & Ect & H).
  pose proof (check_expr_kind _ _ _ _ _ _ _ Ece) as K.
  unfold check_type in Ect. apply cbind_ok in Ect. destruct Ect as (e1 & Ec & Ect).
  destruct (cty_eqb (ty_of e1) ty) eqn:Eq; [|discriminate Ect]. injection Ect as <-.
  destruct te as [inner t]. unfold lit_fuel in Ec.
  pose proof (constrain_scalar _ inner t ty e1 ltac:(rewrite Hr; discriminate) Ec) as HC.
  destruct (lit_kind inner) eqn:Ek.
  - destruct HC as (e0 & E0 & ->). destruct ty; try discriminate Hr; cbn [leaf_of] in E0.
    + (* bool *) injection E0 as <-. injection Hr as <-. cbn [ty_of set_ty overwrite_ty] in Eq, H.
      destruct inner; try discriminate Ek; cbn [kind_ok] in K;
        try (destruct K as (? & ? & ->)); try (destruct K as (? & ->)); subst; try discriminate Eq;
        cbn [into_literal] in H; try discriminate H; injection H as <-; reflexivity.
    + (* unsigned *) injection Hr as <-.
      apply coc_unsigned in E0. destruct E0 as (Ht & -> & Hn). cbn [ty_of set_ty] in H.
      destruct inner; try discriminate Ek; cbn [kind_ok] in K;
        try (destruct K as (? & ? & ->)); try (destruct K as (? & ->)); subst;
        try (destruct Ht as [Ht|Ht]; discriminate Ht);
        cbn [into_literal] in H; try discriminate H; injection H as <-.
      cbn [LL.is_of_type]. assert (LT.uty_eqb (uty_of t0) (uty_of t0) = true) as -> by (destruct t0; reflexivity).
      cbn [andb]. unfold LL.u_in_range. rewrite <- unsigned_max_umax.
      destruct (unsigned_max t0) as [mx|] eqn:Em; [apply N.leb_le; exact (Hn _ _ _ eq_refl eq_refl)|].
      destruct t0; try discriminate Em. congruence.
    + (* signed *) injection Hr as <-.
      apply coc_signed in E0. destruct E0 as (Ht & -> & Hn & Hz). cbn [ty_of set_ty] in H.
      assert (Heqb : LT.sty_eqb (sty_of t0) (sty_of t0) = true) by (destruct t0; reflexivity).
      destruct inner; try discriminate Ek; cbn [kind_ok] in K;
        try (destruct K as (? & ? & ->)); try (destruct K as (? & ->)); subst;
        try (destruct Ht as [Ht|[Ht|Ht]]; discriminate Ht);
        cbn [into_literal] in H; try discriminate H; injection H as <-;
        cbn [LL.is_of_type]; rewrite Heqb; cbn [andb]; unfold LL.s_in_range;
        rewrite <- signed_min_smin, <- signed_max_smax.
      * (* an unsigned number at a signed type *)
        destruct (signed_max t0) as [mx|] eqn:Em; [|destruct t0; try discriminate Em; congruence].
        specialize (Hn _ _ _ eq_refl eq_refl).
        assert (Hmx : (mx < two63)%Z) by (destruct t0; try discriminate Em; injection Em as <-; unfold two63; lia).
        rewrite u64_as_i64_small by lia.
        destruct (signed_min t0) as [mn|] eqn:En; [|destruct t0; try discriminate En; congruence].
        assert (Hmn : (mn <= 0)%Z) by (destruct t0; try discriminate En; injection En as <-; lia).
        apply andb_true_intro. split; apply Z.leb_le; lia.
      * (* a signed number *)
        destruct (Hz _ _ eq_refl) as [Hlo Hhi].
        destruct (signed_min t0) as [mn|] eqn:En; [|destruct t0; try discriminate En; congruence].
        destruct (signed_max t0) as [mx|] eqn:Em; [|destruct t0; try discriminate Em; congruence].
        apply andb_true_intro. split; apply Z.leb_le; auto.
  - (* not a literal node: into_literal panics *)
    exfalso. destruct e1 as [i1 t1]. cbn [inner_of set_ty] in HC, H.
    apply into_literal_kind in H. congruence.
Qed.
Print Assumptions parse_scalar_of_type.

Corollary parse_scalar_of_type_text intern D ty text l r :
  scalar_rty ty = Some r -> ty <> CUnsigned UnspecifiedU -> ty <> CSigned UnspecifiedS ->
  literal_parse intern D ty text = COk l ->
  rty_of_cty intern D 1 ty = Some r /\ LL.is_of_type l r = true.
Proof.
  intros Hr Hu Hs H. split; [now apply scalar_rty_spec|]. unfold literal_parse in H.
  destruct (scan_text text) as [[ts|es]| |]; try discriminate H.
  exact (parse_scalar_of_type intern D ty ts l r Hr Hu Hs H).
Qed.
Print Assumptions parse_scalar_of_type_text.

(* ------------------------------------------------------------------ (P3) non-vacuity *)

Module LitExamples.
  (* an injective interning function: the byte string read as a base-256 number with a leading 1 *)
  Definition ex_intern (s : list N) : N := fold_left (fun a c => a * 256 + c) s 1.
  Definition nm (s : string) : list N := codes s.
  Definition u8 := UTUnsigned U8.
  Definition i8 := UTSigned I8.

  (* struct S { a: u8, b: bool }   enum E { A, B(u8, i16) }
     pub fn main(p0: u8, p1: i8, p2: bool, p3: (u8, bool), p4: [u8; 3], p5: S, p6: E,
                 p7: [[u8; 2]; 2], p8: (), p9: [i8; 3], p10: [u8; 257], p11: u64, p12: i64,
                 p13: [(S, E); 2], p14: usize) -> u8 { p0 } *)
  Definition params : list utype :=
    [u8; i8; UTBool; UTTuple [u8; UTBool]; UTArray u8 3; UTNamed (nm "S"); UTNamed (nm "E");
     UTArray (UTArray u8 2) 2; UTTuple []; UTArray i8 3; UTArray u8 257; UTUnsigned U64; UTSigned I64;
     UTArray (UTTuple [UTNamed (nm "S"); UTNamed (nm "E")]) 2; UTUnsigned Usize].
  Definition pname (k : nat) : list N := nm "p" ++ [48 + N.of_nat k].
  Definition P : uprogram :=
    mkUProgram []
      [mkUStruct (nm "S") [(nm "a", u8); (nm "b", UTBool)]]
      [mkUEnum (nm "E") [UVUnit (nm "A"); UVTuple (nm "B") [u8; UTSigned I16]]]
      [mkUFn true (nm "main") u8
         (map (fun kt => mkUParam false (pname (fst kt)) (snd kt)) (combine (seq 0 15) params))
         [XSExpr (XIdentifier (pname 0))]]
      (nm "main").

  (* prg.parse_arg(i, text) *)
  Definition arg (i : N) (s : string) : cres LL.lit := literal_parse_program ex_intern 50 P i (codes s).
  (* Literal::parse(&program, &type of parameter i, text) *)
  Definition lit (i : N) (s : string) : cres LL.lit := literal_parse_param ex_intern 50 P i (codes s).

  Definition S_ : N := Eval vm_compute in ex_intern (nm "S").
  Definition E_ : N := Eval vm_compute in ex_intern (nm "E").
  Definition a_ : N := Eval vm_compute in ex_intern (nm "a").
  Definition b_ : N := Eval vm_compute in ex_intern (nm "b").
  Definition A_ : N := Eval vm_compute in ex_intern (nm "A").
  Definition B_ : N := Eval vm_compute in ex_intern (nm "B").
  Definition ls (l : list LL.lit) : LL.lits := fold_right LL.LsCons LL.LsNil l.
  Definition U (n : N) := LL.LUnsigned n LT.U8.

  (* ---- accepted, every literal form *)
  Example ex_bool : arg 2 "true" = COk LL.LTrue /\ arg 2 "false" = COk LL.LFalse.
  Proof. split; vm_compute; reflexivity. Qed.
  Example ex_u8 : arg 0 "5" = COk (U 5) /\ arg 0 "255u8" = COk (U 255) /\ arg 0 "(7)" = COk (U 7).
  Proof. repeat split; vm_compute; reflexivity. Qed.
  Example ex_i8 : arg 1 "-128" = COk (LL.LSigned (-128) LT.I8) /\ arg 1 "127" = COk (LL.LSigned 127 LT.I8) /\
                  arg 1 "-5i8" = COk (LL.LSigned (-5) LT.I8) /\ arg 1 "5i8" = COk (LL.LSigned 5 LT.I8).
  Proof. repeat split; vm_compute; reflexivity. Qed.
  Example ex_64 : arg 11 "18446744073709551615" = COk (LL.LUnsigned 18446744073709551615 LT.U64) /\
                  arg 12 "-9223372036854775808" = COk (LL.LSigned (-9223372036854775808) LT.I64) /\
                  arg 12 "9223372036854775807" = COk (LL.LSigned 9223372036854775807 LT.I64) /\
                  arg 14 "4294967295" = COk (LL.LUnsigned 4294967295 LT.Usize).
  Proof. repeat split; vm_compute; reflexivity. Qed.
  Example ex_tuple : arg 3 "(1, true)" = COk (LL.LTuple (ls [U 1; LL.LTrue])) /\ arg 8 "()" = COk (LL.LTuple LL.LsNil).
  Proof. split; vm_compute; reflexivity. Qed.
  Example ex_array : arg 4 "[1, 2, 3]" = COk (LL.LArray (ls [U 1; U 2; U 3])) /\
                     arg 4 "[1, 2, 3,]" = COk (LL.LArray (ls [U 1; U 2; U 3])).
  Proof. split; vm_compute; reflexivity. Qed.
  Example ex_repeat : arg 4 "[7; 3]" = COk (LL.LRepeat (U 7) 3) /\ arg 4 "[7u8; 3usize]" = COk (LL.LRepeat (U 7) 3).
  Proof. split; vm_compute; reflexivity. Qed.
  Example ex_range : arg 4 "2u8..5u8" = COk (LL.LRange 2 5 LT.U8) /\ arg 4 "2u8..5" = COk (LL.LRange 2 5 LT.U8) /\
                     arg 4 "2..5u8" = COk (LL.LRange 2 5 LT.U8).
  Proof. repeat split; vm_compute; reflexivity. Qed.
  (* the fields of a struct literal are sorted by the parser *)
  Example ex_struct :
    arg 5 "S { b: true, a: 1 }" = COk (LL.LStruct S_ (LL.LFCons a_ (U 1) (LL.LFCons b_ LL.LTrue LL.LFNil))) /\
    arg 5 "S { a: 1, b: true, }" = COk (LL.LStruct S_ (LL.LFCons a_ (U 1) (LL.LFCons b_ LL.LTrue LL.LFNil))).
  Proof. split; vm_compute; reflexivity. Qed.
  Example ex_enum : arg 6 "E::A" = COk (LL.LEnumUnit E_ A_) /\
                    arg 6 "E::B(1, -2)" = COk (LL.LEnumTuple E_ B_ (ls [U 1; LL.LSigned (-2) LT.I16])).
  Proof. split; vm_compute; reflexivity. Qed.
  Example ex_nested :
    arg 7 "[[1, 2], [3; 2]]" = COk (LL.LArray (ls [LL.LArray (ls [U 1; U 2]); LL.LRepeat (U 3) 2])) /\
    arg 13 "[(S { a: 1, b: false }, E::A), (S { b: true, a: 2 }, E::B(3, 4))]" =
      COk (LL.LArray (ls
        [LL.LTuple (ls [LL.LStruct S_ (LL.LFCons a_ (U 1) (LL.LFCons b_ LL.LFalse LL.LFNil)); LL.LEnumUnit E_ A_]);
         LL.LTuple (ls [LL.LStruct S_ (LL.LFCons a_ (U 2) (LL.LFCons b_ LL.LTrue LL.LFNil));
                        LL.LEnumTuple E_ B_ (ls [U 3; LL.LSigned 4 LT.I16])])])).
  Proof. split; vm_compute; reflexivity. Qed.
  Example ex_comments : arg 0 "/* c */ 5 // x" = COk (U 5).
  Proof. vm_compute. reflexivity. Qed.

  (* ---- rejected *)
  Definition rejected (r : cres LL.lit) : bool := match r with CErr _ => true | _ => false end.
  Example rej_wrong_type :
    map rejected [arg 0 "true"; arg 2 "1"; arg 0 "-1"; arg 1 "5u8"; arg 0 "5i8"; arg 0 "5u16"; arg 4 "[1, 2]";
                  arg 4 "[1; 2]"; arg 3 "(1, 2)"; arg 3 "(1, true, 2)"; arg 5 "E::A"; arg 6 "E::C"; arg 6 "E::A()";
                  arg 6 "E::B(1)"; arg 6 "E::B"; arg 4 "2u16..5u16"; arg 4 "2..6"; arg 4 "[1u8, 2u16, 3]"]
    = repeat true 18.
  Proof. vm_compute. reflexivity. Qed.
  Example rej_out_of_range :
    map rejected [arg 0 "256"; arg 1 "128"; arg 1 "-129"; arg 11 "18446744073709551616"; arg 12 "9223372036854775808";
                  arg 12 "-9223372036854775809"; arg 14 "4294967296"; arg 0 "256u8"; arg 4 "[1, 2, 256]"]
    = repeat true 9.
  Proof. vm_compute. reflexivity. Qed.
  Example rej_struct :
    map rejected [arg 5 "S { a: 1 }"; arg 5 "S { a: 1, a: 2, b: true }"; arg 5 "S { a: 1, b: true, c: 2 }";
                  arg 5 "S { a, b: true }"; arg 5 "T { a: 1, b: true }"; arg 5 "S { a: true, b: true }"]
    = repeat true 6.
  Proof. vm_compute. reflexivity. Qed.
  Example rej_not_a_literal :
    map rejected [arg 0 "5 6"; arg 0 "x"; arg 0 "1 + 2"; arg 0 ""; arg 0 "5,"; arg 2 "!true"; arg 1 "- 5";
                  arg 4 "[]"; arg 4 "[1; N]"; arg 0 "{ 5 }"; arg 0 "5 as u8"; arg 4 "5..2"; arg 4 "3..3";
                  arg 0 "5 // x
6"; arg 0 "$"]
    = repeat true 15.
  Proof. vm_compute. reflexivity. Qed.
  Example rej_arg_index : arg 15 "5" = CErr E_InvalidArgIndex.
  Proof. vm_compute. reflexivity. Qed.

  (* ---- FINDINGS: `Literal::parse` accepts, `is_of_type` rejects (parse_arg refuses both texts,
     because lib.rs re-tests the parsed literal) *)

  (* 1. a range without a type suffix: REPAIRED in the code (fix 7bf4e4f, mirrored in Infer.v constrain_type):
     the range takes the element type of the array type it is parsed at, so parse_arg accepts it
     with the typed literal; at a signed element type it is refused.  Before the repair the node kept
     `Unspecified` (into_literal returned Range(2, 5, Unspecified), which is_of_type rejects and
     as_bits would have encoded as three 32-bit elements) and `[i8; 3]` was accepted as well. *)
  Example unsuffixed_range_after_fix :
    lit 4 "2..5" = COk (LL.LRange 2 5 LT.U8) /\ arg 4 "2..5" = COk (LL.LRange 2 5 LT.U8) /\
    lit 9 "2..5" = CErr E_UnexpectedType /\ arg 9 "2..5" = CErr E_UnexpectedType /\
    lit 4 "254..257" = CErr E_UnexpectedType.
  Proof. repeat split; vm_compute; reflexivity. Qed.

  (* 2. a range that leaves its element type: 0u8..257 has the type [u8; 257], its last element
     256 is not a u8 (as_bits keeps the low 8 bits) *)
  Example finding_range_overflow :
    lit 10 "0u8..257" = COk (LL.LRange 0 257 LT.U8) /\ arg 10 "0u8..257" = CErr E_InvalidLiteralType.
  Proof. split; vm_compute; reflexivity. Qed.
End LitExamples.

(* the remaining finding as a refutation of the contract for `Literal::parse` alone (the unsuffixed-range one was repaired: fix 7bf4e4f) *)
Theorem parse_range_overflow_refuted :
  exists intern D ty text l r,
    literal_parse intern D ty text = COk l /\ rty_of_cty intern D 5 ty = Some r /\ LL.is_of_type l r = false.
Proof.
  exists LitExamples.ex_intern, (mkDefs [] [] [] [] [] []), (CArray (CUnsigned U8) 257), (codes "0u8..257"),
         (LL.LRange 0 257 LT.U8), (LT.RArray (LT.RUnsigned LT.U8) 257).
  split; [vm_compute; reflexivity|]. split; vm_compute; reflexivity.
Qed.

Print Assumptions parse_arg_of_type.
Print Assumptions literal_parse_program_of_type.
Print Assumptions P2_unsigned.
Print Assumptions P2_signed_of_unsigned_token.
Print Assumptions P2_signed.
Print Assumptions parse_range_overflow_refuted.
