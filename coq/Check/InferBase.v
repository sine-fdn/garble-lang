(* Shared by the proofs about the checker model Check/Infer.v.  The anonymous loops of the model get
   names and one-step unfolding equations; [check_frame] and [pub_loop_gen] are the two general ways to
   push an invariant of TypedFns through the checker and through the pub-fn loop of a program. *)
From Coq Require Import Lia.
From GV Require Import Base.Util Front.Scan Front.ParseExpr Check.UAst Check.Infer.
Local Open Scope N_scope.

(* ------------------------------------------------------------------ the result monad *)

Lemma cbind_ok {A B} (r : cres A) (k : A -> cres B) b :
  cbind r k = COk b -> exists a, r = COk a /\ k a = COk b.
Proof. destruct r; cbn; intro H; try discriminate. eauto. Qed.

Lemma is_ok_COk {A} (r : cres A) : is_ok r = true -> exists a, r = COk a.
Proof. destruct r; cbn; intro H; try discriminate. eauto. Qed.

Ltac inv_ok H :=
  match type of H with
  | cbind ?r ?k = COk ?b =>
      let a := fresh "a" in let H1 := fresh "H" in let H2 := fresh "H" in
      apply cbind_ok in H; destruct H as [a [H1 H2]]; cbv beta in H2
  | COk _ = COk _ => inversion H; subst; clear H
  | CErr _ = COk _ => discriminate H
  | COutside = COk _ => discriminate H
  | CNoFuel = COk _ => discriminate H
  end.

Ltac inv_all :=
  repeat match goal with
  | H : cbind _ _ = COk _ |- _ =>
      let a := fresh "a" in let H1 := fresh "Hb" in
      apply cbind_ok in H; destruct H as [a [H1 H]]; cbv beta in H
  | H : COk _ = COk _ |- _ => inversion H; subst; clear H
  | H : CErr _ = COk _ |- _ => discriminate H
  | H : COutside = COk _ |- _ => discriminate H
  | H : CNoFuel = COk _ |- _ => discriminate H
  | H : (if ?c then _ else _) = COk _ |- _ => destruct c eqn:?
  end.

Ltac destr_tuples := repeat match goal with x : (_ * _)%type |- _ => destruct x end.
Ltac inv_all' := repeat (progress (inv_all; destr_tuples; cbn [fst snd] in * )).

Lemma list_eqb_eq : forall a b : list N, list_eqb a b = true -> a = b.
Proof.
  induction a as [|x a IH]; destruct b as [|y b]; cbn; intro H; try discriminate; auto.
  apply andb_true_iff in H. destruct H as [H1 H2]. apply N.eqb_eq in H1. f_equal; auto.
Qed.

Lemma list_eqb_refl : forall a : list N, list_eqb a a = true.
Proof. induction a; cbn; auto. rewrite N.eqb_refl. auto. Qed.

Lemma intern_eqb (intern : list N -> N) : (forall a b, intern a = intern b -> a = b) ->
  forall a b, (intern a =? intern b) = list_eqb a b.
Proof.
  intros intern_inj a b. destruct (list_eqb a b) eqn:E.
  - apply list_eqb_eq in E. subst. apply N.eqb_refl.
  - apply N.eqb_neq. intro H. apply intern_inj in H. subst. rewrite list_eqb_refl in E. discriminate.
Qed.

Lemma cty_ind' (P : cty -> Prop) :
  P CBool -> (forall t, P (CUnsigned t)) -> (forall t, P (CSigned t)) ->
  (forall e n, P e -> P (CArray e n)) -> (forall ts, Forall P ts -> P (CTuple ts)) ->
  (forall n, P (CStruct n)) -> (forall n, P (CEnum n)) -> forall t, P t.
Proof.
  intros H0 H1 H2 H3 H4 H5 H6. fix IH 1. destruct t.
  - exact H0.
  - apply H1.
  - apply H2.
  - apply H3. apply IH.
  - apply H4. induction ts as [|x xs IHxs]; constructor; [apply IH | exact IHxs].
  - apply H5.
  - apply H6.
Qed.

Lemma cty_eqb_eq : forall a b, cty_eqb a b = true -> a = b.
Proof.
  induction a using cty_ind'; destruct b; cbn [cty_eqb]; intro E; try discriminate; auto.
  - unfold unsigned_eqb in E. destruct (unsigned_num_type_eq_dec t t0); congruence.
  - unfold signed_eqb in E. destruct (signed_num_type_eq_dec t t0); congruence.
  - apply andb_true_iff in E. destruct E as [E1 E2]. apply N.eqb_eq in E2. f_equal; auto.
  - f_equal. revert ts0 E. induction H as [|x xs Hx Hxs IH]; destruct ts0 as [|y ys]; intro E; try discriminate; auto.
    apply andb_true_iff in E. destruct E as [E1 E2]. f_equal; auto.
  - f_equal. apply list_eqb_eq; auto.
  - f_equal. apply list_eqb_eq; auto.
Qed.

Lemma cty_eqb_refl : forall a, cty_eqb a a = true.
Proof.
  induction a using cty_ind'; cbn [cty_eqb]; auto.
  - unfold unsigned_eqb. destruct (unsigned_num_type_eq_dec t t); congruence.
  - unfold signed_eqb. destruct (signed_num_type_eq_dec t t); congruence.
  - rewrite IHa, N.eqb_refl. auto.
  - induction H; auto. rewrite H. auto.
  - apply list_eqb_refl.
  - apply list_eqb_refl.
Qed.

Lemma cty_eqb_neq a b : a <> b -> cty_eqb a b = false.
Proof. intro H. destruct (cty_eqb a b) eqn:E; auto. apply cty_eqb_eq in E. contradiction. Qed.

Lemma upattern_ind' (P : upattern -> Prop) :
  (forall s, P (PIdentifier s)) -> P PTrue -> P PFalse ->
  (forall n t, P (PNumUnsigned n t)) -> (forall z t, P (PNumSigned z t)) ->
  (forall ps, Forall P ps -> P (PTuple ps)) ->
  (forall n fs, Forall (fun f => P (snd f)) fs -> P (PStruct n fs)) ->
  (forall n fs, Forall (fun f => P (snd f)) fs -> P (PStructIgnoreRemaining n fs)) ->
  (forall e v, P (PEnumUnit e v)) -> (forall e v ps, Forall P ps -> P (PEnumTuple e v ps)) ->
  (forall lo hi t, P (PUnsignedInclusiveRange lo hi t)) ->
  (forall lo hi t, P (PSignedInclusiveRange lo hi t)) -> forall p, P p.
Proof.
  intros H0 H1 H2 H3 H4 H5 H6 H7 H8 H9 H10 H11. fix IH 1. destruct p.
  - apply H0.
  - exact H1.
  - exact H2.
  - apply H3.
  - apply H4.
  - apply H5. induction ps as [|x xs IHxs]; constructor; [apply IH | exact IHxs].
  - apply H6. induction fields as [|[n0 q] xs IHxs]; constructor; [apply IH | exact IHxs].
  - apply H7. induction fields as [|[n0 q] xs IHxs]; constructor; [apply IH | exact IHxs].
  - apply H8.
  - apply H9. induction ps as [|x xs IHxs]; constructor; [apply IH | exact IHxs].
  - apply H10.
  - apply H11.
Qed.

Lemma utype_ind' (P : utype -> Prop) :
  P UTBool -> (forall t, P (UTUnsigned t)) -> (forall t, P (UTSigned t)) -> (forall s, P (UTNamed s)) ->
  (forall ts, Forall P ts -> P (UTTuple ts)) -> (forall t n, P t -> P (UTArray t n)) ->
  (forall t c, P t -> P (UTArrayConst t c)) -> (forall t c, P t -> P (UTArrayConstExpr t c)) -> forall t, P t.
Proof.
  intros H0 H1 H2 H3 H4 H5 H6 H7. fix IH 1. destruct t.
  - exact H0.
  - apply H1.
  - apply H2.
  - apply H3.
  - apply H4. induction ts as [|x xs IHxs]; constructor; [apply IH | exact IHxs].
  - apply H5. apply IH.
  - apply H6. apply IH.
  - apply H7. apply IH.
Qed.

Lemma assocL_In {A} (k : list N) (l : list (list N * A)) v : assocL k l = Some v -> In (k, v) l.
Proof.
  induction l as [|[k' v'] l IH]; [discriminate|]. cbn [assocL]. destruct (list_eqb k k') eqn:E.
  - intro H. inversion H; subst. apply list_eqb_eq in E. subst. left. reflexivity.
  - intro H. right. auto.
Qed.

Lemma In_assocL {A} (l : list (list N * A)) k v : In (k, v) l -> exists v', assocL k l = Some v'.
Proof.
  induction l as [|[k0 v0] l IH]; [intros []|]. intros [H|H]; cbn [assocL].
  - inversion H; subst. rewrite list_eqb_refl. eauto.
  - destruct (list_eqb k k0); eauto.
Qed.

Lemma memL_false_notin x l : memL x l = false -> ~ In x l.
Proof.
  unfold memL. intros H Hin. rewrite <- not_true_iff_false in H. apply H.
  apply existsb_exists. exists x. split; [exact Hin|apply list_eqb_refl].
Qed.

Lemma NoDup_map_inj {A B} (f : A -> B) (l : list A) :
  (forall a b, f a = f b -> a = b) -> NoDup l -> NoDup (map f l).
Proof.
  intros Hinj HN. induction HN as [|x l Hx HN IH]; cbn [map]; constructor.
  - intros Hin. apply in_map_iff in Hin. destruct Hin as [y [Hy Hyin]].
    apply Hinj in Hy. subst y. exact (Hx Hyin).
  - exact IH.
Qed.

Lemma in_list_max {A} (g : A -> nat) l x : In x l -> (g x <= list_max (map g l))%nat.
Proof.
  intro H. exact (proj1 (Forall_forall _ _) (proj1 (list_max_le (map g l) _) (le_n _)) (g x) (in_map g l x H)).
Qed.

Lemma Forall_filter {A} (Q : A -> Prop) p l : Forall Q l -> Forall Q (filter p l).
Proof. rewrite !Forall_forall. intros H x Hx. apply filter_In in Hx. apply H, Hx. Qed.

Lemma find_by_name (l : list ufndef) : NoDup (map uf_name l) ->
  forall fd, In fd l -> find (fun d => list_eqb (uf_name d) (uf_name fd)) l = Some fd.
Proof.
  induction l as [|d l IH]; intros Hnd fd Hin; [destruct Hin|].
  inversion Hnd as [|? ? Hnotin Hnd']; subst. cbn [find].
  destruct Hin as [->|Hin]; [rewrite list_eqb_refl; reflexivity|].
  destruct (list_eqb (uf_name d) (uf_name fd)) eqn:E; [|apply IH; assumption].
  apply list_eqb_eq in E. exfalso. apply Hnotin. rewrite E. apply in_map. assumption.
Qed.

Lemma find_name {l : list ufndef} {id fd} :
  find (fun d => list_eqb (uf_name d) id) l = Some fd -> In fd l /\ uf_name fd = id.
Proof. intro H. apply find_some in H. destruct H as [Hin E]. apply list_eqb_eq in E. auto. Qed.

(* the parameter loop of check_fn *)
Definition params_loop (D : defs) :=
  fix go (seen : list (list N)) (ps : list uparam) (g : cenv)
    : cres (list (bool * list N * cty) * cenv) :=
    match ps with
    | [] => COk ([], g)
    | p :: r =>
        if memL (upa_name p) seen then CErr E_DuplicateFnParam else
        do ty <- concrete_of D (upa_ty p);
        do r2 <- go (upa_name p :: seen) r (env_let g (upa_name p) ty (upa_mut p));
        COk ((upa_mut p, upa_name p, ty) :: fst r2, snd r2)
    end.

(* the two loops of check_pattern: tuple / enum payload, struct fields *)
Definition pat_fields_loop (D : defs) :=
  fix go (fs : list upattern) (ts : list cty) (g : cenv) : cres (list tpattern * cenv) :=
    match fs, ts with
    | fp :: fr, t :: tr =>
        do r1 <- check_pattern D g fp t; do r2 <- go fr tr (snd r1); COk (fst r1 :: fst r2, snd r2)
    | _, _ => COk ([], g)
    end.

Definition pat_struct_loop (D : defs) (struct_def : list (list N * cty)) :=
  fix go (seen : list (list N)) (fs : list (list N * upattern)) (g : cenv)
    : cres (list (list N * tpattern) * cenv) :=
    match fs with
    | [] => COk ([], g)
    | (field_name, field_value) :: fr =>
        if memL field_name seen then CErr E_PatternDoesNotMatchType else
        match assocL field_name struct_def with
        | Some field_type =>
            do r1 <- check_pattern D g field_value field_type;
            do r2 <- go (field_name :: seen) fr (snd r1);
            COk ((field_name, fst r1) :: fst r2, snd r2)
        | None => CErr E_UnknownStructField
        end
    end.

Lemma check_pattern_struct_ok D g p n fs ty r :
  p = PStruct n fs \/ p = PStructIgnoreRemaining n fs -> check_pattern D g p ty = COk r ->
  ty = CStruct n /\ exists sd l, assocL n (d_structs D) = Some sd /\
    pat_struct_loop D sd [] fs g = COk l /\ r = (TP (TPStruct n (fst l)) ty, snd l).
Proof.
  intros [-> | ->] H; cbn [check_pattern] in H; cbv zeta in H.
  all: destruct ty; try discriminate H; cbn [expect_struct_type cbind] in H.
  all: destruct (negb _) eqn:En in H; [discriminate|]; apply negb_false_iff, list_eqb_eq in En; subst.
  all: destruct (assocL n (d_structs D)) as [sd|]; [|discriminate]; inv_ok H.
  all: destruct (_ && _) in H1; [discriminate|]; inv_ok H1; split; [reflexivity|]; exists sd, a; auto.
Qed.

Section Steps.
Variable intern : list N -> N.
Notation check_expr := (check_expr intern).
Notation check_stmt := (check_stmt intern).
Notation check_stmts := (check_stmts intern).
Notation check_block := (check_block intern).
Notation check_fn := (check_fn intern).

Definition call_prefix (f : nat) (D : defs) (st : cstate) (id : list N) : cres cstate :=
  if negb (match assocL id (st_typed st) with Some _ => true | None => false end) then
    match find (fun d => list_eqb (uf_name d) id) (d_fns D) with
    | Some fn_def =>
        do r <- check_fn f D st fn_def;
        COk (mkSt (st_env (snd r)) ((id, fst r) :: st_typed (snd r)) (st_checking (snd r)))
    | None => COk st
    end
  else COk st.

Definition match_arm (f : nat) (D : defs) (ty : cty) (st : cstate) (pc : upattern * xexpr)
  : cres ((tpattern * texpr) * cstate) :=
  do rp <- check_pattern D (env_push (st_env st)) (fst pc) ty;
  do re <- check_expr f D (with_env st (snd rp)) (snd pc);
  COk ((fst rp, fst re), with_env (snd re) (env_pop (st_env (snd re)))).

(* a clause body whose type is not yet the type of the match takes it (number literals) *)
Definition arm_retype (f : nat) (ret_ty : cty) (pc : tpattern * texpr) : cres (tpattern * texpr) :=
  if negb (cty_eqb ret_ty (ty_of (snd pc))) then
    match ret_ty with
    | CUnsigned expected => do x <- coc_unsigned_deep f (snd pc) expected; COk (fst pc, x)
    | CSigned expected => do x <- coc_signed_deep f (snd pc) expected; COk (fst pc, x)
    | _ => CErr E_UnexpectedType
    end
  else COk pc.

(* what a match does after its scrutinee [s] (of type [ty], not an array) *)
Definition match_tail (f : nat) (D : defs) (ty : cty) (s : texpr) (st : cstate) (clauses : list (upattern * xexpr))
  : cres (texpr * cstate) :=
  do rc <- mapM_st (match_arm f D ty) st clauses;
  match fst rc with
  | [] => CErr E_Panic
  | (_, first) :: _ =>
      let ret_ty := pick_elem_ty (ty_of first) (map (fun pc => ty_of (snd pc)) (fst rc)) in
      do clauses' <- mapM (arm_retype f ret_ty) (fst rc);
      do _ <- check_exhaustiveness intern D (map fst clauses') ty;
      COk (TE (TMatch s clauses') ret_ty, snd rc)
  end.

Definition annot (f : nat) (D : defs) (ty : option utype) (e : texpr) : cres texpr :=
  match ty with
  | Some ty => do ty' <- concrete_of D ty; check_type f e ty'
  | None => COk e
  end.

Definition expr_step (f : nat) (D : defs) (st : cstate) (e : xexpr) : cres (texpr * cstate) :=
  match e with
  | XTrue => COk (TE TTrue CBool, st)
  | XFalse => COk (TE TFalse CBool, st)
  | XNumUnsigned n t => COk (TE (TNumUnsigned n t) (CUnsigned t), st)
  | XNumSigned z t => COk (TE (TNumSigned z t) (CSigned t), st)
  | XIdentifier s =>
      match env_get (st_env st) s with
      | Some (ty, _) => COk (TE (TIdentifier s) ty, st)
      | None =>
          match assocL s (d_consts D) with
          | Some ty => COk (TE (TIdentifier s) ty, st)
          | None => CErr E_UnknownIdentifier
          end
      end
  | XArrayLiteral fields =>
      do r <- mapM_st (check_expr f D) st fields;
      match fst r with
      | [] => CErr E_Panic
      | first :: _ =>
          let elem_ty := pick_elem_ty (ty_of first) (map ty_of (fst r)) in
          do fields' <- mapM (fun fld => check_type f fld elem_ty) (fst r);
          COk (TE (TArrayLiteral fields') (CArray elem_ty (lenN fields)), snd r)
      end
  | XArrayRepeatLiteral value size =>
      do r <- check_expr f D st value;
      COk (TE (TArrayRepeatLiteral (fst r) size) (CArray (ty_of (fst r)) size), snd r)
  | XArrayRepeatLiteralConst _ _ => COutside
  | XArrayAccess arr index =>
      do ra <- check_expr f D st arr;
      do ri <- check_expr f D (snd ra) index;
      do elem_ty <- expect_array_type (ty_of (fst ra));
      do index' <- coc_unsigned_deep f (fst ri) Usize;
      COk (TE (TArrayAccess (fst ra) index') elem_ty, snd ri)
  | XTupleLiteral values =>
      do r <- mapM_st (check_expr f D) st values;
      COk (TE (TTupleLiteral (fst r)) (CTuple (map ty_of (fst r))), snd r)
  | XTupleAccess tuple index =>
      do r <- check_expr f D st tuple;
      do value_types <- expect_tuple_type (ty_of (fst r));
      match nthN value_types index with
      | Some ty => COk (TE (TTupleAccess (fst r) index) ty, snd r)
      | None => CErr E_TupleAccessOutOfBounds
      end
  | XUnaryOp UoNeg x =>
      do r <- check_expr f D st x;
      do _ <- expect_signed_num_type (ty_of (fst r));
      COk (TE (TUnaryOp UoNeg (fst r)) (ty_of (fst r)), snd r)
  | XUnaryOp UoNot x =>
      do r <- check_expr f D st x;
      do _ <- expect_bool_or_num_type (ty_of (fst r));
      COk (TE (TUnaryOp UoNot (fst r)) (ty_of (fst r)), snd r)
  | XOp op x y =>
      do rx <- check_expr f D st x;
      do ry <- check_expr f D (snd rx) y;
      let x' := fst rx in
      let y' := fst ry in
      let st' := snd ry in
      match op with
      | BAdd | BSub | BMul | BDiv | BMod =>
          do u <- unify f x' y';
          match u with (x2, y2, ty) =>
            do _ <- expect_num_type ty; COk (TE (TOp op x2 y2) ty, st') end
      | BShortCircuitAnd | BShortCircuitOr =>
          match ty_of x', ty_of y' with
          | CBool, CBool => COk (TE (TOp op x' y') CBool, st')
          | _, _ => CErr E_UnexpectedType
          end
      | BBitAnd | BBitXor | BBitOr =>
          do u <- unify f x' y';
          match u with (x2, y2, ty) =>
            do _ <- expect_bool_or_num_type ty; COk (TE (TOp op x2 y2) ty, st') end
      | BGreaterThan | BLessThan =>
          do u <- unify f x' y';
          match u with (x2, y2, ty) =>
            do _ <- expect_num_type ty; COk (TE (TOp op x2 y2) CBool, st') end
      | BEq | BNotEq =>
          do u <- unify f x' y';
          match u with (x2, y2, _) => COk (TE (TOp op x2 y2) CBool, st') end
      | BShiftLeft | BShiftRight =>
          do _ <- expect_num_type (ty_of x');
          do y2 <- coc_unsigned_deep f y' U8;
          COk (TE (TOp op x' y2) (ty_of x'), st')
      end
  | XBlock stmts =>
      do r <- check_block f D (with_env st (env_push (st_env st))) stmts;
      match r with (body, ty, st') =>
        COk (TE (TBlock body) ty, with_env st' (env_pop (st_env st'))) end
  | XFnCall identifier args =>
      do st1 <- call_prefix f D st identifier;
      match assocL identifier (st_typed st1), env_get (st_env st1) identifier with
      | Some fn_def, None =>
          do r <- mapM_st (check_expr f D) st1 args;
          if negb (lenN (tf_params fn_def) =? lenN (fst r)) then CErr E_WrongNumberOfArgs else
          do args' <- zipM (fun a p => check_type f a (snd p)) (fst r) (tf_params fn_def);
          COk (TE (TFnCall identifier args') (tf_ty fn_def), snd r)
      | None, _ => CErr E_UnknownIdentifier
      | Some _, Some _ => CErr E_NoTopLevelFn
      end
  | XJoin _ => COutside
  | XIf c a b =>
      do rc <- check_expr f D st c;
      do ra <- check_expr f D (snd rc) a;
      do rb <- check_expr f D (snd ra) b;
      do c' <- check_type f (fst rc) CBool;
      do u <- unify f (fst ra) (fst rb);
      match u with (a', b', ty) => COk (TE (TIf c' a' b') ty, snd rb) end
  | XCast ty x =>
      do ty' <- concrete_of D ty;
      do r <- check_expr f D st x;
      do _ <- expect_bool_or_num_type (ty_of (fst r));
      do _ <- expect_bool_or_num_type ty';
      COk (TE (TCast ty' (fst r)) ty', snd r)
  | XRange from to num_ty =>
      if (to <=? from) || (u32_max <? to - from) then CErr E_InvalidRange
      else COk (TE (TRange from to num_ty) (CArray (CUnsigned num_ty) (to - from)), st)
  | XEnumLiteral identifier variant_name variant =>
      match assocL identifier (d_enums D) with
      | Some enum_def =>
          match assocL variant_name enum_def with
          | Some types =>
              match variant, types with
              | None, None => COk (TE (TEnumLiteral identifier variant_name None) (CEnum identifier), st)
              | Some values, Some types =>
                  if negb (lenN values =? lenN types) then CErr E_UnexpectedEnumVariantArity else
                  do r <- mapM_st (check_expr f D) st values;
                  do exprs <- zipM (fun v t => check_type f v t) (fst r) types;
                  COk (TE (TEnumLiteral identifier variant_name (Some exprs)) (CEnum identifier), snd r)
              | None, Some _ => CErr E_ExpectedTupleVariantFoundUnitVariant
              | Some _, None => CErr E_ExpectedUnitVariantFoundTupleVariant
              end
          | None => CErr E_UnknownEnumVariant
          end
      | None => CErr E_UnknownEnum
      end
  | XMatch scrut clauses =>
      do rs <- check_expr f D st scrut;
      match ty_of (fst rs) with
      | CArray _ _ => CErr E_TypeDoesNotSupportPatternMatching
      | _ => match_tail f D (ty_of (fst rs)) (fst rs) (snd rs) clauses
      end
  | XStructLiteral name fields =>
      match assocL name (d_structs D) with
      | Some struct_def =>
          do r <- struct_lit_loop (check_expr f D) f struct_def [] st fields;
          if missing_field struct_def fields then CErr E_MissingStructField else
          COk (TE (TStructLiteral name (fst r)) (CStruct name), snd r)
      | None => CErr E_UnknownStruct
      end
  | XStructAccess struct_expr field =>
      do r <- check_expr f D st struct_expr;
      do name <- expect_struct_type (ty_of (fst r));
      match assocL name (d_structs D) with
      | Some struct_def =>
          match assocL field struct_def with
          | Some field_ty => COk (TE (TStructAccess (fst r) field) field_ty, snd r)
          | None => CErr E_UnknownStructField
          end
      | None => CErr E_UnknownStruct
      end
  end.

Definition stmt_step (f : nat) (D : defs) (st : cstate) (s : xstmt) : cres (tstmt * cstate) :=
  match s with
  | XSLet pattern ty binding =>
      do r <- check_expr f D st binding;
      do binding' <- annot f D ty (fst r);
      do rp <- check_pattern D (st_env (snd r)) pattern (ty_of binding');
      do _ <- check_exhaustiveness intern D [fst rp] (ty_of binding');
      COk (TSLet (fst rp) binding', with_env (snd r) (snd rp))
  | XSLetMut identifier ty binding =>
      do r <- check_expr f D st binding;
      do binding' <- annot f D ty (fst r);
      do binding'' <- constrain_to_i32 f binding';
      COk (TSLetMut identifier binding'',
           with_env (snd r) (env_let (st_env (snd r)) identifier (ty_of binding'') true))
  | XSExpr e =>
      do r <- check_expr f D st e;
      COk (TSExpr (fst r), snd r)
  | XSVarAssign identifier accessors value =>
      match env_get (st_env st) identifier with
      | Some (elem_ty, true) =>
          do ra <- accs_loop (check_expr f D) f D st elem_ty accessors;
          match ra with (typed_accessors, elem_ty', st1) =>
            do rv <- check_expr f D st1 value;
            do value' <- check_type f (fst rv) elem_ty';
            COk (TSVarAssign identifier typed_accessors value', snd rv)
          end
      | Some (_, false) => CErr E_IdentifierNotDeclaredAsMutable
      | None => CErr E_UnknownIdentifier
      end
  | XSForEach pattern binding body =>
      if match binding with XFnCall id _ => list_eqb id s_join_iter | _ => false end then COutside else
      do r <- check_expr f D st binding;
      do elem_ty <- expect_array_type (ty_of (fst r));
      do rp <- check_pattern D (env_push (st_env (snd r))) pattern elem_ty;
      do _ <- check_exhaustiveness intern D [fst rp] elem_ty;
      do rb <- check_stmts f D (with_env (snd r) (snd rp)) body;
      COk (TSForEach (fst rp) (fst r) (fst rb), with_env (snd rb) (env_pop (st_env (snd rb))))
  end.

(* the end of check_fn: the declared return type against the last statement *)
Definition ret_check (f : nat) (ret_ty : cty) (body : list tstmt) : cres (list tstmt) :=
  match last (map Some body) None with
  | Some (TSExpr _) => map_last_expr (fun ret_expr => check_type f ret_expr ret_ty) body
  | _ => if negb (cty_eqb ret_ty unit_cty) then CErr E_UnexpectedType else COk body
  end.

Definition fn_step (f : nat) (D : defs) (st : cstate) (fd : ufndef) : cres (tfndef * cstate) :=
  if memL (uf_name fd) (st_checking st) then CErr E_RecursiveFnDef else
  do rp <- params_loop D [] (uf_params fd) (env_push env_new);
  do rb <- check_block f D (mkSt (snd rp) (st_typed st) (uf_name fd :: st_checking st)) (uf_body fd);
  match rb with (body, _, st1) =>
    do ret_ty <- concrete_of D (uf_ty fd);
    do body' <- ret_check f ret_ty body;
    COk (mkTFn (uf_pub fd) (uf_name fd) (fst rp) ret_ty body',
         mkSt (st_env st) (st_typed st1) (st_checking st))
  end.

Lemma check_expr_S f D st e : check_expr (S f) D st e = expr_step f D st e.
Proof. reflexivity. Qed.
Lemma check_stmt_S f D st s : check_stmt (S f) D st s = stmt_step f D st s.
Proof. reflexivity. Qed.
Lemma check_stmts_S f D st b : check_stmts (S f) D st b = mapM_st (check_stmt f D) st b.
Proof. reflexivity. Qed.
Lemma check_block_S f D st b : check_block (S f) D st b =
  do r <- mapM_st (check_stmt f D) st b; COk (fst r, last_expr_ty (fst r), snd r).
Proof. reflexivity. Qed.
Lemma check_fn_S f D st fd : check_fn (S f) D st fd = fn_step f D st fd.
Proof. reflexivity. Qed.

End Steps.

Section Inversion.
Variable intern : list N -> N.
Notation check_expr := (check_expr intern).
Notation check_fn := (check_fn intern).

Lemma call_prefix_ok f D st id st1 : call_prefix intern f D st id = COk st1 ->
  st1 = st \/
  exists fd r, assocL id (st_typed st) = None /\
    find (fun d => list_eqb (uf_name d) id) (d_fns D) = Some fd /\ check_fn f D st fd = COk r /\
    st1 = mkSt (st_env (snd r)) ((id, fst r) :: st_typed (snd r)) (st_checking (snd r)).
Proof.
  unfold call_prefix. destruct (assocL id (st_typed st)); cbn [negb]; [intro H; inv_all; auto|].
  destruct (find _ (d_fns D)) as [fd|]; intro H; inv_all; [right|auto]. eauto 7.
Qed.

Lemma check_match_ok f D st s arms r : check_expr (S f) D st (XMatch s arms) = COk r ->
  exists rs, check_expr f D st s = COk rs /\
    match_tail intern f D (ty_of (fst rs)) (fst rs) (snd rs) arms = COk r.
Proof.
  rewrite check_expr_S. cbn [expr_step]. intro H. inv_all. eexists. split; [eassumption|].
  destruct (ty_of (fst a)); try discriminate H; exact H.
Qed.

End Inversion.

(* [H : check_expr (S f) D st e = COk r] with [e] a constructor: one step of the checker; for a
   match, at once the scrutinee ([Hs], result [rs]) and the rest ([match_tail], unfolded) *)
Ltac expr_step_in H rs Hs :=
  lazymatch type of H with
  | Infer.check_expr _ _ _ _ (XMatch _ _) = COk _ =>
      apply check_match_ok in H; destruct H as [rs [Hs H]]; unfold match_tail in H
  | _ => rewrite check_expr_S in H; cbn [expr_step] in H
  end.

Section Loops.
Variable R : cstate -> cstate -> Prop.
Hypothesis R_refl : forall s, R s s.
Hypothesis R_trans : forall a b c, R a b -> R b c -> R a c.

Lemma mapM_st_rel {A B} (g : cstate -> A -> cres (B * cstate)) :
  (forall st x r, g st x = COk r -> R st (snd r)) ->
  forall l st r, mapM_st g st l = COk r -> R st (snd r).
Proof.
  intros Hg. induction l as [|x l IH]; intros st r H; cbn [mapM_st] in H; inv_all; [apply R_refl|].
  cbn [snd]. eapply R_trans; [eapply Hg; eauto|eapply IH; eauto].
Qed.

Lemma accs_loop_rel ce fu D :
  (forall st x r, ce st x = COk r -> R st (snd r)) ->
  forall accs st t r, accs_loop ce fu D st t accs = COk r -> R st (snd r).
Proof.
  intros Hce. induction accs as [|a accs IH]; intros st t r H; cbn [accs_loop] in H; [inv_all; apply R_refl|].
  apply cbind_ok in H. destruct H as [[[ta t'] st'] [H1 H2]]. cbv beta iota in H2.
  apply cbind_ok in H2. destruct H2 as [[[tas tf] st''] [H2 H3]]. cbv beta iota in H3. inv_all. cbn [snd].
  apply IH in H2. cbn [snd] in H2. eapply R_trans; [|exact H2]. clear H2 IH.
  destruct a.
  - inv_all'. match goal with H : ce _ _ = _ |- _ => apply Hce in H; exact H end.
  - inv_all'. destruct (nthN _ _); inv_all. apply R_refl.
  - inv_all'. destruct (assocL _ (d_structs D)); [|discriminate]. destruct (assocL _ _); inv_all. apply R_refl.
Qed.

Lemma struct_lit_loop_rel ce f sd :
  (forall st x r, ce st x = COk r -> R st (snd r)) ->
  forall fields seen st r, struct_lit_loop ce f sd seen st fields = COk r -> R st (snd r).
Proof.
  intros Hce. induction fields as [|[fname fv] fields IH]; intros seen st r H; cbn [struct_lit_loop] in H; inv_all; [apply R_refl|].
  destruct (assocL fname sd); [|discriminate]. inv_all. cbn [snd].
  eapply R_trans; [eapply Hce; eauto|eapply IH; eauto].
Qed.

End Loops.

(* [rel RA r r'] compares the results of two runs, [RA] the values of two successful ones. A
   comparison that passes through [cbind], holds of two related values and of one result with
   itself passes through every loop of the checker. *)
Section TwoRuns.
Variable rel : forall A, (A -> A -> Prop) -> cres A -> cres A -> Prop.
Arguments rel {A}.
Hypothesis rel_bind : forall A B (RA : A -> A -> Prop) (RB : B -> B -> Prop) r r' (k k' : A -> cres B),
  rel RA r r' -> (forall a a', RA a a' -> rel RB (k a) (k' a')) -> rel RB (cbind r k) (cbind r' k').
Hypothesis rel_ok : forall A (RA : A -> A -> Prop) a a', RA a a' -> rel RA (COk a) (COk a').
Hypothesis rel_eq : forall A (r : cres A), rel eq r r.

Lemma rel_pure {A B} (RB : B -> B -> Prop) (r : cres A) (k k' : A -> cres B) :
  (forall a, rel RB (k a) (k' a)) -> rel RB (cbind r k) (cbind r k').
Proof. intro H. eapply rel_bind; [apply rel_eq|]. intros a a' <-. apply H. Qed.

(* an error is [cbind] of itself, at a type of values that has none *)
Lemma rel_err {B} (RB : B -> B -> Prop) c : rel RB (CErr c) (CErr c).
Proof. apply (rel_pure RB (CErr c) (Empty_set_rect _) (Empty_set_rect _)). intros []. Qed.

Lemma rel_mapM {A B} (g g' : A -> cres B) l : (forall x, rel eq (g x) (g' x)) -> rel eq (mapM g l) (mapM g' l).
Proof.
  intro H. induction l as [|x l IH]; cbn [mapM]; [apply rel_eq|].
  eapply rel_bind; [apply H|]. intros a a' <-. eapply rel_bind; [exact IH|]. intros b b' <-. apply rel_eq.
Qed.

Lemma rel_zipM {A B} (g g' : A -> B -> cres A) : (forall x y, rel eq (g x y) (g' x y)) ->
  forall xs ys, rel eq (zipM g xs ys) (zipM g' xs ys).
Proof.
  intro H. induction xs as [|x xs IH]; intros [|y ys]; cbn [zipM]; try apply rel_eq.
  eapply rel_bind; [apply H|]. intros a a' <-. eapply rel_bind; [apply IH|]. intros b b' <-. apply rel_eq.
Qed.

Lemma rel_map_last_expr g g' : (forall e, rel eq (g e) (g' e)) -> forall b, rel eq (map_last_expr g b) (map_last_expr g' b).
Proof.
  intro H. induction b as [|s b IH]; cbn [map_last_expr]; [apply rel_eq|].
  destruct b as [|s2 b2].
  - destruct s; try apply rel_eq. eapply rel_bind; [apply H|]. intros a a' <-. apply rel_eq.
  - destruct s; (eapply rel_bind; [exact IH|]; intros a a' <-; apply rel_eq).
Qed.

Variable SR : cstate -> cstate -> Prop.
Definition RPg {B} (r r' : B * cstate) : Prop := fst r = fst r' /\ SR (snd r) (snd r').

Lemma rel_mapM_st {A B} (g g' : cstate -> A -> cres (B * cstate)) l :
  (forall st st' x, In x l -> SR st st' -> rel RPg (g st x) (g' st' x)) ->
  forall st st', SR st st' -> rel RPg (mapM_st g st l) (mapM_st g' st' l).
Proof.
  induction l as [|x l IH]; intros H st st' Hq; cbn [mapM_st]; [apply rel_ok; split; [reflexivity|exact Hq]|].
  eapply rel_bind; [apply H; [now left|exact Hq]|]. intros [b1 s1] [b1' s1'] [E1 S1]. cbn [fst snd] in *. subst b1'.
  eapply rel_bind; [apply IH; [intros; apply H; [now right|assumption]|exact S1]|].
  intros [b2 s2] [b2' s2'] [E2 S2]. cbn [fst snd] in *. subst b2'. apply rel_ok. split; [reflexivity|exact S2].
Qed.

Lemma rel_struct_lit_loop ce ce' f f' sd : (forall e t, rel eq (check_type f e t) (check_type f' e t)) ->
  forall fields,
  (forall st st' fl, In fl fields -> SR st st' -> rel RPg (ce st (snd fl)) (ce' st' (snd fl))) ->
  forall seen st st', SR st st' ->
  rel RPg (struct_lit_loop ce f sd seen st fields) (struct_lit_loop ce' f' sd seen st' fields).
Proof.
  intro Hct. induction fields as [|[fname fv] fields IH]; intros H seen st st' Hq; cbn [struct_lit_loop];
    [apply rel_ok; split; [reflexivity|exact Hq]|].
  destruct (memL fname seen); [apply rel_err|]. destruct (assocL fname sd); [|apply rel_err].
  eapply rel_bind; [apply (H st st' (fname, fv)); [now left|exact Hq]|]. intros [e1 s1] [e1' s1'] [E1 S1]. cbn [fst snd] in *. subst e1'.
  eapply rel_bind; [apply Hct|]. intros tf tf' <-.
  eapply rel_bind; [apply IH; [intros; apply H; [now right|assumption]|exact S1]|].
  intros [r2 s2] [r2' s2'] [E2 S2]. cbn [fst snd] in *. subst r2'. apply rel_ok. split; [reflexivity|exact S2].
Qed.

Lemma rel_accs_loop ce ce' fu fu' D D' : (forall n, assocL n (d_structs D') = assocL n (d_structs D)) ->
  (forall e t, rel eq (coc_unsigned_deep fu e t) (coc_unsigned_deep fu' e t)) ->
  forall accs,
  (forall st st' a, In a accs -> SR st st' -> match a with XAArray i => rel RPg (ce st i) (ce' st' i) | _ => True end) ->
  forall st st' t, SR st st' -> rel RPg (accs_loop ce fu D st t accs) (accs_loop ce' fu' D' st' t accs).
Proof.
  intros Hs Hcu. induction accs as [|a accs IH]; intros H st st' t Hq; cbn [accs_loop]; [apply rel_ok; split; [reflexivity|exact Hq]|].
  assert (IH' : forall st st' t, SR st st' -> rel RPg (accs_loop ce fu D st t accs) (accs_loop ce' fu' D' st' t accs))
    by (intros; apply IH; [intros; apply H; [now right|assumption]|assumption]).
  pose proof (fun st st' => H st st' a (or_introl eq_refl)) as Ha. clear H IH.
  eapply rel_bind with (RA := RPg).
  - destruct a; apply rel_pure; intro x.
    + eapply rel_bind; [apply Ha; exact Hq|]. intros [i1 s1] [i1' s1'] [E1 S1]. cbn [fst snd] in *. subst i1'.
      eapply rel_bind; [apply Hcu|]. intros ix ix' <-. apply rel_ok. split; [reflexivity|exact S1].
    + destruct (nthN _ _); [apply rel_ok; split; [reflexivity|exact Hq]|apply rel_err].
    + rewrite Hs. destruct (assocL _ (d_structs D)); [|apply rel_err].
      destruct (assocL _ _); [apply rel_ok; split; [reflexivity|exact Hq]|apply rel_err].
  - intros [[ta t1] s1] [[ta' t1'] s1'] [E1 S1]. cbn [fst snd] in *. injection E1 as <- <-.
    eapply rel_bind; [apply IH'; exact S1|]. intros [[tas tf] s2] [[tas' tf'] s2'] [E2 S2]. cbn [fst snd] in *.
    injection E2 as <- <-. apply rel_ok. split; [reflexivity|exact S2].
Qed.

End TwoRuns.

(* in an induction over the fuel: every successful sub-check in the context is replaced by what
   the induction hypothesis (for the loops: its lifting by the lemmas above) says of it *)
Ltac use_IH IHe IHb IHss IHes IHsl IHac IHsf := repeat match goal with
  | H : Infer.check_expr _ _ _ _ _ = COk _ |- _ => apply IHe in H
  | H : Infer.check_block _ _ _ _ _ = COk _ |- _ => apply IHb in H
  | H : Infer.check_stmts _ _ _ _ _ = COk _ |- _ => apply IHss in H
  | H : mapM_st (Infer.check_expr _ _ _) _ _ = COk _ |- _ => apply IHes in H
  | H : mapM_st (Infer.check_stmt _ _ _) _ _ = COk _ |- _ => apply IHsl in H
  | H : accs_loop _ _ _ _ _ _ = COk _ |- _ => apply IHac in H
  | H : struct_lit_loop _ _ _ _ _ _ = COk _ |- _ => apply IHsf in H
  end.

(* TypedFns of check.rs: (typed, currently_being_checked) *)
Definition tfns := (list (list N * tfndef) * list (list N))%type.
Definition fns_of (st : cstate) : tfns := (st_typed st, st_checking st).

(* [R] relates TypedFns before and after a check of an expression / statement / block, [RF fd]
   before and after a check of the function [fd].  The checker changes TypedFns in two places
   only: a call records the callee it had to check ([R_call]), and a function is checked with its
   own name pushed on `currently_being_checked` ([R_fn]).  Whatever is closed under these two
   steps, reflexive and transitive holds of every successful check.  [Bd] bounds the fuel at
   which [R_call] is asked. *)
Section Frame.
Variables (intern : list N -> N) (D : defs) (Bd : nat).
Notation check_expr := (check_expr intern).
Notation check_stmt := (check_stmt intern).
Notation check_stmts := (check_stmts intern).
Notation check_block := (check_block intern).
Notation check_fn := (check_fn intern).
Variable R : tfns -> tfns -> Prop.
Variable RF : ufndef -> tfns -> tfns -> Prop.
Hypothesis R_refl : forall a, R a a.
Hypothesis R_trans : forall a b c, R a b -> R b c -> R a c.
Hypothesis R_call : forall f st fd r id, (f < Bd)%nat ->
  assocL id (st_typed st) = None -> find (fun d => list_eqb (uf_name d) id) (d_fns D) = Some fd ->
  check_fn f D st fd = COk r -> RF fd (fns_of st) (fns_of (snd r)) ->
  R (fns_of st) ((id, fst r) :: st_typed (snd r), st_checking (snd r)).
Hypothesis R_fn : forall fd T C a, memL (uf_name fd) C = false ->
  R (T, uf_name fd :: C) a -> RF fd (T, C) (fst a, C).

Let Rst (st st' : cstate) : Prop := R (fns_of st) (fns_of st').

Ltac chain := unfold Rst, fns_of in *; cbn [snd fst st_typed st_checking with_env] in *;
  repeat first [eassumption | apply R_refl | eapply R_trans; [eassumption|]].

Theorem check_frame f : (f <= Bd)%nat ->
  (forall st e r, check_expr f D st e = COk r -> R (fns_of st) (fns_of (snd r))) /\
  (forall st b r, check_stmts f D st b = COk r -> R (fns_of st) (fns_of (snd r))) /\
  (forall st b r, check_block f D st b = COk r -> R (fns_of st) (fns_of (snd r))) /\
  (forall st s r, check_stmt f D st s = COk r -> R (fns_of st) (fns_of (snd r))) /\
  (forall st fd r, check_fn f D st fd = COk r -> RF fd (fns_of st) (fns_of (snd r))).
Proof.
  induction f as [|f IH]; intro Hf.
  { repeat split; intros; discriminate. }
  destruct (IH ltac:(lia)) as (IHe & IHss & IHb & IHs & IHf). clear IH.
  assert (Rr : forall s, Rst s s) by (intro; apply R_refl).
  assert (Rt : forall a b c, Rst a b -> Rst b c -> Rst a c) by (intros a b c; apply R_trans).
  pose proof (mapM_st_rel Rst Rr Rt _ IHe) as IHes. pose proof (mapM_st_rel Rst Rr Rt _ IHs) as IHsl.
  pose proof (accs_loop_rel Rst Rr Rt _ f D IHe) as IHac.
  pose proof (fun sd => struct_lit_loop_rel Rst Rr Rt _ f sd IHe) as IHsf.
  split; [|split; [|split; [|split]]].
  - intros st e r H. destruct e; expr_step_in H rs Hs.
    all: try solve [inv_all'; use_IH IHe IHb IHss IHes IHsl IHac IHsf; chain].
    + (* identifier *)
      destruct (env_get (st_env st) s) as [[? ?]|]; [|destruct (assocL s (d_consts D))]; inv_all; apply R_refl.
    + (* array literal *)
      inv_all. destruct (fst a); inv_all'. use_IH IHe IHb IHss IHes IHsl IHac IHsf. chain.
    + (* tuple access *) inv_all. destruct (nthN _ _); inv_all'. use_IH IHe IHb IHss IHes IHsl IHac IHsf. chain.
    + (* field access *)
      inv_all. destruct (assocL _ (d_structs D)); [|discriminate]. destruct (assocL _ _); inv_all'.
      use_IH IHe IHb IHss IHes IHsl IHac IHsf. chain.
    + (* struct literal *)
      destruct (assocL name (d_structs D)); inv_all'. use_IH IHe IHb IHss IHes IHsl IHac IHsf. chain.
    + (* enum literal *)
      destruct (assocL e (d_enums D)) as [ed|]; [|discriminate]. destruct (assocL v ed) as [[?|]|]; try discriminate;
        destruct args; inv_all'; use_IH IHe IHb IHss IHes IHsl IHac IHsf; chain.
    + (* match: each clause runs in the state the one before it left *)
      inv_all. destruct (fst a) as [|[? ?] ?]; inv_all'.
      match goal with Hm : mapM_st (match_arm _ _ _ _) _ _ = COk _ |- _ =>
        apply (mapM_st_rel Rst Rr Rt) in Hm;
        [|intros st0 pc r0 H0; unfold match_arm in H0; inv_all'; use_IH IHe IHb IHss IHes IHsl IHac IHsf; chain] end.
      use_IH IHe IHb IHss IHes IHsl IHac IHsf. chain.
    + (* binary *)
      inv_all. destruct o; inv_all;
        try match goal with H : match ty_of ?x with CBool => match ty_of ?y with _ => _ end | _ => _ end = COk _ |- _ =>
              destruct (ty_of x); try discriminate H; destruct (ty_of y); try discriminate H end;
        inv_all'; use_IH IHe IHb IHss IHes IHsl IHac IHsf; chain.
    + (* call *)
      inv_all.
      assert (Hst1 : Rst st a).
      { match goal with Hp : call_prefix _ _ _ _ _ = COk _ |- _ =>
          destruct (call_prefix_ok _ _ _ _ _ _ Hp) as [->|(fd & r0 & Ha & Hfd & Hc & ->)] end; [apply Rr|].
        apply (R_call f st fd r0 f0 ltac:(lia) Ha Hfd Hc). apply IHf. exact Hc. }
      destruct (assocL f0 (st_typed a)); [|discriminate]. destruct (env_get (st_env a) f0); inv_all'.
      use_IH IHe IHb IHss IHes IHsl IHac IHsf. chain.
  - intros st b r H. rewrite check_stmts_S in H. exact (IHsl _ _ _ H).
  - intros st b r H. rewrite check_block_S in H. inv_all'. use_IH IHe IHb IHss IHes IHsl IHac IHsf. chain.
  - intros st s r H. rewrite check_stmt_S in H. destruct s; cbn [stmt_step] in H.
    all: try solve [inv_all'; use_IH IHe IHb IHss IHes IHsl IHac IHsf; chain].
    destruct (env_get (st_env st) x) as [[t [|]]|]; inv_all'. use_IH IHe IHb IHss IHes IHsl IHac IHsf. chain.
  - intros st fd r H. rewrite check_fn_S in H. unfold fn_step in H. inv_all'.
    match goal with Hm : memL _ _ = false, Hk : Infer.check_block _ _ _ _ _ = COk _ |- _ =>
      apply IHb in Hk; exact (R_fn fd _ _ _ Hm Hk) end.
Qed.

End Frame.

Corollary check_typed_pres intern D Bd (J : list (list N * tfndef) -> Prop) :
  (forall f st fd r id, (f < Bd)%nat -> find (fun d => list_eqb (uf_name d) id) (d_fns D) = Some fd ->
     check_fn intern f D st fd = COk r -> J (st_typed st) -> J (st_typed (snd r)) ->
     J ((id, fst r) :: st_typed (snd r))) ->
  forall f, (f <= Bd)%nat ->
  (forall st e r, check_expr intern f D st e = COk r -> J (st_typed st) -> J (st_typed (snd r))) /\
  (forall st b r, check_stmts intern f D st b = COk r -> J (st_typed st) -> J (st_typed (snd r))) /\
  (forall st b r, check_block intern f D st b = COk r -> J (st_typed st) -> J (st_typed (snd r))) /\
  (forall st s r, check_stmt intern f D st s = COk r -> J (st_typed st) -> J (st_typed (snd r))) /\
  (forall st fd r, check_fn intern f D st fd = COk r -> J (st_typed st) -> J (st_typed (snd r))).
Proof.
  intros Hins f Hf.
  apply (check_frame intern D Bd (fun a b => J (fst a) -> J (fst b)) (fun _ a b => J (fst a) -> J (fst b))); auto.
  intros f0 st fd r id Hf0 _ Hfd Hc HF HJ. exact (Hins f0 st fd r id Hf0 Hfd Hc HJ (HF HJ)).
Qed.

(* ------------------------------------------------------------------ UntypedProgram::type_check *)

Lemma mapM_In {A B} (g : A -> cres B) : forall l l' y, mapM g l = COk l' -> In y l' -> exists x, In x l /\ g x = COk y.
Proof.
  induction l as [|a l IH]; intros l' y H Hy; cbn [mapM] in H; inv_all; [destruct Hy|].
  destruct Hy as [<-|Hy]; [eauto using in_eq|]. destruct (IH _ _ Hb0 Hy) as [x0 [Hin Hg]]. eauto using in_cons.
Qed.

Lemma mapM_names {A B} (g : A -> cres (list N * B)) (nm : A -> list N) :
  (forall a r, g a = COk r -> fst r = nm a) ->
  forall l l', mapM g l = COk l' -> map fst l' = map nm l.
Proof.
  intros Hg. induction l as [|a l IH]; intros l' H; cbn [mapM] in H; inv_all; [reflexivity|].
  cbn [map]. rewrite (Hg _ _ Hb), (IH _ Hb0). reflexivity.
Qed.

Lemma struct_def_name sn en sd r : check_struct_def sn en sd = COk r -> fst r = us_name sd.
Proof. unfold check_struct_def. intro H. inv_all. reflexivity. Qed.
Lemma enum_def_name sn en ed r : check_enum_def sn en ed = COk r -> fst r = ue_name ed.
Proof. unfold check_enum_def. intro H. inv_all. reflexivity. Qed.

Lemma struct_def_nodup sn en sd r : check_struct_def sn en sd = COk r -> NoDup (map fst (snd r)).
Proof.
  unfold check_struct_def. intro H. apply cbind_ok in H. destruct H as [fields [Hf H]]. inversion H; subst; clear H. cbn [snd].
  assert (Hgen : forall fs seen fields,
    (fix go (seen : list (list N)) (fs : list (list N * utype)) : cres (list (list N * cty)) :=
       match fs with
       | [] => COk []
       | (name, ty) :: r =>
           if memL name seen then CErr E_DuplicateStructField else
           do ty' <- as_concrete_type sn en ty; do r' <- go (name :: seen) r; COk ((name, ty') :: r')
       end) seen fs = COk fields ->
    NoDup (map fst fields) /\ forall x, In x seen -> ~ In x (map fst fields)).
  { induction fs as [|[n ty] fs IH]; intros seen fields0 H0.
    - inversion H0; subst. split; [constructor|auto].
    - destruct (memL n seen) eqn:Em; [discriminate|]. apply cbind_ok in H0. destruct H0 as [ty' [_ H0]].
      apply cbind_ok in H0. destruct H0 as [r' [Hr H0]]. inversion H0; subst; clear H0.
      destruct (IH _ _ Hr) as [Hnd Hs]. cbn [map fst]. split.
      + constructor; [apply Hs; left; reflexivity|exact Hnd].
      + intros x Hx [Heq|Hin]; [subst x; exact (memL_false_notin _ _ Em Hx)|exact (Hs x (or_intror Hx) Hin)]. }
  exact (proj1 (Hgen _ _ _ Hf)).
Qed.

Lemma enum_def_nodup sn en ed r : check_enum_def sn en ed = COk r -> NoDup (map fst (snd r)).
Proof.
  unfold check_enum_def. intro H. apply cbind_ok in H. destruct H as [variants [Hv H]]. inversion H; subst; clear H. cbn [snd].
  assert (Hgen : forall vs seen variants,
    (fix go (seen : list (list N)) (vs : list uvariant) : cres (list (list N * option (list cty))) :=
       match vs with
       | [] => COk []
       | v :: r =>
           if memL (variant_name v) seen then CErr E_DuplicateEnumVariant else
           do v' <- match v with
                    | UVUnit n => COk (n, None)
                    | UVTuple n tys => do tys' <- mapM (as_concrete_type sn en) tys; COk (n, Some tys')
                    end;
           do r' <- go (variant_name v :: seen) r; COk (v' :: r')
       end) seen vs = COk variants ->
    NoDup (map fst variants) /\ forall x, In x seen -> ~ In x (map fst variants)).
  { induction vs as [|v vs IH]; intros seen variants0 H0.
    - inversion H0; subst. split; [constructor|auto].
    - destruct (memL (variant_name v) seen) eqn:Em; [discriminate|]. apply cbind_ok in H0. destruct H0 as [v' [Hv' H0]].
      apply cbind_ok in H0. destruct H0 as [r' [Hr H0]]. inversion H0; subst; clear H0.
      assert (Hn : fst v' = variant_name v).
      { destruct v as [n|n tys]; [inversion Hv'; reflexivity|]. apply cbind_ok in Hv'. destruct Hv' as [tys' [_ Hv']]. inversion Hv'; reflexivity. }
      destruct (IH _ _ Hr) as [Hnd Hs]. cbn [map]. rewrite Hn. split.
      + constructor; [apply Hs; left; reflexivity|exact Hnd].
      + intros x Hx [Heq|Hin]; [subst x; exact (memL_false_notin _ _ Em Hx)|exact (Hs x (or_intror Hx) Hin)]. }
  exact (proj1 (Hgen _ _ _ Hv)).
Qed.

Section ProgramLoop.
Variable intern : list N -> N.
Notation check_fn := (check_fn intern).

Definition prog_defs (P : uprogram) (consts : list (list N * texpr)) structs enums : defs :=
  mkDefs (map (fun c => (fst c, ty_of (snd c))) consts) structs enums (up_fns P)
         (map us_name (up_structs P)) (map ue_name (up_enums P)).

Definition rec_check (fuel : nat) structs enums (name : list N) : cres unit :=
  let ty := match assocL name structs with Some _ => CStruct name | None => CEnum name end in
  do r <- contains_type_def fuel structs enums name [] ty;
  if fst r then CErr E_RecursiveTypeDef else COk tt.

(* `checked_fn_defs.typed.insert(fn_name, typed_fn)` after a pub fn *)
Definition typed_insert (name : list N) (tfd : tfndef) (T : list (list N * tfndef)) :=
  (name, tfd) :: filter (fun nd => negb (list_eqb (fst nd) name)) T.

Definition pub_loop_fn (fuel : nat) (D : defs) :=
  fix go (fns : list ufndef) (st : cstate) : cres cstate :=
    match fns with
    | [] => COk st
    | fd :: r =>
        if uf_pub fd then
          match uf_params fd with
          | [] => CErr E_PubFnWithoutParams
          | _ =>
              do r1 <- check_fn fuel D st fd;
              go r (mkSt (st_env (snd r1)) (typed_insert (uf_name fd) (fst r1) (st_typed (snd r1)))
                         (st_checking (snd r1)))
          end
        else go r st
    end.

Lemma pub_loop_gen D fuel (J : list (list N * tfndef) -> Prop) (all : list ufndef) :
  (forall st fd r, In fd all -> check_fn fuel D st fd = COk r -> J (st_typed st) ->
     J (typed_insert (uf_name fd) (fst r) (st_typed (snd r)))) ->
  forall fns st st', incl fns all -> pub_loop_fn fuel D fns st = COk st' ->
  J (st_typed st) -> J (st_typed st').
Proof.
  intros Hstep. induction fns as [|fd fns IH]; intros st st' Hsub H HJ; cbn [pub_loop_fn] in H.
  - inv_all. exact HJ.
  - destruct (uf_pub fd); [|exact (IH _ _ (fun x Hx => Hsub x (in_cons _ _ _ Hx)) H HJ)].
    destruct (uf_params fd); inv_all.
    refine (IH _ _ (fun x Hx => Hsub x (in_cons _ _ _ Hx)) H _).
    exact (Hstep _ _ _ (Hsub _ (in_eq _ _)) Hb HJ).
Qed.

Lemma pub_loop_Forall D fuel (Q : list N * tfndef -> Prop) :
  (forall f st fd r id, (f <= fuel)%nat -> find (fun d => list_eqb (uf_name d) id) (d_fns D) = Some fd ->
     check_fn f D st fd = COk r -> Forall Q (st_typed st) -> Q (id, fst r)) ->
  forall fns st st', (forall fd, In fd fns -> find (fun d => list_eqb (uf_name d) (uf_name fd)) (d_fns D) = Some fd) ->
  pub_loop_fn fuel D fns st = COk st' -> Forall Q (st_typed st) -> Forall Q (st_typed st').
Proof.
  intros Hins fns st st' Hfind. apply (pub_loop_gen D fuel (Forall Q) fns); [|apply incl_refl].
  intros st0 fd r Hin Hc HJ. constructor; [exact (Hins _ _ _ _ _ (le_n _) (Hfind _ Hin) Hc HJ)|].
  apply Forall_filter. revert HJ.
  apply (proj2 (proj2 (proj2 (proj2 (check_typed_pres intern D (S fuel) (Forall Q)
           (fun f s d r0 id Hf Hd Hc0 HJ0 HJ1 => Forall_cons _ (Hins f s d r0 id (proj1 (Nat.lt_succ_r _ _) Hf) Hd Hc0 HJ0) HJ1)
           fuel (Nat.le_succ_diag_r _))))) _ _ _ Hc).
Qed.

Definition has_key (k : list N) (T : list (list N * tfndef)) : Prop := exists v, In (k, v) T.

Lemma has_key_insert k name v T : has_key k T \/ k = name -> has_key k (typed_insert name v T).
Proof.
  unfold typed_insert. destruct (list_eqb k name) eqn:E.
  - apply list_eqb_eq in E. subst. exists v. left. reflexivity.
  - intros [[w Hw]|Hk]; [|subst; rewrite list_eqb_refl in E; discriminate].
    exists w. right. apply filter_In. split; [exact Hw|]. cbn [fst]. rewrite E. reflexivity.
Qed.

Lemma pub_loop_keys D fuel : forall fns st st', pub_loop_fn fuel D fns st = COk st' ->
  forall k, has_key k (st_typed st) \/ (exists fd, In fd fns /\ uf_pub fd = true /\ uf_name fd = k) ->
  has_key k (st_typed st').
Proof.
  assert (Hkeep : forall k st fd r, check_fn fuel D st fd = COk r ->
            has_key k (st_typed st) -> has_key k (st_typed (snd r))).
  { intros k st fd r. apply (check_typed_pres intern D fuel (has_key k)); [|apply le_n].
    intros _ _ _ r0 id _ _ _ _ [v Hv]. exists v. right. exact Hv. }
  induction fns as [|fd fns IH]; intros st st' H k Hk; cbn [pub_loop_fn] in H.
  - inv_all. destruct Hk as [Hk|(fd & [] & _)]. exact Hk.
  - destruct (uf_pub fd) eqn:Epub.
    + destruct (uf_params fd); inv_all. apply (IH _ _ H k). cbn [st_typed].
      destruct Hk as [Hk|(fd' & [<-|Hin] & Hp & Hn)]; [left|left|eauto]; apply has_key_insert; eauto.
    + apply (IH _ _ H k). destruct Hk as [Hk|(fd' & [<-|Hin] & Hp & Hn)]; [auto|congruence|eauto].
Qed.

Lemma check_program_t_unfold fuel P : check_program_t intern fuel P =
  let sn := map us_name (up_structs P) in
  let en := map ue_name (up_enums P) in
  do consts <- check_consts (up_consts P) [];
  do structs <- mapM (check_struct_def sn en) (up_structs P);
  do enums <- mapM (check_enum_def sn en) (up_enums P);
  do _ <- mapM (rec_check fuel structs enums) (map fst structs ++ map fst enums);
  do st <- pub_loop_fn fuel (prog_defs P consts structs enums) (up_fns P) (mkSt env_new [] []);
  if existsb (fun fd => negb (uf_pub fd) &&
                        negb (match assocL (uf_name fd) (st_typed st) with Some _ => true | None => false end))
             (up_fns P)
  then CErr E_UnusedFn
  else COk (mkTProgram consts structs enums (st_typed st) (up_main P)).
Proof. reflexivity. Qed.

Lemma check_program_t_ok fuel P T : check_program_t intern fuel P = COk T ->
  exists consts structs enums ru st,
    check_consts (up_consts P) [] = COk consts /\
    mapM (check_struct_def (map us_name (up_structs P)) (map ue_name (up_enums P))) (up_structs P) = COk structs /\
    mapM (check_enum_def (map us_name (up_structs P)) (map ue_name (up_enums P))) (up_enums P) = COk enums /\
    mapM (rec_check fuel structs enums) (map fst structs ++ map fst enums) = COk ru /\
    pub_loop_fn fuel (prog_defs P consts structs enums) (up_fns P) (mkSt env_new [] []) = COk st /\
    T = mkTProgram consts structs enums (st_typed st) (up_main P) /\
    forall fd, In fd (up_fns P) -> has_key (uf_name fd) (st_typed st).
Proof.
  rewrite check_program_t_unfold. cbv zeta. intro H. inv_all.
  exists a, a0, a1, a2, a3. repeat split; try assumption.
  intros fd Hin. destruct (uf_pub fd) eqn:Epub; [apply (pub_loop_keys _ _ _ _ _ Hb3 (uf_name fd)); eauto|].
  destruct (assocL (uf_name fd) (st_typed a3)) as [tfd|] eqn:Ea; [exists tfd; eauto using assocL_In|exfalso].
  match goal with He : existsb _ _ = false |- _ => rewrite <- not_true_iff_false in He; apply He end.
    apply existsb_exists. exists fd. rewrite Epub, Ea. auto.
Qed.

Lemma check_program_t_accept fuel P consts structs enums ru st :
  check_consts (up_consts P) [] = COk consts ->
  mapM (check_struct_def (map us_name (up_structs P)) (map ue_name (up_enums P))) (up_structs P) = COk structs ->
  mapM (check_enum_def (map us_name (up_structs P)) (map ue_name (up_enums P))) (up_enums P) = COk enums ->
  mapM (rec_check fuel structs enums) (map fst structs ++ map fst enums) = COk ru ->
  pub_loop_fn fuel (prog_defs P consts structs enums) (up_fns P) (mkSt env_new [] []) = COk st ->
  (forall fd, In fd (up_fns P) -> assocL (uf_name fd) (st_typed st) <> None) ->
  check_program_t intern fuel P = COk (mkTProgram consts structs enums (st_typed st) (up_main P)).
Proof.
  intros E1 E2 E3 E4 E5 Hall. rewrite check_program_t_unfold. cbv zeta. rewrite E1. cbn [cbind]. rewrite E2. cbn [cbind].
  rewrite E3. cbn [cbind]. rewrite E4. cbn [cbind]. rewrite E5. cbn [cbind].
  destruct (existsb _ _) eqn:U; [|reflexivity]. exfalso.
  apply existsb_exists in U. destruct U as (fd & Hin & Hb). apply andb_true_iff in Hb. destruct Hb as [_ Hb].
  specialize (Hall fd Hin). destruct (assocL _ _); [discriminate Hb|congruence].
Qed.

End ProgramLoop.
