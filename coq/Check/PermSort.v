From Coq Require Import Lia Bool List Permutation NArith Sorted.
From GV Require Import Base.Util Front.Scan Front.ParseExpr.
Import ListNotations.
Local Open Scope N_scope.

(* ------------------------------------------------------------------ *)
(* 1. name_ltb is a strict total order on list N                       *)
(* ------------------------------------------------------------------ *)

Lemma name_ltb_irrefl (a : list N) : name_ltb a a = false.
Proof.
  induction a as [|x a IH]; cbn [name_ltb]; [reflexivity|].
  rewrite IH, N.ltb_irrefl, andb_false_r. reflexivity.
Qed.

Lemma name_ltb_trans (a b c : list N) :
  name_ltb a b = true -> name_ltb b c = true -> name_ltb a c = true.
Proof.
  revert b c. induction a as [|x a IH]; intros b c Hab Hbc.
  - destruct b as [|y b]; cbn [name_ltb] in Hab; [discriminate|].
    destruct c as [|z c]; cbn [name_ltb] in Hbc; [discriminate|]. reflexivity.
  - destruct b as [|y b]; cbn [name_ltb] in Hab; [discriminate|].
    destruct c as [|z c]; cbn [name_ltb] in Hbc; [discriminate|].
    cbn [name_ltb].
    apply orb_true_iff in Hab. apply orb_true_iff in Hbc. apply orb_true_iff.
    destruct Hab as [Hxy|Hxy]; destruct Hbc as [Hyz|Hyz].
    + left. apply N.ltb_lt in Hxy. apply N.ltb_lt in Hyz. apply N.ltb_lt. lia.
    + apply andb_true_iff in Hyz. destruct Hyz as [Hyz _].
      apply N.eqb_eq in Hyz. subst z. left. exact Hxy.
    + apply andb_true_iff in Hxy. destruct Hxy as [Hxy _].
      apply N.eqb_eq in Hxy. subst y. left. exact Hyz.
    + apply andb_true_iff in Hxy. destruct Hxy as [Hxy Hab].
      apply andb_true_iff in Hyz. destruct Hyz as [Hyz Hbc].
      apply N.eqb_eq in Hxy. apply N.eqb_eq in Hyz. subst y. subst z.
      right. rewrite N.eqb_refl. cbn [andb]. exact (IH b c Hab Hbc).
Qed.

Lemma name_ltb_trich (a b : list N) :
  name_ltb a b = false -> name_ltb b a = false -> a = b.
Proof.
  revert b. induction a as [|x a IH]; intros b Hab Hba.
  - destruct b as [|y b]; [reflexivity|]. cbn [name_ltb] in Hab. discriminate.
  - destruct b as [|y b]; cbn [name_ltb] in Hba; [discriminate|].
    cbn [name_ltb] in Hab.
    apply orb_false_iff in Hab. destruct Hab as [Hxy Hab].
    apply orb_false_iff in Hba. destruct Hba as [Hyx Hba].
    apply N.ltb_ge in Hxy. apply N.ltb_ge in Hyx.
    assert (Heq : x = y) by lia. subst y.
    rewrite N.eqb_refl in Hab, Hba. cbn [andb] in Hab, Hba.
    f_equal. exact (IH b Hab Hba).
Qed.

Lemma name_ltb_asym (a b : list N) :
  name_ltb a b = true -> name_ltb b a = false.
Proof.
  intros Hab. destruct (name_ltb b a) eqn:Hba; [|reflexivity].
  pose proof (name_ltb_trans a b a Hab Hba) as Haa.
  rewrite name_ltb_irrefl in Haa. discriminate.
Qed.

(* ------------------------------------------------------------------ *)
(* 2. strictly sorted lists of fields                                  *)
(* ------------------------------------------------------------------ *)

Definition field_lt {A} (f g : list N * A) : Prop := name_ltb (fst f) (fst g) = true.

Definition fields_sorted {A} (l : list (list N * A)) : Prop :=
  StronglySorted field_lt l.

Lemma insert_field_Permutation {A} (f : list N * A) (l : list (list N * A)) :
  Permutation (insert_field f l) (f :: l).
Proof.
  induction l as [|g r IH]; cbn [insert_field]; [apply Permutation_refl|].
  destruct (name_ltb (fst f) (fst g)); [apply Permutation_refl|].
  eapply Permutation_trans; [apply perm_skip; exact IH|]. apply perm_swap.
Qed.

Lemma insert_field_sorted {A} (f : list N * A) (l : list (list N * A)) :
  fields_sorted l -> ~ In (fst f) (map fst l) -> fields_sorted (insert_field f l).
Proof.
  unfold fields_sorted.
  induction l as [|g r IH]; intros Hs Hnin; cbn [insert_field].
  - constructor; constructor.
  - inversion Hs as [|g0 r0 Hsr Hall]; subst g0 r0.
    destruct (name_ltb (fst f) (fst g)) eqn:Hfg.
    + constructor; [exact Hs|].
      constructor; [exact Hfg|].
      rewrite Forall_forall in Hall. apply Forall_forall. intros h Hh.
      unfold field_lt in *. eapply name_ltb_trans; [exact Hfg|]. exact (Hall h Hh).
    + cbn [map In] in Hnin.
      constructor.
      * apply IH; [exact Hsr|]. intros Hin. apply Hnin. right. exact Hin.
      * eapply Permutation_Forall; [apply Permutation_sym, insert_field_Permutation|].
        constructor; [|exact Hall].
        unfold field_lt. destruct (name_ltb (fst g) (fst f)) eqn:Hgf; [reflexivity|].
        exfalso. apply Hnin. left. symmetry. exact (name_ltb_trich _ _ Hfg Hgf).
Qed.

Lemma fold_insert_Permutation {A} (l acc : list (list N * A)) :
  Permutation (fold_left (fun acc f => insert_field f acc) l acc) (l ++ acc).
Proof.
  revert acc. induction l as [|f l IH]; intros acc; cbn [fold_left app].
  - apply Permutation_refl.
  - eapply Permutation_trans; [apply IH|].
    eapply Permutation_trans; [apply Permutation_app_head, insert_field_Permutation|].
    apply Permutation_sym, Permutation_middle.
Qed.

Lemma sort_fields_Permutation {A} (l : list (list N * A)) :
  Permutation (sort_fields l) l.
Proof.
  unfold sort_fields.
  eapply Permutation_trans; [apply fold_insert_Permutation|].
  rewrite app_nil_r. apply Permutation_refl.
Qed.

Lemma fold_insert_sorted {A} (l acc : list (list N * A)) :
  fields_sorted acc -> NoDup (map fst (l ++ acc)) ->
  fields_sorted (fold_left (fun acc f => insert_field f acc) l acc).
Proof.
  revert acc. induction l as [|f l IH]; intros acc Hs Hnd; cbn [fold_left].
  - exact Hs.
  - cbn [app map] in Hnd. inversion Hnd as [|k ks Hnin Hnd']; subst k ks.
    apply IH.
    + apply insert_field_sorted; [exact Hs|].
      intros Hin. apply Hnin. rewrite map_app. apply in_or_app. right. exact Hin.
    + eapply Permutation_NoDup; [|exact Hnd].
      change (fst f :: map fst (l ++ acc)) with (map fst (f :: l ++ acc)).
      apply Permutation_map.
      eapply Permutation_trans; [apply Permutation_middle|].
      apply Permutation_app_head, Permutation_sym, insert_field_Permutation.
Qed.

Lemma sort_fields_sorted {A} (l : list (list N * A)) :
  NoDup (map fst l) -> fields_sorted (sort_fields l).
Proof.
  intros Hnd. unfold sort_fields. apply fold_insert_sorted.
  - constructor.
  - rewrite app_nil_r. exact Hnd.
Qed.

(* ------------------------------------------------------------------ *)
(* 3. strictly sorted permutations are equal                           *)
(* ------------------------------------------------------------------ *)

Lemma sorted_perm_eq {A} (l1 l2 : list (list N * A)) :
  fields_sorted l1 -> fields_sorted l2 -> Permutation l1 l2 -> l1 = l2.
Proof.
  unfold fields_sorted. revert l2.
  induction l1 as [|a r1 IH]; intros l2 Hs1 Hs2 Hp.
  - apply Permutation_nil in Hp. symmetry. exact Hp.
  - destruct l2 as [|b r2].
    + apply Permutation_sym, Permutation_nil in Hp. discriminate.
    + inversion Hs1 as [|a0 r0 Hsr1 Hall1]; subst a0 r0.
      inversion Hs2 as [|b0 r0 Hsr2 Hall2]; subst b0 r0.
      rewrite Forall_forall in Hall1, Hall2.
      assert (Hab : a = b).
      { assert (Ha : In a (b :: r2)).
        { eapply Permutation_in; [exact Hp|]. left. reflexivity. }
        assert (Hb : In b (a :: r1)).
        { eapply Permutation_in; [apply Permutation_sym; exact Hp|]. left. reflexivity. }
        destruct Ha as [Ha|Ha]; [symmetry; exact Ha|].
        destruct Hb as [Hb|Hb]; [exact Hb|].
        pose proof (Hall2 a Ha) as Hba. pose proof (Hall1 b Hb) as Hab.
        unfold field_lt in Hba, Hab.
        rewrite (name_ltb_asym _ _ Hab) in Hba. discriminate. }
      subst b. f_equal.
      apply IH; [exact Hsr1|exact Hsr2|].
      eapply Permutation_cons_inv. exact Hp.
Qed.

(* ------------------------------------------------------------------ *)
(* 4. sort_fields gives one list for every order of the same fields    *)
(* ------------------------------------------------------------------ *)

Theorem sort_fields_perm {A} (l l' : list (list N * A)) :
  Permutation l l' -> NoDup (map fst l) -> sort_fields l = sort_fields l'.
Proof.
  intros Hp Hnd.
  assert (Hnd' : NoDup (map fst l')).
  { eapply Permutation_NoDup; [apply Permutation_map; exact Hp|exact Hnd]. }
  apply sorted_perm_eq.
  - apply sort_fields_sorted. exact Hnd.
  - apply sort_fields_sorted. exact Hnd'.
  - eapply Permutation_trans; [apply sort_fields_Permutation|].
    eapply Permutation_trans; [exact Hp|].
    apply Permutation_sym, sort_fields_Permutation.
Qed.

Print Assumptions sort_fields_perm.
