(* "Accepted implies every sub-term was accepted in some state": the lifting of the local
   rejection lemmas of InferProofs.v to every syntactic context. *)
From GV Require Import Base.Util Front.Scan Front.ParseExpr Check.UAst Check.Infer Check.InferProofs.
Local Open Scope N_scope.

Inductive node := NE (e : xexpr) | NS (s : xstmt).

(* the direct sub-terms (expressions and statements) of an expression / a statement *)
Inductive child : node -> node -> Prop :=
| c_arrlit e es : In e es -> child (NE e) (NE (XArrayLiteral es))
| c_arrrep e n : child (NE e) (NE (XArrayRepeatLiteral e n))
| c_idx_a a i : child (NE a) (NE (XArrayAccess a i))
| c_idx_i a i : child (NE i) (NE (XArrayAccess a i))
| c_tuplit e es : In e es -> child (NE e) (NE (XTupleLiteral es))
| c_tupacc e i : child (NE e) (NE (XTupleAccess e i))
| c_fld e f : child (NE e) (NE (XStructAccess e f))
| c_structlit n f e fields : In (f, e) fields -> child (NE e) (NE (XStructLiteral n fields))
| c_enumlit en v e es : In e es -> child (NE e) (NE (XEnumLiteral en v (Some es)))
| c_match_s e arms : child (NE e) (NE (XMatch e arms))
| c_match_arm s p e arms : In (p, e) arms -> child (NE e) (NE (XMatch s arms))
| c_unop o e : child (NE e) (NE (XUnaryOp o e))
| c_op_l o l r : child (NE l) (NE (XOp o l r))
| c_op_r o l r : child (NE r) (NE (XOp o l r))
| c_block s b : In s b -> child (NS s) (NE (XBlock b))
| c_call f e args : In e args -> child (NE e) (NE (XFnCall f args))
| c_if_c c t e : child (NE c) (NE (XIf c t e))
| c_if_t c t e : child (NE t) (NE (XIf c t e))
| c_if_e c t e : child (NE e) (NE (XIf c t e))
| c_cast ty e : child (NE e) (NE (XCast ty e))
| c_let p ty e : child (NE e) (NS (XSLet p ty e))
| c_letmut x ty e : child (NE e) (NS (XSLetMut x ty e))
| c_assign_v x accs e : child (NE e) (NS (XSVarAssign x accs e))
| c_assign_i x accs i e : In (XAArray i) accs -> child (NE i) (NS (XSVarAssign x accs e))
| c_for_e p e body : child (NE e) (NS (XSForEach p e body))
| c_for_body p e s body : In s body -> child (NS s) (NS (XSForEach p e body))
| c_sexpr e : child (NE e) (NS (XSExpr e)).

(* reflexive-transitive closure: [sub n m] = n occurs in m *)
Inductive sub : node -> node -> Prop :=
| sub_refl n : sub n n
| sub_step n m k : sub n m -> child m k -> sub n k.

Section Sub.
Variable intern : list N -> N.
Variable D : defs.
Notation check_expr := (check_expr intern).
Notation check_stmt := (check_stmt intern).

(* the node is accepted with some fuel in some state *)
Definition acc (n : node) : Prop :=
  exists f st,
    match n with
    | NE e => is_ok (check_expr f D st e) = true
    | NS s => is_ok (check_stmt f D st s) = true
    end.

Lemma mapM_st_In {A B} (g : cstate -> A -> cres (B * cstate)) x :
  forall l st r, mapM_st g st l = COk r -> In x l -> exists st', is_ok (g st' x) = true.
Proof.
  induction l as [|y l IH]; intros st r H Hin; [destruct Hin|].
  cbn [mapM_st] in H. inv_all. destruct Hin as [->|Hin].
  - eexists. rewrite Hb. reflexivity.
  - eapply IH; eauto.
Qed.

Lemma accs_loop_In ce fu i :
  forall accs st t r, accs_loop ce fu D st t accs = COk r -> In (XAArray i) accs ->
  exists st', is_ok (ce st' i) = true.
Proof.
  induction accs as [|a accs IH]; intros st t r H Hin; [destruct Hin|].
  cbn [accs_loop] in H.
  apply cbind_ok in H. destruct H as [[[ta t'] st'] [H1 H2]]. cbv beta iota in H2.
  apply cbind_ok in H2. destruct H2 as [[[tas tf] st''] [H2 H3]].
  destruct Hin as [->|Hin]; [|eapply IH; eauto].
  inv_all. eexists. rewrite Hb0. reflexivity.
Qed.

Lemma struct_lit_loop_In ce f sd fn e :
  forall fields seen st r, struct_lit_loop ce f sd seen st fields = COk r -> In (fn, e) fields ->
  exists st', is_ok (ce st' e) = true.
Proof.
  induction fields as [|[fname fv] fields IH]; intros seen st r H Hin; [destruct Hin|].
  cbn [struct_lit_loop] in H. destruct (memL fname seen); [discriminate|].
  destruct (assocL fname sd); [|discriminate]. inv_all.
  destruct Hin as [Heq|Hin]; [inversion Heq; subst; eexists; rewrite Hb; reflexivity|eapply IH; eauto].
Qed.

Ltac got := match goal with H : Infer.check_expr _ ?f _ ?st ?e = COk _ |- acc (NE ?e) =>
              exists f, st; cbn beta iota; rewrite H; reflexivity end.

Ltac in_loop st' Hx := match goal with
  | Hm : mapM_st _ _ _ = COk _, Hi : In _ _ |- _ => destruct (mapM_st_In _ _ _ _ _ Hm Hi) as [st' Hx]
  | Hm : struct_lit_loop _ _ _ _ _ _ = COk _, Hi : In _ _ |- _ => destruct (struct_lit_loop_In _ _ _ _ _ _ _ _ _ Hm Hi) as [st' Hx]
  | Hm : accs_loop _ _ _ _ _ _ = COk _, Hi : In _ _ |- _ => destruct (accs_loop_In _ _ _ _ _ _ _ Hm Hi) as [st' Hx]
  end.

Lemma child_acc c p : child c p -> acc p -> acc c.
Proof.
  intros Hc [f [st Hp]]. destruct f as [|f]; [destruct p; discriminate|].
  destruct Hc; cbn beta iota in Hp; apply is_ok_COk in Hp; destruct Hp as [rr Hp];
    first [rewrite check_expr_S in Hp; cbn [expr_step] in Hp | rewrite check_stmt_S in Hp; cbn [stmt_step] in Hp].
  all: try (inv_all; got).
  all: try solve [ inv_all; in_loop st' Hx; exists f, st'; exact Hx ].
  all: try solve [ destruct (assocL n (d_structs D)); [|discriminate]; inv_all; in_loop st' Hx; exists f, st'; exact Hx ].
  all: try solve [ destruct (assocL en (d_enums D)) as [ed|]; [|discriminate];
                   destruct (assocL v ed) as [[?|]|]; try discriminate; inv_all; in_loop st' Hx; exists f, st'; exact Hx ].
  all: try solve [ inv_all; destruct (ty_of (fst a)); try discriminate; unfold match_tail in *; inv_all; in_loop st' Hx;
                   unfold match_arm in Hx; apply is_ok_COk in Hx; destruct Hx as [rx Hx]; inv_all; cbn [snd] in *; got ].
  all: try solve [ inv_all; destr_tuples; destruct f as [|f]; [discriminate|];
                   match goal with H1 : Infer.check_block _ _ _ _ _ = COk _ |- _ => rewrite check_block_S in H1 end;
                   inv_all; in_loop st' Hx; exists f, st'; exact Hx ].
  all: try solve [ inv_all; destruct (assocL f0 (st_typed a)); [|discriminate];
                   destruct (env_get (st_env a) f0); [discriminate|]; inv_all; in_loop st' Hx; exists f, st'; exact Hx ].
  all: try solve [ destruct (env_get (st_env st) x) as [[t [|]]|]; try discriminate; inv_all'; first [got | in_loop st' Hx; exists f, st'; exact Hx] ].
  all: try solve [ inv_all; destruct f as [|f]; [discriminate|];
                   match goal with Hm : Infer.check_stmts _ _ _ _ _ = COk _ |- _ => rewrite check_stmts_S in Hm end; in_loop st' Hx; exists f, st'; exact Hx ].
Qed.

(* THE LIFTING LEMMA: every node that occurs in an accepted node is accepted (with some fuel, in
   some state) *)
Theorem sub_acc n m : sub n m -> acc m -> acc n.
Proof. induction 1; auto. intro Hk. apply IHsub. eapply child_acc; eauto. Qed.

(* contrapositive: a node that is rejected in EVERY state makes every context rejected *)
Definition never_ok (n : node) : Prop :=
  forall f st,
    match n with
    | NE e => is_ok (check_expr f D st e) = false
    | NS s => is_ok (check_stmt f D st s) = false
    end.

Corollary context_rejected n m : sub n m -> never_ok n -> never_ok m.
Proof.
  intros Hs Hn f st. destruct (match m with NE e => is_ok (check_expr f D st e) | NS s => is_ok (check_stmt f D st s) end) eqn:E; [|destruct m; exact E].
  assert (Ha : acc m) by (exists f, st; destruct m; exact E).
  destruct (sub_acc _ _ Hs Ha) as [f' [st' H']]. specialize (Hn f' st'). destruct n; congruence.
Qed.

End Sub.

(* ------------------------------------------------------------------ whole programs *)

Section Program.
Variable intern : list N -> N.

Definition body_acc (D : defs) (fd : ufndef) : Prop :=
  forall s, In s (uf_body fd) -> acc intern D (NS s).

Lemma check_fn_body_acc f D st fd r : check_fn intern f D st fd = COk r -> body_acc D fd.
Proof.
  destruct f as [|f]; [discriminate|]. rewrite check_fn_S. unfold fn_step. intro H. inv_all.
  match goal with Hblk : Infer.check_block _ _ _ _ _ = COk _ |- _ =>
    destruct f as [|f]; [discriminate|]; rewrite check_block_S in Hblk end. inv_all.
  intros s Hs.
  match goal with Hm : mapM_st _ _ (uf_body fd) = COk _ |- _ =>
    destruct (mapM_st_In _ _ _ _ _ Hm Hs) as [st' Hx] end. exists f, st'. exact Hx.
Qed.

(* the entries of `typed`: the function of that name (the first one in the program) has an
   accepted body *)
Definition Qb (D : defs) (nd : list N * tfndef) : Prop :=
  forall ufd, find (fun d => list_eqb (uf_name d) (fst nd)) (d_fns D) = Some ufd -> body_acc D ufd.

Lemma Qb_ins D : forall f st ufd r id,
  find (fun d => list_eqb (uf_name d) id) (d_fns D) = Some ufd ->
  check_fn intern f D st ufd = COk r -> Qb D (id, fst r).
Proof.
  intros f st ufd r id Hf Hc ufd' Hf'. cbn [fst] in Hf'. rewrite Hf in Hf'. inversion Hf'; subst.
  eapply check_fn_body_acc; eauto.
Qed.

(* a node occurs in the program: in the body of one of its functions *)
Definition occurs (n : node) (P : uprogram) : Prop :=
  exists fd s, In fd (up_fns P) /\ In s (uf_body fd) /\ sub n (NS s).

(* ACCEPTED IMPLIES EVERY SUB-TERM WAS ACCEPTED: if the program is accepted, every expression and
   statement of every function (pub or not) was accepted by check_expr / check_stmt with some
   fuel in some state, under the definitions D of the program *)
Theorem accepted_all_nodes fuel P T :
  NoDup (map uf_name (up_fns P)) ->
  check_program_t intern fuel P = COk T ->
  exists D, d_fns D = up_fns P /\ forall n, occurs n P -> acc intern D n.
Proof.
  intros Hnd H.
  destruct (check_program_t_ok intern _ _ _ H) as (consts & structs & enums & _ & stf & _ & _ & _ & _ & Hloop & _ & Hkey).
  set (D := prog_defs P consts structs enums) in *. exists D. split; [reflexivity|].
  pose proof (find_by_name _ Hnd) as Hfind.
  assert (HQ : Forall (Qb D) (st_typed stf)).
  { refine (pub_loop_Forall intern D fuel (Qb D) _ _ _ _ Hfind Hloop (Forall_nil _)).
    intros f s d r id _ Hd Hc _. exact (Qb_ins D f s d r id Hd Hc). }
  (* the entry of a function describes the function itself: names are unique *)
  intros n [fd [s [Hfd [Hs Hsub]]]]. eapply sub_acc; [exact Hsub|].
  destruct (Hkey fd Hfd) as [tfd Ht]. rewrite Forall_forall in HQ. exact (HQ _ Ht fd (Hfind fd Hfd) s Hs).
Qed.

(* the lifting in its contrapositive form: a program that contains, anywhere, a node that the
   checker rejects in EVERY state (under every definition table) is rejected *)
Corollary node_never_ok_program_rejected fuel P n :
  NoDup (map uf_name (up_fns P)) -> occurs n P ->
  (forall D, d_fns D = up_fns P -> never_ok intern D n) ->
  is_ok (check_program_t intern fuel P) = false /\ is_ok (check_program intern fuel P) = false.
Proof.
  intros Hnd Hocc Hnever.
  assert (H1 : is_ok (check_program_t intern fuel P) = false).
  { destruct (check_program_t intern fuel P) as [T| | |] eqn:E; try reflexivity.
    destruct (accepted_all_nodes _ _ _ Hnd E) as [D [HD Hacc]].
    destruct (Hacc n Hocc) as [f [st Hok]]. specialize (Hnever D HD f st). destruct n; congruence. }
  split; [exact H1|]. unfold check_program. destruct (check_program_t intern fuel P); try discriminate; reflexivity.
Qed.

End Program.

(* ------------------------------------------------------------------ the C17 rules, in every context *)

Section Rules.
Variable intern : list N -> N.
Notation check_expr := (check_expr intern).
Notation check_stmt := (check_stmt intern).

(* a sub-expression that is accepted always gets a type satisfying [bad] *)
Definition always_ty (D : defs) (e : xexpr) (bad : cty -> Prop) : Prop :=
  forall f st e1 st1, check_expr f D st e = COk (e1, st1) -> bad (ty_of e1).

Lemma not_ok_of {A} (r : cres A) : (forall a, r <> COk a) -> is_ok r = false.
Proof. destruct r; intro H; try reflexivity. exfalso. eapply H. reflexivity. Qed.

Lemma never_ok_if D c a b : always_ty D c (fun t => t <> CBool) -> never_ok intern D (NE (XIf c a b)).
Proof.
  intros Hc [|f] st; [reflexivity|]. cbn beta iota.
  destruct (check_expr f D st c) as [[c1 st1]| | |] eqn:E.
  - eapply if_cond_not_bool_rejected; [exact E|]. eapply Hc. exact E.
  - cbn [Infer.check_expr]. rewrite E. reflexivity.
  - cbn [Infer.check_expr]. rewrite E. reflexivity.
  - cbn [Infer.check_expr]. rewrite E. reflexivity.
Qed.

(* operands whose types can never be unified *)
Lemma never_ok_op D op x y (bx by_ : cty -> Prop) :
  uses_unify op = true -> always_ty D x bx -> always_ty D y by_ ->
  (forall t1 t2, bx t1 -> by_ t2 -> unify_compat t1 t2 = false) ->
  never_ok intern D (NE (XOp op x y)).
Proof.
  intros Hop Hx Hy Hbad [|f] st; [reflexivity|]. cbn beta iota.
  destruct (check_expr f D st x) as [[x1 st1]| | |] eqn:Ex; try (cbn [Infer.check_expr]; rewrite Ex; reflexivity).
  destruct (check_expr f D st1 y) as [[y1 st2]| | |] eqn:Ey;
    try (cbn [Infer.check_expr]; rewrite Ex; cbn [cbind snd]; rewrite Ey; reflexivity).
  rewrite (operands_differ_rejected intern f D st op x y x1 st1 y1 st2 Hop Ex Ey); [reflexivity|].
  apply Hbad; [eapply Hx; exact Ex|eapply Hy; exact Ey].
Qed.

Lemma never_ok_index D a i :
  always_ty D i (fun t => t <> CUnsigned Usize /\ t <> CUnsigned UnspecifiedU) ->
  never_ok intern D (NE (XArrayAccess a i)).
Proof.
  intros Hi [|f] st; [reflexivity|]. cbn beta iota.
  destruct (check_expr f D st a) as [[a1 st1]| | |] eqn:Ea; try (cbn [Infer.check_expr]; rewrite Ea; reflexivity).
  destruct (check_expr f D st1 i) as [[i1 st2]| | |] eqn:Ei;
    try (cbn [Infer.check_expr]; rewrite Ea; cbn [cbind snd]; rewrite Ei; reflexivity).
  destruct (Hi _ _ _ _ Ei) as [H1 H2].
  eapply index_not_usize_rejected; eauto.
Qed.

Lemma never_ok_neg D x : always_ty D x (fun t => forall s, t <> CSigned s) ->
  never_ok intern D (NE (XUnaryOp UoNeg x)).
Proof.
  intros Hx [|f] st; [reflexivity|]. cbn beta iota.
  destruct (check_expr f D st x) as [[x1 st1]| | |] eqn:Ex; try (cbn [Infer.check_expr]; rewrite Ex; reflexivity).
  rewrite (neg_unsigned_rejected intern f D st x x1 st1 Ex); [reflexivity|]. eapply Hx. exact Ex.
Qed.

Lemma never_ok_shift D op x y : op = BShiftLeft \/ op = BShiftRight ->
  always_ty D y (fun t => t <> CUnsigned U8 /\ t <> CUnsigned UnspecifiedU) ->
  never_ok intern D (NE (XOp op x y)).
Proof.
  intros Hop Hy [|f] st; [reflexivity|]. cbn beta iota.
  destruct (check_expr f D st x) as [[x1 st1]| | |] eqn:Ex; try (cbn [Infer.check_expr]; rewrite Ex; reflexivity).
  destruct (check_expr f D st1 y) as [[y1 st2]| | |] eqn:Ey;
    try (cbn [Infer.check_expr]; rewrite Ex; cbn [cbind snd]; rewrite Ey; reflexivity).
  destruct (Hy _ _ _ _ Ey) as [H1 H2].
  eapply shift_amount_not_u8_rejected; eauto.
Qed.

Lemma never_ok_tuple_index D e i n :
  always_ty D e (fun t => exists ts, t = CTuple ts /\ lenN ts = n) -> n <= i ->
  never_ok intern D (NE (XTupleAccess e i)).
Proof.
  intros He Hi [|f] st; [reflexivity|]. cbn beta iota.
  destruct (check_expr f D st e) as [[e1 st1]| | |] eqn:Ee; try (cbn [Infer.check_expr]; rewrite Ee; reflexivity).
  destruct (He _ _ _ _ Ee) as [ts [Ht Hn]].
  rewrite (tuple_index_out_of_range_rejected intern f D st e i e1 st1 ts Ee Ht); [reflexivity|lia].
Qed.

(* an identifier / an assignment target that no state can resolve: stated for the states the
   checker can be in is beyond a syntactic lemma; the local forms are [unknown_identifier_rejected],
   [assign_unbound_rejected], [assign_immutable_rejected], [unknown_function_rejected]; they lift
   through [context_rejected] to every context that is checked in such a state. *)

(* the types of literals *)
Lemma always_ty_num_u D n t : always_ty D (XNumUnsigned n t) (fun ty => ty = CUnsigned t).
Proof. intros [|f] st e1 st1 H; [discriminate|]. cbn in H. inversion H. reflexivity. Qed.
Lemma always_ty_num_s D z t : always_ty D (XNumSigned z t) (fun ty => ty = CSigned t).
Proof. intros [|f] st e1 st1 H; [discriminate|]. cbn in H. inversion H. reflexivity. Qed.
Lemma always_ty_true D : always_ty D XTrue (fun ty => ty = CBool).
Proof. intros [|f] st e1 st1 H; [discriminate|]. cbn in H. inversion H. reflexivity. Qed.
Lemma always_ty_false D : always_ty D XFalse (fun ty => ty = CBool).
Proof. intros [|f] st e1 st1 H; [discriminate|]. cbn in H. inversion H. reflexivity. Qed.

Lemma always_ty_weaken D e (b1 b2 : cty -> Prop) : (forall t, b1 t -> b2 t) -> always_ty D e b1 -> always_ty D e b2.
Proof. intros Hw H f st e1 st1 Hc. apply Hw. eapply H. exact Hc. Qed.

(* syntactically ill-typed nodes: rejected in every state *)
Definition is_num_lit (e : xexpr) : bool :=
  match e with XNumUnsigned _ _ | XNumSigned _ _ => true | _ => false end.
Definition is_bool_lit (e : xexpr) : bool :=
  match e with XTrue | XFalse => true | _ => false end.
Definition num_ty (t : cty) : Prop := (exists u, t = CUnsigned u) \/ (exists s, t = CSigned s).

Lemma lit_bool D e : is_bool_lit e = true -> always_ty D e (fun t => t = CBool).
Proof. destruct e; try discriminate; intros _; [apply always_ty_true|apply always_ty_false]. Qed.
Lemma lit_num D e : is_num_lit e = true -> always_ty D e num_ty.
Proof.
  destruct e; try discriminate; intros _.
  - eapply always_ty_weaken; [|apply always_ty_num_u]. intros ? ->. left. eauto.
  - eapply always_ty_weaken; [|apply always_ty_num_s]. intros ? ->. right. eauto.
Qed.

Definition bad_if (n : node) : bool :=                      (* `if 1 { .. } else { .. }` *)
  match n with NE (XIf c _ _) => is_num_lit c | _ => false end.
Definition bad_neg (n : node) : bool :=                     (* `-true`, `-(5u8)` *)
  match n with
  | NE (XUnaryOp UoNeg x) => is_bool_lit x || match x with XNumUnsigned _ _ => true | _ => false end
  | _ => false
  end.
Definition bad_index (n : node) : bool :=                   (* `a[true]` *)
  match n with NE (XArrayAccess _ i) => is_bool_lit i | _ => false end.
Definition bad_operands (n : node) : bool :=                (* `true + 1`, `1 == false` *)
  match n with
  | NE (XOp op x y) => uses_unify op && ((is_bool_lit x && is_num_lit y) || (is_num_lit x && is_bool_lit y))
  | _ => false
  end.
Definition bad_shift (n : node) : bool :=                   (* `x << true` *)
  match n with
  | NE (XOp BShiftLeft _ y) | NE (XOp BShiftRight _ y) => is_bool_lit y
  | _ => false
  end.
Definition bad_node (n : node) : bool :=
  bad_if n || bad_neg n || bad_index n || bad_operands n || bad_shift n.

Lemma bad_if_never_ok D n : bad_if n = true -> never_ok intern D n.
Proof.
  destruct n as [[]|]; try discriminate. cbn [bad_if]. intro H. apply never_ok_if.
  eapply always_ty_weaken; [|apply lit_num; exact H]. intros tt [[u ->]|[s0 ->]]; discriminate.
Qed.

Lemma bad_neg_never_ok D n : bad_neg n = true -> never_ok intern D n.
Proof.
  destruct n as [[]|]; try discriminate. cbn [bad_neg].
  match goal with |- context [match ?o with UoNot => _ | UoNeg => _ end] => destruct o end; [discriminate|].
  intro H. apply never_ok_neg. apply orb_true_iff in H. destruct H as [H|H].
  - eapply always_ty_weaken; [|apply lit_bool; exact H]. intros tt -> s0. discriminate.
  - match goal with |- always_ty _ ?x _ => destruct x; try discriminate end.
    eapply always_ty_weaken; [|apply always_ty_num_u]. intros ? -> s0. discriminate.
Qed.

Lemma bad_index_never_ok D n : bad_index n = true -> never_ok intern D n.
Proof.
  destruct n as [[]|]; try discriminate. cbn [bad_index]. intro H. apply never_ok_index.
  eapply always_ty_weaken; [|apply lit_bool; exact H]. intros tt ->. split; discriminate.
Qed.

Lemma bad_operands_never_ok D n : bad_operands n = true -> never_ok intern D n.
Proof.
  destruct n as [[]|]; try discriminate. cbn [bad_operands]. intro H.
  apply andb_true_iff in H. destruct H as [Hop H]. apply orb_true_iff in H.
  destruct H as [H|H]; apply andb_true_iff in H; destruct H as [Hl Hr].
  - eapply never_ok_op; [exact Hop|apply lit_bool; exact Hl|apply lit_num; exact Hr|].
    intros t1 t2 -> [[u ->]|[s0 ->]]; [destruct u|destruct s0]; reflexivity.
  - eapply never_ok_op; [exact Hop|apply lit_num; exact Hl|apply lit_bool; exact Hr|].
    intros t1 t2 [[u ->]|[s0 ->]] ->; [destruct u|destruct s0]; reflexivity.
Qed.

Lemma bad_shift_never_ok D n : bad_shift n = true -> never_ok intern D n.
Proof.
  destruct n as [[]|]; try discriminate. cbn [bad_shift].
  match goal with |- context [match ?o with BAdd => _ | _ => _ end] => destruct o end; try discriminate;
    (intro H; apply never_ok_shift; [auto|];
     eapply always_ty_weaken; [|apply lit_bool; exact H]; intros tt ->; split; discriminate).
Qed.

Lemma bad_node_never_ok D n : bad_node n = true -> never_ok intern D n.
Proof.
  unfold bad_node. intro H. repeat (apply orb_true_iff in H; destruct H as [H|H]).
  - apply bad_if_never_ok; assumption.
  - apply bad_neg_never_ok; assumption.
  - apply bad_index_never_ok; assumption.
  - apply bad_operands_never_ok; assumption.
  - apply bad_shift_never_ok; assumption.
Qed.

(* C17, syntactic form: a program that contains one of these nodes ANYWHERE (in any function,
   at any depth, in any context) is rejected *)
Theorem contains_bad_node_rejected fuel P n :
  NoDup (map uf_name (up_fns P)) -> occurs n P -> bad_node n = true ->
  is_ok (check_program_t intern fuel P) = false /\ is_ok (check_program intern fuel P) = false.
Proof.
  intros Hnd Hocc Hbad. eapply node_never_ok_program_rejected; eauto.
  intros D _. apply bad_node_never_ok. exact Hbad.
Qed.

(* C17, semantic form (one instance per rule): the node occurs anywhere and its operand can never
   have an admissible type *)
Theorem if_cond_never_bool_rejected fuel P c a b :
  NoDup (map uf_name (up_fns P)) -> occurs (NE (XIf c a b)) P ->
  (forall D, d_fns D = up_fns P -> always_ty D c (fun t => t <> CBool)) ->
  is_ok (check_program intern fuel P) = false.
Proof.
  intros Hnd Hocc Hc. eapply node_never_ok_program_rejected; eauto.
  intros D HD. apply never_ok_if. auto.
Qed.

Theorem operands_never_unify_rejected fuel P op x y (bx by_ : cty -> Prop) :
  NoDup (map uf_name (up_fns P)) -> occurs (NE (XOp op x y)) P -> uses_unify op = true ->
  (forall D, d_fns D = up_fns P -> always_ty D x bx /\ always_ty D y by_) ->
  (forall t1 t2, bx t1 -> by_ t2 -> unify_compat t1 t2 = false) ->
  is_ok (check_program intern fuel P) = false.
Proof.
  intros Hnd Hocc Hop Hxy Hbad. eapply node_never_ok_program_rejected; eauto.
  intros D HD. destruct (Hxy D HD). eapply never_ok_op; eauto.
Qed.

Theorem index_never_usize_rejected fuel P a i :
  NoDup (map uf_name (up_fns P)) -> occurs (NE (XArrayAccess a i)) P ->
  (forall D, d_fns D = up_fns P -> always_ty D i (fun t => t <> CUnsigned Usize /\ t <> CUnsigned UnspecifiedU)) ->
  is_ok (check_program intern fuel P) = false.
Proof.
  intros Hnd Hocc Hi. eapply node_never_ok_program_rejected; eauto.
  intros D HD. apply never_ok_index. auto.
Qed.

Theorem tuple_index_never_in_range_rejected fuel P e i n :
  NoDup (map uf_name (up_fns P)) -> occurs (NE (XTupleAccess e i)) P -> n <= i ->
  (forall D, d_fns D = up_fns P -> always_ty D e (fun t => exists ts, t = CTuple ts /\ lenN ts = n)) ->
  is_ok (check_program intern fuel P) = false.
Proof.
  intros Hnd Hocc Hi He. eapply node_never_ok_program_rejected; eauto.
  intros D HD. eapply never_ok_tuple_index; eauto.
Qed.

End Rules.

Print Assumptions child_acc.
Print Assumptions sub_acc.
Print Assumptions context_rejected.
Print Assumptions accepted_all_nodes.
Print Assumptions node_never_ok_program_rejected.
Print Assumptions contains_bad_node_rejected.
Print Assumptions if_cond_never_bool_rejected.
Print Assumptions operands_never_unify_rejected.
Print Assumptions index_never_usize_rejected.
Print Assumptions tuple_index_never_in_range_rejected.
