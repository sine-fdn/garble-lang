(* C07 for the type checker: the model of check.rs (Check/Infer.v) NEVER PANICS on a tree without
   an empty array literal and without a `match` without arms (part A), the model of the parser
   (Front/ParseExpr.v) never builds such a tree (Front/ParseWf.v, part B), hence the front end
   never panics (corollary, at the end of Front/ParseWf.v); fuel adequacy of the checker (part C). *)
From Coq Require Import Lia Bool.
From GV Require Import Base.Util Front.Scan Front.ParseExpr Check.UAst Check.Infer Check.InferProofs.
From GV Require Exhaust.Pat Exhaust.Useful.
Local Open Scope N_scope.

(* ================================================================ well-formed trees *)

Definition is_nil {A} (l : list A) : bool := match l with [] => true | _ => false end.

(* no `XArrayLiteral []`, no `XMatch _ []`, anywhere *)
Fixpoint wfb_x (e : xexpr) : bool :=
  match e with
  | XTrue | XFalse | XNumUnsigned _ _ | XNumSigned _ _ | XIdentifier _ | XRange _ _ _ => true
  | XArrayLiteral es => negb (is_nil es) && forallb wfb_x es
  | XArrayRepeatLiteral e _ => wfb_x e
  | XArrayRepeatLiteralConst e _ => wfb_x e
  | XArrayAccess a i => wfb_x a && wfb_x i
  | XTupleLiteral es => forallb wfb_x es
  | XTupleAccess e _ => wfb_x e
  | XStructAccess e _ => wfb_x e
  | XStructLiteral _ fs => forallb (fun f => wfb_x (snd f)) fs
  | XEnumLiteral _ _ None => true
  | XEnumLiteral _ _ (Some es) => forallb wfb_x es
  | XMatch e arms => wfb_x e && negb (is_nil arms) && forallb (fun a => wfb_x (snd a)) arms
  | XUnaryOp _ e => wfb_x e
  | XOp _ l r => wfb_x l && wfb_x r
  | XBlock b => forallb wfb_s b
  | XFnCall _ args => forallb wfb_x args
  | XJoin args => forallb wfb_x args
  | XIf c t e => wfb_x c && wfb_x t && wfb_x e
  | XCast _ e => wfb_x e
  end
with wfb_s (s : xstmt) : bool :=
  match s with
  | XSLet _ _ e => wfb_x e
  | XSLetMut _ _ e => wfb_x e
  | XSVarAssign _ accs e => forallb wfb_a accs && wfb_x e
  | XSForEach _ e body => wfb_x e && forallb wfb_s body
  | XSExpr e => wfb_x e
  end
with wfb_a (a : xaccessor) : bool :=
  match a with
  | XAArray i => wfb_x i
  | XATuple _ | XAStruct _ => true
  end.

Definition wf_x (e : xexpr) : Prop := wfb_x e = true.
Definition wf_s (s : xstmt) : Prop := wfb_s s = true.
Definition wf_a (a : xaccessor) : Prop := wfb_a a = true.
Definition wf_block (b : list xstmt) : Prop := forallb wfb_s b = true.
Definition wf_fn (fd : ufndef) : Prop := wf_block (uf_body fd).
Definition wfb_program (P : uprogram) : bool := forallb (fun fd => forallb wfb_s (uf_body fd)) (up_fns P).
Definition wf_program (P : uprogram) : Prop := wfb_program P = true.

(* ================================================================ part A: no panic *)

(* [av true r]: r is not the panic; [av false r]: r is not CNoFuel (part C).  The helper
   functions of the checker that use no fuel avoid both, with one proof. *)
Definition isb (w : bool) {A} (r : cres A) : bool :=
  match r with CErr c => (c =? E_Panic) && w | CNoFuel => negb w | _ => false end.
Definition av (w : bool) {A} (r : cres A) : Prop := isb w r = false.
Notation np := (av true).
Notation nf := (av false).

Lemma np_neq {A} (r : cres A) : np r -> r <> CErr E_Panic.
Proof. intros H E. subst r. discriminate H. Qed.
Lemma nf_neq {A} (r : cres A) : nf r -> r <> CNoFuel.
Proof. intros H E. subst r. discriminate H. Qed.

Lemma np_bind w {A B} (r : cres A) (k : A -> cres B) :
  av w r -> (forall a, r = COk a -> av w (k a)) -> av w (cbind r k).
Proof. intros Hr Hk. destruct r; cbn [cbind]; auto. Qed.

Lemma np_mapM w {A B} (f : A -> cres B) l : (forall x, av w (f x)) -> av w (mapM f l).
Proof.
  intro H. induction l as [|x l IH]; cbn [mapM]; [reflexivity|].
  apply np_bind; [apply H|]. intros a _. apply np_bind; [exact IH|]. intros; reflexivity.
Qed.

Lemma np_zipM w {A B} (f : A -> B -> cres A) : (forall x y, av w (f x y)) -> forall xs ys, av w (zipM f xs ys).
Proof.
  intro H. induction xs as [|x xs IH]; intros [|y ys]; cbn [zipM]; try reflexivity.
  apply np_bind; [apply H|]. intros a _. apply np_bind; [apply IH|]. intros; reflexivity.
Qed.

Lemma np_map_last_expr w f : (forall e, av w (f e)) -> forall b, av w (map_last_expr f b).
Proof.
  intro H. induction b as [|s b IH]; cbn [map_last_expr]; [reflexivity|].
  destruct b as [|s2 b2].
  - destruct s; try reflexivity. apply np_bind; [apply H|]. intros; reflexivity.
  - destruct s; (apply np_bind; [exact IH|]; intros; reflexivity).
Qed.

Lemma np_mapM_st w {S A B} (g : S -> A -> cres (B * S)) l :
  (forall st x, In x l -> av w (g st x)) -> forall st, av w (mapM_st g st l).
Proof.
  induction l as [|x l IH]; intros H st; cbn [mapM_st]; [reflexivity|].
  apply np_bind; [apply H; now left|]. intros a _. apply np_bind; [apply IH; intros; apply H; now right|].
  intros; reflexivity.
Qed.

Lemma mapM_st_length {S A B} (g : S -> A -> cres (B * S)) l : forall st r,
  mapM_st g st l = COk r -> length (fst r) = length l.
Proof.
  induction l as [|x l IH]; intros st r H; cbn [mapM_st] in H.
  - injection H as <-. reflexivity.
  - destruct (g st x) as [r1| | |]; cbn [cbind] in H; try discriminate H.
    destruct (mapM_st g (snd r1) l) as [r2| | |] eqn:E; cbn [cbind] in H; try discriminate H.
    injection H as <-. cbn [fst length]. f_equal. eapply IH. exact E.
Qed.

Create HintDb npdb.

(* the generic step: binds, matches, ifs; what is left are calls (closed by hints / hypotheses)
   and the panic sites *)
Ltac np_go :=
  repeat match goal with
  | |- av _ (COk _) => reflexivity
  | |- av _ (CErr _) => reflexivity
  | |- av _ COutside => reflexivity
  | |- av _ CNoFuel => reflexivity
  | |- av _ (cbind _ _) => apply np_bind; [|intros ? ?]
  | |- av _ (mapM _ _) => apply np_mapM; intros ?; cbv beta
  | |- av _ (zipM _ _ _) => apply np_zipM; intros ? ?; cbv beta
  | |- av _ (map_last_expr _ _) => apply np_map_last_expr; intros ?; cbv beta
  | |- av _ (if ?c then _ else _) => destruct c eqn:?
  | |- av _ (match ?x with _ => _ end) => destruct x eqn:?
  | |- av _ (let _ := _ in _) => cbv zeta
  | |- av _ (mapM_st _ _ _) => apply np_mapM_st; intros ? ? ?; cbv beta
  | |- av _ _ => solve [eauto with npdb]
  end.

Lemma np_as_concrete_type w sn en t : av w (as_concrete_type sn en t).
Proof.
  induction t using utype_ind'; cbn [as_concrete_type]; np_go.
  match goal with H : Forall _ ts |- _ => induction H as [|x xs Hx _ IHxs] end; np_go.
Qed.
#[local] Hint Resolve np_as_concrete_type : npdb.

Lemma np_concrete_of w D t : av w (concrete_of D t).
Proof. apply np_as_concrete_type. Qed.
#[local] Hint Resolve np_concrete_of : npdb.

Lemma np_expect_array_type w t : av w (expect_array_type t). Proof. destruct t; reflexivity. Qed.
Lemma np_expect_struct_type w t : av w (expect_struct_type t). Proof. destruct t; reflexivity. Qed.
Lemma np_expect_tuple_type w t : av w (expect_tuple_type t). Proof. destruct t; reflexivity. Qed.
Lemma np_expect_num_type w t : av w (expect_num_type t). Proof. destruct t; reflexivity. Qed.
Lemma np_expect_signed_num_type w t : av w (expect_signed_num_type t). Proof. destruct t; reflexivity. Qed.
Lemma np_expect_bool_or_num_type w t : av w (expect_bool_or_num_type t). Proof. destruct t; reflexivity. Qed.
Lemma np_expect_pattern_num_in_range w n t : av w (expect_pattern_num_in_range n t).
Proof. unfold expect_pattern_num_in_range. np_go. Qed.
#[local] Hint Resolve np_expect_array_type np_expect_struct_type np_expect_tuple_type np_expect_num_type
  np_expect_signed_num_type np_expect_bool_or_num_type np_expect_pattern_num_in_range : npdb.

Lemma np_coc_unsigned w e t : av w (check_or_constrain_unsigned e t).
Proof. unfold check_or_constrain_unsigned. np_go. Qed.
Lemma np_coc_signed w e t : av w (check_or_constrain_signed e t).
Proof. unfold check_or_constrain_signed. np_go. Qed.
#[local] Hint Resolve np_coc_unsigned np_coc_signed : npdb.

Lemma np_constrain_type f : forall e t, np (constrain_type f e t).
Proof.
  induction f as [|f IH]; intros e t; cbn [constrain_type]; [reflexivity|]. np_go.
Qed.
#[local] Hint Resolve np_constrain_type : npdb.

Lemma np_check_type f e t : np (check_type f e t).
Proof. unfold check_type. np_go. Qed.
#[local] Hint Resolve np_check_type : npdb.

(* fix 64720dd: the deep versions may run constrain_type, which never panics (but needs fuel: np only) *)
Lemma np_coc_unsigned_deep f e t : np (coc_unsigned_deep f e t).
Proof. unfold coc_unsigned_deep. np_go. Qed.
Lemma np_coc_signed_deep f e t : np (coc_signed_deep f e t).
Proof. unfold coc_signed_deep. np_go. Qed.
#[local] Hint Resolve np_coc_unsigned_deep np_coc_signed_deep : npdb.

Lemma np_unify f a b : np (unify f a b).
Proof. unfold unify. np_go. Qed.
#[local] Hint Resolve np_unify : npdb.

Lemma np_constrain_to_i32 f : forall b, np (constrain_to_i32 f b).
Proof.
  induction f as [|f IH]; intros b; cbn [constrain_to_i32]; [reflexivity|]. np_go.
Qed.
#[local] Hint Resolve np_constrain_to_i32 : npdb.

(* ---------------------------------------------------------------- patterns *)

Lemma np_fields_loop w D fs : Forall (fun p => forall g ty, av w (check_pattern D g p ty)) fs ->
  forall ts g, av w (pat_fields_loop D fs ts g).
Proof.
  induction 1 as [|q fs Hq Hfs IHfs]; intros ts g; [reflexivity|].
  destruct ts as [|t ts]; [reflexivity|]. cbn [pat_fields_loop]. np_go.
Qed.

Lemma np_struct_loop w D sd fs : Forall (fun f => forall g ty, av w (check_pattern D g (snd f) ty)) fs ->
  forall seen g, av w (pat_struct_loop D sd seen fs g).
Proof.
  induction 1 as [|[fname fp] fs Hq Hfs IHfs]; intros seen g; [reflexivity|]. cbn [snd] in Hq. cbn [pat_struct_loop]. np_go.
Qed.

Lemma np_check_pattern w D : forall p g ty, av w (check_pattern D g p ty).
Proof.
  induction p using upattern_ind'; intros g ty; cbn [check_pattern]; np_go;
    try (apply np_fields_loop; assumption); try (apply np_struct_loop; assumption).
Qed.
#[local] Hint Resolve np_check_pattern : npdb.

Section NoPanic.
Variable intern : list N -> N.
Notation check_expr := (check_expr intern).
Notation check_stmt := (check_stmt intern).
Notation check_stmts := (check_stmts intern).
Notation check_block := (check_block intern).
Notation check_fn := (check_fn intern).

Lemma np_check_exhaustiveness D ps ty : np (check_exhaustiveness intern D ps ty).
Proof. unfold check_exhaustiveness. np_go. Qed.
Hint Resolve np_check_exhaustiveness : npdb.

Lemma np_accs_loop ce fu D : forall accs,
  (forall st a, In a accs -> match a with XAArray i => np (ce st i) | _ => True end) ->
  forall st t, np (accs_loop ce fu D st t accs).
Proof.
  induction accs as [|a accs IH]; intros H st t; cbn [accs_loop]; [reflexivity|].
  assert (IH' : forall st t, np (accs_loop ce fu D st t accs)) by (apply IH; intros; apply H; now right).
  pose proof (fun st => H st a (or_introl eq_refl)) as Ha. clear H IH.
  destruct a; np_go.
Qed.

Lemma np_struct_lit_loop ce f sd : forall fields,
  (forall st fl, In fl fields -> np (ce st (snd fl))) ->
  forall seen st, np (struct_lit_loop ce f sd seen st fields).
Proof.
  induction fields as [|[fname fv] fields IH]; intros H seen st; cbn [struct_lit_loop]; [reflexivity|].
  assert (IH' : forall seen st, np (struct_lit_loop ce f sd seen st fields)) by (apply IH; intros; apply H; now right).
  pose proof (fun st => H st (fname, fv) (or_introl eq_refl)) as Ha. cbn [snd] in Ha. clear H IH.
  np_go.
Qed.
Lemma forallb_In {A} (p : A -> bool) l x : forallb p l = true -> In x l -> p x = true.
Proof. intro H. rewrite forallb_forall in H. apply H. Qed.

Lemma wf_In es x : forallb wfb_x es = true -> In x es -> wfb_x x = true.
Proof. apply forallb_In. Qed.
Lemma wf_In_snd {A} (es : list (A * xexpr)) x : forallb (fun a => wfb_x (snd a)) es = true -> In x es -> wfb_x (snd x) = true.
Proof. apply (forallb_In (fun a => wfb_x (snd a))). Qed.
Lemma wf_In_s b x : forallb wfb_s b = true -> In x b -> wfb_s x = true.
Proof. apply forallb_In. Qed.
Hint Resolve wf_In wf_In_snd wf_In_s : npdb.

Ltac wfsplit H :=
  unfold wf_x, wf_s, wf_a, wf_block, wf_fn in H; cbn [wfb_x wfb_s wfb_a] in H;
  repeat (rewrite andb_true_iff in H; let H2 := fresh "W" in destruct H as [H H2]).

Lemma find_In {A} (p : A -> bool) l x : find p l = Some x -> In x l.
Proof. induction l as [|y l IH]; cbn [find]; [discriminate|]. destruct (p y); [intros [= <-]; now left|right; auto]. Qed.

Lemma np_params_loop w D : forall ps seen g, av w (params_loop D seen ps g).
Proof. induction ps as [|p ps IH]; intros seen g; cbn [params_loop]; np_go. Qed.

(* THE CHECKER NEVER PANICS ON WELL-FORMED TREES (all function bodies well-formed: a call
   checks the callee) *)
Theorem np_check D : Forall wf_fn (d_fns D) -> forall f,
  (forall st e, wf_x e -> np (check_expr f D st e)) /\
  (forall st b, wf_block b -> np (check_stmts f D st b)) /\
  (forall st b, wf_block b -> np (check_block f D st b)) /\
  (forall st s, wf_s s -> np (check_stmt f D st s)) /\
  (forall st fd, wf_fn fd -> np (check_fn f D st fd)).
Proof.
  intros HD. induction f as [|f IH].
  { repeat split; intros; reflexivity. }
  destruct IH as (IHe & IHss & IHb & IHs & IHf).
  split; [|split; [|split; [|split]]].
  - intros st e W. rewrite check_expr_S. destruct e; cbn [expr_step]; unfold call_prefix, match_tail, match_arm, arm_retype; wfsplit W; unfold wf_x, wf_s, wf_block, wf_fn in *.
    all: try solve [np_go].
    all: np_go.
    all: try (exfalso;
              match goal with H : mapM_st _ _ _ = COk ?a, E : fst ?a = [] |- _ =>
                apply mapM_st_length in H; rewrite E in H end;
              match goal with W : negb (is_nil ?l) = true, H : length _ = length ?l |- _ =>
                destruct l; [discriminate W|discriminate H] end).
    all: try (apply np_struct_lit_loop; intros; apply IHe; eauto with npdb).
    all: try (apply IHf; rewrite Forall_forall in HD; apply HD; eapply find_In; eassumption).
  - intros st b W. rewrite check_stmts_S. unfold wf_x, wf_s, wf_block, wf_fn in *. np_go.
  - intros st b W. rewrite check_block_S. unfold wf_x, wf_s, wf_block, wf_fn in *. np_go.
  - intros st s W. rewrite check_stmt_S. destruct s; cbn [stmt_step]; unfold annot; wfsplit W; unfold wf_x, wf_s, wf_block, wf_fn in *.
    all: np_go.
    all: try (apply np_accs_loop; intros ? a0 Hin; destruct a0; try exact Logic.I; apply IHe;
              match goal with W : forallb wfb_a _ = true |- _ => apply (forallb_In _ _ _ W Hin) end).
  - intros st fd W. rewrite check_fn_S. unfold fn_step, ret_check, wf_x, wf_s, wf_block, wf_fn in *. np_go.
    apply np_params_loop.
Qed.
Lemma np_contains_type_def structs enums target f : forall visited ty,
  np (contains_type_def f structs enums target visited ty).
Proof.
  induction f as [|f IH]; intros visited ty; cbn [contains_type_def]; [reflexivity|].
  assert (Hany : forall tys visited,
    np ((fix go (tys : list cty) (visited : list (list N)) : cres (bool * list (list N)) :=
          match tys with
          | [] => COk (false, visited)
          | t :: r =>
              do r1 <- contains_type_def f structs enums target visited t;
              if fst r1 then COk r1 else go r (snd r1)
          end) tys visited)).
  { induction tys as [|t tys IHt]; intros v; np_go. }
  np_go; apply Hany.
Qed.
Hint Resolve np_contains_type_def : npdb.

Lemma np_check_struct_def w sn en sd : av w (check_struct_def sn en sd).
Proof.
  unfold check_struct_def. np_go. generalize (@nil (list N)).
  induction (us_fields sd) as [|[n t] fs IH]; intros seen; np_go.
Qed.

Lemma np_check_enum_def w sn en ed : av w (check_enum_def sn en ed).
Proof.
  unfold check_enum_def. np_go. generalize (@nil (list N)).
  induction (ue_variants ed) as [|v vs IH]; intros seen; np_go.
Qed.
Hint Resolve np_check_struct_def np_check_enum_def : npdb.

Lemma np_const_lit w v ty done : av w (const_lit v ty done).
Proof. unfold const_lit. np_go. Qed.
Hint Resolve np_const_lit : npdb.

Lemma np_check_consts w : forall cs done, av w (check_consts cs done).
Proof. induction cs as [|c cs IH]; intros done; cbn [check_consts]; np_go. Qed.
Hint Resolve np_check_consts : npdb.

Lemma np_pub_loop D fuel : Forall wf_fn (d_fns D) -> forall fns, Forall wf_fn fns -> forall st,
  np (pub_loop_fn intern fuel D fns st).
Proof.
  intros HDD fns HD. induction HD as [|fd fns Hfd _ IHf]; intros st; cbn [pub_loop_fn]; np_go.
  apply (np_check D HDD fuel). exact Hfd.
Qed.

(* (A) NO PANIC: on a program whose function bodies contain no empty array literal and no
   match without arms, the checker never reaches one of its two `.first().unwrap()` on an
   empty vector -- and the model has no other panic site. *)
Theorem no_panic_t P : wf_program P -> forall fuel, check_program_t intern fuel P <> CErr E_Panic.
Proof.
  intros W fuel. apply np_neq. rewrite check_program_t_unfold. unfold rec_check. cbv zeta.
  np_go.
  assert (HD : Forall wf_fn (up_fns P))
    by (apply Forall_forall; intros fd Hfd; apply (forallb_In _ _ _ W Hfd)).
  apply np_pub_loop; assumption.
Qed.

Theorem no_panic P : wf_program P -> forall fuel, check_program intern fuel P <> CErr E_Panic.
Proof.
  intros W fuel. unfold check_program. pose proof (no_panic_t P W fuel) as H.
  destruct (check_program_t intern fuel P) as [T|c| |]; cbn [cbind]; try discriminate.
  intro E. apply H. injection E as ->. reflexivity.
Qed.
End NoPanic.

Print Assumptions no_panic_t.
Print Assumptions no_panic.
