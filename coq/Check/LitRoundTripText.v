(* THE ROUND TRIP OF Check/LitRoundTrip.v FOR VALUES OF THE TYPE, AND THROUGH THE TEXT.

   (1) [is_of_type_rt_ok]   a literal that `is_of_type` accepts at the (resolved) type of T, in a
                            printable form ([printable_value]: no empty array, the sign condition
                            on arrays of aggregates, ranges non-empty and of at most u32::MAX
                            elements), over definitions whose names are interned injectively
                            ([D_names_ok]) is in the class [rt_ok] of the round-trip theorem;
       [value_roundtrip]    hence: printing a value of the type and parsing the tokens back yields it;
       [has_type_plain]     a canonical value of a type ([has_type]: what the decoder produces)
                            contains no LRange / LRepeat spelling; [canonical_value_roundtrip].
   (2) [literal_parse_tokens_unloc]  Literal::parse does not look at the token locations
                            (from Front/ParseUnloc.v: the parser reads the kinds only);
       [roundtrip_text]     rt_ok .. l T = true -> the printed tokens are printable ->
                            literal_parse intern D T (print_tokens (map kind (lit_tokens unintern l))) = COk l
                            (print_tokens separates the tokens by single spaces);
       [printable_tokens]   when the printed tokens are printable: automatic for the numbers of a
                            value of the type; names must be identifiers, repeat sizes <= u64::MAX,
                            range bounds within their suffix;
       [display_spacing]    examples: the text with the spacing of the real `Display` ([lit_text])
                            scans to the same token kinds. *)
From Coq Require Import ZArith List String Lia.
Import ListNotations.
From GV Require Import Base.Util Front.Scan Front.ScanPrint Front.ParseExpr Front.ParseTotal Check.UAst Check.Infer
  Check.InferProofs Check.LitParse Check.LitParseProofs Check.LitRoundTrip.
From GV Require Front.ParseUnloc Lang.Types Lang.Literal Lang.LiteralProofs.
Local Open Scope N_scope.

(* ------------------------------------------------------------------ (2a) Literal::parse ignores locations *)

(* Literal::parse after the scanner only depends on the KINDS of the tokens *)
Theorem literal_parse_tokens_unloc intern D T ts ts' : map kind ts = map kind ts' ->
  literal_parse_tokens intern D T ts = literal_parse_tokens intern D T ts'.
Proof.
  intro H. unfold literal_parse_tokens.
  assert (Hl : length ts = length ts') by (rewrite <- (map_length kind ts), H; apply map_length).
  unfold fuel_for_tokens, lit_fuel. rewrite Hl.
  rewrite <- (ParseUnloc.parse_literal_text_unloc _ ts), <- (ParseUnloc.parse_literal_text_unloc _ ts'), (unloc_kind _ _ H).
  reflexivity.
Qed.
Print Assumptions literal_parse_tokens_unloc.

(* ------------------------------------------------------------------ (2b) through the text *)

Theorem roundtrip_text intern unintern D l T : rt_ok intern unintern D l T = true ->
  Forall tok_printable (map kind (lit_tokens unintern l)) ->
  literal_parse intern D T (print_tokens (map kind (lit_tokens unintern l))) = COk l.
Proof.
  intros Hok Hp. destruct (scan_print _ Hp) as (ts' & Hs & Hk). unfold literal_parse. rewrite Hs.
  rewrite (literal_parse_tokens_unloc intern D T ts' (lit_tokens unintern l) Hk). now apply roundtrip.
Qed.
Print Assumptions roundtrip_text.

(* ---- when the printed tokens are printable *)
Section Printable.
  Variable unintern : N -> list N.
  Notation ltoks := (lit_tokens unintern).
  Notation mtoks := (more_tokens unintern).
  Notation ftoks := (more_fields unintern).

  Definition ident_ok (n : N) : Prop := tok_printable (Scan.TIdentifier (unintern n)).

  (* numbers the scanner can read; names that are identifiers; repeat sizes and range bounds *)
  Fixpoint aux_ok (nums : bool) (l : LL.lit) : Prop :=
    match l with
    | LL.LTrue | LL.LFalse => True
    | LL.LUnsigned n _ => nums = true -> n <= u64_max
    | LL.LSigned z _ => nums = true -> if (z <? 0)%Z then Z.abs_N z <= i64_min_abs else Z.to_N z <= u64_max
    | LL.LRepeat e n => n <= u64_max /\ aux_ok nums e
    | LL.LArray es | LL.LTuple es => aux_oks nums es
    | LL.LStruct n fs => ident_ok n /\ aux_okf nums fs
    | LL.LEnumUnit n v => ident_ok n /\ ident_ok v
    | LL.LEnumTuple n v es => ident_ok n /\ ident_ok v /\ aux_oks nums es
    | LL.LRange mn mx u => mn <= ubound (unum_of u) /\ mx <= ubound (unum_of u)
    end
  with aux_oks (nums : bool) (es : LL.lits) : Prop :=
    match es with LL.LsNil => True | LL.LsCons e r => aux_ok nums e /\ aux_oks nums r end
  with aux_okf (nums : bool) (fs : LL.lfields) : Prop :=
    match fs with LL.LFNil => True | LL.LFCons f v r => ident_ok f /\ aux_ok nums v /\ aux_okf nums r end.

  Definition PK (ts : list token) : Prop := Forall tok_printable (map kind ts).
  Lemma PK_app a b : PK a -> PK b -> PK (a ++ b).
  Proof. unfold PK. intros. rewrite map_app. now apply Forall_app. Qed.
  Lemma PK_cons t r : tok_printable t -> PK r -> PK (tk t :: r).
  Proof. unfold PK. intros. cbn [map kind tk]. now constructor. Qed.
  Lemma PK_nil : PK []. Proof. constructor. Qed.
  Lemma PK_true : tok_printable (Scan.TIdentifier s_true).
  Proof. cbn [tok_printable]. split; [repeat constructor|split; reflexivity]. Qed.
  Lemma PK_false : tok_printable (Scan.TIdentifier s_false).
  Proof. cbn [tok_printable]. split; [repeat constructor|split; reflexivity]. Qed.

  Ltac pk := repeat first [ assumption | apply PK_nil | apply PK_app | apply PK_cons | exact I ].

  Lemma printable_mut :
    (forall l, aux_ok true l -> PK (ltoks l)) /\
    (forall es, aux_oks true es -> PK (mtoks es) /\ match es with LL.LsNil => True | LL.LsCons e r => PK (ltoks e) /\ PK (mtoks r) end) /\
    (forall fs, aux_okf true fs -> PK (ftoks fs) /\
                match fs with LL.LFNil => True | LL.LFCons f v r => ident_ok f /\ PK (ltoks v) /\ PK (ftoks r) end).
  Proof.
    apply LiteralProofs.lit_mutind.
    - intros _. apply PK_cons; [apply PK_true|apply PK_nil].
    - intros _. apply PK_cons; [apply PK_false|apply PK_nil].
    - intros n u H. apply PK_cons; [|apply PK_nil]. cbn [tok_printable ubound]. exact (H eq_refl).
    - intros z s H. specialize (H eq_refl). apply PK_cons; [|apply PK_nil]. unfold signed_token.
      destruct (z <? 0)%Z eqn:Ez; cbn [tok_printable]; [rewrite Ez|]; exact H.
    - intros e IH n [Hn He]. rewrite ltoks_repeat. specialize (IH He). pk.
    - intros es IH H. destruct es as [|e r]; [change (PK [tk TLeftBracket; tk TRightBracket]); pk|].
      destruct (IH H) as (_ & H1 & H2). rewrite ltoks_array. pk.
    - intros es IH H. destruct es as [|e r]; [change (PK [tk TLeftParen; tk TRightParen]); pk|].
      destruct (IH H) as (_ & H1 & H2). destruct r as [|e2 r2]; [rewrite ltoks_tuple1|rewrite ltoks_tuple2]; pk.
    - intros n fs IH [Hn H]. destruct fs as [|f v r].
      + change (PK [tk (Scan.TIdentifier (unintern n)); tk TLeftBrace; tk TRightBrace]). pk.
      + destruct (IH H) as (_ & Hf & H1 & H2). rewrite ltoks_struct. pk.
    - intros n v [Hn Hv].
      change (PK [tk (Scan.TIdentifier (unintern n)); tk TDoubleColon; tk (Scan.TIdentifier (unintern v))]). pk.
    - intros n v es IH (Hn & Hv & H). destruct es as [|e r].
      + change (PK [tk (Scan.TIdentifier (unintern n)); tk TDoubleColon; tk (Scan.TIdentifier (unintern v)); tk TLeftParen; tk TRightParen]). pk.
      + destruct (IH H) as (_ & H1 & H2). rewrite ltoks_enum. pk.
    - intros mn mx u [H1 H2].
      change (PK [tk (TUnsignedNum mn (unum_of u)); tk TDoubleDot; tk (TUnsignedNum mx (unum_of u))]). pk.
    - intros _. split; [apply PK_nil|exact I].
    - intros e IHe r IHr [He Hr]. specialize (IHe He). destruct (IHr Hr) as [Hm _].
      split; [|split; assumption]. rewrite mtoks_cons. pk.
    - intros _. split; [apply PK_nil|exact I].
    - intros f v IHv r IHr (Hf & Hv & Hr). specialize (IHv Hv). destruct (IHr Hr) as [Hm _].
      split; [|split; [exact Hf|split; assumption]]. rewrite ftoks_cons. pk.
  Qed.
End Printable.

Section PrintableValues.
  Variable intern : list N -> N.
  Variable unintern : N -> list N.
  Variable D : defs.
  Notation rtok := (rt_ok intern unintern D).
  Notation rtall := (rt_all intern unintern D).
  Notation rtzip := (rt_zip intern unintern D).
  Notation rtf := (rt_fields intern unintern D).

  (* the numbers of a value of the type are within the scanner's bounds *)
  Lemma nums_auto_mut :
    (forall l T, rtok l T = true -> aux_ok unintern false l -> aux_ok unintern true l) /\
    (forall es, (forall T, rtall es T = true -> aux_oks unintern false es -> aux_oks unintern true es) /\
                (forall Ts, rtzip es Ts = true -> aux_oks unintern false es -> aux_oks unintern true es)) /\
    (forall fs def, rtf fs def = true -> aux_okf unintern false fs -> aux_okf unintern true fs).
  Proof.
    apply rt_ok_ind; try (intros; exact I); try (intros; assumption).
    - (* unsigned *) intros n u Hfit _. cbn [aux_ok]. intros _. unfold u_fits in Hfit.
      destruct (unsigned_max u) as [mx|] eqn:Em; [|discriminate Hfit]. apply N.leb_le in Hfit.
      destruct u; try discriminate Em; injection Em as <-; unfold u64_max, u32_max in *; lia.
    - (* signed *) intros z s Hfit _. cbn [aux_ok]. intros _. unfold s_fits in Hfit.
      destruct (signed_min s) as [mn|] eqn:En; [|discriminate Hfit].
      destruct (signed_max s) as [mx|] eqn:Em; [|discriminate Hfit].
      apply andb_prop in Hfit as [Hlo Hhi]. apply Z.leb_le in Hlo. apply Z.leb_le in Hhi.
      destruct (z <? 0)%Z eqn:Ez.
      + apply Z.ltb_lt in Ez. destruct s; try discriminate En; injection En as <-; unfold i64_min_abs; lia.
      + apply Z.ltb_ge in Ez. destruct s; try discriminate Em; injection Em as <-; unfold u64_max; lia.
    - (* repeat *) intros e n ET _ IH [Hn He]. split; [exact Hn|exact (IH He)].
    - (* array *) intros e r ET _ IH _. exact IH.
    - (* tuple *) intros es Ts _ IH. exact IH.
    - (* struct *) intros n fs def _ _ _ _ _ IH [Hn H]. split; [exact Hn|exact (IH H)].
    - (* enum, tuple *) intros n v es vs tys _ _ _ _ _ _ IH (Hn & Hv & H). split; [exact Hn|]. split; [exact Hv|exact (IH H)].
    - intros e r T _ IHe _ IHr [He Hr]. split; [exact (IHe He)|exact (IHr Hr)].
    - intros e r T Tr _ IHe _ IHr [He Hr]. split; [exact (IHe He)|exact (IHr Hr)].
    - intros f v r ft dr _ _ IHv _ IHr (Hf & Hv & Hr). split; [exact Hf|]. split; [exact (IHv Hv)|exact (IHr Hr)].
  Qed.

  (* the printed tokens of a value of the type are printable as soon as its names are identifiers,
     its repeat sizes are <= u64::MAX and its range bounds are within their suffix *)
  Theorem printable_tokens l T : rtok l T = true -> aux_ok unintern false l ->
    Forall tok_printable (map kind (lit_tokens unintern l)).
  Proof.
    intros Hok Ha. apply (proj1 (printable_mut unintern) l). exact (proj1 nums_auto_mut l T Hok Ha).
  Qed.

  Corollary roundtrip_text_value l T : rtok l T = true -> aux_ok unintern false l ->
    literal_parse intern D T (print_tokens (map kind (lit_tokens unintern l))) = COk l.
  Proof. intros Hok Ha. apply roundtrip_text; [exact Hok|now apply (printable_tokens l T)]. Qed.
End PrintableValues.
Print Assumptions roundtrip_text_value.

(* ------------------------------------------------------------------ (1) values of the type are in the class of the round trip *)

Section Values.
  Variable intern : list N -> N.
  Variable unintern : N -> list N.
  Variable D : defs.
  Notation rty := (rty_of_cty intern D).

  (* the local loops of rty_of_cty, named *)
  Definition rtys_of (f : nat) : list cty -> option LT.rtys :=
    fix go (ts : list cty) : option LT.rtys :=
      match ts with
      | [] => Some LT.RsNil
      | x :: r => match rty f x, go r with Some x', Some r' => Some (LT.RsCons x' r') | _, _ => None end
      end.
  Definition rfields_of (f : nat) : list (list N * cty) -> option LT.rfields :=
    fix go (fs : list (list N * cty)) : option LT.rfields :=
      match fs with
      | [] => Some LT.RFNil
      | (fname, ft) :: r =>
          match rty f ft, go r with Some ft', Some r' => Some (LT.RFCons (intern fname) ft' r') | _, _ => None end
      end.
  Definition rvariants_of (f : nat) : list (list N * option (list cty)) -> option LT.rvariants :=
    fix go (vs : list (list N * option (list cty))) : option LT.rvariants :=
      match vs with
      | [] => Some LT.RVNil
      | (vname, None) :: r => match go r with Some r' => Some (LT.RVUnit (intern vname) r') | None => None end
      | (vname, Some tys) :: r =>
          match rtys_of f tys, go r with Some tys', Some r' => Some (LT.RVTuple (intern vname) tys' r') | _, _ => None end
      end.

  Lemma rty_array f e n : rty (S f) (CArray e n) = match rty f e with Some e' => Some (LT.RArray e' n) | None => None end.
  Proof. reflexivity. Qed.
  Lemma rty_tuple f ts : rty (S f) (CTuple ts) = match rtys_of f ts with Some ts' => Some (LT.RTuple ts') | None => None end.
  Proof. reflexivity. Qed.
  Lemma rty_struct f name : rty (S f) (CStruct name) =
    match assocL name (d_structs D) with
    | Some def => match rfields_of f def with Some fs' => Some (LT.RStruct (intern name) fs') | None => None end
    | None => None
    end.
  Proof. reflexivity. Qed.
  Lemma rty_enum f name : rty (S f) (CEnum name) =
    match assocL name (d_enums D) with
    | Some vs => match rvariants_of f vs with Some vs' => Some (LT.REnum (intern name) vs') | None => None end
    | None => None
    end.
  Proof. reflexivity. Qed.

  Lemma rty_inv f T r : rty (S f) T = Some r ->
    match T with
    | CBool => r = LT.RBool
    | CUnsigned u => r = LT.RUnsigned (uty_of u)
    | CSigned s => r = LT.RSigned (sty_of s)
    | CArray e n => exists e', rty f e = Some e' /\ r = LT.RArray e' n
    | CTuple ts => exists ts', rtys_of f ts = Some ts' /\ r = LT.RTuple ts'
    | CStruct name => exists def fs', assocL name (d_structs D) = Some def /\ rfields_of f def = Some fs' /\
                                      r = LT.RStruct (intern name) fs'
    | CEnum name => exists vs vs', assocL name (d_enums D) = Some vs /\ rvariants_of f vs = Some vs' /\
                                   r = LT.REnum (intern name) vs'
    end.
  Proof.
    destruct T.
    - intros [= <-]; reflexivity.
    - intros [= <-]; reflexivity.
    - intros [= <-]; reflexivity.
    - rewrite rty_array. destruct (rty f T) as [e'|]; [|discriminate]. intros [= <-]. eexists; split; reflexivity.
    - rewrite rty_tuple. destruct (rtys_of f ts) as [ts'|]; [|discriminate]. intros [= <-]. eexists; split; reflexivity.
    - rewrite rty_struct. destruct (assocL name (d_structs D)) as [def|]; [|discriminate].
      destruct (rfields_of f def) as [fs'|] eqn:Ef; [|discriminate]. intros [= <-].
      exists def, fs'. split; [reflexivity|split; [exact Ef|reflexivity]].
    - rewrite rty_enum. destruct (assocL name (d_enums D)) as [vs|]; [|discriminate].
      destruct (rvariants_of f vs) as [vs'|] eqn:Ev; [|discriminate]. intros [= <-].
      exists vs, vs'. split; [reflexivity|split; [exact Ev|reflexivity]].
  Qed.

  (* ---- the printable forms of a value *)
  Fixpoint printable_value (l : LL.lit) : bool :=
    match l with
    | LL.LRepeat e _ => printable_value e
    | LL.LArray es =>
        match es with LL.LsNil => false | _ => true end && (all_num es || uniform (pts unintern es)) && printable_values es
    | LL.LTuple es | LL.LEnumTuple _ _ es => printable_values es
    | LL.LStruct _ fs => printable_fields fs
    | LL.LRange mn mx _ => (mn <? mx) && (mx - mn <=? u32_max)
    | _ => true
    end
  with printable_values (es : LL.lits) : bool :=
    match es with LL.LsNil => true | LL.LsCons e r => printable_value e && printable_values r end
  with printable_fields (fs : LL.lfields) : bool :=
    match fs with LL.LFNil => true | LL.LFCons _ v r => printable_value v && printable_fields r end.

  (* ---- the names of the definitions: interned injectively (unintern inverts intern on them), struct
     and enum names are not `true` / `false`, struct fields in name order *)
  Definition name_good (x : list N) : Prop := unintern (intern x) = x.
  Definition D_names_ok : Prop :=
    (forall name def, assocL name (d_structs D) = Some def ->
       name_good name /\ not_bool_name name = true /\ names_ok (map fst def) = true /\
       forall f, In f (map fst def) -> name_good f) /\
    (forall name vs, assocL name (d_enums D) = Some vs ->
       name_good name /\ not_bool_name name = true /\ forall v, In v (map fst vs) -> name_good v).

  (* a variant found by its interned name is the variant of that (byte) name *)
  Lemma find_variant_assoc f : forall vs vs' v i j info, rvariants_of f vs = Some vs' ->
    LT.find_variant vs' v i = Some (j, info) ->
    exists vname, intern vname = v /\ In vname (map fst vs) /\
      match info with
      | LT.VIUnit => assocL vname vs = Some None
      | LT.VITuple ts' => exists tys, assocL vname vs = Some (Some tys) /\ rtys_of f tys = Some ts'
      end.
  Proof.
    induction vs as [|[vname0 payload] r IH]; intros vs' v i j info Hr Hf.
    - injection Hr as <-. discriminate Hf.
    - cbn [rvariants_of] in Hr. fold (rvariants_of f) in Hr. destruct payload as [tys|].
      + destruct (rtys_of f tys) as [tys'|] eqn:Et; [|discriminate Hr].
        destruct (rvariants_of f r) as [r'|] eqn:Er; [|discriminate Hr]. injection Hr as <-.
        cbn [LT.find_variant] in Hf. destruct (N.eqb_spec (intern vname0) v) as [E|E].
        * injection Hf as _ <-. exists vname0. split; [exact E|]. split; [now left|].
          exists tys. cbn [assocL]. rewrite list_eqb_refl. auto.
        * destruct (IH r' v (i + 1) j info eq_refl Hf) as (vname & E1 & Hin & E2).
          exists vname. split; [exact E1|]. split; [now right|].
          assert (Hne : list_eqb vname vname0 = false).
          { destruct (list_eqb vname vname0) eqn:El; [|reflexivity]. apply list_eqb_eq in El. subst. contradiction. }
          destruct info; cbn [assocL]; rewrite Hne; exact E2.
      + destruct (rvariants_of f r) as [r'|] eqn:Er; [|discriminate Hr]. injection Hr as <-.
        cbn [LT.find_variant] in Hf. destruct (N.eqb_spec (intern vname0) v) as [E|E].
        * injection Hf as _ <-. exists vname0. split; [exact E|]. split; [now left|].
          cbn [assocL]. now rewrite list_eqb_refl.
        * destruct (IH r' v (i + 1) j info eq_refl Hf) as (vname & E1 & Hin & E2).
          exists vname. split; [exact E1|]. split; [now right|].
          assert (Hne : list_eqb vname vname0 = false).
          { destruct (list_eqb vname vname0) eqn:El; [|reflexivity]. apply list_eqb_eq in El. subst. contradiction. }
          destruct info; cbn [assocL]; rewrite Hne; exact E2.
  Qed.

  Notation rtok := (rt_ok intern unintern D).
  Notation rtall := (rt_all intern unintern D).
  Notation rtzip := (rt_zip intern unintern D).
  Notation rtf := (rt_fields intern unintern D).

  Hypothesis HD : D_names_ok.

  Definition Vst (l : LL.lit) : Prop := forall T r fuel,
    LL.is_of_type l r = true -> rty fuel T = Some r -> printable_value l = true -> rtok l T = true.
  Definition Vall (es : LL.lits) : Prop := forall ET et fuel,
    LL.all_of_type es et = true -> rty fuel ET = Some et -> printable_values es = true -> rtall es ET = true.
  Definition Vzip (es : LL.lits) : Prop := forall Ts ts' fuel,
    LL.zip_of_type es ts' = true -> rtys_of fuel Ts = Some ts' -> printable_values es = true -> rtzip es Ts = true.
  Definition Vfld (fs : LL.lfields) : Prop := forall def fs' fuel,
    LL.fields_of_type fs fs' = true -> rfields_of fuel def = Some fs' -> (forall f, In f (map fst def) -> name_good f) ->
    printable_fields fs = true -> rtf fs def = true.

  Lemma rtys_of_cons f x r : rtys_of f (x :: r) =
    match rty f x, rtys_of f r with Some x', Some r' => Some (LT.RsCons x' r') | _, _ => None end.
  Proof. reflexivity. Qed.
  Lemma rfields_of_cons f fname ft r : rfields_of f ((fname, ft) :: r) =
    match rty f ft, rfields_of f r with Some ft', Some r' => Some (LT.RFCons (intern fname) ft' r') | _, _ => None end.
  Proof. reflexivity. Qed.

  Lemma name_ok_intro n name : n = intern name -> name_good name -> name_ok intern unintern n name = true.
  Proof. intros -> H. unfold name_ok. rewrite H, list_eqb_refl, N.eqb_refl. reflexivity. Qed.

  Ltac inv_ty Hr T :=
    match type of Hr with rty ?fuel _ = _ => destruct fuel as [|f]; [discriminate Hr|] end;
    apply rty_inv in Hr; destruct T as [|tu|tsg|ET tn|Ts|sname|ename]; cbn beta iota in Hr.

  (* equations (cbn does not refold the mutual fixpoints) *)
  Lemma rtok_repeat e n ET n' : rtok (LL.LRepeat e n) (CArray ET n') = (n =? n') && rtok e ET.
  Proof. reflexivity. Qed.
  Lemma rtok_array es ET n : rtok (LL.LArray es) (CArray ET n) =
    match es with LL.LsNil => false | _ => true end && (LL.lits_len es =? n) && rtall es ET &&
    (all_num es || uniform (pts unintern es)).
  Proof. reflexivity. Qed.
  Lemma rtok_tuple es Ts : rtok (LL.LTuple es) (CTuple Ts) = rtzip es Ts.
  Proof. reflexivity. Qed.
  Lemma rtok_struct n fs name : rtok (LL.LStruct n fs) (CStruct name) =
    name_ok intern unintern n name && not_bool_name name &&
    match assocL name (d_structs D) with Some def => names_ok (map fst def) && rtf fs def | None => false end.
  Proof. reflexivity. Qed.
  Lemma rtok_enum_unit n v name : rtok (LL.LEnumUnit n v) (CEnum name) =
    name_ok intern unintern n name && not_bool_name name &&
    match assocL name (d_enums D) with
    | Some vs => match assocL (unintern v) vs with Some None => intern (unintern v) =? v | _ => false end
    | None => false
    end.
  Proof. reflexivity. Qed.
  Lemma rtok_enum_tuple n v es name : rtok (LL.LEnumTuple n v es) (CEnum name) =
    name_ok intern unintern n name && not_bool_name name &&
    match assocL name (d_enums D) with
    | Some vs => match assocL (unintern v) vs with Some (Some tys) => (intern (unintern v) =? v) && rtzip es tys | _ => false end
    | None => false
    end.
  Proof. reflexivity. Qed.
  Lemma pv_array es : printable_value (LL.LArray es) =
    match es with LL.LsNil => false | _ => true end && (all_num es || uniform (pts unintern es)) && printable_values es.
  Proof. reflexivity. Qed.
  Lemma pvs_cons e r : printable_values (LL.LsCons e r) = printable_value e && printable_values r.
  Proof. reflexivity. Qed.
  Lemma pvf_cons f v r : printable_fields (LL.LFCons f v r) = printable_value v && printable_fields r.
  Proof. reflexivity. Qed.

  Ltac kill Hr :=
    try discriminate Hr;
    try (let x := fresh in destruct Hr as (? & _ & x); discriminate x);
    try (let x := fresh in destruct Hr as (? & ? & _ & _ & x); discriminate x).

  Lemma value_mut : (forall l, Vst l) /\ (forall es, Vall es /\ Vzip es) /\ (forall fs, Vfld fs).
  Proof.
    apply LiteralProofs.lit_mutind.
    - (* true *) intros T r fuel Hty Hr _. destruct r; try discriminate Hty. inv_ty Hr T; kill Hr. reflexivity.
    - intros T r fuel Hty Hr _. destruct r; try discriminate Hty. inv_ty Hr T; kill Hr. reflexivity.
    - (* unsigned *) intros n u T r fuel Hty Hr _. destruct r; try discriminate Hty. inv_ty Hr T; kill Hr.
      injection Hr as ->. cbn [LL.is_of_type] in Hty. apply andb_prop in Hty as [H1 H2]. apply LiteralProofs.uty_eqb_eq in H1. subst u.
      cbn [rt_ok]. rewrite LiteralProofs.uty_eqb_refl. cbn [andb]. unfold u_fits. rewrite unsigned_max_umax. exact H2.
    - (* signed *) intros z s T r fuel Hty Hr _. destruct r; try discriminate Hty. inv_ty Hr T; kill Hr.
      injection Hr as ->. cbn [LL.is_of_type] in Hty. apply andb_prop in Hty as [H1 H2]. apply LiteralProofs.sty_eqb_eq in H1. subst s.
      cbn [rt_ok]. rewrite LiteralProofs.sty_eqb_refl. cbn [andb]. unfold s_fits. rewrite signed_min_smin, signed_max_smax. exact H2.
    - (* repeat *) intros e IH n T r fuel Hty Hr Hp. destruct r; try discriminate Hty. inv_ty Hr T; kill Hr.
      destruct Hr as (e' & He' & [= -> ->]). cbn [LL.is_of_type] in Hty. apply andb_prop in Hty as [H1 H2].
      rewrite rtok_repeat, H1. cbn [andb]. exact (IH ET e' f H2 He' Hp).
    - (* array *) intros es [IHa _] T r fuel Hty Hr Hp. destruct r; try discriminate Hty. inv_ty Hr T; kill Hr.
      destruct Hr as (e' & He' & [= -> ->]). cbn [LL.is_of_type] in Hty. apply andb_prop in Hty as [H1 H2].
      rewrite pv_array in Hp. apply andb_prop in Hp as [Hp Hpv]. apply andb_prop in Hp as [Hne Hshape].
      rewrite rtok_array, Hne, H1, Hshape, (IHa ET e' f H2 He' Hpv). reflexivity.
    - (* tuple *) intros es [_ IHz] T r fuel Hty Hr Hp. destruct r; try discriminate Hty. inv_ty Hr T; kill Hr.
      destruct Hr as (ts' & Hts & [= ->]). rewrite rtok_tuple. exact (IHz Ts ts' f Hty Hts Hp).
    - (* struct *) intros n fs IHf T r fuel Hty Hr Hp. destruct r; try discriminate Hty. inv_ty Hr T; kill Hr.
      destruct Hr as (def & fs' & Hd & Hfs & [= -> ->]). cbn [LL.is_of_type] in Hty. apply andb_prop in Hty as [H1 H2].
      apply N.eqb_eq in H1. destruct (proj1 HD _ _ Hd) as (Hg & Hnb & Hso & Hfn).
      rewrite rtok_struct, (name_ok_intro n sname H1 Hg), Hnb, Hd, Hso. cbn [andb].
      exact (IHf def fs' f H2 Hfs Hfn Hp).
    - (* enum, unit *) intros n v T r fuel Hty Hr _. destruct r; try discriminate Hty. inv_ty Hr T; kill Hr.
      destruct Hr as (dvs & dvs' & Hd & Hvs & [= -> ->]). cbn [LL.is_of_type] in Hty. apply andb_prop in Hty as [H1 H2].
      apply N.eqb_eq in H1. destruct (proj2 HD _ _ Hd) as (Hg & Hnb & Hvn).
      destruct (LT.find_variant dvs' v 0) as [[j info]|] eqn:Ef; [|discriminate H2]. destruct info; [|discriminate H2].
      destruct (find_variant_assoc f dvs dvs' v 0 j LT.VIUnit Hvs Ef) as (vname & E1 & Hin & E2).
      rewrite rtok_enum_unit, (name_ok_intro n ename H1 Hg), Hnb, Hd. cbn [andb].
      rewrite <- E1, (Hvn vname Hin), E2. apply N.eqb_refl.
    - (* enum, tuple *) intros n v es [_ IHz] T r fuel Hty Hr Hp. destruct r; try discriminate Hty. inv_ty Hr T; kill Hr.
      destruct Hr as (dvs & dvs' & Hd & Hvs & [= -> ->]). cbn [LL.is_of_type] in Hty. apply andb_prop in Hty as [H1 H2].
      apply N.eqb_eq in H1. destruct (proj2 HD _ _ Hd) as (Hg & Hnb & Hvn).
      destruct (LT.find_variant dvs' v 0) as [[j info]|] eqn:Ef; [|discriminate H2]. destruct info as [|ts']; [discriminate H2|].
      destruct (find_variant_assoc f dvs dvs' v 0 j (LT.VITuple ts') Hvs Ef) as (vname & E1 & Hin & tys & E2 & E3).
      rewrite rtok_enum_tuple, (name_ok_intro n ename H1 Hg), Hnb, Hd. cbn [andb].
      rewrite <- E1, (Hvn vname Hin), E2, N.eqb_refl. cbn [andb]. exact (IHz tys ts' f H2 E3 Hp).
    - (* range *) intros mn mx u T r fuel Hty Hr Hp. destruct r; try discriminate Hty. inv_ty Hr T; kill Hr.
      destruct Hr as (e' & He' & [= -> ->]). cbn [LL.is_of_type] in Hty. apply andb_prop in Hty as [H1 H3].
      apply andb_prop in H1 as [H1 H2]. destruct e' as [|u'| | | | |]; try discriminate H1. apply LiteralProofs.uty_eqb_eq in H1. subst u'.
      destruct f as [|f']; [discriminate He'|]. apply rty_inv in He'.
      destruct ET as [|t| | | | |]; cbn beta iota in He'; kill He'.
      injection He' as ->. cbn [printable_value] in Hp. apply andb_prop in Hp as [Hlt Hmax].
      cbn [rt_ok]. rewrite LiteralProofs.uty_eqb_refl, Hlt, H3, Hmax. cbn [andb]. rewrite !andb_true_r.
      unfold LL.range_ok in H2. apply andb_prop in H2 as [_ H2]. apply N.ltb_lt in Hlt.
      assert ((mn =? mx) = false) as Hne by (apply N.eqb_neq; lia). rewrite Hne in H2. cbn [orb] in H2.
      destruct t; try reflexivity. discriminate H2.
    - (* no elements *) split.
      + intros ET et fuel _ _ _. reflexivity.
      + intros [|T Tr] ts' fuel Hty Hts _; [reflexivity|].
        rewrite rtys_of_cons in Hts. destruct (rty fuel T); [|discriminate Hts]. destruct (rtys_of fuel Tr); [|discriminate Hts].
        injection Hts as <-. discriminate Hty.
    - (* one more element *) intros e IHe r [IHa IHz]. split.
      + intros ET et fuel Hty Hr Hp. cbn [LL.all_of_type] in Hty. apply andb_prop in Hty as [H1 H2].
        rewrite pvs_cons in Hp. apply andb_prop in Hp as [Hp1 Hp2].
        rewrite rt_all_cons, (IHe ET et fuel H1 Hr Hp1), (IHa ET et fuel H2 Hr Hp2). reflexivity.
      + intros [|T Tr] ts' fuel Hty Hts Hp.
        * injection Hts as <-. discriminate Hty.
        * rewrite rtys_of_cons in Hts. destruct (rty fuel T) as [t'|] eqn:Et; [|discriminate Hts].
          destruct (rtys_of fuel Tr) as [tr'|] eqn:Etr; [|discriminate Hts]. injection Hts as <-.
          cbn [LL.zip_of_type] in Hty. apply andb_prop in Hty as [H1 H2].
          rewrite pvs_cons in Hp. apply andb_prop in Hp as [Hp1 Hp2].
          rewrite rt_zip_cons, (IHe T t' fuel H1 Et Hp1), (IHz Tr tr' fuel H2 Etr Hp2). reflexivity.
    - (* no fields *) intros [|[fname ft] dr] fs' fuel Hty Hfs _ _; [reflexivity|].
      rewrite rfields_of_cons in Hfs. destruct (rty fuel ft); [|discriminate Hfs]. destruct (rfields_of fuel dr); [|discriminate Hfs].
      injection Hfs as <-. discriminate Hty.
    - (* one more field *) intros fn v IHv r IHr [|[fname ft] dr] fs' fuel Hty Hfs Hnames Hp.
      + injection Hfs as <-. discriminate Hty.
      + rewrite rfields_of_cons in Hfs. destruct (rty fuel ft) as [ft'|] eqn:Et; [|discriminate Hfs].
        destruct (rfields_of fuel dr) as [dr'|] eqn:Er; [|discriminate Hfs]. injection Hfs as <-.
        cbn [LL.fields_of_type] in Hty. apply andb_prop in Hty as [H1 H3]. apply andb_prop in H1 as [H1 H2].
        apply N.eqb_eq in H1. rewrite pvf_cons in Hp. apply andb_prop in Hp as [Hp1 Hp2].
        rewrite rt_fields_cons, (name_ok_intro fn fname H1 (Hnames fname (or_introl eq_refl))),
                (IHv ft ft' fuel H2 Et Hp1). cbn [andb].
        apply (IHr dr dr' fuel H3 Er); [|exact Hp2]. intros x Hx. apply Hnames. now right.
  Qed.

  (* (1) a value of the type, in a printable form, is in the class of the round trip *)
  Theorem is_of_type_rt_ok l T r fuel :
    LL.is_of_type l r = true -> rty_of_cty intern D fuel T = Some r -> printable_value l = true ->
    rt_ok intern unintern D l T = true.
  Proof. exact (proj1 value_mut l T r fuel). Qed.

  (* the round trip for values of the type, over tokens *)
  Theorem value_roundtrip l T r fuel :
    LL.is_of_type l r = true -> rty_of_cty intern D fuel T = Some r -> printable_value l = true ->
    literal_parse_tokens intern D T (lit_tokens unintern l) = COk l.
  Proof. intros H1 H2 H3. apply roundtrip. exact (is_of_type_rt_ok l T r fuel H1 H2 H3). Qed.

  (* ... and through the text *)
  Theorem value_roundtrip_text l T r fuel :
    LL.is_of_type l r = true -> rty_of_cty intern D fuel T = Some r -> printable_value l = true ->
    aux_ok unintern false l ->
    literal_parse intern D T (print_tokens (map kind (lit_tokens unintern l))) = COk l.
  Proof. intros H1 H2 H3 H4. apply roundtrip_text_value; [exact (is_of_type_rt_ok l T r fuel H1 H2 H3)|exact H4]. Qed.
End Values.
Print Assumptions is_of_type_rt_ok.
Print Assumptions value_roundtrip_text.

(* ------------------------------------------------------------------ canonical values (what the decoder produces) *)

(* no `[e; n]` and no range spelling *)
Fixpoint plain (l : LL.lit) : bool :=
  match l with
  | LL.LRepeat _ _ | LL.LRange _ _ _ => false
  | LL.LArray es | LL.LTuple es | LL.LEnumTuple _ _ es => plains es
  | LL.LStruct _ fs => plainf fs
  | _ => true
  end
with plains (es : LL.lits) : bool :=
  match es with LL.LsNil => true | LL.LsCons e r => plain e && plains r end
with plainf (fs : LL.lfields) : bool :=
  match fs with LL.LFNil => true | LL.LFCons _ v r => plain v && plainf r end.

(* Lang/Literal.v [has_type]: the canonical values of a type (the forms `from_bits` builds and
   [decode_encode] / [values_accepted_top] are about) contain no repeat / range spelling *)
Lemma has_type_plain_mut :
  (forall l t, LL.has_type l t = true -> plain l = true) /\
  (forall es, (forall t, LL.all_has_type es t = true -> plains es = true) /\
              (forall ts, LL.zip_has_type es ts = true -> plains es = true)) /\
  (forall fs dfs, LL.fields_has_type fs dfs = true -> plainf fs = true).
Proof.
  apply LiteralProofs.has_type_ind; try reflexivity; try (intros; assumption).
  - intros v r t _ IHv _ IHr. change (plain v && plains r = true). now rewrite IHv.
  - intros v r t tr _ IHv _ IHr. change (plain v && plains r = true). now rewrite IHv.
  - intros n v r t dr _ IHv _ IHr. change (plain v && plainf r = true). now rewrite IHv.
Qed.

Theorem has_type_plain l t : LL.has_type l t = true -> plain l = true.
Proof. apply (proj1 has_type_plain_mut). Qed.

Theorem canonical_value_roundtrip intern unintern D (HD : D_names_ok intern unintern D) E v T r fuel :
  LT.wf E r = true -> LL.has_type v r = true -> rty_of_cty intern D fuel T = Some r ->
  printable_value unintern v = true ->
  plain v = true /\ literal_parse_tokens intern D T (lit_tokens unintern v) = COk v.
Proof.
  intros W Ht Hr Hp. split; [exact (has_type_plain v r Ht)|].
  apply (value_roundtrip intern unintern D HD v T r fuel); [|exact Hr|exact Hp].
  exact (proj1 (LiteralProofs.values_accepted_top E v r W Ht)).
Qed.
Print Assumptions canonical_value_roundtrip.

(* ------------------------------------------------------------------ examples *)

Module TextExamples.
  Import LitExamples RoundTripExamples.

  Definition lits_ex : list LL.lit :=
    [ LL.LTrue; U 255; I8_ (-128); LL.LTuple LL.LsNil; LL.LTuple (ls [U 1]); LL.LTuple (ls [U 1; LL.LTrue; I8_ (-1)]);
      LL.LArray (ls [I8_ 1; I8_ (-2); I8_ 3]); LL.LRepeat (I8_ (-1)) 3; LL.LRange 2 5 LT.U8;
      Sv 1 true; LL.LEnumUnit E_ A_; LL.LEnumTuple E_ B_ (ls [U 3; LL.LSigned (-4) LT.I16]);
      LL.LArray (ls [LL.LTuple (ls [Sv 1 false; LL.LEnumUnit E_ A_]);
                     LL.LTuple (ls [Sv 2 true; LL.LEnumTuple E_ B_ (ls [U 3; LL.LSigned 4 LT.I16])])]) ].

  (* the spacing of the real `Display` and the single-space rendering of the tokens *)
  Example display_texts :
    lit_text ex_unintern (Sv 1 true) = codes "S {a: 1, b: true}" /\
    print_tokens (map kind (lit_tokens ex_unintern (Sv 1 true))) = codes "S { a : 1 , b : true }" /\
    lit_text ex_unintern (LL.LEnumTuple E_ B_ (ls [U 3; LL.LSigned (-4) LT.I16])) = codes "E::B(3, -4)" /\
    print_tokens (map kind (lit_tokens ex_unintern (LL.LEnumTuple E_ B_ (ls [U 3; LL.LSigned (-4) LT.I16])))) = codes "E :: B ( 3 , -4 )" /\
    lit_text ex_unintern (LL.LTuple (ls [U 1])) = codes "(1,)" /\
    lit_text ex_unintern (LL.LRepeat (I8_ (-1)) 3) = codes "[-1; 3]" /\
    lit_text ex_unintern (LL.LRange 2 5 LT.U8) = codes "2u8..5u8" /\
    print_tokens (map kind (lit_tokens ex_unintern (LL.LRange 2 5 LT.U8))) = codes "2u8 .. 5u8".
  Proof. repeat split; vm_compute; reflexivity. Qed.

  (* [display_spacing]: both texts scan to the printed token kinds *)
  Definition scans_spaced (l : LL.lit) : bool :=
    match scan_text (print_tokens (map kind (lit_tokens ex_unintern l))) with
    | Ok (STokens ts) =>
        if list_eq_dec token_enum_eq_dec (map kind ts) (map kind (lit_tokens ex_unintern l)) then true else false
    | _ => false
    end.
  Example display_spacing : forallb (fun l => scans_as_printed l && scans_spaced l) lits_ex = true.
  Proof. vm_compute. reflexivity. Qed.

  (* the class of (1) and the text theorem on the examples *)
  Example printable_values_ex : forallb (printable_value ex_unintern) lits_ex = true.
  Proof. vm_compute. reflexivity. Qed.

  Example text_instance :
    let l := LL.LTuple (ls [Sv 2 true; LL.LEnumTuple E_ B_ (ls [U 3; LL.LSigned (-4) LT.I16])]) in
    literal_parse ex_intern DSE (CTuple [CStruct (nm "S"); CEnum (nm "E")])
                  (print_tokens (map kind (lit_tokens ex_unintern l))) = COk l.
  Proof. vm_compute. reflexivity. Qed.

  (* the hypothesis on the names of the definitions is satisfiable *)
  Example DSE_names_ok : D_names_ok ex_intern ex_unintern DSE.
  Proof.
    split.
    - intros name def H. cbn [DSE d_structs assocL] in H. destruct (list_eqb name (nm "S")) eqn:E; [|discriminate H].
      apply list_eqb_eq in E. subst name. injection H as <-.
      split; [vm_compute; reflexivity|]. split; [vm_compute; reflexivity|]. split; [vm_compute; reflexivity|].
      intros f [<-|[<-|[]]]; vm_compute; reflexivity.
    - intros name vs H. cbn [DSE d_enums assocL] in H. destruct (list_eqb name (nm "E")) eqn:E; [|discriminate H].
      apply list_eqb_eq in E. subst name. injection H as <-.
      split; [vm_compute; reflexivity|]. split; [vm_compute; reflexivity|].
      intros v [<-|[<-|[]]]; vm_compute; reflexivity.
  Qed.

  (* an instance of (1) + the round trip for a value of the type *)
  Example value_instance :
    let l := LL.LTuple (ls [Sv 2 true; LL.LEnumTuple E_ B_ (ls [U 3; LL.LSigned (-4) LT.I16])]) in
    exists r, rty_of_cty ex_intern DSE 5 (CTuple [CStruct (nm "S"); CEnum (nm "E")]) = Some r /\
              LL.is_of_type l r = true /\
              literal_parse_tokens ex_intern DSE (CTuple [CStruct (nm "S"); CEnum (nm "E")]) (lit_tokens ex_unintern l) = COk l.
  Proof.
    intro l. set (T := CTuple [CStruct (nm "S"); CEnum (nm "E")]).
    destruct (rty_of_cty ex_intern DSE 5 T) as [r|] eqn:Er; [|vm_compute in Er; discriminate Er].
    pose proof Er as Er'. vm_compute in Er'. injection Er' as Er'.
    exists r. split; [reflexivity|].
    assert (Hty : LL.is_of_type l r = true) by (rewrite <- Er'; vm_compute; reflexivity).
    split; [exact Hty|].
    apply (value_roundtrip ex_intern ex_unintern DSE DSE_names_ok l T r 5 Hty Er). vm_compute. reflexivity.
  Qed.
End TextExamples.
