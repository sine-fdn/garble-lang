(* C13 — Hoare lifts: the builder-form gadgets push_gt_circuit / push_condswap / push_sorter /
   push_bitonic_merger / push_bitonic_sorter of Gadgets.v denote the pure specification of
   Sort.v.  Everything is proved from the specification interface of the builder operations
   ([builder_ops_sound inv], BuilderSpec.v) only, in the layer of Gadgets/GadgetHoare.v: an
   element is a list of wires related to its bits by [are], a vector of elements by [ares]. *)
From Coq Require Import Permutation.
From GV Require Import Base.Util Base.NMap Builder.Builder Builder.BuilderSem Builder.BuilderSpec
  Gadgets.Gadgets Gadgets.GadgetSpec Gadgets.GadgetHoare
  Sort.Sort Sort.SortProofs Sort.ZeroOne Sort.SortUnbounded.

Lemma Forall_firstn {X} (P : X -> Prop) n : forall (l : list X), Forall P l -> Forall P (firstn n l).
Proof.
  induction n as [|n IH]; intros [|a l] H; cbn [firstn]; try constructor.
  - now inversion H.
  - apply IH. now inversion H.
Qed.
Lemma Forall_skipn {X} (P : X -> Prop) n : forall (l : list X), Forall P l -> Forall P (skipn n l).
Proof.
  induction n as [|n IH]; intros [|a l] H; cbn [skipn]; try assumption.
  apply IH. now inversion H.
Qed.

Definition widths (L : nat) (v : list (list N)) : Prop := Forall (fun x => length x = L) v.

Section S.
  Variable inv : builder -> Prop.
  Hypothesis ops : builder_ops_sound inv.

  (* ---- push_gt_circuit ---- *)

  Lemma push_gt_circuit_sound b bits x y :
    inv b -> valids b x -> valids b y -> (bits <= length x)%nat -> (bits <= length y)%nat ->
    exists g b', push_gt_circuit b bits x y = Ok (g, b') /\ inv b' /\ ext b b' /\ valid b' g /\
      forall inp, ins_ok b inp -> den inp b' g = gt bits (dens inp b x) (dens inp b y).
  Proof. intros. setoid_rewrite gt_eq. now apply (GadgetHoare.push_gt_circuit_sound inv ops). Qed.

  Lemma push_gt_circuit_key_sound b bits x y :
    inv b -> valids b x -> valids b y -> (bits <= length x)%nat -> (bits <= length y)%nat ->
    exists g b', push_gt_circuit b bits x y = Ok (g, b') /\ inv b' /\ ext b b' /\ valid b' g /\
      forall inp, ins_ok b inp ->
        den inp b' g = (key bits (dens inp b y) <? key bits (dens inp b x)).
  Proof.
    intros Hi Hx Hy Lx Ly. setoid_rewrite <- (gt_correct bits); [|now rewrite dens_length..].
    now apply push_gt_circuit_sound.
  Qed.

  (* ---- one input assignment: push_sorter, merge_pairs, the merger and the sorter ---- *)

  Section Inp.
  Variable inp : list bool.

  Lemma condswap_all_ok : forall xys vxys b s vs,
    inv b -> is_ inp b s vs -> are2 inp b xys vxys ->
    ok inv b (condswap_all b s xys)
      (fun r b' => are inp b' (fst r) (map fst (map (fun p => condswap vs (fst p) (snd p)) vxys)) /\
                   are inp b' (snd r) (map snd (map (fun p => condswap vs (fst p) (snd p)) vxys))).
  Proof.
    induction xys as [|[x y] r IH]; intros vxys b s vs Hi Hs Hxys.
    - inversion Hxys; subst. apply ok_ret; [assumption|]. split; constructor.
    - inversion Hxys as [|? [vx vy] ? vr [Hx Hy] Hr]; subst. cbn [fst snd] in Hx, Hy.
      cbn [condswap_all map fst snd].
      step push_condswap_ok as [a c] b1 [Ha Hc].
      step IH as [mn mx] b2 [Hmn Hmx].
      apply ok_ret; [assumption|]. split; constructor; assumption.
  Qed.

  Lemma push_sorter_ok b bits x y vx vy :
    inv b -> are inp b x vx -> are inp b y vy -> (bits <= length x)%nat -> (bits <= length y)%nat ->
    ok inv b (push_sorter b bits x y)
      (fun r b' => are inp b' (fst r) (fst (sorter_bits bits vx vy)) /\
                   are inp b' (snd r) (snd (sorter_bits bits vx vy))).
  Proof.
    intros Hi Hx Hy Lx Ly. unfold push_sorter.
    step push_gt_circuit_ok as g b1 Hg. rewrite <- gt_eq in Hg.
    apply condswap_all_ok; [assumption..|]. apply are2_combine; assumption.
  Qed.

  (* elements of one common length L >= bits: the whole element moves, by key *)
  Lemma merge_pairs_ok bits L asc : forall lower vlower b upper vupper,
    inv b -> ares inp b lower vlower -> ares inp b upper vupper ->
    widths L lower -> widths L upper -> (bits <= L)%nat ->
    ok inv b (Gadgets.merge_pairs b bits asc lower upper)
      (fun r b' =>
         (ares inp b' (fst r) (fst (Sort.merge_pairs (gt_key bits) asc vlower vupper)) /\
          ares inp b' (snd r) (snd (Sort.merge_pairs (gt_key bits) asc vlower vupper))) /\
         widths L (fst r) /\ widths L (snd r)).
  Proof.
    induction lower as [|x lr IH]; intros vlower b upper vupper Hi Hl Hu Wl Wu Hb;
      inversion Hl as [|? vx ? vlr Hx Hlr]; subst.
    { apply ok_ret; [assumption|]. repeat split; assumption. }
    inversion Hu as [|y vy ur vur Hy Hur]; subst.
    { apply ok_ret; [assumption|]. repeat split; assumption. }
    inversion Wl as [|? ? Lx Wlr]; inversion Wu as [|? ? Ly Wur]; subst. unfold W in *.
    cbn [Gadgets.merge_pairs Sort.merge_pairs]. unfold cx.
    pose proof (F2_length _ _ _ Hx) as Ex. pose proof (F2_length _ _ _ Hy) as Ey.
    assert (By : (bits <= length y)%nat) by lia.
    step push_sorter_ok as [mn mx] b1 [Hmn Hmx].
    rewrite sorter_bits_spec in Hmn, Hmx by (rewrite <- Ex, <- ?Ey; lia).
    pose proof (F2_length _ _ _ Hmn) as Lmn. pose proof (F2_length _ _ _ Hmx) as Lmx.
    unfold sorter in *.
    destruct (gt_key bits vx vy), asc; cbn [fst snd] in *;
      (step IH as [lo up] b2 [[Hlo Hup] [Wlo Wup]];
       destruct (Sort.merge_pairs (gt_key bits) _ vlr vur) as [vlo vup];
       apply ok_ret; [assumption|]; repeat split; constructor; (assumption || lia)).
  Qed.

  Lemma push_bitonic_merger_ok bits L asc fuel : forall b v vs,
    inv b -> ares inp b v vs -> widths L v -> (bits <= L)%nat -> (length v < fuel)%nat ->
    ok inv b (push_bitonic_merger fuel b bits asc v)
      (fun r b' => ares inp b' r (merger_fuel (gt_key bits) fuel asc vs) /\ widths L r).
  Proof.
    induction fuel as [|f IH]; intros b v vs Hi Hv Wv Hb Hf; [lia|].
    pose proof (F2_length _ _ _ Hv) as Ev.
    cbn [push_bitonic_merger]. unfold elem, W in *. destruct (Nat.leb_spec (length v) 1) as [Hle|Hgt].
    - rewrite merger_short by lia. apply ok_ret; [assumption|]. split; assumption.
    - rewrite merger_fuel_S by lia. cbv zeta. rewrite <- Ev.
      destruct (pow2_below_top (length v) ltac:(lia)) as (M1 & M2 & M3).
      set (m := pow2_below (length v) 1 (length v)) in *.
      pose proof (F2_firstn _ m _ _ Hv) as Hlo0. pose proof (F2_skipn _ m _ _ Hv) as Hup0.
      pose proof (Forall_firstn _ m _ Wv) as Wlo0. pose proof (Forall_skipn _ m _ Wv) as Wup0.
      step merge_pairs_ok as [lo up] b1 [[Hlo Hup] [Wlo Wup]].
      destruct (merge_pairs_length (gt_key bits) asc (firstn m vs) (skipn m vs)) as [L1 L2].
      unfold elem in *.
      rewrite <- (F2_length _ _ _ Hlo), <- (F2_length _ _ _ Hlo0), firstn_length in L1.
      rewrite <- (F2_length _ _ _ Hup), <- (F2_length _ _ _ Hup0), skipn_length in L2.
      assert (Flo : (length lo < f)%nat) by lia. assert (Fup : (length up < f)%nat) by lia.
      step IH as lo' b2 [Hlo' Wlo'].
      step IH as up' b3 [Hup' Wup'].
      apply ok_ret; [assumption|]. split; [apply F2_app|apply Forall_app; split]; assumption.
  Qed.

  Lemma sorter_inner_ok bits L fuel : forall asc b v vs,
    inv b -> ares inp b v vs -> widths L v -> (bits <= L)%nat -> (length v < fuel)%nat ->
    ok inv b (sorter_inner fuel b bits asc v)
      (fun r b' => ares inp b' r (sorter_fuel (gt_key bits) fuel asc vs) /\ widths L r).
  Proof.
    induction fuel as [|f IH]; intros asc b v vs Hi Hv Wv Hb Hf; [lia|].
    pose proof (F2_length _ _ _ Hv) as Ev.
    cbn [sorter_inner]. unfold elem, W in *. destruct (Nat.leb_spec (length v) 1) as [Hle|Hgt].
    - cbn [sorter_fuel]. destruct (Nat.leb_spec (length vs) 1); [|lia].
      apply ok_ret; [assumption|]. split; assumption.
    - rewrite sorter_fuel_S by lia. rewrite <- Ev. cbv zeta. set (h := (length v / 2)%nat).
      assert (Hh : (0 < h < length v)%nat) by (split; [apply Nat.div_str_pos|apply Nat.div_lt]; lia).
      pose proof (F2_firstn _ h _ _ Hv) as Hlo0. pose proof (F2_skipn _ h _ _ Hv) as Hup0.
      pose proof (Forall_firstn _ h _ Wv) as Wlo0. pose proof (Forall_skipn _ h _ Wv) as Wup0.
      assert (Flo : (length (firstn h v) < f)%nat) by (rewrite firstn_length; lia).
      assert (Fup : (length (skipn h v) < f)%nat) by (rewrite skipn_length; lia).
      step IH as lo b1 [Hlo Wlo].
      step IH as up b2 [Hup Wup].
      pose proof (F2_app _ _ _ _ _ Hlo Hup) as Hw.
      assert (Lw : length (lo ++ up) = length v).
      { rewrite (F2_length _ _ _ Hw), app_length, !sorter_fuel_length, <- app_length, firstn_skipn.
        symmetry. exact Ev. }
      unfold bitonic_merger. rewrite <- (F2_length _ _ _ Hw), Lw.
      apply push_bitonic_merger_ok; try assumption; [apply Forall_app; split; assumption|lia].
  Qed.
  End Inp.

  (* ---- from the per-input statements to the final ones ---- *)

  Definition elems_ok (b : builder) (L : nat) (v : list (list W)) : Prop :=
    Forall (fun x => valids b x /\ length x = L) v.

  Definition densl (inp : list bool) (b : builder) (v : list (list W)) : list elem := map (dens inp b) v.

  Lemma densl_length inp b v : length (densl inp b v) = length v.
  Proof. apply map_length. Qed.

  Lemma ares_of_elems_ok inp b L v : elems_ok b L v -> ares inp b v (densl inp b v) /\ widths L v.
  Proof.
    intro H. apply Forall_and_inv in H as [Hv Hw]. split; [|exact Hw].
    induction Hv as [|x v Hx _ IH]; cbn [densl map]; constructor; [apply are_of_valids, Hx|].
    apply IH. now inversion Hw.
  Qed.

  Lemma ares_densl inp b v vs :
    ares inp b v vs -> Forall (valids b) v /\ (ins_ok b inp -> densl inp b v = vs).
  Proof.
    induction 1 as [|x vx v vs Hx _ [IHv IHd]]; [split; [constructor|reflexivity]|].
    destruct (are_dens _ _ _ _ Hx) as [Vx Dx]. split; [constructor; assumption|].
    intro Hok. cbn [densl map]. now rewrite (Dx Hok), <- (IHd Hok).
  Qed.

  Lemma fin_elems b (m : res (list (list W) * builder)) L n (f : list bool -> list elem) :
    (forall inp, length (f inp) = n) ->
    (forall inp, ok inv b m (fun r b' => ares inp b' r (f inp) /\ widths L r)) ->
    exists v' b', m = Ok (v', b') /\ inv b' /\ ext b b' /\ elems_ok b' L v' /\ length v' = n /\
      forall inp, ins_ok b inp -> densl inp b' v' = f inp.
  Proof.
    intros Hn H. destruct (finalize inv b m _ H) as (r & b' & E & Hi & He & Hq).
    exists r, b'. split; [exact E|]. split; [exact Hi|]. split; [exact He|].
    split; [|split].
    - destruct (Hq []) as [Ha Hw]. apply Forall_and; [apply (ares_densl _ _ _ _ Ha)|exact Hw].
    - rewrite <- (Hn []). exact (F2_length _ _ _ (proj1 (Hq []))).
    - intros inp Hok. apply (ares_densl _ _ _ _ (proj1 (Hq inp))). eapply ext_ins_ok; eauto.
  Qed.

  Lemma push_sorter_sound b bits x y :
    inv b -> valids b x -> valids b y -> (bits <= length x)%nat -> (bits <= length y)%nat ->
    exists mn mx b', push_sorter b bits x y = Ok ((mn, mx), b') /\ inv b' /\ ext b b' /\
      valids b' mn /\ valids b' mx /\
      length mn = Nat.min (length x) (length y) /\ length mx = Nat.min (length x) (length y) /\
      forall inp, ins_ok b inp ->
        (dens inp b' mn, dens inp b' mx) = sorter_bits bits (dens inp b x) (dens inp b y).
  Proof.
    intros Hi Hx Hy Lx Ly.
    destruct (finalize inv b _ _ (fun inp => push_sorter_ok inp b bits x y _ _ Hi
                (are_of_valids inp b x Hx) (are_of_valids inp b y Hy) Lx Ly))
      as ([mn mx] & b' & E & Hi' & He & Hq). cbn [fst snd] in Hq.
    exists mn, mx, b'. repeat (split; [assumption|]).
    apply (wfin Wires b b' mn _ _ He (fun inp => proj1 (Hq inp))). intro Dmn.
    apply (wfin Wires b b' mx _ _ He (fun inp => proj2 (Hq inp))). intro Dmx. cbn [wden] in Dmn, Dmx. unfold W.
    rewrite (F2_length _ _ _ (proj1 (Hq []))), (F2_length _ _ _ (proj2 (Hq []))).
    unfold sorter_bits, condswap_list. cbn [fst snd].
    rewrite !map_length, combine_length, !dens_length. repeat (split; [reflexivity|]).
    intros inp Hok. rewrite (Dmn inp Hok), (Dmx inp Hok). symmetry. apply surjective_pairing.
  Qed.

  Lemma push_bitonic_merger_top_sound bits L asc b v :
    inv b -> elems_ok b L v -> (bits <= L)%nat ->
    exists v' b', push_bitonic_merger (S (length v)) b bits asc v = Ok (v', b') /\ inv b' /\ ext b b' /\
      elems_ok b' L v' /\ length v' = length v /\
      forall inp, ins_ok b inp ->
        densl inp b' v' = bitonic_merger (gt_key bits) asc (densl inp b v).
  Proof.
    intros Hi Hv Hb. apply fin_elems.
    - intro inp. now rewrite bitonic_merger_length, densl_length.
    - intro inp. destruct (ares_of_elems_ok inp b L v Hv) as [Ha Hw].
      unfold bitonic_merger. rewrite densl_length. apply push_bitonic_merger_ok; auto.
  Qed.

  Lemma push_bitonic_sorter_sound bits L b v :
    inv b -> elems_ok b L v -> (bits <= L)%nat ->
    exists v' b', push_bitonic_sorter b bits v = Ok (v', b') /\ inv b' /\ ext b b' /\
      elems_ok b' L v' /\ length v' = length v /\
      forall inp, ins_ok b inp ->
        densl inp b' v' = bitonic_sorter (gt_key bits) (densl inp b v).
  Proof.
    intros Hi Hv Hb. apply fin_elems.
    - intro inp. now rewrite bitonic_sorter_length, densl_length.
    - intro inp. destruct (ares_of_elems_ok inp b L v Hv) as [Ha Hw].
      unfold bitonic_sorter, push_bitonic_sorter. rewrite densl_length. apply sorter_inner_ok; auto.
  Qed.

  (* ---- end to end: the circuits sort, for every length, and only move elements.  What is
     left of hypotheses is what the gadgets need to be defined at all: one width L for all
     elements, and a key that fits ---- *)

  Lemma push_bitonic_sorter_sorts_all bits L b v :
    inv b -> elems_ok b L v -> (bits <= L)%nat ->
    exists v' b', push_bitonic_sorter b bits v = Ok (v', b') /\ inv b' /\ ext b b' /\
      elems_ok b' L v' /\ length v' = length v /\
      forall inp, ins_ok b inp ->
        sortedN (map (key bits) (densl inp b' v')) = true /\
        Permutation (densl inp b' v') (densl inp b v).
  Proof.
    intros Hinv Hv Hb.
    destruct (push_bitonic_sorter_sound bits L b v Hinv Hv Hb) as (v' & b' & E & I' & X' & Hv' & Lv' & D).
    exists v', b'. repeat (split; [assumption|]). intros inp Hi. rewrite (D inp Hi). apply sorter_elems.
  Qed.

  Lemma push_bitonic_merger_sorts_up_down_all bits L b v k :
    inv b -> elems_ok b L v -> (bits <= L)%nat -> length v = (2 ^ k)%nat ->
    exists v' b', push_bitonic_merger (S (length v)) b bits true v = Ok (v', b') /\ inv b' /\ ext b b' /\
      elems_ok b' L v' /\ length v' = length v /\
      forall inp, ins_ok b inp -> up_then_down (map (key bits) (densl inp b v)) ->
        sortedN (map (key bits) (densl inp b' v')) = true /\
        Permutation (densl inp b' v') (densl inp b v).
  Proof.
    intros Hinv Hv Hb Hn.
    destruct (push_bitonic_merger_top_sound bits L true b v Hinv Hv Hb) as (v' & b' & E & I' & X' & Hv' & Lv' & D).
    exists v', b'. repeat (split; [assumption|]). intros inp Hi Hs. rewrite (D inp Hi).
    apply (merger_elems_up_down bits _ k); auto. now rewrite densl_length.
  Qed.

  Lemma push_bitonic_merger_sorts_down_up_all bits L b v :
    inv b -> elems_ok b L v -> (bits <= L)%nat ->
    exists v' b', push_bitonic_merger (S (length v)) b bits true v = Ok (v', b') /\ inv b' /\ ext b b' /\
      elems_ok b' L v' /\ length v' = length v /\
      forall inp, ins_ok b inp -> down_then_up (map (key bits) (densl inp b v)) ->
        sortedN (map (key bits) (densl inp b' v')) = true /\
        Permutation (densl inp b' v') (densl inp b v).
  Proof.
    intros Hinv Hv Hb.
    destruct (push_bitonic_merger_top_sound bits L true b v Hinv Hv Hb) as (v' & b' & E & I' & X' & Hv' & Lv' & D).
    exists v', b'. repeat (split; [assumption|]). intros inp Hi Hs. rewrite (D inp Hi).
    apply merger_elems_down_up; auto.
  Qed.

  Lemma push_bitonic_merger_sorts_down_up bits L b v :
    inv b -> elems_ok b L v -> (bits <= L)%nat -> (length v <= 64)%nat ->
    exists v' b', push_bitonic_merger (S (length v)) b bits true v = Ok (v', b') /\ inv b' /\ ext b b' /\
      elems_ok b' L v' /\ length v' = length v /\
      forall inp, ins_ok b inp -> down_then_up (map (key bits) (densl inp b v)) ->
        sortedN (map (key bits) (densl inp b' v')) = true /\
        Permutation (densl inp b' v') (densl inp b v).
  Proof. intros Hinv Hv Hb _. now apply push_bitonic_merger_sorts_down_up_all. Qed.
End S.
