(* C13 -- the merger and sorter networks and CIRCUITS sort, for all lengths: the statements of
   SortUnbounded.v and SortHoare.v in the form Props/C13.v gives them, the circuit ones also
   for the concrete builder invariant. *)
From Coq Require Import Permutation.
From GV Require Import Base.Util Base.NMap Builder.Builder Builder.BuilderSem Builder.BuilderSpec
  Builder.BuilderProofs Gadgets.Gadgets Sort.Sort Sort.SortProofs Sort.ZeroOne Sort.SortHoare Sort.SortUnbounded.

Theorem C13_merger_sorts_up_down : forall bits (v : list elem) k,
  length v = (2 ^ k)%nat -> up_then_down (map (key bits) v) ->
  sortedN (map (key bits) (bitonic_merger (gt_key bits) true v)) = true /\
  Permutation (bitonic_merger (gt_key bits) true v) v.
Proof. exact merger_elems_up_down. Qed.
Print Assumptions C13_merger_sorts_up_down.

Theorem C13_merger_sorts_down_up : forall bits (v : list elem),
  down_then_up (map (key bits) v) ->
  sortedN (map (key bits) (bitonic_merger (gt_key bits) true v)) = true /\
  Permutation (bitonic_merger (gt_key bits) true v) v.
Proof. exact merger_elems_down_up. Qed.
Print Assumptions C13_merger_sorts_down_up.

Theorem C13_sorter_sorts : forall bits (v : list elem),
  sortedN (map (key bits) (bitonic_sorter (gt_key bits) v)) = true /\
  Permutation (bitonic_sorter (gt_key bits) v) v.
Proof. exact sorter_elems. Qed.
Print Assumptions C13_sorter_sorts.

Theorem C13_push_bitonic_merger_sorts_all : forall inv, builder_ops_sound inv -> forall bits L b v k,
  inv b -> elems_ok b L v -> (bits <= L)%nat -> length v = (2 ^ k)%nat ->
  exists v' b', push_bitonic_merger (S (length v)) b bits true v = Ok (v', b') /\ inv b' /\ ext b b' /\
    elems_ok b' L v' /\ length v' = length v /\
    forall inp, ins_ok b inp -> up_then_down (map (key bits) (densl inp b v)) ->
      sortedN (map (key bits) (densl inp b' v')) = true /\
      Permutation (densl inp b' v') (densl inp b v).
Proof. exact push_bitonic_merger_sorts_up_down_all. Qed.
Print Assumptions C13_push_bitonic_merger_sorts_all.

Theorem C13_push_bitonic_sorter_sorts_all : forall inv, builder_ops_sound inv -> forall bits L b v,
  inv b -> elems_ok b L v -> (bits <= L)%nat ->
  exists v' b', push_bitonic_sorter b bits v = Ok (v', b') /\ inv b' /\ ext b b' /\
    elems_ok b' L v' /\ length v' = length v /\
    forall inp, ins_ok b inp ->
      sortedN (map (key bits) (densl inp b' v')) = true /\
      Permutation (densl inp b' v') (densl inp b v).
Proof. exact push_bitonic_sorter_sorts_all. Qed.
Print Assumptions C13_push_bitonic_sorter_sorts_all.

(* for the concrete builder invariant *)
Theorem C13_merger_circuit_sorts_all : forall bits L b v k,
  inv b -> elems_ok b L v -> (bits <= L)%nat -> length v = (2 ^ k)%nat ->
  exists v' b', push_bitonic_merger (S (length v)) b bits true v = Ok (v', b') /\ inv b' /\ ext b b' /\
    elems_ok b' L v' /\ length v' = length v /\
    forall inp, ins_ok b inp -> up_then_down (map (key bits) (densl inp b v)) ->
      sortedN (map (key bits) (densl inp b' v')) = true /\
      Permutation (densl inp b' v') (densl inp b v).
Proof. exact (push_bitonic_merger_sorts_up_down_all inv builder_sound). Qed.
Print Assumptions C13_merger_circuit_sorts_all.

Theorem C13_merger_circuit_sorts_down_up_all : forall bits L b v,
  inv b -> elems_ok b L v -> (bits <= L)%nat ->
  exists v' b', push_bitonic_merger (S (length v)) b bits true v = Ok (v', b') /\ inv b' /\ ext b b' /\
    elems_ok b' L v' /\ length v' = length v /\
    forall inp, ins_ok b inp -> down_then_up (map (key bits) (densl inp b v)) ->
      sortedN (map (key bits) (densl inp b' v')) = true /\
      Permutation (densl inp b' v') (densl inp b v).
Proof. exact (push_bitonic_merger_sorts_down_up_all inv builder_sound). Qed.
Print Assumptions C13_merger_circuit_sorts_down_up_all.

Theorem C13_sorter_circuit_sorts_all : forall bits L b v,
  inv b -> elems_ok b L v -> (bits <= L)%nat ->
  exists v' b', push_bitonic_sorter b bits v = Ok (v', b') /\ inv b' /\ ext b b' /\
    elems_ok b' L v' /\ length v' = length v /\
    forall inp, ins_ok b inp ->
      sortedN (map (key bits) (densl inp b' v')) = true /\
      Permutation (densl inp b' v') (densl inp b v).
Proof. exact (push_bitonic_sorter_sorts_all inv builder_sound). Qed.
Print Assumptions C13_sorter_circuit_sorts_all.
