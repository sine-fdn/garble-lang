(* C13 — the zero-one principle for compare-exchange networks (lists of (i, j, direction)
   operations, Sort.run_net), the shape of 0/1 bitonic sequences, and the link between the
   networks on elements and on their keys. *)
From Coq Require Import Permutation.
From GV Require Import Base.Util Gadgets.Gadgets Sort.Sort Sort.SortProofs.

(* ---------------------------------------------------------------- maps that commute *)

Section Commute.
  Context {A B : Type}.
  Variable gtA : A -> A -> bool.
  Variable gtB' : B -> B -> bool.
  Variable f : A -> B.

  (* f is compatible with one compare-exchange *)
  Definition cx_compat : Prop := forall asc x y,
    cx gtB' asc (f x) (f y) = (f (fst (cx gtA asc x y)), f (snd (cx gtA asc x y))).

  Hypothesis compat : cx_compat.

  Lemma map_upd (l : list A) : forall i a, map f (upd l i a) = upd (map f l) i (f a).
  Proof. induction l as [|x l IH]; intros [|i] a; cbn [upd map]; try reflexivity. now rewrite IH. Qed.

  Lemma run_op_map v o : map f (run_op gtA v o) = run_op gtB' (map f v) o.
  Proof.
    destruct o as [[i j] asc]. unfold run_op. rewrite !nth_error_map.
    destruct (nth_error v i) as [x|]; cbn [option_map]; [|reflexivity].
    destruct (nth_error v j) as [y|]; cbn [option_map]; [|reflexivity].
    rewrite compat. destruct (cx gtA asc x y) as [lo hi]. cbn [fst snd]. now rewrite !map_upd.
  Qed.

  Lemma run_net_map net : forall v, map f (run_net gtA net v) = run_net gtB' net (map f v).
  Proof.
    unfold run_net. induction net as [|o net IH]; intro v; cbn [fold_left]; [reflexivity|].
    now rewrite IH, run_op_map.
  Qed.
End Commute.

(* a key function whose order is the element order *)
Lemma cx_compat_key {A B} (gtA : A -> A -> bool) (gtB' : B -> B -> bool) (f : A -> B) :
  (forall x y, gtA x y = gtB' (f x) (f y)) -> cx_compat gtA gtB' f.
Proof.
  intros H asc x y. unfold cx, sorter. rewrite <- H. destruct (gtA x y), asc; reflexivity.
Qed.

(* thresholding is monotone, hence compatible *)
Lemma cx_compat_thr t : cx_compat gtN gtB (thr t).
Proof.
  intros asc x y. unfold cx, sorter, gtN, gtB, thr.
  destruct (N.ltb_spec y x), asc; cbn [fst snd];
    destruct (N.ltb_spec t x), (N.ltb_spec t y); cbn; try reflexivity; lia.
Qed.

(* ---------------------------------------------------------------- the principle *)

Lemma sortedN_cons a b r : sortedN (a :: b :: r) = (a <=? b) && sortedN (b :: r).
Proof. reflexivity. Qed.
Lemma sortedB_cons a b r : sortedB (a :: b :: r) = leB a b && sortedB (b :: r).
Proof. reflexivity. Qed.

Lemma sorted_by_thresholds (l : list N) :
  (forall t, sortedB (map (thr t) l) = true) -> sortedN l = true.
Proof.
  induction l as [|a [|b r] IH]; intro H; try reflexivity.
  rewrite sortedN_cons. apply andb_true_intro. split.
  - specialize (H b). cbn [map] in H. rewrite sortedB_cons in H. apply andb_prop in H as [H _].
    unfold leB, thr in H. rewrite N.ltb_irrefl in H.
    destruct (N.ltb_spec b a); [discriminate|]. apply N.leb_le. lia.
  - apply IH. intro t. specialize (H t). cbn [map] in H. rewrite sortedB_cons in H.
    apply andb_prop in H as [_ H]. exact H.
Qed.

(* A compare-exchange network that sorts the thresholded (0/1) images of an input sorts
   the input.  Quantifying over all inputs gives the classical statement. *)
Theorem zero_one_principle (net : list cxop) (v : list N) :
  (forall t, sortedB (run_net gtB net (map (thr t) v)) = true) ->
  sortedN (run_net gtN net v) = true.
Proof.
  intro H. apply sorted_by_thresholds. intro t.
  rewrite (run_net_map gtN gtB (thr t) (cx_compat_thr t)). apply H.
Qed.

Corollary zero_one_principle_all (net : list cxop) (n : nat) :
  (forall w : list bool, length w = n -> sortedB (run_net gtB net w) = true) ->
  forall v : list N, length v = n -> sortedN (run_net gtN net v) = true.
Proof. intros H v Hl. apply zero_one_principle. intro t. apply H. now rewrite map_length. Qed.

(* ---------------------------------------------------------------- shapes of 0/1 sequences *)

Lemma thr_mono t a b : a <= b -> leB (thr t a) (thr t b) = true.
Proof. unfold leB, thr. intro. destruct (N.ltb_spec t a), (N.ltb_spec t b); cbn; try reflexivity; lia. Qed.

Lemma sortedN_thr t l : sortedN l = true -> sortedB (map (thr t) l) = true.
Proof.
  induction l as [|a [|b r] IH]; intro H; try reflexivity.
  rewrite sortedN_cons in H. apply andb_prop in H as [H1 H2]. cbn [map]. rewrite sortedB_cons.
  apply andb_true_intro. split; [apply thr_mono; now apply N.leb_le|]. now apply IH.
Qed.

Lemma rev_repeat {X} (x : X) n : rev (repeat x n) = repeat x n.
Proof.
  induction n as [|n IH]; [reflexivity|]. cbn [repeat rev]. rewrite IH.
  clear IH. induction n as [|n IH]; [reflexivity|]. cbn [repeat app]. now rewrite IH.
Qed.

Lemma sortedB_shape l : sortedB l = true -> exists a b, l = repeat false a ++ repeat true b.
Proof.
  induction l as [|x [|y r] IH]; intro H.
  - exists 0%nat, 0%nat. reflexivity.
  - destruct x; [exists 0%nat, 1%nat|exists 1%nat, 0%nat]; reflexivity.
  - rewrite sortedB_cons in H. apply andb_prop in H as [H1 H2].
    destruct (IH H2) as (a & b & E). destruct x.
    + destruct y; [|discriminate]. destruct a as [|a]; [|discriminate].
      exists 0%nat, (S b). cbn [repeat app] in *. now rewrite E.
    + exists (S a), b. cbn [repeat app]. now rewrite E.
Qed.

Lemma sortedB_rev_shape l : sortedB (rev l) = true -> exists a b, l = repeat true a ++ repeat false b.
Proof.
  intro H. destruct (sortedB_shape _ H) as (a & b & E). exists b, a.
  rewrite <- (rev_involutive l), E, rev_app_distr, !rev_repeat. reflexivity.
Qed.

Lemma down_then_up_thr t v : down_then_up v ->
  exists a b c, map (thr t) v = blocks true a b c /\ (a + b + c = length v)%nat.
Proof.
  intros (d & u & -> & Hd & Hu). unfold descN, ascN in *.
  apply (sortedN_thr t) in Hd. apply (sortedN_thr t) in Hu. rewrite map_rev in Hd.
  destruct (sortedB_rev_shape _ Hd) as (a & b1 & Ed). destruct (sortedB_shape _ Hu) as (b2 & c & Eu).
  exists a, (b1 + b2)%nat, c. split.
  - rewrite map_app, Ed, Eu. unfold blocks. cbn [negb]. rewrite repeat_app, <- !app_assoc. reflexivity.
  - rewrite <- (map_length (thr t)), map_app, Ed, Eu, !app_length, !repeat_length. lia.
Qed.

Lemma up_then_down_thr t v : up_then_down v ->
  exists a b c, map (thr t) v = blocks false a b c /\ (a + b + c = length v)%nat.
Proof.
  intros (u & d & -> & Hu & Hd). unfold descN, ascN in *.
  apply (sortedN_thr t) in Hd. apply (sortedN_thr t) in Hu. rewrite map_rev in Hd.
  destruct (sortedB_rev_shape _ Hd) as (b2 & c & Ed). destruct (sortedB_shape _ Hu) as (a & b1 & Eu).
  exists a, (b1 + b2)%nat, c. split.
  - rewrite map_app, Ed, Eu. unfold blocks. cbn [negb]. rewrite repeat_app, <- !app_assoc. reflexivity.
  - rewrite <- (map_length (thr t)), map_app, Ed, Eu, !app_length, !repeat_length. lia.
Qed.

(* ---------------------------------------------------------------- the recursive merger and sorter *)

(* a compatible map commutes with them, because they are networks *)
Lemma bitonic_merger_map {A B} (gtA : A -> A -> bool) (gtB' : B -> B -> bool) (f : A -> B) asc v :
  cx_compat gtA gtB' f -> map f (bitonic_merger gtA asc v) = bitonic_merger gtB' asc (map f v).
Proof. intro H. rewrite <- !bitonic_merger_net_correct, map_length. apply run_net_map, H. Qed.

Lemma bitonic_sorter_map {A B} (gtA : A -> A -> bool) (gtB' : B -> B -> bool) (f : A -> B) v :
  cx_compat gtA gtB' f -> map f (bitonic_sorter gtA v) = bitonic_sorter gtB' (map f v).
Proof. intro H. rewrite <- !bitonic_sorter_net_correct, map_length. apply run_net_map, H. Qed.

Lemma merger_keys bits asc (v : list elem) :
  map (key bits) (bitonic_merger (gt_key bits) asc v) = bitonic_merger gtN asc (map (key bits) v).
Proof. apply bitonic_merger_map, cx_compat_key. reflexivity. Qed.

Lemma sorter_keys bits (v : list elem) :
  map (key bits) (bitonic_sorter (gt_key bits) v) = bitonic_sorter gtN (map (key bits) v).
Proof. apply bitonic_sorter_map, cx_compat_key. reflexivity. Qed.

Lemma merger_zero_one asc (v : list N) :
  (forall t, sortedB (bitonic_merger gtB asc (map (thr t) v)) = true) ->
  sortedN (bitonic_merger gtN asc v) = true.
Proof.
  intro H. apply sorted_by_thresholds. intro t.
  rewrite (bitonic_merger_map _ _ _ _ _ (cx_compat_thr t)). apply H.
Qed.

Lemma sorter_zero_one (v : list N) :
  (forall t, sortedB (bitonic_sorter gtB (map (thr t) v)) = true) ->
  sortedN (bitonic_sorter gtN v) = true.
Proof.
  intro H. apply sorted_by_thresholds. intro t.
  rewrite (bitonic_sorter_map _ _ _ _ (cx_compat_thr t)). apply H.
Qed.

(* the counterexample behind the restriction to powers of two *)
Lemma merger_up_down_counterexample :
  up_then_down [0; 1; 0] /\ sortedN (bitonic_merger gtN true [0; 1; 0]) = false.
Proof.
  split; [|reflexivity]. exists [0; 1], [0]. repeat split.
Qed.
