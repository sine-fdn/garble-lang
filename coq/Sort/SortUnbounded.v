(* C13 -- the bitonic merger and the bitonic sorter of the compiler sort for ALL lengths.
   The 0/1 facts are proved by induction on the recursion of the (arbitrary-length) merger:
     - the ascending merger sorts every 0/1 sequence 1^a 0^b 1^c of ANY length,
     - and every 0/1 sequence 0^a 1^b 0^c whose length is a POWER OF TWO,
     - the sorter sorts every 0/1 sequence of any length;
   the zero-one principle (ZeroOne.v) lifts them to keys and elements. *)
From Coq Require Import Permutation.
From GV Require Import Base.Util Gadgets.Gadgets Sort.Sort Sort.SortProofs Sort.ZeroOne.

(* ================================================================ 0/1 lists given by a predicate on positions *)

Definition mk (n : nat) (f : nat -> bool) : list bool := map f (seq 0 n).

Lemma mk_length n f : length (mk n f) = n.
Proof. unfold mk. now rewrite map_length, seq_length. Qed.

Lemma mk_ext n f g : (forall i, (i < n)%nat -> f i = g i) -> mk n f = mk n g.
Proof. intro H. unfold mk. apply map_ext_in. intros i Hi. apply in_seq in Hi. apply H. lia. Qed.

Lemma mk_S n f : mk (S n) f = f 0%nat :: mk n (fun i => f (S i)).
Proof. unfold mk. cbn [seq map]. f_equal. rewrite <- seq_shift, map_map. reflexivity. Qed.

Lemma mk_app n1 n2 f : mk (n1 + n2) f = mk n1 f ++ mk n2 (fun i => f (n1 + i)%nat).
Proof.
  unfold mk. rewrite seq_app, map_app. f_equal. cbn [Nat.add].
  assert (G : forall s, map f (seq (n1 + s) n2) = map (fun i => f (n1 + i)%nat) (seq s n2)).
  { induction n2 as [|n2 IH]; intro s; [reflexivity|]. cbn [seq map]. f_equal.
    replace (S (n1 + s)) with (n1 + S s)%nat by lia. apply IH. }
  rewrite <- (G 0%nat). now rewrite Nat.add_0_r.
Qed.

Lemma mk_const n x : mk n (fun _ => x) = repeat x n.
Proof. induction n as [|n IH]; [reflexivity|]. rewrite mk_S, IH. reflexivity. Qed.

Lemma firstn_mk m n f : (m <= n)%nat -> firstn m (mk n f) = mk m f.
Proof.
  intro H. replace n with (m + (n - m))%nat by lia. rewrite mk_app, firstn_app, mk_length, Nat.sub_diag.
  cbn [firstn]. rewrite app_nil_r. rewrite <- (mk_length m f) at 1. apply firstn_all.
Qed.

Lemma skipn_mk m n f : (m <= n)%nat -> skipn m (mk n f) = mk (n - m) (fun i => f (m + i)%nat).
Proof.
  intro H. replace n with (m + (n - m))%nat at 1 by lia. rewrite mk_app, skipn_app, mk_length, Nat.sub_diag.
  cbn [skipn]. rewrite <- (mk_length m f) at 1. rewrite skipn_all. reflexivity.
Qed.

(* decides Boolean equations between comparisons of positions *)
Ltac idx :=
  repeat match goal with
         | |- context [(?x <? ?y)%nat] => destruct (Nat.ltb_spec x y)
         | |- context [(?x <=? ?y)%nat] => destruct (Nat.leb_spec x y)
         end;
  cbn [andb orb negb]; try reflexivity; exfalso; lia.

(* the two shapes: ones outside [a, b) / ones inside [a, b) *)
Definition du (n a b : nat) : list bool := mk n (fun i => (i <? a)%nat || (b <=? i)%nat).
Definition ud (n a b : nat) : list bool := mk n (fun i => (a <=? i)%nat && (i <? b)%nat).

Lemma blocks_du a b c : blocks true a b c = du (a + b + c) a (a + b).
Proof.
  unfold blocks, du. cbn [negb]. rewrite <- Nat.add_assoc, mk_app, mk_app, <- !mk_const. f_equal; [|f_equal]; apply mk_ext; intros i Hi; idx.
Qed.

Lemma blocks_ud a b c : blocks false a b c = ud (a + b + c) a (a + b).
Proof.
  unfold blocks, ud. cbn [negb]. rewrite <- Nat.add_assoc, mk_app, mk_app, <- !mk_const. f_equal; [|f_equal]; apply mk_ext; intros i Hi; idx.
Qed.

(* ================================================================ one compare-exchange layer on 0/1 *)

Lemma cx_bool asc x y :
  cx gtB asc x y = if asc then (x && y, x || y) else (x || y, x && y).
Proof. destruct asc, x, y; reflexivity. Qed.

Lemma merge_pairs_mk m : forall k f g, (k <= m)%nat ->
  merge_pairs gtB true (mk m f) (mk k g) =
  (mk m (fun i => if (i <? k)%nat then f i && g i else f i), mk k (fun i => f i || g i)).
Proof.
  induction m as [|m IH]; intros k f g Hk.
  - assert (k = 0%nat) by lia. subst k. reflexivity.
  - destruct k as [|k].
    + reflexivity.
    + rewrite !mk_S. cbn [merge_pairs]. rewrite cx_bool, (IH k) by lia. reflexivity.
Qed.

Definition allF (l : list bool) : Prop := Forall (fun x => x = false) l.
Definition allT (l : list bool) : Prop := Forall (fun x => x = true) l.

Lemma allF_mk n f : (forall i, (i < n)%nat -> f i = false) -> allF (mk n f).
Proof. intro H. apply Forall_forall. intros x Hx. unfold mk in Hx. apply in_map_iff in Hx. destruct Hx as (i & <- & Hi). apply in_seq in Hi. apply H. lia. Qed.
Lemma allT_mk n f : (forall i, (i < n)%nat -> f i = true) -> allT (mk n f).
Proof. intro H. apply Forall_forall. intros x Hx. unfold mk in Hx. apply in_map_iff in Hx. destruct Hx as (i & <- & Hi). apply in_seq in Hi. apply H. lia. Qed.

(* a 0/1 sequence of one of the two shapes / of the down-up shape *)
Definition Bit (m : nat) (l : list bool) : Prop :=
  exists a b, (a <= b <= m)%nat /\ (l = du m a b \/ l = ud m a b).
Definition DU (m : nat) (l : list bool) : Prop := exists a b, (a <= b <= m)%nat /\ l = du m a b.

Lemma DU_Bit m l : DU m l -> Bit m l.
Proof. intros (a & b & H & ->). exists a, b. auto. Qed.

(* the half-cleaner on 1^a 0^(b-a) 1^(n-b), any n with m < n <= 2m: the lower part (length m)
   has one of the two shapes, the upper part (length n - m) is again down-up, and the lower
   part is all 0 or the upper part all 1 *)
Lemma step_du n m a b : (m < n)%nat -> (n <= 2 * m)%nat -> (a <= b <= n)%nat ->
  let v := du n a b in
  let r := merge_pairs gtB true (firstn m v) (skipn m v) in
  Bit m (fst r) /\ DU (n - m) (snd r) /\ (allF (fst r) \/ allT (snd r)).
Proof.
  intros Hm Hn Hab v r.
  assert (E : r = (mk m (fun i => if (i <? n - m)%nat
                                  then ((i <? a)%nat || (b <=? i)%nat) && ((m + i <? a)%nat || (b <=? m + i)%nat)
                                  else (i <? a)%nat || (b <=? i)%nat),
                   mk (n - m) (fun i => ((i <? a)%nat || (b <=? i)%nat) || ((m + i <? a)%nat || (b <=? m + i)%nat)))).
  { subst r v. unfold du. rewrite firstn_mk, skipn_mk by lia. apply merge_pairs_mk. lia. }
  rewrite E. cbn [fst snd]. clear E r v. unfold Bit, DU, du, ud.
  destruct (Nat.le_gt_cases b m) as [Hb|Hb]; [|destruct (Nat.le_gt_cases m a) as [Ha|Ha]; [|destruct (Nat.le_gt_cases a (b - m)) as [Hz|Hz]]].
  - (* zeros inside the lower part *)
    split; [exists a, b; split; [lia|left]; apply mk_ext; intros i Hi; idx|].
    split; [exists (n - m)%nat, (n - m)%nat; split; [lia|]; apply mk_ext; intros i Hi; idx|].
    right. apply allT_mk. intros i Hi. idx.
  - (* zeros inside the upper part *)
    split; [exists (a - m)%nat, (b - m)%nat; split; [lia|left]; apply mk_ext; intros i Hi; idx|].
    split; [exists (n - m)%nat, (n - m)%nat; split; [lia|]; apply mk_ext; intros i Hi; idx|].
    right. apply allT_mk. intros i Hi. idx.
  - (* zeros across the cut, long *)
    split; [exists 0%nat, 0%nat; split; [lia|right]; apply mk_ext; intros i Hi; idx|].
    split; [exists a, (b - m)%nat; split; [lia|]; apply mk_ext; intros i Hi; idx|].
    left. apply allF_mk. intros i Hi. idx.
  - (* zeros across the cut, short *)
    split; [exists (b - m)%nat, a; split; [lia|right]; apply mk_ext; intros i Hi; idx|].
    split; [exists (n - m)%nat, (n - m)%nat; split; [lia|]; apply mk_ext; intros i Hi; idx|].
    right. apply allT_mk. intros i Hi. idx.
Qed.

(* the half-cleaner on 0^a 1^(b-a) 0^(n-b), n = 2m *)
Lemma step_ud m a b : (1 <= m)%nat -> (a <= b <= 2 * m)%nat ->
  let v := ud (2 * m) a b in
  let r := merge_pairs gtB true (firstn m v) (skipn m v) in
  Bit m (fst r) /\ Bit m (snd r) /\ (allF (fst r) \/ allT (snd r)).
Proof.
  intros Hm Hab v r.
  assert (E : r = (mk m (fun i => if (i <? m)%nat
                                  then ((a <=? i)%nat && (i <? b)%nat) && ((a <=? m + i)%nat && (m + i <? b)%nat)
                                  else (a <=? i)%nat && (i <? b)%nat),
                   mk m (fun i => ((a <=? i)%nat && (i <? b)%nat) || ((a <=? m + i)%nat && (m + i <? b)%nat)))).
  { subst r v. unfold ud. rewrite firstn_mk, skipn_mk by lia. replace (2 * m - m)%nat with m by lia.
    apply merge_pairs_mk. lia. }
  rewrite E. cbn [fst snd]. clear E r v. unfold Bit, DU, du, ud.
  destruct (Nat.le_gt_cases b m) as [Hb|Hb]; [|destruct (Nat.le_gt_cases m a) as [Ha|Ha]; [|destruct (Nat.le_gt_cases (b - m) a) as [Hz|Hz]]].
  - split; [exists 0%nat, 0%nat; split; [lia|right]; apply mk_ext; intros i Hi; idx|].
    split; [exists a, b; split; [lia|right]; apply mk_ext; intros i Hi; idx|].
    left. apply allF_mk. intros i Hi. idx.
  - split; [exists 0%nat, 0%nat; split; [lia|right]; apply mk_ext; intros i Hi; idx|].
    split; [exists (a - m)%nat, (b - m)%nat; split; [lia|right]; apply mk_ext; intros i Hi; idx|].
    left. apply allF_mk. intros i Hi. idx.
  - split; [exists 0%nat, 0%nat; split; [lia|right]; apply mk_ext; intros i Hi; idx|].
    split; [exists (b - m)%nat, a; split; [lia|left]; apply mk_ext; intros i Hi; idx|].
    left. apply allF_mk. intros i Hi. idx.
  - split; [exists a, (b - m)%nat; split; [lia|right]; apply mk_ext; intros i Hi; idx|].
    split; [exists m, m; split; [lia|left]; apply mk_ext; intros i Hi; idx|].
    right. apply allT_mk. intros i Hi. idx.
Qed.

(* ================================================================ the merger on 0/1 *)

Lemma sortedB_app_F x y : allF x -> sortedB y = true -> sortedB (x ++ y) = true.
Proof.
  intros Hx Hy. induction Hx as [|a x Ha _ IH]; [exact Hy|]. subst a. cbn [app].
  destruct (x ++ y) as [|c r] eqn:E; [reflexivity|]. rewrite sortedB_cons, IH. reflexivity.
Qed.

Lemma allT_sorted y : allT y -> sortedB y = true.
Proof.
  induction y as [|c [|c2 y] IH]; intro H; try reflexivity.
  inversion H as [|? ? Hc H']; subst. inversion H' as [|? ? Hc2 _]; subst.
  rewrite sortedB_cons. cbn [leB implb andb]. apply IH. exact H'.
Qed.

Lemma sortedB_app_T x y : sortedB x = true -> allT y -> sortedB (x ++ y) = true.
Proof.
  intros Hx Hy. induction x as [|a [|c x] IH].
  - apply allT_sorted. exact Hy.
  - cbn [app]. destruct y as [|c y]; [reflexivity|]. inversion Hy as [|? ? Hc Hy']; subst.
    rewrite sortedB_cons, (allT_sorted _ Hy). destruct a; reflexivity.
  - rewrite sortedB_cons in Hx. apply andb_prop in Hx. destruct Hx as [H1 H2].
    cbn [app]. rewrite sortedB_cons, H1. cbn [andb]. apply IH. exact H2.
Qed.

Lemma merger_fuel_perm {A} (gtb : A -> A -> bool) f asc v : Permutation (merger_fuel gtb f asc v) v.
Proof. rewrite <- merger_net_correct. apply cmpx_perm. Qed.

Lemma pow2_below_pow fuel : forall p n, exists j, pow2_below fuel p n = (p * 2 ^ j)%nat.
Proof.
  induction fuel as [|f IH]; intros p n; cbn [pow2_below]; [exists 0%nat; cbn; lia|].
  destruct (2 * p <? n)%nat; [|exists 0%nat; cbn; lia].
  destruct (IH (2 * p)%nat n) as [j ->]. exists (S j). cbn [Nat.pow]. lia.
Qed.

(* the split point of a length >= 2 is a power of two, strictly below, at least half *)
Lemma split_point n : (2 <= n)%nat ->
  exists j, pow2_below n 1 n = (2 ^ j)%nat /\ (2 ^ j < n)%nat /\ (n <= 2 * 2 ^ j)%nat.
Proof.
  intro H. destruct (pow2_below_top n H) as (_ & H2 & H3). destruct (pow2_below_pow n 1 n) as [j E].
  exists j. rewrite E in *. rewrite Nat.mul_1_l in *. auto.
Qed.

Lemma split_point_pow2 k : pow2_below (2 ^ S k) 1 (2 ^ S k) = (2 ^ k)%nat.
Proof.
  assert (H2 : (2 <= 2 ^ S k)%nat).
  { cbn [Nat.pow]. pose proof (Nat.pow_nonzero 2 k ltac:(lia)). lia. }
  destruct (split_point _ H2) as (j & -> & H3 & H4). f_equal.
  change (2 * 2 ^ j)%nat with (2 ^ S j)%nat in H4.
  apply Nat.pow_lt_mono_r_iff in H3; [|lia]. apply Nat.pow_le_mono_r_iff in H4; [|lia]. lia.
Qed.

(* one level of the recursion *)
Lemma merger_fuel_S {A} (gtb : A -> A -> bool) f asc v : (2 <= length v)%nat ->
  merger_fuel gtb (S f) asc v =
  let m := pow2_below (length v) 1 (length v) in
  let r := merge_pairs gtb asc (firstn m v) (skipn m v) in
  merger_fuel gtb f asc (fst r) ++ merger_fuel gtb f asc (snd r).
Proof.
  intro H. cbn [merger_fuel]. destruct (Nat.leb_spec (length v) 1); [lia|]. cbv zeta.
  destruct (merge_pairs gtb asc _ _). reflexivity.
Qed.

Lemma sorted_halves f lo up :
  sortedB (merger_fuel gtB f true lo) = true -> sortedB (merger_fuel gtB f true up) = true ->
  allF lo \/ allT up ->
  sortedB (merger_fuel gtB f true lo ++ merger_fuel gtB f true up) = true.
Proof.
  intros H1 H2 [H|H].
  - apply sortedB_app_F; [|exact H2]. unfold allF. eapply Permutation_Forall; [apply Permutation_sym, merger_fuel_perm|exact H].
  - apply sortedB_app_T; [exact H1|]. unfold allT. eapply Permutation_Forall; [apply Permutation_sym, merger_fuel_perm|exact H].
Qed.

Lemma short_sorted (l : list bool) : (length l <= 1)%nat -> sortedB l = true.
Proof. destruct l as [|a [|c l]]; cbn [length]; try reflexivity. lia. Qed.

Lemma merger_short {A} (gtb : A -> A -> bool) f asc v : (length v <= 1)%nat -> merger_fuel gtb f asc v = v.
Proof. intro H. destruct f; cbn [merger_fuel]; [reflexivity|]. destruct (Nat.leb_spec (length v) 1); [reflexivity|lia]. Qed.

Lemma Bit_length m l : Bit m l -> length l = m.
Proof. intros (a & b & _ & [-> | ->]); apply mk_length. Qed.
Lemma DU_length m l : DU m l -> length l = m.
Proof. intros (a & b & _ & ->). apply mk_length. Qed.

(* power-of-two lengths: both shapes *)
Lemma merger_bit k : forall f l, (2 ^ k <= f)%nat -> Bit (2 ^ k) l ->
  sortedB (merger_fuel gtB f true l) = true.
Proof.
  induction k as [|k IH]; intros f l Hf Hl.
  - rewrite merger_short by (rewrite (Bit_length _ _ Hl); cbn; lia). apply short_sorted. rewrite (Bit_length _ _ Hl). cbn. lia.
  - pose proof (Bit_length _ _ Hl) as Ll.
    assert (H2 : (2 <= 2 ^ S k)%nat) by (cbn [Nat.pow]; pose proof (Nat.pow_nonzero 2 k ltac:(lia)); lia).
    destruct f as [|f]; [lia|]. rewrite merger_fuel_S by lia. rewrite Ll, split_point_pow2. cbv zeta.
    assert (Hm : (1 <= 2 ^ k)%nat) by (pose proof (Nat.pow_nonzero 2 k ltac:(lia)); lia).
    assert (Hf' : (2 ^ k <= f)%nat) by (cbn [Nat.pow] in Hf; lia).
    destruct Hl as (a & b & Hab & [-> | ->]).
    + change (2 ^ S k)%nat with (2 * 2 ^ k)%nat in *.
      destruct (step_du (2 * 2 ^ k) (2 ^ k) a b ltac:(lia) ltac:(lia) Hab) as (B1 & B2 & B3).
      replace (2 * 2 ^ k - 2 ^ k)%nat with (2 ^ k)%nat in B2 by lia.
      apply sorted_halves; [apply IH; assumption|apply IH; [assumption|apply DU_Bit; exact B2]|exact B3].
    + change (2 ^ S k)%nat with (2 * 2 ^ k)%nat in *.
      destruct (step_ud (2 ^ k) a b Hm Hab) as (B1 & B2 & B3).
      apply sorted_halves; [apply IH; assumption|apply IH; assumption|exact B3].
Qed.

(* any length: the down-up shape *)
Lemma merger_du f : forall n l, (n <= f)%nat -> DU n l -> sortedB (merger_fuel gtB f true l) = true.
Proof.
  induction f as [|f IH]; intros n l Hf Hl; pose proof (DU_length _ _ Hl) as Ll.
  - rewrite merger_short by lia. apply short_sorted. lia.
  - destruct (Nat.le_gt_cases n 1) as [H1|H1]; [rewrite merger_short by lia; apply short_sorted; lia|].
    rewrite merger_fuel_S by lia. rewrite Ll. destruct (split_point n ltac:(lia)) as (j & -> & Hj1 & Hj2). cbv zeta.
    destruct Hl as (a & b & Hab & ->).
    destruct (step_du n (2 ^ j) a b Hj1 Hj2 Hab) as (B1 & B2 & B3).
    apply sorted_halves; [apply (merger_bit j); [lia|exact B1]|apply (IH (n - 2 ^ j)%nat); [lia|exact B2]|exact B3].
Qed.

Theorem merger_sorts_blocks_down_up a b c :
  sortedB (bitonic_merger gtB true (blocks true a b c)) = true.
Proof.
  unfold bitonic_merger. rewrite blocks_du. apply (merger_du _ (a + b + c)).
  - unfold du. rewrite mk_length. lia.
  - exists a, (a + b)%nat. split; [lia|reflexivity].
Qed.

Theorem merger_sorts_blocks_up_down a b c k : (a + b + c = 2 ^ k)%nat ->
  sortedB (bitonic_merger gtB true (blocks false a b c)) = true.
Proof.
  intro E. unfold bitonic_merger. rewrite blocks_ud. apply (merger_bit k).
  - unfold ud. rewrite mk_length. lia.
  - rewrite <- E. exists a, (a + b)%nat. split; [lia|]. right. reflexivity.
Qed.

(* ================================================================ the descending merger, by complement *)

Lemma merge_pairs_neg l : forall u,
  merge_pairs gtB false (map negb l) (map negb u) =
  (map negb (fst (merge_pairs gtB true l u)), map negb (snd (merge_pairs gtB true l u))).
Proof.
  induction l as [|x l IH]; intros [|y u]; cbn [map merge_pairs fst snd]; try reflexivity.
  rewrite !cx_bool, IH. destruct (merge_pairs gtB true l u) as [lo hi]. cbn [fst snd map].
  destruct x, y; reflexivity.
Qed.

Lemma merger_neg f : forall v,
  merger_fuel gtB f false (map negb v) = map negb (merger_fuel gtB f true v).
Proof.
  induction f as [|f IH]; intro v; cbn [merger_fuel]; [reflexivity|]. rewrite map_length.
  destruct (length v <=? 1)%nat; [reflexivity|].
  rewrite firstn_map, skipn_map, merge_pairs_neg.
  destruct (merge_pairs gtB true _ _) as [lo hi]. cbn [fst snd]. rewrite !IH, map_app. reflexivity.
Qed.

Lemma map_repeat {X Y} (f : X -> Y) x n : map f (repeat x n) = repeat (f x) n.
Proof. induction n as [|n IH]; cbn [repeat map]; [reflexivity|now rewrite IH]. Qed.

Lemma blocks_neg a b c : blocks false a b c = map negb (blocks true a b c).
Proof.
  unfold blocks. cbn [negb]. rewrite !map_app, !map_repeat. reflexivity.
Qed.

(* ================================================================ the sorter on 0/1 *)

(* sorted in direction [asc] *)
Definition Sdir (asc : bool) (l : list bool) : Prop :=
  exists a b, l = repeat (negb asc) a ++ repeat asc b.

Lemma Sdir_short asc l : (length l <= 1)%nat -> Sdir asc l.
Proof.
  destruct l as [|x [|y l]]; cbn [length]; intro H; [exists 0%nat, 0%nat; reflexivity| |lia].
  destruct (Bool.bool_dec x asc) as [->|Hne]; [exists 0%nat, 1%nat; reflexivity|].
  exists 1%nat, 0%nat. cbn [repeat app]. destruct x, asc; try reflexivity; congruence.
Qed.

Lemma merger_dir asc a b c : Sdir asc (bitonic_merger gtB asc (blocks asc a b c)).
Proof.
  destruct asc.
  - destruct (sortedB_shape _ (merger_sorts_blocks_down_up a b c)) as (x & y & E). exists x, y. exact E.
  - rewrite blocks_neg. unfold bitonic_merger. rewrite map_length, merger_neg.
    destruct (sortedB_shape _ (merger_sorts_blocks_down_up a b c)) as (x & y & E).
    unfold bitonic_merger in E. rewrite E. exists x, y. rewrite map_app, !map_repeat. reflexivity.
Qed.

Lemma sorter_fuel_S {A} (gtb : A -> A -> bool) f asc v : (2 <= length v)%nat ->
  sorter_fuel gtb (S f) asc v =
  bitonic_merger gtb asc (sorter_fuel gtb f (negb asc) (firstn (length v / 2) v)
                          ++ sorter_fuel gtb f asc (skipn (length v / 2) v)).
Proof. intro H. cbn [sorter_fuel]. destruct (Nat.leb_spec (length v) 1); [lia|reflexivity]. Qed.

Lemma sorter_dir f : forall asc v, (length v <= f)%nat -> Sdir asc (sorter_fuel gtB f asc v).
Proof.
  induction f as [|f IH]; intros asc v Hf.
  - cbn [sorter_fuel]. apply Sdir_short. lia.
  - destruct (Nat.le_gt_cases (length v) 1) as [H1|H1].
    + cbn [sorter_fuel]. destruct (Nat.leb_spec (length v) 1); [|lia]. apply Sdir_short. exact H1.
    + rewrite sorter_fuel_S by lia.
      assert (Hh : (length v / 2 < length v)%nat) by (apply Nat.div_lt; lia).
      assert (Hh1 : (1 <= length v / 2)%nat) by (apply Nat.div_le_lower_bound; lia).
      destruct (IH (negb asc) (firstn (length v / 2) v)) as (a & b & ->); [rewrite firstn_length; lia|].
      destruct (IH asc (skipn (length v / 2) v)) as (c & d & ->); [rewrite skipn_length; lia|].
      rewrite Bool.negb_involutive.
      replace ((repeat asc a ++ repeat (negb asc) b) ++ repeat (negb asc) c ++ repeat asc d)
        with (blocks asc a (b + c) d)
        by (unfold blocks; rewrite repeat_app, <- !app_assoc; reflexivity).
      apply merger_dir.
Qed.

Theorem sorter_sorts_bools (w : list bool) : sortedB (bitonic_sorter gtB w) = true.
Proof.
  unfold bitonic_sorter. destruct (sorter_dir (S (length w)) true w ltac:(lia)) as (a & b & ->).
  cbn [negb]. apply sortedB_app_F; [apply Forall_forall; intros x Hx; now apply repeat_spec in Hx|].
  apply allT_sorted. apply Forall_forall. intros x Hx. now apply repeat_spec in Hx.
Qed.

(* ================================================================ keys: the zero-one principle *)

Theorem merger_sorts_down_up (v : list N) :
  down_then_up v -> sortedN (bitonic_merger gtN true v) = true.
Proof.
  intro Hs. apply merger_zero_one. intro t.
  destruct (down_then_up_thr t v Hs) as (a & b & c & -> & _). apply merger_sorts_blocks_down_up.
Qed.

Theorem merger_sorts_up_down (v : list N) (k : nat) :
  length v = (2 ^ k)%nat -> up_then_down v -> sortedN (bitonic_merger gtN true v) = true.
Proof.
  intros Hn Hs. apply merger_zero_one. intro t.
  destruct (up_then_down_thr t v Hs) as (a & b & c & -> & Hl).
  apply (merger_sorts_blocks_up_down a b c k). lia.
Qed.

Theorem sorter_sorts (v : list N) : sortedN (bitonic_sorter gtN v) = true.
Proof. apply sorter_zero_one. intro t. apply sorter_sorts_bools. Qed.

(* ================================================================ elements *)

Theorem merger_elems_up_down bits (v : list elem) k :
  length v = (2 ^ k)%nat -> up_then_down (map (key bits) v) ->
  sortedN (map (key bits) (bitonic_merger (gt_key bits) true v)) = true /\
  Permutation (bitonic_merger (gt_key bits) true v) v.
Proof.
  intros Hn Hs. split; [|apply bitonic_merger_perm].
  rewrite merger_keys. apply (merger_sorts_up_down _ k); [now rewrite map_length|exact Hs].
Qed.

Theorem merger_elems_down_up bits (v : list elem) :
  down_then_up (map (key bits) v) ->
  sortedN (map (key bits) (bitonic_merger (gt_key bits) true v)) = true /\
  Permutation (bitonic_merger (gt_key bits) true v) v.
Proof.
  intro Hs. split; [|apply bitonic_merger_perm]. rewrite merger_keys. apply merger_sorts_down_up. exact Hs.
Qed.

Theorem sorter_elems bits (v : list elem) :
  sortedN (map (key bits) (bitonic_sorter (gt_key bits) v)) = true /\
  Permutation (bitonic_sorter (gt_key bits) v) v.
Proof. split; [|apply bitonic_sorter_perm]. rewrite sorter_keys. apply sorter_sorts. Qed.

Print Assumptions merger_elems_up_down.
Print Assumptions merger_elems_down_up.
Print Assumptions sorter_elems.

(* 100 keys, a down-up sequence of length 97: both by the theorems; the networks are not evaluated *)
Example sorter_100 :
  sortedN (bitonic_sorter gtN (map (fun i => N.of_nat ((i * 37) mod 101)) (seq 0 100))) = true.
Proof. apply sorter_sorts. Qed.

Example merger_97 :
  sortedN (bitonic_merger gtN true (map N.of_nat (rev (seq 0 40)) ++ map N.of_nat (seq 5 57))) = true.
Proof.
  apply merger_sorts_down_up. eexists. eexists. split; [reflexivity|]. split; vm_compute; reflexivity.
Qed.
