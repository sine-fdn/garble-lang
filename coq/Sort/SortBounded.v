(* C13 — the Boolean checkers of Sort.v that run a network on every 0/1 input of a given shape
   and length: what a positive answer means, and the one negative answer that matters. *)
From GV Require Import Base.Util Sort.Sort.

Lemma splits3_complete n a b c : (a + b + c = n)%nat -> In (a, b, c) (splits3 n).
Proof.
  intro H. unfold splits3. apply in_flat_map. exists a. split; [apply in_seq; lia|].
  apply in_map_iff. exists b. split; [f_equal; lia|apply in_seq; lia].
Qed.

Lemma check_merger_blocks_sound x n a b c :
  check_merger_blocks x n = true -> (a + b + c = n)%nat ->
  sortedB (bitonic_merger gtB true (blocks x a b c)) = true.
Proof.
  intros H E. unfold check_merger_blocks in H. rewrite forallb_forall in H.
  exact (H (a, b, c) (splits3_complete n a b c E)).
Qed.

Lemma all_bools_complete n : forall w, length w = n -> In w (all_bools n).
Proof.
  induction n as [|n IH]; intros [|x w] H; try discriminate; [now left|].
  cbn [all_bools]. apply in_or_app. injection H as H.
  destruct x; [right|left]; apply in_map; now apply IH.
Qed.

(* the arbitrary-length merger does NOT sort up-then-down inputs of a length that is not a
   power of two (the compiler only uses it that way on padded, power-of-two vectors) *)
Lemma check_up_down_3_fails : check_merger_blocks false 3 = false.
Proof. vm_compute. reflexivity. Qed.
