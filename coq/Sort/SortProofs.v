(* C13 — proofs about the pure sorting-network specification Sort.v: the comparison chain is
   the unsigned comparison of keys, the recursive merger and sorter are compare-exchange
   networks, and such networks only permute their input. *)
From Coq Require Import Permutation.
From GV Require Import Base.Util Base.Bits Base.BitsProofs Base.BitViews Gadgets.Gadgets Gadgets.GadgetSpec
  Gadgets.Arith Sort.Sort.

(* ---------------------------------------------------------------- gt on keys *)

(* Sort.v spells the unsigned reading and the comparison chain in its own words; they are
   [bits_to_N] of Base/Bits.v and [gt_s] of GadgetSpec.v *)
Lemma gt_loop_s_fold xys : forall c, gt_loop_s xys c = fold_left gt_step xys c.
Proof. induction xys as [|[x y] r IH]; intro c; [reflexivity|apply IH]. Qed.

Lemma gt_eq bits x y : gt bits x y = gt_s bits x y.
Proof. symmetry. apply gt_loop_s_fold. Qed.

(* the carry chain of push_gt_circuit computes "key x > key y" (unsigned, MSB first),
   for every width *)
Lemma gt_correct bits x y :
  (bits <= length x)%nat -> (bits <= length y)%nat -> gt bits x y = gt_key bits x y.
Proof.
  intros Hx Hy. rewrite gt_eq, Arith.gt_correct by assumption.
  unfold gt_key, gtN, key. now rewrite !bits_val_bits_to_N.
Qed.

(* ---------------------------------------------------------------- condswap / sorter on bits *)

Lemma condswap_spec s x y : condswap s x y = if s then (y, x) else (x, y).
Proof. destruct s, x, y; reflexivity. Qed.

Lemma condswap_list_spec s x : forall y, length x = length y ->
  condswap_list s x y = if s then (y, x) else (x, y).
Proof.
  unfold condswap_list. induction x as [|a x IH]; intros [|b y] Hl; try discriminate.
  - destruct s; reflexivity.
  - cbn [combine map fst snd]. specialize (IH y ltac:(cbn [length] in Hl; lia)).
    rewrite condswap_spec.
    destruct s; cbn [fst snd]; injection IH as H1 H2; rewrite H1, H2; reflexivity.
Qed.

Lemma sorter_bits_spec bits x y :
  length x = length y -> (bits <= length x)%nat ->
  sorter_bits bits x y = sorter (gt_key bits) x y.
Proof.
  intros Hl Hb. unfold sorter_bits, sorter. rewrite condswap_list_spec by exact Hl.
  rewrite gt_correct by lia. reflexivity.
Qed.

(* ---------------------------------------------------------------- pow2_below *)

Lemma pow2_below_spec fuel : forall p n, (1 <= p)%nat -> (p < n)%nat -> (n <= p + fuel)%nat ->
  let r := pow2_below fuel p n in (p <= r)%nat /\ (r < n)%nat /\ (n <= 2 * r)%nat.
Proof.
  induction fuel as [|f IH]; intros p n Hp Hlt Hf; cbn [pow2_below].
  - lia.
  - destruct (Nat.ltb_spec (2 * p) n) as [H|H].
    + specialize (IH (2 * p)%nat n ltac:(lia) H ltac:(lia)). cbn zeta in IH. lia.
    + lia.
Qed.

Lemma pow2_below_top n : (2 <= n)%nat ->
  let m := pow2_below n 1 n in (1 <= m)%nat /\ (m < n)%nat /\ (n <= 2 * m)%nat.
Proof. intro H. apply pow2_below_spec; lia. Qed.

(* ---------------------------------------------------------------- generic network lemmas *)

Section NetProofs.
  Context {A : Type}.
  Variable gtb : A -> A -> bool.

  Lemma upd_length (l : list A) : forall i a, length (upd l i a) = length l.
  Proof. induction l as [|x r IH]; intros [|i] a; cbn [upd length]; auto. Qed.

  Lemma upd_app1 (l r : list A) : forall i a, (i < length l)%nat -> upd (l ++ r) i a = upd l i a ++ r.
  Proof.
    induction l as [|x l IH]; intros i a Hi; cbn [length] in Hi; [lia|].
    destruct i as [|i]; cbn [upd app]; [reflexivity|]. f_equal. apply IH. lia.
  Qed.

  Lemma upd_app2 (l r : list A) : forall i a, upd (l ++ r) (length l + i) a = l ++ upd r i a.
  Proof. induction l as [|x l IH]; intros i a; cbn [upd app length Nat.add]; [reflexivity|]. f_equal. apply IH. Qed.

  Lemma upd_here (p q : list A) a b : upd (p ++ a :: q) (length p) b = p ++ b :: q.
  Proof. rewrite <- (Nat.add_0_r (length p)), upd_app2. reflexivity. Qed.

  Lemma nth_error_here (p q : list A) a : nth_error (p ++ a :: q) (length p) = Some a.
  Proof. rewrite nth_error_app2 by lia. rewrite Nat.sub_diag. reflexivity. Qed.

  Lemma upd_same (l : list A) : forall i a, nth_error l i = Some a -> upd l i a = l.
  Proof.
    induction l as [|x l IH]; intros [|i] a H; cbn [nth_error upd] in *; try discriminate.
    - congruence.
    - f_equal. now apply IH.
  Qed.

  Lemma cx_cases asc x y : cx gtb asc x y = (x, y) \/ cx gtb asc x y = (y, x).
  Proof. unfold cx, sorter. destruct (gtb x y), asc; auto. Qed.

  Lemma run_op_length v o : length (run_op gtb v o) = length v.
  Proof.
    destruct o as [[i j] asc]. unfold run_op.
    destruct (nth_error v i); [|reflexivity]. destruct (nth_error v j); [|reflexivity].
    destruct (cx gtb asc a a0). now rewrite !upd_length.
  Qed.

  Lemma run_net_length net : forall v, length (run_net gtb net v) = length v.
  Proof.
    unfold run_net. induction net as [|o net IH]; intro v; cbn [fold_left]; [reflexivity|].
    rewrite IH. apply run_op_length.
  Qed.

  Lemma run_net_app n1 n2 v : run_net gtb (n1 ++ n2) v = run_net gtb n2 (run_net gtb n1 v).
  Proof. unfold run_net. apply fold_left_app. Qed.

  Definition op_below (n : nat) (o : cxop) : Prop := let '(i, j, _) := o in (i < n)%nat /\ (j < n)%nat.

  Lemma run_op_frame_right l r o : op_below (length l) o -> run_op gtb (l ++ r) o = run_op gtb l o ++ r.
  Proof.
    destruct o as [[i j] asc]. intros [Hi Hj]. unfold run_op.
    rewrite !nth_error_app1 by assumption.
    destruct (nth_error l i); [|reflexivity]. destruct (nth_error l j); [|reflexivity].
    destruct (cx gtb asc a a0). rewrite upd_app1 by assumption.
    rewrite upd_app1 by (now rewrite upd_length). reflexivity.
  Qed.

  Lemma run_net_frame_right net : forall l r, Forall (op_below (length l)) net ->
    run_net gtb net (l ++ r) = run_net gtb net l ++ r.
  Proof.
    induction net as [|o net IH]; intros l r H; [reflexivity|].
    inversion H as [|? ? Ho Hn]; subst. unfold run_net in *. cbn [fold_left].
    rewrite run_op_frame_right by assumption. apply IH. now rewrite run_op_length.
  Qed.

  Lemma run_op_frame_left l r o : run_op gtb (l ++ r) (shift_op (length l) o) = l ++ run_op gtb r o.
  Proof.
    destruct o as [[i j] asc]. unfold run_op, shift_op.
    rewrite !nth_error_app2 by lia.
    replace (length l + i - length l)%nat with i by lia.
    replace (length l + j - length l)%nat with j by lia.
    destruct (nth_error r i); [|reflexivity]. destruct (nth_error r j); [|reflexivity].
    destruct (cx gtb asc a a0). now rewrite !upd_app2.
  Qed.

  Lemma run_net_frame_left net : forall l r,
    run_net gtb (shift_net (length l) net) (l ++ r) = l ++ run_net gtb net r.
  Proof.
    induction net as [|o net IH]; intros l r; [reflexivity|].
    unfold run_net, shift_net in *. cbn [map fold_left]. rewrite run_op_frame_left. apply IH.
  Qed.

  (* ---- merge_pairs ---- *)

  Lemma merge_pairs_length asc lower : forall upper,
    length (fst (merge_pairs gtb asc lower upper)) = length lower /\
    length (snd (merge_pairs gtb asc lower upper)) = length upper.
  Proof.
    induction lower as [|x lr IH]; intros [|y ur]; cbn [merge_pairs fst snd length]; auto.
    destruct (cx gtb asc x y) as [lo hi]. specialize (IH ur).
    destruct (merge_pairs gtb asc lr ur) as [a b]. cbn [fst snd length] in *. lia.
  Qed.

  Lemma merge_pairs_app asc l1 : forall l2 mid, length l1 = length l2 ->
    merge_pairs gtb asc (l1 ++ mid) l2 =
    (fst (merge_pairs gtb asc l1 l2) ++ mid, snd (merge_pairs gtb asc l1 l2)).
  Proof.
    induction l1 as [|x l1 IH]; intros [|y l2] mid Hl; try discriminate.
    - cbn [app merge_pairs fst snd]. destruct mid; reflexivity.
    - cbn [app merge_pairs]. destruct (cx gtb asc x y) as [lo hi].
      rewrite IH by (cbn [length] in Hl; lia).
      destruct (merge_pairs gtb asc l1 l2) as [a b]. reflexivity.
  Qed.

  Lemma pairs_net_S g k asc :
    pairs_net g (S k) asc = (0%nat, g, asc) :: shift_net 1 (pairs_net g k asc).
  Proof.
    unfold pairs_net, shift_net. cbn [seq map]. f_equal.
    rewrite <- seq_shift, !map_map. apply map_ext. intro i. reflexivity.
  Qed.

  Lemma run_pairs_net asc l1 : forall l2 mid rest, length l1 = length l2 ->
    run_net gtb (pairs_net (length l1 + length mid) (length l1) asc) (l1 ++ mid ++ l2 ++ rest) =
    fst (merge_pairs gtb asc l1 l2) ++ mid ++ snd (merge_pairs gtb asc l1 l2) ++ rest.
  Proof.
    induction l1 as [|x l1 IH]; intros [|y l2] mid rest Hl; try discriminate.
    - reflexivity.
    - cbn [length Nat.add]. rewrite pairs_net_S.
      change (run_net gtb (?o :: ?n) ?v) with (run_net gtb n (run_op gtb v o)).
      assert (Hv : (x :: l1) ++ mid ++ (y :: l2) ++ rest = x :: (l1 ++ mid) ++ y :: (l2 ++ rest))
        by (cbn [app]; now rewrite <- app_assoc).
      rewrite Hv. unfold run_op.
      replace (nth_error (x :: (l1 ++ mid) ++ y :: l2 ++ rest) 0) with (Some x) by reflexivity.
      replace (S (length l1 + length mid)) with (S (length (l1 ++ mid))) by (now rewrite app_length).
      cbn [nth_error]. rewrite nth_error_here.
      cbn [merge_pairs]. destruct (cx gtb asc x y) as [lo hi].
      cbn [upd]. rewrite upd_here.
      change (lo :: (l1 ++ mid) ++ hi :: l2 ++ rest) with ([lo] ++ ((l1 ++ mid) ++ hi :: l2 ++ rest)).
      change 1%nat with (length [lo]).
      rewrite run_net_frame_left.
      replace ((l1 ++ mid) ++ hi :: l2 ++ rest) with (l1 ++ (mid ++ [hi]) ++ l2 ++ rest)
        by (rewrite <- !app_assoc; reflexivity).
      specialize (IH l2 (mid ++ [hi]) rest ltac:(cbn [length] in Hl; lia)).
      rewrite app_length in IH. cbn [length] in IH.
      replace (S (length (l1 ++ mid))) with (length l1 + (length mid + 1))%nat
        by (rewrite app_length; lia).
      rewrite IH. destruct (merge_pairs gtb asc l1 l2) as [a b]. cbn [fst snd app].
      rewrite <- !app_assoc. reflexivity.
  Qed.

  Lemma merge_pairs_split asc v m : (m <= length v)%nat -> (length v <= 2 * m)%nat ->
    run_net gtb (pairs_net m (length v - m) asc) v =
    fst (merge_pairs gtb asc (firstn m v) (skipn m v)) ++ snd (merge_pairs gtb asc (firstn m v) (skipn m v)).
  Proof.
    intros Hm Hn.
    set (k := (length v - m)%nat).
    set (lower := firstn m v). set (upper := skipn m v).
    assert (Hll : length lower = m) by (unfold lower; rewrite firstn_length; lia).
    assert (Hlu : length upper = k) by (unfold upper, k; now rewrite skipn_length).
    set (l1 := firstn k lower). set (mid := skipn k lower).
    assert (Hl1 : length l1 = k) by (unfold l1; rewrite firstn_length; lia).
    assert (Hmid : length mid = (m - k)%nat) by (unfold mid; rewrite skipn_length; lia).
    assert (Hv : v = l1 ++ mid ++ upper ++ []).
    { rewrite app_nil_r, app_assoc. unfold l1, mid. rewrite firstn_skipn. unfold lower, upper.
      now rewrite firstn_skipn. }
    assert (Hlow : lower = l1 ++ mid) by (unfold l1, mid; now rewrite firstn_skipn).
    rewrite Hlow, merge_pairs_app by lia. cbn [fst snd].
    rewrite Hv at 1.
    replace (pairs_net m k asc) with (pairs_net (length l1 + length mid) (length l1) asc)
      by (f_equal; lia).
    rewrite run_pairs_net by lia. rewrite app_nil_r, app_assoc. reflexivity.
  Qed.

  Lemma pairs_net_below g k asc : Forall (op_below (k + g)) (pairs_net g k asc).
  Proof.
    unfold pairs_net. apply Forall_forall. intros o Ho. apply in_map_iff in Ho.
    destruct Ho as (i & <- & Hi). apply in_seq in Hi. cbn. lia.
  Qed.

  Lemma op_below_mono n n' o : (n <= n')%nat -> op_below n o -> op_below n' o.
  Proof. destruct o as [[i j] asc]. cbn. lia. Qed.

  Lemma Forall_below_mono n n' net : (n <= n')%nat -> Forall (op_below n) net -> Forall (op_below n') net.
  Proof. intros H. apply Forall_impl. intro o. now apply op_below_mono. Qed.

  Lemma shift_net_below k n net : Forall (op_below n) net -> Forall (op_below (k + n)) (shift_net k net).
  Proof.
    intro H. unfold shift_net. apply Forall_forall. intros o Ho. apply in_map_iff in Ho.
    destruct Ho as ([[i j] asc] & <- & Hi). rewrite Forall_forall in H. specialize (H _ Hi). cbn in *. lia.
  Qed.

  Lemma merger_net_below fuel : forall n asc, Forall (op_below n) (merger_net fuel n asc).
  Proof.
    induction fuel as [|f IH]; intros n asc; cbn [merger_net]; [constructor|].
    destruct (Nat.leb_spec n 1) as [H|H]; [constructor|].
    destruct (pow2_below_top n ltac:(lia)) as (H1 & H2 & H3).
    set (m := pow2_below n 1 n) in *.
    apply Forall_app; split; [|apply Forall_app; split].
    - replace n with ((n - m) + m)%nat at 1 by lia. apply pairs_net_below.
    - apply (Forall_below_mono m); [lia|apply IH].
    - replace n with (m + (n - m))%nat at 1 by lia. apply shift_net_below, IH.
  Qed.

  Lemma merger_fuel_length fuel : forall asc v, length (merger_fuel gtb fuel asc v) = length v.
  Proof.
    induction fuel as [|f IH]; intros asc v; cbn [merger_fuel]; [reflexivity|].
    destruct (Nat.leb_spec (length v) 1) as [H|H]; [reflexivity|].
    set (m := pow2_below (length v) 1 (length v)).
    pose proof (merge_pairs_length asc (firstn m v) (skipn m v)) as [L1 L2].
    destruct (merge_pairs gtb asc (firstn m v) (skipn m v)) as [lo up]. cbn [fst snd] in *.
    rewrite app_length, !IH, L1, L2, <- app_length, firstn_skipn. reflexivity.
  Qed.

  Lemma merger_net_correct fuel : forall asc v,
    run_net gtb (merger_net fuel (length v) asc) v = merger_fuel gtb fuel asc v.
  Proof.
    induction fuel as [|f IH]; intros asc v; cbn [merger_net merger_fuel]; [reflexivity|].
    destruct (Nat.leb_spec (length v) 1) as [H|H]; [reflexivity|].
    destruct (pow2_below_top (length v) ltac:(lia)) as (H1 & H2 & H3).
    set (m := pow2_below (length v) 1 (length v)) in *.
    rewrite !run_net_app, merge_pairs_split by lia.
    pose proof (merge_pairs_length asc (firstn m v) (skipn m v)) as [L1 L2].
    destruct (merge_pairs gtb asc (firstn m v) (skipn m v)) as [lo up]. cbn [fst snd] in *.
    rewrite firstn_length in L1. rewrite skipn_length in L2.
    assert (Hlo : length lo = m) by lia. assert (Hup : length up = (length v - m)%nat) by lia.
    assert (E1 : run_net gtb (merger_net f m asc) (lo ++ up) = merger_fuel gtb f asc lo ++ up).
    { rewrite run_net_frame_right by (rewrite Hlo; apply merger_net_below).
      f_equal. rewrite <- Hlo. apply IH. }
    rewrite E1.
    assert (E2 : forall l, length l = m ->
      run_net gtb (shift_net m (merger_net f (length v - m) asc)) (l ++ up) = l ++ merger_fuel gtb f asc up).
    { intros l Hl. rewrite <- Hup, <- Hl, run_net_frame_left. f_equal. apply IH. }
    apply E2. now rewrite merger_fuel_length.
  Qed.

  Lemma bitonic_merger_net_correct asc v :
    run_net gtb (bitonic_merger_net (length v) asc) v = bitonic_merger gtb asc v.
  Proof. apply merger_net_correct. Qed.

  Lemma bitonic_merger_length asc v : length (bitonic_merger gtb asc v) = length v.
  Proof. apply merger_fuel_length. Qed.

  Lemma sorter_fuel_length fuel : forall asc v, length (sorter_fuel gtb fuel asc v) = length v.
  Proof.
    induction fuel as [|f IH]; intros asc v; cbn [sorter_fuel]; [reflexivity|].
    destruct (Nat.leb_spec (length v) 1) as [H|H]; [reflexivity|].
    rewrite bitonic_merger_length, app_length, !IH, <- app_length, firstn_skipn. reflexivity.
  Qed.

  Lemma sorter_net_below fuel : forall n asc, Forall (op_below n) (sorter_net fuel n asc).
  Proof.
    induction fuel as [|f IH]; intros n asc; cbn [sorter_net]; [constructor|].
    destruct (Nat.leb_spec n 1) as [H|H]; [constructor|].
    assert (Hh : (n / 2 < n)%nat) by (apply Nat.div_lt; lia).
    apply Forall_app; split; [|apply Forall_app; split].
    - apply (Forall_below_mono (n / 2)); [lia|apply IH].
    - replace n with (n / 2 + (n - n / 2))%nat at 1 by lia. apply shift_net_below, IH.
    - apply merger_net_below.
  Qed.

  Lemma sorter_net_correct fuel : forall asc v,
    run_net gtb (sorter_net fuel (length v) asc) v = sorter_fuel gtb fuel asc v.
  Proof.
    induction fuel as [|f IH]; intros asc v; cbn [sorter_net sorter_fuel]; [reflexivity|].
    destruct (Nat.leb_spec (length v) 1) as [H|H]; [reflexivity|].
    set (h := (length v / 2)%nat).
    assert (Hh : (h < length v)%nat) by (apply Nat.div_lt; lia).
    rewrite !run_net_app.
    assert (Hlf : length (firstn h v) = h) by (rewrite firstn_length; lia).
    assert (Hls : length (skipn h v) = (length v - h)%nat) by (now rewrite skipn_length).
    assert (E1 : run_net gtb (sorter_net f h (negb asc)) (firstn h v ++ skipn h v) =
                 sorter_fuel gtb f (negb asc) (firstn h v) ++ skipn h v).
    { rewrite run_net_frame_right by (rewrite Hlf; apply sorter_net_below).
      f_equal. rewrite <- Hlf at 1. apply IH. }
    rewrite firstn_skipn in E1. rewrite E1.
    assert (E2 : forall l, length l = h ->
      run_net gtb (shift_net h (sorter_net f (length v - h) asc)) (l ++ skipn h v) =
      l ++ sorter_fuel gtb f asc (skipn h v)).
    { intros l Hl. rewrite <- Hls, <- Hl, run_net_frame_left. f_equal. apply IH. }
    rewrite E2 by (now rewrite sorter_fuel_length).
    set (w := sorter_fuel gtb f (negb asc) (firstn h v) ++ sorter_fuel gtb f asc (skipn h v)).
    assert (Hw : length w = length v).
    { unfold w. rewrite app_length, !sorter_fuel_length, <- app_length, firstn_skipn. reflexivity. }
    unfold bitonic_merger. rewrite <- Hw. apply merger_net_correct.
  Qed.

  Lemma bitonic_sorter_net_correct v :
    run_net gtb (bitonic_sorter_net (length v)) v = bitonic_sorter gtb v.
  Proof. apply sorter_net_correct. Qed.

  Lemma bitonic_sorter_length v : length (bitonic_sorter gtb v) = length v.
  Proof. apply sorter_fuel_length. Qed.

  (* ---- permutation: every compare-exchange network only moves elements ---- *)

  Lemma upd_swap_head (r : list A) : forall j x y, nth_error r j = Some y ->
    Permutation (y :: upd r j x) (x :: r).
  Proof.
    induction r as [|z r IH]; intros [|j] x y H; cbn [nth_error upd] in *; try discriminate.
    - injection H as ->. apply perm_swap.
    - eapply perm_trans; [apply perm_swap|]. eapply perm_trans; [|apply perm_swap].
      apply perm_skip. now apply IH.
  Qed.

  Lemma upd_swap_perm (v : list A) : forall i j x y, i <> j ->
    nth_error v i = Some x -> nth_error v j = Some y ->
    Permutation (upd (upd v i y) j x) v.
  Proof.
    induction v as [|z v IH]; intros [|i] [|j] x y Hne Hi Hj; cbn [nth_error upd] in *;
      try discriminate; try congruence.
    - injection Hi as ->. apply (upd_swap_head v j x y Hj).
    - injection Hj as ->. apply (upd_swap_head v i y x Hi).
    - apply perm_skip. apply (IH i j x y); auto.
  Qed.

  Lemma run_op_perm v o : Permutation (run_op gtb v o) v.
  Proof.
    destruct o as [[i j] asc]. unfold run_op.
    destruct (nth_error v i) as [x|] eqn:Hi; [|reflexivity].
    destruct (nth_error v j) as [y|] eqn:Hj; [|reflexivity].
    destruct (Nat.eq_dec i j) as [->|Hne].
    - assert (x = y) by congruence. subst y.
      destruct (cx_cases asc x x) as [-> | ->]; rewrite (upd_same v j x Hj), (upd_same v j x Hj); reflexivity.
    - destruct (cx_cases asc x y) as [-> | ->].
      + rewrite (upd_same v i x Hi), (upd_same v j y Hj). reflexivity.
      + now apply upd_swap_perm.
  Qed.

  Lemma cmpx_perm net : forall v, Permutation (run_net gtb net v) v.
  Proof.
    unfold run_net. induction net as [|o net IH]; intro v; cbn [fold_left]; [reflexivity|].
    eapply perm_trans; [apply IH|apply run_op_perm].
  Qed.

  Lemma bitonic_merger_perm asc v : Permutation (bitonic_merger gtb asc v) v.
  Proof. rewrite <- bitonic_merger_net_correct. apply cmpx_perm. Qed.

  Lemma bitonic_sorter_perm v : Permutation (bitonic_sorter gtb v) v.
  Proof. rewrite <- bitonic_sorter_net_correct. apply cmpx_perm. Qed.
End NetProofs.
