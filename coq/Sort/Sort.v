(* C13 — pure specification of the compare-exchange networks of circuit.rs:1202-1327.
   Elements are [list bool]; the sort key of an element is its first [bits] bits read as an
   unsigned number, most significant bit first.  The recursion of [bitonic_merger] /
   [bitonic_sorter] is exactly that of Gadgets.push_bitonic_merger / push_bitonic_sorter
   (arbitrary length; m = greatest power of two strictly below the length).
   The network functions are generic in the element type and the "greater than" test so
   that the same definitions run on elements, on numeric keys and on 0/1 keys (zero-one
   principle).  Definitions only. *)
From GV Require Import Base.Util Gadgets.Gadgets.

(* ---- keys ---------------------------------------------------------------------------- *)

(* unsigned value of a bit list, MSB first *)
Fixpoint bits_val (l : list bool) : N :=
  match l with
  | [] => 0
  | b :: r => (if b then 2 ^ lenN r else 0) + bits_val r
  end.

Definition elem := list bool.
Definition key (bits : nat) (x : elem) : N := bits_val (firstn bits x).

(* boolean function computed by push_gt_circuit: the carry chain of Sec. 3.2 of
   eprint 2009/411, run from the least significant of the first [bits] positions *)
Definition gt_step (c : bool) (xy : bool * bool) : bool :=
  let '(x, y) := xy in
  xorb (andb (xorb x c) (negb (xorb y c))) c.

Definition gt_chain (xys : list (bool * bool)) : bool := fold_left gt_step xys false.

Definition gt (bits : nat) (x y : elem) : bool :=
  gt_chain (rev (combine (firstn bits x) (firstn bits y))).

(* bit-level conditional swap of push_condswap / the loop of push_sorter *)
Definition condswap (s : bool) (x y : bool) : bool * bool :=
  let sw := andb (xorb x y) s in (xorb x sw, xorb y sw).

Definition condswap_list (s : bool) (x y : elem) : elem * elem :=
  let p := map (fun xy => condswap s (fst xy) (snd xy)) (combine x y) in
  (map fst p, map snd p).

(* push_sorter on values: (min, max) by key; the whole element moves *)
Definition sorter_bits (bits : nat) (x y : elem) : elem * elem :=
  condswap_list (gt bits x y) x y.

(* ---- generic compare-exchange networks ----------------------------------------------- *)

Section Net.
  Context {A : Type}.
  Variable gtb : A -> A -> bool.

  (* (min, max); equal keys are not swapped *)
  Definition sorter (x y : A) : A * A := if gtb x y then (y, x) else (x, y).

  (* what lands at the lower / upper position of a compare-exchange in direction [asc] *)
  Definition cx (asc : bool) (x y : A) : A * A :=
    let '(mn, mx) := sorter x y in if asc then (mn, mx) else (mx, mn).

  Fixpoint merge_pairs (asc : bool) (lower upper : list A) : list A * list A :=
    match lower, upper with
    | x :: lr, y :: ur =>
        let '(lo, hi) := cx asc x y in
        let '(lr', ur') := merge_pairs asc lr ur in
        (lo :: lr', hi :: ur')
    | _, _ => (lower, upper)
    end.

  Fixpoint merger_fuel (fuel : nat) (asc : bool) (v : list A) : list A :=
    match fuel with
    | O => v
    | S f =>
        if (length v <=? 1)%nat then v else
        let m := pow2_below (length v) 1 (length v) in
        let '(lower, upper) := merge_pairs asc (firstn m v) (skipn m v) in
        merger_fuel f asc lower ++ merger_fuel f asc upper
    end.

  Definition bitonic_merger (asc : bool) (v : list A) : list A :=
    merger_fuel (S (length v)) asc v.

  Fixpoint sorter_fuel (fuel : nat) (asc : bool) (v : list A) : list A :=
    match fuel with
    | O => v
    | S f =>
        if (length v <=? 1)%nat then v else
        let h := (length v / 2)%nat in
        let lower := sorter_fuel f (negb asc) (firstn h v) in
        let upper := sorter_fuel f asc (skipn h v) in
        bitonic_merger asc (lower ++ upper)
    end.

  Definition bitonic_sorter (v : list A) : list A := sorter_fuel (S (length v)) true v.

  (* ---- the same networks as explicit lists of compare-exchange operations ------------ *)

  (* (i, j, asc): compare positions i and j; asc: min to i, max to j; else max to i *)
  Definition cxop := (nat * nat * bool)%type.

  Fixpoint upd (l : list A) (i : nat) (a : A) : list A :=
    match l, i with
    | [], _ => []
    | _ :: r, O => a :: r
    | x :: r, S k => x :: upd r k a
    end.

  Definition run_op (v : list A) (o : cxop) : list A :=
    let '(i, j, asc) := o in
    match nth_error v i, nth_error v j with
    | Some x, Some y => let '(lo, hi) := cx asc x y in upd (upd v i lo) j hi
    | _, _ => v
    end.

  Definition run_net (net : list cxop) (v : list A) : list A := fold_left run_op net v.
End Net.

Definition shift_op (k : nat) (o : cxop) : cxop :=
  let '(i, j, asc) := o in ((k + i)%nat, (k + j)%nat, asc).
Definition shift_net (k : nat) (net : list cxop) : list cxop := map (shift_op k) net.

(* compare position i with i + g for i = 0 .. k-1 *)
Definition pairs_net (g k : nat) (asc : bool) : list cxop :=
  map (fun i => (i, (i + g)%nat, asc)) (seq 0 k).

Fixpoint merger_net (fuel : nat) (n : nat) (asc : bool) : list cxop :=
  match fuel with
  | O => []
  | S f =>
      if (n <=? 1)%nat then [] else
      let m := pow2_below n 1 n in
      pairs_net m (n - m) asc ++ merger_net f m asc ++ shift_net m (merger_net f (n - m) asc)
  end.

Fixpoint sorter_net (fuel : nat) (n : nat) (asc : bool) : list cxop :=
  match fuel with
  | O => []
  | S f =>
      if (n <=? 1)%nat then [] else
      let h := (n / 2)%nat in
      sorter_net f h (negb asc) ++ shift_net h (sorter_net f (n - h) asc)
        ++ merger_net (S n) n asc
  end.

Definition bitonic_merger_net (n : nat) (asc : bool) : list cxop := merger_net (S n) n asc.
Definition bitonic_sorter_net (n : nat) : list cxop := sorter_net (S n) n true.

(* ---- orders used in the statements ---------------------------------------------------- *)

Definition gtN (x y : N) : bool := y <? x.
Definition gtB (x y : bool) : bool := andb x (negb y).
Definition gt_key (bits : nat) (x y : elem) : bool := gtN (key bits x) (key bits y).

Fixpoint sortedN (l : list N) : bool :=
  match l with
  | a :: ((b :: _) as r) => (a <=? b) && sortedN r
  | _ => true
  end.

Definition leB (x y : bool) : bool := implb x y.
Fixpoint sortedB (l : list bool) : bool :=
  match l with
  | a :: ((b :: _) as r) => leB a b && sortedB r
  | _ => true
  end.

(* x > t as a 0/1 key: the monotone maps of the zero-one principle *)
Definition thr (t : N) (x : N) : bool := t <? x.

(* shapes of the merger's inputs (on numeric keys) *)
Definition ascN (l : list N) : Prop := sortedN l = true.
Definition descN (l : list N) : Prop := sortedN (rev l) = true.
Definition down_then_up (v : list N) : Prop := exists d u, v = d ++ u /\ descN d /\ ascN u.
Definition up_then_down (v : list N) : Prop := exists u d, v = u ++ d /\ ascN u /\ descN d.

(* all 0/1 vectors of a given length; 0^a 1^b 0^c and 1^a 0^b 1^c *)
Fixpoint all_bools (n : nat) : list (list bool) :=
  match n with
  | O => [[]]
  | S k => map (cons false) (all_bools k) ++ map (cons true) (all_bools k)
  end.

Definition blocks (x : bool) (a b c : nat) : list bool :=
  repeat x a ++ repeat (negb x) b ++ repeat x c.

(* every way of writing n = a + b + c *)
Definition splits3 (n : nat) : list (nat * nat * nat) :=
  flat_map (fun a => map (fun b => (a, b, (n - a - b)%nat)) (seq 0 (S (n - a)))) (seq 0 (S n)).

(* Boolean checkers over those inputs; SortBounded.v says what [true] means and evaluates one *)
Definition check_merger_blocks (x : bool) (n : nat) : bool :=
  forallb (fun abc => let '(a, b, c) := abc in sortedB (bitonic_merger gtB true (blocks x a b c)))
          (splits3 n).

Definition check_sorter_all (n : nat) : bool :=
  forallb (fun w => sortedB (bitonic_sorter gtB w)) (all_bools n).
