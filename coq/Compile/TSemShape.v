(* DEFINEDNESS OF THE BIT-LEVEL SEMANTICS DEPENDS ON THE SHAPE OF THE INPUT ONLY.
   The parametricity theorem ParamLower.lower_param instantiated with OA = OB = tops and
   the everywhere-true relations: two runs of the generic lowering over Booleans whose
   inputs have the same lengths are both Ok or both not, and their results have the same
   lengths -- every operation of tops is Ok or Crash depending only on the LENGTHS of its
   arguments.  Consequence: the precondition "tsem_program ... = Ok" of
   LowerSound.lower_program_sound needs ONE witness input, not one per input. *)
From Coq Require Import Permutation.
From GV Require Import Base.Util Base.NMap Lang.Ast Circuit.Ssa Circuit.SsaProofs Builder.Builder Builder.Build
  Gadgets.GadgetSpec Gadgets.GadgetHoare Sort.Sort Sort.SortProofs
  Panic.PanicRec Panic.PanicSem Compile.Lower Compile.TSem Compile.LowerSound
  Compile.ParamBase Compile.ParamHelpers Compile.ParamLower.

(* ------------------------------------------------------------------ the everywhere-true relation *)

Definition TT {A B : Type} : A -> B -> Prop := fun _ _ => True.

Lemma F2T_of_length {A B} (x : list A) : forall (y : list B), length x = length y -> Forall2 TT x y.
Proof.
  induction x as [|a x IH]; intros [|b y] H; cbn [length] in H; try discriminate; constructor.
  - exact I.
  - apply IH. congruence.
Qed.

Lemma F2T_length {A B} (x : list A) (y : list B) : Forall2 TT x y -> length x = length y.
Proof. apply F2_length. Qed.

Lemma F2T_iff {A B} (x : list A) (y : list B) : Forall2 TT x y <-> length x = length y.
Proof. split; [apply F2T_length|apply F2T_of_length]. Qed.

(* lists of lists: same number of elements, of the same lengths *)
Lemma F2TT_iff {A B} (x : list (list A)) (y : list (list B)) :
  Forall2 (Forall2 TT) x y <-> Forall2 (fun a b => length a = length b) x y.
Proof. split; apply F2_impl'; intros a b; apply F2T_iff. Qed.

Lemma Forall_Forall2 {A B} (P : A -> Prop) (Q : B -> Prop) (R : A -> B -> Prop) (x : list A) :
  (forall a b, P a -> Q b -> R a b) ->
  forall y, Forall P x -> Forall Q y -> length x = length y -> Forall2 R x y.
Proof.
  intro H. induction x as [|a x IH]; intros [|b y] Hx Hy L; cbn [length] in L; try discriminate; constructor.
  - apply H; [now inversion Hx|now inversion Hy].
  - apply IH; [now inversion Hx|now inversion Hy|congruence].
Qed.

(* ------------------------------------------------------------------ sorting networks: shapes *)

Lemma elems_shape_spec bits (v : list (list bool)) :
  elems_shape bits v = true <->
  (v = [] \/ exists L, Forall (fun y => length y = L) v /\ (bits <= L)%nat).
Proof.
  destruct v as [|x v]; cbn [elems_shape]; [split; auto|].
  rewrite andb_true_iff, forallb_forall, Nat.leb_le. split.
  - intros [H1 H2]. right. exists (length x). split; [|exact H2].
    apply Forall_forall. intros y Hy. apply Nat.eqb_eq. apply H1. exact Hy.
  - intros [H|(L & HF & HL)]; [discriminate|].
    pose proof (Forall_inv HF) as Hx. cbn beta in Hx. rewrite Hx. split; [|exact HL].
    intros y Hy. apply Nat.eqb_eq. rewrite Forall_forall in HF. apply HF. exact Hy.
Qed.

Lemma elems_shape_transfer bits (v vv : list (list bool)) :
  Forall2 (Forall2 TT) v vv -> elems_shape bits vv = true ->
  elems_shape bits v = true /\
  (vv = [] /\ v = [] \/
   exists L, Forall (fun y => length y = L) v /\ Forall (fun y => length y = L) vv).
Proof.
  intros H E. apply elems_shape_spec in E. destruct E as [->|(L & HF & HL)].
  - inversion H; subst. split; [reflexivity|]. left. split; reflexivity.
  - assert (HF' : Forall (fun y => length y = L) v).
    { clear HL. induction H as [|a b v vv Hab _ IH]; constructor.
      - rewrite (F2T_length _ _ Hab). now inversion HF.
      - apply IH. now inversion HF. }
    split; [|right; exists L; split; assumption].
    apply elems_shape_spec. right. exists L. split; assumption.
Qed.

Lemma net_shape (f g : list (list bool) -> list (list bool)) v vv :
  (forall u, Permutation (f u) u) -> (forall u, Permutation (g u) u) ->
  (forall u, length (f u) = length u) -> (forall u, length (g u) = length u) ->
  Forall2 (Forall2 TT) v vv ->
  (vv = [] /\ v = [] \/
   exists L, Forall (fun y => length y = L) v /\ Forall (fun y => length y = L) vv) ->
  Forall2 (Forall2 TT) (f v) (g vv).
Proof.
  intros Pf Pg Lf Lg H [[-> ->]|(L & Hv & Hvv)].
  - pose proof (Lf []) as L1. pose proof (Lg []) as L2. cbn [length] in L1, L2.
    destruct (f []); [|discriminate]. destruct (g []); [|discriminate]. constructor.
  - apply (Forall_Forall2 (fun y => length y = L) (fun y => length y = L)).
    + intros a b Ha Hb. apply F2T_of_length. congruence.
    + eapply Permutation_Forall; [apply Permutation_sym, Pf|exact Hv].
    + eapply Permutation_Forall; [apply Permutation_sym, Pg|exact Hvv].
    + rewrite Lf, Lg. eapply F2_length; eauto.
Qed.

(* ------------------------------------------------------------------ the instance *)

Lemma same_len_true {A B} (x : list A) (y : list B) : same_len x y = true -> length x = length y.
Proof. unfold same_len. apply Nat.eqb_eq. Qed.

Definition trueS : pobs -> pobs -> Prop := fun _ _ => True.

Ltac shape_pure :=
  let y := fresh "y" in let o' := fresh "o'" in let E := fresh "E" in
  intros y o' E; cbn in E; injection E as <- <-;
  eexists; eexists; split; [reflexivity|]; split; [exact I|]; split; [exact I|].

Ltac shape_guard G :=
  let y := fresh "y" in let o' := fresh "o'" in let E := fresh "E" in
  intros y o' E; cbv beta in E;
  match type of E with (if ?g then _ else _) = _ => destruct g eqn:G; [|discriminate] end;
  injection E as <- <-.

Ltac shape_done := eexists; eexists; split; [reflexivity|]; split; [exact I|]; split; [exact I|].

Definition shape_rel : param_rel tops tops.
Proof.
  refine (mkParamRel _ _ _ _ _ _ tops tops
            (fun _ _ => True) (fun _ => True) (fun _ _ _ => True) (fun _ _ _ => True) (fun _ _ => True)
            _ _ _ _ _ _ _ _ _ _ _ _ _ _ _ _ _ _ _ _ _ _ _ _ _ _ _); try (intros; exact I).
  - (* xor *) intros s o x y vx vy _ _ _. shape_pure. exact I.
  - (* and *) intros s o x y vx vy _ _ _. shape_pure. exact I.
  - (* or *) intros s o x y vx vy _ _ _. shape_pure. exact I.
  - (* eq *) intros s o x y vx vy _ _ _. shape_pure. exact I.
  - (* not *) intros s o x vx _ _. shape_pure. exact I.
  - (* mux *) intros s o c x0 x1 vc v0 v1 _ _ _ _. shape_pure. exact I.
  - (* negation *) intros s o x vx _ Hx. shape_pure.
    apply F2T_of_length. rewrite !negation_s_length. apply (F2T_length _ _ Hx).
  - (* addition *) intros s o x y vx vy _ Hx Hy. apply F2T_length in Hx, Hy.
    cbn [o_addition tops]. shape_guard G. apply same_len_true in G.
    assert (L : length x = length y) by congruence.
    unfold same_len. rewrite (proj2 (Nat.eqb_eq _ _) L). shape_done.
    split; [|split; exact I]. apply F2T_of_length. rewrite !addition_s_length by assumption. exact Hx.
  - (* subtraction *) intros s o x y sg vx vy _ Hx Hy. apply F2T_length in Hx, Hy.
    cbn [o_subtraction tops]. shape_guard G. apply andb_prop in G. destruct G as [G1 G2]. apply same_len_true in G1.
    assert (L : length x = length y) by congruence.
    assert (G2' : negb sg || nonempty x = true).
    { destruct sg; [|reflexivity]. cbn [negb orb] in *. destruct x, vx; cbn in *; try discriminate; reflexivity. }
    unfold same_len. rewrite (proj2 (Nat.eqb_eq _ _) L), G2'. cbn [andb]. shape_done.
    split; [|exact I]. apply F2T_of_length. rewrite !subtraction_s_length by assumption. exact Hx.
  - (* multiplier *) intros s o x y z c vx vy vz vc _ _ _ _ _. shape_pure. split; exact I.
  - (* udiv *) intros s o x y vx vy _ Hx Hy. apply F2T_length in Hx, Hy.
    cbn [o_udiv tops]. shape_guard G. apply same_len_true in G.
    assert (L : length x = length y) by congruence.
    unfold same_len. rewrite (proj2 (Nat.eqb_eq _ _) L). shape_done.
    destruct (udiv_s_length x y L) as [A1 A2]. destruct (udiv_s_length vx vy G) as [B1 B2].
    split; apply F2T_of_length; congruence.
  - (* sdiv *) intros s o x y vx vy _ Hx Hy. apply F2T_length in Hx, Hy.
    cbn [o_sdiv tops]. shape_guard G. apply andb_prop in G. destruct G as [G1 G2]. apply same_len_true in G1.
    assert (L : length x = length y) by congruence.
    assert (G2' : nonempty x = true) by (destruct x, vx; cbn in *; try discriminate; reflexivity).
    unfold same_len. rewrite (proj2 (Nat.eqb_eq _ _) L), G2'. cbn [andb]. shape_done.
    rewrite !sdiv_s_eq. cbv zeta. cbn [fst snd].
    match goal with |- context [udiv_s ?a ?b] =>
      destruct (udiv_s_length a b) as [A1 A2];
        [rewrite !mux_all_s_length, !negation_s_length; lia|] end.
    match goal with |- context [udiv_s (mux_all_s (hd false vx) ?a ?a') ?b] =>
      destruct (udiv_s_length (mux_all_s (hd false vx) a a') b) as [B1 B2];
        [rewrite !mux_all_s_length, !negation_s_length; lia|] end.
    rewrite !mux_all_s_length, !negation_s_length in A1, A2, B1, B2.
    split; apply F2T_of_length; rewrite !mux_all_s_length, !negation_s_length; lia.
  - (* comparator *) intros s o bits x sx y sy vx vy _ Hx Hy. apply F2T_length in Hx, Hy.
    cbn [o_comparator tops]. shape_guard G. rewrite Hx, Hy, G. shape_done. split; exact I.
  - (* eq_circuit *) intros s o x y vx vy _ _ _. shape_pure. exact I.
  - (* merger *) intros s o bits asc v vv _ Hv. cbn [o_merger tops]. shape_guard G.
    destruct (elems_shape_transfer _ _ _ Hv G) as [G' Hsh]. rewrite G'. shape_done.
    apply net_shape; auto using bitonic_merger_perm, bitonic_merger_length.
  - (* sorter *) intros s o bits v vv _ Hv. cbn [o_sorter tops]. shape_guard G.
    destruct (elems_shape_transfer _ _ _ Hv G) as [G' Hsh]. rewrite G'. shape_done.
    apply net_shape; auto using bitonic_sorter_perm, bitonic_sorter_length.
  - (* panic_if *) intros s o c vc r m _ _. shape_pure. exact I.
  - (* peek *) intros s o _. shape_pure. exact I.
  - (* replace *) intros s o P ob _ _. shape_pure. exact I.
  - (* mux_panic *) intros s o c vc T F oT oF _ _ _ _. shape_pure. exact I.
Defined.

(* ------------------------------------------------------------------ what the relations mean *)

Lemma Rws_shape s (x y : list bool) : Rws shape_rel s x y <-> length x = length y.
Proof. exact (F2T_iff x y). Qed.

Lemma Rwss_shape s (x y : list (list bool)) :
  Rwss shape_rel s x y <-> Forall2 (fun a b => length a = length b) x y.
Proof. exact (F2TT_iff x y). Qed.

(* environments of the same shape: the same scopes with the same names, values of the same
   lengths *)
Definition same_shape_bind (a b : N * list bool) : Prop := fst a = fst b /\ length (snd a) = length (snd b).
Definition same_shape_env (E E' : @cenv bool) : Prop := Forall2 (Forall2 same_shape_bind) E E'.

Lemma RE_shape s (E E' : @cenv bool) : RE shape_rel s E E' <-> same_shape_env E E'.
Proof.
  unfold RE, Rscope, same_shape_env. split; apply F2_impl'; intros a b; apply F2_impl'; intros p q [H1 H2];
    (split; [exact H1|]); apply (Rws_shape s); exact H2.
Qed.

Lemma RS_shape (s o : pobs) : RS shape_rel s o.
Proof. exact I. Qed.

(* ------------------------------------------------------------------ expressions, blocks *)

Section Shape.
Variable fuel : nat.
Variable P : program.

(* [E'] has the shape of [E]; the panic observations [o], [o'] are arbitrary *)
Theorem lower_expr_shape e (E E' : @cenv bool) (o o' : pobs) w E1 o1 :
  same_shape_env E' E ->
  lower_expr tops fuel P e E o = Ok ((w, E1), o1) ->
  exists w' E1' o1', lower_expr tops fuel P e E' o' = Ok ((w', E1'), o1') /\
                     length w' = length w /\ same_shape_env E1' E1.
Proof.
  intros HE H. destruct (lower_param shape_rel P fuel) as (He & _).
  destruct (He e o' o E' E (RS_shape _ _) (proj2 (RE_shape o' _ _) HE) _ _ H) as ([w' E1'] & o1' & Hr & _ & _ & Hw & HE1).
  exists w', E1', o1'. split; [exact Hr|]. cbn [fst snd] in Hw, HE1.
  split; [apply (Rws_shape o1'); exact Hw|apply (RE_shape o1'); exact HE1].
Qed.

Theorem lower_pattern_shape p (mw mw' : list bool) (E E' : @cenv bool) (o o' : pobs) b E1 o1 :
  length mw' = length mw -> same_shape_env E' E ->
  lower_pattern tops fuel P p mw E o = Ok ((b, E1), o1) ->
  exists b' E1' o1', lower_pattern tops fuel P p mw' E' o' = Ok ((b', E1'), o1') /\ same_shape_env E1' E1.
Proof.
  intros Hmw HE H. destruct (lower_param shape_rel P fuel) as (_ & Hp & _).
  destruct (Hp p o' o mw' mw E' E (RS_shape _ _) (proj2 (Rws_shape o' _ _) Hmw) (proj2 (RE_shape o' _ _) HE) _ _ H)
    as ([b' E1'] & o1' & Hr & _ & _ & _ & HE1).
  exists b', E1', o1'. split; [exact Hr|]. cbn [snd] in HE1. apply (RE_shape o1'); exact HE1.
Qed.

Theorem lower_stmt_shape st (E E' : @cenv bool) (o o' : pobs) w E1 o1 :
  same_shape_env E' E ->
  lower_stmt tops fuel P st E o = Ok ((w, E1), o1) ->
  exists w' E1' o1', lower_stmt tops fuel P st E' o' = Ok ((w', E1'), o1') /\
                     length w' = length w /\ same_shape_env E1' E1.
Proof.
  intros HE H. destruct (lower_param shape_rel P fuel) as (_ & _ & Hs & _).
  destruct (Hs st o' o E' E (RS_shape _ _) (proj2 (RE_shape o' _ _) HE) _ _ H) as ([w' E1'] & o1' & Hr & _ & _ & Hw & HE1).
  exists w', E1', o1'. split; [exact Hr|]. cbn [fst snd] in Hw, HE1.
  split; [apply (Rws_shape o1'); exact Hw|apply (RE_shape o1'); exact HE1].
Qed.

Theorem lower_block_shape ss (E E' : @cenv bool) (o o' : pobs) w E1 o1 :
  same_shape_env E' E ->
  lower_block tops fuel P ss E o = Ok ((w, E1), o1) ->
  exists w' E1' o1', lower_block tops fuel P ss E' o' = Ok ((w', E1'), o1') /\
                     length w' = length w /\ same_shape_env E1' E1.
Proof.
  intros HE H. destruct (lower_param shape_rel P fuel) as (_ & _ & _ & Hb).
  destruct (Hb ss o' o E' E (RS_shape _ _) (proj2 (RE_shape o' _ _) HE) _ _ H) as ([w' E1'] & o1' & Hr & _ & _ & Hw & HE1).
  exists w', E1', o1'. split; [exact Hr|]. cbn [fst snd] in Hw, HE1.
  split; [apply (Rws_shape o1'); exact Hw|apply (RE_shape o1'); exact HE1].
Qed.

Lemma main_env_shape (bs bs' : list (N * list bool)) E :
  Forall2 same_shape_bind bs' bs -> main_env tops P bs = Ok E ->
  exists E', main_env tops P bs' = Ok E' /\ same_shape_env E' E.
Proof.
  intros Hb H.
  destruct (rel_main_env shape_rel None None P bs' bs E (RS_shape _ _)) as (E' & HE' & HR); [|exact H|].
  - eapply F2_impl'; [|exact Hb]. intros a b [H1 H2]. split; [exact H1|]. apply (Rws_shape None). exact H2.
  - exists E'. split; [exact HE'|]. apply (RE_shape None). exact HR.
Qed.

(* ------------------------------------------------------------------ programs *)

(* If the bit-level semantics is defined on ONE input of a given shape it is defined on ALL
   inputs of that shape, and the result has the same number of bits. *)
Theorem tsem_defined_shape_only args args' :
  Forall2 (fun a a' => length a = length a') args args' ->
  forall r, tsem_program fuel P args = Ok r ->
  exists r', tsem_program fuel P args' = Ok r' /\ length (snd r') = length (snd r).
Proof.
  intros Hargs r H. unfold tsem_program in *.
  destruct (find_fn P (p_main P)) as [fd|]; [|discriminate].
  pose proof (F2_length _ _ _ Hargs) as Hlen.
  unfold same_len in *. rewrite <- Hlen.
  destruct (negb (length (fn_params fd) =? length args)%nat); [discriminate|].
  destruct (main_env tops P (combine (map fst (fn_params fd)) args)) as [E0| |] eqn:EE; cbn [bind] in H; try discriminate.
  destruct (main_env_shape (combine (map fst (fn_params fd)) args) (combine (map fst (fn_params fd)) args') E0)
    as (E0' & -> & HE0); [|exact EE|].
  { clear - Hargs. generalize (map fst (fn_params fd)) as ns.
    induction Hargs as [|a a' args args' Ha _ IH]; intros [|n ns]; cbn [combine]; constructor.
    - split; [reflexivity|]. cbn [snd]. symmetry. exact Ha.
    - apply IH. }
  cbn [bind].
  destruct (lower_block tops fuel P (fn_body fd) E0 None) as [[[outs Eend] o]| |] eqn:Eb; cbn [bind] in H; try discriminate.
  injection H as <-.
  destruct (lower_block_shape (fn_body fd) E0 E0' None None outs Eend o HE0 Eb) as (outs' & Eend' & o' & -> & Hl & _).
  cbn [bind]. eexists. split; [reflexivity|]. cbn [snd]. exact Hl.
Qed.

End Shape.

(* ------------------------------------------------------------------ one witness is enough *)

Lemma param_args_shape (bindings : list (N * list N)) inp :
  Forall2 (fun b a => length a = length (snd b)) bindings (param_args bindings inp).
Proof.
  unfold param_args. induction bindings as [|b bs IH]; cbn [map]; constructor; [apply map_length|exact IH].
Qed.

(* how the shape of the witness relates to the input gates of the circuit: one party per
   parameter, of the size of the parameter's wires -- or, for a single array parameter, one
   party per element *)
Lemma param_wiring_sizes P params igs bs : param_wiring P params = (igs, bs) ->
  (exists x el n ws, params = [(x, TArr el n)] /\ bs = [(x, ws)] /\
     igs = repeat (N.of_nat (szn P el)) (N.to_nat n) /\ length ws = (szn P el * N.to_nat n)%nat) \/
  map (fun b => N.of_nat (length (snd b))) bs = igs.
Proof.
  intro H. destruct (param_wiring_spec _ _ _ _ H) as (_ & _ & [(x & el & n & -> & -> & ->)|[-> _]]); [left|right; reflexivity].
  do 4 eexists. repeat split. apply wire_range_length.
Qed.

Section Witness.
Variable fuel : nat.
Variable dedup : bool.
Variable P : program.

(* LowerSound.lower_program_sound with its per-input precondition discharged from ONE
   witness: if the model of the compiler produced a circuit, and the bit-level semantics is
   defined on ONE argument list [args0] of the shape of main's parameter wires, then for
   EVERY input of the circuit the semantics is defined, the emitted circuit validates and
   its output decodes to the panic / the value bits of the semantics on that input. *)
Theorem lower_program_sound_one_witness s1 outs :
  lower_main_with fuel dedup P = Ok (PreOk s1 outs) ->
  counter (cb s1) + (b_shift (cb s1) - 2) <= MAX_GATES ->
  exists fd igs bindings,
    find_fn P (p_main P) = Some fd /\ param_wiring P (fn_params fd) = (igs, bindings) /\
    forall args0 r0,
      Forall2 (fun b a => length a = length (snd b)) bindings args0 ->
      tsem_program fuel P args0 = Ok r0 ->
      forall ins inp,
        load_inputs igs ins = Some inp ->
        exists o vouts c out,
          tsem_program fuel P (param_args bindings inp) = Ok (o, vouts) /\
          length vouts = length (snd r0) /\
          lower_program_with fuel dedup P = Ok (LCircuit c) /\
          ssa_validate c = None /\ input_gates c = igs /\
          length (output_gates c) = (161 + length vouts)%nat /\
          ssa_eval c ins = Some out /\
          parse_panic out = parse_spec o vouts /\
          (o = None -> skipn 161 out = vouts).
Proof.
  intros Hmain Hmax.
  destruct (lower_program_sound fuel dedup P s1 outs Hmain Hmax) as (fd & igs & bindings & Efd & Epw & Hsound).
  exists fd, igs, bindings. split; [exact Efd|]. split; [exact Epw|].
  intros args0 r0 Hshape H0 ins inp Hload.
  destruct (tsem_defined_shape_only fuel P args0 (param_args bindings inp)) with (r := r0) as ([o vouts] & Ht & Hl);
    [|exact H0|].
  { pose proof (param_args_shape bindings inp) as Hp. clear - Hshape Hp.
    revert Hp. generalize (param_args bindings inp) as args1.
    induction Hshape as [|b a bs args0 Hb _ IH]; intros args1 Hp.
    - inversion Hp. constructor.
    - inversion Hp as [|b' y bs' l' H1 H3]; subst. constructor; [exact (eq_trans Hb (eq_sym H1))|apply IH; exact H3]. }
  cbn [snd] in Hl.
  destruct (Hsound ins inp o vouts Hload Ht) as (c & out & H1 & H2 & H3 & H4 & H5 & H6 & H7).
  exists o, vouts, c, out. repeat (split; [assumption|]). assumption.
Qed.

(* the witness may be one sampled input [inp0] of the circuit (any bit list: missing bits
   read as false) *)
Corollary lower_program_sound_one_sample s1 outs :
  lower_main_with fuel dedup P = Ok (PreOk s1 outs) ->
  counter (cb s1) + (b_shift (cb s1) - 2) <= MAX_GATES ->
  exists fd igs bindings,
    find_fn P (p_main P) = Some fd /\ param_wiring P (fn_params fd) = (igs, bindings) /\
    forall inp0 r0,
      tsem_program fuel P (param_args bindings inp0) = Ok r0 ->
      forall ins inp,
        load_inputs igs ins = Some inp ->
        exists o vouts c out,
          tsem_program fuel P (param_args bindings inp) = Ok (o, vouts) /\
          length vouts = length (snd r0) /\
          lower_program_with fuel dedup P = Ok (LCircuit c) /\
          ssa_validate c = None /\ input_gates c = igs /\
          length (output_gates c) = (161 + length vouts)%nat /\
          ssa_eval c ins = Some out /\
          parse_panic out = parse_spec o vouts /\
          (o = None -> skipn 161 out = vouts).
Proof.
  intros Hmain Hmax.
  destruct (lower_program_sound_one_witness s1 outs Hmain Hmax) as (fd & igs & bindings & Efd & Epw & H).
  exists fd, igs, bindings. split; [exact Efd|]. split; [exact Epw|].
  intros inp0 r0 H0. apply (H (param_args bindings inp0) r0); [apply param_args_shape|exact H0].
Qed.

End Witness.

Print Assumptions tsem_defined_shape_only.
Print Assumptions lower_program_sound_one_witness.
