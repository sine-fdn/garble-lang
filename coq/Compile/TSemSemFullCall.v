(* CALLS IN THE FULL FRAGMENT, over a frame for the GLOBAL CONSTANTS (filled in
   Compile/TSemSemFullConst.v).

   The environment relation of this file, [relQ], is [relP] of Compile/TSemSemCall.v (phantom
   empty scopes of the bit-level environment: the scopes in which call arguments are compiled)
   together with a FRAME: the outermost scopes of the source environment, of the bit-level
   environment and of the typing context are three FIXED scopes [sglob], [glob], [gsc] (the
   global constants), related by [scope_rel] and immutable.  Every node lemma preserves the
   frame (an assignment needs a mutable target, which the outermost scope does not offer), so
   a callee returns with the outermost scope it was given: the caller's.

   Part 1 (Section Control3) is for an arbitrary value relation VR: [relQ] has the
   properties Compile/SimNodes.v asks of a relation ([rel3_*], state = the mask of phantom scopes,
   the context keeps two scopes), so its control, statement, scalar and (Section Agg3) aggregate
   nodes are those of SimNodes.v / TSemSemMul.v / TSemSemAgg.v at [relQ]; the call is proved here.

   PRODUCTS WITH A LITERAL OPERAND ([scf2_op]): [mul_lit_node3], [mul_plain_node3] (Section
   ScalarG3), [mul_lit_node_b3]; the checker accepts `x * c` / `c * x` when the repeated-addition
   rewrite does not fire (an ordinary checked product) or when [mul_node_ok] holds.

   == / != ON VALUES OF ANY ONE TYPE ([scf2_op], [agg_eq_node]): tuples, arrays, structs, enums;
   Sem.v compares the values, the compiler the flattened wires; they agree under the value
   encoding (Compile/TSemSemEq.v: [has_enc_eqb]).  [SanityAggEq]: on non-canonical inputs they differ.

   ARRAYS OF ZERO-SIZED ELEMENTS: [idx_node] / [acc_ok] do not ask for elements of at least one
   bit (Compile/TSemArray.v: the array theorems hold for every element size); [SanityZeroSized]. *)
From Coq Require Import Lia ZArith.
From GV Require Import Base.Util Base.Bits Base.BitsProofs Lang.Ast Lang.Wt Lang.ValTy Lang.WtShape
  Gadgets.Gadgets Gadgets.GadgetSpec Gadgets.Arith Gadgets.Extend Gadgets.ExtendProofs
  Panic.PanicRec Panic.PanicSem Compile.Lower Compile.TSem Compile.TSemFacts Compile.TSemArith1
  Compile.TSemArith2 Compile.TSemControl Compile.TSemArray Compile.TSemSemExpr Compile.ValEnc
  Compile.TSemSticky Compile.SimNodes Compile.TSemSemStmt Compile.TSemSemMul Compile.TSemSemCall Compile.TSemSemAgg
  Compile.TSemSemEq Compile.TSemSemFull.
From GV Require Lang.Sem.
Local Open Scope N_scope.

Lemma assocN_in {A} x (l : list (N * A)) v : assocN x l = Some v -> In (x, v) l.
Proof.
  induction l as [|[k w] l IH]; cbn [assocN]; [discriminate|].
  destruct (N.eqb_spec x k) as [->|]; [intros [= ->]; now left|]. intro H. right. now apply IH.
Qed.

Lemma assign_scopes_ne ss x v ss' : Sem.assign_scopes ss x v = Some ss' -> ss <> [] -> ss' <> [].
Proof.
  destruct ss as [|s r]; [congruence|]. cbn [Sem.assign_scopes]. intros H _.
  destruct (Sem.update_assoc s x v); [injection H as <-; discriminate|].
  destruct (Sem.assign_scopes r x v); [injection H as <-; discriminate|discriminate H].
Qed.

Lemma env_assign_ne (E : @cenv bool) x w E' : env_assign E x w = Ok E' -> E <> [] -> E' <> [].
Proof.
  destruct E as [|s r]; [congruence|]. cbn [env_assign]. intros H _.
  destruct (scope_replace s x w); [injection H as <-; discriminate|].
  destruct (env_assign r x w); cbn [bind] in H; try discriminate H. injection H as <-. discriminate.
Qed.

Lemma env_rel3_length VR en E g : env_rel3 VR en E g -> length E = length g.
Proof. unfold env_rel3. induction 1; cbn [length]; congruence. Qed.

Section Control3.
  Variable P : program.
  Variable VR : ty -> Sem.value -> list bool -> Prop.
  Hypothesis VR_bool : forall v w, VR TBool v w -> exists b, v = Sem.VBool b /\ w = [b].
  Hypothesis VR_unit : VR unit_ty Sem.unit_val [].

  (* the three fixed outermost scopes *)
  Variable gsc : list (N * (ty * bool)).
  Variable sglob : list (N * Sem.value).
  Variable glob : @scope bool.
  Hypothesis Hglob : scope_rel VR sglob glob gsc.
  Hypothesis Himm : forall b, In b gsc -> snd (snd b) = false.

  Notation relP := (relP VR).
  Notation relS := (relS VR).

  Definition relQ (ph : list bool) (en : Sem.env) (E : @cenv bool) (g : tenv) : Prop :=
    relP ph en E g /\ last (Sem.scopes en) [] = sglob /\ last E [] = glob /\ last g [] = gsc /\
    (2 <= length g)%nat.

  Lemma relQ_of_env_rel3 en E g1 :
    env_rel3 VR en E [g1; gsc] -> last (Sem.scopes en) [] = sglob -> last E [] = glob ->
    relQ [false; false] en E [g1; gsc].
  Proof.
    intros H Hs HE. pose proof (relP_of_env_rel3 VR _ _ _ H) as HP.
    rewrite (env_rel3_length _ _ _ _ H) in HP. repeat split; try assumption. cbn [length]. lia.
  Qed.

  Lemma relQ_P ph en E g : relQ ph en E g -> relP ph en E g.
  Proof. now intros [H _]. Qed.

  Lemma relQ_len ph en E g : relQ ph en E g -> (2 <= length g)%nat.
  Proof. now intros (_ & _ & _ & _ & H). Qed.

  Lemma relS_ne ph ss E g : relS ph ss E g -> g <> [] -> ss <> [] /\ E <> [].
  Proof.
    induction 1 as [|ph s cs gs ss E g _ _ _|ph ss E g _ IH]; intro Hg; [congruence| |].
    - split; discriminate.
    - destruct (IH Hg) as [H1 _]. split; [exact H1|discriminate].
  Qed.

  Lemma relS_len_E ph ss E g : relS ph ss E g -> length E = length ph.
  Proof. induction 1; cbn [length]; congruence. Qed.

  Lemma len2_ne (g : tenv) : (2 <= length g)%nat -> g <> [].
  Proof. destruct g; cbn [length]; [lia|discriminate]. Qed.

  Lemma len2_tl_ne (g : tenv) : (2 <= length g)%nat -> tl g <> [].
  Proof. destruct g as [|a [|b r]]; cbn [length tl]; try lia; discriminate. Qed.

  Lemma rel3_wf {ph} en E g : relQ ph en E g -> wf_env E.
  Proof. intro H. exact (rel2_wf VR _ _ _ (relQ_P _ _ _ _ H)). Qed.

  Lemma rel3_kd ph en E g : relQ ph en E g -> Forall keys_distinct E.
  Proof. intro H. exact (wf_env_distinct E (rel3_wf en E g H)). Qed.

  Lemma rel3_scopes {ph} en en' E g : Sem.scopes en' = Sem.scopes en -> relQ ph en E g -> relQ ph en' E g.
  Proof.
    intros Hs (H1 & H2 & H3 & H4 & H5). split; [eapply rel2_scopes; eassumption|]. rewrite Hs. auto.
  Qed.

  Lemma rel3_lookup {ph} en E g x t mu : relQ ph en E g -> tlookup g x = Some (t, mu) ->
    exists v w, Sem.lookup_var en x = Some v /\ env_get E x = Some w /\ VR t v w.
  Proof. intro H. exact (rel2_lookup VR _ _ _ x t mu (relQ_P _ _ _ _ H)). Qed.

  Lemma rel3_push {ph} en E g : relQ ph en E g ->
    relQ (false :: ph) (Sem.push_scope en) (env_push E) ([] :: g).
  Proof.
    intros (H1 & H2 & H3 & H4 & H5). destruct (relS_ne _ _ _ _ H1 (len2_ne _ H5)) as [Hs HE].
    split; [now apply rel2_push|]. unfold Sem.push_scope, env_push. cbn [Sem.scopes].
    rewrite !last_cons_ne by (assumption || now apply len2_ne). cbn [length]. repeat split; try assumption. lia.
  Qed.

  Lemma rel3_pop {ph} en E g E2 : relQ (false :: ph) en E g -> env_pop E = Ok E2 ->
    (2 <= length (tl g))%nat -> relQ ph (Sem.pop_scope en) E2 (tl g).
  Proof.
    intros (H1 & H2 & H3 & H4 & H5) Hp Hl. pose proof (rel2_pop VR _ _ _ _ H1 Hp) as Hr.
    split; [exact Hr|]. unfold TSemSemCall.relP in H1. cbn [Sem.pop_scope Sem.scopes].
    remember (Sem.scopes en) as ss0 eqn:Ess. revert H2 H3 H4.
    inversion H1 as [|? s cs gs ss E0 g0 Hsr Hr0|]; subst. intros H2 H3 H4. cbn [env_pop] in Hp. injection Hp as <-.
    cbn [tl] in *. destruct (relS_ne _ _ _ _ Hr0 (len2_ne _ Hl)) as [Hs HE].
    rewrite last_cons_ne in H2 by assumption. rewrite last_cons_ne in H3 by assumption.
    rewrite last_cons_ne in H4 by (now apply len2_ne). auto.
  Qed.

  Lemma rel3_phantom {ph} en E g : relQ ph en E g -> relQ (true :: ph) en (env_push E) g.
  Proof.
    intros (H1 & H2 & H3 & H4 & H5). destruct (relS_ne _ _ _ _ H1 (len2_ne _ H5)) as [Hs HE].
    split; [now apply rel2_phantom|]. unfold env_push. rewrite last_cons_ne by assumption. auto.
  Qed.

  Lemma rel3_unphantom {ph} en E g E2 : relQ (true :: ph) en E g -> env_pop E = Ok E2 -> relQ ph en E2 g.
  Proof.
    intros (H1 & H2 & H3 & H4 & H5) Hp. pose proof (rel2_unphantom VR _ _ _ _ H1 Hp) as Hr.
    split; [exact Hr|]. destruct (relS_ne _ _ _ _ Hr (len2_ne _ H5)) as [Hs HE].
    destruct E as [|c0 E0]; [discriminate Hp|]. cbn [env_pop] in Hp. injection Hp as <-.
    rewrite last_cons_ne in H3 by assumption. auto.
  Qed.

  Lemma rel3_let {ph} en E g x t mu v w E' : relQ (false :: ph) en E g -> VR t v w -> env_let E x w = Ok E' ->
    relQ (false :: ph) (Sem.bind_var en x v) E' (tbind g x t mu).
  Proof.
    intros (H1 & H2 & H3 & H4 & H5) HV Hl. pose proof (rel2_let VR _ _ _ x t mu v w _ H1 HV Hl) as Hr.
    split; [exact Hr|]. unfold TSemSemCall.relP in H1. unfold Sem.bind_var.
    remember (Sem.scopes en) as ss0 eqn:Ess. revert H2 H3 H4.
    inversion H1 as [|? s cs gs ss E0 g0 Hsr Hr0|]; subst. intros H2 H3 H4. cbn [env_let] in Hl. injection Hl as <-.
    cbn [length] in H5. assert (g0 <> []) as Hg0 by (destruct g0; cbn [length] in H5; [lia|discriminate]).
    destruct (relS_ne _ _ _ _ Hr0 Hg0) as [Hs HE]. cbn [Sem.scopes tbind length].
    rewrite last_cons_ne in H2 by assumption. rewrite last_cons_ne in H3 by assumption.
    rewrite last_cons_ne in H4 by assumption.
    rewrite !last_cons_ne by assumption. auto.
  Qed.

  (* an assignment to a mutable variable leaves the outermost scopes alone *)
  Lemma assign_last ph ss E g : relS ph ss E g ->
    forall x t v w ss' E', tlookup g x = Some (t, true) ->
    (forall b, In b (last g []) -> snd (snd b) = false) ->
    Sem.assign_scopes ss x v = Some ss' -> env_assign E x w = Ok E' ->
    last ss' [] = last ss [] /\ last E' [] = last E [].
  Proof.
    induction 1 as [|ph s cs gs ss E g [Hso Hs] Hr IH|ph ss E g Hr IH]; intros x t v w ss' E' Hl Hi Ha He;
      cbn [tlookup] in Hl; try discriminate Hl.
    - cbn [Sem.assign_scopes env_assign] in Ha, He. pose proof (Hs x) as Hx.
      destruct (assocN x gs) as [[t' mu']|] eqn:Eg.
      + injection Hl as -> ->. destruct Hx as (v0 & w0 & Hv0 & Hw0 & _).
        destruct (update_assoc_some s x v v0 Hv0) as (s' & Hs' & _). rewrite Hs' in Ha. injection Ha as <-.
        destruct (scope_replace_some cs x w w0 Hw0) as (cs' & Hcs'). rewrite Hcs' in He. injection He as <-.
        destruct g as [|g1 g'].
        * exfalso. cbn [last] in Hi. apply assocN_in in Eg. specialize (Hi _ Eg). discriminate Hi.
        * destruct (relS_ne _ _ _ _ Hr ltac:(discriminate)) as [Hne1 Hne2].
          now rewrite !last_cons_ne by assumption.
      + destruct Hx as [Hsn Hcn]. rewrite (update_assoc_none s x v Hsn) in Ha.
        rewrite (scope_replace_none' cs x w Hcn) in He.
        destruct (Sem.assign_scopes ss x v) as [r1|] eqn:E1; [|discriminate Ha]. injection Ha as <-.
        destruct (env_assign E x w) as [r2| |] eqn:E2; cbn [bind] in He; try discriminate He. injection He as <-.
        assert (g <> []) as Hg by (destruct g; [discriminate Hl|discriminate]).
        destruct (relS_ne _ _ _ _ Hr Hg) as [Hne1 Hne2].
        rewrite last_cons_ne in Hi by exact Hg.
        destruct (IH x t v w r1 r2 Hl Hi E1 E2) as [H1 H2].
        rewrite !last_cons_ne by (assumption || (eapply assign_scopes_ne; eassumption) || (eapply env_assign_ne; eassumption)).
        auto.
    - cbn [env_assign scope_replace] in He.
      destruct (env_assign E x w) as [r2| |] eqn:E2; cbn [bind] in He; try discriminate He. injection He as <-.
      assert (g <> []) as Hg by (destruct g; [discriminate Hl|discriminate]).
      destruct (relS_ne _ _ _ _ Hr Hg) as [Hne1 Hne2].
      destruct (IH x t v w ss' r2 Hl Hi Ha E2) as [H1 H2]. split; [exact H1|].
      rewrite !last_cons_ne by (assumption || (eapply env_assign_ne; eassumption)). exact H2.
  Qed.

  Lemma rel3_assign {ph} en E g x t v w E' : relQ ph en E g -> tlookup g x = Some (t, true) -> VR t v w ->
    env_assign E x w = Ok E' ->
    exists en', Sem.assign_var en x v = Some en' /\ relQ ph en' E' g.
  Proof.
    intros (H1 & H2 & H3 & H4 & H5) Hl HV Ha.
    destruct (rel2_assign VR _ _ _ x t true v w _ H1 Hl HV Ha) as (en' & Hen' & Hr).
    exists en'. split; [exact Hen'|]. split; [exact Hr|].
    unfold Sem.assign_var in Hen'. destruct (Sem.assign_scopes (Sem.scopes en) x v) as [ss'|] eqn:Es; [|discriminate Hen'].
    injection Hen' as <-. cbn [Sem.scopes].
    assert (Hi : forall b, In b (last g []) -> snd (snd b) = false) by (rewrite H4; exact Himm).
    destruct (assign_last _ _ _ _ H1 x t v w ss' E' Hl Hi Es Ha) as [Q1 Q2].
    rewrite Q1, Q2. auto.
  Qed.

  (* [relQ] as a relation of SimNodes.v: the state is the mask, a context has the outermost scope
     under at least one more *)
  Definition relQ_nodes : node_rel VR :=
    {| State := list bool; inner := cons false; rel := relQ; ctx_ok := fun g => (2 <= length g)%nat;
       nr_ctx := relQ_len; nr_kd := rel3_kd; nr_scopes := @rel3_scopes; nr_lookup := @rel3_lookup;
       nr_push := @rel3_push; nr_pop := @rel3_pop; nr_let := @rel3_let |}.

  (* ---------------------------------------------------------------- the agreement predicates and the
     node lemmas of SimNodes.v for [relQ] *)

  Definition AgE3 (fuel : nat) (g : tenv) (e : expr) : Prop :=
    forall ph en E fT w E' o',
    relQ ph en E g -> lower_expr tops fT P e E None = Ok ((w, E'), o') ->
    match Sem.eval fuel P en e with
    | Sem.Done (v, en') => o' = None /\ VR (e_ty e) v w /\ relQ ph en' E' g
    | Sem.Panicked r m => o' = Some (pcode r m)
    | _ => True
    end.

  (* a statement: [g'] the context after it, [t] its type *)
  Definition AgS3 (fuel : nat) (g g' : tenv) (t : ty) (s : stmt) : Prop :=
    forall ph en E fT w E' o',
    relQ (false :: ph) en E g -> lower_stmt tops fT P s E None = Ok ((w, E'), o') ->
    match Sem.exec fuel P en s with
    | Sem.Done (v, en') => o' = None /\ VR t v w /\ relQ (false :: ph) en' E' g'
    | Sem.Panicked r m => o' = Some (pcode r m)
    | _ => True
    end.


  Lemma if_node3 f g c a b m t :
    AgE3 f g c -> AgE3 f g a -> AgE3 f g b -> KP P a -> KP P b ->
    e_ty c = TBool -> e_ty a = t -> e_ty b = t ->
    AgE3 (S f) g (Ex (EIf c a b) m t).
  Proof. exact (SimNodes.if_node P VR VR_bool relQ_nodes f g c a b m t). Qed.


  Lemma sexpr_node3 f g e m : AgE3 f g e -> AgS3 (S f) g g (e_ty e) (St (SExpr e) m).
  Proof. exact (SimNodes.sexpr_node P VR relQ_nodes f g e m). Qed.


  Lemma letmut_node3 f g x e m :
    AgE3 f g e -> AgS3 (S f) g (tbind g x (e_ty e) true) unit_ty (St (SLetMut x e) m).
  Proof. exact (SimNodes.letmut_node P VR VR_unit relQ_nodes f g x e m). Qed.

  Lemma let_node3 f g x mp e m :
    AgE3 f g e -> AgS3 (S f) g (tbind g x (e_ty e) false) unit_ty (St (SLet (Pat (PId x) mp (e_ty e)) e) m).
  Proof. exact (SimNodes.let_node P VR VR_unit relQ_nodes f g x mp e m). Qed.


  Lemma assign_node3 f g x e m :
    AgE3 f g e -> tlookup g x = Some (e_ty e, true) -> AgS3 (S f) g g unit_ty (St (SAssign x [] e) m).
  Proof.
    intros IH Hlk.
    exact (SimNodes.assign_node P VR VR_unit relQ_nodes f g x e m true IH Hlk
             (fun ph en E v w E' H => rel3_assign en E g x (e_ty e) v w E' H Hlk)).
  Qed.


  (* [SimNodes.AgSSG] over [AgS3] ([AgSS3_G]) *)
  Inductive AgSS3 (f : nat) : tenv -> list stmt -> ty -> tenv -> ty -> Prop :=
  | AgSS32_nil g t : AgSS3 f g [] t g t
  | AgSS32_cons g s r g1 t1 t0 g' t :
      AgS3 f g g1 t1 s -> AgSS3 f g1 r t1 g' t -> AgSS3 f g (s :: r) t0 g' t.

  Lemma AgSS3_G f g ss t0 g' t : AgSS3 f g ss t0 g' t -> AgSSG P VR relQ_nodes f g ss t0 g' t.
  Proof. induction 1 as [|g s r g1 t1 t0 g' t Hs _ IH]; econstructor; [exact Hs|exact IH]. Qed.

  Lemma stmts_node3 f g ss t0 g' t : AgSS3 f g ss t0 g' t ->
    forall ph en E fT last lw w E' o',
    relQ (false :: ph) en E g -> VR t0 last lw ->
    block_stmts (lower_stmt tops fT P) ss lw E None = Ok ((w, E'), o') ->
    match sem_stmts P f ss last en with
    | Sem.Done (v, en') => o' = None /\ VR t v w /\ relQ (false :: ph) en' E' g'
    | Sem.Panicked r m => o' = Some (pcode r m)
    | _ => True
    end.
  Proof. intro H. exact (SimNodes.stmts_node P VR relQ_nodes f g ss t0 g' t (AgSS3_G _ _ _ _ _ _ H)). Qed.


  (* the body of a block (its own scope pushed and popped) agrees *)
  Definition AgB3 (fuel : nat) (g : tenv) (b : list stmt) (t : ty) : Prop :=
    forall ph en E fT w E' o',
    relQ ph en E g -> lower_block tops fT P b E None = Ok ((w, E'), o') ->
    match Sem.obind (Sem.exec_block fuel P (Sem.push_scope en) b)
                    (fun '(v, en1) => Sem.Done (v, Sem.pop_scope en1)) with
    | Sem.Done (v, en') => o' = None /\ VR t v w /\ relQ ph en' E' g
    | Sem.Panicked r m => o' = Some (pcode r m)
    | _ => True
    end.

  Lemma block_run_agrees3 f g ss g1 t : AgSS3 f ([] :: g) ss unit_ty g1 t -> tl g1 = g -> AgB3 (S f) g ss t.
  Proof.
    intros Hss Htl.
    exact (SimNodes.block_run_agrees P VR VR_unit relQ_nodes f g ss g1 t (AgSS3_G _ _ _ _ _ _ Hss) Htl).
  Qed.

  (* ---------------------------------------------------------------- function calls *)

  (* arguments: each one in a phantom scope *)
  Lemma args_node3 f g : forall args params,
    Forall2 (fun a (p : N * ty) => AgE3 f g a /\ e_ty a = snd p) args params ->
    forall ph en E fT bs E1 o1, relQ ph en E g ->
    lower_args (lower_expr tops fT P) params args E None = Ok ((bs, E1), o1) ->
    match sem_list P f args en with
    | Sem.Done (vs, en1) =>
        o1 = None /\ relQ ph en1 E1 g /\
        Forall3 (fun v (b : N * list bool) (p : N * ty) => fst b = fst p /\ VR (snd p) v (snd b)) vs bs params
    | Sem.Panicked r m => o1 = Some (pcode r m)
    | _ => True
    end.
  Proof.
    exact (args_nodeG P VR relQ_nodes (cons true) (@rel3_phantom) (@rel3_unphantom) f g).
  Qed.

  (* the environment of the callee: the parameters in a scope of their own over the global scope *)
  Lemma callee_rel3 : forall vs bs params,
    Forall3 (fun v (b : N * list bool) (p : N * ty) => fst b = fst p /\ VR (snd p) v (snd b)) vs bs params ->
    forall en E g E', relQ [false; false] en E g ->
    fold_left (fun Er b => let* E0 := Er in env_let E0 (fst b) (snd b)) bs (Ok E) = Ok E' ->
    relQ [false; false] (Sem.bind_all en (combine (map fst params) vs)) E' (tbind_all g params true).
  Proof.
    intros vs bs params HF. exact (callee_relG VR relQ_nodes vs bs params HF [false]).
  Qed.


  (* the call: the callee runs over the fixed outermost scopes, in the context
     [params-scope :: [gsc]], and hands them back unchanged *)
  Lemma call_node3 f g fn args m t d :
    find_fn P fn = Some d ->
    Forall2 (fun a (p : N * ty) => AgE3 f g a /\ e_ty a = snd p) args (fn_params d) ->
    AgB3 f (tbind_all [[]; gsc] (fn_params d) true) (fn_body d) t ->
    AgE3 (S f) g (Ex (ECall fn args) m t).
  Proof.
    intros Hfind Hargs Hbody ph en E fT w E' o' Hrel Hrun.
    destruct fT as [|fT]; [discriminate Hrun|]. rewrite lower_expr_S in Hrun. cbn [lower_expr_body] in Hrun.
    rewrite Hfind in Hrun. minva Hrun as [bs E1] o1 Ha.
    destruct (rev E1) as [|glob1 crev] eqn:Erev; [discriminate Hrun|].
    minva Hrun as Ecallee o2 Hbind. apply lift_res_inv in Hbind. destruct Hbind as [Hbind ->].
    minva Hrun as [bw E2] o3 Hb. minva Hrun as E3 o4 Hp. apply lift_res_inv in Hp. destruct Hp as [Hp ->].
    apply ret_inv in Hrun. destruct Hrun as [Heq ->]. injection Heq as -> ->.
    rewrite (sem_eval_call P), Hfind.
    pose proof (args_node3 f g args (fn_params d) Hargs ph en E fT _ _ _ Hrel Ha) as IH1. revert IH1.
    destruct (sem_list P f args en) as [[vs en1]|r1 m1|c1|]; intro IH1; cbn [Sem.obind]; try exact I.
    - destruct IH1 as (-> & Hrel1 & HF).
      assert (length vs = length (fn_params d)) as Hlen.
      { clear - HF. induction HF; cbn [length]; congruence. }
      rewrite Hlen, Nat.eqb_refl. cbn [negb].
      destruct Hrel1 as (HP1 & Hls & HlE & Hlg & Hlen2).
      assert (E1 = rev crev ++ [glob1]) as HE1 by (rewrite <- (rev_involutive E1), Erev; reflexivity).
      assert (glob1 = glob) as -> by (rewrite HE1, last_last in HlE; exact HlE).
      rewrite Hls.
      assert (Hrel0 : relQ [false; false] (Sem.mkEnv [[]; sglob] (Sem.lenient en1)) (env_push [glob]) [[]; gsc]).
      { split; [|cbn; auto].
        unfold TSemSemCall.relP, env_push. cbn [Sem.scopes].
        assert (scope_rel VR [] [] []) as Hnil by (split; [exact I|intro x; cbn; auto]).
        apply relS_real; [exact Hnil|]. apply relS_real; [exact Hglob|]. apply relS_nil. }
      unfold Lower.bind_all in Hbind.
      pose proof (callee_rel3 _ _ _ HF _ _ _ _ Hrel0 Hbind) as Hrelc.
      pose proof (Hbody [false; false] _ _ fT _ _ _ Hrelc Hb) as IH2. revert IH2.
      destruct (Sem.exec_block f P _ (fn_body d)) as [[v en2]|r2 m2|c2|]; intro IH2; cbn [Sem.obind]; try exact I;
        [|exact IH2].
      destruct IH2 as (-> & HV & Hrel2). cbn [e_ty]. split; [reflexivity|]. split; [exact HV|].
      (* the callee hands the outermost scope back: E2 = [params'; glob] *)
      destruct Hrel2 as (HP2 & _ & HlE2 & _ & _).
      pose proof (relS_len_E _ _ _ _ HP2) as HL2. cbn [length] in HL2.
      destruct E2 as [|c1 [|c2 [|c3 r3]]]; try discriminate HL2. cbn [last] in HlE2. subst c2.
      cbn [env_pop] in Hp. injection Hp as <-.
      split; [|cbn [Sem.scopes]; rewrite <- HE1; auto].
      eapply rel2_scopes; [|rewrite <- HE1; exact HP1]. reflexivity.
    - subst o1. pose proof (sticky_b P _ _ _ _ _ _ _ Hb) as ->. reflexivity.
  Qed.

  (* ---------------------------------------------------------------- for loops *)

  (* the iterations: one chunk of wires per element *)
  Lemma for_iter_node3 f' g x mp tel body g1 tb eb :
    AgSS3 f' (tbind ([] :: g) x tel false) body unit_ty g1 tb -> tl g1 = g ->
    forall vs chunks, Forall2 (VR tel) vs chunks -> (forall c, In c chunks -> length c = eb) ->
    forall ph en E fT E' o', relQ ph en E g ->
    for_iterations (lower_pattern tops fT P) (lower_stmt tops fT P) (Pat (PId x) mp tel) body eb
      (length chunks) (concat chunks) E None = Ok (E', o') ->
    match TSemSemCall.sem_for P (S f') x body vs en with
    | Sem.Done en' => o' = None /\ relQ ph en' E' g
    | Sem.Panicked r m => o' = Some (pcode r m)
    | _ => True
    end.
  Proof.
    intros Hss. exact (for_iter_nodeG P VR VR_unit relQ_nodes f' g x mp tel body g1 tb eb (AgSS3_G _ _ _ _ _ _ Hss)).
  Qed.

End Control3.

(* ------------------------------------------------------------------ the scalar operator nodes, for [relQ]
   and any value relation that is the scalar encoding on scalar types *)

Section ScalarG3.
  Variable P : program.
  Variable VR : ty -> Sem.value -> list bool -> Prop.
  Hypothesis VR_sc_elim : forall t v w, scalar_ty t = true -> VR t v w -> val_ok t v /\ w = enc_val t v.
  Hypothesis VR_sc_intro : forall t v, scalar_ty t = true -> val_ok t v -> VR t v (enc_val t v).
  Variable gsc : list (N * (ty * bool)).
  Variable sglob : list (N * Sem.value).
  Variable glob : @scope bool.
  Notation AgE' := (AgE3 P VR gsc sglob glob).

  (* ---------------------------------------------------------------- unary minus, `!`, casts *)

  Lemma neg_node_g3 f g e1 m b : ok_width b = true -> e_ty e1 = TInt true b ->
    AgE' f g e1 -> AgE' (S f) g (Ex (ENeg e1) m (TInt true b)).
  Proof. exact (SimNodes.neg_node P VR VR_sc_elim VR_sc_intro (relQ_nodes VR gsc sglob glob) f g e1 m b). Qed.

  Lemma not_node_g3 f g e1 m t : scalar_ty t = true -> e_ty e1 = t ->
    AgE' f g e1 -> AgE' (S f) g (Ex (ENot e1) m t).
  Proof. exact (SimNodes.not_node P VR VR_sc_elim VR_sc_intro (relQ_nodes VR gsc sglob glob) f g e1 m t). Qed.

  Lemma cast_node_g3 f g e1 m t : scalar_ty t = true -> scalar_ty (e_ty e1) = true ->
    AgE' f g e1 -> AgE' (S f) g (Ex (ECast t e1) m t).
  Proof. exact (SimNodes.cast_node P VR VR_sc_elim VR_sc_intro (relQ_nodes VR gsc sglob glob) f g e1 m t). Qed.

  (* ---------------------------------------------------------------- products with a literal operand
     (Compile/TSemSemMul.v) *)

  (* `x * c` / `c * x` where the rewrite fires *)
  Theorem mul_lit_node3 f g x y m sg b left n neg :
    ok_width b = true -> e_ty x = TInt sg b -> e_ty y = TInt sg b ->
    mul_lit_info x y m (TInt sg b) = Some (left, n, neg) ->
    negb neg || sg = true -> mul_lit_ok b n neg = true ->
    AgE' f g (if left then y else x) ->
    AgE' (S f) g (Ex (EOp OMul x y) m (TInt sg b)).
  Proof. exact (mul_lit_nodeG P VR VR_sc_elim VR_sc_intro (relQ_nodes VR gsc sglob glob) f g x y m sg b left n neg). Qed.

  Theorem mul_plain_node3 f g x y m t tx :
    mul_rewrite x y m t = None ->
    e_ty x = tx -> e_ty y = tx -> scalar_ty tx = true -> scalar_ty t = true ->
    (forall vx vy len, val_ok tx vx -> val_ok tx vy -> binop_agrees OMul m t tx vx vy len) ->
    AgE' f g x -> AgE' f g y -> AgE' (S f) g (Ex (EOp OMul x y) m t).
  Proof.
    intro Hm. exact (SimNodes.binop_node P VR VR_sc_elim VR_sc_intro (relQ_nodes VR gsc sglob glob) f g OMul x y m t tx eq_refl (fun _ => Hm)).
  Qed.
End ScalarG3.

Section MulNodeB3.
  Variable P : program.
  Variable VR : ty -> Sem.value -> list bool -> Prop.
  Hypothesis VR_sc_elim : forall t v w, scalar_ty t = true -> VR t v w -> val_ok t v /\ w = enc_val t v.
  Hypothesis VR_sc_intro : forall t v, scalar_ty t = true -> val_ok t v -> VR t v (enc_val t v).
  Variable gsc : list (N * (ty * bool)).
  Variable sglob : list (N * Sem.value).
  Variable glob : @scope bool.

  Corollary mul_lit_node_b3 f g x y m t :
    e_ty x = t -> e_ty y = t -> mul_node_ok x y m t = true ->
    AgE3 P VR gsc sglob glob f g (mul_operand x y m t) -> AgE3 P VR gsc sglob glob (S f) g (Ex (EOp OMul x y) m t).
  Proof. exact (mul_lit_node_bG P VR VR_sc_elim VR_sc_intro (relQ_nodes VR gsc sglob glob) f g x y m t). Qed.
End MulNodeB3.
Print Assumptions mul_lit_node_b3.
Print Assumptions mul_plain_node3.

(* ------------------------------------------------------------------ the aggregate / pattern / match
   nodes of Compile/TSemSemAgg.v (Section AggNodes) for [relQ] *)

Section Agg3.
  Variable P : program.
  Hypothesis Hsmall : enums_small P = true.
  Variable gsc : list (N * (ty * bool)).
  Variable sglob : list (N * Sem.value).
  Variable glob : @scope bool.
  Hypothesis Hglob : scope_rel (TSemSemAgg.VRa P) sglob glob gsc.
  Hypothesis Himm : forall b, In b gsc -> snd (snd b) = false.

  Notation VRa := (TSemSemAgg.VRa P).
  Local Notation pat_ok := (TSemSemAgg.pat_ok P).
  Local Notation gpat_ok := (TSemSemAgg.gpat_ok P).
  Notation AgE' := (AgE3 P VRa gsc sglob glob).
  Notation AgS' := (AgS3 P VRa gsc sglob glob).
  Notation rel := (relQ VRa gsc sglob glob).
  Notation AgSS := (AgSS3 P VRa gsc sglob glob).

  Local Notation RQ := (relQ_nodes VRa gsc sglob glob).

  Lemma id_node_a f g x m t mu : tlookup g x = Some (t, mu) -> AgE' f g (Ex (EId x) m t).
  Proof. exact (id_node_aG P RQ f g x m t mu). Qed.

  Lemma lit_bool_node_a f g (b : bool) m : AgE' f g (Ex (if b then ETrue else EFalse) m TBool).
  Proof. exact (lit_bool_node_aG P RQ f g b m). Qed.

  Lemma lit_numU_node_a f g n lb m sg b : lit_fits (TInt sg b) (Z.of_N n) = true ->
    AgE' f g (Ex (ENumU n lb) m (TInt sg b)).
  Proof. exact (lit_numU_node_aG P RQ f g n lb m sg b). Qed.

  Lemma lit_numS_node_a f g z lb m sg b : lit_fits (TInt sg b) z = true ->
    AgE' f g (Ex (ENumS z lb) m (TInt sg b)).
  Proof. exact (lit_numS_node_aG P RQ f g z lb m sg b). Qed.

  Lemma tuplit_node f g es m t :
    Forall (AgE' f g) es -> t = TTup (map e_ty es) -> ty_fits P t ->
    AgE' (S f) g (Ex (ETupLit es) m t).
  Proof. exact (tuplit_nodeG P RQ f g es m t). Qed.

  Lemma tupacc_node f g e1 i m t ts :
    AgE' f g e1 -> e_ty e1 = TTup ts -> nthN ts i = Some t ->
    AgE' (S f) g (Ex (ETupAcc e1 i) m t).
  Proof. exact (tupacc_nodeG P RQ f g e1 i m t ts). Qed.

  Lemma structlit_node f g name fields def es m t :
    assocN name (p_structs P) = Some def -> nodupN (map fst fields) = true ->
    struct_exprs fields def = Some es -> Forall (AgE' f g) es ->
    map e_ty es = map snd def -> t = TStruct name -> ty_fits P t ->
    AgE' (S f) g (Ex (EStructLit name fields) m t).
  Proof. exact (structlit_nodeG P RQ f g name fields def es m t). Qed.

  Lemma fld_node f g e1 fld m t name def k :
    AgE' f g e1 -> e_ty e1 = TStruct name -> assocN name (p_structs P) = Some def ->
    Sem.index_of fld (map fst def) 0 = Some k -> nthN (map snd def) k = Some t ->
    AgE' (S f) g (Ex (EFld e1 fld) m t).
  Proof. exact (fld_nodeG P RQ f g e1 fld m t name def k). Qed.

  Lemma arrlit_node f g es m t el :
    Forall (AgE' f g) es -> Forall (fun e => e_ty e = el) es -> t = TArr el (lenN es) -> ty_fits P t ->
    AgE' (S f) g (Ex (EArrLit es) m t).
  Proof. exact (arrlit_nodeG P RQ f g es m t el). Qed.

  Lemma arrrep_node f g e1 n m t :
    AgE' f g e1 -> t = TArr (e_ty e1) n -> ty_fits P t ->
    AgE' (S f) g (Ex (EArrRep e1 n) m t).
  Proof. exact (arrrep_nodeG P RQ f g e1 n m t). Qed.

  Lemma range_node f g lo hi bits m t :
    t = TArr (TInt false bits) (hi - lo) -> (hi <=? 2 ^ bits) = true ->
    AgE' f g (Ex (ERange lo hi bits) m t).
  Proof. exact (range_nodeG P RQ f g lo hi bits m t). Qed.

  Lemma idx_node f g a i m t n b :
    AgE' f g a -> AgE' f g i ->
    e_ty a = TArr t n -> e_ty i = TInt false b -> (b <=? 32) = true -> (n <? 2 ^ 32) = true ->
    AgE' (S f) g (Ex (EIdx a i) m t).
  Proof. exact (idx_nodeG P RQ f g a i m t n b). Qed.

  Inductive acc_ok (f : nat) (g : tenv) : list accessor -> ty -> ty -> Prop :=
  | AO_nil t : acc_ok f g [] t t
  | AO_idx ie r el n b tf :
      AgE' f g ie -> e_ty ie = TInt false b -> (b <=? 32) = true -> (n <? 2 ^ 32) = true ->
      acc_ok f g r el tf ->
      acc_ok f g (AIdx (TArr el n) ie :: r) (TArr el n) tf
  | AO_tup i r ts ti tf :
      nthN ts i = Some ti -> acc_ok f g r ti tf ->
      acc_ok f g (ATup (TTup ts) i :: r) (TTup ts) tf
  | AO_fld fld r name def k tk tf :
      assocN name (p_structs P) = Some def -> Sem.index_of fld (map fst def) 0 = Some k ->
      nthN (map snd def) k = Some tk -> acc_ok f g r tk tf ->
      acc_ok f g (AFld (TStruct name) fld :: r) (TStruct name) tf.

  Lemma acc_ok_G f g accs tcur tf : acc_ok f g accs tcur tf -> acc_okG P RQ f g accs tcur tf.
  Proof. induction 1; econstructor; eassumption. Qed.

  Lemma assign_acc_node f g x accs e m tx :
    AgE' f g e -> tlookup g x = Some (tx, true) -> acc_ok f g accs tx (e_ty e) ->
    AgS' (S f) g g unit_ty (St (SAssign x accs e) m).
  Proof.
    intros IH Hlk Hacc.
    apply (assign_acc_nodeG P RQ f g x accs e m tx true IH Hlk); [|apply acc_ok_G, Hacc].
    intros ph en E v w E' Hrel. exact (rel3_assign VRa gsc sglob glob Himm en E g x tx v w E' Hrel Hlk).
  Qed.

  Lemma enumlit_node f g ename variant args m t variants ts :
    Forall (AgE' f g) args -> assocN ename (p_enums P) = Some variants ->
    nthN variants variant = Some ts -> map e_ty args = ts -> t = TEnum ename -> ty_fits P t ->
    AgE' (S f) g (Ex (EEnumLit ename variant args) m t).
  Proof. exact (enumlit_nodeG P RQ f g ename variant args m t variants ts). Qed.

  Lemma let_pat_node f g p e m bs :
    AgE' f g e -> pat_ok p (e_ty e) bs ->
    AgS' (S f) g (tbind_all g bs false) unit_ty (St (SLet p e) m).
  Proof.
    intros IH Hp. apply (let_pat_nodeG P RQ f g p e m bs IH).
    exact (pat_agreesG P RQ p _ bs Hp).
  Qed.

  Local Notation pat_bindsq := (pat_binds P RQ).

  Lemma for_binds_node f g p bs arr body m el n g1 tb :
    AgE' (S f) g arr -> e_ty arr = TArr el n -> pat_bindsq p el bs ->
    AgSS f (tbind_all ([] :: g) bs false) body unit_ty g1 tb -> tl g1 = g ->
    AgS' (S (S f)) g g unit_ty (St (SFor p arr body) m).
  Proof.
    intros IHa Eta Hp Hbody.
    exact (for_pat_nodeG P RQ f g p bs arr body m el n g1 tb
             IHa Eta Hp (AgSS3_G P VRa gsc sglob glob _ _ _ _ _ _ Hbody)).
  Qed.

  Lemma for_pat_node f g p bs arr body m el n g1 tb :
    AgE' (S f) g arr -> e_ty arr = TArr el n -> pat_ok p el bs ->
    AgSS f (tbind_all ([] :: g) bs false) body unit_ty g1 tb -> tl g1 = g ->
    AgS' (S (S f)) g g unit_ty (St (SFor p arr body) m).
  Proof.
    intros IHa Eta Hp. apply (for_binds_node f g p bs arr body m el n g1 tb IHa Eta).
    exact (pat_agreesG P RQ p el bs Hp).
  Qed.

  Lemma for_node f g x mp tp arr body m el n g1 tb :
    AgE' (S f) g arr -> e_ty arr = TArr el n ->
    AgSS f (tbind ([] :: g) x el false) body unit_ty g1 tb -> tl g1 = g ->
    AgS' (S (S f)) g g unit_ty (St (SFor (Pat (PId x) mp tp) arr body) m).
  Proof.
    intros IHa Eta. apply (for_binds_node f g _ [(x, el)] arr body m el n g1 tb IHa Eta).
    exact (id_pat_binds P RQ x mp tp el).
  Qed.

  Definition pat_concl {ph} (g : tenv) (bs : list (N * ty)) (en : Sem.env) (E' : @cenv bool) (c : bool)
      (r : option (list (N * Sem.value))) : Prop :=
    match r with
    | Some vbs => c = true /\ rel (false :: ph) (Sem.bind_all en vbs) E' (tbind_all g bs false)
    | None => c = false
    end.

  Lemma gpat_agrees {ph} p t bs : gpat_ok p t bs ->
    forall v mw en E g fT c E' (o : pobs) o', has_enc P t v mw -> ty_fits P t -> rel (false :: ph) en E g ->
    lower_pattern tops fT P p mw E o = Ok ((c, E'), o') ->
    o' = o /\ SKP E E' /\ pat_concl (ph:=ph) g bs en E' c (Sem.pmatch P p v).
  Proof. exact (gpat_agreesG P RQ Hsmall (s:=ph) p t bs). Qed.

  Definition arm_ok (f : nat) (g : tenv) (tscrut t : ty) (arm : pattern * expr) : Prop :=
    exists bs, gpat_ok (fst arm) tscrut bs /\ AgE' f (tbind_all ([] :: g) bs false) (snd arm) /\
               KP P (snd arm) /\ e_ty (snd arm) = t.

  Lemma match_node f g scrut arms m t :
    AgE' f g scrut -> Forall (arm_ok f g (e_ty scrut) t) arms ->
    AgE' (S f) g (Ex (EMatch scrut arms) m t).
  Proof. exact (match_nodeG P RQ Hsmall f g scrut arms m t). Qed.
End Agg3.

(* ------------------------------------------------------------------ the strict checker with calls *)

(* binary operators: the scalar operators of [sc_op] (a product there has no literal operand), or a
   product with a literal operand: an ordinary checked product where the compiler's repeated-addition
   rewrite does not fire, else the side conditions of Compile/TSemSemMul.v ([mul_node_ok]) *)
Definition scf2_op (o : binop) (x y : expr) (m : meta) (t : ty) : bool :=
  sc_op o x y t ||
  match o, t with
  | OMul, TInt _ b =>
      sty_eqb (e_ty x) t && sty_eqb (e_ty y) t &&
      match mul_rewrite x y m t with None => ok_width b | Some _ => mul_node_ok x y m t end
  | OEq, TBool | ONe, TBool => ty_beq (e_ty y) (e_ty x)     (* == / != on values of ANY one type *)
  | _, _ => false
  end.

Fixpoint scf2_expr (fuel : nat) (P : program) (g : tenv) (e : expr) {struct fuel} : bool :=
  match fuel with
  | O => false
  | S f =>
    match e with
    | Ex ei m t =>
      match ei with
      | ETrue | EFalse => ty_beq t TBool
      | ENumU n _ => match t with TInt _ _ => lit_fits t (Z.of_N n) | _ => false end
      | ENumS z _ => match t with TInt _ _ => lit_fits t z | _ => false end
      | EId x => match tlookup g x with Some (tx, _) => ty_beq tx t | None => false end
      | EArrLit es =>
          match t with
          | TArr el n =>
              (lenN es =? n) && forallb (fun e1 => ty_beq (e_ty e1) el && scf2_expr f P g e1) es && ty_fits_b P t
          | _ => false
          end
      | EArrRep e1 n =>
          match t with
          | TArr el n2 => (n =? n2) && ty_beq (e_ty e1) el && scf2_expr f P g e1 && ty_fits_b P t
          | _ => false
          end
      | EIdx a i =>
          match e_ty a, e_ty i with
          | TArr el n, TInt false b =>
              ty_beq el t && (b <=? 32) && (n <? 2 ^ 32) && scf2_expr f P g a && scf2_expr f P g i
          | _, _ => false
          end
      | ETupLit es => ty_beq t (TTup (map e_ty es)) && forallb (scf2_expr f P g) es && ty_fits_b P t
      | ETupAcc e1 i =>
          match e_ty e1 with
          | TTup ts => match nthN ts i with Some ti => ty_beq ti t && scf2_expr f P g e1 | None => false end
          | _ => false
          end
      | EFld e1 fld =>
          match e_ty e1 with
          | TStruct name =>
              match assocN name (p_structs P) with
              | Some def =>
                  match Sem.index_of fld (map fst def) 0 with
                  | Some k =>
                      match nthN (map snd def) k with
                      | Some tk => ty_beq tk t && scf2_expr f P g e1
                      | None => false
                      end
                  | None => false
                  end
              | None => false
              end
          | _ => false
          end
      | EStructLit name fields =>
          match assocN name (p_structs P) with
          | Some def =>
              nodupN (map fst fields) &&
              match struct_exprs fields def with
              | Some es => forallb (scf2_expr f P g) es && ty_beq (TTup (map e_ty es)) (TTup (map snd def))
              | None => false
              end && ty_beq t (TStruct name) && ty_fits_b P t
          | None => false
          end
      | EEnumLit en v args =>
          match assocN en (p_enums P) with
          | Some variants =>
              match nthN variants v with
              | Some ts =>
                  ty_beq (TTup (map e_ty args)) (TTup ts) && forallb (scf2_expr f P g) args &&
                  ty_beq t (TEnum en) && ty_fits_b P t
              | None => false
              end
          | None => false
          end
      | EMatch s arms =>
          scf2_expr f P g s &&
          forallb (fun arm =>
                     match gpat_b P false (fst arm) (e_ty s) with
                     | Some bs => scf2_expr f P (tbind_all ([] :: g) bs false) (snd arm) && ty_beq (e_ty (snd arm)) t
                     | None => false
                     end) arms
      | ENeg e1 =>
          match t with
          | TInt true b => ok_width b && ty_beq (e_ty e1) t && scf2_expr f P g e1
          | _ => false
          end
      | ENot e1 => scalar_ty t && ty_beq (e_ty e1) t && scf2_expr f P g e1
      | EOp o x y => scf2_expr f P g x && scf2_expr f P g y && scf2_op o x y m t
      | EBlock b => match scf2_block f P ([] :: g) b with Some tb => ty_beq tb t | None => false end
      | ECall fn args =>
          match find_fn P fn with
          | Some d =>
              ty_beq (fn_ret d) t &&
              forallb2 (fun a (p : N * ty) => ty_beq (e_ty a) (snd p) && scf2_expr f P g a) args (fn_params d)
          | None => false
          end
      | EJoin _ _ _ _ => false
      | EIf c a b =>
          ty_beq (e_ty c) TBool && ty_beq (e_ty a) t && ty_beq (e_ty b) t &&
          scf2_expr f P g c && scf2_expr f P g a && scf2_expr f P g b
      | ECast to e1 => scalar_ty t && ty_beq to t && scalar_ty (e_ty e1) && scf2_expr f P g e1
      | ERange lo hi bits => ty_beq t (TArr (TInt false bits) (hi - lo)) && (hi <=? 2 ^ bits)
      end
    end
  end
with scf2_block (fuel : nat) (P : program) (g : tenv) (b : list stmt) {struct fuel} : option ty :=
  match fuel with
  | O => None
  | S f =>
      (fix go (ss : list stmt) (g : tenv) (last : ty) : option ty :=
         match ss with
         | [] => Some last
         | s :: r => match scf2_stmt f P g s with Some (g', t) => go r g' t | None => None end
         end) b g unit_ty
  end
with scf2_stmt (fuel : nat) (P : program) (g : tenv) (s : stmt) {struct fuel} : option (tenv * ty) :=
  match fuel with
  | O => None
  | S f =>
    match s with
    | St si _ =>
      match si with
      | SLet p e =>
          if scf2_expr f P g e then
            match gpat_b P true p (e_ty e) with
            | Some bs => Some (tbind_all g bs false, unit_ty)
            | None => None
            end
          else None
      | SLetMut x e => if scf2_expr f P g e then Some (tbind g x (e_ty e) true, unit_ty) else None
      | SAssign x accs e =>
          match tlookup g x with
          | Some (tx, true) =>
              if scf2_expr f P g e then
                match (fix go (accs : list accessor) (cur : ty) : option ty :=
                         match accs with
                         | [] => Some cur
                         | AIdx aty ie :: r =>
                             match cur, e_ty ie with
                             | TArr el n, TInt false b =>
                                 if ty_beq aty cur && (b <=? 32) && (n <? 2 ^ 32) && scf2_expr f P g ie
                                 then go r el else None
                             | _, _ => None
                             end
                         | ATup tty i :: r =>
                             match cur with
                             | TTup ts =>
                                 if ty_beq tty cur then match nthN ts i with Some ti => go r ti | None => None end
                                 else None
                             | _ => None
                             end
                         | AFld sty fld :: r =>
                             match cur with
                             | TStruct name =>
                                 if ty_beq sty cur then
                                   match assocN name (p_structs P) with
                                   | Some def =>
                                       match Sem.index_of fld (map fst def) 0 with
                                       | Some k => match nthN (map snd def) k with Some tk => go r tk | None => None end
                                       | None => None
                                       end
                                   | None => None
                                   end
                                 else None
                             | _ => None
                             end
                         end) accs tx with
                | Some tf => if ty_beq tf (e_ty e) then Some (g, unit_ty) else None
                | None => None
                end
              else None
          | _ => None
          end
      | SFor p arr body =>
          match e_ty arr with
          | TArr el _ =>
              if scf2_expr f P g arr then
                match gpat_b P true p el with
                | Some bs =>
                    match scf2_block f P (tbind_all ([] :: g) bs false) body with
                    | Some _ => Some (g, unit_ty)
                    | None => None
                    end
                | None => None
                end
              else None
          | _ => None
          end
      | SJoinLoop _ _ _ _ _ => None
      | SExpr e => if scf2_expr f P g e then Some (g, e_ty e) else None
      end
    end
  end.

Fixpoint scf2_stmts (f : nat) (P : program) (ss : list stmt) (g : tenv) (last : ty) : option (tenv * ty) :=
  match ss with
  | [] => Some (g, last)
  | s :: r => match scf2_stmt f P g s with Some (g', t) => scf2_stmts f P r g' t | None => None end
  end.

Lemma scf2_block_S f P g b : scf2_block (S f) P g b = option_map snd (scf2_stmts f P b g unit_ty).
Proof.
  cbn [scf2_block]. generalize unit_ty. revert g. induction b as [|s r IH]; intros g last; [reflexivity|].
  cbn [scf2_stmts]. destruct (scf2_stmt f P g s) as [[g' t]|]; [apply IH|reflexivity].
Qed.

Lemma scf2_stmt_tl fw P g s g' t : scf2_stmt fw P g s = Some (g', t) -> tl g' = tl g.
Proof.
  destruct fw as [|f]; [discriminate|]. destruct s as [si m]. cbn [scf2_stmt]. destruct si; try discriminate.
  - destruct (scf2_expr f P g e); [|discriminate]. destruct (gpat_b P true p (e_ty e)); [|discriminate].
    intros [= <- _]. apply tl_tbind_all.
  - destruct (scf2_expr f P g e); [|discriminate]. intros [= <- _]. apply tl_tbind.
  - destruct (tlookup g name) as [[tx []]|]; try discriminate. destruct (scf2_expr f P g e); [|discriminate].
    match goal with |- match ?G with _ => _ end = _ -> _ => destruct G as [tf|] end; [|discriminate].
    destruct (ty_beq tf (e_ty e)); [|discriminate]. now intros [= <- _].
  - destruct (e_ty arr); try discriminate. destruct (scf2_expr f P g arr); [|discriminate].
    destruct (gpat_b P true p t0); [|discriminate]. destruct (scf2_block f P _ body); [|discriminate].
    now intros [= <- _].
  - destruct (scf2_expr f P g e); [|discriminate]. now intros [= <- _].
Qed.

(* a function of the program: its body is checked in the context of its parameters (a scope of
   their own over the global scope [gsc]) and has the declared type; all functions must pass *)
Definition scf2_fn (fw : nat) (P : program) (gsc : list (N * (ty * bool))) (d : fndef) : bool :=
  match scf2_block fw P ([] :: tbind_all [[]; gsc] (fn_params d) true) (fn_body d) with
  | Some t => ty_beq t (fn_ret d)
  | None => false
  end.

Definition scf2_fns (fw : nat) (P : program) (gsc : list (N * (ty * bool))) : bool :=
  forallb (scf2_fn fw P gsc) (p_fns P).

(* ------------------------------------------------------------------ the induction *)

Section MainF2.
  Variable P : program.
  Hypothesis Hsmall : enums_small P = true.
  Variable gsc : list (N * (ty * bool)).
  Variable sglob : list (N * Sem.value).
  Variable glob : @scope bool.
  Notation VRa := (VRa P).
  Hypothesis Hglob : scope_rel VRa sglob glob gsc.
  Hypothesis Himm : forall b, In b gsc -> snd (snd b) = false.
  Variable fwp : nat.
  Hypothesis Hfns : scf2_fns fwp P gsc = true.
  Notation AgE' := (AgE3 P VRa gsc sglob glob).
  Notation AgS' := (AgS3 P VRa gsc sglob glob).


  Definition InvEf2 (fuel : nat) : Prop :=
    forall fw g e, scf2_expr fw P g e = true -> AgE' fuel g e.
  Definition InvSf2 (fuel : nat) : Prop :=
    forall fw g s g' t, scf2_stmt fw P g s = Some (g', t) -> AgS' fuel g g' t s.

  Lemma stmts_AgSS_f2 f : InvSf2 f -> forall fw ss g last g1 t,
    scf2_stmts fw P ss g last = Some (g1, t) -> AgSS3 P VRa gsc sglob glob f g ss last g1 t /\ tl g1 = tl g.
  Proof.
    intros IHs fw. induction ss as [|s r IH]; intros g last g1 t Hsc; cbn [scf2_stmts] in Hsc.
    - injection Hsc as <- <-. split; [constructor|reflexivity].
    - destruct (scf2_stmt fw P g s) as [[g' t']|] eqn:Es; [|discriminate Hsc].
      destruct (IH g' t' g1 t Hsc) as [HA Htl]. split.
      + econstructor; [eapply IHs; eassumption|exact HA].
      + rewrite Htl. eapply scf2_stmt_tl; eassumption.
  Qed.

  Ltac eqs :=
    repeat match goal with
    | H : sty_eqb _ _ = true |- _ => apply sty_eqb_eq in H
    | H : vt_eqb _ _ = true |- _ => apply vt_eqb_eq in H
    | H : ty_beq _ _ = true |- _ => apply ty_beq_eq in H
    end.

  Lemma mul_step_f2 f g x y m t :
    match t with
    | TInt _ b =>
        sty_eqb (e_ty x) t && sty_eqb (e_ty y) t &&
        match mul_rewrite x y m t with None => ok_width b | Some _ => mul_node_ok x y m t end
    | _ => false
    end = true ->
    AgE' f g x -> AgE' f g y -> AgE' (S f) g (Ex (EOp OMul x y) m t).
  Proof.
    intros Hop IHx IHy. destruct t as [|sg b| | | |]; try discriminate Hop. bsplit. eqs.
    destruct (mul_rewrite x y m (TInt sg b)) as [r|] eqn:Hm.
    - apply (mul_lit_node_b3 P VRa (VRa_sc_elim P) (VRa_sc_intro P) gsc sglob glob); try assumption.
      unfold mul_operand. destruct (mul_lit_info x y m (TInt sg b)) as [[[[] ?] ?]|]; assumption.
    - apply (mul_plain_node3 P VRa (VRa_sc_elim P) (VRa_sc_intro P) gsc sglob glob f g x y m (TInt sg b) (TInt sg b));
        try assumption.
      apply int_agrees; [assumption|left; split; reflexivity].
  Qed.

  (* == / != on two values of one type, aggregates included: Sem.v compares the values, the
     compiler the flattened wires (Compile/TSemSemEq.v) *)
  Lemma agg_eq_node f g (o : binop) x y m : o = OEq \/ o = ONe -> e_ty y = e_ty x ->
    AgE' f g x -> AgE' f g y -> AgE' (S f) g (Ex (EOp o x y) m TBool).
  Proof.
    intros Ho Ety IHx IHy ph en E fT w E' o' Hrel Hrun.
    assert (Hoe : op_arith o || op_cmp o || op_eq o = true) by (destruct Ho as [-> | ->]; reflexivity).
    destruct fT as [|fT]; [discriminate Hrun|]. rewrite lower_expr_S in Hrun.
    apply binop_run in Hrun; [|exact Hoe|destruct Ho as [-> | ->]; intro; discriminate].
    destruct Hrun as (xw & E1 & o1 & yw & o2 & Hx & Hy & Hb).
    rewrite (sem_eval_op P f en o x y m TBool Hoe).
    pose proof (IHx ph en E fT _ _ _ Hrel Hx) as IH1. revert IH1.
    destruct (Sem.eval f P en x) as [[vx en1]|r1 m1|c1|]; intro IH1; cbn [Sem.obind]; try exact I.
    - destruct IH1 as (-> & HVx & Hrel1).
      pose proof (IHy ph en1 E1 fT _ _ _ Hrel1 Hy) as IH2. revert IH2.
      destruct (Sem.eval f P en1 y) as [[vy en2]|r2 m2|c2|]; intro IH2; cbn [Sem.obind]; try exact I.
      + destruct IH2 as (-> & HVy & Hrel2). rewrite Ety in HVy, Hb.
        destruct HVx as [Hex Hfit]. destruct HVy as [Hey _].
        assert (Hl : length xw = length yw)
          by (rewrite (has_enc_length P _ _ _ Hex Hfit), (has_enc_length P _ _ _ Hey Hfit); reflexivity).
        pose proof (has_enc_eqb P Hsmall _ _ _ _ _ Hex Hey Hfit) as Heq.
        destruct Ho as [-> | ->]; cbn [Sem.eval_binop Sem.obind e_ty].
        * rewrite lower_eq_bits in Hb by exact Hl. injection Hb as <- <-. rewrite Heq.
          split; [reflexivity|]. split; [split; [constructor|apply ty_fits_bool]|].
          eapply rel3_scopes; [|exact Hrel2]. reflexivity.
        * rewrite lower_ne_bits in Hb by exact Hl. injection Hb as <- <-. rewrite Heq.
          split; [reflexivity|]. split; [split; [constructor|apply ty_fits_bool]|].
          eapply rel3_scopes; [|exact Hrel2]. reflexivity.
      + subst o2. exact (stkx_lower_binop _ _ _ _ _ _ _ _ _ _ Hb).
    - subst o1. pose proof (sticky_e P _ _ _ _ _ _ _ Hy) as ->.
      exact (stkx_lower_binop _ _ _ _ _ _ _ _ _ _ Hb).
  Qed.

  Lemma op_step_f2 f g o x y m t :
    scf2_op o x y m t = true -> AgE' f g x -> AgE' f g y -> AgE' (S f) g (Ex (EOp o x y) m t).
  Proof.
    intros Hop IHx IHy. unfold scf2_op in Hop. apply orb_prop in Hop. destruct Hop as [Hop|Hop];
      [|destruct o; try discriminate Hop;
        [now apply mul_step_f2
        |destruct t; try discriminate Hop; apply ty_beq_eq in Hop; apply agg_eq_node; auto
        |destruct t; try discriminate Hop; apply ty_beq_eq in Hop; apply agg_eq_node; auto]].
    exact (op_step P VRa (VRa_bool P) (VRa_sc_elim P) (VRa_sc_intro P) (relQ_nodes VRa gsc sglob glob)
             f g o x y m t Hop IHx IHy).
  Qed.



  Lemma forallb_AgE2 f (IHe : InvEf2 f) fw g es : forallb (scf2_expr fw P g) es = true -> Forall (AgE' f g) es.
  Proof.
    intro H. apply Forall_forall. intros e Hin. rewrite forallb_forall in H. eapply IHe. now apply H.
  Qed.


  Lemma find_fn_scf fn d : find_fn P fn = Some d ->
    scf2_block fwp P ([] :: tbind_all [[]; gsc] (fn_params d) true) (fn_body d) = Some (fn_ret d) /\ True.
  Proof.
    intro H. unfold find_fn in H. apply find_some in H. destruct H as [Hin _].
    unfold scf2_fns in Hfns. rewrite forallb_forall in Hfns. specialize (Hfns d Hin). unfold scf2_fn in Hfns.
    split; [|exact I].
    destruct (scf2_block fwp P _ (fn_body d)) as [tb|]; [|discriminate Hfns]. apply ty_beq_eq in Hfns. now subst tb.
  Qed.

  Lemma block_AgB_f2 f : (forall k, (k < f)%nat -> InvEf2 k /\ InvSf2 k) -> forall fw g b t,
    scf2_block fw P ([] :: g) b = Some t -> AgB3 P VRa gsc sglob glob f g b t.
  Proof.
    intros IH fw g b t Hsc. destruct f as [|f']; [intros ph en E fT w E' o' _ _; exact I|].
    destruct fw as [|fw']; [discriminate Hsc|]. rewrite scf2_block_S in Hsc.
    destruct (scf2_stmts fw' P b ([] :: g) unit_ty) as [[g1 tb]|] eqn:Es; [|discriminate Hsc].
    cbn [option_map snd] in Hsc. injection Hsc as ->.
    destruct (stmts_AgSS_f2 f' (proj2 (IH f' (le_n _))) fw' b _ _ _ _ Es) as [HA Htl].
    exact (block_run_agrees3 P VRa (VRa_unit P) gsc sglob glob f' g b g1 t HA Htl).
  Qed.

  Lemma args_AgEf2 f fw g : InvEf2 f -> forall args params,
    forallb2 (fun a (p : N * ty) => ty_beq (e_ty a) (snd p) && scf2_expr fw P g a) args params = true ->
    Forall2 (fun a (p : N * ty) => AgE' f g a /\ e_ty a = snd p) args params.
  Proof.
    intros IHe. induction args as [|a ar IH]; intros [|p pr] H; cbn [forallb2] in H; try discriminate H.
    - constructor.
    - bsplit. eqs. constructor; [|now apply IH]. split; [|assumption]. eapply IHe; eassumption.
  Qed.

  Lemma InvEf2_step f : (forall k, (k <= f)%nat -> InvEf2 k /\ InvSf2 k) -> InvEf2 (S f).
  Proof.
    intros IH fw g [ei m t] Hsc. destruct fw as [|fw]; [discriminate Hsc|]. cbn [scf2_expr] in Hsc.
    destruct (IH f (le_n _)) as [IHe _].
    destruct ei.
    - eqs. subst t. apply (lit_bool_node_a P gsc sglob glob (S f) g true m).
    - eqs. subst t. apply (lit_bool_node_a P gsc sglob glob (S f) g false m).
    - destruct t as [|sg b| | | |]; try discriminate Hsc. now apply lit_numU_node_a.
    - destruct t as [|sg b| | | |]; try discriminate Hsc. now apply lit_numS_node_a.
    - destruct (tlookup g name) as [[tx mu]|] eqn:El; [|discriminate Hsc]. eqs. subst tx.
      eapply id_node_a; eassumption.
    - (* array literal *)
      destruct t as [| |el n| | |]; try discriminate Hsc. bsplit.
      match goal with Hq : (lenN es =? n) = true |- _ => apply N.eqb_eq in Hq; subst n end.
      match goal with Hf : forallb _ es = true |- _ => rewrite forallb_forall in Hf; rename Hf into Hall end.
      apply (arrlit_node P gsc sglob glob f g es m _ el); try reflexivity; try assumption.
      + apply Forall_forall. intros e1 Hin. specialize (Hall _ Hin). bsplit. eapply IHe; eassumption.
      + apply Forall_forall. intros e1 Hin. specialize (Hall _ Hin). bsplit. eqs. assumption.
    - (* array repeat *)
      destruct t as [| |el n2| | |]; try discriminate Hsc. bsplit. eqs.
      match goal with Hq : (n =? n2) = true |- _ => apply N.eqb_eq in Hq; subst n2 end. subst el.
      apply arrrep_node; try reflexivity; try assumption. eapply IHe; eassumption.
    - (* index *)
      destruct (e_ty a) as [| |el n| | |] eqn:Ea; try discriminate Hsc.
      destruct (e_ty i) as [|[] b| | | |] eqn:Ei; try discriminate Hsc. bsplit. eqs. subst el.
      eapply (idx_node P gsc sglob glob f g a i m t n b); try eassumption; eapply IHe; eassumption.
    - (* tuple literal *)
      bsplit. eqs. apply tuplit_node; try assumption. eapply forallb_AgE2; eassumption.
    - (* tuple access *)
      destruct (e_ty e) as [| | |ts| |] eqn:Ee; try discriminate Hsc.
      destruct (nthN ts i) as [ti|] eqn:En; [|discriminate Hsc]. bsplit. eqs. subst ti.
      eapply tupacc_node; try eassumption. eapply IHe; eassumption.
    - (* field *)
      destruct (e_ty e) as [| | | |name|] eqn:Ee; try discriminate Hsc.
      destruct (assocN name (p_structs P)) as [def|] eqn:Ed; [|discriminate Hsc].
      destruct (Sem.index_of fld (map fst def) 0) as [k|] eqn:Ek; [|discriminate Hsc].
      destruct (nthN (map snd def) k) as [tk|] eqn:En; [|discriminate Hsc]. bsplit. eqs. subst tk.
      eapply fld_node; try eassumption. eapply IHe; eassumption.
    - (* struct literal *)
      destruct (assocN name (p_structs P)) as [def|] eqn:Ed; [|discriminate Hsc]. bsplit.
      destruct (struct_exprs fields def) as [es|] eqn:Ese; [|discriminate]. bsplit. eqs.
      match goal with Hq : TTup _ = TTup _ |- _ => injection Hq as Hq end.
      eapply structlit_node; try eassumption. eapply forallb_AgE2; eassumption.
    - (* enum literal *)
      destruct (assocN ename (p_enums P)) as [variants|] eqn:Ed; [|discriminate Hsc].
      destruct (nthN variants variant) as [ts|] eqn:En; [|discriminate Hsc]. bsplit. eqs.
      match goal with Hq : TTup _ = TTup _ |- _ => injection Hq as Hq end.
      eapply enumlit_node; try eassumption. eapply forallb_AgE2; eassumption.
    - (* match *)
      bsplit. apply match_node; [exact Hsmall|eapply IHe; eassumption|].
      apply Forall_forall. intros [pat body] Hin.
      match goal with Hf : forallb _ arms = true |- _ => rewrite forallb_forall in Hf; specialize (Hf _ Hin) end.
      cbn [fst snd] in *. destruct (gpat_b P false pat (e_ty e)) as [bs|] eqn:Ep; [|discriminate]. bsplit. eqs.
      exists bs. cbn [fst snd]. split; [now apply gpat_b_sound|]. split; [eapply IHe; eassumption|].
      split; [apply KP_all|assumption].
    - (* unary minus *)
      destruct t as [|[] b| | | |]; try discriminate Hsc. bsplit. eqs.
      apply (neg_node_g3 P VRa (VRa_sc_elim P) (VRa_sc_intro P) gsc sglob glob); try assumption. eapply IHe; eassumption.
    - bsplit. eqs. apply (not_node_g3 P VRa (VRa_sc_elim P) (VRa_sc_intro P) gsc sglob glob); try assumption. eapply IHe; eassumption.
    - bsplit. apply op_step_f2; try assumption; eapply IHe; eassumption.
    - (* block *)
      destruct (scf2_block fw P ([] :: g) b) as [tb|] eqn:Eb; [|discriminate Hsc]. eqs. subst tb.
      apply (SimNodes.eblock_node P VRa (relQ_nodes VRa gsc sglob glob) f g b m t).
      eapply block_AgB_f2; [|exact Eb]. intros k Hk. apply IH. lia.
    - (* call *)
      match type of Hsc with context [find_fn P ?fn] => destruct (find_fn P fn) as [d|] eqn:Ef end;
        [|discriminate Hsc].
      bsplit. eqs. subst t. destruct (find_fn_scf _ _ Ef) as [Hb _].
      eapply (call_node3 P VRa gsc sglob glob Hglob); [exact Ef| |].
      + eapply args_AgEf2; eassumption.
      + eapply block_AgB_f2; [|exact Hb]. intros k Hk. apply (IH k). lia.
    - discriminate Hsc.
    - bsplit. eqs.
      apply (if_node3 P VRa (VRa_bool P) gsc sglob glob f g c t0 e m t); try assumption;
        try (eapply IHe; eassumption); apply KP_all.
    - bsplit. eqs. subst to. apply (cast_node_g3 P VRa (VRa_sc_elim P) (VRa_sc_intro P) gsc sglob glob); try assumption. eapply IHe; eassumption.
    - bsplit. eqs. apply range_node; assumption.
  Qed.

  Lemma InvSf2_step f : (forall k, (k <= f)%nat -> InvEf2 k /\ InvSf2 k) -> InvSf2 (S f).
  Proof.
    intros IH fw g [si m] g' t Hsc. destruct fw as [|fw]; [discriminate Hsc|]. cbn [scf2_stmt] in Hsc.
    destruct (IH f (le_n _)) as [IHe _].
    destruct si.
    - (* let pattern = e *)
      destruct (scf2_expr fw P g e) eqn:He; [|discriminate Hsc].
      destruct (gpat_b P true p (e_ty e)) as [bs|] eqn:Ep; [|discriminate Hsc]. injection Hsc as <- <-.
      apply let_pat_node; [eapply IHe; eassumption|now apply pat_b_sound].
    - destruct (scf2_expr fw P g e) eqn:He; [|discriminate Hsc]. injection Hsc as <- <-.
      apply (letmut_node3 P VRa (VRa_unit P) gsc sglob glob). eapply IHe; eassumption.
    - (* assignment through accessors *)
      destruct (tlookup g name) as [[tx []]|] eqn:El; try discriminate Hsc.
      destruct (scf2_expr fw P g e) eqn:He; [|discriminate Hsc].
      match type of Hsc with match ?G with _ => _ end = _ => destruct G as [tf|] eqn:Ea end; [|discriminate Hsc].
      destruct (ty_beq tf (e_ty e)) eqn:Et; [|discriminate Hsc]. injection Hsc as <- <-. eqs. subst tf.
      eapply assign_acc_node; [exact Himm|eapply IHe; eassumption|exact El|].
      revert Ea. generalize (e_ty e). generalize tx. clear El.
      induction accs as [|[aty ie|tty i|sty fld] r IHa]; intros cur tf Ea.
      + injection Ea as <-. constructor.
      + destruct cur as [| |el n| | |]; try discriminate Ea.
        destruct (e_ty ie) as [|[] b| | | |] eqn:Ei; try discriminate Ea.
        match type of Ea with (if ?c then _ else _) = _ => destruct c eqn:Hc end; [|discriminate Ea].
        bsplit. eqs. subst aty. econstructor; try eassumption; [eapply IHe; eassumption|now apply IHa].
      + destruct cur as [| | |ts| |]; try discriminate Ea.
        destruct (ty_beq tty (TTup ts)) eqn:Hc; [|discriminate Ea]. eqs. subst tty.
        destruct (nthN ts i) as [ti|] eqn:En; [|discriminate Ea]. econstructor; [exact En|now apply IHa].
      + destruct cur as [| | | |sname|]; try discriminate Ea.
        destruct (ty_beq sty (TStruct sname)) eqn:Hc; [|discriminate Ea]. eqs. subst sty.
        destruct (assocN sname (p_structs P)) as [def|] eqn:Ed; [|discriminate Ea].
        destruct (Sem.index_of fld (map fst def) 0) as [k|] eqn:Ek; [|discriminate Ea].
        destruct (nthN (map snd def) k) as [tk|] eqn:En; [|discriminate Ea].
        econstructor; try eassumption. now apply IHa.
    - (* for *)
      destruct (e_ty arr) as [| |el n| | |] eqn:Earr; try discriminate Hsc.
      destruct (scf2_expr fw P g arr) eqn:Ha; [|discriminate Hsc].
      destruct (gpat_b P true p el) as [bs|] eqn:Ep; [|discriminate Hsc].
      destruct (scf2_block fw P (tbind_all ([] :: g) bs false) body) as [tb|] eqn:Eb; [|discriminate Hsc].
      injection Hsc as <- <-.
      destruct f as [|f']; [intros ph en E fT w E' o' _ _; exact I|].
      destruct fw as [|fw']; [discriminate Eb|]. rewrite scf2_block_S in Eb.
      destruct (scf2_stmts fw' P body (tbind_all ([] :: g) bs false) unit_ty) as [[g1 tb']|] eqn:Es; [|discriminate Eb].
      destruct (IH f' (le_S _ _ (le_n _))) as [_ IHs].
      destruct (stmts_AgSS_f2 f' IHs fw' body _ _ _ _ Es) as [HA Htl].
      rewrite tl_tbind_all in Htl. cbn [tl] in Htl.
      eapply (for_pat_node P gsc sglob glob f' g p bs arr body m el n g1 tb');
        [eapply IHe; eassumption|exact Earr|now apply pat_b_sound|exact HA|exact Htl].
    - discriminate Hsc.
    - destruct (scf2_expr fw P g e) eqn:He; [|discriminate Hsc]. injection Hsc as <- <-.
      apply sexpr_node3. eapply IHe; eassumption.
  Qed.

  Theorem agree_all_full2 : forall fuel, InvEf2 fuel /\ InvSf2 fuel.
  Proof.
    induction fuel as [fuel IH] using lt_wf_ind. destruct fuel as [|f].
    - split; [intros fw g e _ ph en E fT w E' o' _ _|intros fw g s g' t _ ph en E fT w E' o' _ _]; exact I.
    - split.
      + apply InvEf2_step. intros k Hk. apply IH. lia.
      + apply InvSf2_step. intros k Hk. apply IH. lia.
  Qed.
End MainF2.
Print Assumptions agree_all_full2.

(* ------------------------------------------------------------------ [agree_all_full2] per sort,
   relative to the three fixed outermost scopes *)

Section Spelled.
  Variable P : program.
  Hypothesis Hsmall : enums_small P = true.
  Variable gsc : list (N * (ty * bool)).
  Variable sglob : list (N * Sem.value).
  Variable glob : @scope bool.
  Hypothesis Hglob : scope_rel (VRa P) sglob glob gsc.
  Hypothesis Himm : forall b, In b gsc -> snd (snd b) = false.
  Variable fwp : nat.
  Hypothesis Hfns : scf2_fns fwp P gsc = true.
  Notation rel := (relQ (VRa P) gsc sglob glob).

  Theorem tsem_sem_full2_expr fuel fw g e ph en E fT w E' o' :
    scf2_expr fw P g e = true -> rel ph en E g ->
    lower_expr tops fT P e E None = Ok ((w, E'), o') ->
    match Sem.eval fuel P en e with
    | Sem.Done (v, en') => o' = None /\ VRa P (e_ty e) v w /\ rel ph en' E' g
    | Sem.Panicked r m => o' = Some (preason_num (pr r), ploc32 (ploc_of m))
    | Sem.Stuck _ | Sem.NoFuel => True
    end.
  Proof.
    intros Hsc Hrel Hrun.
    exact (proj1 (agree_all_full2 P Hsmall gsc sglob glob Hglob Himm fwp Hfns fuel) fw g e Hsc ph en E fT w E' o' Hrel Hrun).
  Qed.

  Theorem tsem_sem_full2_stmt fuel fw g s g' t ph en E fT w E' o' :
    scf2_stmt fw P g s = Some (g', t) -> rel (false :: ph) en E g ->
    lower_stmt tops fT P s E None = Ok ((w, E'), o') ->
    match Sem.exec fuel P en s with
    | Sem.Done (v, en') => o' = None /\ VRa P t v w /\ rel (false :: ph) en' E' g'
    | Sem.Panicked r m => o' = Some (preason_num (pr r), ploc32 (ploc_of m))
    | Sem.Stuck _ | Sem.NoFuel => True
    end.
  Proof.
    intros Hsc Hrel Hrun.
    exact (proj2 (agree_all_full2 P Hsmall gsc sglob glob Hglob Himm fwp Hfns fuel) fw g s g' t Hsc ph en E fT w E' o' Hrel Hrun).
  Qed.

  Theorem tsem_sem_full2_block fuel fw g b t ph en E fT w E' o' :
    scf2_block fw P ([] :: g) b = Some t -> rel ph en E g ->
    lower_block tops fT P b E None = Ok ((w, E'), o') ->
    match Sem.obind (Sem.exec_block fuel P (Sem.push_scope en) b)
                    (fun '(v, en1) => Sem.Done (v, Sem.pop_scope en1)) with
    | Sem.Done (v, en') => o' = None /\ VRa P t v w /\ rel ph en' E' g
    | Sem.Panicked r m => o' = Some (preason_num (pr r), ploc32 (ploc_of m))
    | Sem.Stuck _ | Sem.NoFuel => True
    end.
  Proof.
    intros Hsc Hrel Hrun.
    pose proof (fun k (_ : (k < fuel)%nat) => agree_all_full2 P Hsmall gsc sglob glob Hglob Himm fwp Hfns k) as HI.
    eapply block_AgB_f2; [exact HI|exact Hsc|exact Hrel|exact Hrun].
  Qed.
End Spelled.
Print Assumptions tsem_sem_full2_expr.
Print Assumptions tsem_sem_full2_block.

(* ------------------------------------------------------------------ whole programs with calls
   (no global constants: the three outermost scopes are empty) *)

Lemma scope_rel_nil3 VR : scope_rel VR [] [] [].
Proof. split; [exact I|]. intro x. cbn. auto. Qed.

Theorem tsem_sem_program_full2 P d fuel fw fT args o outs :
  enums_small P = true -> p_consts P = [] -> find_fn P (p_main P) = Some d ->
  scf2_fns fw P [] = true -> canonical_args P (fn_params d) args = true ->
  tsem_program fT P args = Ok (o, outs) ->
  match Sem.run_main fuel P args with
  | Sem.RunOk bits _ => o = None /\ outs = bits
  | Sem.RunPanic r m => o = Some (preason_num (pr r), ploc32 (ploc_of m))
  | Sem.RunStuck _ | Sem.RunNoFuel => True
  end.
Proof.
  intros Hsm Hc Hfind Hf Hcan Hrun.
  assert (Himm : forall b : N * (ty * bool), In b [] -> snd (snd b) = false) by (intros b []).
  destruct (find_fn_scf P [] fw Hf _ _ Hfind) as [Hsc _].
  apply (main_obs_run P (VRa P) d fuel args o outs Hfind (VRa_encode P _)). intros vals Ed.
  refine (main_agrees P (VRa P) d [] fuel fT args vals o outs _ Hfind (no_consts_rel P _ fuel Hc)
            (init_rel_f P _ _ _ Ed Hcan) _ Hrun). intros en0 E0 w E' o1 _ Hrel Hb.
  destruct (tbind_all_cons [] [[]] (fn_params d) true) as [gs' Hg0]. rewrite Hg0 in Hrel.
  destruct (rel_last (VRa P) _ _ _ _ (relP_of_env_rel3 (VRa P) _ _ _ Hrel) ltac:(discriminate) eq_refl) as (H1 & H2 & _).
  pose proof (relQ_of_env_rel3 (VRa P) [] [] [] _ E0 gs' Hrel H1 H2) as HrelQ. rewrite <- Hg0 in HrelQ.
  exact (tsem_sem_full2_block P Hsm [] [] [] (scope_rel_nil3 (VRa P)) Himm fw Hf fuel fw _ (fn_body d)
           (fn_ret d) [false; false] _ E0 fT _ _ _ Hsc HrelQ Hb).
Qed.
Print Assumptions tsem_sem_program_full2.

Definition in_full_fragment2 (fw : nat) (P : program) : bool :=
  match p_consts P, find_fn P (p_main P) with
  | [], Some _ => enums_small P && scf2_fns fw P []
  | _, _ => false
  end.

Theorem in_full_fragment2_sound P fuel fw fT args o outs :
  in_full_fragment2 fw P = true -> canonical_main_args P args = true ->
  tsem_program fT P args = Ok (o, outs) ->
  match Sem.run_main fuel P args with
  | Sem.RunOk bits _ => o = None /\ outs = bits
  | Sem.RunPanic r m => o = Some (preason_num (pr r), ploc32 (ploc_of m))
  | _ => True
  end.
Proof.
  unfold in_full_fragment2, canonical_main_args. intros H Hcan Hrun.
  destruct (p_consts P) eqn:Hc; [|discriminate H].
  destruct (find_fn P (p_main P)) as [d|] eqn:Hfind; [|discriminate H].
  apply andb_prop in H. destruct H as [Hsm Hf].
  pose proof (tsem_sem_program_full2 P d fuel fw fT args o outs Hsm Hc Hfind Hf Hcan Hrun) as HH.
  destruct (Sem.run_main fuel P args); exact HH || exact I.
Qed.
Print Assumptions in_full_fragment2_sound.

(* ------------------------------------------------------------------ sanity: calls with aggregate
   arguments and results *)
Module SanityFullCall.
  Definition mm (k : N) : meta := mkMeta k 1 k 9.
  Definition u8 := TInt false 8.
  Definition tpoint := TStruct 20.            (* struct Point { x: u8, y: u8 } *)
  Definition tshape := TEnum 30.              (* enum Shape { Dot, Line(u8) } *)
  Definition tarr := TArr u8 3.
  Definition lit (n : N) (k : N) := Ex (ENumU n 8) (mm k) u8.
  Definition v (x : N) (t : ty) (k : N) := Ex (EId x) (mm k) t.
  (* fn sum(a: [u8; 3]) -> u8 { let mut t = 0u8; for e in a { t = t + e; } t }         sum = 40
     fn mk(x: u8, y: u8) -> Point { Point { x: x, y: y } }                              mk = 41
     pub fn main(a: [u8; 3], s: Shape) -> u8 {
       let p = mk(sum(a), 2u8);
       match s { Shape::Dot => p.x, Shape::Line(n) => sum([n, p.x, p.y]) } } *)
  Definition sum_fn : fndef :=
    mkFn 40 [(1, tarr)] u8
      [ St (SLetMut 5 (lit 0 1)) (mm 2);
        St (SFor (Pat (PId 6) (mm 3) u8) (v 1 tarr 4)
              [St (SAssign 5 [] (Ex (EOp OAdd (v 5 u8 5) (v 6 u8 6)) (mm 7) u8)) (mm 8)]) (mm 9);
        St (SExpr (v 5 u8 10)) (mm 11) ].
  Definition mk_fn : fndef :=
    mkFn 41 [(1, u8); (2, u8)] tpoint
      [ St (SExpr (Ex (EStructLit 20 [(0, v 1 u8 12); (1, v 2 u8 13)]) (mm 14) tpoint)) (mm 15) ].
  Definition main_fn : fndef :=
    mkFn 11 [(1, tarr); (2, tshape)] u8
      [ St (SLet (Pat (PId 3) (mm 16) tpoint)
              (Ex (ECall 41 [Ex (ECall 40 [v 1 tarr 17]) (mm 18) u8; lit 2 19]) (mm 20) tpoint)) (mm 21);
        St (SExpr (Ex (EMatch (v 2 tshape 22)
              [ (Pat (PEnumUnit 30 0) (mm 23) tshape, Ex (EFld (v 3 tpoint 24) 0) (mm 25) u8);
                (Pat (PEnumTup 30 1 [Pat (PId 7) (mm 26) u8]) (mm 27) tshape,
                 Ex (ECall 40 [Ex (EArrLit [v 7 u8 28; Ex (EFld (v 3 tpoint 29) 0) (mm 30) u8;
                                            Ex (EFld (v 3 tpoint 31) 1) (mm 32) u8]) (mm 33) tarr]) (mm 34) u8) ])
              (mm 35) u8)) (mm 36) ].
  Definition P0 : program :=
    mkProgram [(20, [(0, u8); (1, u8)])] [(30, [[]; [u8]])] [sum_fn; mk_fn; main_fn] [] 11.

  Example accepted : in_full_fragment2 14 P0 = true.
  Proof. vm_compute. reflexivity. Qed.

  Definition arr_bits (a b c : Z) : list bool := enc 8 a ++ enc 8 b ++ enc 8 c.
  Definition line_bits (n : Z) : list bool := true :: enc 8 n.
  Definition dot_bits : list bool := false :: enc 8 0.

  Ltac run A :=
    destruct (tsem_program 18 P0 A) as [[o outs]| |] eqn:Hrun;
      [|vm_compute in Hrun; discriminate Hrun|vm_compute in Hrun; discriminate Hrun];
    assert (Hcan : canonical_main_args P0 A = true) by (vm_compute; reflexivity);
    pose proof (in_full_fragment2_sound P0 18 14 18 _ o outs accepted Hcan Hrun) as H.

  (* p = mk(60, 2); Line(7): sum([7, 60, 2]) = 69 *)
  Example line : exists o outs l, tsem_program 18 P0 [arr_bits 10 20 30; line_bits 7] = Ok (o, outs) /\
    Sem.run_main 18 P0 [arr_bits 10 20 30; line_bits 7] = Sem.RunOk (enc 8 69) l /\ o = None /\ outs = enc 8 69.
  Proof.
    run [arr_bits 10 20 30; line_bits 7].
    assert (exists l, Sem.run_main 18 P0 [arr_bits 10 20 30; line_bits 7] = Sem.RunOk (enc 8 69) l) as [l Ev]
      by (eexists; vm_compute; reflexivity).
    rewrite Ev in H. destruct H as [-> ->]. exists None, (enc 8 69), l. repeat split; assumption || reflexivity.
  Qed.

  (* the first call overflows inside the callee's loop: 200 + 100 *)
  Example callee_panics : exists o outs, tsem_program 18 P0 [arr_bits 200 100 0; dot_bits] = Ok (o, outs) /\
    Sem.run_main 18 P0 [arr_bits 200 100 0; dot_bits] = Sem.RunPanic Sem.ROverflow (mm 7) /\
    o = Some (preason_num Overflow, ploc32 (ploc_of (mm 7))).
  Proof.
    run [arr_bits 200 100 0; dot_bits].
    assert (Sem.run_main 18 P0 [arr_bits 200 100 0; dot_bits] = Sem.RunPanic Sem.ROverflow (mm 7)) as Ev
      by (vm_compute; reflexivity).
    rewrite Ev in H. eauto.
  Qed.
End SanityFullCall.

(* products by a literal: accepted, and the two semantics agree (value and overflow); the
   literal -2i8 of the finding const-mul-rewrite-intermediate-overflow is rejected *)
Module SanityMul.
  Definition mm (k : N) : meta := mkMeta k 1 k 9.
  Definition u8 := TInt false 8.
  Definition i8 := TInt true 8.
  (* pub fn main(x: u8) -> u8 { 3u8 * x } *)
  Definition main_fn : fndef :=
    mkFn 11 [(1, u8)] u8
      [ St (SExpr (Ex (EOp OMul (Ex (ENumU 3 8) (mm 1) u8) (Ex (EId 1) (mm 2) u8)) (mm 3) u8)) (mm 4) ].
  Definition P0 : program := mkProgram [] [] [main_fn] [] 11.

  Example accepted : in_full_fragment2 6 P0 = true.
  Proof. vm_compute. reflexivity. Qed.

  Ltac run A :=
    destruct (tsem_program 8 P0 A) as [[o outs]| |] eqn:Hrun;
      [|vm_compute in Hrun; discriminate Hrun|vm_compute in Hrun; discriminate Hrun];
    assert (Hcan : canonical_main_args P0 A = true) by (vm_compute; reflexivity);
    pose proof (in_full_fragment2_sound P0 8 6 8 _ o outs accepted Hcan Hrun) as H.

  Example value : exists o outs l, tsem_program 8 P0 [enc 8 50] = Ok (o, outs) /\
    Sem.run_main 8 P0 [enc 8 50] = Sem.RunOk (enc 8 150) l /\ o = None /\ outs = enc 8 150.
  Proof.
    run [enc 8 50].
    assert (exists l, Sem.run_main 8 P0 [enc 8 50] = Sem.RunOk (enc 8 150) l) as [l Ev]
      by (eexists; vm_compute; reflexivity).
    rewrite Ev in H. destruct H as [-> ->]. exists None, (enc 8 150), l. repeat split; assumption || reflexivity.
  Qed.

  Example overflow : exists o outs, tsem_program 8 P0 [enc 8 100] = Ok (o, outs) /\
    Sem.run_main 8 P0 [enc 8 100] = Sem.RunPanic Sem.ROverflow (mm 3) /\
    o = Some (preason_num Overflow, ploc32 (ploc_of (mm 3))).
  Proof.
    run [enc 8 100].
    assert (Sem.run_main 8 P0 [enc 8 100] = Sem.RunPanic Sem.ROverflow (mm 3)) as Ev by (vm_compute; reflexivity).
    rewrite Ev in H. eauto.
  Qed.

  (* pub fn main(x: i8) -> i8 { x * -2i8 } : not accepted *)
  Definition neg_fn : fndef :=
    mkFn 11 [(1, i8)] i8
      [ St (SExpr (Ex (EOp OMul (Ex (EId 1) (mm 2) i8) (Ex (ENumS (-2) 8) (mm 1) i8)) (mm 3) i8)) (mm 4) ].
  Example rejected : in_full_fragment2 6 (mkProgram [] [] [neg_fn] [] 11) = false.
  Proof. vm_compute. reflexivity. Qed.
End SanityMul.

(* == / != on aggregates: accepted; on canonical inputs the two semantics agree (by the theorem).
   On a NON-canonical input they differ: Sem.v decodes the arguments and compares the VALUES, the
   circuit compares the WIRES, and the unused payload bits of an enum value are wires too
   ([canonical_main_args] excludes such inputs) *)
Module SanityAggEq.
  Definition mm (k : N) : meta := mkMeta k 1 k 9.
  Definition u8 := TInt false 8.
  Definition te := TEnum 30.                   (* enum E { A, B(u8) } *)
  Definition tt := TTup [te; TArr u8 2].
  Definition v (x : N) (t : ty) (k : N) := Ex (EId x) (mm k) t.
  (* pub fn main(a: (E, [u8; 2]), b: (E, [u8; 2])) -> (bool, bool) { (a == b, a.1 != b.1) } *)
  Definition main_fn : fndef :=
    mkFn 11 [(1, tt); (2, tt)] (TTup [TBool; TBool])
      [ St (SExpr (Ex (ETupLit
          [ Ex (EOp OEq (v 1 tt 1) (v 2 tt 2)) (mm 3) TBool;
            Ex (EOp ONe (Ex (ETupAcc (v 1 tt 4) 1) (mm 5) (TArr u8 2)) (Ex (ETupAcc (v 2 tt 6) 1) (mm 7) (TArr u8 2)))
               (mm 8) TBool ]) (mm 9) (TTup [TBool; TBool]))) (mm 10) ].
  Definition P0 : program := mkProgram [] [(30, [[]; [u8]])] [main_fn] [] 11.

  Example accepted : in_full_fragment2 6 P0 = true.
  Proof. vm_compute. reflexivity. Qed.

  Definition arg (tag : bool) (payload x y : Z) : list bool := (tag :: enc 8 payload) ++ enc 8 x ++ enc 8 y.

  (* canonical inputs: B(7), [1, 2] twice *)
  Example equal_values : exists o outs l,
    tsem_program 8 P0 [arg true 7 1 2; arg true 7 1 2] = Ok (o, outs) /\
    Sem.run_main 8 P0 [arg true 7 1 2; arg true 7 1 2] = Sem.RunOk [true; false] l /\ o = None /\ outs = [true; false].
  Proof.
    destruct (tsem_program 8 P0 [arg true 7 1 2; arg true 7 1 2]) as [[o outs]| |] eqn:Hrun;
      [|vm_compute in Hrun; discriminate Hrun|vm_compute in Hrun; discriminate Hrun].
    assert (Hcan : canonical_main_args P0 [arg true 7 1 2; arg true 7 1 2] = true) by (vm_compute; reflexivity).
    pose proof (in_full_fragment2_sound P0 8 6 8 _ o outs accepted Hcan Hrun) as H.
    assert (exists l, Sem.run_main 8 P0 [arg true 7 1 2; arg true 7 1 2] = Sem.RunOk [true; false] l) as [l Ev]
      by (eexists; vm_compute; reflexivity).
    rewrite Ev in H. destruct H as [-> ->]. exists None, [true; false], l. repeat split; assumption || reflexivity.
  Qed.

  (* the variant A has no payload; 255 in its unused payload bits is not a canonical encoding:
     Sem.v says a == b, the circuit says a != b *)
  Example padding_is_compared :
    canonical_main_args P0 [arg false 255 1 2; arg false 0 1 2] = false /\
    Sem.run_main 8 P0 [arg false 255 1 2; arg false 0 1 2] = Sem.RunOk [true; false] false /\
    tsem_program 8 P0 [arg false 255 1 2; arg false 0 1 2] = Ok (None, [false; false]).
  Proof. vm_compute. repeat split; reflexivity. Qed.
End SanityAggEq.

(* arrays of zero-sized elements: accepted; reads / writes have no wires,
   the bounds checks are the usual ones *)
Module SanityZeroSized.
  Definition mm (k : N) : meta := mkMeta k 1 k 9.
  Definition u8 := TInt false 8.
  Definition u32 := TInt false 32.
  Definition tu := TTup [].
  Definition ta := TArr tu 3.
  (* pub fn main(i: usize) -> u8 { let mut a = [(); 3]; a[i] = (); 1u8 } *)
  Definition main_fn : fndef :=
    mkFn 11 [(1, u32)] u8
      [ St (SLetMut 0 (Ex (EArrRep (Ex (ETupLit []) (mm 1) tu) 3) (mm 2) ta)) (mm 3);
        St (SAssign 0 [AIdx ta (Ex (EId 1) (mm 4) u32)] (Ex (ETupLit []) (mm 5) tu)) (mm 6);
        St (SExpr (Ex (ENumU 1 8) (mm 7) u8)) (mm 8) ].
  Definition P0 : program := mkProgram [] [] [main_fn] [] 11.

  Example accepted : in_full_fragment2 6 P0 = true.
  Proof. vm_compute. reflexivity. Qed.

  Ltac run A :=
    destruct (tsem_program 8 P0 A) as [[o outs]| |] eqn:Hrun;
      [|vm_compute in Hrun; discriminate Hrun|vm_compute in Hrun; discriminate Hrun];
    assert (Hcan : canonical_main_args P0 A = true) by (vm_compute; reflexivity);
    pose proof (in_full_fragment2_sound P0 8 6 8 _ o outs accepted Hcan Hrun) as H.

  Example in_bounds : exists o outs l, tsem_program 8 P0 [enc 32 1] = Ok (o, outs) /\
    Sem.run_main 8 P0 [enc 32 1] = Sem.RunOk (enc 8 1) l /\ o = None /\ outs = enc 8 1.
  Proof.
    run [enc 32 1].
    assert (exists l, Sem.run_main 8 P0 [enc 32 1] = Sem.RunOk (enc 8 1) l) as [l Ev] by (eexists; vm_compute; reflexivity).
    rewrite Ev in H. destruct H as [-> ->]. exists None, (enc 8 1), l. repeat split; assumption || reflexivity.
  Qed.

  Example out_of_bounds : exists o outs, tsem_program 8 P0 [enc 32 5] = Ok (o, outs) /\
    Sem.run_main 8 P0 [enc 32 5] = Sem.RunPanic Sem.ROutOfBounds (mm 6) /\
    o = Some (preason_num OutOfBounds, ploc32 (ploc_of (mm 6))).
  Proof.
    run [enc 32 5].
    assert (Sem.run_main 8 P0 [enc 32 5] = Sem.RunPanic Sem.ROutOfBounds (mm 6)) as Ev by (vm_compute; reflexivity).
    rewrite Ev in H. eauto.
  Qed.
End SanityZeroSized.
