(* GLOBAL CONSTANTS in the full fragment (with calls): the program theorem without the
   hypothesis [p_consts P = []] of Compile/TSemSemFullCall.v.  The constants are literals (as
   Lang/Wt.v requires); the strict checker asks in addition that the width of a literal's own
   suffix ([const_wires] uses it) is the width of the declared type ([scf_const]).  The three fixed outermost scopes
   of [relQ] are the scopes that [Sem.eval_consts], [Lower.global_scope] and [Wt.consts_tenv]
   build; they are related, and immutable. *)
From Coq Require Import Lia ZArith.
From GV Require Import Base.Util Base.Bits Base.BitsProofs Lang.Ast Lang.Wt Lang.ValTy Lang.WtShape
  Gadgets.Gadgets Gadgets.GadgetSpec Gadgets.Arith Panic.PanicRec Panic.PanicSem Compile.Lower
  Compile.TSem Compile.TSemFacts Compile.TSemArith1 Compile.TSemArith2 Compile.TSemControl
  Compile.TSemSemExpr Compile.ValEnc Compile.TSemSticky Compile.TSemSemStmt Compile.TSemSemCall
  Compile.TSemSemAgg Compile.TSemSemFull Compile.TSemSemFullCall.
From GV Require Lang.Sem.
Local Open Scope N_scope.

(* a constant: a literal of its declared type; number literals carry the width of that type *)
Definition scf_const (c : N * expr) : bool :=
  match snd c with
  | Ex ETrue _ t | Ex EFalse _ t => ty_beq t TBool
  | Ex (ENumU n lb) _ t => match t with TInt _ b => lit_fits t (Z.of_N n) && (lb =? b) | _ => false end
  | Ex (ENumS z lb) _ t => match t with TInt _ b => lit_fits t z && (lb =? b) | _ => false end
  | _ => false
  end.

Definition scf_consts (P : program) : bool := forallb scf_const (p_consts P).

Section Consts.
  Variable P : program.
  Notation VRa := (VRa P).

  Lemma const_ok x e f en : scf_const (x, e) = true ->
    exists v w, Sem.eval (S f) P en e = Sem.Done (v, en) /\ const_wires tops e = Ok w /\ VRa (e_ty e) v w.
  Proof.
    unfold scf_const. cbn [snd]. destruct e as [[] m t]; try discriminate; intro H.
    - apply ty_beq_eq in H. subst t. exists (Sem.VBool true), [true]. repeat split; try reflexivity; try constructor; try apply ty_fits_bool.
    - apply ty_beq_eq in H. subst t. exists (Sem.VBool false), [false]. repeat split; try reflexivity; try constructor; try apply ty_fits_bool.
    - destruct t as [|sg b| | | |]; try discriminate H. apply andb_prop in H. destruct H as [Hf Hb].
      apply N.eqb_eq in Hb. subst lb. rewrite lit_fits_in_range in Hf.
      exists (Sem.VInt (Z.of_N n)), (enc (N.to_nat b) (Z.of_N n)). cbn [Sem.eval const_wires e_ty].
      rewrite tsem_unsigned_as_wires. repeat split; try reflexivity; try (now constructor); try apply ty_fits_int.
    - destruct t as [|sg b| | | |]; try discriminate H. apply andb_prop in H. destruct H as [Hf Hb].
      apply N.eqb_eq in Hb. subst lb. rewrite lit_fits_in_range in Hf.
      exists (Sem.VInt z), (enc (N.to_nat b) z). cbn [Sem.eval const_wires e_ty].
      rewrite tsem_signed_as_wires. repeat split; try reflexivity; try (now constructor); try apply ty_fits_int.
  Qed.

  (* the loop of [Sem.eval_consts] *)
  Fixpoint sem_consts (fuel : nat) (cs : list (N * expr)) (en : Sem.env) : Sem.outcome Sem.env :=
    match cs with
    | [] => Sem.Done en
    | (x, e) :: r => Sem.obind (Sem.eval fuel P en e) (fun '(v, en1) => sem_consts fuel r (Sem.bind_var en1 x v))
    end.

  Lemma eval_consts_eq fuel : Sem.eval_consts fuel P = sem_consts fuel (p_consts P) (Sem.mkEnv [[]] false).
  Proof.
    unfold Sem.eval_consts. generalize (Sem.mkEnv [[]] false). induction (p_consts P) as [|[x e] r IH]; intro en;
      [reflexivity|].
    cbn [sem_consts]. destruct (Sem.eval fuel P en e) as [[v en1]|r1 m1|c1|]; cbn [Sem.obind]; try reflexivity.
    apply IH.
  Qed.

  Definition gfold (cs : list (N * expr)) (r : res (@cenv bool)) : res (@cenv bool) :=
    fold_left (fun Er '(x, e) => let* E := Er in let* w := const_wires tops e in env_let E x w) cs r.

  Lemma gfold_not_ok cs : forall r, (forall E, r <> Ok E) -> forall E', gfold cs r <> Ok E'.
  Proof.
    induction cs as [|[x e] cs IH]; intros r Hr E'; cbn [gfold fold_left]; [apply Hr|].
    apply IH. intros E. destruct r; cbn [bind]; try discriminate. exfalso. eapply Hr. reflexivity.
  Qed.

  Lemma consts_rel fuel : forall cs, forallb scf_const cs = true ->
    forall en E g E', env_rel3 VRa en E g -> gfold cs (Ok E) = Ok E' ->
    match sem_consts fuel cs en with
    | Sem.Done en' => env_rel3 VRa en' E' (tbind_all g (map (fun c => (fst c, e_ty (snd c))) cs) false)
    | Sem.Panicked _ _ => False
    | _ => True
    end.
  Proof.
    induction cs as [|[x e] cs IH]; intros Hc en E g E' Hrel Hf.
    - cbn in Hf. injection Hf as <-. exact Hrel.
    - destruct fuel as [|f]; [exact I|].
      cbn [forallb] in Hc. apply andb_prop in Hc. destruct Hc as [Hc1 Hc2].
      destruct (const_ok x e f en Hc1) as (v & w & Hev & Hw & HV).
      cbn [sem_consts]. rewrite Hev. cbn [Sem.obind].
      unfold gfold in Hf. cbn [fold_left bind] in Hf. rewrite Hw in Hf. cbn [bind] in Hf.
      destruct (env_let E x w) as [E1| |] eqn:El;
        [|exfalso; eapply gfold_not_ok; [|exact Hf]; intros ? Hq; discriminate Hq
         |exfalso; eapply gfold_not_ok; [|exact Hf]; intros ? Hq; discriminate Hq].
      unfold tbind_all. cbn [map fold_left fst snd].
      apply (IH Hc2 _ E1 _ E'); [|exact Hf]. eapply TSemSemStmt.rel_let; eassumption.
  Qed.
End Consts.

Lemma tbind_all_single gs bs : (forall b, In b gs -> snd (snd b) = false) ->
  exists gs', tbind_all [gs] bs false = [gs'] /\ (forall b, In b gs' -> snd (snd b) = false).
Proof.
  revert gs. induction bs as [|[x t] r IH]; intros gs Hg; [exists gs; auto|].
  unfold tbind_all in *. cbn [fold_left tbind fst snd]. apply IH.
  intros b [<-|Hin]; [reflexivity|now apply Hg].
Qed.

Definition consts_scope (P : program) : list (N * (ty * bool)) := hd [] (consts_tenv P).

Lemma consts_scope_spec P : consts_tenv P = [consts_scope P] /\ forall b, In b (consts_scope P) -> snd (snd b) = false.
Proof.
  unfold consts_scope, consts_tenv.
  destruct (tbind_all_single [] (map (fun c => (fst c, e_ty (snd c))) (p_consts P)) ltac:(intros b []))
    as (gs' & -> & Himm). split; [reflexivity|exact Himm].
Qed.

Lemma consts_tenv_scope P : consts_tenv P = [consts_scope P].
Proof. apply consts_scope_spec. Qed.

Lemma relQ_of_env_rel3 VR en E gs gsc : env_rel3 VR en E [gs; gsc] ->
  exists sglob glob, scope_rel VR sglob glob gsc /\ relQ VR gsc sglob glob [false; false] en E [gs; gsc].
Proof.
  intro Hrel. pose proof (relP_of_env_rel3 VR _ _ _ Hrel) as HP. unfold env_rel3 in Hrel.
  inversion Hrel as [|s1 c1 g1 ss1 E1 gr1 _ Hr1 Ess HE]. subst.
  inversion Hr1 as [|sglob glob g2 ss2 E2 gr2 Hglob Hr2 Ess2]. subst. inversion Hr2. subst.
  exists sglob, glob. split; [exact Hglob|]. split; [exact HP|]. rewrite <- Ess. cbn [last length]. auto.
Qed.

(* ------------------------------------------------------------------ the program theorem *)

Theorem tsem_sem_program_full3 P d fuel fw fT args o outs :
  enums_small P = true -> scf_consts P = true -> find_fn P (p_main P) = Some d ->
  scf2_fns fw P (consts_scope P) = true -> canonical_args P (fn_params d) args = true ->
  tsem_program fT P args = Ok (o, outs) ->
  match Sem.run_main fuel P args with
  | Sem.RunOk bits _ => o = None /\ outs = bits
  | Sem.RunPanic r m => o = Some (preason_num (pr r), ploc32 (ploc_of m))
  | Sem.RunStuck _ | Sem.RunNoFuel => True
  end.
Proof.
  intros Hsm Hcs Hfind Hf Hcan Hrun. destruct (consts_scope_spec P) as [Hgsc Himm].
  apply (main_obs_run P (VRa P) d fuel args o outs Hfind (VRa_encode P _)). intros vals Ed.
  refine (main_agrees P (VRa P) d (consts_scope P) fuel fT args vals o outs (fun _ _ => True) Hfind _
            (init_rel_f P _ _ _ Ed Hcan) _ Hrun).
  - intros Eg Eglob. rewrite eval_consts_eq, <- Hgsc.
    refine (consts_rel P fuel (p_consts P) Hcs (Sem.mkEnv [[]] false) [[]] [[]] Eg _ Eglob).
    unfold env_rel3. cbn [Sem.scopes]. repeat constructor.
  - intros en0 E w E' o' _ Hrel Hb.
    destruct (tbind_all_cons [] [consts_scope P] (fn_params d) true) as [gs' Hg0]. rewrite Hg0 in Hrel.
    destruct (relQ_of_env_rel3 _ _ _ _ _ Hrel) as (sglob & glob & Hglob & HrelQ). rewrite <- Hg0 in HrelQ.
    pose proof (tsem_sem_full2_block P Hsm (consts_scope P) sglob glob Hglob Himm fw Hf fuel fw _ (fn_body d)
                  (fn_ret d) [false; false] _ E fT _ _ _ (proj1 (find_fn_scf P _ fw Hf _ _ Hfind)) HrelQ Hb) as H.
    destruct (Sem.obind _ _) as [[v en']|r m|c|]; [|exact H..]. split; [apply H|]. split; [apply H|exact I].
Qed.
Print Assumptions tsem_sem_program_full3.

(* programs of the full fragment: constants are checked literals, every function passes the
   strict checker in the context of its parameters over the constants *)
Definition in_full_fragment3 (fw : nat) (P : program) : bool :=
  match find_fn P (p_main P) with
  | Some _ => enums_small P && scf_consts P && scf2_fns fw P (consts_scope P)
  | None => false
  end.

Theorem in_full_fragment3_sound P fuel fw fT args o outs :
  in_full_fragment3 fw P = true -> canonical_main_args P args = true ->
  tsem_program fT P args = Ok (o, outs) ->
  match Sem.run_main fuel P args with
  | Sem.RunOk bits _ => o = None /\ outs = bits
  | Sem.RunPanic r m => o = Some (preason_num (pr r), ploc32 (ploc_of m))
  | _ => True
  end.
Proof.
  unfold in_full_fragment3, canonical_main_args. intros H Hcan Hrun.
  destruct (find_fn P (p_main P)) as [d|] eqn:Hfind; [|discriminate H].
  apply andb_prop in H. destruct H as [H Hf]. apply andb_prop in H. destruct H as [Hsm Hcs].
  exact (tsem_sem_program_full3 P d fuel fw fT args o outs Hsm Hcs Hfind Hf Hcan Hrun).
Qed.
Print Assumptions in_full_fragment3_sound.

(* ------------------------------------------------------------------ sanity: global constants used by
   main and by a callee *)
Module SanityConst.
  Definition mm (k : N) : meta := mkMeta k 1 k 9.
  Definition u8 := TInt false 8.
  Definition tarr := TArr u8 3.
  Definition lit (n : N) (k : N) := Ex (ENumU n 8) (mm k) u8.
  Definition v (x : N) (t : ty) (k : N) := Ex (EId x) (mm k) t.
  (* const BASE: u8 = 100u8;  const FLAG: bool = true;                       BASE = 50, FLAG = 51
     fn add_base(x: u8) -> u8 { x + BASE }                                     add_base = 40
     pub fn main(a: [u8; 3]) -> u8 { if FLAG { add_base(a[1u8]) + BASE } else { 0u8 } } *)
  Definition add_fn : fndef :=
    mkFn 40 [(1, u8)] u8 [ St (SExpr (Ex (EOp OAdd (v 1 u8 1) (v 50 u8 2)) (mm 3) u8)) (mm 4) ].
  Definition main_fn : fndef :=
    mkFn 11 [(1, tarr)] u8
      [ St (SExpr (Ex (EIf (v 51 TBool 5)
           (Ex (EBlock [St (SExpr (Ex (EOp OAdd
                  (Ex (ECall 40 [Ex (EIdx (v 1 tarr 6) (lit 1 7)) (mm 8) u8]) (mm 9) u8) (v 50 u8 10)) (mm 11) u8)) (mm 12)])
               (mm 13) u8)
           (Ex (EBlock [St (SExpr (lit 0 14)) (mm 15)]) (mm 16) u8)) (mm 17) u8)) (mm 18) ].
  Definition P0 : program :=
    mkProgram [] [] [add_fn; main_fn] [(50, lit 100 20); (51, Ex ETrue (mm 21) TBool)] 11.

  Example accepted : in_full_fragment3 14 P0 = true.
  Proof. vm_compute. reflexivity. Qed.

  Definition arr_bits (a b c : Z) : list bool := enc 8 a ++ enc 8 b ++ enc 8 c.

  Ltac run A :=
    destruct (tsem_program 18 P0 A) as [[o outs]| |] eqn:Hrun;
      [|vm_compute in Hrun; discriminate Hrun|vm_compute in Hrun; discriminate Hrun];
    assert (Hcan : canonical_main_args P0 A = true) by (vm_compute; reflexivity);
    pose proof (in_full_fragment3_sound P0 18 14 18 _ o outs accepted Hcan Hrun) as H.

  (* a[1] = 20: 20 + 100 + 100 = 220 *)
  Example value : exists o outs l, tsem_program 18 P0 [arr_bits 10 20 30] = Ok (o, outs) /\
    Sem.run_main 18 P0 [arr_bits 10 20 30] = Sem.RunOk (enc 8 220) l /\ o = None /\ outs = enc 8 220.
  Proof.
    run [arr_bits 10 20 30].
    assert (exists l, Sem.run_main 18 P0 [arr_bits 10 20 30] = Sem.RunOk (enc 8 220) l) as [l Ev]
      by (eexists; vm_compute; reflexivity).
    rewrite Ev in H. destruct H as [-> ->]. exists None, (enc 8 220), l. repeat split; assumption || reflexivity.
  Qed.

  (* a[1] = 60: the callee returns 160, then 160 + 100 overflows in main *)
  Example panics : exists o outs, tsem_program 18 P0 [arr_bits 10 60 30] = Ok (o, outs) /\
    Sem.run_main 18 P0 [arr_bits 10 60 30] = Sem.RunPanic Sem.ROverflow (mm 11) /\
    o = Some (preason_num Overflow, ploc32 (ploc_of (mm 11))).
  Proof.
    run [arr_bits 10 60 30].
    assert (Sem.run_main 18 P0 [arr_bits 10 60 30] = Sem.RunPanic Sem.ROverflow (mm 11)) as Ev
      by (vm_compute; reflexivity).
    rewrite Ev in H. eauto.
  Qed.
End SanityConst.
