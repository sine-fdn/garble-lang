(* STICKINESS of the bit-level semantics, for the WHOLE language: any run of
   lower_expr / lower_block / lower_stmt / lower_pattern on Booleans ([TSem.tops]) that starts
   from a recorded panic [Some x] and returns [Ok] ends in the same [Some x].  No typing
   hypothesis, no fragment: every change of the observation goes through [o_panic_if]
   (= [push_spec], first failure wins) or through the peek / replace / mux_panic protocol of
   branches, which only ever stores and selects observations that are [Some x] themselves. *)
From GV Require Import Base.Util Lang.Ast Gadgets.Gadgets Gadgets.GadgetSpec Sort.Sort
  Panic.PanicRec Panic.PanicSem Compile.Lower Compile.TSem.
From GV Require Lang.Sem.
Local Open Scope N_scope.

Definition MB (A : Type) := pobs -> res (A * pobs).

(* from [Some x], an Ok run ends in [Some x] *)
Definition stkx {A} (x : N * ploc) (m : MB A) : Prop :=
  forall a o', m (Some x) = Ok (a, o') -> o' = Some x.

(* the observation is not touched *)
Definition pure_m {A} (m : MB A) : Prop := forall o a o', m o = Ok (a, o') -> o' = o.

Lemma stkx_pure {A} x (m : MB A) : pure_m m -> stkx x m.
Proof. intros H a o' Hr. exact (H _ _ _ Hr). Qed.

Lemma stkx_ret {A} x (a : A) : stkx x (ret a).
Proof. intros b o' [= _ <-]. reflexivity. Qed.

Lemma stkx_crash {A} x : stkx x (@crash pobs A).
Proof. intros a o' H. discriminate H. Qed.

Lemma stkx_nofuel {A} x : stkx x (@nofuel pobs A).
Proof. intros a o' H. discriminate H. Qed.

Lemma stkx_lift {A} x (r : res A) : stkx x (lift_res r).
Proof. intros a o' H. destruct r; inversion H. reflexivity. Qed.

Lemma stkx_bind {A B} x (m : MB A) (k : A -> MB B) :
  stkx x m -> (forall a, stkx x (k a)) -> stkx x (mbind m k).
Proof.
  intros Hm Hk b o' H. unfold mbind in H.
  destruct (m (Some x)) as [[a o1]| |] eqn:Em; try discriminate H.
  rewrite (Hm a o1 Em) in H. exact (Hk a b o' H).
Qed.

Lemma stkx_panic_if x c r m : stkx x (m_panic_if tops c r m).
Proof. intros a o' [= _ <-]. reflexivity. Qed.

(* the panic protocol: at state [Some x] *)
Lemma stkx_peek {B} x (k : pobs -> MB B) : stkx x (k (Some x)) -> stkx x (mbind (m_peek tops) k).
Proof. intros H b o' Hr. exact (H b o' Hr). Qed.

Lemma stkx_replace {B} x (k : pobs -> MB B) :
  stkx x (k (Some x)) -> stkx x (mbind (m_replace tops (Some x)) k).
Proof. intros H b o' Hr. exact (H b o' Hr). Qed.

Lemma stkx_mux_panic {B} x c (k : pobs -> MB B) :
  stkx x (k (Some x)) -> stkx x (mbind (m_mux_panic tops c (Some x) (Some x)) k).
Proof. intros H b o' Hr. destruct c; exact (H b o' Hr). Qed.

(* the primitive operations that do not touch the observation *)
Lemma pure_tret {A} (a : A) : pure_m (tret a).
Proof. intros o b o' [= _ <-]. reflexivity. Qed.

Ltac pure_prim :=
  let o := fresh "o" in let a := fresh "a" in let o' := fresh "o'" in let H := fresh "H" in
  intros o a o' H; cbn in H;
  repeat match type of H with
  | (if ?c then _ else _) = _ => destruct c
  end; inversion H; reflexivity.

Lemma pure_xor a b : pure_m (m_xor tops a b). Proof. pure_prim. Qed.
Lemma pure_and a b : pure_m (m_and tops a b). Proof. pure_prim. Qed.
Lemma pure_or a b : pure_m (m_or tops a b). Proof. pure_prim. Qed.
Lemma pure_eq a b : pure_m (m_eq tops a b). Proof. pure_prim. Qed.
Lemma pure_not a : pure_m (m_not tops a). Proof. pure_prim. Qed.
Lemma pure_mux s a b : pure_m (m_mux tops s a b). Proof. pure_prim. Qed.
Lemma pure_negation a : pure_m (o_negation tops a). Proof. pure_prim. Qed.
Lemma pure_addition a b : pure_m (o_addition tops a b). Proof. pure_prim. Qed.
Lemma pure_subtraction a b s : pure_m (o_subtraction tops a b s). Proof. pure_prim. Qed.
Lemma pure_multiplier a b c d : pure_m (o_multiplier tops a b c d). Proof. pure_prim. Qed.
Lemma pure_udiv a b : pure_m (o_udiv tops a b). Proof. pure_prim. Qed.
Lemma pure_sdiv a b : pure_m (o_sdiv tops a b). Proof. pure_prim. Qed.
Lemma pure_comparator n a sa b sb : pure_m (o_comparator tops n a sa b sb). Proof. pure_prim. Qed.
Lemma pure_eq_circuit a b : pure_m (o_eq_circuit tops a b). Proof. pure_prim. Qed.
Lemma pure_merger n asc v : pure_m (o_merger tops n asc v). Proof. pure_prim. Qed.
Lemma pure_sorter n v : pure_m (o_sorter tops n v). Proof. pure_prim. Qed.

(* the tactic: decompose a computation along binds, matches and conditionals; leaves are
   primitives, recursive calls (hypotheses) or previously proved helpers (hint database) *)
Create HintDb stk discriminated.
#[export] Hint Resolve stkx_ret stkx_crash stkx_nofuel stkx_lift stkx_panic_if : stk.
#[export] Hint Extern 1 (stkx _ (m_xor tops _ _)) => apply stkx_pure, pure_xor : stk.
#[export] Hint Extern 1 (stkx _ (m_and tops _ _)) => apply stkx_pure, pure_and : stk.
#[export] Hint Extern 1 (stkx _ (m_or tops _ _)) => apply stkx_pure, pure_or : stk.
#[export] Hint Extern 1 (stkx _ (m_eq tops _ _)) => apply stkx_pure, pure_eq : stk.
#[export] Hint Extern 1 (stkx _ (m_not tops _)) => apply stkx_pure, pure_not : stk.
#[export] Hint Extern 1 (stkx _ (m_mux tops _ _ _)) => apply stkx_pure, pure_mux : stk.
#[export] Hint Extern 1 (stkx _ (o_negation tops _)) => apply stkx_pure, pure_negation : stk.
#[export] Hint Extern 1 (stkx _ (o_addition tops _ _)) => apply stkx_pure, pure_addition : stk.
#[export] Hint Extern 1 (stkx _ (o_subtraction tops _ _ _)) => apply stkx_pure, pure_subtraction : stk.
#[export] Hint Extern 1 (stkx _ (o_multiplier tops _ _ _ _)) => apply stkx_pure, pure_multiplier : stk.
#[export] Hint Extern 1 (stkx _ (o_udiv tops _ _)) => apply stkx_pure, pure_udiv : stk.
#[export] Hint Extern 1 (stkx _ (o_sdiv tops _ _)) => apply stkx_pure, pure_sdiv : stk.
#[export] Hint Extern 1 (stkx _ (o_comparator tops _ _ _ _ _)) => apply stkx_pure, pure_comparator : stk.
#[export] Hint Extern 1 (stkx _ (o_eq_circuit tops _ _)) => apply stkx_pure, pure_eq_circuit : stk.
#[export] Hint Extern 1 (stkx _ (o_merger tops _ _ _)) => apply stkx_pure, pure_merger : stk.
#[export] Hint Extern 1 (stkx _ (o_sorter tops _ _)) => apply stkx_pure, pure_sorter : stk.

Ltac stk_step :=
  match goal with
  | |- stkx _ (mbind _ _) => apply stkx_bind; [|intros ?]
  | |- stkx _ (match ?d with _ => _ end) => destruct d
  | |- stkx _ (fun _ => _) => fail 1
  | |- stkx _ _ => solve [eauto with stk]
  end.
Ltac stk := repeat stk_step.

#[export] Hint Extern 1 (stkx _ (m_extend tops _ _ _)) => unfold m_extend; apply stkx_lift : stk.

Section Helpers.
  Variable x : N * ploc.

  Lemma stkx_mapM {A C} (f : A -> MB C) l : (forall a, stkx x (f a)) -> stkx x (mapM_M f l).
  Proof. intro Hf. induction l as [|a r IH]; cbn [mapM_M]; stk. Qed.

  Lemma stkx_map2 (f : bool -> bool -> MB bool) : (forall a b, stkx x (f a b)) ->
    forall xs ys, stkx x (map2_M f xs ys).
  Proof. intro Hf. induction xs as [|a r IH]; intros [|b ys]; cbn [map2_M]; stk. Qed.

  Lemma stkx_map2_mux c xs ys : stkx x (map2_M (m_mux tops c) xs ys).
  Proof. apply stkx_map2. intros. stk. Qed.

  Lemma stkx_mux_bits c xs ys : stkx x (mux_bits tops c xs ys).
  Proof. unfold mux_bits. destruct (negb _); [stk|apply stkx_map2_mux]. Qed.
  Hint Resolve stkx_mux_bits : stk.

  Lemma stkx_mux_scope c b : forall a, stkx x (mux_scope tops c a b).
  Proof. induction a as [|[k va] r IH]; cbn [mux_scope]; stk. Qed.
  Hint Resolve stkx_mux_scope : stk.

  Lemma stkx_mux_scopes c : forall sa sb, stkx x (mux_scopes tops c sa sb).
  Proof. induction sa as [|a ra IH]; intros [|b rb]; cbn [mux_scopes]; stk. Qed.
  Hint Resolve stkx_mux_scopes : stk.

  Lemma stkx_mux_envs c a b : stkx x (mux_envs tops c a b).
  Proof. unfold mux_envs. stk. Qed.

  Lemma stkx_index_layer s eb : forall fuel arr, stkx x (index_layer tops fuel s arr eb).
  Proof.
    induction fuel as [|f IH]; intro arr; cbn [index_layer]; [stk|].
    destruct arr as [|a0 ar]; [stk|]. destruct (skipn eb (a0 :: ar)) as [|b0 br].
    - apply stkx_mapM. intros. stk.
    - apply stkx_bind; [apply stkx_map2; intros; stk|intros ?]. stk.
  Qed.
  Hint Resolve stkx_index_layer : stk.

  Lemma stkx_index_layers eb : forall idx arr, stkx x (index_layers tops idx arr eb).
  Proof. induction idx as [|s r IH]; intro arr; cbn [index_layers]; stk. Qed.
  Hint Resolve stkx_index_layers : stk.

  Lemma stkx_bounds_check idx n m : stkx x (bounds_check tops idx n m).
  Proof. unfold bounds_check. stk. Qed.
  Hint Resolve stkx_bounds_check : stk.

  Lemma stkx_array_read arr idx eb n m : stkx x (array_read tops arr idx eb n m).
  Proof. unfold array_read. stk. Qed.

  Lemma stkx_write_chain x0 i : forall index neg x1, stkx x (write_chain tops x0 x1 i index neg).
  Proof. induction index as [|ix ir IH]; intros [|nx nr] x1; cbn [write_chain]; stk. Qed.
  Hint Resolve stkx_write_chain : stk.

  Lemma stkx_write_elem i index neg : forall elem value, stkx x (write_elem tops elem value i index neg).
  Proof. induction elem as [|x0 er IH]; intros [|v vr]; cbn [write_elem]; stk. Qed.
  Hint Resolve stkx_write_elem : stk.

  Lemma stkx_write_elems eb value index neg : forall fuel arr i,
    stkx x (write_elems tops fuel arr eb value i index neg).
  Proof.
    induction fuel as [|f IH]; intros arr i; cbn [write_elems]; [stk|].
    destruct (length arr <? eb)%nat; [stk|]. destruct arr; stk.
  Qed.
  Hint Resolve stkx_write_elems : stk.

  Lemma stkx_array_write arr eb size idx value m : stkx x (array_write tops arr eb size idx value m).
  Proof.
    unfold array_write. apply stkx_bind; [stk|intros ?].
    apply stkx_bind; [apply stkx_mapM; intros; stk|intros ?]. stk.
  Qed.

  Lemma stkx_shift_layers left fill : forall y_rev v sh, stkx x (shift_layers tops left fill v y_rev sh).
  Proof.
    induction y_rev as [|s r IH]; intros v sh; cbn [shift_layers]; [stk|].
    apply stkx_bind; [apply stkx_map2; intros; stk|intros ?]. apply IH.
  Qed.
  Hint Resolve stkx_shift_layers : stk.

  Lemma stkx_or_all : forall ws acc, stkx x (or_all_M tops acc ws).
  Proof. induction ws as [|w r IH]; intro acc; cbn [or_all_M]; stk. Qed.
  Hint Resolve stkx_or_all : stk.

  Lemma stkx_eq_acc : forall xys acc, stkx x (eq_acc tops acc xys).
  Proof. induction xys as [|[a b] r IH]; intro acc; cbn [eq_acc]; stk. Qed.
  Hint Resolve stkx_eq_acc : stk.

  Lemma stkx_mul_row xi : forall yzs carry acc, stkx x (mul_row tops xi yzs carry acc).
  Proof. induction yzs as [|[yj z] r IH]; intros carry acc; cbn [mul_row]; stk. Qed.
  Hint Resolve stkx_mul_row : stk.

  Lemma stkx_mul_rows y : forall xs prev acc, stkx x (mul_rows tops xs y prev acc).
  Proof. induction xs as [|xi r IH]; intros prev acc; cbn [mul_rows]; stk. Qed.
  Hint Resolve stkx_mul_rows : stk.

  Lemma stkx_and_not_all : forall ws acc, stkx x (and_not_all tops acc ws).
  Proof. induction ws as [|w r IH]; intro acc; cbn [and_not_all]; stk. Qed.
  Hint Resolve stkx_and_not_all : stk.

  Lemma stkx_lower_mul sg a b m : stkx x (lower_mul tops sg a b m).
  Proof.
    unfold lower_mul.
    apply stkx_bind.
    { destruct sg; [|stk]. repeat (apply stkx_bind; [first [apply stkx_map2; intros; stk|stk]|intros ?]). stk. }
    intros [[? ?] ?]. apply stkx_bind; [stk|intros [? ?]]. apply stkx_bind; [stk|intros [? ?]].
    apply stkx_bind; [stk|intros ?].
    apply stkx_bind.
    { destruct sg; [|stk]. repeat (apply stkx_bind; [first [apply stkx_map2; intros; stk|stk]|intros ?]). stk. }
    intros [? ?]. stk.
  Qed.
  Hint Resolve stkx_lower_mul : stk.

  Lemma stkx_lower_binop o t tx ty_ a b m : stkx x (lower_binop tops o t tx ty_ a b m).
  Proof.
    unfold lower_binop. apply stkx_bind; [stk|intros ?]. apply stkx_bind; [stk|intros ?].
    destruct o; try solve [stk]; try solve [apply stkx_map2; intros; stk].
  Qed.

  Lemma stkx_lower_shift left sg a b m : stkx x (lower_shift tops left sg a b m).
  Proof. unfold lower_shift. stk. Qed.

  Lemma stkx_window_binding a b eba ebb jts f i : stkx x (window_binding tops a b eba ebb jts f i).
  Proof. unfold window_binding. stk. Qed.
End Helpers.

#[export] Hint Resolve stkx_mux_bits stkx_mux_envs stkx_index_layers stkx_bounds_check stkx_array_read
  stkx_array_write stkx_or_all stkx_eq_acc stkx_lower_binop stkx_lower_shift stkx_window_binding
  stkx_map2_mux : stk.

Section Rec.
  Variable x : N * ploc.
  Variable P : program.
  Variable rec_e : expr -> @cenv bool -> MB (list bool * @cenv bool).
  Variable rec_p : pattern -> list bool -> @cenv bool -> MB (bool * @cenv bool).
  Variable rec_s : stmt -> @cenv bool -> MB (list bool * @cenv bool).
  Variable rec_b : list stmt -> @cenv bool -> MB (list bool * @cenv bool).
  Hypothesis He : forall e E, stkx x (rec_e e E).
  Hypothesis Hp : forall p mw E, stkx x (rec_p p mw E).
  Hypothesis Hs : forall s E, stkx x (rec_s s E).
  Hypothesis Hb : forall b E, stkx x (rec_b b E).
  Hint Resolve He Hp Hs Hb : stk.

  Lemma stkx_lower_list : forall es E, stkx x (lower_list rec_e es E).
  Proof. induction es as [|e r IH]; intro E; cbn [lower_list]; stk. Qed.
  Hint Resolve stkx_lower_list : stk.

  Lemma stkx_lower_struct_fields fields : forall ds E, stkx x (lower_struct_fields rec_e fields ds E).
  Proof. induction ds as [|[fname ?] r IH]; intro E; cbn [lower_struct_fields]; stk. Qed.
  Hint Resolve stkx_lower_struct_fields : stk.

  Lemma stkx_lower_args : forall ps args E, stkx x (lower_args rec_e ps args E).
  Proof. induction ps as [|[pn ?] pr IH]; intros [|a ar] E; cbn [lower_args]; stk. Qed.
  Hint Resolve stkx_lower_args : stk.

  Lemma stkx_lower_stmts : forall ss E, stkx x (lower_stmts rec_s ss E).
  Proof. induction ss as [|s r IH]; intro E; cbn [lower_stmts]; stk. Qed.
  Hint Resolve stkx_lower_stmts : stk.

  Lemma stkx_join_func_windows eba ebb jts ha : forall ws, stkx x (join_func_windows tops eba ebb jts ha ws).
  Proof.
    induction ws as [|w0_ r IH]; cbn [join_func_windows]; [stk|].
    destruct r as [|w1_ r']; [stk|].
    apply stkx_bind; [stk|intros [je binding]].
    apply stkx_bind.
    { destruct binding; [stk|]. apply stkx_bind; [apply stkx_mapM; intros; stk|intros ?]. stk. }
    intros ?. apply stkx_bind; [exact IH|intros ?]. stk.
  Qed.
  Hint Resolve stkx_join_func_windows : stk.

  Lemma stkx_for_iterations pat body eb : forall n aw E, stkx x (for_iterations rec_p rec_s pat body eb n aw E).
  Proof. induction n as [|k IH]; intros aw E; cbn [for_iterations]; stk. Qed.
  Hint Resolve stkx_for_iterations : stk.

  Lemma stkx_assign_indexes m : forall accs E acc, stkx x (assign_indexes tops P rec_e m accs E acc).
  Proof. induction accs as [|[aty idx| |] r IH]; intros E acc; cbn [assign_indexes]; stk. Qed.
  Hint Resolve stkx_assign_indexes : stk.

  Lemma stkx_assign_forward : forall accs coll idxs acc, stkx x (assign_forward tops P accs coll idxs acc).
  Proof. induction accs as [|[aty idx|tty i|sty fld] r IH]; intros coll idxs acc; cbn [assign_forward]; stk. Qed.
  Hint Resolve stkx_assign_forward : stk.

  Lemma stkx_assign_backward m : forall acc value, stkx x (assign_backward tops m acc value).
  Proof. induction acc as [|[[[before a] n] [iw|]] r IH]; intro value; cbn [assign_backward]; stk. Qed.
  Hint Resolve stkx_assign_backward : stk.

  Lemma stkx_fields_match mw : forall ps w im E, stkx x (fields_match tops rec_p mw ps w im E).
  Proof. induction ps as [|[fp fbits] r IH]; intros w im E; cbn [fields_match]; stk. Qed.
  Hint Resolve stkx_fields_match : stk.

  Lemma stkx_struct_match mw fields : forall ds w im E, stkx x (struct_match tops P rec_p mw fields ds w im E).
  Proof. induction ds as [|[fname fty] r IH]; intros w im E; cbn [struct_match]; stk. Qed.
  Hint Resolve stkx_struct_match : stk.

  Lemma stkx_one_wire (w : list bool) : stkx x (one_wire (Cs:=pobs) w).
  Proof. unfold one_wire. destruct w as [|? [|? ?]]; stk. Qed.
  Hint Resolve stkx_one_wire : stk.

  Lemma stkx_block_stmts : forall ss last E, stkx x (block_stmts rec_s ss last E).
  Proof. induction ss as [|s r IH]; intros last E; cbn [block_stmts]; stk. Qed.
  Hint Resolve stkx_block_stmts : stk.

  Lemma stkx_lower_block_body ss E : stkx x (lower_block_body rec_s ss E).
  Proof. unfold lower_block_body. stk. Qed.
End Rec.

(* with a property of the returned value *)
Definition stkxQ {A} (x : N * ploc) (Q : A -> Prop) (m : MB A) : Prop :=
  forall a o', m (Some x) = Ok (a, o') -> o' = Some x /\ Q a.

Lemma stkxQ_ret {A} x (Q : A -> Prop) a : Q a -> stkxQ x Q (ret a).
Proof. intros HQ b o' [= <- <-]. auto. Qed.

Lemma stkxQ_bind {A B} x (Q : B -> Prop) (m : MB A) (k : A -> MB B) :
  stkx x m -> (forall a, stkxQ x Q (k a)) -> stkxQ x Q (mbind m k).
Proof.
  intros Hm Hk b o' H. unfold mbind in H.
  destruct (m (Some x)) as [[a o1]| |] eqn:Em; try discriminate H.
  rewrite (Hm a o1 Em) in H. exact (Hk a b o' H).
Qed.

Lemma stkx_bindQ {A B} x (Q : A -> Prop) (m : MB A) (k : A -> MB B) :
  stkxQ x Q m -> (forall a, Q a -> stkx x (k a)) -> stkx x (mbind m k).
Proof.
  intros Hm Hk b o' H. unfold mbind in H.
  destruct (m (Some x)) as [[a o1]| |] eqn:Em; try discriminate H.
  destruct (Hm a o1 Em) as [-> HQ]. exact (Hk a HQ b o' H).
Qed.

Lemma stkxQ_peek {B} x (Q : B -> Prop) (k : pobs -> MB B) :
  stkxQ x Q (k (Some x)) -> stkxQ x Q (mbind (m_peek tops) k).
Proof. intros H b o' Hr. exact (H b o' Hr). Qed.

Lemma stkxQ_replace {B} x (Q : B -> Prop) (k : pobs -> MB B) :
  stkxQ x Q (k (Some x)) -> stkxQ x Q (mbind (m_replace tops (Some x)) k).
Proof. intros H b o' Hr. exact (H b o' Hr). Qed.

Lemma stkxQ_mux_panic {B} x (Q : B -> Prop) c (k : pobs -> MB B) :
  stkxQ x Q (k (Some x)) -> stkxQ x Q (mbind (m_mux_panic tops c (Some x) (Some x)) k).
Proof. intros H b o' Hr. destruct c; exact (H b o' Hr). Qed.

Ltac stkp_step :=
  match goal with
  | |- stkx _ (mbind (m_peek tops) _) => apply stkx_peek; cbv beta
  | |- stkx _ (mbind (m_replace tops (Some _)) _) => apply stkx_replace; cbv beta
  | |- stkx _ (mbind (m_mux_panic tops _ (Some _) (Some _)) _) => apply stkx_mux_panic; cbv beta
  | |- stkxQ _ _ (mbind (m_peek tops) _) => apply stkxQ_peek; cbv beta
  | |- stkxQ _ _ (mbind (m_replace tops (Some _)) _) => apply stkxQ_replace; cbv beta
  | |- stkxQ _ _ (mbind (m_mux_panic tops _ (Some _) (Some _)) _) => apply stkxQ_mux_panic; cbv beta
  | |- stkxQ _ _ (mbind _ _) => apply stkxQ_bind; [|intros ?]
  | |- stkxQ _ _ (match ?d with _ => _ end) => destruct d
  | |- stkx _ (mbind _ _) => apply stkx_bind; [|intros ?]
  | |- stkx _ (match ?d with _ => _ end) => destruct d
  | |- stkx _ (fun _ => _) => fail 1
  | |- stkx _ _ => solve [eauto with stk]
  end.
Ltac stkp := repeat stkp_step.

Section Rec2.
  Variable x : N * ploc.
  Variable P : program.
  Variable rec_e : expr -> @cenv bool -> MB (list bool * @cenv bool).
  Variable rec_p : pattern -> list bool -> @cenv bool -> MB (bool * @cenv bool).
  Variable rec_s : stmt -> @cenv bool -> MB (list bool * @cenv bool).
  Variable rec_b : list stmt -> @cenv bool -> MB (list bool * @cenv bool).
  Hypothesis He : forall e E, stkx x (rec_e e E).
  Hypothesis Hp : forall p mw E, stkx x (rec_p p mw E).
  Hypothesis Hs : forall s E, stkx x (rec_s s E).
  Hypothesis Hb : forall b E, stkx x (rec_b b E).
  Hint Resolve He Hp Hs Hb : stk.
  Hint Resolve stkx_lower_list stkx_lower_struct_fields stkx_lower_args stkx_lower_stmts
    stkx_join_func_windows stkx_for_iterations stkx_assign_indexes stkx_assign_forward
    stkx_assign_backward stkx_fields_match stkx_struct_match stkx_one_wire stkx_block_stmts : stk.

  Lemma stkxQ_lower_arms bits sw E0 : forall arms hp mret menv,
    stkxQ x (fun r => snd (fst (fst r)) = Some x)
      (lower_arms tops rec_e rec_p bits sw E0 (Some x) arms hp mret (Some x) menv).
  Proof.
    induction arms as [|[pat body] r IH]; intros hp mret menv; cbn [lower_arms].
    - now apply stkxQ_ret.
    - stkp. apply IH.
  Qed.

  Lemma stkx_join_loop_windows pat body eba ebb jts : forall ws E,
    stkx x (join_loop_windows tops rec_p rec_s pat body eba ebb jts ws E).
  Proof.
    induction ws as [|w0_ r IH]; intro E; cbn [join_loop_windows]; [stk|].
    destruct r as [|w1_ r']; [stk|]. stkp.
  Qed.
  Hint Resolve stkx_join_loop_windows : stk.

  Lemma stkx_lower_expr_body e E : stkx x (lower_expr_body tops P rec_e rec_p rec_b e E).
  Proof.
    destruct e as [ei m t]. destruct ei; cbn [lower_expr_body]; try solve [stkp].
    - (* match *)
      apply stkx_bind; [stk|intros [sw E0]]. apply stkx_peek. cbv beta.
      eapply stkx_bindQ; [apply stkxQ_lower_arms|]. intros [[[rw mp] me] hp] HQ. cbn [fst snd] in HQ.
      subst mp. stkp.
    - (* ! *)
      apply stkx_bind; [stk|intros [? ?]].
      apply stkx_bind; [apply stkx_mapM; intros; stk|intros ?]. stk.
  Qed.

  Lemma stkx_lower_stmt_body s E : stkx x (lower_stmt_body tops P rec_e rec_p rec_s s E).
  Proof. destruct s as [si m]. destruct si; cbn [lower_stmt_body]; stkp. Qed.

  Lemma stkx_lower_pattern_body p mw E : stkx x (lower_pattern_body tops P rec_p p mw E).
  Proof. destruct p as [pi m t]. destruct pi; cbn [lower_pattern_body]; stkp. Qed.
End Rec2.

Theorem tsem_sticky_fuel x P : forall fuel,
  (forall e E, stkx x (lower_expr tops fuel P e E)) /\
  (forall b E, stkx x (lower_block tops fuel P b E)) /\
  (forall s E, stkx x (lower_stmt tops fuel P s E)) /\
  (forall p mw E, stkx x (lower_pattern tops fuel P p mw E)).
Proof.
  induction fuel as [|f (IHe & IHb & IHs & IHp)].
  - repeat split; intros; apply stkx_nofuel.
  - repeat split; intros.
    + apply (stkx_lower_expr_body x P _ _ _ IHe IHp IHb).
    + apply (stkx_lower_block_body x _ IHs).
    + apply (stkx_lower_stmt_body x P _ _ _ IHe IHp IHs).
    + apply (stkx_lower_pattern_body x P _ IHp).
Qed.

(* [tsem_sticky_fuel] with [stkx] unfolded: a recorded panic is never changed *)
Theorem tsem_sticky_all P fuel x :
  (forall e E w E' o', lower_expr tops fuel P e E (Some x) = Ok ((w, E'), o') -> o' = Some x) /\
  (forall b E w E' o', lower_block tops fuel P b E (Some x) = Ok ((w, E'), o') -> o' = Some x) /\
  (forall s E w E' o', lower_stmt tops fuel P s E (Some x) = Ok ((w, E'), o') -> o' = Some x) /\
  (forall p mw E c E' o', lower_pattern tops fuel P p mw E (Some x) = Ok ((c, E'), o') -> o' = Some x).
Proof.
  destruct (tsem_sticky_fuel x P fuel) as (He & Hb & Hs & Hp).
  repeat split; intros.
  - eapply He; eassumption.
  - eapply Hb; eassumption.
  - eapply Hs; eassumption.
  - eapply Hp; eassumption.
Qed.
Print Assumptions tsem_sticky_all.
