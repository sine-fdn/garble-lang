(* Fuel sufficiency for the Boolean instance of the lowering: a computable bound
   [fuel_needed P] such that [tsem_program] with at least that much fuel never answers
   [OutOfFuel]; with Compile/TSemSafe.v: on accepted programs it answers [Ok], with a result
   of the size of main's return type ([tsem_program_terminates]).

   [OutOfFuel] arises only where a fuel reaches 0: the fuel of the four fixpoints
   [lower_expr] / [lower_block] / [lower_stmt] / [lower_pattern] (one unit per level of the
   tree; a call continues in the callee's body; [x * literal] continues in the sum the
   product is rewritten to) and the local fuels of [index_layer] and [write_elems], which are
   always sufficient ([S (length arr)]).  So absence of [OutOfFuel] is a property of the tree
   alone ([nff]: "never out of fuel", whatever environment and state), independent of typing. *)
From Coq Require Import Lia.
From GV Require Import Base.Util Base.NMap Lang.Ast Lang.Wt Lang.ValTy Circuit.Ssa Builder.Builder Builder.Build
  Gadgets.Gadgets Gadgets.Extend Panic.PanicRec Panic.PanicSem
  Compile.Lower Compile.TSem Compile.LowerSound Compile.TSemShape Compile.TSemSafe.
From GV Require Lang.Sem.
Local Open Scope nat_scope.

(* ------------------------------------------------------------------ never out of fuel *)

Definition rnf {A} (r : res A) : Prop := match r with OutOfFuel => False | _ => True end.
Definition nff {A} (m : pobs -> res (A * pobs)) : Prop := forall o, rnf (m o).

Lemma nff_ret {A} (a : A) : nff (ret a). Proof. intro o. exact I. Qed.
Lemma nff_crash {A} : nff (crash (A:=A)). Proof. intro o. exact I. Qed.
Lemma nff_lift {A} (r : res A) : rnf r -> nff (lift_res r).
Proof. intros H o. destruct r; [exact I|exact I|contradiction]. Qed.
Lemma nff_bind {A B} (m : pobs -> res (A * pobs)) (k : A -> pobs -> res (B * pobs)) :
  nff m -> (forall a, nff (k a)) -> nff (mbind m k).
Proof.
  intros Hm Hk o. unfold mbind. specialize (Hm o). destruct (m o) as [[a o']| |]; [apply Hk|exact I|contradiction].
Qed.
Lemma rnf_bind {A B} (r : res A) (f : A -> res B) : rnf r -> (forall a, rnf (f a)) -> rnf (bind r f).
Proof. intros Hr Hf. destruct r; [apply Hf|exact I|contradiction]. Qed.
Lemma rnf_ok {A} (a : A) : rnf (Ok a). Proof. exact I. Qed.
Lemma rnf_crash {A} : rnf (Crash (A:=A)). Proof. exact I. Qed.

(* the operations of the Boolean instance answer Ok or Crash *)
Ltac prim :=
  let o := fresh "o" in
  intro o;
  cbv [m_xor m_and m_or m_eq m_not m_mux m_panic_if m_peek m_replace m_mux_panic
       o_xor o_and o_or o_eq o_not o_mux o_negation o_addition o_subtraction o_multiplier o_udiv o_sdiv
       o_comparator o_eq_circuit o_merger o_sorter o_panic_if o_peek o_replace o_mux_panic tops tret rnf];
  repeat match goal with |- context [if ?c then _ else _] => destruct c end; exact I.

Create HintDb nff.
#[local] Hint Resolve nff_ret nff_crash rnf_ok rnf_crash : nff.

Ltac nf_step :=
  match goal with
  | |- nff (ret _) => apply nff_ret
  | |- nff crash => apply nff_crash
  | |- nff (lift_res _) => apply nff_lift
  | |- nff (mbind _ _) => apply nff_bind; [|intros; cbv beta]
  | |- rnf (bind _ _) => apply rnf_bind; [|intros; cbv beta]
  | |- rnf (Ok _) => exact I
  | |- rnf Crash => exact I
  | |- nff (match ?x with _ => _ end) => destruct x
  | |- rnf (match ?x with _ => _ end) => destruct x
  | |- _ => solve [auto with nff]
  | |- nff _ => solve [prim]
  end.
Ltac nf := repeat nf_step.

(* ------------------------------------------------------------------ pure helpers *)

Lemma rnf_slice {A} (v : list A) a n : rnf (slice v a n).
Proof. unfold slice. nf. Qed.
Lemma rnf_splice {A} (v : list A) a n w : rnf (splice v a n w).
Proof. unfold splice. nf. Qed.
Lemma rnf_hd {A} (l : list A) : rnf (hd_res l).
Proof. unfold hd_res. nf. Qed.
Lemma rnf_of_option {A} (o : option A) : rnf (of_option o).
Proof. unfold of_option. nf. Qed.
Lemma rnf_extend (v : list bool) sg bits : rnf (extend_g tops v sg bits).
Proof. unfold extend_g. nf. Qed.
Lemma rnf_array_size P t : rnf (array_size P t).
Proof. unfold array_size. nf. Qed.
Lemma rnf_tuple_offsets P t i : rnf (tuple_offsets P t i).
Proof. unfold tuple_offsets. nf. Qed.
Lemma rnf_field_offsets P : forall fs f b, rnf (field_offsets P fs f b).
Proof. induction fs as [|[k t] fs IH]; intros f b; cbn [field_offsets]; nf. Qed.
Lemma rnf_struct_offsets P t f : rnf (struct_offsets P t f).
Proof. unfold struct_offsets. nf; apply rnf_field_offsets. Qed.
Lemma rnf_max_filled b : rnf (max_filled_bits b).
Proof. unfold max_filled_bits. nf. Qed.
Lemma rnf_env_let (E : @cenv bool) x v : rnf (env_let E x v).
Proof. unfold env_let. nf. Qed.
Lemma rnf_env_pop (E : @cenv bool) : rnf (env_pop E).
Proof. unfold env_pop. nf. Qed.
Lemma rnf_env_assign : forall (E : @cenv bool) x v, rnf (env_assign E x v).
Proof. induction E as [|s r IH]; intros x v; cbn [env_assign]; nf. Qed.
Lemma rnf_insert_at (v : list bool) i x : rnf (insert_at v i x).
Proof. unfold insert_at. nf. Qed.
Lemma rnf_remove_at (v : list bool) i : rnf (remove_at v i).
Proof. unfold remove_at. nf. Qed.
Lemma rnf_mapM_res {A B} (f : A -> res B) : (forall a, rnf (f a)) -> forall l, rnf (mapM_res f l).
Proof. intros Hf. induction l as [|a l IH]; cbn [mapM_res]; nf; try apply Hf. Qed.
Lemma rnf_chunks fuel eb : forall n (v : list bool), rnf (chunks fuel v eb n).
Proof. induction n as [|k IH]; intro v; cbn [chunks]; nf; try apply rnf_slice. Qed.
Lemma rnf_bitonic_input (a b : list bool) eba na ebb nb jts : rnf (bitonic_input tops a b eba na ebb nb jts).
Proof.
  unfold bitonic_input. nf; try apply rnf_chunks; apply rnf_mapM_res; intro; apply rnf_insert_at.
Qed.
Lemma rnf_fold_let : forall (bs : list (N * list bool)) (r : res (@cenv bool)), rnf r ->
  rnf (fold_left (fun Er b => let* E' := Er in env_let E' (fst b) (snd b)) bs r).
Proof.
  induction bs as [|b bs IH]; intros r Hr; cbn [fold_left]; [exact Hr|].
  apply IH. apply rnf_bind; [exact Hr|]. intro E'. apply rnf_env_let.
Qed.
Lemma rnf_bind_all (bs : list (N * list bool)) (E : @cenv bool) : rnf (bind_all E bs).
Proof. unfold bind_all. apply rnf_fold_let. exact I. Qed.

#[local] Hint Resolve rnf_slice rnf_splice rnf_hd rnf_of_option rnf_extend rnf_array_size rnf_tuple_offsets
  rnf_struct_offsets rnf_max_filled rnf_env_let rnf_env_pop rnf_env_assign rnf_remove_at
  rnf_bitonic_input rnf_bind_all : nff.

(* ------------------------------------------------------------------ monadic helpers *)

Notation MBt A := (pobs -> res (A * pobs)).

Lemma nff_mapM {A C} (f : A -> MBt C) : (forall a, nff (f a)) -> forall l, nff (mapM_M f l).
Proof. intro Hf. induction l as [|a l IH]; cbn [mapM_M]; nf. Qed.

Lemma nff_map2 (f : bool -> bool -> MBt bool) : (forall a b, nff (f a b)) -> forall xs ys, nff (map2_M f xs ys).
Proof. intro Hf. induction xs as [|x xs IH]; intros [|y ys]; cbn [map2_M]; nf. Qed.

Lemma nff_extend (v : list bool) t bits : nff (m_extend tops v t bits).
Proof. unfold m_extend. nf. Qed.
#[local] Hint Resolve nff_extend : nff.

Lemma nff_mux_bits c (xs ys : list bool) : nff (mux_bits tops c xs ys).
Proof. unfold mux_bits. nf. apply nff_map2. intros; prim. Qed.
#[local] Hint Resolve nff_mux_bits : nff.

Lemma nff_mux_scope c (b : @scope bool) : forall a, nff (mux_scope tops c a b).
Proof. induction a as [|[k va] a IH]; cbn [mux_scope]; nf. Qed.

Lemma nff_mux_scopes c : forall (sa sb : list (@scope bool)), nff (mux_scopes tops c sa sb).
Proof. induction sa as [|a sa IH]; intros [|b sb]; cbn [mux_scopes]; nf. apply nff_mux_scope. Qed.

Lemma nff_mux_envs c (a b : @cenv bool) : nff (mux_envs tops c a b).
Proof. unfold mux_envs. nf. apply nff_mux_scopes. Qed.
#[local] Hint Resolve nff_mux_envs : nff.

(* the local fuels are sufficient *)
Lemma nff_index_layer s eb : 0 < eb -> forall fuel (arr : list bool), length arr < fuel ->
  nff (index_layer tops fuel s arr eb).
Proof.
  intro Heb. induction fuel as [|f IH]; intros arr L; [lia|]. cbn [index_layer].
  destruct arr as [|a0 arr0] eqn:Ea; [nf|]. rewrite <- Ea in *.
  assert (1 <= length arr) by (rewrite Ea; cbn [length]; lia). clear Ea a0 arr0. cbv zeta.
  destruct (skipn eb arr) as [|b0 r0] eqn:Er.
  - apply nff_mapM. intro; prim.
  - apply nff_bind; [apply nff_map2; intros; prim|]. intro ws.
    apply nff_bind; [|intro; nf]. apply IH.
    rewrite <- Er, !skipn_length. lia.
Qed.

Lemma nff_index_layers eb : forall (idx arr : list bool), nff (index_layers tops idx arr eb).
Proof.
  induction idx as [|s idx IH]; intro arr; cbn [index_layers]; [nf|].
  apply nff_bind; [|intro; apply IH]. destruct (Nat.eqb_spec eb 0); [nf|].
  apply nff_index_layer; lia.
Qed.
#[local] Hint Resolve nff_index_layers : nff.

Lemma nff_bounds_check (index : list bool) n m : nff (bounds_check tops index n m).
Proof. unfold bounds_check. nf. Qed.
#[local] Hint Resolve nff_bounds_check : nff.

Lemma nff_array_read (arr idx : list bool) eb n m : nff (array_read tops arr idx eb n m).
Proof. unfold array_read. nf. Qed.
#[local] Hint Resolve nff_array_read : nff.

Lemma nff_write_chain x0 i : forall (index neg : list bool) x1, nff (write_chain tops x0 x1 i index neg).
Proof. induction index as [|ix ir IH]; intros [|nx nr] x1; cbn [write_chain]; nf. Qed.

Lemma nff_write_elem i (index neg : list bool) : forall (elem value : list bool),
  nff (write_elem tops elem value i index neg).
Proof. induction elem as [|x0 er IH]; intros [|v vr]; cbn [write_elem]; nf. apply nff_write_chain. Qed.

Lemma nff_write_elems eb (value index neg : list bool) : forall fuel (arr : list bool) i,
  0 < eb \/ arr = [] -> length arr < fuel -> nff (write_elems tops fuel arr eb value i index neg).
Proof.
  induction fuel as [|f IH]; intros arr i Hc L; [lia|]. cbn [write_elems].
  destruct (Nat.ltb_spec (length arr) eb) as [Hlt|Hge]; [nf|].
  destruct arr as [|a0 arr0] eqn:Ea; [nf|]. rewrite <- Ea in *.
  assert (1 <= length arr) by (rewrite Ea; cbn [length]; lia).
  destruct Hc as [Heb|Hnil]; [|rewrite Hnil in Ea; discriminate Ea]. clear Ea a0 arr0.
  apply nff_bind; [apply nff_write_elem|]. intro e.
  apply nff_bind; [|intro; nf]. apply IH; [now left|]. rewrite skipn_length. lia.
Qed.

Lemma nff_array_write (arr : list bool) eb size (iw value : list bool) m : nff (array_write tops arr eb size iw value m).
Proof.
  unfold array_write. nf.
  - apply nff_mapM. intro; prim.
  - apply nff_write_elems.
    + destruct eb as [|eb]; [right; now rewrite Nat.mul_0_r|left; lia].
    + rewrite firstn_length. lia.
Qed.
#[local] Hint Resolve nff_array_write : nff.

(* operators *)
Lemma nff_shift_layers left fill : forall (y_rev v : list bool) sh, nff (shift_layers tops left fill v y_rev sh).
Proof. induction y_rev as [|s r IH]; intros v sh; cbn [shift_layers]; nf. apply nff_map2. intros; prim. Qed.
Lemma nff_or_all : forall (ws : list bool) acc, nff (or_all_M tops acc ws).
Proof. induction ws as [|w r IH]; intro acc; cbn [or_all_M]; nf. Qed.
Lemma nff_eq_acc : forall (xys : list (bool * bool)) acc, nff (eq_acc tops acc xys).
Proof. induction xys as [|[x y] r IH]; intro acc; cbn [eq_acc]; nf. Qed.
Lemma nff_and_not_all : forall (ws : list bool) acc, nff (and_not_all tops acc ws).
Proof. induction ws as [|w r IH]; intro acc; cbn [and_not_all]; nf. Qed.
Lemma nff_mul_row xi : forall (yzs : list (bool * bool)) c acc, nff (mul_row tops xi yzs c acc).
Proof. induction yzs as [|[yj z] r IH]; intros c acc; cbn [mul_row]; nf. Qed.
Lemma nff_mul_rows (y : list bool) : forall (xs : list bool) prev acc, nff (mul_rows tops xs y prev acc).
Proof. induction xs as [|xi r IH]; intros prev acc; cbn [mul_rows]; nf. apply nff_mul_row. Qed.
#[local] Hint Resolve nff_shift_layers nff_or_all nff_eq_acc nff_and_not_all nff_mul_rows : nff.

Lemma nff_lower_mul sg (x y : list bool) m : nff (lower_mul tops sg x y m).
Proof. unfold lower_mul. nf; apply nff_map2; intros; prim. Qed.
#[local] Hint Resolve nff_lower_mul : nff.

Lemma nff_lower_binop o t tx ty_ (x y : list bool) m : nff (lower_binop tops o t tx ty_ x y m).
Proof. unfold lower_binop. nf; apply nff_map2; intros; prim. Qed.
Lemma nff_lower_shift left sg (x y : list bool) m : nff (lower_shift tops left sg x y m).
Proof. unfold lower_shift. nf. Qed.
#[local] Hint Resolve nff_lower_binop nff_lower_shift : nff.

Lemma nff_one_wire (w : list bool) : nff (one_wire (Cs:=pobs) w).
Proof. unfold one_wire. nf. Qed.
#[local] Hint Resolve nff_one_wire : nff.

Lemma nff_window_binding (w0_ w1_ : list bool) eba ebb jts f ib : nff (window_binding tops w0_ w1_ eba ebb jts f ib).
Proof. unfold window_binding. nf. Qed.
#[local] Hint Resolve nff_window_binding : nff.

Lemma nff_join_func_windows eba ebb jts ha : forall (ws : list (list bool)), nff (join_func_windows tops eba ebb jts ha ws).
Proof.
  induction ws as [|w0_ ws IH]; [cbn [join_func_windows]; nf|].
  destruct ws as [|w1_ r]; [cbn [join_func_windows]; nf|].
  change (join_func_windows tops eba ebb jts ha (w0_ :: w1_ :: r)) with
    (mbind (window_binding tops w0_ w1_ eba ebb jts true ha) (fun '(je, binding) =>
     mbind (match binding with
            | [] => ret []
            | h :: tlb => mbind (mapM_M (fun g => m_mux tops je g (wF tops)) tlb) (fun tl' => ret (h :: tl'))
            end) (fun bd =>
     mbind (join_func_windows tops eba ebb jts ha (w1_ :: r)) (fun rest => ret (bd :: rest))))).
  revert IH. generalize (join_func_windows tops eba ebb jts ha (w1_ :: r)) as X. intros X HX.
  nf. apply nff_mapM. intro; prim.
Qed.
#[local] Hint Resolve nff_join_func_windows : nff.

(* ------------------------------------------------------------------ the fuel a tree needs *)

Definition maxl {A} (f : A -> nat) (l : list A) : nat := fold_right (fun a m => Nat.max (f a) m) 0 l.

Lemma maxl_cons {A} (f : A -> nat) a l k : maxl f (a :: l) <= k -> f a <= k /\ maxl f l <= k.
Proof. cbn [maxl fold_right]. fold (maxl f l). intro H. apply Nat.max_lub_iff in H. exact H. Qed.

Lemma maxl_in {A} (f : A -> nat) l k : maxl f l <= k -> forall a, In a l -> f a <= k.
Proof.
  induction l as [|b l IH]; intros H a Hin; [contradiction|]. apply maxl_cons in H as [H1 H2].
  destruct Hin as [<-|Hin]; [exact H1|now apply IH].
Qed.

(* [need_* f]: one more than the greatest fuel-depth below the node, following calls into the
   callee's body and products by small literals into the sum they are rewritten to; the
   parameter [f] only bounds the exploration (recursive programs): the value is meaningful
   when it is at most [f] *)
Fixpoint need_p (f : nat) (p : pattern) {struct f} : nat :=
  match f with
  | O => 1
  | S f' =>
      S (match p with
         | Pat pi _ _ =>
             match pi with
             | PTup ps | PEnumTup _ _ ps => maxl (need_p f') ps
             | PStruct _ _ fields => maxl (fun fp => need_p f' (snd fp)) fields
             | _ => 0
             end
         end)
  end.

Fixpoint need_e (f : nat) (P : program) (e : expr) {struct f} : nat :=
  match f with
  | O => 1
  | S f' =>
      S (match e with
         | Ex ei m t =>
             match ei with
             | ETrue | EFalse | ENumU _ _ | ENumS _ _ | EId _ | ERange _ _ _ => 0
             | EArrLit es | ETupLit es | EEnumLit _ _ es => maxl (need_e f' P) es
             | EArrRep e1 _ | ETupAcc e1 _ | EFld e1 _ | ENeg e1 | ENot e1 | ECast _ e1 => need_e f' P e1
             | EIdx a i => Nat.max (need_e f' P a) (need_e f' P i)
             | EStructLit _ fields => maxl (fun fe => need_e f' P (snd fe)) fields
             | EMatch s arms =>
                 Nat.max (need_e f' P s)
                         (maxl (fun arm => Nat.max (need_p f' (fst arm)) (need_e f' P (snd arm))) arms)
             | EOp o x y =>
                 match (match o with OMul => mul_rewrite x y m t | _ => None end) with
                 | Some (operand, e') => Nat.max (need_e f' P operand) (need_e f' P e')
                 | None => Nat.max (need_e f' P x) (need_e f' P y)
                 end
             | EBlock b => need_b f' P b
             | ECall fn args =>
                 Nat.max (maxl (need_e f' P) args)
                         (match find_fn P fn with Some fd => need_b f' P (fn_body fd) | None => 0 end)
             | EJoin _ _ a b => Nat.max (need_e f' P a) (need_e f' P b)
             | EIf c a b => Nat.max (need_e f' P c) (Nat.max (need_e f' P a) (need_e f' P b))
             end
         end)
  end
with need_b (f : nat) (P : program) (b : list stmt) {struct f} : nat :=
  match f with
  | O => 1
  | S f' => S (maxl (need_s f' P) b)
  end
with need_s (f : nat) (P : program) (s : stmt) {struct f} : nat :=
  match f with
  | O => 1
  | S f' =>
      S (match s with
         | St si _ =>
             match si with
             | SLet p e => Nat.max (need_e f' P e) (need_p f' p)
             | SLetMut _ e | SExpr e => need_e f' P e
             | SAssign _ accs e =>
                 Nat.max (need_e f' P e)
                         (maxl (fun a => match a with AIdx _ i => need_e f' P i | _ => 0 end) accs)
             | SFor p arr body =>
                 Nat.max (need_e f' P arr) (Nat.max (need_p f' p) (maxl (need_s f' P) body))
             | SJoinLoop p _ a b body =>
                 Nat.max (Nat.max (need_e f' P a) (need_e f' P b))
                         (Nat.max (need_p f' p) (maxl (need_s f' P) body))
             end
         end)
  end.

Ltac mx :=
  repeat match goal with
         | H : Nat.max _ _ <= _ |- _ => apply Nat.max_lub_iff in H; destruct H
         | H : maxl _ (_ :: _) <= _ |- _ => apply maxl_cons in H; destruct H
         end.

Section NStep.
  Variable P : program.
  Variables f0 k : nat.
  Variable eB : expr -> @cenv bool -> MBt (list bool * @cenv bool).
  Variable pB : pattern -> list bool -> @cenv bool -> MBt (bool * @cenv bool).
  Variable sB : stmt -> @cenv bool -> MBt (list bool * @cenv bool).
  Variable bB : list stmt -> @cenv bool -> MBt (list bool * @cenv bool).
  Hypothesis HeN : forall c E, need_e f0 P c <= k -> nff (eB c E).
  Hypothesis HpN : forall p mw E, need_p f0 p <= k -> nff (pB p mw E).
  Hypothesis HsN : forall s E, need_s f0 P s <= k -> nff (sB s E).
  Hypothesis HbN : forall b E, need_b f0 P b <= k -> nff (bB b E).

  Lemma nff_lower_list : forall es E, maxl (need_e f0 P) es <= k -> nff (lower_list eB es E).
  Proof. induction es as [|e es IH]; intros E H; cbn [lower_list]; [nf|]. mx. nf. Qed.

  Lemma nff_lower_struct_fields fields : maxl (fun fe => need_e f0 P (snd fe)) fields <= k ->
    forall ds E, nff (lower_struct_fields eB fields ds E).
  Proof.
    intros H. induction ds as [|[fname fty] ds IH]; intro E; cbn [lower_struct_fields]; [nf|].
    destruct (assocN fname (rev fields)) as [fe|] eqn:Ef; [|nf].
    assert (need_e f0 P fe <= k) as Hfe.
    { apply assocN_In' in Ef. apply in_rev in Ef. exact (maxl_in _ _ _ H _ Ef). }
    nf.
  Qed.

  Lemma nff_fields_match (mw : list bool) : forall (ps : list (pattern * nat)) w im E,
    maxl (fun q => need_p f0 (fst q)) ps <= k -> nff (fields_match tops pB mw ps w im E).
  Proof. induction ps as [|[fp fb] ps IH]; intros w im E H; cbn [fields_match]; [nf|]. mx. cbn [fst] in *. nf. Qed.

  Lemma nff_struct_match (mw : list bool) fields : maxl (fun fp => need_p f0 (snd fp)) fields <= k ->
    forall ds w im E, nff (struct_match tops P pB mw fields ds w im E).
  Proof.
    intro H. induction ds as [|[fname fty] ds IH]; intros w im E; cbn [struct_match]; [nf|]. cbv zeta.
    destruct (assocN fname (rev fields)) as [fp|] eqn:Ef; [|apply IH].
    assert (need_p f0 fp <= k) as Hfp.
    { apply assocN_In' in Ef. apply in_rev in Ef. exact (maxl_in _ _ _ H _ Ef). }
    nf.
  Qed.

  Lemma nff_lower_arms bits (sw : list bool) E0 P0 : forall arms hp mret mp menv,
    maxl (fun arm => Nat.max (need_p f0 (fst arm)) (need_e f0 P (snd arm))) arms <= k ->
    nff (lower_arms tops eB pB bits sw E0 P0 arms hp mret mp menv).
  Proof.
    induction arms as [|[pat body] arms IH]; intros hp mret mp menv H; cbn [lower_arms]; [nf|].
    mx. cbn [fst snd] in *. nf. apply nff_map2. intros; prim.
  Qed.

  Lemma nff_lower_args : forall (ps : list (N * ty)) args E, maxl (need_e f0 P) args <= k ->
    nff (lower_args eB ps args E).
  Proof.
    induction ps as [|[pn pt] ps IH]; intros [|a ar] E H; cbn [lower_args]; try solve [nf]. mx. nf.
  Qed.

  Lemma nff_lower_stmts : forall ss E, maxl (need_s f0 P) ss <= k -> nff (lower_stmts sB ss E).
  Proof. induction ss as [|s ss IH]; intros E H; cbn [lower_stmts]; [nf|]. mx. nf. Qed.

  Lemma nff_block_stmts : forall ss last E, maxl (need_s f0 P) ss <= k -> nff (block_stmts sB ss last E).
  Proof. induction ss as [|s ss IH]; intros last E H; cbn [block_stmts]; [nf|]. mx. nf. Qed.

  Lemma nff_for_iterations pat body eb : need_p f0 pat <= k -> maxl (need_s f0 P) body <= k ->
    forall n (aw : list bool) E, nff (for_iterations pB sB pat body eb n aw E).
  Proof.
    intros Hp Hb. induction n as [|n IH]; intros aw E; cbn [for_iterations]; [nf|]. nf. now apply nff_lower_stmts.
  Qed.

  Lemma nff_join_loop_windows pt body eba ebb jts : need_p f0 pt <= k -> maxl (need_s f0 P) body <= k ->
    forall (ws : list (list bool)) E, nff (join_loop_windows tops pB sB pt body eba ebb jts ws E).
  Proof.
    intros Hp Hb. induction ws as [|w0_ ws IH]; intro E; [cbn [join_loop_windows]; nf|].
    destruct ws as [|w1_ r]; [cbn [join_loop_windows]; nf|].
    change (join_loop_windows tops pB sB pt body eba ebb jts (w0_ :: w1_ :: r) E) with
      (mbind (window_binding tops w0_ w1_ eba ebb jts false true) (fun '(je, binding) =>
       mbind (m_peek tops) (fun Pb =>
       mbind (pB pt binding (env_push E)) (fun '(_, Ej) =>
       mbind (lower_stmts sB body Ej) (fun Ej =>
       mbind (lift_res (env_pop Ej)) (fun Ej =>
       mbind (m_replace tops Pb) (fun Pj =>
       mbind (mux_envs tops je Ej E) (fun E' =>
       mbind (m_mux_panic tops je Pj Pb) (fun Pm =>
       mbind (m_replace tops Pm) (fun _ =>
       join_loop_windows tops pB sB pt body eba ebb jts (w1_ :: r) E')))))))))).
    nf. now apply nff_lower_stmts.
  Qed.

  Lemma nff_assign_indexes m : forall accs E acc_rev,
    maxl (fun a => match a with AIdx _ i => need_e f0 P i | _ => 0 end) accs <= k ->
    nff (assign_indexes tops P eB m accs E acc_rev).
  Proof.
    induction accs as [|a accs IH]; intros E acc_rev H; cbn [assign_indexes]; [nf|]. mx.
    destruct a; nf.
  Qed.

  Lemma nff_assign_forward : forall accs (coll : list bool) idxs acc, nff (assign_forward tops P accs coll idxs acc).
  Proof. induction accs as [|a accs IH]; intros coll idxs acc; cbn [assign_forward]; [nf|]. destruct a; nf. Qed.

  Lemma nff_assign_backward m : forall acc (value : list bool), nff (assign_backward tops m acc value).
  Proof. induction acc as [|[[[before a] n] [iw|]] acc IH]; intro value; cbn [assign_backward]; nf. Qed.

  Hint Resolve nff_lower_list nff_lower_struct_fields nff_fields_match nff_struct_match nff_lower_arms
    nff_lower_args nff_lower_stmts nff_block_stmts nff_for_iterations nff_join_loop_windows
    nff_assign_indexes nff_assign_forward nff_assign_backward : nff.

  Lemma expr_nff e E : need_e (S f0) P e <= S k -> nff (lower_expr_body tops P eB pB bB e E).
  Proof.
    destruct e as [ei m t]. destruct ei; cbn [need_e lower_expr_body];
      try (intro H; apply le_S_n in H; mx; solve [nf]).
    - (* ENot *) intro H; apply le_S_n in H. nf. apply nff_mapM. intro; prim.
    - (* EOp *) destruct o; cbn [lower_expr_body];
        try (intro H; apply le_S_n in H; mx; solve [nf]).
      destruct (mul_rewrite x y m t) as [[operand e']|]; intro H; apply le_S_n in H; mx; nf.
  Qed.

  Lemma maxl_zip_sizes : forall ps fts,
    maxl (fun q : pattern * nat => need_p f0 (fst q)) (zip_sizes P ps fts) <= maxl (need_p f0) ps.
  Proof.
    induction ps as [|p ps IH]; intros [|ft fts]; cbn [zip_sizes maxl fold_right fst]; try lia.
    fold (maxl (fun q : pattern * nat => need_p f0 (fst q)) (zip_sizes P ps fts)). fold (maxl (need_p f0) ps).
    specialize (IH fts). lia.
  Qed.

  Lemma maxl_map_sizes : forall ps,
    maxl (fun q : pattern * nat => need_p f0 (fst q)) (map (fun fp => (fp, szn P (p_ty fp))) ps) = maxl (need_p f0) ps.
  Proof.
    induction ps as [|p ps IH]; cbn [map maxl fold_right fst]; [reflexivity|].
    fold (maxl (fun q : pattern * nat => need_p f0 (fst q)) (map (fun fp => (fp, szn P (p_ty fp))) ps)).
    fold (maxl (need_p f0) ps). now rewrite IH.
  Qed.

  Lemma pattern_nff p mw E : need_p (S f0) p <= S k -> nff (lower_pattern_body tops P pB p mw E).
  Proof.
    destruct p as [pi m t]. destruct pi; cbn [need_p lower_pattern_body]; intro H; apply le_S_n in H; try solve [nf].
    - apply nff_fields_match. now rewrite maxl_map_sizes.
    - nf. apply nff_fields_match. etransitivity; [apply maxl_zip_sizes|exact H].
  Qed.

  Lemma stmt_nff s E : need_s (S f0) P s <= S k -> nff (lower_stmt_body tops P eB pB sB s E).
  Proof.
    destruct s as [si m]. destruct si; cbn [need_s lower_stmt_body]; intro H; apply le_S_n in H; mx; nf.
  Qed.

  Lemma block_nff b E : need_b (S f0) P b <= S k -> nff (lower_block_body sB b E).
  Proof. cbn [need_b]. intro H. apply le_S_n in H. unfold lower_block_body. nf. Qed.
End NStep.

Theorem need_sound P : forall f,
  (forall f' e E, f' <= f -> need_e f P e <= f' -> nff (lower_expr tops f' P e E)) /\
  (forall f' p mw E, f' <= f -> need_p f p <= f' -> nff (lower_pattern tops f' P p mw E)) /\
  (forall f' s E, f' <= f -> need_s f P s <= f' -> nff (lower_stmt tops f' P s E)) /\
  (forall f' b E, f' <= f -> need_b f P b <= f' -> nff (lower_block tops f' P b E)).
Proof.
  induction f as [|f (IHe & IHp & IHs & IHb)].
  - repeat split; intros f' ? ; intros; exfalso; cbn in *; lia.
  - assert (forall k, k <= f ->
      (forall c E, need_e f P c <= k -> nff (lower_expr tops k P c E)) /\
      (forall p mw E, need_p f p <= k -> nff (lower_pattern tops k P p mw E)) /\
      (forall s E, need_s f P s <= k -> nff (lower_stmt tops k P s E)) /\
      (forall b E, need_b f P b <= k -> nff (lower_block tops k P b E))) as Hk.
    { intros k Hk. repeat split; intros; [apply IHe|apply IHp|apply IHs|apply IHb]; assumption. }
    repeat split; intros [|k] ? ; intros; try (exfalso; cbn in *; lia);
      destruct (Hk k ltac:(lia)) as (He & Hp & Hs & Hb).
    + rewrite lower_expr_S. eapply expr_nff; eassumption.
    + rewrite lower_pattern_S. eapply pattern_nff; eassumption.
    + rewrite lower_stmt_S. eapply stmt_nff; eassumption.
    + rewrite lower_block_S. eapply block_nff; eassumption.
Qed.
Print Assumptions need_sound.

(* ------------------------------------------------------------------ fuel monotonicity, for every
   operation set: a run that answers [Ok] answers the same with any larger fuel *)

Section Mono.
  Context {Wt Cs Pst : Type}.
  Variable OPS : ops Wt Cs Pst.
  Notation MG A := (Cs -> res (A * Cs)).

  Definition le_m {A} (m m' : MG A) : Prop := forall s r, m s = Ok r -> m' s = Ok r.

  Lemma le_refl {A} (m : MG A) : le_m m m.
  Proof. intros s r H. exact H. Qed.

  Lemma le_bind {A B} (m m' : MG A) (k k' : A -> MG B) :
    le_m m m' -> (forall a, le_m (k a) (k' a)) -> le_m (mbind m k) (mbind m' k').
  Proof.
    intros Hm Hk s r. unfold mbind. destruct (m s) as [[a s1]| |] eqn:E; try discriminate.
    rewrite (Hm _ _ E). apply Hk.
  Qed.

  Ltac mono_step :=
    match goal with
    | |- le_m ?m ?m => apply le_refl
    | |- le_m (mbind _ _) (mbind _ _) => apply le_bind; [|intros; cbv beta]
    | |- le_m (match ?x with _ => _ end) (match ?x with _ => _ end) => destruct x
    | |- _ => solve [auto]
    end.
  Ltac mono := repeat mono_step.

  Section Bodies.
    Variable P : program.
    Notation CE := (@cenv Wt).
    Variables eB eB' : expr -> CE -> MG (list Wt * CE).
    Variables pB pB' : pattern -> list Wt -> CE -> MG (Wt * CE).
    Variables sB sB' : stmt -> CE -> MG (list Wt * CE).
    Variables bB bB' : list stmt -> CE -> MG (list Wt * CE).
    Hypothesis He : forall e E, le_m (eB e E) (eB' e E).
    Hypothesis Hp : forall p mw E, le_m (pB p mw E) (pB' p mw E).
    Hypothesis Hs : forall s E, le_m (sB s E) (sB' s E).
    Hypothesis Hb : forall b E, le_m (bB b E) (bB' b E).

    Lemma le_lower_list : forall es E, le_m (lower_list eB es E) (lower_list eB' es E).
    Proof. induction es as [|e es IH]; intro E; cbn [lower_list]; mono. Qed.

    Lemma le_lower_struct_fields fields : forall ds E,
      le_m (lower_struct_fields eB fields ds E) (lower_struct_fields eB' fields ds E).
    Proof. induction ds as [|[fn ft] ds IH]; intro E; cbn [lower_struct_fields]; mono. Qed.

    Lemma le_lower_arms bits sw E0 P0 : forall arms hp mret mp menv,
      le_m (lower_arms OPS eB pB bits sw E0 P0 arms hp mret mp menv)
           (lower_arms OPS eB' pB' bits sw E0 P0 arms hp mret mp menv).
    Proof. induction arms as [|[pt body] arms IH]; intros hp mret mp menv; cbn [lower_arms]; mono. Qed.

    Lemma le_lower_args : forall ps args E, le_m (lower_args eB ps args E) (lower_args eB' ps args E).
    Proof. induction ps as [|[pn pt] ps IH]; intros [|a ar] E; cbn [lower_args]; mono. Qed.

    Lemma le_lower_stmts : forall ss E, le_m (lower_stmts sB ss E) (lower_stmts sB' ss E).
    Proof. induction ss as [|s ss IH]; intro E; cbn [lower_stmts]; mono. Qed.

    Lemma le_block_stmts : forall ss last E, le_m (block_stmts sB ss last E) (block_stmts sB' ss last E).
    Proof. induction ss as [|s ss IH]; intros last E; cbn [block_stmts]; mono. Qed.

    Lemma le_for_iterations pt body eb : forall n aw E,
      le_m (for_iterations pB sB pt body eb n aw E) (for_iterations pB' sB' pt body eb n aw E).
    Proof.
      induction n as [|n IH]; intros aw E; cbn [for_iterations]; mono. apply le_lower_stmts.
    Qed.

    Lemma le_join_loop_windows pt body eba ebb jts : forall ws E,
      le_m (join_loop_windows OPS pB sB pt body eba ebb jts ws E)
           (join_loop_windows OPS pB' sB' pt body eba ebb jts ws E).
    Proof.
      induction ws as [|w0_ ws IH]; intro E; cbn [join_loop_windows]; [mono|].
      destruct ws as [|w1_ r]; mono. apply le_lower_stmts.
    Qed.

    Lemma le_assign_indexes m : forall accs E acc_rev,
      le_m (assign_indexes OPS P eB m accs E acc_rev) (assign_indexes OPS P eB' m accs E acc_rev).
    Proof. induction accs as [|a accs IH]; intros E acc_rev; cbn [assign_indexes]; [mono|]. destruct a; mono. Qed.

    Lemma le_fields_match mw : forall ps w im E,
      le_m (fields_match OPS pB mw ps w im E) (fields_match OPS pB' mw ps w im E).
    Proof. induction ps as [|[fp fb] ps IH]; intros w im E; cbn [fields_match]; mono. Qed.

    Lemma le_struct_match mw fields : forall ds w im E,
      le_m (struct_match OPS P pB mw fields ds w im E) (struct_match OPS P pB' mw fields ds w im E).
    Proof. induction ds as [|[fn ft] ds IH]; intros w im E; cbn [struct_match]; cbv zeta; mono. Qed.

    Hint Resolve le_lower_list le_lower_struct_fields le_lower_arms le_lower_args le_lower_stmts le_block_stmts
      le_for_iterations le_join_loop_windows le_assign_indexes le_fields_match le_struct_match : core.

    Lemma le_expr_body e E : le_m (lower_expr_body OPS P eB pB bB e E) (lower_expr_body OPS P eB' pB' bB' e E).
    Proof.
      destruct e as [ei m t]. destruct ei; cbn [lower_expr_body]; mono.
    Qed.

    Lemma le_pattern_body p mw E : le_m (lower_pattern_body OPS P pB p mw E) (lower_pattern_body OPS P pB' p mw E).
    Proof. destruct p as [pi m t]. destruct pi; cbn [lower_pattern_body]; cbv zeta; mono. Qed.

    Lemma le_stmt_body s E : le_m (lower_stmt_body OPS P eB pB sB s E) (lower_stmt_body OPS P eB' pB' sB' s E).
    Proof. destruct s as [si m]. destruct si; cbn [lower_stmt_body]; cbv zeta; mono. Qed.

    Lemma le_block_body b E : le_m (lower_block_body sB b E) (lower_block_body sB' b E).
    Proof. unfold lower_block_body. mono. Qed.
  End Bodies.

  Theorem lower_fuel_mono P : forall f f', f <= f' ->
    (forall e E, le_m (lower_expr OPS f P e E) (lower_expr OPS f' P e E)) /\
    (forall p mw E, le_m (lower_pattern OPS f P p mw E) (lower_pattern OPS f' P p mw E)) /\
    (forall s E, le_m (lower_stmt OPS f P s E) (lower_stmt OPS f' P s E)) /\
    (forall b E, le_m (lower_block OPS f P b E) (lower_block OPS f' P b E)).
  Proof.
    induction f as [|f IH]; intros f' Hle.
    - repeat split; intros; intros s0 r0 H0; discriminate H0.
    - destruct f' as [|f']; [lia|]. destruct (IH f' ltac:(lia)) as (He & Hp & Hs & Hb).
      repeat split; intros; cbn [lower_expr lower_pattern lower_stmt lower_block].
      + now apply le_expr_body.
      + now apply le_pattern_body.
      + now apply le_stmt_body.
      + now apply le_block_body.
  Qed.
End Mono.
Print Assumptions lower_fuel_mono.

(* ------------------------------------------------------------------ whole programs *)

(* exploration bound of [need_*]: more than any fuel in use (the runner uses 2000) *)
Definition fuel_cap : nat := 100 * 100.

(* the fuel [tsem_program] / [lower_main_with] need on [P]: one more than the depth of main's
   body with calls inlined and products by small literals expanded.  Meaningful when it is at
   most [fuel_cap] (for a recursive program it exceeds [fuel_cap]). *)
Definition fuel_needed (P : program) : nat :=
  match find_fn P (p_main P) with
  | Some fd => need_b fuel_cap P (fn_body fd)
  | None => 0
  end.

(* what the extracted checker evaluates *)
Definition fuel_enough (fuel : nat) (P : program) : bool :=
  (fuel_needed P <=? fuel) && (fuel_needed P <=? fuel_cap).

Lemma rnf_const_wires e : rnf (const_wires tops e).
Proof. destruct e as [ei m t]. destruct ei; exact I. Qed.

Lemma rnf_global_fold : forall (cs : list (N * expr)) (r : res (@cenv bool)), rnf r ->
  rnf (fold_left (fun Er '(x, e) => let* E := Er in let* w := const_wires tops e in env_let E x w) cs r).
Proof.
  induction cs as [|[x e] cs IH]; intros r Hr; cbn [fold_left]; [exact Hr|].
  apply IH. apply rnf_bind; [exact Hr|]. intro E. apply rnf_bind; [apply rnf_const_wires|]. intro w. apply rnf_env_let.
Qed.

Lemma rnf_main_env P bs : rnf (main_env tops P bs).
Proof.
  unfold main_env, global_scope. apply rnf_bind; [apply rnf_global_fold; exact I|]. intro glob.
  apply rnf_fold_let. exact I.
Qed.

(* with enough fuel the bit-level semantics never answers OutOfFuel (any program, any arguments) *)
Theorem tsem_program_fuel P args fuel : fuel_needed P <= fuel -> fuel <= fuel_cap -> rnf (tsem_program fuel P args).
Proof.
  unfold fuel_needed, tsem_program. intros Hn Hc. destruct (find_fn P (p_main P)) as [fd|]; [|exact I].
  destruct (negb (same_len (fn_params fd) args)); [exact I|].
  apply rnf_bind; [apply rnf_main_env|]. intro E0.
  destruct (need_sound P fuel_cap) as (_ & _ & _ & Hb). specialize (Hb fuel (fn_body fd) E0 Hc Hn None).
  destruct (lower_block tops fuel P (fn_body fd) E0 None) as [[[w E'] o']| |]; [exact I|exact I|contradiction].
Qed.

(* fuel monotonicity of the whole semantics *)
Theorem tsem_program_mono P args f f' r : f <= f' -> tsem_program f P args = Ok r -> tsem_program f' P args = Ok r.
Proof.
  unfold tsem_program. intros Hle. destruct (find_fn P (p_main P)) as [fd|]; [|discriminate].
  destruct (negb (same_len (fn_params fd) args)); [discriminate|].
  destruct (main_env tops P (combine (map fst (fn_params fd)) args)) as [E0| |]; cbn [bind]; try discriminate.
  destruct (lower_fuel_mono tops P f f' Hle) as (_ & _ & _ & Hb).
  destruct (lower_block tops f P (fn_body fd) E0 None) as [[[w E'] o']| |] eqn:Eb; cbn [bind]; try discriminate.
  rewrite (Hb _ _ _ _ Eb). cbn [bind]. exact (fun H => H).
Qed.

(* accepted programs, enough fuel: the semantics is defined on all arguments of the parameters'
   sizes and the result has the size of main's return type *)
Theorem tsem_program_terminates P fuel args fd :
  safe_program_ok P = true -> fuel_needed P <= fuel_cap -> fuel_needed P <= fuel ->
  find_fn P (p_main P) = Some fd ->
  Forall2 (fun p a => length a = szn P (snd p)) (fn_params fd) args ->
  exists o outs, tsem_program fuel P args = Ok (o, outs) /\ length outs = szn P (fn_ret fd).
Proof.
  intros Hok Hcap Hn Hmain Hargs.
  assert (exists f1, f1 <= fuel /\ f1 <= fuel_cap /\ fuel_needed P <= f1) as (f1 & H1 & H2 & H3).
  { exists (Nat.min fuel fuel_cap). repeat split; lia. }
  pose proof (tsem_program_fuel P args f1 H3 H2) as Hnf.
  unfold safe_program_ok in Hok. apply andb_prop in Hok as [Hok _]. apply andb_prop in Hok as [Hok Hc].
  apply andb_prop in Hok as [Hwt Hf].
  pose proof (tsem_program_safe f1 P args fd Hwt Hf Hc Hmain Hargs) as Hs.
  destruct (tsem_program f1 P args) as [[o outs]| |] eqn:Et; [|contradiction|contradiction].
  exists o, outs. split; [|exact Hs]. eapply tsem_program_mono; eassumption.
Qed.
Print Assumptions tsem_program_terminates.

Corollary tsem_program_terminates_b P fuel args fd :
  safe_program_ok P = true -> fuel_enough fuel P = true ->
  find_fn P (p_main P) = Some fd ->
  Forall2 (fun p a => length a = szn P (snd p)) (fn_params fd) args ->
  exists o outs, tsem_program fuel P args = Ok (o, outs) /\ length outs = szn P (fn_ret fd).
Proof.
  unfold fuel_enough. intros Hok He. apply andb_prop in He as [H1 H2]. apply Nat.leb_le in H1, H2.
  now apply tsem_program_terminates.
Qed.

(* ------------------------------------------------------------------ the builder instance: with
   enough fuel no run-time witness is needed for LowerSound.lower_program_sound *)


(* the types of main's parameters are explored within [Sem.ty_fuel] (a single array parameter is
   wired element by element) *)
Definition params_ok (P : program) : bool :=
  match find_fn P (p_main P) with
  | Some fd => forallb (fun p => ty_ok Sem.ty_fuel P (snd p)) (fn_params fd)
  | None => true
  end.

Lemma param_wiring_shape P params igs bs : param_wiring P params = (igs, bs) ->
  forallb (fun p => ty_ok Sem.ty_fuel P (snd p)) params = true ->
  Forall2 (fun p b => length (snd b) = szn P (snd p)) params bs.
Proof.
  intros H Hok. destruct (param_wiring_spec _ _ _ _ H) as (_ & _ & [(x & el & n & -> & _ & ->)|[_ Hl]]); [|exact Hl].
  repeat constructor. cbn [snd forallb] in *. rewrite wire_range_length.
  apply andb_prop in Hok as [Hok _]. symmetry. now apply szn_arr.
Qed.

Section Total.
  Variable fuel : nat.
  Variable dedup : bool.
  Variable P : program.

  Theorem lower_program_total s1 outs :
    safe_program_ok P = true -> params_ok P = true ->
    fuel_needed P <= fuel_cap -> fuel_needed P <= fuel ->
    lower_main_with fuel dedup P = Ok (PreOk s1 outs) ->
    (counter (cb s1) + (b_shift (cb s1) - 2) <= MAX_GATES)%N ->
    exists fd igs bindings,
      find_fn P (p_main P) = Some fd /\ param_wiring P (fn_params fd) = (igs, bindings) /\
      forall ins inp,
        load_inputs igs ins = Some inp ->
        exists o vouts c out,
          tsem_program fuel P (param_args bindings inp) = Ok (o, vouts) /\
          length vouts = szn P (fn_ret fd) /\
          lower_program_with fuel dedup P = Ok (LCircuit c) /\
          ssa_validate c = None /\ input_gates c = igs /\
          length (output_gates c) = (161 + length vouts)%nat /\
          ssa_eval c ins = Some out /\
          parse_panic out = parse_spec o vouts /\
          (o = None -> skipn 161 out = vouts).
  Proof.
    intros Hok Hpar Hcap Hn Hmain Hmax.
    destruct (lower_program_sound_one_witness fuel dedup P s1 outs Hmain Hmax) as (fd & igs & bindings & Efd & Epw & H).
    exists fd, igs, bindings. split; [exact Efd|]. split; [exact Epw|]. intros ins inp Hload.
    unfold params_ok in Hpar. rewrite Efd in Hpar.
    pose proof (param_wiring_shape P _ _ _ Epw Hpar) as Hsh.
    set (args0 := map (fun b : N * list N => repeat false (length (snd b))) bindings).
    assert (Forall2 (fun b a => length a = length (snd b)) bindings args0) as H0.
    { unfold args0. clear. induction bindings as [|b bs IH]; cbn [map]; constructor; [apply repeat_length|exact IH]. }
    assert (Forall2 (fun p a => length a = szn P (snd p)) (fn_params fd) args0) as H1.
    { unfold args0. clear - Hsh. induction Hsh as [|p b ps bs Hl _ IH]; cbn [map]; constructor; [|exact IH].
      now rewrite repeat_length. }
    destruct (tsem_program_terminates P fuel args0 fd Hok Hcap Hn Efd H1) as (o0 & outs0 & Ht0 & L0).
    destruct (H args0 (o0, outs0) H0 Ht0 ins inp Hload) as (o & vouts & c & out & Ht & Hl & Hrest).
    exists o, vouts, c, out. split; [exact Ht|]. split; [cbn [snd] in Hl; congruence|exact Hrest].
  Qed.
End Total.
Print Assumptions lower_program_total.

(* ------------------------------------------------------------------ examples *)

Module FuelExamples.
  Import Findings.
  Local Open Scope N_scope.
  Definition u32 := TInt false 32.
  (* fn f(x: u32) -> u32 { x * 3 }   fn main(a: u32) -> u32 { f(f(a)) + 1 } *)
  Definition fbody := [St (SExpr (Ex (EOp OMul (Ex (EId 1) m0 u32) (Ex (ENumU 3 32) m0 u32)) m0 u32)) m0].
  Definition mbody :=
    [St (SExpr (Ex (EOp OAdd (Ex (ECall 7 [Ex (ECall 7 [Ex (EId 2) m0 u32]) m0 u32]) m0 u32)
                             (Ex (ENumU 1 32) m0 u32)) m0 u32)) m0].
  Definition PP : program := mkProgram [] [] [mkFn 7 [(1, u32)] u32 fbody; mkFn 0 [(2, u32)] u32 mbody] [] 0.
  Definition status (f : nat) : N :=
    match tsem_program f PP [repeat true 32] with Ok _ => 0 | Crash => 1 | OutOfFuel => 2 end.
  (* the bound is exact here: defined with 11, out of fuel with 10 *)
  Example fuel_needed_exact :
    safe_program_ok PP = true /\ fuel_needed PP = 11%nat /\ fuel_enough 2000 PP = true /\
    status 11 = 0 /\ status 10 = 2.
  Proof. vm_compute. repeat split. Qed.

  (* fn main(a: u32) -> u32 { main(a) }: [wt_program] (hence [safe_program_ok]) accepts a recursive
     program -- a call is checked against the signature only; the semantics is OutOfFuel for every
     fuel, and [fuel_needed] exceeds [fuel_cap] *)
  Definition rbody := [St (SExpr (Ex (ECall 0 [Ex (EId 2) m0 u32]) m0 u32)) m0].
  Definition PR : program := mkProgram [] [] [mkFn 0 [(2, u32)] u32 rbody] [] 0.
  Example recursion_accepted :
    safe_program_ok PR = true /\ fuel_enough 2000 PR = false /\ Nat.ltb fuel_cap (fuel_needed PR) = true.
  Proof. vm_compute. repeat split. Qed.
End FuelExamples.
