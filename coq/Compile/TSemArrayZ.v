(* ZERO-SIZED ARRAY ELEMENTS ([(); 3], arrays of empty tuples / structs).

   For elements without bits the array has no wires at all: a read returns no wires, a write
   changes nothing, and the bounds check is the same.  The array theorems of Compile/TSemArray.v
   ([tsem_array_read_all], [tsem_array_write_all]) hold for EVERY element size; here they are restated as [_any]. *)
From Coq Require Import Lia ZArith.
From GV Require Import Base.Util Base.Bits Lang.Ast Gadgets.Gadgets Gadgets.GadgetSpec Gadgets.Extend
  Gadgets.ExtendProofs Panic.PanicRec Panic.PanicSem Compile.Lower Compile.TSem Compile.TSemArray.
Local Open Scope N_scope.

Theorem tsem_array_read_any elems (idx : list bool) eb n m (o : pobs) :
  all_len eb elems -> length elems = n -> (1 <= n)%nat -> N.of_nat n < 2 ^ 32 ->
  (length idx <= USZ)%nat ->
  array_read tops (concat elems) idx eb n m o
  = Ok ((nth (N.to_nat (bits_to_N idx)) elems (repeat true eb), extend_s idx false USZ),
        push_spec o (N.of_nat n <=? bits_to_N idx) OutOfBounds (ploc_of m)).
Proof. apply tsem_array_read_all. Qed.

Theorem tsem_array_write_any elems (idx value : list bool) eb m (o : pobs) :
  all_len eb elems -> lenN elems < 2 ^ 32 -> (length idx <= USZ)%nat -> length value = eb ->
  array_write tops (concat elems) eb (length elems) idx value m o
  = Ok (concat (list_set elems (N.to_nat (bits_to_N idx)) value),
        push_spec o (lenN elems <=? bits_to_N idx) OutOfBounds (ploc_of m)).
Proof. apply tsem_array_write_all. Qed.
Print Assumptions tsem_array_write_any.
