(* THE STRICT CHECKER OF THE FULL FRAGMENT AGAINST THE RE-CHECKER Lang/Wt.v.

   [scf2_*] (Compile/TSemSemFullCall.v) enforces what the node lemmas need.  Wt.v makes three
   checks more, collected in the structural booleans [wtx_pat] / [wtx_expr] / [wtx_stmt] / [wtx_fns]:
     - a struct literal has as many fields as the definition (scf2: every field of the
       definition is given, exactly once; fields the definition does not have are ignored);
     - a unit enum pattern names a variant WITHOUT payload (scf2: any variant);
     - a range lo..hi has lo <= hi (scf2: only the annotation [u; hi - lo], subtraction in N).
   Everything else Wt.v checks follows from scf2 (Leibniz type equality [ty_beq] implies Wt.v's
   [ty_eqb]; field positions [Sem.index_of] give [assocN]; [gpat_b] gives [wt_pat] with the SAME
   bindings, [gpat_b_wt]).

   (a) [scf2_wtx_implies_wt_le]: scf2_* fw && wtx_* -> Wt.wt_expr / wt_block / wt_stmt n accept, same
       contexts, same types, every n >= fw; [scf2_wtx_implies_wt]: n = fw.
       [in_full_fragment3_wt]: fw <= wt_fuel -> in_full_fragment3 fw P -> wtx_fns P -> Wt.wt_program P
       (Wt.v runs with the fixed fuel 400: the bound is needed, [WtxFindings.deeper_than_wt_fuel]).
   (b) with Lang/WtSound.v ([wt_main_values]) the `Stuck => True` escape of the program theorems goes:
       [wt_run_main_cases], [covered_wt_program_agrees] (any covered program that Wt.v accepts),
       [wt_covered_agrees] (from the boolean [wt_covered] alone), and the [_frag] corollaries inside
       [ValTy.frag_program] (every match has an irrefutable arm), where the run is never Stuck.
       Outside [frag_program] the disjunct `Stuck c, c in [stuck_allowed]` (pattern-match and join
       codes) stays here; Exhaust/ExhSound.v removes it under the exhaustiveness check [exh_fns]
       ([wt_covered_exh_agrees]), Compile/SemFuel.v removes the `RunNoFuel` disjunct under
       [sem_fuel_enough] ([wt_covered_fuel_agrees]).
   (c) [WtxFindings]: each wtx check is needed; on the reversed range the two semantics DIFFER
       (Sem.v: the empty array; the lowering: Crash). *)
From Coq Require Import Lia ZArith.
From GV Require Import Base.Util Lang.Ast Lang.Wt Lang.ValTy Lang.WtSound Lang.WtShape
  Panic.PanicRec Panic.PanicSem Compile.Lower Compile.TSem Compile.TSemArith1 Compile.TSemSemExpr Compile.ValEnc
  Compile.TSemSemStmt Compile.TSemSemCall Compile.TSemSemAgg Compile.TSemSemFull
  Compile.TSemSemFullCall Compile.TSemSemFullConst.
From GV Require Lang.Sem.
Local Open Scope N_scope.

(* ------------------------------------------------------------------ the extra checks of Wt.v *)

(* patterns: a unit enum pattern names a variant without payload *)
Fixpoint wtx_pat (P : program) (p : pattern) {struct p} : bool :=
  match p with
  | Pat pi _ _ =>
    match pi with
    | PTup ps => forallb (wtx_pat P) ps
    | PStruct _ _ fields => forallb (fun fp => wtx_pat P (snd fp)) fields
    | PEnumUnit en v =>
        match assocN en (p_enums P) with
        | Some variants => match nthN variants v with Some [] => true | _ => false end
        | None => false
        end
    | PEnumTup _ _ ps => forallb (wtx_pat P) ps
    | _ => true
    end
  end.

(* expressions / statements: a struct literal has as many fields as the definition; a range
   is not reversed *)
Fixpoint wtx_expr (P : program) (e : expr) {struct e} : bool :=
  match e with
  | Ex ei _ _ =>
    match ei with
    | ETrue | EFalse | ENumU _ _ | ENumS _ _ | EId _ => true
    | EArrLit es | ETupLit es | EEnumLit _ _ es | ECall _ es => forallb (wtx_expr P) es
    | EArrRep e1 _ | ETupAcc e1 _ | EFld e1 _ | ENeg e1 | ENot e1 | ECast _ e1 => wtx_expr P e1
    | EIdx a i => wtx_expr P a && wtx_expr P i
    | EStructLit name fields =>
        match assocN name (p_structs P) with
        | Some def => lenN fields =? lenN def
        | None => false
        end && forallb (fun fe => wtx_expr P (snd fe)) fields
    | EMatch s arms =>
        wtx_expr P s && forallb (fun arm => wtx_pat P (fst arm) && wtx_expr P (snd arm)) arms
    | EOp _ x y => wtx_expr P x && wtx_expr P y
    | EBlock b => forallb (wtx_stmt P) b
    | EJoin _ _ a b => wtx_expr P a && wtx_expr P b
    | EIf c a b => wtx_expr P c && wtx_expr P a && wtx_expr P b
    | ERange lo hi _ => lo <=? hi
    end
  end
with wtx_stmt (P : program) (s : stmt) {struct s} : bool :=
  match s with
  | St si _ =>
    match si with
    | SLet p e => wtx_pat P p && wtx_expr P e
    | SLetMut _ e => wtx_expr P e
    | SAssign _ accs e =>
        forallb (fun a => match a with AIdx _ i => wtx_expr P i | _ => true end) accs && wtx_expr P e
    | SFor p arr body => wtx_pat P p && wtx_expr P arr && forallb (wtx_stmt P) body
    | SJoinLoop p _ a b body => wtx_pat P p && wtx_expr P a && wtx_expr P b && forallb (wtx_stmt P) body
    | SExpr e => wtx_expr P e
    end
  end.

(* ------------------------------------------------------------------ type equalities *)

Lemma ty_eqb_refl : forall t, ty_eqb t t = true.
Proof.
  fix IH 1. intros [|s b|e n|ts|n|n]; cbn [ty_eqb].
  - reflexivity.
  - now rewrite Bool.eqb_reflx, N.eqb_refl.
  - now rewrite IH, N.eqb_refl.
  - induction ts as [|x ts IHl]; [reflexivity|]. now rewrite IH, IHl.
  - apply N.eqb_refl.
  - apply N.eqb_refl.
Qed.

Lemma ty_beq_ty_eqb a b : ty_beq a b = true -> ty_eqb a b = true.
Proof. intro H. apply ty_beq_eq in H. subst b. apply ty_eqb_refl. Qed.

Lemma forallb2_refl_map {A} (tyof : A -> ty) (F : A -> bool) l :
  forallb F l = true -> forallb2 (fun e t => ty_eqb (tyof e) t && F e) l (map tyof l) = true.
Proof.
  induction l as [|a l IH]; cbn [forallb map forallb2]; [reflexivity|]. intro H.
  apply andb_prop in H. destruct H as [H1 H2]. now rewrite ty_eqb_refl, H1, IH.
Qed.

Lemma forallb_impl {A} (F G : A -> bool) l : (forall a, In a l -> F a = true -> G a = true) ->
  forallb F l = true -> forallb G l = true.
Proof.
  intros HFG H. rewrite forallb_forall in *. intros a Hin. apply HFG; [exact Hin|now apply H].
Qed.

(* the position of a field and its type *)
Lemma index_of_assocN fld : forall (def : list (N * ty)) i0 k tk,
  Sem.index_of fld (map fst def) i0 = Some k ->
  nth_error (map snd def) (N.to_nat (k - i0)) = Some tk -> i0 <= k /\ assocN fld def = Some tk.
Proof.
  induction def as [|[fn ft] def IH]; intros i0 k tk H Hn; cbn [map fst snd Sem.index_of] in *; [discriminate H|].
  cbn [assocN]. destruct (N.eqb_spec fld fn) as [->|Hne].
  - injection H as <-. rewrite N.sub_diag in Hn. cbn in Hn. injection Hn as <-. split; [lia|reflexivity].
  - destruct (IH (i0 + 1) k tk H) as [Hle Ha].
    + assert (N.to_nat (k - i0) = S (N.to_nat (k - (i0 + 1)))) as E.
      { assert (i0 + 1 <= k).
        { clear - H. revert H. generalize (i0 + 1). induction (map fst def) as [|y r IHr]; intros j H; cbn in H; [discriminate|].
          destruct (fld =? y); [injection H as <-; lia|]. specialize (IHr _ H). lia. }
        lia. }
      rewrite E in Hn. exact Hn.
    + split; [lia|exact Ha].
Qed.

Lemma index_of_assocN0 fld (def : list (N * ty)) k tk : Sem.index_of fld (map fst def) 0 = Some k ->
  nthN (map snd def) k = Some tk -> assocN fld def = Some tk.
Proof.
  intros H Hn. rewrite nthN_spec in Hn.
  destruct (index_of_assocN fld def 0 k tk H) as [_ Ha]; [now rewrite N.sub_0_r|exact Ha].
Qed.

Lemma in_assocN {A} k (v : A) : forall l, NoDup (map fst l) -> In (k, v) l -> assocN k l = Some v.
Proof.
  induction l as [|[k' v'] l IH]; intros Hnd Hin; [destruct Hin|]. cbn [assocN map fst] in *.
  inversion Hnd as [|? ? Hni Hnd']. subst. destruct Hin as [Heq|Hin].
  - injection Heq as -> ->. now rewrite N.eqb_refl.
  - destruct (N.eqb_spec k k') as [->|_]; [|now apply IH].
    exfalso. apply Hni. change k' with (fst (k', v)). now apply in_map.
Qed.

Lemma skip_to_in fn names : forall ds fty r, skip_to fn names ds = Some (fty, r) ->
  In (fn, fty) ds /\ incl r ds.
Proof.
  induction ds as [|[dn dt] ds IH]; intros fty r H; cbn [skip_to] in H; [discriminate H|].
  destruct (N.eqb_spec dn fn) as [->|Hne].
  - injection H as -> ->. split; [now left|]. intros x Hx. now right.
  - destruct (existsb (N.eqb dn) names); [discriminate H|]. destruct (IH _ _ H) as [H1 H2].
    split; [now right|]. intros x Hx. right. now apply H2.
Qed.

Lemma if_none_some {A} (c : bool) (x : option A) y : (if c then None else x) = Some y -> x = Some y.
Proof. destruct c; [discriminate|auto]. Qed.

(* ------------------------------------------------------------------ patterns *)

Section PatWt.
  Variable P : program.

  Theorem gpat_b_wt irr : forall p t bs, gpat_b P irr p t = Some bs -> wtx_pat P p = true ->
    wt_pat P p = Some bs.
  Proof.
    fix IH 1. intros [pi m tp] t bs H Hx. cbn [gpat_b] in H.
    destruct (ty_beq tp t) eqn:Et; cbn [negb] in H; [|discriminate H]. apply ty_beq_eq in Et. subst tp.
    assert (Hlist : forall ps ts bs0,
      (fix go (ps : list pattern) (ts : list ty) : option (list (N * ty)) :=
         match ps, ts with
         | [], [] => Some []
         | p1 :: pr, t1 :: tr =>
             match gpat_b P irr p1 t1, go pr tr with
             | Some b, Some bs => Some (b ++ bs)
             | _, _ => None
             end
         | _, _ => None
         end) ps ts = Some bs0 -> forallb (wtx_pat P) ps = true ->
      (fix go (ps : list pattern) (ts : list ty) : option (list (N * ty)) :=
        match ps, ts with
        | [], [] => Some []
        | p :: pr, t :: tr =>
            if negb (ty_eqb (p_ty p) t) then None else
            match wt_pat P p, go pr tr with
            | Some a, Some b => Some (a ++ b)
            | _, _ => None
            end
        | _, _ => None
        end) ps ts = Some bs0).
    { induction ps as [|p1 pr IHl]; intros [|t1 tr] bs0 H0 Hx0; try discriminate H0.
      - exact H0.
      - destruct (gpat_b P irr p1 t1) as [b|] eqn:E1; [|discriminate H0].
        match type of H0 with match ?G with _ => _ end = _ => destruct G as [bs1|] eqn:E2 end; [|discriminate H0].
        cbn [forallb] in Hx0. apply andb_prop in Hx0. destruct Hx0 as [Hx1 Hx2].
        rewrite (gpat_b_ty P _ _ _ _ E1), ty_eqb_refl. cbn [negb].
        rewrite (IH p1 t1 b E1 Hx1), (IHl tr bs1 E2 Hx2). exact H0. }
    destruct pi; cbn [wtx_pat] in Hx; cbn [wt_pat].
    - exact H.
    - apply if_none_some in H. destruct t; try discriminate H. exact H.
    - apply if_none_some in H. destruct t; try discriminate H. exact H.
    - apply if_none_some in H. destruct t as [|sg b| | | |]; try discriminate H.
      unfold Sem.in_range in H. cbn [lit_fits]. destruct sg; exact H.
    - apply if_none_some in H. destruct t as [|sg b| | | |]; try discriminate H.
      unfold Sem.in_range in H. cbn [lit_fits]. destruct sg; exact H.
    - destruct t as [| | |ts| |]; try discriminate H. now apply Hlist.
    - destruct t as [| | | |n2|]; try discriminate H.
      destruct (N.eqb_spec name n2) as [->|]; cbn [negb] in H; [|discriminate H].
      destruct (assocN n2 (p_structs P)) as [def|] eqn:Ed; [|discriminate H].
      destruct (nodupN (map fst def)) eqn:Nd; cbn [negb] in H; [|discriminate H].
      apply nodupN_NoDup in Nd.
      assert (Hincl : incl def def) by (intros x Hxx; exact Hxx).
      cbn [negb]. revert H Hx Hincl. generalize def at 1 2. generalize bs. clear Hlist.
      induction fields as [|[fn fp] fr IHf]; intros bs0 ds H0 Hx0 Hincl.
      + exact H0.
      + destruct (skip_to fn (map fst ((fn, fp) :: fr)) ds) as [[fty r]|] eqn:Es; [|discriminate H0].
        destruct (gpat_b P irr fp fty) as [b|] eqn:E1; [|discriminate H0].
        match type of H0 with match ?G with _ => _ end = _ => destruct G as [bs1|] eqn:E2 end; [|discriminate H0].
        cbn [forallb snd] in Hx0. apply andb_prop in Hx0. destruct Hx0 as [Hx1 Hx2].
        destruct (skip_to_in _ _ _ _ _ Es) as [Hin Hr].
        rewrite (in_assocN fn fty def Nd (Hincl _ Hin)).
        rewrite (gpat_b_ty P _ _ _ _ E1), ty_eqb_refl. cbn [negb].
        rewrite (IH fp fty b E1 Hx1).
        rewrite (IHf bs1 r E2 Hx2 (fun x Hxx => Hincl x (Hr x Hxx))). exact H0.
    - apply if_none_some in H. destruct t as [| | | | |n2]; try discriminate H.
      destruct (N.eqb_spec ename n2) as [->|]; cbn [negb] in H; [|discriminate H].
      destruct (assocN n2 (p_enums P)) as [variants|] eqn:Ed; [|discriminate H].
      destruct (nthN variants variant) as [[|? ?]|] eqn:En; try discriminate Hx. exact H.
    - apply if_none_some in H. destruct t as [| | | | |n2]; try discriminate H.
      destruct (N.eqb_spec ename n2) as [->|]; cbn [negb] in H; [|discriminate H].
      destruct (assocN n2 (p_enums P)) as [variants|] eqn:Ed; [|discriminate H].
      destruct (nthN variants variant) as [ts|] eqn:En; [|discriminate H]. now apply Hlist.
    - apply if_none_some in H. destruct t as [|sg b| | | |]; try discriminate H.
      unfold Sem.in_range in H. cbn [lit_fits]. destruct sg; exact H.
    - apply if_none_some in H. destruct t as [|sg b| | | |]; try discriminate H.
      unfold Sem.in_range in H. cbn [lit_fits]. destruct sg; exact H.
  Qed.
End PatWt.

(* ------------------------------------------------------------------ list helpers *)

Lemma forallb_impl2 {A} (F X G : A -> bool) l : (forall a, F a = true -> X a = true -> G a = true) ->
  forallb F l = true -> forallb X l = true -> forallb G l = true.
Proof.
  intro H. induction l as [|a l IH]; cbn [forallb]; [reflexivity|]. intros H1 H2.
  apply andb_prop in H1. destruct H1 as [H1 H1']. apply andb_prop in H2. destruct H2 as [H2 H2'].
  now rewrite (H a H1 H2), IH.
Qed.

Lemma forallb2_impl2 {A B} (F G : A -> B -> bool) (X : A -> bool) : forall l l',
  (forall a b, F a b = true -> X a = true -> G a b = true) ->
  forallb2 F l l' = true -> forallb X l = true -> forallb2 G l l' = true.
Proof.
  induction l as [|a l IH]; intros [|b l'] H H1 H2; cbn [forallb2 forallb] in *; try discriminate H1; [reflexivity|].
  apply andb_prop in H1. destruct H1 as [H1 H1']. apply andb_prop in H2. destruct H2 as [H2 H2'].
  now rewrite (H a b H1 H2), (IH l' H H1' H2').
Qed.

Lemma filter_none {A} k : forall (l : list (N * A)), ~ In k (map fst l) -> filter (fun fe => fst fe =? k) l = [].
Proof.
  induction l as [|[k' v'] l IH]; intro H; [reflexivity|]. cbn [filter fst map] in *.
  destruct (N.eqb_spec k' k) as [->|_]; [exfalso; apply H; now left|]. apply IH. intro Hin. apply H. now right.
Qed.

Lemma filter_assocN {A} k (v : A) : forall l, NoDup (map fst l) -> assocN k l = Some v ->
  filter (fun fe => fst fe =? k) l = [(k, v)].
Proof.
  induction l as [|[k' v'] l IH]; intros Hnd H; [discriminate H|]. cbn [assocN filter fst map] in *.
  inversion Hnd as [|? ? Hni Hnd']. subst. rewrite (N.eqb_sym k' k).
  destruct (N.eqb_spec k k') as [->|_].
  - injection H as ->. now rewrite (filter_none k' l Hni).
  - now apply IH.
Qed.

Lemma struct_exprs_in fields : forall def es, struct_exprs fields def = Some es ->
  forall e, In e es -> exists k, In (k, e) fields.
Proof.
  induction def as [|[fname fty] r IH]; intros es H e Hin; cbn [struct_exprs] in H.
  - injection H as <-. destruct Hin.
  - destruct (assocN fname fields) as [fe|] eqn:Ef; [|discriminate H].
    destruct (struct_exprs fields r) as [es'|] eqn:Er; [|discriminate H]. injection H as <-.
    destruct Hin as [<-|Hin]; [exists fname; now apply assocN_in|now apply (IH es')].
Qed.

Lemma struct_lit_wt (G : expr -> bool) fields : NoDup (map fst fields) -> forall def es,
  struct_exprs fields def = Some es -> forallb G es = true -> map e_ty es = map snd def ->
  forallb (fun d : N * ty => match filter (fun fe : N * expr => fst fe =? fst d) fields with
                    | [(_, fe)] => ty_eqb (e_ty fe) (snd d) && G fe
                    | _ => false
                    end) def = true.
Proof.
  intro Hnd. induction def as [|[fname fty] r IH]; intros es H HG Ht; cbn [struct_exprs] in H; [reflexivity|].
  destruct (assocN fname fields) as [fe|] eqn:Ef; [|discriminate H].
  destruct (struct_exprs fields r) as [es'|] eqn:Er; [|discriminate H]. injection H as <-.
  cbn [forallb map fst snd] in *. apply andb_prop in HG. destruct HG as [HG1 HG2]. injection Ht as Ht1 Ht2.
  rewrite (filter_assocN fname fe fields Hnd Ef), Ht1, ty_eqb_refl, HG1. cbn [andb]. now apply (IH es').
Qed.

(* ------------------------------------------------------------------ operators *)

Lemma scf2_op_wt o x y m t : scf2_op o x y m t = true ->
  match o with
  | OAdd | OSub | OMul | ODiv | OMod => is_int t && ty_eqb (e_ty x) t && ty_eqb (e_ty y) t
  | OBitAnd | OBitXor | OBitOr => (is_int t || is_bool t) && ty_eqb (e_ty x) t && ty_eqb (e_ty y) t
  | OGt | OLt => is_bool t && is_int (e_ty x) && ty_eqb (e_ty x) (e_ty y)
  | OEq | ONe => is_bool t && ty_eqb (e_ty x) (e_ty y)
  | OShl | OShr => is_int t && ty_eqb (e_ty x) t && ty_eqb (e_ty y) (TInt false 8)
  | OLAnd | OLOr => is_bool t && is_bool (e_ty x) && is_bool (e_ty y)
  end = true.
Proof.
  intro H. unfold scf2_op in H. apply orb_prop in H. destruct H as [H|H]; [now apply sc_op_wt|].
  destruct o; try discriminate H.
  - destruct t as [|sg b| | | |]; try discriminate H.
    apply andb_prop in H. destruct H as [H _]. apply andb_prop in H. destruct H as [H1 H2].
    apply sty_eqb_eq in H1. apply sty_eqb_eq in H2. rewrite H1, H2. cbn [is_int andb]. now rewrite ty_eqb_refl.
  - destruct t; try discriminate H. apply ty_beq_eq in H. rewrite H. cbn [is_bool andb]. apply ty_eqb_refl.
  - destruct t; try discriminate H. apply ty_beq_eq in H. rewrite H. cbn [is_bool andb]. apply ty_eqb_refl.
Qed.

(* ------------------------------------------------------------------ the main implication *)

Section MainWt.
  Variable P : program.

  Definition WtE (fw n : nat) : Prop :=
    forall g e, scf2_expr fw P g e = true -> wtx_expr P e = true -> wt_expr n P g e = true.
  Definition WtB (fw n : nat) : Prop :=
    forall g b t, scf2_block fw P g b = Some t -> forallb (wtx_stmt P) b = true -> wt_block n P g b = Some t.
  Definition WtS (fw n : nat) : Prop :=
    forall g s r, scf2_stmt fw P g s = Some r -> wtx_stmt P s = true -> wt_stmt n P g s = Some r.

  Ltac tyeq :=
    repeat match goal with
    | H : ty_beq _ _ = true |- _ => apply ty_beq_eq in H
    end.

  Ltac fimp Hx :=
    match goal with
    | Hf : forallb _ ?l = true |- forallb _ ?l = true =>
        tryif constr_eq Hf Hx then fail else (eapply forallb_impl2; [|exact Hf|exact Hx])
    end.

  Lemma wt_expr_step f n : WtE f n -> WtB f n -> WtE (S f) (S n).
  Proof.
    intros IHe IHb g [ei m t] H Hx. cbn [scf2_expr] in H. cbn [wtx_expr] in Hx. cbn [wt_expr].
    destruct ei as [| |nu lb|z lb|name|es|e1 nr|a i|es|e1 i|e1 fld|name fields|ename variant args|s arms|e1|e1|o x y|b|fn args|jt ha a b|c a b|to e1|lo hi bits].
    - (* true *) apply ty_beq_eq in H. now subst t.
    - apply ty_beq_eq in H. now subst t.
    - destruct t; try discriminate H. exact H.
    - destruct t; try discriminate H. exact H.
    - destruct (tlookup g name) as [[tx mu]|]; [|discriminate H]. now apply ty_beq_ty_eqb.
    - (* array literal *)
      destruct t as [| |el nn| | |]; try discriminate H. bsplit. rewrite H. cbn [andb].
      fimp Hx. intros a Ha Hxa. cbn beta in Ha. bsplit.
      rewrite (ty_beq_ty_eqb _ _ ltac:(eassumption)). now rewrite IHe.
    - (* array repeat *)
      destruct t as [| |el nn| | |]; try discriminate H. bsplit.
      rewrite H, (ty_beq_ty_eqb _ _ ltac:(eassumption)). now rewrite IHe.
    - (* index *)
      destruct (e_ty a) as [| |el nn| | |]; try discriminate H.
      destruct (e_ty i) as [|[] b| | | |] eqn:Ei; try discriminate H. bsplit.
      rewrite (ty_beq_ty_eqb _ _ ltac:(eassumption)). cbn [is_unsigned andb]. rewrite !IHe by assumption. reflexivity.
    - (* tuple literal *)
      bsplit. tyeq. subst t. apply (forallb2_refl_map e_ty). fimp Hx.
      intros a Ha Hxa. now apply IHe.
    - (* tuple access *)
      destruct (e_ty e1) as [| | |ts| |]; try discriminate H. destruct (nthN ts i) as [ti|]; [|discriminate H].
      bsplit. rewrite (ty_beq_ty_eqb _ _ ltac:(eassumption)). now rewrite IHe.
    - (* field *)
      destruct (e_ty e1) as [| | | |sname|]; try discriminate H.
      destruct (assocN sname (p_structs P)) as [def|]; [|discriminate H].
      destruct (Sem.index_of fld (map fst def) 0) as [k|] eqn:Ek; [|discriminate H].
      destruct (nthN (map snd def) k) as [tk|] eqn:En; [|discriminate H]. bsplit.
      rewrite (index_of_assocN0 fld def k tk Ek En), (ty_beq_ty_eqb _ _ ltac:(eassumption)). now rewrite IHe.
    - (* struct literal *)
      destruct (assocN name (p_structs P)) as [def|]; [|discriminate H]. bsplit.
      match goal with Hs : match struct_exprs fields def with _ => _ end = true |- _ =>
        destruct (struct_exprs fields def) as [es|] eqn:Es; [|discriminate Hs]; apply andb_prop in Hs;
        destruct Hs as [Hes Hts] end.
      tyeq. subst t. rewrite N.eqb_refl. cbn [andb].
      match goal with Hl : (lenN fields =? lenN def) = true |- _ => rewrite Hl end. cbn [andb].
      assert (Hnd : NoDup (map fst fields)) by (apply nodupN_NoDup; assumption).
      apply (struct_lit_wt (wt_expr n P g) fields Hnd def es Es); [|congruence].
      + rewrite forallb_forall. intros e Hin. rewrite forallb_forall in Hes.
        destruct (struct_exprs_in fields def es Es e Hin) as [k Hk]. apply IHe; [now apply Hes|].
        match goal with Hw : forallb _ fields = true |- _ => rewrite forallb_forall in Hw; exact (Hw _ Hk) end.
    - (* enum literal *)
      destruct (assocN ename (p_enums P)) as [variants|]; [|discriminate H].
      destruct (nthN variants variant) as [ts|]; [|discriminate H]. bsplit. tyeq. subst t.
      rewrite N.eqb_refl. cbn [andb].
      match goal with He : TTup _ = TTup ts |- _ => injection He as <- end.
      apply (forallb2_refl_map e_ty). fimp Hx. intros a Ha Hxa. now apply IHe.
    - (* match *)
      apply andb_prop in Hx. destruct Hx as [Hxs Hxr]. bsplit. rewrite IHe by assumption. cbn [andb].
      fimp Hxr. intros [p b] Ha Hxa. cbn [fst snd] in *.
      destruct (gpat_b P false p (e_ty s)) as [bs|] eqn:Ep; [|discriminate Ha]. bsplit.
      rewrite (gpat_b_ty P _ _ _ _ Ep), ty_eqb_refl, (ty_beq_ty_eqb _ _ ltac:(eassumption)).
      rewrite (gpat_b_wt P false p _ bs Ep) by assumption. cbn [andb]. now apply IHe.
    - (* neg *)
      destruct t as [|[] b| | | |]; try discriminate H. bsplit.
      rewrite (ty_beq_ty_eqb _ _ ltac:(eassumption)). cbn [is_signed_int andb]. now apply IHe.
    - (* not *)
      bsplit. rewrite (ty_beq_ty_eqb _ _ ltac:(eassumption)), IHe by assumption.
      destruct t; try discriminate; reflexivity.
    - (* operators *)
      bsplit. rewrite !IHe by assumption. cbn [andb]. eapply scf2_op_wt. eassumption.
    - (* block *)
      destruct (scf2_block f P ([] :: g) b) as [tb|] eqn:Eb; [|discriminate H].
      rewrite (IHb _ _ _ Eb Hx). now apply ty_beq_ty_eqb.
    - (* call *)
      destruct (find_fn P fn) as [d|]; [|discriminate H]. bsplit.
      rewrite (ty_beq_ty_eqb _ _ ltac:(eassumption)). cbn [andb].
      eapply forallb2_impl2; [|eassumption|exact Hx]. intros a p Ha Hxa. cbn beta in Ha. bsplit.
      rewrite (ty_beq_ty_eqb _ _ ltac:(eassumption)). now rewrite IHe.
    - discriminate H.
    - (* if *)
      bsplit. tyeq.
      repeat match goal with He : e_ty _ = _ |- _ => rewrite He end.
      rewrite ty_eqb_refl, !IHe by assumption. reflexivity.
    - (* cast *)
      bsplit. rewrite (ty_beq_ty_eqb _ _ ltac:(eassumption)), IHe by assumption.
      rewrite !scalar_int_or_bool by assumption. reflexivity.
    - (* range *)
      bsplit. rewrite Hx. now rewrite (ty_beq_ty_eqb _ _ ltac:(eassumption)).
  Qed.
  Lemma wt_block_step f n : WtS f n -> WtB (S f) (S n).
  Proof.
    intros IHs g b t. cbn [scf2_block wt_block]. generalize unit_ty. revert g.
    induction b as [|s r IH]; intros g last H Hx; [exact H|].
    cbn [forallb] in Hx. apply andb_prop in Hx. destruct Hx as [Hx1 Hx2].
    destruct (scf2_stmt f P g s) as [[g' t']|] eqn:Es; [|discriminate H].
    rewrite (IHs _ _ _ Es Hx1). now apply IH.
  Qed.

  Lemma wt_stmt_step f n : WtE f n -> WtB f n -> WtS (S f) (S n).
  Proof.
    intros IHe IHb g [si m] r H Hx. cbn [scf2_stmt] in H. cbn [wtx_stmt] in Hx. cbn [wt_stmt].
    destruct si as [p e|x e|x accs e|p arr body|p jt a b body|e].
    - (* let *)
      apply andb_prop in Hx. destruct Hx as [Hxp Hxe].
      destruct (scf2_expr f P g e) eqn:Ee; [|discriminate H].
      destruct (gpat_b P true p (e_ty e)) as [bs|] eqn:Ep; [|discriminate H].
      rewrite (IHe _ _ Ee Hxe), (gpat_b_ty P _ _ _ _ Ep), ty_eqb_refl. cbn [andb].
      now rewrite (gpat_b_wt P true p _ bs Ep Hxp).
    - (* let mut *)
      destruct (scf2_expr f P g e) eqn:Ee; [|discriminate H]. now rewrite (IHe _ _ Ee Hx).
    - (* assignment *)
      apply andb_prop in Hx. destruct Hx as [Hxa Hxe].
      destruct (tlookup g x) as [[tx []]|]; try discriminate H.
      destruct (scf2_expr f P g e) eqn:Ee; [|discriminate H]. pose proof (IHe _ _ Ee Hxe) as Hwe.
      revert Hxa H. generalize tx. induction accs as [|ac accs IH]; intros cur Hxa H.
      + destruct (ty_beq cur (e_ty e)) eqn:Et; [|discriminate H]. now rewrite (ty_beq_ty_eqb _ _ Et), Hwe.
      + cbn [forallb] in Hxa. apply andb_prop in Hxa. destruct Hxa as [Hx1 Hx2].
        destruct ac as [aty ie|tty i|sty fld].
        * destruct cur as [| |el nn| | |]; try discriminate H.
          destruct (e_ty ie) as [|[] bb| | | |] eqn:Ei; try discriminate H.
          match type of H with match (if ?c then _ else _) with _ => _ end = _ => destruct c eqn:Ec end; [|discriminate H].
          bsplit. rewrite (ty_beq_ty_eqb _ _ ltac:(eassumption)), IHe by assumption. cbn [is_unsigned andb].
          now apply IH.
        * destruct cur as [| | |ts| |]; try discriminate H.
          destruct (ty_beq tty (TTup ts)) eqn:Et; [|discriminate H]. rewrite (ty_beq_ty_eqb _ _ Et).
          destruct (nthN ts i) as [ti|]; [|discriminate H]. now apply IH.
        * destruct cur as [| | | |name|]; try discriminate H.
          destruct (ty_beq sty (TStruct name)) eqn:Et; [|discriminate H]. rewrite (ty_beq_ty_eqb _ _ Et).
          destruct (assocN name (p_structs P)) as [def|]; [|discriminate H].
          destruct (Sem.index_of fld (map fst def) 0) as [k|] eqn:Ek; [|discriminate H].
          destruct (nthN (map snd def) k) as [tk|] eqn:En; [|discriminate H].
          rewrite (index_of_assocN0 fld def k tk Ek En). now apply IH.
    - (* for *)
      apply andb_prop in Hx. destruct Hx as [Hx Hxb]. apply andb_prop in Hx. destruct Hx as [Hxp Hxa].
      destruct (e_ty arr) as [| |el nn| | |]; try discriminate H.
      destruct (scf2_expr f P g arr) eqn:Ea; [|discriminate H].
      destruct (gpat_b P true p el) as [bs|] eqn:Ep; [|discriminate H].
      destruct (scf2_block f P (tbind_all ([] :: g) bs false) body) as [tb|] eqn:Eb; [|discriminate H].
      rewrite (IHe _ _ Ea Hxa), (gpat_b_ty P _ _ _ _ Ep), ty_eqb_refl. cbn [andb].
      rewrite (gpat_b_wt P true p _ bs Ep Hxp), (IHb _ _ _ Eb Hxb). exact H.
    - discriminate H.
    - destruct (scf2_expr f P g e) eqn:Ee; [|discriminate H]. now rewrite (IHe _ _ Ee Hx).
  Qed.

  (* [scf2_*] and [wtx_*] accept => [Wt.wt_*] accepts, with the same contexts and types, at every
     fuel that is at least the checker's *)
  Theorem scf2_wtx_implies_wt_le : forall fw n, (fw <= n)%nat -> WtE fw n /\ WtB fw n /\ WtS fw n.
  Proof.
    induction fw as [|f IH]; intros n Hle.
    - repeat split; intros g x; intros; discriminate.
    - destruct n as [|n]; [lia|]. destruct (IH n ltac:(lia)) as (IHe & IHb & IHs).
      split; [now apply wt_expr_step|]. split; [now apply wt_block_step|now apply wt_stmt_step].
  Qed.

  (* ... in particular with the SAME fuel *)
  Theorem scf2_wtx_implies_wt fw :
    (forall g e, scf2_expr fw P g e = true -> wtx_expr P e = true -> wt_expr fw P g e = true) /\
    (forall g b t, scf2_block fw P g b = Some t -> forallb (wtx_stmt P) b = true -> wt_block fw P g b = Some t) /\
    (forall g s r, scf2_stmt fw P g s = Some r -> wtx_stmt P s = true -> wt_stmt fw P g s = Some r).
  Proof. exact (scf2_wtx_implies_wt_le fw fw (le_n fw)). Qed.
End MainWt.
Print Assumptions scf2_wtx_implies_wt_le.
Print Assumptions scf2_wtx_implies_wt.

(* ------------------------------------------------------------------ programs *)

Definition wtx_fn (P : program) (d : fndef) : bool := forallb (wtx_stmt P) (fn_body d).
Definition wtx_fns (P : program) : bool := forallb (wtx_fn P) (p_fns P).

Lemma scf_const_wt P c : scf_const c = true -> is_lit (snd c) && wt_expr wt_fuel P [] (snd c) = true.
Proof.
  unfold scf_const. rewrite wt_fuel_S. destruct (snd c) as [ei m t]. destruct ei; try discriminate; cbn [is_lit wt_expr andb].
  - intro H. apply ty_beq_eq in H. now subst t.
  - intro H. apply ty_beq_eq in H. now subst t.
  - destruct t; try discriminate. intro H. apply andb_prop in H. tauto.
  - destruct t; try discriminate. intro H. apply andb_prop in H. tauto.
Qed.

(* the checker of the full fragment with calls and constants, run with a fuel that Wt.v also
   has, together with the extra checks: the re-checker accepts the program *)
Theorem in_full_fragment3_wt fw P : (fw <= wt_fuel)%nat ->
  in_full_fragment3 fw P = true -> wtx_fns P = true -> wt_program P = true.
Proof.
  intros Hle H Hx. unfold in_full_fragment3 in H. destruct (find_fn P (p_main P)) as [d0|]; [|discriminate H].
  apply andb_prop in H. destruct H as [H Hf]. apply andb_prop in H. destruct H as [_ Hc].
  unfold wt_program. apply andb_true_intro. split.
  - unfold scf_consts in Hc. eapply forallb_impl; [|exact Hc]. intros c _. apply scf_const_wt.
  - unfold scf2_fns in Hf. unfold wtx_fns in Hx. eapply forallb_impl2; [|exact Hf|exact Hx].
    intros d Hd Hxd. unfold scf2_fn in Hd. unfold wtx_fn in Hxd. unfold wt_fn. rewrite consts_tenv_scope.
    destruct (scf2_block fw P ([] :: tbind_all [[]; consts_scope P] (fn_params d) true) (fn_body d)) as [t|] eqn:Eb;
      [|discriminate Hd].
    destruct (scf2_wtx_implies_wt_le P fw wt_fuel Hle) as (_ & HB & _).
    rewrite (HB _ _ _ Eb Hxd). now apply ty_beq_ty_eqb.
Qed.
Print Assumptions in_full_fragment3_wt.

(* ------------------------------------------------------------------ no `Stuck` escape *)

From GV Require Import Compile.Fragment.

Lemma canonical_args_decode P : forall params args, canonical_args P params args = true ->
  exists vals, Sem.decode_args P params args = Some vals.
Proof.
  unfold canonical_args. induction params as [|[x t] pr IH]; intros [|a ar] H; cbn [forallb2] in H; try discriminate H.
  - exists []. reflexivity.
  - apply andb_prop in H. destruct H as [Ha Hr]. destruct (IH ar Hr) as [rest Er]. cbn [snd] in Ha.
    unfold canonical_arg in Ha. apply andb_prop in Ha. destruct Ha as [_ Ha]. cbn [Sem.decode_args].
    destruct (Sem.decode Sem.ty_fuel P t a) as [[v [|? ?]]|]; try discriminate Ha. rewrite Er. eauto.
Qed.

(* the declared result type of main is within the depth [encode] handles *)
Definition main_ret_fits (P : program) : bool :=
  match find_fn P (p_main P) with Some d => ty_fits_b P (fn_ret d) | None => false end.

(* a program accepted by Wt.v on inputs that decode: the run ends with a result, a panic, or
   out of fuel; the only other possibility is one of the pattern-match / join codes
   [stuck_allowed], outside [frag_program] *)
Theorem wt_run_main_cases P fuel args : wt_program P = true -> main_ret_fits P = true ->
  (exists d vals, find_fn P (p_main P) = Some d /\ Sem.decode_args P (fn_params d) args = Some vals) ->
  (exists bits l, Sem.run_main fuel P args = Sem.RunOk bits l) \/
  (exists r m, Sem.run_main fuel P args = Sem.RunPanic r m) \/
  Sem.run_main fuel P args = Sem.RunNoFuel \/
  (frag_program P = false /\ exists c, Sem.run_main fuel P args = Sem.RunStuck c /\ In c stuck_allowed).
Proof.
  intros Hwt Hfit (d & vals & Hfind & Hdec). unfold main_ret_fits in Hfit. rewrite Hfind in Hfit.
  pose proof (wt_main_values P d fuel vals Hwt Hfind (decode_args_ok P _ _ _ Hdec)) as H.
  unfold Sem.run_main. rewrite Hfind, Hdec.
  destruct (Sem.eval_consts fuel P) as [en0| | |]; try contradiction; [|right; right; left; reflexivity].
  destruct (Sem.exec_block fuel P _ (fn_body d)) as [[v en']|r m|c|].
  - destruct (encode_sizeof P _ _ Hfit H) as [bits [Hb _]]. rewrite Hb. left. eauto.
  - right. left. eauto.
  - right. right. right. destruct H as [Hin Hfr]. split; [exact Hfr|]. eauto.
  - right. right. left. reflexivity.
Qed.
Print Assumptions wt_run_main_cases.

(* the observations of a soundness theorem of a fragment, as a proposition *)
Definition agree_obs (P : program) (fuel : nat) (args : list (list bool)) (o : pobs) (outs : list bool) : Prop :=
  match Sem.run_main fuel P args with
  | Sem.RunOk bits _ => o = None /\ outs = bits
  | Sem.RunPanic r m => o = Some (preason_num (pr r), ploc32 (ploc_of m))
  | Sem.RunStuck _ | Sem.RunNoFuel => True
  end.

Lemma agree_obs_cases P fuel args o outs : wt_program P = true -> main_ret_fits P = true ->
  canonical_main_args P args = true -> agree_obs P fuel args o outs ->
  (exists bits l, Sem.run_main fuel P args = Sem.RunOk bits l /\ o = None /\ outs = bits) \/
  (exists r m, Sem.run_main fuel P args = Sem.RunPanic r m /\ o = Some (preason_num (pr r), ploc32 (ploc_of m))) \/
  Sem.run_main fuel P args = Sem.RunNoFuel \/
  (frag_program P = false /\ exists c, Sem.run_main fuel P args = Sem.RunStuck c /\ In c stuck_allowed).
Proof.
  intros Hwt Hfit Hcan Hobs. unfold canonical_main_args in Hcan.
  destruct (find_fn P (p_main P)) as [d|] eqn:Hfind; [|discriminate Hcan].
  destruct (canonical_args_decode P _ _ Hcan) as [vals Hdec].
  unfold agree_obs in Hobs.
  destruct (wt_run_main_cases P fuel args Hwt Hfit (ex_intro _ d (ex_intro _ vals (conj Hfind Hdec))))
    as [(bits & l & E)|[(r & m & E)|[E|E]]].
  - rewrite E in Hobs. left. destruct Hobs as [-> ->]. eauto.
  - rewrite E in Hobs. right. left. eauto.
  - right. right. left. exact E.
  - right. right. right. exact E.
Qed.

(* (b), for every covered program that Wt.v accepts: the bit-level semantics and Sem.v agree
   without the `Stuck => True` escape of [covered_program_sound] *)
Theorem covered_wt_program_agrees P fuel fw fT args o outs :
  covered_program fw P = true -> wt_program P = true -> main_ret_fits P = true ->
  canonical_main_args P args = true -> tsem_program fT P args = Ok (o, outs) ->
  (exists bits l, Sem.run_main fuel P args = Sem.RunOk bits l /\ o = None /\ outs = bits) \/
  (exists r m, Sem.run_main fuel P args = Sem.RunPanic r m /\ o = Some (preason_num (pr r), ploc32 (ploc_of m))) \/
  Sem.run_main fuel P args = Sem.RunNoFuel \/
  (frag_program P = false /\ exists c, Sem.run_main fuel P args = Sem.RunStuck c /\ In c stuck_allowed).
Proof.
  intros Hcov Hwt Hfit Hcan Hrun. apply agree_obs_cases; try assumption.
  exact (covered_program_sound P fuel fw fT args o outs Hcov Hcan Hrun).
Qed.
Print Assumptions covered_wt_program_agrees.

(* inside the total fragment of Lang/ValTy.v (every match has an irrefutable arm): never Stuck *)
Corollary covered_wt_program_agrees_frag P fuel fw fT args o outs :
  covered_program fw P = true -> wt_program P = true -> main_ret_fits P = true -> frag_program P = true ->
  canonical_main_args P args = true -> tsem_program fT P args = Ok (o, outs) ->
  (exists bits l, Sem.run_main fuel P args = Sem.RunOk bits l /\ o = None /\ outs = bits) \/
  (exists r m, Sem.run_main fuel P args = Sem.RunPanic r m /\ o = Some (preason_num (pr r), ploc32 (ploc_of m))) \/
  Sem.run_main fuel P args = Sem.RunNoFuel.
Proof.
  intros Hcov Hwt Hfit Hfr Hcan Hrun.
  destruct (covered_wt_program_agrees P fuel fw fT args o outs Hcov Hwt Hfit Hcan Hrun) as [H|[H|[H|[H _]]]]; auto.
  congruence.
Qed.
Print Assumptions covered_wt_program_agrees_frag.

(* the same from the two checkers of this development alone: [in_full_fragment3] (run with a
   fuel Wt.v also has) and [wtx_fns] *)
Definition wt_covered (fw : nat) (P : program) : bool :=
  in_full_fragment3 fw P && wtx_fns P && main_ret_fits P.

Theorem wt_covered_agrees P fuel fw fT args o outs : (fw <= wt_fuel)%nat ->
  wt_covered fw P = true -> canonical_main_args P args = true -> tsem_program fT P args = Ok (o, outs) ->
  wt_program P = true /\
  ((exists bits l, Sem.run_main fuel P args = Sem.RunOk bits l /\ o = None /\ outs = bits) \/
   (exists r m, Sem.run_main fuel P args = Sem.RunPanic r m /\ o = Some (preason_num (pr r), ploc32 (ploc_of m))) \/
   Sem.run_main fuel P args = Sem.RunNoFuel \/
   (frag_program P = false /\ exists c, Sem.run_main fuel P args = Sem.RunStuck c /\ In c stuck_allowed)).
Proof.
  intros Hle H Hcan Hrun. unfold wt_covered in H. apply andb_prop in H. destruct H as [H Hfit].
  apply andb_prop in H. destruct H as [H3 Hx]. pose proof (in_full_fragment3_wt fw P Hle H3 Hx) as Hwt.
  split; [exact Hwt|]. apply agree_obs_cases; try assumption.
  exact (in_full_fragment3_sound P fuel fw fT args o outs H3 Hcan Hrun).
Qed.
Print Assumptions wt_covered_agrees.

Corollary wt_covered_agrees_frag P fuel fw fT args o outs : (fw <= wt_fuel)%nat ->
  wt_covered fw P = true -> frag_program P = true ->
  canonical_main_args P args = true -> tsem_program fT P args = Ok (o, outs) ->
  (exists bits l, Sem.run_main fuel P args = Sem.RunOk bits l /\ o = None /\ outs = bits) \/
  (exists r m, Sem.run_main fuel P args = Sem.RunPanic r m /\ o = Some (preason_num (pr r), ploc32 (ploc_of m))) \/
  Sem.run_main fuel P args = Sem.RunNoFuel.
Proof.
  intros Hle H Hfr Hcan Hrun.
  destruct (wt_covered_agrees P fuel fw fT args o outs Hle H Hcan Hrun) as [_ [H1|[H1|[H1|[H1 _]]]]]; auto.
  congruence.
Qed.
Print Assumptions wt_covered_agrees_frag.

Lemma wt_fuel_400 : wt_fuel = 400%nat.
Proof. with_strategy transparent [wt_fuel] reflexivity. Qed.

(* ------------------------------------------------------------------ (c) what [scf2_*] accepts and
   Wt.v rejects: each of the three [wtx] checks is needed for the implication.  On two of the
   three the two semantics agree all the same (as [in_full_fragment3_sound] says they must);
   on the reversed range they DIFFER: Sem.v returns the empty array, the lowering crashes
   (so the soundness theorem, which speaks about [Ok] runs, is vacuous there). *)
Module WtxFindings.
  Definition mm (k : N) : meta := mkMeta k 1 k 9.
  Definition u8 := TInt false 8.
  Definition tpoint := TStruct 20.            (* struct Point { x: u8, y: u8 } *)
  Definition tshape := TEnum 30.              (* enum Shape { Dot, Line(u8) } *)
  Definition lit (n : N) (k : N) := Ex (ENumU n 8) (mm k) u8.
  Definition v (x : N) (t : ty) (k : N) := Ex (EId x) (mm k) t.
  Definition structs : list (N * list (N * ty)) := [(20, [(0, u8); (1, u8)])].
  Definition enums : list (N * list (list ty)) := [(30, [[]; [u8]])].

  (* 1. pub fn main() -> [u8; 0] { 5..3 }  (the type annotation is hi - lo in N, i.e. 0) *)
  Definition f1 := mkFn 11 [] (TArr u8 0) [St (SExpr (Ex (ERange 5 3 8) (mm 1) (TArr u8 0))) (mm 2)].
  Definition P1 := mkProgram structs enums [f1] [] 11.
  Example reversed_range_differs :
    in_full_fragment3 6 P1 = true /\ wtx_fns P1 = false /\ wt_program P1 = false /\
    canonical_main_args P1 [] = true /\
    Sem.run_main 8 P1 [] = Sem.RunOk [] false /\ tsem_program 8 P1 [] = Crash.
  Proof. vm_compute. repeat split; reflexivity. Qed.

  (* 2. match s { Shape::Line => 1, _ => 0 } : a unit pattern for a variant with a payload *)
  Definition f2 := mkFn 11 [(2, tshape)] u8
    [St (SExpr (Ex (EMatch (v 2 tshape 1)
          [(Pat (PEnumUnit 30 1) (mm 2) tshape, lit 1 3); (Pat (PId 9) (mm 4) tshape, lit 0 5)]) (mm 6) u8)) (mm 7)].
  Definition P2 := mkProgram structs enums [f2] [] 11.
  Example unit_pattern_on_payload_variant :
    in_full_fragment3 6 P2 = true /\ wtx_fns P2 = false /\ wt_program P2 = false /\
    Sem.run_main 8 P2 [true :: enc 8 7] = Sem.RunOk (enc 8 1) false /\
    tsem_program 8 P2 [true :: enc 8 7] = Ok (None, enc 8 1).
  Proof. vm_compute. repeat split; reflexivity. Qed.

  (* 3. Point { x: a, y: a, z: a + 200 } : a field the definition does not have; neither
     semantics evaluates it (no Overflow at a = 100) *)
  Definition f3 := mkFn 11 [(1, u8)] tpoint
    [St (SExpr (Ex (EStructLit 20 [(0, v 1 u8 1); (1, v 1 u8 2);
                                   (2, Ex (EOp OAdd (v 1 u8 3) (lit 200 4)) (mm 5) u8)]) (mm 6) tpoint)) (mm 7)].
  Definition P3 := mkProgram structs enums [f3] [] 11.
  Example extra_struct_field :
    in_full_fragment3 6 P3 = true /\ wtx_fns P3 = false /\ wt_program P3 = false /\
    Sem.run_main 8 P3 [enc 8 100] = Sem.RunOk (enc 8 100 ++ enc 8 100) false /\
    tsem_program 8 P3 [enc 8 100] = Ok (None, enc 8 100 ++ enc 8 100).
  Proof. vm_compute. repeat split; reflexivity. Qed.

  (* 4. the premise fw <= wt_fuel of [in_full_fragment3_wt] is needed: Wt.v runs with the fixed
     fuel 400 and rejects deeper trees, whatever they are: !!...!true, 450 deep *)
  Definition deep : expr := Nat.iter 450 (fun e => Ex (ENot e) (mm 1) TBool) (Ex ETrue (mm 1) TBool).
  Definition P4 := mkProgram [] [] [mkFn 11 [] TBool [St (SExpr deep) (mm 2)]] [] 11.
  Example deeper_than_wt_fuel :
    in_full_fragment3 500 P4 = true /\ wtx_fns P4 = true /\ wt_program P4 = false.
  Proof. vm_compute. repeat split; reflexivity. Qed.
End WtxFindings.

(* the example program of TSemSemFullCall.v passes all the checks *)
Module SanityWt.
  Import SanityFullCall.
  Example accepted : wt_covered 14 P0 = true.
  Proof. vm_compute. reflexivity. Qed.

  Example le : (14 <= wt_fuel)%nat.
  Proof. rewrite wt_fuel_400. lia. Qed.

  Example wt_accepts : wt_program P0 = true.
  Proof.
    pose proof accepted as H. unfold wt_covered in H. apply andb_prop in H. destruct H as [H _].
    apply andb_prop in H. destruct H as [H3 Hx]. exact (in_full_fragment3_wt 14 P0 le H3 Hx).
  Qed.

  (* its match lists the variants (no irrefutable arm): outside [frag_program], the last disjunct stays *)
  Example not_frag : frag_program P0 = false.
  Proof. vm_compute. reflexivity. Qed.
End SanityWt.
