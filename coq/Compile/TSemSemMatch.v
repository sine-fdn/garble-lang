(* `match` on a scalar scrutinee with scalar patterns (identifier, true / false,
   number literals, inclusive ranges), arm bodies in the fragment with effects.

   Bit level: ALL arms are run, each from the entry environment and the entry panic state; the
   results are merged by "this arm is the first match" ([lower_arms]).  Sem.v: the first arm
   whose pattern matches.  Part 1 (Section Match2) is for an arbitrary value relation VR, with
   a per-pattern hypothesis [PatOK] (the match bit is the verdict of [Sem.pmatch], the
   bindings are related) that Part 2 discharges for the scalar patterns. *)
From Coq Require Import Lia ZArith.
From GV Require Import Base.Util Base.Bits Base.BitsProofs Lang.Ast Lang.Wt Lang.WtShape Gadgets.Gadgets
  Gadgets.GadgetSpec Gadgets.Arith Panic.PanicRec Panic.PanicSem Compile.Lower
  Compile.TSem Compile.TSemFacts Compile.TSemArith1 Compile.TSemArith2 Compile.TSemControl
  Compile.TSemSemExpr Compile.TSemSticky Compile.TSemSemStmt Compile.TSemSemCall.
From GV Require Lang.Sem.
Local Open Scope N_scope.

Lemma map2_mux_inv s : forall (xs ys : list bool) (o : pobs) r o',
  map2_M (fun x0 x1 => m_mux tops s x0 x1) xs ys o = Ok (r, o') ->
  length xs = length ys /\ r = (if s then xs else ys) /\ o' = o.
Proof.
  induction xs as [|x xs IH]; intros [|y ys] o r o' H; cbn [map2_M] in H; try discriminate H.
  - apply ret_inv in H. destruct H as [-> ->]. now destruct s.
  - minva H as w o1 H1. cbn in H1. injection H1 as <- <-. minva H as ws o2 H2.
    destruct (IH ys _ _ _ H2) as (Hl & -> & ->). apply ret_inv in H. destruct H as [-> ->].
    cbn [length]. split; [congruence|]. now destruct s.
Qed.

Section Match2.
  Variable P : program.
  Variable VR : ty -> Sem.value -> list bool -> Prop.
  Hypothesis VR_bool : forall v w, VR TBool v w -> exists b, v = Sem.VBool b /\ w = [b].
  Hypothesis VR_unit : VR unit_ty Sem.unit_val [].
  Hypothesis VR_szn : forall t v w, VR t v w -> length w = szn P t.

  Notation relP := (relP VR).
  Notation AgE2 := (AgE2 P VR).

  (* the loop of [Sem.eval] over the arms *)
  Fixpoint sem_arms (f : nat) (v : Sem.value) (en : Sem.env) (arms : list (pattern * expr))
    : Sem.outcome (Sem.value * Sem.env) :=
    match arms with
    | [] => Sem.Stuck 41
    | (p, body) :: r =>
        match Sem.pmatch P p v with
        | Some bs =>
            Sem.obind (Sem.eval f P (Sem.bind_all (Sem.push_scope en) bs) body)
                      (fun '(res, en1) => Sem.Done (res, Sem.pop_scope en1))
        | None => sem_arms f v en r
        end
    end.

  Lemma sem_eval_match f en scrut arms m t :
    Sem.eval (S f) P en (Ex (EMatch scrut arms) m t) =
    Sem.obind (Sem.eval f P en scrut) (fun '(v, en1) => sem_arms f v en1 arms).
  Proof.
    cbn [Sem.eval]. destruct (Sem.eval f P en scrut) as [[v en1]|r1 m1|c1|]; cbn [Sem.obind]; try reflexivity.
    induction arms as [|[p body] r IH]; [reflexivity|]. cbn [sem_arms].
    destruct (Sem.pmatch P p v); [reflexivity|exact IH].
  Qed.

  (* a pattern: the observation is not touched, only the innermost scope may change *)
  Definition PatK (p : pattern) : Prop :=
    forall fT sw E (o : pobs) im E1 o1,
    lower_pattern tops fT P p sw E o = Ok ((im, E1), o1) -> o1 = o /\ SKP E E1.

  (* ... its match bit is the verdict of [Sem.pmatch], and its bindings are related;
     [ts]: the type of the scrutinee, [tbs]: the typed bindings of the pattern *)
  Definition PatOK (g : tenv) (ts : ty) (p : pattern) (tbs : list (N * ty)) : Prop :=
    forall ph en E0 v sw fT (o : pobs) im E1 o1,
    relP ph en E0 g -> VR ts v sw ->
    lower_pattern tops fT P p sw (env_push E0) o = Ok ((im, E1), o1) ->
    match Sem.pmatch P p v with
    | Some bs => im = true /\
                 relP (false :: ph) (Sem.bind_all (Sem.push_scope en) bs) E1 (tbind_all ([] :: g) tbs false)
    | None => im = false
    end.

  (* one arm of [lower_arms] *)
  Lemma arms_step_inv re rp bits sw E0 P0 pat body r hp mret mpanic menv (o : pobs) res o' :
    lower_arms tops re rp bits sw E0 P0 ((pat, body) :: r) hp mret mpanic menv o = Ok (res, o') ->
    exists im E1 o1 rw E2 o2 E3 menv1 oM,
      rp pat sw (env_push E0) P0 = Ok ((im, E1), o1) /\ re body E1 o1 = Ok ((rw, E2), o2) /\
      env_pop E2 = Ok E3 /\ mux_envs tops (negb hp && im) E3 menv o2 = Ok (menv1, oM) /\
      length (firstn bits rw) = length mret /\
      lower_arms tops re rp bits sw E0 P0 r (hp || im)
        (if negb hp && im then firstn bits rw else mret)
        (if negb hp && im then o2 else mpanic) menv1 oM = Ok (res, o').
  Proof.
    intro H. cbn [lower_arms] in H. mprim H.
    minva H as [im E1] o1 Hp. minva H as [rw E2] o2 Hb. mprim H. mprim H.
    minva H as E3 o3 Hpop. apply lift_res_inv in Hpop. destruct Hpop as [Hpop ->]. mprim H. mprim H.
    minva H as menv1 oM Hmux.
    minva H as mret1 o4 Hret.
    destruct (length rw <? bits)%nat; [discriminate Hret|].
    apply map2_mux_inv in Hret. destruct Hret as (Hl & -> & ->). mprim H.
    exists im, E1, o1, rw, E2, o2, E3, menv1, oM. repeat split; assumption.
  Qed.

  (* the keys facts of an arm, for the runs with fuel [fT] *)
  Definition ArmK (fT : nat) (arm : pattern * expr) : Prop :=
    PatK (fst arm) /\
    forall E (o : pobs) w E' o', lower_expr tops fT P (snd arm) E o = Ok ((w, E'), o') -> keys E' = keys E.

  Lemma arm_keys fT pat body : ArmK fT (pat, body) ->
    forall sw E0 (o : pobs) im E1 o1 rw E2 o2 E3,
    lower_pattern tops fT P pat sw (env_push E0) o = Ok ((im, E1), o1) ->
    lower_expr tops fT P body E1 o1 = Ok ((rw, E2), o2) -> env_pop E2 = Ok E3 ->
    o1 = o /\ keys E3 = keys E0.
  Proof.
    intros [HK HB] sw E0 o im E1 o1 rw E2 o2 E3 Hp Hb Hpop. cbn [fst snd] in *.
    destruct (HK _ _ _ _ _ _ _ Hp) as [-> [Hk1 _]]. split; [reflexivity|].
    pose proof (HB _ _ _ _ _ Hb) as Hk2.
    destruct E2 as [|s2 E2']; [discriminate Hpop|]. cbn [env_pop] in Hpop. injection Hpop as <-.
    assert (tl (keys (s2 :: E2')) = tl (keys E1)) as Ht by (now rewrite Hk2). rewrite Hk1 in Ht. exact Ht.
  Qed.

  (* the arms after the first match leave the accumulators unchanged *)
  Lemma arms_stable fT bits sw E0 P0 : forall arms, Forall (ArmK fT) arms ->
    forall mret mpanic menv (o : pobs) mret' mp' menv' hp' o',
    wf_env menv -> keys menv = keys E0 ->
    lower_arms tops (lower_expr tops fT P) (lower_pattern tops fT P) bits sw E0 P0 arms true mret mpanic menv o
      = Ok ((mret', mp', menv', hp'), o') ->
    mret' = mret /\ mp' = mpanic /\ menv' = menv.
  Proof.
    induction 1 as [|[pat body] r HA _ IH]; intros mret mpanic menv o mret' mp' menv' hp' o' Hwf Hk H.
    - cbn [lower_arms] in H. apply ret_inv in H. destruct H as [Heq _]. now injection Heq as -> -> ->.
    - apply arms_step_inv in H.
      destruct H as (im & E1 & o1 & rw & E2 & o2 & E3 & menv1 & oM & Hp & Hb & Hpop & Hmux & _ & Hrest).
      destruct (arm_keys _ _ _ HA _ _ _ _ _ _ _ _ _ _ Hp Hb Hpop) as [_ Hk3].
      cbn [negb andb] in *. apply mux_envs_inv in Hmux; [|congruence|exact Hwf]. destruct Hmux as [-> _].
      exact (IH _ _ _ _ _ _ _ _ _ Hwf Hk Hrest).
  Qed.

  (* what the arms need *)
  Definition ArmOK (f : nat) (g : tenv) (ts t : ty) (arm : pattern * expr) : Prop :=
    (forall fT, ArmK fT arm) /\ e_ty (snd arm) = t /\
    exists tbs, PatOK g ts (fst arm) tbs /\ AgE2 f (tbind_all ([] :: g) tbs false) (snd arm).

  Lemma arms_node f g ts t : forall arms, Forall (ArmOK f g ts t) arms ->
    forall ph en E0 v sw fT mret mpanic menv (o : pobs) mret' mp' menv' hp' o',
    relP ph en E0 g -> VR ts v sw -> wf_env menv -> keys menv = keys E0 ->
    lower_arms tops (lower_expr tops fT P) (lower_pattern tops fT P) (szn P t) sw E0 None arms false
      mret mpanic menv o = Ok ((mret', mp', menv', hp'), o') ->
    match sem_arms f v en arms with
    | Sem.Done (res, en') => mp' = None /\ VR t res mret' /\ relP ph en' menv' g
    | Sem.Panicked r m => mp' = Some (pcode r m)
    | _ => True
    end.
  Proof.
    induction 1 as [|[pat body] r (HA & Et & tbs & HP & HB) Hr IH];
      intros ph en E0 v sw fT mret mpanic menv o mret' mp' menv' hp' o' Hrel HV Hwf Hk H.
    - exact I.
    - cbn [fst snd] in *. apply arms_step_inv in H.
      destruct H as (im & E1 & o1 & rw & E2 & o2 & E3 & menv1 & oM & Hp & Hb & Hpop & Hmux & _ & Hrest).
      destruct (arm_keys _ _ _ (HA fT) _ _ _ _ _ _ _ _ _ _ Hp Hb Hpop) as [-> Hk3].
      pose proof (HP ph en E0 v sw fT None im E1 None Hrel HV Hp) as HPm. cbn [sem_arms]. revert HPm.
      destruct (Sem.pmatch P pat v) as [bs|]; intro HPm.
      + destruct HPm as [-> Hrel1]. cbn [negb andb orb] in *.
        assert (HKr : Forall (ArmK fT) r) by (eapply Forall_impl; [|exact Hr]; intros a Ha; exact (proj1 Ha fT)).
        pose proof (HB (false :: ph) _ E1 fT _ _ _ Hrel1 Hb) as IH1. revert IH1.
        destruct (Sem.eval f P (Sem.bind_all (Sem.push_scope en) bs) body) as [[res en1]|r1 m1|c1|];
          intro IH1; cbn [Sem.obind]; try exact I.
        * destruct IH1 as (-> & HVr & Hrel2). rewrite Et in HVr.
          pose proof (rel2_pop VR _ _ _ _ Hrel2 Hpop) as Hrel3.
          destruct (tbind_all_cons [] g tbs false) as [gs' Hg]. rewrite Hg in Hrel3. cbn [tl] in Hrel3.
          apply mux_envs_inv in Hmux; [|congruence|exact Hwf]. destruct Hmux as [-> _].
          destruct (arms_stable fT _ sw E0 None r HKr _ _ _ _ _ _ _ _ _ (rel2_wf VR _ _ _ Hrel3) Hk3 Hrest)
            as (-> & -> & ->).
          rewrite firstn_all2 by (rewrite (VR_szn _ _ _ HVr); lia). auto.
        * subst o2. apply mux_envs_inv in Hmux; [|congruence|exact Hwf]. destruct Hmux as [-> _].
          assert (wf_env E3) as Hwf3.
          { apply (wf_env_keys E0); [exact Hk3|]. exact (rel2_wf VR _ _ _ Hrel). }
          destruct (arms_stable fT _ sw E0 None r HKr _ _ _ _ _ _ _ _ _ Hwf3 Hk3 Hrest) as (_ & -> & _).
          reflexivity.
      + subst im. cbn [negb andb orb] in *.
        apply mux_envs_inv in Hmux; [|congruence|exact Hwf]. destruct Hmux as [-> _].
        exact (IH ph en E0 v sw fT _ _ _ _ _ _ _ _ _ Hrel HV Hwf Hk Hrest).
  Qed.

  Lemma match_node2 f g scrut arms m t ts :
    AgE2 f g scrut -> e_ty scrut = ts -> Forall (ArmOK f g ts t) arms ->
    AgE2 (S f) g (Ex (EMatch scrut arms) m t).
  Proof.
    intros IHs Ets Harms ph en E fT w E' o' Hrel Hrun.
    destruct fT as [|fT]; [discriminate Hrun|]. rewrite lower_expr_S in Hrun. cbn [lower_expr_body] in Hrun.
    minva Hrun as [sw E0] o0 Hs. mprim Hrun.
    minva Hrun as [[[rw mp] me] hpf] o1 Ha. mprim Hrun.
    apply ret_inv in Hrun. destruct Hrun as [Heq ->]. injection Heq as -> ->.
    rewrite sem_eval_match.
    pose proof (IHs ph en E fT _ _ _ Hrel Hs) as IH1. revert IH1.
    destruct (Sem.eval f P en scrut) as [[v en1]|r1 m1|c1|]; intro IH1; cbn [Sem.obind]; try exact I.
    - destruct IH1 as (-> & HV & Hrel1). rewrite Ets in HV.
      pose proof (arms_node f g ts t arms Harms ph en1 E0 v sw fT _ _ _ _ _ _ _ _ _ Hrel1 HV
                    (rel2_wf VR _ _ _ Hrel1) eq_refl Ha) as IH2.
      cbn [e_ty]. exact IH2.
    - subst o0. destruct (tsem_sticky_fuel (pcode r1 m1) P fT) as (He & _ & _ & Hp).
      destruct (stkxQ_lower_arms _ _ _ He Hp _ _ _ _ _ _ _ _ _ Ha) as [_ HQ]. cbn [fst snd] in HQ. exact HQ.
  Qed.
End Match2.

(* ------------------------------------------------------------------ PART 2: the scalar patterns *)

(* the bindings of a scalar pattern (as [Wt.wt_pat]), with the side conditions on literals *)
Definition sc_pat (p : pattern) : option (list (N * ty)) :=
  match p with
  | Pat pi _ t =>
    match pi with
    | PId x => Some [(x, t)]
    | PTrue | PFalse => if sty_eqb t TBool then Some [] else None
    | PNumU n => match t with TInt _ b => if ok_width b && lit_fits t (Z.of_N n) then Some [] else None | _ => None end
    | PNumS z => match t with TInt _ b => if ok_width b && lit_fits t z then Some [] else None | _ => None end
    | PURange lo hi =>
        match t with
        | TInt _ b => if ok_width b && lit_fits t (Z.of_N lo) && lit_fits t (Z.of_N hi) then Some [] else None
        | _ => None
        end
    | PSRange lo hi =>
        match t with
        | TInt _ b => if ok_width b && lit_fits t lo && lit_fits t hi then Some [] else None
        | _ => None
        end
    | _ => None
    end
  end.

Lemma sc_pat_wt P p tbs : sc_pat p = Some tbs -> wt_pat P p = Some tbs.
Proof.
  destruct p as [pi m t]. cbn [sc_pat wt_pat].
  destruct pi; try (intro H; discriminate H); try (intro H; exact H).
  - destruct t; try (intro H; discriminate H). destruct (ok_width bits); cbn [andb]; intro H; [exact H|discriminate H].
  - destruct t; try (intro H; discriminate H). destruct (ok_width bits); cbn [andb]; intro H; [exact H|discriminate H].
  - destruct t; try (intro H; discriminate H). destruct (ok_width bits); cbn [andb]; intro H; [exact H|discriminate H].
  - destruct t; try (intro H; discriminate H). destruct (ok_width bits); cbn [andb]; intro H; [exact H|discriminate H].
Qed.

Section ScalarPat.
  Variable P : program.

  (* the patterns that bind nothing: the run is determined *)
  Definition LitRun (ts : ty) (p : pattern) : Prop :=
    forall v sw fT (E : @cenv bool) (o : pobs), VRs ts v sw ->
    lower_pattern tops (S fT) P p sw E o = Ok ((pmatches P p v, E), o).

  Lemma lit_pat_OK g ts p : LitRun ts p -> (forall v bs, Sem.pmatch P p v = Some bs -> bs = []) ->
    PatOK P VRs g ts p [].
  Proof.
    intros HL Hbs ph en E0 v sw fT o im E1 o1 Hrel HV Hrun.
    destruct fT as [|fT]; [discriminate Hrun|]. rewrite (HL v sw fT _ o HV) in Hrun.
    injection Hrun as <- <- <-. unfold pmatches. destruct (Sem.pmatch P p v) as [bs|] eqn:Ep; [|reflexivity].
    rewrite (Hbs _ _ Ep). split; [reflexivity|]. exact (rel2_push VRs _ _ _ Hrel).
  Qed.

  Lemma sc_pat_PatOK g p tbs : sc_pat p = Some tbs -> scalar_ty (p_ty p) = true ->
    PatOK P VRs g (p_ty p) p tbs.
  Proof.
    destruct p as [pi m t]. cbn [sc_pat p_ty]. intros H Hs. destruct pi; try discriminate H.
    - (* identifier *)
      injection H as <-. intros ph en E0 v sw fT o im E1 o1 Hrel HV Hrun.
      destruct fT as [|fT]; [discriminate Hrun|]. rewrite lower_pattern_S in Hrun. cbn [lower_pattern_body] in Hrun.
      minva Hrun as E2 o2 Hl. apply lift_res_inv in Hl. destruct Hl as [Hl ->].
      apply ret_inv in Hrun. destruct Hrun as [Heq ->]. injection Heq as -> ->.
      cbn [Sem.pmatch]. split; [reflexivity|].
      exact (rel2_let VRs _ _ _ name t false v sw _ (rel2_push VRs _ _ _ Hrel) HV Hl).
    - (* true *)
      destruct (sty_eqb t TBool) eqn:E; [|discriminate H]. apply sty_eqb_eq in E. subst t. injection H as <-.
      apply lit_pat_OK.
      + intros v sw fT E o HV. destruct (VRs_bool _ _ HV) as (b & -> & ->).
        rewrite lower_pattern_S. apply tsem_pat_true.
      + intros v bs Hp. cbn [Sem.pmatch] in Hp. destruct v as [[]| | | |]; congruence.
    - (* false *)
      destruct (sty_eqb t TBool) eqn:E; [|discriminate H]. apply sty_eqb_eq in E. subst t. injection H as <-.
      apply lit_pat_OK.
      + intros v sw fT E o HV. destruct (VRs_bool _ _ HV) as (b & -> & ->).
        rewrite lower_pattern_S. apply tsem_pat_false.
      + intros v bs Hp. cbn [Sem.pmatch] in Hp. destruct v as [[]| | | |]; congruence.
    - (* unsigned literal *)
      destruct t as [|sg b| | | |]; try discriminate H. destruct (ok_width b) eqn:Hb; [|discriminate H].
      cbn [andb] in H. destruct (lit_fits (TInt sg b) (Z.of_N n)) eqn:Hf; [|discriminate H]. injection H as <-.
      rewrite lit_fits_in_range in Hf. apply lit_pat_OK.
      + intros v sw fT E o HV. destruct (VRs_scalar (TInt sg b) _ _ Hb HV) as [Hok ->].
        destruct v as [|z| | |]; try contradiction. cbn [val_ok enc_val] in *.
        rewrite lower_pattern_S, tsem_pat_numU_pmatch.
        * rewrite is_signed_int, int_val_enc by (now rewrite N2Nat.id). reflexivity.
        * apply length_enc.
        * rewrite is_signed_int. change (szn P (TInt sg b)) with (N.to_nat b). now rewrite N2Nat.id.
      + intros v bs Hp. cbn [Sem.pmatch] in Hp. destruct v; try discriminate Hp.
        destruct (z =? Z.of_N n)%Z; congruence.
    - (* signed literal *)
      destruct t as [|sg b| | | |]; try discriminate H. destruct (ok_width b) eqn:Hb; [|discriminate H].
      cbn [andb] in H. destruct (lit_fits (TInt sg b) z) eqn:Hf; [|discriminate H]. injection H as <-.
      rewrite lit_fits_in_range in Hf. apply lit_pat_OK.
      + intros v sw fT E o HV. destruct (VRs_scalar (TInt sg b) _ _ Hb HV) as [Hok ->].
        destruct v as [|z0| | |]; try contradiction. cbn [val_ok enc_val] in *.
        rewrite lower_pattern_S, tsem_pat_numS_pmatch.
        * rewrite is_signed_int, int_val_enc by (now rewrite N2Nat.id). reflexivity.
        * apply length_enc.
        * rewrite is_signed_int. change (szn P (TInt sg b)) with (N.to_nat b). now rewrite N2Nat.id.
      + intros v bs Hp. cbn [Sem.pmatch] in Hp. destruct v; try discriminate Hp.
        destruct (z0 =? z)%Z; congruence.
    - (* unsigned range *)
      destruct t as [|sg b| | | |]; try discriminate H. destruct (ok_width b) eqn:Hb; [|discriminate H].
      cbn [andb] in H. destruct (lit_fits (TInt sg b) (Z.of_N lo)) eqn:Hf1; [|discriminate H].
      destruct (lit_fits (TInt sg b) (Z.of_N hi)) eqn:Hf2; [|discriminate H]. injection H as <-.
      rewrite lit_fits_in_range in Hf1, Hf2. apply lit_pat_OK.
      + intros v sw fT E o HV. destruct (VRs_scalar (TInt sg b) _ _ Hb HV) as [Hok ->].
        destruct v as [|z| | |]; try contradiction. cbn [val_ok enc_val] in *.
        rewrite lower_pattern_S, tsem_pat_urange_pmatch.
        * rewrite is_signed_int, int_val_enc by (now rewrite N2Nat.id). reflexivity.
        * apply length_enc.
        * rewrite is_signed_int. change (szn P (TInt sg b)) with (N.to_nat b). now rewrite N2Nat.id.
        * rewrite is_signed_int. change (szn P (TInt sg b)) with (N.to_nat b). now rewrite N2Nat.id.
      + intros v bs Hp. cbn [Sem.pmatch] in Hp. destruct v; try discriminate Hp.
        destruct ((Z.of_N lo <=? z) && (z <=? Z.of_N hi))%Z; congruence.
    - (* signed range *)
      destruct t as [|sg b| | | |]; try discriminate H. destruct (ok_width b) eqn:Hb; [|discriminate H].
      cbn [andb] in H. destruct (lit_fits (TInt sg b) lo) eqn:Hf1; [|discriminate H].
      destruct (lit_fits (TInt sg b) hi) eqn:Hf2; [|discriminate H]. injection H as <-.
      rewrite lit_fits_in_range in Hf1, Hf2. apply lit_pat_OK.
      + intros v sw fT E o HV. destruct (VRs_scalar (TInt sg b) _ _ Hb HV) as [Hok ->].
        destruct v as [|z| | |]; try contradiction. cbn [val_ok enc_val] in *.
        rewrite lower_pattern_S, tsem_pat_srange_pmatch.
        * rewrite is_signed_int, int_val_enc by (now rewrite N2Nat.id). reflexivity.
        * apply length_enc.
        * rewrite is_signed_int. change (szn P (TInt sg b)) with (N.to_nat b). now rewrite N2Nat.id.
        * rewrite is_signed_int. change (szn P (TInt sg b)) with (N.to_nat b). now rewrite N2Nat.id.
      + intros v bs Hp. cbn [Sem.pmatch] in Hp. destruct v; try discriminate Hp.
        destruct ((lo <=? z) && (z <=? hi))%Z; congruence.
  Qed.
End ScalarPat.

Lemma sc_pat_PatK P p tbs : sc_pat p = Some tbs -> PatK P p.
Proof.
  destruct p as [pi m t]. intros Hsc fT sw E o im E1 o1 H.
  destruct fT as [|fT]; [discriminate H|]. rewrite lower_pattern_S in H.
  destruct pi; try discriminate Hsc; cbn [lower_pattern_body] in H.
  - minva H as E2 o2 Hl. apply lift_res_inv in Hl. destruct Hl as [Hl ->].
    apply ret_inv in H. destruct H as [Heq ->]. injection Heq as _ ->. split; [reflexivity|].
    exact (env_let_keys _ _ _ _ Hl).
  - minva H as w o2 Hw. apply one_wire_inv in Hw. destruct Hw as [_ ->].
    apply ret_inv in H. destruct H as [Heq ->]. injection Heq as _ ->. split; [reflexivity|now apply SKP_of_keys].
  - minva H as w o2 Hw. apply one_wire_inv in Hw. destruct Hw as [_ ->]. mprim H.
    apply ret_inv in H. destruct H as [Heq ->]. injection Heq as _ ->. split; [reflexivity|now apply SKP_of_keys].
  - destruct (length sw <? szn P t)%nat; [discriminate H|]. minva H as acc o2 Ha. rewrite eq_acc_tops in Ha.
    injection Ha as _ <-. apply ret_inv in H. destruct H as [Heq ->]. injection Heq as _ ->.
    split; [reflexivity|now apply SKP_of_keys].
  - destruct (length sw <? szn P t)%nat; [discriminate H|]. minva H as acc o2 Ha. rewrite eq_acc_tops in Ha.
    injection Ha as _ <-. apply ret_inv in H. destruct H as [Heq ->]. injection Heq as _ ->.
    split; [reflexivity|now apply SKP_of_keys].
  - minva H as [lt1 gt1] o2 H1. apply pure_comparator in H1. subst o2.
    minva H as [lt2 gt2] o3 H2. apply pure_comparator in H2. subst o3. mprim H. mprim H. mprim H.
    apply ret_inv in H. destruct H as [Heq ->]. injection Heq as _ ->. split; [reflexivity|now apply SKP_of_keys].
  - minva H as [lt1 gt1] o2 H1. apply pure_comparator in H1. subst o2.
    minva H as [lt2 gt2] o3 H2. apply pure_comparator in H2. subst o3. mprim H. mprim H. mprim H.
    apply ret_inv in H. destruct H as [Heq ->]. injection Heq as _ ->. split; [reflexivity|now apply SKP_of_keys].
Qed.

(* ------------------------------------------------------------------ the fragment with match *)

Lemma VRs_szn P t v w : VRs t v w -> length w = szn P t.
Proof.
  intros [(Hs & Hv & ->)|(-> & _ & ->)]; [|reflexivity].
  rewrite (length_enc_val _ _ Hs Hv). symmetry. now apply szn_tw.
Qed.

Lemma G2_tbind_all g bs mu : G2 g -> G2 (tbind_all ([] :: g) bs mu).
Proof.
  intros [Hl Hla]. destruct (tbind_all_cons [] g bs mu) as [gs' ->]. split; [cbn [length]; lia|].
  destruct g; [cbn in Hl; lia|exact Hla].
Qed.

(* ------------------------------------------------------------------ the fragment with calls and match *)

Fixpoint imp3_expr (e : expr) : bool :=
  match e with
  | Ex ei _ _ =>
    match ei with
    | ETrue | EFalse | ENumU _ _ | ENumS _ _ | EId _ => true
    | ENeg e1 | ENot e1 | ECast _ e1 => imp3_expr e1
    | EOp o x y =>
        imp3_expr x && imp3_expr y &&
        match o with OMul => negb (is_num_lit x) && negb (is_num_lit y) | _ => true end
    | EIf c a b => imp3_expr c && imp3_expr a && imp3_expr b
    | EBlock b => forallb imp3_stmt b
    | ECall _ args => forallb imp3_expr args
    | EMatch s arms =>
        imp3_expr s &&
        forallb (fun arm => match sc_pat (fst arm) with Some _ => true | None => false end && imp3_expr (snd arm)) arms
    | _ => false
    end
  end
with imp3_stmt (s : stmt) : bool :=
  match s with
  | St si _ =>
    match si with
    | SLet (Pat (PId _) _ _) e => imp3_expr e
    | SLetMut _ e => imp3_expr e
    | SAssign _ [] e => imp3_expr e
    | SFor (Pat (PId _) _ _) (Ex (ERange _ _ _) _ _) body => forallb imp3_stmt body
    | SExpr e => imp3_expr e
    | _ => false
    end
  end.


(* ------------------------------------------------------------------ the strict checker with calls
   (the body of the callee is checked once per function: [sc3_fn], [sc3_fns]) *)

Fixpoint sc3_expr (fuel : nat) (P : program) (g : tenv) (e : expr) {struct fuel} : bool :=
  match fuel with
  | O => false
  | S f =>
    match e with
    | Ex ei _ t =>
      match ei with
      | ETrue | EFalse => sty_eqb t TBool
      | ENumU n _ => match t with TInt _ b => ok_width b && lit_fits t (Z.of_N n) | _ => false end
      | ENumS z _ => match t with TInt _ b => ok_width b && lit_fits t z | _ => false end
      | EId x => match tlookup g x with Some (tx, _) => vt_eqb tx t | None => false end
      | ENeg e1 =>
          match t with
          | TInt true b => ok_width b && sty_eqb (e_ty e1) t && sc3_expr f P g e1
          | _ => false
          end
      | ENot e1 => scalar_ty t && sty_eqb (e_ty e1) t && sc3_expr f P g e1
      | ECast to e1 => scalar_ty t && sty_eqb to t && scalar_ty (e_ty e1) && sc3_expr f P g e1
      | EOp o x y => sc3_expr f P g x && sc3_expr f P g y && sc_op o x y t
      | EIf c a b =>
          sty_eqb (e_ty c) TBool && vt_eqb (e_ty a) t && vt_eqb (e_ty b) t &&
          sc3_expr f P g c && sc3_expr f P g a && sc3_expr f P g b
      | EBlock b => match sc3_block f P ([] :: g) b with Some tb => vt_eqb tb t | None => false end
      | EMatch s arms =>
          sc3_expr f P g s && scalar_ty (e_ty s) &&
          forallb (fun arm =>
                     vt_eqb (p_ty (fst arm)) (e_ty s) && vt_eqb (e_ty (snd arm)) t &&
                     match sc_pat (fst arm) with
                     | Some bs => sc3_expr f P (tbind_all ([] :: g) bs false) (snd arm)
                     | None => false
                     end) arms
      | ECall fn args =>
          match find_fn P fn with
          | Some d =>
              vt_eqb (fn_ret d) t &&
              forallb2 (fun a (p : N * ty) => vt_eqb (e_ty a) (snd p) && sc3_expr f P g a) args (fn_params d)
          | None => false
          end
      | _ => false
      end
    end
  end
with sc3_block (fuel : nat) (P : program) (g : tenv) (b : list stmt) {struct fuel} : option ty :=
  match fuel with
  | O => None
  | S f =>
      (fix go (ss : list stmt) (g : tenv) (last : ty) : option ty :=
         match ss with
         | [] => Some last
         | s :: r => match sc3_stmt f P g s with Some (g', t) => go r g' t | None => None end
         end) b g unit_ty
  end
with sc3_stmt (fuel : nat) (P : program) (g : tenv) (s : stmt) {struct fuel} : option (tenv * ty) :=
  match fuel with
  | O => None
  | S f =>
    match s with
    | St si _ =>
      match si with
      | SLet (Pat (PId x) _ tp) e =>
          if sc3_expr f P g e && vt_eqb tp (e_ty e) then Some (tbind g x tp false, unit_ty) else None
      | SLetMut x e => if sc3_expr f P g e then Some (tbind g x (e_ty e) true, unit_ty) else None
      | SAssign x [] e =>
          match tlookup g x with
          | Some (tx, true) => if vt_eqb tx (e_ty e) && sc3_expr f P g e then Some (g, unit_ty) else None
          | _ => None
          end
      | SFor (Pat (PId x) _ tp) (Ex (ERange lo hi bits) _ ta) body =>
          if ok_width bits && (lo <=? hi) && (hi <=? 2 ^ bits) && sty_eqb tp (TInt false bits) &&
             match ta with
             | TArr (TInt false b2) n2 => (b2 =? bits) && (n2 =? hi - lo)
             | _ => false
             end
          then match sc3_block f P (tbind ([] :: g) x tp false) body with
               | Some _ => Some (g, unit_ty)
               | None => None
               end
          else None
      | SExpr e => if sc3_expr f P g e then Some (g, e_ty e) else None
      | _ => None
      end
    end
  end.

(* [sc3_expr] / [sc3_stmt] are the fixed point of [sc_node] / [sc_snode] with the extensions of
   TSemSemCall.v and this one *)
Definition sc3_ext (rec : tenv -> expr -> bool) (P : program) (g : tenv) (e : expr) : bool :=
  match e with
  | Ex (EMatch s arms) _ t =>
      rec g s && scalar_ty (e_ty s) &&
      forallb (fun arm =>
                 vt_eqb (p_ty (fst arm)) (e_ty s) && vt_eqb (e_ty (snd arm)) t &&
                 match sc_pat (fst arm) with
                 | Some bs => rec (tbind_all ([] :: g) bs false) (snd arm)
                 | None => false
                 end) arms
  | _ => sc2_ext rec P g e
  end.

Lemma sc3_expr_S fw P g e :
  sc3_expr (S fw) P g e = sc_node (sc3_expr fw P) (sc3_block fw P) (sc3_ext (sc3_expr fw P) P) g e.
Proof. destruct e as [[] m t]; reflexivity. Qed.

Lemma sc3_stmt_S fw P g s :
  sc3_stmt (S fw) P g s = sc_snode (sc3_expr fw P) (sc2_sext (sc3_block fw P)) g s.
Proof. destruct s as [[] m]; reflexivity. Qed.

(* a function of the program is in the fragment: its body is checked in the context of its
   parameters (a scope of their own over the empty global scope), and has the declared type *)
Definition sc3_fn (fw : nat) (P : program) (d : fndef) : bool :=
  match sc3_block fw P ([] :: tbind_all [[]; []] (fn_params d) true) (fn_body d) with
  | Some t => vt_eqb t (fn_ret d)
  | None => false
  end && forallb imp3_stmt (fn_body d).

Definition sc3_fns (fw : nat) (P : program) : bool := forallb (sc3_fn fw P) (p_fns P).

Section Main3.
  Variable P : program.
  Variable fwp : nat.
  Hypothesis Hfns : sc3_fns fwp P = true.

  Lemma find_fn_sc3 fn d : find_fn P fn = Some d ->
    sc3_block fwp P ([] :: tbind_all [[]; []] (fn_params d) true) (fn_body d) = Some (fn_ret d) /\
    forallb imp3_stmt (fn_body d) = true.
  Proof.
    intro H. unfold find_fn in H. apply find_some in H. destruct H as [Hin _].
    unfold sc3_fns in Hfns. rewrite forallb_forall in Hfns. specialize (Hfns d Hin). unfold sc3_fn in Hfns.
    apply andb_prop in Hfns. destruct Hfns as [H1 H2]. split; [|exact H2].
    destruct (sc3_block fwp P _ (fn_body d)) as [tb|]; [|discriminate H1]. apply vt_eqb_eq in H1. now subst tb.
  Qed.

  Definition sc_fix3 : sc_fix :=
    {| scE := fun fw => sc3_expr fw P; scB := fun fw => sc3_block fw P; scS := fun fw => sc3_stmt fw P;
       extE := fun fw => sc3_ext (sc3_expr fw P) P; extS := fun fw => sc2_sext (sc3_block fw P);
       scE_O := fun _ _ => eq_refl; scB_O := fun _ _ => eq_refl; scS_O := fun _ _ => eq_refl;
       scE_S := fun fw => sc3_expr_S fw P; scB_S := fun _ _ _ => eq_refl; scS_S := fun fw => sc3_stmt_S fw P |}.

  Notation Inv3 := (Inv P VRs (relP_nodes VRs) G2 sc_fix3).

  Lemma match_step f fw g e : (forall k, (k <= f)%nat -> Inv3 k) -> G2 g ->
    sc3_ext (sc3_expr fw P) P g e = true -> AgE2 P VRs (S f) g e.
  Proof.
    intros IH Hg H. destruct e as [ei m t].
    assert (Hfn : forall fn d, find_fn P fn = Some d ->
              exists fwd, sc3_block fwd P ([] :: tbind_all [[]; []] (fn_params d) true) (fn_body d) = Some (fn_ret d))
      by (intros fn d Hf; exists fwp; exact (proj1 (find_fn_sc3 fn d Hf))).
    destruct ei;
      try exact (call_step P sc_fix3 Hfn
                   f fw g _ IH Hg H).
    cbn [sc3_ext] in H. destruct (IH f (le_n _)) as (IHe & _). cbn [scE sc_fix3] in IHe. bsplit.
    eapply (match_node2 P VRs); try exact VRs_bool; try exact VRs_unit; try exact (VRs_szn P);
      [eapply IHe; eassumption|reflexivity|].
    apply Forall_forall. intros [pat body] Hin.
    repeat match goal with Hf : forallb _ arms = true |- _ => rewrite forallb_forall in Hf; specialize (Hf _ Hin) end.
    cbn [fst snd] in *. bsplit. eqs.
    destruct (sc_pat pat) as [tbs|] eqn:Ep; try discriminate.
    split; [|split; [assumption|]].
    - intro fT0. split; cbn [fst snd]; [eapply sc_pat_PatK; eassumption|].
      intros E2 o2 w2 E2' o2' Hr. eapply KP_every; eassumption.
    - exists tbs. cbn [fst snd]. split.
      + match goal with Hq : p_ty pat = _ |- _ => rewrite <- Hq end.
        apply sc_pat_PatOK; [assumption|]. congruence.
      + eapply IHe; try eassumption. now apply G2_tbind_all.
  Qed.

  Theorem agree_all3 : forall fuel, Inv3 fuel.
  Proof.
    apply (agree P VRs VRs_bool VRs_unit VRs_scalar VRs_intro (relP_nodes VRs)
             (fun g x t => relP_assign VRs g x t true) G2 G2_push G2_tbind sc_fix3).
    - intros fw g s g' t Hg H. cbn [extS sc_fix3] in H. rewrite (sc2_sext_ctx _ _ _ _ _ H). auto.
    - exact match_step.
    - exact (for_step P sc_fix3).
  Qed.
End Main3.
Print Assumptions agree_all3.

(* AGREEMENT with calls, expressions.  [sc3_fns fwp P]: every function of the program is in the
   fragment; [G2 g]: the context has the empty global scope under at least one more scope *)
Theorem tsem_sem_imp3_expr P fwp fuel fw g e en E fT w E' o' :
  sc3_fns fwp P = true -> G2 g -> sc3_expr fw P g e = true -> imp3_expr e = true ->
  env_rel3 VRs en E g -> lower_expr tops fT P e E None = Ok ((w, E'), o') ->
  match Sem.eval fuel P en e with
  | Sem.Done (v, en') => o' = None /\ VRs (e_ty e) v w /\ env_rel3 VRs en' E' g
  | Sem.Panicked r m => o' = Some (preason_num (pr r), ploc32 (ploc_of m))
  | Sem.Stuck _ | Sem.NoFuel => True
  end.
Proof.
  intros Hf Hg Hsc _ Hrel Hrun. apply (out_env_rel3 VRs _ (fun v => VRs (e_ty e) v w) (length E)).
  exact (proj1 (agree_all3 P fwp Hf fuel) fw g e Hg Hsc _ en E fT w E' o' (relP_of_env_rel3 VRs en E g Hrel) Hrun).
Qed.
Print Assumptions tsem_sem_imp3_expr.

Theorem tsem_sem_imp3_stmt P fwp fuel fw g s g' t en E fT w E' o' :
  sc3_fns fwp P = true -> G2 g -> sc3_stmt fw P g s = Some (g', t) -> imp3_stmt s = true ->
  env_rel3 VRs en E g -> lower_stmt tops fT P s E None = Ok ((w, E'), o') ->
  match Sem.exec fuel P en s with
  | Sem.Done (v, en') => o' = None /\ VRs t v w /\ env_rel3 VRs en' E' g'
  | Sem.Panicked r m => o' = Some (preason_num (pr r), ploc32 (ploc_of m))
  | Sem.Stuck _ | Sem.NoFuel => True
  end.
Proof.
  intros Hf Hg Hsc _ Hrel Hrun. destruct E as [|cs E0].
  { (* no scope at all: impossible for related environments with G2 g *)
    exfalso. unfold env_rel3 in Hrel. inversion Hrel; subst. destruct Hg as [Hl _]. cbn in Hl. lia. }
  apply (out_env_rel3 VRs _ (fun v => VRs t v w) (length (cs :: E0))).
  exact (proj1 (proj2 (agree_all3 P fwp Hf fuel)) fw g s g' t Hg Hsc _ en (cs :: E0) fT w E' o'
           (relP_of_env_rel3 VRs en (cs :: E0) g Hrel) Hrun).
Qed.
Print Assumptions tsem_sem_imp3_stmt.

Theorem tsem_sem_imp3_block P fwp fuel fw g b t en E fT w E' o' :
  sc3_fns fwp P = true -> G2 g -> sc3_block fw P ([] :: g) b = Some t -> forallb imp3_stmt b = true ->
  env_rel3 VRs en E g -> lower_block tops fT P b E None = Ok ((w, E'), o') ->
  match Sem.obind (Sem.exec_block fuel P (Sem.push_scope en) b)
                  (fun '(v, en1) => Sem.Done (v, Sem.pop_scope en1)) with
  | Sem.Done (v, en') => o' = None /\ VRs t v w /\ env_rel3 VRs en' E' g
  | Sem.Panicked r m => o' = Some (preason_num (pr r), ploc32 (ploc_of m))
  | Sem.Stuck _ | Sem.NoFuel => True
  end.
Proof.
  intros Hf Hg Hsc _ Hrel Hrun. apply (out_env_rel3 VRs _ (fun v => VRs t v w) (length E)).
  exact (proj1 (proj2 (proj2 (agree_all3 P fwp Hf fuel))) fw g b t Hg Hsc _ en E fT w E' o'
           (relP_of_env_rel3 VRs en E g Hrel) Hrun).
Qed.
Print Assumptions tsem_sem_imp3_block.

(* ------------------------------------------------------------------ whole programs with calls *)

Theorem tsem_sem_program3 P d fuel fw fT args o outs :
  p_consts P = [] -> find_fn P (p_main P) = Some d ->
  forallb (fun p : N * ty => scalar_ty (snd p)) (fn_params d) = true ->
  sc3_fns fw P = true ->
  tsem_program fT P args = Ok (o, outs) ->
  match Sem.run_main fuel P args with
  | Sem.RunOk bits _ => o = None /\ outs = bits
  | Sem.RunPanic r m => o = Some (preason_num (pr r), ploc32 (ploc_of m))
  | Sem.RunStuck _ | Sem.RunNoFuel => True
  end.
Proof.
  intros Hc Hfind Hsp Hf Hrun. destruct (find_fn_sc3 P fw Hf _ _ Hfind) as [Hsc Hi].
  apply (main_obs_run P VRs d fuel args o outs Hfind (encode_VRs P _)). intros vals Ed.
  refine (main_agrees P VRs d [] fuel fT args vals o outs _ Hfind (no_consts_rel P VRs fuel Hc)
            (init_rel P _ _ _ Ed Hsp) _ Hrun). intros en0 E w E' o' _.
  apply (tsem_sem_imp3_block P fw fuel fw _ _ _ _ E fT w E' o' Hf); try assumption.
  destruct (tbind_all_cons [] [[]] (fn_params d) true) as [gs' ->]. split; [cbn; lia|reflexivity].
Qed.
Print Assumptions tsem_sem_program3.

(* the boolean membership test of the fragment (programs without global constants, scalar
   parameters of main, every function of the program in the fragment) and its soundness *)
Definition in_imp_fragment3 (fw : nat) (P : program) : bool :=
  match p_consts P, find_fn P (p_main P) with
  | [], Some d => forallb (fun p : N * ty => scalar_ty (snd p)) (fn_params d) && sc3_fns fw P
  | _, _ => false
  end.

Theorem in_imp_fragment3_sound P fuel fw fT args o outs :
  in_imp_fragment3 fw P = true -> tsem_program fT P args = Ok (o, outs) ->
  match Sem.run_main fuel P args with
  | Sem.RunOk bits _ => o = None /\ outs = bits
  | Sem.RunPanic r m => o = Some (preason_num (pr r), ploc32 (ploc_of m))
  | _ => True
  end.
Proof.
  unfold in_imp_fragment3. intros H Hrun.
  destruct (p_consts P) eqn:Hc; [|discriminate H].
  destruct (find_fn P (p_main P)) as [d|] eqn:Hfind; [|discriminate H].
  apply andb_prop in H. destruct H as [Hsp Hf].
  pose proof (tsem_sem_program3 P d fuel fw fT args o outs Hc Hfind Hsp Hf Hrun) as HH.
  destruct (Sem.run_main fuel P args); exact HH || exact I.
Qed.
Print Assumptions in_imp_fragment3_sound.

(* ------------------------------------------------------------------ sanity: match with literal,
   range and identifier patterns; an arm that assigns; an arm that panics *)
Module SanityMatch.
  Definition mm (k : N) : meta := mkMeta k 1 k 9.
  Definition u8 := TInt false 8.
  (* pub fn main(x: u8, y: u8) -> u8 {
       let mut r = y;
       let z = match x { 0 => { r = 1u8; 7u8 }, 1..=9 => x + y, 200 => y + 100u8, n => n - y };
       z + r } *)
  Definition vx := Ex (EId 2) (mm 1) u8.
  Definition vy := Ex (EId 3) (mm 2) u8.
  Definition main_fn : fndef :=
    mkFn 11 [(2, u8); (3, u8)] u8
      [ St (SLetMut 5 vy) (mm 3);
        St (SLet (Pat (PId 6) (mm 4) u8)
             (Ex (EMatch vx
                [ (Pat (PNumU 0) (mm 5) u8,
                   Ex (EBlock [St (SAssign 5 [] (Ex (ENumU 1 8) (mm 6) u8)) (mm 7);
                               St (SExpr (Ex (ENumU 7 8) (mm 8) u8)) (mm 9)]) (mm 10) u8);
                  (Pat (PURange 1 9) (mm 11) u8, Ex (EOp OAdd vx vy) (mm 12) u8);
                  (Pat (PNumU 200) (mm 13) u8, Ex (EOp OAdd vy (Ex (ENumU 100 8) (mm 14) u8)) (mm 15) u8);
                  (Pat (PId 7) (mm 16) u8, Ex (EOp OSub (Ex (EId 7) (mm 17) u8) vy) (mm 18) u8) ])
                (mm 19) u8)) (mm 20);
        St (SExpr (Ex (EOp OAdd (Ex (EId 6) (mm 21) u8) (Ex (EId 5) (mm 22) u8)) (mm 23) u8)) (mm 24) ].
  Definition P0 : program := mkProgram [] [] [main_fn] [] 11.

  Example accepted : in_imp_fragment3 12 P0 = true.
  Proof. vm_compute. reflexivity. Qed.

  Ltac run a b :=
    destruct (tsem_program 14 P0 [enc 8 a; enc 8 b]) as [[o outs]| |] eqn:Hrun;
      [|vm_compute in Hrun; discriminate Hrun|vm_compute in Hrun; discriminate Hrun];
    pose proof (in_imp_fragment3_sound P0 14 12 14 _ o outs accepted Hrun) as H.

  (* first arm: the assignment in the arm is visible afterwards: 7 + 1 *)
  Example arm0 : exists o outs l, tsem_program 14 P0 [enc 8 0; enc 8 50] = Ok (o, outs) /\
    Sem.run_main 14 P0 [enc 8 0; enc 8 50] = Sem.RunOk (enc 8 8) l /\ o = None /\ outs = enc 8 8.
  Proof.
    run 0%Z 50%Z.
    assert (exists l, Sem.run_main 14 P0 [enc 8 0; enc 8 50] = Sem.RunOk (enc 8 8) l) as [l Ev]
      by (eexists; vm_compute; reflexivity).
    rewrite Ev in H. destruct H as [-> ->]. exists None, (enc 8 8), l. repeat split; assumption || reflexivity.
  Qed.

  (* third arm selected and panics (200 + 100), although the fourth arm (200 - 200 = 0) does not *)
  Example arm2_panics : exists o outs, tsem_program 14 P0 [enc 8 200; enc 8 200] = Ok (o, outs) /\
    Sem.run_main 14 P0 [enc 8 200; enc 8 200] = Sem.RunPanic Sem.ROverflow (mm 15) /\
    o = Some (preason_num Overflow, ploc32 (ploc_of (mm 15))).
  Proof.
    run 200%Z 200%Z.
    assert (Sem.run_main 14 P0 [enc 8 200; enc 8 200] = Sem.RunPanic Sem.ROverflow (mm 15)) as Ev
      by (vm_compute; reflexivity).
    rewrite Ev in H. eauto.
  Qed.

  (* last arm (identifier): 250 - 200 = 50, then + 200.  The second and the third arm are evaluated
     by the circuit too and both overflow (250 + 200, 200 + 100): these panics are masked *)
  Example arm3_masks : exists o outs l, tsem_program 14 P0 [enc 8 250; enc 8 200] = Ok (o, outs) /\
    Sem.run_main 14 P0 [enc 8 250; enc 8 200] = Sem.RunOk (enc 8 250) l /\ o = None /\ outs = enc 8 250.
  Proof.
    run 250%Z 200%Z.
    assert (exists l, Sem.run_main 14 P0 [enc 8 250; enc 8 200] = Sem.RunOk (enc 8 250) l) as [l Ev]
      by (eexists; vm_compute; reflexivity).
    rewrite Ev in H. destruct H as [-> ->]. exists None, (enc 8 250), l. repeat split; assumption || reflexivity.
  Qed.
End SanityMatch.

