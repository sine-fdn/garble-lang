(* A program with struct patterns in every spelling that the executable tests accept, as the typed
   AST exported by the real checker (the `lower` job of harness gv-run, transcribed to Gallina). *)
From Coq Require Import ZArith List. Import ListNotations.
From GV Require Import Base.Util Lang.Ast Lang.Wt Compile.TSemSafe Compile.TSemTotal Compile.EndToEnd Compile.Final Exhaust.ExhSem.
Local Open Scope N_scope.

(* struct S { a: u8, b: bool, c: u16 }
   pub fn main(s: S) -> u16 { match s { S { a: 0u8, b: true, c } => c, S { c: 7u16, .. } => 1u16,
     S { b: false, a, .. } => a as u16, S { a: 1u8..5u8, b: _, c: _ } => 2u16, _ => 3u16 } }
   - the checker exports `..` patterns with the flag 0 and the named fields in definition order;
     `_` is the name 1: the fourth arm binds it twice (TSemSafe.ok_pat: fields in definition order);
   - the second and third arm name only some fields (ExhSem.tr_pat: always `..`). *)
Definition match_struct_patterns : program := (mkProgram [(0, [(2, (TInt false 8)); (3, TBool); (4, (TInt false 16))])] [] [(mkFn 5 [(6, (TStruct 0))] (TInt false 16) [(St (SExpr (Ex (EMatch (Ex (EId 6) (mkMeta 0 68 0 69) (TStruct 0)) [((Pat (PStruct 0 false [(2, (Pat (PNumU 0) (mkMeta 0 79 0 82) (TInt false 8))); (3, (Pat PTrue (mkMeta 0 87 0 91) TBool)); (4, (Pat (PId 4) (mkMeta 0 93 0 94) (TInt false 16)))]) (mkMeta 0 72 0 73) (TStruct 0)), (Ex (EBlock [(St (SExpr (Ex (EId 4) (mkMeta 0 100 0 101) (TInt false 16))) (mkMeta 0 100 0 101))]) (mkMeta 0 100 0 101) (TInt false 16))); ((Pat (PStruct 0 false [(4, (Pat (PNumU 7) (mkMeta 0 110 0 114) (TInt false 16)))]) (mkMeta 0 103 0 104) (TStruct 0)), (Ex (EBlock [(St (SExpr (Ex (ENumU 1 16) (mkMeta 0 124 0 128) (TInt false 16))) (mkMeta 0 124 0 128))]) (mkMeta 0 124 0 128) (TInt false 16))); ((Pat (PStruct 0 false [(2, (Pat (PId 2) (mkMeta 0 144 0 145) (TInt false 8))); (3, (Pat PFalse (mkMeta 0 137 0 142) TBool))]) (mkMeta 0 130 0 131) (TStruct 0)), (Ex (EBlock [(St (SExpr (Ex (ECast (TInt false 16) (Ex (EId 2) (mkMeta 0 155 0 156) (TInt false 8))) (mkMeta 0 155 0 163) (TInt false 16))) (mkMeta 0 155 0 163))]) (mkMeta 0 155 0 163) (TInt false 16))); ((Pat (PStruct 0 false [(2, (Pat (PURange 1 4) (mkMeta 0 172 0 180) (TInt false 8))); (3, (Pat (PId 1) (mkMeta 0 185 0 186) TBool)); (4, (Pat (PId 1) (mkMeta 0 191 0 192) (TInt false 16)))]) (mkMeta 0 165 0 166) (TStruct 0)), (Ex (EBlock [(St (SExpr (Ex (ENumU 2 16) (mkMeta 0 198 0 202) (TInt false 16))) (mkMeta 0 198 0 202))]) (mkMeta 0 198 0 202) (TInt false 16))); ((Pat (PId 1) (mkMeta 0 204 0 205) (TStruct 0)), (Ex (EBlock [(St (SExpr (Ex (ENumU 3 16) (mkMeta 0 209 0 213) (TInt false 16))) (mkMeta 0 209 0 213))]) (mkMeta 0 209 0 213) (TInt false 16)))]) (mkMeta 0 62 0 215) (TInt false 16))) (mkMeta 0 62 0 215))])] [] 5).

Example match_struct_patterns_certified :
  safe_program_ok match_struct_patterns = true /\ exh_fns match_struct_patterns = true /\
  certified_exh 2000 match_struct_patterns = true /\
  within_gate_bound 2000 true match_struct_patterns = true /\ within_gate_bound 2000 false match_struct_patterns = true.
Proof. vm_compute. repeat split; reflexivity. Qed.
