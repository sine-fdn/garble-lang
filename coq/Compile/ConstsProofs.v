(* Proofs about Compile/Consts.v (property C12, order arguments for C06). *)
From Coq Require Import Permutation Znumtheory.
From GV Require Import Base.Util Compile.Consts.

(* ------------------------------------------------------------------ equality tests *)

Lemma uty_eqb_eq a b : uty_eqb a b = true <-> a = b.
Proof. destruct a, b; cbn; split; congruence. Qed.
Lemma sty_eqb_eq a b : sty_eqb a b = true <-> a = b.
Proof. destruct a, b; cbn; split; congruence. Qed.
Lemma cty_eqb_eq a b : cty_eqb a b = true <-> a = b.
Proof.
  destruct a as [|u|s], b as [|u'|s']; cbn; try (split; congruence).
  - rewrite uty_eqb_eq. split; congruence.
  - rewrite sty_eqb_eq. split; congruence.
Qed.
Lemma cty_eqb_refl a : cty_eqb a a = true.
Proof. now apply cty_eqb_eq. Qed.

Lemma key_eqb_eq a b : key_eqb a b = true <-> a = b.
Proof.
  destruct a as [x|p x], b as [y|q y]; cbn [key_eqb]; try (split; congruence).
  - rewrite N.eqb_eq. split; congruence.
  - rewrite andb_true_iff, !N.eqb_eq. split; [intros [-> ->]; reflexivity|]. intro H; inversion H; auto.
Qed.
Lemma key_eqb_refl a : key_eqb a a = true.
Proof. now apply key_eqb_eq. Qed.
Lemma key_eqb_neq a b : a <> b -> key_eqb a b = false.
Proof. intro H. destruct (key_eqb a b) eqn:E; [|reflexivity]. apply key_eqb_eq in E. contradiction. Qed.

Lemma dkey_eqb_eq a b : dkey_eqb a b = true <-> a = b.
Proof.
  destruct a as [p x], b as [q y]. unfold dkey_eqb. cbn [fst snd].
  rewrite andb_true_iff, !N.eqb_eq. split; [intros [-> ->]; reflexivity|]. intro H; inversion H; auto.
Qed.
Lemma dkey_eqb_refl a : dkey_eqb a a = true.
Proof. now apply dkey_eqb_eq. Qed.

Lemma kget_kset_same {V} (m : kmap V) k v : kget (kset m k v) k = Some v.
Proof. unfold kset. cbn [kget]. now rewrite key_eqb_refl. Qed.
Lemma kget_kset_other {V} (m : kmap V) k k' v : k' <> k -> kget (kset m k v) k' = kget m k'.
Proof. intro H. unfold kset. cbn [kget]. now rewrite key_eqb_neq. Qed.

(* ------------------------------------------------------------------ induction principles *)

Section CexprInd.
  Variable P : cexpr -> Prop.
  Hypothesis HT : P ETrue.
  Hypothesis HF : P EFalse.
  Hypothesis HU : forall n t, P (EUns n t).
  Hypothesis HS : forall z t, P (ESig z t).
  Hypothesis HE : forall p n, P (EExt p n).
  Hypothesis HI : forall n, P (EId n).
  Hypothesis HMax : forall args, Forall P args -> P (EMax args).
  Hypothesis HMin : forall args, Forall P args -> P (EMin args).
  Hypothesis HAdd : forall a b, P a -> P b -> P (EAdd a b).
  Hypothesis HSub : forall a b, P a -> P b -> P (ESub a b).
  Fixpoint cexpr_ind2 (e : cexpr) : P e :=
    match e with
    | ETrue => HT | EFalse => HF | EUns n t => HU n t | ESig z t => HS z t
    | EExt p n => HE p n | EId n => HI n
    | EMax args => HMax args ((fix go l : Forall P l :=
                                 match l with [] => Forall_nil P | x :: r => Forall_cons x (cexpr_ind2 x) (go r) end) args)
    | EMin args => HMin args ((fix go l : Forall P l :=
                                 match l with [] => Forall_nil P | x :: r => Forall_cons x (cexpr_ind2 x) (go r) end) args)
    | EAdd a b => HAdd a b (cexpr_ind2 a) (cexpr_ind2 b)
    | ESub a b => HSub a b (cexpr_ind2 a) (cexpr_ind2 b)
    end.
End CexprInd.

Section PtyInd.
  Variable P : pty -> Prop.
  Hypothesis HB : P PBool.
  Hypothesis HU : forall u, P (PU u).
  Hypothesis HS : forall s, P (PS s).
  Hypothesis HA : forall e n, P e -> P (PArr e n).
  Hypothesis HC : forall e c, P e -> P (PArrC e c).
  Hypothesis HE : forall e x, P e -> P (PArrE e x).
  Hypothesis HT : forall l, Forall P l -> P (PTup l).
  Fixpoint pty_ind2 (t : pty) : P t :=
    match t with
    | PBool => HB | PU u => HU u | PS s => HS s
    | PArr e n => HA e n (pty_ind2 e)
    | PArrC e c => HC e c (pty_ind2 e)
    | PArrE e x => HE e x (pty_ind2 e)
    | PTup l => HT l ((fix go l : Forall P l :=
                         match l with [] => Forall_nil P | x :: r => Forall_cons x (pty_ind2 x) (go r) end) l)
    end.
End PtyInd.

(* ------------------------------------------------------------------ the model reads its maps
   only through kget: maps with the same lookups give the same results *)

Definition kequiv {V} (m m' : kmap V) : Prop := forall k, kget m k = kget m' k.

Lemma kequiv_kset {V} (m m' : kmap V) k v : kequiv m m' -> kequiv (kset m k v) (kset m' k v).
Proof. intros H k'. unfold kset. cbn [kget]. now rewrite H. Qed.

Lemma fold_left_ext_in {A B} (f g : A -> B -> A) l :
  Forall (fun b => forall a, f a b = g a b) l -> forall a, fold_left f l a = fold_left g l a.
Proof. induction 1 as [|b r Hb _ IH]; cbn [fold_left]; intro a; [reflexivity|]. now rewrite Hb, IH. Qed.

Lemma resolve_ext c k bits m m' e : kequiv m m' -> resolve c k bits m e = resolve c k bits m' e.
Proof.
  intro H. induction e as [| |n t|z t|p n|n|args IH|args IH|a b IHa IHb|a b IHa IHb] using cexpr_ind2;
    cbn [resolve]; try reflexivity.
  - now rewrite H.
  - now rewrite H.
  - apply fold_left_ext_in. eapply Forall_impl; [|exact IH]. cbn beta. intros a Ha acc. now rewrite Ha.
  - apply fold_left_ext_in. eapply Forall_impl; [|exact IH]. cbn beta. intros a Ha acc. now rewrite Ha.
  - now rewrite IHa, IHb.
  - now rewrite IHa, IHb.
Qed.

Lemma psize_ext c m m' t : kequiv m m' -> psize c m t = psize c m' t.
Proof.
  intro H. induction t as [|u|s|e n IH|e k IH|e x IH|l IH] using pty_ind2; cbn [psize]; try reflexivity.
  - now rewrite IH.
  - now rewrite IH, H.
  - rewrite IH. unfold resolve_usize. now rewrite (resolve_ext c KUsize 32 m m' x H).
  - apply fold_left_ext_in. eapply Forall_impl; [|exact IH]. cbn beta. intros a Ha acc. now rewrite Ha.
Qed.

Lemma mapM_res_ext {A B} (f g : A -> res B) l : (forall a, f a = g a) -> mapM_res f l = mapM_res g l.
Proof. intro H. induction l as [|a r IH]; cbn [mapM_res]; [reflexivity|]. now rewrite H, IH. Qed.

Lemma wire_params_ext c m m' ps : kequiv m m' -> wire_params c m ps = wire_params c m' ps.
Proof.
  intro H. unfold wire_params.
  assert (HM : mapM_res (fun t => let* s := psize c m t in Ok (1%Z, s)) ps =
               mapM_res (fun t => let* s := psize c m' t in Ok (1%Z, s)) ps).
  { apply mapM_res_ext. intro t. now rewrite (psize_ext c m m' t H). }
  destruct ps as [|p [|q r]]; try exact HM; [|destruct p; exact HM].
  destruct p as [| | |e n|e k|e x|l]; try exact HM.
  - now rewrite (psize_ext c m m' e H).
  - rewrite (H (KC k)). now rewrite (psize_ext c m m' e H).
  - unfold resolve_usize. rewrite (resolve_ext c KUsize 32 m m' x H). now rewrite (psize_ext c m m' e H).
Qed.

Lemma list_sizes_ext d defs m m' : kequiv m m' -> list_sizes d defs m = list_sizes d defs m'.
Proof.
  intro H. unfold list_sizes. generalize (map (fun x => KE (fst (fst x)) (snd (fst x))) d ++
                                          map (fun x => KC (cd_name x)) defs).
  induction l as [|k r IH]; cbn [fold_right]; [reflexivity|]. now rewrite IH, H.
Qed.

(* ------------------------------------------------------------------ arithmetic *)

Definition lo (t : cty) : Z :=
  match t with TS s => (- 2 ^ (Z.of_N (sbits s) - 1))%Z | _ => 0%Z end.
Definition hi (t : cty) : Z :=
  match t with
  | TBool => 2%Z
  | TU u => (2 ^ Z.of_N (ubits u))%Z
  | TS s => (2 ^ (Z.of_N (sbits s) - 1))%Z
  end.

Lemma in_range_iff t v : in_range t v = true <-> (lo t <= v < hi t)%Z.
Proof.
  destruct t as [|u|s]; unfold in_range, lo, hi; rewrite andb_true_iff.
  - rewrite !Z.leb_le. lia.
  - rewrite Z.leb_le, Z.ltb_lt. lia.
  - rewrite Z.leb_le, Z.ltb_lt. lia.
Qed.

Definition kind_of (t : cty) : kind := match t with TS _ => KI64 | _ => KU64 end.

Lemma range_in_kind t : cty_ok t = true -> is_num t = true ->
  (kmin (kind_of t) <= lo t /\ hi t <= kmax (kind_of t) + 1)%Z.
Proof.
  destruct t as [|[]|[]]; cbn; intros Hok Hn; try discriminate; split; lia.
Qed.

Lemma umod_small b z : (0 <= z < 2 ^ Z.of_N b)%Z -> umod b z = z.
Proof. intro H. unfold umod. now apply Z.mod_small. Qed.

Lemma smod_small b z : (0 < b)%N -> (- 2 ^ (Z.of_N b - 1) <= z < 2 ^ (Z.of_N b - 1))%Z -> smod b z = z.
Proof.
  intros Hb H. unfold smod.
  assert (E : (2 ^ Z.of_N b = 2 * 2 ^ (Z.of_N b - 1))%Z).
  { rewrite <- Z.pow_succ_r by lia. f_equal. lia. }
  rewrite Z.mod_small by lia. lia.
Qed.

Lemma wrap64_in_range t v : cty_ok t = true -> is_num t = true -> in_range t v = true ->
  wrap64 (kind_of t) v = v.
Proof.
  intros Hok Hn Hr. apply in_range_iff in Hr. destruct (range_in_kind t Hok Hn) as [H1 H2].
  destruct t as [|u|s]; [discriminate| |]; cbn [kind_of wrap64] in *.
  - apply umod_small. cbn [kmin kmax] in *. change (Z.of_N 64) with 64%Z. lia.
  - apply smod_small; [lia|]. cbn [kmin kmax] in *. change (Z.of_N 64 - 1)%Z with 63%Z. lia.
Qed.

Lemma umod_range b z : (0 <= umod b z < 2 ^ Z.of_N b)%Z.
Proof. unfold umod. apply Z.mod_pos_bound. apply Z.pow_pos_nonneg; lia. Qed.

Lemma smod_range b z : (0 < b)%N -> (- 2 ^ (Z.of_N b - 1) <= smod b z < 2 ^ (Z.of_N b - 1))%Z.
Proof.
  intro Hb. unfold smod.
  assert (E : (2 ^ Z.of_N b = 2 * 2 ^ (Z.of_N b - 1))%Z).
  { rewrite <- Z.pow_succ_r by lia. f_equal. lia. }
  assert (0 < 2 ^ (Z.of_N b - 1))%Z by (apply Z.pow_pos_nonneg; lia).
  pose proof (Z.mod_pos_bound (z + 2 ^ (Z.of_N b - 1)) (2 ^ Z.of_N b) ltac:(lia)). lia.
Qed.

(* truncation to b <= 64 bits after wrapping at 64 bits = wrapping at b bits *)
Lemma pow_split b : (b <= 64)%N -> (2 ^ 64 = 2 ^ Z.of_N b * 2 ^ (64 - Z.of_N b))%Z.
Proof. intro H. rewrite <- Z.pow_add_r by lia. f_equal. lia. Qed.

Lemma umod_umod64 b z : (b <= 64)%N -> umod b (umod 64 z) = umod b z.
Proof.
  intro H. unfold umod. change (Z.of_N 64) with 64%Z. symmetry.
  apply Zmod_div_mod; try (apply Z.pow_pos_nonneg; lia).
  exists (2 ^ (64 - Z.of_N b))%Z. rewrite (pow_split b H). ring.
Qed.

Lemma smod64_eq z : exists q, smod 64 z = (z - 2 ^ 64 * q)%Z.
Proof.
  unfold smod. change (Z.of_N 64) with 64%Z. change (64 - 1)%Z with 63%Z.
  exists ((z + 2 ^ 63) / 2 ^ 64)%Z.
  pose proof (Z.div_mod (z + 2 ^ 63) (2 ^ 64) ltac:(lia)). lia.
Qed.

Lemma umod_shift b z q : (b <= 64)%N -> umod b (z - 2 ^ 64 * q) = umod b z.
Proof.
  intro H. unfold umod. rewrite (pow_split b H).
  replace (z - 2 ^ Z.of_N b * 2 ^ (64 - Z.of_N b) * q)%Z
    with (z + (- (2 ^ (64 - Z.of_N b) * q)) * 2 ^ Z.of_N b)%Z by ring.
  apply Z_mod_plus_full.
Qed.

Lemma smod_smod64 b z : (b <= 64)%N -> smod b (smod 64 z) = smod b z.
Proof.
  intro H. destruct (smod64_eq z) as [q ->]. unfold smod. f_equal.
  replace (z - 2 ^ 64 * q + 2 ^ (Z.of_N b - 1))%Z with ((z + 2 ^ (Z.of_N b - 1)) - 2 ^ 64 * q)%Z by ring.
  apply (umod_shift b _ q H).
Qed.

Lemma cty_bits_bounds t : (0 < cty_bits t <= 64)%N.
Proof. destruct t as [|[]|[]]; cbn; lia. Qed.

(* + and - of the repaired code = wrapping in the const's own type *)
Lemma arith_repaired t z : is_num t = true ->
  arith repaired (kind_of t) (cty_bits t) z = Ok (wrap_ty t z) /\ in_range t (wrap_ty t z) = true.
Proof.
  intro Hn. pose proof (cty_bits_bounds t) as Hb.
  unfold arith. cbn [c_own_width repaired]. unfold truncw.
  replace ((64 <? cty_bits t) || (cty_bits t =? 0)) with false.
  2:{ symmetry. apply orb_false_iff. split; [apply N.ltb_ge|apply N.eqb_neq]; lia. }
  destruct t as [|u|s]; [discriminate| |]; cbn [kind_of wrap64 wrap_ty cty_bits] in *.
  - rewrite umod_umod64 by lia. split; [reflexivity|]. apply in_range_iff. cbn [lo hi]. apply umod_range.
  - rewrite smod_smod64 by lia. split; [reflexivity|]. apply in_range_iff. cbn [lo hi]. apply smod_range. lia.
Qed.

Lemma in_range_max t a b : in_range t a = true -> in_range t b = true -> in_range t (Z.max a b) = true.
Proof. rewrite !in_range_iff. lia. Qed.
Lemma in_range_min t a b : in_range t a = true -> in_range t b = true -> in_range t (Z.min a b) = true.
Proof. rewrite !in_range_iff. lia. Qed.

(* ------------------------------------------------------------------ resolve = spec_expr *)

Section ResolveSpec.
  Variables (dp : deps) (decl : list (N * cty)) (t : cty) (sup : supplied) (cv : list (N * Z)) (m : kmap Z).
  Hypothesis Hok : cty_ok t = true.
  Hypothesis Hnum : is_num t = true.
  (* the external constants recorded at type t are supplied, acceptable and registered *)
  Hypothesis Hext : forall p n meta, dget dp (p, n) = Some (t, meta) ->
    exists l v, sup_get sup p n = Some l /\ lit_val l = Some v /\ in_range t v = true /\
                kget m (KE p n) = Some v.
  (* the consts of type t declared earlier have a value, registered *)
  Hypothesis Hid : forall i, assocN decl i = Some t ->
    exists v, assocN cv i = Some v /\ in_range t v = true /\ kget m (KC i) = Some v.

  Definition good (e : cexpr) : Prop :=
    exists v, resolve repaired (kind_of t) (cty_bits t) m e = Ok v /\ spec_expr t sup cv e = Some v /\
              in_range t v = true.

  Lemma minmax_good (op : Z -> Z -> Z) init args :
    (forall a b, in_range t a = true -> in_range t b = true -> in_range t (op a b) = true) ->
    (forall v, in_range t v = true -> op init v = v) ->
    negb (lenN args =? 0) = true -> Forall good args ->
    exists v,
      fold_left (fun acc a => let* r := acc in
                              let* v := resolve repaired (kind_of t) (cty_bits t) m a in Ok (op r v))
                args (Ok init) = Ok v /\
      match args with
      | [] => None
      | a :: r => fold_left (fun acc x => opt2 op acc (spec_expr t sup cv x)) r (spec_expr t sup cv a)
      end = Some v /\
      in_range t v = true.
  Proof.
    intros Hop Hinit Hne G. destruct G as [|a r (va & Ha1 & Ha2 & Ha3) Gr]; [discriminate|].
    cbn [fold_left]. rewrite Ha1, Ha2. cbn [bind]. rewrite (Hinit va Ha3). clear Hne Ha1 Ha2.
    revert va Ha3. induction Gr as [|b l (v & Hr & Hs & Hv) _ IH]; intros r Hrr; cbn [fold_left].
    - eauto.
    - rewrite Hr, Hs. cbn [bind opt2]. apply IH. now apply Hop.
  Qed.

  Lemma resolve_ok e : wt_cexpr dp decl t e = true -> good e.
  Proof.
    induction e as [| |n u|z s|p n|i|args IH|args IH|a b IHa IHb|a b IHa IHb] using cexpr_ind2;
      cbn [wt_cexpr]; intro W.
    - apply cty_eqb_eq in W. pose proof Hnum as Hn. rewrite W in Hn. discriminate.
    - apply cty_eqb_eq in W. pose proof Hnum as Hn. rewrite W in Hn. discriminate.
    - apply andb_true_iff in W as [W1 W2]. apply cty_eqb_eq in W1.
      exists (Z.of_N n). cbn [resolve spec_expr]. rewrite wrap64_in_range by assumption. auto.
    - apply andb_true_iff in W as [W1 W2]. apply cty_eqb_eq in W1.
      exists z. cbn [resolve spec_expr c_signed_lit repaired]. rewrite wrap64_in_range by assumption. auto.
    - destruct (dget dp (p, n)) as [[t' meta]|] eqn:E; [|discriminate]. apply cty_eqb_eq in W. subst t'.
      destruct (Hext p n meta E) as (l & v & H1 & H2 & H3 & H4).
      exists v. cbn [resolve spec_expr]. rewrite H4, H1. cbn [of_option]. auto.
    - destruct (assocN decl i) as [t'|] eqn:E; [|discriminate]. apply cty_eqb_eq in W. subst t'.
      destruct (Hid i E) as (v & H1 & H2 & H3).
      exists v. cbn [resolve spec_expr]. rewrite H3. cbn [of_option]. auto.
    - apply andb_true_iff in W as [W W3]. apply andb_true_iff in W as [_ W2].
      destruct (range_in_kind t Hok Hnum) as [K1 K2].
      apply (minmax_good Z.max (kmin (kind_of t)) args (in_range_max t)); [|exact W2|].
      + intros v Hv. apply in_range_iff in Hv. lia.
      + rewrite forallb_forall in W3. rewrite Forall_forall in IH |- *. auto.
    - apply andb_true_iff in W as [W W3]. apply andb_true_iff in W as [_ W2].
      destruct (range_in_kind t Hok Hnum) as [K1 K2].
      apply (minmax_good Z.min (kmax (kind_of t)) args (in_range_min t)); [|exact W2|].
      + intros v Hv. apply in_range_iff in Hv. lia.
      + rewrite forallb_forall in W3. rewrite Forall_forall in IH |- *. auto.
    - apply andb_true_iff in W as [W Wb]. apply andb_true_iff in W as [_ Wa].
      destruct (IHa Wa) as (x & X1 & X2 & X3). destruct (IHb Wb) as (y & Y1 & Y2 & Y3).
      destruct (arith_repaired t (x + y) Hnum) as [A1 A2].
      exists (wrap_ty t (x + y)). cbn [resolve spec_expr]. rewrite X1, Y1, X2, Y2. cbn [bind opt2]. auto.
    - apply andb_true_iff in W as [W Wb]. apply andb_true_iff in W as [_ Wa].
      destruct (IHa Wa) as (x & X1 & X2 & X3). destruct (IHb Wb) as (y & Y1 & Y2 & Y3).
      destruct (arith_repaired t (x - y) Hnum) as [A1 A2].
      exists (wrap_ty t (x - y)). cbn [resolve spec_expr]. rewrite X1, Y1, X2, Y2. cbn [bind opt2]. auto.
  Qed.
End ResolveSpec.

(* ------------------------------------------------------------------ monotonicity of resolve *)

Definition ksub {V} (m m' : kmap V) : Prop := forall k v, kget m k = Some v -> kget m' k = Some v.

Lemma ksub_refl {V} (m : kmap V) : ksub m m.
Proof. intros k v H; exact H. Qed.
Lemma ksub_trans {V} (a b c : kmap V) : ksub a b -> ksub b c -> ksub a c.
Proof. intros H1 H2 k v H. apply H2, H1, H. Qed.
Lemma ksub_of_frame {V} (m m' : kmap V) k0 :
  (forall k, k <> k0 -> kget m' k = kget m k) -> kget m k0 = None -> ksub m m'.
Proof.
  intros Hoth Hf k v Hk. destruct (key_eqb k k0) eqn:E.
  - apply key_eqb_eq in E. subst k. congruence.
  - rewrite Hoth; [exact Hk|]. intro Q. subst. now rewrite key_eqb_refl in E.
Qed.

Lemma ksub_kset_fresh {V} (m : kmap V) k v : kget m k = None -> ksub m (kset m k v).
Proof. apply ksub_of_frame. intros k' Hk. now apply kget_kset_other. Qed.

Lemma fold_bind_not_ok (f : Z -> cexpr -> res Z) args (acc : res Z) v :
  fold_left (fun acc a => let* r := acc in f r a) args acc = Ok v -> exists r, acc = Ok r.
Proof.
  revert acc. induction args as [|a l IH]; cbn [fold_left]; intros acc H.
  - eauto.
  - apply IH in H as [r Hr]. destruct acc as [x| |]; cbn [bind] in Hr; try discriminate. eauto.
Qed.

Lemma fold_bind_mono (f g : Z -> cexpr -> res Z) args :
  Forall (fun a => forall r v, f r a = Ok v -> g r a = Ok v) args ->
  forall acc v, fold_left (fun acc a => let* r := acc in f r a) args acc = Ok v ->
                fold_left (fun acc a => let* r := acc in g r a) args acc = Ok v.
Proof.
  induction 1 as [|a l Ha _ IH]; cbn [fold_left]; intros acc v H; [exact H|].
  destruct (fold_bind_not_ok f l _ v H) as [r1 Hr1].
  destruct acc as [r| |]; cbn [bind] in Hr1; try discriminate.
  cbn [bind] in H |- *. rewrite Hr1 in H. rewrite (Ha r r1 Hr1). now apply IH.
Qed.

Lemma resolve_mono c k bits m m' e v :
  ksub m m' -> resolve c k bits m e = Ok v -> resolve c k bits m' e = Ok v.
Proof.
  intro S. revert v.
  induction e as [| |n t|z t|p n|n|args IH|args IH|a b IHa IHb|a b IHa IHb] using cexpr_ind2;
    cbn [resolve]; intros v H; try exact H.
  - destruct (kget m (KE p n)) eqn:E; cbn [of_option] in H; [|discriminate]. now rewrite (S _ _ E).
  - destruct (kget m (KC n)) eqn:E; cbn [of_option] in H; [|discriminate]. now rewrite (S _ _ E).
  - revert H. apply (fold_bind_mono (fun r a => let* v := resolve c k bits m a in Ok (Z.max r v))
                                    (fun r a => let* v := resolve c k bits m' a in Ok (Z.max r v))).
    eapply Forall_impl; [|exact IH]. cbn beta. intros a Ha r v0 H0.
    destruct (resolve c k bits m a) eqn:E; cbn [bind] in H0; try discriminate. now rewrite (Ha _ eq_refl).
  - revert H. apply (fold_bind_mono (fun r a => let* v := resolve c k bits m a in Ok (Z.min r v))
                                    (fun r a => let* v := resolve c k bits m' a in Ok (Z.min r v))).
    eapply Forall_impl; [|exact IH]. cbn beta. intros a Ha r v0 H0.
    destruct (resolve c k bits m a) eqn:E; cbn [bind] in H0; try discriminate. now rewrite (Ha _ eq_refl).
  - destruct (resolve c k bits m a) eqn:Ea; cbn [bind] in H; try discriminate.
    destruct (resolve c k bits m b) eqn:Eb; cbn [bind] in H; try discriminate.
    rewrite (IHa _ eq_refl), (IHb _ eq_refl). exact H.
  - destruct (resolve c k bits m a) eqn:Ea; cbn [bind] in H; try discriminate.
    destruct (resolve c k bits m b) eqn:Eb; cbn [bind] in H; try discriminate.
    rewrite (IHa _ eq_refl), (IHb _ eq_refl). exact H.
Qed.

(* ------------------------------------------------------------------ closed form of the passes *)

Definition ins_all {V} (f : dkey -> option V) (o : list dkey) (m : kmap V) : kmap V :=
  fold_left (fun m k => match f k with Some v => kset m (KE (fst k) (snd k)) v | None => m end) o m.

Lemma kget_ins_all_KC {V} (f : dkey -> option V) o m i : kget (ins_all f o m) (KC i) = kget m (KC i).
Proof.
  unfold ins_all. revert m. induction o as [|k r IH]; cbn [fold_left]; intro m; [reflexivity|].
  rewrite IH. destruct (f k); [|reflexivity]. apply kget_kset_other. discriminate.
Qed.

Lemma kget_ins_all_KE {V} (f : dkey -> option V) o m p n :
  kget (ins_all f o m) (KE p n) =
  if existsb (dkey_eqb (p, n)) o
  then match f (p, n) with Some v => Some v | None => kget m (KE p n) end
  else kget m (KE p n).
Proof.
  unfold ins_all. revert m. induction o as [|k r IH]; cbn [fold_left existsb]; intro m; [reflexivity|].
  rewrite IH. destruct (dkey_eqb (p, n) k) eqn:E; cbn [orb].
  - apply dkey_eqb_eq in E. subst k. cbn [fst snd].
    destruct (f (p, n)) as [v|]; [|destruct (existsb _ r); reflexivity].
    rewrite kget_kset_same. destruct (existsb _ r); reflexivity.
  - assert (KE p n <> KE (fst k) (snd k)).
    { intro H. inversion H. destruct k; cbn [fst snd] in *; subst. now rewrite dkey_eqb_refl in E. }
    destruct (f k); [rewrite kget_kset_other by assumption|]; reflexivity.
Qed.

Definition fU (sup : supplied) (k : dkey) : option Z :=
  match sup_get sup (fst k) (snd k) with Some (LUns v _) => Some (Z.of_N v) | _ => None end.
Definition fS (sup : supplied) (k : dkey) : option Z :=
  match sup_get sup (fst k) (snd k) with Some (LSig z _) => Some z | _ => None end.
Definition fZ (d : deps) (sup : supplied) (k : dkey) : option Z :=
  match dget d k, sup_get sup (fst k) (snd k) with
  | Some (ty, _), Some (LUns v Usize) => if is_of_type (LUns v Usize) ty then Some (Z.of_N v) else None
  | _, _ => None
  end.
Definition fB (d : deps) (sup : supplied) (k : dkey) : option (list bool) :=
  match dget d k, sup_get sup (fst k) (snd k) with
  | Some (ty, _), Some l => if is_of_type l ty then Some (lit_bits l) else None
  | _, _ => None
  end.
(* the errors a declared external constant gives rise to *)
Definition err1 (d : deps) (sup : supplied) (k : dkey) : list cerr :=
  match dget d k with
  | None => []
  | Some (ty, meta) =>
      match sup_get sup (fst k) (snd k) with
      | None => [EMissing (fst k) (snd k) meta]
      | Some l => if is_of_type l ty then [] else [EBadType l ty]
      end
  end.
Definition err2 (d : deps) (sup : supplied) (k : dkey) : list cerr :=
  match dget d k with
  | None => []
  | Some (ty, meta) =>
      match sup_get sup (fst k) (snd k) with
      | None => []
      | Some l => if is_of_type l ty then [] else [EBadType l ty]
      end
  end.

Definition keys_in (o : list dkey) (d : deps) : Prop := forall k, In k o -> dget d k <> None.

Lemma pass1_closed d sup o : keys_in o d -> forall s0,
  fold_left (pass1_step repaired d sup) o (Ok s0) =
  Ok (Build_st1 (s_errs s0 ++ flat_map (err1 d sup) o) (ins_all (fU sup) o (s_cu s0))
                (ins_all (fS sup) o (s_cs s0)) (ins_all (fZ d sup) o (s_sizes s0))).
Proof.
  unfold ins_all. induction o as [|k r IH]; intros Hk s0; cbn [fold_left flat_map].
  - destruct s0; cbn. now rewrite List.app_nil_r.
  - assert (Hr : keys_in r d) by (intros x Hx; apply Hk; now right).
    specialize (IH Hr). pose proof (Hk k (or_introl eq_refl)) as Hd.
    unfold pass1_step at 2. cbn [bind].
    unfold err1 at 1, fU at 2, fS at 2, fZ at 2.
    destruct (dget d k) as [[ty meta]|]; [|contradiction]. cbn [of_option bind].
    destruct k as [p n]. cbn [fst snd].
    destruct (sup_get sup p n) as [l|].
    + destruct l as [| |v u|z u|]; destruct (is_of_type _ ty) eqn:T; cbn [c_early_typecheck repaired];
        try (destruct u); rewrite IH; cbn [s_errs s_cu s_cs s_sizes]; rewrite <- ?List.app_assoc, ?List.app_nil_r;
        try rewrite T; reflexivity.
    + rewrite IH. cbn [s_errs s_cu s_cs s_sizes]. rewrite <- List.app_assoc. reflexivity.
Qed.

Lemma pass2_closed d sup o : keys_in o d -> forall e0 es0,
  fold_left (pass2_step d sup) o (Ok (es0, e0)) =
  Ok (es0 ++ flat_map (err2 d sup) o, ins_all (fB d sup) o e0).
Proof.
  unfold ins_all. induction o as [|k r IH]; intros Hk e0 es0; cbn [fold_left flat_map].
  - now rewrite List.app_nil_r.
  - assert (Hr : keys_in r d) by (intros x Hx; apply Hk; now right).
    specialize (IH Hr). pose proof (Hk k (or_introl eq_refl)) as Hd.
    unfold pass2_step at 2. cbn [bind]. unfold err2 at 1, fB at 2.
    destruct (dget d k) as [[ty meta]|]; [|contradiction]. cbn [of_option bind].
    destruct k as [p n]. cbn [fst snd].
    destruct (sup_get sup p n) as [l|].
    + destruct (is_of_type l ty); cbn [fst snd]; rewrite IH; rewrite <- ?List.app_assoc, ?List.app_nil_r; reflexivity.
    + rewrite IH. reflexivity.
Qed.

(* ------------------------------------------------------------------ the two loops over the
   const definitions (resolution in source order, binding as constant wires) *)

Definition sel (t : cty) (s : st1) : kmap Z := match t with TS _ => s_cs s | _ => s_cu s end.

Lemma lit_bits_to_bits l ty v :
  is_of_type l ty = true -> lit_val l = Some v -> lit_bits l = to_bits v (cty_bits ty).
Proof.
  destruct l as [| |n u|z u|], ty as [|u'|s']; cbn [is_of_type lit_val lit_bits cty_bits];
    intros T V; try discriminate; inversion V; subst; try reflexivity.
  - apply uty_eqb_eq in T. now subst.
  - apply sty_eqb_eq in T. now subst.
Qed.

Section Loops.
  Variables (d : deps) (sup : supplied).

  Definition ke_facts (s : st1) (e : env) : Prop :=
    forall p n ty meta, dget d (p, n) = Some (ty, meta) ->
      exists l v, sup_get sup p n = Some l /\ lit_val l = Some v /\ in_range ty v = true /\
        is_of_type l ty = true /\ kget e (KE p n) = Some (lit_bits l) /\
        (is_num ty = true -> kget (sel ty s) (KE p n) = Some v) /\
        (ty = TU Usize -> kget (s_sizes s) (KE p n) = Some v).

  Definition decl_facts (decl : list (N * cty)) (cv : list (N * Z)) (s : st1) (e : env) : Prop :=
    forall i t, assocN decl i = Some t ->
      exists v, assocN cv i = Some v /\ in_range t v = true /\
        kget e (KC i) = Some (to_bits v (cty_bits t)) /\
        (is_num t = true -> kget (sel t s) (KC i) = Some v).

  Definition fresh_facts (decl : list (N * cty)) (s : st1) : Prop :=
    forall i, assocN decl i = None ->
      kget (s_cu s) (KC i) = None /\ kget (s_cs s) (KC i) = None /\ kget (s_sizes s) (KC i) = None.

  Lemma def_value decl cv s e ty val :
    cty_ok ty = true -> wt_cexpr d decl ty val = true -> ke_facts s e -> decl_facts decl cv s e ->
    exists v, spec_expr ty sup cv val = Some v /\ in_range ty v = true /\
      (is_num ty = true -> resolve repaired (kind_of ty) (cty_bits ty) (sel ty s) val = Ok v).
  Proof.
    intros Hok W KF DF. destruct (is_num ty) eqn:Hn.
    - destruct (resolve_ok d decl ty sup cv (sel ty s) Hok Hn) with (e := val) as (v & R & S & I); auto.
      + intros p n meta Hd. destruct (KF p n ty meta Hd) as (l & v & H1 & H2 & H3 & _ & _ & H6 & _).
        exists l, v. auto.
      + intros i Hi. destruct (DF i ty Hi) as (v & H1 & H2 & _ & H4). exists v. auto.
      + exists v. auto.
    - destruct ty as [|u|s0]; try discriminate.
      destruct val as [| |n u|z u|p n|i|args|args|a b|a b]; cbn [wt_cexpr is_num andb] in W; try discriminate.
      + exists 1%Z. cbn. repeat split; auto. discriminate.
      + exists 0%Z. cbn. repeat split; auto. discriminate.
      + destruct (dget d (p, n)) as [[t' meta]|] eqn:E; [|discriminate]. apply cty_eqb_eq in W. subst t'.
        destruct (KF p n TBool meta E) as (l & v & H1 & H2 & H3 & _).
        exists v. cbn [spec_expr]. rewrite H1. repeat split; auto. discriminate.
      + destruct (assocN decl i) as [t'|] eqn:E; [|discriminate]. apply cty_eqb_eq in W. subst t'.
        destruct (DF i TBool E) as (v & H1 & H2 & _).
        exists v. cbn [spec_expr]. repeat split; auto. discriminate.
  Qed.

  Lemma bind_value decl cv s e x cuF csF v :
    wt_cexpr d decl (cd_ty x) (cd_val x) = true -> ke_facts s e -> decl_facts decl cv s e ->
    spec_expr (cd_ty x) sup cv (cd_val x) = Some v ->
    (is_num (cd_ty x) = true ->
     resolve repaired (kind_of (cd_ty x)) (cty_bits (cd_ty x)) (sel (cd_ty x) s) (cd_val x) = Ok v) ->
    ksub (s_cu s) cuF -> ksub (s_cs s) csF ->
    bind_step repaired cuF csF (Ok e) x = Ok (kset e (KC (cd_name x)) (to_bits v (cty_bits (cd_ty x)))).
  Proof.
    destruct x as [name ty val]. cbn [cd_name cd_ty cd_val]. intros W KF DF S R SU SS.
    assert (Arith : is_num ty = true -> (forall p n, val <> EExt p n) -> (forall i, val <> EId i) ->
                    (forall n u, val <> EUns n u) -> (forall z u, val <> ESig z u) -> val <> ETrue -> val <> EFalse ->
                    bind_step repaired cuF csF (Ok e) (Build_cdef name ty val)
                    = Ok (kset e (KC name) (to_bits v (cty_bits ty)))).
    { intros Hn N1 N2 N3 N4 N5 N6. specialize (R Hn). unfold bind_step. cbn [bind cd_name cd_ty cd_val].
      destruct ty as [|u|s0]; [discriminate| |]; cbn [kind_of cty_bits sel] in R.
      - apply (resolve_mono _ _ _ _ cuF) in R; [|exact SU]. unfold resolve_unsigned.
        destruct val; try rewrite R; try reflexivity; exfalso;
          first [ apply N5; reflexivity | apply N6; reflexivity | eapply N1; reflexivity | eapply N2; reflexivity
                | eapply N3; reflexivity | eapply N4; reflexivity ].
      - apply (resolve_mono _ _ _ _ csF) in R; [|exact SS]. unfold resolve_signed. cbn [cty_bits].
        destruct val; try rewrite R; try reflexivity; exfalso;
          first [ apply N5; reflexivity | apply N6; reflexivity | eapply N1; reflexivity | eapply N2; reflexivity
                | eapply N3; reflexivity | eapply N4; reflexivity ]. }
    destruct val as [| |n u|z u|p n|i|args|args|a b|a b]; cbn [wt_cexpr] in W.
    - apply cty_eqb_eq in W. subst ty. cbn in S. inversion S. reflexivity.
    - apply cty_eqb_eq in W. subst ty. cbn in S. inversion S. reflexivity.
    - apply andb_true_iff in W as [W _]. apply cty_eqb_eq in W. subst ty. cbn in S. inversion S. reflexivity.
    - apply andb_true_iff in W as [W _]. apply cty_eqb_eq in W. subst ty. cbn in S. inversion S. reflexivity.
    - destruct (dget d (p, n)) as [[t' meta]|] eqn:E; [|discriminate]. apply cty_eqb_eq in W. subst t'.
      destruct (KF p n ty meta E) as (l & v' & H1 & H2 & _ & H4 & H5 & _).
      cbn [spec_expr] in S. rewrite H1, H2 in S. inversion S; subst v'.
      unfold bind_step. cbn [bind cd_name cd_ty cd_val]. rewrite H5. cbn [of_option bind].
      now rewrite (lit_bits_to_bits l ty v H4 H2).
    - destruct (assocN decl i) as [t'|] eqn:E; [|discriminate]. apply cty_eqb_eq in W. subst t'.
      destruct (DF i ty E) as (v' & H1 & _ & H3 & _).
      cbn [spec_expr] in S. rewrite H1 in S. inversion S; subst v'.
      unfold bind_step. cbn [bind cd_name cd_ty cd_val]. rewrite H3. reflexivity.
    - apply andb_true_iff in W as [W _]. apply andb_true_iff in W as [W _]. apply Arith; [exact W|intros; discriminate..].
    - apply andb_true_iff in W as [W _]. apply andb_true_iff in W as [W _]. apply Arith; [exact W|intros; discriminate..].
    - apply andb_true_iff in W as [W _]. apply andb_true_iff in W as [W _]. apply Arith; [exact W|intros; discriminate..].
    - apply andb_true_iff in W as [W _]. apply andb_true_iff in W as [W _]. apply Arith; [exact W|intros; discriminate..].
  Qed.

  Lemma sorted_value s e x v :
    ke_facts s e ->
    (forall p n, cd_ty x = TU Usize -> cd_val x = EExt p n -> exists meta, dget d (p, n) = Some (TU Usize, meta)) ->
    (is_num (cd_ty x) = true ->
     resolve repaired (kind_of (cd_ty x)) (cty_bits (cd_ty x)) (sel (cd_ty x) s) (cd_val x) = Ok v) ->
    exists s', sorted_step repaired (Ok s) x = Ok s' /\
      (forall k, k <> KC (cd_name x) ->
         kget (s_cu s') k = kget (s_cu s) k /\ kget (s_cs s') k = kget (s_cs s) k /\
         kget (s_sizes s') k = kget (s_sizes s) k) /\
      kget (s_cu s') (KC (cd_name x)) =
        (match cd_ty x with TU _ => Some v | _ => kget (s_cu s) (KC (cd_name x)) end) /\
      kget (s_cs s') (KC (cd_name x)) =
        (match cd_ty x with TS _ => Some v | _ => kget (s_cs s) (KC (cd_name x)) end) /\
      kget (s_sizes s') (KC (cd_name x)) =
        (if cty_eqb (cd_ty x) (TU Usize) then Some v else kget (s_sizes s) (KC (cd_name x))).
  Proof.
    destruct x as [name ty val]. cbn [cd_name cd_ty cd_val]. intros KF HE R.
    unfold sorted_step. cbn [bind cd_name cd_ty cd_val c_all_numeric repaired].
    destruct ty as [|u|s0].
    - exists s. repeat split; reflexivity.
    - specialize (R eq_refl). cbn [kind_of cty_bits sel] in R. unfold resolve_unsigned.
      assert (Other : u <> Usize ->
        exists s', (let* n := resolve repaired KU64 (ubits u) (s_cu s) val in
                    Ok (Build_st1 (s_errs s) (kset (s_cu s) (KC name) n) (s_cs s) (s_sizes s))) = Ok s' /\
          (forall k, k <> KC name -> kget (s_cu s') k = kget (s_cu s) k /\ kget (s_cs s') k = kget (s_cs s) k /\
                                     kget (s_sizes s') k = kget (s_sizes s) k) /\
          kget (s_cu s') (KC name) = Some v /\ kget (s_cs s') (KC name) = kget (s_cs s) (KC name) /\
          kget (s_sizes s') (KC name) = kget (s_sizes s) (KC name)).
      { intros _. rewrite R. cbn [bind]. eexists. split; [reflexivity|]. cbn [s_cu s_cs s_sizes].
        repeat split; try reflexivity; try apply kget_kset_same. now apply kget_kset_other. }
      destruct u; try (destruct Other as (s' & E & H); [discriminate|]; exists s'; cbn [cty_eqb uty_eqb];
                       split; [exact E|exact H]).
      (* usize *)
      cbn [ubits] in R.
      assert (SZ : exists sz, (match val with
                               | EExt p n => let* v0 := of_option (kget (s_sizes s) (KE p n)) in
                                             Ok (kset (s_sizes s) (KC name) v0)
                               | _ => Ok (s_sizes s) end) = Ok sz /\
                              forall k, k <> KC name -> kget sz k = kget (s_sizes s) k).
      { destruct val; try (eexists; split; [reflexivity|reflexivity]).
        destruct (HE party name0 eq_refl eq_refl) as [meta Hd].
        destruct (KF party name0 (TU Usize) meta Hd) as (l & v' & _ & _ & _ & _ & _ & _ & H7).
        rewrite (H7 eq_refl). cbn [of_option bind]. eexists. split; [reflexivity|].
        intros k Hk. now apply kget_kset_other. }
      destruct SZ as (sz & -> & Hsz). cbn [bind]. rewrite R. cbn [bind].
      eexists. split; [reflexivity|]. cbn [s_cu s_cs s_sizes cty_eqb uty_eqb].
      repeat split; try reflexivity; try apply kget_kset_same.
      + now apply kget_kset_other.
      + rewrite kget_kset_other by assumption. now apply Hsz.
    - specialize (R eq_refl). cbn [kind_of cty_bits sel] in R. unfold resolve_signed. rewrite R. cbn [bind].
      eexists. split; [reflexivity|]. cbn [s_cu s_cs s_sizes cty_eqb].
      repeat split; try reflexivity; try apply kget_kset_same. now apply kget_kset_other.
  Qed.

  Lemma names_fresh decl defs :
    wt_defs_from d decl defs = true -> forall y, In y defs -> assocN decl (cd_name y) = None.
  Proof.
    revert decl. induction defs as [|x r IH]; intros decl W y Hy; [contradiction|].
    cbn [wt_defs_from] in W. apply andb_true_iff in W as [W Wr]. apply andb_true_iff in W as [_ Wf].
    destruct Hy as [->|Hy].
    - destruct (assocN decl (cd_name y)); [discriminate|reflexivity].
    - specialize (IH _ Wr y Hy). cbn [assocN] in IH. destruct (cd_name y =? cd_name x); [discriminate|exact IH].
  Qed.

  Lemma loops_ok defs : forall decl cv s e,
    wt_defs_from d decl defs = true -> ke_facts s e -> decl_facts decl cv s e -> fresh_facts decl s ->
    exists vs s',
      const_spec_from sup cv defs = Some vs /\
      fold_left (sorted_step repaired) defs (Ok s) = Ok s' /\
      ksub (s_cu s) (s_cu s') /\ ksub (s_cs s) (s_cs s') /\
      (forall k, (forall x, In x defs -> k <> KC (cd_name x)) -> kget (s_sizes s') k = kget (s_sizes s) k) /\
      Forall2 (fun x nv => fst nv = cd_name x /\ in_range (cd_ty x) (snd nv) = true /\
                 kget (s_sizes s') (KC (cd_name x)) =
                 if cty_eqb (cd_ty x) (TU Usize) then Some (snd nv) else None) defs vs /\
      forall cuF csF, ksub (s_cu s') cuF -> ksub (s_cs s') csF ->
        exists e', fold_left (bind_step repaired cuF csF) defs (Ok e) = Ok e' /\
          (forall k, (forall x, In x defs -> k <> KC (cd_name x)) -> kget e' k = kget e k) /\
          Forall2 (fun x nv => kget e' (KC (cd_name x)) = Some (to_bits (snd nv) (cty_bits (cd_ty x)))) defs vs.
  Proof.
    induction defs as [|x r IH]; intros decl cv s e W KF DF FF.
    - exists [], s. cbn [const_spec_from fold_left]. repeat split; auto using ksub_refl.
      intros cuF csF _ _. exists e. repeat split; auto.
    - pose proof (names_fresh _ _ W) as NF.
      cbn [wt_defs_from] in W. apply andb_true_iff in W as [W Wr]. apply andb_true_iff in W as [W Wf].
      apply andb_true_iff in W as [Wok Wx].
      assert (Hfx : assocN decl (cd_name x) = None) by (destruct (assocN decl (cd_name x)); [discriminate|reflexivity]).
      destruct (def_value decl cv s e _ _ Wok Wx KF DF) as (v & Sv & Iv & Rv).
      destruct (sorted_value s e x v KF) as (sx & Ex & Hoth & Hcu & Hcs & Hsz); [|exact Rv|].
      { intros p n Ht Hv. rewrite Ht, Hv in Wx. cbn [wt_cexpr] in Wx.
        destruct (dget d (p, n)) as [[t' meta]|]; [|discriminate]. apply cty_eqb_eq in Wx. subst t'. eauto. }
      destruct (FF _ Hfx) as (F1 & F2 & F3).
      set (ex := kset e (KC (cd_name x)) (to_bits v (cty_bits (cd_ty x)))).
      assert (KFx : ke_facts sx ex).
      { intros p n ty meta Hd. destruct (KF p n ty meta Hd) as (l & v' & H1 & H2 & H3 & H4 & H5 & H6 & H7).
        exists l, v'. assert (NE : KE p n <> KC (cd_name x)) by discriminate.
        destruct (Hoth _ NE) as (O1 & O2 & O3).
        split; [exact H1|]. split; [exact H2|]. split; [exact H3|]. split; [exact H4|]. split; [|split].
        - unfold ex. now rewrite kget_kset_other.
        - intro Hn. specialize (H6 Hn). destruct ty; cbn [sel] in *; congruence.
        - intro Hu. rewrite O3. auto. }
      assert (DFx : decl_facts ((cd_name x, cd_ty x) :: decl) ((cd_name x, v) :: cv) sx ex).
      { intros i t Hi. cbn [assocN] in Hi |- *. destruct (i =? cd_name x) eqn:E.
        - apply N.eqb_eq in E. subst i. inversion Hi; subst t. exists v.
          split; [reflexivity|]. split; [exact Iv|]. split.
          + unfold ex. apply kget_kset_same.
          + intro Hn. destruct (cd_ty x); cbn [sel]; [discriminate|exact Hcu|exact Hcs].
        - destruct (DF i t Hi) as (v' & H1 & H2 & H3 & H4). exists v'.
          assert (NE : KC i <> KC (cd_name x)) by (intro Q; inversion Q; subst; now rewrite N.eqb_refl in E).
          destruct (Hoth _ NE) as (O1 & O2 & O3).
          split; [exact H1|]. split; [exact H2|]. split.
          + unfold ex. now rewrite kget_kset_other.
          + intro Hn. specialize (H4 Hn). destruct t; cbn [sel] in *; congruence. }
      assert (FFx : fresh_facts ((cd_name x, cd_ty x) :: decl) sx).
      { intros i Hi. cbn [assocN] in Hi. destruct (i =? cd_name x) eqn:E; [discriminate|].
        assert (NE : KC i <> KC (cd_name x)) by (intro Q; inversion Q; subst; now rewrite N.eqb_refl in E).
        destruct (Hoth _ NE) as (O1 & O2 & O3). destruct (FF i Hi) as (G1 & G2 & G3).
        rewrite O1, O2, O3. auto. }
      destruct (IH _ _ sx ex Wr KFx DFx FFx) as (vs & s' & Cs & Fs & S1 & S2 & Psz & F2s & Bind).
      assert (SUB1 : ksub (s_cu s) (s_cu sx)) by (apply (ksub_of_frame _ _ (KC (cd_name x))); [apply Hoth|exact F1]).
      assert (SUB2 : ksub (s_cs s) (s_cs sx)) by (apply (ksub_of_frame _ _ (KC (cd_name x))); [apply Hoth|exact F2]).
      assert (NR : forall y, In y r -> KC (cd_name x) <> KC (cd_name y)).
      { intros y Hy Q. inversion Q as [Q']. pose proof (names_fresh _ _ Wr y Hy) as Hn.
        cbn [assocN] in Hn. rewrite <- Q', N.eqb_refl in Hn. discriminate. }
      exists ((cd_name x, v) :: vs), s'. cbn [const_spec_from fold_left]. rewrite Sv, Cs, Ex.
      split; [reflexivity|]. split; [exact Fs|].
      split; [eapply ksub_trans; eauto|]. split; [eapply ksub_trans; eauto|].
      split.
      { intros k Hk. rewrite Psz by (intros y Hy; apply Hk; now right).
        apply Hoth. apply Hk. now left. }
      split.
      { constructor; [|exact F2s]. cbn [fst snd]. repeat split; auto.
        rewrite (Psz _ NR), Hsz. destruct (cty_eqb (cd_ty x) (TU Usize)); [reflexivity|exact F3]. }
      intros cuF csF C1 C2.
      destruct (Bind cuF csF C1 C2) as (e' & Fb & Pb & F2b).
      exists e'. rewrite (bind_value decl cv s e x cuF csF v Wx KF DF Sv Rv).
      2:{ eapply ksub_trans; [exact SUB1|]. eapply ksub_trans; eauto. }
      2:{ eapply ksub_trans; [exact SUB2|]. eapply ksub_trans; eauto. }
      fold ex. split; [exact Fb|]. split.
      { intros k Hk. rewrite Pb by (intros y Hy; apply Hk; now right).
        unfold ex. apply kget_kset_other. apply Hk. now left. }
      constructor; [|exact F2b]. cbn [snd]. rewrite (Pb _ NR). unfold ex. apply kget_kset_same.
  Qed.
End Loops.

(* ------------------------------------------------------------------ top level *)

Lemma dget_In (d : deps) k v : dget d k = Some v -> In (k, v) d.
Proof.
  induction d as [|[k' v'] r IH]; cbn [dget]; [discriminate|].
  destruct (dkey_eqb k k') eqn:E.
  - apply dkey_eqb_eq in E. subst k'. intro H. inversion H. now left.
  - intro H. right. auto.
Qed.

Lemma count_existsb k o : Nat.eqb (count_dkey k o) 1 = true -> existsb (dkey_eqb k) o = true.
Proof.
  induction o as [|x r IH]; cbn [count_dkey existsb]; [discriminate|].
  destruct (dkey_eqb k x); [reflexivity|]. cbn [orb Nat.add]. exact IH.
Qed.

Lemma is_order_keys_in o d : is_order o d = true -> keys_in o d.
Proof.
  unfold is_order. rewrite andb_true_iff. intros [H _] k Hk.
  rewrite forallb_forall in H. specialize (H k Hk). destruct (dget d k); [discriminate|discriminate].
Qed.

Lemma is_order_existsb o d k v : is_order o d = true -> dget d k = Some v -> existsb (dkey_eqb k) o = true.
Proof.
  unfold is_order. rewrite andb_true_iff. intros [_ H] Hd.
  rewrite forallb_forall in H. apply dget_In in Hd. specialize (H _ Hd). cbn [fst] in H.
  now apply count_existsb.
Qed.

Lemma sup_ok_dep d sup p n ty meta :
  sup_ok d sup = true -> dget d (p, n) = Some (ty, meta) ->
  exists l v, sup_get sup p n = Some l /\ is_of_type l ty = true /\ lit_val l = Some v /\ in_range ty v = true.
Proof.
  unfold sup_ok. rewrite forallb_forall. intros H Hd. apply dget_In in Hd. specialize (H _ Hd).
  cbn [fst snd] in H. destruct (sup_get sup p n) as [l|]; [|discriminate].
  unfold lit_ok in H. apply andb_true_iff in H as [H1 H2].
  destruct (lit_val l) as [v|] eqn:E; [|discriminate]. exists l, v. repeat split; auto.
Qed.

Lemma sup_ok_err1 d sup k : sup_ok d sup = true -> err1 d sup k = [].
Proof.
  intro H. unfold err1. destruct (dget d k) as [[ty meta]|] eqn:E; [|reflexivity]. destruct k as [p n].
  destruct (sup_ok_dep d sup p n ty meta H E) as (l & v & H1 & H2 & _). cbn [fst snd]. now rewrite H1, H2.
Qed.
Lemma sup_ok_err2 d sup k : sup_ok d sup = true -> err2 d sup k = [].
Proof.
  intro H. unfold err2. destruct (dget d k) as [[ty meta]|] eqn:E; [|reflexivity]. destruct k as [p n].
  destruct (sup_ok_dep d sup p n ty meta H E) as (l & v & H1 & H2 & _). cbn [fst snd]. now rewrite H1, H2.
Qed.

Lemma flat_map_nil {A B} (f : A -> list B) l : (forall x, f x = []) -> flat_map f l = [].
Proof. intro H. induction l as [|a r IH]; cbn [flat_map]; [reflexivity|]. now rewrite H, IH. Qed.

(* the values a successful compilation exposes, in terms of the specification only *)
Definition vals_of (defs : list cdef) (vs : list (N * Z)) : list (N * option (list bool)) :=
  map (fun xv => (cd_name (fst xv), Some (to_bits (snd (snd xv)) (cty_bits (cd_ty (fst xv)))))) (combine defs vs).

(* const_sizes, characterised completely by its lookups *)
Definition sizes_spec (d : deps) (sup : supplied) (defs : list cdef) (vs : list (N * Z)) (sizes : kmap Z) : Prop :=
  Forall2 (fun x nv => kget sizes (KC (cd_name x)) = if cty_eqb (cd_ty x) (TU Usize) then Some (snd nv) else None)
          defs vs /\
  (forall i, (forall x, In x defs -> i <> cd_name x) -> kget sizes (KC i) = None) /\
  (forall p n, kget sizes (KE p n) = fZ d sup (p, n)).

Lemma sizes_spec_kequiv d sup defs vs m m' : sizes_spec d sup defs vs m -> sizes_spec d sup defs vs m' -> kequiv m m'.
Proof.
  intros (A1 & B1 & C1) (A2 & B2 & C2) [i|p n]; [|now rewrite C1, C2].
  destruct (existsb (fun x => N.eqb i (cd_name x)) defs) eqn:E.
  - apply existsb_exists in E as (x & Hx & Hi). apply N.eqb_eq in Hi. subst i.
    clear B1 B2 C1 C2. induction A1 as [|y nv l l' Hy _ IH]; inversion A2; subst; [contradiction|].
    destruct Hx as [->|Hx]; [congruence|auto].
  - rewrite B1, B2; auto; intros x Hx Q; subst i;
      (assert (existsb (fun y => N.eqb (cd_name x) (cd_name y)) defs = true) as Q';
       [apply existsb_exists; exists x; split; [exact Hx|apply N.eqb_refl]|congruence]).
Qed.

Lemma Forall2_impl' {A B} (P Q : A -> B -> Prop) l l' :
  (forall a b, P a b -> Q a b) -> Forall2 P l l' -> Forall2 Q l l'.
Proof. intros H. induction 1; constructor; auto. Qed.

Lemma Forall2_map_combine (defs : list cdef) (vs : list (N * Z)) (e : env) :
  Forall2 (fun x nv => kget e (KC (cd_name x)) = Some (to_bits (snd nv) (cty_bits (cd_ty x)))) defs vs ->
  map (fun x => (cd_name x, kget e (KC (cd_name x)))) defs = vals_of defs vs.
Proof.
  unfold vals_of. induction 1 as [|x nv l l' H _ IH]; cbn [map combine fst snd]; [reflexivity|]. now rewrite H, IH.
Qed.

Theorem compile_consts_spec defs d params sup o1 o2 ob :
  wt_defs d defs = true -> sup_ok d sup = true -> is_order o1 d = true -> is_order o2 d = true ->
  exists vs sizes,
    const_spec sup defs = Some vs /\
    Forall2 (fun x nv => fst nv = cd_name x /\ in_range (cd_ty x) (snd nv) = true) defs vs /\
    sizes_spec d sup defs vs sizes /\
    compile_consts repaired o1 o2 ob defs d params sup =
      (let* ig := wire_params repaired sizes params in
       if (total_bits ig =? 0)%Z then Ok (inl [EZeroInputs])
       else Ok (inr (Build_cout (list_sizes d defs sizes) ig (vals_of defs vs)))).
Proof.
  intros W S O1 O2.
  pose proof (is_order_keys_in _ _ O1) as K1. pose proof (is_order_keys_in _ _ O2) as K2.
  set (s1 := Build_st1 [] (ins_all (fU sup) o1 []) (ins_all (fS sup) o1 []) (ins_all (fZ d sup) o1 [])).
  set (e2 := ins_all (fB d sup) o2 ([] : env)).
  assert (P1 : pass1 repaired o1 d sup = Ok s1).
  { unfold pass1. rewrite (pass1_closed d sup o1 K1). cbn [s_errs s_cu s_cs s_sizes app].
    rewrite flat_map_nil by (intro; now apply sup_ok_err1). reflexivity. }
  assert (P2 : pass2 o2 d sup = Ok ([], e2)).
  { unfold pass2. rewrite (pass2_closed d sup o2 K2). cbn [app].
    rewrite flat_map_nil by (intro; now apply sup_ok_err2). reflexivity. }
  assert (KF : ke_facts d sup s1 e2).
  { intros p n ty meta Hd. destruct (sup_ok_dep d sup p n ty meta S Hd) as (l & v & H1 & H2 & H3 & H4).
    exists l, v. split; [exact H1|]. split; [exact H3|]. split; [exact H4|]. split; [exact H2|].
    pose proof (is_order_existsb _ _ _ _ O1 Hd) as X1. pose proof (is_order_existsb _ _ _ _ O2 Hd) as X2.
    split; [|split].
    - unfold e2. rewrite kget_ins_all_KE, X2. unfold fB. cbn [fst snd]. now rewrite Hd, H1, H2.
    - intro Hn. destruct ty as [|u|s0]; [discriminate| |]; cbn [sel s1 s_cu s_cs].
      + rewrite kget_ins_all_KE, X1. unfold fU. cbn [fst snd]. rewrite H1.
        destruct l; cbn [is_of_type] in H2; try discriminate. cbn in H3. now inversion H3.
      + rewrite kget_ins_all_KE, X1. unfold fS. cbn [fst snd]. rewrite H1.
        destruct l; cbn [is_of_type] in H2; try discriminate. cbn in H3. now inversion H3.
    - intro Hu. subst ty. cbn [s1 s_sizes]. rewrite kget_ins_all_KE, X1. unfold fZ. cbn [fst snd]. rewrite Hd, H1.
      destruct l as [| |v' u|z u|]; cbn [is_of_type] in H2; try discriminate.
      apply uty_eqb_eq in H2. subst u. cbn [is_of_type uty_eqb]. cbn in H3. now inversion H3. }
  assert (DF : decl_facts [] [] s1 e2) by (intros i t Hi; discriminate).
  assert (FF : fresh_facts [] s1).
  { intros i _. cbn [s1 s_cu s_cs s_sizes]. now rewrite !kget_ins_all_KC. }
  destruct (loops_ok d sup defs [] [] s1 e2 W KF DF FF) as (vs & s2 & Cs & Fs & _ & _ & Psz & F2s & Bind).
  destruct (Bind (s_cu s2) (s_cs s2) (ksub_refl _) (ksub_refl _)) as (e' & Fb & _ & F2b).
  exists vs, (s_sizes s2). split; [exact Cs|]. split.
  { eapply Forall2_impl'; [|exact F2s]. cbn beta. intros x nv (A & B & _). auto. }
  split.
  { split; [|split].
    - eapply Forall2_impl'; [|exact F2s]. cbn beta. intros x nv (_ & _ & C). exact C.
    - intros i Hi. rewrite Psz by (intros x Hx Q; inversion Q; eapply Hi; eauto).
      cbn [s1 s_sizes]. now rewrite kget_ins_all_KC.
    - intros p n. rewrite Psz by (intros x Hx; discriminate). cbn [s1 s_sizes].
      rewrite kget_ins_all_KE. destruct (existsb (dkey_eqb (p, n)) o1) eqn:E.
      + destruct (fZ d sup (p, n)); reflexivity.
      + cbn [kget]. unfold fZ. destruct (dget d (p, n)) as [[ty meta]|] eqn:Hd; [|reflexivity].
        rewrite (is_order_existsb _ _ _ _ O1 Hd) in E. discriminate. }
  unfold compile_consts. rewrite P1. cbn [bind s_errs s1 lenN length N.of_nat].
  change (negb (0 =? 0)) with false. cbn iota.
  unfold sorted_loop. fold s1. rewrite Fs. cbn [bind]. rewrite P2. cbn [bind fst snd lenN length N.of_nat].
  change (negb (0 =? 0)) with false. cbn iota.
  destruct (wire_params repaired (s_sizes s2) params) as [ig| |]; cbn [bind]; try reflexivity.
  cbn [c_reject_zero repaired andb]. destruct (total_bits ig =? 0)%Z; [reflexivity|].
  unfold bind_consts. cbn [c_bind_source_order repaired]. rewrite Fb. cbn [bind].
  now rewrite (Forall2_map_combine defs vs e' F2b).
Qed.

(* independence of the three hash-map iteration orders *)
Theorem order_irrelevant defs d params sup o1 o2 ob o1' o2' ob' :
  wt_defs d defs = true -> sup_ok d sup = true ->
  is_order o1 d = true -> is_order o2 d = true -> is_order o1' d = true -> is_order o2' d = true ->
  compile_consts repaired o1 o2 ob defs d params sup = compile_consts repaired o1' o2' ob' defs d params sup.
Proof.
  intros W S A B A' B'.
  destruct (compile_consts_spec defs d params sup o1 o2 ob W S A B) as (vs & sz & C & _ & Z1 & ->).
  destruct (compile_consts_spec defs d params sup o1' o2' ob' W S A' B') as (vs' & sz' & C' & _ & Z2 & ->).
  rewrite C in C'. inversion C'; subst vs'.
  pose proof (sizes_spec_kequiv _ _ _ _ _ _ Z1 Z2) as E.
  rewrite (wire_params_ext repaired sz sz' params E). now rewrite (list_sizes_ext d defs sz sz' E).
Qed.

(* ------------------------------------------------------------------ errors *)

Lemma insert_err_perm x l : Permutation (insert_err x l) (x :: l).
Proof.
  induction l as [|y r IH]; cbn [insert_err]; [reflexivity|].
  destruct (cerr_leb x y); [reflexivity|]. rewrite IH. apply perm_swap.
Qed.
Lemma sort_errs_perm l : Permutation (sort_errs l) l.
Proof.
  unfold sort_errs. induction l as [|x r IH]; cbn [fold_right]; [reflexivity|].
  rewrite insert_err_perm. now constructor.
Qed.

Theorem errors_reported defs d params sup o1 o2 ob :
  is_order o1 d = true ->
  (exists p n ty meta, dget d (p, n) = Some (ty, meta) /\
     match sup_get sup p n with None => True | Some l => is_of_type l ty = false end) ->
  exists es,
    compile_consts repaired o1 o2 ob defs d params sup = Ok (inl es) /\
    (forall p n ty meta, dget d (p, n) = Some (ty, meta) -> sup_get sup p n = None -> In (EMissing p n meta) es) /\
    (forall p n ty meta l, dget d (p, n) = Some (ty, meta) -> sup_get sup p n = Some l ->
                           is_of_type l ty = false -> In (EBadType l ty) es) /\
    Permutation es (flat_map (err1 d sup) o1).
Proof.
  intros O (p0 & n0 & ty0 & meta0 & Hd0 & Hbad).
  pose proof (is_order_keys_in _ _ O) as K.
  set (raw := flat_map (err1 d sup) o1).
  assert (Hin : forall p n ty meta, dget d (p, n) = Some (ty, meta) -> forall e, In e (err1 d sup (p, n)) -> In e raw).
  { intros p n ty meta Hd e He. unfold raw. apply in_flat_map. exists (p, n). split; [|exact He].
    pose proof (is_order_existsb _ _ _ _ O Hd) as X. apply existsb_exists in X as (k & Hk & E).
    apply dkey_eqb_eq in E. now subst k. }
  assert (NE : raw <> []).
  { intro Q. assert (In (match sup_get sup p0 n0 with None => EMissing p0 n0 meta0 | Some l => EBadType l ty0 end) raw).
    { apply (Hin p0 n0 ty0 meta0 Hd0). unfold err1. rewrite Hd0. cbn [fst snd].
      destruct (sup_get sup p0 n0) as [l|]; [rewrite Hbad|]; now left. }
    rewrite Q in H. contradiction. }
  exists (sort_errs raw). split; [|split; [|split]].
  - unfold compile_consts, pass1. rewrite (pass1_closed d sup o1 K). cbn [bind s_errs app]. fold raw.
    destruct raw as [|e r]; [contradiction|]. reflexivity.
  - intros p n ty meta Hd Hs. apply (Permutation_in _ (Permutation_sym (sort_errs_perm raw))).
    apply (Hin p n ty meta Hd). unfold err1. rewrite Hd. cbn [fst snd]. rewrite Hs. now left.
  - intros p n ty meta l Hd Hs Ht. apply (Permutation_in _ (Permutation_sym (sort_errs_perm raw))).
    apply (Hin p n ty meta Hd). unfold err1. rewrite Hd. cbn [fst snd]. rewrite Hs, Ht. now left.
  - apply sort_errs_perm.
Qed.

(* constants that no const definition refers to are ignored: the result depends on the supplied
   constants only through the declared ones *)
Lemma ins_all_ext {V} (f g : dkey -> option V) o m : (forall k, In k o -> f k = g k) -> ins_all f o m = ins_all g o m.
Proof.
  unfold ins_all. revert m. induction o as [|k r IH]; intros m H; cbn [fold_left]; [reflexivity|].
  rewrite (H k (or_introl eq_refl)). apply IH. intros x Hx. apply H. now right.
Qed.

Lemma flat_map_ext_in {A B} (f g : A -> list B) l : (forall a, In a l -> f a = g a) -> flat_map f l = flat_map g l.
Proof.
  induction l as [|a r IH]; intro H; cbn [flat_map]; [reflexivity|].
  rewrite (H a (or_introl eq_refl)), IH; [reflexivity|]. intros x Hx. apply H. now right.
Qed.

Theorem extra_ignored defs d params sup sup' o1 o2 ob :
  is_order o1 d = true -> is_order o2 d = true ->
  (forall p n, dget d (p, n) <> None -> sup_get sup p n = sup_get sup' p n) ->
  compile_consts repaired o1 o2 ob defs d params sup = compile_consts repaired o1 o2 ob defs d params sup'.
Proof.
  intros O1 O2 H.
  pose proof (is_order_keys_in _ _ O1) as K1. pose proof (is_order_keys_in _ _ O2) as K2.
  assert (E1 : forall k, In k o1 -> sup_get sup (fst k) (snd k) = sup_get sup' (fst k) (snd k)).
  { intros [p n] Hk. apply H. now apply K1. }
  assert (E2 : forall k, In k o2 -> sup_get sup (fst k) (snd k) = sup_get sup' (fst k) (snd k)).
  { intros [p n] Hk. apply H. now apply K2. }
  unfold compile_consts, pass1, pass2.
  rewrite !(pass1_closed d _ o1 K1), !(pass2_closed d _ o2 K2).
  rewrite (flat_map_ext_in (err1 d sup) (err1 d sup') o1) by (intros k Hk; unfold err1; now rewrite (E1 k Hk)).
  rewrite (flat_map_ext_in (err2 d sup) (err2 d sup') o2) by (intros k Hk; unfold err2; now rewrite (E2 k Hk)).
  rewrite (ins_all_ext (fU sup) (fU sup') o1) by (intros k Hk; unfold fU; now rewrite (E1 k Hk)).
  rewrite (ins_all_ext (fS sup) (fS sup') o1) by (intros k Hk; unfold fS; now rewrite (E1 k Hk)).
  rewrite (ins_all_ext (fZ d sup) (fZ d sup') o1) by (intros k Hk; unfold fZ; now rewrite (E1 k Hk)).
  rewrite (ins_all_ext (fB d sup) (fB d sup') o2) by (intros k Hk; unfold fB; now rewrite (E2 k Hk)).
  reflexivity.
Qed.

(* ------------------------------------------------------------------ no fuel is involved *)

Definition nofuel {A} (r : res A) : Prop := r <> OutOfFuel.

Lemma bind_nofuel {A B} (r : res A) (f : A -> res B) : nofuel r -> (forall a, nofuel (f a)) -> nofuel (bind r f).
Proof. destruct r; cbn [bind]; unfold nofuel; auto; discriminate. Qed.
Lemma of_option_nofuel {A} (o : option A) : nofuel (of_option o).
Proof. destruct o; cbn; unfold nofuel; discriminate. Qed.
Lemma fold_left_nofuel {A B} (f : res A -> B -> res A) l :
  Forall (fun b => forall acc, nofuel acc -> nofuel (f acc b)) l -> forall a, nofuel a -> nofuel (fold_left f l a).
Proof. induction 1 as [|b r Hb _ IH]; cbn [fold_left]; intros a Ha; auto. Qed.
Lemma ok_nofuel {A} (a : A) : nofuel (Ok a).
Proof. unfold nofuel; discriminate. Qed.

Lemma resolve_nofuel c k bits m e : nofuel (resolve c k bits m e).
Proof.
  induction e as [| |n t|z t|p n|n|args IH|args IH|a b IHa IHb|a b IHa IHb] using cexpr_ind2; cbn [resolve];
    try (unfold nofuel; discriminate); try apply of_option_nofuel.
  - destruct (c_signed_lit c); unfold nofuel; discriminate.
  - apply fold_left_nofuel; [|apply ok_nofuel]. eapply Forall_impl; [|exact IH]. cbn beta. intros a Ha acc Hacc.
    apply bind_nofuel; [exact Hacc|]. intro r. apply bind_nofuel; [exact Ha|]. intro. apply ok_nofuel.
  - apply fold_left_nofuel; [|apply ok_nofuel]. eapply Forall_impl; [|exact IH]. cbn beta. intros a Ha acc Hacc.
    apply bind_nofuel; [exact Hacc|]. intro r. apply bind_nofuel; [exact Ha|]. intro. apply ok_nofuel.
  - apply bind_nofuel; [exact IHa|]. intro x. apply bind_nofuel; [exact IHb|]. intro y.
    unfold arith, truncw. destruct (c_own_width c); [destruct (_ || _)|]; unfold nofuel; discriminate.
  - apply bind_nofuel; [exact IHa|]. intro x. apply bind_nofuel; [exact IHb|]. intro y.
    unfold arith, truncw. destruct (c_own_width c); [destruct (_ || _)|]; unfold nofuel; discriminate.
Qed.

Lemma psize_nofuel c m t : nofuel (psize c m t).
Proof.
  induction t as [|u|s|e n IH|e k IH|e x IH|l IH] using pty_ind2; cbn [psize]; try apply ok_nofuel.
  - apply bind_nofuel; [exact IH|]. intro. apply ok_nofuel.
  - apply bind_nofuel; [exact IH|]. intro. apply bind_nofuel; [apply of_option_nofuel|]. intro. apply ok_nofuel.
  - apply bind_nofuel; [exact IH|]. intro. apply bind_nofuel; [apply resolve_nofuel|]. intro. apply ok_nofuel.
  - apply fold_left_nofuel; [|apply ok_nofuel]. eapply Forall_impl; [|exact IH]. cbn beta. intros a Ha acc Hacc.
    apply bind_nofuel; [exact Hacc|]. intro r. apply bind_nofuel; [exact Ha|]. intro. apply ok_nofuel.
Qed.

Lemma mapM_res_nofuel {A B} (f : A -> res B) l : (forall a, nofuel (f a)) -> nofuel (mapM_res f l).
Proof.
  intro H. induction l as [|a r IH]; cbn [mapM_res]; [apply ok_nofuel|].
  apply bind_nofuel; [apply H|]. intro. apply bind_nofuel; [exact IH|]. intro. apply ok_nofuel.
Qed.

Lemma wire_params_nofuel c m ps : nofuel (wire_params c m ps).
Proof.
  assert (G : nofuel (mapM_res (fun t => let* s := psize c m t in Ok (1%Z, s)) ps)).
  { apply mapM_res_nofuel. intro t. apply bind_nofuel; [apply psize_nofuel|]. intro. apply ok_nofuel. }
  assert (S : forall e n, nofuel (if (n =? 0)%Z then Ok [] else let* s := psize c m e in Ok [(n, s)])).
  { intros e n. destruct (n =? 0)%Z; [apply ok_nofuel|]. apply bind_nofuel; [apply psize_nofuel|]. intro. apply ok_nofuel. }
  unfold wire_params. destruct ps as [|p [|q r]]; try exact G; [|destruct p; exact G].
  destruct p as [| | |e n|e k|e x|l]; try exact G.
  - apply S.
  - apply bind_nofuel; [apply of_option_nofuel|]. intro. apply S.
  - apply bind_nofuel; [apply resolve_nofuel|]. intro. apply S.
Qed.

(* for well-typed definitions (references only to earlier consts: acyclic) and acceptable
   constants the compilation of the consts neither runs out of fuel nor panics, unless the
   wiring of the parameters of main does (types that refer to undeclared consts) *)
Theorem consts_total defs d params sup o1 o2 ob :
  wt_defs d defs = true -> sup_ok d sup = true -> is_order o1 d = true -> is_order o2 d = true ->
  compile_consts repaired o1 o2 ob defs d params sup <> OutOfFuel /\
  (compile_consts repaired o1 o2 ob defs d params sup = Crash ->
   exists sizes vs, const_spec sup defs = Some vs /\ sizes_spec d sup defs vs sizes /\
                    wire_params repaired sizes params = Crash).
Proof.
  intros W S A B.
  destruct (compile_consts_spec defs d params sup o1 o2 ob W S A B) as (vs & sz & C & _ & Z & ->).
  pose proof (wire_params_nofuel repaired sz params) as NF.
  destruct (wire_params repaired sz params) as [ig| |] eqn:E; cbn [bind].
  - split; [destruct (total_bits ig =? 0)%Z; discriminate|]. destruct (total_bits ig =? 0)%Z; discriminate.
  - split; [discriminate|]. intros _. exists sz, vs. auto.
  - exfalso. now apply NF.
Qed.

(* ------------------------------------------------------------------ the code as found *)

(* DESIGN.md §6-21: max starts from 0 *)
Example max_negative_refuted :
  let m := [(KE 0 0, (-5)%Z); (KE 0 1, (-3)%Z)] in
  let e := EMax [EExt 0 0; EExt 0 1] in
  resolve original KI64 32 m e = Ok 0%Z /\ resolve repaired KI64 32 m e = Ok (-3)%Z.
Proof. vm_compute. auto. Qed.

(* §6-22: a signed literal panics ("Not a signed const expr") *)
Example signed_literal_refuted :
  let m := [(KE 0 0, (-5)%Z)] in
  let e := EAdd (EExt 0 0) (ESig (-1) I32) in
  resolve original KI64 32 m e = Crash /\ resolve repaired KI64 32 m e = Ok (-6)%Z.
Proof. vm_compute. auto. Qed.

(* §6-23: max taken in u64, truncated afterwards: 200 + 100 = 300 > 50, 300 mod 256 = 44 *)
Example own_width_refuted :
  let m := [(KE 0 0, 200%Z)] in
  let e := EMax [EAdd (EExt 0 0) (EUns 100 U8); EUns 50 U8] in
  (exists r, resolve original KU64 8 m e = Ok r /\ bits_unsigned (to_bits r 8) = 44%Z) /\
  resolve repaired KU64 8 m e = Ok 50%Z /\
  spec_expr (TU U8) [(0, [(0, LUns 200 U8)])] [] e = Some 50%Z.
Proof. split; [exists 300%Z|]; vm_compute; auto. Qed.

Definition chain_defs : list cdef :=
  [Build_cdef 0 (TS I32) (EExt 9 0); Build_cdef 1 (TS I32) (EId 0);
   Build_cdef 2 (TS I32) (EId 1); Build_cdef 3 (TS I32) (EId 2)].
Definition chain_sup : supplied := [(9, [(0, LSig (-5) I32)])].

(* §6-11 (C06/C12): the result depends on the iteration order of const_defs *)
Example bind_order_refuted :
  let d := snd (check_defs original chain_defs) in
  let o := [(9, 0)] in
  compile_consts original o o [3; 2; 1; 0] chain_defs d [PBool] chain_sup = Crash /\
  (exists out, compile_consts original o o [0; 1; 2; 3] chain_defs d [PBool] chain_sup = Ok (inr out)).
Proof. vm_compute. split; eauto. Qed.

(* found by this check: a usize constant supplied with a literal of another type panics
   (compile.rs:154 / :328) instead of CompilerError::InvalidLiteralType *)
Example mistyped_usize_refuted :
  let defs := [Build_cdef 0 (TU Usize) (EExt 9 0)] in
  let d := snd (check_defs original defs) in
  compile_consts original [(9, 0)] [(9, 0)] [0] defs d [PBool] [(9, [(0, LUns 5 U8)])] = Crash /\
  compile_consts repaired [(9, 0)] [(9, 0)] [0] defs d [PBool] [(9, [(0, LUns 5 U8)])]
  = Ok (inl [EBadType (LUns 5 U8) (TU Usize)]).
Proof. vm_compute. auto. Qed.

(* found by this check: missing + mistyped constants: only the missing ones were named *)
Example missing_and_mistyped_refuted :
  let defs := [Build_cdef 0 (TU U8) (EExt 9 0); Build_cdef 1 (TU U16) (EExt 9 1)] in
  let d := snd (check_defs original defs) in
  let o := [(9, 0); (9, 1)] in
  let sup := [(9, [(0, LTrue)])] in
  compile_consts original o o [0; 1] defs d [PBool] sup = Ok (inl [EMissing 9 1 1]) /\
  compile_consts repaired o o [0; 1] defs d [PBool] sup = Ok (inl [EBadType LTrue (TU U8); EMissing 9 1 1]).
Proof. vm_compute. auto. Qed.

(* found by this check: a u8 const that refers to another const inside + panics
   ("Identifier existence checked during type cheking") *)
Example ref_in_arith_refuted :
  let defs := [Build_cdef 0 (TU U8) (EExt 9 0); Build_cdef 1 (TU U8) (EAdd (EId 0) (EUns 1 U8))] in
  let d := snd (check_defs original defs) in
  let sup := [(9, [(0, LUns 5 U8)])] in
  compile_consts original [(9, 0)] [(9, 0)] [0; 1] defs d [PBool] sup = Crash /\
  (exists out, compile_consts repaired [(9, 0)] [(9, 0)] [0; 1] defs d [PBool] sup = Ok (inr out) /\
               co_vals out = [(0, Some (to_bits 5 8)); (1, Some (to_bits 6 8))]).
Proof. vm_compute. split; eauto. Qed.

(* §6-8: a zero-sized single array parameter gives a circuit without inputs *)
Example zero_inputs_refuted :
  let defs := [Build_cdef 0 (TU Usize) (EExt 9 0)] in
  let d := snd (check_defs original defs) in
  let sup := [(9, [(0, LUns 0 Usize)])] in
  (exists out, compile_consts original [(9, 0)] [(9, 0)] [0] defs d [PArrC (PU U8) 0] sup = Ok (inr out) /\
               co_ig out = []) /\
  compile_consts repaired [(9, 0)] [(9, 0)] [0] defs d [PArrC (PU U8) 0] sup = Ok (inl [EZeroInputs]).
Proof. vm_compute. split; eauto. Qed.

(* found by this check: arithmetic in a bool const passes the checker and panics in the compiler *)
Example bool_arith_refuted :
  let defs := [Build_cdef 0 TBool (EMax [ETrue; EFalse])] in
  fst (check_defs original defs) = [] /\
  compile_consts original [] [] [0] defs [] [PBool] [] = Crash /\
  fst (check_defs repaired defs) = [(0, TExpectedNumberType)].
Proof. vm_compute. auto. Qed.

(* non-vacuity of the hypotheses of the theorems: the documented example
     const MY_CONST: usize = min(PARTY_0::MY_CONST, PARTY_1::MY_CONST) + 5usize;
     const DEPENDENT_CONST: usize = max(MY_CONST, PARTY_1::MY_CONST - 2usize) + 6usize;
   with 3 and 2 supplied: MY_CONST = 7, DEPENDENT_CONST = 13 *)
Definition doc_defs : list cdef :=
  [Build_cdef 1 (TU Usize) (EAdd (EMin [EExt 10 1; EExt 11 1]) (EUns 5 Usize));
   Build_cdef 0 (TU Usize) (EAdd (EMax [EId 1; ESub (EExt 11 1) (EUns 2 Usize)]) (EUns 6 Usize))].
Definition doc_sup : supplied := [(10, [(1, LUns 3 Usize)]); (11, [(1, LUns 2 Usize)])].
Example hypotheses_satisfiable :
  let d := snd (check_defs repaired doc_defs) in
  fst (check_defs repaired doc_defs) = [] /\
  wt_defs d doc_defs = true /\ sup_ok d doc_sup = true /\
  is_order [(11, 1); (10, 1)] d = true /\ is_order [(10, 1); (11, 1)] d = true /\
  const_spec doc_sup doc_defs = Some [(1, 7%Z); (0, 13%Z)] /\
  exists out, compile_consts repaired [(11, 1); (10, 1)] [(10, 1); (11, 1)] [] doc_defs d [PArrC (PU U16) 0] doc_sup
              = Ok (inr out) /\ co_ig out = [(13%Z, 16%Z)] /\
              co_vals out = [(1, Some (to_bits 7 32)); (0, Some (to_bits 13 32))].
Proof. vm_compute. repeat split; eauto. Qed.
