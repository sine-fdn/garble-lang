(* THE FUEL Lang/Sem.v NEEDS.

   [sem_need_e / sem_need_b / sem_need_s f P]: one more than the greatest fuel-depth below the
   node, exactly as [Sem.eval / exec_block / exec] consume fuel: every recursive call to one of
   the three costs one unit; the inner loops (over the elements of a list of expressions, the
   fields of a struct literal, the arms of a match, the accessors of an assignment, the
   statements of a block, the elements of the array of a `for` / join loop) cost nothing per
   iteration; patterns cost nothing ([Sem.pmatch] is structural); a call adds the need of the
   callee's body.  As in Compile/TSemTotal.v the parameter [f] only bounds the exploration:
   the value is meaningful when it is at most [f] (for a recursive program it exceeds [f]).

   [sem_no_nofuel]: if the need is at most [f] and at most the fuel, the answer is never
   [NoFuel] (every environment); [run_main_no_nofuel]: [sem_fuel_enough fuel P = true] excludes
   [RunNoFuel] for all inputs.  [sem_fuel_mono]: an answer other than [NoFuel] is stable under
   more fuel.  [wt_covered_fuel_agrees]: the program theorem without the [RunNoFuel] disjunct. *)
From Coq Require Import Lia ZArith.
From GV Require Import Base.Util Lang.Ast Lang.Wt Lang.ValTy Lang.WtSound Lang.WtShape
  Panic.PanicRec Panic.PanicSem Compile.Lower Compile.TSem Compile.TSemTotal Compile.TSemSemExpr
  Compile.TSemSemFull Compile.TSemSemFullCall Compile.TSemSemFullConst Compile.Fragment Compile.TSemSemFullWt.
From GV Require Lang.Sem.
Local Open Scope nat_scope.

(* ------------------------------------------------------------------ the need *)

Fixpoint sem_need_e (f : nat) (P : program) (e : expr) {struct f} : nat :=
  match f with
  | O => 1
  | S f' =>
      S (match e with
         | Ex ei _ _ =>
             match ei with
             | ETrue | EFalse | ENumU _ _ | ENumS _ _ | EId _ | ERange _ _ _ | EJoin _ _ _ _ => 0
             | EArrLit es | ETupLit es | EEnumLit _ _ es => maxl (sem_need_e f' P) es
             | EArrRep e1 _ | ETupAcc e1 _ | EFld e1 _ | ENeg e1 | ENot e1 | ECast _ e1 => sem_need_e f' P e1
             | EIdx a i => Nat.max (sem_need_e f' P a) (sem_need_e f' P i)
             | EStructLit _ fields => maxl (fun fe => sem_need_e f' P (snd fe)) fields
             | EMatch s arms =>
                 Nat.max (sem_need_e f' P s) (maxl (fun arm => sem_need_e f' P (snd arm)) arms)
             | EOp _ x y => Nat.max (sem_need_e f' P x) (sem_need_e f' P y)
             | EBlock b => sem_need_b f' P b
             | ECall fn args =>
                 Nat.max (maxl (sem_need_e f' P) args)
                         (match find_fn P fn with Some fd => sem_need_b f' P (fn_body fd) | None => 0 end)
             | EIf c a b => Nat.max (sem_need_e f' P c) (Nat.max (sem_need_e f' P a) (sem_need_e f' P b))
             end
         end)
  end
with sem_need_b (f : nat) (P : program) (b : list stmt) {struct f} : nat :=
  match f with
  | O => 1
  | S f' => S (maxl (sem_need_s f' P) b)
  end
with sem_need_s (f : nat) (P : program) (s : stmt) {struct f} : nat :=
  match f with
  | O => 1
  | S f' =>
      S (match s with
         | St si _ =>
             match si with
             | SLet _ e | SLetMut _ e | SExpr e => sem_need_e f' P e
             | SAssign _ accs e =>
                 Nat.max (sem_need_e f' P e)
                         (maxl (fun a => match a with AIdx _ i => sem_need_e f' P i | _ => 0 end) accs)
             | SFor _ arr body => Nat.max (sem_need_e f' P arr) (sem_need_b f' P body)
             | SJoinLoop _ _ a b body =>
                 Nat.max (Nat.max (sem_need_e f' P a) (sem_need_e f' P b)) (sem_need_b f' P body)
             end
         end)
  end.

(* ------------------------------------------------------------------ never NoFuel *)

Lemma nnf_bind {A B} (o : Sem.outcome A) (k : A -> Sem.outcome B) :
  o <> Sem.NoFuel -> (forall a, k a <> Sem.NoFuel) -> Sem.obind o k <> Sem.NoFuel.
Proof. intros Ho Hk. destruct o; cbn [Sem.obind]; try discriminate; [apply Hk|congruence]. Qed.

(* one step of the case analysis of a goal [_ <> NoFuel] *)
Ltac nf1 :=
  first
  [ assumption
  | discriminate
  | apply nnf_bind; [|let a := fresh "a" in intro a; try (destruct a as [? ?])]
  | match goal with |- (if ?c then _ else _) <> _ => destruct c end
  | match goal with |- match ?x with _ => _ end <> _ => destruct x end ].
Ltac nf := repeat nf1.

Lemma checked_nnf sg b m z : Sem.checked sg b m z <> Sem.NoFuel.
Proof. unfold Sem.checked. destruct (Sem.in_range sg b z); discriminate. Qed.

Lemma eval_binop_nnf o m rt tx x y l : Sem.eval_binop o m rt tx x y l <> Sem.NoFuel.
Proof.
  unfold Sem.eval_binop. destruct o, x, y; try discriminate;
    destruct (Sem.int_ty rt) as [[sg bits]|]; try discriminate;
    repeat match goal with |- context [if ?c then _ else _] => destruct c end; try discriminate;
    (apply nnf_bind; [apply checked_nnf|intro; discriminate]).
Qed.

Lemma eval_cast_nnf to from v : Sem.eval_cast to from v <> Sem.NoFuel.
Proof. unfold Sem.eval_cast. destruct to, v; discriminate. Qed.

Section NStep.
  Variable P : program.
  Variables f0 k m : nat.
  Hypothesis HeN : forall c en, sem_need_e f0 P c <= m -> Sem.eval k P en c <> Sem.NoFuel.
  Hypothesis HbN : forall b en, sem_need_b f0 P b <= m -> Sem.exec_block k P en b <> Sem.NoFuel.
  Hypothesis HsN : forall s en, sem_need_s f0 P s <= m -> Sem.exec k P en s <> Sem.NoFuel.

  Lemma nnf_ev_list : forall es en, maxl (sem_need_e f0 P) es <= m -> ev_list (Sem.eval k P) es en <> Sem.NoFuel.
  Proof.
    induction es as [|e r IH]; intros en H; cbn [ev_list]; [discriminate|]. mx.
    apply nnf_bind; [now apply HeN|]. intros [v en1]. apply nnf_bind; [now apply IH|]. intros [vs en2]. discriminate.
  Qed.

  Lemma nnf_ev_fields fields : maxl (fun fe => sem_need_e f0 P (snd fe)) fields <= m ->
    forall ds en, ev_fields (Sem.eval k P) fields ds en <> Sem.NoFuel.
  Proof.
    intro H. induction ds as [|[fname fty] r IH]; intro en; cbn [ev_fields]; [discriminate|].
    destruct (assocN fname fields) as [fe|] eqn:Ef; [|discriminate].
    apply nnf_bind; [apply HeN; exact (maxl_in _ _ _ H _ (assocN_in _ _ _ Ef))|].
    intros [v en1]. apply nnf_bind; [apply IH|]. intros [vs en2]. discriminate.
  Qed.

  Lemma nnf_ev_arms v en : forall arms, maxl (fun arm : pattern * expr => sem_need_e f0 P (snd arm)) arms <= m ->
    ev_arms P (Sem.eval k P) v en arms <> Sem.NoFuel.
  Proof.
    induction arms as [|[p body] r IH]; intro H; cbn [ev_arms]; [discriminate|]. mx. cbn [snd] in *.
    destruct (Sem.pmatch P p v); [|now apply IH].
    apply nnf_bind; [now apply HeN|]. intros [res en1]. discriminate.
  Qed.

  Lemma nnf_xb_go : forall ss last en, maxl (sem_need_s f0 P) ss <= m -> xb_go (Sem.exec k P) ss last en <> Sem.NoFuel.
  Proof.
    induction ss as [|s r IH]; intros last en H; cbn [xb_go]; [discriminate|]. mx.
    apply nnf_bind; [now apply HsN|]. intros [v en1]. now apply IH.
  Qed.

  Lemma nnf_x_accs mt : forall accs cur en path,
    maxl (fun a => match a with AIdx _ i => sem_need_e f0 P i | _ => 0 end) accs <= m ->
    x_accs P (Sem.eval k P) mt accs cur en path <> Sem.NoFuel.
  Proof.
    induction accs as [|a r IH]; intros cur en path H; cbn [x_accs]; [discriminate|]. mx.
    destruct a as [aty ie|tty i|sty fld].
    - apply nnf_bind; [now apply HeN|]. intros [vi en1]. nf; now apply IH.
    - nf; now apply IH.
    - nf; now apply IH.
  Qed.

  Lemma nnf_x_for p body : sem_need_b f0 P body <= m ->
    forall vs en, x_for P (Sem.exec_block k P) p body vs en <> Sem.NoFuel.
  Proof.
    intro H. induction vs as [|v r IH]; intro en; cbn [x_for]; [discriminate|].
    destruct (Sem.pmatch P p v); [|discriminate].
    apply nnf_bind; [now apply HbN|]. intros [u en1]. apply IH.
  Qed.

  Lemma nnf_x_join p body jt ta tb ys : sem_need_b f0 P body <= m ->
    forall xs en, x_join P (Sem.exec_block k P) p body jt ta tb ys xs en <> Sem.NoFuel.
  Proof.
    intro H. induction xs as [|x r IH]; intro en; cbn [x_join]; [discriminate|].
    destruct (Sem.join_key P jt ta x); [|discriminate]. cbv zeta.
    match goal with |- match ?f with _ => _ end <> _ => destruct f end; [|apply IH].
    destruct (Sem.pmatch P p _); [|discriminate].
    apply nnf_bind; [now apply HbN|]. intros [u en1]. apply IH.
  Qed.

  Lemma expr_nnf e en : sem_need_e (S f0) P e <= S m -> Sem.eval (S k) P en e <> Sem.NoFuel.
  Proof.
    destruct e as [ei mt t]. rewrite eval_eq. cbv zeta.
    destruct ei as [| |nu lb|z lb|name|es|e1 nr|a i|es|e1 i|e1 fld|name fields|ename variant args|s arms|e1|e1|o x y|b|fn args|jt ha a b|c a b|to e1|lo hi bits];
      cbn [sem_need_e]; intro H; apply le_S_n in H; mx.
    - discriminate.
    - discriminate.
    - discriminate.
    - discriminate.
    - nf.
    - apply nnf_bind; [now apply nnf_ev_list|]. intros [vs en1]. discriminate.
    - apply nnf_bind; [now apply HeN|]. intros [v en1]. discriminate.
    - apply nnf_bind; [now apply HeN|]. intros [va en1]. apply nnf_bind; [now apply HeN|]. intros [vi en2]. nf.
    - apply nnf_bind; [now apply nnf_ev_list|]. intros [vs en1]. discriminate.
    - apply nnf_bind; [now apply HeN|]. intros [v en1]. nf.
    - apply nnf_bind; [now apply HeN|]. intros [v en1]. nf.
    - destruct (assocN name (p_structs P)); [|discriminate].
      apply nnf_bind; [now apply nnf_ev_fields|]. intros [vs en1]. discriminate.
    - apply nnf_bind; [now apply nnf_ev_list|]. intros [vs en1]. discriminate.
    - apply nnf_bind; [now apply HeN|]. intros [v en1]. now apply nnf_ev_arms.
    - apply nnf_bind; [now apply HeN|]. intros [v en1]. nf. apply checked_nnf.
    - apply nnf_bind; [now apply HeN|]. intros [v en1]. nf.
    - destruct o;
        try (apply nnf_bind; [now apply HeN|]; intros [vx en1]; apply nnf_bind; [now apply HeN|]; intros [vy en2];
             apply nnf_bind; [apply eval_binop_nnf|intros [v len]; discriminate]).
      + apply nnf_bind; [now apply HeN|]. intros [vx en1]. destruct vx as [[]| | | |]; try discriminate. now apply HeN.
      + apply nnf_bind; [now apply HeN|]. intros [vx en1]. destruct vx as [[]| | | |]; try discriminate. now apply HeN.
    - apply nnf_bind; [now apply HbN|]. intros [v en1]. discriminate.
    - destruct (find_fn P fn) as [d|]; [|discriminate].
      apply nnf_bind; [now apply nnf_ev_list|]. intros [vs en1].
      destruct (negb _); [discriminate|]. cbv zeta.
      apply nnf_bind; [now apply HbN|]. intros [v en2]. discriminate.
    - discriminate.
    - apply nnf_bind; [now apply HeN|]. intros [vc en1]. destruct vc as [[]| | | |]; try discriminate; now apply HeN.
    - apply nnf_bind; [now apply HeN|]. intros [v en1]. apply nnf_bind; [|intro; discriminate].
      apply eval_cast_nnf.
    - discriminate.
  Qed.

  Lemma block_nnf b en : sem_need_b (S f0) P b <= S m -> Sem.exec_block (S k) P en b <> Sem.NoFuel.
  Proof. rewrite exec_block_eq. cbn [sem_need_b]. intro H. apply le_S_n in H. now apply nnf_xb_go. Qed.

  Lemma stmt_nnf s en : sem_need_s (S f0) P s <= S m -> Sem.exec (S k) P en s <> Sem.NoFuel.
  Proof.
    destruct s as [si mt]. rewrite exec_eq. cbv zeta.
    destruct si as [p e|x e|x accs e|p arr body|p jt a b body|e]; cbn [sem_need_s]; intro H; apply le_S_n in H; mx.
    - apply nnf_bind; [now apply HeN|]. intros [v en1]. nf.
    - apply nnf_bind; [now apply HeN|]. intros [v en1]. discriminate.
    - apply nnf_bind; [now apply HeN|]. intros [nv en0]. destruct (Sem.lookup_var en0 x); [|discriminate].
      apply nnf_bind; [now apply nnf_x_accs|]. intros [path en2]. nf.
    - apply nnf_bind; [now apply HeN|]. intros [va en1]. destruct va; try discriminate.
      apply nnf_bind; [now apply nnf_x_for|]. intro. discriminate.
    - apply nnf_bind; [now apply HeN|]. intros [va en1]. apply nnf_bind; [now apply HeN|]. intros [vb en2].
      destruct va; try discriminate. destruct vb; try discriminate.
      destruct (Sem.elem_ty_of (e_ty a)); try discriminate. destruct (Sem.elem_ty_of (e_ty b)); try discriminate.
      apply nnf_bind; [now apply nnf_x_join|]. intro. discriminate.
    - now apply HeN.
  Qed.
End NStep.

(* the need is at most the exploration bound and at most the fuel: never NoFuel *)
Theorem sem_no_nofuel_min P : forall f k,
  (forall e en, sem_need_e f P e <= Nat.min f k -> Sem.eval k P en e <> Sem.NoFuel) /\
  (forall b en, sem_need_b f P b <= Nat.min f k -> Sem.exec_block k P en b <> Sem.NoFuel) /\
  (forall s en, sem_need_s f P s <= Nat.min f k -> Sem.exec k P en s <> Sem.NoFuel).
Proof.
  induction f as [|f IH]; intro k.
  - repeat split; intros ? ? H; exfalso; cbn in H; lia.
  - destruct k as [|k]; [repeat split; intros ? ? H; exfalso; cbn in H; lia|].
    destruct (IH k) as (He & Hb & Hs). change (Nat.min (S f) (S k)) with (S (Nat.min f k)).
    repeat split; intros.
    + eapply expr_nnf; eassumption.
    + eapply block_nnf; eassumption.
    + eapply stmt_nnf; eassumption.
Qed.

Theorem sem_no_nofuel P f fuel :
  (forall e en, sem_need_e f P e <= f -> sem_need_e f P e <= fuel -> Sem.eval fuel P en e <> Sem.NoFuel) /\
  (forall b en, sem_need_b f P b <= f -> sem_need_b f P b <= fuel -> Sem.exec_block fuel P en b <> Sem.NoFuel) /\
  (forall s en, sem_need_s f P s <= f -> sem_need_s f P s <= fuel -> Sem.exec fuel P en s <> Sem.NoFuel).
Proof.
  destruct (sem_no_nofuel_min P f fuel) as (He & Hb & Hs).
  repeat split; intros; [apply He|apply Hb|apply Hs]; lia.
Qed.
Print Assumptions sem_no_nofuel.

(* in the form of Compile/TSemTotal.v: need <= fuel' <= f *)
Corollary sem_no_nofuel_le P f fuel' : fuel' <= f ->
  (forall e en, sem_need_e f P e <= fuel' -> Sem.eval fuel' P en e <> Sem.NoFuel) /\
  (forall b en, sem_need_b f P b <= fuel' -> Sem.exec_block fuel' P en b <> Sem.NoFuel) /\
  (forall s en, sem_need_s f P s <= fuel' -> Sem.exec fuel' P en s <> Sem.NoFuel).
Proof.
  intro Hle. destruct (sem_no_nofuel P f fuel') as (He & Hb & Hs).
  repeat split; intros; [apply He|apply Hb|apply Hs]; lia.
Qed.

(* ------------------------------------------------------------------ whole programs *)

(* exploration bound of [sem_need_*]: more than any fuel in use (the runner uses 2000) *)
Definition sem_fuel_cap : nat := 100 * 100.

(* the fuel [Sem.run_main] needs on [P]: the global constants are evaluated with the whole
   fuel, then main's body is executed with the whole fuel *)
Definition sem_fuel_needed (P : program) : nat :=
  Nat.max (maxl (fun c : N * expr => sem_need_e sem_fuel_cap P (snd c)) (p_consts P))
          (match find_fn P (p_main P) with
           | Some fd => sem_need_b sem_fuel_cap P (fn_body fd)
           | None => 0
           end).

(* what the extracted checker evaluates *)
Definition sem_fuel_enough (fuel : nat) (P : program) : bool :=
  (sem_fuel_needed P <=? fuel) && (sem_fuel_needed P <=? sem_fuel_cap).

Theorem run_main_fuel P fuel args : sem_fuel_needed P <= fuel -> sem_fuel_needed P <= sem_fuel_cap ->
  Sem.run_main fuel P args <> Sem.RunNoFuel.
Proof.
  unfold sem_fuel_needed. intros Hn Hc. apply Nat.max_lub_iff in Hn. destruct Hn as [Hn1 Hn2].
  apply Nat.max_lub_iff in Hc. destruct Hc as [Hc1 Hc2].
  destruct (sem_no_nofuel P sem_fuel_cap fuel) as (He & Hb & _).
  unfold Sem.run_main. destruct (find_fn P (p_main P)) as [d|]; [|discriminate].
  destruct (Sem.decode_args P (fn_params d) args) as [vals|]; [|discriminate].
  assert (Hcs : Sem.eval_consts fuel P <> Sem.NoFuel).
  { unfold Sem.eval_consts. generalize (Sem.mkEnv [[]] false).
    induction (p_consts P) as [|[x e] r IH]; intro en; [discriminate|]. mx. cbn [snd] in *.
    apply nnf_bind; [now apply He|]. intros [v en1]. now apply IH. }
  destruct (Sem.eval_consts fuel P) as [en0| | |]; try discriminate; [|congruence].
  specialize (Hb (fn_body d) (Sem.push_scope (Sem.bind_all (Sem.push_scope en0) vals)) Hc2 Hn2).
  destruct (Sem.exec_block fuel P _ (fn_body d)) as [[v en]| | |]; try discriminate; [|congruence].
  destruct (Sem.encode Sem.ty_fuel P (fn_ret d) v); discriminate.
Qed.

Corollary run_main_no_nofuel P fuel args : sem_fuel_enough fuel P = true -> Sem.run_main fuel P args <> Sem.RunNoFuel.
Proof.
  unfold sem_fuel_enough. intro H. apply andb_prop in H. destruct H as [H1 H2].
  apply Nat.leb_le in H1. apply Nat.leb_le in H2. now apply run_main_fuel.
Qed.
Print Assumptions run_main_no_nofuel.

(* ------------------------------------------------------------------ fuel monotonicity: an answer
   other than NoFuel (a value, a panic, Stuck) is the answer with any larger fuel *)

Definition ole {A} (o o' : Sem.outcome A) : Prop := o <> Sem.NoFuel -> o' = o.

Lemma ole_refl {A} (o : Sem.outcome A) : ole o o.
Proof. intro. reflexivity. Qed.

Lemma ole_bind {A B} (o o' : Sem.outcome A) (k k' : A -> Sem.outcome B) :
  ole o o' -> (forall a, ole (k a) (k' a)) -> ole (Sem.obind o k) (Sem.obind o' k').
Proof.
  intros H Hk Hn. destruct o as [a|r m|c|]; cbn [Sem.obind] in Hn |- *.
  - rewrite (H ltac:(discriminate)). cbn [Sem.obind]. now apply Hk.
  - now rewrite (H ltac:(discriminate)).
  - now rewrite (H ltac:(discriminate)).
  - contradiction.
Qed.

Ltac mo1 :=
  first
  [ apply ole_refl
  | assumption
  | apply ole_bind; [|let a := fresh "a" in intro a; try (destruct a as [? ?])]
  | match goal with |- ole (if ?c then _ else _) _ => destruct c end
  | match goal with |- ole (match ?x with _ => _ end) _ => destruct x end ].
Ltac mo := repeat mo1.

Section MStep.
  Variable P : program.
  Variables ev ev' : Sem.env -> expr -> Sem.outcome (Sem.value * Sem.env).
  Variables xb xb' : Sem.env -> list stmt -> Sem.outcome (Sem.value * Sem.env).
  Variables ex ex' : Sem.env -> stmt -> Sem.outcome (Sem.value * Sem.env).
  Hypothesis He : forall en e, ole (ev en e) (ev' en e).
  Hypothesis Hb : forall en b, ole (xb en b) (xb' en b).
  Hypothesis Hs : forall en s, ole (ex en s) (ex' en s).

  Lemma ole_ev_list : forall es en, ole (ev_list ev es en) (ev_list ev' es en).
  Proof.
    induction es as [|e r IH]; intro en; cbn [ev_list]; [apply ole_refl|].
    apply ole_bind; [apply He|]. intros [v en1]. apply ole_bind; [apply IH|]. intro. apply ole_refl.
  Qed.

  Lemma ole_ev_fields fields : forall ds en, ole (ev_fields ev fields ds en) (ev_fields ev' fields ds en).
  Proof.
    induction ds as [|[fname fty] r IH]; intro en; cbn [ev_fields]; [apply ole_refl|].
    destruct (assocN fname fields); [|apply ole_refl].
    apply ole_bind; [apply He|]. intros [v en1]. apply ole_bind; [apply IH|]. intro. apply ole_refl.
  Qed.

  Lemma ole_ev_arms v en : forall arms, ole (ev_arms P ev v en arms) (ev_arms P ev' v en arms).
  Proof.
    induction arms as [|[p body] r IH]; cbn [ev_arms]; [apply ole_refl|].
    destruct (Sem.pmatch P p v); [|exact IH]. apply ole_bind; [apply He|]. intro. apply ole_refl.
  Qed.

  Lemma ole_xb_go : forall ss last en, ole (xb_go ex ss last en) (xb_go ex' ss last en).
  Proof.
    induction ss as [|s r IH]; intros last en; cbn [xb_go]; [apply ole_refl|].
    apply ole_bind; [apply Hs|]. intros [v en1]. apply IH.
  Qed.

  Lemma ole_x_accs mt : forall accs cur en path, ole (x_accs P ev mt accs cur en path) (x_accs P ev' mt accs cur en path).
  Proof.
    induction accs as [|a r IH]; intros cur en path; cbn [x_accs]; [apply ole_refl|].
    destruct a as [aty ie|tty i|sty fld].
    - apply ole_bind; [apply He|]. intros [vi en1]. mo; apply IH.
    - mo; apply IH.
    - mo; apply IH.
  Qed.

  Lemma ole_x_for p body : forall vs en, ole (x_for P xb p body vs en) (x_for P xb' p body vs en).
  Proof.
    induction vs as [|v r IH]; intro en; cbn [x_for]; [apply ole_refl|].
    destruct (Sem.pmatch P p v); [|apply ole_refl]. apply ole_bind; [apply Hb|]. intros [u en1]. apply IH.
  Qed.

  Lemma ole_x_join p body jt ta tb ys : forall xs en,
    ole (x_join P xb p body jt ta tb ys xs en) (x_join P xb' p body jt ta tb ys xs en).
  Proof.
    induction xs as [|x r IH]; intro en; cbn [x_join]; [apply ole_refl|].
    destruct (Sem.join_key P jt ta x); [|apply ole_refl]. cbv zeta.
    match goal with |- ole (match ?f with _ => _ end) _ => destruct f end; [|apply IH].
    destruct (Sem.pmatch P p _); [|apply ole_refl]. apply ole_bind; [apply Hb|]. intros [u en1]. apply IH.
  Qed.
End MStep.

Theorem sem_fuel_mono P : forall k k', k <= k' ->
  (forall en e, ole (Sem.eval k P en e) (Sem.eval k' P en e)) /\
  (forall en b, ole (Sem.exec_block k P en b) (Sem.exec_block k' P en b)) /\
  (forall en s, ole (Sem.exec k P en s) (Sem.exec k' P en s)).
Proof.
  induction k as [|k IH]; intros k' Hle.
  - repeat split; intros en x Hn; exfalso; apply Hn; reflexivity.
  - destruct k' as [|k']; [lia|]. destruct (IH k' ltac:(lia)) as (He & Hb & Hs).
    pose proof (ole_ev_list _ _ He) as Hl. pose proof (ole_ev_arms P _ _ He) as Ha.
    pose proof (fun fields => ole_ev_fields _ _ He fields) as Hf.
    split; [|split].
    + intros en [ei mt t]. rewrite !eval_eq. cbv zeta.
      destruct ei as [| |nu lb|z lb|name|es|e1 nr|a i|es|e1 i|e1 fld|name fields|ename variant args|s arms|e1|e1|o x y|b|fn args|jt ha a b|c a b|to e1|lo hi bits];
        try apply ole_refl.
      * apply ole_bind; [apply Hl|]. intro. apply ole_refl.
      * apply ole_bind; [apply He|]. intro. apply ole_refl.
      * apply ole_bind; [apply He|]. intros [va en1]. apply ole_bind; [apply He|]. intro. apply ole_refl.
      * apply ole_bind; [apply Hl|]. intro. apply ole_refl.
      * apply ole_bind; [apply He|]. intro. apply ole_refl.
      * apply ole_bind; [apply He|]. intro. apply ole_refl.
      * destruct (assocN name (p_structs P)); [|apply ole_refl]. apply ole_bind; [apply Hf|]. intro. apply ole_refl.
      * apply ole_bind; [apply Hl|]. intro. apply ole_refl.
      * apply ole_bind; [apply He|]. intros [v en1]. apply Ha.
      * apply ole_bind; [apply He|]. intro. apply ole_refl.
      * apply ole_bind; [apply He|]. intro. apply ole_refl.
      * destruct o;
          try (apply ole_bind; [apply He|]; intros [vx en1]; apply ole_bind; [apply He|]; intro; apply ole_refl).
        -- apply ole_bind; [apply He|]. intros [vx en1]. destruct vx as [[]| | | |]; try apply ole_refl. apply He.
        -- apply ole_bind; [apply He|]. intros [vx en1]. destruct vx as [[]| | | |]; try apply ole_refl. apply He.
      * apply ole_bind; [apply Hb|]. intro. apply ole_refl.
      * destruct (find_fn P fn) as [d|]; [|apply ole_refl].
        apply ole_bind; [apply Hl|]. intros [vs en1]. destruct (negb _); [apply ole_refl|]. cbv zeta.
        apply ole_bind; [apply Hb|]. intro. apply ole_refl.
      * apply ole_bind; [apply He|]. intros [vc en1]. destruct vc as [[]| | | |]; try apply ole_refl; apply He.
      * apply ole_bind; [apply He|]. intro. apply ole_refl.
    + intros en b. rewrite !exec_block_eq. now apply ole_xb_go.
    + intros en [si mt]. rewrite !exec_eq. cbv zeta.
      destruct si as [p e|x e|x accs e|p arr body|p jt a b body|e].
      * apply ole_bind; [apply He|]. intro. apply ole_refl.
      * apply ole_bind; [apply He|]. intro. apply ole_refl.
      * apply ole_bind; [apply He|]. intros [nv en0]. destruct (Sem.lookup_var en0 x); [|apply ole_refl].
        apply ole_bind; [now apply ole_x_accs|]. intro. apply ole_refl.
      * apply ole_bind; [apply He|]. intros [va en1]. destruct va; try apply ole_refl.
        apply ole_bind; [now apply ole_x_for|]. intro. apply ole_refl.
      * apply ole_bind; [apply He|]. intros [va en1]. apply ole_bind; [apply He|]. intros [vb en2].
        destruct va; try apply ole_refl. destruct vb; try apply ole_refl.
        destruct (Sem.elem_ty_of (e_ty a)); try apply ole_refl. destruct (Sem.elem_ty_of (e_ty b)); try apply ole_refl.
        apply ole_bind; [now apply ole_x_join|]. intro. apply ole_refl.
      * apply He.
Qed.
Print Assumptions sem_fuel_mono.

(* whole programs: a run that does not end with RunNoFuel ends the same way with more fuel *)
Theorem run_main_mono P args k k' : k <= k' -> Sem.run_main k P args <> Sem.RunNoFuel ->
  Sem.run_main k' P args = Sem.run_main k P args.
Proof.
  intros Hle. destruct (sem_fuel_mono P k k' Hle) as (He & Hb & _). unfold Sem.run_main.
  destruct (find_fn P (p_main P)) as [d|]; [|reflexivity].
  destruct (Sem.decode_args P (fn_params d) args) as [vals|]; [|reflexivity].
  assert (Hcs : ole (Sem.eval_consts k P) (Sem.eval_consts k' P)).
  { unfold Sem.eval_consts. generalize (Sem.mkEnv [[]] false).
    induction (p_consts P) as [|[x e] r IH]; intro en; [apply ole_refl|].
    apply ole_bind; [apply He|]. intros [v en1]. apply IH. }
  destruct (Sem.eval_consts k P) as [en0| | |] eqn:Ec; intro Hn;
    try (rewrite (Hcs ltac:(discriminate)); reflexivity); [|contradiction].
  rewrite (Hcs ltac:(discriminate)).
  specialize (Hb (Sem.push_scope (Sem.bind_all (Sem.push_scope en0) vals)) (fn_body d)).
  destruct (Sem.exec_block k P _ (fn_body d)) as [[v en]| | |] eqn:Eb;
    try (rewrite (Hb ltac:(discriminate)); reflexivity). contradiction.
Qed.
Print Assumptions run_main_mono.

(* with enough fuel the answer does not depend on the fuel *)
Corollary run_main_stable P args fuel fuel' : sem_fuel_enough fuel P = true -> fuel <= fuel' ->
  Sem.run_main fuel' P args = Sem.run_main fuel P args.
Proof. intros H Hle. apply run_main_mono; [exact Hle|now apply run_main_no_nofuel]. Qed.

(* ------------------------------------------------------------------ the program theorems without
   the NoFuel escape.  The last disjunct is the one of [TSemSemFullWt.wt_covered_agrees]. *)

Theorem wt_covered_fuel_agrees P fuel fw fT args o outs : fw <= wt_fuel ->
  wt_covered fw P = true -> sem_fuel_enough fuel P = true ->
  canonical_main_args P args = true -> tsem_program fT P args = Ok (o, outs) ->
  (exists bits l, Sem.run_main fuel P args = Sem.RunOk bits l /\ o = None /\ outs = bits) \/
  (exists r m, Sem.run_main fuel P args = Sem.RunPanic r m /\ o = Some (preason_num (pr r), ploc32 (ploc_of m))) \/
  (frag_program P = false /\ exists c, Sem.run_main fuel P args = Sem.RunStuck c /\ In c stuck_allowed).
Proof.
  intros Hle Hc Hf Hcan Hrun. pose proof (run_main_no_nofuel P fuel args Hf) as Hn.
  destruct (wt_covered_agrees P fuel fw fT args o outs Hle Hc Hcan Hrun) as [_ [H|[H|[H|H]]]]; auto. contradiction.
Qed.
Print Assumptions wt_covered_fuel_agrees.

Corollary wt_covered_fuel_agrees_frag P fuel fw fT args o outs : fw <= wt_fuel ->
  wt_covered fw P = true -> sem_fuel_enough fuel P = true -> frag_program P = true ->
  canonical_main_args P args = true -> tsem_program fT P args = Ok (o, outs) ->
  (exists bits l, Sem.run_main fuel P args = Sem.RunOk bits l /\ o = None /\ outs = bits) \/
  (exists r m, Sem.run_main fuel P args = Sem.RunPanic r m /\ o = Some (preason_num (pr r), ploc32 (ploc_of m))).
Proof.
  intros Hle Hc Hf Hfr Hcan Hrun.
  destruct (wt_covered_fuel_agrees P fuel fw fT args o outs Hle Hc Hf Hcan Hrun) as [H|[H|[H _]]]; auto. congruence.
Qed.
Print Assumptions wt_covered_fuel_agrees_frag.

(* the same for every covered program that Wt.v accepts *)
Theorem covered_wt_program_fuel_agrees P fuel fw fT args o outs :
  covered_program fw P = true -> wt_program P = true -> main_ret_fits P = true -> sem_fuel_enough fuel P = true ->
  canonical_main_args P args = true -> tsem_program fT P args = Ok (o, outs) ->
  (exists bits l, Sem.run_main fuel P args = Sem.RunOk bits l /\ o = None /\ outs = bits) \/
  (exists r m, Sem.run_main fuel P args = Sem.RunPanic r m /\ o = Some (preason_num (pr r), ploc32 (ploc_of m))) \/
  (frag_program P = false /\ exists c, Sem.run_main fuel P args = Sem.RunStuck c /\ In c stuck_allowed).
Proof.
  intros Hcov Hwt Hfit Hf Hcan Hrun. pose proof (run_main_no_nofuel P fuel args Hf) as Hn.
  destruct (covered_wt_program_agrees P fuel fw fT args o outs Hcov Hwt Hfit Hcan Hrun) as [H|[H|[H|H]]]; auto.
  contradiction.
Qed.
Print Assumptions covered_wt_program_fuel_agrees.

(* ------------------------------------------------------------------ examples *)

Module SemFuelExamples.
  Import TSemArith1.

  (* the program of TSemSemFullCall.SanityFullCall (two callees, a loop, a match): the bound is
     exact: an answer with [sem_fuel_needed] units, out of fuel with one less *)
  Definition P0 := SanityFullCall.P0.
  Definition A0 : list (list bool) := [SanityFullCall.arr_bits 10%Z 20%Z 30%Z; SanityFullCall.line_bits 7%Z].
  Definition status (f : nat) : nat :=
    match Sem.run_main f P0 A0 with Sem.RunOk _ _ => 0 | Sem.RunPanic _ _ => 1 | Sem.RunStuck _ => 2 | Sem.RunNoFuel => 3 end.
  Example needed_exact :
    sem_fuel_needed P0 = 10 /\ sem_fuel_enough 2000 P0 = true /\ status 10 = 0 /\ status 9 = 3.
  Proof. vm_compute. repeat split. Qed.

  (* fn main(a: u32) -> u32 { main(a) }: Wt.v accepts a recursive program (a call is checked against
     the signature only); Sem.v is out of fuel for every fuel, the need exceeds the cap and
     [sem_fuel_enough] is false *)
  Definition PR := TSemTotal.FuelExamples.PR.
  Example recursion_accepted :
    wt_program PR = true /\ sem_fuel_enough 2000 PR = false /\ Nat.ltb sem_fuel_cap (sem_fuel_needed PR) = true /\
    Sem.run_main 300 PR [repeat true 32] = Sem.RunNoFuel.
  Proof. vm_compute. repeat split. Qed.
End SemFuelExamples.
