(* THE FOR-JOIN LOOP AS A NODE FOR [relQ] (the environment relation of Compile/TSemSemFullCall.v:
   phantom scopes, fixed global scope): Compile/TSemSemJoin.v's [join_loop_node_rel] at that
   relation.  The precondition is the one of TSemSemJoin.v: whenever the two operands evaluate
   to arrays, their join keys are STRICTLY ASCENDING. *)
From Coq Require Import Lia ZArith Permutation Sorting.Sorted.
From GV Require Import Base.Util Base.Bits Lang.Ast Lang.Wt Lang.ValTy Gadgets.Gadgets Gadgets.GadgetSpec
  Panic.PanicRec Panic.PanicSem Compile.Lower Compile.TSem Compile.TSemFacts Compile.TSemControl Compile.TSemArray
  Compile.TSemSemExpr Compile.ValEnc Compile.TSemSticky Compile.TSemSemStmt Compile.TSemSemCall Compile.TSemSemAgg
  Compile.JoinMerge Compile.TSemSemJoin Compile.TSemSemFull Compile.TSemSemFullCall.
From GV Require Lang.Sem.
Local Open Scope N_scope.

Section Join3.
  Variable P : program.
  Variable gsc : list (N * (ty * bool)).
  Variable sglob : list (N * Sem.value).
  Variable glob : @scope bool.
  Notation rel := (relQ (VRa P) gsc sglob glob).
  Notation AgE' := (AgE3 P (VRa P) gsc sglob glob).
  Notation AgS' := (AgS3 P (VRa P) gsc sglob glob).

  (* every pattern of the full fragment ([gpat_ok]) *)
  Theorem join_loop_node_gpat3 f g p bs join_ty a b body m ta na tb nb g1 tbody :
    enums_small P = true ->
    AgE' (S f) g a -> AgE' (S f) g b -> e_ty a = TArr ta na -> e_ty b = TArr tb nb ->
    (szn P join_ty <= szn P ta)%nat -> (szn P join_ty <= szn P tb)%nat ->
    gpat_ok P p (TTup [ta; tb]) bs -> ty_fits P (TTup [ta; tb]) ->
    AgSS3 P (VRa P) gsc sglob glob f (tbind_all ([] :: g) bs false) body unit_ty g1 tbody -> tl g1 = g ->
    (forall en xs en1 ys en2,
       Sem.eval (S f) P en a = Sem.Done (Sem.VArr xs, en1) -> Sem.eval (S f) P en1 b = Sem.Done (Sem.VArr ys, en2) ->
       asc_keys P join_ty ta xs /\ asc_keys P join_ty tb ys) ->
    AgS' (S (S f)) g g unit_ty (St (SJoinLoop p join_ty a b body) m).
  Proof.
    intros Hes IHa IHb Eta Etb Ja Jb Hp Ftup Hbody Htl Hasc ph en.
    apply (join_loop_node_rel P (fun en E => rel (false :: ph) en E g) (fun en E => rel3_wf (VRa P) gsc sglob glob en E g)
             f p join_ty a b body m ta na tb nb en (IHa (false :: ph)) (IHb (false :: ph)) Eta Etb Ja Jb); [|exact (Hasc en)].
    intros en0 E fT v mw c E1 o1 E2 ob E3 Hrel Henc Hpat Hb Hpop.
    destruct (gpat_agrees P Hes gsc sglob glob p _ bs Hp v mw _ _ _ fT c E1 None o1 Henc Ftup
                (rel3_push (VRa P) gsc sglob glob _ _ _ Hrel) Hpat) as (-> & _ & Hpc).
    destruct (Sem.pmatch P p v) as [vbs|]; [|exact I]. destruct Hpc as [_ Hrela]. rewrite exec_block_S.
    destruct (lower_stmts_block _ body [] _ _ _ _ Hb) as (wb & Hb').
    pose proof (stmts_node3 P (VRa P) gsc sglob glob f _ _ _ _ _ Hbody _ _ _ fT Sem.unit_val [] _ _ _ Hrela (VRa_unit P) Hb') as IH1.
    revert IH1. destruct (sem_stmts P f body Sem.unit_val (Sem.bind_all (Sem.push_scope en0) vbs))
      as [[vb en1]|r1 m1|c1|]; auto.
    intros (-> & _ & Hrel1). split; [reflexivity|]. rewrite <- Htl.
    eapply rel3_pop; [eassumption|eassumption|rewrite Htl; eapply relQ_len; exact Hrel].
  Qed.
End Join3.
Print Assumptions join_loop_node_gpat3.
