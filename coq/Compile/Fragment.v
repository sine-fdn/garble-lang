(* Executable membership tests for the fragments on which "bit-level semantics = source
   semantics" is a THEOREM, so that every check can report, per program it ran, whether the
   agreement it observed was proved or only sampled. *)
From GV Require Import Base.Util Lang.Ast Lang.Wt Compile.Lower Compile.TSem Panic.PanicRec Panic.PanicSem
  Compile.TSemFacts Compile.TSemSemExpr Compile.TSemSemStmt Compile.TSemSemCall Compile.TSemSemMatch Compile.TSemSemFull Compile.TSemSemFullCall Compile.TSemSemFullConst.
From GV Require Lang.Sem.

(* main has scalar parameters, no global constants, and its body is in the imperative scalar
   fragment and passes the strict checker (which implies Wt.v's) at its declared return type *)
Definition in_imp_fragment (fw : nat) (P : program) : bool :=
  match p_consts P, find_fn P (p_main P) with
  | [], Some d =>
      forallb (fun p : N * ty => scalar_ty (snd p)) (fn_params d)
      && match sc_block fw ([] :: tbind_all [[]; []] (fn_params d) true) (fn_body d) with
         | Some t => vt_eqb t (fn_ret d)
         | None => false
         end
      && forallb imp_stmt (fn_body d)
  | _, _ => false
  end.

Theorem in_imp_fragment_sound P fuel fw fT args o outs :
  in_imp_fragment fw P = true ->
  tsem_program fT P args = Ok (o, outs) ->
  match Sem.run_main fuel P args with
  | Sem.RunOk bits _ => o = None /\ outs = bits
  | Sem.RunPanic r m => o = Some (preason_num (pr r), ploc32 (ploc_of m))
  | Sem.RunStuck _ | Sem.RunNoFuel => True
  end.
Proof.
  unfold in_imp_fragment. intro H.
  destruct (p_consts P) as [|c cs] eqn:Hc; [|discriminate].
  destruct (find_fn P (p_main P)) as [d|] eqn:Hf; [|discriminate].
  apply andb_true_iff in H as [H H3]. apply andb_true_iff in H as [H1 H2].
  destruct (sc_block fw ([] :: tbind_all [[]; []] (fn_params d) true) (fn_body d)) as [t|] eqn:Hs; [|discriminate].
  apply vt_eqb_eq in H2. subst t.
  intro Hrun. eapply tsem_sem_program; eauto.
Qed.
Print Assumptions in_imp_fragment_sound.

(* the larger fragment of Compile/TSemSemCall.v (calls between functions of the fragment, `for`
   over ranges), or the one above (which allows unused functions outside the fragment) *)
Definition in_proved_fragment (fw : nat) (P : program) : bool :=
  in_imp_fragment fw P || in_imp_fragment2 fw P || in_imp_fragment3 fw P.

Theorem in_proved_fragment_sound P fuel fw fT args o outs :
  in_proved_fragment fw P = true ->
  tsem_program fT P args = Ok (o, outs) ->
  match Sem.run_main fuel P args with
  | Sem.RunOk bits _ => o = None /\ outs = bits
  | Sem.RunPanic r m => o = Some (preason_num (pr r), ploc32 (ploc_of m))
  | Sem.RunStuck _ | Sem.RunNoFuel => True
  end.
Proof.
  unfold in_proved_fragment. intro H. apply orb_true_iff in H as [H|H]; [apply orb_true_iff in H as [H|H]|].
  - now apply in_imp_fragment_sound with (fw := fw).
  - now apply in_imp_fragment2_sound with (fw := fw).
  - now apply in_imp_fragment3_sound with (fw := fw).
Qed.
Print Assumptions in_proved_fragment_sound.

(* THE FULL FRAGMENT (Compile/TSemSemFull.v): all expression, statement and pattern forms except
   the join built-ins (`*` with a literal operand under the side conditions of TSemSemMul.v), over
   values of every type; with function calls (TSemSemFullCall.v) and global constants
   (TSemSemFullConst.v).  The arguments must be canonical encodings (decode-then-encode is the
   identity on them: e.g. zero padding bits of enums): [canonical_main_args], a boolean test per
   input that the extracted checker evaluates as well. *)
Definition covered_program (fw : nat) (P : program) : bool :=
  in_proved_fragment fw P || in_full_fragment fw P || in_full_fragment2 fw P || in_full_fragment3 fw P.

Theorem covered_program_sound P fuel fw fT args o outs :
  covered_program fw P = true -> canonical_main_args P args = true ->
  tsem_program fT P args = Ok (o, outs) ->
  match Sem.run_main fuel P args with
  | Sem.RunOk bits _ => o = None /\ outs = bits
  | Sem.RunPanic r m => o = Some (preason_num (pr r), ploc32 (ploc_of m))
  | Sem.RunStuck _ | Sem.RunNoFuel => True
  end.
Proof.
  unfold covered_program. intros H Hc Hr.
  apply orb_true_iff in H as [H|H]; [apply orb_true_iff in H as [H|H]; [apply orb_true_iff in H as [H|H]|]|].
  - now apply in_proved_fragment_sound with (fw := fw) (fT := fT).
  - exact (in_full_fragment_sound P fuel fw fT args o outs H Hc Hr).
  - exact (in_full_fragment2_sound P fuel fw fT args o outs H Hc Hr).
  - exact (in_full_fragment3_sound P fuel fw fT args o outs H Hc Hr).
Qed.
Print Assumptions covered_program_sound.
