(* END-TO-END agreement of the source-level semantics (Lang/Sem.v) with the bit-level
   semantics (Compile/TSem.v: the lowering of Compile/Lower.v on Booleans) on the fragment
   of PURE SCALAR EXPRESSIONS: Boolean / integer literals, identifiers, casts between bool
   and integer types, unary minus and `!`, every binary operator
   (+ - * / % & | ^ < > == != << >> && ||) and if / else, over variables of type bool /
   integer (widths 8, 16, 32, 64).  No operator is excluded; signed `%` is included (the
   conclusion speaks of the scopes of the source environment, not of its [lenient] flag).
   Excluded by [pure_scalar]: blocks, statements, calls, aggregates, match, and a product one
   of whose operands is an integer literal (the compiler rewrites it into repeated addition).

   Fragment         [pure_scalar : expr -> bool]                  (syntactic)
   Exact typing     [exact_tys : tenv -> expr -> bool]            where Lang/Wt.v compares types
                    with [ty_eqb], which identifies i32 and u32, the annotations are EQUAL.
                    This hypothesis is necessary: see [Conflation] at the end of the file, a
                    tree accepted by [wt_expr] on which the two semantics disagree.
   Encoding         [enc_val : ty -> Sem.value -> list bool]      ([b]; n-bit two's complement)
   Values           [val_ok]                                      (integers in the range of the type)
   Environments     [env_rel] (on look-ups), [env_rel_struct] (same scopes and names) and
                    [env_rel_of_struct]; [env_shape] (widths only, for totality)
   Fuel             any fuel above [depth e]; [lower_fuel_indep], [lower_fuel_mono]
   Theorems         [tsem_total], [tsem_sticky]   totality + stickiness, whatever the values
                    [tsem_sem_expr], [tsem_sem_expr_ex]   agreement (value / panic; never stuck)
   Proof            the three checks give the judgement [ps_typed] ([ps_typed_of_checks]); the
                    theorems are inductions on it ([tsem_total_typed], [tsem_sem_typed]), using
                    the per-operator lemmas of TSemArith1/2, TSemControl and TSemFacts. *)
From Coq Require Import Lia ZArith Zquot.
From GV Require Import Base.Util Base.Bits Base.BitsProofs Lang.Ast Lang.Wt Gadgets.Gadgets
  Gadgets.GadgetSpec Gadgets.Arith Gadgets.Extend Panic.PanicRec Panic.PanicSem Compile.Lower
  Compile.TSem Compile.TSemFacts Compile.TSemArith1 Compile.TSemArith2 Compile.TSemControl.
From GV Require Lang.Sem.
Local Open Scope N_scope.

(* ------------------------------------------------------------------ the fragment *)

(* the integer widths of the language *)
Definition ok_width (b : N) : bool := (b =? 8) || (b =? 16) || (b =? 32) || (b =? 64).

Definition scalar_ty (t : ty) : bool :=
  match t with TBool => true | TInt _ b => ok_width b | _ => false end.

(* the number of bits of a scalar type *)
Definition tw (t : ty) : nat :=
  match t with TBool => 1%nat | TInt _ b => N.to_nat b | _ => 0%nat end.

Definition is_num_lit (e : expr) : bool :=
  match e with Ex (ENumU _ _) _ _ | Ex (ENumS _ _) _ _ => true | _ => false end.

(* pure scalar expressions; a product with a literal operand is excluded (the compiler
   rewrites it into repeated addition) *)
Fixpoint pure_scalar (e : expr) : bool :=
  match e with
  | Ex ei _ t =>
    scalar_ty t &&
    match ei with
    | ETrue | EFalse | ENumU _ _ | ENumS _ _ | EId _ => true
    | ENeg e1 | ENot e1 | ECast _ e1 => pure_scalar e1
    | EOp o x y =>
        pure_scalar x && pure_scalar y &&
        match o with OMul => negb (is_num_lit x) && negb (is_num_lit y) | _ => true end
    | EIf c a b => pure_scalar c && pure_scalar a && pure_scalar b
    | _ => false
    end
  end.

(* Leibniz equality of scalar types *)
Definition sty_eqb (a b : ty) : bool :=
  match a, b with
  | TBool, TBool => true
  | TInt s1 b1, TInt s2 b2 => Bool.eqb s1 s2 && (b1 =? b2)
  | _, _ => false
  end.

Lemma sty_eqb_eq a b : sty_eqb a b = true -> a = b.
Proof.
  destruct a, b; cbn [sty_eqb]; try discriminate; [reflexivity|].
  intro H. apply andb_prop in H. destruct H as [H1 H2].
  apply Bool.eqb_prop in H1. apply N.eqb_eq in H2. congruence.
Qed.

(* where [Wt.wt_expr] asks for [ty_eqb] (which accepts i32 against u32) the annotations
   are equal *)
Fixpoint exact_tys (g : tenv) (e : expr) : bool :=
  match e with
  | Ex ei _ t =>
    match ei with
    | EId x => match tlookup g x with Some (tx, _) => sty_eqb tx t | None => false end
    | ENeg e1 | ENot e1 => sty_eqb (e_ty e1) t && exact_tys g e1
    | ECast to e1 => sty_eqb to t && exact_tys g e1
    | EOp o x y =>
        exact_tys g x && exact_tys g y &&
        match o with
        | OAdd | OSub | OMul | ODiv | OMod | OBitAnd | OBitXor | OBitOr =>
            sty_eqb (e_ty x) t && sty_eqb (e_ty y) t
        | OGt | OLt | OEq | ONe => sty_eqb (e_ty x) (e_ty y)
        | OShl | OShr => sty_eqb (e_ty x) t && sty_eqb (e_ty y) (TInt false 8)
        | OLAnd | OLOr => true
        end
    | EIf c a b =>
        sty_eqb (e_ty a) t && sty_eqb (e_ty b) t && exact_tys g c && exact_tys g a && exact_tys g b
    | _ => true
    end
  end.

(* fuel: [lower_expr tops fuel] needs fuel > depth *)
Fixpoint depth (e : expr) : nat :=
  match e with
  | Ex ei _ _ =>
    match ei with
    | ENeg e1 | ENot e1 | ECast _ e1 => S (depth e1)
    | EOp _ x y => S (Nat.max (depth x) (depth y))
    | EIf c a b => S (Nat.max (depth c) (Nat.max (depth a) (depth b)))
    | _ => O
    end
  end.

(* ------------------------------------------------------------------ the typing judgement
   that the three checks establish (used for the inductions) *)

Definition op_arith (o : binop) : bool :=
  match o with OAdd | OSub | OMul | ODiv | OMod | OBitAnd | OBitXor | OBitOr => true | _ => false end.
Definition op_bit (o : binop) : bool :=
  match o with OBitAnd | OBitXor | OBitOr => true | _ => false end.
Definition op_cmp (o : binop) : bool := match o with OGt | OLt => true | _ => false end.
Definition op_eq (o : binop) : bool := match o with OEq | ONe => true | _ => false end.
Definition op_shift (o : binop) : bool := match o with OShl | OShr => true | _ => false end.
Definition op_logic (o : binop) : bool := match o with OLAnd | OLOr => true | _ => false end.

Inductive ps_typed (g : tenv) : expr -> Prop :=
| PT_true m : ps_typed g (Ex ETrue m TBool)
| PT_false m : ps_typed g (Ex EFalse m TBool)
| PT_numU n lb m sg b : ok_width b = true -> lit_fits (TInt sg b) (Z.of_N n) = true ->
    ps_typed g (Ex (ENumU n lb) m (TInt sg b))
| PT_numS z lb m sg b : ok_width b = true -> lit_fits (TInt sg b) z = true ->
    ps_typed g (Ex (ENumS z lb) m (TInt sg b))
| PT_id x m t mu : tlookup g x = Some (t, mu) -> scalar_ty t = true -> ps_typed g (Ex (EId x) m t)
| PT_neg e1 m b : ok_width b = true -> ps_typed g e1 -> e_ty e1 = TInt true b ->
    ps_typed g (Ex (ENeg e1) m (TInt true b))
| PT_not e1 m t : scalar_ty t = true -> ps_typed g e1 -> e_ty e1 = t -> ps_typed g (Ex (ENot e1) m t)
| PT_cast e1 m t : scalar_ty t = true -> ps_typed g e1 -> ps_typed g (Ex (ECast t e1) m t)
| PT_arith o x y m sg b : op_arith o = true -> ok_width b = true ->
    ps_typed g x -> ps_typed g y -> e_ty x = TInt sg b -> e_ty y = TInt sg b ->
    (o = OMul -> is_num_lit x = false /\ is_num_lit y = false) ->
    ps_typed g (Ex (EOp o x y) m (TInt sg b))
| PT_bitbool o x y m : op_bit o = true ->
    ps_typed g x -> ps_typed g y -> e_ty x = TBool -> e_ty y = TBool ->
    ps_typed g (Ex (EOp o x y) m TBool)
| PT_cmp o x y m sg b : op_cmp o = true -> ok_width b = true ->
    ps_typed g x -> ps_typed g y -> e_ty x = TInt sg b -> e_ty y = TInt sg b ->
    ps_typed g (Ex (EOp o x y) m TBool)
| PT_eq o x y m t : op_eq o = true -> scalar_ty t = true ->
    ps_typed g x -> ps_typed g y -> e_ty x = t -> e_ty y = t ->
    ps_typed g (Ex (EOp o x y) m TBool)
| PT_shift o x y m sg b : op_shift o = true -> ok_width b = true ->
    ps_typed g x -> ps_typed g y -> e_ty x = TInt sg b -> e_ty y = TInt false 8 ->
    ps_typed g (Ex (EOp o x y) m (TInt sg b))
| PT_logic o x y m : op_logic o = true ->
    ps_typed g x -> ps_typed g y -> e_ty x = TBool -> e_ty y = TBool ->
    ps_typed g (Ex (EOp o x y) m TBool)
| PT_if c a b m t : scalar_ty t = true ->
    ps_typed g c -> ps_typed g a -> ps_typed g b -> e_ty c = TBool -> e_ty a = t -> e_ty b = t ->
    ps_typed g (Ex (EIf c a b) m t).

Lemma ps_typed_scalar g e : ps_typed g e -> scalar_ty (e_ty e) = true.
Proof. induction 1; cbn [e_ty scalar_ty]; try reflexivity; assumption. Qed.

Ltac bsplit :=
  repeat match goal with
  | H : (_ && _) = true |- _ => apply andb_prop in H; destruct H
  end.

Lemma is_bool_eq t : is_bool t = true -> t = TBool.
Proof. destruct t; cbn; congruence. Qed.

Theorem ps_typed_of_checks P : forall fw g e,
  pure_scalar e = true -> exact_tys g e = true -> wt_expr fw P g e = true -> ps_typed g e.
Proof.
  induction fw as [|f IH]; intros g e Hp Hx Hw; [discriminate|].
  destruct e as [ei m t]. cbn [pure_scalar] in Hp. apply andb_prop in Hp. destruct Hp as [Hst Hp].
  destruct ei; try discriminate Hp; cbn [exact_tys wt_expr] in Hx, Hw.
  - apply is_bool_eq in Hw. subst t. constructor.
  - apply is_bool_eq in Hw. subst t. constructor.
  - destruct t; try discriminate Hw. now constructor.
  - destruct t; try discriminate Hw. now constructor.
  - destruct (tlookup g name) as [[tx mu]|] eqn:El; [|discriminate].
    apply sty_eqb_eq in Hx. subst tx. econstructor; eassumption.
  - bsplit. match goal with H : sty_eqb _ _ = true |- _ => apply sty_eqb_eq in H end.
    destruct t as [|[] b| | | |]; try discriminate.
    constructor; [assumption|eapply IH; eassumption|assumption].
  - bsplit. match goal with H : sty_eqb _ _ = true |- _ => apply sty_eqb_eq in H end.
    constructor; [assumption|eapply IH; eassumption|assumption].
  - bsplit. repeat match goal with H : sty_eqb _ _ = true |- _ => apply sty_eqb_eq in H end.
    assert (ps_typed g x) by (eapply IH; eassumption).
    assert (ps_typed g y) by (eapply IH; eassumption).
    destruct o; bsplit;
      repeat match goal with H : sty_eqb _ _ = true |- _ => apply sty_eqb_eq in H end;
      repeat match goal with H : is_bool _ = true |- _ => apply is_bool_eq in H end.
    all: try (destruct t as [|sg b| | | |]; try discriminate;
              match goal with
              | |- ps_typed _ (Ex (EOp _ _ _) _ (TInt _ _)) =>
                  first [ eapply PT_arith; try eassumption; try reflexivity;
                          [ intro Hmul; try discriminate Hmul;
                            match goal with H : negb _ = true |- _ => idtac end;
                            split; apply negb_true_iff; assumption ]
                        | eapply PT_arith; try eassumption; try reflexivity; intro Hmul; discriminate Hmul ]
              | |- ps_typed _ (Ex (EOp _ _ _) _ TBool) =>
                  eapply PT_bitbool; try eassumption; reflexivity
              end).
    all: try (subst t).
    + (* OGt *) destruct (e_ty x) as [|sg b| | | |] eqn:Ex; try discriminate.
      pose proof (ps_typed_scalar g x ltac:(assumption)) as Hs. rewrite Ex in Hs. cbn [scalar_ty] in Hs.
      eapply PT_cmp; try eassumption; try reflexivity. congruence.
    + destruct (e_ty x) as [|sg b| | | |] eqn:Ex; try discriminate.
      pose proof (ps_typed_scalar g x ltac:(assumption)) as Hs. rewrite Ex in Hs. cbn [scalar_ty] in Hs.
      eapply PT_cmp; try eassumption; try reflexivity. congruence.
    + eapply (PT_eq g OEq x y m (e_ty x)); try eassumption; try reflexivity.
      * eapply ps_typed_scalar; eassumption.
      * congruence.
    + eapply (PT_eq g ONe x y m (e_ty x)); try eassumption; try reflexivity.
      * eapply ps_typed_scalar; eassumption.
      * congruence.
    + destruct (e_ty x) as [|sg b| | | |] eqn:Ex; try discriminate.
      eapply PT_shift; try eassumption; reflexivity.
    + destruct (e_ty x) as [|sg b| | | |] eqn:Ex; try discriminate.
      eapply PT_shift; try eassumption; reflexivity.
    + eapply PT_logic; try eassumption; reflexivity.
    + eapply PT_logic; try eassumption; reflexivity.
  - bsplit. repeat match goal with H : sty_eqb _ _ = true |- _ => apply sty_eqb_eq in H end.
    repeat match goal with H : is_bool _ = true |- _ => apply is_bool_eq in H end.
    eapply PT_if; try eassumption; eapply IH; eassumption.
  - bsplit. repeat match goal with H : sty_eqb _ _ = true |- _ => apply sty_eqb_eq in H end.
    subst to. constructor; [assumption|eapply IH; eassumption].
Qed.

(* ------------------------------------------------------------------ encodings, values,
   environments *)

(* a Boolean is one bit, an integer of an n-bit type the n low bits of its two's complement *)
Definition enc_val (t : ty) (v : Sem.value) : list bool :=
  match t, v with
  | TBool, Sem.VBool b => [b]
  | TInt _ n, Sem.VInt z => enc (N.to_nat n) z
  | _, _ => []
  end.

(* the value is a value of the scalar type (integers: in the range of the type) *)
Definition val_ok (t : ty) (v : Sem.value) : Prop :=
  match t, v with
  | TBool, Sem.VBool _ => True
  | TInt sg n, Sem.VInt z => Sem.in_range sg n z = true
  | _, _ => False
  end.

(* every scalar variable of the context is bound to a vector of the width of its type *)
Definition env_shape (E : @cenv bool) (g : tenv) : Prop :=
  forall x t mu, tlookup g x = Some (t, mu) -> scalar_ty t = true ->
    exists w, env_get E x = Some w /\ length w = tw t.

(* ... and, moreover, to the encoding of the value the source environment gives it, which is a
   value of that type.  (Stated on look-ups: it holds in particular when the two environments
   have the same scopes with the same names and each variable's bits encode its value.) *)
Definition env_rel (en : Sem.env) (E : @cenv bool) (g : tenv) : Prop :=
  forall x t mu, tlookup g x = Some (t, mu) -> scalar_ty t = true ->
    exists v, Sem.lookup_var en x = Some v /\ val_ok t v /\ env_get E x = Some (enc_val t v).

Definition pr (r : Sem.reason) : preason :=
  match r with
  | Sem.ROverflow => Overflow
  | Sem.RDivByZero => DivByZero
  | Sem.ROutOfBounds => OutOfBounds
  end.

(* a recorded panic is never changed *)
Definition sticky (o o' : pobs) : Prop := forall x, o = Some x -> o' = Some x.

Lemma sticky_refl o : sticky o o.
Proof. intros x H. exact H. Qed.
Lemma sticky_trans a b c : sticky a b -> sticky b c -> sticky a c.
Proof. intros H1 H2 x H. apply H2, H1, H. Qed.
Lemma sticky_push o c r l : sticky o (push_spec o c r l).
Proof. intros x ->. reflexivity. Qed.
Lemma sticky_if (b : bool) o o1 o2 : sticky o o1 -> sticky o o2 -> sticky o (if b then o1 else o2).
Proof. destruct b; auto. Qed.

Lemma ok_width_cases b : ok_width b = true -> b = 8 \/ b = 16 \/ b = 32 \/ b = 64.
Proof.
  unfold ok_width. intro H. repeat (apply orb_prop in H; destruct H as [H|H]);
    apply N.eqb_eq in H; tauto.
Qed.

Lemma ok_width_pos b : ok_width b = true -> 2 <= b.
Proof. intro H. destruct (ok_width_cases b H) as [-> | [-> | [-> | ->]]]; lia. Qed.

Lemma ok_width_in b : ok_width b = true -> In (N.to_nat b) [8; 16; 32; 64]%nat.
Proof. intro H. destruct (ok_width_cases b H) as [-> | [-> | [-> | ->]]]; cbn; tauto. Qed.

Lemma szn_bool P : szn P TBool = 1%nat.
Proof. reflexivity. Qed.
Lemma szn_int P sg b : szn P (TInt sg b) = N.to_nat b.
Proof. reflexivity. Qed.

Lemma szn_tw P t : scalar_ty t = true -> szn P t = tw t.
Proof. destruct t; try discriminate; reflexivity. Qed.

Lemma tw_pos t : scalar_ty t = true -> (1 <= tw t)%nat.
Proof.
  destruct t; try discriminate; cbn [scalar_ty tw]; [lia|].
  intro H. apply ok_width_pos in H. lia.
Qed.

Lemma length_enc_val t v : scalar_ty t = true -> val_ok t v -> length (enc_val t v) = tw t.
Proof.
  destruct t, v; cbn [val_ok]; try contradiction; try discriminate; intros _ _; cbn [enc_val tw].
  - reflexivity.
  - apply length_enc.
Qed.

Lemma env_rel_shape en E g : env_rel en E g -> env_shape E g.
Proof.
  intros H x t mu Hl Hs. destruct (H x t mu Hl Hs) as (v & _ & Hv & He).
  exists (enc_val t v). split; [exact He|]. now apply length_enc_val.
Qed.

Lemma env_rel_scopes en en' E g : Sem.scopes en' = Sem.scopes en -> env_rel en E g -> env_rel en' E g.
Proof.
  intros Hs H x t mu Hl Ht. destruct (H x t mu Hl Ht) as (v & Hv & Hok & He).
  exists v. unfold Sem.lookup_var in *. rewrite Hs. auto.
Qed.

Lemma lit_fits_in_range sg b z : lit_fits (TInt sg b) z = Sem.in_range sg b z.
Proof. destruct sg; reflexivity. Qed.

(* ------------------------------------------------------------------ integer facts *)

Lemma enc_mod_eq n z1 z2 : (z1 mod 2 ^ Z.of_nat n = z2 mod 2 ^ Z.of_nat n)%Z -> enc n z1 = enc n z2.
Proof. unfold enc. now intros ->. Qed.

Lemma pow2_half_Z (b : N) : 1 <= b -> (2 ^ Z.of_N b = 2 * 2 ^ (Z.of_N b - 1))%Z.
Proof.
  intro H. replace (Z.of_N b) with (1 + (Z.of_N b - 1))%Z at 1 by lia.
  rewrite Z.pow_add_r by lia. reflexivity.
Qed.

Lemma wrap_mod sg b z : (Sem.wrap sg b z mod 2 ^ Z.of_N b = z mod 2 ^ Z.of_N b)%Z.
Proof.
  unfold Sem.wrap. pose proof (pow2_Z_pos b) as Hp.
  destruct (sg && (2 ^ (Z.of_N b - 1) <=? z mod 2 ^ Z.of_N b)%Z).
  - replace (z mod 2 ^ Z.of_N b - 2 ^ Z.of_N b)%Z with (z mod 2 ^ Z.of_N b + (-1) * 2 ^ Z.of_N b)%Z by lia.
    rewrite Z.mod_add by lia. apply Z.mod_mod. lia.
  - apply Z.mod_mod. lia.
Qed.

Lemma enc_wrap sg b z : enc (N.to_nat b) (Sem.wrap sg b z) = enc (N.to_nat b) z.
Proof. apply enc_mod_eq. rewrite N_nat_Z. apply wrap_mod. Qed.

Lemma wrap_in_range sg b z : 1 <= b -> Sem.in_range sg b (Sem.wrap sg b z) = true.
Proof.
  intro Hb. unfold Sem.wrap, Sem.in_range. pose proof (pow2_Z_pos b) as Hp.
  pose proof (Z.mod_pos_bound z _ Hp) as Hm. pose proof (pow2_half_Z b Hb) as Hh.
  destruct sg; cbn [andb].
  - destruct (Z.leb_spec (2 ^ (Z.of_N b - 1)) (z mod 2 ^ Z.of_N b));
      apply andb_true_intro; split; try apply Z.leb_le; try apply Z.ltb_lt; lia.
  - apply andb_true_intro; split; [apply Z.leb_le|apply Z.ltb_lt]; lia.
Qed.

Lemma in_range_bounds sg b z : Sem.in_range sg b z = true ->
  if sg then (- 2 ^ (Z.of_N b - 1) <= z < 2 ^ (Z.of_N b - 1))%Z else (0 <= z < 2 ^ Z.of_N b)%Z.
Proof.
  unfold Sem.in_range. destruct sg; intro H; apply andb_prop in H; destruct H as [H1 H2];
    apply Z.leb_le in H1; apply Z.ltb_lt in H2; lia.
Qed.

Lemma in_range_of_bounds (sg : bool) b z :
  (if sg then (- 2 ^ (Z.of_N b - 1) <= z < 2 ^ (Z.of_N b - 1))%Z else (0 <= z < 2 ^ Z.of_N b)%Z) ->
  Sem.in_range sg b z = true.
Proof.
  unfold Sem.in_range. destruct sg; intro H; apply andb_true_intro; split;
    try apply Z.leb_le; try apply Z.ltb_lt; lia.
Qed.

(* the readings of the encoding of an in-range value *)
Lemma uval_enc_ok b z : Sem.in_range false b z = true -> uval (enc (N.to_nat b) z) = z.
Proof. intro H. apply uval_enc_in_range. now rewrite N2Nat.id. Qed.

Lemma sval_enc_ok b z : 1 <= b -> Sem.in_range true b z = true -> sval (enc (N.to_nat b) z) = z.
Proof. intros Hb H. apply sval_enc_in_range; [lia|]. now rewrite N2Nat.id. Qed.

Lemma enc_nonempty n z : (1 <= n)%nat -> enc n z <> [].
Proof. intro H. apply nonempty_len. now rewrite length_enc. Qed.

(* a vector is the encoding of its readings *)
Lemma enc_of_sval r n z : r <> [] -> length r = n -> sval r = z -> r = enc n z.
Proof. intros Hne Hl Hv. subst n z. symmetry. now apply enc_sval. Qed.

(* unsigned quotient and remainder stay in range *)
Lemma quot_in_range_unsigned b a c : Sem.in_range false b a = true -> (0 < c)%Z ->
  Sem.in_range false b (Z.quot a c) = true.
Proof.
  intros Ha Hc. apply in_range_bounds in Ha. apply (in_range_of_bounds false).
  rewrite Z.quot_div_nonneg by lia. split.
  - apply Z.div_pos; lia.
  - apply Z.le_lt_trans with a; [|lia]. apply Z.div_le_upper_bound; [lia|]. nia.
Qed.

Lemma rem_in_range_unsigned b a c : Sem.in_range false b a = true -> (0 < c)%Z ->
  Sem.in_range false b (Z.rem a c) = true.
Proof.
  intros Ha Hc. apply in_range_bounds in Ha. apply (in_range_of_bounds false).
  rewrite Z.rem_mod_nonneg by lia. pose proof (Z.mod_pos_bound a c Hc).
  pose proof (Z.mod_le a c ltac:(lia) Hc). lia.
Qed.

(* bitwise operators keep the signed range: z is in [-2^k, 2^k) iff z >> k is 0 or -1 *)
Lemma signed_range_shiftr k z : (0 <= k)%Z ->
  (- 2 ^ k <= z < 2 ^ k)%Z <-> (Z.shiftr z k = 0 \/ Z.shiftr z k = -1)%Z.
Proof.
  intro Hk. rewrite Z.shiftr_div_pow2 by exact Hk.
  assert (0 < 2 ^ k)%Z as Hp by (apply Z.pow_pos_nonneg; lia).
  pose proof (Z.div_mod z (2 ^ k) ltac:(lia)) as Hd. pose proof (Z.mod_pos_bound z (2 ^ k) Hp) as Hm.
  split.
  - intro H. assert (-1 <= z / 2 ^ k < 1)%Z; [|lia]. split.
    + apply Z.div_le_lower_bound; lia.
    + apply Z.div_lt_upper_bound; lia.
  - intros [H|H]; rewrite H in Hd; lia.
Qed.

Section BitRange.
  Variable op : Z -> Z -> Z.
  Hypothesis shiftr_op : forall a b n, Z.shiftr (op a b) n = op (Z.shiftr a n) (Z.shiftr b n).
  Hypothesis op00 : op 0 0 = 0%Z \/ op 0 0 = (-1)%Z.
  Hypothesis op01 : op 0 (-1) = 0%Z \/ op 0 (-1) = (-1)%Z.
  Hypothesis op10 : op (-1) 0 = 0%Z \/ op (-1) 0 = (-1)%Z.
  Hypothesis op11 : op (-1) (-1) = 0%Z \/ op (-1) (-1) = (-1)%Z.

  Lemma bitop_signed_range b a c : 1 <= b ->
    Sem.in_range true b a = true -> Sem.in_range true b c = true -> Sem.in_range true b (op a c) = true.
  Proof.
    intros Hb Ha Hc. apply in_range_bounds in Ha. apply in_range_bounds in Hc.
    apply (in_range_of_bounds true).
    apply signed_range_shiftr in Ha; [|lia]. apply signed_range_shiftr in Hc; [|lia].
    apply signed_range_shiftr; [lia|]. rewrite shiftr_op.
    destruct Ha as [-> | ->], Hc as [-> | ->]; assumption.
  Qed.
End BitRange.

Lemma land_signed_range b a c : 1 <= b ->
  Sem.in_range true b a = true -> Sem.in_range true b c = true -> Sem.in_range true b (Z.land a c) = true.
Proof. apply bitop_signed_range; [apply Z.shiftr_land|..]; cbn; tauto. Qed.
Lemma lor_signed_range b a c : 1 <= b ->
  Sem.in_range true b a = true -> Sem.in_range true b c = true -> Sem.in_range true b (Z.lor a c) = true.
Proof. apply bitop_signed_range; [apply Z.shiftr_lor|..]; cbn; tauto. Qed.
Lemma lxor_signed_range b a c : 1 <= b ->
  Sem.in_range true b a = true -> Sem.in_range true b c = true -> Sem.in_range true b (Z.lxor a c) = true.
Proof. apply bitop_signed_range; [apply Z.shiftr_lxor|..]; cbn; tauto. Qed.

(* ... and the unsigned one: the result is the reading of a vector *)
Lemma bitop_unsigned_range (op : Z -> Z -> Z) (f : bool -> bool -> bool) b a c :
  (forall a b i, Z.testbit (op a b) i = f (Z.testbit a i) (Z.testbit b i)) -> f false false = false ->
  Sem.in_range false b a = true -> Sem.in_range false b c = true -> Sem.in_range false b (op a c) = true.
Proof.
  intros Hspec Hff Ha Hc. apply (in_range_of_bounds false).
  pose proof (uval_zipw op f Hspec Hff (enc (N.to_nat b) a) (enc (N.to_nat b) c)) as H.
  rewrite !length_enc in H. specialize (H eq_refl).
  rewrite (uval_enc_ok b a Ha), (uval_enc_ok b c Hc) in H. rewrite <- H.
  pose proof (uval_range (zipw f (enc (N.to_nat b) a) (enc (N.to_nat b) c))) as Hr.
  rewrite zipw_length, length_enc, N_nat_Z in Hr by (now rewrite !length_enc). exact Hr.
Qed.

Lemma wrap_id sg b z : 1 <= b -> Sem.in_range sg b z = true -> Sem.wrap sg b z = z.
Proof.
  intros Hb Hr. rewrite <- (N2Nat.id b) in *. destruct sg.
  - rewrite <- sval_enc by lia. apply sval_enc_in_range; [lia|exact Hr].
  - rewrite <- uval_enc_wrap. now apply uval_enc_in_range.
Qed.

(* ------------------------------------------------------------------ the binary operators of
   [lower_binop]: totality ... *)

Lemma binop_total o t tx ty_ (x y : list bool) m ob :
  op_arith o || op_cmp o || op_eq o = true -> x <> [] -> length x = length y ->
  exists w o', lower_binop tops o t tx ty_ x y m ob = Ok (w, o') /\
    length w = (if op_arith o then length x else 1%nat) /\ sticky ob o'.
Proof.
  intros Ho Hne Hl. destruct o; try discriminate Ho; cbn [op_arith].
  - destruct (is_signed tx || is_signed ty_) eqn:Hs.
    + pose proof (lower_add_signed t tx ty_ x y m ob Hne Hl Hs) as H. cbv zeta in H.
      eexists _, _. split; [exact H|]. split; [apply length_enc|apply sticky_push].
    + pose proof (lower_add_unsigned t tx ty_ x y m ob Hne Hl Hs) as H. cbv zeta in H.
      eexists _, _. split; [exact H|]. split; [apply length_enc|apply sticky_push].
  - destruct (is_signed t) eqn:Hs.
    + pose proof (lower_sub_signed t tx ty_ x y m ob Hne Hl Hs) as H. cbv zeta in H.
      eexists _, _. split; [exact H|]. split; [apply length_enc|apply sticky_push].
    + pose proof (lower_sub_unsigned t tx ty_ x y m ob Hne Hl Hs) as H. cbv zeta in H.
      eexists _, _. split; [exact H|]. split; [apply length_enc|apply sticky_push].
  - destruct (tsem_binop_mul_checked t tx ty_ x y m ob Hne Hl) as (r & HE & HL & _).
    eexists _, _. split; [exact HE|]. split; [exact HL|apply sticky_push].
  - destruct (is_signed t) eqn:Hs.
    + pose proof (lower_div_signed t tx ty_ x y m ob Hne Hl Hs) as H. cbv zeta in H.
      eexists _, _. split; [exact H|]. split; [apply length_enc|].
      eapply sticky_trans; apply sticky_push.
    + pose proof (lower_div_unsigned t tx ty_ x y m ob Hne Hl Hs) as H. cbv zeta in H.
      eexists _, _. split; [exact H|]. split; [apply length_enc|apply sticky_push].
  - destruct (is_signed t) eqn:Hs.
    + pose proof (lower_mod_signed t tx ty_ x y m ob Hne Hl Hs) as H. cbv zeta in H.
      eexists _, _. split; [exact H|]. split; [apply length_enc|apply sticky_push].
    + pose proof (lower_mod_unsigned t tx ty_ x y m ob Hne Hl Hs) as H. cbv zeta in H.
      eexists _, _. split; [exact H|]. split; [apply length_enc|apply sticky_push].
  - eexists _, _. split; [apply lower_bitand; assumption|]. split; [now apply zipw_length|apply sticky_refl].
  - eexists _, _. split; [apply lower_bitxor; assumption|]. split; [now apply zipw_length|apply sticky_refl].
  - eexists _, _. split; [apply lower_bitor; assumption|]. split; [now apply zipw_length|apply sticky_refl].
  - destruct (is_signed tx || is_signed ty_) eqn:Hs.
    + eexists _, _. split; [apply lower_gt_signed; assumption|]. split; [reflexivity|apply sticky_refl].
    + eexists _, _. split; [apply lower_gt_unsigned; assumption|]. split; [reflexivity|apply sticky_refl].
  - destruct (is_signed tx || is_signed ty_) eqn:Hs.
    + eexists _, _. split; [apply lower_lt_signed; assumption|]. split; [reflexivity|apply sticky_refl].
    + eexists _, _. split; [apply lower_lt_unsigned; assumption|]. split; [reflexivity|apply sticky_refl].
  - eexists _, _. split; [apply lower_eq_unsigned; assumption|]. split; [reflexivity|apply sticky_refl].
  - eexists _, _. split; [apply lower_ne_unsigned; assumption|]. split; [reflexivity|apply sticky_refl].
Qed.

(* ... and agreement with [Sem.eval_binop] on encodings of values of the operand type *)

Definition binop_agrees (o : binop) (m : meta) (t tx : ty) (vx vy : Sem.value) (len : bool) : Prop :=
  match Sem.eval_binop o m t tx vx vy len with
  | Sem.Done (v, _) =>
      val_ok t v /\
      lower_binop tops o t tx tx (enc_val tx vx) (enc_val tx vy) m None = Ok (enc_val t v, None)
  | Sem.Panicked r m' =>
      m' = m /\
      exists w, lower_binop tops o t tx tx (enc_val tx vx) (enc_val tx vy) m None =
                Ok (w, Some (preason_num (pr r), ploc32 (ploc_of m)))
  | _ => False
  end.

Ltac finish_checked H R :=
  unfold Sem.checked; destruct R eqn:Hr; rewrite ?Hr in H; cbn [Sem.obind negb push_spec] in H |- *;
  [split; [exact Hr|exact H]|split; [reflexivity|eexists; exact H]].

Lemma is_signed_int sg b : is_signed (TInt sg b) = sg.
Proof. now destruct sg. Qed.

Lemma int_val_enc_ok sg b z : 1 <= b -> Sem.in_range sg b z = true ->
  int_val sg (enc (N.to_nat b) z) = z.
Proof. intros Hb H. destruct sg; [now apply sval_enc_ok|now apply uval_enc_ok]. Qed.

Lemma enc_int_val sg l : l <> [] -> enc (length l) (int_val sg l) = l.
Proof. destruct sg; [apply enc_sval|intros _; apply enc_uval]. Qed.

(* the signedness is only looked at to choose between the signed and the unsigned theorem of TSemArith1 *)
Lemma binop_int_agrees o m t sg b a c len :
  ok_width b = true -> Sem.in_range sg b a = true -> Sem.in_range sg b c = true ->
  (op_arith o = true /\ t = TInt sg b) \/ (op_cmp o || op_eq o = true /\ t = TBool) ->
  binop_agrees o m t (TInt sg b) (Sem.VInt a) (Sem.VInt c) len.
Proof.
  intros Hb Ha Hc Ht. unfold binop_agrees. cbn [enc_val].
  set (n := N.to_nat b).
  assert (Hb1 : 1 <= b) by (apply ok_width_pos in Hb; lia).
  assert (Hn1 : (1 <= n)%nat) by lia.
  assert (Nn : N.of_nat n = b) by apply N2Nat.id.
  pose proof (enc_nonempty n a Hn1) as Hne.
  assert (Hl : length (enc n a) = length (enc n c)) by (now rewrite !length_enc).
  assert (Hlx : length (enc n a) = n) by apply length_enc.
  pose proof (is_signed_int sg b) as HsT.
  assert (HsTT : is_signed (TInt sg b) || is_signed (TInt sg b) = sg) by (rewrite HsT; apply orb_diag).
  pose proof (int_val_enc_ok sg b a Hb1 Ha) as Hva. pose proof (int_val_enc_ok sg b c Hb1 Hc) as Hvc.
  fold n in Hva, Hvc. unfold int_val in Hva, Hvc.
  pose proof (in_range_bounds _ _ _ Ha) as Ba. pose proof (in_range_bounds _ _ _ Hc) as Bc.
  destruct Ht as [[Ho ->]|[Ho ->]]; destruct o; try discriminate Ho;
    cbn [Sem.eval_binop Sem.int_ty]; set (T := TInt sg b) in *.
  - assert (H : lower_binop tops OAdd T T T (enc n a) (enc n c) m None =
                Ok (enc n (a + c), push_spec None (negb (Sem.in_range sg b (a + c))) Overflow (ploc_of m))).
    { destruct sg;
        [pose proof (lower_add_signed T T T _ _ m None Hne Hl HsTT) as H
        |pose proof (lower_add_unsigned T T T _ _ m None Hne Hl HsTT) as H];
        cbv zeta in H; unfold sval, uval in H; rewrite Hlx, Nn, Hva, Hvc in H; exact H. }
    finish_checked H (Sem.in_range sg b (a + c)).
  - assert (H : lower_binop tops OSub T T T (enc n a) (enc n c) m None =
                Ok (enc n (a - c), push_spec None (negb (Sem.in_range sg b (a - c))) Overflow (ploc_of m))).
    { destruct sg;
        [pose proof (lower_sub_signed T T T _ _ m None Hne Hl HsT) as H
        |pose proof (lower_sub_unsigned T T T _ _ m None Hne Hl HsT) as H];
        cbv zeta in H; unfold sval, uval in H; rewrite Hlx, Nn, Hva, Hvc in H; exact H. }
    finish_checked H (Sem.in_range sg b (a - c)).
  - destruct (tsem_binop_mul_checked T T T _ _ m None Hne Hl) as (r & HE & HL & HV).
    cbv zeta in HE, HV. rewrite HsT in HE, HV. unfold lenN, int_val in HE, HV.
    rewrite Hlx, Nn, Hva, Hvc in HE, HV. rewrite Hlx in HL.
    unfold Sem.checked. destruct (Sem.in_range sg b (a * c)) eqn:Hr;
      cbn [Sem.obind negb push_spec] in HE |- *.
    + split; [exact Hr|]. rewrite HE. f_equal. f_equal. change (r = enc n (a * c)).
      rewrite <- (wrap_id sg b (a * c) Hb1 Hr), <- HV, <- HL. symmetry.
      apply (enc_int_val sg). apply nonempty_len. lia.
    + split; [reflexivity|eexists; exact HE].
  - destruct sg.
    + pose proof (lower_div_signed T T T _ _ m None Hne Hl HsT) as H.
      cbv zeta in H. unfold sval in H. rewrite Hlx, Nn, Hva, Hvc in H.
      destruct (c =? 0)%Z eqn:Hc0; cbn [push_spec] in H.
      * split; [reflexivity|eexists; exact H].
      * finish_checked H (Sem.in_range true b (a ÷ c)).
    + pose proof (lower_div_unsigned T T T _ _ m None Hne Hl HsT) as H.
      cbv zeta in H. unfold uval in H. rewrite Hlx, Hva, Hvc in H.
      destruct (Z.eqb_spec c 0) as [Hc0|Hc0]; cbn [push_spec] in H.
      * split; [reflexivity|eexists; exact H].
      * unfold Sem.checked. rewrite (quot_in_range_unsigned b a c Ha) by lia. cbn [Sem.obind].
        split; [|exact H]. cbn [val_ok]. apply quot_in_range_unsigned; [exact Ha|lia].
  - destruct sg;
      [pose proof (lower_mod_signed T T T _ _ m None Hne Hl HsT) as H
      |pose proof (lower_mod_unsigned T T T _ _ m None Hne Hl HsT) as H];
      cbv zeta in H; unfold sval, uval in H; rewrite Hlx, Hva, Hvc in H;
      (destruct (Z.eqb_spec c 0) as [Hc0|Hc0]; cbn [push_spec] in H;
       [split; [reflexivity|eexists; exact H]|split; [unfold T; cbn [val_ok]|exact H]]).
    + rewrite <- Nn. apply rem_in_range; [exact Hn1| |]; unfold n; rewrite N_nat_Z; assumption.
    + apply rem_in_range_unsigned; [exact Ha|lia].
  - destruct sg;
      [pose proof (lower_bitand_signed T T T _ _ m None Hne Hl) as H
      |pose proof (lower_bitand_unsigned T T T _ _ m None Hne Hl) as H];
      unfold sval, uval in H; rewrite Hlx, Hva, Hvc in H; (split; [|exact H]).
    + now apply land_signed_range.
    + apply (bitop_unsigned_range Z.land andb); auto using Z.land_spec.
  - destruct sg;
      [pose proof (lower_bitxor_signed T T T _ _ m None Hne Hl) as H
      |pose proof (lower_bitxor_unsigned T T T _ _ m None Hne Hl) as H];
      unfold sval, uval in H; rewrite Hlx, Hva, Hvc in H; (split; [|exact H]).
    + now apply lxor_signed_range.
    + apply (bitop_unsigned_range Z.lxor xorb); auto using Z.lxor_spec.
  - destruct sg;
      [pose proof (lower_bitor_signed T T T _ _ m None Hne Hl) as H
      |pose proof (lower_bitor_unsigned T T T _ _ m None Hne Hl) as H];
      unfold sval, uval in H; rewrite Hlx, Hva, Hvc in H; (split; [|exact H]).
    + now apply lor_signed_range.
    + apply (bitop_unsigned_range Z.lor orb); auto using Z.lor_spec.
  - destruct sg;
      [pose proof (lower_gt_signed TBool T T _ _ m None Hne Hl HsTT) as H
      |pose proof (lower_gt_unsigned TBool T T _ _ m None Hne Hl HsTT) as H];
      unfold sval, uval in H; rewrite Hva, Hvc in H; exact (conj I H).
  - destruct sg;
      [pose proof (lower_lt_signed TBool T T _ _ m None Hne Hl HsTT) as H
      |pose proof (lower_lt_unsigned TBool T T _ _ m None Hne Hl HsTT) as H];
      unfold sval, uval in H; rewrite Hva, Hvc in H; exact (conj I H).
  - destruct sg;
      [pose proof (lower_eq_signed TBool T T _ _ m None Hne Hl) as H
      |pose proof (lower_eq_unsigned TBool T T _ _ m None Hne Hl) as H];
      unfold sval, uval in H; rewrite Hva, Hvc in H; exact (conj I H).
  - destruct sg;
      [pose proof (lower_ne_signed TBool T T _ _ m None Hne Hl) as H
      |pose proof (lower_ne_unsigned TBool T T _ _ m None Hne Hl) as H];
      unfold sval, uval in H; rewrite Hva, Hvc in H; exact (conj I H).
Qed.

Lemma binop_signed_agrees o m t b a c len :
  ok_width b = true -> Sem.in_range true b a = true -> Sem.in_range true b c = true ->
  (op_arith o = true /\ t = TInt true b) \/ (op_cmp o || op_eq o = true /\ t = TBool) ->
  binop_agrees o m t (TInt true b) (Sem.VInt a) (Sem.VInt c) len.
Proof. apply binop_int_agrees. Qed.

Lemma binop_unsigned_agrees o m t b a c len :
  ok_width b = true -> Sem.in_range false b a = true -> Sem.in_range false b c = true ->
  (op_arith o = true /\ t = TInt false b) \/ (op_cmp o || op_eq o = true /\ t = TBool) ->
  binop_agrees o m t (TInt false b) (Sem.VInt a) (Sem.VInt c) len.
Proof. apply binop_int_agrees. Qed.

(* Boolean operands: & ^ | == != *)
Lemma binop_bool_agrees o m p q len : op_bit o || op_eq o = true ->
  binop_agrees o m TBool TBool (Sem.VBool p) (Sem.VBool q) len.
Proof.
  intro Ho. unfold binop_agrees. cbn [enc_val].
  assert (Hne : [p] <> []) by discriminate.
  assert (Hl : length [p] = length [q]) by reflexivity.
  destruct o; try discriminate Ho; cbn [Sem.eval_binop Sem.value_eqb]; (split; [exact I|]).
  - now rewrite lower_bitand.
  - now rewrite lower_bitxor.
  - now rewrite lower_bitor.
  - rewrite lower_eq_unsigned by assumption. destruct p, q; reflexivity.
  - rewrite lower_ne_unsigned by assumption. destruct p, q; reflexivity.
Qed.

(* ------------------------------------------------------------------ `!` *)

Lemma lower_not_case P re rp rb e1 m t E o x E1 o1 :
  re e1 E o = Ok ((x, E1), o1) ->
  lower_expr_body tops P re rp rb (Ex (ENot e1) m t) E o = Ok ((map negb x, E1), o1).
Proof.
  intro He. cbn [lower_expr_body]. unfold mbind at 1. rewrite He. unfold mbind.
  rewrite mapM_not_tops. reflexivity.
Qed.

Lemma bits_to_N_map_negb l : bits_to_N (map negb l) + bits_to_N l + 1 = 2 ^ lenN l.
Proof.
  induction l as [|b r IH]; [reflexivity|].
  cbn [map]. rewrite !bits_to_N_cons, lenN_cons, pow2_succ.
  assert (lenN (map negb r) = lenN r) as -> by (unfold lenN; now rewrite map_length).
  destruct b; cbn [negb N.b2n]; lia.
Qed.

Lemma map_negb_enc n z : map negb (enc n z) = enc n (Z.lnot z).
Proof.
  apply enc_unique; [now rewrite map_length, length_enc|].
  pose proof (bits_to_N_map_negb (enc n z)) as H.
  assert (Z.of_N (bits_to_N (map negb (enc n z))) + uval (enc n z) + 1 = 2 ^ Z.of_nat n)%Z as HZ.
  { unfold uval. unfold lenN in H. rewrite length_enc in H.
    rewrite <- nat_N_Z, <- pow2_N_Z, <- H. lia. }
  rewrite uval_enc in HZ. unfold uval.
  assert (0 < 2 ^ Z.of_nat n)%Z as Hp by (apply Z.pow_pos_nonneg; lia).
  pose proof (Z.mod_pos_bound z _ Hp) as Hm. pose proof (Z.div_mod z (2 ^ Z.of_nat n) ltac:(lia)) as Hd.
  apply (Z.mod_unique_pos _ _ (- (z / 2 ^ Z.of_nat n) - 1)); [lia|]. unfold Z.lnot. nia.
Qed.

(* ------------------------------------------------------------------ casts *)

Lemma mod_mod_pow2 z k n : (0 <= k <= n)%Z -> ((z mod 2 ^ n) mod 2 ^ k = z mod 2 ^ k)%Z.
Proof.
  intros [Hk Hn]. symmetry. apply Znumtheory.Zmod_div_mod; try (apply Z.pow_pos_nonneg; lia).
  exists (2 ^ (n - k))%Z. rewrite <- Z.pow_add_r by lia. f_equal. lia.
Qed.

Lemma cast_agrees P rec_e rec_p rec_b to e1 m E o v E1 o1 :
  scalar_ty to = true -> scalar_ty (e_ty e1) = true -> val_ok (e_ty e1) v ->
  rec_e e1 E o = Ok ((enc_val (e_ty e1) v, E1), o1) ->
  match Sem.eval_cast to (e_ty e1) v with
  | Sem.Done v' =>
      val_ok to v' /\
      lower_expr_body tops P rec_e rec_p rec_b (Ex (ECast to e1) m to) E o = Ok ((enc_val to v', E1), o1)
  | _ => False
  end.
Proof.
  intros Hto Hfrom Hv He.
  destruct (tsem_cast_correct P rec_e rec_p rec_b to e1 m to E o _ E1 o1 He) as (r & HR & HL & Hnar & Hwid).
  rewrite HR. clear HR He.
  destruct (e_ty e1) as [|sg1 b1| | | |] eqn:Et1; try discriminate Hfrom;
    destruct v as [p|z| | |]; try contradiction; cbn [val_ok enc_val] in *;
    destruct to as [|sg2 b2| | | |]; try discriminate Hto; cbn [Sem.eval_cast scalar_ty val_ok enc_val] in *;
    rewrite ?szn_bool, ?szn_int in *.
  - (* bool -> bool *)
    split; [exact I|]. f_equal. f_equal. f_equal. apply bits_to_N_inj; [exact HL|].
    rewrite Hnar by (cbn [length]; lia). destruct p; reflexivity.
  - (* bool -> int *)
    pose proof (ok_width_pos b2 Hto) as Hb2.
    split.
    + destruct (ok_width_cases b2 Hto) as [-> | [-> | [-> | ->]]]; destruct p, sg2; reflexivity.
    + f_equal. f_equal. f_equal. apply enc_of_uval; [exact HL|].
      cbn [is_signed] in Hwid. unfold uval. rewrite Hwid by (cbn [length]; lia). destruct p; reflexivity.
  - (* int -> bool *)
    pose proof (ok_width_pos b1 Hfrom) as Hb1.
    split; [exact I|]. f_equal. f_equal. f_equal.
    rewrite length_enc in Hnar. specialize (Hnar ltac:(lia)).
    destruct r as [|q [|? ?]]; try discriminate HL.
    assert (Z.of_N (bits_to_N [q]) = (z mod 2 ^ 1)%Z) as HZ.
    { rewrite Hnar. rewrite N2Z.inj_mod. fold (uval (enc (N.to_nat b1) z)). rewrite uval_enc.
      change (Z.of_N (2 ^ N.of_nat 1)) with (2 ^ 1)%Z. apply mod_mod_pow2. lia. }
    change (2 ^ 1)%Z with 2%Z in HZ. rewrite Zmod_odd in HZ.
    destruct q, (Z.odd z); cbn in HZ; try reflexivity; lia.
  - (* int -> int *)
    pose proof (ok_width_pos b1 Hfrom) as Hb1. pose proof (ok_width_pos b2 Hto) as Hb2.
    split; [apply wrap_in_range; lia|]. rewrite enc_wrap. f_equal. f_equal. f_equal.
    rewrite length_enc in Hnar, Hwid.
    destruct (Nat.le_ge_cases (N.to_nat b2) (N.to_nat b1)) as [Hle|Hge].
    + apply enc_unique; [exact HL|]. unfold uval. rewrite (Hnar Hle), N2Z.inj_mod.
      fold (uval (enc (N.to_nat b1) z)). rewrite uval_enc, pow2_N_Z, nat_N_Z.
      apply mod_mod_pow2. lia.
    + specialize (Hwid Hge). cbn [is_signed] in Hwid. destruct sg1.
      * apply enc_of_sval; [apply nonempty_len; lia|exact HL|]. unfold sval. rewrite Hwid.
        apply (sval_enc_ok b1 z); [lia|exact Hv].
      * apply enc_of_uval; [exact HL|]. unfold uval. rewrite Hwid. apply (uval_enc_ok b1 z Hv).
Qed.

(* ------------------------------------------------------------------ shifts *)

Lemma shift_agrees (left : bool) m sg b a s len :
  ok_width b = true -> Sem.in_range sg b a = true -> Sem.in_range false 8 s = true ->
  let xw := enc (N.to_nat b) a in
  let yw := enc 8 s in
  match Sem.eval_binop (if left then OShl else OShr) m (TInt sg b) (TInt sg b) (Sem.VInt a) (Sem.VInt s) len with
  | Sem.Done (v, _) =>
      val_ok (TInt sg b) v /\
      shift_once tops left (shift_fill left sg xw) xw (N.to_nat (bits_to_N yw)) = enc_val (TInt sg b) v /\
      (lenN xw <=? bits_to_N yw) = false
  | Sem.Panicked r m' => m' = m /\ r = Sem.ROverflow /\ (lenN xw <=? bits_to_N yw) = true
  | _ => False
  end.
Proof.
  intros Hb Ha Hs xw yw.
  set (n := N.to_nat b) in *.
  assert (Hb1 : 1 <= b) by (apply ok_width_pos in Hb; lia).
  assert (Hn1 : (1 <= n)%nat) by lia.
  assert (Hlx : length xw = n) by apply length_enc.
  assert (Hnx : xw <> []) by (apply enc_nonempty; exact Hn1).
  assert (HLN : lenN xw = b) by (unfold lenN; rewrite Hlx; apply N2Nat.id).
  assert (HS : Z.of_N (bits_to_N yw) = s).
  { change (uval (enc (N.to_nat 8) s) = s). now apply uval_enc_ok. }
  pose proof (in_range_bounds _ _ _ Hs) as Bs. cbv beta iota in Bs.
  set (S := bits_to_N yw) in *.
  assert (Hcond : (lenN xw <=? S) = (Z.of_N b <=? s)%Z).
  { rewrite HLN. destruct (N.leb_spec b S); destruct (Z.leb_spec (Z.of_N b) s); try reflexivity; lia. }
  rewrite Hcond.
  assert (Hk : N.of_nat (N.to_nat S) = S) by apply N2Nat.id.
  assert (HkZ : Z.of_nat (N.to_nat S) = s) by (rewrite N_nat_Z; exact HS).
  assert (Hp : (0 < 2 ^ s)%Z) by (apply Z.pow_pos_nonneg; lia).
  assert (HuX : uval xw = (a mod 2 ^ Z.of_N b)%Z).
  { unfold xw. rewrite uval_enc. unfold n. now rewrite N_nat_Z. }
  destruct left; cbn [Sem.eval_binop Sem.int_ty];
    destruct (Z.leb_spec (Z.of_N b) s) as [Hov|Hok]; try (repeat split; reflexivity).
  - (* << *)
    split; [apply wrap_in_range; lia|]. split; [|reflexivity].
    cbn [enc_val]. rewrite enc_wrap. fold n.
    apply enc_unique; [now rewrite shift_once_length|].
    unfold uval. rewrite shift_once_shl, Hk, HLN.
    rewrite N2Z.inj_mod, N2Z.inj_mul, !pow2_N_Z. fold (uval xw). rewrite HuX.
    fold S. rewrite HS. unfold n. rewrite N_nat_Z.
    rewrite Z.shiftl_mul_pow2 by lia. apply Z.mul_mod_idemp_l.
    pose proof (pow2_Z_pos b). lia.
  - (* >> *)
    cbn [enc_val]. fold n. rewrite Z.shiftr_div_pow2 by lia.
    pose proof (in_range_bounds _ _ _ Ha) as Ba.
    destruct sg; cbv beta iota in Ba.
    + (* arithmetic *)
      assert (- 2 ^ (Z.of_N b - 1) <= a / 2 ^ s < 2 ^ (Z.of_N b - 1))%Z as Br.
      { assert (0 < 2 ^ (Z.of_N b - 1))%Z by (apply Z.pow_pos_nonneg; lia). split.
        - apply Z.div_le_lower_bound; [lia|]. nia.
        - apply Z.div_lt_upper_bound; [lia|]. nia. }
      split; [apply (in_range_of_bounds true); exact Br|]. split; [|reflexivity].
      unfold shift_fill. cbn [andb negb].
      apply enc_of_sval.
      * apply nonempty_len. rewrite shift_once_length. lia.
      * now rewrite shift_once_length.
      * unfold sval. rewrite shift_once_sar by exact Hnx. rewrite HkZ.
        change (bits_to_Z_signed xw) with (sval xw). unfold xw, n. now rewrite sval_enc_ok.
    + (* logical *)
      assert (0 <= a / 2 ^ s < 2 ^ Z.of_N b)%Z as Br.
      { split; [apply Z.div_pos; lia|]. apply Z.div_lt_upper_bound; [lia|]. nia. }
      split; [apply (in_range_of_bounds false); exact Br|]. split; [|reflexivity].
      unfold shift_fill. cbn [andb].
      apply enc_of_uval; [now rewrite shift_once_length|].
      unfold uval. rewrite shift_once_shr, Hk. rewrite N2Z.inj_div, pow2_N_Z.
      fold (uval xw). fold S. rewrite HS. unfold xw, n. now rewrite uval_enc_ok.
Qed.

(* ------------------------------------------------------------------ the cases of the lowering *)

Lemma lower_expr_S fuel P e E :
  lower_expr tops (S fuel) P e E =
  lower_expr_body tops P (lower_expr tops fuel P) (lower_pattern tops fuel P) (lower_block tops fuel P) e E.
Proof. reflexivity. Qed.

Lemma lit_info_not_lit x : is_num_lit x = false -> lit_info x = None.
Proof. destruct x as [[] ? ?]; cbn [is_num_lit lit_info]; congruence. Qed.

Lemma mul_rewrite_none x y m t : is_num_lit x = false -> is_num_lit y = false -> mul_rewrite x y m t = None.
Proof.
  intros Hx Hy. unfold mul_rewrite, rewrite_one.
  now rewrite (lit_info_not_lit x Hx), (lit_info_not_lit y Hy).
Qed.

Lemma lower_binop_case P re rp rb o x y m t E o0 xw E1 o1 yw E2 o2 :
  op_arith o || op_cmp o || op_eq o = true ->
  (o = OMul -> is_num_lit x = false /\ is_num_lit y = false) ->
  re x E o0 = Ok ((xw, E1), o1) -> re y E1 o1 = Ok ((yw, E2), o2) ->
  lower_expr_body tops P re rp rb (Ex (EOp o x y) m t) E o0 =
  match lower_binop tops o t (e_ty x) (e_ty y) xw yw m o2 with
  | Ok (r, o3) => Ok ((r, E2), o3)
  | Crash => Crash
  | OutOfFuel => OutOfFuel
  end.
Proof.
  intros Ho Hm Hx Hy.
  destruct o; try discriminate Ho; cbn [lower_expr_body];
    try (destruct (Hm eq_refl) as [H1 H2]; rewrite (mul_rewrite_none x y m t H1 H2));
    unfold mbind at 1; rewrite Hx; unfold mbind at 1; rewrite Hy; unfold mbind;
    match goal with |- context [lower_binop ?a ?b ?c ?d ?e ?f ?g ?h ?i] =>
      destruct (lower_binop a b c d e f g h i) as [[r o3]| |] end; reflexivity.
Qed.

Lemma if_same {A} (b : bool) (x : A) : (if b then x else x) = x.
Proof. now destruct b. Qed.

(* ------------------------------------------------------------------ TOTALITY, STICKINESS and
   AGREEMENT, in one induction.  [run_at e]: from any observation the bit-level evaluation of
   [e] returns, in the same environment, a vector of the width of its type and keeps a recorded
   panic; started without a panic, its result is what the source outcome prescribes ([sem_ok]).
   In a node the bit-level run is computed once, from the runs of the operands; the source
   outcomes are read off afterwards, and the panic of an operand reaches the result through
   [sticky]. *)

Definition sem_ok (en : Sem.env) (t : ty) (w : list bool) (o' : pobs)
    (r : Sem.outcome (Sem.value * Sem.env)) : Prop :=
  match r with
  | Sem.Done (v, en') => Sem.scopes en' = Sem.scopes en /\ val_ok t v /\ w = enc_val t v /\ o' = None
  | Sem.Panicked r m => o' = Some (preason_num (pr r), ploc32 (ploc_of m))
  | Sem.Stuck _ => False
  | Sem.NoFuel => True
  end.

Lemma sem_ok_scopes en en1 t w o' r :
  Sem.scopes en1 = Sem.scopes en -> sem_ok en1 t w o' r -> sem_ok en t w o' r.
Proof.
  intros Hs. destruct r as [[v en']| | |]; cbn [sem_ok]; try exact (fun H => H).
  intros (H1 & H2). split; [congruence|exact H2].
Qed.

Lemma sticky_some p o : sticky (Some p) o -> o = Some p.
Proof. intro H. exact (H p eq_refl). Qed.

Section Run.
  Variable P : program.
  Variable g : tenv.
  Variable E : @cenv bool.
  Hypothesis Hkd : Forall keys_distinct E.

  Definition run_at (e : expr) : Prop :=
    forall fuel o, (depth e < fuel)%nat ->
    exists w o', lower_expr tops fuel P e E o = Ok ((w, E), o') /\
      length w = tw (e_ty e) /\ sticky o o' /\
      (o = None -> forall sf en, env_rel en E g -> sem_ok en (e_ty e) w o' (Sem.eval sf P en e)).

  Lemma leaf_run ei m t w :
    (forall f o, lower_expr tops (S f) P (Ex ei m t) E o = Ok ((w, E), o)) -> length w = tw t ->
    (forall sf en, env_rel en E g ->
       exists v, Sem.eval (S sf) P en (Ex ei m t) = Sem.Done (v, en) /\ val_ok t v /\ w = enc_val t v) ->
    run_at (Ex ei m t).
  Proof.
    intros Hlow Hlen Hsem fuel o Hf. destruct fuel as [|f]; [lia|].
    exists w, o. split; [apply Hlow|]. split; [exact Hlen|]. split; [apply sticky_refl|].
    intros -> sf en Hrel. destruct sf as [|sf]; [exact I|].
    destruct (Hsem sf en Hrel) as (v & -> & Hok & ->). cbn [sem_ok]. auto.
  Qed.

  Lemma sem_eval_op f en o x y m t : op_arith o || op_cmp o || op_eq o = true ->
    Sem.eval (S f) P en (Ex (EOp o x y) m t) =
    Sem.obind (Sem.eval f P en x) (fun '(vx, en1) =>
    Sem.obind (Sem.eval f P en1 y) (fun '(vy, en2) =>
    Sem.obind (Sem.eval_binop o m t (e_ty x) vx vy (Sem.lenient en2)) (fun '(v, len) =>
    Sem.Done (v, Sem.mkEnv (Sem.scopes en2) len)))).
  Proof. destruct o; try discriminate; reflexivity. Qed.

  Lemma sem_eval_shift f en o x y m t : op_shift o = true ->
    Sem.eval (S f) P en (Ex (EOp o x y) m t) =
    Sem.obind (Sem.eval f P en x) (fun '(vx, en1) =>
    Sem.obind (Sem.eval f P en1 y) (fun '(vy, en2) =>
    Sem.obind (Sem.eval_binop o m (e_ty x) (e_ty x) vx vy (Sem.lenient en2)) (fun '(v, len) =>
    Sem.Done (v, Sem.mkEnv (Sem.scopes en2) len)))).
  Proof. destruct o; try discriminate; reflexivity. Qed.

  (* + - * / % & ^ | < > == != : operands of the type [tx], result of type [t] *)
  Lemma binop_run o x y m t tx :
    op_arith o || op_cmp o || op_eq o = true ->
    (o = OMul -> is_num_lit x = false /\ is_num_lit y = false) ->
    e_ty x = tx -> e_ty y = tx -> scalar_ty tx = true ->
    tw t = (if op_arith o then tw tx else 1%nat) ->
    (forall vx vy len, val_ok tx vx -> val_ok tx vy -> binop_agrees o m t tx vx vy len) ->
    run_at x -> run_at y -> run_at (Ex (EOp o x y) m t).
  Proof.
    intros Ho Hm Ex Ey Hsc Htw Hag IHx IHy fuel o0 Hf.
    destruct fuel as [|f]; [lia|]. cbn [depth] in Hf.
    destruct (IHx f o0 ltac:(lia)) as (xw & o1 & Hx & Hlx & Hs1 & Ax).
    destruct (IHy f o1 ltac:(lia)) as (yw & o2 & Hy & Hly & Hs2 & Ay).
    rewrite Ex in Hlx, Ax. rewrite Ey in Hly, Ay.
    pose proof (tw_pos tx Hsc) as Hpos.
    destruct (binop_total o t (e_ty x) (e_ty y) xw yw m o2 Ho (nonempty_len xw ltac:(lia)) ltac:(congruence))
      as (w & o3 & HB & HLw & Hs3).
    rewrite lower_expr_S, (lower_binop_case P _ _ _ o x y m t E o0 xw E o1 yw E o2 Ho Hm Hx Hy), HB.
    exists w, o3. split; [reflexivity|]. split; [cbn [e_ty]; now rewrite HLw, Htw, Hlx|].
    split; [exact (sticky_trans _ _ _ Hs1 (sticky_trans _ _ _ Hs2 Hs3))|].
    intros -> sf en Hrel. destruct sf as [|sf]; [exact I|].
    rewrite (sem_eval_op sf en o x y m t Ho). cbn [e_ty].
    specialize (Ax eq_refl sf en Hrel).
    destruct (Sem.eval sf P en x) as [[vx en1]|r1 m1|c1|]; cbn [Sem.obind sem_ok] in Ax |- *;
      [| |contradiction|exact I].
    2:{ subst o1. apply sticky_some. exact (sticky_trans _ _ _ Hs2 Hs3). }
    destruct Ax as (Hsc1 & Hok1 & -> & ->).
    specialize (Ay eq_refl sf en1 (env_rel_scopes _ _ _ _ Hsc1 Hrel)).
    destruct (Sem.eval sf P en1 y) as [[vy en2]|r2 m2|c2|]; cbn [Sem.obind sem_ok] in Ay |- *;
      [| |contradiction|exact I].
    2:{ subst o2. apply sticky_some. exact Hs3. }
    destruct Ay as (Hsc2 & Hok2 & -> & ->).
    pose proof (Hag vx vy (Sem.lenient en2) Hok1 Hok2) as HA. unfold binop_agrees in HA.
    rewrite Ex, Ey in HB. rewrite Ex.
    destruct (Sem.eval_binop o m t tx vx vy (Sem.lenient en2)) as [[v len]|r3 m3|c3|];
      cbn [Sem.obind sem_ok]; try contradiction.
    - destruct HA as [Hokv HA]. rewrite HA in HB. injection HB as <- <-.
      cbn [Sem.scopes]. split; [congruence|]. auto.
    - destruct HA as [-> [w' HA]]. rewrite HA in HB. injection HB as _ <-. reflexivity.
  Qed.

  (* << >> *)
  Lemma shift_run o x y m sg b :
    op_shift o = true -> ok_width b = true -> e_ty x = TInt sg b -> e_ty y = TInt false 8 ->
    run_at x -> run_at y -> run_at (Ex (EOp o x y) m (TInt sg b)).
  Proof.
    intros Ho Hb Ex Ey IHx IHy fuel o0 Hf.
    destruct fuel as [|f]; [lia|]. cbn [depth] in Hf.
    destruct (IHx f o0 ltac:(lia)) as (xw & o1 & Hx & Hlx & Hs1 & Ax).
    destruct (IHy f o1 ltac:(lia)) as (yw & o2 & Hy & Hly & Hs2 & Ay).
    rewrite Ex in Hlx, Ax. rewrite Ey in Hly, Ay. cbn [tw] in Hlx, Hly.
    assert (Hin : In (length xw) [8; 16; 32; 64]%nat) by (rewrite Hlx; now apply ok_width_in).
    assert (exists left : bool, o = if left then OShl else OShr) as [left ->]
      by (destruct o; try discriminate Ho; [exists true|exists false]; reflexivity).
    rewrite lower_expr_S, (tsem_shift_expr P _ _ _ left x y m (TInt sg b) E o0 xw E o1 yw E o2 Hx Hy Hly Hin).
    eexists _, _. split; [reflexivity|]. split; [rewrite shift_once_length; exact Hlx|].
    split; [exact (sticky_trans _ _ _ Hs1 (sticky_trans _ _ _ Hs2 (sticky_push _ _ _ _)))|].
    intros -> sf en Hrel. destruct sf as [|sf]; [exact I|]. rewrite (sem_eval_shift sf en _ x y m _ Ho). cbn [e_ty].
    specialize (Ax eq_refl sf en Hrel).
    destruct (Sem.eval sf P en x) as [[vx en1]|r1 m1|c1|]; cbn [Sem.obind sem_ok] in Ax |- *;
      [| |contradiction|exact I].
    2:{ subst o1. apply sticky_some. exact (sticky_trans _ _ _ Hs2 (sticky_push _ _ _ _)). }
    destruct Ax as (Hsc1 & Hok1 & -> & ->).
    specialize (Ay eq_refl sf en1 (env_rel_scopes _ _ _ _ Hsc1 Hrel)).
    destruct (Sem.eval sf P en1 y) as [[vy en2]|r2 m2|c2|]; cbn [Sem.obind sem_ok] in Ay |- *;
      [| |contradiction|exact I].
    2:{ subst o2. reflexivity. }
    destruct Ay as (Hsc2 & Hok2 & -> & ->).
    destruct vx as [|a| | |]; try contradiction. destruct vy as [|s| | |]; try contradiction.
    cbn [val_ok] in Hok1, Hok2.
    pose proof (shift_agrees left m sg b a s (Sem.lenient en2) Hb Hok1 Hok2) as HA. cbv zeta in HA.
    rewrite Ex, is_signed_int. cbn [enc_val]. change (N.to_nat 8) with 8%nat.
    destruct (Sem.eval_binop (if left then OShl else OShr) m (TInt sg b) (TInt sg b) (Sem.VInt a) (Sem.VInt s)
                (Sem.lenient en2)) as [[v len]|r3 m3|c3|]; cbn [Sem.obind sem_ok]; try contradiction.
    - destruct HA as (Hokv & -> & ->). cbn [Sem.scopes push_spec]. split; [congruence|]. auto.
    - destruct HA as (-> & -> & ->). reflexivity.
  Qed.

  Lemma sem_eval_land f en x y m t :
    Sem.eval (S f) P en (Ex (EOp OLAnd x y) m t) =
    Sem.obind (Sem.eval f P en x) (fun '(vx, en1) =>
      match vx with
      | Sem.VBool false => Sem.Done (Sem.VBool false, en1)
      | Sem.VBool true => Sem.eval f P en1 y
      | _ => Sem.Stuck 44
      end).
  Proof. reflexivity. Qed.

  Lemma sem_eval_lor f en x y m t :
    Sem.eval (S f) P en (Ex (EOp OLOr x y) m t) =
    Sem.obind (Sem.eval f P en x) (fun '(vx, en1) =>
      match vx with
      | Sem.VBool true => Sem.Done (Sem.VBool true, en1)
      | Sem.VBool false => Sem.eval f P en1 y
      | _ => Sem.Stuck 45
      end).
  Proof. reflexivity. Qed.

  (* both: the right operand is evaluated iff the left one is the neutral element *)
  Lemma sem_eval_logic (land : bool) f en x y m t :
    Sem.eval (S f) P en (Ex (EOp (if land then OLAnd else OLOr) x y) m t) =
    Sem.obind (Sem.eval f P en x) (fun '(vx, en1) =>
      match vx with
      | Sem.VBool bx => if Bool.eqb bx land then Sem.eval f P en1 y else Sem.Done (Sem.VBool bx, en1)
      | _ => Sem.Stuck (if land then 44 else 45)
      end).
  Proof.
    destruct land; [rewrite sem_eval_land|rewrite sem_eval_lor];
      destruct (Sem.eval f P en x) as [[[[]| | | |] ?]| | |]; reflexivity.
  Qed.

  Lemma len1 (w : list bool) : length w = 1%nat -> exists b, w = [b].
  Proof. destruct w as [|b [|? ?]]; try discriminate. eauto. Qed.

  (* the bit-level evaluation of `x && y` / `x || y` from the evaluations of the operands *)
  Lemma logic_lower (land : bool) x y m f o0 bx o1 by_ o2 :
    lower_expr tops f P x E o0 = Ok (([bx], E), o1) ->
    lower_expr tops f P y E o1 = Ok (([by_], E), o2) ->
    lower_expr tops (S f) P (Ex (EOp (if land then OLAnd else OLOr) x y) m TBool) E o0 =
    Ok (([if land then bx && by_ else bx || by_], E),
        if land then (if bx then o2 else o1) else (if bx then o1 else o2)).
  Proof.
    intros Hx Hy. rewrite lower_expr_S. destruct land.
    - rewrite (tsem_land_short_circuit P _ _ _ x y m TBool E o0 bx E o1 by_ E o2 Hx Hy
                 (same_env_shape_refl E) Hkd). now rewrite if_same.
    - rewrite (tsem_lor_short_circuit P _ _ _ x y m TBool E o0 bx E o1 by_ E o2 Hx Hy
                 (same_env_shape_refl E) Hkd). now rewrite if_same.
  Qed.

  Lemma logic_run o x y m :
    op_logic o = true -> e_ty x = TBool -> e_ty y = TBool ->
    run_at x -> run_at y -> run_at (Ex (EOp o x y) m TBool).
  Proof.
    intros Ho Etx Ety IHx IHy fuel o0 Hf.
    destruct fuel as [|f]; [lia|]. cbn [depth] in Hf.
    assert (exists land : bool, o = if land then OLAnd else OLOr) as [land ->]
      by (destruct o; try discriminate Ho; [exists true|exists false]; reflexivity).
    destruct (IHx f o0 ltac:(lia)) as (xw & o1 & Hx & Hlx & Hs1 & Ax).
    destruct (IHy f o1 ltac:(lia)) as (yw & o2 & Hy & Hly & Hs2 & Ay).
    rewrite Etx in Hlx, Ax. rewrite Ety in Hly, Ay.
    destruct (len1 xw Hlx) as [bx ->]. destruct (len1 yw Hly) as [by_ ->].
    rewrite (logic_lower land x y m f o0 bx o1 by_ o2 Hx Hy).
    eexists _, _. split; [reflexivity|]. split; [reflexivity|]. split.
    { apply (sticky_trans _ _ _ Hs1).
      destruct land; apply sticky_if; try exact Hs2; apply sticky_refl. }
    intros -> sf en Hrel. destruct sf as [|sf]; [exact I|]. rewrite sem_eval_logic. cbn [e_ty].
    specialize (Ax eq_refl sf en Hrel).
    destruct (Sem.eval sf P en x) as [[vx en1]|r1 m1|c1|]; cbn [Sem.obind sem_ok] in Ax |- *;
      [| |contradiction|exact I].
    2:{ subst o1. rewrite (sticky_some _ _ Hs2), !if_same. reflexivity. }
    destruct Ax as (Hsc1 & Hok1 & Hw & ->).
    destruct vx as [p| | | |]; try contradiction. cbn [enc_val] in Hw. injection Hw as ->.
    destruct (Bool.eqb p land) eqn:Hbl.
    - (* the right operand is evaluated *)
      apply Bool.eqb_prop in Hbl. subst p.
      specialize (Ay eq_refl sf en1 (env_rel_scopes _ _ _ _ Hsc1 Hrel)).
      apply (sem_ok_scopes en en1); [exact Hsc1|].
      destruct (Sem.eval sf P en1 y) as [[vy en2]|r2 m2|c2|]; cbn [sem_ok] in Ay |- *;
        [|destruct land; exact Ay|contradiction|exact I].
      destruct Ay as (Hsc2 & Hok2 & Hw & ->).
      destruct vy as [q| | | |]; try contradiction. cbn [enc_val] in Hw |- *. injection Hw as ->.
      destruct land; auto.
    - (* short circuit *)
      cbn [sem_ok val_ok enc_val]. destruct land, p; try discriminate Hbl; auto.
  Qed.

  (* if / else *)
  Lemma sem_eval_if f en c a b m t :
    Sem.eval (S f) P en (Ex (EIf c a b) m t) =
    Sem.obind (Sem.eval f P en c) (fun '(vc, en1) =>
      match vc with
      | Sem.VBool true => Sem.eval f P en1 a
      | Sem.VBool false => Sem.eval f P en1 b
      | _ => Sem.Stuck 49
      end).
  Proof. reflexivity. Qed.

  Lemma if_lower c a b m t f o0 cb o1 aw oT bw oF :
    lower_expr tops f P c E o0 = Ok (([cb], E), o1) ->
    lower_expr tops f P a E o1 = Ok ((aw, E), oT) ->
    lower_expr tops f P b E o1 = Ok ((bw, E), oF) ->
    length aw = length bw ->
    lower_expr tops (S f) P (Ex (EIf c a b) m t) E o0 =
    Ok ((if cb then aw else bw, E), if cb then oT else oF).
  Proof.
    intros Hc Ha Hb Hl. rewrite lower_expr_S.
    rewrite (tsem_if_selects P _ _ _ c a b m t E o0 cb E o1 aw E oT bw E oF Hc Ha Hb Hl
               (same_env_shape_refl E) Hkd). now rewrite if_same.
  Qed.

  Lemma if_run c a b m t :
    e_ty c = TBool -> e_ty a = t -> e_ty b = t ->
    run_at c -> run_at a -> run_at b -> run_at (Ex (EIf c a b) m t).
  Proof.
    intros Etc Eta Etb IHc IHa IHb fuel o0 Hf.
    destruct fuel as [|f]; [lia|]. cbn [depth] in Hf.
    destruct (IHc f o0 ltac:(lia)) as (cw & o1 & Hc & Hlc & Hs1 & Ac).
    destruct (IHa f o1 ltac:(lia)) as (aw & oT & Ha & Hla & HsT & Aa).
    destruct (IHb f o1 ltac:(lia)) as (bw & oF & Hb & Hlb & HsF & Ab).
    rewrite Etc in Hlc, Ac. rewrite Eta in Hla, Aa. rewrite Etb in Hlb, Ab.
    destruct (len1 cw Hlc) as [cb ->].
    rewrite (if_lower c a b m t f o0 cb o1 aw oT bw oF Hc Ha Hb ltac:(congruence)).
    eexists _, _. split; [reflexivity|]. split; [cbn [e_ty]; destruct cb; assumption|].
    split; [apply (sticky_trans _ _ _ Hs1); now apply sticky_if|].
    intros -> sf en Hrel. destruct sf as [|sf]; [exact I|]. rewrite sem_eval_if. cbn [e_ty].
    specialize (Ac eq_refl sf en Hrel).
    destruct (Sem.eval sf P en c) as [[vc en1]|r1 m1|c1|]; cbn [Sem.obind sem_ok] in Ac |- *;
      [| |contradiction|exact I].
    2:{ subst o1. rewrite (sticky_some _ _ HsT), (sticky_some _ _ HsF). apply if_same. }
    destruct Ac as (Hsc1 & Hok1 & Hw & ->).
    destruct vc as [p| | | |]; try contradiction. cbn [enc_val] in Hw. injection Hw as ->.
    pose proof (env_rel_scopes _ _ _ _ Hsc1 Hrel) as Hrel1.
    apply (sem_ok_scopes en en1); [exact Hsc1|].
    destruct p; [exact (Aa eq_refl sf en1 Hrel1)|exact (Ab eq_refl sf en1 Hrel1)].
  Qed.

  (* unary minus, `!`, casts *)
  Lemma sem_eval_neg f en e1 m t :
    Sem.eval (S f) P en (Ex (ENeg e1) m t) =
    Sem.obind (Sem.eval f P en e1) (fun '(v, en1) =>
      match v, Sem.int_ty t with
      | Sem.VInt z, Some (sg, bits) => Sem.obind (Sem.checked sg bits m (- z)) (fun r => Sem.Done (r, en1))
      | _, _ => Sem.Stuck 42
      end).
  Proof. reflexivity. Qed.

  Lemma sem_eval_not f en e1 m t :
    Sem.eval (S f) P en (Ex (ENot e1) m t) =
    Sem.obind (Sem.eval f P en e1) (fun '(v, en1) =>
      match v, t with
      | Sem.VBool b, _ => Sem.Done (Sem.VBool (negb b), en1)
      | Sem.VInt z, TInt sg bits => Sem.Done (Sem.VInt (Sem.wrap sg bits (Z.lnot z)), en1)
      | _, _ => Sem.Stuck 43
      end).
  Proof. reflexivity. Qed.

  Lemma sem_eval_cast f en to e1 m t :
    Sem.eval (S f) P en (Ex (ECast to e1) m t) =
    Sem.obind (Sem.eval f P en e1) (fun '(v, en1) =>
      Sem.obind (Sem.eval_cast to (e_ty e1) v) (fun r => Sem.Done (r, en1))).
  Proof. reflexivity. Qed.

  Lemma neg_run e1 m b : ok_width b = true -> e_ty e1 = TInt true b ->
    run_at e1 -> run_at (Ex (ENeg e1) m (TInt true b)).
  Proof.
    intros Hb Et1 IH fuel o0 Hf. destruct fuel as [|f]; [lia|]. cbn [depth] in Hf.
    destruct (IH f o0 ltac:(lia)) as (x & o1 & He & Hl & Hs & A). rewrite Et1 in Hl, A. cbn [tw] in Hl.
    pose proof (ok_width_pos b Hb) as Hb2.
    assert (x <> []) as Hne by (apply nonempty_len; lia).
    pose proof (lower_neg_correct P _ (lower_pattern tops f P) (lower_block tops f P) e1 m (TInt true b)
                  E o0 x E o1 He Hne) as HN. cbv zeta in HN.
    rewrite lower_expr_S, HN.
    eexists _, _. split; [reflexivity|]. split; [rewrite length_enc; exact Hl|].
    split; [exact (sticky_trans _ _ _ Hs (sticky_push _ _ _ _))|].
    intros -> sf en Hrel. destruct sf as [|sf]; [exact I|]. rewrite sem_eval_neg. cbn [e_ty Sem.int_ty].
    specialize (A eq_refl sf en Hrel).
    destruct (Sem.eval sf P en e1) as [[v en1]|r1 m1|c1|]; cbn [Sem.obind sem_ok] in A |- *;
      [| |contradiction|exact I].
    2:{ subst o1. reflexivity. }
    destruct A as (Hsc1 & Hok1 & -> & ->).
    destruct v as [|z| | |]; try contradiction. cbn [val_ok enc_val] in *.
    rewrite length_enc, N2Nat.id, (sval_enc_ok b z) by (assumption || lia).
    unfold Sem.checked. destruct (Sem.in_range true b (- z)) eqn:Hr; cbn [Sem.obind sem_ok negb push_spec val_ok enc_val].
    - auto.
    - reflexivity.
  Qed.

  Lemma not_run e1 m t : scalar_ty t = true -> e_ty e1 = t ->
    run_at e1 -> run_at (Ex (ENot e1) m t).
  Proof.
    intros Hsc Et1 IH fuel o0 Hf. destruct fuel as [|f]; [lia|]. cbn [depth] in Hf.
    destruct (IH f o0 ltac:(lia)) as (x & o1 & He & Hl & Hs & A). rewrite Et1 in Hl, A.
    rewrite lower_expr_S, (lower_not_case P _ _ _ e1 m t E o0 x E o1 He).
    eexists _, _. split; [reflexivity|]. split; [rewrite map_length; exact Hl|]. split; [exact Hs|].
    intros -> sf en Hrel. destruct sf as [|sf]; [exact I|]. rewrite sem_eval_not. cbn [e_ty].
    specialize (A eq_refl sf en Hrel).
    destruct (Sem.eval sf P en e1) as [[v en1]|r1 m1|c1|]; cbn [Sem.obind sem_ok] in A |- *;
      [|exact A|contradiction|exact I].
    destruct A as (Hsc1 & Hok1 & -> & ->).
    destruct t as [|sg b| | | |]; try discriminate Hsc; destruct v as [p|z| | |]; try contradiction;
      cbn [sem_ok val_ok enc_val map].
    - auto.
    - pose proof (ok_width_pos b Hsc) as Hb2.
      split; [exact Hsc1|]. split; [apply wrap_in_range; lia|]. split; [|reflexivity].
      now rewrite map_negb_enc, enc_wrap.
  Qed.

  Lemma cast_run e1 m t : scalar_ty t = true -> scalar_ty (e_ty e1) = true ->
    run_at e1 -> run_at (Ex (ECast t e1) m t).
  Proof.
    intros Hsc Hsc1 IH fuel o0 Hf. destruct fuel as [|f]; [lia|]. cbn [depth] in Hf.
    destruct (IH f o0 ltac:(lia)) as (x & o1 & He & Hl & Hs & A).
    destruct (tsem_cast_correct P _ (lower_pattern tops f P) (lower_block tops f P) t e1 m t E o0 x E o1 He)
      as (r & HR & HL & _).
    rewrite lower_expr_S, HR.
    exists r, o1. split; [reflexivity|]. split; [rewrite HL; now apply szn_tw|]. split; [exact Hs|].
    intros -> sf en Hrel. destruct sf as [|sf]; [exact I|]. rewrite sem_eval_cast. cbn [e_ty].
    specialize (A eq_refl sf en Hrel).
    destruct (Sem.eval sf P en e1) as [[v en1]|r1 m1|c1|]; cbn [Sem.obind sem_ok] in A |- *;
      [|exact A|contradiction|exact I].
    destruct A as (Hs1 & Hok1 & -> & ->).
    pose proof (cast_agrees P _ (lower_pattern tops f P) (lower_block tops f P) t e1 m E None v E None
                  Hsc Hsc1 Hok1 He) as HC.
    destruct (Sem.eval_cast t (e_ty e1) v) as [v'| | |]; try contradiction; cbn [Sem.obind sem_ok].
    destruct HC as [Hokv HC]. rewrite HR in HC. injection HC as ->. auto.
  Qed.

  (* ---------------------------------------------------------------- the theorem, on the judgement *)

  Theorem tsem_run_typed : env_shape E g -> forall e, ps_typed g e -> run_at e.
  Proof.
    intros Hsh e Ht. induction Ht.
    - apply (leaf_run _ _ _ [true]); [intros f o; reflexivity|reflexivity|].
      intros sf en _. exists (Sem.VBool true). split; [reflexivity|]. split; [exact I|reflexivity].
    - apply (leaf_run _ _ _ [false]); [intros f o; reflexivity|reflexivity|].
      intros sf en _. exists (Sem.VBool false). split; [reflexivity|]. split; [exact I|reflexivity].
    - apply (leaf_run _ _ _ (enc (N.to_nat b) (Z.of_N n))); [|apply length_enc|].
      + intros f o. rewrite lower_expr_S. cbn [lower_expr_body]. now rewrite tsem_unsigned_as_wires.
      + intros sf en _. exists (Sem.VInt (Z.of_N n)). split; [reflexivity|]. split; [|reflexivity].
        cbn [val_ok]. now rewrite <- lit_fits_in_range.
    - apply (leaf_run _ _ _ (enc (N.to_nat b) z)); [|apply length_enc|].
      + intros f o. rewrite lower_expr_S. cbn [lower_expr_body]. now rewrite tsem_signed_as_wires.
      + intros sf en _. exists (Sem.VInt z). split; [reflexivity|]. split; [|reflexivity].
        cbn [val_ok]. now rewrite <- lit_fits_in_range.
    - destruct (Hsh x t mu H H0) as (w & Hg & Hl). apply (leaf_run _ _ _ w); [|exact Hl|].
      + intros f o. rewrite lower_expr_S. cbn [lower_expr_body]. now rewrite Hg.
      + intros sf en Hrel. destruct (Hrel x t mu H H0) as (v & Hv & Hok & He). exists v.
        cbn [Sem.eval]. rewrite Hv. split; [reflexivity|]. split; [exact Hok|]. congruence.
    - now apply neg_run.
    - now apply not_run.
    - apply cast_run; [assumption|now apply (ps_typed_scalar g)|assumption].
    - apply (binop_run o x y m (TInt sg b) (TInt sg b)); try assumption.
      + now rewrite H.
      + now rewrite H.
      + intros vx vy len Hx Hy. destruct vx as [|a| | |], vy as [|c| | |]; try contradiction.
        cbn [val_ok] in Hx, Hy. destruct sg.
        * apply binop_signed_agrees; auto.
        * apply binop_unsigned_agrees; auto.
    - apply (binop_run o x y m TBool TBool); try assumption; try reflexivity.
      + destruct o; try discriminate H; reflexivity.
      + intros ->. discriminate H.
      + destruct o; try discriminate H; reflexivity.
      + intros vx vy len Hx Hy. destruct vx as [p| | | |], vy as [q| | | |]; try contradiction.
        apply binop_bool_agrees. now rewrite H.
    - apply (binop_run o x y m TBool (TInt sg b)); try assumption.
      + destruct o; try discriminate H; reflexivity.
      + intros ->. discriminate H.
      + destruct o; try discriminate H; reflexivity.
      + intros vx vy len Hx Hy. destruct vx as [|a| | |], vy as [|c| | |]; try contradiction.
        cbn [val_ok] in Hx, Hy.
        assert (op_cmp o || op_eq o = true) as Hoo by (now rewrite H).
        destruct sg.
        * apply binop_signed_agrees; auto.
        * apply binop_unsigned_agrees; auto.
    - apply (binop_run o x y m TBool t); try assumption.
      + destruct o; try discriminate H; reflexivity.
      + intros ->. discriminate H.
      + destruct o; try discriminate H; reflexivity.
      + intros vx vy len Hx Hy.
        assert (op_cmp o || op_eq o = true) as Hoo by (rewrite H; apply orb_true_r).
        destruct t as [|sg b| | | |]; try discriminate H0.
        * destruct vx as [p| | | |], vy as [q| | | |]; try contradiction.
          apply binop_bool_agrees. rewrite H. apply orb_true_r.
        * destruct vx as [|a| | |], vy as [|c| | |]; try contradiction.
          cbn [val_ok scalar_ty] in *. destruct sg.
          -- apply binop_signed_agrees; auto.
          -- apply binop_unsigned_agrees; auto.
    - now apply shift_run.
    - now apply logic_run.
    - now apply if_run.
  Qed.
End Run.

Theorem tsem_total_typed P g E : env_shape E g -> Forall keys_distinct E ->
  forall e, ps_typed g e -> forall fuel o, (depth e < fuel)%nat ->
  exists w o', lower_expr tops fuel P e E o = Ok ((w, E), o') /\
               length w = tw (e_ty e) /\ sticky o o'.
Proof.
  intros Hshape Hkd e Ht fuel o Hf.
  destruct (tsem_run_typed P g E Hkd Hshape e Ht fuel o Hf) as (w & o' & H & Hl & Hs & _). eauto.
Qed.
Print Assumptions tsem_total_typed.

Section Agreement.
  Variable P : program.
  Variable g : tenv.
  Variable E : @cenv bool.
  Hypothesis Hkd : Forall keys_distinct E.

  (* the statement, for one expression *)
  Definition agree_at (e : expr) : Prop :=
    forall fuel en, env_rel en E g ->
    match Sem.eval fuel P en e with
    | Sem.Done (v, en') =>
        Sem.scopes en' = Sem.scopes en /\ val_ok (e_ty e) v /\
        forall fuel', (depth e < fuel')%nat ->
          lower_expr tops fuel' P e E None = Ok ((enc_val (e_ty e) v, E), None)
    | Sem.Panicked r m =>
        forall fuel', (depth e < fuel')%nat ->
          exists w, lower_expr tops fuel' P e E None =
                    Ok ((w, E), Some (preason_num (pr r), ploc32 (ploc_of m)))
    | Sem.Stuck _ => False
    | Sem.NoFuel => True
    end.

  Lemma agree_of_run e : run_at P g E e -> agree_at e.
  Proof.
    intros Hr fuel en Hrel.
    assert (Hrun : forall fuel', (depth e < fuel')%nat -> exists w o',
              lower_expr tops fuel' P e E None = Ok ((w, E), o') /\
              sem_ok en (e_ty e) w o' (Sem.eval fuel P en e)).
    { intros fuel' Hf. destruct (Hr fuel' None Hf) as (w & o' & Hl & _ & _ & A).
      exists w, o'. split; [exact Hl|exact (A eq_refl fuel en Hrel)]. }
    destruct (Sem.eval fuel P en e) as [[v en']|r m|c|]; cbn [sem_ok] in Hrun.
    - destruct (Hrun (S (depth e)) ltac:(lia)) as (_ & _ & _ & Hs & Hok & _).
      split; [exact Hs|]. split; [exact Hok|]. intros fuel' Hf.
      destruct (Hrun fuel' Hf) as (w & o' & Hl & _ & _ & -> & ->). exact Hl.
    - intros fuel' Hf. destruct (Hrun fuel' Hf) as (w & o' & Hl & ->). exists w. exact Hl.
    - destruct (Hrun (S (depth e)) ltac:(lia)) as (_ & _ & _ & []).
    - exact I.
  Qed.

  Theorem tsem_sem_typed e : ps_typed g e -> agree_at e.
  Proof.
    intros Ht fuel en Hrel.
    exact (agree_of_run e (tsem_run_typed P g E Hkd (env_rel_shape _ _ _ Hrel) e Ht) fuel en Hrel).
  Qed.

  Lemma logic_node o x y m :
    op_logic o = true -> ps_typed g x -> ps_typed g y -> e_ty x = TBool -> e_ty y = TBool ->
    agree_at x -> agree_at y -> agree_at (Ex (EOp o x y) m TBool).
  Proof. intros Ho Htx Hty Etx Ety _ _. apply tsem_sem_typed. now apply PT_logic. Qed.

  Lemma if_node c a b m t :
    scalar_ty t = true -> ps_typed g c -> ps_typed g a -> ps_typed g b ->
    e_ty c = TBool -> e_ty a = t -> e_ty b = t ->
    agree_at c -> agree_at a -> agree_at b -> agree_at (Ex (EIf c a b) m t).
  Proof. intros Hsc Htc Hta Htb Etc Eta Etb _ _ _. apply tsem_sem_typed. now apply PT_if. Qed.
End Agreement.
Print Assumptions tsem_sem_typed.

(* ------------------------------------------------------------------ the theorems, on the checks *)

(* TOTALITY and STICKINESS: a well-typed pure scalar expression evaluates at the bit level,
   with any fuel above its depth, from any observation and whatever the values of the
   variables are, to a vector of the width of its type, in the same environment; an
   observation [Some x] is returned unchanged. *)
Theorem tsem_total P g E e fw fuel o :
  pure_scalar e = true -> wt_expr fw P g e = true -> exact_tys g e = true ->
  env_shape E g -> Forall keys_distinct E -> (depth e < fuel)%nat ->
  exists w o', lower_expr tops fuel P e E o = Ok ((w, E), o') /\
               length w = tw (e_ty e) /\ sticky o o'.
Proof.
  intros Hp Hw Hx Hsh Hkd Hf.
  exact (tsem_total_typed P g E Hsh Hkd e (ps_typed_of_checks P fw g e Hp Hx Hw) fuel o Hf).
Qed.
Print Assumptions tsem_total.

Corollary tsem_sticky P g E e fw fuel x :
  pure_scalar e = true -> wt_expr fw P g e = true -> exact_tys g e = true ->
  env_shape E g -> Forall keys_distinct E -> (depth e < fuel)%nat ->
  exists w, lower_expr tops fuel P e E (Some x) = Ok ((w, E), Some x) /\ length w = tw (e_ty e).
Proof.
  intros Hp Hw Hx Hsh Hkd Hf.
  destruct (tsem_total P g E e fw fuel (Some x) Hp Hw Hx Hsh Hkd Hf) as (w & o' & He & Hl & Hs).
  rewrite (Hs x eq_refl) in He. eauto.
Qed.
Print Assumptions tsem_sticky.

(* AGREEMENT: if the source semantics returns a value, the bit-level semantics returns its
   encoding and no panic; if it panics, the bit-level semantics records that panic (same
   reason, same location); it is never stuck; the source environment is unchanged up to the
   [lenient] flag.  The bit-level result is the same for every fuel above the depth. *)
Theorem tsem_sem_expr fuel P e en E g fw :
  pure_scalar e = true -> wt_expr fw P g e = true -> exact_tys g e = true ->
  env_rel en E g -> Forall keys_distinct E ->
  match Sem.eval fuel P en e with
  | Sem.Done (v, en') =>
      Sem.scopes en' = Sem.scopes en /\ val_ok (e_ty e) v /\
      forall fuel', (depth e < fuel')%nat ->
        lower_expr tops fuel' P e E None = Ok ((enc_val (e_ty e) v, E), None)
  | Sem.Panicked r m =>
      forall fuel', (depth e < fuel')%nat ->
        exists w, lower_expr tops fuel' P e E None =
                  Ok ((w, E), Some (preason_num (pr r), ploc32 (ploc_of m)))
  | Sem.Stuck _ => False
  | Sem.NoFuel => True
  end.
Proof.
  intros Hp Hw Hx Hrel Hkd.
  exact (tsem_sem_typed P g E Hkd e (ps_typed_of_checks P fw g e Hp Hx Hw) fuel en Hrel).
Qed.
Print Assumptions tsem_sem_expr.

(* the same with an existential fuel *)
Corollary tsem_sem_expr_ex fuel P e en E g fw :
  pure_scalar e = true -> wt_expr fw P g e = true -> exact_tys g e = true ->
  env_rel en E g -> Forall keys_distinct E ->
  match Sem.eval fuel P en e with
  | Sem.Done (v, en') =>
      Sem.scopes en' = Sem.scopes en /\
      exists fuel', lower_expr tops fuel' P e E None = Ok ((enc_val (e_ty e) v, E), None)
  | Sem.Panicked r m =>
      exists fuel' w, lower_expr tops fuel' P e E None =
                      Ok ((w, E), Some (preason_num (pr r), ploc32 (ploc_of m)))
  | Sem.Stuck _ | Sem.NoFuel => True
  end.
Proof.
  intros Hp Hw Hx Hrel Hkd.
  pose proof (tsem_sem_expr fuel P e en E g fw Hp Hw Hx Hrel Hkd) as H. revert H.
  destruct (Sem.eval fuel P en e) as [[v en']|r m|c|]; intro H; try exact I.
  - destruct H as (Hs & _ & Hl). split; [exact Hs|]. exists (S (depth e)). apply Hl. lia.
  - exists (S (depth e)). apply H. lia.
Qed.
Print Assumptions tsem_sem_expr_ex.

(* ------------------------------------------------------------------ a structural sufficient
   condition for [env_rel]: the three environments have the same scopes with the same names
   in the same order, and every scalar variable's bits are the encoding of its value, which
   is a value of its type *)

Inductive Forall3 {A B C} (R : A -> B -> C -> Prop) : list A -> list B -> list C -> Prop :=
| F3_nil : Forall3 R [] [] []
| F3_cons a b c la lb lc : R a b c -> Forall3 R la lb lc -> Forall3 R (a :: la) (b :: lb) (c :: lc).

Definition bind_rel (b : N * Sem.value) (c : N * list bool) (tb : N * (ty * bool)) : Prop :=
  fst b = fst tb /\ fst c = fst tb /\
  (scalar_ty (fst (snd tb)) = true ->
   val_ok (fst (snd tb)) (snd b) /\ snd c = enc_val (fst (snd tb)) (snd b)).

Definition env_rel_struct (en : Sem.env) (E : @cenv bool) (g : tenv) : Prop :=
  Forall3 (Forall3 bind_rel) (Sem.scopes en) E g.

Lemma scope_rel_lookup s cs gs x : Forall3 bind_rel s cs gs ->
  match assocN x gs with
  | Some (t, mu) =>
      exists v w, assocN x s = Some v /\ assocN x cs = Some w /\
                  (scalar_ty t = true -> val_ok t v /\ w = enc_val t v)
  | None => assocN x s = None /\ assocN x cs = None
  end.
Proof.
  induction 1 as [|[k v] [k2 w] [k3 [t mu]] s cs gs (H1 & H2 & H3) _ IH]; cbn [assocN]; [auto|].
  cbn [fst snd] in H1, H2, H3. subst k k2.
  destruct (N.eqb_spec x k3); [|exact IH]. exists v, w. auto.
Qed.

Theorem env_rel_of_struct en E g : env_rel_struct en E g -> env_rel en E g.
Proof.
  unfold env_rel_struct, env_rel, Sem.lookup_var.
  induction 1 as [|s cs gs ss E g Hs _ IH]; intros x t mu Hl Hsc; cbn [tlookup] in Hl; [discriminate|].
  cbn [Sem.lookup_scopes env_get].
  pose proof (scope_rel_lookup s cs gs x Hs) as Hx. revert Hx Hl.
  destruct (assocN x gs) as [[t' mu']|]; intros Hx Hl.
  - injection Hl as -> ->. destruct Hx as (v & w & -> & -> & H3). destruct (H3 Hsc) as [Hok ->].
    exists v. auto.
  - destruct Hx as [-> ->]. now apply (IH x t mu).
Qed.
Print Assumptions env_rel_of_struct.

(* ------------------------------------------------------------------ fuel: on the fragment the
   bit-level evaluation does not depend on the fuel, once it exceeds the depth (more fuel,
   same result) -- no typing hypothesis *)

Lemma mbind_congr {A B} (m1 m2 : M (Cs:=pobs) A) (k1 k2 : A -> M (Cs:=pobs) B) o :
  m1 o = m2 o -> (forall a o', k1 a o' = k2 a o') -> mbind m1 k1 o = mbind m2 k2 o.
Proof. intros Hm Hk. unfold mbind. rewrite Hm. destruct (m2 o) as [[a o']| |]; auto. Qed.

Theorem lower_fuel_indep P : forall n e, (depth e < n)%nat -> pure_scalar e = true ->
  forall f1 f2 E o, (depth e < f1)%nat -> (depth e < f2)%nat ->
  lower_expr tops f1 P e E o = lower_expr tops f2 P e E o.
Proof.
  induction n as [|n IH]; intros [ei m t] Hd Hp f1 f2 E o H1 H2; [lia|].
  destruct f1 as [|a]; [lia|]. destruct f2 as [|b]; [lia|]. rewrite !lower_expr_S.
  cbn [pure_scalar] in Hp. apply andb_prop in Hp. destruct Hp as [_ Hp].
  destruct ei; try discriminate Hp; cbn [depth] in Hd, H1, H2; try reflexivity; bsplit.
  Ltac sub IH := apply IH; [lia|assumption|lia|lia].
  Ltac chain IH :=
    repeat first
      [ reflexivity
      | apply mbind_congr; [first [reflexivity|sub IH]|first [intros [? ?] ?|intros ? ?]; cbv beta iota] ].
  - cbn [lower_expr_body]. chain IH.
  - cbn [lower_expr_body]. chain IH.
  - destruct o0; bsplit; cbn [lower_expr_body];
      try rewrite mul_rewrite_none by (apply negb_true_iff; assumption);
      chain IH.
  - cbn [lower_expr_body]. chain IH.
  - cbn [lower_expr_body]. chain IH.
Qed.
Print Assumptions lower_fuel_indep.

Corollary lower_fuel_mono P e f f' E o : pure_scalar e = true -> (depth e < f)%nat -> (f <= f')%nat ->
  lower_expr tops f' P e E o = lower_expr tops f P e E o.
Proof. intros Hp Hf Hle. apply (lower_fuel_indep P (S (depth e)) e); try assumption; lia. Qed.

(* ------------------------------------------------------------------ sanity: the hypotheses are
   satisfiable (a conditional with a checked addition that overflows in one branch) *)

Module Sanity.
  Definition P0 : program := mkProgram [] [] [] [] 0.
  Definition mm (k : N) : meta := mkMeta k 1 k 9.
  Definition u8 := TInt false 8.
  Definition vx := Ex (EId 0) (mm 1) u8.
  Definition vy := Ex (EId 1) (mm 2) u8.
  (* if x < y { x + y } else { x - y } *)
  Definition e0 : expr :=
    Ex (EIf (Ex (EOp OLt vx vy) (mm 3) TBool)
            (Ex (EOp OAdd vx vy) (mm 4) u8)
            (Ex (EOp OSub vx vy) (mm 5) u8)) (mm 6) u8.
  Definition g0 : tenv := [[(0, (u8, false)); (1, (u8, false))]].
  Definition en0 (a c : Z) : Sem.env := Sem.mkEnv [[(0, Sem.VInt a); (1, Sem.VInt c)]] false.
  Definition E0 (a c : Z) : @cenv bool := [[(0, enc 8 a); (1, enc 8 c)]].

  Lemma hyps a c : Sem.in_range false 8 a = true -> Sem.in_range false 8 c = true ->
    pure_scalar e0 = true /\ wt_expr 5 P0 g0 e0 = true /\ exact_tys g0 e0 = true /\
    env_rel (en0 a c) (E0 a c) g0 /\ Forall keys_distinct (E0 a c).
  Proof.
    intros Ha Hc. repeat split; try reflexivity.
    - apply env_rel_of_struct. repeat constructor; cbn; assumption.
    - repeat constructor; cbn; intuition discriminate.
  Qed.

  (* 100 < 200: the addition overflows; the source semantics panics at the addition and so
     does the bit-level semantics, although it also evaluates the subtraction (which would
     underflow) *)
  Example panics :
    Sem.eval 5 P0 (en0 100 200) e0 = Sem.Panicked Sem.ROverflow (mm 4) /\
    exists w, lower_expr tops 3 P0 e0 (E0 100 200) None =
              Ok ((w, E0 100 200), Some (preason_num Overflow, ploc32 (ploc_of (mm 4)))).
  Proof.
    destruct (hyps 100 200 eq_refl eq_refl) as (H1 & H2 & H3 & H4 & H5).
    pose proof (tsem_sem_expr 5 P0 e0 _ _ g0 5 H1 H2 H3 H4 H5) as H.
    assert (Sem.eval 5 P0 (en0 100 200) e0 = Sem.Panicked Sem.ROverflow (mm 4)) as Ev by (vm_compute; reflexivity).
    rewrite Ev in H. split; [reflexivity|]. apply (H 3%nat). cbn. lia.
  Qed.

  Example returns :
    exists en', Sem.eval 5 P0 (en0 200 100) e0 = Sem.Done (Sem.VInt 100, en') /\
    lower_expr tops 3 P0 e0 (E0 200 100) None = Ok ((enc 8 100, E0 200 100), None).
  Proof.
    destruct (hyps 200 100 eq_refl eq_refl) as (H1 & H2 & H3 & H4 & H5).
    pose proof (tsem_sem_expr 5 P0 e0 _ _ g0 5 H1 H2 H3 H4 H5) as H.
    assert (exists en', Sem.eval 5 P0 (en0 200 100) e0 = Sem.Done (Sem.VInt 100, en')) as [en' Ev]
      by (eexists; vm_compute; reflexivity).
    rewrite Ev in H. exists en'. split; [exact Ev|]. destruct H as (_ & _ & H). apply (H 3%nat). cbn. lia.
  Qed.
End Sanity.

(* ------------------------------------------------------------------ FINDING: the hypothesis
   [exact_tys] cannot be dropped.  [Wt.ty_eqb] identifies the two 32-bit integer types, so
   [Wt.wt_expr] accepts trees in which an operand is annotated i32 and the result u32 (the
   typed AST of an unsuffixed literal may be such a tree).  On such a tree the two semantics
   DISAGREE: Sem.v takes the signedness of `+` from the RESULT type, the compiler from the
   OPERAND types.

       x + 1      x : u32 = 4294967295,   the literal annotated i32,   result u32

   Sem.v: 4294967296 is not a u32: panic Overflow.  Bit level: one operand is signed, so the
   overflow test is the signed one, -1 + 1 = 0 does not overflow: no panic, result 0. *)

Module Conflation.
  Definition P0 : program := mkProgram [] [] [] [] 0.
  Definition mm (k : N) : meta := mkMeta k 1 k 9.
  Definition u32 := TInt false 32.
  Definition i32 := TInt true 32.
  Definition e0 : expr := Ex (EOp OAdd (Ex (EId 0) (mm 1) u32) (Ex (ENumU 1 32) (mm 2) i32)) (mm 3) u32.
  Definition g0 : tenv := [[(0, (u32, false))]].
  Definition en0 : Sem.env := Sem.mkEnv [[(0, Sem.VInt 4294967295)]] false.
  Definition E0 : @cenv bool := [[(0, enc 32 4294967295)]].

  Example accepted : pure_scalar e0 = true /\ wt_expr 5 P0 g0 e0 = true /\ exact_tys g0 e0 = false.
  Proof. repeat split; reflexivity. Qed.

  Example env_ok : env_rel en0 E0 g0 /\ Forall keys_distinct E0.
  Proof.
    split.
    - apply env_rel_of_struct. repeat constructor.
    - repeat constructor; cbn; intuition discriminate.
  Qed.

  Example source_panics : Sem.eval 5 P0 en0 e0 = Sem.Panicked Sem.ROverflow (mm 3).
  Proof. vm_compute. reflexivity. Qed.

  Example bit_level_returns_zero : lower_expr tops 3 P0 e0 E0 None = Ok ((enc 32 0, E0), None).
  Proof. vm_compute. reflexivity. Qed.
End Conflation.
