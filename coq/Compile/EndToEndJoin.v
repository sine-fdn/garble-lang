(* THE END-TO-END THEOREM FOR FOR-JOIN PROGRAMS (C13 at circuit level).

   Compile/EndToEnd.v composes the circuit theorem with "TSem = Sem.v" through
   TSemTotal.lower_program_total, which needs the crash-freedom conditions of Compile/TSemSafe.v --
   and those exclude for-join loops.  Here the ONE-WITNESS form of the circuit theorem is used
   instead (Compile/TSemShape.lower_program_sound_one_witness: whether the bit-level semantics
   is defined depends only on the SHAPE of the arguments, so one defined run gives all): the
   witness is the run on the all-zero arguments, a Boolean the checker evaluates
   ([tsem_witness]).  Everything else is as in [end_to_end]; the extra premise on the inputs is
   the run-time precondition of the join, [join_inputs_sorted]. *)
From Coq Require Import Lia ZArith List. Import ListNotations.
From GV Require Import Base.Util Lang.Ast Lang.Wt Lang.ValTy Circuit.Ssa Circuit.Reg Circuit.RegAlloc
  Circuit.RegAllocProofs Builder.Builder Panic.PanicRec Panic.PanicSem Compile.Lower Compile.TSem
  Compile.LowerSound Compile.TSemShape Compile.TSemSemExpr Compile.TSemSemFull Compile.TSemSemJoin
  Compile.TSemSemFullJoin Compile.TSemSemFullWt Compile.SemFuel Compile.JoinProgram Compile.EndToEnd.
From GV Require Lang.Sem.
Local Open Scope N_scope.

(* arguments of the shape of main's parameter wires: all bits zero *)
Definition zero_args (P : program) : list (list bool) :=
  map (fun b : N * list N => repeat false (length (snd b))) (snd (main_wiring P)).

(* the bit-level semantics is defined on them *)
Definition tsem_witness (fuel : nat) (P : program) : bool :=
  match tsem_program fuel P (zero_args P) with Ok _ => true | _ => false end.

(* all the per-program checks for a for-join program *)
Definition certified_join (fuel : nat) (P : program) : bool :=
  join_covered 400 P && sem_fuel_enough fuel P && tsem_witness fuel P.

Lemma zero_args_shape (bs : list (N * list N)) :
  Forall2 (fun b a => length a = length (snd b)) bs (map (fun b : N * list N => repeat false (length (snd b))) bs).
Proof. induction bs as [|b bs IH]; cbn [map]; constructor; [apply repeat_length|exact IH]. Qed.

(* totality from the witness: the bit-level semantics is defined on EVERY argument list whose
   bit vectors have the lengths of main's parameter wires (whether it is defined depends on the
   shape of the arguments only: Compile/TSemShape.v) *)
Theorem tsem_witness_total fuel P args : tsem_witness fuel P = true ->
  Forall2 (fun (b : N * list N) a => length a = length (snd b)) (snd (main_wiring P)) args ->
  exists o outs, tsem_program fuel P args = Ok (o, outs).
Proof.
  unfold tsem_witness, zero_args. intros Hw Hsh.
  destruct (tsem_program fuel P (map (fun b : N * list N => repeat false (length (snd b))) (snd (main_wiring P))))
    as [r0| |] eqn:H0; try discriminate Hw.
  destruct (tsem_defined_shape_only fuel P
              (map (fun b : N * list N => repeat false (length (snd b))) (snd (main_wiring P))) args) with (r := r0)
    as ([o outs] & Ht & _); [|exact H0|eauto].
  clear - Hsh. induction Hsh as [|b a bs args Hb _ IH]; cbn [map]; constructor; [now rewrite repeat_length|exact IH].
Qed.
Print Assumptions tsem_witness_total.

Theorem end_to_end_join fuel dedup P c :
  certified_join fuel P = true -> within_gate_bound fuel dedup P = true ->
  lower_program_with fuel dedup P = Ok (LCircuit c) ->
  ssa_validate c = None /\ input_gates c = fst (main_wiring P) /\
  forall ins inp,
    load_inputs (input_gates c) ins = Some inp ->
    canonical_main_args P (main_args P inp) = true ->
    join_inputs_sorted P (main_args P inp) ->
    exists out, ssa_eval c ins = Some out /\ output_spec fuel P (main_args P inp) out.
Proof.
  intros Hcert Hgb Hc. unfold certified_join in Hcert.
  apply andb_prop in Hcert. destruct Hcert as [Hcert Hw]. apply andb_prop in Hcert. destruct Hcert as [Hcov Hsf].
  destruct (within_gate_bound_spec fuel dedup P Hgb) as (s & outs & Hmain & Hmax).
  destruct (lower_program_sound_one_witness fuel dedup P s outs Hmain Hmax) as (fd & igs & bindings & Efd & Epw & H).
  assert (Hmw : main_wiring P = (igs, bindings)) by (unfold main_wiring; now rewrite Efd).
  unfold tsem_witness, zero_args in Hw. rewrite Hmw in Hw. cbn [snd] in Hw.
  destruct (tsem_program fuel P (map (fun b : N * list N => repeat false (length (snd b))) bindings)) as [r0| |] eqn:H0;
    try discriminate Hw.
  apply (end_to_end_gen fuel dedup P c _ igs bindings (H _ r0 (zero_args_shape bindings) H0) Hc (join_inputs_sorted P) Hmw).
  intros args o vouts Hsorted Hcan Ht. exact (join_covered_agrees P fuel 400 fuel args o vouts Hcov Hsf Hsorted Hcan Ht).
Qed.
Print Assumptions end_to_end_join.

(* the register form of the circuit computes the same *)
Corollary end_to_end_join_register fuel dedup P c :
  certified_join fuel P = true -> within_gate_bound fuel dedup P = true ->
  lower_program_with fuel dedup P = Ok (LCircuit c) ->
  exists rc, convert c = Ok rc /\ reg_validate rc = Ok None /\ input_regs rc = fst (main_wiring P) /\
  forall ins inp,
    load_inputs (input_regs rc) ins = Some inp ->
    canonical_main_args P (main_args P inp) = true ->
    join_inputs_sorted P (main_args P inp) ->
    exists out, reg_eval rc ins = Some out /\ output_spec fuel P (main_args P inp) out.
Proof.
  intros Hcert Hgb Hc. destruct (end_to_end_join fuel dedup P c Hcert Hgb Hc) as (Hv & Hig & H).
  destruct (convert_correct c Hv) as (rc & Hconv & Hrv & Hev & _ & _ & Hin & _).
  exists rc. split; [exact Hconv|]. split; [exact Hrv|]. split; [congruence|].
  intros ins inp Hload Hcan Hs. rewrite Hin in Hload. destruct (H ins inp Hload Hcan Hs) as (out & Ho & Hsp).
  exists out. split; [now rewrite Hev|exact Hsp].
Qed.
Print Assumptions end_to_end_join_register.

(* ------------------------------------------------------------------ non-vacuity: the program of
   TSemSemFullJoin.JoinProgramExample
     pub fn main(a: [(u8, u8); 2], b: [(u8, u8); 3]) -> (u8, u8) {
       let mut s = 0u8; let mut t = 0u8;
       for ((k1, p1), (k2, p2)) in join(a, b) { s = s + p1; t = p2; }
       (s, t) }
   is certified, compiles within the bound, and on sorted tables the circuit's output is the
   result of Sem.v: (7 + 9, 2) *)
Module EndToEndJoinExample.
  Import JoinProgramExample JoinExamples.
  Definition fuel : nat := 20.

  Example certified_P1 : certified_join fuel P1 = true.
  Proof. vm_compute. reflexivity. Qed.

  Example bound_P1 : within_gate_bound fuel true P1 = true /\ within_gate_bound fuel false P1 = true.
  Proof. vm_compute. split; reflexivity. Qed.

  Lemma compiled dedup : exists c, lower_program_with fuel dedup P1 = Ok (LCircuit c).
  Proof. destruct dedup; vm_compute; eexists; reflexivity. Qed.

  Example sorted_run : exists c out,
    lower_program_with fuel true P1 = Ok (LCircuit c) /\ ssa_validate c = None /\
    ssa_eval c A1 = Some out /\ parse_panic out = Ok (inl (enc2 16 2)) /\ skipn 161 out = enc2 16 2.
  Proof.
    destruct (compiled true) as [c Hc].
    destruct (end_to_end_join fuel true P1 c certified_P1 (proj1 bound_P1) Hc) as (Hv & Hig & H).
    assert (Hload : load_inputs (input_gates c) A1 = Some (concat A1)) by (rewrite Hig; vm_compute; reflexivity).
    assert (Hargs : main_args P1 (concat A1) = A1) by (vm_compute; reflexivity).
    destruct (H _ _ Hload ltac:(rewrite Hargs; vm_compute; reflexivity) ltac:(rewrite Hargs; exact sorted_A1))
      as (out & Ho & Hs).
    exists c, out. split; [exact Hc|]. split; [exact Hv|]. split; [exact Ho|].
    assert (exists l, Sem.run_main fuel P1 (main_args P1 (concat A1)) = Sem.RunOk (enc2 16 2) l) as [l Ev]
      by (eexists; vm_compute; reflexivity).
    destruct Hs as [(bits & l' & Er & Hp & Hk)|[(r & m & Er & _)|(_ & cc & Er & _)]]; rewrite Ev in Er; try discriminate Er.
    injection Er as <- _. split; [exact Hp|exact Hk].
  Qed.
End EndToEndJoinExample.
