(* The circuit emitted by the model of compile.rs computes, for ALL inputs, the bit-level
   semantics TSem.tsem_program of the source program, with gate de-duplication on or off:
   the parametricity theorem of ParamLower.v at the relations of SimBase.v, the initial
   relation of parameters and constants, and build_sound. *)
From GV Require Import Base.Util Base.ListFacts Base.NMap Lang.Ast Circuit.Ssa Circuit.SsaProofs Builder.Builder Builder.Build Builder.BuilderSem
  Builder.BuilderSpec Builder.BuilderProofs Builder.BuildProofs
  Gadgets.Gadgets Gadgets.GadgetSpec Gadgets.GadgetHoare Sort.Sort Sort.SortHoare
  Panic.PanicRec Panic.PanicSem Panic.PanicProofs Compile.Lower Compile.TSem Compile.SimBase Compile.SimOps
  Compile.SimLower.
From GV Require Compile.ParamBase Compile.ParamLower.

Section Fuel.
Variable inv : builder -> Prop.
Hypothesis ops : builder_ops_sound inv.
Variable inp : list bool.

Notation Rw := (Rw inp).
Notation Rws := (Rws inp).
Notation RS := (RS inv inp).
Notation RE := (RE inp).
Notation sim := (sim inv inp).
Notation Rres := (Rres inp).
Notation RresP := (RresP inp).

Theorem lower_sim P fuel :
  (forall e s o E EB, RS s o -> RE s E EB ->
     sim s o (lower_expr bops fuel P e E) (lower_expr tops fuel P e EB) Rres) /\
  (forall p s o mw vmw E EB, RS s o -> Rws s mw vmw -> RE s E EB ->
     sim s o (lower_pattern bops fuel P p mw E) (lower_pattern tops fuel P p vmw EB) RresP) /\
  (forall st s o E EB, RS s o -> RE s E EB ->
     sim s o (lower_stmt bops fuel P st E) (lower_stmt tops fuel P st EB) Rres) /\
  (forall ss s o E EB, RS s o -> RE s E EB ->
     sim s o (lower_block bops fuel P ss E) (lower_block tops fuel P ss EB) Rres).
Proof. exact (ParamLower.lower_param (concrete_rel inv ops inp) P fuel). Qed.

End Fuel.

(* ------------------------------------------------------------------ whole programs *)

(* the bits of every parameter: the values of its input wires (wires 2, 3, ... carry the flat
   input [inp] in order) *)
Definition param_args (bindings : list (N * list N)) (inp : list bool) : list (list bool) :=
  map (fun b => map (fun w => nthd (false :: true :: inp) w) (snd b)) bindings.

Lemma den_new dedup inputs inp w : den inp (new_builder dedup inputs) w = nthd (false :: true :: inp) w.
Proof. reflexivity. Qed.

Lemma wire_range_bound from n w : In w (wire_range from n) -> from <= w < from + N.of_nat n.
Proof.
  unfold wire_range. rewrite in_map_iff. intros (k & <- & Hk). apply in_seq in Hk. lia.
Qed.

(* every parameter wire is an input wire *)
Definition bindings_in_range (bindings : list (N * list N)) (shift : N) : Prop :=
  Forall (fun b => Forall (fun w => w < shift) (snd b)) bindings.

Lemma wire_range_length from n : length (wire_range from n) = n.
Proof. unfold wire_range. rewrite map_length. apply seq_length. Qed.

Lemma sumN_app a b : sumN (a ++ b) = sumN a + sumN b.
Proof. induction a as [|x a IH]; cbn [app sumN]; lia. Qed.

Lemma sumN_repeat a n : sumN (repeat a n) = a * N.of_nat n.
Proof. induction n as [|n IH]; cbn [repeat sumN]; [lia|]. rewrite IH. lia. Qed.

Lemma fold_wiring_spec P params : forall ps0 igs bs wire,
  map fst bs = map fst ps0 -> igs = map (fun b => N.of_nat (length (snd b))) bs ->
  Forall2 (fun p b => length (snd b) = szn P (snd p)) ps0 bs ->
  wire = 2 + sumN igs -> bindings_in_range bs wire ->
  let '(igs', bs', _) :=
    fold_left (fun '(igs, bs, wire) '(x, t) =>
                 let s := szn P t in
                 (igs ++ [N.of_nat s], bs ++ [(x, wire_range wire s)], wire + N.of_nat s))
              params (igs, bs, wire) in
  map fst bs' = map fst (ps0 ++ params) /\ igs' = map (fun b => N.of_nat (length (snd b))) bs' /\
  Forall2 (fun p b => length (snd b) = szn P (snd p)) (ps0 ++ params) bs' /\
  bindings_in_range bs' (2 + sumN igs').
Proof.
  induction params as [|[x t] params IH]; intros ps0 igs bs wire Hn Hi Hl Hw Hr; cbn [fold_left].
  - rewrite app_nil_r. subst wire. auto.
  - replace (ps0 ++ (x, t) :: params) with ((ps0 ++ [(x, t)]) ++ params) by (rewrite <- app_assoc; reflexivity).
    apply IH.
    + rewrite !map_app. f_equal. exact Hn.
    + rewrite map_app. f_equal; [exact Hi|]. cbn [map snd]. rewrite wire_range_length. reflexivity.
    + apply Forall2_app; [exact Hl|]. repeat constructor. apply wire_range_length.
    + rewrite sumN_app. cbn [sumN]. lia.
    + apply Forall_app. split.
      * eapply Forall_impl; [|exact Hr]. intro b. apply Forall_impl. intro w. lia.
      * repeat constructor. cbn [snd]. apply Forall_forall. intros w Hin. apply wire_range_bound in Hin. lia.
Qed.

Lemma param_wiring_cases P params :
  (exists x el n, params = [(x, TArr el n)]) \/
  param_wiring P params =
    let '(igs, bs, _) :=
      fold_left (fun '(igs, bs, wire) '(x, t) =>
                   let s := szn P t in
                   (igs ++ [N.of_nat s], bs ++ [(x, wire_range wire s)], wire + N.of_nat s))
                params ([], [], 2) in (igs, bs).
Proof.
  destruct params as [|[x t] [|p2 ps]]; [now right| |right; now destruct t].
  destruct t; try now right. left; eauto.
Qed.

Lemma param_wiring_spec P params igs bs : param_wiring P params = (igs, bs) ->
  map fst bs = map fst params /\ bindings_in_range bs (2 + sumN igs) /\
  ((exists x el n, params = [(x, TArr el n)] /\ igs = repeat (N.of_nat (szn P el)) (N.to_nat n) /\
      bs = [(x, wire_range 2 (szn P el * N.to_nat n))]) \/
   igs = map (fun b => N.of_nat (length (snd b))) bs /\
   Forall2 (fun p b => length (snd b) = szn P (snd p)) params bs).
Proof.
  destruct (param_wiring_cases P params) as [(x & el & n & ->)| ->].
  - intros [= <- <-]. split; [reflexivity|]. split; [|left; do 3 eexists; repeat split].
    repeat constructor. cbn [snd]. apply Forall_forall. intros w Hin. apply wire_range_bound in Hin.
    rewrite sumN_repeat. rewrite Nat2N.inj_mul in Hin. lia.
  - pose proof (fold_wiring_spec P params [] [] [] 2 eq_refl eq_refl (Forall2_nil _) eq_refl (Forall_nil _)) as H.
    destruct (fold_left _ params _) as [[i b] w]. intros [= <- <-]. destruct H as (H1 & H2 & H3 & H4). auto.
Qed.

Lemma param_wiring_range P params igs bs : param_wiring P params = (igs, bs) ->
  bindings_in_range bs (2 + sumN igs) /\ map fst bs = map fst params.
Proof. intro H. destruct (param_wiring_spec _ _ _ _ H) as (H1 & H2 & _). auto. Qed.

Lemma prec_wires_valids b R : prec_valid b R -> valids b (prec_wires R).
Proof.
  intros (H0 & H1 & H2 & H3 & H4 & H5). unfold prec_wires. constructor; [assumption|].
  unfold valids in *. repeat (apply Forall_app; split; try assumption).
Qed.

Lemma prec_wires_length R : prec_wf R -> length (prec_wires R) = 161%nat.
Proof.
  intros (H1 & H2 & H3 & H4 & H5). unfold prec_wires. cbn [length]. rewrite !app_length, H1, H2, H3, H4, H5.
  reflexivity.
Qed.

Lemma lower_main_with_inv fuel dedup P s outs : lower_main_with fuel dedup P = Ok (PreOk s outs) ->
  exists fd igs bs E0 Eend,
    find_fn P (p_main P) = Some fd /\ param_wiring P (fn_params fd) = (igs, bs) /\ (sumN igs =? 0) = false /\
    main_env bops P bs = Ok E0 /\
    lower_block bops fuel P (fn_body fd) E0 (initial_cst dedup igs) = Ok ((outs, Eend), s).
Proof.
  unfold lower_main_with. intro H.
  destruct (find_fn P (p_main P)) as [fd|]; [|discriminate].
  destruct (param_wiring P (fn_params fd)) as [igs bs] eqn:Epw.
  destruct (sumN igs =? 0) eqn:Ez; [discriminate|].
  destruct (main_env bops P bs) as [E0| |] eqn:EE; cbn [bind] in H; try discriminate.
  destruct (lower_block bops fuel P (fn_body fd) E0 (initial_cst dedup igs)) as [[[outs' Eend] s']| |] eqn:Eb;
    cbn [bind] in H; try discriminate.
  injection H as <- <-. exists fd, igs, bs, E0, Eend. auto.
Qed.

Lemma Rbind_of_range {WB SA SB PA PB : Type} {OA : ops N SA PA} {OB : ops WB SB PB} (PR : ParamBase.param_rel OA OB)
    (f : N -> WB) s bs shift :
  bindings_in_range bs shift -> (forall w, w < shift -> ParamBase.Rw PR s w (f w)) ->
  Forall2 (ParamBase.Rbind PR s) bs (map (fun b => (fst b, map f (snd b))) bs).
Proof.
  intros Hr Hf. induction Hr as [|b bs Hb _ IH]; cbn [map]; constructor; [|exact IH].
  split; [reflexivity|]. cbn [snd]. induction Hb as [|w ws Hw _ IHw]; cbn [map]; constructor; auto.
Qed.

Section MainParam.
Context {WB SB PB : Type} {OB : ops WB SB PB}.
Variable PR : ParamBase.param_rel bops OB.

Theorem lower_main_param fuel dedup P fd igs bs vbs o0 EB0 r oB :
  find_fn P (p_main P) = Some fd -> param_wiring P (fn_params fd) = (igs, bs) -> (sumN igs =? 0) = false ->
  ParamBase.RS PR (initial_cst dedup igs) o0 -> Forall2 (ParamBase.Rbind PR (initial_cst dedup igs)) bs vbs ->
  main_env OB P vbs = Ok EB0 -> lower_block OB fuel P (fn_body fd) EB0 o0 = Ok (r, oB) ->
  exists s outs, lower_main_with fuel dedup P = Ok (PreOk s outs) /\ ParamBase.extS PR (initial_cst dedup igs) s /\
                 ParamBase.RS PR s oB /\ ParamBase.Rws PR s outs (fst r).
Proof.
  intros Efd Epw Ez HS HB EE Eb. unfold lower_main_with. rewrite Efd, Epw, Ez.
  destruct (ParamLower.rel_main_env PR _ _ _ _ _ _ HS HB EE) as (E0 & -> & HE0). cbn [bind].
  destruct (ParamLower.lower_param PR P fuel) as (_ & _ & _ & Hblk).
  destruct (Hblk (fn_body fd) _ _ E0 EB0 HS HE0 _ _ Eb) as ([outs EA] & s & -> & Hx & HS1 & Hw & _).
  cbn [bind]. exists s, outs. auto.
Qed.
End MainParam.

Lemma combine_map_same {A B C} (f : A -> B) (g : A -> C) l :
  combine (map f l) (map g l) = map (fun a => (f a, g a)) l.
Proof. induction l; cbn [map combine]; congruence. Qed.

Section Program.
Variable fuel : nat.
Variable dedup : bool.
Variable P : program.

(* Whenever the bit-level semantics is defined on an input, the model of the compiler has
   produced a valid circuit of the right shape whose output on that input decodes
   (EvalPanic::parse = [parse_panic]) to exactly the panic observed by the semantics, or to
   exactly its value bits. *)
Theorem lower_program_sound s1 outs :
  lower_main_with fuel dedup P = Ok (PreOk s1 outs) ->
  counter (cb s1) + (b_shift (cb s1) - 2) <= MAX_GATES ->
  exists fd igs bindings,
    find_fn P (p_main P) = Some fd /\ param_wiring P (fn_params fd) = (igs, bindings) /\
    forall ins inp o vouts,
      load_inputs igs ins = Some inp ->
      tsem_program fuel P (param_args bindings inp) = Ok (o, vouts) ->
      exists c out,
        lower_program_with fuel dedup P = Ok (LCircuit c) /\
        ssa_validate c = None /\ input_gates c = igs /\
        length (output_gates c) = (161 + length vouts)%nat /\
        ssa_eval c ins = Some out /\
        parse_panic out = parse_spec o vouts /\
        (o = None -> skipn 161 out = vouts).
Proof.
  intros Hmain Hmax.
  destruct (lower_main_with_inv _ _ _ _ _ Hmain) as (fd & igs & bindings & _ & _ & Efd & Epw & Ez & _).
  exists fd, igs, bindings. split; [exact Efd|]. split; [exact Epw|].
  set (s0 := initial_cst dedup igs).
  destruct (param_wiring_spec _ _ _ _ Epw) as (Hnames & Hrange & _).
  intros ins inp o vouts Hload Ht.
  pose proof (load_inputs_len _ _ _ Hload) as Hlen.
  (* the simulation on this input *)
  assert (Hrun : SimBase.RS BuilderProofs.inv inp s1 o /\ extS s0 s1 /\ SimBase.Rws inp s1 outs vouts).
  { unfold tsem_program in Ht. rewrite Efd in Ht.
    destruct (negb _); [discriminate|].
    destruct (main_env tops P _) as [EB0| |] eqn:EEB; cbn [bind] in Ht; try discriminate.
    destruct (lower_block tops fuel P (fn_body fd) EB0 None) as [[[vouts' EBend] o']| |] eqn:EblkB;
      cbn [bind] in Ht; try discriminate.
    injection Ht as <- <-.
    assert (HS0 : SimBase.RS BuilderProofs.inv inp s0 None).
    { split; [apply inv_new|]. split; [unfold ins_ok; cbn; lia|].
      split; [apply (pstate_new_ok BuilderProofs.inv builder_sound), inv_new|]. reflexivity. }
    assert (HB : Forall2 (Rbind inp s0) bindings (combine (map fst (fn_params fd)) (param_args bindings inp))).
    { rewrite <- Hnames. unfold param_args. rewrite combine_map_same.
      apply (Rbind_of_range (concrete_rel BuilderProofs.inv builder_sound inp) _ _ _ _ Hrange).
      intros w Hw. split; [unfold valid, counter; cbn; lia|apply den_new]. }
    destruct (lower_main_param (concrete_rel BuilderProofs.inv builder_sound inp) fuel dedup P fd igs bindings
                _ None EB0 _ _ Efd Epw Ez HS0 HB EEB EblkB) as (s & outs' & Em & Hext & HS1 & Hw).
    rewrite Hmain in Em. injection Em as <- <-. auto. }
  destruct Hrun as ((I1 & Hin1 & HPok & HPo) & Hext & Houts).
  destruct Hext as (Esh & Einp & _). apply N.eqb_neq in Ez.
  assert (Hsh1 : b_shift (cb s1) = 2 + sumN igs) by (rewrite Esh; reflexivity).
  assert (Hig1 : b_inputs (cb s1) = igs) by (rewrite Einp; reflexivity).
  pose proof HPok as (Hwf & Hpv & _).
  destruct (build_sound (cb s1) (prec_wires (ps_rec (cp s1))) outs I1 (prec_wires_valids _ _ Hpv)
              (Rws_valids _ _ _ _ Houts)) as (c & Eb & Hval & Higc & Hlenc & Hev).
  { intro Hn. apply (f_equal (@length N)) in Hn. rewrite app_length, (prec_wires_length _ Hwf) in Hn. cbn in Hn. lia. }
  { lia. }
  { exact Hmax. }
  rewrite Hig1 in Hev, Higc. specialize (Hev ins inp Hload).
  exists c, (map (den inp (cb s1)) (prec_wires (ps_rec (cp s1)) ++ outs)).
  split. { unfold lower_program_with. rewrite Hmain. cbn [bind]. rewrite Eb. reflexivity. }
  split; [exact Hval|]. split; [exact Higc|].
  split. { rewrite Hlenc, app_length, (prec_wires_length _ Hwf), (Rws_length _ _ _ _ Houts). reflexivity. }
  split; [exact Hev|].
  rewrite map_app. fold (dens inp (cb s1) outs). rewrite (Rws_dens _ _ _ _ Houts).
  change (map (den inp (cb s1)) (prec_wires (ps_rec (cp s1)))) with (rec_bits inp (cb s1) (ps_rec (cp s1))).
  destruct (parse_record (cb s1) (cp s1) inp vouts HPok Hin1) as [Hp _].
  split; [rewrite Hp, HPo; reflexivity|].
  intros _. apply skipn_app_exact. unfold rec_bits, dens. rewrite map_length. apply prec_wires_length. exact Hwf.
Qed.

End Program.

Theorem lower_dedup_irrelevant fuel P s1 outs1 s2 outs2 :
  lower_main_with fuel true P = Ok (PreOk s1 outs1) -> lower_main_with fuel false P = Ok (PreOk s2 outs2) ->
  counter (cb s1) + (b_shift (cb s1) - 2) <= MAX_GATES ->
  counter (cb s2) + (b_shift (cb s2) - 2) <= MAX_GATES ->
  exists fd igs bindings,
    find_fn P (p_main P) = Some fd /\ param_wiring P (fn_params fd) = (igs, bindings) /\
    forall ins inp o vouts,
      load_inputs igs ins = Some inp ->
      tsem_program fuel P (param_args bindings inp) = Ok (o, vouts) ->
      exists c1 c2 out1 out2,
        lower_program_with fuel true P = Ok (LCircuit c1) /\ lower_program_with fuel false P = Ok (LCircuit c2) /\
        ssa_eval c1 ins = Some out1 /\ ssa_eval c2 ins = Some out2 /\
        parse_panic out1 = parse_panic out2 /\ (o = None -> skipn 161 out1 = skipn 161 out2).
Proof.
  intros H1 H2 M1 M2.
  destruct (lower_program_sound fuel true P s1 outs1 H1 M1) as (fd & igs & bindings & Efd & Epw & S1).
  destruct (lower_program_sound fuel false P s2 outs2 H2 M2) as (fd' & igs' & bindings' & Efd' & Epw' & S2).
  rewrite Efd in Efd'. injection Efd' as <-. rewrite Epw in Epw'. injection Epw' as <- <-.
  exists fd, igs, bindings. split; [assumption|]. split; [assumption|].
  intros ins inp o vouts Hl Ht.
  destruct (S1 ins inp o vouts Hl Ht) as (c1 & out1 & L1 & _ & _ & _ & E1 & P1 & V1).
  destruct (S2 ins inp o vouts Hl Ht) as (c2 & out2 & L2 & _ & _ & _ & E2 & P2 & V2).
  exists c1, c2, out1, out2. repeat split; auto; try congruence.
  intro Ho. rewrite (V1 Ho), (V2 Ho). reflexivity.
Qed.
