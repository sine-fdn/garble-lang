(* Parametricity of the generic lowering: the pure and monadic helpers of Lower.v
   (everything before the statements / expressions / patterns) preserve the abstract
   relations of ParamBase.v. *)
From GV Require Import Base.Util Base.NMap Lang.Ast Gadgets.Gadgets Gadgets.Extend Panic.PanicRec Compile.Lower Compile.ParamBase.

(* moves the [rel] facts of the context from the state [s] of [He : extS s s1] to [s1]; a fact about
   a result that the rest of the computation no longer mentions is dropped instead; the last clause is
   the tail that inverting a related list leaves behind *)
Ltac lift_rel He HS0 :=
  match type of He with extS _ ?s ?s1 =>
    let Hi := fresh "Hi" in
    pose proof (RS_ok _ _ _ HS0) as Hi;
    repeat match goal with
    | H : rel _ s ?x _ |- _ => is_var x; lazymatch goal with |- context [x] => fail | |- _ => clear H end
    | H : rel _ s ?x ?y |- _ => let H' := fresh in pose proof (rel_mono _ s s1 x y He Hi H) as H'; clear H; rename H' into H
    | H : Forall2 (rel _ s) ?x ?y |- _ => let H' := fresh in pose proof (list_mono _ s s1 x y He Hi H) as H'; clear H; rename H' into H
    end;
    clear Hi
  end.

(* after [eapply sim_bind]: introduce the new state and the two results, move the context there,
   and split related pairs into their components *)
Ltac split_rel :=
  repeat match goal with H : rel _ _ ?p ?q |- _ =>
    is_var p; is_var q; lazymatch type of p with (_ * _)%type => idtac end;
    let H1 := fresh "H" in let H2 := fresh "H" in
    destruct p, q; destruct H as [H1 H2]; cbn [fst snd] in H1, H2
  end.

Ltac snext :=
  let s1 := fresh "s" in let o1 := fresh "o" in let He := fresh "He" in let HS1 := fresh "HS" in
  intros s1 o1 ? ? He HS1 ?;
  match type of He with extS _ ?s _ => match goal with HS0 : RS _ s _ |- _ => lift_rel He HS0; clear HS0 end end;
  split_rel.

Tactic Notation "sbind" uconstr(lem) := eapply sim_bind; [eapply lem; try eassumption; eauto with rel|snext].
Ltac sret := apply sim_ret; [eassumption|eauto 7 with rel].

(* a pure step that can fail, alone or as the first step of a body: the named lemma relates the two results *)
Tactic Notation "slift" uconstr(lem) := apply sim_lift; [assumption|]; intros ? ?; eapply lem; eauto.
Tactic Notation "slet" uconstr(lem) :=
  eapply sim_bind_lift; [intros ? ?; eapply lem; try eassumption; eauto with rel|intros ? ? ?; split_rel].

Section Helpers.
Context {WA WB SA SB PA PB : Type} {OA : ops WA SA PA} {OB : ops WB SB PB}.
Variable PR : param_rel OA OB.

Notation extS := (extS PR).
Notation RS := (RS PR).
Notation rel := (rel PR).
Notation sim := (sim PR).
Notation MA := (@MA SA).
Notation MB := (@MB SB).

(* ------------------------------------------------------------------ constants and pure helpers *)

Lemma rel_unsigned s o n k : RS s o -> rel s (unsigned_as_wires OA n k) (unsigned_as_wires OB n k).
Proof.
  intro HS. unfold unsigned_as_wires. apply F2_map_same. intro i.
  destruct (N.testbit _ _); [eapply rel_wT|eapply rel_wF]; eauto.
Qed.

Lemma rel_signed s o z k : RS s o -> rel s (signed_as_wires OA z k) (signed_as_wires OB z k).
Proof.
  intro HS. unfold signed_as_wires. apply F2_map_same. intro i.
  destruct (Z.testbit _ _); [eapply rel_wT|eapply rel_wF]; eauto.
Qed.
Hint Resolve rel_unsigned rel_signed : rel.

Lemma rel_slice {X Y} `{Rel _ _ _ _ _ _ _ _ PR X Y} s (v : list X) (vv : list Y) a n y :
  rel s v vv -> slice vv a n = Ok y -> exists x, slice v a n = Ok x /\ rel s x y.
Proof.
  intros Hv E. unfold slice in *. rewrite (rel_length _ _ _ _ Hv).
  destruct (a + n <=? length vv)%nat; [|discriminate]. injection E as <-. eauto with rel.
Qed.

Lemma rel_splice {X Y} `{Rel _ _ _ _ _ _ _ _ PR X Y} s (v : list X) (vv : list Y) a n w ww y :
  rel s v vv -> rel s w ww -> splice vv a n ww = Ok y -> exists x, splice v a n w = Ok x /\ rel s x y.
Proof.
  intros Hv Hw E. unfold splice in *. rewrite (rel_length _ _ _ _ Hv), (rel_length _ _ _ _ Hw).
  destruct ((a + n <=? length vv) && (length ww =? n))%nat; [|discriminate]. injection E as <-. eauto 7 with rel.
Qed.

Lemma rel_hd_res {X Y} `{Rel _ _ _ _ _ _ _ _ PR X Y} s (v : list X) (vv : list Y) y :
  rel s v vv -> hd_res vv = Ok y -> exists x, hd_res v = Ok x /\ rel s x y.
Proof. intros Hv E. destruct Hv; cbn in *; [discriminate|]. injection E as <-. eauto. Qed.

Lemma rel_extend s o v vv sg bits y : RS s o -> rel s v vv -> extend_g OB vv sg bits = Ok y ->
  exists x, extend_g OA v sg bits = Ok x /\ rel s x y.
Proof.
  intros HS Hv E. unfold extend_g in *. destruct Hv as [|w b v vv Hw Hv].
  - injection E as <-. eauto with rel.
  - assert (L : length (w :: v) = length (b :: vv)) by (cbn; f_equal; eapply F2_length; eauto).
    rewrite L. destruct (length (b :: vv) =? bits)%nat.
    + injection E as <-. eauto with rel.
    + destruct (bits <? length (b :: vv))%nat; [discriminate|]. injection E as <-.
      eexists. split; [reflexivity|]. apply rel_app; [|auto with rel].
      apply rel_repeat. destruct sg; [exact Hw|eapply rel_wF; eauto].
Qed.

(* ---- environments *)

Lemma rel_assoc s (a : @scope WA) (b : @scope WB) x vv : rel s a b -> assocN x b = Some vv ->
  exists v, assocN x a = Some v /\ rel s v vv.
Proof.
  induction 1 as [|[k v] [k' v'] a b [Hk Hv] _ IH]; cbn [assocN]; [discriminate|].
  cbn in Hk. cbn [fst snd] in Hv. subst k'. destruct (x =? k); [|exact IH].
  intros [= <-]. eauto.
Qed.

Lemma rel_assoc_none s (a : @scope WA) (b : @scope WB) x : rel s a b -> assocN x b = None -> assocN x a = None.
Proof.
  induction 1 as [|[k v] [k' v'] a b [Hk Hv] _ IH]; cbn [assocN]; [reflexivity|].
  cbn in Hk. subst k'. destruct (x =? k); [discriminate|exact IH].
Qed.

Lemma rel_env_get s (E : @cenv WA) (EB : @cenv WB) x vv : rel s E EB -> env_get EB x = Some vv ->
  exists v, env_get E x = Some v /\ rel s v vv.
Proof.
  induction 1 as [|a b E EB Hab _ IH]; cbn [env_get]; [discriminate|].
  destruct (assocN x b) as [w|] eqn:Eb.
  - intros [= <-]. destruct (rel_assoc _ _ _ _ _ Hab Eb) as (v & -> & Hv). eauto.
  - rewrite (rel_assoc_none _ _ _ _ Hab Eb). exact IH.
Qed.

Lemma rel_scope_insert s (a : @scope WA) (b : @scope WB) x v vv : rel s a b -> rel s v vv ->
  rel s (scope_insert a x v) (scope_insert b x vv).
Proof.
  intros H Hv. induction H as [|[k w] [k' w'] a b [Hk Hw] Hr IH]; cbn [scope_insert]; [eauto with rel|].
  cbn in Hk. cbn [fst snd] in Hw. subst k'. destruct (x <? k); [|destruct (x =? k)]; eauto 7 with rel.
Qed.

Lemma rel_env_let s (E : @cenv WA) (EB : @cenv WB) x v vv EB' : rel s E EB -> rel s v vv -> env_let EB x vv = Ok EB' ->
  exists E', env_let E x v = Ok E' /\ rel s E' EB'.
Proof.
  intros H Hv. destruct H as [|a b E EB Hab Hr]; cbn [env_let]; [discriminate|].
  intros [= <-]. eexists. split; [reflexivity|]. constructor; [|exact Hr]. now apply rel_scope_insert.
Qed.

Lemma rel_scope_replace s (a : @scope WA) (b : @scope WB) x v vv b' : rel s a b -> rel s v vv -> scope_replace b x vv = Some b' ->
  exists a', scope_replace a x v = Some a' /\ rel s a' b'.
Proof.
  intros H Hv. revert b'. induction H as [|[k w] [k' w'] a b [Hk Hw] Hr IH]; cbn [scope_replace]; [discriminate|].
  cbn in Hk. cbn [fst snd] in Hw. subst k'. intro b'. destruct (x =? k).
  - intros [= <-]. eauto 7 with rel.
  - destruct (scope_replace b x vv) as [rb|] eqn:Eb; [|discriminate]. intros [= <-].
    destruct (IH rb eq_refl) as (ra & -> & Hra). eauto 7 with rel.
Qed.

Lemma rel_scope_replace_none s (a : @scope WA) (b : @scope WB) x v vv : rel s a b -> scope_replace b x vv = None -> scope_replace a x v = None.
Proof.
  induction 1 as [|[k w] [k' w'] a b [Hk Hw] Hr IH]; cbn [scope_replace]; [reflexivity|].
  cbn in Hk. subst k'. destruct (x =? k); [discriminate|].
  destruct (scope_replace b x vv); [discriminate|]. intros _. now rewrite IH.
Qed.

Lemma rel_env_assign s (E : @cenv WA) (EB : @cenv WB) x v vv EB' : rel s E EB -> rel s v vv -> env_assign EB x vv = Ok EB' ->
  exists E', env_assign E x v = Ok E' /\ rel s E' EB'.
Proof.
  intros H Hv. revert EB'. induction H as [|a b E EB Hab Hr IH]; cbn [env_assign]; [discriminate|]. intro EB'.
  destruct (scope_replace b x vv) as [b'|] eqn:Eb.
  - intros [= <-]. destruct (rel_scope_replace _ _ _ _ _ _ _ Hab Hv Eb) as (a' & -> & Ha').
    eexists. split; [reflexivity|]. constructor; assumption.
  - rewrite (rel_scope_replace_none _ _ _ _ v _ Hab Eb).
    destruct (env_assign EB x vv) as [r| |] eqn:Er; cbn [bind]; try discriminate. intros [= <-].
    destruct (IH r eq_refl) as (ra & -> & Hra). cbn [bind]. eexists. split; [reflexivity|]. constructor; assumption.
Qed.

Lemma rel_env_pop s (E : @cenv WA) (EB : @cenv WB) EB' : rel s E EB -> env_pop EB = Ok EB' -> exists E', env_pop E = Ok E' /\ rel s E' EB'.
Proof. intros H. destruct H; cbn [env_pop]; [discriminate|]. intros [= <-]. eauto. Qed.

Lemma rel_env_push s (E : @cenv WA) (EB : @cenv WB) : rel s E EB -> rel s (env_push E) (env_push EB).
Proof. intro H. constructor; [constructor|exact H]. Qed.

(* ------------------------------------------------------------------ list helpers *)

Hint Resolve rel_env_push : rel.

Lemma sim_mapM_M s o (fA : WA -> MA WA) (fB : WB -> MB WB) xs : forall vxs, RS s o -> rel s xs vxs ->
  (forall s1 o1 x vx, extS s s1 -> RS s1 o1 -> rel s1 x vx -> sim s1 o1 (fA x) (fB vx) rel) ->
  sim s o (mapM_M fA xs) (mapM_M fB vxs) rel.
Proof.
  revert s o. induction xs as [|x xs IH]; intros s o vxs HS Hx Hf; inversion Hx; subst; cbn [mapM_M]; [sret|].
  sbind Hf. eapply sim_bind; [apply IH; eauto; intros; apply Hf; eauto; eapply extS_trans; eauto|snext]. sret.
Qed.

Lemma sim_map2_M s o (fA : WA -> WA -> MA WA) (fB : WB -> WB -> MB WB) xs : forall ys vxs vys,
  RS s o -> rel s xs vxs -> rel s ys vys ->
  (forall s1 o1 x y vx vy, extS s s1 -> RS s1 o1 -> rel s1 x vx -> rel s1 y vy ->
      sim s1 o1 (fA x y) (fB vx vy) rel) ->
  sim s o (map2_M fA xs ys) (map2_M fB vxs vys) rel.
Proof.
  revert s o. induction xs as [|x xs IH]; intros s o ys vxs vys HS Hx Hy Hf; inversion Hx; subst;
    inversion Hy; subst; cbn [map2_M]; try apply sim_crash; [sret|].
  sbind Hf. eapply sim_bind; [apply IH; eauto; intros; apply Hf; eauto; eapply extS_trans; eauto|snext]. sret.
Qed.

(* the closure [m_mux c] of the enclosing state, as [sim_map2_M] wants it *)
Lemma sim_mux_later s o c vc s1 o1 x y vx vy : rel s c vc -> extS s s1 -> RS s o -> RS s1 o1 -> rel s1 x vx -> rel s1 y vy ->
  sim s1 o1 (m_mux OA c x y) (m_mux OB vc vx vy) rel.
Proof. intros Hc He HS HS1 Hx Hy. lift_rel He HS. apply sim_mux; assumption. Qed.
Hint Resolve sim_mux_later : rel.

Lemma sim_map2_mux s o c vc xs ys vxs vys : RS s o -> rel s c vc -> rel s xs vxs -> rel s ys vys ->
  sim s o (map2_M (fun x y => m_mux OA c x y) xs ys) (map2_M (fun x y => m_mux OB vc x y) vxs vys) rel.
Proof. intros HS Hc Hx Hy. apply sim_map2_M; try assumption. intros. eapply sim_mux_later; eassumption. Qed.

Lemma sim_mux_bits s o c vc xs ys vxs vys : RS s o -> rel s c vc -> rel s xs vxs -> rel s ys vys ->
  sim s o (mux_bits OA c xs ys) (mux_bits OB vc vxs vys) rel.
Proof.
  intros HS Hc Hx Hy. unfold mux_bits. rewrite (rel_length _ _ _ _ Hx), (rel_length _ _ _ _ Hy).
  destruct (negb _); [apply sim_crash|]. apply sim_map2_mux; assumption.
Qed.

Lemma sim_mux_scope s o c vc a : forall b a' b', RS s o -> rel s c vc -> rel s a a' -> rel s b b' ->
  sim s o (mux_scope OA c a b) (mux_scope OB vc a' b') rel.
Proof.
  revert s o. induction a as [|[k va] a IH]; intros s o b a' b' HS Hc Ha Hb; inversion Ha; subst; cbn [mux_scope]; [sret|].
  destruct y as [k' va']. destruct H1 as [Hk Hva]. cbn in Hk. cbn [fst snd] in Hva. subst k'.
  destruct (assocN k b') as [vb'|] eqn:Eb; [|apply sim_crash].
  destruct (rel_assoc _ _ _ _ _ Hb Eb) as (vb & -> & Hvb).
  sbind sim_mux_bits. sbind IH. sret.
Qed.

Lemma sim_mux_scopes s o c vc sa : forall sb sa' sb', RS s o -> rel s c vc -> rel s sa sa' -> rel s sb sb' ->
  sim s o (mux_scopes OA c sa sb) (mux_scopes OB vc sa' sb') rel.
Proof.
  revert s o. induction sa as [|a sa IH]; intros s o sb sa' sb' HS Hc Ha Hb; inversion Ha; subst;
    inversion Hb; subst; cbn [mux_scopes]; try apply sim_crash; [sret|].
  sbind sim_mux_scope. sbind IH. sret.
Qed.

Lemma sim_mux_envs s o c vc a b a' b' : RS s o -> rel s c vc -> rel s a a' -> rel s b b' ->
  sim s o (mux_envs OA c a b) (mux_envs OB vc a' b') rel.
Proof.
  intros HS Hc Ha Hb. unfold mux_envs.
  rewrite (rel_length _ _ _ _ Ha), (rel_length _ _ _ _ Hb). destruct (negb _); [apply sim_crash|].
  sbind sim_mux_scopes. sret.
Qed.

(* ------------------------------------------------------------------ arrays *)

Lemma sim_index_layer fuel : forall s o c vc arr varr eb, RS s o -> rel s c vc -> rel s arr varr ->
  sim s o (index_layer OA fuel c arr eb) (index_layer OB fuel vc varr eb) rel.
Proof.
  induction fuel as [|f IH]; intros s o c vc arr varr eb HS Hc Ha; cbn [index_layer]; [apply sim_nofuel|].
  destruct Ha as [|a va arr varr Ha0 Har]; [sret|].
  assert (Hfull : rel s (a :: arr) (va :: varr)) by (constructor; assumption).
  pose proof (rel_skipn _ _ eb _ _ Hfull) as Hrest.
  destruct Hrest as [|r0 vr0 rest vrest Hr0 Hrr].
  - eapply sim_mapM_M; eauto with rel.
  - assert (Hrest : rel s (r0 :: rest) (vr0 :: vrest)) by (constructor; assumption).
    sbind sim_map2_mux. sbind IH. sret.
Qed.

Lemma sim_index_layers idx : forall s o vidx arr varr eb, RS s o -> rel s idx vidx -> rel s arr varr ->
  sim s o (index_layers OA idx arr eb) (index_layers OB vidx varr eb) rel.
Proof.
  induction idx as [|c idx IH]; intros s o vidx arr varr eb HS Hi Ha; inversion Hi; subst; cbn [index_layers]; [sret|].
  eapply sim_bind_rel; [|snext; eapply IH; eauto].
  destruct (eb =? 0)%nat; [sret|]. rewrite (rel_length _ _ _ _ Ha). eapply sim_index_layer; eauto.
Qed.

Lemma sim_bounds_check s o idx vidx n m : RS s o -> rel s idx vidx ->
  sim s o (bounds_check OA idx n m) (bounds_check OB vidx n m) rel.
Proof. intros HS Hi. unfold bounds_check. sbind sim_comparator. sbind sim_not. eapply sim_panic_if; eauto. Qed.

Lemma sim_array_read s o arr varr idx vidx eb n m : RS s o -> rel s arr varr -> rel s idx vidx ->
  sim s o (array_read OA arr idx eb n m) (array_read OB varr vidx eb n m) rel.
Proof.
  intros HS Ha Hi. unfold array_read.
  slet rel_extend. sbind sim_index_layers. sbind sim_bounds_check.
  match goal with H : rel _ ?r _ |- context [match ?r with _ => _ end] => destruct H end; sret.
Qed.

Lemma sim_write_chain index : forall s o x0 v0 x1 v1 i vindex neg vneg, RS s o -> rel s x0 v0 -> rel s x1 v1 ->
  rel s index vindex -> rel s neg vneg ->
  sim s o (write_chain OA x0 x1 i index neg) (write_chain OB v0 v1 i vindex vneg) rel.
Proof.
  induction index as [|ix index IH]; intros s o x0 v0 x1 v1 i vindex neg vneg HS H0 H1 Hi Hn;
    inversion Hi; subst; cbn [write_chain]; [sret|].
  destruct Hn as [|nx vnx neg vneg Hnx Hnr]; [sret|].
  cbn [length]. match goal with H : Forall2 _ index _ |- _ => rewrite (F2_length _ _ _ H) end.
  eapply sim_bind; [eapply sim_mux; eauto; destruct (N.testbit _ _); assumption|snext].
  eapply IH; eauto.
Qed.

Lemma sim_write_elem elem : forall s o velem value vvalue i index vindex neg vneg, RS s o ->
  rel s elem velem -> rel s value vvalue -> rel s index vindex -> rel s neg vneg ->
  sim s o (write_elem OA elem value i index neg) (write_elem OB velem vvalue i vindex vneg) rel.
Proof.
  induction elem as [|x0 elem IH]; intros s o velem value vvalue i index vindex neg vneg HS He Hv Hi Hn;
    inversion He; subst; cbn [write_elem]; [sret|].
  destruct Hv as [|v vv value vvalue Hv0 Hvr]; [apply sim_crash|].
  sbind sim_write_chain. sbind IH. sret.
Qed.

Lemma sim_write_elems fuel : forall s o arr varr eb value vvalue i index vindex neg vneg, RS s o ->
  rel s arr varr -> rel s value vvalue -> rel s index vindex -> rel s neg vneg ->
  sim s o (write_elems OA fuel arr eb value i index neg) (write_elems OB fuel varr eb vvalue i vindex vneg) rel.
Proof.
  induction fuel as [|f IH]; intros s o arr varr eb value vvalue i index vindex neg vneg HS Ha Hv Hi Hn;
    cbn [write_elems]; [apply sim_nofuel|].
  rewrite (rel_length _ _ _ _ Ha). destruct (length varr <? eb)%nat; [sret|].
  destruct Ha as [|a va arr varr Ha0 Har]; [sret|].
  assert (Hfull : rel s (a :: arr) (va :: varr)) by (constructor; assumption).
  sbind sim_write_elem. sbind IH. sret.
Qed.

Lemma sim_array_write s o arr varr eb size idx vidx value vvalue m : RS s o -> rel s arr varr -> rel s idx vidx ->
  rel s value vvalue ->
  sim s o (array_write OA arr eb size idx value m) (array_write OB varr eb size vidx vvalue m) rel.
Proof.
  intros HS Ha Hi Hv. unfold array_write. rewrite (rel_length _ _ _ _ Ha).
  slet rel_extend. eapply sim_bind; [eapply sim_mapM_M; eauto; intros; eapply sim_not; eauto|snext].
  sbind sim_write_elems. sbind sim_bounds_check. sret.
Qed.

(* ------------------------------------------------------------------ operators *)

Lemma rel_shift_once s o left fill vfill v vv shift : RS s o -> rel s fill vfill -> rel s v vv ->
  rel s (shift_once OA left fill v shift) (shift_once OB left vfill vv shift).
Proof.
  intros HS Hf Hv. unfold shift_once. rewrite (rel_length _ _ _ _ Hv). apply F2_map_same. intro i.
  destruct left.
  - destruct (_ <=? _)%nat; [eapply rel_wF; eauto|]. apply rel_nth; eauto with rel.
  - destruct (_ <? _)%nat; [exact Hf|]. apply rel_nth; eauto with rel.
Qed.
Hint Resolve rel_shift_once : rel.

Lemma sim_shift_layers y : forall s o left fill vfill v vv vy shift, RS s o -> rel s fill vfill -> rel s v vv ->
  rel s y vy ->
  sim s o (shift_layers OA left fill v y shift) (shift_layers OB left vfill vv vy shift) rel.
Proof.
  induction y as [|c y IH]; intros s o left fill vfill v vv vy shift HS Hf Hv Hy; inversion Hy; subst;
    cbn [shift_layers]; [sret|].
  sbind sim_map2_mux. eapply IH; eauto.
Qed.

Lemma sim_or_all_M ws : forall s o acc vacc vws, RS s o -> rel s acc vacc -> rel s ws vws ->
  sim s o (or_all_M OA acc ws) (or_all_M OB vacc vws) rel.
Proof.
  induction ws as [|w ws IH]; intros s o acc vacc vws HS Ha Hw; inversion Hw; subst; cbn [or_all_M]; [sret|].
  sbind sim_or. eapply IH; eauto.
Qed.

Lemma sim_eq_acc xys : forall s o acc vacc vxys, RS s o -> rel s acc vacc -> rel s xys vxys ->
  sim s o (eq_acc OA acc xys) (eq_acc OB vacc vxys) rel.
Proof.
  induction xys as [|[x y] xys IH]; intros s o acc vacc vxys HS Ha Hp; inversion Hp; subst; cbn [eq_acc]; [sret|].
  destruct y0 as [vx vy]. destruct H1 as [Hx Hy]. cbn [fst snd] in Hx, Hy.
  sbind sim_eq. sbind sim_and. eapply IH; eauto.
Qed.

Lemma sim_mul_row yzs : forall s o xi vxi carry vcarry acc vacc vyzs, RS s o -> rel s xi vxi -> rel s carry vcarry ->
  rel s acc vacc -> rel s yzs vyzs ->
  sim s o (mul_row OA xi yzs carry acc) (mul_row OB vxi vyzs vcarry vacc) rel.
Proof.
  induction yzs as [|[yj z] yzs IH]; intros s o xi vxi carry vcarry acc vacc vyzs HS Hx Hc Ha Hp; inversion Hp; subst;
    cbn [mul_row]; [sret|].
  destruct y as [vyj vz]. destruct H1 as [Hy Hz]. cbn [fst snd] in Hy, Hz.
  sbind sim_multiplier. eapply IH; eauto with rel.
Qed.

Lemma sim_mul_rows xs : forall s o vxs y vy prev vprev racc vracc, RS s o -> rel s xs vxs -> rel s y vy ->
  rel s prev vprev -> rel s racc vracc ->
  sim s o (mul_rows OA xs y prev racc) (mul_rows OB vxs vy vprev vracc) rel.
Proof.
  induction xs as [|xi xs IH]; intros s o vxs y vy prev vprev racc vracc HS Hx Hy Hp Hr; inversion Hx; subst;
    cbn [mul_rows]; [sret|].
  assert (Hzs : rel s (match prev with None => repeat (wF OA) (length y) | Some (sums, c0) => c0 :: removelast sums end)
                      (match vprev with None => repeat (wF OB) (length vy) | Some (sums, c0) => c0 :: removelast sums end)).
  { destruct prev as [[sa ca]|], vprev as [[sb cb_]|]; cbn in Hp; try contradiction.
    - destruct Hp as [Hs Hc]. eauto with rel.
    - rewrite (rel_length _ _ _ _ Hy). eauto with rel. }
  sbind sim_mul_row. eapply IH; eauto with rel.
Qed.

Lemma sim_and_not_all ws : forall s o acc vacc vws, RS s o -> rel s acc vacc -> rel s ws vws ->
  sim s o (and_not_all OA acc ws) (and_not_all OB vacc vws) rel.
Proof.
  induction ws as [|w ws IH]; intros s o acc vacc vws HS Ha Hw; inversion Hw; subst; cbn [and_not_all]; [sret|].
  sbind sim_not. sbind sim_and. eapply IH; eauto.
Qed.

Lemma sim_of_option {X Y} `{Rel _ _ _ _ _ _ _ _ PR X Y} s o (p : option X) (vp : option Y) : RS s o -> rel s p vp ->
  sim s o (lift_res (of_option p)) (lift_res (of_option vp)) rel.
Proof.
  intros HS Hp. apply sim_lift; [exact HS|]. intros y E.
  destruct p, vp; cbn in *; try contradiction; try discriminate. injection E as <-. eauto.
Qed.

Lemma sim_lower_mul s o sg x vx y vy m : RS s o -> rel s x vx -> rel s y vy ->
  sim s o (lower_mul OA sg x y m) (lower_mul OB sg vx vy m) rel.
Proof.
  intros HS Hx Hy. unfold lower_mul.
  eapply sim_bind_rel.
  { destruct sg; [|sret].
    slet rel_hd_res. slet rel_hd_res. sbind sim_negation. sbind sim_negation.
    sbind sim_map2_mux. sbind sim_map2_mux. sbind sim_xor. sret. }
  snext. eapply sim_bind; [eapply sim_mul_rows; eauto with rel; exact I|snext].
  sbind sim_of_option. sbind sim_or_all_M.
  eapply sim_bind_rel.
  { destruct sg; [|sret].
    sbind sim_and_not_all. slet rel_hd_res. sbind sim_not. sbind sim_not.
    sbind sim_or. sbind sim_and. sbind sim_or. sbind sim_negation. sbind sim_map2_mux. sret. }
  snext. sbind sim_panic_if. sret.
Qed.

Lemma sim_one_wire s o (w : list WA) (vw : list WB) : RS s o -> rel s w vw -> sim s o (one_wire w) (one_wire vw) rel.
Proof.
  intros HS H. unfold one_wire. destruct H as [|a va w vw Ha Hr]; [apply sim_crash|].
  destruct Hr; [sret|apply sim_crash].
Qed.

(* [x / 0] and [x % 0] panic: the divisor against a row of constant-false wires *)
Lemma rel_zip_wF s o (y : list WA) (vy : list WB) : RS s o -> rel s y vy ->
  rel s (map (fun w => (w, wF OA)) y) (map (fun w => (w, wF OB)) vy).
Proof. intros HS. apply F2_map. intros a b Hab. split; [assumption|]. eapply rel_wF; eauto. Qed.
Hint Resolve rel_zip_wF : rel.

Lemma sim_eq_words s o (x : list WA) (vx : list WB) y vy : RS s o -> rel s x vx -> rel s y vy ->
  sim s o (if (length x =? length y)%nat then eq_acc OA (wT OA) (combine x y) else crash)
          (if (length vx =? length vy)%nat then eq_acc OB (wT OB) (combine vx vy) else crash) rel.
Proof.
  intros HS Hx Hy. rewrite (rel_length _ _ _ _ Hx), (rel_length _ _ _ _ Hy).
  destruct (_ =? _)%nat; [|apply sim_crash]. eapply sim_eq_acc; eauto with rel.
Qed.

Lemma sim_lower_binop s o op t tx ty_ x vx y vy m : RS s o -> rel s x vx -> rel s y vy ->
  sim s o (lower_binop OA op t tx ty_ x y m) (lower_binop OB op t tx ty_ vx vy m) rel.
Proof.
  intros HS Hx Hy. unfold lower_binop. rewrite (rel_length _ _ _ _ Hx), (rel_length _ _ _ _ Hy).
  slet rel_extend. slet rel_extend.
  destruct op; try apply sim_crash.
  - (* add *)
    sbind sim_addition.
    eapply sim_bind_rel; [destruct (is_signed tx || is_signed ty_); [eapply sim_xor; eauto|sret]|snext].
    sbind sim_panic_if. sret.
  - (* sub *)
    sbind sim_subtraction. sbind sim_panic_if. sret.
  - eapply sim_lower_mul; eauto.
  - (* div *)
    sbind sim_eq_acc. sbind sim_panic_if. destruct (is_signed t).
    + slet rel_hd_res. slet rel_hd_res. sbind sim_sdiv.
      sbind sim_and. slet rel_hd_res. sbind sim_and. sbind sim_panic_if. sret.
    + sbind sim_udiv. sret.
  - (* mod *)
    sbind sim_eq_acc. sbind sim_panic_if. destruct (is_signed t); [sbind sim_sdiv|sbind sim_udiv]; sret.
  - eapply sim_map2_M; eauto. intros. eapply sim_and; eauto.
  - eapply sim_map2_M; eauto. intros. eapply sim_xor; eauto.
  - eapply sim_map2_M; eauto. intros. eapply sim_or; eauto.
  - sbind sim_comparator. sret.
  - sbind sim_comparator. sret.
  - sbind sim_eq_words. sret.
  - sbind sim_eq_words. sbind sim_not. sret.
Qed.

Lemma sim_lower_shift s o left xs x vx y vy m : RS s o -> rel s x vx -> rel s y vy ->
  sim s o (lower_shift OA left xs x y m) (lower_shift OB left xs vx vy m) rel.
Proof.
  intros HS Hx Hy. unfold lower_shift. rewrite (rel_length _ _ _ _ Hx), (rel_length _ _ _ _ Hy).
  destruct (negb _); [apply sim_crash|].
  eapply sim_bind_rel; [destruct (xs && negb left); [slift rel_hd_res|sret]|snext].
  sbind sim_shift_layers. apply sim_bind_pure. intro mfb.
  sbind sim_or_all_M. sbind sim_panic_if. sret.
Qed.

(* ------------------------------------------------------------------ join *)

Lemma rel_resize s o (v : list WA) (vv : list WB) n : RS s o -> rel s v vv -> rel s (resize OA v n) (resize OB vv n).
Proof. intros HS H. unfold resize. rewrite (rel_length _ _ _ _ H). eauto with rel. Qed.

Lemma rel_insert_at s (v : list WA) (vv : list WB) i x vx y : rel s v vv -> rel s x vx -> insert_at vv i vx = Ok y ->
  exists r, insert_at v i x = Ok r /\ rel s r y.
Proof.
  intros H Hx E. unfold insert_at in *. rewrite (rel_length _ _ _ _ H). destruct (i <=? length vv)%nat; [|discriminate].
  injection E as <-. eauto 7 with rel.
Qed.

Lemma rel_remove_at s (v : list WA) (vv : list WB) i y : rel s v vv -> remove_at vv i = Ok y ->
  exists r, remove_at v i = Ok r /\ rel s r y.
Proof.
  intros H E. unfold remove_at in *. pose proof (F2_nth_error _ _ _ i H) as Hn.
  destruct (nth_error vv i) as [b|]; [|discriminate]. destruct (nth_error v i) as [a|]; [|contradiction].
  injection E as <-. eexists. split; [reflexivity|]. apply rel_pair; [assumption|].
  apply rel_app; [eauto with rel|]. exact (rel_skipn _ _ (S i) _ _ H).
Qed.

Lemma rel_chunks s fuel n : forall (v : list WA) (vv : list WB) eb y, rel s v vv -> chunks fuel vv eb n = Ok y ->
  exists r, chunks fuel v eb n = Ok r /\ rel s r y.
Proof.
  induction n as [|n IH]; intros v vv eb y H E; cbn [chunks] in *.
  - injection E as <-. eauto with rel.
  - destruct (slice vv 0 eb) as [c| |] eqn:Es; cbn [bind] in E; try discriminate.
    destruct (rel_slice _ _ _ _ _ _ H Es) as (ca & -> & Hc). cbn [bind].
    destruct (chunks fuel (skipn eb vv) eb n) as [r| |] eqn:Er; cbn [bind] in E; try discriminate.
    injection E as <-. destruct (IH _ _ _ _ (rel_skipn _ _ eb _ _ H) Er) as (ra & -> & Hra). cbn [bind].
    eauto with rel.
Qed.

Lemma rel_mapM_res {A B C D} (RA : A -> B -> Prop) (RC : C -> D -> Prop) (f : A -> res C) (g : B -> res D) l l' y :
  (forall a b d, RA a b -> g b = Ok d -> exists c, f a = Ok c /\ RC c d) ->
  Forall2 RA l l' -> mapM_res g l' = Ok y -> exists x, mapM_res f l = Ok x /\ Forall2 RC x y.
Proof.
  intros Hf H. revert y. induction H as [|a b l l' Hab _ IH]; intros y E; cbn [mapM_res] in *.
  - injection E as <-. eexists. split; [reflexivity|constructor].
  - destruct (g b) as [d| |] eqn:Eg; cbn [bind] in E; try discriminate.
    destruct (Hf _ _ _ Hab Eg) as (c & -> & Hc). cbn [bind].
    destruct (mapM_res g l') as [ds| |] eqn:Em; cbn [bind] in E; try discriminate. injection E as <-.
    destruct (IH _ eq_refl) as (cs & -> & Hcs). cbn [bind]. eexists. split; [reflexivity|]. constructor; assumption.
Qed.

Lemma rel_bitonic_input s o a va b vb eba na ebb nb jts y : RS s o -> rel s a va -> rel s b vb ->
  bitonic_input OB va vb eba na ebb nb jts = Ok y ->
  exists r, bitonic_input OA a b eba na ebb nb jts = Ok r /\ rel s r y.
Proof.
  intros HS Ha Hb E. unfold bitonic_input in *.
  destruct (chunks 0 va eba na) as [ca| |] eqn:Eca; cbn [bind] in E; try discriminate.
  destruct (rel_chunks _ _ _ _ _ _ _ Ha Eca) as (ca' & -> & Hca). cbn [bind].
  destruct (chunks 0 vb ebb nb) as [cb_| |] eqn:Ecb; cbn [bind] in E; try discriminate.
  destruct (rel_chunks _ _ _ _ _ _ _ Hb Ecb) as (cb' & -> & Hcb). cbn [bind].
  match type of E with bind (mapM_res ?g ?l) _ = _ => destruct (mapM_res g l) as [ea| |] eqn:Eea end; cbn [bind] in E; try discriminate.
  eapply (rel_mapM_res (Rws PR s) (Rws PR s)) in Eea; [| |exact Hca].
  2:{ intros x vx d Hx Ed. eapply rel_insert_at; [eapply rel_resize; eauto|eapply rel_wF; eauto|exact Ed]. }
  destruct Eea as (ea' & -> & Hea). cbn [bind].
  match type of E with bind (mapM_res ?g ?l) _ = _ => destruct (mapM_res g l) as [eb_| |] eqn:Eeb end; cbn [bind] in E; try discriminate.
  eapply (rel_mapM_res (Rws PR s) (Rws PR s)) in Eeb; [| |apply F2_rev; exact Hcb].
  2:{ intros x vx d Hx Ed. eapply rel_insert_at; [eapply rel_resize; eauto|eapply rel_wT; eauto|exact Ed]. }
  destruct Eeb as (eb' & -> & Heb). cbn [bind]. injection E as <-.
  eexists. split; [reflexivity|]. split; [|reflexivity]. cbn [fst repeat]. eauto 8 with rel.
Qed.

Lemma sim_window_binding s o w0_ vw0 w1_ vw1 eba ebb jts isf incb : RS s o -> rel s w0_ vw0 -> rel s w1_ vw1 ->
  sim s o (window_binding OA w0_ w1_ eba ebb jts isf incb) (window_binding OB vw0 vw1 eba ebb jts isf incb) rel.
Proof.
  intros HS H0 H1. unfold window_binding.
  slet rel_remove_at. slet rel_remove_at. slet rel_slice. slet rel_slice.
  sbind sim_eq_circuit. sbind sim_xor. sbind sim_and.
  apply sim_ret; [assumption|]. apply rel_pair; [assumption|].
  match goal with |- rel ?s5 (if _ then _ :: tl (_ ++ firstn _ ?a ++ (if _ then firstn _ ?b else _)) else _)
                              (if _ then _ :: tl (_ ++ firstn _ ?va ++ (if _ then firstn _ ?vb else _)) else _) =>
  assert (Hbind : rel s5 ((if isf then [wF OA] else []) ++ firstn eba a ++ (if incb then firstn ebb b else []))
                         ((if isf then [wF OB] else []) ++ firstn eba va ++ (if incb then firstn ebb vb else []))) end.
  { destruct isf, incb; eauto 7 with rel. }
  destruct isf; eauto with rel.
Qed.

End Helpers.

#[export] Hint Resolve rel_unsigned rel_signed rel_env_push sim_mux_later rel_shift_once rel_zip_wF : rel.
