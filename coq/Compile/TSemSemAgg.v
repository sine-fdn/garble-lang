(* AGGREGATE NODE LEMMAS of "bit-level semantics (Lower.v over TSem.tops) = source semantics
   (Lang/Sem.v)", for the general value relation of Compile/ValEnc.v,

       VRa t v w  :=  has_enc P t v w /\ ty_fits P t

   and for every aggregate node a lemma "agreement of the immediate sub-terms -> agreement
   of the node" against the node's case in [Sem.eval] / [Sem.exec] and in
   [lower_expr_body] / [lower_stmt_body].  Typing facts a node needs are explicit side
   conditions (equalities between annotated types, Boolean tests on sizes), never a global
   typing judgement.  Form, as in TSemSemStmt.v: partial correctness of Ok runs from no panic.

   Section AggNodes proves each node ONCE, for any environment relation of Compile/SimNodes.v
   (suffix G); Section Agg instantiates them for [env_rel3], TSemSemFullCall.v for [relQ].

   Leaves      [VRa_scalar], [VRa_VRs] (on scalars / unit it is the relation of TSemSemStmt.v),
               [id_node_a], [lit_bool_node_a], [lit_numU_node_a], [lit_numS_node_a]
   Lists       [sem_eval_list], [list_agreesG]
   1 tuples    [tuplit_node], [tupacc_node]
   2 structs   [structlit_node] (fields named once: [nodupN]), [fld_node]
   3 arrays    [arrlit_node], [arrrep_node], [range_node]
   4 a[i]      [idx_node]
   5 x.accs=e  [sem_read], [acc_ok], [read_agreesG], [write_agreesG], [assign_acc_node]
   6 for       [for_pat_node] (any pattern that [pat_binds]), [for_node] (identifier)
   7 let p=e   [pat_ok], [pat_agrees], [let_pat_node]  (identifiers, tuples, structs, nested)
   8 enums     [enumlit_node]; [gpat_ok], [gpat_agrees] (all patterns; needs [enums_small]),
               [arm_ok], [arms_agreeG], [match_node]
   Keys        [keys_all], [KP_all]: every Ok run keeps the keys, whole language, no typing
   Findings    [StructPatternOrder]: two programs accepted by Lang/Wt.v on which Sem.v and the
               bit-level semantics differ (order of struct-pattern bindings; a field named twice)
   Sanity      [SanityAgg]: the node lemmas composed on  a[i].0 = 7  and  (a[i], a[i].1) *)
From Coq Require Import Lia ZArith.
From GV Require Import Base.Util Base.ListFacts Base.Bits Base.BitsProofs Lang.Ast Lang.Wt Lang.ValTy Lang.WtShape
  Gadgets.Gadgets Gadgets.GadgetSpec Gadgets.Arith Gadgets.Extend Gadgets.ExtendProofs
  Panic.PanicRec Panic.PanicSem Compile.Lower Compile.TSem Compile.TSemFacts Compile.TSemArith1
  Compile.TSemArith2 Compile.TSemControl Compile.TSemArray Compile.TSemSemExpr Compile.ValEnc
  Compile.TSemSticky Compile.SimNodes Compile.TSemSemStmt.
From GV Require Lang.Sem.
Local Open Scope N_scope.

(* ------------------------------------------------------------------ lists *)

Lemma F3_impl {A B C} (R R' : A -> B -> C -> Prop) la lb lc :
  (forall a b c, R a b c -> R' a b c) -> Forall3 R la lb lc -> Forall3 R' la lb lc.
Proof. intros H. induction 1; constructor; auto. Qed.

Lemma F3_same_l {A B C} (R : A -> B -> C -> Prop) a la lb lc : Forall (fun x => x = a) la ->
  Forall3 R la lb lc -> Forall2 (R a) lb lc.
Proof.
  intros Ha H. induction H as [|x b c la lb lc Hx _ IH]; [constructor|].
  inversion Ha as [|x' la' E1 E2]; subst. constructor; auto.
Qed.

Lemma F2_length {A B} (R : A -> B -> Prop) la lb : Forall2 R la lb -> length la = length lb.
Proof. induction 1; cbn [length]; congruence. Qed.

Lemma assocN_app {A} k (l1 l2 : list (N * A)) :
  assocN k (l1 ++ l2) = match assocN k l1 with Some v => Some v | None => assocN k l2 end.
Proof.
  induction l1 as [|[k0 v0] l1 IH]; cbn [app assocN]; [reflexivity|].
  destruct (k =? k0); [reflexivity|exact IH].
Qed.

Lemma assocN_none_notin {A} k (l : list (N * A)) : ~ In k (map fst l) -> assocN k l = None.
Proof.
  induction l as [|[k0 v0] l IH]; cbn [map fst In assocN]; [reflexivity|]. intro H.
  destruct (N.eqb_spec k k0) as [->|_]; [tauto|]. apply IH. tauto.
Qed.

(* a struct literal names every field once: the last occurrence (compile.rs collects the
   fields into a map) is the first one (Sem.v) *)
Lemma assocN_rev_nodup {A} k (l : list (N * A)) : NoDup (map fst l) -> assocN k (rev l) = assocN k l.
Proof.
  induction l as [|[k0 v0] l IH]; intro Hnd; [reflexivity|].
  cbn [map fst] in Hnd. inversion Hnd as [|k0' ks Hnotin Hnd']; subst.
  cbn [rev]. rewrite assocN_app, (IH Hnd'). cbn [assocN].
  destruct (N.eqb_spec k k0) as [->|Hne].
  - now rewrite (assocN_none_notin k0 l Hnotin).
  - now destruct (assocN k l).
Qed.

Fixpoint nodupN (l : list N) : bool :=
  match l with
  | [] => true
  | k :: r => negb (existsb (N.eqb k) r) && nodupN r
  end.

Lemma nodupN_NoDup l : nodupN l = true -> NoDup l.
Proof.
  induction l as [|k r IH]; cbn [nodupN]; intro H; constructor.
  - apply andb_prop in H as [H _]. apply negb_true_iff in H. intro Hin.
    assert (existsb (N.eqb k) r = true) as E; [|congruence].
    apply existsb_exists. exists k. split; [exact Hin|apply N.eqb_refl].
  - apply andb_prop in H as [_ H]. now apply IH.
Qed.

Section AggNodes.
  Variable P : program.

  Definition VRa (t : ty) (v : Sem.value) (w : list bool) : Prop := has_enc P t v w /\ ty_fits P t.

  Lemma VRa_bool v w : VRa TBool v w -> exists b, v = Sem.VBool b /\ w = [b].
  Proof. intros [H _]. now apply has_enc_inv in H. Qed.

  Lemma ty_fits_unit : ty_fits P unit_ty.
  Proof. unfold ty_fits. rewrite ty_fuel_S. reflexivity. Qed.

  Lemma VRa_unit : VRa unit_ty Sem.unit_val [].
  Proof. split; [repeat constructor|exact ty_fits_unit]. Qed.

  Variable R : node_rel VRa.

  Notation AgEG := (SimNodes.AgEG P VRa R).
  Notation AgSG := (SimNodes.AgSG P VRa R).
  Notation AgSSG := (SimNodes.AgSSG P VRa R).
  Notation assignable := (SimNodes.assignable VRa R).

  (* the observation after a sub-term panicked *)
  Lemma stk_expr x fT : forall e E, stkx x (lower_expr tops fT P e E).
  Proof. apply (tsem_sticky_fuel x P fT). Qed.
  Lemma stk_stmt x fT : forall s E, stkx x (lower_stmt tops fT P s E).
  Proof. apply (tsem_sticky_fuel x P fT). Qed.
  Lemma stk_pat x fT : forall p mw E, stkx x (lower_pattern tops fT P p mw E).
  Proof. apply (tsem_sticky_fuel x P fT). Qed.
  Lemma stk_block x fT : forall b E, stkx x (lower_block tops fT P b E).
  Proof. apply (tsem_sticky_fuel x P fT). Qed.

  (* ---------------------------------------------------------------- leaves: on scalar types
     the relation is the one of TSemSemExpr.v / TSemSemStmt.v ([VRs]); identifiers of any type;
     literals *)

  Lemma VRa_scalar t v w : scalar_ty t = true -> (VRa t v w <-> (val_ok t v /\ w = enc_val t v)).
  Proof.
    intro Hs. unfold VRa. rewrite (has_enc_scalar P t v w Hs). split; [tauto|].
    intro H. split; [exact H|now apply ty_fits_scalar].
  Qed.

  Lemma VRa_sc_elim t v w : scalar_ty t = true -> VRa t v w -> val_ok t v /\ w = enc_val t v.
  Proof. intro Hs. apply VRa_scalar, Hs. Qed.

  Lemma VRa_sc_intro t v : scalar_ty t = true -> val_ok t v -> VRa t v (enc_val t v).
  Proof. intros Hs Hv. apply (VRa_scalar _ _ _ Hs). auto. Qed.

  Lemma VRa_VRs t v w : scalar_ty t = true \/ t = unit_ty -> (VRa t v w <-> VRs t v w).
  Proof.
    intros [Hs| ->].
    - rewrite (VRa_scalar t v w Hs). split.
      + intros [Hv ->]. now apply VRs_intro.
      + now apply VRs_scalar.
    - split.
      + intros [H _]. apply has_enc_inv in H as (vs & -> & Hs). inversion Hs; subst. apply VRs_unit.
      + intros [(Hs & _)|(_ & -> & ->)]; [discriminate Hs|apply VRa_unit].
  Qed.

  Lemma id_node_aG f g x m t mu : tlookup g x = Some (t, mu) -> AgEG f g (Ex (EId x) m t).
  Proof.
    intros Hl s en E fT w E' o' Hrel Hrun. destruct fT as [|fT]; [discriminate Hrun|].
    rewrite lower_expr_S in Hrun. cbn [lower_expr_body] in Hrun.
    destruct (nr_lookup R _ _ _ _ _ _ _ Hrel Hl) as (v & w0 & Hv & Hw & HV). rewrite Hw in Hrun.
    apply ret_inv in Hrun. destruct Hrun as [Heq ->]. injection Heq as -> ->.
    destruct f; [exact I|]. cbn [Sem.eval e_ty]. rewrite Hv. auto.
  Qed.

  Lemma lit_bool_node_aG f g (b : bool) m : AgEG f g (Ex (if b then ETrue else EFalse) m TBool).
  Proof.
    intros s en E fT w E' o' Hrel Hrun. destruct fT as [|fT]; [discriminate Hrun|].
    destruct b; apply ret_inv in Hrun; destruct Hrun as [Heq ->]; injection Heq as -> ->;
      (destruct f; [exact I|]); cbn [Sem.eval e_ty]; repeat split; try exact Hrel; try apply ty_fits_bool;
      constructor.
  Qed.

  Lemma lit_numU_node_aG f g n lb m sg b : lit_fits (TInt sg b) (Z.of_N n) = true ->
    AgEG f g (Ex (ENumU n lb) m (TInt sg b)).
  Proof.
    intros Hl s en E fT w E' o' Hrel Hrun. destruct fT as [|fT]; [discriminate Hrun|].
    apply ret_inv in Hrun. destruct Hrun as [Heq ->]. injection Heq as -> ->.
    destruct f; [exact I|]. cbn [Sem.eval e_ty]. split; [reflexivity|]. split; [split; [|apply ty_fits_int]|exact Hrel].
    rewrite TSemControl.tsem_unsigned_as_wires. apply HE_int. now rewrite <- lit_fits_in_range.
  Qed.

  Lemma lit_numS_node_aG f g z lb m sg b : lit_fits (TInt sg b) z = true ->
    AgEG f g (Ex (ENumS z lb) m (TInt sg b)).
  Proof.
    intros Hl s en E fT w E' o' Hrel Hrun. destruct fT as [|fT]; [discriminate Hrun|].
    apply ret_inv in Hrun. destruct Hrun as [Heq ->]. injection Heq as -> ->.
    destruct f; [exact I|]. cbn [Sem.eval e_ty]. split; [reflexivity|]. split; [split; [|apply ty_fits_int]|exact Hrel].
    rewrite tsem_signed_as_wires. apply HE_int. now rewrite <- lit_fits_in_range.
  Qed.

  (* ---------------------------------------------------------------- expression lists
     (tuple / array literals, enum arguments, struct fields) *)

  Definition sem_eval_list (f : nat) : list expr -> Sem.env -> Sem.outcome (list Sem.value * Sem.env) :=
    fix go (es : list expr) (en : Sem.env) : Sem.outcome (list Sem.value * Sem.env) :=
      match es with
      | [] => Sem.Done ([], en)
      | e :: r =>
          Sem.obind (Sem.eval f P en e) (fun '(v, en1) =>
          Sem.obind (go r en1) (fun '(vs, en2) => Sem.Done (v :: vs, en2)))
      end.

  Lemma sem_eval_list_cons f e r en :
    sem_eval_list f (e :: r) en =
    Sem.obind (Sem.eval f P en e) (fun '(v, en1) =>
    Sem.obind (sem_eval_list f r en1) (fun '(vs, en2) => Sem.Done (v :: vs, en2))).
  Proof. reflexivity. Qed.

  Lemma list_agreesG {s} f g es : Forall (AgEG f g) es ->
    forall en E fT ws E' o', rel R s en E g ->
    lower_list (lower_expr tops fT P) es E None = Ok ((ws, E'), o') ->
    match sem_eval_list f es en with
    | Sem.Done (vs, en') => o' = None /\ Forall3 VRa (map e_ty es) vs ws /\ rel R s en' E' g
    | Sem.Panicked r m => o' = Some (pcode r m)
    | _ => True
    end.
  Proof.
    induction 1 as [|e es He _ IH]; intros en E fT ws E' o' Hrel Hrun.
    - cbn [lower_list] in Hrun. apply ret_inv in Hrun. destruct Hrun as [Heq ->]. injection Heq as -> ->.
      cbn [sem_eval_list map]. repeat split; [constructor|exact Hrel].
    - cbn [lower_list] in Hrun. minva Hrun as [w1 E1] o1 H1. minva Hrun as [ws1 E2] o2 H2.
      apply ret_inv in Hrun. destruct Hrun as [Heq ->]. injection Heq as -> ->.
      rewrite sem_eval_list_cons. pose proof (He s en E fT _ _ _ Hrel H1) as IH1. revert IH1.
      destruct (Sem.eval f P en e) as [[v en1]|r1 m1|c1|]; intro IH1; cbn [Sem.obind]; try exact I.
      + destruct IH1 as (-> & HV & Hrel1). pose proof (IH en1 E1 fT _ _ _ Hrel1 H2) as IH2. revert IH2.
        destruct (sem_eval_list f es en1) as [[vs en2]|r2 m2|c2|]; intro IH2; cbn [Sem.obind]; try exact I;
          [|exact IH2].
        destruct IH2 as (-> & HVs & Hrel2). cbn [map]. repeat split; [now constructor|exact Hrel2].
      + subst o1. exact (stkx_lower_list _ _ (stk_expr _ fT) es E1 _ _ H2).
  Qed.

  Lemma F3_VRa_enc ts vs ws : Forall3 VRa ts vs ws -> Forall3 (has_enc P) ts vs ws.
  Proof. apply F3_impl. now intros t v w [H _]. Qed.

  (* ---------------------------------------------------------------- 1. tuples *)

  Lemma sem_eval_tuplit f en es m t :
    Sem.eval (S f) P en (Ex (ETupLit es) m t) =
    Sem.obind (sem_eval_list f es en) (fun '(vs, en1) => Sem.Done (Sem.VTup vs, en1)).
  Proof. reflexivity. Qed.

  Lemma tuplit_nodeG f g es m t :
    Forall (AgEG f g) es -> t = TTup (map e_ty es) -> ty_fits P t ->
    AgEG (S f) g (Ex (ETupLit es) m t).
  Proof.
    intros Hes Et Hfit s en E fT w E' o' Hrel Hrun.
    destruct fT as [|fT]; [discriminate Hrun|]. rewrite lower_expr_S in Hrun. cbn [lower_expr_body] in Hrun.
    minva Hrun as [ws E1] o1 H1. apply ret_inv in Hrun. destruct Hrun as [Heq ->]. injection Heq as -> ->.
    rewrite sem_eval_tuplit. pose proof (list_agreesG f g es Hes en E fT _ _ _ Hrel H1) as IH1. revert IH1.
    destruct (sem_eval_list f es en) as [[vs en1]|r1 m1|c1|]; intro IH1; cbn [Sem.obind]; try exact I; [|exact IH1].
    destruct IH1 as (-> & HVs & Hrel1). cbn [e_ty]. repeat split; [|exact Hfit|exact Hrel1].
    subst t. apply has_enc_tuple_lit. now apply F3_VRa_enc.
  Qed.

  Lemma sem_eval_tupacc f en e1 i m t :
    Sem.eval (S f) P en (Ex (ETupAcc e1 i) m t) =
    Sem.obind (Sem.eval f P en e1) (fun '(v, en1) =>
      match v with
      | Sem.VTup vs => match nthN vs i with Some x => Sem.Done (x, en1) | None => Sem.Stuck 33 end
      | _ => Sem.Stuck 34
      end).
  Proof. reflexivity. Qed.

  Lemma nth_error_same_length {A B} (la : list A) (lb : list B) k a : length la = length lb ->
    nth_error la k = Some a -> exists b, nth_error lb k = Some b.
  Proof.
    intros Hl Ha. destruct (nth_error lb k) as [b|] eqn:E; [eauto|].
    apply nth_error_None in E. assert (k < length la)%nat by (apply nth_error_Some; congruence). lia.
  Qed.

  Lemma tupacc_nodeG f g e1 i m t ts :
    AgEG f g e1 -> e_ty e1 = TTup ts -> nthN ts i = Some t ->
    AgEG (S f) g (Ex (ETupAcc e1 i) m t).
  Proof.
    intros IH Et Hi s en E fT w E' o' Hrel Hrun.
    destruct fT as [|fT]; [discriminate Hrun|]. rewrite lower_expr_S in Hrun. cbn [lower_expr_body] in Hrun.
    minva Hrun as [wb wi] o0 H0. apply lift_res_inv in H0. destruct H0 as [Hoff ->].
    minva Hrun as [w1 E1] o1 H1. minva Hrun as r o2 H2. apply lift_res_inv in H2. destruct H2 as [Hsl ->].
    apply ret_inv in Hrun. destruct Hrun as [Heq ->]. injection Heq as -> ->.
    rewrite sem_eval_tupacc. pose proof (IH s en E fT _ _ _ Hrel H1) as IH1. revert IH1.
    destruct (Sem.eval f P en e1) as [[v en1]|r1 m1|c1|]; intro IH1; cbn [Sem.obind]; try exact I; [|exact IH1].
    destruct IH1 as (-> & [HV Hfit] & Hrel1). rewrite Et in HV, Hfit, Hoff.
    pose proof HV as HV'. apply has_enc_inv in HV' as (vs & -> & Hs).
    pose proof (has_encs_length P ts vs w1 Hs) as Hlen.
    rewrite nthN_spec in Hi. destruct (nth_error_same_length ts vs _ t Hlen Hi) as (vi & Hvi).
    rewrite <- nthN_spec in Hi. rewrite <- nthN_spec in Hvi. rewrite Hvi.
    destruct (has_enc_tuple_proj P ts vs w1 i wb wi t vi HV Hfit Hoff Hi Hvi) as (wx & Hwx & Hex).
    assert (wx = r) as -> by congruence. cbn [e_ty]. repeat split; [exact Hex| |exact Hrel1].
    rewrite nthN_spec in Hi. exact (Forall_nth_error _ _ _ _ (ty_fits_tup P ts Hfit) Hi).
  Qed.

  (* ---------------------------------------------------------------- 2. structs *)

  (* the field expressions of a literal, in the order of the definition *)
  Fixpoint struct_exprs (fields : list (N * expr)) (ds : list (N * ty)) : option (list expr) :=
    match ds with
    | [] => Some []
    | (fname, _) :: r =>
        match assocN fname fields, struct_exprs fields r with
        | Some fe, Some es => Some (fe :: es)
        | _, _ => None
        end
    end.

  Lemma struct_exprs_rev fields ds : NoDup (map fst fields) ->
    struct_exprs (rev fields) ds = struct_exprs fields ds.
  Proof.
    intro Hnd. induction ds as [|[fname fty] r IH]; [reflexivity|].
    cbn [struct_exprs]. now rewrite IH, assocN_rev_nodup.
  Qed.

  Definition sem_struct_fields (f : nat) (fields : list (N * expr))
    : list (N * ty) -> Sem.env -> Sem.outcome (list Sem.value * Sem.env) :=
    fix go (ds : list (N * ty)) (en : Sem.env) : Sem.outcome (list Sem.value * Sem.env) :=
      match ds with
      | [] => Sem.Done ([], en)
      | (fname, _) :: r =>
          match assocN fname fields with
          | Some fe =>
              Sem.obind (Sem.eval f P en fe) (fun '(v, en1) =>
              Sem.obind (go r en1) (fun '(vs, en2) => Sem.Done (v :: vs, en2)))
          | None => Sem.Stuck 39
          end
      end.

  Lemma sem_eval_structlit f en name fields m t :
    Sem.eval (S f) P en (Ex (EStructLit name fields) m t) =
    match assocN name (p_structs P) with
    | Some def =>
        Sem.obind (sem_struct_fields f fields def en) (fun '(vs, en1) => Sem.Done (Sem.VTup vs, en1))
    | None => Sem.Stuck 40
    end.
  Proof. reflexivity. Qed.

  Lemma sem_struct_fields_list f fields : forall ds es en, struct_exprs fields ds = Some es ->
    sem_struct_fields f fields ds en = sem_eval_list f es en.
  Proof.
    induction ds as [|[fname fty] r IH]; intros es en H; cbn [struct_exprs] in H.
    - injection H as <-. reflexivity.
    - destruct (assocN fname fields) as [fe|] eqn:Ef; [|discriminate H].
      destruct (struct_exprs fields r) as [es'|] eqn:Er; [|discriminate H]. injection H as <-.
      rewrite sem_eval_list_cons. cbn [sem_struct_fields]. rewrite Ef.
      destruct (Sem.eval f P en fe) as [[v en1]|r1 m1|c1|]; cbn [Sem.obind]; try reflexivity.
      fold (sem_struct_fields f fields r en1). now rewrite (IH es' en1 eq_refl).
  Qed.

  Lemma lower_struct_fields_list (re : expr -> @cenv bool -> MB (list bool * @cenv bool)) fields :
    forall ds es E o, struct_exprs (rev fields) ds = Some es ->
    lower_struct_fields re fields ds E o = lower_list re es E o.
  Proof.
    induction ds as [|[fname fty] r IH]; intros es E o H; cbn [struct_exprs] in H.
    - injection H as <-. reflexivity.
    - destruct (assocN fname (rev fields)) as [fe|] eqn:Ef; [|discriminate H].
      destruct (struct_exprs (rev fields) r) as [es'|] eqn:Er; [|discriminate H]. injection H as <-.
      cbn [lower_struct_fields lower_list]. rewrite Ef. unfold mbind at 1 3.
      destruct (re fe E o) as [[[w E1] o1]| |]; try reflexivity.
      unfold mbind. now rewrite (IH es' E1 o1 eq_refl).
  Qed.

  Lemma structlit_nodeG f g name fields def es m t :
    assocN name (p_structs P) = Some def -> nodupN (map fst fields) = true ->
    struct_exprs fields def = Some es -> Forall (AgEG f g) es ->
    map e_ty es = map snd def -> t = TStruct name -> ty_fits P t ->
    AgEG (S f) g (Ex (EStructLit name fields) m t).
  Proof.
    intros Hd Hnd Hse Hes Hty Et Hfit s en E fT w E' o' Hrel Hrun.
    destruct fT as [|fT]; [discriminate Hrun|]. rewrite lower_expr_S in Hrun. cbn [lower_expr_body] in Hrun.
    rewrite Hd in Hrun. minva Hrun as [ws E1] o1 H1.
    apply ret_inv in Hrun. destruct Hrun as [Heq ->]. injection Heq as -> ->.
    rewrite lower_struct_fields_list with (es := es) in H1
      by (rewrite struct_exprs_rev; [exact Hse|now apply nodupN_NoDup]).
    rewrite sem_eval_structlit, Hd, (sem_struct_fields_list f fields def es en Hse).
    pose proof (list_agreesG f g es Hes en E fT _ _ _ Hrel H1) as IH1. revert IH1.
    destruct (sem_eval_list f es en) as [[vs en1]|r1 m1|c1|]; intro IH1; cbn [Sem.obind]; try exact I; [|exact IH1].
    destruct IH1 as (-> & HVs & Hrel1). cbn [e_ty]. repeat split; [|exact Hfit|exact Hrel1].
    subst t. apply (has_enc_struct_lit P name def vs ws Hd). rewrite <- Hty. now apply F3_VRa_enc.
  Qed.

  Lemma sem_eval_fld f en e1 fld m t :
    Sem.eval (S f) P en (Ex (EFld e1 fld) m t) =
    Sem.obind (Sem.eval f P en e1) (fun '(v, en1) =>
      match e_ty e1, v with
      | TStruct name, Sem.VTup vs =>
          match assocN name (p_structs P) with
          | Some def =>
              match Sem.index_of fld (map fst def) 0 with
              | Some k => match nthN vs k with Some x => Sem.Done (x, en1) | None => Sem.Stuck 35 end
              | None => Sem.Stuck 36
              end
          | None => Sem.Stuck 37
          end
      | _, _ => Sem.Stuck 38
      end).
  Proof. reflexivity. Qed.

  Lemma fld_nodeG f g e1 fld m t name def k :
    AgEG f g e1 -> e_ty e1 = TStruct name -> assocN name (p_structs P) = Some def ->
    Sem.index_of fld (map fst def) 0 = Some k -> nthN (map snd def) k = Some t ->
    AgEG (S f) g (Ex (EFld e1 fld) m t).
  Proof.
    intros IH Et Hd Hk Ht s en E fT w E' o' Hrel Hrun.
    destruct fT as [|fT]; [discriminate Hrun|]. rewrite lower_expr_S in Hrun. cbn [lower_expr_body] in Hrun.
    rewrite Et in Hrun.
    minva Hrun as [w1 E1] o1 H1. minva Hrun as [wb wi] o0 H0. apply lift_res_inv in H0. destruct H0 as [Hoff ->].
    minva Hrun as r o2 H2. apply lift_res_inv in H2. destruct H2 as [Hsl ->].
    apply ret_inv in Hrun. destruct Hrun as [Heq ->]. injection Heq as -> ->.
    rewrite sem_eval_fld, Et. pose proof (IH s en E fT _ _ _ Hrel H1) as IH1. revert IH1.
    destruct (Sem.eval f P en e1) as [[v en1]|r1 m1|c1|]; intro IH1; cbn [Sem.obind]; try exact I; [|exact IH1].
    destruct IH1 as (-> & [HV Hfit] & Hrel1). rewrite Et in HV, Hfit.
    pose proof HV as HV'. apply has_enc_inv in HV' as (def' & vs & -> & Hd' & Hs).
    assert (def' = def) as -> by congruence. rewrite Hd, Hk.
    pose proof (has_encs_length P _ vs w1 Hs) as Hlen.
    rewrite nthN_spec in Ht. destruct (nth_error_same_length _ vs _ t Hlen Ht) as (vi & Hvi).
    rewrite <- nthN_spec in Ht. rewrite <- nthN_spec in Hvi. rewrite Hvi.
    destruct (has_enc_struct_proj P name def vs w1 fld wb wi k vi HV Hfit Hd Hoff Hk Hvi) as (ti & wx & Hti & Hwx & Hex).
    assert (ti = t) as -> by congruence. assert (wx = r) as -> by congruence.
    cbn [e_ty]. repeat split; [exact Hex| |exact Hrel1].
    rewrite nthN_spec in Ht. exact (Forall_nth_error _ _ _ _ (ty_fits_struct_def P name def Hfit Hd) Ht).
  Qed.

  (* ---------------------------------------------------------------- 3. array literals, repeated
     arrays, ranges *)

  Lemma sem_eval_arrlit f en es m t :
    Sem.eval (S f) P en (Ex (EArrLit es) m t) =
    Sem.obind (sem_eval_list f es en) (fun '(vs, en1) => Sem.Done (Sem.VArr vs, en1)).
  Proof. reflexivity. Qed.

  Lemma arrlit_nodeG f g es m t el :
    Forall (AgEG f g) es -> Forall (fun e => e_ty e = el) es -> t = TArr el (lenN es) -> ty_fits P t ->
    AgEG (S f) g (Ex (EArrLit es) m t).
  Proof.
    intros Hes Hel Et Hfit s en E fT w E' o' Hrel Hrun.
    destruct fT as [|fT]; [discriminate Hrun|]. rewrite lower_expr_S in Hrun. cbn [lower_expr_body] in Hrun.
    minva Hrun as [ws E1] o1 H1. apply ret_inv in Hrun. destruct Hrun as [Heq ->]. injection Heq as -> ->.
    rewrite sem_eval_arrlit. pose proof (list_agreesG f g es Hes en E fT _ _ _ Hrel H1) as IH1. revert IH1.
    destruct (sem_eval_list f es en) as [[vs en1]|r1 m1|c1|]; intro IH1; cbn [Sem.obind]; try exact I; [|exact IH1].
    destruct IH1 as (-> & HVs & Hrel1). cbn [e_ty]. repeat split; [|exact Hfit|exact Hrel1].
    apply F3_VRa_enc in HVs. pose proof (F3_lengths _ _ _ _ HVs) as [Hl _]. rewrite map_length in Hl.
    assert (Hf2 : Forall2 (has_enc P el) vs ws).
    { apply (F3_same_l (has_enc P) el (map e_ty es)); [|exact HVs].
      apply Forall_forall. intros x Hx. apply in_map_iff in Hx as (e & <- & He).
      rewrite Forall_forall in Hel. now apply Hel. }
    subst t. replace (lenN es) with (lenN vs) by (unfold lenN; now rewrite Hl).
    now apply has_enc_array_lit.
  Qed.

  Lemma sem_eval_arrrep f en e1 n m t :
    Sem.eval (S f) P en (Ex (EArrRep e1 n) m t) =
    Sem.obind (Sem.eval f P en e1) (fun '(v, en1) => Sem.Done (Sem.VArr (repeat v (N.to_nat n)), en1)).
  Proof. reflexivity. Qed.

  Lemma arrrep_nodeG f g e1 n m t :
    AgEG f g e1 -> t = TArr (e_ty e1) n -> ty_fits P t ->
    AgEG (S f) g (Ex (EArrRep e1 n) m t).
  Proof.
    intros IH Et Hfit s en E fT w E' o' Hrel Hrun.
    destruct fT as [|fT]; [discriminate Hrun|]. rewrite lower_expr_S in Hrun. cbn [lower_expr_body] in Hrun.
    minva Hrun as [w1 E1] o1 H1. minva Hrun as w2 o2 H2. unfold m_extend in H2.
    apply lift_res_inv in H2. destruct H2 as [Hext ->].
    apply ret_inv in Hrun. destruct Hrun as [Heq ->]. injection Heq as -> ->.
    rewrite sem_eval_arrrep. pose proof (IH s en E fT _ _ _ Hrel H1) as IH1. revert IH1.
    destruct (Sem.eval f P en e1) as [[v en1]|r1 m1|c1|]; intro IH1; cbn [Sem.obind]; try exact I; [|exact IH1].
    destruct IH1 as (-> & [HV Hf1] & Hrel1).
    rewrite (has_enc_extend_id P _ v w1 _ HV Hf1) in Hext. injection Hext as <-.
    cbn [e_ty]. repeat split; [|exact Hfit|exact Hrel1]. subst t. now apply has_enc_array_rep.
  Qed.

  Lemma sem_eval_range f en lo hi bits m t :
    Sem.eval (S f) P en (Ex (ERange lo hi bits) m t) =
    Sem.Done (Sem.VArr (map (fun k => Sem.VInt (Z.of_N lo + Z.of_nat k)) (seq 0 (N.to_nat (hi - lo)))), en).
  Proof. reflexivity. Qed.

  Lemma Forall2_map_map {A B C} (Q : B -> C -> Prop) (h1 : A -> B) (h2 : A -> C) l :
    (forall a, In a l -> Q (h1 a) (h2 a)) -> Forall2 Q (map h1 l) (map h2 l).
  Proof.
    induction l as [|a l IH]; intro H; cbn [map]; constructor.
    - apply H. now left.
    - apply IH. intros b Hb. apply H. now right.
  Qed.

  Lemma ty_fits_arr_int sg bits n : ty_fits P (TArr (TInt sg bits) n).
  Proof. unfold ty_fits. rewrite pred_ty_fuel_S. reflexivity. Qed.

  (* lo..hi at an unsigned type of [bits] bits: the elements must fit the type (hi <= 2^bits);
     an empty range with hi < lo does not compile (crash), so lo <= hi on an Ok run *)
  Lemma range_nodeG f g lo hi bits m t :
    t = TArr (TInt false bits) (hi - lo) -> (hi <=? 2 ^ bits) = true ->
    AgEG f g (Ex (ERange lo hi bits) m t).
  Proof.
    intros Et Hhi s en E fT w E' o' Hrel Hrun. apply N.leb_le in Hhi.
    destruct fT as [|fT]; [discriminate Hrun|]. rewrite lower_expr_S in Hrun. cbn [lower_expr_body] in Hrun.
    destruct (N.ltb_spec hi lo) as [Hlt|Hle]; [discriminate Hrun|].
    apply ret_inv in Hrun. destruct Hrun as [Heq ->]. injection Heq as -> ->.
    destruct f as [|f]; [exact I|]. rewrite sem_eval_range. cbn [e_ty].
    repeat split; [|subst t; apply ty_fits_arr_int|exact Hrel]. subst t.
    apply has_enc_arr_iff. split; [unfold lenN; rewrite map_length, seq_length; lia|].
    eexists. split; [|reflexivity]. apply Forall2_map_map. intros k Hk. apply in_seq in Hk.
    rewrite TSemControl.tsem_unsigned_as_wires.
    replace (Z.of_N lo + Z.of_nat k)%Z with (Z.of_N (lo + N.of_nat k)) by lia.
    apply HE_int. apply (in_range_of_bounds false). split; [lia|].
    rewrite <- pow2_N_Z. lia.
  Qed.
  (* ---------------------------------------------------------------- 4. indexing with a
     dynamic index *)

  Lemma sem_eval_idx f en a i m t :
    Sem.eval (S f) P en (Ex (EIdx a i) m t) =
    Sem.obind (Sem.eval f P en a) (fun '(va, en1) =>
    Sem.obind (Sem.eval f P en1 i) (fun '(vi, en2) =>
      match va, vi with
      | Sem.VArr vs, Sem.VInt z =>
          if (0 <=? z)%Z && (z <? Z.of_nat (length vs))%Z then
            match nth_error vs (Z.to_nat z) with
            | Some v => Sem.Done (v, en2)
            | None => Sem.Stuck 31
            end
          else Sem.Panicked Sem.ROutOfBounds m
      | _, _ => Sem.Stuck 32
      end)).
  Proof. reflexivity. Qed.

  (* an index value of an unsigned type of at most 32 bits, and its wires *)
  Lemma VRa_index b vi idx : VRa (TInt false b) vi idx -> (b <=? 32) = true ->
    exists z, vi = Sem.VInt z /\ (0 <= z)%Z /\ bits_to_N idx = Z.to_N z /\ (length idx <= USZ)%nat.
  Proof.
    intros [H _] Hb. apply N.leb_le in Hb. apply has_enc_inv in H as (z & -> & Hr & ->).
    exists z. pose proof (uval_enc_ok b z Hr) as Hu. unfold uval in Hu.
    pose proof (in_range_bounds false b z Hr) as Hz. cbv beta iota in Hz.
    repeat split; [lia|lia|]. rewrite length_enc. unfold USZ. lia.
  Qed.

  Lemma pcode_oob m : push_spec None true OutOfBounds (ploc_of m) = Some (pcode Sem.ROutOfBounds m).
  Proof. reflexivity. Qed.

  (* side conditions: the array type of [a] gives the element type and the length; the index
     type is unsigned of at most 32 bits (compile.rs extends it to usize = 32 bits and crashes
     on a wider one); the length fits 32 bits *)
  Lemma idx_nodeG f g a i m t n b :
    AgEG f g a -> AgEG f g i ->
    e_ty a = TArr t n -> e_ty i = TInt false b -> (b <=? 32) = true -> (n <? 2 ^ 32) = true ->
    AgEG (S f) g (Ex (EIdx a i) m t).
  Proof.
    intros IHa IHi Eta Eti Hb Hn s en E fT w E' o' Hrel Hrun.
    apply N.ltb_lt in Hn.
    destruct fT as [|fT]; [discriminate Hrun|]. rewrite lower_expr_S in Hrun. cbn [lower_expr_body] in Hrun.
    rewrite Eta in Hrun. cbn [array_size] in Hrun.
    minva Hrun as [eb0 ne] o0 H0. apply lift_res_inv in H0. destruct H0 as [H0 ->]. injection H0 as <- <-.
    minva Hrun as [arr E1] o1 H1. minva Hrun as [idx E2] o2 H2. minva Hrun as [r idx'] o3 H3.
    apply ret_inv in Hrun. destruct Hrun as [Heq ->]. injection Heq as -> ->.
    cbn [e_ty] in H3. rewrite sem_eval_idx.
    pose proof (IHa s en E fT _ _ _ Hrel H1) as IH1. revert IH1.
    destruct (Sem.eval f P en a) as [[va en1]|r1 m1|c1|]; intro IH1; cbn [Sem.obind]; try exact I.
    2:{ subst o1. pose proof (stk_expr _ fT i E1 _ _ H2) as ->. exact (stkx_array_read _ _ _ _ _ _ _ _ H3). }
    destruct IH1 as (-> & HVa & Hrel1).
    pose proof (IHi s en1 E1 fT _ _ _ Hrel1 H2) as IH2. revert IH2.
    destruct (Sem.eval f P en1 i) as [[vi en2]|r2 m2|c2|]; intro IH2; cbn [Sem.obind]; try exact I.
    2:{ subst o2. exact (stkx_array_read _ _ _ _ _ _ _ _ H3). }
    destruct IH2 as (-> & HVi & Hrel2). rewrite Eta in HVa. rewrite Eti in HVi.
    destruct HVa as [HVa Hfa]. destruct (VRa_index b vi idx HVi Hb) as (z & -> & Hz0 & Hbz & Hli).
    pose proof HVa as HVa'. apply has_enc_inv in HVa' as (vs & -> & _ & _).
    destruct (has_enc_array_elems P t n vs arr HVa Hfa) as (elems & -> & Hf2 & Hall & Hle & Hlv & _).
    pose proof (ty_fits_arr P t n Hfa) as Hft.
    assert (Hlvs : length vs = N.to_nat n) by (unfold lenN in Hlv; lia).
    destruct (N.to_nat n) as [|n'] eqn:En.
    - (* no elements: always out of bounds *)
      destruct elems; [|discriminate Hle]. cbn [concat] in H3.
      rewrite tsem_array_read_empty in H3 by exact Hli. injection H3 as _ _ <-.
      rewrite Hlvs. replace ((0 <=? z)%Z && (z <? Z.of_nat 0)%Z) with false; [apply pcode_oob|].
      symmetry. apply andb_false_iff. right. apply Z.ltb_ge. lia.
    - rewrite (tsem_array_read_all elems idx (szn P t) (S n') m None) in H3; try assumption; try lia.
      injection H3 as <- _ <-. rewrite Hbz, Hlvs.
      destruct (Z.ltb_spec z (Z.of_nat (S n'))) as [Hlt|Hge].
      + replace (0 <=? z)%Z with true by (symmetry; apply Z.leb_le; exact Hz0). cbn [andb].
        match goal with |- context [?a <=? Z.to_N z] => destruct (N.leb_spec a (Z.to_N z)) as [Hc|_]; [lia|] end.
        destruct (nth_error vs (Z.to_nat z)) as [v|] eqn:Ev.
        2:{ apply nth_error_None in Ev. lia. }
        cbn [e_ty push_spec]. split; [reflexivity|]. split; [split; [|exact Hft]|exact Hrel2].
        rewrite Z_N_nat. exact (F2_has_enc_nth P t vs elems _ v _ Hf2 Ev).
      + rewrite andb_false_r.
        match goal with |- context [?a <=? Z.to_N z] => destruct (N.leb_spec a (Z.to_N z)) as [_|Hc]; [apply pcode_oob|lia] end.
  Qed.
  (* ---------------------------------------------------------------- 5. assignment through
     accessors

     Sem.v: the assigned value, then the READ PHASE (the accessors are walked through the value
     the variable has before the index expressions are evaluated: every index is evaluated and
     checked against the length in turn), then the variable is re-read and [write_path] replaces
     the addressed component.  Lower.v: the value, [assign_indexes] (all index expressions, each
     extended to 32 bits and checked against the STATIC length of the accessor's array type),
     then the variable is read, [assign_forward] reads along the accessors, [assign_backward]
     writes back ([array_write] / [splice]).  Values of array type have the static length, so
     the two sequences of checks coincide; the first failing check wins on both sides. *)

  Definition sem_read (f : nat) (m : meta)
    : list accessor -> Sem.value -> Sem.env -> list Sem.rstep -> Sem.outcome (list Sem.rstep * Sem.env) :=
    fix go (accs : list accessor) (cur : Sem.value) (en : Sem.env) (path_rev : list Sem.rstep)
      : Sem.outcome (list Sem.rstep * Sem.env) :=
      match accs with
      | [] => Sem.Done (rev path_rev, en)
      | AIdx _ ie :: r =>
          Sem.obind (Sem.eval f P en ie) (fun '(vi, en1) =>
            match cur, vi with
            | Sem.VArr vs, Sem.VInt z =>
                if (0 <=? z)%Z && (z <? Z.of_nat (length vs))%Z then
                  match nth_error vs (Z.to_nat z) with
                  | Some sub => go r sub en1 (Sem.RIdx (Z.to_N z) :: path_rev)
                  | None => Sem.Stuck 62
                  end
                else Sem.Panicked Sem.ROutOfBounds m
            | _, _ => Sem.Stuck 63
            end)
      | ATup _ i :: r =>
          match cur with
          | Sem.VTup vs => match nthN vs i with
                           | Some sub => go r sub en (Sem.RPos i :: path_rev)
                           | None => Sem.Stuck 64 end
          | _ => Sem.Stuck 65
          end
      | AFld sty fld :: r =>
          match sty, cur with
          | TStruct name, Sem.VTup vs =>
              match assocN name (p_structs P) with
              | Some def =>
                  match Sem.index_of fld (map fst def) 0 with
                  | Some k => match nthN vs k with
                              | Some sub => go r sub en (Sem.RPos k :: path_rev)
                              | None => Sem.Stuck 66 end
                  | None => Sem.Stuck 67
                  end
              | None => Sem.Stuck 68
              end
          | _, _ => Sem.Stuck 69
          end
      end.

  Lemma sem_exec_assign f en x accs e m :
    Sem.exec (S f) P en (St (SAssign x accs e) m) =
    Sem.obind (Sem.eval f P en e) (fun '(nv, en0) =>
      match Sem.lookup_var en0 x with
      | None => Sem.Stuck 61
      | Some cur =>
          Sem.obind (sem_read f m accs cur en0 []) (fun '(path, en2) =>
            match Sem.lookup_var en2 x with
            | Some cur2 =>
                match Sem.write_path cur2 path nv with
                | Some whole =>
                    match Sem.assign_var en2 x whole with
                    | Some en3 => Sem.Done (Sem.unit_val, en3)
                    | None => Sem.Stuck 70
                    end
                | None => Sem.Stuck 71
                end
            | None => Sem.Stuck 72
            end)
      end).
  Proof. reflexivity. Qed.

  (* a well-typed accessor chain from the type [tcur] to the type [tf]; the index expressions
     agree; side conditions as for [idx_nodeG] *)
  Inductive acc_okG (f : nat) (g : tenv) : list accessor -> ty -> ty -> Prop :=
  | AOG_nil t : acc_okG f g [] t t
  | AOG_idx ie r el n b tf :
      AgEG f g ie -> e_ty ie = TInt false b -> (b <=? 32) = true -> (n <? 2 ^ 32) = true ->
      acc_okG f g r el tf ->
      acc_okG f g (AIdx (TArr el n) ie :: r) (TArr el n) tf
  | AOG_tup i r ts ti tf :
      nthN ts i = Some ti -> acc_okG f g r ti tf ->
      acc_okG f g (ATup (TTup ts) i :: r) (TTup ts) tf
  | AOG_fld fld r name def k tk tf :
      assocN name (p_structs P) = Some def -> Sem.index_of fld (map fst def) 0 = Some k ->
      nthN (map snd def) k = Some tk -> acc_okG f g r tk tf ->
      acc_okG f g (AFld (TStruct name) fld :: r) (TStruct name) tf.

  (* the resolved path of Sem.v against the index wires of Lower.v *)
  Inductive path_rel : list accessor -> list Sem.rstep -> list (list bool) -> Prop :=
  | PR_nil : path_rel [] [] []
  | PR_idx el n ie r path iw iws : length iw = USZ -> bits_to_N iw < n -> path_rel r path iws ->
      path_rel (AIdx (TArr el n) ie :: r) (Sem.RIdx (bits_to_N iw) :: path) (iw :: iws)
  | PR_tup tty i r path iws : path_rel r path iws ->
      path_rel (ATup tty i :: r) (Sem.RPos i :: path) iws
  | PR_fld name def fld k r path iws : assocN name (p_structs P) = Some def ->
      Sem.index_of fld (map fst def) 0 = Some k -> path_rel r path iws ->
      path_rel (AFld (TStruct name) fld :: r) (Sem.RPos k :: path) iws.

  Lemma push_spec_false o r l : push_spec o false r l = o.
  Proof. now destruct o. Qed.

  Lemma has_encs_nth k ts vs w ti vi : has_encs P ts vs w -> nth_error ts k = Some ti ->
    nth_error vs k = Some vi -> exists wi, has_enc P ti vi wi.
  Proof.
    intros H Ht Hv. destruct (has_encs_split P k ts vs w ti vi H Ht Hv) as (_ & wi & _ & _ & _ & Hi & _). eauto.
  Qed.

  (* PHASE A: the index expressions and their bounds checks *)
  Lemma read_agreesG {s} f g m : forall accs tcur tf, acc_okG f g accs tcur tf ->
    forall cur wc en E fT prev acc_rev idxs E' o',
    has_enc P tcur cur wc -> ty_fits P tcur -> rel R s en E g ->
    assign_indexes tops P (lower_expr tops fT P) m accs E acc_rev None = Ok ((idxs, E'), o') ->
    match sem_read f m accs cur en prev with
    | Sem.Done (path, en') =>
        o' = None /\ rel R s en' E' g /\
        exists p iws, path = rev prev ++ p /\ idxs = rev acc_rev ++ iws /\ path_rel accs p iws
    | Sem.Panicked r m' => o' = Some (pcode r m')
    | _ => True
    end.
  Proof.
    induction 1 as [t|ie r el n b tf IHie Eti Hb Hn _ IH|i r ts ti tf Hi _ IH|fld r name def k tk tf Hd Hk Htk _ IH];
      intros cur wc en E fT prev acc_rev idxs E' o' HV Hfit Hrel Hrun.
    - cbn [assign_indexes] in Hrun. apply ret_inv in Hrun. destruct Hrun as [Heq ->]. injection Heq as -> ->.
      cbn [sem_read]. split; [reflexivity|]. split; [exact Hrel|].
      exists [], []. rewrite !app_nil_r. repeat split. constructor.
    - cbn [assign_indexes array_size] in Hrun.
      minva Hrun as [eb0 ne] o0 H0. apply lift_res_inv in H0. destruct H0 as [H0 ->]. injection H0 as <- <-.
      minva Hrun as [iw E1] o1 H1. minva Hrun as iw' o2 H2. minva Hrun as u o3 H3.
      change (sem_read f m (AIdx (TArr el n) ie :: r) cur en prev) with
        (Sem.obind (Sem.eval f P en ie) (fun '(vi, en1) =>
            match cur, vi with
            | Sem.VArr vs, Sem.VInt z =>
                if (0 <=? z)%Z && (z <? Z.of_nat (length vs))%Z then
                  match nth_error vs (Z.to_nat z) with
                  | Some sub => sem_read f m r sub en1 (Sem.RIdx (Z.to_N z) :: prev)
                  | None => Sem.Stuck 62
                  end
                else Sem.Panicked Sem.ROutOfBounds m
            | _, _ => Sem.Stuck 63
            end)).
      pose proof (IHie s en E fT _ _ _ Hrel H1) as IH1. revert IH1.
      destruct (Sem.eval f P en ie) as [[vi en1]|r1 m1|c1|]; intro IH1; cbn [Sem.obind]; try exact I.
      2:{ subst o1. unfold m_extend in H2. pose proof (stkx_lift _ _ _ _ H2) as ->.
          pose proof (stkx_bounds_check _ _ _ _ _ _ H3) as ->.
          exact (stkx_assign_indexes _ P _ (stk_expr _ fT) m r E1 _ _ _ Hrun). }
      destruct IH1 as (-> & HVi & Hrel1). rewrite Eti in HVi.
      destruct (VRa_index b vi iw HVi Hb) as (z & -> & Hz0 & Hbz & Hli).
      rewrite tsem_m_extend_index in H2 by exact Hli. injection H2 as <- <-.
      pose proof (extend_s_length iw false USZ Hli) as Hl'.
      pose proof (zext_correct iw USZ) as Hzx.
      apply N.ltb_lt in Hn.
      rewrite tsem_bounds_check in H3 by (try exact Hl'; lia). injection H3 as _ <-.
      pose proof HV as HV'. apply has_enc_inv in HV' as (vs & -> & Hlv & Hs).
      assert (Hlvs : length vs = N.to_nat n) by (unfold lenN in Hlv; lia).
      rewrite Hzx, Hbz, N2Nat.id in Hrun. rewrite Hlvs.
      destruct (Z.ltb_spec z (Z.of_nat (N.to_nat n))) as [Hlt|Hge].
      + replace (0 <=? z)%Z with true by (symmetry; apply Z.leb_le; exact Hz0). cbn [andb].
        destruct (N.leb_spec n (Z.to_N z)) as [Hc|_]; [lia|]. cbn [push_spec] in Hrun.
        destruct (nth_error vs (Z.to_nat z)) as [sub|] eqn:Ev.
        2:{ apply nth_error_None in Ev. lia. }
        destruct (has_enc_array_proj P el n vs wc _ sub HV Hfit Ev) as (wsub & _ & Hsub).
        pose proof (IH sub wsub en1 E1 fT (Sem.RIdx (Z.to_N z) :: prev) _ _ _ _ Hsub (ty_fits_arr P el n Hfit) Hrel1 Hrun) as IH2.
        revert IH2. destruct (sem_read f m r sub en1 (Sem.RIdx (Z.to_N z) :: prev)) as [[path en2]|r2 m2|c2|];
          intro IH2; try exact I; [|exact IH2].
        destruct IH2 as (-> & Hrel2 & p & iws & -> & -> & Hpr). split; [reflexivity|]. split; [exact Hrel2|].
        exists (Sem.RIdx (Z.to_N z) :: p), (extend_s iw false USZ :: iws). cbn [rev]. rewrite <- !app_assoc.
        split; [reflexivity|]. split; [reflexivity|]. rewrite <- Hbz, <- Hzx.
        constructor; [exact Hl'|rewrite Hzx, Hbz; lia|exact Hpr].
      + rewrite andb_false_r.
        destruct (N.leb_spec n (Z.to_N z)) as [_|Hc]; [|lia]. cbn [push_spec] in Hrun.
        exact (stkx_assign_indexes _ P _ (stk_expr _ fT) m r E1 _ _ _ Hrun).
    - cbn [assign_indexes] in Hrun. apply has_enc_inv in HV as (vs & -> & Hs).
      pose proof (has_encs_length P ts vs wc Hs) as Hlen.
      rewrite nthN_spec in Hi. destruct (nth_error_same_length ts vs _ ti Hlen Hi) as (sub & Hsub).
      destruct (has_encs_nth _ ts vs wc ti sub Hs Hi Hsub) as (wsub & Hes).
      change (sem_read f m (ATup (TTup ts) i :: r) (Sem.VTup vs) en prev) with
        (match nthN vs i with
         | Some sub => sem_read f m r sub en (Sem.RPos i :: prev)
         | None => Sem.Stuck 64 end).
      rewrite nthN_spec, Hsub.
      pose proof (IH sub wsub en E fT (Sem.RPos i :: prev) _ _ _ _ Hes
                    (Forall_nth_error _ _ _ _ (ty_fits_tup P ts Hfit) Hi) Hrel Hrun) as IH2.
      revert IH2. destruct (sem_read f m r sub en (Sem.RPos i :: prev)) as [[path en2]|r2 m2|c2|];
        intro IH2; try exact I; [|exact IH2].
      destruct IH2 as (-> & Hrel2 & p & iws & -> & -> & Hpr). split; [reflexivity|]. split; [exact Hrel2|].
      exists (Sem.RPos i :: p), iws. cbn [rev]. rewrite <- app_assoc.
      split; [reflexivity|]. split; [reflexivity|]. now constructor.
    - cbn [assign_indexes] in Hrun. apply has_enc_inv in HV as (def' & vs & -> & Hd' & Hs).
      assert (def' = def) as -> by congruence.
      pose proof (has_encs_length P _ vs wc Hs) as Hlen.
      rewrite nthN_spec in Htk. destruct (nth_error_same_length _ vs _ tk Hlen Htk) as (sub & Hsub).
      destruct (has_encs_nth _ _ vs wc tk sub Hs Htk Hsub) as (wsub & Hes).
      change (sem_read f m (AFld (TStruct name) fld :: r) (Sem.VTup vs) en prev) with
        (match assocN name (p_structs P) with
         | Some def =>
             match Sem.index_of fld (map fst def) 0 with
             | Some k => match nthN vs k with
                         | Some sub => sem_read f m r sub en (Sem.RPos k :: prev)
                         | None => Sem.Stuck 66 end
             | None => Sem.Stuck 67
             end
         | None => Sem.Stuck 68
         end).
      rewrite Hd, Hk, nthN_spec, Hsub.
      pose proof (IH sub wsub en E fT (Sem.RPos k :: prev) _ _ _ _ Hes
                    (Forall_nth_error _ _ _ _ (ty_fits_struct_def P name def Hfit Hd) Htk) Hrel Hrun) as IH2.
      revert IH2. destruct (sem_read f m r sub en (Sem.RPos k :: prev)) as [[path en2]|r2 m2|c2|];
        intro IH2; try exact I; [|exact IH2].
      destruct IH2 as (-> & Hrel2 & p & iws & -> & -> & Hpr). split; [reflexivity|]. split; [exact Hrel2|].
      exists (Sem.RPos k :: p), iws. cbn [rev]. rewrite <- app_assoc.
      split; [reflexivity|]. split; [reflexivity|]. now apply (PR_fld name def).
  Qed.
  (* PHASE B: reading along the accessors and writing back *)
  Lemma assign_backward_app m items : forall rest value o,
    assign_backward tops m (items ++ rest) value o =
    mbind (assign_backward tops m items value) (fun v' => assign_backward tops m rest v') o.
  Proof.
    induction items as [|[[[before a] n] [iw|]] items IH]; intros rest value o; cbn [app assign_backward].
    - reflexivity.
    - unfold mbind. destruct (array_write tops before a n iw value m o) as [[v' o1]| |]; try reflexivity.
      rewrite IH. reflexivity.
    - unfold mbind. destruct (lift_res (splice before a n value) o) as [[v' o1]| |]; try reflexivity.
      rewrite IH. reflexivity.
  Qed.

  Lemma write_agreesG f g m : forall accs tcur tf, acc_okG f g accs tcur tf ->
    forall path iws, path_rel accs path iws ->
    forall cur coll acc (o : pobs) accessed o1, has_enc P tcur cur coll -> ty_fits P tcur ->
    assign_forward tops P accs coll iws acc o = Ok (accessed, o1) ->
    o1 = o /\ exists items, accessed = items ++ acc /\
    forall nv value, has_enc P tf nv value ->
      exists whole wv, Sem.write_path cur path nv = Some whole /\ has_enc P tcur whole wv /\
        forall o2, assign_backward tops m items value o2 = Ok (wv, o2).
  Proof.
    induction 1 as [t|ie r el n b tf IHie Eti Hb Hn _ IH|i r ts ti tf Hi _ IH|fld r name def k tk tf Hd Hk Htk _ IH];
      intros path iws Hpr cur coll acc o accessed o1 HV Hfit Hrun.
    - inversion Hpr; subst. cbn [assign_forward] in Hrun. apply ret_inv in Hrun. destruct Hrun as [-> ->].
      split; [reflexivity|]. exists []. split; [reflexivity|]. intros nv value Hnv.
      exists nv, value. cbn [Sem.write_path assign_backward]. auto.
    - inversion Hpr as [|el' n' ie' r' p iw iws' Hliw Hlt Hpr'| |]; subst.
      cbn [assign_forward array_size] in Hrun.
      minva Hrun as [eb0 ne] o0 H0. apply lift_res_inv in H0. destruct H0 as [H0 ->]. injection H0 as <- <-.
      minva Hrun as arr' o2 H2.
      apply N.ltb_lt in Hn.
      pose proof HV as HV'. apply has_enc_inv in HV' as (vs & -> & _ & _).
      destruct (has_enc_array_elems P el n vs coll HV Hfit) as (elems & -> & Hf2 & Hall & Hle & Hlv & _).
      assert (Hlvs : length vs = N.to_nat n) by (unfold lenN in Hlv; lia).
      rewrite (tsem_index_layers_in_bounds_all iw elems (szn P el) o (repeat true (szn P el))) in H2;
        try assumption; try (unfold lenN; rewrite ?Hliw, ?Hle; unfold USZ; lia).
      injection H2 as <- <-.
      set (kk := N.to_nat (bits_to_N iw)) in *.
      assert (Hkk : (kk < length vs)%nat) by (unfold kk; lia).
      destruct (nth_error vs kk) as [sub|] eqn:Ev; [|apply nth_error_None in Ev; lia].
      pose proof (F2_has_enc_nth P el vs elems kk sub (repeat true (szn P el)) Hf2 Ev) as Hsub.
      pose proof (ty_fits_arr P el n Hfit) as Hfel.
      pose proof (has_enc_length P el sub _ Hsub Hfel) as Hlsub.
      assert (Hne : match nth kk elems (repeat true (szn P el)) with
                    | [] => repeat (wF tops) (szn P el)
                    | _ :: _ => nth kk elems (repeat true (szn P el)) end
                    = nth kk elems (repeat true (szn P el))).
      { destruct (nth kk elems (repeat true (szn P el))); [cbn [length] in Hlsub; rewrite <- Hlsub; reflexivity|reflexivity]. }
      rewrite Hne in Hrun.
      destruct (IH p iws' Hpr' sub _ _ _ _ _ Hsub Hfel Hrun) as (-> & items & -> & Hback).
      split; [reflexivity|].
      exists (items ++ [(concat elems, szn P el, N.to_nat n, Some iw)]). split; [now rewrite <- app_assoc|].
      intros nv value Hnv. destruct (Hback nv value Hnv) as (sub' & wv' & Hwp & Hsub' & Hb').
      pose proof (set_nth_val_some vs kk sub' sub Ev) as Hset.
      exists (Sem.VArr (firstn kk vs ++ sub' :: skipn (S kk) vs)),
             (concat (list_set elems kk wv')).
      split; [|split].
      + cbn [Sem.write_path]. rewrite nthN_spec. fold kk. now rewrite Ev, Hwp, Hset.
      + apply has_enc_arr_iff. split.
        * unfold lenN. rewrite (set_nth_val_length _ _ _ _ Hset). lia.
        * eexists. split; [|reflexivity]. exact (F2_has_enc_list_set P el vs elems kk sub' wv' _ Hf2 Hsub' Hset).
      + intro o2. rewrite assign_backward_app. unfold mbind at 1. rewrite Hb'.
        cbn [assign_backward]. rewrite <- Hle. unfold mbind.
        rewrite (tsem_array_write_all elems iw wv' (szn P el) m o2); try assumption;
          try (unfold lenN; rewrite ?Hliw, ?Hle; unfold USZ; lia).
        2:{ exact (has_enc_length P el sub' wv' Hsub' Hfel). }
        fold kk. unfold ret.
        destruct (N.leb_spec (lenN elems) (bits_to_N iw)) as [Hc|_]; [unfold lenN in Hc; lia|].
        now rewrite push_spec_false.
    - inversion Hpr as [| |tty i' r' p iws' Hpr'|]; subst.
      cbn [assign_forward] in Hrun.
      minva Hrun as [wb wi] o0 H0. apply lift_res_inv in H0. destruct H0 as [Hoff ->].
      minva Hrun as coll' o2 H2. apply lift_res_inv in H2. destruct H2 as [Hsl ->].
      pose proof HV as HV'. apply has_enc_inv in HV' as (vs & -> & Hs).
      pose proof (has_encs_length P ts vs coll Hs) as Hlen.
      pose proof Hi as Hi'. rewrite nthN_spec in Hi'.
      destruct (nth_error_same_length ts vs _ ti Hlen Hi') as (sub & Hsub).
      pose proof Hsub as Hsub'. rewrite <- nthN_spec in Hsub'.
      destruct (has_enc_tuple_proj P ts vs coll i wb wi ti sub HV Hfit Hoff Hi Hsub') as (wx & Hwx & Hex).
      assert (wx = coll') as -> by congruence.
      pose proof (Forall_nth_error _ _ _ _ (ty_fits_tup P ts Hfit) Hi') as Hfti.
      destruct (IH p iws Hpr' sub _ _ _ _ _ Hex Hfti Hrun) as (-> & items & -> & Hback).
      split; [reflexivity|].
      exists (items ++ [(coll, wb, wi, None)]). split; [now rewrite <- app_assoc|].
      intros nv value Hnv. destruct (Hback nv value Hnv) as (sub' & wv' & Hwp & Hsubenc & Hb').
      pose proof (set_nth_val_some vs (N.to_nat i) sub' sub Hsub) as Hset.
      destruct (has_enc_tuple_update P ts vs coll i wb wi ti sub' wv' _ HV Hfit Hoff Hi Hsubenc Hset) as (w' & Hsp & Hw').
      exists (Sem.VTup (firstn (N.to_nat i) vs ++ sub' :: skipn (S (N.to_nat i)) vs)), w'.
      split; [|split; [exact Hw'|]].
      + cbn [Sem.write_path]. now rewrite Hsub', Hwp, Hset.
      + intro o2. rewrite assign_backward_app. unfold mbind at 1. rewrite Hb'.
        cbn [assign_backward]. unfold mbind. now rewrite Hsp.
    - inversion Hpr as [| | |name' def' fld' k' r' p iws' Hd' Hk' Hpr']; subst.
      assert (def' = def) as -> by congruence. assert (k' = k) as -> by congruence.
      cbn [assign_forward] in Hrun.
      minva Hrun as [wb wi] o0 H0. apply lift_res_inv in H0. destruct H0 as [Hoff ->].
      minva Hrun as coll' o2 H2. apply lift_res_inv in H2. destruct H2 as [Hsl ->].
      pose proof HV as HV'. apply has_enc_inv in HV' as (def' & vs & -> & Hd'' & Hs).
      assert (def' = def) as -> by congruence.
      pose proof (has_encs_length P _ vs coll Hs) as Hlen.
      pose proof Htk as Htk'. rewrite nthN_spec in Htk'.
      destruct (nth_error_same_length _ vs _ tk Hlen Htk') as (sub & Hsub).
      pose proof Hsub as Hsub'. rewrite <- nthN_spec in Hsub'.
      destruct (has_enc_struct_proj P name def vs coll fld wb wi k sub HV Hfit Hd Hoff Hk Hsub')
        as (ti & wx & Hti & Hwx & Hex).
      assert (ti = tk) as -> by congruence. assert (wx = coll') as -> by congruence.
      pose proof (Forall_nth_error _ _ _ _ (ty_fits_struct_def P name def Hfit Hd) Htk') as Hftk.
      destruct (IH p iws Hpr' sub _ _ _ _ _ Hex Hftk Hrun) as (-> & items & -> & Hback).
      split; [reflexivity|].
      exists (items ++ [(coll, wb, wi, None)]). split; [now rewrite <- app_assoc|].
      intros nv value Hnv. destruct (Hback nv value Hnv) as (sub' & wv' & Hwp & Hsubenc & Hb').
      pose proof (set_nth_val_some vs (N.to_nat k) sub' sub Hsub) as Hset.
      destruct (has_enc_struct_update P name def vs coll fld wb wi k sub' wv' _ tk HV Hfit Hd Hoff Hk Htk Hsubenc Hset)
        as (w' & Hsp & Hw').
      exists (Sem.VTup (firstn (N.to_nat k) vs ++ sub' :: skipn (S (N.to_nat k)) vs)), w'.
      split; [|split; [exact Hw'|]].
      + cbn [Sem.write_path]. now rewrite Hsub', Hwp, Hset.
      + intro o2. rewrite assign_backward_app. unfold mbind at 1. rewrite Hb'.
        cbn [assign_backward]. unfold mbind. now rewrite Hsp.
  Qed.

  Lemma assign_acc_nodeG f g x accs e m tx mu :
    AgEG f g e -> tlookup g x = Some (tx, mu) -> assignable g x tx -> acc_okG f g accs tx (e_ty e) ->
    AgSG (S f) g g unit_ty (St (SAssign x accs e) m).
  Proof.
    intros IH Hlk Hmu Hacc s en E fT w E' o' Hrel Hrun. destruct fT as [|fT]; [discriminate Hrun|].
    rewrite lower_stmt_S in Hrun. cbn [lower_stmt_body] in Hrun.
    minva Hrun as [value E1] o1 He.
    minva Hrun as [idxs E2] o2 H2.
    minva Hrun as coll o3 H3.
    minva Hrun as accessed o4 H4.
    minva Hrun as value' o5 H5.
    minva Hrun as E3 o6 H6. apply lift_res_inv in H6. destruct H6 as [Ha ->].
    apply ret_inv in Hrun. destruct Hrun as [Heq ->]. injection Heq as -> ->.
    assert (Hstk : forall x0, o2 = Some x0 -> o5 = Some x0).
    { intros x0 ->. assert (o3 = Some x0) as ->.
      { destruct (env_get E2 x); [apply ret_inv in H3; now destruct H3|discriminate H3]. }
      pose proof (stkx_assign_forward _ P accs coll idxs [] _ _ H4) as ->.
      exact (stkx_assign_backward _ m accessed value _ _ H5). }
    rewrite sem_exec_assign. pose proof (IH (inner R s) en E fT _ _ _ Hrel He) as IH1. revert IH1.
    destruct (Sem.eval f P en e) as [[nv en0]|r1 m1|c1|]; intro IH1; cbn [Sem.obind]; try exact I.
    2:{ subst o1. apply Hstk. exact (stkx_assign_indexes _ P _ (stk_expr _ fT) m accs E1 _ _ _ H2). }
    destruct IH1 as (-> & [HVnv Hfnv] & Hrel1).
    destruct (nr_lookup R _ _ _ _ _ _ _ Hrel1 Hlk) as (cur & w0 & Hcur & _ & [HVcur Hfcur]). rewrite Hcur.
    pose proof (read_agreesG f g m accs tx (e_ty e) Hacc cur w0 en0 E1 fT [] [] _ _ _ HVcur Hfcur Hrel1 H2) as IH2.
    revert IH2. destruct (sem_read f m accs cur en0 []) as [[path en2]|r2 m2|c2|]; intro IH2; cbn [Sem.obind]; try exact I.
    2:{ now apply Hstk. }
    destruct IH2 as (-> & Hrel2 & p & iws & -> & -> & Hpr). cbn [rev app] in *.
    destruct (nr_lookup R _ _ _ _ _ _ _ Hrel2 Hlk) as (cur2 & coll2 & Hcur2 & Hcoll2 & [HVcur2 _]). rewrite Hcur2.
    rewrite Hcoll2 in H3. apply ret_inv in H3. destruct H3 as [-> ->].
    destruct (write_agreesG f g m accs tx (e_ty e) Hacc p iws Hpr cur2 coll2 [] None _ _ HVcur2 Hfcur H4)
      as (-> & items & -> & Hback).
    destruct (Hback nv value HVnv) as (whole & wv & Hwp & Hwhole & Hb). rewrite Hwp.
    rewrite app_nil_r, Hb in H5. injection H5 as <- <-.
    destruct (Hmu _ _ _ whole wv _ Hrel2 (conj Hwhole Hfcur) Ha) as (en3 & -> & Hrel3).
    split; [reflexivity|]. split; [exact VRa_unit|exact Hrel3].
  Qed.
  (* ---------------------------------------------------------------- 6. for loops over an
     array value: one scope per iteration *)

  Definition sem_for (f : nat) (p : pattern) (body : list stmt)
    : list Sem.value -> Sem.env -> Sem.outcome Sem.env :=
    fix go (vs : list Sem.value) (en : Sem.env) : Sem.outcome Sem.env :=
      match vs with
      | [] => Sem.Done en
      | v :: r =>
          match Sem.pmatch P p v with
          | Some bs =>
              Sem.obind (Sem.exec_block f P (Sem.bind_all (Sem.push_scope en) bs) body)
                (fun '(_, en1) => go r (Sem.pop_scope en1))
          | None => Sem.Stuck 73
          end
      end.

  Lemma sem_exec_for f en p arr body m :
    Sem.exec (S f) P en (St (SFor p arr body) m) =
    Sem.obind (Sem.eval f P en arr) (fun '(va, en1) =>
      match va with
      | Sem.VArr vs => Sem.obind (sem_for f p body vs en1) (fun en2 => Sem.Done (Sem.unit_val, en2))
      | _ => Sem.Stuck 74
      end).
  Proof. reflexivity. Qed.

  (* [lower_stmts] is [block_stmts] without the value *)
  Lemma lower_stmts_block (rs : stmt -> @cenv bool -> MB (list bool * @cenv bool)) :
    forall ss lw E (o : pobs) E' o', lower_stmts rs ss E o = Ok (E', o') ->
    exists w, block_stmts rs ss lw E o = Ok ((w, E'), o').
  Proof.
    induction ss as [|s r IH]; intros lw E o E' o' H; cbn [lower_stmts block_stmts] in *.
    - apply ret_inv in H. destruct H as [-> ->]. exists lw. reflexivity.
    - unfold mbind in *. destruct (rs s E o) as [[[w1 E1] o1]| |]; try discriminate H.
      exact (IH w1 E1 o1 E' o' H).
  Qed.


  (* ---------------------------------------------------------------- 8a. enum literals *)

  Lemma sem_eval_enumlit f en ename variant args m t :
    Sem.eval (S f) P en (Ex (EEnumLit ename variant args) m t) =
    Sem.obind (sem_eval_list f args en) (fun '(vs, en1) => Sem.Done (Sem.VEnum variant vs, en1)).
  Proof. reflexivity. Qed.

  Lemma enumlit_nodeG f g ename variant args m t variants ts :
    Forall (AgEG f g) args -> assocN ename (p_enums P) = Some variants ->
    nthN variants variant = Some ts -> map e_ty args = ts -> t = TEnum ename -> ty_fits P t ->
    AgEG (S f) g (Ex (EEnumLit ename variant args) m t).
  Proof.
    intros Hes Hd Hv Hty Et Hfit s en E fT w E' o' Hrel Hrun.
    destruct fT as [|fT]; [discriminate Hrun|]. rewrite lower_expr_S in Hrun. cbn [lower_expr_body] in Hrun.
    rewrite Hd in Hrun. minva Hrun as [ws E1] o1 H1.
    rewrite sem_eval_enumlit. pose proof (list_agreesG f g args Hes en E fT _ _ _ Hrel H1) as IH1. revert IH1.
    destruct (sem_eval_list f args en) as [[vs en1]|r1 m1|c1|]; intro IH1; cbn [Sem.obind]; try exact I.
    - destruct IH1 as (-> & HVs & Hrel1). rewrite Hty in HVs. apply F3_VRa_enc in HVs. subst t.
      destruct (has_enc_enum_lit P ename variants variant ts vs ws Hfit Hd Hv HVs) as [Hfits Henc].
      cbv zeta in Hrun. rewrite Hfits in Hrun.
      apply ret_inv in Hrun. destruct Hrun as [Heq ->]. injection Heq as -> ->.
      cbn [e_ty]. split; [reflexivity|]. split; [split; [exact Henc|exact Hfit]|exact Hrel1].
    - subst o1. cbv zeta in Hrun. destruct (_ <=? _)%nat; [|discriminate Hrun].
      apply ret_inv in Hrun. now destruct Hrun as [_ ->].
  Qed.
  (* ---------------------------------------------------------------- 7. irrefutable patterns:
     identifiers, tuples, structs (nested); `let p = e`

     Struct patterns: Sem.pmatch walks the fields of the PATTERN in their order, Lower's
     [struct_match] the fields of the DEFINITION in theirs (looking each up in the pattern).
     The lemma is for patterns that name fields in definition order, each at most once
     ([fields_ok]; the definition has distinct field names); see [StructPatternOrder] at the
     end of the file for what happens otherwise. *)

  Definition sem_match_list : list pattern -> list Sem.value -> option (list (N * Sem.value)) :=
    fix go (ps : list pattern) (vs : list Sem.value) : option (list (N * Sem.value)) :=
      match ps, vs with
      | [], [] => Some []
      | p :: pr, v :: vr =>
          match Sem.pmatch P p v, go pr vr with
          | Some a, Some b => Some (a ++ b)
          | _, _ => None
          end
      | _, _ => None
      end.

  Definition sem_match_fields (def : list (N * ty)) (vs : list Sem.value)
    : list (N * pattern) -> option (list (N * Sem.value)) :=
    fix go (fs : list (N * pattern)) : option (list (N * Sem.value)) :=
      match fs with
      | [] => Some []
      | (fname, fp) :: r =>
          match Sem.index_of fname (map fst def) 0 with
          | Some k =>
              match nthN vs k with
              | Some fv =>
                  match Sem.pmatch P fp fv, go r with
                  | Some a, Some b => Some (a ++ b)
                  | _, _ => None
                  end
              | None => None
              end
          | None => None
          end
      end.

  Lemma pmatch_id x m t v : Sem.pmatch P (Pat (PId x) m t) v = Some [(x, v)].
  Proof. destruct v; reflexivity. Qed.

  Lemma pmatch_tup ps m t vs : Sem.pmatch P (Pat (PTup ps) m t) (Sem.VTup vs) = sem_match_list ps vs.
  Proof. reflexivity. Qed.

  Lemma pmatch_struct name ig fields m t vs :
    Sem.pmatch P (Pat (PStruct name ig fields) m t) (Sem.VTup vs) =
    match assocN name (p_structs P) with
    | Some def => sem_match_fields def vs fields
    | None => None
    end.
  Proof. reflexivity. Qed.

  Inductive pat_ok : pattern -> ty -> list (N * ty) -> Prop :=
  | PO_id x m t : pat_ok (Pat (PId x) m t) t [(x, t)]
  | PO_tup ps m ts bs : pats_ok ps ts bs -> pat_ok (Pat (PTup ps) m (TTup ts)) (TTup ts) bs
  | PO_struct name ig fields m def bs : assocN name (p_structs P) = Some def ->
      NoDup (map fst def) -> fields_ok fields def bs ->
      pat_ok (Pat (PStruct name ig fields) m (TStruct name)) (TStruct name) bs
  with pats_ok : list pattern -> list ty -> list (N * ty) -> Prop :=
  | POs_nil : pats_ok [] [] []
  | POs_cons p t ps ts b bs : p_ty p = t -> pat_ok p t b -> pats_ok ps ts bs ->
      pats_ok (p :: ps) (t :: ts) (b ++ bs)
  (* the named fields, in the order of (the rest of) the definition *)
  with fields_ok : list (N * pattern) -> list (N * ty) -> list (N * ty) -> Prop :=
  | FO_nil : fields_ok [] [] []
  | FO_take fn fp fr fty r b bs : pat_ok fp fty b -> fields_ok fr r bs ->
      fields_ok ((fn, fp) :: fr) ((fn, fty) :: r) (b ++ bs)
  | FO_skip fs fn fty r bs : ~ In fn (map fst fs) -> fields_ok fs r bs ->
      fields_ok fs ((fn, fty) :: r) bs.

  Scheme pat_ok_mut := Minimality for pat_ok Sort Prop
    with pats_ok_mut := Minimality for pats_ok Sort Prop
    with fields_ok_mut := Minimality for fields_ok Sort Prop.
  Combined Scheme pat_ok_mutind from pat_ok_mut, pats_ok_mut, fields_ok_mut.

  Lemma sem_bind_all_app en a b : Sem.bind_all en (a ++ b) = Sem.bind_all (Sem.bind_all en a) b.
  Proof. unfold Sem.bind_all. apply fold_left_app. Qed.

  Lemma tbind_all_app g a b mu : tbind_all g (a ++ b) mu = tbind_all (tbind_all g a mu) b mu.
  Proof. unfold tbind_all. apply fold_left_app. Qed.

  Lemma index_of_nth : forall l j fn i0, NoDup l -> nth_error l j = Some fn ->
    Sem.index_of fn l i0 = Some (i0 + N.of_nat j).
  Proof.
    induction l as [|y l IH]; intros [|j] fn i0 Hnd Hj; cbn [nth_error] in Hj; try discriminate;
      cbn [Sem.index_of]; inversion Hnd as [|y' l' Hnotin Hnd']; subst.
    - injection Hj as ->. rewrite N.eqb_refl. f_equal. lia.
    - destruct (N.eqb_spec fn y) as [->|_]; [exfalso; apply Hnotin; eapply nth_error_In; exact Hj|].
      rewrite (IH j fn (i0 + 1) Hnd' Hj). f_equal. lia.
  Qed.

  Lemma NoDup_nth_notin_firstn {A} : forall (l : list A) j a, NoDup l -> nth_error l j = Some a ->
    ~ In a (firstn j l).
  Proof.
    induction l as [|y l IH]; intros [|j] a Hnd Hj; cbn [nth_error firstn] in *; try discriminate; [tauto|].
    inversion Hnd as [|y' l' Hnotin Hnd']; subst. intros [->|Hin].
    - apply Hnotin. eapply nth_error_In. exact Hj.
    - exact (IH j a Hnd' Hj Hin).
  Qed.

  Lemma skipn_cons_nth {A} : forall (l : list A) j a r, skipn j l = a :: r ->
    nth_error l j = Some a /\ skipn (S j) l = r.
  Proof.
    induction l as [|y l IH]; intros [|j] a r H; cbn [skipn] in H; try discriminate.
    - injection H as -> ->. split; reflexivity.
    - exact (IH j a r H).
  Qed.

  Lemma firstn_S_nth {A} : forall (l : list A) j a, nth_error l j = Some a ->
    firstn (S j) l = firstn j l ++ [a].
  Proof.
    induction l as [|y l IH]; intros [|j] a H; cbn [nth_error] in H; try discriminate.
    - now injection H as ->.
    - cbn [firstn app]. f_equal. exact (IH j a H).
  Qed.

  Lemma fields_ok_names fs ds bs : fields_ok fs ds bs -> forall fn, In fn (map fst fs) -> In fn (map fst ds).
  Proof.
    induction 1 as [|fn' fp fr fty r b bs _ _ IH|fs fn' fty r bs _ _ IH]; intros fn Hin; cbn [map fst In] in *.
    - contradiction.
    - destruct Hin as [->|Hin]; [now left|right; now apply IH].
    - right. now apply IH.
  Qed.

  Lemma fields_ok_nodup fs ds bs : fields_ok fs ds bs -> NoDup (map fst ds) -> NoDup (map fst fs).
  Proof.
    induction 1 as [|fn fp fr fty r b bs _ Hfo IH|fs fn fty r bs _ _ IH]; intro Hnd; cbn [map fst] in *.
    - constructor.
    - inversion Hnd as [|y l Hn Hnd']; subst. constructor; [|now apply IH].
      intro Hin. apply Hn. exact (fields_ok_names _ _ _ Hfo fn Hin).
    - inversion Hnd as [|y l Hn Hnd']; subst. now apply IH.
  Qed.

  (* an irrefutable pattern at the type [t]: it matches every value and binds [bs] *)
  Definition pat_binds (p : pattern) (t : ty) (bs : list (N * ty)) : Prop :=
    forall s v mw en E g fT c E' (o : pobs) o', has_enc P t v mw -> ty_fits P t -> rel R (inner R s) en E g ->
    lower_pattern tops fT P p mw E o = Ok ((c, E'), o') ->
    exists vbs, Sem.pmatch P p v = Some vbs /\ c = true /\ o' = o /\
                rel R (inner R s) (Sem.bind_all en vbs) E' (tbind_all g bs false).

  Lemma id_pat_binds x m tp t : pat_binds (Pat (PId x) m tp) t [(x, t)].
  Proof.
    intros s v mw en E g fT c E' o o' HV Hfit Hrel Hrun.
    destruct fT as [|fT]; [discriminate Hrun|]. rewrite lower_pattern_S in Hrun. cbn [lower_pattern_body] in Hrun.
    minva Hrun as E1 o1 Hl. apply lift_res_inv in Hl. destruct Hl as [Hl ->].
    apply ret_inv in Hrun. destruct Hrun as [Heq ->]. injection Heq as -> ->.
    exists [(x, v)]. rewrite pmatch_id. repeat split.
    exact (nr_let R _ _ _ _ x t false v mw _ Hrel (conj HV Hfit) Hl).
  Qed.

  Lemma pat_agrees_mutG {s} :
    (forall p t bs, pat_ok p t bs ->
       forall v mw en E g fT c E' (o : pobs) o', has_enc P t v mw -> ty_fits P t -> rel R (inner R s) en E g ->
       lower_pattern tops fT P p mw E o = Ok ((c, E'), o') ->
       exists vbs, Sem.pmatch P p v = Some vbs /\ c = true /\ o' = o /\
                   rel R (inner R s) (Sem.bind_all en vbs) E' (tbind_all g bs false)) /\
    (forall ps ts bs, pats_ok ps ts bs ->
       forall vs mw off en E g fT im c E' (o : pobs) o', enc_at P ts vs mw off -> Forall (ty_fits P) ts ->
       rel R (inner R s) en E g ->
       fields_match tops (lower_pattern tops fT P) mw (map (fun fp => (fp, szn P (p_ty fp))) ps) off im E o
         = Ok ((c, E'), o') ->
       exists vbs, sem_match_list ps vs = Some vbs /\ c = im /\ o' = o /\
                   rel R (inner R s) (Sem.bind_all en vbs) E' (tbind_all g bs false)) /\
    (forall fs ds bs, fields_ok fs ds bs ->
       forall def vs mw fields_all j consumed en E g fT im c E' (o : pobs) o',
       has_encs P (map snd def) vs mw -> Forall (ty_fits P) (map snd def) -> NoDup (map fst def) ->
       NoDup (map fst fields_all) ->
       ds = skipn j def -> fields_all = consumed ++ fs ->
       (forall fn, In fn (map fst consumed) -> In fn (firstn j (map fst def))) ->
       rel R (inner R s) en E g ->
       struct_match tops P (lower_pattern tops fT P) mw fields_all ds
         (sum_szn P (firstn j (map snd def))) im E o = Ok ((c, E'), o') ->
       exists vbs, sem_match_fields def vs fs = Some vbs /\ c = im /\ o' = o /\
                   rel R (inner R s) (Sem.bind_all en vbs) E' (tbind_all g bs false)).
  Proof.
    apply pat_ok_mutind.
    - (* identifier *)
      intros x m t. exact (id_pat_binds x m t t s).
    - (* tuple *)
      intros ps m ts bs _ IH v mw en E g fT c E' o o' HV Hfit Hrel Hrun.
      destruct fT as [|fT]; [discriminate Hrun|]. rewrite lower_pattern_S in Hrun. cbn [lower_pattern_body] in Hrun.
      pose proof HV as HV'. apply has_enc_inv in HV' as (vs & -> & _).
      destruct (IH vs mw O en E g fT true c E' o o' (has_enc_tuple_fields P ts vs mw HV Hfit)
                  (ty_fits_tup P ts Hfit) Hrel Hrun) as (vbs & Hm & -> & -> & Hr).
      exists vbs. rewrite pmatch_tup. auto.
    - (* struct *)
      intros name ig fields m def bs Hd Hnd Hfo IH v mw en E g fT c E' o o' HV Hfit Hrel Hrun.
      destruct fT as [|fT]; [discriminate Hrun|]. rewrite lower_pattern_S in Hrun. cbn [lower_pattern_body] in Hrun.
      rewrite Hd in Hrun.
      pose proof HV as HV'. apply has_enc_inv in HV' as (def' & vs & -> & Hd' & Hs).
      assert (def' = def) as -> by congruence.
      pose proof (fields_ok_nodup _ _ _ Hfo Hnd) as Hndf.
      destruct (IH def vs mw fields O [] en E g fT true c E' o o' Hs (ty_fits_struct_def P name def Hfit Hd) Hnd Hndf
                  eq_refl eq_refl (fun fn Hin => match Hin with end) Hrel Hrun) as (vbs & Hm & -> & -> & Hr).
      exists vbs. rewrite pmatch_struct, Hd. auto.
    - (* no sub-patterns *)
      intros vs mw off en E g fT im c E' o o' Hat _ Hrel Hrun. cbn [map fields_match] in Hrun.
      apply ret_inv in Hrun. destruct Hrun as [Heq ->]. injection Heq as -> ->.
      destruct vs; [|contradiction Hat]. exists []. cbn [sem_match_list]. auto.
    - (* a sub-pattern *)
      intros p t ps ts b bs Ept _ IH1 _ IH2 vs mw off en E g fT im c E' o o' Hat Hfits Hrel Hrun.
      destruct vs as [|v vs]; [contradiction Hat|]. cbn [enc_at] in Hat. destruct Hat as [(wi & Hsl & Hv) Hat].
      inversion Hfits as [|t' ts' Hft Hfts]. subst t' ts'.
      cbn [map fields_match] in Hrun. rewrite Ept in Hrun.
      minva Hrun as sub o1 H1. apply lift_res_inv in H1. destruct H1 as [H1 ->].
      assert (sub = wi) as -> by congruence.
      minva Hrun as [fm E1] o1 H2.
      destruct (IH1 v wi en E g fT fm E1 o o1 Hv Hft Hrel H2) as (vb & Hm1 & -> & -> & Hr1).
      mprim Hrun. rewrite andb_true_r in Hrun.
      destruct (IH2 vs mw _ _ E1 _ fT im c E' o o' Hat Hfts Hr1 Hrun) as (vbs & Hm2 & -> & -> & Hr2).
      exists (vb ++ vbs). cbn [sem_match_list]. rewrite Hm1, Hm2.
      rewrite sem_bind_all_app, tbind_all_app. auto.
    - (* struct: the definition is exhausted *)
      intros def vs mw fields_all j consumed en E g fT im c E' o o' _ _ _ _ _ _ _ Hrel Hrun.
      cbn [struct_match] in Hrun. apply ret_inv in Hrun. destruct Hrun as [Heq ->]. injection Heq as -> ->.
      exists []. cbn [sem_match_fields]. auto.
    - (* struct: a named field *)
      intros fn fp fr fty r b bs _ IH1 _ IH2 def vs mw fields_all j consumed en E g fT im c E' o o'
        Hs Hfits Hnd Hndf Hds Hall Hcons Hrel Hrun.
      symmetry in Hds. apply skipn_cons_nth in Hds. destruct Hds as [Hj Hr].
      assert (Hjn : nth_error (map fst def) j = Some fn) by (rewrite nth_error_map, Hj; reflexivity).
      assert (Hjt : nth_error (map snd def) j = Some fty) by (rewrite nth_error_map, Hj; reflexivity).
      pose proof (NoDup_nth_notin_firstn _ j fn Hnd Hjn) as Hnotin.
      cbn [struct_match] in Hrun.
      assert (Hlook : assocN fn (rev fields_all) = Some fp).
      { rewrite assocN_rev_nodup by exact Hndf. rewrite Hall, assocN_app.
        rewrite assocN_none_notin by (intro Hin; apply Hnotin, Hcons, Hin).
        cbn [assocN]. now rewrite N.eqb_refl. }
      rewrite Hlook in Hrun.
      pose proof (has_encs_length P _ vs mw Hs) as Hlen.
      destruct (nth_error_same_length _ vs _ fty Hlen Hjt) as (vj & Hvj).
      destruct (has_encs_proj P j _ vs mw fty vj Hs Hfits Hjt Hvj) as (wj & Hsl & Hej).
      minva Hrun as sub o1 H1. apply lift_res_inv in H1. destruct H1 as [H1 ->].
      assert (sub = wj) as -> by congruence.
      minva Hrun as [fm E1] o1 H2.
      destruct (IH1 vj wj en E g fT fm E1 o o1 Hej (Forall_nth_error _ _ _ _ Hfits Hjt) Hrel H2)
        as (vb & Hm1 & -> & -> & Hr1).
      mprim Hrun. rewrite andb_true_r in Hrun.
      assert (Hsum : (sum_szn P (firstn j (map snd def)) + szn P fty)%nat = sum_szn P (firstn (S j) (map snd def))).
      { rewrite (firstn_S_nth _ j fty Hjt), sum_szn_app. unfold sum_szn at 3. cbn [map list_sum fold_right]. lia. }
      rewrite Hsum in Hrun.
      destruct (IH2 def vs mw fields_all (S j) (consumed ++ [(fn, fp)]) (Sem.bind_all en vb) E1 (tbind_all g b false)
                  fT im c E' o o' Hs Hfits Hnd Hndf
                  (eq_sym Hr)) as (vbs & Hm2 & -> & -> & Hr2); try assumption.
      + now rewrite Hall, <- app_assoc.
      + intros fn' Hin. rewrite map_app, in_app_iff in Hin. rewrite (firstn_S_nth _ j fn Hjn), in_app_iff.
        destruct Hin as [Hin|[<-|[]]]; [left; now apply Hcons|right; now left].
      + exists (vb ++ vbs). cbn [sem_match_fields].
        rewrite (index_of_nth _ j fn 0 Hnd Hjn), N.add_0_l, nthN_spec, Nat2N.id, Hvj, Hm1, Hm2.
        rewrite sem_bind_all_app, tbind_all_app. auto.
    - (* struct: a field the pattern does not name *)
      intros fs fn fty r bs Hnotfs _ IH def vs mw fields_all j consumed en E g fT im c E' o o'
        Hs Hfits Hnd Hndf Hds Hall Hcons Hrel Hrun.
      symmetry in Hds. apply skipn_cons_nth in Hds. destruct Hds as [Hj Hr].
      assert (Hjn : nth_error (map fst def) j = Some fn) by (rewrite nth_error_map, Hj; reflexivity).
      assert (Hjt : nth_error (map snd def) j = Some fty) by (rewrite nth_error_map, Hj; reflexivity).
      pose proof (NoDup_nth_notin_firstn _ j fn Hnd Hjn) as Hnotin.
      cbn [struct_match] in Hrun.
      assert (Hlook : assocN fn (rev fields_all) = None).
      { rewrite assocN_rev_nodup by exact Hndf. apply assocN_none_notin. rewrite Hall, map_app, in_app_iff.
        intros [Hin|Hin]; [apply Hnotin, Hcons, Hin|exact (Hnotfs Hin)]. }
      rewrite Hlook in Hrun.
      assert (Hsum : (sum_szn P (firstn j (map snd def)) + szn P fty)%nat = sum_szn P (firstn (S j) (map snd def))).
      { rewrite (firstn_S_nth _ j fty Hjt), sum_szn_app. unfold sum_szn at 3. cbn [map list_sum fold_right]. lia. }
      rewrite Hsum in Hrun.
      apply (IH def vs mw fields_all (S j) consumed en E g fT im c E' o o' Hs Hfits Hnd Hndf (eq_sym Hr) Hall);
        try assumption.
      intros fn' Hin. rewrite (firstn_S_nth _ j fn Hjn), in_app_iff. left. now apply Hcons.
  Qed.

  Lemma pat_agreesG p t bs : pat_ok p t bs -> pat_binds p t bs.
  Proof. intros Hp s. exact (proj1 pat_agrees_mutG p t bs Hp). Qed.

  Lemma sem_exec_let f en p e m :
    Sem.exec (S f) P en (St (SLet p e) m) =
    Sem.obind (Sem.eval f P en e) (fun '(v, en1) =>
      match Sem.pmatch P p v with
      | Some bs => Sem.Done (Sem.unit_val, Sem.bind_all en1 bs)
      | None => Sem.Stuck 60
      end).
  Proof. reflexivity. Qed.

  Lemma let_pat_nodeG f g p e m bs :
    AgEG f g e -> pat_binds p (e_ty e) bs ->
    AgSG (S f) g (tbind_all g bs false) unit_ty (St (SLet p e) m).
  Proof.
    intros IH Hp s en E fT w E' o' Hrel Hrun. destruct fT as [|fT]; [discriminate Hrun|].
    rewrite lower_stmt_S in Hrun. cbn [lower_stmt_body] in Hrun.
    minva Hrun as [w1 E1] o1 He. minva Hrun as [c2 E2] o2 Hpat.
    apply ret_inv in Hrun. destruct Hrun as [Heq ->]. injection Heq as -> ->.
    rewrite sem_exec_let. pose proof (IH (inner R s) en E fT _ _ _ Hrel He) as IH1. revert IH1.
    destruct (Sem.eval f P en e) as [[v en1]|r1 m1|c1|]; intro IH1; cbn [Sem.obind]; try exact I.
    - destruct IH1 as (-> & [HV Hfit] & Hrel1).
      destruct (Hp s v w1 en1 E1 g fT _ _ _ _ HV Hfit Hrel1 Hpat) as (vbs & -> & _ & -> & Hr).
      split; [reflexivity|]. split; [exact VRa_unit|exact Hr].
    - subst o1. exact (stk_pat _ fT p w1 E1 _ _ Hpat).
  Qed.
  (* ---------------------------------------------------------------- 6'. the loop, for any
     pattern that [pat_binds] *)

  Lemma tl_tbind_all bs : forall sc g mu, tl (tbind_all (sc :: g) bs mu) = g.
  Proof.
    induction bs as [|[x t] bs IH]; intros sc g mu; [reflexivity|].
    unfold tbind_all in *. cbn [fold_left tbind fst snd]. apply IH.
  Qed.

  Lemma for_iter_agrees_patG {s} f g p bs body el g1 tb :
    pat_binds p el bs ->
    AgSSG f (tbind_all ([] :: g) bs false) body unit_ty g1 tb -> tl g1 = g -> ty_fits P el ->
    forall vs elems, Forall2 (has_enc P el) vs elems ->
    forall en E fT E' o', rel R s en E g ->
    for_iterations (lower_pattern tops fT P) (lower_stmt tops fT P) p body (szn P el)
      (length elems) (concat elems) E None = Ok (E', o') ->
    match sem_for (S f) p body vs en with
    | Sem.Done en' => o' = None /\ rel R s en' E' g
    | Sem.Panicked r m => o' = Some (pcode r m)
    | _ => True
    end.
  Proof.
    intros Hp Hbody Htl Hfel vs elems Hf2. induction Hf2 as [|v e vs elems Hv _ IH]; intros en E fT E' o' Hrel Hrun.
    - cbn [length for_iterations] in Hrun. apply ret_inv in Hrun. destruct Hrun as [-> ->].
      cbn [sem_for]. auto.
    - cbn [length for_iterations concat] in Hrun.
      pose proof (has_enc_length P el v e Hv Hfel) as Hle.
      minva Hrun as binding o0 H0. apply lift_res_inv in H0. destruct H0 as [Hsl ->].
      rewrite <- Hle in Hsl. pose proof (slice_mid [] e (concat elems)) as Hsm. cbn [app length] in Hsm.
      rewrite Hsm in Hsl. injection Hsl as <-. clear Hsm.
      minva Hrun as [c Ea] o1 Hpat.
      destruct (Hp s v e _ _ _ fT _ _ _ _ Hv Hfel (nr_push R _ _ _ _ Hrel) Hpat)
        as (vbs & Hpm & _ & -> & Hrela).
      minva Hrun as Eb ob Hb. minva Hrun as Ec oc Hc. apply lift_res_inv in Hc. destruct Hc as [Hpop ->].
      rewrite <- Hle, (skipn_app_exact e) in Hrun by reflexivity.
      change (sem_for (S f) p body (v :: vs) en) with
        (match Sem.pmatch P p v with
         | Some bs0 =>
             Sem.obind (Sem.exec_block (S f) P (Sem.bind_all (Sem.push_scope en) bs0) body)
               (fun '(_, en1) => sem_for (S f) p body vs (Sem.pop_scope en1))
         | None => Sem.Stuck 73
         end).
      rewrite Hpm, exec_block_stmts.
      destruct (lower_stmts_block _ body [] _ _ _ _ Hb) as (wb & Hb').
      pose proof (SimNodes.stmts_node P VRa R f _ _ _ _ _ Hbody s _ _ fT Sem.unit_val [] _ _ _ Hrela VRa_unit Hb') as IH1.
      revert IH1. destruct (exec_stmts P f body Sem.unit_val (Sem.bind_all (Sem.push_scope en) vbs))
        as [[vb en1]|r1 m1|c1|]; intro IH1; cbn [Sem.obind]; try exact I.
      + destruct IH1 as (-> & _ & Hrel1).
        assert (Hrelc : rel R s (Sem.pop_scope en1) Ec g) by (rewrite <- Htl; eapply nr_pop; [eassumption|eassumption|rewrite Htl; eapply nr_ctx; exact Hrel]).
        rewrite Hle in Hrun. exact (IH _ _ fT _ _ Hrelc Hrun).
      + subst ob.
        exact (stkx_for_iterations _ _ _ (stk_pat _ fT) (stk_stmt _ fT) _ body _ _ _ Ec _ _ Hrun).
  Qed.

  Lemma for_pat_nodeG f g p bs arr body m el n g1 tb :
    AgEG (S f) g arr -> e_ty arr = TArr el n -> pat_binds p el bs ->
    AgSSG f (tbind_all ([] :: g) bs false) body unit_ty g1 tb -> tl g1 = g ->
    AgSG (S (S f)) g g unit_ty (St (SFor p arr body) m).
  Proof.
    intros IHa Eta Hp Hbody Htl s en E fT w E' o' Hrel Hrun. destruct fT as [|fT]; [discriminate Hrun|].
    rewrite lower_stmt_S in Hrun. cbn [lower_stmt_body] in Hrun. rewrite Eta in Hrun. cbn [array_size] in Hrun.
    minva Hrun as [eb0 ne] o0 H0. apply lift_res_inv in H0. destruct H0 as [H0 ->]. injection H0 as <- <-.
    minva Hrun as [aw E1] o1 H1. minva Hrun as E2 o2 H2.
    apply ret_inv in Hrun. destruct Hrun as [Heq ->]. injection Heq as -> ->.
    rewrite sem_exec_for. pose proof (IHa (inner R s) en E fT _ _ _ Hrel H1) as IH1. revert IH1.
    destruct (Sem.eval (S f) P en arr) as [[va en1]|r1 m1|c1|]; intro IH1; cbn [Sem.obind]; try exact I.
    2:{ subst o1. exact (stkx_for_iterations _ _ _ (stk_pat _ fT) (stk_stmt _ fT) _ body _ _ _ E1 _ _ H2). }
    destruct IH1 as (-> & [HVa Hfa] & Hrel1). rewrite Eta in HVa, Hfa.
    pose proof HVa as HVa'. apply has_enc_inv in HVa' as (vs & -> & _ & _).
    destruct (has_enc_array_elems P el n vs aw HVa Hfa) as (elems & -> & Hf2 & _ & Hle & _).
    rewrite <- Hle in H2.
    pose proof (for_iter_agrees_patG f g p bs body el g1 tb Hp Hbody Htl (ty_fits_arr P el n Hfa) vs elems Hf2
                  en1 E1 fT _ _ Hrel1 H2) as IH2. revert IH2.
    destruct (sem_for (S f) p body vs en1) as [en2|r2 m2|c2|]; intro IH2; cbn [Sem.obind];
      try exact I; [|exact IH2].
    destruct IH2 as (-> & Hrel2). split; [reflexivity|]. split; [exact VRa_unit|exact Hrel2].
  Qed.
  (* ---------------------------------------------------------------- 8b. refutable patterns and
     match *)

  (* ---- typed patterns of every kind, with the names they bind *)
  Inductive gpat_ok : pattern -> ty -> list (N * ty) -> Prop :=
  | GP_id x m t : gpat_ok (Pat (PId x) m t) t [(x, t)]
  | GP_true m : gpat_ok (Pat PTrue m TBool) TBool []
  | GP_false m : gpat_ok (Pat PFalse m TBool) TBool []
  | GP_numU n m sg b : Sem.in_range sg b (Z.of_N n) = true ->
      gpat_ok (Pat (PNumU n) m (TInt sg b)) (TInt sg b) []
  | GP_numS z m sg b : Sem.in_range sg b z = true ->
      gpat_ok (Pat (PNumS z) m (TInt sg b)) (TInt sg b) []
  | GP_urange lo hi m sg b : Sem.in_range sg b (Z.of_N lo) = true -> Sem.in_range sg b (Z.of_N hi) = true ->
      gpat_ok (Pat (PURange lo hi) m (TInt sg b)) (TInt sg b) []
  | GP_srange lo hi m sg b : Sem.in_range sg b lo = true -> Sem.in_range sg b hi = true ->
      gpat_ok (Pat (PSRange lo hi) m (TInt sg b)) (TInt sg b) []
  | GP_tup ps m ts bs : gpats_ok ps ts bs -> gpat_ok (Pat (PTup ps) m (TTup ts)) (TTup ts) bs
  | GP_struct name ig fields m def bs : assocN name (p_structs P) = Some def ->
      NoDup (map fst def) -> gfields_ok fields def bs ->
      gpat_ok (Pat (PStruct name ig fields) m (TStruct name)) (TStruct name) bs
  | GP_enum_unit ename variant m variants ts : assocN ename (p_enums P) = Some variants ->
      nthN variants variant = Some ts ->
      gpat_ok (Pat (PEnumUnit ename variant) m (TEnum ename)) (TEnum ename) []
  | GP_enum_tup ename variant ps m variants ts bs : assocN ename (p_enums P) = Some variants ->
      nthN variants variant = Some ts -> gpats_ok ps ts bs ->
      gpat_ok (Pat (PEnumTup ename variant ps) m (TEnum ename)) (TEnum ename) bs
  with gpats_ok : list pattern -> list ty -> list (N * ty) -> Prop :=
  | GPs_nil : gpats_ok [] [] []
  | GPs_cons p t ps ts b bs : p_ty p = t -> gpat_ok p t b -> gpats_ok ps ts bs ->
      gpats_ok (p :: ps) (t :: ts) (b ++ bs)
  with gfields_ok : list (N * pattern) -> list (N * ty) -> list (N * ty) -> Prop :=
  | GF_nil : gfields_ok [] [] []
  | GF_take fn fp fr fty r b bs : gpat_ok fp fty b -> gfields_ok fr r bs ->
      gfields_ok ((fn, fp) :: fr) ((fn, fty) :: r) (b ++ bs)
  | GF_skip fs fn fty r bs : ~ In fn (map fst fs) -> gfields_ok fs r bs ->
      gfields_ok fs ((fn, fty) :: r) bs.

  Scheme gpat_ok_mut := Minimality for gpat_ok Sort Prop
    with gpats_ok_mut := Minimality for gpats_ok Sort Prop
    with gfields_ok_mut := Minimality for gfields_ok Sort Prop.
  Combined Scheme gpat_ok_mutind from gpat_ok_mut, gpats_ok_mut, gfields_ok_mut.

  Lemma gfields_ok_names fs ds bs : gfields_ok fs ds bs -> forall fn, In fn (map fst fs) -> In fn (map fst ds).
  Proof.
    induction 1 as [|fn' fp fr fty r b bs _ _ IH|fs fn' fty r bs _ _ IH]; intros fn Hin; cbn [map fst In] in *.
    - contradiction.
    - destruct Hin as [->|Hin]; [now left|right; now apply IH].
    - right. now apply IH.
  Qed.

  Lemma gfields_ok_nodup fs ds bs : gfields_ok fs ds bs -> NoDup (map fst ds) -> NoDup (map fst fs).
  Proof.
    induction 1 as [|fn fp fr fty r b bs _ Hfo IH|fs fn fty r bs _ _ IH]; intro Hnd; cbn [map fst] in *.
    - constructor.
    - inversion Hnd as [|y l Hn Hnd']; subst. constructor; [|now apply IH].
      intro Hin. apply Hn. exact (gfields_ok_names _ _ _ Hfo fn Hin).
    - inversion Hnd as [|y l Hn Hnd']; subst. now apply IH.
  Qed.

  Lemma gpats_zip_sizes ps ts bs : gpats_ok ps ts bs ->
    zip_sizes P ps ts = map (fun fp => (fp, szn P (p_ty fp))) ps.
  Proof.
    induction 1 as [|p t ps ts b bs Ept _ _ IH]; [reflexivity|]. cbn [zip_sizes map]. now rewrite IH, Ept.
  Qed.

  (* the agreement of a pattern: what the conclusion says *)
  Definition pat_conclG (s : State R) (g : tenv) (bs : list (N * ty)) (en : Sem.env) (E' : @cenv bool) (c : bool)
      (r : option (list (N * Sem.value))) : Prop :=
    match r with
    | Some vbs => c = true /\ rel R (inner R s) (Sem.bind_all en vbs) E' (tbind_all g bs false)
    | None => c = false
    end.

  Lemma int_pat_val sg b v mw : has_enc P (TInt sg b) v mw ->
    exists z, v = Sem.VInt z /\ length mw = szn P (TInt sg b) /\ int_val (is_signed (TInt sg b)) mw = z.
  Proof.
    intro H. apply has_enc_inv in H as (z & -> & Hr & ->). exists z. split; [reflexivity|].
    split; [apply length_enc|]. destruct sg; cbn [is_signed]; apply int_val_enc; now rewrite N2Nat.id.
  Qed.

  Lemma in_range_szn sg b z : Sem.in_range sg b z = true ->
    Sem.in_range (is_signed (TInt sg b)) (N.of_nat (szn P (TInt sg b))) z = true.
  Proof.
    intro H. change (szn P (TInt sg b)) with (N.to_nat b). rewrite N2Nat.id. now destruct sg.
  Qed.

  Hypothesis Hsmall : enums_small P = true.

  Lemma tag_eq_s variants a b ta tb : lenN variants <= 2 ^ 64 ->
    nthN variants a = Some ta -> nthN variants b = Some tb ->
    eq_s (enc (enum_tag_size variants) (Z.of_N a)) (enc (enum_tag_size variants) (Z.of_N b)) = (a =? b).
  Proof.
    intros Hsm Ha Hb. rewrite eq_s_uval by (now rewrite !length_enc). rewrite !uval_enc.
    rewrite !Z.mod_small by (eapply enum_tag_small; eassumption).
    destruct (Z.eqb_spec (Z.of_N a) (Z.of_N b)); destruct (N.eqb_spec a b); try reflexivity; lia.
  Qed.

  Lemma pmatch_enum_unit ename variant m t tag vs :
    Sem.pmatch P (Pat (PEnumUnit ename variant) m t) (Sem.VEnum tag vs) = if tag =? variant then Some [] else None.
  Proof. reflexivity. Qed.

  Lemma pmatch_enum_tup ename variant ps m t tag vs :
    Sem.pmatch P (Pat (PEnumTup ename variant ps) m t) (Sem.VEnum tag vs) =
    if tag =? variant then sem_match_list ps vs else None.
  Proof. reflexivity. Qed.

  (* the tag test shared by the two enum patterns *)
  Lemma enum_tag_test ename variants variant ts tag vs mw (o : pobs) :
    has_enc P (TEnum ename) (Sem.VEnum tag vs) mw -> ty_fits P (TEnum ename) ->
    assocN ename (p_enums P) = Some variants -> nthN variants variant = Some ts ->
    exists tgw, slice mw 0 (enum_tag_size variants) = Ok tgw /\
      eq_acc tops (wT tops) (combine (unsigned_as_wires tops variant (enum_tag_size variants)) tgw) o
        = Ok ((tag =? variant), o).
  Proof.
    intros HV Hfit Hd Hv.
    destruct (has_enc_enum_inv P ename variants tag vs mw HV Hfit Hd) as (ts' & Ht' & Hsl & _).
    eexists. split; [exact Hsl|]. rewrite !TSemControl.tsem_unsigned_as_wires. change (wT tops) with true.
    rewrite eq_acc_eq_s by (now rewrite !length_enc).
    rewrite (tag_eq_s variants variant tag ts ts' (enums_small_variants P ename variants Hsmall Hd) Hv Ht').
    now rewrite N.eqb_sym.
  Qed.

  Lemma gpat_agrees_mutG {s} :
    (forall p t bs, gpat_ok p t bs ->
       forall v mw en E g fT c E' (o : pobs) o', has_enc P t v mw -> ty_fits P t -> rel R (inner R s) en E g ->
       lower_pattern tops fT P p mw E o = Ok ((c, E'), o') ->
       pat_conclG s g bs en E' c (Sem.pmatch P p v)) /\
    (forall ps ts bs, gpats_ok ps ts bs ->
       forall vs mw off en E g fT im c E' (o : pobs) o', enc_at P ts vs mw off -> Forall (ty_fits P) ts ->
       rel R (inner R s) en E g ->
       fields_match tops (lower_pattern tops fT P) mw (map (fun fp => (fp, szn P (p_ty fp))) ps) off im E o
         = Ok ((c, E'), o') ->
       match sem_match_list ps vs with
       | Some vbs => c = im /\ rel R (inner R s) (Sem.bind_all en vbs) E' (tbind_all g bs false)
       | None => c = false
       end) /\
    (* struct fields: [struct_match] walks the rest [ds = skipn j def] of the DEFINITION, at the offset of its
       first j fields, but looks every name up in the WHOLE pattern ([fields_all], reversed), while
       [sem_match_fields] walks the rest [fs] of the pattern.  [consumed] are the pattern fields already matched;
       their names are among the first j of the definition, so (the names of [def] are distinct) a name of [ds]
       can only hit an entry of [fs]. *)
    (forall fs ds bs, gfields_ok fs ds bs ->
       forall def vs mw fields_all j consumed en E g fT im c E' (o : pobs) o',
       has_encs P (map snd def) vs mw -> Forall (ty_fits P) (map snd def) -> NoDup (map fst def) ->
       NoDup (map fst fields_all) ->
       ds = skipn j def -> fields_all = consumed ++ fs ->
       (forall fn, In fn (map fst consumed) -> In fn (firstn j (map fst def))) ->
       rel R (inner R s) en E g ->
       struct_match tops P (lower_pattern tops fT P) mw fields_all ds
         (sum_szn P (firstn j (map snd def))) im E o = Ok ((c, E'), o') ->
       match sem_match_fields def vs fs with
       | Some vbs => c = im /\ rel R (inner R s) (Sem.bind_all en vbs) E' (tbind_all g bs false)
       | None => c = false
       end).
  Proof.
    apply gpat_ok_mutind.
    - (* identifier *)
      intros x m t v mw en E g fT c E' o o' HV Hfit Hrel Hrun.
      destruct fT as [|fT]; [discriminate Hrun|]. rewrite lower_pattern_S in Hrun. cbn [lower_pattern_body] in Hrun.
      minva Hrun as E1 o1 Hl. apply lift_res_inv in Hl. destruct Hl as [Hl ->].
      apply ret_inv in Hrun. destruct Hrun as [Heq ->]. injection Heq as -> ->.
      rewrite pmatch_id. split; [reflexivity|].
      exact (nr_let R _ _ _ _ x t false v mw _ Hrel (conj HV Hfit) Hl).
    - (* true *)
      intros m v mw en E g fT c E' o o' HV _ Hrel Hrun. apply has_enc_inv in HV as (b & -> & ->).
      destruct fT as [|fT]; [discriminate Hrun|]. rewrite lower_pattern_S, tsem_pat_true in Hrun.
      injection Hrun as <- <- _. destruct b; unfold pmatches; cbn [Sem.pmatch pat_conclG]; auto.
    - (* false *)
      intros m v mw en E g fT c E' o o' HV _ Hrel Hrun. apply has_enc_inv in HV as (b & -> & ->).
      destruct fT as [|fT]; [discriminate Hrun|]. rewrite lower_pattern_S, tsem_pat_false in Hrun.
      injection Hrun as <- <- _. destruct b; unfold pmatches; cbn [Sem.pmatch pat_conclG]; auto.
    - (* unsigned literal *)
      intros n m sg b Hr v mw en E g fT c E' o o' HV _ Hrel Hrun.
      destruct (int_pat_val sg b v mw HV) as (z & -> & Hl & Hz).
      destruct fT as [|fT]; [discriminate Hrun|].
      rewrite lower_pattern_S, (tsem_pat_numU P _ n m _ mw E o Hl (in_range_szn sg b _ Hr)), Hz in Hrun.
      injection Hrun as <- <- _. cbn [Sem.pmatch]. destruct (z =? Z.of_N n)%Z; cbn [pat_conclG]; auto.
    - (* signed literal *)
      intros z0 m sg b Hr v mw en E g fT c E' o o' HV _ Hrel Hrun.
      destruct (int_pat_val sg b v mw HV) as (z & -> & Hl & Hz).
      destruct fT as [|fT]; [discriminate Hrun|].
      rewrite lower_pattern_S, (tsem_pat_numS P _ z0 m _ mw E o Hl (in_range_szn sg b _ Hr)), Hz in Hrun.
      injection Hrun as <- <- _. cbn [Sem.pmatch]. destruct (z =? z0)%Z; cbn [pat_conclG]; auto.
    - (* unsigned range *)
      intros lo hi m sg b Hlo Hhi v mw en E g fT c E' o o' HV _ Hrel Hrun.
      destruct (int_pat_val sg b v mw HV) as (z & -> & Hl & Hz).
      destruct fT as [|fT]; [discriminate Hrun|].
      rewrite lower_pattern_S, (tsem_pat_urange P _ lo hi m _ mw E o Hl (in_range_szn sg b _ Hlo) (in_range_szn sg b _ Hhi)), Hz in Hrun.
      injection Hrun as <- <- _. cbn [Sem.pmatch].
      destruct ((Z.of_N lo <=? z)%Z && (z <=? Z.of_N hi)%Z); cbn [pat_conclG]; auto.
    - (* signed range *)
      intros lo hi m sg b Hlo Hhi v mw en E g fT c E' o o' HV _ Hrel Hrun.
      destruct (int_pat_val sg b v mw HV) as (z & -> & Hl & Hz).
      destruct fT as [|fT]; [discriminate Hrun|].
      rewrite lower_pattern_S, (tsem_pat_srange P _ lo hi m _ mw E o Hl (in_range_szn sg b _ Hlo) (in_range_szn sg b _ Hhi)), Hz in Hrun.
      injection Hrun as <- <- _. cbn [Sem.pmatch].
      destruct ((lo <=? z)%Z && (z <=? hi)%Z); cbn [pat_conclG]; auto.
    - (* tuple *)
      intros ps m ts bs _ IH v mw en E g fT c E' o o' HV Hfit Hrel Hrun.
      destruct fT as [|fT]; [discriminate Hrun|]. rewrite lower_pattern_S in Hrun. cbn [lower_pattern_body] in Hrun.
      pose proof HV as HV'. apply has_enc_inv in HV' as (vs & -> & _).
      rewrite pmatch_tup. unfold pat_conclG.
      exact (IH vs mw O en E g fT true c E' o o' (has_enc_tuple_fields P ts vs mw HV Hfit)
               (ty_fits_tup P ts Hfit) Hrel Hrun).
    - (* struct *)
      intros name ig fields m def bs Hd Hnd Hfo IH v mw en E g fT c E' o o' HV Hfit Hrel Hrun.
      destruct fT as [|fT]; [discriminate Hrun|]. rewrite lower_pattern_S in Hrun. cbn [lower_pattern_body] in Hrun.
      rewrite Hd in Hrun.
      pose proof HV as HV'. apply has_enc_inv in HV' as (def' & vs & -> & Hd' & Hs).
      assert (def' = def) as -> by congruence.
      pose proof (gfields_ok_nodup _ _ _ Hfo Hnd) as Hndf.
      rewrite pmatch_struct, Hd. unfold pat_conclG.
      exact (IH def vs mw fields O [] en E g fT true c E' o o' Hs (ty_fits_struct_def P name def Hfit Hd) Hnd Hndf
               eq_refl eq_refl (fun fn Hin => match Hin with end) Hrel Hrun).
    - (* enum, unit variant *)
      intros ename variant m variants ts Hd Hv v mw en E g fT c E' o o' HV Hfit Hrel Hrun.
      pose proof HV as HV'. apply has_enc_inv in HV' as (vr' & tag & ts' & vs & pw & -> & _).
      destruct fT as [|fT]; [discriminate Hrun|]. rewrite lower_pattern_S in Hrun. cbn [lower_pattern_body] in Hrun.
      rewrite Hd in Hrun.
      destruct (enum_tag_test ename variants variant ts tag vs mw o HV Hfit Hd Hv) as (tgw & Hsl & Heq).
      minva Hrun as tg o1 H1. apply lift_res_inv in H1. destruct H1 as [H1 ->].
      assert (tg = tgw) as -> by congruence.
      minva Hrun as acc o1 H2. rewrite Heq in H2. injection H2 as <- <-.
      apply ret_inv in Hrun. destruct Hrun as [Heq' ->]. injection Heq' as -> ->.
      rewrite pmatch_enum_unit. destruct (tag =? variant); cbn [pat_conclG]; auto.
    - (* enum, tuple variant *)
      intros ename variant ps m variants ts bs Hd Hv Hps IH v mw en E g fT c E' o o' HV Hfit Hrel Hrun.
      pose proof HV as HV'. apply has_enc_inv in HV' as (vr' & tag & ts' & vs & pw & -> & _).
      destruct fT as [|fT]; [discriminate Hrun|]. rewrite lower_pattern_S in Hrun. cbn [lower_pattern_body] in Hrun.
      rewrite Hd in Hrun.
      destruct (enum_tag_test ename variants variant ts tag vs mw o HV Hfit Hd Hv) as (tgw & Hsl & Heq).
      minva Hrun as tg o1 H1. apply lift_res_inv in H1. destruct H1 as [H1 ->].
      assert (tg = tgw) as -> by congruence.
      minva Hrun as acc o1 H2. rewrite Heq in H2. injection H2 as <- <-.
      rewrite Hv, (gpats_zip_sizes ps ts bs Hps) in Hrun.
      rewrite pmatch_enum_tup. destruct (N.eqb_spec tag variant) as [->|Hne].
      + destruct (has_enc_enum_inv P ename variants variant vs mw HV Hfit Hd) as (ts2 & Ht2 & _ & Hat & _).
        assert (ts2 = ts) as -> by congruence. unfold pat_conclG.
        exact (IH vs mw _ en E g fT true c E' o o' Hat (ty_fits_enum_variant P ename variants variant ts Hfit Hd Hv)
                 Hrel Hrun).
      + destruct (fields_match_facts _ (lower_pattern_facts P fT) _ _ _ _ _ _ _ _ _ Hrun) as (_ & _ & Hf).
        cbn [pat_conclG]. now apply Hf.
    - (* no sub-patterns *)
      intros vs mw off en E g fT im c E' o o' Hat _ Hrel Hrun. cbn [map fields_match] in Hrun.
      apply ret_inv in Hrun. destruct Hrun as [Heq ->]. injection Heq as -> ->.
      destruct vs; [|contradiction Hat]. cbn [sem_match_list]. auto.
    - (* a sub-pattern *)
      intros p t ps ts b bs Ept _ IH1 _ IH2 vs mw off en E g fT im c E' o o' Hat Hfits Hrel Hrun.
      destruct vs as [|v vs]; [contradiction Hat|]. cbn [enc_at] in Hat. destruct Hat as [(wi & Hsl & Hv) Hat].
      inversion Hfits as [|t' ts' Hft Hfts]. subst t' ts'.
      cbn [map fields_match] in Hrun. rewrite Ept in Hrun.
      minva Hrun as sub o1 H1. apply lift_res_inv in H1. destruct H1 as [H1 ->].
      assert (sub = wi) as -> by congruence.
      minva Hrun as [fm E1] o1 H2.
      destruct (lower_pattern_facts P fT _ _ _ _ _ _ _ H2) as [-> _].
      pose proof (IH1 v wi en E g fT fm E1 o o Hv Hft Hrel H2) as C1.
      mprim Hrun. cbn [sem_match_list].
      destruct (Sem.pmatch P p v) as [vb|]; cbn [pat_conclG] in C1.
      + destruct C1 as [-> Hr1]. rewrite andb_true_r in Hrun.
        pose proof (IH2 vs mw _ _ E1 _ fT im c E' o o' Hat Hfts Hr1 Hrun) as C2.
        destruct (sem_match_list ps vs) as [vbs|]; [|exact C2].
        destruct C2 as [-> Hr2]. rewrite sem_bind_all_app, tbind_all_app. auto.
      + subst fm. rewrite andb_false_r in Hrun.
        destruct (fields_match_facts _ (lower_pattern_facts P fT) _ _ _ _ _ _ _ _ _ Hrun) as (_ & _ & Hf).
        now apply Hf.
    - (* struct: the definition is exhausted *)
      intros def vs mw fields_all j consumed en E g fT im c E' o o' _ _ _ _ _ _ _ Hrel Hrun.
      cbn [struct_match] in Hrun. apply ret_inv in Hrun. destruct Hrun as [Heq ->]. injection Heq as -> ->.
      cbn [sem_match_fields]. auto.
    - (* struct: a named field *)
      intros fn fp fr fty r b bs _ IH1 _ IH2 def vs mw fields_all j consumed en E g fT im c E' o o'
        Hs Hfits Hnd Hndf Hds Hall Hcons Hrel Hrun.
      symmetry in Hds. apply skipn_cons_nth in Hds. destruct Hds as [Hj Hr].
      assert (Hjn : nth_error (map fst def) j = Some fn) by (rewrite nth_error_map, Hj; reflexivity).
      assert (Hjt : nth_error (map snd def) j = Some fty) by (rewrite nth_error_map, Hj; reflexivity).
      pose proof (NoDup_nth_notin_firstn _ j fn Hnd Hjn) as Hnotin.
      cbn [struct_match] in Hrun.
      assert (Hlook : assocN fn (rev fields_all) = Some fp).
      { rewrite assocN_rev_nodup by exact Hndf. rewrite Hall, assocN_app.
        rewrite assocN_none_notin by (intro Hin; apply Hnotin, Hcons, Hin).
        cbn [assocN]. now rewrite N.eqb_refl. }
      rewrite Hlook in Hrun.
      pose proof (has_encs_length P _ vs mw Hs) as Hlen.
      destruct (nth_error_same_length _ vs _ fty Hlen Hjt) as (vj & Hvj).
      destruct (has_encs_proj P j _ vs mw fty vj Hs Hfits Hjt Hvj) as (wj & Hsl & Hej).
      minva Hrun as sub o1 H1. apply lift_res_inv in H1. destruct H1 as [H1 ->].
      assert (sub = wj) as -> by congruence.
      minva Hrun as [fm E1] o1 H2.
      destruct (lower_pattern_facts P fT _ _ _ _ _ _ _ H2) as [-> _].
      pose proof (IH1 vj wj en E g fT fm E1 o o Hej (Forall_nth_error _ _ _ _ Hfits Hjt) Hrel H2) as C1.
      mprim Hrun.
      assert (Hsum : (sum_szn P (firstn j (map snd def)) + szn P fty)%nat = sum_szn P (firstn (S j) (map snd def))).
      { rewrite (firstn_S_nth _ j fty Hjt), sum_szn_app. unfold sum_szn at 3. cbn [map list_sum fold_right]. lia. }
      rewrite Hsum in Hrun. cbn [sem_match_fields].
      rewrite (index_of_nth _ j fn 0 Hnd Hjn), N.add_0_l, nthN_spec, Nat2N.id, Hvj.
      destruct (Sem.pmatch P fp vj) as [vb|]; cbn [pat_conclG] in C1.
      + destruct C1 as [-> Hr1]. rewrite andb_true_r in Hrun.
        assert (C2 := IH2 def vs mw fields_all (S j) (consumed ++ [(fn, fp)]) (Sem.bind_all en vb) E1 (tbind_all g b false)
                  fT im c E' o o' Hs Hfits Hnd Hndf (eq_sym Hr)).
        fold (sem_match_fields def vs fr). 
        assert (C2' : match sem_match_fields def vs fr with
                      | Some vbs => c = im /\ rel R (inner R s) (Sem.bind_all (Sem.bind_all en vb) vbs) E' (tbind_all (tbind_all g b false) bs false)
                      | None => c = false end).
        { apply C2; try assumption.
          - now rewrite Hall, <- app_assoc.
          - intros fn' Hin. rewrite map_app, in_app_iff in Hin. rewrite (firstn_S_nth _ j fn Hjn), in_app_iff.
            destruct Hin as [Hin|[<-|[]]]; [left; now apply Hcons|right; now left]. }
        destruct (sem_match_fields def vs fr) as [vbs|]; [|exact C2'].
        destruct C2' as [-> Hr2]. rewrite sem_bind_all_app, tbind_all_app. auto.
      + subst fm. rewrite andb_false_r in Hrun.
        destruct (struct_match_facts P _ (lower_pattern_facts P fT) _ _ _ _ _ _ _ _ _ _ Hrun) as (_ & _ & Hf).
        now apply Hf.
    - (* struct: a field the pattern does not name *)
      intros fs fn fty r bs Hnotfs _ IH def vs mw fields_all j consumed en E g fT im c E' o o'
        Hs Hfits Hnd Hndf Hds Hall Hcons Hrel Hrun.
      symmetry in Hds. apply skipn_cons_nth in Hds. destruct Hds as [Hj Hr].
      assert (Hjn : nth_error (map fst def) j = Some fn) by (rewrite nth_error_map, Hj; reflexivity).
      assert (Hjt : nth_error (map snd def) j = Some fty) by (rewrite nth_error_map, Hj; reflexivity).
      pose proof (NoDup_nth_notin_firstn _ j fn Hnd Hjn) as Hnotin.
      cbn [struct_match] in Hrun.
      assert (Hlook : assocN fn (rev fields_all) = None).
      { rewrite assocN_rev_nodup by exact Hndf. apply assocN_none_notin. rewrite Hall, map_app, in_app_iff.
        intros [Hin|Hin]; [apply Hnotin, Hcons, Hin|exact (Hnotfs Hin)]. }
      rewrite Hlook in Hrun.
      assert (Hsum : (sum_szn P (firstn j (map snd def)) + szn P fty)%nat = sum_szn P (firstn (S j) (map snd def))).
      { rewrite (firstn_S_nth _ j fty Hjt), sum_szn_app. unfold sum_szn at 3. cbn [map list_sum fold_right]. lia. }
      rewrite Hsum in Hrun.
      apply (IH def vs mw fields_all (S j) consumed en E g fT im c E' o o' Hs Hfits Hnd Hndf (eq_sym Hr) Hall);
        try assumption.
      intros fn' Hin. rewrite (firstn_S_nth _ j fn Hjn), in_app_iff. left. now apply Hcons.
  Qed.

  Lemma gpat_agreesG {s} p t bs : gpat_ok p t bs ->
    forall v mw en E g fT c E' (o : pobs) o', has_enc P t v mw -> ty_fits P t -> rel R (inner R s) en E g ->
    lower_pattern tops fT P p mw E o = Ok ((c, E'), o') ->
    o' = o /\ SKP E E' /\ pat_conclG s g bs en E' c (Sem.pmatch P p v).
  Proof.
    intros Hp v mw en E g fT c E' o o' HV Hfit Hrel Hrun.
    destruct (lower_pattern_facts P fT _ _ _ _ _ _ _ Hrun) as [-> Hk]. split; [reflexivity|]. split; [exact Hk|].
    exact (proj1 gpat_agrees_mutG p t bs Hp v mw en E g fT c E' o o HV Hfit Hrel Hrun).
  Qed.
  (* ---- match: Sem.v evaluates the body of the first arm whose pattern matches; Lower.v
     evaluates every arm from the observation saved after the scrutinee and selects *)

  Definition sem_arms (f : nat) (v : Sem.value) (en : Sem.env)
    : list (pattern * expr) -> Sem.outcome (Sem.value * Sem.env) :=
    fix go (arms : list (pattern * expr)) : Sem.outcome (Sem.value * Sem.env) :=
      match arms with
      | [] => Sem.Stuck 41
      | (p, body) :: r =>
          match Sem.pmatch P p v with
          | Some bs =>
              Sem.obind (Sem.eval f P (Sem.bind_all (Sem.push_scope en) bs) body)
                (fun '(res, en1) => Sem.Done (res, Sem.pop_scope en1))
          | None => go r
          end
      end.

  Lemma sem_eval_match f en scrut arms m t :
    Sem.eval (S f) P en (Ex (EMatch scrut arms) m t) =
    Sem.obind (Sem.eval f P en scrut) (fun '(v, en1) => sem_arms f v en1 arms).
  Proof. reflexivity. Qed.

  (* an arm: the pattern is typed at the type of the scrutinee, the body agrees in the context
     extended by the bindings (in a scope of their own), keeps the keys of every scope and has
     the type of the match *)
  Definition arm_okG (f : nat) (g : tenv) (tscrut t : ty) (arm : pattern * expr) : Prop :=
    exists bs, gpat_ok (fst arm) tscrut bs /\ AgEG f (tbind_all ([] :: g) bs false) (snd arm) /\
               KP P (snd arm) /\ e_ty (snd arm) = t.

  Lemma arms_agreeG {s} f g tscrut t v sw en E0 :
    has_enc P tscrut v sw -> ty_fits P tscrut -> rel R s en E0 g ->
    forall arms, Forall (arm_okG f g tscrut t) arms ->
    forall fT hp mret mpanic menv (o : pobs) mret' mpanic' menv' hp' o',
    length mret = szn P t -> keys menv = keys E0 ->
    lower_arms tops (lower_expr tops fT P) (lower_pattern tops fT P) (szn P t) sw E0 None arms
      hp mret mpanic menv o = Ok ((mret', mpanic', menv', hp'), o') ->
    if hp then mret' = mret /\ mpanic' = mpanic /\ menv' = menv
    else match sem_arms f v en arms with
         | Sem.Done (res, en') => mpanic' = None /\ VRa t res mret' /\ rel R s en' menv' g
         | Sem.Panicked r m => mpanic' = Some (pcode r m)
         | _ => True
         end.
  Proof.
    intros HV Hfit Hrel. pose proof (nr_kd R _ _ _ _ Hrel) as Hkd0.
    induction 1 as [|[pat body] arms (bs & Hpat & Hbody & Hkp & Ety) _ IH];
      intros fT hp mret mpanic menv o mret' mpanic' menv' hp' o' Hlm Hkm Hrun.
    - cbn [lower_arms] in Hrun. apply ret_inv in Hrun. destruct Hrun as [Heq _]. injection Heq as -> -> -> _.
      destruct hp; [auto|exact I].
    - cbn [fst snd] in *. cbn [lower_arms] in Hrun. mprim Hrun.
      minva Hrun as [is_match E1] o1 Hp.
      destruct (gpat_agreesG pat tscrut bs Hpat v sw _ _ _ fT _ _ _ _ HV Hfit (nr_push R _ _ _ _ Hrel) Hp)
        as (-> & [Hk1 _] & Hc).
      minva Hrun as [rw E2] o2 He. pose proof (Hkp _ _ _ _ _ _ He) as Hk2.
      mprim Hrun. mprim Hrun.
      minva Hrun as E3 o3 H3. apply lift_res_inv in H3. destruct H3 as [Hpop ->].
      assert (Hk3 : keys E3 = keys E0).
      { rewrite (env_pop_keys _ _ Hpop), Hk2, Hk1. reflexivity. }
      mprim Hrun. mprim Hrun.
      minva Hrun as menv1 o4 H4.
      apply mux_envs_sel in H4; [|unfold keys in *; congruence|exact (keys_distinct_keys E0 menv Hkm Hkd0)]. destruct H4 as [-> ->].
      minva Hrun as mret1 o5 H5.
      destruct (Nat.ltb_spec (length rw) (szn P t)) as [Hlt|Hge]; [discriminate H5|].
      assert (Hlf : length (firstn (szn P t) rw) = length mret) by (rewrite firstn_length, Hlm; lia).
      change (fun x0 x1 : bool => m_mux tops (negb hp && is_match) x0 x1) with (m_mux tops (negb hp && is_match)) in H5.
      rewrite (tsem_map2_mux _ _ _ Hlf) in H5. injection H5 as <- <-.
      mprim Hrun.
      assert (Hlm1 : length (if negb hp && is_match then firstn (szn P t) rw else mret) = szn P t).
      { destruct (negb hp && is_match); [now rewrite Hlf|exact Hlm]. }
      assert (Hkm1 : keys (if negb hp && is_match then E3 else menv) = keys E0).
      { destruct (negb hp && is_match); assumption. }
      pose proof (IH fT _ _ _ _ _ _ _ _ _ _ Hlm1 Hkm1 Hrun) as IH1.
      destruct hp; cbn [negb andb orb] in IH1.
      + exact IH1.
      + change (sem_arms f v en ((pat, body) :: arms)) with
          (match Sem.pmatch P pat v with
           | Some bs0 =>
               Sem.obind (Sem.eval f P (Sem.bind_all (Sem.push_scope en) bs0) body)
                 (fun '(res, en1) => Sem.Done (res, Sem.pop_scope en1))
           | None => sem_arms f v en arms
           end).
        destruct (Sem.pmatch P pat v) as [vbs|]; cbn [pat_conclG] in Hc.
        * destruct Hc as [-> Hrel1]. cbn [orb] in IH1. destruct IH1 as (-> & -> & ->).
          pose proof (Hbody _ _ _ fT _ _ _ Hrel1 He) as IH2. revert IH2.
          destruct (Sem.eval f P (Sem.bind_all (Sem.push_scope en) vbs) body) as [[res en1]|r1 m1|c1|];
            intro IH2; cbn [Sem.obind]; try exact I; [|exact IH2].
          destruct IH2 as (-> & [HVr Hfr] & Hrel2). rewrite Ety in HVr, Hfr.
          split; [reflexivity|]. split.
          -- split; [|exact Hfr]. rewrite firstn_all2; [exact HVr|].
             rewrite (has_enc_length P t res rw HVr Hfr). lia.
          -- rewrite <- (tl_tbind_all bs [] g false).
             eapply nr_pop; [eassumption|eassumption|].
             rewrite (tl_tbind_all bs [] g false). eapply nr_ctx; exact Hrel.
        * subst is_match. cbn [orb] in IH1. exact IH1.
  Qed.

  (* side conditions: the arms are [arm_ok] at the type of the scrutinee; exhaustiveness is
     not needed (when no arm matches Sem.v is stuck) *)
  Lemma match_nodeG f g scrut arms m t :
    AgEG f g scrut -> Forall (arm_okG f g (e_ty scrut) t) arms ->
    AgEG (S f) g (Ex (EMatch scrut arms) m t).
  Proof.
    intros IHs Harms s en E fT w E' o' Hrel Hrun.
    destruct fT as [|fT]; [discriminate Hrun|]. rewrite lower_expr_S in Hrun. cbn [lower_expr_body] in Hrun.
    minva Hrun as [sw E0] o1 Hs. mprim Hrun.
    minva Hrun as [[[ret_w mp] me] hp'] o2 Ha. mprim Hrun.
    apply ret_inv in Hrun. destruct Hrun as [Heq ->]. injection Heq as -> ->.
    rewrite sem_eval_match. pose proof (IHs s en E fT _ _ _ Hrel Hs) as IH1. revert IH1.
    destruct (Sem.eval f P en scrut) as [[v en1]|r1 m1|c1|]; intro IH1; cbn [Sem.obind]; try exact I.
    - destruct IH1 as (-> & [HV Hfit] & Hrel1).
      pose proof (arms_agreeG f g (e_ty scrut) t v sw en1 E0 HV Hfit Hrel1 arms Harms fT false _ _ _ _ _ _ _ _ _
                    (repeat_length _ _) eq_refl Ha) as IH2. cbv iota in IH2. revert IH2.
      destruct (sem_arms f v en1 arms) as [[res en2]|r2 m2|c2|]; intro IH2; try exact I; [|exact IH2].
      cbn [e_ty]. exact IH2.
    - subst o1.
      destruct (stkxQ_lower_arms _ _ _ (stk_expr _ fT) (stk_pat _ fT) _ _ _ _ _ _ _ _ _ Ha) as [_ Hq].
      exact Hq.
  Qed.
End AggNodes.

(* ------------------------------------------------------------------ the nodes at [env_rel3] (VRa P):
   no state, no condition on the context, every variable assignable *)

Section Agg.
  Variable P : program.

  Notation VRa := (TSemSemAgg.VRa P).
  Notation AgE' := (AgE P VRa).
  Notation AgS' := (AgS P VRa).
  Notation rel := (env_rel3 VRa).
  Local Notation gpat_ok := (TSemSemAgg.gpat_ok P).
  Local Notation pat_ok := (TSemSemAgg.pat_ok P).
  Local Notation R3 := (rel3_nodes VRa).

  Lemma AgEs_G f g es : Forall (AgE' f g) es -> Forall (AgEG P VRa R3 f g) es.
  Proof. apply Forall_impl. intros e H s. exact H. Qed.

  Lemma id_node_a f g x m t mu : tlookup g x = Some (t, mu) -> AgE' f g (Ex (EId x) m t).
  Proof. intro Hl. exact (id_node_aG P R3 f g x m t mu Hl tt). Qed.

  Lemma lit_bool_node_a f g (b : bool) m : AgE' f g (Ex (if b then ETrue else EFalse) m TBool).
  Proof. exact (lit_bool_node_aG P R3 f g b m tt). Qed.

  Lemma lit_numU_node_a f g n lb m sg b : lit_fits (TInt sg b) (Z.of_N n) = true ->
    AgE' f g (Ex (ENumU n lb) m (TInt sg b)).
  Proof. intro Hl. exact (lit_numU_node_aG P R3 f g n lb m sg b Hl tt). Qed.

  Lemma lit_numS_node_a f g z lb m sg b : lit_fits (TInt sg b) z = true ->
    AgE' f g (Ex (ENumS z lb) m (TInt sg b)).
  Proof. intro Hl. exact (lit_numS_node_aG P R3 f g z lb m sg b Hl tt). Qed.

  Lemma tuplit_node f g es m t :
    Forall (AgE' f g) es -> t = TTup (map e_ty es) -> ty_fits P t ->
    AgE' (S f) g (Ex (ETupLit es) m t).
  Proof. intros Hes Et Hfit. exact (tuplit_nodeG P R3 f g es m t (AgEs_G f g es Hes) Et Hfit tt). Qed.

  Lemma tupacc_node f g e1 i m t ts :
    AgE' f g e1 -> e_ty e1 = TTup ts -> nthN ts i = Some t ->
    AgE' (S f) g (Ex (ETupAcc e1 i) m t).
  Proof. intros IH Et Hi. exact (tupacc_nodeG P R3 f g e1 i m t ts (fun _ => IH) Et Hi tt). Qed.

  Lemma structlit_node f g name fields def es m t :
    assocN name (p_structs P) = Some def -> nodupN (map fst fields) = true ->
    struct_exprs fields def = Some es -> Forall (AgE' f g) es ->
    map e_ty es = map snd def -> t = TStruct name -> ty_fits P t ->
    AgE' (S f) g (Ex (EStructLit name fields) m t).
  Proof.
    intros Hd Hnd Hse Hes Hty Et Hfit.
    exact (structlit_nodeG P R3 f g name fields def es m t Hd Hnd Hse (AgEs_G f g es Hes) Hty Et Hfit tt).
  Qed.

  Lemma fld_node f g e1 fld m t name def k :
    AgE' f g e1 -> e_ty e1 = TStruct name -> assocN name (p_structs P) = Some def ->
    Sem.index_of fld (map fst def) 0 = Some k -> nthN (map snd def) k = Some t ->
    AgE' (S f) g (Ex (EFld e1 fld) m t).
  Proof.
    intros IH Et Hd Hk Ht. exact (fld_nodeG P R3 f g e1 fld m t name def k (fun _ => IH) Et Hd Hk Ht tt).
  Qed.

  Lemma arrlit_node f g es m t el :
    Forall (AgE' f g) es -> Forall (fun e => e_ty e = el) es -> t = TArr el (lenN es) -> ty_fits P t ->
    AgE' (S f) g (Ex (EArrLit es) m t).
  Proof.
    intros Hes Hel Et Hfit. exact (arrlit_nodeG P R3 f g es m t el (AgEs_G f g es Hes) Hel Et Hfit tt).
  Qed.

  Lemma arrrep_node f g e1 n m t :
    AgE' f g e1 -> t = TArr (e_ty e1) n -> ty_fits P t ->
    AgE' (S f) g (Ex (EArrRep e1 n) m t).
  Proof. intros IH Et Hfit. exact (arrrep_nodeG P R3 f g e1 n m t (fun _ => IH) Et Hfit tt). Qed.

  Lemma range_node f g lo hi bits m t :
    t = TArr (TInt false bits) (hi - lo) -> (hi <=? 2 ^ bits) = true ->
    AgE' f g (Ex (ERange lo hi bits) m t).
  Proof. intros Et Hhi. exact (range_nodeG P R3 f g lo hi bits m t Et Hhi tt). Qed.

  (* side conditions: the array type of [a] gives the element type and the length; the index
     type is unsigned of at most 32 bits (compile.rs extends it to usize = 32 bits and crashes
     on a wider one); the length fits 32 bits.  The premise on zero-sized elements is not used
     ([idx_nodeG] has none) *)
  Lemma idx_node f g a i m t n b :
    AgE' f g a -> AgE' f g i ->
    e_ty a = TArr t n -> e_ty i = TInt false b -> (b <=? 32) = true -> (n <? 2 ^ 32) = true ->
    (1 <=? szn P t)%nat = true ->
    AgE' (S f) g (Ex (EIdx a i) m t).
  Proof.
    intros IHa IHi Eta Eti Hb Hn _.
    exact (idx_nodeG P R3 f g a i m t n b (fun _ => IHa) (fun _ => IHi) Eta Eti Hb Hn tt).
  Qed.

  (* [acc_okG], with one premise more (not used: [acc_ok_G]): the elements are not zero-sized *)
  Inductive acc_ok (f : nat) (g : tenv) : list accessor -> ty -> ty -> Prop :=
  | AO_nil t : acc_ok f g [] t t
  | AO_idx ie r el n b tf :
      AgE' f g ie -> e_ty ie = TInt false b -> (b <=? 32) = true -> (n <? 2 ^ 32) = true ->
      (1 <=? szn P el)%nat = true -> acc_ok f g r el tf ->
      acc_ok f g (AIdx (TArr el n) ie :: r) (TArr el n) tf
  | AO_tup i r ts ti tf :
      nthN ts i = Some ti -> acc_ok f g r ti tf ->
      acc_ok f g (ATup (TTup ts) i :: r) (TTup ts) tf
  | AO_fld fld r name def k tk tf :
      assocN name (p_structs P) = Some def -> Sem.index_of fld (map fst def) 0 = Some k ->
      nthN (map snd def) k = Some tk -> acc_ok f g r tk tf ->
      acc_ok f g (AFld (TStruct name) fld :: r) (TStruct name) tf.

  Lemma acc_ok_G f g accs tcur tf : acc_ok f g accs tcur tf -> acc_okG P R3 f g accs tcur tf.
  Proof. induction 1 as [|ie r el n b tf Hie| |]; econstructor; try eassumption. intro. exact Hie. Qed.

  (* x.accs = e : the variable is mutable-or-not as the context says (the checker requires
     mutability; the agreement does not need it) *)
  Lemma assign_acc_node f g x accs e m tx mu :
    AgE' f g e -> tlookup g x = Some (tx, mu) -> acc_ok f g accs tx (e_ty e) ->
    AgS' (S f) g g unit_ty (St (SAssign x accs e) m).
  Proof.
    intros IH Hlk Hacc.
    exact (assign_acc_nodeG P R3 f g x accs e m tx mu (fun _ => IH) Hlk
             (fun _ en E v w E' H => rel_assign VRa en E g x tx mu v w E' H Hlk) (acc_ok_G _ _ _ _ _ Hacc) tt).
  Qed.

  Lemma enumlit_node f g ename variant args m t variants ts :
    Forall (AgE' f g) args -> assocN ename (p_enums P) = Some variants ->
    nthN variants variant = Some ts -> map e_ty args = ts -> t = TEnum ename -> ty_fits P t ->
    AgE' (S f) g (Ex (EEnumLit ename variant args) m t).
  Proof.
    intros Hes Hd Hv Hty Et Hfit.
    exact (enumlit_nodeG P R3 f g ename variant args m t variants ts (AgEs_G f g args Hes) Hd Hv Hty Et Hfit tt).
  Qed.

  Lemma pat_agrees p t bs : pat_ok p t bs ->
    forall v mw en E g fT c E' (o : pobs) o', has_enc P t v mw -> ty_fits P t -> rel en E g ->
    lower_pattern tops fT P p mw E o = Ok ((c, E'), o') ->
    exists vbs, Sem.pmatch P p v = Some vbs /\ c = true /\ o' = o /\
                rel (Sem.bind_all en vbs) E' (tbind_all g bs false).
  Proof. intro Hp. exact (pat_agreesG P R3 p t bs Hp tt). Qed.

  Lemma let_pat_node f g p e m bs :
    AgE' f g e -> pat_ok p (e_ty e) bs ->
    AgS' (S f) g (tbind_all g bs false) unit_ty (St (SLet p e) m).
  Proof.
    intros IH Hp.
    exact (let_pat_nodeG P R3 f g p e m bs (fun _ => IH) (pat_agreesG P R3 p _ bs Hp) tt).
  Qed.

  Lemma for_binds_node f g p bs arr body m el n g1 tb :
    AgE' (S f) g arr -> e_ty arr = TArr el n -> pat_binds P R3 p el bs ->
    AgSS P VRa f (tbind_all ([] :: g) bs false) body unit_ty g1 tb -> tl g1 = g ->
    AgS' (S (S f)) g g unit_ty (St (SFor p arr body) m).
  Proof.
    intros IHa Eta Hp Hbody Htl.
    exact (for_pat_nodeG P R3 f g p bs arr body m el n g1 tb
             (fun _ => IHa) Eta Hp (AgSS_G P VRa _ _ _ _ _ _ Hbody) Htl tt).
  Qed.

  Lemma for_pat_node f g p bs arr body m el n g1 tb :
    AgE' (S f) g arr -> e_ty arr = TArr el n -> pat_ok p el bs ->
    AgSS P VRa f (tbind_all ([] :: g) bs false) body unit_ty g1 tb -> tl g1 = g ->
    AgS' (S (S f)) g g unit_ty (St (SFor p arr body) m).
  Proof.
    intros IHa Eta Hp.
    exact (for_binds_node f g p bs arr body m el n g1 tb IHa Eta (pat_agreesG P R3 p el bs Hp)).
  Qed.

  Lemma for_node f g x mp tp arr body m el n g1 tb :
    AgE' (S f) g arr -> e_ty arr = TArr el n ->
    AgSS P VRa f (tbind ([] :: g) x el false) body unit_ty g1 tb -> tl g1 = g ->
    AgS' (S (S f)) g g unit_ty (St (SFor (Pat (PId x) mp tp) arr body) m).
  Proof.
    intros IHa Eta.
    exact (for_binds_node f g _ [(x, el)] arr body m el n g1 tb IHa Eta (id_pat_binds P R3 x mp tp el)).
  Qed.

  Definition pat_concl (g : tenv) (bs : list (N * ty)) (en : Sem.env) (E' : @cenv bool) (c : bool)
      (r : option (list (N * Sem.value))) : Prop :=
    match r with
    | Some vbs => c = true /\ rel (Sem.bind_all en vbs) E' (tbind_all g bs false)
    | None => c = false
    end.

  Hypothesis Hsmall : enums_small P = true.

  Lemma gpat_agrees p t bs : gpat_ok p t bs ->
    forall v mw en E g fT c E' (o : pobs) o', has_enc P t v mw -> ty_fits P t -> rel en E g ->
    lower_pattern tops fT P p mw E o = Ok ((c, E'), o') ->
    o' = o /\ SKP E E' /\ pat_concl g bs en E' c (Sem.pmatch P p v).
  Proof. exact (gpat_agreesG P R3 Hsmall (s:=tt) p t bs). Qed.

  Definition arm_ok (f : nat) (g : tenv) (tscrut t : ty) (arm : pattern * expr) : Prop :=
    exists bs, gpat_ok (fst arm) tscrut bs /\ AgE' f (tbind_all ([] :: g) bs false) (snd arm) /\
               KP P (snd arm) /\ e_ty (snd arm) = t.

  Lemma match_node f g scrut arms m t :
    AgE' f g scrut -> Forall (arm_ok f g (e_ty scrut) t) arms ->
    AgE' (S f) g (Ex (EMatch scrut arms) m t).
  Proof.
    intros IHs Harms.
    refine (match_nodeG P R3 Hsmall f g scrut arms m t
              (fun _ => IHs) _ tt).
    revert Harms. apply Forall_impl. intros arm (bs & Hp & Hb & Hk & Et). exists bs. repeat split; try assumption.
    intro. exact Hb.
  Qed.
End Agg.

(* ------------------------------------------------------------------ KEYS, whole language

   Every Ok run of the lowering on Booleans, from any observation, for ANY program (no typing
   hypothesis): expressions and blocks give back an environment with the same keys in every
   scope ([KP]), statements and patterns only add keys to the current scope ([SKP]):
   [keys_every] of TSemSemStmt.v.  This discharges the [KP] hypotheses of [if_node],
   [logic_node] (TSemSemStmt.v) and [arm_ok]. *)

Section KeysAll.
  Variable P : program.
  Variable rp : pattern -> list bool -> @cenv bool -> MB (bool * @cenv bool).
  Hypothesis Kp : forall p mw E o c E' o', rp p mw E o = Ok ((c, E'), o') -> SKP E E'.

  Lemma skp_fields_match mw : forall ps w im E o c E' o',
    fields_match tops rp mw ps w im E o = Ok ((c, E'), o') -> SKP E E'.
  Proof. exact (TSemSemStmt.skp_fields_match rp Kp mw). Qed.

  Lemma skp_struct_match mw fields : forall ds w im E o c E' o',
    struct_match tops P rp mw fields ds w im E o = Ok ((c, E'), o') -> SKP E E'.
  Proof. exact (TSemSemStmt.skp_struct_match P rp Kp mw fields). Qed.
End KeysAll.

Theorem keys_all P : forall fT,
  (forall e E o w E' o', lower_expr tops fT P e E o = Ok ((w, E'), o') -> keys E' = keys E) /\
  (forall b E o w E' o', lower_block tops fT P b E o = Ok ((w, E'), o') -> keys E' = keys E) /\
  (forall s E o w E' o', lower_stmt tops fT P s E o = Ok ((w, E'), o') -> SKP E E') /\
  (forall p mw E o c E' o', lower_pattern tops fT P p mw E o = Ok ((c, E'), o') -> SKP E E').
Proof. exact (keys_every P). Qed.

(* every expression keeps the keys: the [KP] hypotheses are always available *)
Corollary KP_all P e : KP P e.
Proof. exact (KP_every P e). Qed.

Lemma arm_ok_intro P f g tscrut t pat body bs :
  gpat_ok P pat tscrut bs -> AgE P (VRa P) f (tbind_all ([] :: g) bs false) body -> e_ty body = t ->
  arm_ok P f g tscrut t (pat, body).
Proof. intros Hp Hb Et. exists bs. cbn [fst snd]. repeat split; try assumption. apply KP_all. Qed.

(* ------------------------------------------------------------------ a disagreement

   Struct patterns whose sub-patterns bind the SAME name, with the fields named in an order
   other than the definition's: Sem.pmatch binds in the order of the pattern, compile.rs (the
   loop over struct_def.fields in [struct_match]) in the order of the definition, so a
   different binding survives.  Lang/Wt.v accepts the program ([wt_pat] does not ask for
   distinct binders).  Second example: a pattern that names a field twice; compile.rs keeps
   only the last sub-pattern of a field (a map), the binder of the first one is never bound
   and a later use of it is an unwrap on a missing binding ([Crash]); Sem.v and Wt.v accept. *)
Module StructPatternOrder.
  Definition mm : meta := mkMeta 1 1 1 9.
  Definition u8 := TInt false 8.
  Definition S_ : N := 1.
  (* struct S { a: u8, b: u8 }   fn main(s: S) -> u8 { let S { b: x, a: x } = s; x } *)
  Definition body : list stmt :=
    [St (SLet (Pat (PStruct S_ false [(11, Pat (PId 5) mm u8); (10, Pat (PId 5) mm u8)]) mm (TStruct S_))
              (Ex (EId 0) mm (TStruct S_))) mm;
     St (SExpr (Ex (EId 5) mm u8)) mm].
  Definition prog : program :=
    mkProgram [(S_, [(10, u8); (11, u8)])] [] [mkFn 0 [(0, TStruct S_)] u8 body] [] 0.
  (* s = S { a: 1, b: 2 } *)
  Definition input : list bool := enc 8 1 ++ enc 8 2.

  Example disagreement :
    wt_program prog = true /\
    Sem.run_main 20 prog [input] = Sem.RunOk (enc 8 1) false /\
    tsem_program 20 prog [input] = Ok (None, enc 8 2).
  Proof. vm_compute. auto. Qed.

  (* fn main(s: S) -> u8 { let S { a: x, a: y } = s; x } *)
  Definition body2 : list stmt :=
    [St (SLet (Pat (PStruct S_ false [(10, Pat (PId 5) mm u8); (10, Pat (PId 6) mm u8)]) mm (TStruct S_))
              (Ex (EId 0) mm (TStruct S_))) mm;
     St (SExpr (Ex (EId 5) mm u8)) mm].
  Definition prog2 : program :=
    mkProgram [(S_, [(10, u8); (11, u8)])] [] [mkFn 0 [(0, TStruct S_)] u8 body2] [] 0.

  Example duplicate_field_crash :
    wt_program prog2 = true /\
    Sem.run_main 20 prog2 [input] = Sem.RunOk (enc 8 1) false /\
    tsem_program 20 prog2 [input] = Crash.
  Proof. vm_compute. auto. Qed.
End StructPatternOrder.

(* ------------------------------------------------------------------ sanity: the hypotheses
   of the node lemmas are satisfiable and compose.  a : [(u8, bool); 3] (mutable), i : u8;
   the statement  a[i].0 = 7;  and the expression  (a[i], a[i].1)  *)
Module SanityAgg.
  Definition P0 : program := mkProgram [] [] [] [] 0.
  Definition mm (k : N) : meta := mkMeta k 1 k 9.
  Definition u8 := TInt false 8.
  Definition tup := TTup [u8; TBool].
  Definition arr := TArr tup 3.
  Definition vi := Ex (EId 1) (mm 1) u8.
  Definition va := Ex (EId 0) (mm 2) arr.
  Definition stmt : stmt := St (SAssign 0 [AIdx arr vi; ATup tup 0] (Ex (ENumU 7 8) (mm 3) u8)) (mm 4).
  Definition ai := Ex (EIdx va vi) (mm 5) tup.
  Definition expr : expr := Ex (ETupLit [ai; Ex (ETupAcc ai 1) (mm 6) TBool]) (mm 7) (TTup [tup; TBool]).

  Definition g0 : tenv := [[(0, (arr, true)); (1, (u8, false))]].
  Definition aval : Sem.value :=
    Sem.VArr [Sem.VTup [Sem.VInt 1; Sem.VBool true]; Sem.VTup [Sem.VInt 2; Sem.VBool false];
              Sem.VTup [Sem.VInt 3; Sem.VBool true]].
  Definition abits : list bool :=
    Eval vm_compute in match Sem.encode Sem.ty_fuel P0 arr aval with Some w => w | None => [] end.
  Definition en0 (i : Z) : Sem.env := Sem.mkEnv [[(0, aval); (1, Sem.VInt i)]] false.
  Definition E0 (i : Z) : @cenv bool := [[(0, abits); (1, enc 8 i)]].

  Lemma VRa_arr : VRa P0 arr aval abits.
  Proof. split; [apply encode_has_enc|]; vm_compute; reflexivity. Qed.

  Lemma rel0 i : Sem.in_range false 8 i = true -> env_rel3 (VRa P0) (en0 i) (E0 i) g0.
  Proof.
    intro Hi. unfold env_rel3, en0, E0, g0. cbn [Sem.scopes]. constructor; [|constructor].
    split.
    - unfold ssorted. cbn. repeat split; intros k' Hin; cbn in Hin; intuition lia.
    - intro x. cbn [assocN].
      destruct (x =? 0); [exists aval, abits; repeat split; apply VRa_arr|].
      destruct (x =? 1); [exists (Sem.VInt i), (enc 8 i); repeat split; try apply ty_fits_int; apply (HE_int P0 false 8 i Hi)|].
      auto.
  Qed.

  Lemma vi_agrees f : AgE P0 (VRa P0) f g0 vi.
  Proof. apply (id_node_a P0 f g0 1 _ u8 false). reflexivity. Qed.

  Lemma stmt_agrees : AgS P0 (VRa P0) 2 g0 g0 unit_ty stmt.
  Proof.
    apply (assign_acc_node P0 1 g0 0 _ _ _ arr true).
    - apply lit_numU_node_a. reflexivity.
    - reflexivity.
    - apply (AO_idx P0 1 g0 vi _ tup 3 8 u8); [apply vi_agrees|reflexivity|reflexivity|reflexivity|vm_compute; reflexivity|].
      apply (AO_tup P0 1 g0 0 [] [u8; TBool] u8 u8); [reflexivity|constructor].
  Qed.

  Lemma ai_agrees f : AgE P0 (VRa P0) (S f) g0 ai.
  Proof.
    apply (idx_node P0 f g0 va vi _ tup 3 8); try reflexivity; [|apply vi_agrees].
    apply (id_node_a P0 f g0 0 _ arr true). reflexivity.
  Qed.

  Lemma expr_agrees : AgE P0 (VRa P0) 4 g0 expr.
  Proof.
    apply tuplit_node; [|reflexivity|vm_compute; reflexivity].
    constructor; [apply ai_agrees|constructor; [|constructor]].
    apply (tupacc_node P0 2 g0 ai 1 _ TBool [u8; TBool]); [apply ai_agrees|reflexivity|reflexivity].
  Qed.

  (* i = 1, in bounds: both runs succeed and the results are related *)
  Example run_in_bounds : exists E' en',
    lower_stmt tops 6 P0 stmt (E0 1) None = Ok (([], E'), None) /\
    Sem.exec 2 P0 (en0 1) stmt = Sem.Done (Sem.unit_val, en') /\
    env_rel3 (VRa P0) en' E' g0 /\
    Sem.lookup_var en' 0 = Some (Sem.VArr [Sem.VTup [Sem.VInt 1; Sem.VBool true];
                                            Sem.VTup [Sem.VInt 7; Sem.VBool false];
                                            Sem.VTup [Sem.VInt 3; Sem.VBool true]]).
  Proof.
    destruct (lower_stmt tops 6 P0 stmt (E0 1) None) as [[[w E'] o']| |] eqn:Hrun;
      [|vm_compute in Hrun; discriminate Hrun|vm_compute in Hrun; discriminate Hrun].
    pose proof (stmt_agrees (en0 1) _ 6%nat w E' o' (rel0 1 eq_refl) Hrun) as H.
    destruct (Sem.exec 2 P0 (en0 1) stmt) as [[v en']| | |] eqn:Ev; try (vm_compute in Ev; discriminate Ev).
    destruct H as (-> & _ & Hrel).
    assert (w = []) as -> by (vm_compute in Hrun; congruence).
    exists E', en'. repeat split; try assumption.
    - vm_compute in Ev. injection Ev as <- _. reflexivity.
    - vm_compute in Ev. injection Ev as _ <-. reflexivity.
  Qed.

  (* i = 5, out of bounds: the bit-level run records OutOfBounds at the statement, as Sem.v *)
  Example run_out_of_bounds : exists w E',
    lower_stmt tops 6 P0 stmt (E0 5) None = Ok ((w, E'), Some (pcode Sem.ROutOfBounds (mm 4))) /\
    Sem.exec 2 P0 (en0 5) stmt = Sem.Panicked Sem.ROutOfBounds (mm 4).
  Proof.
    destruct (lower_stmt tops 6 P0 stmt (E0 5) None) as [[[w E'] o']| |] eqn:Hrun;
      [|vm_compute in Hrun; discriminate Hrun|vm_compute in Hrun; discriminate Hrun].
    pose proof (stmt_agrees (en0 5) _ 6%nat w E' o' (rel0 5 eq_refl) Hrun) as H.
    assert (Ev : Sem.exec 2 P0 (en0 5) stmt = Sem.Panicked Sem.ROutOfBounds (mm 4)) by (vm_compute; reflexivity).
    rewrite Ev in H. subst o'. eauto.
  Qed.
End SanityAgg.

Print Assumptions tuplit_node.
Print Assumptions tupacc_node.
Print Assumptions structlit_node.
Print Assumptions fld_node.
Print Assumptions arrlit_node.
Print Assumptions arrrep_node.
Print Assumptions range_node.
Print Assumptions idx_node.
Print Assumptions assign_acc_node.
Print Assumptions for_node.
Print Assumptions for_pat_node.
Print Assumptions let_pat_node.
Print Assumptions enumlit_node.
Print Assumptions gpat_agrees.
Print Assumptions match_node.
Print Assumptions keys_all.
Print Assumptions SanityAgg.run_in_bounds.
Print Assumptions SanityAgg.run_out_of_bounds.
Print Assumptions SanityAgg.expr_agrees.
Print Assumptions StructPatternOrder.disagreement.
Print Assumptions StructPatternOrder.duplicate_field_crash.
