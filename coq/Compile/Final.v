(* The end-to-end statement with no "stuck" disjunct: with the exhaustiveness check of the REAL algorithm
   (Exhaust/ExhSem.exh_fns, sound by Exhaust/ExhSound.v) among the Boolean premises, the "Sem.v is
   stuck on `no arm matches`" disjunct of Compile/EndToEnd.v is excluded: the evaluated circuit
   returns exactly the value or exactly the panic of the source semantics. *)
From Coq Require Import Lia ZArith.
From GV Require Import Base.Util Lang.Ast Lang.Wt Lang.ValTy Circuit.Ssa Circuit.Reg Circuit.RegAlloc
  Circuit.RegAllocProofs Builder.Builder Panic.PanicRec Panic.PanicSem Compile.Lower Compile.TSem
  Compile.LowerSound Compile.TSemSafe Compile.TSemTotal Compile.TSemSemExpr Compile.TSemSemFull
  Compile.TSemSemFullCall Compile.TSemSemFullConst Compile.Fragment Compile.TSemSemFullWt Compile.SemFuel
  Compile.EndToEnd Exhaust.ExhSem Exhaust.ExhSound.
From GV Require Lang.Sem.
Local Open Scope N_scope.

Definition certified_exh (fuel : nat) (P : program) : bool := certified fuel P && exh_fns P.

Definition output_exact (fuel : nat) (P : program) (args : list (list bool)) (out : list bool) : Prop :=
  (exists bits l, Sem.run_main fuel P args = Sem.RunOk bits l /\
                  parse_panic out = Ok (inl bits) /\ skipn 161 out = bits) \/
  (exists r m, Sem.run_main fuel P args = Sem.RunPanic r m /\
               parse_panic out = Ok (inr (pr r, ploc32 (ploc_of m)))).

Lemma certified_parts fuel P : certified fuel P = true -> wt_covered 400 P = true.
Proof. intro H. apply (certified_spec fuel P H). Qed.

Lemma output_spec_exact fuel P args out :
  wt_covered 400 P = true -> exh_fns P = true -> canonical_main_args P args = true ->
  output_spec fuel P args out -> output_exact fuel P args out.
Proof.
  intros Hcov Hexh Hcan [H|[H|(_ & c & Hc & _)]]; [left; exact H|right; exact H|].
  exfalso.
  assert (Hle : (400 <= wt_fuel)%nat) by (rewrite wt_fuel_400; apply le_n).
  destruct (covered_exh_run_main P fuel 400 args Hle Hcov Hexh Hcan) as [(b & l & E)|[(r & m & E)|E]]; congruence.
Qed.

Theorem end_to_end_exact fuel dedup P c :
  certified_exh fuel P = true -> within_gate_bound fuel dedup P = true ->
  lower_program_with fuel dedup P = Ok (LCircuit c) ->
  ssa_validate c = None /\ input_gates c = fst (main_wiring P) /\
  forall ins inp,
    load_inputs (input_gates c) ins = Some inp ->
    canonical_main_args P (main_args P inp) = true ->
    exists out, ssa_eval c ins = Some out /\ output_exact fuel P (main_args P inp) out.
Proof.
  unfold certified_exh. intros H Hb Hc. apply andb_prop in H as [Hcert Hexh].
  destruct (end_to_end fuel dedup P c Hcert Hb Hc) as (Hv & Hi & Hall).
  split; [exact Hv|]. split; [exact Hi|]. intros ins inp Hl Hcan.
  destruct (Hall ins inp Hl Hcan) as (out & He & Hs). exists out. split; [exact He|].
  exact (output_spec_exact fuel P _ out (certified_parts fuel P Hcert) Hexh Hcan Hs).
Qed.

Theorem end_to_end_register_exact fuel dedup P c :
  certified_exh fuel P = true -> within_gate_bound fuel dedup P = true ->
  lower_program_with fuel dedup P = Ok (LCircuit c) ->
  exists rc, convert c = Ok rc /\ reg_validate rc = Ok None /\ input_regs rc = fst (main_wiring P) /\
  forall ins inp,
    load_inputs (input_regs rc) ins = Some inp ->
    canonical_main_args P (main_args P inp) = true ->
    exists out, reg_eval rc ins = Some out /\ output_exact fuel P (main_args P inp) out.
Proof.
  unfold certified_exh. intros H Hb Hc. apply andb_prop in H as [Hcert Hexh].
  destruct (end_to_end_register fuel dedup P c Hcert Hb Hc) as (rc & Hcv & Hv & Hi & Hall).
  exists rc. split; [exact Hcv|]. split; [exact Hv|]. split; [exact Hi|]. intros ins inp Hl Hcan.
  destruct (Hall ins inp Hl Hcan) as (out & He & Hs). exists out. split; [exact He|].
  exact (output_spec_exact fuel P _ out (certified_parts fuel P Hcert) Hexh Hcan Hs).
Qed.

Print Assumptions end_to_end_exact.
Print Assumptions end_to_end_register_exact.
