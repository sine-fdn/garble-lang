(* Safety of the lowering on re-checked trees: on a typed AST accepted by the re-checker of
   Lang/Wt.v the Boolean instance of the lowering (Compile/TSem.v) never reaches a [Crash]
   ("accepted programs compile without an internal panic"), every vector it produces has
   exactly the size of the static type of the expression, and the environment keeps the shape
   of the typing environment ([env_shape]).  Proved for expressions, patterns, statements and
   blocks together ([lower_safe_all], by strong induction on the fuel of the lowering: calls
   are inlined, [x * c] is rewritten), then for whole programs ([tsem_program_safe]).

   Side conditions (explicit Boolean predicates, NOT implied by the re-checker; the module
   [Findings] at the end gives, for each, an accepted tree on which the model crashes or
   produces a vector of the wrong size):
   - [node_ok] at every expression node: the annotated type is explored within [Sem.ty_fuel]
     ([ValTy.ty_ok]: definitions exist, no recursion, depth < 40), an integer type has width
     8/16/32/64, an array type has at most 2^32 elements;
   - [idx_ok]: an index expression has at most 32 bits;
   - [ok_acc]: the types annotated on the accessors of an assignment satisfy [node_ok], index
     expressions [idx_ok] (no condition on the element size: [array_write] takes the static
     number of elements);
   - [consts_ok]: a constant's literal has the suffix width of the constant's type.
   - [ok_pat] on a struct pattern: the definition has distinct field names, the pattern names
     no field twice, and binds no variable twice unless it names the fields in definition order.
   The reserved name [MUL_TMP] of the [x * literal] case needs NO side condition here: the sum
   runs in a scope of its own in which the name is bound, whatever the program binds elsewhere.
   (The looseness of Wt.v on struct patterns -- binding order, duplicate fields -- also separates
   Sem.v from the bit-level semantics: Compile/TSemSemAgg.v, [StructPatternOrder].)
   Exclusions (fragment): the [join] built-in and [for ... join] loops ([ok_expr] / [ok_stmt]
     are false on them).
   About the program: [prog_ok] (every function body is accepted under its parameters and the
   constants, and satisfies [ok_stmt]) follows from [wt_program P = true] and [fns_ok P = true]
   ([prog_ok_of_wt]). *)
From Coq Require Import Lia.
From Coq Require Sorting.Permutation.
From GV Require Import Base.Util Lang.Ast Lang.Wt Lang.ValTy Lang.WtSound Lang.WtShape
  Panic.PanicRec Panic.PanicSem Gadgets.GadgetSpec Gadgets.GadgetHoare Gadgets.ExtendProofs
  Compile.Lower Compile.TSem Compile.TSemFacts Compile.TSemArith1 Compile.TSemArith2
  Compile.TSemControl Compile.TySize.
From GV Require Lang.Sem.
Local Open Scope nat_scope.

(* ------------------------------------------------------------------ Hoare-style safety *)

Definition MB (A : Type) := pobs -> Util.res (A * pobs)%type.

(* [m] does not crash (running out of fuel is allowed) and every result satisfies [Q] *)
Definition safe {A} (m : MB A) (Q : A -> Prop) : Prop :=
  forall o, match m o with Crash => False | OutOfFuel => True | Ok (a, _) => Q a end.

Lemma safe_ret {A} (a : A) (Q : A -> Prop) : Q a -> safe (ret a) Q.
Proof. intros H o. exact H. Qed.

Lemma safe_bind {A B} (m : MB A) (k : A -> MB B) (Q1 : A -> Prop) (Q2 : B -> Prop) :
  safe m Q1 -> (forall a, Q1 a -> safe (k a) Q2) -> safe (mbind m k) Q2.
Proof.
  intros Hm Hk o. unfold mbind. specialize (Hm o). destruct (m o) as [[a o']| |]; [|contradiction|exact I].
  apply Hk. exact Hm.
Qed.

Lemma safe_conseq {A} (m : MB A) (Q1 Q2 : A -> Prop) :
  safe m Q1 -> (forall a, Q1 a -> Q2 a) -> safe m Q2.
Proof.
  intros Hm H o. specialize (Hm o). destruct (m o) as [[a o']| |]; auto.
Qed.

Lemma safe_lift {A} (r : Util.res A) (a : A) (Q : A -> Prop) : r = Ok a -> Q a -> safe (lift_res r) Q.
Proof. intros -> H o. exact H. Qed.

Lemma safe_lift_bind {A B} (r : Util.res A) (a : A) (k : A -> MB B) (Q : B -> Prop) :
  r = Ok a -> safe (k a) Q -> safe (mbind (lift_res r) k) Q.
Proof. intros -> H o. apply H. Qed.

Lemma safe_ret_bind {A B} (a : A) (k : A -> MB B) (Q : B -> Prop) :
  safe (k a) Q -> safe (mbind (ret a) k) Q.
Proof. intros H o. apply H. Qed.

Lemma safe_ok {A} (m : MB A) (Q : A -> Prop) :
  (forall o, exists a o', m o = Ok (a, o') /\ Q a) -> safe m Q.
Proof. intros H o. destruct (H o) as (a & o' & -> & Ha). exact Ha. Qed.

Lemma safe_prim {A} (m : MB A) (Q : A -> Prop) (f : pobs -> (A * pobs)%type) :
  (forall o, m o = Ok (f o)) -> (forall o, Q (fst (f o))) -> safe m Q.
Proof. intros H HQ o. rewrite H. specialize (HQ o). destruct (f o). exact HQ. Qed.

Lemma safe_nofuel {A} (Q : A -> Prop) : safe (nofuel (A:=A)) Q.
Proof. intro o. exact I. Qed.

Definition TT {A} : A -> Prop := fun _ => True.

Lemma safe_and x y : safe (m_and tops x y) TT. Proof. intro o. exact I. Qed.
Lemma safe_or x y : safe (m_or tops x y) TT. Proof. intro o. exact I. Qed.
Lemma safe_xor x y : safe (m_xor tops x y) TT. Proof. intro o. exact I. Qed.
Lemma safe_eq x y : safe (m_eq tops x y) TT. Proof. intro o. exact I. Qed.
Lemma safe_not x : safe (m_not tops x) TT. Proof. intro o. exact I. Qed.
Lemma safe_mux s x y : safe (m_mux tops s x y) TT. Proof. intro o. exact I. Qed.
Lemma safe_panic_if c r m : safe (m_panic_if tops c r m) TT. Proof. intro o. exact I. Qed.
Lemma safe_peek : safe (m_peek tops) TT. Proof. intro o. exact I. Qed.
Lemma safe_replace p : safe (m_replace tops p) TT. Proof. intro o. exact I. Qed.
Lemma safe_mux_panic c a b : safe (m_mux_panic tops c a b) TT. Proof. intro o. exact I. Qed.

Lemma bind_TT {A B} (m : MB A) (k : A -> MB B) (Q : B -> Prop) :
  safe m TT -> (forall a, safe (k a) Q) -> safe (mbind m k) Q.
Proof. intros Hm Hk. eapply safe_bind; [exact Hm|]. intros a _. apply Hk. Qed.

Lemma one_wire_safe (w : list bool) : length w = 1 -> safe (one_wire w) TT.
Proof. destruct w as [|a [|b w]]; try discriminate. intros _ o. exact I. Qed.

Lemma eq_acc_safe acc xys : safe (eq_acc tops acc xys) TT.
Proof. intro o. rewrite eq_acc_tops. exact I. Qed.

Lemma comparator_safe bits (x : list bool) sx (y : list bool) sy : bits <= length x -> bits <= length y ->
  safe (o_comparator tops bits x sx y sy) TT.
Proof.
  intros Hx Hy o. cbn [o_comparator tops].
  destruct (Nat.leb_spec bits (length x)); [|lia]. destruct (Nat.leb_spec bits (length y)); [|lia]. exact I.
Qed.

Create HintDb safe discriminated.
#[export] Hint Resolve safe_and safe_or safe_xor safe_eq safe_not safe_mux safe_panic_if safe_peek
  safe_replace safe_mux_panic one_wire_safe eq_acc_safe : safe.

Ltac sprim := eapply bind_TT; [solve [auto with safe]|intro].

Lemma safe_map2 (f : bool -> bool -> MB bool) : (forall a b, safe (f a b) TT) ->
  forall xs ys, length xs = length ys -> safe (map2_M f xs ys) (fun r => length r = length xs).
Proof.
  intros Hf. induction xs as [|x xs IH]; intros [|y ys] L; try discriminate L; cbn [map2_M].
  - apply safe_ret. reflexivity.
  - eapply safe_bind; [apply Hf|]. intros w _.
    eapply safe_bind; [apply IH; now injection L|]. intros ws Hws. apply safe_ret. cbn [length]. now rewrite Hws.
Qed.

Lemma safe_mapM (f : bool -> MB bool) : (forall a, safe (f a) TT) ->
  forall xs, safe (mapM_M f xs) (fun r => length r = length xs).
Proof.
  intros Hf. induction xs as [|x xs IH]; cbn [mapM_M].
  - apply safe_ret. reflexivity.
  - eapply safe_bind; [apply Hf|]. intros w _.
    eapply safe_bind; [apply IH|]. intros ws Hws. apply safe_ret. cbn [length]. now rewrite Hws.
Qed.

Lemma safe_mux_bits c xs ys : length xs = length ys ->
  safe (mux_bits tops c xs ys) (fun r => length r = length xs).
Proof.
  intros L o. rewrite tsem_mux_bits by exact L. destruct c; [reflexivity|now symmetry].
Qed.

(* ------------------------------------------------------------------ sizes of types *)

Definition tyok (P : program) (t : ty) : Prop := ty_ok Sem.ty_fuel P t = true.

Lemma sizeof_S P t : Sem.sizeof P t = Sem.size_of (S (pred Sem.ty_fuel)) P t.
Proof. unfold Sem.sizeof. rewrite <- ty_fuel_S. reflexivity. Qed.

(* [ty_eqb] preserves sizes and well-foundedness *)
Lemma ty_eqb_size P : forall f a b, ty_eqb a b = true -> Sem.size_of f P a = Sem.size_of f P b.
Proof.
  induction f as [|f IH]; intros a b H; [reflexivity|].
  destruct a as [| s1 b1 | e1 n1 | xs | n1 | n1], b as [| s2 b2 | e2 n2 | ys | n2 | n2]; try discriminate H.
  - reflexivity.
  - cbn [ty_eqb] in H. cbn [Sem.size_of]. apply orb_prop in H as [H|H]; apply andb_prop in H as [H1 H2].
    + now apply N.eqb_eq in H2.
    + apply N.eqb_eq in H1, H2. congruence.
  - cbn [ty_eqb] in H. apply andb_prop in H as [H1 H2]. apply N.eqb_eq in H2. subst.
    cbn [Sem.size_of]. now rewrite (IH _ _ H1).
  - rewrite ty_eqb_tup in H. cbn [Sem.size_of]. revert ys H.
    induction xs as [|x xs IHx]; intros [|y ys] H; cbn [forallb2] in H; try discriminate H; [reflexivity|].
    apply andb_prop in H as [H1 H2]. cbn [Sem.sum_map]. now rewrite (IH _ _ H1), (IHx _ H2).
  - cbn [ty_eqb] in H. apply N.eqb_eq in H. now subst.
  - cbn [ty_eqb] in H. apply N.eqb_eq in H. now subst.
Qed.

Lemma ty_eqb_ok P : forall f a b, ty_eqb a b = true -> ty_ok f P a = ty_ok f P b.
Proof.
  induction f as [|f IH]; intros a b H; [reflexivity|].
  destruct a as [| s1 b1 | e1 n1 | xs | n1 | n1], b as [| s2 b2 | e2 n2 | ys | n2 | n2]; try discriminate H;
    try reflexivity.
  - cbn [ty_eqb] in H. apply andb_prop in H as [H1 H2]. cbn [ty_ok]. now apply IH.
  - rewrite ty_eqb_tup in H. cbn [ty_ok]. revert ys H.
    induction xs as [|x xs IHx]; intros [|y ys] H; cbn [forallb2] in H; try discriminate H; [reflexivity|].
    apply andb_prop in H as [H1 H2]. cbn [forallb]. now rewrite (IH _ _ H1), (IHx _ H2).
  - cbn [ty_eqb] in H. apply N.eqb_eq in H. now subst.
  - cbn [ty_eqb] in H. apply N.eqb_eq in H. now subst.
Qed.

Lemma ty_eqb_szn P a b : ty_eqb a b = true -> szn P a = szn P b.
Proof. intro H. unfold szn, Sem.sizeof. now rewrite (ty_eqb_size P _ _ _ H). Qed.

Lemma ty_eqb_tyok P a b : ty_eqb a b = true -> tyok P a -> tyok P b.
Proof. unfold tyok. intros H. now rewrite (ty_eqb_ok P _ _ _ H). Qed.

Lemma ty_eqb_tyok' P a b : ty_eqb a b = true -> tyok P b -> tyok P a.
Proof. unfold tyok. intros H. now rewrite (ty_eqb_ok P _ _ _ H). Qed.

(* sums of sizes, in nat *)
Fixpoint sumsz (P : program) (ts : list ty) : nat :=
  match ts with [] => 0 | t :: r => szn P t + sumsz P r end.

Lemma sumsz_sum P ts : sumsz P ts = list_sum (map (szn P) ts).
Proof. induction ts as [|t ts IH]; [reflexivity|]. cbn [sumsz]. rewrite IH. reflexivity. Qed.

Lemma fold_left_sumsz P ts : forall a, fold_left (fun a t' => a + szn P t') ts a = a + sumsz P ts.
Proof. intro a. rewrite sumsz_sum. apply fold_left_add. Qed.

Lemma szn_tup P ts : tyok P (TTup ts) -> szn P (TTup ts) = sumsz P ts.
Proof. intro H. rewrite sumsz_sum. exact (szn_tup_ok P _ ts H (le_n _)). Qed.

Lemma szn_arr P el n : tyok P (TArr el n) -> szn P (TArr el n) = szn P el * N.to_nat n.
Proof. intro H. exact (szn_arr_ok P _ el n H (le_n _)). Qed.

Lemma szn_struct P name def : tyok P (TStruct name) -> assocN name (p_structs P) = Some def ->
  szn P (TStruct name) = sumsz P (map snd def).
Proof. intro H. rewrite sumsz_sum. exact (szn_struct_ok P _ name def H (le_n _)). Qed.

Lemma szn_enum P name variants : tyok P (TEnum name) -> assocN name (p_enums P) = Some variants ->
  szn P (TEnum name) = enum_max_size P variants.
Proof. intro H. exact (szn_enum_ok P _ name variants H (le_n _)). Qed.

Lemma variant_fits P variants tag ts : nthN variants tag = Some ts ->
  enum_tag_size variants + sumsz P ts <= enum_max_size P variants.
Proof. rewrite sumsz_sum. apply enum_variant_fits. Qed.

Lemma szn_bool P : szn P TBool = 1.
Proof. unfold szn. rewrite sizeof_S. reflexivity. Qed.

Lemma szn_int P s b : szn P (TInt s b) = N.to_nat b.
Proof. unfold szn. rewrite sizeof_S. reflexivity. Qed.

(* ------------------------------------------------------------------ shapes of environments *)

Notation bscope := (@scope bool).
Notation benv := (@cenv bool).
Notation tscope := (list (N * (ty * bool))).

(* keys strictly increasing: the BTreeMap invariant *)
Fixpoint ssorted (s : bscope) : Prop :=
  match s with
  | [] => True
  | (k, _) :: r => Forall (fun p => (k < fst p)%N) r /\ ssorted r
  end.

(* the same names are bound, each to a vector of the size of its type *)
Definition scope_shape (P : program) (sg : tscope) (sE : bscope) : Prop :=
  ssorted sE /\
  forall x, match assocN x sE with
            | Some v => exists t m, assocN x sg = Some (t, m) /\ length v = szn P t
            | None => assocN x sg = None
            end.

Definition env_shape (P : program) (g : tenv) (E : benv) : Prop := Forall2 (scope_shape P) g E.

Lemma scope_shape_nil P : scope_shape P [] [].
Proof. split; [exact I|]. intro x. reflexivity. Qed.

Lemma ssorted_assoc_none (s : bscope) x : Forall (fun p => (x < fst p)%N) s -> assocN x s = None.
Proof.
  induction s as [|[k w] s IH]; intro H; [reflexivity|]. inversion H as [|? ? Hk Hr]; subst.
  cbn [assocN fst] in *. destruct (N.eqb_spec x k); [lia|]. now apply IH.
Qed.

Lemma ssorted_in_assoc (s : bscope) : ssorted s -> forall k v, In (k, v) s -> assocN k s = Some v.
Proof.
  induction s as [|[k0 w] s IH]; intros Hs k v Hin; [contradiction|]. destruct Hs as [Hf Hs].
  cbn [assocN]. destruct Hin as [[= <- <-]|Hin]; [now rewrite N.eqb_refl|].
  destruct (N.eqb_spec k k0) as [->|_]; [|now apply IH].
  rewrite Forall_forall in Hf. specialize (Hf _ Hin). cbn [fst] in Hf. lia.
Qed.

Lemma scope_insert_keys (s : bscope) x v : forall p, In p (scope_insert s x v) -> fst p = x \/ In p s.
Proof.
  induction s as [|[k w] s IH]; intros p Hin; cbn [scope_insert] in Hin.
  - destruct Hin as [<-|[]]. now left.
  - destruct (x <? k)%N.
    + destruct Hin as [<-|Hin]; [now left|now right].
    + destruct (x =? k)%N.
      * destruct Hin as [<-|Hin]; [now left|right; now right].
      * destruct Hin as [<-|Hin]; [right; now left|]. destruct (IH _ Hin); [now left|right; now right].
Qed.

Lemma scope_insert_sorted (s : bscope) x v : ssorted s -> ssorted (scope_insert s x v).
Proof.
  induction s as [|[k w] s IH]; intro Hs; cbn [scope_insert].
  - split; [constructor|exact I].
  - destruct Hs as [Hf Hs]. destruct (N.ltb_spec x k) as [H|H].
    + split; [|split; assumption]. constructor; [exact H|].
      eapply Forall_impl; [|exact Hf]. intros p Hp. cbn beta in *. lia.
    + destruct (N.eqb_spec x k) as [->|Hne].
      * split; assumption.
      * split; [|now apply IH]. apply Forall_forall. intros p Hp.
        destruct (scope_insert_keys _ _ _ _ Hp) as [->|Hin]; [lia|].
        rewrite Forall_forall in Hf. now apply Hf.
Qed.

Lemma scope_shape_insert P sg sE x t m v : scope_shape P sg sE -> length v = szn P t ->
  scope_shape P ((x, (t, m)) :: sg) (scope_insert sE x v).
Proof.
  intros [Hs H] L. split; [now apply scope_insert_sorted|]. intro y.
  destruct (N.eq_dec y x) as [->|Hne].
  - rewrite scope_insert_get. cbn [assocN]. rewrite N.eqb_refl. eauto.
  - rewrite scope_insert_other by exact Hne. cbn [assocN].
    destruct (N.eqb_spec y x); [contradiction|]. apply H.
Qed.

Lemma env_shape_let P s r E x t m v : env_shape P (s :: r) E -> length v = szn P t ->
  exists E', env_let E x v = Ok E' /\ env_shape P (tbind (s :: r) x t m) E'.
Proof.
  intros H L. inversion H as [|? sE ? rE Hs Hr]; subst. cbn [env_let tbind].
  eexists. split; [reflexivity|]. constructor; [now apply scope_shape_insert|exact Hr].
Qed.

Lemma env_shape_get P : forall g E x t m, env_shape P g E -> tlookup g x = Some (t, m) ->
  exists v, env_get E x = Some v /\ length v = szn P t.
Proof.
  induction g as [|s g IH]; intros E x t m H Hl; [discriminate Hl|].
  inversion H as [|? sE ? rE [_ Hs] Hr]; subst. cbn [tlookup env_get] in *.
  specialize (Hs x). destruct (assocN x sE) as [v|].
  - destruct Hs as (t' & m' & E1 & L). rewrite E1 in Hl. injection Hl as -> ->. eauto.
  - rewrite Hs in Hl. eapply IH; eassumption.
Qed.

Lemma scope_replace_keys : forall (sE : bscope) x v s', scope_replace sE x v = Some s' ->
  map fst s' = map fst sE.
Proof.
  induction sE as [|[k w] sE IH]; intros x v s' H; cbn [scope_replace] in H; [discriminate|].
  destruct (x =? k)%N; [now injection H as <-|].
  destruct (scope_replace sE x v) as [r|] eqn:Er; [|discriminate]. injection H as <-.
  cbn [map fst]. f_equal. eapply IH; eauto.
Qed.

Lemma ssorted_keys (a b : bscope) : map fst a = map fst b -> ssorted a -> ssorted b.
Proof.
  revert b. induction a as [|[k w] a IH]; intros [|[k' w'] b] H Hs; try discriminate H; [exact I|].
  cbn [map fst] in H. injection H as -> Hm. destruct Hs as [Hf Hs]. split; [|now apply IH].
  clear - Hf Hm. revert b Hm. induction Hf as [|p a Hp Hf IH]; intros [|q b] Hm; try discriminate Hm; constructor.
  - cbn [map] in Hm. injection Hm as Hq _. now rewrite <- Hq.
  - cbn [map] in Hm. injection Hm as _ Hm. now apply IH.
Qed.

Lemma scope_shape_replace P sg (sE : bscope) x v s' t m : scope_shape P sg sE ->
  scope_replace sE x v = Some s' -> assocN x sg = Some (t, m) -> length v = szn P t ->
  scope_shape P sg s'.
Proof.
  intros [Hs H] Hr Hx L. split.
  - eapply ssorted_keys; [|exact Hs]. symmetry. eapply scope_replace_keys; eauto.
  - intro y. destruct (N.eq_dec y x) as [->|Hne].
    + rewrite (scope_replace_get _ _ _ _ Hr). eauto.
    + rewrite (scope_replace_other _ _ _ _ _ Hr Hne). apply H.
Qed.

Lemma env_shape_assign P : forall g E x t m v, env_shape P g E -> tlookup g x = Some (t, m) ->
  length v = szn P t -> exists E', env_assign E x v = Ok E' /\ env_shape P g E'.
Proof.
  induction g as [|s g IH]; intros E x t m v H Hl L; [discriminate Hl|].
  inversion H as [|? sE ? rE Hs Hr]; subst. cbn [tlookup env_assign] in *.
  destruct (scope_replace sE x v) as [s'|] eqn:Er.
  - eexists. split; [reflexivity|]. constructor; [|exact Hr].
    pose proof (scope_replace_get _ _ _ _ Er) as Hg.
    destruct Hs as [Hso Hs']. pose proof (Hs' x) as Hx.
    destruct (assocN x sE) as [v0|] eqn:E0.
    + destruct Hx as (t' & m' & E1 & _). rewrite E1 in Hl. injection Hl as -> ->.
      eapply scope_shape_replace; eauto. split; assumption.
    + exfalso. clear - Er E0. revert s' Er. induction sE as [|[k w] sE IH]; intros s' Er; cbn [scope_replace assocN] in *; [discriminate|].
      destruct (x =? k)%N; [discriminate|]. destruct (scope_replace sE x v); [|discriminate]. eapply IH; eauto.
  - pose proof (scope_replace_none _ _ _ Er) as Hn. destruct Hs as [Hso Hs']. pose proof (Hs' x) as Hx.
    rewrite Hn in Hx. rewrite Hx in Hl.
    destruct (IH rE x t m v Hr Hl L) as (E' & -> & HE'). cbn [bind]. eexists. split; [reflexivity|].
    constructor; [split; assumption|exact HE'].
Qed.

Lemma env_shape_push P g E : env_shape P g E -> env_shape P ([] :: g) (env_push E).
Proof. intro H. constructor; [apply scope_shape_nil|exact H]. Qed.

Lemma env_shape_pop P s g E : env_shape P (s :: g) E -> exists E', env_pop E = Ok E' /\ env_shape P g E'.
Proof. intro H. inversion H; subst. cbn [env_pop]. eauto. Qed.

Lemma assocN_In' {A} x (l : list (N * A)) v : assocN x l = Some v -> In (x, v) l.
Proof.
  induction l as [|[k w] l IH]; cbn [assocN]; [discriminate|]. destruct (N.eqb_spec x k) as [->|_].
  - intros [= ->]. now left.
  - intro H. right. now apply IH.
Qed.

Lemma ssorted_distinct (s : bscope) : ssorted s -> keys_distinct s.
Proof.
  unfold keys_distinct. induction s as [|[k v] s IH]; intros Hs; cbn [map fst]; constructor.
  - destruct Hs as [Hf _]. intro Hin. apply in_map_iff in Hin as (p & Hp & Hin).
    rewrite Forall_forall in Hf. specialize (Hf p Hin). lia.
  - apply IH, Hs.
Qed.

(* two increasing scopes that bind the same names to vectors of the same lengths *)
Lemma ssorted_same_shape : forall a b : bscope, ssorted a -> ssorted b ->
  (forall x, match assocN x a, assocN x b with
             | Some v, Some w => length v = length w
             | None, None => True
             | _, _ => False
             end) -> same_scope_shape a b.
Proof.
  induction a as [|[k v] a IH]; intros [|[k' v'] b] Sa Sb H.
  - constructor.
  - specialize (H k'). cbn [assocN] in H. now rewrite N.eqb_refl in H.
  - specialize (H k). cbn [assocN] in H. now rewrite N.eqb_refl in H.
  - destruct Sa as [Fa Sa], Sb as [Fb Sb]. rewrite Forall_forall in Fa, Fb.
    assert (k' = k) as ->.
    { pose proof (H k) as Hk. pose proof (H k') as Hk'. cbn [assocN] in Hk, Hk'.
      rewrite N.eqb_refl in Hk, Hk'. destruct (N.eqb_spec k k') as [->|_]; [reflexivity|].
      destruct (N.eqb_spec k' k) as [->|_]; [reflexivity|].
      destruct (assocN k b) as [w|] eqn:Eb; [|contradiction]. destruct (assocN k' a) as [w'|] eqn:Ea; [|contradiction].
      specialize (Fb _ (assocN_In' _ _ _ Eb)). specialize (Fa _ (assocN_In' _ _ _ Ea)). cbn [fst] in Fa, Fb. lia. }
    constructor.
    + specialize (H k). cbn [assocN] in H. rewrite N.eqb_refl in H. now split.
    + apply IH; try assumption. intro x. specialize (H x). cbn [assocN] in H.
      destruct (x =? k)%N eqn:E; [|exact H]. apply N.eqb_eq in E. subst x.
      now rewrite !ssorted_assoc_none by (apply Forall_forall; assumption).
Qed.

Lemma scope_shape_agree P sg (a b : bscope) : scope_shape P sg a -> scope_shape P sg b ->
  same_scope_shape a b /\ keys_distinct b.
Proof.
  intros [Sa Ha] [Sb Hb]. split; [|now apply ssorted_distinct]. apply ssorted_same_shape; try assumption.
  intro x. specialize (Ha x). specialize (Hb x).
  destruct (assocN x a) as [v|], (assocN x b) as [w|]; try exact I.
  - destruct Ha as (t & m & Et & L), Hb as (t' & m' & Et' & L'). congruence.
  - destruct Ha as (t & m & Et & _). congruence.
  - destruct Hb as (t & m & Et & _). congruence.
Qed.

Lemma env_shape_agree P g (a b : benv) : env_shape P g a -> env_shape P g b ->
  same_env_shape a b /\ Forall keys_distinct b.
Proof.
  intros Ha. revert b. induction Ha as [|sg sa g a Hs _ IH]; intros b Hb; inversion Hb as [|? sb ? b' Hs' Hb']; subst.
  - split; constructor.
  - destruct (scope_shape_agree P sg sa sb Hs Hs'), (IH b' Hb'). split; constructor; assumption.
Qed.

Lemma mux_envs_safe P c g (a b : benv) : env_shape P g a -> env_shape P g b ->
  safe (mux_envs tops c a b) (env_shape P g).
Proof.
  intros Ha Hb o. destruct (env_shape_agree P g a b Ha Hb) as [Hs Hd].
  rewrite tsem_mux_envs by assumption. now destruct c.
Qed.

(* ------------------------------------------------------------------ operators *)

Lemma nonempty_pos {A} (l : list A) : 0 < length l -> l <> [].
Proof. destruct l; cbn [length]; [lia|discriminate]. Qed.

Lemma as_wires_length_u n k : length (unsigned_as_wires tops n k) = k.
Proof. unfold unsigned_as_wires. now rewrite map_length, seq_length. Qed.
Lemma as_wires_length_s z k : length (signed_as_wires tops z k) = k.
Proof. unfold signed_as_wires. now rewrite map_length, seq_length. Qed.

Lemma extend_safe (v : list bool) t bits : length v <= bits ->
  safe (m_extend tops v t bits) (fun r => length r = bits).
Proof.
  intros L o. unfold m_extend, lift_res. rewrite tsem_extend_g by exact L. now apply extend_s_length.
Qed.

Lemma extend_same (v : list bool) t (o : pobs) : m_extend tops v t (length v) o = Ok (v, o).
Proof.
  unfold m_extend, lift_res, extend_g. destruct v as [|a v]; [reflexivity|]. now rewrite Nat.eqb_refl.
Qed.

Definition arith_op (o : binop) : bool :=
  match o with OAdd | OSub | OMul | ODiv | OMod | OBitAnd | OBitXor | OBitOr => true | _ => false end.

Lemma arith_safe o t tx ty_ (x y : list bool) m : x <> [] -> length x = length y -> arith_op o = true ->
  safe (lower_binop tops o t tx ty_ x y m) (fun r => length r = length x).
Proof.
  intros Hne Hl Ho o0. destruct o; try discriminate Ho.
  - destruct (is_signed tx || is_signed ty_) eqn:Hs.
    + pose proof (lower_add_signed t tx ty_ x y m o0 Hne Hl Hs) as E. cbv zeta in E. rewrite E. apply length_enc.
    + pose proof (lower_add_unsigned t tx ty_ x y m o0 Hne Hl Hs) as E. cbv zeta in E. rewrite E. apply length_enc.
  - destruct (is_signed t) eqn:Hs.
    + pose proof (lower_sub_signed t tx ty_ x y m o0 Hne Hl Hs) as E. cbv zeta in E. rewrite E. apply length_enc.
    + pose proof (lower_sub_unsigned t tx ty_ x y m o0 Hne Hl Hs) as E. cbv zeta in E. rewrite E. apply length_enc.
  - destruct (tsem_binop_mul_checked t tx ty_ x y m o0 Hne Hl) as (r & -> & L & _). exact L.
  - destruct (is_signed t) eqn:Hs.
    + pose proof (lower_div_signed t tx ty_ x y m o0 Hne Hl Hs) as E. cbv zeta in E. rewrite E. apply length_enc.
    + pose proof (lower_div_unsigned t tx ty_ x y m o0 Hne Hl Hs) as E. cbv zeta in E. rewrite E. apply length_enc.
  - destruct (is_signed t) eqn:Hs.
    + pose proof (lower_mod_signed t tx ty_ x y m o0 Hne Hl Hs) as E. cbv zeta in E. rewrite E. apply length_enc.
    + pose proof (lower_mod_unsigned t tx ty_ x y m o0 Hne Hl Hs) as E. cbv zeta in E. rewrite E. apply length_enc.
  - rewrite lower_bitand by assumption. now apply zipw_length.
  - rewrite lower_bitxor by assumption. now apply zipw_length.
  - rewrite lower_bitor by assumption. now apply zipw_length.
Qed.

Lemma cmp_safe o t tx ty_ (x y : list bool) m : length x = length y ->
  match o with OGt | OLt | OEq | ONe => True | _ => False end ->
  safe (lower_binop tops o t tx ty_ x y m) (fun r => length r = 1).
Proof.
  intros Hl Ho o0. unfold lower_binop.
  assert (Nat.max (length x) (length y) = length x) as -> by (rewrite Hl; apply Nat.max_id).
  assert (Ey : forall o, m_extend tops y ty_ (length x) o = Ok (y, o)) by (intro; rewrite Hl; apply extend_same).
  unfold mbind at 1. rewrite extend_same. unfold mbind at 1. rewrite Ey.
  destruct o; try contradiction.
  - unfold mbind. rewrite comparator_same_length by exact Hl.
    destruct (cmp_s (length x) x (is_signed tx) y (is_signed ty_)) as [lt gt]. reflexivity.
  - unfold mbind. rewrite comparator_same_length by exact Hl.
    destruct (cmp_s (length x) x (is_signed tx) y (is_signed ty_)) as [lt gt]. reflexivity.
  - rewrite Hl, Nat.eqb_refl. unfold mbind. rewrite eq_acc_tops. reflexivity.
  - rewrite Hl, Nat.eqb_refl. unfold mbind. rewrite eq_acc_tops. reflexivity.
Qed.

Lemma shift_safe left sg (x y : list bool) m : length y = 8 -> In (length x) [8; 16; 32; 64] ->
  safe (lower_shift tops left sg x y m) (fun r => length r = length x).
Proof.
  intros Hy Hx o. rewrite tsem_lower_shift by assumption. apply shift_once_length.
Qed.

(* ------------------------------------------------------------------ side conditions *)

Definition width_ok (b : N) : bool := ((b =? 8) || (b =? 16) || (b =? 32) || (b =? 64))%N.

(* the annotated type of a node: explored within [ty_fuel], an integer has one of the four
   widths, an array has at most 2^32 elements (the index is a 32-bit usize) *)
Definition node_ok (P : program) (t : ty) : bool :=
  ty_ok Sem.ty_fuel P t &&
  match t with TInt _ b => width_ok b | TArr _ n => (n <=? 2 ^ 32)%N | _ => true end.

(* the type of an index expression: at most 32 bits *)
Definition idx_ok (t : ty) : bool := match t with TInt _ b => (b <=? 32)%N | _ => false end.

Fixpoint nodupb (l : list N) : bool :=
  match l with
  | [] => true
  | x :: r => negb (existsb (N.eqb x) r) && nodupb r
  end.

(* [fs] is a subsequence of [ds] *)
Fixpoint subseqb (fs ds : list N) : bool :=
  match ds with
  | [] => match fs with [] => true | _ => false end
  | d :: dr =>
      match fs with
      | [] => true
      | f :: fr => if (f =? d)%N then subseqb fr dr else subseqb fs dr
      end
  end.

(* struct patterns: the definition has distinct field names, no field is named twice, and
   either no variable is bound twice or the pattern names the fields in the order of the
   definition (the lowering visits the fields in definition order, the re-checker in the order
   of the pattern: with the same order the bindings are made in the same order, and a name
   bound twice -- the wildcard `_` is a name -- is shadowed in the same way) *)
Fixpoint ok_pat (P : program) (p : pattern) {struct p} : bool :=
  match p with
  | Pat pi _ _ =>
      match pi with
      | PTup ps | PEnumTup _ _ ps => forallb (ok_pat P) ps
      | PStruct name _ fields =>
          match assocN name (p_structs P) with Some def => nodupb (map fst def) | None => false end &&
          nodupb (map fst fields) &&
          (match wt_pat P p with Some bs => nodupb (map fst bs) | None => true end ||
           match assocN name (p_structs P) with
           | Some def => subseqb (map fst fields) (map fst def)
           | None => false
           end) &&
          forallb (fun f => ok_pat P (snd f)) fields
      | _ => true
      end
  end.

Fixpoint ok_expr (P : program) (e : expr) {struct e} : bool :=
  match e with
  | Ex ei _ t =>
    node_ok P t &&
    match ei with
    | ETrue | EFalse | ENumU _ _ | ENumS _ _ | EId _ | ERange _ _ _ => true
    | EArrLit es | ETupLit es | EEnumLit _ _ es | ECall _ es => forallb (ok_expr P) es
    | EArrRep e1 _ | ETupAcc e1 _ | EFld e1 _ | ENeg e1 | ENot e1 | ECast _ e1 => ok_expr P e1
    | EIdx a i => idx_ok (e_ty i) && ok_expr P a && ok_expr P i
    | EStructLit _ fields => forallb (fun fe => ok_expr P (snd fe)) fields
    | EMatch s arms => ok_expr P s && forallb (fun arm => ok_pat P (fst arm) && ok_expr P (snd arm)) arms
    | EOp _ x y => ok_expr P x && ok_expr P y
    | EBlock b => forallb (ok_stmt P) b
    | EJoin _ _ _ _ => false
    | EIf c a b => ok_expr P c && ok_expr P a && ok_expr P b
    end
  end
with ok_stmt (P : program) (s : stmt) {struct s} : bool :=
  match s with
  | St si _ =>
    match si with
    | SLet p e => ok_pat P p && ok_expr P e
    | SLetMut _ e => ok_expr P e
    | SAssign _ accs e => forallb (ok_acc P) accs && ok_expr P e
    | SFor p arr body => ok_pat P p && ok_expr P arr && forallb (ok_stmt P) body
    | SJoinLoop _ _ _ _ _ => false
    | SExpr e => ok_expr P e
    end
  end
with ok_acc (P : program) (a : accessor) {struct a} : bool :=
  match a with
  | AIdx aty i => node_ok P aty && idx_ok (e_ty i) && ok_expr P i
  | ATup tty _ => node_ok P tty
  | AFld sty _ => node_ok P sty
  end.

(* ------------------------------------------------------------------ typing environments *)

Definition sbind_all (s : tscope) (bs : list (N * ty)) (m : bool) : tscope :=
  fold_left (fun s b => (fst b, (snd b, m)) :: s) bs s.

Lemma tbind_all_cons s r bs m : tbind_all (s :: r) bs m = sbind_all s bs m :: r.
Proof.
  revert s. induction bs as [|b bs IH]; intro s; [reflexivity|].
  unfold tbind_all, sbind_all in *. cbn [fold_left tbind]. apply IH.
Qed.

(* the scope of the global constants *)
Definition gscope (P : program) : tscope :=
  sbind_all [] (map (fun c => (fst c, e_ty (snd c))) (p_consts P)) false.

Lemma consts_tenv_gscope P : consts_tenv P = [gscope P].
Proof. unfold consts_tenv. now rewrite tbind_all_cons. Qed.

(* the outermost scope of the typing environment is the scope of the constants *)
Definition genv (P : program) (g : tenv) : Prop := exists g', g = g' ++ [gscope P].

Lemma genv_cons P s g : genv P g -> genv P (s :: g).
Proof. intros [g' ->]. now exists (s :: g'). Qed.

Definition epost (P : program) (g : tenv) (t : ty) : list bool * benv -> Prop :=
  fun r => length (fst r) = szn P t /\ env_shape P g (snd r).

Lemma node_ok_tyok P t : node_ok P t = true -> tyok P t.
Proof. unfold node_ok. intro H. now apply andb_prop in H as [H _]. Qed.

Lemma node_ok_width P s b : node_ok P (TInt s b) = true -> In (N.to_nat b) [8; 16; 32; 64].
Proof.
  unfold node_ok, width_ok. intro H. apply andb_prop in H as [_ H].
  repeat (apply orb_prop in H as [H|H]); apply N.eqb_eq in H; subst b; cbn; auto.
Qed.

Lemma in_widths_pos n : In n [8; 16; 32; 64] -> 0 < n.
Proof. cbn. intros [<-|[<-|[<-|[<-|[]]]]]; lia. Qed.

Lemma ty_eqb_int_l t s b : ty_eqb t (TInt s b) = true -> exists s' b', t = TInt s' b'.
Proof. destruct t; try discriminate. eauto. Qed.
Lemma ty_eqb_bool_l t : ty_eqb t TBool = true -> t = TBool.
Proof. destruct t; try discriminate. reflexivity. Qed.

Ltac andb_split H :=
  match type of H with
  | (_ && _)%bool = true => let H1 := fresh H in apply andb_prop in H as [H H1]; andb_split H; andb_split H1
  | _ => idtac
  end.

Lemma wt_stmt_tail fw P s r st g' t : wt_stmt fw P (s :: r) st = Some (g', t) -> exists s', g' = s' :: r.
Proof.
  destruct fw as [|f]; [discriminate|]. destruct st as [si m]. cbn [wt_stmt]. intro H.
  destruct si;
    repeat match type of H with context [match ?x with _ => _ end] => destruct x; try discriminate H end;
    injection H as <- <-; rewrite ?tbind_all_cons; cbn [tbind]; eauto.
Qed.

Lemma szn_unit P : szn P unit_ty = 0.
Proof. unfold szn, unit_ty. rewrite sizeof_S. reflexivity. Qed.

(* ------------------------------------------------------------------ array indexing *)

Lemma half_SS n : (S (S n) + 1) / 2 = S ((n + 1) / 2).
Proof. replace (S (S n) + 1) with (n + 1 + 1 * 2) by lia. rewrite Nat.div_add by lia. lia. Qed.

Lemma index_layer_unfold f s (arr : list bool) eb : arr <> [] ->
  index_layer tops (S f) s arr eb =
  match skipn eb arr with
  | [] => mapM_M (fun a0 => m_mux tops s (wT tops) a0) (firstn eb arr)
  | _ => mbind (map2_M (fun a1 a0 => m_mux tops s a1 a0) (firstn eb (skipn eb arr)) (firstn eb arr)) (fun ws =>
         mbind (index_layer tops f s (skipn eb (skipn eb arr)) eb) (fun r => ret (ws ++ r)))
  end.
Proof. destruct arr; [congruence|reflexivity]. Qed.

Lemma index_layer_safe s eb : 0 < eb -> forall fuel n (arr : list bool), length arr = n * eb ->
  safe (index_layer tops fuel s arr eb) (fun r => length r = ((n + 1) / 2) * eb).
Proof.
  intro Heb. induction fuel as [|f IH]; intros n arr L; [apply safe_nofuel|].
  destruct n as [|[|n]].
  - apply length_zero_iff_nil in L. subst arr. apply safe_ret. reflexivity.
  - rewrite index_layer_unfold by (apply nonempty_pos; lia).
    assert (skipn eb arr = []) as -> by (apply length_zero_iff_nil; rewrite skipn_length; lia).
    eapply safe_conseq; [apply safe_mapM; intro; apply safe_mux|]. intros r Hr. cbn beta in Hr.
    rewrite Hr, firstn_length. change ((1 + 1) / 2) with 1. lia.
  - rewrite index_layer_unfold by (apply nonempty_pos; lia).
    assert (length (skipn eb arr) = S n * eb) as Lr by (rewrite skipn_length; lia).
    destruct (skipn eb arr) as [|b0 rest0] eqn:Er; [cbn [length] in Lr; lia|]. rewrite <- Er in *. clear Er b0 rest0.
    eapply safe_bind; [apply safe_map2; [intros; apply safe_mux|rewrite !firstn_length; lia]|]. intros ws Hws.
    eapply safe_bind; [apply (IH n); rewrite skipn_length; lia|]. intros r Hr.
    apply safe_ret. rewrite app_length, Hws, Hr, firstn_length, half_SS. lia.
Qed.

Lemma index_layers_zero : forall (idx : list bool), safe (index_layers tops idx [] 0) (fun r => r = []).
Proof.
  induction idx as [|s idx IH]; cbn [index_layers]; [now apply safe_ret|].
  cbn [Nat.eqb]. apply safe_ret_bind. exact IH.
Qed.

Lemma index_layers_safe eb : 0 < eb -> forall (idx : list bool) n (arr : list bool), length arr = n * eb ->
  n <= 2 ^ length idx ->
  safe (index_layers tops idx arr eb) (fun r => length r = (if n =? 0 then 0 else 1) * eb).
Proof.
  intro Heb. induction idx as [|s idx IH]; intros n arr L Hn; cbn [index_layers].
  - apply safe_ret. cbn [length Nat.pow] in Hn. destruct n as [|[|n]]; cbn [Nat.eqb]; lia.
  - destruct (Nat.eqb_spec eb 0) as [|_]; [lia|].
    eapply safe_bind; [apply index_layer_safe; eassumption|]. intros arr' L'.
    eapply safe_conseq; [apply (IH ((n + 1) / 2)); [exact L'|]|].
    + cbn [length Nat.pow] in Hn. enough ((n + 1) / 2 < S (2 ^ length idx)) by lia.
      apply Nat.div_lt_upper_bound; lia.
    + intros r Hr. cbn beta in Hr. rewrite Hr. destruct n as [|n]; [reflexivity|].
      destruct (Nat.eqb_spec ((S n + 1) / 2) 0) as [H0|_]; [|reflexivity].
      exfalso. assert (1 <= (S n + 1) / 2) by (apply Nat.div_le_lower_bound; lia). lia.
Qed.

Lemma array_read_safe (arr idx : list bool) eb n ne m : length idx <= 32 -> length arr = n * eb -> n <= 2 ^ 32 ->
  safe (array_read tops arr idx eb ne m) (fun r => length (fst r) = eb /\ length (snd r) = 32).
Proof.
  intros Hi L Hn. unfold array_read.
  eapply safe_bind; [apply extend_safe; exact Hi|]. intros index Hx. unfold USZ in *.
  assert (safe (index_layers tops (rev index) arr eb) (fun r => length r = eb \/ r = [])) as Hl.
  { destruct (Nat.eq_dec eb 0) as [->|Hne].
    - assert (arr = []) as -> by (apply length_zero_iff_nil; lia).
      eapply safe_conseq; [apply index_layers_zero|]. intros r ->. now right.
    - eapply safe_conseq; [apply (index_layers_safe eb ltac:(lia) (rev index) n arr L); rewrite rev_length, Hx; exact Hn|].
      intros r Hr. cbn beta in Hr. destruct (n =? 0); [right; apply length_zero_iff_nil; lia|left; lia]. }
  eapply safe_bind; [exact Hl|]. intros arr' Ha.
  eapply safe_bind.
  { unfold bounds_check. eapply safe_bind; [apply comparator_safe; [unfold USZ; lia|rewrite as_wires_length_u; unfold USZ; lia]|].
    intros [lt ?] _. eapply safe_bind; [apply safe_not|]. intros oob _. apply safe_panic_if. }
  intros _ _. apply safe_ret. cbn [fst snd]. split; [|exact Hx].
  destruct arr' as [|a0 r0]; [apply repeat_length|]. destruct Ha as [Ha|Ha]; [exact Ha|discriminate].
Qed.

Lemma slice_ok {A} (v : list A) a n : a + n <= length v ->
  exists r, slice v a n = Ok r /\ length r = n.
Proof.
  intro H. unfold slice. destruct (Nat.leb_spec (a + n) (length v)); [|lia].
  eexists. split; [reflexivity|]. rewrite firstn_length, skipn_length. lia.
Qed.

Lemma bind_slice {A B} (v : list A) a n (k : list A -> MB B) (Q : B -> Prop) : a + n <= length v ->
  (forall r, length r = n -> safe (k r) Q) -> safe (mbind (lift_res (slice v a n)) k) Q.
Proof.
  intros H Hk. destruct (slice_ok v a n H) as (r & Hr & L). eapply safe_lift_bind; [exact Hr|]. now apply Hk.
Qed.

Lemma sumsz_app P a b : sumsz P (a ++ b) = sumsz P a + sumsz P b.
Proof. induction a as [|t a IH]; cbn [app sumsz]; [reflexivity|]. rewrite IH. lia. Qed.

Lemma sumsz_nth P : forall i ts ti, nth_error ts i = Some ti -> sumsz P (firstn i ts) + szn P ti <= sumsz P ts.
Proof.
  induction i as [|i IH]; intros [|t ts] ti H; cbn [nth_error] in H; try discriminate H.
  - injection H as ->. cbn [firstn sumsz]. lia.
  - cbn [firstn sumsz]. specialize (IH ts ti H). lia.
Qed.

Lemma concat_sumsz P (ws : list (list bool)) ts : Forall2 (fun w t => length w = szn P t) ws ts ->
  length (concat ws) = sumsz P ts.
Proof.
  induction 1 as [|w t ws ts Hw _ IH]; [reflexivity|]. cbn [concat sumsz]. rewrite app_length, Hw, IH. reflexivity.
Qed.

Lemma sumsz_repeat P el k : sumsz P (repeat el k) = szn P el * k.
Proof. induction k as [|k IH]; cbn [repeat sumsz]; [lia|]. rewrite IH. lia. Qed.

Lemma field_offsets_ok P : forall (def : list (N * ty)) fld ft before, assocN fld def = Some ft ->
  exists wb, field_offsets P def fld before = Ok (wb, szn P ft) /\ wb + szn P ft <= before + sumsz P (map snd def).
Proof.
  induction def as [|[k t] def IH]; intros fld ft before H; cbn [assocN] in H; [discriminate|].
  cbn [field_offsets map snd sumsz]. rewrite N.eqb_sym.
  destruct (fld =? k)%N.
  - injection H as ->. eexists. split; [reflexivity|]. lia.
  - destruct (IH fld ft (before + szn P t) H) as (wb & -> & Hle). eexists. split; [reflexivity|]. lia.
Qed.

(* ------------------------------------------------------------------ the re-checker depends on the
   typing environment only through [tlookup] *)

Definition tequiv (g1 g2 : tenv) : Prop := forall x, tlookup g1 x = tlookup g2 x.

Lemma tlookup_tbind g x t m y :
  tlookup (tbind g x t m) y = if (y =? x)%N then Some (t, m) else tlookup g y.
Proof. destruct g as [|s r]; cbn [tbind tlookup assocN]; destruct (y =? x)%N; reflexivity. Qed.

Lemma tequiv_push g1 g2 : tequiv g1 g2 -> tequiv ([] :: g1) ([] :: g2).
Proof. intros H x. cbn [tlookup assocN]. apply H. Qed.

Lemma tequiv_tbind g1 g2 x t m : tequiv g1 g2 -> tequiv (tbind g1 x t m) (tbind g2 x t m).
Proof. intros H y. rewrite !tlookup_tbind. now rewrite H. Qed.

Lemma tequiv_tbind_all bs m : forall g1 g2, tequiv g1 g2 -> tequiv (tbind_all g1 bs m) (tbind_all g2 bs m).
Proof.
  unfold tbind_all. induction bs as [|b bs IH]; intros g1 g2 H; cbn [fold_left]; [exact H|].
  apply IH. now apply tequiv_tbind.
Qed.

Lemma forallb_ext' {A} (f h : A -> bool) l : (forall a, f a = h a) -> forallb f l = forallb h l.
Proof. intro H. induction l as [|a l IH]; cbn [forallb]; [reflexivity|]. now rewrite H, IH. Qed.

Lemma forallb2_ext' {A B} (f h : A -> B -> bool) xs ys : (forall a b, f a b = h a b) ->
  forallb2 f xs ys = forallb2 h xs ys.
Proof.
  intro H. revert ys. induction xs as [|x xs IH]; intros [|y ys]; cbn [forallb2]; try reflexivity.
  now rewrite H, IH.
Qed.

Definition stmt_rel (r1 r2 : option (tenv * ty)) : Prop :=
  match r1, r2 with
  | Some (g1', t1), Some (g2', t2) => t1 = t2 /\ tequiv g1' g2'
  | None, None => True
  | _, _ => False
  end.

Lemma wt_stmts_equiv f P : (forall s g1 g2, tequiv g1 g2 -> stmt_rel (wt_stmt f P g1 s) (wt_stmt f P g2 s)) ->
  forall b g1 g2 last, tequiv g1 g2 -> wt_go (wt_stmt f P) b g1 last = wt_go (wt_stmt f P) b g2 last.
Proof.
  intro IHs. induction b as [|s b IH]; intros g1 g2 last H; cbn [wt_go]; [reflexivity|].
  specialize (IHs s g1 g2 H). unfold stmt_rel in IHs.
  destruct (wt_stmt f P g1 s) as [[g1' t1]|], (wt_stmt f P g2 s) as [[g2' t2]|]; try contradiction; [|reflexivity].
  destruct IHs as [-> H']. now apply IH.
Qed.

Lemma wt_equiv P : forall f,
  (forall e g1 g2, tequiv g1 g2 -> wt_expr f P g1 e = wt_expr f P g2 e) /\
  (forall b g1 g2, tequiv g1 g2 -> wt_block f P g1 b = wt_block f P g2 b) /\
  (forall s g1 g2, tequiv g1 g2 -> stmt_rel (wt_stmt f P g1 s) (wt_stmt f P g2 s)).
Proof.
  induction f as [|f (IHe & IHb & IHs)]; [repeat split; intros; exact I || reflexivity|].
  split; [|split].
  - intros [ei m t] g1 g2 H. cbn [wt_expr].
    destruct ei;
      repeat first
        [ reflexivity
        | rewrite (IHe _ g1 g2 H)
        | rewrite (IHb _ _ _ (tequiv_push _ _ H))
        | rewrite (H _)
        | apply forallb_ext'; intros
        | apply forallb2_ext'; intros
        | apply IHe; apply tequiv_tbind_all; apply tequiv_push; exact H
        | match goal with |- context [match ?x with _ => _ end] => destruct x end
        | apply (f_equal2 andb) ].
  - intros b g1 g2 H. rewrite !wt_block_eq. now apply wt_stmts_equiv.
  - intros [si m] g1 g2 H. cbn [wt_stmt]. destruct si.
    + rewrite (IHe _ g1 g2 H). destruct (wt_expr f P g2 e && ty_eqb (p_ty p) (e_ty e)); [|exact I].
      destruct (wt_pat P p); [|exact I]. split; [reflexivity|now apply tequiv_tbind_all].
    + rewrite (IHe _ g1 g2 H). destruct (wt_expr f P g2 e); [|exact I]. split; [reflexivity|now apply tequiv_tbind].
    + rewrite (H name). destruct (tlookup g2 name) as [[tx [|]]|]; try exact I.
      match goal with |- stmt_rel (match ?F1 accs tx with _ => _ end) (match ?F2 accs tx with _ => _ end) =>
        assert (forall accs cur, F1 accs cur = F2 accs cur) as Hgo end.
      { induction accs0 as [|a accs0 IHa]; intro cur; [reflexivity|].
        destruct a; destruct cur; try reflexivity.
        - rewrite (IHe _ g1 g2 H). destruct (ty_eqb arr_ty (TArr cur len) && is_unsigned (e_ty i) && wt_expr f P g2 i); [apply IHa|reflexivity].
        - destruct (ty_eqb tup_ty (TTup fields)); [|reflexivity]. destruct (nthN fields i); [apply IHa|reflexivity].
        - destruct (ty_eqb struct_ty (TStruct name0)); [|reflexivity].
          destruct (assocN name0 (p_structs P)); [|reflexivity]. destruct (assocN fld l); [apply IHa|reflexivity]. }
      rewrite Hgo. match goal with |- stmt_rel (match ?X with _ => _ end) _ => destruct X end; [|exact I].
      rewrite (IHe _ g1 g2 H). destruct (ty_eqb t (e_ty e) && wt_expr f P g2 e); [|exact I]. split; [reflexivity|exact H].
    + destruct (e_ty arr); try exact I. rewrite (IHe _ g1 g2 H).
      destruct (wt_expr f P g2 arr && ty_eqb (p_ty p) t); [|exact I]. destruct (wt_pat P p) as [bs|]; [|exact I].
      rewrite (IHb body _ _ (tequiv_tbind_all bs false _ _ (tequiv_push _ _ H))).
      destruct (wt_block f P (tbind_all ([] :: g2) bs false) body); [|exact I]. split; [reflexivity|exact H].
    + destruct (e_ty a); try exact I. destruct (e_ty b); try exact I. rewrite !(IHe _ g1 g2 H).
      match goal with |- stmt_rel (if ?c then _ else _) _ => destruct c end; [|exact I].
      destruct (wt_pat P p) as [bs|]; [|exact I].
      rewrite (IHb body _ _ (tequiv_tbind_all bs false _ _ (tequiv_push _ _ H))).
      destruct (wt_block f P (tbind_all ([] :: g2) bs false) body); [|exact I]. split; [reflexivity|exact H].
    + rewrite (IHe _ g1 g2 H). destruct (wt_expr f P g2 e); [|exact I]. split; [reflexivity|exact H].
Qed.

(* ------------------------------------------------------------------ assignment through accessors *)

Definition is_aidx (a : accessor) : bool := match a with AIdx _ _ => true | _ => false end.
Definition nidx (accs : list accessor) : nat := length (filter is_aidx accs).

Notation acc_item := (list bool * nat * nat * option (list bool))%type.

Fixpoint chain_ok (acc : list acc_item) (inner outer : nat) : Prop :=
  match acc with
  | [] => inner = outer
  | (before, a, n, Some iw) :: r => a = inner /\ length iw = 32 /\ chain_ok r (length before) outer
  | (before, a, n, None) :: r => n = inner /\ a + n <= length before /\ chain_ok r (length before) outer
  end.

Lemma write_chain_safe x0 i : forall (index neg : list bool) x1, safe (write_chain tops x0 x1 i index neg) TT.
Proof.
  induction index as [|ix ir IH]; intros neg x1; cbn [write_chain]; [apply safe_ret; exact I|].
  destruct neg as [|nx nr]; [apply safe_ret; exact I|].
  eapply safe_bind; [apply safe_mux|]. intros x1' _. apply IH.
Qed.

Lemma write_elem_safe i (index neg : list bool) : forall (elem value : list bool), length elem <= length value ->
  safe (write_elem tops elem value i index neg) (fun r => length r = length elem).
Proof.
  induction elem as [|x0 er IH]; intros value L; cbn [write_elem]; [apply safe_ret; reflexivity|].
  destruct value as [|v vr]; [cbn [length] in L; lia|]. cbn [length] in L.
  eapply safe_bind; [apply write_chain_safe|]. intros w _.
  eapply safe_bind; [apply IH; lia|]. intros ws Hws. apply safe_ret. cbn [length]. now rewrite Hws.
Qed.

Lemma write_elems_safe eb (value index neg : list bool) : length value = eb ->
  forall fuel (arr : list bool) i, safe (write_elems tops fuel arr eb value i index neg) (fun r => length r = length arr).
Proof.
  intros Lv. induction fuel as [|f IH]; intros arr i; cbn [write_elems]; [apply safe_nofuel|].
  destruct (Nat.ltb_spec (length arr) eb) as [Hlt|Hge]; [apply safe_ret; reflexivity|].
  destruct arr as [|a0 arr0] eqn:Ea; [apply safe_ret; reflexivity|]. rewrite <- Ea in *. clear Ea a0 arr0.
  eapply safe_bind; [apply write_elem_safe; rewrite firstn_length; lia|]. intros e He.
  eapply safe_bind; [apply IH|]. intros r Hr. apply safe_ret.
  rewrite app_length, He, Hr, firstn_length, skipn_length. lia.
Qed.

Lemma bounds_check_safe (index : list bool) n m : length index = 32 -> safe (bounds_check tops index n m) TT.
Proof.
  intro L. unfold bounds_check.
  eapply safe_bind; [apply comparator_safe; [unfold USZ; lia|rewrite as_wires_length_u; unfold USZ; lia]|].
  intros [lt ?] _. eapply safe_bind; [apply safe_not|]. intros oob _. apply safe_panic_if.
Qed.

Lemma array_write_safe (arr : list bool) eb size (iw value : list bool) m : length iw = 32 -> length value = eb ->
  safe (array_write tops arr eb size iw value m) (fun r => length r = length arr).
Proof.
  intros Li Lv. unfold array_write.
  eapply safe_bind; [apply extend_safe; unfold USZ; lia|]. intros index Hx. unfold USZ in Hx.
  eapply safe_bind; [apply safe_mapM; intro; apply safe_not|]. intros neg _.
  eapply safe_bind; [apply (write_elems_safe eb value index neg); exact Lv|]. intros arr' Ha.
  eapply safe_bind; [now apply bounds_check_safe|]. intros _ _. apply safe_ret.
  rewrite app_length, Ha, firstn_length, skipn_length. lia.
Qed.

Lemma assign_backward_safe m : forall acc (value : list bool) inner outer, chain_ok acc inner outer ->
  length value = inner -> safe (assign_backward tops m acc value) (fun v => length v = outer).
Proof.
  induction acc as [|[[[before a] n] [iw|]] acc IH]; intros value inner outer Hc L; cbn [assign_backward chain_ok] in *.
  - apply safe_ret. congruence.
  - destruct Hc as (-> & Li & Hc).
    eapply safe_bind; [now apply array_write_safe|]. intros v' Hv'. eapply IH; eassumption.
  - destruct Hc as (-> & Hle & Hc). subst inner.
    assert (splice before a (length value) value = Ok (firstn a before ++ value ++ skipn (a + length value) before)) as Hsp.
    { unfold splice. destruct (Nat.leb_spec (a + length value) (length before)); [|lia]. now rewrite Nat.eqb_refl. }
    eapply safe_lift_bind; [exact Hsp|]. eapply IH; [eassumption|].
    rewrite !app_length, firstn_length, skipn_length. lia.
Qed.

(* ------------------------------------------------------------------ association lists *)

Lemma nodupb_NoDup l : nodupb l = true -> NoDup l.
Proof.
  induction l as [|x l IH]; cbn [nodupb]; intro H; [constructor|]. apply andb_prop in H as [H1 H2].
  constructor; [|now apply IH]. intro Hin. apply negb_true_iff in H1.
  assert (existsb (N.eqb x) l = true) as E by (apply existsb_exists; exists x; split; [exact Hin|apply N.eqb_refl]).
  congruence.
Qed.

Lemma nodup_in_assoc {A} (l : list (N * A)) : NoDup (map fst l) -> forall x v, In (x, v) l -> assocN x l = Some v.
Proof.
  induction l as [|[k w] l IH]; intros Hd x v Hin; [contradiction|]. cbn [map fst] in Hd. inversion Hd as [|? ? Hnin Hd']; subst.
  cbn [assocN]. destruct Hin as [[= <- <-]|Hin]; [now rewrite N.eqb_refl|].
  destruct (N.eqb_spec x k) as [->|_]; [|now apply IH].
  exfalso. apply Hnin. apply in_map_iff. exists (k, v). split; [reflexivity|exact Hin].
Qed.

Lemma assoc_nodup_ext {A} (l l' : list (N * A)) : NoDup (map fst l) -> NoDup (map fst l') ->
  (forall p, In p l <-> In p l') -> forall x, assocN x l = assocN x l'.
Proof.
  intros Hd Hd' Hin x. destruct (assocN x l) as [v|] eqn:E.
  - symmetry. apply nodup_in_assoc; [exact Hd'|]. apply Hin. now apply assocN_In'.
  - destruct (assocN x l') as [v'|] eqn:E'; [|reflexivity].
    apply assocN_In' in E'. apply Hin in E'. rewrite (nodup_in_assoc l Hd x v' E') in E. discriminate E.
Qed.

Lemma assocN_app {A} x (l l' : list (N * A)) :
  assocN x (l ++ l') = match assocN x l with Some v => Some v | None => assocN x l' end.
Proof.
  induction l as [|[k w] l IH]; [reflexivity|]. cbn [app assocN]. destruct (x =? k)%N; [reflexivity|exact IH].
Qed.

Lemma sbind_all_assoc bs m : forall s x,
  assocN x (sbind_all s bs m) = match assocN x (rev bs) with Some t => Some (t, m) | None => assocN x s end.
Proof.
  unfold sbind_all. induction bs as [|b bs IH]; intros s x; cbn [fold_left rev]; [reflexivity|].
  rewrite IH, assocN_app. destruct (assocN x (rev bs)); [reflexivity|].
  destruct b as [k t]. cbn [assocN fst snd]. destruct (x =? k)%N; reflexivity.
Qed.

Lemma sbind_all_perm s (bs bs' : list (N * ty)) m : Permutation.Permutation bs bs' -> NoDup (map fst bs) ->
  forall x, assocN x (sbind_all s bs m) = assocN x (sbind_all s bs' m).
Proof.
  intros Hp Hd x. rewrite !sbind_all_assoc.
  assert (NoDup (map fst bs')) as Hd'.
  { eapply Permutation.Permutation_NoDup; [|exact Hd]. now apply Permutation.Permutation_map. }
  rewrite (assoc_nodup_ext (rev bs) (rev bs')); [reflexivity| | |].
  - rewrite map_rev. now apply NoDup_rev.
  - rewrite map_rev. now apply NoDup_rev.
  - intro p. rewrite <- !in_rev. split; intro H.
    + eapply Permutation.Permutation_in; eassumption.
    + eapply Permutation.Permutation_in; [apply Permutation.Permutation_sym|]; eassumption.
Qed.

Lemma scope_shape_ext P sg sg' (sE : bscope) : (forall x, assocN x sg = assocN x sg') ->
  scope_shape P sg sE -> scope_shape P sg' sE.
Proof. intros H [Hs Hx]. split; [exact Hs|]. intro x. specialize (Hx x). now rewrite <- (H x). Qed.

(* struct patterns *)
Fixpoint wt_fields (P : program) (def : list (N * ty)) (fs : list (N * pattern)) : option (list (N * ty)) :=
  match fs with
  | [] => Some []
  | (f, fp) :: r =>
      match assocN f def with
      | Some ft =>
          if negb (ty_eqb (p_ty fp) ft) then None else
          match wt_pat P fp, wt_fields P def r with
          | Some a, Some b => Some (a ++ b)
          | _, _ => None
          end
      | None => None
      end
  end.

Lemma wt_pat_struct P name ir fields m n2 : wt_pat P (Pat (PStruct name ir fields) m (TStruct n2)) =
  match assocN name (p_structs P) with
  | Some def => if negb (name =? n2)%N then None else wt_fields P def fields
  | None => None
  end.
Proof.
  cbn [wt_pat]. destruct (assocN name (p_structs P)) as [def|]; [|reflexivity].
  destruct (negb (name =? n2)%N); [reflexivity|].
  induction fields as [|[f fp] r IH]; [reflexivity|]. cbn [wt_fields]. rewrite <- IH. reflexivity.
Qed.

Definition fbind (P : program) (f : N * pattern) : list (N * ty) :=
  match wt_pat P (snd f) with Some a => a | None => [] end.

Lemma wt_fields_spec P def : forall fs bs, wt_fields P def fs = Some bs ->
  bs = flat_map (fbind P) fs /\
  Forall (fun f => exists ft a, assocN (fst f) def = Some ft /\ ty_eqb (p_ty (snd f)) ft = true /\
                                wt_pat P (snd f) = Some a) fs.
Proof.
  induction fs as [|[f fp] fs IH]; intros bs H; cbn [wt_fields] in H.
  - injection H as <-. split; [reflexivity|constructor].
  - destruct (assocN f def) as [ft|] eqn:Ef; [|discriminate H].
    destruct (ty_eqb (p_ty fp) ft) eqn:Et; [|discriminate H]. cbn [negb] in H.
    destruct (wt_pat P fp) as [a|] eqn:Ea; [|discriminate H].
    destruct (wt_fields P def fs) as [b|] eqn:Eb; [|discriminate H]. injection H as <-.
    destruct (IH b eq_refl) as [-> Hf]. split.
    + cbn [flat_map]. change (fbind P (f, fp)) with (match wt_pat P fp with Some a => a | None => [] end).
      now rewrite Ea.
    + constructor; [|exact Hf]. cbn [fst snd]. eauto.
Qed.

Definition found (fields : list (N * pattern)) (ds : list (N * ty)) : list (N * pattern) :=
  flat_map (fun d => match assocN (fst d) (rev fields) with Some fp => [(fst d, fp)] | None => [] end) ds.

Lemma found_fst fields ds p : In p (found fields ds) -> In (fst p) (map fst ds).
Proof.
  unfold found. intro H. apply in_flat_map in H as (d & Hd & Hp).
  destruct (assocN (fst d) (rev fields)); [|contradiction]. destruct Hp as [<-|[]]. cbn [fst]. now apply in_map.
Qed.

Lemma found_nodup fields : forall ds, NoDup (map fst ds) -> NoDup (found fields ds).
Proof.
  induction ds as [|d ds IH]; intro H; [constructor|]. cbn [map] in H. inversion H as [|? ? Hnin Hd]; subst.
  unfold found. cbn [flat_map]. fold (found fields ds).
  destruct (assocN (fst d) (rev fields)) as [fp|]; [|now apply IH]. cbn [app]. constructor; [|now apply IH].
  intro Hin. apply found_fst in Hin. cbn [fst] in Hin. contradiction.
Qed.

Lemma found_perm fields def : NoDup (map fst fields) -> NoDup (map fst def) ->
  (forall f, In f fields -> exists ft, assocN (fst f) def = Some ft) ->
  Permutation.Permutation fields (found fields def).
Proof.
  intros Hf Hd Hall. apply Permutation.NoDup_Permutation.
  - eapply NoDup_map_inv; eassumption.
  - now apply found_nodup.
  - intros [n p]. split; intro H.
    + destruct (Hall _ H) as [ft Eft]. cbn [fst] in Eft. apply assocN_In' in Eft.
      unfold found. apply in_flat_map. exists (n, ft). split; [exact Eft|]. cbn [fst].
      rewrite (nodup_in_assoc (rev fields)) with (v := p); [now left| |now apply in_rev in H || (rewrite <- in_rev; exact H)].
      rewrite map_rev. now apply NoDup_rev.
    + unfold found in H. apply in_flat_map in H as (d & _ & Hp).
      destruct (assocN (fst d) (rev fields)) as [fp|] eqn:E; [|contradiction]. destruct Hp as [[= <- <-]|[]].
      apply assocN_In' in E. now apply in_rev in E.
Qed.

Lemma subseqb_incl : forall ds fs, subseqb fs ds = true -> incl fs ds.
Proof.
  induction ds as [|d dr IH]; intros fs H.
  - destruct fs; [intros y []|discriminate H].
  - destruct fs as [|f fr]; [intros y []|]. cbn [subseqb] in H. destruct (N.eqb_spec f d) as [->|_].
    + intros y [<-|Hy]; [now left|right; now apply (IH fr H)].
    + intros y Hy. right. now apply (IH (f :: fr) H).
Qed.

Lemma assocN_notin {A} k (l : list (N * A)) : ~ In k (map fst l) -> assocN k l = None.
Proof.
  induction l as [|[k' v] l IH]; intro H; [reflexivity|]. cbn [assocN map fst] in *.
  destruct (N.eqb_spec k k') as [->|_]; [exfalso; apply H; now left|]. apply IH. intro Hin. apply H. now right.
Qed.

Lemma found_cons_other (f : N * pattern) fr : forall ds, ~ In (fst f) (map fst ds) -> found (f :: fr) ds = found fr ds.
Proof.
  induction ds as [|d ds IH]; intro H; [reflexivity|]. unfold found. cbn [flat_map]. fold (found (f :: fr) ds). fold (found fr ds).
  cbn [map] in H. rewrite IH by (intro Hin; apply H; now right). f_equal.
  cbn [rev]. destruct f as [fn fp]. cbn [fst] in H.
  assert (assocN (fst d) (rev fr ++ [(fn, fp)]) = assocN (fst d) (rev fr)) as ->; [|reflexivity].
  induction (rev fr) as [|[k v] l IHl]; cbn [app assocN].
  - destruct (N.eqb_spec (fst d) fn) as [E|_]; [exfalso; apply H; left; now rewrite E|reflexivity].
  - destruct (fst d =? k)%N; [reflexivity|exact IHl].
Qed.

(* a pattern that names the fields in the order of the definition is visited in its own order *)
Lemma found_sorted : forall def fields, subseqb (map fst fields) (map fst def) = true ->
  NoDup (map fst fields) -> NoDup (map fst def) -> found fields def = fields.
Proof.
  induction def as [|d dr IH]; intros fields Hs Hf Hd.
  - destruct fields; [reflexivity|discriminate Hs].
  - destruct fields as [|f fr]; cbn [map subseqb] in Hs.
    + unfold found. clear. induction (d :: dr) as [|x l IHl]; [reflexivity|]. cbn [flat_map]. cbn [rev assocN]. exact IHl.
    + cbn [map] in Hd. inversion Hd as [|? ? Hnd Hd']; subst.
      destruct (N.eqb_spec (fst f) (fst d)) as [E|Hne].
      * cbn [map] in Hf. inversion Hf as [|? ? Hnf Hf']; subst.
        unfold found. cbn [flat_map]. fold (found (f :: fr) dr).
        rewrite found_cons_other by (rewrite E; exact Hnd). rewrite (IH fr Hs Hf' Hd').
        cbn [rev]. destruct f as [fn fp]. cbn [fst] in *. subst fn.
        rewrite assocN_app, (assocN_notin (fst d) (rev fr)) by (rewrite map_rev, <- in_rev; exact Hnf).
        cbn [assocN]. rewrite N.eqb_refl. reflexivity.
      * unfold found. cbn [flat_map]. fold (found (f :: fr) dr).
        rewrite (assocN_notin (fst d) (rev (f :: fr))).
        -- cbn [app]. apply IH; assumption.
        -- rewrite map_rev, <- in_rev. intro Hin. apply Hnd. exact (subseqb_incl _ _ Hs _ Hin).
Qed.

(* ------------------------------------------------------------------ lists of patterns, enums *)

Fixpoint wt_pats (P : program) (ps : list pattern) (ts : list ty) : option (list (N * ty)) :=
  match ps, ts with
  | [], [] => Some []
  | p :: pr, t :: tr =>
      if negb (ty_eqb (p_ty p) t) then None else
      match wt_pat P p, wt_pats P pr tr with
      | Some a, Some b => Some (a ++ b)
      | _, _ => None
      end
  | _, _ => None
  end.

Lemma wt_pat_tup P ps m ts : wt_pat P (Pat (PTup ps) m (TTup ts)) = wt_pats P ps ts.
Proof.
  cbn [wt_pat]. revert ts. induction ps as [|p ps IH]; intros [|t ts]; try reflexivity.
  cbn [wt_pats]. rewrite <- IH. reflexivity.
Qed.

Lemma wt_pat_enumtup P en v ps m n2 : wt_pat P (Pat (PEnumTup en v ps) m (TEnum n2)) =
  match assocN en (p_enums P) with
  | Some variants => if negb (en =? n2)%N then None else
                     match nthN variants v with Some ts => wt_pats P ps ts | None => None end
  | None => None
  end.
Proof.
  cbn [wt_pat]. destruct (assocN en (p_enums P)) as [variants|]; [|reflexivity].
  destruct (negb (en =? n2)%N); [reflexivity|]. destruct (nthN variants v) as [ts|]; [|reflexivity].
  rewrite <- (wt_pat_tup P ps m ts). reflexivity.
Qed.

Lemma zip_sizes_map P : forall ps ts bs, wt_pats P ps ts = Some bs ->
  map (fun fp => (fp, szn P (p_ty fp))) ps = zip_sizes P ps ts.
Proof.
  induction ps as [|p ps IH]; intros [|t ts] bs H; cbn [wt_pats] in H; try discriminate H; [reflexivity|].
  destruct (ty_eqb (p_ty p) t) eqn:Et; [|discriminate H]. cbn [negb] in H.
  destruct (wt_pat P p); [|discriminate H]. destruct (wt_pats P ps ts) as [b|] eqn:Eb; [|discriminate H].
  cbn [map zip_sizes]. rewrite (ty_eqb_szn P _ _ Et). f_equal. eapply IH. eassumption.
Qed.

(* ------------------------------------------------------------------ the program as a whole *)

(* every function body is accepted by the re-checker under its parameters and the global
   constants (as [wt_program] checks) and satisfies the side conditions *)
Definition prog_ok (P : program) : Prop :=
  forall fname fd, find_fn P fname = Some fd ->
    (exists fw tb, wt_block fw P ([] :: tbind_all ([] :: [gscope P]) (fn_params fd) true) (fn_body fd) = Some tb /\
                   ty_eqb tb (fn_ret fd) = true) /\
    forallb (ok_stmt P) (fn_body fd) = true.

Definition fns_ok (P : program) : bool := forallb (fun d => forallb (ok_stmt P) (fn_body d)) (p_fns P).

Lemma prog_ok_of_wt P : wt_program P = true -> fns_ok P = true -> prog_ok P.
Proof.
  unfold wt_program, fns_ok. intros Hwt Hok fname fd Hf. apply andb_prop in Hwt as [_ Hwt].
  unfold find_fn in Hf. apply find_some in Hf as [Hin _].
  rewrite forallb_forall in Hwt, Hok. specialize (Hwt fd Hin). specialize (Hok fd Hin). split; [|exact Hok].
  unfold wt_fn in Hwt. rewrite consts_tenv_gscope in Hwt.
  destruct (wt_block wt_fuel P ([] :: tbind_all ([] :: [gscope P]) (fn_params fd) true) (fn_body fd)) as [tb|] eqn:Eb;
    [|discriminate Hwt].
  exists wt_fuel, tb. split; [exact Eb|exact Hwt].
Qed.

Lemma bind_all_shape P : forall (bindings : list (N * list bool)) params s r E, env_shape P (s :: r) E ->
  Forall2 (fun b p => fst b = fst p /\ length (snd b) = szn P (snd p)) bindings params ->
  exists E', bind_all E bindings = Ok E' /\ env_shape P (tbind_all (s :: r) params true) E'.
Proof.
  unfold bind_all, tbind_all.
  induction bindings as [|b bs IH]; intros params s r E Hs H; inversion H as [|? p ? ps [Hn Hl] Hr]; subst; cbn [fold_left].
  - exists E. split; [reflexivity|exact Hs].
  - cbn [bind]. destruct (env_shape_let P s r E (fst b) (snd p) true (snd b) Hs Hl) as (E1 & -> & S1).
    rewrite <- Hn. cbn [tbind] in *. eapply IH; eassumption.
Qed.

Lemma rewrite_one_operand a y m t op e' : rewrite_one a y m t = Some (op, e') -> op = y.
Proof.
  unfold rewrite_one. destruct (lit_info a) as [[[n bits] neg]|]; [|discriminate].
  destruct (n =? 0)%N; [discriminate|]. destruct (n <? bits)%N; [|discriminate]. now intros [= <- _].
Qed.

Lemma mul_rewrite_operand x y m t op e' : mul_rewrite x y m t = Some (op, e') -> op = x \/ op = y.
Proof.
  unfold mul_rewrite. destruct (rewrite_one x y m t) as [[o1 e1]|] eqn:E1.
  - intros [= <- _]. right. eapply rewrite_one_operand; eassumption.
  - intro H. left. eapply rewrite_one_operand; eassumption.
Qed.

Section Step.
  Variable P : program.
  Variable eB : expr -> benv -> MB (list bool * benv).
  Variable pB : pattern -> list bool -> benv -> MB (bool * benv).
  Variable sB : stmt -> benv -> MB (list bool * benv).
  Variable bB : list stmt -> benv -> MB (list bool * benv).

  Lemma bind_e {B} (m : MB (list bool * benv)) (k : list bool * benv -> MB B) g t Q :
    safe m (epost P g t) ->
    (forall w E, length w = szn P t -> env_shape P g E -> safe (k (w, E)) Q) -> safe (mbind m k) Q.
  Proof. intros Hm Hk. eapply safe_bind; [exact Hm|]. intros [w E] [L S]. now apply Hk. Qed.

  Lemma ret_e w E g t : length w = szn P t -> env_shape P g E -> safe (ret (w, E)) (epost P g t).
  Proof. intros L S. apply safe_ret. now split. Qed.

  Lemma bind_pop {B} s g E (k : benv -> MB B) Q : env_shape P (s :: g) E ->
    (forall E', env_shape P g E' -> safe (k E') Q) -> safe (mbind (lift_res (env_pop E)) k) Q.
  Proof.
    intros S Hk. destruct (env_shape_pop P _ _ _ S) as (E' & HE' & S').
    eapply safe_lift_bind; [exact HE'|]. now apply Hk.
  Qed.

  Lemma bind_let {B} s r E x t m v (k : benv -> MB B) Q : env_shape P (s :: r) E -> length v = szn P t ->
    (forall E', env_shape P (tbind (s :: r) x t m) E' -> safe (k E') Q) ->
    safe (mbind (lift_res (env_let E x v)) k) Q.
  Proof.
    intros S L Hk. destruct (env_shape_let P s r E x t m v S L) as (E' & HE' & S').
    eapply safe_lift_bind; [exact HE'|]. now apply Hk.
  Qed.

  Definition HE_hyp : Prop := forall e g E fw, wt_expr fw P g e = true -> ok_expr P e = true ->
    genv P g -> env_shape P g E -> safe (eB e E) (epost P g (e_ty e)).
  Definition HB_hyp : Prop := forall b g E fw t, wt_block fw P ([] :: g) b = Some t ->
    forallb (ok_stmt P) b = true -> genv P g -> env_shape P g E -> safe (bB b E) (epost P g t).
  (* the rewriting of multiplications by small literals: the sum runs in a scope of its own in which
     the reserved name is bound to the operand *)
  Definition HM_hyp : Prop := forall x y m t operand e' g E fw s b,
    wt_expr fw P g x = true -> wt_expr fw P g y = true -> ok_expr P x = true -> ok_expr P y = true ->
    t = TInt s b -> node_ok P t = true -> ty_eqb (e_ty x) t = true -> ty_eqb (e_ty y) t = true ->
    mul_rewrite x y m t = Some (operand, e') -> genv P g ->
    env_shape P (tbind ([] :: g) MUL_TMP (e_ty operand) false) E ->
    safe (eB e' E) (epost P (tbind ([] :: g) MUL_TMP (e_ty operand) false) t).

  Hypothesis HE : HE_hyp.
  Hypothesis HB : HB_hyp.
  Hypothesis HM : HM_hyp.

  Lemma HE_ty e g E fw t : wt_expr fw P g e = true -> ok_expr P e = true -> genv P g -> env_shape P g E ->
    ty_eqb (e_ty e) t = true -> safe (eB e E) (epost P g t).
  Proof.
    intros. eapply safe_conseq; [eapply HE; eassumption|]. intros [w E'] [L S]. split; [|exact S].
    cbn [fst] in *. rewrite L. now apply ty_eqb_szn.
  Qed.

  Lemma ok_expr_node e : ok_expr P e = true -> node_ok P (e_ty e) = true.
  Proof. destruct e as [ei m t]. cbn [ok_expr e_ty]. intro H. now apply andb_prop in H as [H _]. Qed.

  Lemma int_len (w : list bool) t s b : node_ok P (TInt s b) = true -> length w = szn P t ->
    szn P t = szn P (TInt s b) -> In (length w) [8; 16; 32; 64] /\ w <> [].
  Proof.
    intros Hn L E. rewrite szn_int in E. pose proof (node_ok_width _ _ _ Hn) as Hw. rewrite L, E.
    split; [exact Hw|]. apply nonempty_pos. rewrite L, E. now apply in_widths_pos.
  Qed.

  Lemma concat_length_const {A} (ls : list (list A)) k : Forall (fun l => length l = k) ls ->
    length (concat ls) = k * length ls.
  Proof.
    induction 1 as [|l ls Hl _ IH]; cbn [concat length]; [lia|]. rewrite app_length, Hl, IH. lia.
  Qed.

  Lemma expr_step_simple ei m t g E fw :
    wt_expr (S fw) P g (Ex ei m t) = true -> ok_expr P (Ex ei m t) = true -> genv P g -> env_shape P g E ->
    match ei with
    | ETrue | EFalse | ENumU _ _ | ENumS _ _ | EId _ | ENeg _ | ENot _ | ECast _ _ | EIf _ _ _
    | EBlock _ | ERange _ _ _ => True
    | _ => False
    end ->
    safe (lower_expr_body tops P eB pB bB (Ex ei m t) E) (epost P g t).
  Proof.
    intros Hwt Hok Hg Hs Hc. cbn [ok_expr] in Hok. apply andb_prop in Hok as [Hn Hok].
    pose proof (node_ok_tyok _ _ Hn) as Hty.
    destruct ei; try contradiction; cbn [wt_expr] in Hwt.
    - (* ETrue *) apply ret_e; [|exact Hs]. rewrite (is_bool_inv _ Hwt). now rewrite szn_bool.
    - apply ret_e; [|exact Hs]. rewrite (is_bool_inv _ Hwt). now rewrite szn_bool.
    - apply ret_e; [|exact Hs]. apply as_wires_length_u.
    - apply ret_e; [|exact Hs]. apply as_wires_length_s.
    - (* EId *) cbn [lower_expr_body]. destruct (tlookup g name) as [[tx mx]|] eqn:El; [|discriminate].
      destruct (env_shape_get P g E name tx mx Hs El) as (v & -> & L).
      apply ret_e; [|exact Hs]. rewrite L. now apply ty_eqb_szn.
    - (* ENeg *) andb_split Hwt. rewrite lower_neg_case.
      eapply bind_e; [eapply HE_ty; eassumption|]. intros x E1 L S.
      destruct t as [|[] b| | | |]; try discriminate Hwt.
      destruct (int_len x _ _ _ Hn L eq_refl) as [_ Hne].
      intro o. rewrite neg_steps_correct by exact Hne. split; [|exact S]. cbn [fst]. now rewrite length_enc.
    - (* ENot *) andb_split Hwt. cbn [lower_expr_body].
      eapply bind_e; [eapply HE_ty; eassumption|]. intros x E1 L S.
      eapply safe_bind; [apply safe_mapM; intro; apply safe_not|]. intros r Hr.
      apply ret_e; [|exact S]. congruence.
    - (* EBlock *) cbn [lower_expr_body].
      destruct (wt_block fw P ([] :: g) b) as [tb|] eqn:Eb; [|discriminate].
      eapply safe_conseq; [eapply HB; eassumption|]. intros [w E'] [L S]. split; [|exact S].
      cbn [fst] in *. rewrite L. now apply ty_eqb_szn.
    - (* EIf *) andb_split Hwt. andb_split Hok. cbn [lower_expr_body].
      eapply bind_e; [eapply HE; eassumption|]. intros cw E0 L0 S0.
      rewrite (is_bool_inv _ Hwt), szn_bool in L0.
      sprim.
      sprim.
      eapply bind_e; [eapply HE_ty; eassumption|]. intros tw ET LT ST.
      sprim.
      eapply bind_e; [eapply HE_ty; eassumption|]. intros fw' EF LF SF.
      sprim.
      eapply safe_bind; [eapply mux_envs_safe; eassumption|]. intros E' SE'.
      sprim.
      sprim.
      eapply safe_bind; [apply safe_mux_bits; congruence|]. intros r Hr.
      apply ret_e; [|exact SE']. congruence.
    - (* ECast *) andb_split Hwt. cbn [lower_expr_body].
      eapply bind_e; [eapply HE; eassumption|]. intros w E1 L S.
      unfold epost. rewrite <- (ty_eqb_szn P _ _ Hwt).
      destruct (Nat.eqb_spec (szn P to) (length w)) as [E0|NE].
      + apply ret_e; [now symmetry|exact S].
      + destruct (Nat.ltb_spec (szn P to) (length w)) as [Hlt|Hge].
        * apply ret_e; [|exact S]. apply tsem_truncate_correct. lia.
        * eapply safe_bind; [apply extend_safe; lia|]. intros w' Hw'. apply ret_e; [exact Hw'|exact S].
    - (* ERange *) andb_split Hwt. cbn [lower_expr_body].
      apply N.leb_le in Hwt. destruct (N.ltb_spec hi lo) as [H|_]; [lia|].
      apply ret_e; [|exact Hs].
      rewrite (ty_eqb_szn P _ _ Hwt0), szn_arr by (eapply ty_eqb_tyok; eassumption). rewrite szn_int.
      rewrite (concat_length_const _ (N.to_nat bits)).
      + now rewrite map_length, seq_length.
      + apply Forall_forall. intros l Hl. apply in_map_iff in Hl as (k & <- & _). apply as_wires_length_u.
  Qed.

  Lemma expr_step_op o x y m t g E fw :
    wt_expr (S fw) P g (Ex (EOp o x y) m t) = true -> ok_expr P (Ex (EOp o x y) m t) = true ->
    genv P g -> env_shape P g E ->
    safe (lower_expr_body tops P eB pB bB (Ex (EOp o x y) m t) E) (epost P g t).
  Proof.
    intros Hwt Hok Hg Hs. cbn [ok_expr] in Hok. apply andb_prop in Hok as [Hn Hok].
    andb_split Hok.
    cbn [wt_expr] in Hwt. apply andb_prop in Hwt as [Hwt Hm]. andb_split Hwt.
    assert (Hshort : forall (land : bool), is_bool t = true -> is_bool (e_ty x) = true -> is_bool (e_ty y) = true ->
      safe (mbind (eB x E) (fun '(xw, E1) => mbind (one_wire xw) (fun x0 => mbind (m_peek tops) (fun Pb =>
            mbind (eB y E1) (fun '(yw, E2) => mbind (one_wire yw) (fun y0 =>
            mbind (if land then mux_envs tops x0 E2 E1 else mux_envs tops x0 E1 E2) (fun E3 =>
            mbind (m_peek tops) (fun Pa =>
            mbind (if land then m_mux_panic tops x0 Pa Pb else m_mux_panic tops x0 Pb Pa) (fun Pm =>
            mbind (m_replace tops Pm) (fun _ =>
            mbind (if land then m_and tops x0 y0 else m_or tops x0 y0) (fun r => ret ([r], E3))))))))))))
           (epost P g t)).
    { intros land Ht Hx Hy.
      eapply bind_e; [eapply HE; eassumption|]. intros xw E1 L1 S1.
      rewrite (is_bool_inv _ Hx), szn_bool in L1.
      sprim.
      sprim.
      eapply bind_e; [eapply HE; eassumption|]. intros yw E2 L2 S2.
      rewrite (is_bool_inv _ Hy), szn_bool in L2.
      sprim.
      eapply safe_bind; [destruct land; eapply mux_envs_safe; eassumption|]. intros E3 S3.
      sprim.
      eapply safe_bind; [destruct land; apply safe_mux_panic|]. intros Pm _.
      sprim.
      eapply safe_bind; [destruct land; [apply safe_and|apply safe_or]|]. intros r _.
      apply ret_e; [|exact S3]. cbn [fst length]. now rewrite (is_bool_inv _ Ht), szn_bool. }
    assert (Hshift : forall left, is_int t = true -> ty_eqb (e_ty x) t = true -> ty_eqb (e_ty y) (TInt false 8) = true ->
      safe (mbind (eB x E) (fun '(xw, E1) => mbind (eB y E1) (fun '(yw, E2) =>
            mbind (lower_shift tops left (is_signed (e_ty x)) xw yw m) (fun r => ret (r, E2)))))
           (epost P g t)).
    { intros left Ht Hx Hy.
      eapply bind_e; [eapply HE_ty; eassumption|]. intros xw E1 L1 S1.
      eapply bind_e; [eapply HE_ty; eassumption|]. intros yw E2 L2 S2.
      rewrite szn_int in L2. destruct (is_int_inv _ Ht) as (s & b & ->).
      destruct (int_len xw _ _ _ Hn L1 eq_refl) as [Hw _].
      eapply safe_bind; [apply shift_safe; [exact L2|exact Hw]|]. intros r Hr.
      apply ret_e; [congruence|exact S2]. }
    assert (Harith : forall o', arith_op o' = true -> is_int t = true \/ is_bool t = true ->
      ty_eqb (e_ty x) t = true -> ty_eqb (e_ty y) t = true ->
      safe (mbind (eB x E) (fun '(xw, E1) => mbind (eB y E1) (fun '(yw, E2) =>
            mbind (lower_binop tops o' t (e_ty x) (e_ty y) xw yw m) (fun r => ret (r, E2)))))
           (epost P g t)).
    { intros o' Ho Ht Hx Hy.
      eapply bind_e; [eapply HE_ty; eassumption|]. intros xw E1 L1 S1.
      eapply bind_e; [eapply HE_ty; eassumption|]. intros yw E2 L2 S2.
      assert (xw <> []) as Hne.
      { destruct Ht as [Ht|Ht].
        - destruct (is_int_inv _ Ht) as (s & b & ->). now destruct (int_len xw _ _ _ Hn L1 eq_refl).
        - apply nonempty_pos. rewrite L1, (is_bool_inv _ Ht), szn_bool. lia. }
      eapply safe_bind; [apply arith_safe; [exact Hne|congruence|exact Ho]|]. intros r Hr.
      apply ret_e; [congruence|exact S2]. }
    assert (Hcmp : forall o', match o' with OGt | OLt | OEq | ONe => True | _ => False end ->
      is_bool t = true -> ty_eqb (e_ty x) (e_ty y) = true ->
      safe (mbind (eB x E) (fun '(xw, E1) => mbind (eB y E1) (fun '(yw, E2) =>
            mbind (lower_binop tops o' t (e_ty x) (e_ty y) xw yw m) (fun r => ret (r, E2)))))
           (epost P g t)).
    { intros o' Ho Ht Hxy.
      eapply bind_e; [eapply HE; eassumption|]. intros xw E1 L1 S1.
      eapply bind_e; [eapply HE; eassumption|]. intros yw E2 L2 S2.
      eapply safe_bind; [apply cmp_safe; [rewrite L1, L2; now apply ty_eqb_szn|exact Ho]|]. intros r Hr.
      apply ret_e; [|exact S2]. now rewrite Hr, (is_bool_inv _ Ht), szn_bool. }
    destruct o; cbn [lower_expr_body]; andb_split Hm;
      try (apply Harith; [reflexivity|auto using orb_prop|assumption|assumption]);
      try (apply Hcmp; [exact I|assumption|assumption]).
    - (* OMul *) destruct (mul_rewrite x y m t) as [[operand e']|] eqn:Er.
      + destruct (is_int_inv _ Hm) as (s & b & ->).
        assert (wt_expr fw P g operand = true /\ ok_expr P operand = true) as [Hwo Hoko].
        { destruct (mul_rewrite_operand _ _ _ _ _ _ Er) as [->| ->]; split; assumption. }
        eapply bind_e; [eapply HE; eassumption|]. intros w E1 L1 S1.
        eapply (bind_let [] g _ MUL_TMP _ false); [apply env_shape_push, S1|exact L1|]. intros E2 S2.
        eapply safe_bind; [eapply (HM x y m (TInt s b) operand e' g E2 fw s b); try eassumption; reflexivity|].
        intros [r0 E3] [L3 S3]. cbn [fst snd] in L3, S3. cbn [tbind] in S3.
        eapply bind_pop; [exact S3|]. intros E4 S4. apply ret_e; assumption.
      + apply Harith; [reflexivity|now left|assumption|assumption].
    - apply (Hshift true); assumption.
    - apply (Hshift false); assumption.
    - apply (Hshort true); assumption.
    - apply (Hshort false); assumption.
  Qed.

  (* ---------------------------------------------------------------- aggregates *)

  Lemma lower_list_safe g fw : forall es ts E,
    Forall2 (fun e t => ty_eqb (e_ty e) t && wt_expr fw P g e = true) es ts ->
    forallb (ok_expr P) es = true -> genv P g -> env_shape P g E ->
    safe (lower_list eB es E)
         (fun r => Forall2 (fun w t => length w = szn P t) (fst r) ts /\ env_shape P g (snd r)).
  Proof.
    induction es as [|e es IH]; intros ts E H Hok Hg Hs; inversion H as [|? t ? ts' Hh Ht]; subst; cbn [lower_list].
    - apply safe_ret. split; [constructor|exact Hs].
    - cbn [forallb] in Hok. apply andb_prop in Hok as [Hok1 Hok2]. apply andb_prop in Hh as [Hty Hwt].
      eapply bind_e; [eapply HE_ty; eassumption|]. intros w E1 L1 S1.
      eapply safe_bind; [eapply IH; eassumption|]. intros [ws E2] [L2 S2]. cbn [fst snd] in L2, S2.
      apply safe_ret. split; [constructor; assumption|exact S2].
  Qed.

  Lemma forallb_Forall2_repeat {A B} (f : A -> B -> bool) (b : B) xs : forallb (fun x => f x b) xs = true ->
    Forall2 (fun x y => f x y = true) xs (repeat b (length xs)).
  Proof.
    induction xs as [|x xs IH]; cbn [forallb length repeat]; intro H; [constructor|].
    apply andb_prop in H as [H1 H2]. constructor; [exact H1|now apply IH].
  Qed.

  Lemma expr_step_agg ei m t g E fw :
    wt_expr (S fw) P g (Ex ei m t) = true -> ok_expr P (Ex ei m t) = true -> genv P g -> env_shape P g E ->
    match ei with
    | EArrLit _ | EArrRep _ _ | ETupLit _ | ETupAcc _ _ | EFld _ _ => True
    | _ => False
    end ->
    safe (lower_expr_body tops P eB pB bB (Ex ei m t) E) (epost P g t).
  Proof.
    intros Hwt Hok Hg Hs Hc. cbn [ok_expr] in Hok. apply andb_prop in Hok as [Hn Hok].
    pose proof (node_ok_tyok _ _ Hn) as Hty.
    destruct ei; try contradiction; cbn [wt_expr] in Hwt; cbn [lower_expr_body].
    - (* EArrLit *) destruct t as [| |el n| | |]; try discriminate. apply andb_prop in Hwt as [Hlen Hall].
      apply N.eqb_eq in Hlen.
      eapply safe_bind; [eapply (lower_list_safe g fw es (repeat el (length es))); try eassumption|].
      + now apply (forallb_Forall2_repeat (fun e t => ty_eqb (e_ty e) t && wt_expr fw P g e)).
      + intros [ws E1] [L1 S1]. cbn [fst snd] in L1, S1. apply ret_e; [|exact S1].
        rewrite (concat_sumsz P _ _ L1), sumsz_repeat, szn_arr by exact Hty. unfold lenN in Hlen. f_equal. lia.
    - (* EArrRep *) destruct t as [| |el n2| | |]; try discriminate. andb_split Hwt. apply N.eqb_eq in Hwt. subst n2.
      eapply bind_e; [eapply HE; eassumption|]. intros w E1 L1 S1.
      eapply safe_bind; [apply extend_safe; lia|]. intros w' Hw'.
      apply ret_e; [|exact S1].
      rewrite (concat_length_const _ (szn P (e_ty e))).
      + rewrite repeat_length, szn_arr by exact Hty. now rewrite (ty_eqb_szn P _ _ Hwt1).
      + apply Forall_forall. intros l Hl. apply repeat_spec in Hl. now subst l.
    - (* ETupLit *) destruct t as [| | |ts| |]; try discriminate.
      eapply safe_bind; [eapply (lower_list_safe g fw es ts); try eassumption|].
      + now apply forallb2_Forall2 in Hwt.
      + intros [ws E1] [L1 S1]. cbn [fst snd] in L1, S1. apply ret_e; [|exact S1].
        now rewrite (concat_sumsz P _ _ L1), szn_tup.
    - (* ETupAcc *) destruct (e_ty e) as [| | |ts| |] eqn:Ee; try discriminate.
      destruct (nthN ts i) as [ti|] eqn:Ei; [|discriminate]. apply andb_prop in Hwt as [Hti Hwe].
      cbn [tuple_offsets]. rewrite Ei. eapply safe_lift_bind; [reflexivity|].
      eapply bind_e; [eapply HE; eassumption|]. intros w E1 L1 S1.
      pose proof (ok_expr_node _ Hok) as Hne. rewrite Ee in Hne, L1. apply node_ok_tyok in Hne.
      rewrite szn_tup in L1 by exact Hne. rewrite nthN_spec in Ei.
      rewrite fold_left_sumsz. cbn [Nat.add].
      eapply bind_slice; [rewrite L1; now apply sumsz_nth|]. intros r0 Lr0. apply ret_e; [|exact S1].
      rewrite Lr0. now apply ty_eqb_szn.
    - (* EFld *) destruct (e_ty e) as [| | | |name|] eqn:Ee; try discriminate.
      destruct (assocN name (p_structs P)) as [def|] eqn:Ed; [|discriminate].
      destruct (assocN fld def) as [ft|] eqn:Ef; [|discriminate]. apply andb_prop in Hwt as [Hft Hwe].
      eapply bind_e; [eapply HE; eassumption|]. intros w E1 L1 S1.
      pose proof (ok_expr_node _ Hok) as Hne. rewrite Ee in Hne, L1. apply node_ok_tyok in Hne.
      rewrite (szn_struct P name def Hne Ed) in L1.
      cbn [struct_offsets]. rewrite Ed.
      destruct (field_offsets_ok P def fld ft 0 Ef) as (wb & Hwb & Hle).
      eapply safe_lift_bind; [exact Hwb|].
      eapply bind_slice; [lia|]. intros r0 Lr0. apply ret_e; [|exact S1].
      rewrite Lr0. now apply ty_eqb_szn.
  Qed.

  Lemma node_ok_arr_len el n : node_ok P (TArr el n) = true -> N.to_nat n <= 2 ^ 32.
  Proof.
    unfold node_ok. intro H. apply andb_prop in H as [_ H]. apply N.leb_le in H.
    assert (N.to_nat n <= N.to_nat (2 ^ 32)%N) as H' by lia.
    rewrite N2Nat.inj_pow in H'. exact H'.
  Qed.

  Lemma idx_ok_len (w : list bool) t : idx_ok t = true -> length w = szn P t -> length w <= 32.
  Proof.
    destruct t; try discriminate. cbn [idx_ok]. intros H L. rewrite szn_int in L. apply N.leb_le in H. lia.
  Qed.

  Lemma expr_step_idx a i m t g E fw :
    wt_expr (S fw) P g (Ex (EIdx a i) m t) = true -> ok_expr P (Ex (EIdx a i) m t) = true ->
    genv P g -> env_shape P g E ->
    safe (lower_expr_body tops P eB pB bB (Ex (EIdx a i) m t) E) (epost P g t).
  Proof.
    intros Hwt Hok Hg Hs. cbn [ok_expr] in Hok. apply andb_prop in Hok as [Hn Hok].
    apply andb_prop in Hok as [Hok Hoki]. apply andb_prop in Hok as [Hidx Hoka].
    cbn [wt_expr] in Hwt. cbn [lower_expr_body].
    destruct (e_ty a) as [| |el n| | |] eqn:Ea; try discriminate.
    apply andb_prop in Hwt as [Hwt Hwi]. apply andb_prop in Hwt as [Hwt Hwa]. apply andb_prop in Hwt as [Hel Hun].
    cbn [array_size]. eapply safe_lift_bind; [reflexivity|].
    eapply bind_e; [eapply HE; eassumption|]. intros arr E1 L1 S1.
    eapply bind_e; [eapply HE; eassumption|]. intros idx E2 L2 S2.
    pose proof (ok_expr_node _ Hoka) as Hna. rewrite Ea in Hna, L1.
    rewrite szn_arr in L1 by (now apply node_ok_tyok). rewrite (ty_eqb_szn P _ _ Hel) in L1.
    eapply safe_bind; [apply (array_read_safe arr idx (szn P t) (N.to_nat n)); [|lia|]|].
    - eapply idx_ok_len; eassumption.
    - eapply node_ok_arr_len; eassumption.
    - intros [r0 ix] [Lr _]. cbn [fst] in Lr. apply ret_e; [exact Lr|exact S2].
  Qed.

  Lemma filter_rev' {A} (f : A -> bool) l : filter f (rev l) = rev (filter f l).
  Proof.
    induction l as [|a l IH]; [reflexivity|]. cbn [rev filter]. rewrite filter_app, IH. cbn [filter].
    destruct (f a); [reflexivity|now rewrite app_nil_r].
  Qed.

  Lemma assoc_filter {A} k (l : list (N * A)) :
    assocN k l = match filter (fun p => (fst p =? k)%N) l with [] => None | p :: _ => Some (snd p) end.
  Proof.
    induction l as [|[k' v] l IH]; [reflexivity|]. cbn [assocN filter fst]. rewrite N.eqb_sym.
    destruct (k' =? k)%N; [reflexivity|exact IH].
  Qed.

  Lemma lower_struct_fields_safe g fw (fields : list (N * expr)) : genv P g ->
    forallb (fun fe => ok_expr P (snd fe)) fields = true -> forall (ds : list (N * ty)) E,
    forallb (fun d => match filter (fun fe => (fst fe =? fst d)%N) fields with
                      | [(_, fe)] => ty_eqb (e_ty fe) (snd d) && wt_expr fw P g fe
                      | _ => false
                      end) ds = true ->
    env_shape P g E ->
    safe (lower_struct_fields eB fields ds E)
         (fun r => Forall2 (fun w t => length w = szn P t) (fst r) (map snd ds) /\ env_shape P g (snd r)).
  Proof.
    intros Hg Hokf. induction ds as [|[fname fty] ds IH]; intros E Hwt Hs; cbn [lower_struct_fields map].
    - apply safe_ret. split; [constructor|exact Hs].
    - cbn [forallb fst snd] in Hwt. apply andb_prop in Hwt as [Hd Hwt].
      destruct (filter (fun fe => (fst fe =? fname)%N) fields) as [|[k fe] [|]] eqn:Ef; try discriminate Hd.
      apply andb_prop in Hd as [Hty Hwe].
      rewrite assoc_filter, filter_rev', Ef. cbn [rev app snd].
      assert (In (k, fe) fields) as Hin.
      { assert (In (k, fe) (filter (fun fe => (fst fe =? fname)%N) fields)) as H0 by (rewrite Ef; now left).
        now apply filter_In in H0. }
      rewrite forallb_forall in Hokf. pose proof (Hokf _ Hin) as Hokfe. cbn [snd] in Hokfe.
      eapply bind_e; [eapply HE_ty; eassumption|]. intros w E1 L1 S1.
      eapply safe_bind; [eapply IH; eassumption|]. intros [ws E2] [L2 S2]. cbn [fst snd] in L2, S2.
      apply safe_ret. split; [constructor; assumption|exact S2].
  Qed.

  Lemma expr_step_struct name fields m t g E fw :
    wt_expr (S fw) P g (Ex (EStructLit name fields) m t) = true -> ok_expr P (Ex (EStructLit name fields) m t) = true ->
    genv P g -> env_shape P g E ->
    safe (lower_expr_body tops P eB pB bB (Ex (EStructLit name fields) m t) E) (epost P g t).
  Proof.
    intros Hwt Hok Hg Hs. cbn [ok_expr] in Hok. apply andb_prop in Hok as [Hn Hok].
    pose proof (node_ok_tyok _ _ Hn) as Hty. cbn [wt_expr] in Hwt. cbn [lower_expr_body].
    destruct t as [| | | |n2|]; try discriminate Hwt.
    destruct (assocN name (p_structs P)) as [def|] eqn:Ed; [|discriminate Hwt].
    apply andb_prop in Hwt as [Hwt Hall]. apply andb_prop in Hwt as [Hname _]. apply N.eqb_eq in Hname. subst n2.
    eapply safe_bind; [eapply lower_struct_fields_safe; eassumption|].
    intros [ws E1] [L1 S1]. cbn [fst snd] in L1, S1. apply ret_e; [|exact S1].
    rewrite (concat_sumsz P _ _ L1). symmetry. now apply szn_struct.
  Qed.

  (* ---------------------------------------------------------------- patterns *)

  Definition ppost (g : tenv) (bs : list (N * ty)) : bool * benv -> Prop :=
    fun r => env_shape P (tbind_all g bs false) (snd r).

  Definition HP_hyp : Prop := forall p s r E mw bs, wt_pat P p = Some bs -> ok_pat P p = true ->
    tyok P (p_ty p) -> env_shape P (s :: r) E -> length mw = szn P (p_ty p) ->
    safe (pB p mw E) (ppost (s :: r) bs).

  Hypothesis HP : HP_hyp.

  Lemma pat_step_simple pi m t s r E mw bs :
    wt_pat P (Pat pi m t) = Some bs -> ok_pat P (Pat pi m t) = true -> tyok P t ->
    env_shape P (s :: r) E -> length mw = szn P t ->
    match pi with
    | PId _ | PTrue | PFalse | PNumU _ | PNumS _ | PURange _ _ | PSRange _ _ => True
    | _ => False
    end ->
    safe (lower_pattern_body tops P pB (Pat pi m t) mw E) (ppost (s :: r) bs).
  Proof.
    intros Hwt Hok Hty Hs L Hc.
    assert (Hrange : forall lo hi : list bool, length lo = szn P t -> length hi = szn P t -> bs = [] ->
      safe (mbind (o_comparator tops (szn P t) mw (is_signed t) lo (is_signed t)) (fun '(lt_min, _) =>
            mbind (o_comparator tops (szn P t) mw (is_signed t) hi (is_signed t)) (fun '(_, gt_max) =>
            mbind (m_not tops lt_min) (fun a => mbind (m_not tops gt_max) (fun c =>
            mbind (m_and tops a c) (fun r0 => ret (r0, E))))))) (ppost (s :: r) bs)).
    { intros lo hi Hlo Hhi ->.
      eapply safe_bind; [apply comparator_safe; lia|]. intros [lt_min ?] _.
      eapply safe_bind; [apply comparator_safe; lia|]. intros [? gt_max] _.
      sprim. sprim.
      sprim. apply safe_ret. exact Hs. }
    assert (Heq : forall n : list bool, bs = [] ->
      safe (if length mw <? szn P t then crash else
            mbind (eq_acc tops (wT tops) (combine n (firstn (szn P t) mw))) (fun acc => ret (acc, E)))
           (ppost (s :: r) bs)).
    { intros n ->. destruct (Nat.ltb_spec (length mw) (szn P t)); [lia|].
      sprim. apply safe_ret. exact Hs. }
    destruct pi; try contradiction; cbn [wt_pat] in Hwt; cbn [lower_pattern_body].
    - (* PId *) injection Hwt as <-.
      eapply (bind_let s r _ name _ false); [exact Hs|exact L|]. intros E' S'. apply safe_ret. exact S'.
    - (* PTrue *) destruct (is_bool t) eqn:Hb; [|discriminate]. injection Hwt as <-.
      rewrite (is_bool_inv _ Hb), szn_bool in L.
      sprim. apply safe_ret. exact Hs.
    - destruct (is_bool t) eqn:Hb; [|discriminate]. injection Hwt as <-.
      rewrite (is_bool_inv _ Hb), szn_bool in L.
      sprim.
      sprim. apply safe_ret. exact Hs.
    - destruct (lit_fits t (Z.of_N n)); [|discriminate]. injection Hwt as <-. now apply Heq.
    - destruct (lit_fits t z); [|discriminate]. injection Hwt as <-. now apply Heq.
    - destruct (lit_fits t (Z.of_N lo) && lit_fits t (Z.of_N hi)); [|discriminate]. injection Hwt as <-.
      apply Hrange; [apply as_wires_length_u|apply as_wires_length_u|reflexivity].
    - destruct (lit_fits t lo && lit_fits t hi); [|discriminate]. injection Hwt as <-.
      apply Hrange; [apply as_wires_length_s|apply as_wires_length_s|reflexivity].
  Qed.

  Lemma tbind_all_app g a b m : tbind_all g (a ++ b) m = tbind_all (tbind_all g a m) b m.
  Proof. unfold tbind_all. apply fold_left_app. Qed.

  Lemma fields_safe (mw : list bool) : forall ps ts bs w im s r E, wt_pats P ps ts = Some bs ->
    forallb (ok_pat P) ps = true -> Forall (tyok P) ts -> w + sumsz P ts <= length mw -> env_shape P (s :: r) E ->
    safe (fields_match tops pB mw (zip_sizes P ps ts) w im E) (ppost (s :: r) bs).
  Proof.
    induction ps as [|p ps IH]; intros [|t ts] bs w im s r E Hwt Hok Hty Hle Hs; cbn [wt_pats] in Hwt;
      try discriminate Hwt; cbn [zip_sizes fields_match].
    - injection Hwt as <-. apply safe_ret. exact Hs.
    - destruct (ty_eqb (p_ty p) t) eqn:Et; [|discriminate Hwt]. cbn [negb] in Hwt.
      destruct (wt_pat P p) as [a|] eqn:Ea; [|discriminate Hwt].
      destruct (wt_pats P ps ts) as [b|] eqn:Eb; [|discriminate Hwt]. injection Hwt as <-.
      cbn [forallb] in Hok. apply andb_prop in Hok as [Hok1 Hok2]. inversion Hty as [|? ? Ht1 Ht2]; subst.
      cbn [sumsz] in Hle.
      eapply bind_slice; [lia|]. intros sub Lsub.
      eapply safe_bind; [eapply HP; try eassumption|].
      + eapply ty_eqb_tyok'; eassumption.
      + rewrite Lsub. symmetry. now apply ty_eqb_szn.
      + intros [fm E1] S1. unfold ppost in S1. cbn [snd] in S1. rewrite tbind_all_cons in S1.
        sprim.
        eapply safe_conseq; [eapply (IH ts b); try eassumption; lia|].
        intros r0 Hr0. unfold ppost in *. now rewrite tbind_all_app, tbind_all_cons.
  Qed.

  Lemma pat_step_agg pi m t s r E mw bs :
    wt_pat P (Pat pi m t) = Some bs -> ok_pat P (Pat pi m t) = true -> tyok P t ->
    env_shape P (s :: r) E -> length mw = szn P t ->
    match pi with PTup _ | PEnumUnit _ _ | PEnumTup _ _ _ => True | _ => False end ->
    safe (lower_pattern_body tops P pB (Pat pi m t) mw E) (ppost (s :: r) bs).
  Proof.
    intros Hwt Hok Hty Hs L Hc. destruct pi; try contradiction; cbn [ok_pat] in Hok; cbn [lower_pattern_body].
    - (* PTup *) destruct t as [| | |ts| |]; try discriminate Hwt. rewrite wt_pat_tup in Hwt.
      rewrite (zip_sizes_map P _ _ _ Hwt). pose proof (ty_ok_tup P _ ts Hty) as Hts.
      rewrite szn_tup in L by exact Hty. eapply fields_safe; try eassumption. lia.
    - (* PEnumUnit *) cbn [wt_pat] in Hwt. destruct t as [| | | | |n2]; try discriminate Hwt.
      destruct (assocN ename (p_enums P)) as [variants|] eqn:Ev; [|discriminate Hwt].
      destruct (N.eqb_spec ename n2) as [->|]; [|discriminate Hwt]. cbn [negb] in Hwt.
      destruct (nthN variants variant) as [[|]|] eqn:En; try discriminate Hwt. injection Hwt as <-.
      rewrite (szn_enum P n2 variants Hty Ev) in L. pose proof (variant_fits P _ _ _ En) as Hmx.
      eapply bind_slice; [lia|]. intros tg _. sprim.
      apply safe_ret. exact Hs.
    - (* PEnumTup *) destruct t as [| | | | |n2]; try discriminate Hwt. rewrite wt_pat_enumtup in Hwt.
      destruct (assocN ename (p_enums P)) as [variants|] eqn:Ev; [|discriminate Hwt].
      destruct (N.eqb_spec ename n2) as [->|]; [|discriminate Hwt]. cbn [negb] in Hwt.
      destruct (nthN variants variant) as [ts|] eqn:En; [|discriminate Hwt].
      rewrite (szn_enum P n2 variants Hty Ev) in L. pose proof (variant_fits P _ _ _ En) as Hmx.
      eapply bind_slice; [lia|]. intros tg _. sprim.
      eapply fields_safe; try eassumption; [exact (ty_ok_enum_variant P _ n2 _ _ _ Hty Ev En)|lia].
  Qed.

  Lemma struct_match_safe (mw : list bool) fields : forall ds w im s r E,
    (forall d fp, In d ds -> assocN (fst d) (rev fields) = Some fp ->
       exists a, wt_pat P fp = Some a /\ ok_pat P fp = true /\ ty_eqb (p_ty fp) (snd d) = true) ->
    Forall (fun d => tyok P (snd d)) ds -> w + sumsz P (map snd ds) <= length mw -> env_shape P (s :: r) E ->
    safe (struct_match tops P pB mw fields ds w im E) (ppost (s :: r) (flat_map (fbind P) (found fields ds))).
  Proof.
    induction ds as [|[fname fty] ds IH]; intros w im s r E Hall Hty Hle Hs; cbn [struct_match].
    - apply safe_ret. exact Hs.
    - inversion Hty as [|? ? Ht1 Ht2]; subst. cbn [map snd sumsz] in Hle. cbn [snd] in Ht1.
      unfold found. cbn [flat_map fst]. fold (found fields ds).
      assert (Hall' : forall d fp, In d ds -> assocN (fst d) (rev fields) = Some fp ->
                exists a, wt_pat P fp = Some a /\ ok_pat P fp = true /\ ty_eqb (p_ty fp) (snd d) = true)
        by (intros d fp Hd; apply Hall; now right).
      destruct (assocN fname (rev fields)) as [fp|] eqn:Ef.
      + destruct (Hall (fname, fty) fp (or_introl eq_refl) Ef) as (a & Ea & Hokp & Hpt). cbn [snd] in Hpt.
        eapply bind_slice; [lia|]. intros sub Lsub.
        eapply safe_bind; [eapply HP; try eassumption|].
        * eapply ty_eqb_tyok'; eassumption.
        * rewrite Lsub. symmetry. now apply ty_eqb_szn.
        * intros [fm E1] S1. unfold ppost in S1. cbn [snd] in S1. rewrite tbind_all_cons in S1.
          sprim.
          eapply safe_conseq; [eapply IH; try eassumption; lia|].
          intros r0 Hr0. unfold ppost in *. cbn [app flat_map].
          change (fbind P (fname, fp)) with (match wt_pat P fp with Some a => a | None => [] end). rewrite Ea.
          now rewrite tbind_all_app, tbind_all_cons.
      + cbn [app]. eapply IH; try eassumption. lia.
  Qed.

  Lemma pat_step_struct name ir fields m t s r E mw bs :
    wt_pat P (Pat (PStruct name ir fields) m t) = Some bs -> ok_pat P (Pat (PStruct name ir fields) m t) = true ->
    tyok P t -> env_shape P (s :: r) E -> length mw = szn P t ->
    safe (lower_pattern_body tops P pB (Pat (PStruct name ir fields) m t) mw E) (ppost (s :: r) bs).
  Proof.
    intros Hwt Hok Hty Hs L. cbn [ok_pat] in Hok. rewrite Hwt in Hok.
    apply andb_prop in Hok as [Hok Hokf]. apply andb_prop in Hok as [Hok Hndb]. apply andb_prop in Hok as [Hndd Hndf].
    destruct t as [| | | |n2|]; try discriminate Hwt. rewrite wt_pat_struct in Hwt. cbn [lower_pattern_body].
    destruct (assocN name (p_structs P)) as [def|] eqn:Ed; [|discriminate Hwt].
    destruct (N.eqb_spec name n2) as [->|]; [|discriminate Hwt]. cbn [negb] in Hwt.
    apply nodupb_NoDup in Hndd, Hndf.
    destruct (wt_fields_spec P def fields bs Hwt) as [-> Hfs]. rewrite Forall_forall in Hfs.
    pose proof (proj1 (Forall_map _ _ _) (ty_ok_struct_def P _ n2 def Hty Ed)) as Hdty. rewrite (szn_struct P n2 def Hty Ed) in L.
    eapply safe_conseq; [eapply (struct_match_safe mw fields def 0 (wT tops) s r E); try eassumption; [|lia]|].
    - intros d fp Hd Ef. apply assocN_In' in Ef. apply in_rev in Ef.
      destruct (Hfs _ Ef) as (ft & a & Eft & Hpt & Ea). cbn [fst snd] in *.
      rewrite (nodup_in_assoc def Hndd (fst d) (snd d)) in Eft by (now destruct d).
      injection Eft as <-. exists a. split; [exact Ea|]. split; [|exact Hpt].
      rewrite forallb_forall in Hokf. exact (Hokf _ Ef).
    - intros [im0 E0] Hr0. unfold ppost in *. cbn [snd] in *. rewrite tbind_all_cons in *.
      inversion Hr0 as [|? sE ? rE Hsc Hr]; subst. constructor; [|exact Hr].
      apply orb_prop in Hndb as [Hndb|Hsub].
      + apply nodupb_NoDup in Hndb.
        eapply scope_shape_ext; [|exact Hsc]. intro x. symmetry. apply sbind_all_perm; [|exact Hndb].
        apply Permutation.Permutation_flat_map. apply found_perm; try assumption.
        intros f Hf. destruct (Hfs _ Hf) as (ft & _ & Eft & _). eauto.
      + rewrite (found_sorted def fields Hsub Hndf Hndd) in Hsc. exact Hsc.
  Qed.

  (* ---------------------------------------------------------------- match, enum literals *)

  Definition arms_post (g : tenv) (bits : nat) : list bool * pobs * benv * bool -> Prop :=
    fun r => length (fst (fst (fst r))) = bits /\ env_shape P g (snd (fst r)).

  Lemma lower_arms_safe g fw ts t sw E0 P0 : genv P g -> env_shape P g E0 -> length sw = szn P ts -> tyok P ts ->
    forall arms has_prev mret mpanic menv,
    forallb (fun arm =>
      ty_eqb (p_ty (fst arm)) ts && ty_eqb (e_ty (snd arm)) t &&
      match wt_pat P (fst arm) with
      | Some bs => wt_expr fw P (tbind_all ([] :: g) bs false) (snd arm)
      | None => false
      end) arms = true ->
    forallb (fun arm => ok_pat P (fst arm) && ok_expr P (snd arm)) arms = true ->
    length mret = szn P t -> env_shape P g menv ->
    safe (lower_arms tops eB pB (szn P t) sw E0 P0 arms has_prev mret mpanic menv) (arms_post g (szn P t)).
  Proof.
    intros Hg HS0 Lsw Hts. induction arms as [|[pat body] arms IH]; intros has_prev mret mpanic menv Hwt Hok Lm Sm;
      cbn [lower_arms].
    - apply ret_e; assumption.
    - cbn [forallb fst snd] in Hwt, Hok. andb_split Hwt. andb_split Hok.
      destruct (wt_pat P pat) as [bs|] eqn:Ep; [|discriminate].
      sprim.
      eapply safe_bind; [eapply (HP pat [] g); try eassumption|].
      + eapply ty_eqb_tyok'; eassumption.
      + now apply env_shape_push.
      + rewrite Lsw. symmetry. now apply ty_eqb_szn.
      + intros [im E1] S1. unfold ppost in S1. cbn [snd] in S1.
        eapply safe_bind; [eapply HE_ty; try eassumption|].
        { rewrite tbind_all_cons. now apply genv_cons. }
        intros [rw E2] [L2 S2]. cbn [fst snd] in L2, S2. rewrite tbind_all_cons in S2.
        sprim. sprim.
        eapply bind_pop; [exact S2|]. intros E3 S3.
        sprim.
        sprim.
        eapply safe_bind; [eapply mux_envs_safe; eassumption|]. intros menv' Sm'.
        destruct (Nat.ltb_spec (length rw) (szn P t)) as [Hlt|_]; [lia|].
        eapply safe_bind; [apply safe_map2; [intros; apply safe_mux|rewrite firstn_length; lia]|]. intros mret' Lm'.
        sprim.
        apply IH; try assumption. rewrite Lm', firstn_length. lia.
  Qed.

  Lemma expr_step_match sc arms m t g E fw :
    wt_expr (S fw) P g (Ex (EMatch sc arms) m t) = true -> ok_expr P (Ex (EMatch sc arms) m t) = true ->
    genv P g -> env_shape P g E ->
    safe (lower_expr_body tops P eB pB bB (Ex (EMatch sc arms) m t) E) (epost P g t).
  Proof.
    intros Hwt Hok Hg Hs. cbn [ok_expr] in Hok. apply andb_prop in Hok as [Hn Hok].
    andb_split Hok. cbn [wt_expr] in Hwt. andb_split Hwt.
    cbn [lower_expr_body].
    eapply bind_e; [eapply HE; eassumption|]. intros sw E0 L0 S0.
    sprim.
    eapply safe_bind; [eapply (lower_arms_safe g fw (e_ty sc) t); try eassumption|].
    - apply node_ok_tyok. now apply ok_expr_node.
    - apply repeat_length.
    - intros [[[rw mp] me] hp] [Lr Sr]. cbn [fst snd] in Lr, Sr.
      sprim. apply ret_e; assumption.
  Qed.

  Lemma expr_step_enum en v args m t g E fw :
    wt_expr (S fw) P g (Ex (EEnumLit en v args) m t) = true -> ok_expr P (Ex (EEnumLit en v args) m t) = true ->
    genv P g -> env_shape P g E ->
    safe (lower_expr_body tops P eB pB bB (Ex (EEnumLit en v args) m t) E) (epost P g t).
  Proof.
    intros Hwt Hok Hg Hs. cbn [ok_expr] in Hok. apply andb_prop in Hok as [Hn Hok].
    pose proof (node_ok_tyok _ _ Hn) as Hty. cbn [wt_expr] in Hwt. cbn [lower_expr_body].
    destruct t as [| | | | |n2]; try discriminate Hwt.
    destruct (assocN en (p_enums P)) as [variants|] eqn:Ev; [|discriminate Hwt].
    apply andb_prop in Hwt as [Hen Hwt]. apply N.eqb_eq in Hen. subst n2.
    destruct (nthN variants v) as [ts|] eqn:En; [|discriminate Hwt].
    eapply safe_bind; [eapply (lower_list_safe g fw args ts); try eassumption; now apply forallb2_Forall2 in Hwt|].
    intros [ws E1] [L1 S1]. cbn [fst snd] in L1, S1.
    pose proof (concat_sumsz P _ _ L1) as Lc. pose proof (variant_fits P _ _ _ En) as Hmx.
    destruct (Nat.leb_spec (enum_tag_size variants + length (concat ws)) (enum_max_size P variants)); [|lia].
    apply ret_e; [|exact S1].
    rewrite !app_length, as_wires_length_u, repeat_length, (szn_enum P en variants Hty Ev). lia.
  Qed.

  (* ---------------------------------------------------------------- calls *)

  Hypothesis Hprog : prog_ok P.

  Lemma lower_args_safe g fw : genv P g -> forall params args E,
    Forall2 (fun e (pt : N * ty) => ty_eqb (e_ty e) (snd pt) && wt_expr fw P g e = true) args params ->
    forallb (ok_expr P) args = true -> env_shape P g E ->
    safe (lower_args eB params args E)
         (fun r => Forall2 (fun b p => fst b = fst p /\ length (snd b) = szn P (snd p)) (fst r) params /\
                   env_shape P g (snd r)).
  Proof.
    intros Hg. induction params as [|[pn pt] params IH]; intros args E H Hok Hs; inversion H as [|a ? ar ? Hh Ht]; subst;
      cbn [lower_args].
    - apply safe_ret. split; [constructor|exact Hs].
    - cbn [forallb] in Hok. apply andb_prop in Hok as [Hok1 Hok2]. cbn [snd] in Hh. apply andb_prop in Hh as [Hty Hwt].
      assert (wt_expr fw P ([] :: g) a = true) as Hwt'.
      { rewrite <- Hwt. symmetry. apply (proj1 (wt_equiv P fw)). intro x. reflexivity. }
      eapply safe_bind; [eapply HE_ty; try eassumption; [now apply genv_cons|now apply env_shape_push]|].
      intros [w Ea] [L1 S1]. cbn [fst snd] in L1, S1.
      eapply bind_pop; [exact S1|]. intros Eb Sb.
      eapply safe_bind; [eapply IH; eassumption|]. intros [bs Ec] [Lb Sc]. cbn [fst snd] in Lb, Sc.
      apply safe_ret. split; [constructor; [split; [reflexivity|exact L1]|exact Lb]|exact Sc].
  Qed.

  Lemma expr_step_call fn args m t g E fw :
    wt_expr (S fw) P g (Ex (ECall fn args) m t) = true -> ok_expr P (Ex (ECall fn args) m t) = true ->
    genv P g -> env_shape P g E ->
    safe (lower_expr_body tops P eB pB bB (Ex (ECall fn args) m t) E) (epost P g t).
  Proof.
    intros Hwt Hok Hg Hs. cbn [ok_expr] in Hok. apply andb_prop in Hok as [Hn Hok].
    cbn [wt_expr] in Hwt. cbn [lower_expr_body].
    destruct (find_fn P fn) as [fd|] eqn:Ef; [|discriminate Hwt]. apply andb_prop in Hwt as [Hret Hargs].
    destruct (Hprog fn fd Ef) as [(fwb & tb & Hbody & Htb) Hokb].
    eapply safe_bind; [eapply (lower_args_safe g fw Hg); try eassumption; now apply forallb2_Forall2 in Hargs|].
    intros [bindings E1] [Lb S1]. cbn [fst snd] in Lb, S1.
    destruct Hg as [g' ->]. unfold env_shape in S1. apply Forall2_app_inv_l in S1 as (E' & Eg & S' & Sg & ->).
    inversion Sg as [|? glob ? ? Hglob Hnil]; subst. inversion Hnil; subst.
    rewrite rev_app_distr. cbn [rev app].
    destruct (bind_all_shape P bindings (fn_params fd) [] [gscope P] (env_push [glob])) as (Ecal & HEcal & Scal).
    { constructor; [apply scope_shape_nil|]. constructor; [exact Hglob|constructor]. }
    { exact Lb. }
    eapply safe_lift_bind; [exact HEcal|].
    eapply safe_bind; [eapply HB; try eassumption|].
    { rewrite tbind_all_cons. exists [sbind_all [] (fn_params fd) true]. reflexivity. }
    intros [body E2] [L2 S2]. cbn [fst snd] in L2, S2. rewrite tbind_all_cons in S2.
    eapply bind_pop; [exact S2|]. intros E3 S3.
    apply safe_ret. split.
    - cbn [fst]. rewrite L2, (ty_eqb_szn P _ _ Htb). now apply ty_eqb_szn.
    - cbn [snd]. rewrite rev_involutive. apply Forall2_app; assumption.
  Qed.

  (* ---------------------------------------------------------------- assignment through accessors *)

  Lemma forallb2_nth : forall (ts' ts : list ty) i ti, forallb2 ty_eqb ts' ts = true -> nth_error ts i = Some ti ->
    exists ti', nth_error ts' i = Some ti' /\ ty_eqb ti' ti = true.
  Proof.
    induction ts' as [|t' ts' IH]; intros [|t ts] i ti H Hn; cbn [forallb2] in H; try discriminate H.
    - destruct i; discriminate Hn.
    - apply andb_prop in H as [H1 H2]. destruct i as [|i]; cbn [nth_error] in *.
      + injection Hn as <-. eauto.
      + eapply IH; eassumption.
  Qed.

  Lemma assign_indexes_safe m g fw : genv P g -> forall accs cur tf E acc_rev,
    wt_accs P (wt_expr fw P) g accs cur = Some tf -> forallb (ok_acc P) accs = true -> env_shape P g E ->
    Forall (fun iw : list bool => length iw = 32) acc_rev ->
    safe (assign_indexes tops P eB m accs E acc_rev)
         (fun r => length (fst r) = length acc_rev + nidx accs /\
                   Forall (fun iw : list bool => length iw = 32) (fst r) /\ env_shape P g (snd r)).
  Proof.
    intros Hg. induction accs as [|a accs IH]; intros cur tf E acc_rev Hwt Hok Hs Hacc; cbn [assign_indexes].
    - apply safe_ret. cbn [fst snd nidx filter length]. rewrite rev_length. split; [lia|]. split; [now apply Forall_rev|exact Hs].
    - cbn [forallb] in Hok. apply andb_prop in Hok as [Hoka Hok]. destruct a as [aty i|tty i|sty fld]; cbn [wt_accs] in Hwt.
      + destruct cur as [| |el n| | |]; try discriminate Hwt.
        destruct (ty_eqb aty (TArr el n) && is_unsigned (e_ty i) && wt_expr fw P g i) eqn:Hc; [|discriminate Hwt].
        apply andb_prop in Hc as [Hc Hwi]. apply andb_prop in Hc as [Hty Hun].
        destruct aty as [| |el' n'| | |]; try discriminate Hty. cbn [array_size].
        eapply safe_lift_bind; [reflexivity|].
        cbn [ok_acc] in Hoka. andb_split Hoka.
        eapply bind_e; [eapply HE; eassumption|]. intros iw E1 L1 S1.
        eapply safe_bind; [apply extend_safe; unfold USZ; eapply idx_ok_len; eassumption|]. intros iw' Hiw'. unfold USZ in Hiw'.
        eapply safe_bind; [now apply bounds_check_safe|]. intros _ _.
        eapply safe_conseq; [eapply IH; try eassumption; constructor; assumption|].
        intros r (Hl & Hf & Sr). cbn [length] in Hl. cbn [nidx filter is_aidx length]. fold (nidx accs).
        split; [lia|]. split; assumption.
      + destruct cur as [| | |ts| |]; try discriminate Hwt. destruct (ty_eqb tty (TTup ts)); [|discriminate Hwt].
        destruct (nthN ts i); [|discriminate Hwt]. eapply IH; eassumption.
      + destruct cur as [| | | |name|]; try discriminate Hwt. destruct (ty_eqb sty (TStruct name)); [|discriminate Hwt].
        destruct (assocN name (p_structs P)) as [def|]; [|discriminate Hwt].
        destruct (assocN fld def); [|discriminate Hwt]. eapply IH; eassumption.
  Qed.

  Lemma assign_forward_safe g fw : forall accs cur tf (coll : list bool) idxs acc L,
    wt_accs P (wt_expr fw P) g accs cur = Some tf -> forallb (ok_acc P) accs = true -> length coll = szn P cur ->
    length idxs = nidx accs -> Forall (fun iw : list bool => length iw = 32) idxs ->
    chain_ok acc (length coll) L ->
    safe (assign_forward tops P accs coll idxs acc) (fun acc' => chain_ok acc' (szn P tf) L).
  Proof.
    induction accs as [|a accs IH]; intros cur tf coll idxs acc L Hwt Hok Lc Li Hf Hch; cbn [assign_forward].
    - cbn [wt_accs] in Hwt. injection Hwt as <-. apply safe_ret. now rewrite <- Lc.
    - cbn [forallb] in Hok. apply andb_prop in Hok as [Hoka Hok]. destruct a as [aty i|tty i|sty fld]; cbn [wt_accs] in Hwt.
      + destruct cur as [| |el n| | |]; try discriminate Hwt.
        destruct (ty_eqb aty (TArr el n) && is_unsigned (e_ty i) && wt_expr fw P g i) eqn:Hc; [|discriminate Hwt].
        apply andb_prop in Hc as [Hc Hwi]. apply andb_prop in Hc as [Hty Hun].
        destruct aty as [| |el' n'| | |]; try discriminate Hty. cbn [array_size].
        eapply safe_lift_bind; [reflexivity|].
        cbn [ok_acc] in Hoka. apply andb_prop in Hoka as [Hoka Hoki]. apply andb_prop in Hoka as [Hoka Hidx].
        rename Hoka into Hnode.
        cbn [nidx filter is_aidx length] in Li. fold (nidx accs) in Li.
        destruct idxs as [|iw ir]; [discriminate Li|]. injection Li as Li. inversion Hf as [|? ? Hiw Hir]; subst.
        pose proof (node_ok_tyok _ _ Hnode) as Htyk. pose proof (node_ok_arr_len _ _ Hnode) as Hlen.
        rewrite <- (ty_eqb_szn P _ _ Hty), szn_arr in Lc by exact Htyk.
        cbn [ty_eqb] in Hty. apply andb_prop in Hty as [Hel _].
        assert (Hlay : safe (index_layers tops (rev iw) coll (szn P el'))
                         (fun arr' => length (match arr' with [] => repeat (wF tops) (szn P el') | _ => arr' end) = szn P el')).
        { destruct (Nat.eq_dec (szn P el') 0) as [E0|Hne].
          - rewrite E0 in *. assert (coll = []) as -> by (apply length_zero_iff_nil; lia).
            eapply safe_conseq; [apply index_layers_zero|]. intros r0 ->. reflexivity.
          - eapply safe_conseq.
            + apply (index_layers_safe (szn P el') ltac:(lia) (rev iw) (N.to_nat n') coll); [lia|].
              rewrite rev_length, Hiw. exact Hlen.
            + intros arr' La. cbn beta in La. destruct arr' as [|a0 r0]; [apply repeat_length|].
              destruct (N.to_nat n' =? 0); [cbn [length] in La; lia|]. rewrite La. lia. }
        eapply safe_bind; [exact Hlay|]. intros arr' La. cbn beta in La.
        eapply IH; try eassumption.
        * rewrite La. now apply ty_eqb_szn.
        * cbn [chain_ok]. split; [now symmetry|]. split; [exact Hiw|exact Hch].
      + destruct cur as [| | |ts| |]; try discriminate Hwt. destruct (ty_eqb tty (TTup ts)) eqn:Hty; [|discriminate Hwt].
        destruct (nthN ts i) as [ti|] eqn:Ei; [|discriminate Hwt].
        cbn [ok_acc] in Hoka. pose proof (node_ok_tyok _ _ Hoka) as Htyk.
        destruct tty as [| | |ts'| |]; try discriminate Hty.
        rewrite <- (ty_eqb_szn P _ _ Hty), szn_tup in Lc by exact Htyk.
        rewrite ty_eqb_tup in Hty. rewrite nthN_spec in Ei.
        destruct (forallb2_nth _ _ _ _ Hty Ei) as (ti' & Ei' & Hti).
        cbn [tuple_offsets]. rewrite nthN_spec, Ei'. eapply safe_lift_bind; [reflexivity|].
        rewrite fold_left_sumsz. cbn [Nat.add].
        pose proof (sumsz_nth P _ _ _ Ei') as Hle.
        eapply bind_slice; [lia|]. intros c' Lc'.
        eapply IH; try eassumption.
        * rewrite Lc'. now apply ty_eqb_szn.
        * cbn [chain_ok]. split; [now rewrite Lc'|]. split; [lia|exact Hch].
      + destruct cur as [| | | |name|]; try discriminate Hwt. destruct (ty_eqb sty (TStruct name)) eqn:Hty; [|discriminate Hwt].
        destruct (assocN name (p_structs P)) as [def|] eqn:Ed; [|discriminate Hwt].
        destruct (assocN fld def) as [ft|] eqn:Ef; [|discriminate Hwt].
        cbn [ok_acc] in Hoka. pose proof (node_ok_tyok _ _ Hoka) as Htyk.
        destruct sty as [| | | |name'|]; try discriminate Hty. cbn [ty_eqb] in Hty. apply N.eqb_eq in Hty. subst name'.
        rewrite (szn_struct P name def Htyk Ed) in Lc.
        cbn [struct_offsets]. rewrite Ed.
        destruct (field_offsets_ok P def fld ft 0 Ef) as (wb & Hwb & Hle).
        eapply safe_lift_bind; [exact Hwb|].
        eapply bind_slice; [lia|]. intros c' Lc'.
        eapply IH; try eassumption.
        cbn [chain_ok]. split; [now rewrite Lc'|]. split; [lia|exact Hch].
  Qed.

  (* ---------------------------------------------------------------- statements *)

  Definition HS_hyp : Prop := forall st s r E fw g' t, wt_stmt fw P (s :: r) st = Some (g', t) ->
    ok_stmt P st = true -> genv P r -> env_shape P (s :: r) E -> safe (sB st E) (epost P g' t).
  Hypothesis HS : HS_hyp.

  Lemma lower_stmts_safe f : forall ss s r last t E, wt_go (wt_stmt f P) ss (s :: r) last = Some t ->
    forallb (ok_stmt P) ss = true -> genv P r -> env_shape P (s :: r) E ->
    safe (lower_stmts sB ss E) (fun E' => exists s', env_shape P (s' :: r) E').
  Proof.
    induction ss as [|st ss IH]; intros s r last t E Hwt Hok Hg Hs; cbn [lower_stmts wt_go] in *.
    - apply safe_ret. eauto.
    - cbn [forallb] in Hok. apply andb_prop in Hok as [Hok1 Hok2].
      destruct (wt_stmt f P (s :: r) st) as [[g' t']|] eqn:Est; [|discriminate].
      destruct (wt_stmt_tail _ _ _ _ _ _ _ Est) as [s' ->].
      eapply safe_bind; [eapply HS; eassumption|]. intros [w E1] [_ S1]. cbn [snd] in S1.
      eapply IH; eassumption.
  Qed.

  Lemma block_stmts_safe f : forall ss s r last tl t E, wt_go (wt_stmt f P) ss (s :: r) tl = Some t ->
    forallb (ok_stmt P) ss = true -> genv P r -> env_shape P (s :: r) E -> length last = szn P tl ->
    safe (block_stmts sB ss last E) (fun r' => length (fst r') = szn P t /\ exists s', env_shape P (s' :: r) (snd r')).
  Proof.
    induction ss as [|st ss IH]; intros s r last tl t E Hwt Hok Hg Hs L; cbn [block_stmts wt_go] in *.
    - injection Hwt as <-. apply safe_ret. eauto.
    - cbn [forallb] in Hok. apply andb_prop in Hok as [Hok1 Hok2].
      destruct (wt_stmt f P (s :: r) st) as [[g' t']|] eqn:Est; [|discriminate].
      destruct (wt_stmt_tail _ _ _ _ _ _ _ Est) as [s' ->].
      eapply bind_e; [eapply HS; eassumption|]. intros w E1 L1 S1.
      eapply IH; eassumption.
  Qed.

  Lemma block_step b g E fw t : wt_block fw P ([] :: g) b = Some t ->
    forallb (ok_stmt P) b = true -> genv P g -> env_shape P g E ->
    safe (lower_block_body sB b E) (epost P g t).
  Proof.
    intros Hwt Hok Hg Hs. destruct fw as [|f]; [discriminate|]. rewrite wt_block_eq in Hwt.
    unfold lower_block_body.
    eapply safe_bind; [eapply block_stmts_safe; try eassumption; [now apply env_shape_push|now rewrite szn_unit]|].
    intros [w E1] [L (s' & S1)]. cbn [fst snd] in L, S1.
    eapply bind_pop; [exact S1|]. intros E2 S2. apply ret_e; assumption.
  Qed.

  Lemma for_iterations_safe f pat body bs t' eb g : forall n aw E,
    wt_pat P pat = Some bs -> ok_pat P pat = true -> tyok P (p_ty pat) -> szn P (p_ty pat) = eb ->
    wt_go (wt_stmt f P) body (tbind_all ([] :: g) bs false) unit_ty = Some t' -> forallb (ok_stmt P) body = true ->
    genv P g -> env_shape P g E -> length aw = eb * n ->
    safe (for_iterations pB sB pat body eb n aw E) (env_shape P g).
  Proof.
    induction n as [|k IH]; intros aw E Hp Hokp Hty Heb Hb Hokb Hg Hs L; cbn [for_iterations].
    - apply safe_ret. exact Hs.
    - assert (slice aw 0 eb = Ok (firstn eb aw)) as Hsl.
      { unfold slice. destruct (Nat.leb_spec (0 + eb) (length aw)); [reflexivity|lia]. }
      eapply safe_lift_bind; [exact Hsl|].
      eapply safe_bind; [eapply (HP pat [] g (env_push E) (firstn eb aw) bs Hp Hokp Hty (env_shape_push P g E Hs)); rewrite firstn_length; lia|].
      intros [im Ea] Sa. unfold ppost in Sa. cbn [snd] in Sa. pose proof Hb as Hb'. rewrite tbind_all_cons in Sa, Hb'.
      eapply safe_bind; [eapply lower_stmts_safe; eassumption|]. intros Eb (s' & Sb).
      eapply bind_pop; [exact Sb|]. intros Ec Sc.
      apply IH; try assumption. rewrite skipn_length. lia.
  Qed.

  Lemma stmt_step si m s r E fw g' t : wt_stmt (S fw) P (s :: r) (St si m) = Some (g', t) ->
    ok_stmt P (St si m) = true -> genv P r -> env_shape P (s :: r) E ->
    safe (lower_stmt_body tops P eB pB sB (St si m) E) (epost P g' t).
  Proof.
    intros Hwt Hok Hg Hs. pose proof (genv_cons P s r Hg) as Hg'. rewrite wt_stmt_eq in Hwt.
    destruct si; cbv iota in Hwt; cbn [ok_stmt] in Hok; cbn [lower_stmt_body]; try discriminate Hok.
    - (* SLet *) apply andb_prop in Hok as [Hokp Hoke].
      destruct (wt_expr fw P (s :: r) e && ty_eqb (p_ty p) (e_ty e)) eqn:Hc; [|discriminate].
      apply andb_prop in Hc as [Hwe Hpe].
      destruct (wt_pat P p) as [bs|] eqn:Hp; [|discriminate]. injection Hwt as <- <-.
      eapply bind_e; [eapply HE; eassumption|]. intros w E1 L1 S1.
      eapply safe_bind; [eapply HP; try eassumption|].
      + eapply ty_eqb_tyok'; [exact Hpe|]. apply node_ok_tyok. now apply ok_expr_node.
      + rewrite L1. symmetry. now apply ty_eqb_szn.
      + intros [im E2] S2. apply ret_e; [now rewrite szn_unit|exact S2].
    - (* SLetMut *) destruct (wt_expr fw P (s :: r) e) eqn:Hwe; [|discriminate]. injection Hwt as <- <-.
      eapply bind_e; [eapply HE; eassumption|]. intros w E1 L1 S1.
      eapply (bind_let s r _ name _ true); [exact S1|exact L1|]. intros E2 S2.
      apply ret_e; [now rewrite szn_unit|exact S2].
    - (* SAssign *) apply andb_prop in Hok as [Hoka Hoke].
      destruct (tlookup (s :: r) name) as [[tx [|]]|] eqn:El; try discriminate.
      destruct (wt_accs P (wt_expr fw P) (s :: r) accs tx) as [tf|] eqn:Eacc; [|discriminate].
      destruct (ty_eqb tf (e_ty e) && wt_expr fw P (s :: r) e) eqn:Hc; [|discriminate].
      apply andb_prop in Hc as [Hte Hwe]. injection Hwt as <- <-.
      eapply bind_e; [eapply HE; eassumption|]. intros value E1 L1 S1.
      eapply safe_bind; [eapply (assign_indexes_safe m (s :: r) fw Hg'); try eassumption; constructor|].
      intros [idxs E2] (Li & Hf & S2). cbn [fst snd length Nat.add] in Li, Hf, S2.
      destruct (env_shape_get P _ _ _ _ _ S2 El) as (coll & -> & Lc).
      apply safe_ret_bind.
      eapply safe_bind; [eapply (assign_forward_safe (s :: r) fw accs tx tf coll idxs [] (length coll)); try eassumption; reflexivity|].
      intros accessed Hch.
      eapply safe_bind; [eapply assign_backward_safe; [exact Hch|]; rewrite L1; symmetry; now apply ty_eqb_szn|].
      intros value' Lv'.
      destruct (env_shape_assign P _ E2 name tx true value' S2 El) as (E3 & HE3 & S3); [congruence|].
      eapply safe_lift_bind; [exact HE3|]. apply ret_e; [now rewrite szn_unit|exact S3].
    - (* SFor *) apply andb_prop in Hok as [Hok Hokb]. apply andb_prop in Hok as [Hokp Hoke].
      destruct (e_ty arr) as [| |el n| | |] eqn:Ea; try discriminate.
      destruct (wt_expr fw P (s :: r) arr && ty_eqb (p_ty p) el) eqn:Hc; [|discriminate].
      apply andb_prop in Hc as [Hwa Hpe].
      destruct (wt_pat P p) as [bs|] eqn:Hp; [|discriminate].
      destruct (wt_block fw P (tbind_all ([] :: s :: r) bs false) body) as [tb|] eqn:Hb; [|discriminate].
      injection Hwt as <- <-. cbn [array_size].
      eapply safe_lift_bind; [reflexivity|].
      eapply bind_e; [eapply HE; eassumption|]. intros aw E1 L1 S1.
      pose proof (ok_expr_node _ Hoke) as Hna. rewrite Ea in Hna, L1. apply node_ok_tyok in Hna.
      pose proof (ty_ok_arr P _ el n Hna) as Hel. rewrite szn_arr in L1 by exact Hna.
      destruct fw as [|f]; [discriminate Hb|]. rewrite wt_block_eq in Hb.
      eapply safe_bind; [eapply (for_iterations_safe f p body bs tb (szn P el) (s :: r)); try eassumption|].
      + eapply ty_eqb_tyok'; eassumption.
      + now apply ty_eqb_szn.
      + intros E2 S2. apply ret_e; [now rewrite szn_unit|exact S2].
    - (* SExpr *) destruct (wt_expr fw P (s :: r) e) eqn:Hwe; [|discriminate]. injection Hwt as <- <-.
      eapply HE; eassumption.
  Qed.

  Lemma expr_step e g E fw : wt_expr fw P g e = true -> ok_expr P e = true -> genv P g -> env_shape P g E ->
    safe (lower_expr_body tops P eB pB bB e E) (epost P g (e_ty e)).
  Proof.
    intros Hwt Hok Hg Hs. destruct e as [ei m t]. destruct fw as [|fw]; [discriminate|]. cbn [e_ty].
    destruct ei;
      try (eapply expr_step_simple; [eassumption|assumption|assumption|assumption|exact I]);
      try (eapply expr_step_op; eassumption);
      try (eapply expr_step_idx; eassumption);
      try (eapply expr_step_match; eassumption);
      try (eapply expr_step_struct; eassumption);
      try (eapply expr_step_call; eassumption);
      try (eapply expr_step_enum; eassumption);
      try (eapply expr_step_agg; [eassumption|assumption|assumption|assumption|exact I]);
      exfalso; cbn [ok_expr] in Hok; apply andb_prop in Hok as [_ Hok]; discriminate Hok.
  Qed.

  Lemma pat_step p s r E mw bs : wt_pat P p = Some bs -> ok_pat P p = true -> tyok P (p_ty p) ->
    env_shape P (s :: r) E -> length mw = szn P (p_ty p) ->
    safe (lower_pattern_body tops P pB p mw E) (ppost (s :: r) bs).
  Proof.
    intros Hwt Hok Hty Hs L. destruct p as [pi m t]. cbn [p_ty] in *.
    destruct pi;
      try (eapply pat_step_simple; [eassumption|assumption|assumption|assumption|assumption|exact I]);
      try (eapply pat_step_agg; [eassumption|assumption|assumption|assumption|assumption|exact I]).
    eapply pat_step_struct; eassumption.
  Qed.
End Step.

(* ------------------------------------------------------------------ tying the knot *)

Lemma lower_expr_S f P e E : lower_expr tops (S f) P e E =
  lower_expr_body tops P (lower_expr tops f P) (lower_pattern tops f P) (lower_block tops f P) e E.
Proof. reflexivity. Qed.
Lemma lower_block_S f P b E : lower_block tops (S f) P b E = lower_block_body (lower_stmt tops f P) b E.
Proof. reflexivity. Qed.
Lemma lower_stmt_S f P s E : lower_stmt tops (S f) P s E =
  lower_stmt_body tops P (lower_expr tops f P) (lower_pattern tops f P) (lower_stmt tops f P) s E.
Proof. reflexivity. Qed.
Lemma lower_pattern_S f P p mw E : lower_pattern tops (S f) P p mw E =
  lower_pattern_body tops P (lower_pattern tops f P) p mw E.
Proof. reflexivity. Qed.


Section MulRewrite.
  Variable P : program.
  Variable f0 : nat.
  Hypothesis HEs : forall f', f' <= f0 -> HE_hyp P (lower_expr tops f' P).

  Lemma iter_add_safe y m t s b g fw : wt_expr fw P g y = true -> ok_expr P y = true ->
    t = TInt s b -> node_ok P t = true -> ty_eqb (e_ty y) t = true -> genv P g ->
    forall k f' E, f' <= f0 -> env_shape P g E ->
    safe (lower_expr tops f' P (Nat.iter k (fun e => Ex (EOp OAdd e y) m t) y) E) (epost P g t).
  Proof.
    intros Hwy Hoky -> Hn Hty Hg. induction k as [|k IH]; intros f' E Hf Hs; cbn [Nat.iter nat_rect].
    - eapply (HE_ty P _ (HEs f' Hf)); eassumption.
    - destruct f' as [|f']; [apply safe_nofuel|]. rewrite lower_expr_S. cbn [lower_expr_body].
      eapply bind_e; [apply IH; [lia|exact Hs]|]. intros xw E1 L1 S1.
      eapply safe_bind; [eapply (HE_ty P _ (HEs f' ltac:(lia))); eassumption|].
      intros [yw E2] [L2 S2]. cbn [fst snd] in L2, S2.
      destruct (int_len P xw _ _ _ Hn L1 eq_refl) as [_ Hne].
      eapply safe_bind; [apply arith_safe; [exact Hne|congruence|reflexivity]|]. intros r0 Hr.
      apply ret_e; [congruence|exact S2].
  Qed.

  Lemma rewrite_one_safe a y m t s b g fw op e' : wt_expr fw P g y = true -> ok_expr P y = true ->
    t = TInt s b -> node_ok P t = true -> ty_eqb (e_ty y) t = true -> genv P g ->
    rewrite_one a y m t = Some (op, e') ->
    forall f' E, f' <= f0 -> env_shape P (tbind ([] :: g) MUL_TMP (e_ty y) false) E ->
    safe (lower_expr tops f' P e' E) (epost P (tbind ([] :: g) MUL_TMP (e_ty y) false) t).
  Proof.
    intros Hwy Hoky Ht Hn Hty Hg Hr f' E Hf Hs. unfold rewrite_one in Hr.
    destruct (lit_info a) as [[[n bits] neg]|]; [|discriminate].
    destruct (n =? 0)%N; [discriminate|]. destruct (n <? bits)%N; [|discriminate].
    injection Hr as _ <-. rewrite N2Nat.inj_iter.
    set (yv := Ex (EId MUL_TMP) (e_meta y) (e_ty y)).
    set (g2 := tbind ([] :: g) MUL_TMP (e_ty y) false) in *.
    assert (wt_expr 1 P g2 yv = true) as Hwv.
    { subst t. destruct (ty_eqb_int_l _ _ _ Hty) as (s' & b' & Ey). unfold yv, g2. rewrite Ey.
      cbn [wt_expr tbind tlookup assocN]. rewrite N.eqb_refl. cbn [ty_eqb]. now rewrite Bool.eqb_reflx, N.eqb_refl. }
    assert (ok_expr P yv = true) as Hokv.
    { unfold yv. cbn [ok_expr]. now rewrite (ok_expr_node P y Hoky). }
    assert (genv P g2) as Hg2 by (unfold g2; cbn [tbind]; now apply genv_cons).
    assert (ty_eqb (e_ty yv) t = true) as Htv by exact Hty.
    destruct neg.
    - destruct f' as [|f1]; [apply safe_nofuel|]. rewrite lower_expr_S, lower_neg_case.
      eapply safe_bind; [eapply (iter_add_safe yv); try eassumption; lia|].
      intros [x E1] [L S]. cbn [fst snd] in L, S. subst t.
      destruct (int_len P x _ _ _ Hn L eq_refl) as [_ Hne].
      intro o. rewrite neg_steps_correct by exact Hne. split; [|exact S]. cbn [fst]. now rewrite length_enc.
    - eapply (iter_add_safe yv); eassumption.
  Qed.

  Lemma HM_of_HE : HM_hyp P (lower_expr tops f0 P).
  Proof.
    intros x y m t op e' g E fw s b Hwx Hwy Hokx Hoky Ht Hn Htx Hty Hr Hg Hs. unfold mul_rewrite in Hr.
    destruct (rewrite_one x y m t) as [[o1 e1]|] eqn:E1.
    - injection Hr as <- <-. pose proof (rewrite_one_operand _ _ _ _ _ _ E1) as ->.
      eapply rewrite_one_safe; try eassumption. lia.
    - pose proof (rewrite_one_operand _ _ _ _ _ _ Hr) as ->.
      eapply (rewrite_one_safe y x); try eassumption. lia.
  Qed.
End MulRewrite.

Definition all_hyps (P : program) (f : nat) : Prop :=
  HE_hyp P (lower_expr tops f P) /\ HP_hyp P (lower_pattern tops f P) /\
  HS_hyp P (lower_stmt tops f P) /\ HB_hyp P (lower_block tops f P).

Theorem lower_safe_all P : prog_ok P -> forall f, all_hyps P f.
Proof.
  intro Hprog. induction f as [f IH] using lt_wf_ind. destruct f as [|f].
  - repeat split; red; intros; apply safe_nofuel.
  - destruct (IH f (Nat.lt_succ_diag_r f)) as (HE & HP & HS & HB).
    assert (HM : HM_hyp P (lower_expr tops f P)).
    { apply HM_of_HE. intros f' Hf. apply (IH f'). lia. }
    repeat split; red; intros.
    + rewrite lower_expr_S. eapply expr_step; eassumption.
    + rewrite lower_pattern_S. eapply pat_step; eassumption.
    + rewrite lower_stmt_S. destruct st as [si m]. destruct fw as [|fw]; [discriminate|].
      eapply stmt_step; eassumption.
    + rewrite lower_block_S. eapply block_step; eassumption.
Qed.
Print Assumptions lower_safe_all.

(* ------------------------------------------------------------------ the theorems *)

Definition no_crash {A} (r : Util.res A) (Q : A -> Prop) : Prop :=
  match r with Crash => False | OutOfFuel => True | Ok a => Q a end.

Lemma safe_no_crash {A} (m : MB A) (Q : A -> Prop) o : safe m Q -> no_crash (m o) (fun r => Q (fst r)).
Proof. intro H. specialize (H o). unfold no_crash. destruct (m o) as [[a o']| |]; exact H. Qed.

(* expressions: no crash, the vector has the size of the static type, the environment keeps
   the shape of the typing environment *)
Theorem lower_expr_safe : forall fuel P, prog_ok P -> forall e g E o fw,
  wt_expr fw P g e = true -> ok_expr P e = true -> genv P g -> env_shape P g E ->
  match lower_expr tops fuel P e E o with
  | Crash => False
  | OutOfFuel => True
  | Ok ((w, E'), o') => length w = szn P (e_ty e) /\ env_shape P g E'
  end.
Proof.
  intros fuel P Hp e g E o fw Hwt Hok Hg Hs.
  destruct (lower_safe_all P Hp fuel) as (HE & _). specialize (HE e g E fw Hwt Hok Hg Hs o).
  destruct (lower_expr tops fuel P e E o) as [[[w E'] o']| |]; exact HE.
Qed.
Print Assumptions lower_expr_safe.

(* blocks: typed in a fresh scope over [g]; the scope is popped at the end *)
Theorem lower_block_safe : forall fuel P, prog_ok P -> forall b g E o fw t,
  wt_block fw P ([] :: g) b = Some t -> forallb (ok_stmt P) b = true -> genv P g -> env_shape P g E ->
  match lower_block tops fuel P b E o with
  | Crash => False
  | OutOfFuel => True
  | Ok ((w, E'), o') => length w = szn P t /\ env_shape P g E'
  end.
Proof.
  intros fuel P Hp b g E o fw t Hwt Hok Hg Hs.
  destruct (lower_safe_all P Hp fuel) as (_ & _ & _ & HB). specialize (HB b g E fw t Hwt Hok Hg Hs o).
  destruct (lower_block tops fuel P b E o) as [[[w E'] o']| |]; exact HB.
Qed.
Print Assumptions lower_block_safe.

(* statements: the environment is extended as [wt_stmt] says (in the innermost scope [s]) *)
Theorem lower_stmt_safe : forall fuel P, prog_ok P -> forall st s r E o fw g' t,
  wt_stmt fw P (s :: r) st = Some (g', t) -> ok_stmt P st = true -> genv P r -> env_shape P (s :: r) E ->
  match lower_stmt tops fuel P st E o with
  | Crash => False
  | OutOfFuel => True
  | Ok ((w, E'), o') => length w = szn P t /\ env_shape P g' E'
  end.
Proof.
  intros fuel P Hp st s r E o fw g' t Hwt Hok Hg Hs.
  destruct (lower_safe_all P Hp fuel) as (_ & _ & HS & _). specialize (HS st s r E fw g' t Hwt Hok Hg Hs o).
  destruct (lower_stmt tops fuel P st E o) as [[[w E'] o']| |]; exact HS.
Qed.
Print Assumptions lower_stmt_safe.

(* patterns: matched against a vector of the size of the pattern's type, the bindings of
   [wt_pat] are added to the innermost scope *)
Theorem lower_pattern_safe : forall fuel P, prog_ok P -> forall p s r E mw o bs,
  wt_pat P p = Some bs -> ok_pat P p = true -> tyok P (p_ty p) -> env_shape P (s :: r) E ->
  length mw = szn P (p_ty p) ->
  match lower_pattern tops fuel P p mw E o with
  | Crash => False
  | OutOfFuel => True
  | Ok ((_, E'), o') => env_shape P (tbind_all (s :: r) bs false) E'
  end.
Proof.
  intros fuel P Hp p s r E mw o bs Hwt Hok Hty Hs L.
  destruct (lower_safe_all P Hp fuel) as (_ & HP & _). specialize (HP p s r E mw bs Hwt Hok Hty Hs L o).
  destruct (lower_pattern tops fuel P p mw E o) as [[[w E'] o']| |]; exact HP.
Qed.
Print Assumptions lower_pattern_safe.

(* ------------------------------------------------------------------ whole programs *)

(* the literal that defines a constant has the width of the constant's type (the global
   scope is built from the literal's own suffix width) *)
Definition const_ok (e : expr) : bool :=
  match e with
  | Ex ETrue _ TBool | Ex EFalse _ TBool => true
  | Ex (ENumU _ lb) _ (TInt _ b) | Ex (ENumS _ lb) _ (TInt _ b) => (lb =? b)%N
  | _ => false
  end.
Definition consts_ok (P : program) : bool := forallb (fun c => const_ok (snd c)) (p_consts P).

Lemma const_wires_len P e : const_ok e = true -> exists w, const_wires tops e = Ok w /\ length w = szn P (e_ty e).
Proof.
  destruct e as [ei m t]. destruct ei; try discriminate; destruct t; try discriminate; cbn [const_ok const_wires e_ty]; intro H.
  - eexists. split; [reflexivity|]. now rewrite szn_bool.
  - eexists. split; [reflexivity|]. now rewrite szn_bool.
  - apply N.eqb_eq in H. subst. eexists. split; [reflexivity|]. now rewrite as_wires_length_u, szn_int.
  - apply N.eqb_eq in H. subst. eexists. split; [reflexivity|]. now rewrite as_wires_length_s, szn_int.
Qed.

Lemma global_scope_shape_gen P : forall (consts : list (N * expr)) s (sE : bscope), scope_shape P s sE ->
  forallb (fun c => const_ok (snd c)) consts = true ->
  exists glob,
    fold_left (fun Er '(x, e) => let* E := Er in let* w := const_wires tops e in env_let E x w) consts (Ok [sE]) = Ok [glob] /\
    scope_shape P (sbind_all s (map (fun c => (fst c, e_ty (snd c))) consts) false) glob.
Proof.
  induction consts as [|[x e] consts IH]; intros s sE Hs Hok; cbn [fold_left map].
  - exists sE. split; [reflexivity|exact Hs].
  - cbn [forallb snd] in Hok. apply andb_prop in Hok as [Hc Hok].
    destruct (const_wires_len P e Hc) as (w & Hw & L). cbn [bind]. rewrite Hw. cbn [bind env_let].
    unfold sbind_all. cbn [fold_left fst snd]. apply IH; [|exact Hok]. now apply scope_shape_insert.
Qed.

Lemma global_scope_shape P : consts_ok P = true ->
  exists glob, global_scope tops P = Ok [glob] /\ scope_shape P (gscope P) glob.
Proof. intro H. apply (global_scope_shape_gen P (p_consts P) [] []); [apply scope_shape_nil|exact H]. Qed.

Lemma combine_bindings P : forall (params : list (N * ty)) (args : list (list bool)),
  Forall2 (fun p a => length a = szn P (snd p)) params args ->
  Forall2 (fun b p => fst b = fst p /\ length (snd b) = szn P (snd p)) (combine (map fst params) args) params.
Proof.
  induction 1 as [|p a params args Hl _ IH]; cbn [map combine]; constructor; [split; [reflexivity|exact Hl]|exact IH].
Qed.

(* the bit-level semantics of an accepted program on arguments of the sizes of the parameter
   types: no crash, and the result has the size of the return type of main *)
Theorem tsem_program_safe fuel P args fd :
  wt_program P = true -> fns_ok P = true -> consts_ok P = true ->
  find_fn P (p_main P) = Some fd ->
  Forall2 (fun p a => length a = szn P (snd p)) (fn_params fd) args ->
  match tsem_program fuel P args with
  | Crash => False
  | OutOfFuel => True
  | Ok (_, outs) => length outs = szn P (fn_ret fd)
  end.
Proof.
  intros Hwt Hfns Hc Hmain Hargs. pose proof (prog_ok_of_wt P Hwt Hfns) as Hp.
  unfold tsem_program. rewrite Hmain. unfold same_len. rewrite (Forall2_length_eq _ _ _ Hargs), Nat.eqb_refl. cbn [negb].
  unfold main_env. destruct (global_scope_shape P Hc) as (glob & -> & Hglob). cbn [bind].
  destruct (bind_all_shape P (combine (map fst (fn_params fd)) args) (fn_params fd) [] [gscope P] (env_push [glob]))
    as (E0 & HE0 & S0).
  { constructor; [apply scope_shape_nil|]. constructor; [exact Hglob|constructor]. }
  { now apply combine_bindings. }
  unfold bind_all in HE0. rewrite HE0. cbn [bind].
  destruct (Hp _ _ Hmain) as [(fw & tb & Hb & Htb) Hokb].
  pose proof (lower_block_safe fuel P Hp (fn_body fd) _ E0 None fw tb Hb Hokb) as H.
  rewrite tbind_all_cons in H. specialize (H (ex_intro _ [sbind_all [] (fn_params fd) true] eq_refl)).
  rewrite <- tbind_all_cons in H. specialize (H S0).
  destruct (lower_block tops fuel P (fn_body fd) E0 None) as [[[w E'] o']| |]; cbn [bind]; try exact H.
  destruct H as [L _]. rewrite L. now apply ty_eqb_szn.
Qed.
Print Assumptions tsem_program_safe.

(* everything [tsem_program_safe] needs besides the sizes of the arguments, as ONE Boolean *)
Definition has_main (P : program) : bool :=
  match find_fn P (p_main P) with Some _ => true | None => false end.

Definition safe_program_ok (P : program) : bool :=
  wt_program P && fns_ok P && consts_ok P && has_main P.

Corollary tsem_program_safe_ok fuel P args : safe_program_ok P = true ->
  exists fd, find_fn P (p_main P) = Some fd /\
    (Forall2 (fun p a => length a = szn P (snd p)) (fn_params fd) args ->
     match tsem_program fuel P args with
     | Crash => False
     | OutOfFuel => True
     | Ok (_, outs) => length outs = szn P (fn_ret fd)
     end).
Proof.
  unfold safe_program_ok, has_main. intro H. apply andb_prop in H as [H Hm]. apply andb_prop in H as [H Hc].
  apply andb_prop in H as [Hwt Hf]. destruct (find_fn P (p_main P)) as [fd|] eqn:Ef; [|discriminate Hm].
  exists fd. split; [reflexivity|]. intro Hargs. now apply tsem_program_safe.
Qed.
Print Assumptions tsem_program_safe_ok.

(* ------------------------------------------------------------------ findings: trees accepted by
   the re-checker on which the model crashes or produces a vector of the wrong size; each is
   excluded above by a side condition of [ok_expr] / [ok_pat] / [ok_acc] / [consts_ok] *)

Module Findings.
  Local Open Scope N_scope.
  Definition m0 := mkMeta 0 0 0 0.
  Definition u8 := TInt false 8.
  Definition u16 := TInt false 16.
  Definition u64 := TInt false 64.
  Definition crashes {A} (r : Util.res A) : bool := match r with Crash => true | _ => false end.

  (* struct S { a: u8, b: u16 };  { let S { b: x, a: x } = s; x }  --  the re-checker gives x the
     type of the field written last (u8), the lowering binds the fields in definition order
     (x ends up with the 16 wires of b): 16 wires for an expression of type u8 *)
  Definition PS : program := mkProgram [(0, [(1, u8); (2, u16)])] [] [] [] 0.
  Definition gS : tenv := [[(5, (TStruct 0, false))]; []].
  Definition ES : benv := [[(5, repeat false 24)]; []].
  Definition e1 : expr :=
    Ex (EBlock [St (SLet (Pat (PStruct 0 false [(2, Pat (PId 7) m0 u16); (1, Pat (PId 7) m0 u8)]) m0 (TStruct 0))
                         (Ex (EId 5) m0 (TStruct 0))) m0;
                St (SExpr (Ex (EId 7) m0 u8)) m0]) m0 u8.
  Example struct_pattern_order :
    wt_expr 10 PS gS e1 = true /\
    match lower_expr tops 10 PS e1 ES None with Ok ((w, _), _) => length w | _ => O end = 16%nat /\
    szn PS u8 = 8%nat.
  Proof. vm_compute. repeat split. Qed.

  (* { let S { a: x, a: y } = s; x }  --  a field named twice: only the last one is bound *)
  Definition e2 : expr :=
    Ex (EBlock [St (SLet (Pat (PStruct 0 false [(1, Pat (PId 7) m0 u8); (1, Pat (PId 8) m0 u8)]) m0 (TStruct 0))
                         (Ex (EId 5) m0 (TStruct 0))) m0;
                St (SExpr (Ex (EId 7) m0 u8)) m0]) m0 u8.
  Example struct_pattern_duplicate_field :
    wt_expr 10 PS gS e2 = true /\ crashes (lower_expr tops 10 PS e2 ES None) = true.
  Proof. vm_compute. split; reflexivity. Qed.

  (* a[i] with i : u64  --  the index is extended to 32 bits *)
  Definition P0 : program := mkProgram [] [] [] [] 0.
  Definition gA : tenv := [[(5, (TArr u8 2, true)); (6, (u64, false))]; []].
  Definition EA : benv := [[(5, repeat false 16); (6, repeat false 64)]; []].
  Definition e3 : expr := Ex (EIdx (Ex (EId 5) m0 (TArr u8 2)) (Ex (EId 6) m0 u64)) m0 u8.
  Example index_wider_than_usize :
    wt_expr 10 P0 gA e3 = true /\ crashes (lower_expr tops 10 P0 e3 EA None) = true.
  Proof. vm_compute. split; reflexivity. Qed.

  (* a[0] = () with a : [(); 2]  --  NOT a crash: the compiler as found divided the number of wires
     by the element size and panicked; since fix 48af10d it takes the number of elements from the
     array type, and so does [array_write]: no side condition on the element size is needed *)
  Definition unit_t := TTup [].
  Definition gU : tenv := [[(5, (TArr unit_t 2, true))]; []].
  Definition EU : benv := [[(5, [])]; []].
  Definition s4 : stmt :=
    St (SAssign 5 [AIdx (TArr unit_t 2) (Ex (ENumU 0 32) m0 (TInt false 32))] (Ex (ETupLit []) m0 unit_t)) m0.
  Example assign_zero_sized_element_fixed :
    (match wt_stmt 10 P0 gU s4 with Some _ => true | None => false end) = true /\
    crashes (lower_stmt tops 10 P0 s4 EU None) = false.
  Proof. vm_compute. split; reflexivity. Qed.

  (* x << 1u8 with x of a 24-bit integer type *)
  Definition u24 := TInt false 24.
  Definition gW : tenv := [[(5, (u24, false))]; []].
  Definition EW : benv := [[(5, repeat false 24)]; []].
  Definition e5 : expr := Ex (EOp OShl (Ex (EId 5) m0 u24) (Ex (ENumU 1 8) m0 u8)) m0 u24.
  Example shift_other_width :
    wt_expr 10 P0 gW e5 = true /\ crashes (lower_expr tops 10 P0 e5 EW None) = true.
  Proof. vm_compute. split; reflexivity. Qed.

  (* -x with x of the zero-width signed type *)
  Definition i0 := TInt true 0.
  Definition gZ : tenv := [[(5, (i0, false))]; []].
  Definition EZ : benv := [[(5, [])]; []].
  Definition e6 : expr := Ex (ENeg (Ex (EId 5) m0 i0)) m0 i0.
  Example neg_zero_width :
    wt_expr 10 P0 gZ e6 = true /\ crashes (lower_expr tops 10 P0 e6 EZ None) = true.
  Proof. vm_compute. split; reflexivity. Qed.

  (* const C: u16 = 5u8 (as a tree): the global scope takes the width of the literal's suffix *)
  Definition PC : program :=
    mkProgram [] [] [mkFn 0 [] u16 [St (SExpr (Ex (EId 9) m0 u16)) m0]] [(9, Ex (ENumU 5 8) m0 u16)] 0.
  Example const_suffix_width :
    wt_program PC = true /\
    match tsem_program 10 PC [] with Ok (_, outs) => length outs | _ => O end = 8%nat /\ szn PC u16 = 16%nat.
  Proof. vm_compute. repeat split. Qed.
  (* join(true, true): the re-checker does not relate the operands of the join built-in to
     array types (the built-in and the join loop are outside the fragment) *)
  Definition e7 : expr := Ex (EJoin TBool false (Ex ETrue m0 TBool) (Ex ETrue m0 TBool)) m0 TBool.
  Example join_untyped :
    wt_expr 10 P0 [[]] e7 = true /\ crashes (lower_expr tops 10 P0 e7 [[]] None) = true.
  Proof. vm_compute. split; reflexivity. Qed.
End Findings.
