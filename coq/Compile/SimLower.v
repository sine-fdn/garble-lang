(* The relations between the results of the two lowerings of an expression or statement
   (wires and environment) and of a pattern (match wire and environment). *)
From GV Require Import Base.Util Base.NMap Lang.Ast Builder.Builder Compile.Lower Compile.TSem Compile.SimBase.

Section Rec.
Variable inp : list bool.

Notation Rw := (Rw inp).
Notation Rws := (Rws inp).
Notation RE := (RE inp).

Definition Rres (s : cst) (x : list N * @cenv N) (y : list bool * @cenv bool) : Prop :=
  Rws s (fst x) (fst y) /\ RE s (snd x) (snd y).
Definition RresP (s : cst) (x : N * @cenv N) (y : bool * @cenv bool) : Prop :=
  Rw s (fst x) (fst y) /\ RE s (snd x) (snd y).

End Rec.
