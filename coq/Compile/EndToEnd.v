(* For a program P that passes the Boolean checks [certified fuel P] (all of them evaluated by
   the extracted checker) and whose compilation stays within the gate bound, the circuit [c]
   that the model of the compiler emits ([lower_program_with fuel dedup P = Ok (LCircuit c)])
     - validates ([ssa_validate c = None]) and takes one input per party of the declared sizes;
     - on EVERY party inputs [ins] of these sizes whose denoted arguments are canonical
       encodings of values of main's parameter types, evaluates to a bit vector [out] such that
         * if the source semantics Lang/Sem.v returns the bits [bits], EvalPanic::parse of [out]
           says "no panic", and the bits after the 161-bit panic record are [bits];
         * if the source semantics panics with reason r at location m, EvalPanic::parse of
           [out] is that panic: (r, m);
       and the source semantics does one of the two (it never runs out of fuel and is never
       stuck), unless [frag_program P = false] and it is stuck on a pattern-match code (this
       last disjunct is the one of SemFuel.wt_covered_fuel_agrees, verbatim).

   Composition of: Compile/TSemTotal.lower_program_total (compiler model -> circuit -> bit-level
   semantics [tsem_program], total), Compile/SemFuel.wt_covered_fuel_agrees (bit-level
   semantics = source semantics), Panic/ (the panic record), Circuit/RegAllocProofs.convert_correct
   (register form). *)
From Coq Require Import Lia ZArith.
From GV Require Import Base.Util Lang.Ast Lang.Wt Lang.ValTy Circuit.Ssa Circuit.Reg Circuit.RegAlloc
  Circuit.RegAllocProofs Builder.Builder Panic.PanicRec Panic.PanicSem Compile.Lower Compile.TSem
  Compile.LowerSound Compile.TSemSafe Compile.TSemTotal Compile.TSemSemExpr Compile.TSemSemFull
  Compile.TSemSemFullCall Compile.TSemSemFullConst Compile.Fragment Compile.TSemSemFullWt Compile.SemFuel.
From GV Require Lang.Sem.
Local Open Scope N_scope.

(* ------------------------------------------------------------------ the statement's vocabulary *)

(* all the per-program checks: the strict checker of the proved fragment, the re-checker Wt.v's
   extra conditions and main's result type ([wt_covered], at Wt.v's own fuel), enough fuel for
   the source semantics, the crash-freedom conditions of the lowering, parameter types within
   the wiring depth, enough fuel for the lowering *)
Definition certified (fuel : nat) (P : program) : bool :=
  wt_covered 400 P && sem_fuel_enough fuel P && safe_program_ok P && params_ok P && fuel_enough fuel P.

(* the compiler's gate counter stays within MAX_GATES (build does not check it; a circuit
   beyond the bound is rejected by validate) *)
Definition within_gate_bound (fuel : nat) (dedup : bool) (P : program) : bool :=
  match lower_main_with fuel dedup P with
  | Ok (PreOk s _) => counter (cb s) + (b_shift (cb s) - 2) <=? MAX_GATES
  | _ => false
  end.

(* the parties' input sizes and the input wires of main's parameters (a single array parameter
   is split into one party per element) *)
Definition main_wiring (P : program) : list N * list (N * list N) :=
  match find_fn P (p_main P) with
  | Some fd => param_wiring P (fn_params fd)
  | None => ([], [])
  end.

(* the arguments of main (one bit vector per PARAMETER) denoted by the flat input [inp]
   (the concatenation of the parties' inputs) *)
Definition main_args (P : program) (inp : list bool) : list (list bool) :=
  param_args (snd (main_wiring P)) inp.

(* what the emitted circuit's output must say, given what the source semantics does *)
Definition output_spec (fuel : nat) (P : program) (args : list (list bool)) (out : list bool) : Prop :=
  (exists bits l, Sem.run_main fuel P args = Sem.RunOk bits l /\
                  parse_panic out = Ok (inl bits) /\ skipn 161 out = bits) \/
  (exists r m, Sem.run_main fuel P args = Sem.RunPanic r m /\
               parse_panic out = Ok (inr (pr r, ploc32 (ploc_of m)))) \/
  (frag_program P = false /\ exists c, Sem.run_main fuel P args = Sem.RunStuck c /\ In c stuck_allowed).

(* ------------------------------------------------------------------ helpers *)

Lemma preason_round r : preason_from_num (preason_num r) = Ok r.
Proof. destruct r; reflexivity. Qed.

Lemma load_inputs_zeros : forall igs, exists inp,
  load_inputs igs (map (fun n => repeat false (N.to_nat n)) igs) = Some inp.
Proof.
  induction igs as [|n igs [inp IH]]; cbn [map load_inputs]; [eauto|].
  unfold lenN. rewrite repeat_length, N2Nat.id, N.eqb_refl, IH. eauto.
Qed.

Lemma within_gate_bound_spec fuel dedup P : within_gate_bound fuel dedup P = true ->
  exists s outs, lower_main_with fuel dedup P = Ok (PreOk s outs) /\
                 counter (cb s) + (b_shift (cb s) - 2) <= MAX_GATES.
Proof.
  unfold within_gate_bound. destruct (lower_main_with fuel dedup P) as [[s outs| |]| |]; try discriminate.
  intro H. apply N.leb_le in H. eauto.
Qed.

Lemma certified_spec fuel P : certified fuel P = true ->
  wt_covered 400 P = true /\ sem_fuel_enough fuel P = true /\ safe_program_ok P = true /\
  params_ok P = true /\ (fuel_needed P <= fuel_cap)%nat /\ (fuel_needed P <= fuel)%nat.
Proof.
  unfold certified, fuel_enough. intro H.
  apply andb_prop in H. destruct H as [H H5]. apply andb_prop in H. destruct H as [H H4].
  apply andb_prop in H. destruct H as [H H3]. apply andb_prop in H. destruct H as [H1 H2].
  apply andb_prop in H5. destruct H5 as [H5 H6]. apply Nat.leb_le in H5. apply Nat.leb_le in H6.
  repeat split; assumption.
Qed.

Lemma output_spec_of_obs fuel P args o vouts out :
  (exists bits l, Sem.run_main fuel P args = Sem.RunOk bits l /\ o = None /\ vouts = bits) \/
  (exists r m, Sem.run_main fuel P args = Sem.RunPanic r m /\ o = Some (preason_num (pr r), ploc32 (ploc_of m))) \/
  (frag_program P = false /\ exists c, Sem.run_main fuel P args = Sem.RunStuck c /\ In c stuck_allowed) ->
  parse_panic out = parse_spec o vouts -> (o = None -> skipn 161 out = vouts) -> output_spec fuel P args out.
Proof.
  intros [(bits & l & Er & -> & ->)|[(r & m & Er & ->)|Hst]] Hpp Hsk.
  - left. exists bits, l. split; [exact Er|]. split; [exact Hpp|now apply Hsk].
  - right. left. exists r, m. split; [exact Er|]. rewrite Hpp. cbn [parse_spec]. now rewrite preason_round.
  - right. right. exact Hst.
Qed.

(* What [end_to_end] and EndToEndJoin.end_to_end_join share.  [Hpack] is what
   TSemTotal.lower_program_total and TSemShape.lower_program_sound_one_witness say of every input
   ([L]: whatever they say about the length of the outputs). *)
Section Pack.
  Variables (fuel : nat) (dedup : bool) (P : program) (c : circuit) (L : list bool -> Prop).
  Variables (igs : list N) (bindings : list (N * list N)).
  Hypothesis Hpack : forall ins inp, load_inputs igs ins = Some inp ->
    exists o vouts c' out,
      tsem_program fuel P (param_args bindings inp) = Ok (o, vouts) /\ L vouts /\
      lower_program_with fuel dedup P = Ok (LCircuit c') /\ ssa_validate c' = None /\ input_gates c' = igs /\
      length (output_gates c') = (161 + length vouts)%nat /\ ssa_eval c' ins = Some out /\
      parse_panic out = parse_spec o vouts /\ (o = None -> skipn 161 out = vouts).
  Hypothesis Hc : lower_program_with fuel dedup P = Ok (LCircuit c).

  Lemma circuit_computes_tsem :
    ssa_validate c = None /\ input_gates c = igs /\
    forall ins inp, load_inputs igs ins = Some inp ->
      exists o vouts out, tsem_program fuel P (param_args bindings inp) = Ok (o, vouts) /\
        ssa_eval c ins = Some out /\ parse_panic out = parse_spec o vouts /\ (o = None -> skipn 161 out = vouts).
  Proof.
    assert (Hshape : ssa_validate c = None /\ input_gates c = igs).
    { destruct (load_inputs_zeros igs) as [inp0 Hl0].
      destruct (Hpack _ _ Hl0) as (o & vouts & c' & out & _ & _ & Hc' & Hv & Hig & _).
      rewrite Hc in Hc'. injection Hc' as <-. auto. }
    split; [apply Hshape|]. split; [apply Hshape|]. intros ins inp Hload.
    destruct (Hpack ins inp Hload) as (o & vouts & c' & out & Ht & _ & Hc' & _ & _ & _ & Hev & Hpp & Hsk).
    rewrite Hc in Hc'. injection Hc' as <-. exists o, vouts, out. auto.
  Qed.

  Lemma end_to_end_gen (Pre : list (list bool) -> Prop) :
    main_wiring P = (igs, bindings) ->
    (forall args o outs, Pre args -> canonical_main_args P args = true -> tsem_program fuel P args = Ok (o, outs) ->
       (exists bits l, Sem.run_main fuel P args = Sem.RunOk bits l /\ o = None /\ outs = bits) \/
       (exists r m, Sem.run_main fuel P args = Sem.RunPanic r m /\ o = Some (preason_num (pr r), ploc32 (ploc_of m))) \/
       (frag_program P = false /\ exists c, Sem.run_main fuel P args = Sem.RunStuck c /\ In c stuck_allowed)) ->
    ssa_validate c = None /\ input_gates c = fst (main_wiring P) /\
    forall ins inp,
      load_inputs (input_gates c) ins = Some inp ->
      canonical_main_args P (main_args P inp) = true ->
      Pre (main_args P inp) ->
      exists out, ssa_eval c ins = Some out /\ output_spec fuel P (main_args P inp) out.
  Proof.
    intros Hmw Hagree. destruct circuit_computes_tsem as (Hv & Hig & H).
    unfold main_args. rewrite Hmw, Hig. cbn [fst snd]. split; [exact Hv|]. split; [reflexivity|].
    intros ins inp Hload Hcan Hpre. destruct (H ins inp Hload) as (o & vouts & out & Ht & Hev & Hpp & Hsk).
    exists out. split; [exact Hev|]. exact (output_spec_of_obs fuel P _ o vouts out (Hagree _ o vouts Hpre Hcan Ht) Hpp Hsk).
  Qed.
End Pack.

(* ------------------------------------------------------------------ the theorem *)

Lemma certified_circuit fuel dedup P c :
  certified fuel P = true -> within_gate_bound fuel dedup P = true ->
  lower_program_with fuel dedup P = Ok (LCircuit c) ->
  ssa_validate c = None /\ input_gates c = fst (main_wiring P) /\
  forall ins inp, load_inputs (fst (main_wiring P)) ins = Some inp ->
    exists o vouts out, tsem_program fuel P (main_args P inp) = Ok (o, vouts) /\
      ssa_eval c ins = Some out /\ parse_panic out = parse_spec o vouts /\ (o = None -> skipn 161 out = vouts).
Proof.
  intros Hcert Hgb Hc.
  destruct (certified_spec fuel P Hcert) as (_ & _ & Hsafe & Hpar & Hcap & Hn).
  destruct (within_gate_bound_spec fuel dedup P Hgb) as (s & outs & Hmain & Hmax).
  destruct (lower_program_total fuel dedup P s outs Hsafe Hpar Hcap Hn Hmain Hmax)
    as (fd & igs & bindings & Efd & Epw & H).
  unfold main_args, main_wiring. rewrite Efd, Epw. cbn [fst snd].
  exact (circuit_computes_tsem fuel dedup P c _ igs bindings H Hc).
Qed.

Lemma certified_output_spec fuel P args o vouts out :
  certified fuel P = true -> canonical_main_args P args = true -> tsem_program fuel P args = Ok (o, vouts) ->
  parse_panic out = parse_spec o vouts -> (o = None -> skipn 161 out = vouts) -> output_spec fuel P args out.
Proof.
  intros Hcert Hcan Ht. destruct (certified_spec fuel P Hcert) as (Hcov & Hsf & _).
  assert (Hle : (400 <= wt_fuel)%nat) by (rewrite wt_fuel_400; apply le_n).
  exact (output_spec_of_obs fuel P args o vouts out (wt_covered_fuel_agrees P fuel 400 fuel _ o vouts Hle Hcov Hsf Hcan Ht)).
Qed.

Theorem end_to_end fuel dedup P c :
  certified fuel P = true -> within_gate_bound fuel dedup P = true ->
  lower_program_with fuel dedup P = Ok (LCircuit c) ->
  ssa_validate c = None /\ input_gates c = fst (main_wiring P) /\
  forall ins inp,
    load_inputs (input_gates c) ins = Some inp ->
    canonical_main_args P (main_args P inp) = true ->
    exists out, ssa_eval c ins = Some out /\ output_spec fuel P (main_args P inp) out.
Proof.
  intros Hcert Hgb Hc. destruct (certified_circuit fuel dedup P c Hcert Hgb Hc) as (Hv & Hig & H).
  split; [exact Hv|]. split; [exact Hig|]. rewrite Hig. intros ins inp Hload Hcan.
  destruct (H ins inp Hload) as (o & vouts & out & Ht & Hev & Hpp & Hsk). exists out. split; [exact Hev|].
  exact (certified_output_spec fuel P _ o vouts out Hcert Hcan Ht Hpp Hsk).
Qed.
Print Assumptions end_to_end.

(* the register form of the circuit (Circuit/RegAlloc.convert) computes the same *)
Corollary end_to_end_register fuel dedup P c :
  certified fuel P = true -> within_gate_bound fuel dedup P = true ->
  lower_program_with fuel dedup P = Ok (LCircuit c) ->
  exists rc, convert c = Ok rc /\ reg_validate rc = Ok None /\ input_regs rc = fst (main_wiring P) /\
  forall ins inp,
    load_inputs (input_regs rc) ins = Some inp ->
    canonical_main_args P (main_args P inp) = true ->
    exists out, reg_eval rc ins = Some out /\ output_spec fuel P (main_args P inp) out.
Proof.
  intros Hcert Hgb Hc. destruct (end_to_end fuel dedup P c Hcert Hgb Hc) as (Hv & Hig & H).
  destruct (convert_correct c Hv) as (rc & Hconv & Hrv & Hev & _ & _ & Hin & _).
  exists rc. split; [exact Hconv|]. split; [exact Hrv|]. split; [congruence|].
  intros ins inp Hload Hcan. rewrite Hin in Hload. destruct (H ins inp Hload Hcan) as (out & Ho & Hs).
  exists out. split; [now rewrite Hev|exact Hs].
Qed.
Print Assumptions end_to_end_register.

(* gate de-duplication on or off: the two circuits take the same inputs and, on ALL inputs of the
   declared sizes (canonical or not), what EvalPanic::parse reads from their outputs is the same
   (the same panic, or no panic and the same result bits): both report the one observation of
   the bit-level semantics; on canonical inputs both satisfy [output_spec] by [end_to_end] *)
Corollary end_to_end_dedup_irrelevant fuel P c1 c2 :
  certified fuel P = true -> within_gate_bound fuel true P = true -> within_gate_bound fuel false P = true ->
  lower_program_with fuel true P = Ok (LCircuit c1) -> lower_program_with fuel false P = Ok (LCircuit c2) ->
  input_gates c1 = input_gates c2 /\
  forall ins inp, load_inputs (input_gates c1) ins = Some inp ->
    exists out1 out2, ssa_eval c1 ins = Some out1 /\ ssa_eval c2 ins = Some out2 /\
      parse_panic out1 = parse_panic out2 /\
      (canonical_main_args P (main_args P inp) = true ->
       output_spec fuel P (main_args P inp) out1 /\ output_spec fuel P (main_args P inp) out2).
Proof.
  intros Hcert Hg1 Hg2 Hc1 Hc2.
  destruct (certified_circuit fuel true P c1 Hcert Hg1 Hc1) as (_ & Hi1 & T1).
  destruct (certified_circuit fuel false P c2 Hcert Hg2 Hc2) as (_ & Hi2 & T2).
  split; [congruence|]. rewrite Hi1. intros ins inp Hload.
  destruct (T1 ins inp Hload) as (o & vouts & out1 & Ht & V1 & P1 & K1).
  destruct (T2 ins inp Hload) as (o' & vouts' & out2 & Ht2 & V2 & P2 & K2).
  rewrite Ht in Ht2. injection Ht2 as <- <-.
  exists out1, out2. split; [exact V1|]. split; [exact V2|]. split; [congruence|]. intro Hcan.
  split; eapply certified_output_spec; eassumption.
Qed.
Print Assumptions end_to_end_dedup_irrelevant.

(* ------------------------------------------------------------------ non-vacuity: the program of
   TSemSemFullCall.SanityFullCall (structs, an enum, two callees, a loop, a match)
     fn sum(a: [u8; 3]) -> u8 { let mut t = 0u8; for e in a { t = t + e; } t }
     fn mk(x: u8, y: u8) -> Point { Point { x: x, y: y } }
     pub fn main(a: [u8; 3], s: Shape) -> u8 {
       let p = mk(sum(a), 2u8);
       match s { Shape::Dot => p.x, Shape::Line(n) => sum([n, p.x, p.y]) } }
   is certified, compiles within the bound (both de-duplication settings), and the theorem gives
   the circuit's output on a value-returning and on a panicking input *)
Module EndToEndExample.
  Import SanityFullCall TSemArith1.
  Definition fuel : nat := 20.

  Example certified_P0 : certified fuel P0 = true.
  Proof. vm_compute. reflexivity. Qed.

  Example bound_P0 : within_gate_bound fuel true P0 = true /\ within_gate_bound fuel false P0 = true.
  Proof. vm_compute. split; reflexivity. Qed.

  Lemma compiled dedup : exists c, lower_program_with fuel dedup P0 = Ok (LCircuit c).
  Proof. destruct dedup; vm_compute; eexists; reflexivity. Qed.

  (* two parties: the array (24 bits) and the shape (9 bits) *)
  Example parties : fst (main_wiring P0) = [24; 9].
  Proof. vm_compute. reflexivity. Qed.

  (* a = [10, 20, 30], s = Line(7): p = mk(60, 2), sum([7, 60, 2]) = 69 *)
  Example value_run : exists c out,
    lower_program_with fuel true P0 = Ok (LCircuit c) /\ ssa_validate c = None /\
    ssa_eval c [arr_bits 10 20 30; line_bits 7] = Some out /\
    parse_panic out = Ok (inl (enc 8 69)) /\ skipn 161 out = enc 8 69.
  Proof.
    destruct (compiled true) as [c Hc].
    destruct (end_to_end fuel true P0 c certified_P0 (proj1 bound_P0) Hc) as (Hv & Hig & H).
    assert (Hload : load_inputs (input_gates c) [arr_bits 10 20 30; line_bits 7]
                    = Some (arr_bits 10 20 30 ++ line_bits 7)) by (rewrite Hig; vm_compute; reflexivity).
    destruct (H _ _ Hload ltac:(vm_compute; reflexivity)) as (out & Ho & Hs).
    exists c, out. split; [exact Hc|]. split; [exact Hv|]. split; [exact Ho|].
    assert (exists l, Sem.run_main fuel P0 (main_args P0 (arr_bits 10 20 30 ++ line_bits 7)) = Sem.RunOk (enc 8 69) l)
      as [l Ev] by (eexists; vm_compute; reflexivity).
    destruct Hs as [(bits & l' & Er & Hp & Hk)|[(r & m & Er & _)|(_ & cc & Er & _)]]; rewrite Ev in Er; try discriminate Er.
    injection Er as <- _. auto.
  Qed.

  (* a = [200, 100, 0]: the first call overflows inside the callee's loop (200 + 100), at the
     addition `t + e` (meta 7) *)
  Example panic_run : exists c out,
    lower_program_with fuel true P0 = Ok (LCircuit c) /\
    ssa_eval c [arr_bits 200 100 0; dot_bits] = Some out /\
    parse_panic out = Ok (inr (Overflow, ploc32 (ploc_of (mm 7)))).
  Proof.
    destruct (compiled true) as [c Hc].
    destruct (end_to_end fuel true P0 c certified_P0 (proj1 bound_P0) Hc) as (Hv & Hig & H).
    assert (Hload : load_inputs (input_gates c) [arr_bits 200 100 0; dot_bits]
                    = Some (arr_bits 200 100 0 ++ dot_bits)) by (rewrite Hig; vm_compute; reflexivity).
    destruct (H _ _ Hload ltac:(vm_compute; reflexivity)) as (out & Ho & Hs).
    exists c, out. split; [exact Hc|]. split; [exact Ho|].
    assert (Sem.run_main fuel P0 (main_args P0 (arr_bits 200 100 0 ++ dot_bits)) = Sem.RunPanic Sem.ROverflow (mm 7))
      as Ev by (vm_compute; reflexivity).
    destruct Hs as [(bits & l' & Er & _)|[(r & m & Er & Hp)|(_ & cc & Er & _)]]; rewrite Ev in Er; try discriminate Er.
    injection Er as <- <-. exact Hp.
  Qed.

  (* the register form and the other de-duplication setting *)
  Example register_form : exists c rc, lower_program_with fuel true P0 = Ok (LCircuit c) /\ convert c = Ok rc /\
    exists out, reg_eval rc [arr_bits 10 20 30; line_bits 7] = Some out /\ skipn 161 out = enc 8 69.
  Proof.
    destruct value_run as (c & out & Hc & Hv & Ho & _ & Hk).
    destruct (convert_correct c Hv) as (rc & Hconv & _ & Hev & _). exists c, rc. split; [exact Hc|]. split; [exact Hconv|].
    exists out. rewrite Hev. split; [exact Ho|exact Hk].
  Qed.
End EndToEndExample.
