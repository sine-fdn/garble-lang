(* Control flow and patterns of the lowering of Compile/Lower.v on the Boolean instance
   (TSem.tops): what `&&` / `||`, `match`, scalar and tuple patterns, blocks and `let`
   compute, as equations on (result bits, environment, panic observation).

   (1) short circuit: when the right operand of `&&` / `||` is not evaluated by the source
       semantics, neither its assignments nor its panics are visible;
   (2) match: value, environment and observation are those of the FIRST arm whose pattern
       matches ([select_first]), independent of the later arms;
   (3) scalar patterns: the match bit is the Boolean of [Sem.pmatch] on the decoded value;
   (4) tuple patterns: conjunction of the field match bits, bindings accumulate left to right;
   (5) blocks and let statements.

   Conventions as in TSemArith1.v: bit vectors are MSB first, [uval] / [sval] are the unsigned /
   two's-complement readings, [enc n z] is the n-bit vector reading z modulo 2^n. *)
From Coq Require Import Lia ZArith.
From GV Require Import Base.Util Base.Bits Base.BitsProofs Lang.Ast Gadgets.Gadgets Gadgets.GadgetSpec
  Gadgets.Arith Panic.PanicRec Panic.PanicSem Compile.Lower Compile.TSem Compile.TSemFacts
  Compile.TSemArith1 Compile.TSemArith2.
From GV Require Lang.Sem.
Local Open Scope N_scope.

(* ------------------------------------------------------------------ shapes of environments *)

(* both shapes are [Forall2], twice, of an equivalence on bindings *)
Lemma Forall2_diag {A} (R : A -> A -> Prop) : (forall a, R a a) -> forall l, Forall2 R l l.
Proof. intros H l. induction l; constructor; auto. Qed.

Lemma Forall2_sym {A} (R : A -> A -> Prop) : (forall a b, R a b -> R b a) -> forall l l', Forall2 R l l' -> Forall2 R l' l.
Proof. intros H l l'. induction 1; constructor; auto. Qed.

Lemma Forall2_trans {A} (R : A -> A -> Prop) : (forall a b c, R a b -> R b c -> R a c) ->
  forall l1 l2 l3, Forall2 R l1 l2 -> Forall2 R l2 l3 -> Forall2 R l1 l3.
Proof. intros H l1 l2 l3 H12. revert l3. induction H12; intros l3 H23; inversion H23; subst; constructor; eauto. Qed.

Lemma same_env_shape_refl a : same_env_shape a a.
Proof. apply Forall2_diag, Forall2_diag. split; reflexivity. Qed.

Lemma same_env_shape_sym a b : same_env_shape a b -> same_env_shape b a.
Proof. apply Forall2_sym, Forall2_sym. intros p q [H1 H2]. split; congruence. Qed.

Lemma same_env_shape_trans a b c : same_env_shape a b -> same_env_shape b c -> same_env_shape a c.
Proof. apply Forall2_trans, Forall2_trans. intros p q r [H1 H2] [H3 H4]. split; congruence. Qed.

(* distinctness of the keys depends on the shape only *)
Lemma same_scope_shape_keys a b : same_scope_shape a b -> map fst a = map fst b.
Proof. induction 1 as [|p q a b [H1 _] _ IH]; cbn [map]; congruence. Qed.

Lemma keys_distinct_shape a b : same_env_shape a b -> Forall keys_distinct b -> Forall keys_distinct a.
Proof.
  induction 1 as [|p q a b H1 _ IH]; intro Hd; [constructor|]. inversion Hd; subst.
  constructor; [|now apply IH]. unfold keys_distinct in *. now rewrite (same_scope_shape_keys _ _ H1).
Qed.

(* ------------------------------------------------------------------ (1) short circuit *)

Section ShortCircuit.
  Variable P : program.
  Variable eB : expr -> @cenv bool -> pobs -> res ((list bool * @cenv bool) * pobs).
  Variable pB : pattern -> list bool -> @cenv bool -> pobs -> res ((bool * @cenv bool) * pobs).
  Variable bB : list stmt -> @cenv bool -> pobs -> res ((list bool * @cenv bool) * pobs).

  (* x && y: both operands are evaluated, the right one from the state after the left one; if
     the left operand is false the environment and the observation are those after the left
     operand alone: no assignment and no panic of the right operand is visible. *)
  Theorem tsem_land_short_circuit x y m ty E o bx E1 o1 by_ E2 o2 :
    eB x E o = Ok (([bx], E1), o1) ->
    eB y E1 o1 = Ok (([by_], E2), o2) ->
    same_env_shape E2 E1 -> Forall keys_distinct E1 ->
    lower_expr_body tops P eB pB bB (Ex (EOp OLAnd x y) m ty) E o =
      Ok (([bx && by_], if bx then E2 else E1), if bx then o2 else o1).
  Proof.
    intros Hx Hy Hs Hd. cbn [lower_expr_body]. unfold mbind at 1. rewrite Hx.
    unfold mbind at 1. cbn [one_wire]. unfold ret at 1.
    unfold mbind at 1. cbn [m_peek o_peek tops].
    unfold mbind at 1. rewrite Hy.
    unfold mbind at 1. cbn [one_wire]. unfold ret at 1.
    unfold mbind at 1. rewrite tsem_mux_envs by assumption.
    unfold mbind at 1. cbn [m_peek o_peek tops].
    unfold mbind at 1. cbn [m_mux_panic o_mux_panic tops].
    unfold mbind at 1. cbn [m_replace o_replace tops].
    unfold mbind at 1. cbn [m_and o_and tops]. unfold tret, ret. reflexivity.
  Qed.

  (* x || y: symmetric; the right operand is invisible when the left one is true *)
  Theorem tsem_lor_short_circuit x y m ty E o bx E1 o1 by_ E2 o2 :
    eB x E o = Ok (([bx], E1), o1) ->
    eB y E1 o1 = Ok (([by_], E2), o2) ->
    same_env_shape E1 E2 -> Forall keys_distinct E2 ->
    lower_expr_body tops P eB pB bB (Ex (EOp OLOr x y) m ty) E o =
      Ok (([bx || by_], if bx then E1 else E2), if bx then o1 else o2).
  Proof.
    intros Hx Hy Hs Hd. cbn [lower_expr_body]. unfold mbind at 1. rewrite Hx.
    unfold mbind at 1. cbn [one_wire]. unfold ret at 1.
    unfold mbind at 1. cbn [m_peek o_peek tops].
    unfold mbind at 1. rewrite Hy.
    unfold mbind at 1. cbn [one_wire]. unfold ret at 1.
    unfold mbind at 1. rewrite tsem_mux_envs by assumption.
    unfold mbind at 1. cbn [m_peek o_peek tops].
    unfold mbind at 1. cbn [m_mux_panic o_mux_panic tops].
    unfold mbind at 1. cbn [m_replace o_replace tops].
    unfold mbind at 1. cbn [m_or o_or tops]. unfold tret, ret. reflexivity.
  Qed.
End ShortCircuit.
Print Assumptions tsem_land_short_circuit.
Print Assumptions tsem_lor_short_circuit.

(* ------------------------------------------------------------------ (2) match *)

(* what one arm does when it is evaluated on its own: its match bit, the bits of its body,
   the environment after its scope is popped, the observation after its body *)
Record arm_out := mkArmOut {
  ao_match : bool;
  ao_bits : list bool;
  ao_env : @cenv bool;
  ao_obs : pobs
}.

(* (result bits, observation, environment) *)
Definition arm_res := (list bool * pobs * @cenv bool)%type.

(* the outcome of the first arm that matches; [dflt] if none does *)
Fixpoint select_first (bits : nat) (outs : list arm_out) (dflt : arm_res) : arm_res :=
  match outs with
  | [] => dflt
  | a :: r =>
      if ao_match a then (firstn bits (ao_bits a), ao_obs a, ao_env a)
      else select_first bits r dflt
  end.

(* the arms after the first matching one are irrelevant *)
Lemma select_first_match bits pre a post dflt :
  Forall (fun b => ao_match b = false) pre -> ao_match a = true ->
  select_first bits (pre ++ a :: post) dflt = (firstn bits (ao_bits a), ao_obs a, ao_env a).
Proof.
  intros Hpre Ha. induction Hpre as [|b pre Hb _ IH]; cbn [app select_first].
  - now rewrite Ha.
  - now rewrite Hb.
Qed.

Lemma select_first_none bits outs dflt :
  Forall (fun b => ao_match b = false) outs -> select_first bits outs dflt = dflt.
Proof. induction 1 as [|b r Hb _ IH]; cbn [select_first]; [reflexivity|now rewrite Hb]. Qed.

Lemma last_cons_default {A} (l : list A) a d : last (a :: l) d = last l a.
Proof.
  revert a d. induction l as [|b l IH]; intros a d; [reflexivity|].
  change (last (a :: b :: l) d) with (last (b :: l) d). rewrite (IH b d). symmetry. apply IH.
Qed.

Section Match.
  Variable P : program.
  Variable eB : expr -> @cenv bool -> pobs -> res ((list bool * @cenv bool) * pobs).
  Variable pB : pattern -> list bool -> @cenv bool -> pobs -> res ((bool * @cenv bool) * pobs).
  Variable bB : list stmt -> @cenv bool -> pobs -> res ((list bool * @cenv bool) * pobs).

  (* the arm (pattern, body) evaluates to [a]: the pattern is matched against the scrutinee
     [sw] in a fresh scope over [E0], FROM THE SAVED OBSERVATION [P0]; the body runs in the
     resulting environment; the scope is popped; the body has at least [bits] bits and the
     environment has the shape of [E0] again *)
  Definition arm_evaluates (bits : nat) (sw : list bool) (E0 : @cenv bool) (P0 : pobs)
      (arm : pattern * expr) (a : arm_out) : Prop :=
    exists E1 o1 E2,
      pB (fst arm) sw (env_push E0) P0 = Ok ((ao_match a, E1), o1) /\
      eB (snd arm) E1 o1 = Ok ((ao_bits a, E2), ao_obs a) /\
      env_pop E2 = Ok (ao_env a) /\
      (bits <= length (ao_bits a))%nat /\
      same_env_shape (ao_env a) E0.

  (* The loop over the arms, from any accumulators: if an earlier arm has matched
     ([hp] = true) the accumulators are returned unchanged, otherwise they are those of the first
     matching arm; the final compiler state is the observation after the last arm (it is
     overwritten by the caller). *)
  Theorem tsem_lower_arms bits sw E0 P0 : Forall keys_distinct E0 ->
    forall arms outs, Forall2 (arm_evaluates bits sw E0 P0) arms outs ->
    forall hp mret mpanic menv o, length mret = bits -> same_env_shape menv E0 ->
    lower_arms tops eB pB bits sw E0 P0 arms hp mret mpanic menv o =
      Ok ((if hp then (mret, mpanic, menv) else select_first bits outs (mret, mpanic, menv),
           hp || existsb ao_match outs),
          last (map ao_obs outs) o).
  Proof.
    intros Hd arms outs HF. induction HF as [|[pat body] a arms outs Ha _ IH];
      intros hp mret mpanic menv o Hl Hm.
    - cbn [lower_arms select_first existsb map last]. unfold ret. rewrite orb_false_r.
      destruct hp; reflexivity.
    - destruct Ha as (E1 & o1 & E2 & Hp & He & Hpop & Hlen & Hsh). cbn [fst snd] in Hp, He.
      cbn [lower_arms].
      unfold mbind at 1. cbn [m_replace o_replace tops].
      unfold mbind at 1. rewrite Hp.
      unfold mbind at 1. rewrite He.
      unfold mbind at 1. cbn [m_not o_not tops]. unfold tret at 1.
      unfold mbind at 1. cbn [m_and o_and tops]. unfold tret at 1.
      unfold mbind at 1. rewrite Hpop. cbn [lift_res].
      unfold mbind at 1. cbn [m_peek o_peek tops].
      unfold mbind at 1. cbn [m_mux_panic o_mux_panic tops].
      assert (Hdm : Forall keys_distinct menv) by (eapply keys_distinct_shape; eassumption).
      assert (Hsm : same_env_shape (ao_env a) menv)
        by (eapply same_env_shape_trans; [exact Hsh|now apply same_env_shape_sym]).
      unfold mbind at 1. rewrite tsem_mux_envs by assumption.
      destruct (Nat.ltb_spec (length (ao_bits a)) bits) as [Hlt|_]; [lia|].
      assert (Hfl : length (firstn bits (ao_bits a)) = length mret)
        by (rewrite firstn_length, Hl; lia).
      unfold mbind at 1.
      rewrite (tsem_map2_mux (negb hp && ao_match a) (firstn bits (ao_bits a)) mret Hfl).
      unfold mbind at 1. cbn [m_or o_or tops]. unfold tret at 1.
      rewrite IH.
      + cbn [select_first existsb map]. rewrite last_cons_default.
        destruct hp, (ao_match a); reflexivity.
      + destruct (negb hp && ao_match a); [now rewrite Hfl|assumption].
      + destruct (negb hp && ao_match a); assumption.
  Qed.

  (* match: the scrutinee is evaluated once; value, environment and observation of the whole
     expression are those of the first arm whose pattern matches, whatever the later arms do
     (their panics and assignments included); if no arm matches: zeros, and the state after
     the scrutinee *)
  Theorem tsem_match_selects scrut arms m ty E o sw E0 P0 outs :
    eB scrut E o = Ok ((sw, E0), P0) ->
    Forall keys_distinct E0 ->
    Forall2 (arm_evaluates (szn P ty) sw E0 P0) arms outs ->
    lower_expr_body tops P eB pB bB (Ex (EMatch scrut arms) m ty) E o =
      let '(w, ob, env) := select_first (szn P ty) outs (repeat false (szn P ty), P0, E0) in
      Ok ((w, env), ob).
  Proof.
    intros Hs Hd HF. cbn [lower_expr_body]. unfold mbind at 1. rewrite Hs.
    unfold mbind at 1. cbn [m_peek o_peek tops].
    unfold mbind at 1.
    change (repeat (wF tops) (szn P ty)) with (repeat false (szn P ty)).
    change (wF tops) with false.
    rewrite (tsem_lower_arms (szn P ty) sw E0 P0 Hd arms outs HF false _ P0 E0 P0
               (repeat_length false (szn P ty)) (same_env_shape_refl E0)).
    destruct (select_first (szn P ty) outs (repeat false (szn P ty), P0, E0)) as [[w ob] env].
    unfold mbind at 1. cbn [m_replace o_replace tops]. unfold ret. reflexivity.
  Qed.

  (* the same, spelt out: the arms before [a] do not match, [a] does *)
  Corollary tsem_match_first scrut pre_arms arm post_arms m ty E o sw E0 P0 pre a post :
    eB scrut E o = Ok ((sw, E0), P0) ->
    Forall keys_distinct E0 ->
    Forall2 (arm_evaluates (szn P ty) sw E0 P0) pre_arms pre ->
    arm_evaluates (szn P ty) sw E0 P0 arm a ->
    Forall2 (arm_evaluates (szn P ty) sw E0 P0) post_arms post ->
    Forall (fun b => ao_match b = false) pre -> ao_match a = true ->
    lower_expr_body tops P eB pB bB (Ex (EMatch scrut (pre_arms ++ arm :: post_arms)) m ty) E o =
      Ok ((firstn (szn P ty) (ao_bits a), ao_env a), ao_obs a).
  Proof.
    intros Hs Hd H1 H2 H3 Hn Hy.
    rewrite (tsem_match_selects scrut _ m ty E o sw E0 P0 (pre ++ a :: post) Hs Hd).
    - now rewrite select_first_match.
    - apply Forall2_app; [assumption|]. now constructor.
  Qed.
End Match.
Print Assumptions tsem_lower_arms.
Print Assumptions tsem_match_selects.
Print Assumptions tsem_match_first.

(* ------------------------------------------------------------------ (3) scalar patterns *)

(* the wires of a literal, on Booleans, are the encoding of the literal *)
Lemma N_to_bits_map k v :
  N_to_bits k v = map (fun i => N.testbit v (N.of_nat (k - 1 - i))) (seq 0 k).
Proof.
  induction k as [|k IH]; [reflexivity|].
  cbn [N_to_bits]. rewrite <- cons_seq, <- seq_shift, map_cons, map_map.
  replace (S k - 1 - 0)%nat with k by lia. f_equal. rewrite IH. apply map_ext. intro i.
  replace (S k - 1 - S i)%nat with (k - 1 - i)%nat by lia. reflexivity.
Qed.

Lemma tsem_unsigned_as_wires n k : unsigned_as_wires tops n k = enc k (Z.of_N n).
Proof.
  rewrite unsigned_as_wires_tops. apply enc_unique; [apply N_to_bits_length|].
  unfold uval. rewrite bits_to_N_N_to_bits. rewrite N2Z.inj_mod, pow2_N_Z, nat_N_Z. reflexivity.
Qed.

Lemma tsem_signed_as_wires z k : signed_as_wires tops z k = enc k z.
Proof.
  unfold enc. rewrite N_to_bits_map. unfold signed_as_wires. apply map_ext_in. intros i Hi.
  apply in_seq in Hi. change (wT tops) with true. change (wF tops) with false.
  assert (0 < 2 ^ Z.of_nat k)%Z as Hp by (apply Z.pow_pos_nonneg; lia).
  pose proof (Z.mod_pos_bound z _ Hp) as Hb.
  assert (N.testbit (Z.to_N (z mod 2 ^ Z.of_nat k)) (N.of_nat (k - 1 - i)) =
          Z.testbit z (Z.of_nat (k - 1 - i))) as ->.
  { rewrite <- Z.testbit_of_N. rewrite Z2N.id by lia. rewrite nat_N_Z.
    apply Z.mod_pow2_bits_low. lia. }
  now destruct (Z.testbit z (Z.of_nat (k - 1 - i))).
Qed.

(* reading an encoding of an in-range integer gives the integer back *)
Lemma in_range_signed_width k z : Sem.in_range true (N.of_nat k) z = true -> (1 <= k)%nat.
Proof.
  destruct k as [|k]; [|lia]. unfold Sem.in_range. cbn [N.of_nat Z.of_N Z.sub Z.opp Z.add Z.pow Z.pow_pos].
  change (2 ^ (0 - 1))%Z with 0%Z. destruct (Z.leb_spec (- 0) z); destruct (Z.ltb_spec z 0); cbn [andb]; try discriminate; lia.
Qed.

Lemma int_val_enc sg k z : Sem.in_range sg (N.of_nat k) z = true -> int_val sg (enc k z) = z.
Proof.
  intro Hr. destruct sg; cbn [int_val].
  - apply (sval_enc_in_range k z); [now apply (in_range_signed_width k z)|exact Hr].
  - now apply (uval_enc_in_range k z).
Qed.

(* bit-vector equality with the encoding of an in-range literal is equality of the readings *)
Lemma eq_s_enc_int_val sg k z mw : length mw = k -> Sem.in_range sg (N.of_nat k) z = true ->
  eq_s (enc k z) mw = (int_val sg mw =? z)%Z.
Proof.
  intros Hl Hr. pose proof (int_val_enc sg k z Hr) as Hv.
  assert (Hle : length (enc k z) = length mw) by (now rewrite length_enc).
  rewrite Z.eqb_sym. rewrite <- Hv at 2. destruct sg; cbn [int_val].
  - apply eq_s_sval; [|exact Hle]. apply in_range_signed_width in Hr. intro Hn.
    pose proof (length_enc k z) as L. rewrite Hn in L. cbn [length] in L. lia.
  - now apply eq_s_uval.
Qed.

Lemma cmp_s_int_val sg x y : length x = length y ->
  cmp_s (length x) x sg y sg = ((int_val sg x <? int_val sg y)%Z, (int_val sg y <? int_val sg x)%Z).
Proof.
  intro Hl. destruct sg; cbn [int_val].
  - now apply cmp_s_signed.
  - now apply cmp_s_unsigned.
Qed.

(* whether the source semantics says the pattern matches the value *)
Definition pmatches (P : program) (p : pattern) (v : Sem.value) : bool :=
  match Sem.pmatch P p v with Some _ => true | None => false end.

Section ScalarPatterns.
  Variable P : program.
  Variable pB : pattern -> list bool -> @cenv bool -> pobs -> res ((bool * @cenv bool) * pobs).

  (* an identifier always matches and binds the scrutinee in the current scope *)
  Theorem tsem_pat_id x m t mw E o E1 :
    env_let E x mw = Ok E1 ->
    lower_pattern_body tops P pB (Pat (PId x) m t) mw E o = Ok ((true, E1), o).
  Proof.
    intro H. cbn [lower_pattern_body]. unfold mbind. rewrite H. cbn [lift_res]. reflexivity.
  Qed.

  Theorem tsem_pat_id_pmatch x m t v : pmatches P (Pat (PId x) m t) v = true.
  Proof. reflexivity. Qed.

  Theorem tsem_pat_true m t b E o :
    lower_pattern_body tops P pB (Pat PTrue m t) [b] E o =
      Ok ((pmatches P (Pat PTrue m t) (Sem.VBool b), E), o).
  Proof. destruct b; reflexivity. Qed.

  Theorem tsem_pat_false m t b E o :
    lower_pattern_body tops P pB (Pat PFalse m t) [b] E o =
      Ok ((pmatches P (Pat PFalse m t) (Sem.VBool b), E), o).
  Proof. destruct b; reflexivity. Qed.

  (* the match bit of a numeric literal pattern, as bit-vector equality with the encoding
     of the literal (no hypothesis on the literal) *)
  Lemma tsem_eq_match_enc z t mw (E : @cenv bool) (o : pobs) (lit : list bool) : length mw = szn P t ->
    lit = enc (szn P t) z ->
    (if (length mw <? szn P t)%nat then crash
     else mbind (eq_acc tops (wT tops) (combine lit (firstn (szn P t) mw))) (fun acc => ret (acc, E))) o =
    Ok ((eq_s (enc (szn P t) z) mw, E), o).
  Proof.
    intros Hl ->. destruct (Nat.ltb_spec (length mw) (szn P t)) as [Hlt|_]; [lia|].
    rewrite <- Hl, firstn_all. unfold mbind. change (wT tops) with true.
    rewrite eq_acc_eq_s by (now rewrite length_enc). reflexivity.
  Qed.

  (* numeric literals: equality of the decoded scrutinee with the literal, signed or unsigned
     according to the type of the pattern; the literal must be a value of that type *)
  Theorem tsem_pat_numU n m t mw E o : length mw = szn P t ->
    Sem.in_range (is_signed t) (N.of_nat (szn P t)) (Z.of_N n) = true ->
    lower_pattern_body tops P pB (Pat (PNumU n) m t) mw E o =
      Ok (((int_val (is_signed t) mw =? Z.of_N n)%Z, E), o).
  Proof.
    intros Hl Hr. cbn [lower_pattern_body].
    rewrite (tsem_eq_match_enc (Z.of_N n) t mw E o _ Hl (tsem_unsigned_as_wires n (szn P t))).
    now rewrite (eq_s_enc_int_val (is_signed t) (szn P t) (Z.of_N n) mw Hl Hr).
  Qed.

  Theorem tsem_pat_numS z m t mw E o : length mw = szn P t ->
    Sem.in_range (is_signed t) (N.of_nat (szn P t)) z = true ->
    lower_pattern_body tops P pB (Pat (PNumS z) m t) mw E o =
      Ok (((int_val (is_signed t) mw =? z)%Z, E), o).
  Proof.
    intros Hl Hr. cbn [lower_pattern_body].
    rewrite (tsem_eq_match_enc z t mw E o _ Hl (tsem_signed_as_wires z (szn P t))).
    now rewrite (eq_s_enc_int_val (is_signed t) (szn P t) z mw Hl Hr).
  Qed.

  (* ranges (both ends inclusive): lo <= v <= hi on the decoded scrutinee *)
  Lemma tsem_range_match lo hi t mw (E : @cenv bool) (o : pobs) (lw hw : list bool) : length mw = szn P t ->
    lw = enc (szn P t) lo -> hw = enc (szn P t) hi ->
    Sem.in_range (is_signed t) (N.of_nat (szn P t)) lo = true ->
    Sem.in_range (is_signed t) (N.of_nat (szn P t)) hi = true ->
    mbind (o_comparator tops (szn P t) mw (is_signed t) lw (is_signed t)) (fun '(lt_min, _) =>
    mbind (o_comparator tops (szn P t) mw (is_signed t) hw (is_signed t)) (fun '(_, gt_max) =>
    mbind (m_not tops lt_min) (fun a =>
    mbind (m_not tops gt_max) (fun c =>
    mbind (m_and tops a c) (fun r => ret (r, E)))))) o =
    Ok (((lo <=? int_val (is_signed t) mw)%Z && (int_val (is_signed t) mw <=? hi)%Z, E), o).
  Proof.
    intros Hl -> -> Hlo Hhi. rewrite <- Hl.
    unfold mbind at 1. rewrite comparator_same_length by (now rewrite length_enc).
    rewrite cmp_s_int_val by (now rewrite length_enc).
    unfold mbind at 1. rewrite comparator_same_length by (now rewrite length_enc).
    rewrite cmp_s_int_val by (now rewrite length_enc).
    rewrite Hl, (int_val_enc _ _ _ Hlo), (int_val_enc _ _ _ Hhi).
    unfold mbind, m_not, m_and, ret. cbn [o_not o_and tops]. unfold tret.
    now rewrite !Z.leb_antisym.
  Qed.

  Theorem tsem_pat_urange lo hi m t mw E o : length mw = szn P t ->
    Sem.in_range (is_signed t) (N.of_nat (szn P t)) (Z.of_N lo) = true ->
    Sem.in_range (is_signed t) (N.of_nat (szn P t)) (Z.of_N hi) = true ->
    lower_pattern_body tops P pB (Pat (PURange lo hi) m t) mw E o =
      Ok (((Z.of_N lo <=? int_val (is_signed t) mw)%Z && (int_val (is_signed t) mw <=? Z.of_N hi)%Z, E), o).
  Proof.
    intros Hl Hlo Hhi. cbn [lower_pattern_body].
    exact (tsem_range_match (Z.of_N lo) (Z.of_N hi) t mw E o _ _ Hl
             (tsem_unsigned_as_wires lo (szn P t)) (tsem_unsigned_as_wires hi (szn P t)) Hlo Hhi).
  Qed.

  Theorem tsem_pat_srange lo hi m t mw E o : length mw = szn P t ->
    Sem.in_range (is_signed t) (N.of_nat (szn P t)) lo = true ->
    Sem.in_range (is_signed t) (N.of_nat (szn P t)) hi = true ->
    lower_pattern_body tops P pB (Pat (PSRange lo hi) m t) mw E o =
      Ok (((lo <=? int_val (is_signed t) mw)%Z && (int_val (is_signed t) mw <=? hi)%Z, E), o).
  Proof.
    intros Hl Hlo Hhi. cbn [lower_pattern_body].
    exact (tsem_range_match lo hi t mw E o _ _ Hl
             (tsem_signed_as_wires lo (szn P t)) (tsem_signed_as_wires hi (szn P t)) Hlo Hhi).
  Qed.

  (* the same four, against the source semantics: the match bit is [Sem.pmatch] on the
     integer the scrutinee encodes *)
  Lemma pmatches_numU n m t z : pmatches P (Pat (PNumU n) m t) (Sem.VInt z) = (z =? Z.of_N n)%Z.
  Proof. unfold pmatches. cbn [Sem.pmatch]. now destruct (z =? Z.of_N n)%Z. Qed.
  Lemma pmatches_numS n m t z : pmatches P (Pat (PNumS n) m t) (Sem.VInt z) = (z =? n)%Z.
  Proof. unfold pmatches. cbn [Sem.pmatch]. now destruct (z =? n)%Z. Qed.
  Lemma pmatches_urange lo hi m t z :
    pmatches P (Pat (PURange lo hi) m t) (Sem.VInt z) = ((Z.of_N lo <=? z) && (z <=? Z.of_N hi))%Z.
  Proof. unfold pmatches. cbn [Sem.pmatch]. now destruct ((Z.of_N lo <=? z) && (z <=? Z.of_N hi))%Z. Qed.
  Lemma pmatches_srange lo hi m t z :
    pmatches P (Pat (PSRange lo hi) m t) (Sem.VInt z) = ((lo <=? z) && (z <=? hi))%Z.
  Proof. unfold pmatches. cbn [Sem.pmatch]. now destruct ((lo <=? z) && (z <=? hi))%Z. Qed.

  Corollary tsem_pat_numU_pmatch n m t mw E o : length mw = szn P t ->
    Sem.in_range (is_signed t) (N.of_nat (szn P t)) (Z.of_N n) = true ->
    lower_pattern_body tops P pB (Pat (PNumU n) m t) mw E o =
      Ok ((pmatches P (Pat (PNumU n) m t) (Sem.VInt (int_val (is_signed t) mw)), E), o).
  Proof. intros. rewrite pmatches_numU. now apply tsem_pat_numU. Qed.

  Corollary tsem_pat_numS_pmatch z m t mw E o : length mw = szn P t ->
    Sem.in_range (is_signed t) (N.of_nat (szn P t)) z = true ->
    lower_pattern_body tops P pB (Pat (PNumS z) m t) mw E o =
      Ok ((pmatches P (Pat (PNumS z) m t) (Sem.VInt (int_val (is_signed t) mw)), E), o).
  Proof. intros. rewrite pmatches_numS. now apply tsem_pat_numS. Qed.

  Corollary tsem_pat_urange_pmatch lo hi m t mw E o : length mw = szn P t ->
    Sem.in_range (is_signed t) (N.of_nat (szn P t)) (Z.of_N lo) = true ->
    Sem.in_range (is_signed t) (N.of_nat (szn P t)) (Z.of_N hi) = true ->
    lower_pattern_body tops P pB (Pat (PURange lo hi) m t) mw E o =
      Ok ((pmatches P (Pat (PURange lo hi) m t) (Sem.VInt (int_val (is_signed t) mw)), E), o).
  Proof. intros. rewrite pmatches_urange. now apply tsem_pat_urange. Qed.

  Corollary tsem_pat_srange_pmatch lo hi m t mw E o : length mw = szn P t ->
    Sem.in_range (is_signed t) (N.of_nat (szn P t)) lo = true ->
    Sem.in_range (is_signed t) (N.of_nat (szn P t)) hi = true ->
    lower_pattern_body tops P pB (Pat (PSRange lo hi) m t) mw E o =
      Ok ((pmatches P (Pat (PSRange lo hi) m t) (Sem.VInt (int_val (is_signed t) mw)), E), o).
  Proof. intros. rewrite pmatches_srange. now apply tsem_pat_srange. Qed.
End ScalarPatterns.
Print Assumptions tsem_pat_id.
Print Assumptions tsem_pat_true.
Print Assumptions tsem_pat_false.
Print Assumptions tsem_pat_numU.
Print Assumptions tsem_pat_numS.
Print Assumptions tsem_pat_urange.
Print Assumptions tsem_pat_srange.
Print Assumptions tsem_pat_numU_pmatch.
Print Assumptions tsem_pat_numS_pmatch.
Print Assumptions tsem_pat_urange_pmatch.
Print Assumptions tsem_pat_srange_pmatch.

Lemma pmatches_true P m t b : pmatches P (Pat PTrue m t) (Sem.VBool b) = b.
Proof. now destruct b. Qed.
Lemma pmatches_false P m t b : pmatches P (Pat PFalse m t) (Sem.VBool b) = negb b.
Proof. now destruct b. Qed.

(* ------------------------------------------------------------------ (4) tuple patterns *)

Section Fields.
  Variable P : program.
  Variable pB : pattern -> list bool -> @cenv bool -> pobs -> res ((bool * @cenv bool) * pobs).

  (* the sub-patterns [ps] (each with its width) are matched, left to right, against the
     consecutive slices of [mw] starting at offset [w]; environment and observation are
     threaded; [ms] collects the match bits *)
  Inductive fields_eval (mw : list bool) :
    list (pattern * nat) -> nat -> @cenv bool -> pobs -> list bool -> @cenv bool -> pobs -> Prop :=
  | FE_nil w E o : fields_eval mw [] w E o [] E o
  | FE_cons fp fbits r w E o fm E1 o1 ms E' o' :
      (w + fbits <= length mw)%nat ->
      pB fp (firstn fbits (skipn w mw)) E o = Ok ((fm, E1), o1) ->
      fields_eval mw r (w + fbits) E1 o1 ms E' o' ->
      fields_eval mw ((fp, fbits) :: r) w E o (fm :: ms) E' o'.

  Lemma fold_andb_forallb ms : forall acc, fold_left andb ms acc = acc && forallb (fun b => b) ms.
  Proof.
    induction ms as [|b ms IH]; intro acc; cbn [fold_left forallb]; [now rewrite andb_true_r|].
    now rewrite IH, andb_assoc.
  Qed.

  Theorem tsem_fields_match mw ps w E o ms E' o' :
    fields_eval mw ps w E o ms E' o' ->
    forall acc,
    fields_match tops pB mw ps w acc E o = Ok ((acc && forallb (fun b => b) ms, E'), o').
  Proof.
    induction 1 as [w E o|fp fbits r w E o fm E1 o1 ms E' o' Hle Hp _ IH]; intro acc.
    - cbn [fields_match forallb]. unfold ret. now rewrite andb_true_r.
    - cbn [fields_match]. unfold mbind at 1. unfold slice.
      destruct (Nat.leb_spec (w + fbits) (length mw)) as [_|Hgt]; [|lia]. cbn [lift_res].
      unfold mbind at 1. rewrite Hp.
      unfold mbind at 1. cbn [m_and o_and tops]. unfold tret at 1.
      rewrite IH. cbn [forallb]. now rewrite andb_assoc.
  Qed.

  (* a tuple pattern: the fields are laid out consecutively, each with the width of the type
     of its sub-pattern; the pattern matches iff every field does *)
  Theorem tsem_pat_tuple ps m t mw E o ms E' o' :
    fields_eval mw (map (fun fp => (fp, szn P (p_ty fp))) ps) 0 E o ms E' o' ->
    lower_pattern_body tops P pB (Pat (PTup ps) m t) mw E o =
      Ok ((forallb (fun b => b) ms, E'), o').
  Proof.
    intro H. cbn [lower_pattern_body]. change (wT tops) with true.
    now rewrite (tsem_fields_match _ _ _ _ _ _ _ _ H true).
  Qed.

  (* two fields, spelt out *)
  Corollary tsem_pat_pair p1 p2 m t mw E o m1 E1 o1 m2 E2 o2 :
    let n1 := szn P (p_ty p1) in let n2 := szn P (p_ty p2) in
    (n1 + n2 <= length mw)%nat ->
    pB p1 (firstn n1 mw) E o = Ok ((m1, E1), o1) ->
    pB p2 (firstn n2 (skipn n1 mw)) E1 o1 = Ok ((m2, E2), o2) ->
    lower_pattern_body tops P pB (Pat (PTup [p1; p2]) m t) mw E o = Ok ((m1 && m2, E2), o2).
  Proof.
    intros n1 n2 Hl H1 H2.
    rewrite (tsem_pat_tuple [p1; p2] m t mw E o [m1; m2] E2 o2).
    - cbn [forallb]. now rewrite andb_true_r.
    - cbn [map]. econstructor; [fold n1; lia|exact H1|].
      econstructor; [fold n1 n2; cbn [Nat.add]; lia|exact H2|]. constructor.
  Qed.
End Fields.
Print Assumptions tsem_fields_match.
Print Assumptions tsem_pat_tuple.
Print Assumptions tsem_pat_pair.

(* ------------------------------------------------------------------ (5) blocks and statements *)

Section Blocks.
  Variable sB : stmt -> @cenv bool -> pobs -> res ((list bool * @cenv bool) * pobs).

  (* the statements run in order, environment and observation threaded; the value is that of
     the last statement ([last] if there is none) *)
  Inductive stmts_eval : list stmt -> list bool -> @cenv bool -> pobs ->
                         list bool -> @cenv bool -> pobs -> Prop :=
  | SE_nil last E o : stmts_eval [] last E o last E o
  | SE_cons s r last E o w E1 o1 w' E' o' :
      sB s E o = Ok ((w, E1), o1) ->
      stmts_eval r w E1 o1 w' E' o' ->
      stmts_eval (s :: r) last E o w' E' o'.

  Theorem tsem_block_stmts ss last E o w' E' o' :
    stmts_eval ss last E o w' E' o' ->
    block_stmts (Cs:=pobs) sB ss last E o = Ok ((w', E'), o').
  Proof.
    induction 1 as [last E o|s r last E o w E1 o1 w' E' o' Hs _ IH].
    - reflexivity.
    - cbn [block_stmts]. unfold mbind at 1. rewrite Hs. exact IH.
  Qed.

  (* a block: a scope is pushed, the statements run, the scope is popped *)
  Theorem tsem_block ss E o w E1 o1 E2 :
    stmts_eval ss [] (env_push E) o w E1 o1 ->
    env_pop E1 = Ok E2 ->
    lower_block_body (Cs:=pobs) sB ss E o = Ok ((w, E2), o1).
  Proof.
    intros Hs Hp. unfold lower_block_body. unfold mbind at 1.
    rewrite (tsem_block_stmts _ _ _ _ _ _ _ Hs). unfold mbind at 1. rewrite Hp. reflexivity.
  Qed.

  (* the empty block is the unit value and changes nothing *)
  Corollary tsem_block_empty E o : lower_block_body (Cs:=pobs) sB [] E o = Ok (([], E), o).
  Proof. apply (tsem_block [] E o [] (env_push E) o E); [constructor|reflexivity]. Qed.
End Blocks.
Print Assumptions tsem_block_stmts.
Print Assumptions tsem_block.
Print Assumptions tsem_block_empty.

Section Statements.
  Variable P : program.
  Variable eB : expr -> @cenv bool -> pobs -> res ((list bool * @cenv bool) * pobs).
  Variable pB : pattern -> list bool -> @cenv bool -> pobs -> res ((bool * @cenv bool) * pobs).
  Variable sB : stmt -> @cenv bool -> pobs -> res ((list bool * @cenv bool) * pobs).

  (* let pat = e: the pattern is matched against the wires of e in the CURRENT scope; the
     match bit is dropped (the pattern is irrefutable) *)
  Theorem tsem_let pat e m E o w E1 o1 b E2 o2 :
    eB e E o = Ok ((w, E1), o1) ->
    pB pat w E1 o1 = Ok ((b, E2), o2) ->
    lower_stmt_body tops P eB pB sB (St (SLet pat e) m) E o = Ok (([], E2), o2).
  Proof.
    intros He Hp. cbn [lower_stmt_body]. unfold mbind at 1. rewrite He.
    unfold mbind at 1. rewrite Hp. reflexivity.
  Qed.

  (* let mut x = e: binds x to the wires of e in the current scope *)
  Theorem tsem_let_mut x e m E o w E1 o1 E2 :
    eB e E o = Ok ((w, E1), o1) ->
    env_let E1 x w = Ok E2 ->
    lower_stmt_body tops P eB pB sB (St (SLetMut x e) m) E o = Ok (([], E2), o1).
  Proof.
    intros He Hl. cbn [lower_stmt_body]. unfold mbind at 1. rewrite He.
    unfold mbind at 1. rewrite Hl. reflexivity.
  Qed.

  (* an expression statement is the expression *)
  Theorem tsem_expr_stmt e m E o :
    lower_stmt_body tops P eB pB sB (St (SExpr e) m) E o = eB e E o.
  Proof. reflexivity. Qed.
End Statements.
Print Assumptions tsem_let.
Print Assumptions tsem_let_mut.
Print Assumptions tsem_expr_stmt.

(* let x = e with the knot tied (the fixpoints on fuel of Lower.v): exactly `let mut x = e` *)
Theorem tsem_let_id fuel P x mp tp e m E o w E1 o1 E2 :
  lower_expr tops (S fuel) P e E o = Ok ((w, E1), o1) ->
  env_let E1 x w = Ok E2 ->
  lower_stmt tops (S (S fuel)) P (St (SLet (Pat (PId x) mp tp) e) m) E o = Ok (([], E2), o1).
Proof.
  intros He Hl.
  exact (tsem_let P _ (lower_pattern tops (S fuel) P) (lower_stmt tops (S fuel) P) _ e m E o w E1 o1 true E2 o1 He
           (tsem_pat_id P (lower_pattern tops fuel P) x mp tp w E1 o1 E2 Hl)).
Qed.
Print Assumptions tsem_let_id.

Theorem tsem_let_mut_fuel fuel P x e m E o w E1 o1 E2 :
  lower_expr tops fuel P e E o = Ok ((w, E1), o1) ->
  env_let E1 x w = Ok E2 ->
  lower_stmt tops (S fuel) P (St (SLetMut x e) m) E o = Ok (([], E2), o1).
Proof.
  exact (tsem_let_mut P _ (lower_pattern tops fuel P) (lower_stmt tops fuel P) x e m E o w E1 o1 E2).
Qed.
Print Assumptions tsem_let_mut_fuel.
