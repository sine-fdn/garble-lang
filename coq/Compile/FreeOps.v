(* C15, program level: DATA MOVEMENT COSTS ZERO AND GATES.
   An instance of the parametricity theorem ParamLower.lower_param: the builder
   instance bops against an abstract "constness" instance kops whose wires are
   [Some b] (the constant wire b) or [None] (some wire) and whose operations Crash exactly
   when the builder might have to store an AND gate.  If the kops run of a program is Ok,
   the gate store the model of compile.rs ends with contains NO AND gate (and so does the
   circuit build emits).  This file: the builder facts, kops, the relation, the 20
   operation hypotheses.  FreeLower.v: programs. *)
From GV Require Import Base.Util Base.NMap Lang.Ast Circuit.Ssa
  Builder.Builder Builder.Build Builder.BuilderSem Builder.BuilderSpec Builder.BuilderProofs
  Builder.Requests Builder.StructSpec Builder.StructProofs
  Gadgets.Gadgets Gadgets.GadgetSpec Panic.PanicRec Compile.Lower Compile.ParamBase.
From GV Require Gadgets.GadgetHoare.

(* ------------------------------------------------------------------ constant wires *)

Definition cw (a : bool) : N := if a then 1 else 0.

Lemma cw_le a : cw a <= 1.
Proof. destruct a; cbn [cw]; lia. Qed.

Lemma le1_cw w : w <= 1 -> exists a, w = cw a.
Proof. intro H. destruct (N.eq_dec w 0) as [->|H0]; [exists false; reflexivity|]. exists true. cbn [cw]. lia. Qed.

Lemma xor_cw b a c : push_xor_top b (cw a) (cw c) = Ok (cw (xorb a c), b).
Proof. destruct a, c; reflexivity. Qed.
Lemma and_cw b a c : push_and_top b (cw a) (cw c) = Ok (cw (andb a c), b).
Proof. destruct a, c; reflexivity. Qed.
Lemma or_cw b a c : push_or b (cw a) (cw c) = Ok (cw (orb a c), b).
Proof. destruct a, c; reflexivity. Qed.
Lemma eq_cw b a c : push_eq b (cw a) (cw c) = Ok (cw (negb (xorb a c)), b).
Proof. destruct a, c; reflexivity. Qed.
Lemma not_cw b a : push_not b (cw a) = Ok (cw (negb a), b).
Proof. destruct a; reflexivity. Qed.
Lemma not_one b : push_not b 1 = Ok (0, b).
Proof. reflexivity. Qed.
Lemma not_zero b : push_not b 0 = Ok (1, b).
Proof. reflexivity. Qed.
Lemma mux_cw b s a c : push_mux b (cw s) (cw a) (cw c) = Ok (cw (if s then a else c), b).
Proof. destruct s, a, c; reflexivity. Qed.

(* ------------------------------------------------------------------ AND-free gate stores *)

(* the invariant of the builder, and no AND gate in the store *)
Definition good (b : builder) : Prop := inv b /\ band_count b = 0.

Lemma good_new dedup inputs : good (new_builder dedup inputs).
Proof. split; [apply inv_new|reflexivity]. Qed.

Lemma valid_cw b a : inv b -> valid b (cw a).
Proof. intro I. destruct (valid_consts b I). destruct a; assumption. Qed.

(* XOR / NOT / EQ never add an AND gate to an AND-free store: the one rewrite of push_xor
   that stores an AND only fires on two AND-gate operands *)
Lemma xor_gen b x y : good b -> valid b x -> valid b y ->
  exists r b', push_xor_top b x y = Ok (r, b') /\ good b' /\ ext b b' /\ valid b' r.
Proof.
  intros [I Z] Hx Hy. destruct (push_xor_top_sound b x y I Hx Hy) as (r & b' & E & I' & X & V & _).
  exists r, b'. split; [exact E|]. split; [|split; assumption].
  split; [exact I'|]. exact (xor_top_zero _ _ _ _ _ I Hx Hy Z E).
Qed.

Lemma not_gen b x : good b -> valid b x ->
  exists r b', push_not b x = Ok (r, b') /\ good b' /\ ext b b' /\ valid b' r.
Proof. intros G Hx. unfold push_not. apply xor_gen; [exact G|exact Hx|]. apply (valid_cw b true), G. Qed.

Lemma eq_gen b x y : good b -> valid b x -> valid b y ->
  exists r b', push_eq b x y = Ok (r, b') /\ good b' /\ ext b b' /\ valid b' r.
Proof.
  intros G Hx Hy. unfold push_eq.
  destruct (xor_gen b x y G Hx Hy) as (xo & b1 & -> & G1 & X1 & V1). cbn [bind].
  destruct (not_gen b1 xo G1 V1) as (r & b2 & E & G2 & X2 & V2). unfold push_not in E.
  exists r, b2. split; [exact E|]. split; [exact G2|]. split; [eapply ext_trans; eauto|exact V2].
Qed.

(* OR with a constant operand: the AND inside folds *)
Lemma or_gen_const b x y : good b -> valid b x -> valid b y -> x <= 1 \/ y <= 1 ->
  exists r b', push_or b x y = Ok (r, b') /\ good b' /\ ext b b' /\ valid b' r.
Proof.
  intros G Hx Hy Hc. unfold push_or.
  destruct (xor_gen b x y G Hx Hy) as (xo & b1 & -> & G1 & X1 & V1). cbn [bind].
  destruct (push_and_top_const b1 x y) as (an & -> & Han).
  { apply orb_true_iff. destruct Hc as [H|H]; [left|right]; now apply N.leb_le. }
  cbn [bind].
  assert (Van : valid b1 an).
  { destruct Han as [->|[->| ->]]; [apply (valid_cw b1 false), G1|eapply ext_valid; eauto|eapply ext_valid; eauto]. }
  destruct (xor_gen b1 xo an G1 V1 Van) as (r & b2 & E & G2 & X2 & V2).
  exists r, b2. split; [exact E|]. split; [exact G2|]. split; [eapply ext_trans; eauto|exact V2].
Qed.

Lemma or_zero_l b y : push_or b 0 y = Ok (y, b).
Proof. unfold push_or. rewrite push_xor_top_zero_l. cbn [bind]. rewrite push_and_top_zero_l. apply push_xor_top_zero_r. Qed.
Lemma or_zero_r b x : push_or b x 0 = Ok (x, b).
Proof. unfold push_or. rewrite push_xor_top_zero_r. cbn [bind]. rewrite push_and_top_zero_r. apply push_xor_top_zero_r. Qed.

(* MUX with the constant selector 1: the first data wire itself; the XOR of the two data wires
   may be stored (a dead gate) *)
Lemma mux_true b x0 x1 : good b -> valid b x0 -> valid b x1 ->
  exists b', push_mux b 1 x0 x1 = Ok (x0, b') /\ good b' /\ ext b b'.
Proof.
  intros G H0 H1. unfold push_mux. destruct (x0 =? x1).
  { exists b. split; [reflexivity|]. split; [exact G|apply ext_refl]. }
  destruct (xor_gen b x0 x1 G H0 H1) as (d & b1 & -> & G1 & X1 & V1). cbn [bind].
  rewrite not_one. cbn [bind]. rewrite push_and_top_zero_r. cbn [bind].
  rewrite push_xor_top_zero_r. exists b1. split; [reflexivity|]. split; assumption.
Qed.

(* MUX with the constant selector 0: only XOR gates *)
Lemma mux_false b x0 x1 : good b -> valid b x0 -> valid b x1 ->
  exists r b', push_mux b 0 x0 x1 = Ok (r, b') /\ good b' /\ ext b b' /\ valid b' r.
Proof.
  intros G H0 H1. unfold push_mux. destruct (x0 =? x1).
  { exists x0, b. split; [reflexivity|]. split; [exact G|]. split; [apply ext_refl|exact H0]. }
  destruct (xor_gen b x0 x1 G H0 H1) as (d & b1 & -> & G1 & X1 & V1). cbn [bind].
  rewrite not_zero. cbn [bind]. rewrite push_and_top_one_r. cbn [bind].
  destruct (xor_gen b1 x0 d G1 (ext_valid _ _ _ X1 H0) V1) as (r & b2 & E & G2 & X2 & V2).
  exists r, b2. split; [exact E|]. split; [exact G2|]. split; [eapply ext_trans; eauto|exact V2].
Qed.

(* MUX of two constants by any selector: the selector or its negation *)
Lemma mux_data_known b s a c : good b -> valid b s ->
  exists r b', push_mux b s (cw a) (cw c) = Ok (r, b') /\ good b' /\ ext b b' /\ valid b' r /\
               (a = c -> r = cw a).
Proof.
  intros G Hs. unfold push_mux. destruct (N.eqb_spec (cw a) (cw c)) as [He|Hne].
  { exists (cw a), b. split; [reflexivity|]. split; [exact G|]. split; [apply ext_refl|].
    split; [apply valid_cw, G|reflexivity]. }
  rewrite xor_cw. cbn [bind].
  assert (Hx : xorb a c = true) by (destruct a, c; try reflexivity; exfalso; apply Hne; reflexivity). rewrite Hx. cbn [cw].
  destruct (not_gen b s G Hs) as (ns & b1 & -> & G1 & X1 & V1). cbn [bind].
  rewrite push_and_top_one_l. cbn [bind].
  destruct (xor_gen b1 (cw a) ns G1 (valid_cw b1 a (proj1 G1)) V1) as (r & b2 & E & G2 & X2 & V2).
  exists r, b2. split; [exact E|]. split; [exact G2|]. split; [eapply ext_trans; eauto|].
  split; [exact V2|]. intros ->. destruct c; discriminate Hx.
Qed.

(* ------------------------------------------------------------------ gadgets on constant wires *)

Definition cwp (p : bool * bool) : N * N := (cw (fst p), cw (snd p)).

Lemma combine_firstn_cw bits (x y : list bool) :
  combine (firstn bits (map cw x)) (firstn bits (map cw y)) = map cwp (combine (firstn bits x) (firstn bits y)).
Proof.
  rewrite !firstn_map. generalize (firstn bits x) as l, (firstn bits y) as l'. clear.
  induction l as [|a l IH]; intros [|c l']; cbn [map combine]; try reflexivity.
  rewrite IH. reflexivity.
Qed.

Lemma combine_cw (x y : list bool) : combine (map cw x) (map cw y) = map cwp (combine x y).
Proof.
  revert y. induction x as [|a x IH]; intros [|c y]; cbn [map combine]; try reflexivity. rewrite IH. reflexivity.
Qed.

Ltac fold_consts :=
  repeat (first [rewrite xor_cw | rewrite and_cw | rewrite or_cw | rewrite not_cw | rewrite eq_cw]; cbn [bind]).

(* the comparator on constant operands stores no gate and returns the constant wires of
   the specification's value *)
Lemma cmp_loop_const xys : forall b first sg ag al,
  cmp_loop b first sg (map cwp xys) (cw ag) (cw al) =
  Ok ((cw (fst (cmp_loop_s first sg xys ag al)), cw (snd (cmp_loop_s first sg xys ag al))), b).
Proof.
  induction xys as [|[x y] r IH]; intros b first sg ag al; cbn [map cwp fst snd cmp_loop cmp_loop_s]; [reflexivity|].
  fold_consts. destruct (first && sg); fold_consts; apply IH.
Qed.

Lemma comparator_const b bits x sx y sy :
  (bits <= length x)%nat -> (bits <= length y)%nat ->
  push_comparator_circuit b bits (map cw x) sx (map cw y) sy =
  Ok ((cw (fst (cmp_s bits x sx y sy)), cw (snd (cmp_s bits x sx y sy))), b).
Proof.
  intros Hx Hy. unfold push_comparator_circuit, cmp_s. rewrite !map_length.
  rewrite (proj2 (Nat.ltb_ge _ _) Hx), (proj2 (Nat.ltb_ge _ _) Hy). cbn [orb].
  rewrite combine_firstn_cw. apply (cmp_loop_const _ b true (sx || sy) false false).
Qed.

Lemma eq_go_const xys : forall b acc,
  GadgetHoare.eq_go b (cw acc) (map cwp xys) = Ok (cw (GadgetHoare.eq_go_s acc xys), b).
Proof.
  induction xys as [|[x y] r IH]; intros b acc; cbn [map cwp fst snd GadgetHoare.eq_go GadgetHoare.eq_go_s]; [reflexivity|].
  fold_consts. apply IH.
Qed.

Lemma eq_circuit_const b x y :
  push_eq_circuit b (map cw x) (map cw y) = Ok (cw (eq_s x y), b).
Proof.
  rewrite GadgetHoare.push_eq_circuit_eq, GadgetHoare.eq_s_eq, !map_length.
  destruct (negb (length x =? length y)%nat); [reflexivity|].
  rewrite combine_cw. apply (eq_go_const _ b true).
Qed.


(* arithmetic on constant operands folds completely *)
Lemma adder_cw b x y c :
  push_adder b (cw x) (cw y) (cw c) = Ok ((cw (fst (adder_s x y c)), cw (snd (adder_s x y c))), b).
Proof. destruct x, y, c; reflexivity. Qed.

Lemma multiplier_cw b x y z c :
  push_multiplier b (cw x) (cw y) (cw z) (cw c)
  = Ok ((cw (fst (multiplier_s x y z c)), cw (snd (multiplier_s x y z c))), b).
Proof. destruct x, y, z, c; reflexivity. Qed.

Lemma add_loop_const xys : forall b carry cp acc,
  add_loop b (map cwp xys) (cw carry) (cw cp) (map cw acc) =
  Ok ((map cw (fst (fst (add_loop_s xys carry cp acc))), cw (snd (fst (add_loop_s xys carry cp acc))),
       cw (snd (add_loop_s xys carry cp acc))), b).
Proof.
  induction xys as [|[x y] r IH]; intros b carry cp acc; cbn [map cwp fst snd add_loop add_loop_s]; [reflexivity|].
  rewrite adder_cw. cbn [bind]. destruct (adder_s x y carry) as [s c]. cbn [fst snd].
  apply (IH b c carry (s :: acc)).
Qed.

Lemma addition_const b x y : length x = length y ->
  push_addition_circuit b (map cw x) (map cw y) =
  Ok ((map cw (fst (fst (addition_s x y))), cw (snd (fst (addition_s x y))), cw (snd (addition_s x y))), b).
Proof.
  intro L. unfold push_addition_circuit, addition_s. rewrite !map_length, L, Nat.eqb_refl. cbn [negb].
  rewrite combine_cw, <- map_rev. apply (add_loop_const _ b false false []).
Qed.

Lemma neg_loop_const xs : forall b carry acc,
  neg_loop b (map cw xs) (cw carry) (map cw acc) = Ok (map cw (neg_loop_s xs carry acc), b).
Proof.
  induction xs as [|x r IH]; intros b carry acc; cbn [map neg_loop neg_loop_s]; [reflexivity|].
  fold_consts. apply (IH b (andb carry (negb x)) (xorb carry (negb x) :: acc)).
Qed.

Lemma negation_const b x : push_negation_circuit b (map cw x) = Ok (map cw (negation_s x), b).
Proof. unfold push_negation_circuit, negation_s. rewrite <- map_rev. apply (neg_loop_const _ b true []). Qed.

Lemma hd_res_cw (l : list bool) : l <> [] -> hd_res (map cw l) = Ok (cw (hd false l)).
Proof. destruct l; [congruence|reflexivity]. Qed.

Lemma subtraction_const b x y sg : length x = length y -> (sg = true -> x <> []) ->
  exists b', push_subtraction_circuit b (map cw x) (map cw y) sg =
             Ok ((map cw (fst (subtraction_s x y sg)), cw (snd (subtraction_s x y sg))), b') /\ b' = b.
Proof.
  intros L Hne. unfold push_subtraction_circuit. rewrite !map_length, L, Nat.eqb_refl. cbn [negb].
  rewrite GadgetHoare.subtraction_s_eq. cbv zeta. unfold W in *.
  assert (Core : forall x0 y0,
    exists se0 se, fst (fst (addition_s (x0 :: x) (negation_s (y0 :: y)))) = se0 :: se /\ length se = length x /\
      push_negation_circuit b (cw y0 :: map cw y) = Ok (map cw (negation_s (y0 :: y)), b) /\
      push_addition_circuit b (cw x0 :: map cw x) (map cw (negation_s (y0 :: y))) =
      Ok ((cw se0 :: map cw se, cw (snd (fst (addition_s (x0 :: x) (negation_s (y0 :: y))))),
           cw (snd (addition_s (x0 :: x) (negation_s (y0 :: y))))), b)).
  { intros x0 y0.
    assert (Ln : length (x0 :: x) = length (negation_s (y0 :: y))).
    { rewrite GadgetHoare.negation_s_length. cbn [length]. congruence. }
    pose proof (addition_const b _ _ Ln) as Ea.
    pose proof (GadgetHoare.addition_s_length (x0 :: x) (negation_s (y0 :: y)) Ln) as Ls. cbn [length] in Ls.
    destruct (fst (fst (addition_s (x0 :: x) (negation_s (y0 :: y))))) as [|s0 se]; [discriminate Ls|].
    exists s0, se. split; [reflexivity|]. split; [cbn [length] in Ls; congruence|].
    split; [exact (negation_const b (y0 :: y))|exact Ea]. }
  destruct sg.
  - assert (Hx : x <> []) by auto. assert (Hy : y <> []) by (intros ->; destruct x; [now apply Hx|discriminate]).
    rewrite (hd_res_cw x Hx), (hd_res_cw y Hy). cbn [bind].
    destruct (Core (hd false x) (hd false y)) as (se0 & se & Ese & Lse & En & Ea).
    rewrite En. cbn [bind]. rewrite Ea, Ese. cbn [bind hd_res tl hd map fst snd].
    assert (Hse : se <> []) by (intros ->; destruct x; [now apply Hx|discriminate Lse]).
    rewrite (hd_res_cw se Hse). cbn [bind]. rewrite xor_cw. cbn [bind]. exists b. split; reflexivity.
  - cbn [bind]. destruct (Core false false) as (se0 & se & Ese & Lse & En & Ea). cbn [cw] in En, Ea.
    rewrite En. cbn [bind]. rewrite Ea, Ese. cbn [bind hd_res tl hd map fst snd]. exists b. split; reflexivity.
Qed.

(* ------------------------------------------------------------------ the panic record on constants *)

Definition cwires (l : list N) : Prop := Forall (fun w => w <= 1) l.

Lemma cwires_nth l i : cwires l -> nth i l 0 <= 1.
Proof.
  intro H. destruct (nth_in_or_default i l 0) as [Hin| ->]; [|lia].
  unfold cwires in H. rewrite Forall_forall in H. apply H. exact Hin.
Qed.

Lemma cwires_usize n : cwires (usize_bits n).
Proof.
  unfold cwires, usize_bits. apply Forall_forall. intros w Hin. apply in_map_iff in Hin.
  destruct Hin as (i & <- & _). destruct (N.testbit _ _); lia.
Qed.

Definition cpairs (l : list (N * N)) : Prop := Forall (fun p => fst p <= 1 /\ snd p <= 1) l.

Lemma mux_seq_const b s pairs : s <= 1 -> cpairs pairs ->
  exists ws, mux_seq b s pairs = Ok (ws, b) /\ cwires ws.
Proof.
  intros Hs. induction 1 as [|[x0 x1] r [H0 H1] _ IH]; cbn [mux_seq].
  - exists []. split; [reflexivity|constructor].
  - cbn [fst snd] in H0, H1. destruct (push_mux_const b s x0 x1 Hs H0 H1) as (w & -> & Hw). cbn [bind].
    destruct IH as (ws & -> & Hws). cbn [bind]. exists (w :: ws). split; [reflexivity|constructor; assumption].
Qed.

Lemma mux_rows_const b s rows : s <= 1 -> Forall cpairs rows ->
  exists wss, mux_rows b s rows = Ok (wss, b) /\ Forall cwires wss.
Proof.
  intros Hs. induction 1 as [|row r Hrow _ IH]; cbn [mux_rows].
  - exists []. split; [reflexivity|constructor].
  - destruct (mux_seq_const b s row Hs Hrow) as (ws & -> & Hws). cbn [bind].
    destruct IH as (wss & -> & Hwss). cbn [bind]. exists (ws :: wss). split; [reflexivity|constructor; assumption].
Qed.

Lemma cpairs32 xs ys : cwires xs -> cwires ys -> cpairs (pairs32 xs ys).
Proof.
  intros Hx Hy. unfold cpairs, pairs32. apply Forall_forall. intros p Hin. apply in_map_iff in Hin.
  destruct Hin as (i & <- & _). cbn [fst snd]. split; apply cwires_nth; assumption.
Qed.

Definition cprec (p : prec) : Prop := cwires (prec_wires p).

Lemma cprec_fields p : cprec p ->
  pr_flag p <= 1 /\ cwires (pr_type p) /\ cwires (pr_sl p) /\ cwires (pr_sc p) /\ cwires (pr_el p) /\ cwires (pr_ec p).
Proof.
  unfold cprec, prec_wires, cwires. intro H. inversion H as [|w l Hf Hr]; subst.
  apply Forall_app in Hr. destruct Hr as [H1 Hr]. apply Forall_app in Hr. destruct Hr as [H2 Hr].
  apply Forall_app in Hr. destruct Hr as [H3 Hr]. apply Forall_app in Hr. destruct Hr as [H4 H5].
  repeat split; assumption.
Qed.

Lemma cprec_mk fl ty sl sc el ec :
  fl <= 1 -> cwires ty -> cwires sl -> cwires sc -> cwires el -> cwires ec -> cprec (mkPrec fl ty sl sc el ec).
Proof.
  intros. unfold cprec, prec_wires, cwires. cbn [pr_flag pr_type pr_sl pr_sc pr_el pr_ec].
  constructor; [assumption|]. repeat (apply Forall_app; split; [assumption|]). assumption.
Qed.

Lemma cprec_ok : cprec panic_ok.
Proof.
  unfold panic_ok. apply cprec_mk; try apply cwires_usize; try lia;
    apply Forall_forall; intros w Hin; apply repeat_spec in Hin; subst; lia.
Qed.

Lemma cwires_col k rs : Forall cwires rs -> cwires (col k rs).
Proof.
  intro H. unfold col, cwires. apply Forall_forall. intros w Hin. apply in_map_iff in Hin.
  destruct Hin as (r & <- & Hr). apply cwires_nth. rewrite Forall_forall in H. apply H. exact Hr.
Qed.

Lemma cwires_nth_rows k rs : Forall cwires rs -> cwires (nth k rs []).
Proof.
  intro H. destruct (nth_in_or_default k rs []) as [Hin| ->]; [|constructor].
  rewrite Forall_forall in H. apply H. exact Hin.
Qed.

(* push_panic_if with a constant condition on an all-constant record: no gate, the record
   stays all-constant *)
Lemma push_record_const b p c r m : cprec p -> c <= 1 ->
  exists p', push_record b p c r m = Ok (p', b) /\ cprec p'.
Proof.
  intros Hp Hc. destruct (cprec_fields p Hp) as (Hf & Hty & Hsl & Hsc & Hel & Hec). unfold push_record.
  destruct (push_or_const b (pr_flag p) c Hf Hc) as (fl & -> & Hfl). cbn [bind].
  match goal with |- context [mux_rows b (pr_flag p) ?rows] =>
    destruct (mux_rows_const b (pr_flag p) rows Hf) as (rs & -> & Hrs) end.
  { apply Forall_forall. intros row Hin. apply in_map_iff in Hin. destruct Hin as (i & <- & _).
    unfold cpairs. repeat (constructor; [cbn [fst snd]; split; apply cwires_nth; (assumption || apply cwires_usize)|]).
    constructor. }
  cbn [bind]. unfold mux_field.
  destruct (mux_seq_const b (pr_flag p) (pairs32 (pr_type p) (usize_bits (preason_num r))) Hf) as (ty & -> & Hty').
  { apply cpairs32; [assumption|apply cwires_usize]. }
  cbn [bind]. eexists. split; [reflexivity|]. apply cprec_mk; try assumption; apply cwires_col; assumption.
Qed.

Lemma push_panic_if_const b P c r m : cprec (ps_rec P) -> c <= 1 ->
  exists P', push_panic_if b P c r m = Ok (P', b) /\ cprec (ps_rec P').
Proof.
  intros Hp Hc. unfold push_panic_if. destruct (nmem c (ps_cache P)).
  - exists P. split; [reflexivity|exact Hp].
  - destruct (push_record_const b (ps_rec P) c r m Hp Hc) as (p' & -> & Hp'). cbn [bind].
    eexists. split; [reflexivity|]. exact Hp'.
Qed.

Lemma mux_panic_const b c T F : c <= 1 -> cprec (ps_rec T) -> cprec (ps_rec F) ->
  exists P', mux_panic b c T F = Ok (P', b) /\ cprec (ps_rec P').
Proof.
  intros Hc HT HF. destruct (cprec_fields _ HT) as (Tf & Tty & Tsl & Tsc & Tel & Tec).
  destruct (cprec_fields _ HF) as (Ff & Fty & Fsl & Fsc & Fel & Fec).
  unfold mux_panic, mux_uncached_panic.
  destruct (push_mux_const b c (pr_flag (ps_rec T)) (pr_flag (ps_rec F)) Hc Tf Ff) as (fl & -> & Hfl). cbn [bind].
  match goal with |- context [mux_rows b c ?rows] =>
    destruct (mux_rows_const b c rows Hc) as (rs & -> & Hrs) end.
  { repeat (constructor; [apply cpairs32; assumption|]). constructor. }
  cbn [bind]. eexists. split; [reflexivity|]. cbn [ps_rec].
  apply cprec_mk; try assumption; apply cwires_nth_rows; assumption.
Qed.

(* ------------------------------------------------------------------ the constness instance *)

(* an abstract wire: [Some a] = the constant wire a, [None] = some wire *)
Definition kw := option bool.
Definition KM (A : Type) := unit -> res (A * unit).
Definition kret {A} (a : A) : KM A := fun _ => Ok (a, tt).
Definition kcrash {A} : KM A := fun _ => Crash.
Definition kopt {A} (r : option A) : KM A := match r with Some a => kret a | None => kcrash end.

Definition k_xor (x y : kw) : kw :=
  match x, y with
  | Some a, Some c => Some (xorb a c)
  | Some false, v => v
  | v, Some false => v
  | _, _ => None
  end.

(* [None] = the builder may have to store an AND gate *)
Definition k_and (x y : kw) : option kw :=
  match x, y with
  | Some false, _ => Some (Some false)
  | _, Some false => Some (Some false)
  | Some true, v => Some v
  | v, Some true => Some v
  | None, None => None
  end.

Definition k_or (x y : kw) : option kw :=
  match x, y with
  | Some a, Some c => Some (Some (orb a c))
  | Some false, v => Some v
  | v, Some false => Some v
  | Some true, None => Some None
  | None, Some true => Some None
  | None, None => None
  end.

Definition k_eq (x y : kw) : kw :=
  match x, y with Some a, Some c => Some (negb (xorb a c)) | _, _ => None end.

Definition k_not (x : kw) : kw := option_map negb x.

(* Builder.push_mux: the x0 =? x1 shortcut, else xor / not / and / xor *)
Definition k_mux (s x0 x1 : kw) : option kw :=
  match s with
  | Some true => Some x0
  | Some false => Some (match x0, x1 with Some _, Some c => Some c | _, _ => None end)
  | None =>
      match x0, x1 with
      | Some a, Some c => Some (if Bool.eqb a c then Some a else None)
      | _, _ => None
      end
  end.

Fixpoint known (l : list kw) : option (list bool) :=
  match l with
  | [] => Some []
  | Some a :: r => option_map (cons a) (known r)
  | None :: _ => None
  end.

Definition k_comparator (bits : nat) (x : list kw) (sx : bool) (y : list kw) (sy : bool) : option (kw * kw) :=
  match known x, known y with
  | Some bx, Some by_ =>
      if ((bits <=? length bx) && (bits <=? length by_))%nat
      then let r := cmp_s bits bx sx by_ sy in Some (Some (fst r), Some (snd r)) else None
  | _, _ => None
  end.

Definition k_eq_circuit (x y : list kw) : option kw :=
  match known x, known y with
  | Some bx, Some by_ => Some (Some (eq_s bx by_))
  | _, _ => None
  end.

Definition k_negation (x : list kw) : option (list kw) :=
  option_map (fun bx => map (@Some bool) (negation_s bx)) (known x).

Definition k_addition (x y : list kw) : option (list kw * kw * kw) :=
  match known x, known y with
  | Some bx, Some by_ =>
      if (length bx =? length by_)%nat
      then let r := addition_s bx by_ in Some (map (@Some bool) (fst (fst r)), Some (snd (fst r)), Some (snd r))
      else None
  | _, _ => None
  end.

Definition k_subtraction (x y : list kw) (sg : bool) : option (list kw * kw) :=
  match known x, known y with
  | Some bx, Some by_ =>
      if (length bx =? length by_)%nat && (negb sg || match bx with [] => false | _ => true end)
      then let r := subtraction_s bx by_ sg in Some (map (@Some bool) (fst r), Some (snd r))
      else None
  | _, _ => None
  end.

Definition k_multiplier (x y z c : kw) : option (kw * kw) :=
  match x, y, z, c with
  | Some a, Some b, Some d, Some e => let r := multiplier_s a b d e in Some (Some (fst r), Some (snd r))
  | _, _, _, _ => None
  end.

Definition k_known_cond {A} (c : kw) (a : A) : KM A := match c with Some _ => kret a | None => kcrash end.

(* wires: kw; compiler state: nothing; saved panic states: nothing (the panic record is
   required to stay all-constant, which it does as long as every panic condition is known) *)
Definition kops : ops kw unit unit := {|
  w0 := Some false;
  w1 := Some true;
  o_xor := fun x y => kret (k_xor x y);
  o_and := fun x y => kopt (k_and x y);
  o_or := fun x y => kopt (k_or x y);
  o_eq := fun x y => kret (k_eq x y);
  o_not := fun x => kret (k_not x);
  o_mux := fun s x0 x1 => kopt (k_mux s x0 x1);
  o_negation := fun x => kopt (k_negation x);
  o_addition := fun x y => kopt (k_addition x y);
  o_subtraction := fun x y sg => kopt (k_subtraction x y sg);
  o_multiplier := fun x y z c => kopt (k_multiplier x y z c);
  o_udiv := fun _ _ => kcrash;
  o_sdiv := fun _ _ => kcrash;
  o_comparator := fun bits x sx y sy => kopt (k_comparator bits x sx y sy);
  o_eq_circuit := fun x y => kopt (k_eq_circuit x y);
  o_merger := fun _ _ _ => kcrash;
  o_sorter := fun _ _ => kcrash;
  o_panic_if := fun c _ _ => k_known_cond c tt;
  o_peek := kret tt;
  o_replace := fun _ => kret tt;
  o_mux_panic := fun c _ _ => k_known_cond c tt
|}.

(* ------------------------------------------------------------------ the relation *)

Definition Rwb (b : builder) (w : N) (v : kw) : Prop :=
  match v with Some a => w = cw a | None => valid b w end.

Lemma Rwb_valid b w v : inv b -> Rwb b w v -> valid b w.
Proof. intros I H. destruct v as [a|]; cbn [Rwb] in H; [subst; apply valid_cw; exact I|exact H]. Qed.

Lemma Rwb_ext b b' w v : ext b b' -> Rwb b w v -> Rwb b' w v.
Proof. intros E H. destruct v as [a|]; cbn [Rwb] in *; [exact H|eapply ext_valid; eauto]. Qed.

Lemma Rwb_known b ws vs bs : Forall2 (Rwb b) ws vs -> known vs = Some bs -> ws = map cw bs.
Proof.
  intro H. revert bs. induction H as [|w v ws vs Hw _ IH]; intros bs E; cbn [known] in E.
  - injection E as <-. reflexivity.
  - destruct v as [a|]; [|discriminate]. destruct (known vs) as [r|]; [|discriminate]. cbn [option_map] in E.
    injection E as <-. cbn [Rwb] in Hw. subst w. cbn [map]. f_equal. apply IH. reflexivity.
Qed.

Lemma Rwb_some b (bs : list bool) : Forall2 (Rwb b) (map cw bs) (map (@Some bool) bs).
Proof. induction bs as [|a bs IH]; cbn [map]; constructor; [reflexivity|exact IH]. Qed.

Lemma const_step {A} b (f : res (A * builder)) r (Q : builder -> A -> Prop) :
  good b -> f = Ok (r, b) -> Q b r -> exists r b', f = Ok (r, b') /\ good b' /\ ext b b' /\ Q b' r.
Proof. intros G E HQ. exists r, b. split; [exact E|]. split; [exact G|]. split; [apply ext_refl|exact HQ]. Qed.

Lemma kxor_ok b x y vx vy : good b -> Rwb b x vx -> Rwb b y vy ->
  exists r b', push_xor_top b x y = Ok (r, b') /\ good b' /\ ext b b' /\ Rwb b' r (k_xor vx vy).
Proof.
  intros G Hx Hy.
  assert (Gen : k_xor vx vy = None ->
    exists r b', push_xor_top b x y = Ok (r, b') /\ good b' /\ ext b b' /\ Rwb b' r (k_xor vx vy)).
  { intros ->. exact (xor_gen b x y G (Rwb_valid _ _ _ (proj1 G) Hx) (Rwb_valid _ _ _ (proj1 G) Hy)). }
  destruct vx as [a|], vy as [c|]; [|destruct a; apply Gen; reflexivity|destruct c; apply Gen; reflexivity|apply Gen; reflexivity].
  cbn [Rwb] in Hx, Hy. subst. eapply const_step; [exact G|apply xor_cw|destruct a, c; reflexivity].
Qed.

Lemma kand_ok b x y vx vy v : good b -> Rwb b x vx -> Rwb b y vy -> k_and vx vy = Some v ->
  exists r, push_and_top b x y = Ok (r, b) /\ Rwb b r v.
Proof.
  intros G Hx Hy E. destruct vx as [a|], vy as [c|]; cbn [Rwb] in Hx, Hy; subst.
  - exists (cw (andb a c)). split; [apply and_cw|]. destruct a, c; injection E as <-; reflexivity.
  - destruct a; injection E as <-; cbn [cw]; [exists y; split; [apply push_and_top_one_l|exact Hy]|exists 0; split; [apply push_and_top_zero_l|reflexivity]].
  - destruct c; injection E as <-; cbn [cw]; [exists x; split; [apply push_and_top_one_r|exact Hx]|exists 0; split; [apply push_and_top_zero_r|reflexivity]].
  - discriminate.
Qed.

Lemma kor_ok b x y vx vy v : good b -> Rwb b x vx -> Rwb b y vy -> k_or vx vy = Some v ->
  exists r b', push_or b x y = Ok (r, b') /\ good b' /\ ext b b' /\ Rwb b' r v.
Proof.
  intros G Hx Hy E.
  assert (Gen : (x <= 1 \/ y <= 1) ->
    exists r b', push_or b x y = Ok (r, b') /\ good b' /\ ext b b' /\ Rwb b' r None).
  { intros Hc. exact (or_gen_const b x y G (Rwb_valid _ _ _ (proj1 G) Hx) (Rwb_valid _ _ _ (proj1 G) Hy) Hc). }
  destruct vx as [a|], vy as [c|]; cbn [Rwb] in Hx, Hy; subst.
  - destruct a, c; injection E as <-; (eapply const_step; [exact G|apply or_cw|reflexivity]).
  - destruct a; injection E as <-; cbn [cw] in *; [apply Gen; left; lia|eapply const_step; [exact G|apply or_zero_l|exact Hy]].
  - destruct c; injection E as <-; cbn [cw] in *; [apply Gen; right; lia|eapply const_step; [exact G|apply or_zero_r|exact Hx]].
  - discriminate.
Qed.

Lemma keq_ok b x y vx vy : good b -> Rwb b x vx -> Rwb b y vy ->
  exists r b', push_eq b x y = Ok (r, b') /\ good b' /\ ext b b' /\ Rwb b' r (k_eq vx vy).
Proof.
  intros G Hx Hy.
  assert (Gen : k_eq vx vy = None ->
    exists r b', push_eq b x y = Ok (r, b') /\ good b' /\ ext b b' /\ Rwb b' r (k_eq vx vy)).
  { intros ->. exact (eq_gen b x y G (Rwb_valid _ _ _ (proj1 G) Hx) (Rwb_valid _ _ _ (proj1 G) Hy)). }
  destruct vx as [a|], vy as [c|]; try (apply Gen; reflexivity).
  cbn [Rwb] in Hx, Hy. subst. eapply const_step; [exact G|apply eq_cw|reflexivity].
Qed.

Lemma knot_ok b x vx : good b -> Rwb b x vx ->
  exists r b', push_not b x = Ok (r, b') /\ good b' /\ ext b b' /\ Rwb b' r (k_not vx).
Proof.
  intros G Hx. destruct vx as [a|]; cbn [Rwb k_not option_map] in *.
  - subst. eapply const_step; [exact G|apply not_cw|reflexivity].
  - exact (not_gen b x G Hx).
Qed.

Lemma kmux_ok b s x0 x1 vs v0 v1 v : good b -> Rwb b s vs -> Rwb b x0 v0 -> Rwb b x1 v1 ->
  k_mux vs v0 v1 = Some v ->
  exists r b', push_mux b s x0 x1 = Ok (r, b') /\ good b' /\ ext b b' /\ Rwb b' r v.
Proof.
  intros G Hs H0 H1 E. pose proof (proj1 G) as I.
  pose proof (Rwb_valid _ _ _ I H0) as V0. pose proof (Rwb_valid _ _ _ I H1) as V1.
  destruct vs as [[|]|]; cbn [k_mux Rwb] in E, Hs.
  - injection E as <-. subst s. destruct (mux_true b x0 x1 G V0 V1) as (b' & E' & G' & X).
    exists x0, b'. split; [exact E'|]. split; [exact G'|]. split; [exact X|]. eapply Rwb_ext; eauto.
  - injection E as <-. subst s. destruct v0 as [a|], v1 as [c|]; try exact (mux_false b x0 x1 G V0 V1).
    cbn [Rwb] in H0, H1. subst. eapply const_step; [exact G|apply (mux_cw b false a c)|reflexivity].
  - destruct v0 as [a|]; [|discriminate]. destruct v1 as [c|]; [|discriminate]. injection E as <-.
    cbn [Rwb] in H0, H1. subst.
    destruct (mux_data_known b s a c G Hs) as (r & b' & E' & G' & X & V & Heq).
    exists r, b'. split; [exact E'|]. split; [exact G'|]. split; [exact X|].
    destruct (Bool.eqb a c) eqn:Eac; cbn [Rwb]; [|exact V]. apply Bool.eqb_prop in Eac. auto.
Qed.

Definition kextS (s s' : cst) : Prop := ext (cb s) (cb s').
Definition kRw (s : cst) : N -> kw -> Prop := Rwb (cb s).
Definition kRP (s : cst) (P : pstate) (_ : unit) : Prop := cprec (ps_rec P).
Definition kRS (s : cst) (_ : unit) : Prop := good (cb s) /\ cprec (ps_rec (cp s)).

Lemma ksim_liftb {X Y} s o (f : builder -> res (X * builder)) (y : Y) (Q : cst -> X -> Y -> Prop) :
  cprec (ps_rec (cp s)) ->
  (exists r b', f (cb s) = Ok (r, b') /\ good b' /\ ext (cb s) b' /\ Q (mkCst b' (cp s)) r y) ->
  simG kextS kRS s o (liftb f) (kret y) Q.
Proof.
  intros HP (r & b' & E & G' & Hext & HQ) y' o' H. unfold kret in H. injection H as <- <-.
  exists r, (mkCst b' (cp s)). unfold liftb. rewrite E. cbn [bind].
  split; [reflexivity|]. split; [exact Hext|]. split; [split; assumption|exact HQ].
Qed.

Lemma ksim_crash {X Y} s o (mA : cst -> res (X * cst)) (Q : cst -> X -> Y -> Prop) :
  simG kextS kRS s o mA (@kcrash Y) Q.
Proof. intros y o' H. discriminate. Qed.

Lemma ksim_kopt {X Y} s o (mA : cst -> res (X * cst)) (r : option Y) (Q : cst -> X -> Y -> Prop) :
  (forall y, r = Some y -> simG kextS kRS s o mA (kret y) Q) -> simG kextS kRS s o mA (kopt r) Q.
Proof. intro H. destruct r as [y|]; [apply H; reflexivity|apply ksim_crash]. Qed.

Lemma ksim_const {X Y} s o (f : builder -> res (X * builder)) x (y : Y) (Q : cst -> X -> Y -> Prop) :
  kRS s o -> f (cb s) = Ok (x, cb s) -> Q s x y -> simG kextS kRS s o (liftb f) (kret y) Q.
Proof.
  destruct s as [b p]. intros [G HP] E HQ. apply ksim_liftb; [exact HP|].
  exists x, b. split; [exact E|]. split; [exact G|]. split; [apply ext_refl|exact HQ].
Qed.

Lemma ksim_xor s o x y vx vy : kRS s o -> kRw s x vx -> kRw s y vy ->
  simG kextS kRS s o (o_xor bops x y) (o_xor kops vx vy) (fun s' r v => kRw s' r v).
Proof. intros HS Hx Hy. apply ksim_liftb; [apply HS|]. apply kxor_ok; [apply HS|assumption..]. Qed.

Lemma ksim_and s o x y vx vy : kRS s o -> kRw s x vx -> kRw s y vy ->
  simG kextS kRS s o (o_and bops x y) (o_and kops vx vy) (fun s' r v => kRw s' r v).
Proof.
  intros HS Hx Hy. apply ksim_kopt. intros v E.
  destruct (kand_ok _ _ _ _ _ _ (proj1 HS) Hx Hy E) as (r & E' & Hr). eapply ksim_const; eassumption.
Qed.

Lemma ksim_or s o x y vx vy : kRS s o -> kRw s x vx -> kRw s y vy ->
  simG kextS kRS s o (o_or bops x y) (o_or kops vx vy) (fun s' r v => kRw s' r v).
Proof.
  intros HS Hx Hy. apply ksim_kopt. intros v E. apply ksim_liftb; [apply HS|]. eapply kor_ok; eauto. apply HS.
Qed.

Lemma ksim_eq s o x y vx vy : kRS s o -> kRw s x vx -> kRw s y vy ->
  simG kextS kRS s o (o_eq bops x y) (o_eq kops vx vy) (fun s' r v => kRw s' r v).
Proof. intros HS Hx Hy. apply ksim_liftb; [apply HS|]. apply keq_ok; [apply HS|assumption..]. Qed.

Lemma ksim_not s o x vx : kRS s o -> kRw s x vx ->
  simG kextS kRS s o (o_not bops x) (o_not kops vx) (fun s' r v => kRw s' r v).
Proof. intros HS Hx. apply ksim_liftb; [apply HS|]. apply knot_ok; [apply HS|assumption]. Qed.

Lemma ksim_mux s o c x0 x1 vc v0 v1 : kRS s o -> kRw s c vc -> kRw s x0 v0 -> kRw s x1 v1 ->
  simG kextS kRS s o (o_mux bops c x0 x1) (o_mux kops vc v0 v1) (fun s' r v => kRw s' r v).
Proof.
  intros HS Hc H0 H1. apply ksim_kopt. intros v E. apply ksim_liftb; [apply HS|]. eapply kmux_ok; eauto. apply HS.
Qed.

Lemma ksim_negation s o x vx : kRS s o -> Forall2 (kRw s) x vx ->
  simG kextS kRS s o (o_negation bops x) (o_negation kops vx) (fun s' r v => Forall2 (kRw s') r v).
Proof.
  intros HS Hx. apply ksim_kopt. intros v E. unfold k_negation in E.
  destruct (known vx) as [bx|] eqn:Ex; [|discriminate]. injection E as <-.
  rewrite (Rwb_known _ _ _ _ Hx Ex). eapply ksim_const; [exact HS|apply negation_const|apply Rwb_some].
Qed.

Lemma ksim_addition s o x y vx vy : kRS s o -> Forall2 (kRw s) x vx -> Forall2 (kRw s) y vy ->
  simG kextS kRS s o (o_addition bops x y) (o_addition kops vx vy)
    (fun s' r v => Forall2 (kRw s') (fst (fst r)) (fst (fst v)) /\ kRw s' (snd (fst r)) (snd (fst v))
                   /\ kRw s' (snd r) (snd v)).
Proof.
  intros HS Hx Hy. apply ksim_kopt. intros v E. unfold k_addition in E.
  destruct (known vx) as [bx|] eqn:Ex; [|discriminate]. destruct (known vy) as [by_|] eqn:Ey; [|discriminate].
  destruct (length bx =? length by_)%nat eqn:El; [|discriminate]. apply Nat.eqb_eq in El. injection E as <-.
  rewrite (Rwb_known _ _ _ _ Hx Ex), (Rwb_known _ _ _ _ Hy Ey).
  eapply ksim_const; [exact HS|apply addition_const; exact El|]. split; [apply Rwb_some|split; reflexivity].
Qed.

Lemma ksim_subtraction s o x y sg vx vy : kRS s o -> Forall2 (kRw s) x vx -> Forall2 (kRw s) y vy ->
  simG kextS kRS s o (o_subtraction bops x y sg) (o_subtraction kops vx vy sg)
    (fun s' r v => Forall2 (kRw s') (fst r) (fst v) /\ kRw s' (snd r) (snd v)).
Proof.
  intros HS Hx Hy. apply ksim_kopt. intros v E. unfold k_subtraction in E.
  destruct (known vx) as [bx|] eqn:Ex; [|discriminate]. destruct (known vy) as [by_|] eqn:Ey; [|discriminate].
  match type of E with (if ?g then _ else _) = _ => destruct g eqn:El; [|discriminate] end.
  apply andb_prop in El. destruct El as [L1 L2]. apply Nat.eqb_eq in L1. injection E as <-.
  rewrite (Rwb_known _ _ _ _ Hx Ex), (Rwb_known _ _ _ _ Hy Ey).
  destruct (subtraction_const (cb s) bx by_ sg L1) as (b' & E & ->).
  { intros ->. cbn [negb orb] in L2. destruct bx; [discriminate|congruence]. }
  eapply ksim_const; [exact HS|exact E|]. split; [apply Rwb_some|reflexivity].
Qed.

Lemma ksim_multiplier s o x y z c vx vy vz vc : kRS s o -> kRw s x vx -> kRw s y vy -> kRw s z vz -> kRw s c vc ->
  simG kextS kRS s o (o_multiplier bops x y z c) (o_multiplier kops vx vy vz vc)
    (fun s' r v => kRw s' (fst r) (fst v) /\ kRw s' (snd r) (snd v)).
Proof.
  intros HS Hx Hy Hz Hc. apply ksim_kopt. intros v E.
  destruct vx as [a1|], vy as [a2|], vz as [a3|], vc as [a4|]; try discriminate. injection E as <-.
  cbn [kRw Rwb] in Hx, Hy, Hz, Hc. subst.
  eapply ksim_const; [exact HS|apply multiplier_cw|]. split; reflexivity.
Qed.

Lemma ksim_comparator s o bits x sx y sy vx vy : kRS s o -> Forall2 (kRw s) x vx -> Forall2 (kRw s) y vy ->
  simG kextS kRS s o (o_comparator bops bits x sx y sy) (o_comparator kops bits vx sx vy sy)
    (fun s' r v => kRw s' (fst r) (fst v) /\ kRw s' (snd r) (snd v)).
Proof.
  intros HS Hx Hy. apply ksim_kopt. intros v E. unfold k_comparator in E.
  destruct (known vx) as [bx|] eqn:Ex; [|discriminate]. destruct (known vy) as [by_|] eqn:Ey; [|discriminate].
  destruct ((bits <=? length bx) && (bits <=? length by_))%nat eqn:El; [|discriminate].
  apply andb_prop in El. destruct El as [L1 L2]. apply Nat.leb_le in L1, L2. injection E as <-.
  rewrite (Rwb_known _ _ _ _ Hx Ex), (Rwb_known _ _ _ _ Hy Ey).
  eapply ksim_const; [exact HS|apply comparator_const; assumption|]. split; reflexivity.
Qed.

Lemma ksim_eq_circuit s o x y vx vy : kRS s o -> Forall2 (kRw s) x vx -> Forall2 (kRw s) y vy ->
  simG kextS kRS s o (o_eq_circuit bops x y) (o_eq_circuit kops vx vy) (fun s' r v => kRw s' r v).
Proof.
  intros HS Hx Hy. apply ksim_kopt. intros v E. unfold k_eq_circuit in E.
  destruct (known vx) as [bx|] eqn:Ex; [|discriminate]. destruct (known vy) as [by_|] eqn:Ey; [|discriminate].
  injection E as <-. rewrite (Rwb_known _ _ _ _ Hx Ex), (Rwb_known _ _ _ _ Hy Ey).
  eapply ksim_const; [exact HS|apply eq_circuit_const|reflexivity].
Qed.

Lemma ksim_panic_if s o c vc r m : kRS s o -> kRw s c vc ->
  simG kextS kRS s o (o_panic_if bops c r m) (o_panic_if kops vc r m) (fun _ _ _ => True).
Proof.
  intros HS Hc. cbn [o_panic_if kops]. destruct vc as [a|]; [|apply ksim_crash].
  cbn [k_known_cond kRw Rwb] in *. subst c. destruct HS as [G HP].
  intros y o' H. unfold kret in H. injection H as <- <-.
  destruct (push_panic_if_const (cb s) (cp s) (cw a) r (mkPLoc (m_sl m) (m_sc m) (m_el m) (m_ec m)) HP (cw_le a))
    as (P' & E & HP').
  exists tt, (mkCst (cb s) P'). cbn [o_panic_if bops]. unfold b_panic_if. rewrite E. cbn [bind].
  split; [reflexivity|]. split; [apply ext_refl|]. split; [split; assumption|exact I].
Qed.

Lemma ksim_peek s o : kRS s o -> simG kextS kRS s o (o_peek bops) (o_peek kops) (fun s' P ob => kRP s' P ob).
Proof.
  intros HS y o' H. injection H as <- <-.
  exists (cp s), s. split; [reflexivity|]. split; [apply ext_refl|]. split; [exact HS|apply HS].
Qed.

Lemma ksim_replace s o P ob : kRS s o -> kRP s P ob ->
  simG kextS kRS s o (o_replace bops P) (o_replace kops ob) (fun s' P1 o1 => kRP s' P1 o1).
Proof.
  intros HS HPA y o' H. injection H as <- <-. destruct HS as [G HP].
  exists (cp s), (mkCst (cb s) P). split; [reflexivity|]. split; [apply ext_refl|]. split; [split; assumption|exact HP].
Qed.

Lemma ksim_mux_panic s o c vc T F oT oF : kRS s o -> kRw s c vc -> kRP s T oT -> kRP s F oF ->
  simG kextS kRS s o (o_mux_panic bops c T F) (o_mux_panic kops vc oT oF) (fun s' P1 o1 => kRP s' P1 o1).
Proof.
  intros HS Hc HT HF. cbn [o_mux_panic kops]. destruct vc as [a|]; [|apply ksim_crash].
  cbn [k_known_cond kRw Rwb] in *. subst c.
  destruct (mux_panic_const (cb s) (cw a) T F (cw_le a) HT HF) as (P' & E & HP').
  apply (ksim_const s o (fun b => mux_panic b (cw a) T F) P' tt); [exact HS|exact E|exact HP'].
Qed.

Definition free_rel : param_rel bops kops.
Proof.
  refine (mkParamRel _ _ _ _ _ _ bops kops kextS (fun _ => True) kRw kRP kRS _ _ _ _ _ _ _
            ksim_xor ksim_and ksim_or ksim_eq ksim_not ksim_mux ksim_negation ksim_addition ksim_subtraction
            ksim_multiplier (fun _ _ _ _ _ _ _ _ _ => ksim_crash _ _ _ _) (fun _ _ _ _ _ _ _ _ _ => ksim_crash _ _ _ _)
            ksim_comparator ksim_eq_circuit (fun _ _ _ _ _ _ _ _ => ksim_crash _ _ _ _)
            (fun _ _ _ _ _ _ _ => ksim_crash _ _ _ _) ksim_panic_if ksim_peek ksim_replace ksim_mux_panic).
  - intro s. apply ext_refl.
  - intros s1 s2 s3. apply ext_trans.
  - intros; exact I.
  - intros s s' w v E _. apply Rwb_ext. exact E.
  - intros s s' p q _ _ H. exact H.
  - intros s o _. reflexivity.
  - intros s o _. reflexivity.
Defined.

Print Assumptions free_rel.
