(* The node lemmas of the agreement "bit-level run = source semantics" (partial correctness),
   once, for an abstract environment relation.

   The relations are the records [node_rel VR]: [rel R s en E g] between the source environment,
   the bit-level environment and the typing context carries a state [s : State R] ([inner R s]:
   the state inside one more scope); the lemmas use a relation only through the fields [nr_ctx] ...
   [nr_let].  The instances are TSemSemStmt.rel3_nodes (no state), TSemSemCall.relP_nodes (the mask
   of phantom scopes) and TSemSemFullCall.relQ_nodes (the mask, over a fixed outermost scope).
   [AgEG] / [AgSG] / [AgSSG] / [AgBG] are convertible with the agreement predicates of those files,
   except in TSemSemStmt.v, whose predicates do not quantify over a state of type [unit] (they are
   equivalent to the instance, [AgSS_G]). *)
From Coq Require Import Lia ZArith.
From GV Require Import Base.Util Base.Bits Base.BitsProofs Lang.Ast Lang.Wt Lang.WtShape Gadgets.Gadgets
  Gadgets.GadgetSpec Gadgets.Arith Panic.PanicRec Panic.PanicSem Compile.Lower
  Compile.TSem Compile.TSemFacts Compile.TSemArith1 Compile.TSemArith2 Compile.TSemControl
  Compile.TSemSemExpr Compile.TSemSticky.
From GV Require Lang.Sem.
Local Open Scope N_scope.

(* ------------------------------------------------------------------ monadic inversion *)

Lemma mbind_inv {A B} (m : MB A) (k : A -> MB B) o r :
  mbind m k o = Ok r -> exists a o1, m o = Ok (a, o1) /\ k a o1 = Ok r.
Proof.
  unfold mbind. destruct (m o) as [[a o1]| |]; try discriminate. intro H. eauto.
Qed.

Ltac minv H :=
  let a := fresh "a" in let o1 := fresh "o" in let H1 := fresh "Hm" in
  apply mbind_inv in H; destruct H as (a & o1 & H1 & H).

Tactic Notation "minva" hyp(H) "as" simple_intropattern(a) ident(o1) ident(H1) :=
  apply mbind_inv in H; destruct H as (a & o1 & H1 & H).

(* a primitive step of the panic protocol / a Boolean gate at the head of a run *)
Ltac mprim H :=
  unfold mbind at 1 in H;
  cbn [m_peek m_replace m_mux_panic m_and m_or m_not m_xor o_peek o_replace o_mux_panic o_and o_or o_not o_xor tops tret] in H.

Lemma lift_res_inv {A} (r : res A) (o : pobs) a o' : lift_res r o = Ok (a, o') -> r = Ok a /\ o' = o.
Proof. destruct r; cbn [lift_res]; intro H; inversion H. auto. Qed.

Lemma ret_inv {A} (a b : A) (o o' : pobs) : ret a o = Ok (b, o') -> b = a /\ o' = o.
Proof. intro H. inversion H. auto. Qed.

Lemma stkx_expr x P fT e E : stkx x (lower_expr tops fT P e E).
Proof. apply tsem_sticky_fuel. Qed.

Lemma stkx_block x P fT b E : stkx x (lower_block tops fT P b E).
Proof. apply tsem_sticky_fuel. Qed.

Lemma stkx_stmt x P fT s E : stkx x (lower_stmt tops fT P s E).
Proof. apply tsem_sticky_fuel. Qed.

(* ------------------------------------------------------------------ merging environments *)

Lemma mux_bits_inv c xs ys (o : pobs) r o' :
  mux_bits tops c xs ys o = Ok (r, o') -> r = (if c then xs else ys) /\ o' = o.
Proof.
  unfold mux_bits. destruct (Nat.eqb_spec (length xs) (length ys)) as [Hl|Hl]; cbn [negb]; [|discriminate].
  rewrite tsem_map2_mux by exact Hl. intros [= <- <-]. auto.
Qed.

Lemma mux_scope_inv c : forall a b0 b (o : pobs) r o',
  mux_scope tops c a b0 o = Ok (r, o') -> map fst a = map fst b ->
  (forall k v, In (k, v) b -> assocN k b0 = Some v) ->
  r = (if c then a else b) /\ o' = o.
Proof.
  induction a as [|[k va] a IH]; intros b0 b o r o' H Hk Hb; destruct b as [|[k' vb] b]; try discriminate Hk;
    cbn [mux_scope] in H.
  - apply ret_inv in H. destruct H as [-> ->]. now destruct c.
  - cbn [map fst] in Hk. injection Hk as <- Hk.
    rewrite (Hb k vb (or_introl eq_refl)) in H.
    minv H. apply mux_bits_inv in Hm. destruct Hm as [-> ->].
    minv H. destruct (IH b0 b _ _ _ Hm Hk (fun k0 v0 Hin => Hb k0 v0 (or_intror Hin))) as [-> ->].
    apply ret_inv in H. destruct H as [-> ->]. now destruct c.
Qed.

Lemma mux_scopes_inv c : forall sa sb (o : pobs) r o',
  mux_scopes tops c sa sb o = Ok (r, o') -> map (map fst) sa = map (map fst) sb ->
  Forall keys_distinct sb -> r = (if c then sa else sb) /\ o' = o.
Proof.
  induction sa as [|a sa IH]; intros [|b sb] o r o' H Hk Hd; try discriminate Hk; cbn [mux_scopes] in H.
  - apply ret_inv in H. destruct H as [-> ->]. now destruct c.
  - cbn [map] in Hk. injection Hk as Hk1 Hk2. inversion Hd; subst.
    minv H. apply (mux_scope_inv c a b b) in Hm; [|exact Hk1|now apply assoc_in_distinct].
    destruct Hm as [-> ->]. minv H. destruct (IH sb _ _ _ Hm Hk2 ltac:(assumption)) as [-> ->].
    apply ret_inv in H. destruct H as [-> ->]. now destruct c.
Qed.

Lemma mux_envs_sel c a b (o : pobs) r o' :
  mux_envs tops c a b o = Ok (r, o') -> map (map fst) a = map (map fst) b -> Forall keys_distinct b ->
  r = (if c then a else b) /\ o' = o.
Proof.
  unfold mux_envs. intros H Hk Hd. destruct (negb (length a =? length b)%nat); [discriminate|].
  minv H. apply mux_scopes_inv in Hm.
  - destruct Hm as [-> ->]. apply ret_inv in H. destruct H as [-> ->].
    split; [|reflexivity]. destruct c; apply rev_involutive.
  - rewrite !map_rev. f_equal. exact Hk.
  - now apply Forall_rev.
Qed.

Lemma keys_distinct_keys (E E' : @cenv bool) :
  map (map fst) E' = map (map fst) E -> Forall keys_distinct E -> Forall keys_distinct E'.
Proof.
  revert E'. induction E as [|s E IH]; intros [|s' E'] Hk Hd; try discriminate; constructor;
    cbn [map] in Hk; injection Hk as H1 H2; inversion Hd; subst.
  - unfold keys_distinct in *. now rewrite H1.
  - now apply IH.
Qed.

Lemma one_wire_inv (xw : list bool) (o : pobs) b o' : one_wire xw o = Ok (b, o') -> xw = [b] /\ o' = o.
Proof.
  destruct xw as [|b0 [|? ?]]; cbn [one_wire]; try discriminate. intro H. apply ret_inv in H.
  destruct H as [-> ->]. auto.
Qed.

Section Runs.
  Variable P : program.

  Lemma if_run_inv re rp rb c a b m t E o w E' o' :
    lower_expr_body tops P re rp rb (Ex (EIf c a b) m t) E o = Ok ((w, E'), o') ->
    exists cb E0 o0 tw ET oT fw EF oF oM,
      re c E o = Ok (([cb], E0), o0) /\ re a E0 o0 = Ok ((tw, ET), oT) /\
      re b E0 o0 = Ok ((fw, EF), oF) /\ mux_envs tops cb ET EF o0 = Ok (E', oM) /\
      w = (if cb then tw else fw) /\ o' = (if cb then oT else oF).
  Proof.
    intro H. cbn [lower_expr_body] in H.
    minva H as [cw E0] o0 Hc. mprim H.
    minva H as cb o1 Hw. apply one_wire_inv in Hw. destruct Hw as [-> ->].
    minva H as [tw ET] oT Ha. mprim H.
    minva H as [fw EF] oF Hb. mprim H.
    minva H as Em oM Hmux. mprim H. mprim H.
    minva H as r o3 Hr. apply mux_bits_inv in Hr. destruct Hr as [-> ->].
    apply ret_inv in H. destruct H as [Heq ->]. injection Heq as -> ->.
    do 10 eexists. repeat split; eassumption || reflexivity.
  Qed.

  Lemma logic_run_inv re rp rb (land : bool) x y m t E o w E' o' :
    lower_expr_body tops P re rp rb (Ex (EOp (if land then OLAnd else OLOr) x y) m t) E o = Ok ((w, E'), o') ->
    exists bx E1 o1 by_ E2 o2 oM,
      re x E o = Ok (([bx], E1), o1) /\ re y E1 o1 = Ok (([by_], E2), o2) /\
      (if land then mux_envs tops bx E2 E1 o2 else mux_envs tops bx E1 E2 o2) = Ok (E', oM) /\
      w = [if land then bx && by_ else bx || by_] /\
      o' = (if land then (if bx then oM else o1) else (if bx then o1 else oM)).
  Proof.
    intro H. destruct land; cbn [lower_expr_body] in H;
      minva H as [xw E1] o1 Hx;
      minva H as bx o1' Hw; apply one_wire_inv in Hw; destruct Hw as [-> ->]; mprim H;
      minva H as [yw E2] o2 Hy;
      minva H as by_ o2' Hw; apply one_wire_inv in Hw; destruct Hw as [-> ->];
      minva H as Em oM Hmux; mprim H; mprim H; mprim H; mprim H;
      apply ret_inv in H; destruct H as [Heq ->]; injection Heq as -> ->;
      exists bx, E1, o1, by_, E2, o2, oM; repeat split; assumption || reflexivity.
  Qed.

  Lemma binop_run re rp rb o x y m t E o0 w E' o' :
    op_arith o || op_cmp o || op_eq o = true ->
    (o = OMul -> mul_rewrite x y m t = None) ->
    lower_expr_body tops P re rp rb (Ex (EOp o x y) m t) E o0 = Ok ((w, E'), o') ->
    exists xw E1 o1 yw o2,
      re x E o0 = Ok ((xw, E1), o1) /\ re y E1 o1 = Ok ((yw, E'), o2) /\
      lower_binop tops o t (e_ty x) (e_ty y) xw yw m o2 = Ok (w, o').
  Proof.
    intros Ho Hm H.
    destruct o; try discriminate Ho; cbn [lower_expr_body] in H;
      try rewrite (Hm eq_refl) in H;
      minva H as [xw E1] o1 Hx; minva H as [yw E2] o2 Hy; minva H as r o3 Hb;
      apply ret_inv in H; destruct H as [Heq ->]; injection Heq as -> ->;
      exists xw, E1, o1, yw, o2; auto.
  Qed.

  Lemma shift_run_inv re rp rb (left : bool) x y m t E o0 w E' o' :
    lower_expr_body tops P re rp rb (Ex (EOp (if left then OShl else OShr) x y) m t) E o0 = Ok ((w, E'), o') ->
    exists xw E1 o1 yw o2,
      re x E o0 = Ok ((xw, E1), o1) /\ re y E1 o1 = Ok ((yw, E'), o2) /\
      lower_shift tops left (is_signed (e_ty x)) xw yw m o2 = Ok (w, o').
  Proof.
    intro H. destruct left; cbn [lower_expr_body] in H;
      minva H as [xw E1] o1 Hx; minva H as [yw E2] o2 Hy; minva H as r o3 Hb;
      apply ret_inv in H; destruct H as [Heq ->]; injection Heq as -> ->;
      exists xw, E1, o1, yw, o2; auto.
  Qed.

  Lemma not_run_inv re rp rb e1 m t E o w E' o' :
    lower_expr_body tops P re rp rb (Ex (ENot e1) m t) E o = Ok ((w, E'), o') ->
    exists x, re e1 E o = Ok ((x, E'), o') /\ w = map negb x.
  Proof.
    intro H. cbn [lower_expr_body] in H. minva H as [x E1] o1 He. minva H as r o2 Hn.
    rewrite mapM_not_tops in Hn. injection Hn as <- <-.
    apply ret_inv in H. destruct H as [Heq ->]. injection Heq as -> ->. eauto.
  Qed.

  Lemma stkx_neg_steps {A} p x m (k : list bool -> MB A) : (forall r, stkx p (k r)) -> stkx p (neg_steps x m k).
  Proof. intro Hk. unfold neg_steps. stk. Qed.

  Lemma lower_stmt_S fuel s E :
    lower_stmt tops (S fuel) P s E =
    lower_stmt_body tops P (lower_expr tops fuel P) (lower_pattern tops fuel P) (lower_stmt tops fuel P) s E.
  Proof. reflexivity. Qed.

  Lemma lower_block_S fuel ss E :
    lower_block tops (S fuel) P ss E = lower_block_body (lower_stmt tops fuel P) ss E.
  Proof. reflexivity. Qed.

  Lemma lower_pattern_S fuel p mw E :
    lower_pattern tops (S fuel) P p mw E = lower_pattern_body tops P (lower_pattern tops fuel P) p mw E.
  Proof. reflexivity. Qed.

  Lemma pat_id_run fT x mp tp w E o c E' o' :
    lower_pattern tops fT P (Pat (PId x) mp tp) w E o = Ok ((c, E'), o') -> env_let E x w = Ok E' /\ o' = o.
  Proof.
    destruct fT as [|fT]; [discriminate|]. rewrite lower_pattern_S. cbn [lower_pattern_body]. intro H.
    minva H as E3 o3 Hl. apply lift_res_inv in Hl. destruct Hl as [Hl ->].
    apply ret_inv in H. destruct H as [Heq ->]. now injection Heq as _ ->.
  Qed.

  Lemma sem_exec_letmut f en x e m :
    Sem.exec (S f) P en (St (SLetMut x e) m) =
    Sem.obind (Sem.eval f P en e) (fun '(v, en1) => Sem.Done (Sem.unit_val, Sem.bind_var en1 x v)).
  Proof. reflexivity. Qed.

  Lemma sem_exec_let_id f en x mp tp e m :
    Sem.exec (S f) P en (St (SLet (Pat (PId x) mp tp) e) m) =
    Sem.obind (Sem.eval f P en e) (fun '(v, en1) => Sem.Done (Sem.unit_val, Sem.bind_var en1 x v)).
  Proof. reflexivity. Qed.

  Lemma sem_exec_assign0 f en x e m :
    Sem.exec (S f) P en (St (SAssign x [] e) m) =
    Sem.obind (Sem.eval f P en e) (fun '(nv, en0) =>
      match Sem.lookup_var en0 x with
      | None => Sem.Stuck 61
      | Some cur =>
          match Sem.lookup_var en0 x with
          | Some cur2 =>
              match Sem.assign_var en0 x nv with
              | Some en3 => Sem.Done (Sem.unit_val, en3)
              | None => Sem.Stuck 70
              end
          | None => Sem.Stuck 72
          end
      end).
  Proof. reflexivity. Qed.

  Lemma sem_eval_block f en b m t :
    Sem.eval (S f) P en (Ex (EBlock b) m t) =
    Sem.obind (Sem.exec_block f P (Sem.push_scope en) b) (fun '(v, en1) => Sem.Done (v, Sem.pop_scope en1)).
  Proof. reflexivity. Qed.

  (* the loop of [Sem.exec_block] *)
  Fixpoint exec_stmts (f : nat) (ss : list stmt) (last : Sem.value) (en : Sem.env)
    : Sem.outcome (Sem.value * Sem.env) :=
    match ss with
    | [] => Sem.Done (last, en)
    | s :: r => Sem.obind (Sem.exec f P en s) (fun '(v, en1) => exec_stmts f r v en1)
    end.

  Lemma exec_block_stmts f en b : Sem.exec_block (S f) P en b = exec_stmts f b Sem.unit_val en.
  Proof.
    cbn [Sem.exec_block]. generalize Sem.unit_val. revert en.
    induction b as [|s r IH]; intros en last; [reflexivity|].
    cbn [exec_stmts]. destruct (Sem.exec f P en s) as [[v en1]|r1 m1|c1|]; cbn [Sem.obind]; try reflexivity.
    apply IH.
  Qed.
End Runs.

(* [ctx_ok R]: what the relation says of the context alone *)

Record node_rel (VR : ty -> Sem.value -> list bool -> Prop) : Type := {
  State : Type;
  inner : State -> State;
  rel : State -> Sem.env -> @cenv bool -> tenv -> Prop;
  ctx_ok : tenv -> Prop;
  nr_ctx : forall s en E g, rel s en E g -> ctx_ok g;
  nr_kd : forall s en E g, rel s en E g -> Forall keys_distinct E;
  nr_scopes : forall s en en' E g, Sem.scopes en' = Sem.scopes en -> rel s en E g -> rel s en' E g;
  nr_lookup : forall s en E g x t mu, rel s en E g -> tlookup g x = Some (t, mu) ->
    exists v w, Sem.lookup_var en x = Some v /\ env_get E x = Some w /\ VR t v w;
  nr_push : forall s en E g, rel s en E g -> rel (inner s) (Sem.push_scope en) (env_push E) ([] :: g);
  nr_pop : forall s en E g E2, rel (inner s) en E g -> env_pop E = Ok E2 -> ctx_ok (tl g) ->
    rel s (Sem.pop_scope en) E2 (tl g);
  nr_let : forall s en E g x t mu v w E', rel (inner s) en E g -> VR t v w -> env_let E x w = Ok E' ->
    rel (inner s) (Sem.bind_var en x v) E' (tbind g x t mu)
}.
Arguments State {VR} n.
Arguments inner {VR} n _.
Arguments rel {VR} n _ _ _ _.
Arguments ctx_ok {VR} n _.
Arguments nr_ctx {VR} n.
Arguments nr_kd {VR} n.
Arguments nr_scopes {VR} n.
Arguments nr_lookup {VR} n.
Arguments nr_push {VR} n.
Arguments nr_pop {VR} n.
Arguments nr_let {VR} n.

Section Nodes.
  Variable P : program.
  Variable VR : ty -> Sem.value -> list bool -> Prop.
  Hypothesis VR_bool : forall v w, VR TBool v w -> exists b, v = Sem.VBool b /\ w = [b].
  Hypothesis VR_unit : VR unit_ty Sem.unit_val [].

  Variable R : node_rel VR.

  (* Partial correctness: the fuel of Sem.v and the fuel [fT] of the bit-level run are unrelated and
     arbitrary, the bit-level run is assumed to return Ok, and nothing is claimed where Sem.v is stuck or out
     of fuel.  The run starts from no recorded panic ([None]); that is enough, because once Sem.v has
     panicked on a sub-term the bit-level run continues from [Some x] and stickiness ([stkx_expr],
     [stkx_stmt], [stkx_block]) gives its final state without any hypothesis on what follows.  At a
     conditional the bit level runs BOTH branches from the saved panic state and keeps the taken one: only
     the hypothesis of the taken branch is used. *)
  Definition AgEG (fuel : nat) (g : tenv) (e : expr) : Prop :=
    forall s en E fT w E' o',
    rel R s en E g -> lower_expr tops fT P e E None = Ok ((w, E'), o') ->
    match Sem.eval fuel P en e with
    | Sem.Done (v, en') => o' = None /\ VR (e_ty e) v w /\ rel R s en' E' g
    | Sem.Panicked r m => o' = Some (preason_num (pr r), ploc32 (ploc_of m))
    | _ => True
    end.

  (* a statement, run in a scope that was opened: [g'] the context after it, [t] its type *)
  Definition AgSG (fuel : nat) (g g' : tenv) (t : ty) (st : stmt) : Prop :=
    forall s en E fT w E' o',
    rel R (inner R s) en E g -> lower_stmt tops fT P st E None = Ok ((w, E'), o') ->
    match Sem.exec fuel P en st with
    | Sem.Done (v, en') => o' = None /\ VR t v w /\ rel R (inner R s) en' E' g'
    | Sem.Panicked r m => o' = Some (preason_num (pr r), ploc32 (ploc_of m))
    | _ => True
    end.

  (* the body of a block (its own scope pushed and popped) *)
  Definition AgBG (fuel : nat) (g : tenv) (b : list stmt) (t : ty) : Prop :=
    forall s en E fT w E' o',
    rel R s en E g -> lower_block tops fT P b E None = Ok ((w, E'), o') ->
    match Sem.obind (Sem.exec_block fuel P (Sem.push_scope en) b)
                    (fun '(v, en1) => Sem.Done (v, Sem.pop_scope en1)) with
    | Sem.Done (v, en') => o' = None /\ VR t v w /\ rel R s en' E' g
    | Sem.Panicked r m => o' = Some (preason_num (pr r), ploc32 (ploc_of m))
    | _ => True
    end.

  (* ---------------------------------------------------------------- if / else *)

  Lemma if_node f g c a b m t :
    AgEG f g c -> AgEG f g a -> AgEG f g b ->
    (forall fT E o w E' o', lower_expr tops fT P a E o = Ok ((w, E'), o') -> map (map fst) E' = map (map fst) E) ->
    (forall fT E o w E' o', lower_expr tops fT P b E o = Ok ((w, E'), o') -> map (map fst) E' = map (map fst) E) ->
    e_ty c = TBool -> e_ty a = t -> e_ty b = t ->
    AgEG (S f) g (Ex (EIf c a b) m t).
  Proof.
    intros IHc IHa IHb Ka Kb Etc Eta Etb s en E fT w E' o' Hrel Hrun.
    destruct fT as [|fT]; [discriminate Hrun|]. rewrite lower_expr_S in Hrun.
    apply if_run_inv in Hrun.
    destruct Hrun as (cb & E0 & o0 & tw & ET & oT & fw & EF & oF & oM & Hc & Ha & Hb & Hmux & -> & ->).
    rewrite sem_eval_if. pose proof (IHc s en E fT _ _ _ Hrel Hc) as IH1. revert IH1.
    destruct (Sem.eval f P en c) as [[vc en1]|r1 m1|c1|]; intro IH1; cbn [Sem.obind]; try exact I.
    - destruct IH1 as (-> & HV & Hrel1). rewrite Etc in HV. destruct (VR_bool _ _ HV) as (cb' & -> & [= <-]).
      pose proof (Ka _ _ _ _ _ _ Ha) as Hka. pose proof (Kb _ _ _ _ _ _ Hb) as Hkb.
      apply mux_envs_sel in Hmux; [|congruence|exact (keys_distinct_keys _ _ Hkb (nr_kd R _ _ _ _ Hrel1))].
      destruct Hmux as [-> _].
      destruct cb.
      + pose proof (IHa s en1 E0 fT _ _ _ Hrel1 Ha) as IH2. revert IH2.
        destruct (Sem.eval f P en1 a) as [[va en2]|r2 m2|c2|]; intro IH2; try exact I; [|exact IH2].
        cbn [e_ty]. rewrite Eta in IH2. exact IH2.
      + pose proof (IHb s en1 E0 fT _ _ _ Hrel1 Hb) as IH2. revert IH2.
        destruct (Sem.eval f P en1 b) as [[vb en2]|r2 m2|c2|]; intro IH2; try exact I; [|exact IH2].
        cbn [e_ty]. rewrite Etb in IH2. exact IH2.
    - subst o0. rewrite (stkx_expr _ _ _ _ _ _ _ Ha), (stkx_expr _ _ _ _ _ _ _ Hb). now destruct cb.
  Qed.

  (* ---------------------------------------------------------------- && and || *)

  Lemma logic_node f g (land : bool) x y m :
    AgEG f g x -> AgEG f g y ->
    (forall fT E o w E' o', lower_expr tops fT P y E o = Ok ((w, E'), o') -> map (map fst) E' = map (map fst) E) ->
    e_ty x = TBool -> e_ty y = TBool ->
    AgEG (S f) g (Ex (EOp (if land then OLAnd else OLOr) x y) m TBool).
  Proof.
    intros IHx IHy Ky Etx Ety s en E fT w E' o' Hrel Hrun.
    destruct fT as [|fT]; [discriminate Hrun|]. rewrite lower_expr_S in Hrun.
    apply logic_run_inv in Hrun.
    destruct Hrun as (bx & E1 & o1 & by_ & E2 & o2 & oM & Hx & Hy & Hmux & -> & ->).
    assert (Sem.eval (S f) P en (Ex (EOp (if land then OLAnd else OLOr) x y) m TBool) =
            Sem.obind (Sem.eval f P en x) (fun '(vx, en1) =>
              match vx with
              | Sem.VBool bx =>
                  if Bool.eqb bx land then Sem.eval f P en1 y else Sem.Done (Sem.VBool bx, en1)
              | _ => Sem.Stuck (if land then 44 else 45)
              end)) as ->.
    { destruct land; [rewrite sem_eval_land|rewrite sem_eval_lor];
        destruct (Sem.eval f P en x) as [[[[]| | | |] ?]| | |]; reflexivity. }
    pose proof (IHx s en E fT _ _ _ Hrel Hx) as IH1. revert IH1.
    destruct (Sem.eval f P en x) as [[vx en1]|r1 m1|c1|]; intro IH1; cbn [Sem.obind]; try exact I.
    - destruct IH1 as (-> & HV & Hrel1). rewrite Etx in HV.
      destruct (VR_bool _ _ HV) as (b' & -> & [= <-]).
      pose proof (Ky _ _ _ _ _ _ Hy) as Hk. pose proof (nr_kd R _ _ _ _ Hrel1) as Hd1.
      assert (E' = (if Bool.eqb bx land then E2 else E1) /\ oM = o2) as [-> ->].
      { destruct land.
        - apply mux_envs_sel in Hmux; [|exact Hk|exact Hd1]. destruct Hmux as [-> ->]. now destruct bx.
        - apply mux_envs_sel in Hmux; [|now symmetry|exact (keys_distinct_keys _ _ Hk Hd1)].
          destruct Hmux as [-> ->]. now destruct bx. }
      destruct (Bool.eqb bx land) eqn:Hbl.
      + apply Bool.eqb_prop in Hbl. subst bx.
        pose proof (IHy s en1 E1 fT _ _ _ Hrel1 Hy) as IH2. revert IH2.
        destruct (Sem.eval f P en1 y) as [[vy en2]|r2 m2|c2|]; intro IH2; try exact I.
        * destruct IH2 as (-> & HVy & Hrel2). rewrite Ety in HVy.
          destruct (VR_bool _ _ HVy) as (b' & -> & [= <-]). cbn [e_ty].
          destruct land; cbn [andb orb]; auto.
        * subst o2. now destruct land.
      + cbn [e_ty]. destruct land, bx; try discriminate Hbl; cbn [andb orb]; auto.
    - subst o1. pose proof (stkx_expr _ _ _ _ _ _ _ Hy) as ->.
      assert (oM = Some (preason_num (pr r1), ploc32 (ploc_of m1))) as ->.
      { destruct land; eapply stkx_mux_envs; exact Hmux. }
      now destruct land, bx.
  Qed.

  (* ---------------------------------------------------------------- statements *)

  Lemma sexpr_node f g e m : AgEG f g e -> AgSG (S f) g g (e_ty e) (St (SExpr e) m).
  Proof.
    intros IH s en E fT w E' o' Hrel Hrun. destruct fT as [|fT]; [discriminate Hrun|].
    rewrite lower_stmt_S in Hrun. cbn [lower_stmt_body] in Hrun.
    change (Sem.exec (S f) P en (St (SExpr e) m)) with (Sem.eval f P en e).
    exact (IH (inner R s) en E fT _ _ _ Hrel Hrun).
  Qed.

  Lemma letmut_node f g x e m :
    AgEG f g e -> AgSG (S f) g (tbind g x (e_ty e) true) unit_ty (St (SLetMut x e) m).
  Proof.
    intros IH s en E fT w E' o' Hrel Hrun. destruct fT as [|fT]; [discriminate Hrun|].
    rewrite lower_stmt_S in Hrun. cbn [lower_stmt_body] in Hrun.
    minva Hrun as [w1 E1] o1 He. minva Hrun as E2 o2 Hl. apply lift_res_inv in Hl. destruct Hl as [Hl ->].
    apply ret_inv in Hrun. destruct Hrun as [Heq ->]. injection Heq as -> ->.
    rewrite sem_exec_letmut. pose proof (IH (inner R s) en E fT _ _ _ Hrel He) as IH1. revert IH1.
    destruct (Sem.eval f P en e) as [[v en1]|r1 m1|c1|]; intro IH1; cbn [Sem.obind]; try exact I; [|exact IH1].
    destruct IH1 as (-> & HV & Hrel1). split; [reflexivity|]. split; [exact VR_unit|].
    eapply nr_let; eassumption.
  Qed.

  Lemma let_node f g x mp e m :
    AgEG f g e -> AgSG (S f) g (tbind g x (e_ty e) false) unit_ty (St (SLet (Pat (PId x) mp (e_ty e)) e) m).
  Proof.
    intros IH s en E fT w E' o' Hrel Hrun. destruct fT as [|fT]; [discriminate Hrun|].
    rewrite lower_stmt_S in Hrun. cbn [lower_stmt_body] in Hrun.
    minva Hrun as [w1 E1] o1 He. minva Hrun as [c2 E2] o2 Hp.
    apply ret_inv in Hrun. destruct Hrun as [Heq ->]. injection Heq as -> ->.
    apply pat_id_run in Hp. destruct Hp as [Hl ->].
    rewrite sem_exec_let_id. pose proof (IH (inner R s) en E fT _ _ _ Hrel He) as IH1. revert IH1.
    destruct (Sem.eval f P en e) as [[v en1]|r1 m1|c1|]; intro IH1; cbn [Sem.obind]; try exact I; [|exact IH1].
    destruct IH1 as (-> & HV & Hrel1). split; [reflexivity|]. split; [exact VR_unit|].
    eapply nr_let; eassumption.
  Qed.

  (* [x] can be assigned values of type [t] in the context [g] (the relations differ in which
     variables that is: any, or the mutable ones) *)
  Definition assignable (g : tenv) (x : N) (t : ty) : Prop :=
    forall s en E v w E', rel R s en E g -> VR t v w -> env_assign E x w = Ok E' ->
    exists en', Sem.assign_var en x v = Some en' /\ rel R s en' E' g.

  Lemma assign_node f g x e m mu :
    AgEG f g e -> tlookup g x = Some (e_ty e, mu) -> assignable g x (e_ty e) ->
    AgSG (S f) g g unit_ty (St (SAssign x [] e) m).
  Proof.
    intros IH Hlk Hasg s en E fT w E' o' Hrel Hrun. destruct fT as [|fT]; [discriminate Hrun|].
    rewrite lower_stmt_S in Hrun. cbn [lower_stmt_body assign_indexes assign_forward assign_backward] in Hrun.
    minva Hrun as [w1 E1] o1 He.
    minva Hrun as [idxs E2] o2 H2. apply ret_inv in H2. destruct H2 as [Heq ->]. injection Heq as -> ->.
    minva Hrun as coll o3 H3.
    minva Hrun as acc o4 H4. apply ret_inv in H4. destruct H4 as [-> ->].
    minva Hrun as v' o5 H5. apply ret_inv in H5. destruct H5 as [-> ->].
    minva Hrun as E3 o6 H6. apply lift_res_inv in H6. destruct H6 as [Ha ->].
    apply ret_inv in Hrun. destruct Hrun as [Heq ->]. injection Heq as -> ->.
    rewrite sem_exec_assign0. pose proof (IH (inner R s) en E fT _ _ _ Hrel He) as IH1. revert IH1.
    destruct (Sem.eval f P en e) as [[v en1]|r1 m1|c1|]; intro IH1; cbn [Sem.obind]; try exact I.
    - destruct IH1 as (-> & HV & Hrel1).
      destruct (nr_lookup R _ _ _ _ _ _ _ Hrel1 Hlk) as (v0 & w0 & Hv0 & Hw0 & _). rewrite Hv0.
      rewrite Hw0 in H3. apply ret_inv in H3. destruct H3 as [_ ->].
      destruct (Hasg _ _ _ _ _ _ Hrel1 HV Ha) as (en3 & -> & Hrel3).
      split; [reflexivity|]. split; [exact VR_unit|exact Hrel3].
    - subst o1. destruct (env_get E1 x); [|discriminate H3]. apply ret_inv in H3. now destruct H3 as [_ ->].
  Qed.

  (* ---------------------------------------------------------------- statement lists, blocks *)

  (* every statement of the list agrees, the contexts are threaded: context before, the
     statements, type of the value so far, context after, type of the value *)
  Inductive AgSSG (f : nat) : tenv -> list stmt -> ty -> tenv -> ty -> Prop :=
  | AgSSG_nil g t : AgSSG f g [] t g t
  | AgSSG_cons g s r g1 t1 t0 g' t :
      AgSG f g g1 t1 s -> AgSSG f g1 r t1 g' t -> AgSSG f g (s :: r) t0 g' t.

  Lemma stmts_node f g ss t0 g' t : AgSSG f g ss t0 g' t ->
    forall s en E fT last lw w E' o',
    rel R (inner R s) en E g -> VR t0 last lw ->
    block_stmts (lower_stmt tops fT P) ss lw E None = Ok ((w, E'), o') ->
    match exec_stmts P f ss last en with
    | Sem.Done (v, en') => o' = None /\ VR t v w /\ rel R (inner R s) en' E' g'
    | Sem.Panicked r m => o' = Some (preason_num (pr r), ploc32 (ploc_of m))
    | _ => True
    end.
  Proof.
    induction 1 as [g t|g st r g1 t1 t0 g' t Hs _ IH]; intros s en E fT last lw w E' o' Hrel HV Hrun.
    - cbn [block_stmts] in Hrun. apply ret_inv in Hrun. destruct Hrun as [Heq ->]. injection Heq as -> ->.
      cbn [exec_stmts]. auto.
    - cbn [block_stmts] in Hrun. minva Hrun as [w1 E1] o1 H1. cbn [exec_stmts].
      pose proof (Hs s en E fT _ _ _ Hrel H1) as IH1. revert IH1.
      destruct (Sem.exec f P en st) as [[v en1]|r1 m1|c1|]; intro IH1; cbn [Sem.obind]; try exact I.
      + destruct IH1 as (-> & HV1 & Hrel1). exact (IH s en1 E1 fT v w1 _ _ _ Hrel1 HV1 Hrun).
      + subst o1. exact (stkx_block_stmts _ _ (stkx_stmt _ P fT) r w1 E1 _ _ Hrun).
  Qed.

  Lemma block_run_agrees f g ss g1 t : AgSSG f ([] :: g) ss unit_ty g1 t -> tl g1 = g -> AgBG (S f) g ss t.
  Proof.
    intros Hss Htl s en E fT w E' o' Hrel Hrun.
    destruct fT as [|fT]; [discriminate Hrun|]. rewrite lower_block_S in Hrun. unfold lower_block_body in Hrun.
    minva Hrun as [w1 E1] o1 H1. minva Hrun as E2 o2 H2. apply lift_res_inv in H2. destruct H2 as [Hp ->].
    apply ret_inv in Hrun. destruct Hrun as [Heq ->]. injection Heq as -> ->.
    rewrite exec_block_stmts.
    pose proof (stmts_node f _ _ _ _ _ Hss s (Sem.push_scope en) (env_push E) fT Sem.unit_val [] _ _ _
                  (nr_push R _ _ _ _ Hrel) VR_unit H1) as IH1. revert IH1.
    destruct (exec_stmts P f ss Sem.unit_val (Sem.push_scope en)) as [[v en1]|r1 m1|c1|]; intro IH1;
      cbn [Sem.obind]; try exact I; [|exact IH1].
    destruct IH1 as (-> & HV & Hrel1). split; [reflexivity|]. split; [exact HV|].
    rewrite <- Htl. eapply nr_pop; [eassumption|eassumption|]. rewrite Htl. exact (nr_ctx R _ _ _ _ Hrel).
  Qed.

  Lemma eblock_node f g ss m t : AgBG f g ss t -> AgEG (S f) g (Ex (EBlock ss) m t).
  Proof.
    intros Hb s en E fT w E' o' Hrel Hrun. rewrite sem_eval_block.
    destruct fT as [|fT]; [discriminate Hrun|]. rewrite lower_expr_S in Hrun. cbn [lower_expr_body] in Hrun.
    cbn [e_ty]. exact (Hb s en E fT _ _ _ Hrel Hrun).
  Qed.

  Lemma block_node f g ss m t g1 : AgSSG f ([] :: g) ss unit_ty g1 t -> tl g1 = g ->
    AgEG (S (S f)) g (Ex (EBlock ss) m t).
  Proof. intros Hss Htl. apply eblock_node. exact (block_run_agrees f g ss g1 t Hss Htl). Qed.
End Nodes.

Section ScalarNodes.
  Variable P : program.
  Variable VR : ty -> Sem.value -> list bool -> Prop.
  Hypothesis VR_sc_elim : forall t v w, scalar_ty t = true -> VR t v w -> val_ok t v /\ w = enc_val t v.
  Hypothesis VR_sc_intro : forall t v, scalar_ty t = true -> val_ok t v -> VR t v (enc_val t v).

  Variable R : node_rel VR.

  Notation AgE' := (AgEG P VR R).

  Lemma lit_bool_node f g (b : bool) m : AgE' f g (Ex (if b then ETrue else EFalse) m TBool).
  Proof.
    intros s en E fT w E' o' Hrel Hrun. destruct fT as [|fT]; [discriminate Hrun|].
    destruct f; [exact I|].
    destruct b; apply ret_inv in Hrun; destruct Hrun as [Heq ->]; injection Heq as -> ->;
      cbn [Sem.eval e_ty]; repeat split; try exact Hrel;
      [exact (VR_sc_intro TBool (Sem.VBool true) eq_refl I)|exact (VR_sc_intro TBool (Sem.VBool false) eq_refl I)].
  Qed.

  Lemma lit_numU_node f g n lb m sg b : ok_width b = true -> lit_fits (TInt sg b) (Z.of_N n) = true ->
    AgE' f g (Ex (ENumU n lb) m (TInt sg b)).
  Proof.
    intros Hb Hl s en E fT w E' o' Hrel Hrun. destruct fT as [|fT]; [discriminate Hrun|].
    apply ret_inv in Hrun. destruct Hrun as [Heq ->]. injection Heq as -> ->.
    destruct f; [exact I|]. cbn [Sem.eval e_ty]. repeat split; [|exact Hrel].
    rewrite tsem_unsigned_as_wires. apply (VR_sc_intro (TInt sg b) (Sem.VInt (Z.of_N n))); [exact Hb|].
    cbn [val_ok]. now rewrite <- lit_fits_in_range.
  Qed.

  Lemma lit_numS_node f g z lb m sg b : ok_width b = true -> lit_fits (TInt sg b) z = true ->
    AgE' f g (Ex (ENumS z lb) m (TInt sg b)).
  Proof.
    intros Hb Hl s en E fT w E' o' Hrel Hrun. destruct fT as [|fT]; [discriminate Hrun|].
    apply ret_inv in Hrun. destruct Hrun as [Heq ->]. injection Heq as -> ->.
    destruct f; [exact I|]. cbn [Sem.eval e_ty]. repeat split; [|exact Hrel].
    rewrite tsem_signed_as_wires. apply (VR_sc_intro (TInt sg b) (Sem.VInt z)); [exact Hb|].
    cbn [val_ok]. now rewrite <- lit_fits_in_range.
  Qed.

  Lemma id_node f g x m t mu : tlookup g x = Some (t, mu) -> AgE' f g (Ex (EId x) m t).
  Proof.
    intros Hl s en E fT w E' o' Hrel Hrun. destruct fT as [|fT]; [discriminate Hrun|].
    rewrite lower_expr_S in Hrun. cbn [lower_expr_body] in Hrun.
    destruct (nr_lookup R _ _ _ _ _ _ _ Hrel Hl) as (v & w0 & Hv & Hw & HV). rewrite Hw in Hrun.
    apply ret_inv in Hrun. destruct Hrun as [Heq ->]. injection Heq as -> ->.
    destruct f; [exact I|]. cbn [Sem.eval e_ty]. rewrite Hv. auto.
  Qed.

  (* a product is meant as a multiplication: [mul_rewrite] does not fire *)

  Lemma binop_node f g o x y m t tx :
    op_arith o || op_cmp o || op_eq o = true ->
    (o = OMul -> mul_rewrite x y m t = None) ->
    e_ty x = tx -> e_ty y = tx -> scalar_ty tx = true -> scalar_ty t = true ->
    (forall vx vy len, val_ok tx vx -> val_ok tx vy -> binop_agrees o m t tx vx vy len) ->
    AgE' f g x -> AgE' f g y -> AgE' (S f) g (Ex (EOp o x y) m t).
  Proof.
    intros Ho Hm Etx Ety Hsx Hst Hag IHx IHy s en E fT w E' o' Hrel Hrun.
    destruct fT as [|fT]; [discriminate Hrun|]. rewrite lower_expr_S in Hrun.
    apply binop_run in Hrun; [|exact Ho|exact Hm].
    destruct Hrun as (xw & E1 & o1 & yw & o2 & Hx & Hy & Hb).
    rewrite (sem_eval_op P f en o x y m t Ho).
    pose proof (IHx s en E fT _ _ _ Hrel Hx) as IH1. revert IH1.
    destruct (Sem.eval f P en x) as [[vx en1]|r1 m1|c1|]; intro IH1; cbn [Sem.obind]; try exact I.
    - destruct IH1 as (-> & HVx & Hrel1). rewrite Etx in HVx.
      destruct (VR_sc_elim _ _ _ Hsx HVx) as [Hokx ->].
      pose proof (IHy s en1 E1 fT _ _ _ Hrel1 Hy) as IH2. revert IH2.
      destruct (Sem.eval f P en1 y) as [[vy en2]|r2 m2|c2|]; intro IH2; cbn [Sem.obind]; try exact I.
      + destruct IH2 as (-> & HVy & Hrel2). rewrite Ety in HVy.
        destruct (VR_sc_elim _ _ _ Hsx HVy) as [Hoky ->].
        pose proof (Hag vx vy (Sem.lenient en2) Hokx Hoky) as HA. unfold binop_agrees in HA.
        rewrite Etx, Ety in Hb. rewrite Etx. revert HA.
        destruct (Sem.eval_binop o m t tx vx vy (Sem.lenient en2)) as [[v len]|r3 m3|c3|];
          intro HA; cbn [Sem.obind]; try contradiction.
        * destruct HA as [Hokv HB]. rewrite HB in Hb. injection Hb as <- <-. cbn [e_ty].
          split; [reflexivity|]. split; [now apply VR_sc_intro|]. eapply nr_scopes; [|exact Hrel2]. reflexivity.
        * destruct HA as [-> [w' HB]]. rewrite HB in Hb. now injection Hb as _ <-.
      + subst o2. exact (stkx_lower_binop _ _ _ _ _ _ _ _ _ _ Hb).
    - subst o1. pose proof (stkx_expr _ _ _ _ _ _ _ Hy) as ->.
      exact (stkx_lower_binop _ _ _ _ _ _ _ _ _ _ Hb).
  Qed.

  (* ---------------------------------------------------------------- << >> *)

  Lemma shift_node f g (left : bool) x y m sg b :
    ok_width b = true -> e_ty x = TInt sg b -> e_ty y = TInt false 8 ->
    AgE' f g x -> AgE' f g y -> AgE' (S f) g (Ex (EOp (if left then OShl else OShr) x y) m (TInt sg b)).
  Proof.
    intros Hb Etx Ety IHx IHy s en E fT w E' o' Hrel Hrun.
    destruct fT as [|fT]; [discriminate Hrun|]. rewrite lower_expr_S in Hrun.
    apply shift_run_inv in Hrun. destruct Hrun as (xw & E1 & o1 & yw & o2 & Hx & Hy & Hs).
    rewrite (sem_eval_shift P f en (if left then OShl else OShr) x y m (TInt sg b) ltac:(now destruct left)).
    pose proof (IHx s en E fT _ _ _ Hrel Hx) as IH1. revert IH1.
    destruct (Sem.eval f P en x) as [[vx en1]|r1 m1|c1|]; intro IH1; cbn [Sem.obind]; try exact I.
    - destruct IH1 as (-> & HVx & Hrel1). rewrite Etx in HVx.
      destruct (VR_sc_elim (TInt sg b) _ _ Hb HVx) as [Hokx ->].
      pose proof (IHy s en1 E1 fT _ _ _ Hrel1 Hy) as IH2. revert IH2.
      destruct (Sem.eval f P en1 y) as [[vy en2]|r2 m2|c2|]; intro IH2; cbn [Sem.obind]; try exact I.
      + destruct IH2 as (-> & HVy & Hrel2). rewrite Ety in HVy.
        destruct (VR_sc_elim (TInt false 8) _ _ eq_refl HVy) as [Hoky ->].
        destruct vx as [|a| | |]; try contradiction. destruct vy as [|sh| | |]; try contradiction.
        cbn [val_ok enc_val] in *. change (N.to_nat 8) with 8%nat in Hs.
        rewrite Etx, is_signed_int in Hs.
        rewrite (tsem_lower_shift left sg _ _ m None (length_enc 8 sh)
                   (eq_ind_r (fun k => In k [8; 16; 32; 64]%nat) (ok_width_in b Hb) (length_enc (N.to_nat b) a))) in Hs.
        pose proof (shift_agrees left m sg b a sh (Sem.lenient en2) Hb Hokx Hoky) as HA. cbv zeta in HA.
        rewrite Etx. revert HA.
        destruct (Sem.eval_binop (if left then OShl else OShr) m (TInt sg b) (TInt sg b) (Sem.VInt a) (Sem.VInt sh)
                    (Sem.lenient en2)) as [[v len]|r3 m3|c3|]; intro HA; cbn [Sem.obind]; try contradiction.
        * destruct HA as (Hokv & Hval & Hcond). rewrite Hval, Hcond in Hs. injection Hs as <- <-. cbn [e_ty].
          split; [reflexivity|]. split; [now apply VR_sc_intro|]. eapply nr_scopes; [|exact Hrel2]. reflexivity.
        * destruct HA as (-> & -> & Hcond). rewrite Hcond in Hs. now injection Hs as _ <-.
      + subst o2. exact (stkx_lower_shift _ _ _ _ _ _ _ _ Hs).
    - subst o1. pose proof (stkx_expr _ _ _ _ _ _ _ Hy) as ->.
      exact (stkx_lower_shift _ _ _ _ _ _ _ _ Hs).
  Qed.

  (* ---------------------------------------------------------------- unary minus, `!`, casts *)

  Lemma neg_node f g e1 m b : ok_width b = true -> e_ty e1 = TInt true b ->
    AgE' f g e1 -> AgE' (S f) g (Ex (ENeg e1) m (TInt true b)).
  Proof.
    intros Hb Et1 IH s en E fT w E' o' Hrel Hrun.
    destruct fT as [|fT]; [discriminate Hrun|]. rewrite lower_expr_S, lower_neg_case in Hrun.
    minva Hrun as [x E1] o1 He. cbv beta iota in Hrun.
    rewrite (sem_eval_neg P). pose proof (ok_width_pos b Hb) as Hb2.
    pose proof (IH s en E fT _ _ _ Hrel He) as IH1. revert IH1.
    destruct (Sem.eval f P en e1) as [[v en1]|r1 m1|c1|]; intro IH1; cbn [Sem.obind]; try exact I.
    - destruct IH1 as (-> & HV & Hrel1). rewrite Et1 in HV.
      destruct (VR_sc_elim (TInt true b) _ _ Hb HV) as [Hok ->].
      destruct v as [|z| | |]; try contradiction. cbn [val_ok enc_val Sem.int_ty] in *.
      rewrite neg_steps_correct in Hrun by (apply enc_nonempty; lia).
      rewrite length_enc, N2Nat.id, (sval_enc_ok b z) in Hrun by (assumption || lia).
      apply ret_inv in Hrun. destruct Hrun as [Heq ->]. injection Heq as -> ->.
      unfold Sem.checked. destruct (Sem.in_range true b (- z)) eqn:Hr; cbn [Sem.obind negb push_spec e_ty].
      + split; [reflexivity|]. split; [|exact Hrel1]. now apply (VR_sc_intro (TInt true b) (Sem.VInt (- z))).
      + reflexivity.
    - subst o1. refine (stkx_neg_steps _ x m _ _ _ _ Hrun). intro r. apply stkx_ret.
  Qed.

  Lemma not_node f g e1 m t : scalar_ty t = true -> e_ty e1 = t ->
    AgE' f g e1 -> AgE' (S f) g (Ex (ENot e1) m t).
  Proof.
    intros Hsc Et1 IH s en E fT w E' o' Hrel Hrun.
    destruct fT as [|fT]; [discriminate Hrun|]. rewrite lower_expr_S in Hrun.
    apply not_run_inv in Hrun. destruct Hrun as (x & He & ->).
    rewrite (sem_eval_not P). pose proof (IH s en E fT _ _ _ Hrel He) as IH1. revert IH1.
    destruct (Sem.eval f P en e1) as [[v en1]|r1 m1|c1|]; intro IH1; cbn [Sem.obind]; try exact I; [|exact IH1].
    destruct IH1 as (-> & HV & Hrel1). rewrite Et1 in HV. destruct (VR_sc_elim _ _ _ Hsc HV) as [Hok ->].
    destruct t as [|sg b| | | |]; try discriminate Hsc; destruct v as [p|z| | |]; try contradiction;
      cbn [e_ty val_ok enc_val map] in *.
    - split; [reflexivity|]. split; [|exact Hrel1]. now apply (VR_sc_intro TBool (Sem.VBool (negb p))).
    - pose proof (ok_width_pos b Hsc) as Hb2. split; [reflexivity|]. split; [|exact Hrel1].
      rewrite map_negb_enc, <- (enc_wrap sg b).
      apply (VR_sc_intro (TInt sg b) (Sem.VInt (Sem.wrap sg b (Z.lnot z)))); [exact Hsc|].
      apply wrap_in_range. lia.
  Qed.

  Lemma cast_node f g e1 m t : scalar_ty t = true -> scalar_ty (e_ty e1) = true ->
    AgE' f g e1 -> AgE' (S f) g (Ex (ECast t e1) m t).
  Proof.
    intros Hsc Hsc1 IH s en E fT w E' o' Hrel Hrun.
    destruct fT as [|fT]; [discriminate Hrun|]. rewrite lower_expr_S in Hrun.
    pose proof Hrun as H0. cbn [lower_expr_body] in H0. minva H0 as [x E1] o1 He. clear H0.
    destruct (tsem_cast_correct P _ (lower_pattern tops fT P) (lower_block tops fT P) t e1 m t E None x E1 o1 He)
      as (r & HR & _).
    rewrite (sem_eval_cast P). pose proof (IH s en E fT _ _ _ Hrel He) as IH1. revert IH1.
    destruct (Sem.eval f P en e1) as [[v en1]|r1 m1|c1|]; intro IH1; cbn [Sem.obind]; try exact I.
    - destruct IH1 as (-> & HV & Hrel1). destruct (VR_sc_elim _ _ _ Hsc1 HV) as [Hok ->].
      pose proof (cast_agrees P _ (lower_pattern tops fT P) (lower_block tops fT P) t e1 m E None v E1 None
                    Hsc Hsc1 Hok He) as HC. revert HC.
      destruct (Sem.eval_cast t (e_ty e1) v) as [v'| | |]; intro HC; try contradiction; cbn [Sem.obind].
      destruct HC as [Hokv HB]. rewrite HB in Hrun. injection Hrun as <- <- <-. cbn [e_ty].
      split; [reflexivity|]. split; [now apply VR_sc_intro|exact Hrel1].
    - subst o1. rewrite HR in Hrun. now injection Hrun as _ _ <-.
  Qed.
End ScalarNodes.
