(* WITHOUT CALLS: one fragment, one strict boolean checker, one induction,
   one program theorem for the UNION of
     - the scalar operator nodes of Compile/SimNodes.v (for any value relation that is the scalar
       encoding on scalar types),
     - the control-flow / statement nodes of Compile/TSemSemStmt.v Part 1 (if, && ||, blocks,
       let mut, expression statements),
     - all the aggregate / pattern / match nodes of Compile/TSemSemAgg.v,
   over the value relation [VRa P t v w := has_enc P t v w /\ ty_fits P t] and [env_rel3].
   Every KP premise is discharged by [KP_all].  Partial correctness, as in TSemSemStmt.v.

   [ty_beq]            Leibniz equality of types as a boolean ([ty_beq_eq], [ty_beq_refl])
   [gpat_b irr p t]    the bindings of a pattern of type t; irr = true: only identifier / tuple /
                       struct patterns ([pat_b_sound] : pat_ok), irr = false: all patterns
                       ([gpat_b_sound] : gpat_ok).  Struct patterns: the definition has distinct
                       field names, the named fields come in definition order, none twice.
   [scf_expr / scf_block / scf_stmt]   the strict checker.  Side conditions enforced:
     literals          lit_fits at the annotated integer type
     identifiers       declared type = annotation (ty_beq)
     [e; ..] [e; n]    element types = el, length = n, ty_fits of the array type
     a[i]              e_ty a = TArr t n, e_ty i = TInt false b, b <= 32, n < 2^32, 1 <= size of t
     (e, ..) / e.i     annotation = TTup (types of the components), ty_fits / i-th component type
     S { f: e, .. }    every field named once (nodupN), all fields of the definition present
                       (struct_exprs), field types = definition, ty_fits; e.f: type of the field
     E::V(args)        variant exists, argument types = payload types, ty_fits
     match             every arm: gpat_b false at the scrutinee type, body checked in the context of
                       the bindings, body type = annotation; program: enums_small
     - ! casts, binary operators   as [sc_op] / TSemSemStmt.v (scalar types of width 8/16/32/64,
                       equal annotations); `*` with a literal operand: [scf_op] (the side conditions
                       of Compile/TSemSemMul.v, or the rewrite does not fire)
     if                condition bool, both branch types = annotation
     lo..hi            annotation = [uN; hi - lo], hi <= 2^N
     let p = e         gpat_b true at e_ty e; let mut; x.accs = e: x mutable, every accessor
                       annotated with the current type, index conditions as for a[i], final type =
                       e_ty e; for p in arr: e_ty arr = TArr el n, gpat_b true at el
     excluded          calls (Compile/TSemSemFullCall.v), join / join loops (Compile/TSemSemJoin.v)
   [agree_all_full], [tsem_sem_full_expr / _stmt / _block]; [tsem_sem_program_full] (parameters and result of any type;
   CANONICAL argument bits: [canonical_args]), [in_full_fragment], [in_full_fragment_sound];
   [SanityFull]. *)
From Coq Require Import Lia ZArith.
From GV Require Import Base.Util Base.Bits Base.BitsProofs Lang.Ast Lang.Wt Lang.ValTy Lang.WtShape
  Gadgets.Gadgets Gadgets.GadgetSpec Gadgets.Arith Panic.PanicRec Panic.PanicSem Compile.Lower
  Compile.TSem Compile.TSemFacts Compile.TSemArith1 Compile.TSemArith2 Compile.TSemControl
  Compile.TSemSemExpr Compile.ValEnc Compile.TSemSticky Compile.TSemSemStmt Compile.TSemSemMul Compile.TSemSemAgg.
From GV Require Lang.Sem.
Local Open Scope N_scope.

(* ------------------------------------------------------------------ Leibniz equality of types,
   as a boolean *)

Fixpoint ty_beq (a b : ty) {struct a} : bool :=
  let list_beq := fix go (xs ys : list ty) : bool :=
    match xs, ys with
    | [], [] => true
    | x :: xr, y :: yr => ty_beq x y && go xr yr
    | _, _ => false
    end in
  match a, b with
  | TBool, TBool => true
  | TInt s1 b1, TInt s2 b2 => Bool.eqb s1 s2 && (b1 =? b2)
  | TArr e1 n1, TArr e2 n2 => ty_beq e1 e2 && (n1 =? n2)
  | TTup xs, TTup ys => list_beq xs ys
  | TStruct n1, TStruct n2 => n1 =? n2
  | TEnum n1, TEnum n2 => n1 =? n2
  | _, _ => false
  end.

Lemma ty_beq_eq : forall a b, ty_beq a b = true -> a = b.
Proof.
  fix IH 1. intros a b H. destruct a as [|s1 b1|e1 n1|xs|n1|n1], b as [|s2 b2|e2 n2|ys|n2|n2];
    try discriminate H; cbn [ty_beq] in H.
  - reflexivity.
  - apply andb_prop in H. destruct H as [H1 H2]. apply Bool.eqb_prop in H1. apply N.eqb_eq in H2. congruence.
  - apply andb_prop in H. destruct H as [H1 H2]. apply IH in H1. apply N.eqb_eq in H2. congruence.
  - f_equal. revert ys H. induction xs as [|x xs IHl]; intros [|y ys] H; try discriminate H; [reflexivity|].
    apply andb_prop in H. destruct H as [H1 H2]. apply IH in H1. subst y. f_equal. now apply IHl.
  - apply N.eqb_eq in H. congruence.
  - apply N.eqb_eq in H. congruence.
Qed.

Lemma ty_beq_refl : forall a, ty_beq a a = true.
Proof.
  fix IH 1. intros [|s1 b1|e1 n1|xs|n1|n1]; cbn [ty_beq].
  - reflexivity.
  - now rewrite Bool.eqb_reflx, N.eqb_refl.
  - now rewrite IH, N.eqb_refl.
  - induction xs as [|x xs IHl]; [reflexivity|]. now rewrite IH, IHl.
  - apply N.eqb_refl.
  - apply N.eqb_refl.
Qed.

(* ------------------------------------------------------------------ patterns: the boolean side of
   [pat_ok] (irrefutable patterns of let / for) and [gpat_ok] (all patterns, match arms) *)

Section PatB.
  Variable P : program.

  (* skip the fields of the definition up to the field [fn]; a skipped field must not be named
     by one of the remaining field patterns ([names]) *)
  Fixpoint skip_to (fn : N) (names : list N) (ds : list (N * ty)) : option (ty * list (N * ty)) :=
    match ds with
    | [] => None
    | (dn, dt) :: r =>
        if dn =? fn then Some (dt, r)
        else if existsb (N.eqb dn) names then None
        else skip_to fn names r
    end.

  (* [irr]: only the irrefutable forms (identifier, tuple, struct) *)
  Fixpoint gpat_b (irr : bool) (p : pattern) (t : ty) {struct p} : option (list (N * ty)) :=
    match p with
    | Pat pi _ tp =>
      if negb (ty_beq tp t) then None else
      let go_list := fix go (ps : list pattern) (ts : list ty) : option (list (N * ty)) :=
        match ps, ts with
        | [], [] => Some []
        | p1 :: pr, t1 :: tr =>
            match gpat_b irr p1 t1, go pr tr with
            | Some b, Some bs => Some (b ++ bs)
            | _, _ => None
            end
        | _, _ => None
        end in
      match pi with
      | PId x => Some [(x, t)]
      | PTrue | PFalse => if irr then None else match t with TBool => Some [] | _ => None end
      | PNumU n =>
          if irr then None else
          match t with TInt sg b => if Sem.in_range sg b (Z.of_N n) then Some [] else None | _ => None end
      | PNumS z =>
          if irr then None else
          match t with TInt sg b => if Sem.in_range sg b z then Some [] else None | _ => None end
      | PURange lo hi =>
          if irr then None else
          match t with
          | TInt sg b => if Sem.in_range sg b (Z.of_N lo) && Sem.in_range sg b (Z.of_N hi) then Some [] else None
          | _ => None
          end
      | PSRange lo hi =>
          if irr then None else
          match t with
          | TInt sg b => if Sem.in_range sg b lo && Sem.in_range sg b hi then Some [] else None
          | _ => None
          end
      | PTup ps => match t with TTup ts => go_list ps ts | _ => None end
      | PStruct name _ fields =>
          match t with
          | TStruct n2 =>
              if negb (name =? n2) then None else
              match assocN name (p_structs P) with
              | Some def =>
                  if negb (nodupN (map fst def)) then None else
                  (fix go (fs : list (N * pattern)) (ds : list (N * ty)) : option (list (N * ty)) :=
                     match fs with
                     | [] => Some []
                     | (fn, fp) :: fr =>
                         match skip_to fn (map fst fs) ds with
                         | Some (fty, r) =>
                             match gpat_b irr fp fty, go fr r with
                             | Some b, Some bs => Some (b ++ bs)
                             | _, _ => None
                             end
                         | None => None
                         end
                     end) fields def
              | None => None
              end
          | _ => None
          end
      | PEnumUnit en v =>
          if irr then None else
          match t with
          | TEnum n2 =>
              if negb (en =? n2) then None else
              match assocN en (p_enums P) with
              | Some variants => match nthN variants v with Some _ => Some [] | None => None end
              | None => None
              end
          | _ => None
          end
      | PEnumTup en v ps =>
          if irr then None else
          match t with
          | TEnum n2 =>
              if negb (en =? n2) then None else
              match assocN en (p_enums P) with
              | Some variants => match nthN variants v with Some ts => go_list ps ts | None => None end
              | None => None
              end
          | _ => None
          end
      end
    end.
End PatB.

Section PatBSound.
  Variable P : program.

  Lemma gpat_b_ty irr p t bs : gpat_b P irr p t = Some bs -> p_ty p = t.
  Proof.
    destruct p as [pi m tp]. cbn [gpat_b p_ty]. destruct (ty_beq tp t) eqn:E; cbn [negb]; [|discriminate].
    intros _. now apply ty_beq_eq.
  Qed.

  Lemma existsb_eqb_false k l : existsb (N.eqb k) l = false -> ~ In k l.
  Proof.
    intros H Hin. assert (existsb (N.eqb k) l = true) as E; [|congruence].
    apply existsb_exists. exists k. split; [exact Hin|apply N.eqb_refl].
  Qed.

  Lemma gfields_nil : forall ds, gfields_ok P [] ds [].
  Proof. induction ds as [|[fn fty] r IH]; [constructor|]. apply GF_skip; [intros []|exact IH]. Qed.

  Lemma fields_nil : forall ds, fields_ok P [] ds [].
  Proof. induction ds as [|[fn fty] r IH]; [constructor|]. apply FO_skip; [intros []|exact IH]. Qed.

  Lemma skip_to_fields (F : list (N * pattern) -> list (N * ty) -> list (N * ty) -> Prop) fs fn bs :
    (forall dn dt r, ~ In dn (map fst fs) -> F fs r bs -> F fs ((dn, dt) :: r) bs) ->
    forall ds fty r, skip_to fn (map fst fs) ds = Some (fty, r) -> F fs ((fn, fty) :: r) bs -> F fs ds bs.
  Proof.
    intros Hskip. induction ds as [|[dn dt] ds IH]; intros fty r H Hf; cbn [skip_to] in H; [discriminate H|].
    destruct (N.eqb_spec dn fn) as [->|Hne].
    - injection H as -> ->. exact Hf.
    - destruct (existsb (N.eqb dn) (map fst fs)) eqn:Ex; [discriminate H|].
      apply Hskip; [now apply existsb_eqb_false|]. now apply (IH fty r).
  Qed.

  Lemma gfields_skip_to fn fp fr : forall ds fty r b bs,
    skip_to fn (map fst ((fn, fp) :: fr)) ds = Some (fty, r) ->
    gpat_ok P fp fty b -> gfields_ok P fr r bs -> gfields_ok P ((fn, fp) :: fr) ds (b ++ bs).
  Proof.
    intros ds fty r b bs H Hp Hf. apply (skip_to_fields (gfields_ok P) _ fn _ (fun dn dt r => GF_skip P _ dn dt r _) ds fty r H).
    now apply GF_take.
  Qed.

  Lemma fields_skip_to fn fp fr : forall ds fty r b bs,
    skip_to fn (map fst ((fn, fp) :: fr)) ds = Some (fty, r) ->
    pat_ok P fp fty b -> fields_ok P fr r bs -> fields_ok P ((fn, fp) :: fr) ds (b ++ bs).
  Proof.
    intros ds fty r b bs H Hp Hf. apply (skip_to_fields (fields_ok P) _ fn _ (fun dn dt r => FO_skip P _ dn dt r _) ds fty r H).
    now apply FO_take.
  Qed.

  Lemma gpat_b_sound_irr (irr : bool) : forall p t bs, gpat_b P irr p t = Some bs ->
    if irr then pat_ok P p t bs else gpat_ok P p t bs.
  Proof.
    fix IH 1. intros [pi m tp] t bs H. cbn [gpat_b] in H.
    destruct (ty_beq tp t) eqn:Et; cbn [negb] in H; [|discriminate H]. apply ty_beq_eq in Et. subst tp.
    assert (Hlist : forall ps ts bs0,
      (fix go (ps : list pattern) (ts : list ty) : option (list (N * ty)) :=
         match ps, ts with
         | [], [] => Some []
         | p1 :: pr, t1 :: tr =>
             match gpat_b P irr p1 t1, go pr tr with
             | Some b, Some bs => Some (b ++ bs)
             | _, _ => None
             end
         | _, _ => None
         end) ps ts = Some bs0 -> if irr then pats_ok P ps ts bs0 else gpats_ok P ps ts bs0).
    { induction ps as [|p1 pr IHl]; intros [|t1 tr] bs0 H0; try discriminate H0.
      - injection H0 as <-. clear IH. destruct irr; constructor.
      - destruct (gpat_b P irr p1 t1) as [b|] eqn:E1; [|discriminate H0].
        match type of H0 with match ?G with _ => _ end = _ => destruct G as [bs1|] eqn:E2 end; [|discriminate H0].
        injection H0 as <-. pose proof (gpat_b_ty _ _ _ _ E1) as Ety. apply IH in E1. apply IHl in E2.
        clear IH. destruct irr; now constructor. }
    destruct pi as [x| | |n|z|ps|name ig fields|ename variant|ename variant l|lo hi|lo hi]; cbn [negb] in H.
    - injection H as <-. clear IH Hlist. destruct irr; constructor.
    - clear IH Hlist. destruct irr; [discriminate H|]. destruct t; try discriminate H. injection H as <-. constructor.
    - clear IH Hlist. destruct irr; [discriminate H|]. destruct t; try discriminate H. injection H as <-. constructor.
    - clear IH Hlist. destruct irr; [discriminate H|]. destruct t as [|sg b| | | |]; try discriminate H.
      destruct (Sem.in_range sg b (Z.of_N n)) eqn:E; [|discriminate H]. injection H as <-. now constructor.
    - clear IH Hlist. destruct irr; [discriminate H|]. destruct t as [|sg b| | | |]; try discriminate H.
      destruct (Sem.in_range sg b z) eqn:E; [|discriminate H]. injection H as <-. now constructor.
    - destruct t as [| | |ts| |]; try discriminate H. apply Hlist in H. clear IH Hlist. destruct irr; now constructor.
    - destruct t as [| | | |n2|]; try discriminate H.
      destruct (N.eqb_spec name n2) as [->|]; cbn [negb] in H; [|discriminate H].
      destruct (assocN n2 (p_structs P)) as [def|] eqn:Ed; [|discriminate H].
      destruct (nodupN (map fst def)) eqn:Nd; cbn [negb] in H; [|discriminate H]. apply nodupN_NoDup in Nd.
      assert (Hf : if irr then fields_ok P fields def bs else gfields_ok P fields def bs);
        [|clear IH Hlist; destruct irr; econstructor; eassumption].
      revert H. generalize def. generalize bs. clear Hlist.
      induction fields as [|[fn fp] fr IHf]; intros bs0 ds H0.
      + injection H0 as <-. clear IH. destruct irr; [apply fields_nil|apply gfields_nil].
      + destruct (skip_to fn (map fst ((fn, fp) :: fr)) ds) as [[fty r]|] eqn:Es; [|discriminate H0].
        destruct (gpat_b P irr fp fty) as [b|] eqn:E1; [|discriminate H0].
        match type of H0 with match ?G with _ => _ end = _ => destruct G as [bs1|] eqn:E2 end; [|discriminate H0].
        injection H0 as <-. apply IH in E1. apply IHf in E2.
        clear IH. destruct irr; [eapply fields_skip_to|eapply gfields_skip_to]; eassumption.
    - clear IH Hlist. destruct irr; [discriminate H|]. destruct t as [| | | | |n2]; try discriminate H.
      destruct (N.eqb_spec ename n2) as [->|]; cbn [negb] in H; [|discriminate H].
      destruct (assocN n2 (p_enums P)) as [variants|] eqn:Ed; [|discriminate H].
      destruct (nthN variants variant) as [ts|] eqn:En; [|discriminate H]. injection H as <-.
      econstructor; eassumption.
    - pose proof (Hlist l) as Hl. clear IH Hlist. destruct irr; [discriminate H|].
      destruct t as [| | | | |n2]; try discriminate H.
      destruct (N.eqb_spec ename n2) as [->|]; cbn [negb] in H; [|discriminate H].
      destruct (assocN n2 (p_enums P)) as [variants|] eqn:Ed; [|discriminate H].
      destruct (nthN variants variant) as [ts|] eqn:En; [|discriminate H].
      econstructor; [exact Ed|exact En|now apply Hl].
    - clear IH Hlist. destruct irr; [discriminate H|]. destruct t as [|sg b| | | |]; try discriminate H.
      destruct (Sem.in_range sg b (Z.of_N lo)) eqn:E1; [|discriminate H].
      destruct (Sem.in_range sg b (Z.of_N hi)) eqn:E2; [|discriminate H]. injection H as <-. now constructor.
    - clear IH Hlist. destruct irr; [discriminate H|]. destruct t as [|sg b| | | |]; try discriminate H.
      destruct (Sem.in_range sg b lo) eqn:E1; [|discriminate H].
      destruct (Sem.in_range sg b hi) eqn:E2; [|discriminate H]. injection H as <-. now constructor.
  Qed.

  Theorem gpat_b_sound : forall p t bs, gpat_b P false p t = Some bs -> gpat_ok P p t bs.
  Proof. exact (gpat_b_sound_irr false). Qed.

  Theorem pat_b_sound : forall p t bs, gpat_b P true p t = Some bs -> pat_ok P p t bs.
  Proof. exact (gpat_b_sound_irr true). Qed.
End PatBSound.

(* ------------------------------------------------------------------ the strict checker of the full
   fragment: every side condition of every node lemma as a boolean test *)

Definition ty_fits_b (P : program) (t : ty) : bool := ty_ok (pred Sem.ty_fuel) P t.

(* binary operators: the scalar operators of [sc_op] (a product there has no literal operand), or a
   product with a literal operand: an ordinary checked product where the compiler's repeated-addition
   rewrite does not fire, else the side conditions of Compile/TSemSemMul.v ([mul_node_ok]) *)
Definition scf_op (o : binop) (x y : expr) (m : meta) (t : ty) : bool :=
  sc_op o x y t ||
  match o, t with
  | OMul, TInt _ b =>
      sty_eqb (e_ty x) t && sty_eqb (e_ty y) t &&
      match mul_rewrite x y m t with None => ok_width b | Some _ => mul_node_ok x y m t end
  | _, _ => false
  end.

Fixpoint scf_expr (fuel : nat) (P : program) (g : tenv) (e : expr) {struct fuel} : bool :=
  match fuel with
  | O => false
  | S f =>
    match e with
    | Ex ei m t =>
      match ei with
      | ETrue | EFalse => ty_beq t TBool
      | ENumU n _ => match t with TInt _ _ => lit_fits t (Z.of_N n) | _ => false end
      | ENumS z _ => match t with TInt _ _ => lit_fits t z | _ => false end
      | EId x => match tlookup g x with Some (tx, _) => ty_beq tx t | None => false end
      | EArrLit es =>
          match t with
          | TArr el n =>
              (lenN es =? n) && forallb (fun e1 => ty_beq (e_ty e1) el && scf_expr f P g e1) es && ty_fits_b P t
          | _ => false
          end
      | EArrRep e1 n =>
          match t with
          | TArr el n2 => (n =? n2) && ty_beq (e_ty e1) el && scf_expr f P g e1 && ty_fits_b P t
          | _ => false
          end
      | EIdx a i =>
          match e_ty a, e_ty i with
          | TArr el n, TInt false b =>
              ty_beq el t && (b <=? 32) && (n <? 2 ^ 32) && (1 <=? szn P t)%nat &&
              scf_expr f P g a && scf_expr f P g i
          | _, _ => false
          end
      | ETupLit es => ty_beq t (TTup (map e_ty es)) && forallb (scf_expr f P g) es && ty_fits_b P t
      | ETupAcc e1 i =>
          match e_ty e1 with
          | TTup ts => match nthN ts i with Some ti => ty_beq ti t && scf_expr f P g e1 | None => false end
          | _ => false
          end
      | EFld e1 fld =>
          match e_ty e1 with
          | TStruct name =>
              match assocN name (p_structs P) with
              | Some def =>
                  match Sem.index_of fld (map fst def) 0 with
                  | Some k =>
                      match nthN (map snd def) k with
                      | Some tk => ty_beq tk t && scf_expr f P g e1
                      | None => false
                      end
                  | None => false
                  end
              | None => false
              end
          | _ => false
          end
      | EStructLit name fields =>
          match assocN name (p_structs P) with
          | Some def =>
              nodupN (map fst fields) &&
              match struct_exprs fields def with
              | Some es => forallb (scf_expr f P g) es && ty_beq (TTup (map e_ty es)) (TTup (map snd def))
              | None => false
              end && ty_beq t (TStruct name) && ty_fits_b P t
          | None => false
          end
      | EEnumLit en v args =>
          match assocN en (p_enums P) with
          | Some variants =>
              match nthN variants v with
              | Some ts =>
                  ty_beq (TTup (map e_ty args)) (TTup ts) && forallb (scf_expr f P g) args &&
                  ty_beq t (TEnum en) && ty_fits_b P t
              | None => false
              end
          | None => false
          end
      | EMatch s arms =>
          scf_expr f P g s &&
          forallb (fun arm =>
                     match gpat_b P false (fst arm) (e_ty s) with
                     | Some bs => scf_expr f P (tbind_all ([] :: g) bs false) (snd arm) && ty_beq (e_ty (snd arm)) t
                     | None => false
                     end) arms
      | ENeg e1 =>
          match t with
          | TInt true b => ok_width b && ty_beq (e_ty e1) t && scf_expr f P g e1
          | _ => false
          end
      | ENot e1 => scalar_ty t && ty_beq (e_ty e1) t && scf_expr f P g e1
      | EOp o x y => scf_expr f P g x && scf_expr f P g y && scf_op o x y m t
      | EBlock b => match scf_block f P ([] :: g) b with Some tb => ty_beq tb t | None => false end
      | ECall _ _ => false
      | EJoin _ _ _ _ => false
      | EIf c a b =>
          ty_beq (e_ty c) TBool && ty_beq (e_ty a) t && ty_beq (e_ty b) t &&
          scf_expr f P g c && scf_expr f P g a && scf_expr f P g b
      | ECast to e1 => scalar_ty t && ty_beq to t && scalar_ty (e_ty e1) && scf_expr f P g e1
      | ERange lo hi bits => ty_beq t (TArr (TInt false bits) (hi - lo)) && (hi <=? 2 ^ bits)
      end
    end
  end
with scf_block (fuel : nat) (P : program) (g : tenv) (b : list stmt) {struct fuel} : option ty :=
  match fuel with
  | O => None
  | S f =>
      (fix go (ss : list stmt) (g : tenv) (last : ty) : option ty :=
         match ss with
         | [] => Some last
         | s :: r => match scf_stmt f P g s with Some (g', t) => go r g' t | None => None end
         end) b g unit_ty
  end
with scf_stmt (fuel : nat) (P : program) (g : tenv) (s : stmt) {struct fuel} : option (tenv * ty) :=
  match fuel with
  | O => None
  | S f =>
    match s with
    | St si _ =>
      match si with
      | SLet p e =>
          if scf_expr f P g e then
            match gpat_b P true p (e_ty e) with
            | Some bs => Some (tbind_all g bs false, unit_ty)
            | None => None
            end
          else None
      | SLetMut x e => if scf_expr f P g e then Some (tbind g x (e_ty e) true, unit_ty) else None
      | SAssign x accs e =>
          match tlookup g x with
          | Some (tx, true) =>
              if scf_expr f P g e then
                match (fix go (accs : list accessor) (cur : ty) : option ty :=
                         match accs with
                         | [] => Some cur
                         | AIdx aty ie :: r =>
                             match cur, e_ty ie with
                             | TArr el n, TInt false b =>
                                 if ty_beq aty cur && (b <=? 32) && (n <? 2 ^ 32) && (1 <=? szn P el)%nat &&
                                    scf_expr f P g ie
                                 then go r el else None
                             | _, _ => None
                             end
                         | ATup tty i :: r =>
                             match cur with
                             | TTup ts =>
                                 if ty_beq tty cur then match nthN ts i with Some ti => go r ti | None => None end
                                 else None
                             | _ => None
                             end
                         | AFld sty fld :: r =>
                             match cur with
                             | TStruct name =>
                                 if ty_beq sty cur then
                                   match assocN name (p_structs P) with
                                   | Some def =>
                                       match Sem.index_of fld (map fst def) 0 with
                                       | Some k => match nthN (map snd def) k with Some tk => go r tk | None => None end
                                       | None => None
                                       end
                                   | None => None
                                   end
                                 else None
                             | _ => None
                             end
                         end) accs tx with
                | Some tf => if ty_beq tf (e_ty e) then Some (g, unit_ty) else None
                | None => None
                end
              else None
          | _ => None
          end
      | SFor p arr body =>
          match e_ty arr with
          | TArr el _ =>
              if scf_expr f P g arr then
                match gpat_b P true p el with
                | Some bs =>
                    match scf_block f P (tbind_all ([] :: g) bs false) body with
                    | Some _ => Some (g, unit_ty)
                    | None => None
                    end
                | None => None
                end
              else None
          | _ => None
          end
      | SJoinLoop _ _ _ _ _ => None
      | SExpr e => if scf_expr f P g e then Some (g, e_ty e) else None
      end
    end
  end.

Fixpoint scf_stmts (f : nat) (P : program) (ss : list stmt) (g : tenv) (last : ty) : option (tenv * ty) :=
  match ss with
  | [] => Some (g, last)
  | s :: r => match scf_stmt f P g s with Some (g', t) => scf_stmts f P r g' t | None => None end
  end.

Lemma scf_block_S f P g b : scf_block (S f) P g b = option_map snd (scf_stmts f P b g unit_ty).
Proof.
  cbn [scf_block]. generalize unit_ty. revert g. induction b as [|s r IH]; intros g last; [reflexivity|].
  cbn [scf_stmts]. destruct (scf_stmt f P g s) as [[g' t]|]; [apply IH|reflexivity].
Qed.

Lemma tl_tbind_all g bs mu : tl (tbind_all g bs mu) = tl g.
Proof.
  unfold tbind_all. revert g. induction bs as [|[x t] r IH]; intro g; [reflexivity|].
  cbn [fold_left fst snd]. rewrite IH. apply tl_tbind.
Qed.

Lemma scf_stmt_tl fw P g s g' t : scf_stmt fw P g s = Some (g', t) -> tl g' = tl g.
Proof.
  destruct fw as [|f]; [discriminate|]. destruct s as [si m]. cbn [scf_stmt]. destruct si; try discriminate.
  - destruct (scf_expr f P g e); [|discriminate]. destruct (gpat_b P true p (e_ty e)); [|discriminate].
    intros [= <- _]. apply tl_tbind_all.
  - destruct (scf_expr f P g e); [|discriminate]. intros [= <- _]. apply tl_tbind.
  - destruct (tlookup g name) as [[tx []]|]; try discriminate. destruct (scf_expr f P g e); [|discriminate].
    match goal with |- match ?G with _ => _ end = _ -> _ => destruct G as [tf|] end; [|discriminate].
    destruct (ty_beq tf (e_ty e)); [|discriminate]. now intros [= <- _].
  - destruct (e_ty arr); try discriminate. destruct (scf_expr f P g arr); [|discriminate].
    destruct (gpat_b P true p t0); [|discriminate]. destruct (scf_block f P _ body); [|discriminate].
    now intros [= <- _].
  - destruct (scf_expr f P g e); [|discriminate]. now intros [= <- _].
Qed.

(* ------------------------------------------------------------------ the induction *)

Section MainF.
  Variable P : program.
  Hypothesis Hsmall : enums_small P = true.
  Notation VRa := (VRa P).
  Notation AgE' := (AgE P VRa).
  Notation AgS' := (AgS P VRa).

  Notation R3 := (rel3_nodes VRa).

  Lemma bn f g o x y m t tx :
    op_arith o || op_cmp o || op_eq o = true -> (o = OMul -> mul_rewrite x y m t = None) ->
    e_ty x = tx -> e_ty y = tx -> scalar_ty tx = true -> scalar_ty t = true ->
    (forall vx vy len, val_ok tx vx -> val_ok tx vy -> binop_agrees o m t tx vx vy len) ->
    AgE' f g x -> AgE' f g y -> AgE' (S f) g (Ex (EOp o x y) m t).
  Proof.
    intros Ho Hm Etx Ety Hsx Hst Hag IHx IHy.
    exact (SimNodes.binop_node P VRa (VRa_sc_elim P) (VRa_sc_intro P) R3 f g o x y m t tx Ho Hm Etx Ety Hsx Hst Hag
             (fun _ => IHx) (fun _ => IHy) tt).
  Qed.

  Definition InvEf (fuel : nat) : Prop :=
    forall fw g e, scf_expr fw P g e = true -> AgE' fuel g e.
  Definition InvSf (fuel : nat) : Prop :=
    forall fw g s g' t, scf_stmt fw P g s = Some (g', t) -> AgS' fuel g g' t s.

  Lemma stmts_AgSS_f f : InvSf f -> forall fw ss g last g1 t,
    scf_stmts fw P ss g last = Some (g1, t) -> AgSS P VRa f g ss last g1 t /\ tl g1 = tl g.
  Proof.
    intros IHs fw. induction ss as [|s r IH]; intros g last g1 t Hsc; cbn [scf_stmts] in Hsc.
    - injection Hsc as <- <-. split; [constructor|reflexivity].
    - destruct (scf_stmt fw P g s) as [[g' t']|] eqn:Es; [|discriminate Hsc].
      destruct (IH g' t' g1 t Hsc) as [HA Htl]. split.
      + econstructor; [eapply IHs; eassumption|exact HA].
      + rewrite Htl. eapply scf_stmt_tl; eassumption.
  Qed.

  Lemma block_AgSS_f f : InvSf f -> forall fw b g t, scf_block fw P g b = Some t ->
    exists g1, AgSS P VRa f g b unit_ty g1 t /\ tl g1 = tl g.
  Proof.
    intros IHs [|fw] b g t Hsc; [discriminate Hsc|]. rewrite scf_block_S in Hsc.
    destruct (scf_stmts fw P b g unit_ty) as [[g1 tb]|] eqn:Es; [|discriminate Hsc]. injection Hsc as ->.
    exists g1. exact (stmts_AgSS_f f IHs fw b _ _ _ _ Es).
  Qed.

  Ltac eqs :=
    repeat match goal with
    | H : sty_eqb _ _ = true |- _ => apply sty_eqb_eq in H
    | H : vt_eqb _ _ = true |- _ => apply vt_eqb_eq in H
    | H : ty_beq _ _ = true |- _ => apply ty_beq_eq in H
    end.

  Lemma mul_step_f f g x y m t :
    match t with
    | TInt _ b =>
        sty_eqb (e_ty x) t && sty_eqb (e_ty y) t &&
        match mul_rewrite x y m t with None => ok_width b | Some _ => mul_node_ok x y m t end
    | _ => false
    end = true ->
    AgE' f g x -> AgE' f g y -> AgE' (S f) g (Ex (EOp OMul x y) m t).
  Proof.
    intros Hop IHx IHy. destruct t as [|sg b| | | |]; try discriminate Hop. bsplit. eqs.
    destruct (mul_rewrite x y m (TInt sg b)) as [r|] eqn:Hm.
    - apply (mul_lit_node_b P VRa (VRa_sc_elim P) (VRa_sc_intro P)); try assumption.
      unfold mul_operand. destruct (mul_lit_info x y m (TInt sg b)) as [[[[] ?] ?]|]; assumption.
    - apply (bn f g OMul x y m (TInt sg b) (TInt sg b)); try assumption; try reflexivity; [now intros _|].
      apply int_agrees; [assumption|left; split; reflexivity].
  Qed.

  Lemma op_step_f f g o x y m t :
    scf_op o x y m t = true -> AgE' f g x -> AgE' f g y -> AgE' (S f) g (Ex (EOp o x y) m t).
  Proof.
    intros Hop IHx IHy. unfold scf_op in Hop. apply orb_prop in Hop. destruct Hop as [Hop|Hop];
      [|destruct o; try discriminate Hop; now apply mul_step_f].
    exact (op_step P VRa (VRa_bool P) (VRa_sc_elim P) (VRa_sc_intro P) (rel3_nodes VRa) f g o x y m t Hop
             (fun _ => IHx) (fun _ => IHy) tt).
  Qed.



  Lemma forallb_AgE f (IHe : InvEf f) fw g es : forallb (scf_expr fw P g) es = true -> Forall (AgE' f g) es.
  Proof.
    intro H. apply Forall_forall. intros e Hin. rewrite forallb_forall in H. eapply IHe. now apply H.
  Qed.

  Lemma InvEf_step f : (forall k, (k <= f)%nat -> InvEf k /\ InvSf k) -> InvEf (S f).
  Proof.
    intros IH fw g [ei m t] Hsc. destruct fw as [|fw]; [discriminate Hsc|]. cbn [scf_expr] in Hsc.
    destruct (IH f (le_n _)) as [IHe _].
    destruct ei.
    - eqs. subst t. apply (lit_bool_node_a P (S f) g true m).
    - eqs. subst t. apply (lit_bool_node_a P (S f) g false m).
    - destruct t as [|sg b| | | |]; try discriminate Hsc. now apply lit_numU_node_a.
    - destruct t as [|sg b| | | |]; try discriminate Hsc. now apply lit_numS_node_a.
    - destruct (tlookup g name) as [[tx mu]|] eqn:El; [|discriminate Hsc]. eqs. subst tx.
      eapply id_node_a; eassumption.
    - (* array literal *)
      destruct t as [| |el n| | |]; try discriminate Hsc. bsplit.
      match goal with Hq : (lenN es =? n) = true |- _ => apply N.eqb_eq in Hq; subst n end.
      match goal with Hf : forallb _ es = true |- _ => rewrite forallb_forall in Hf; rename Hf into Hall end.
      apply (arrlit_node P f g es m _ el); try reflexivity; try assumption.
      + apply Forall_forall. intros e1 Hin. specialize (Hall _ Hin). bsplit. eapply IHe; eassumption.
      + apply Forall_forall. intros e1 Hin. specialize (Hall _ Hin). bsplit. eqs. assumption.
    - (* array repeat *)
      destruct t as [| |el n2| | |]; try discriminate Hsc. bsplit. eqs.
      match goal with Hq : (n =? n2) = true |- _ => apply N.eqb_eq in Hq; subst n2 end. subst el.
      apply arrrep_node; try reflexivity; try assumption. eapply IHe; eassumption.
    - (* index *)
      destruct (e_ty a) as [| |el n| | |] eqn:Ea; try discriminate Hsc.
      destruct (e_ty i) as [|[] b| | | |] eqn:Ei; try discriminate Hsc. bsplit. eqs. subst el.
      eapply (idx_node P f g a i m t n b); try eassumption; eapply IHe; eassumption.
    - (* tuple literal *)
      bsplit. eqs. apply tuplit_node; try assumption. eapply forallb_AgE; eassumption.
    - (* tuple access *)
      destruct (e_ty e) as [| | |ts| |] eqn:Ee; try discriminate Hsc.
      destruct (nthN ts i) as [ti|] eqn:En; [|discriminate Hsc]. bsplit. eqs. subst ti.
      eapply tupacc_node; try eassumption. eapply IHe; eassumption.
    - (* field *)
      destruct (e_ty e) as [| | | |name|] eqn:Ee; try discriminate Hsc.
      destruct (assocN name (p_structs P)) as [def|] eqn:Ed; [|discriminate Hsc].
      destruct (Sem.index_of fld (map fst def) 0) as [k|] eqn:Ek; [|discriminate Hsc].
      destruct (nthN (map snd def) k) as [tk|] eqn:En; [|discriminate Hsc]. bsplit. eqs. subst tk.
      eapply fld_node; try eassumption. eapply IHe; eassumption.
    - (* struct literal *)
      destruct (assocN name (p_structs P)) as [def|] eqn:Ed; [|discriminate Hsc]. bsplit.
      destruct (struct_exprs fields def) as [es|] eqn:Ese; [|discriminate]. bsplit. eqs.
      match goal with Hq : TTup _ = TTup _ |- _ => injection Hq as Hq end.
      eapply structlit_node; try eassumption. eapply forallb_AgE; eassumption.
    - (* enum literal *)
      destruct (assocN ename (p_enums P)) as [variants|] eqn:Ed; [|discriminate Hsc].
      destruct (nthN variants variant) as [ts|] eqn:En; [|discriminate Hsc]. bsplit. eqs.
      match goal with Hq : TTup _ = TTup _ |- _ => injection Hq as Hq end.
      eapply enumlit_node; try eassumption. eapply forallb_AgE; eassumption.
    - (* match *)
      bsplit. apply match_node; [exact Hsmall|eapply IHe; eassumption|].
      apply Forall_forall. intros [pat body] Hin.
      match goal with Hf : forallb _ arms = true |- _ => rewrite forallb_forall in Hf; specialize (Hf _ Hin) end.
      cbn [fst snd] in *. destruct (gpat_b P false pat (e_ty e)) as [bs|] eqn:Ep; [|discriminate]. bsplit. eqs.
      exists bs. cbn [fst snd]. split; [now apply gpat_b_sound|]. split; [eapply IHe; eassumption|].
      split; [apply KP_all|assumption].
    - (* unary minus *)
      destruct t as [|[] b| | | |]; try discriminate Hsc. bsplit. eqs.
      refine (SimNodes.neg_node P VRa (VRa_sc_elim P) (VRa_sc_intro P) R3 f g e m b _ _ (fun _ => _) tt); try assumption. eapply IHe; eassumption.
    - bsplit. eqs.
      refine (SimNodes.not_node P VRa (VRa_sc_elim P) (VRa_sc_intro P) R3 f g e m t _ _ (fun _ => _) tt); try assumption. eapply IHe; eassumption.
    - bsplit. apply op_step_f; try assumption; eapply IHe; eassumption.
    - (* block *)
      destruct (scf_block fw P ([] :: g) b) as [tb|] eqn:Eb; [|discriminate Hsc]. eqs. subst tb.
      destruct f as [|f']; [intros en E fT w E' o' _ _; exact I|].
      destruct (block_AgSS_f f' (proj2 (IH f' (le_S _ _ (le_n _)))) fw b _ _ Eb) as (g1 & HA & Htl).
      eapply (block_node P VRa (VRa_unit P) f' g b m t g1); assumption.
    - discriminate Hsc.
    - discriminate Hsc.
    - bsplit. eqs.
      apply (if_node P VRa (VRa_bool P) f g c t0 e m t); try assumption;
        try (eapply IHe; eassumption); apply KP_all.
    - bsplit. eqs. subst to.
      refine (SimNodes.cast_node P VRa (VRa_sc_elim P) (VRa_sc_intro P) R3 f g e m t _ _ (fun _ => _) tt); try assumption. eapply IHe; eassumption.
    - bsplit. eqs. apply range_node; assumption.
  Qed.

  Lemma InvSf_step f : (forall k, (k <= f)%nat -> InvEf k /\ InvSf k) -> InvSf (S f).
  Proof.
    intros IH fw g [si m] g' t Hsc. destruct fw as [|fw]; [discriminate Hsc|]. cbn [scf_stmt] in Hsc.
    destruct (IH f (le_n _)) as [IHe _].
    destruct si.
    - (* let pattern = e *)
      destruct (scf_expr fw P g e) eqn:He; [|discriminate Hsc].
      destruct (gpat_b P true p (e_ty e)) as [bs|] eqn:Ep; [|discriminate Hsc]. injection Hsc as <- <-.
      apply let_pat_node; [eapply IHe; eassumption|now apply pat_b_sound].
    - destruct (scf_expr fw P g e) eqn:He; [|discriminate Hsc]. injection Hsc as <- <-.
      apply (letmut_node P VRa (VRa_unit P)). eapply IHe; eassumption.
    - (* assignment through accessors *)
      destruct (tlookup g name) as [[tx []]|] eqn:El; try discriminate Hsc.
      destruct (scf_expr fw P g e) eqn:He; [|discriminate Hsc].
      match type of Hsc with match ?G with _ => _ end = _ => destruct G as [tf|] eqn:Ea end; [|discriminate Hsc].
      destruct (ty_beq tf (e_ty e)) eqn:Et; [|discriminate Hsc]. injection Hsc as <- <-. eqs. subst tf.
      eapply assign_acc_node; [eapply IHe; eassumption|exact El|].
      revert Ea. generalize (e_ty e). generalize tx. clear El.
      induction accs as [|[aty ie|tty i|sty fld] r IHa]; intros cur tf Ea.
      + injection Ea as <-. constructor.
      + destruct cur as [| |el n| | |]; try discriminate Ea.
        destruct (e_ty ie) as [|[] b| | | |] eqn:Ei; try discriminate Ea.
        match type of Ea with (if ?c then _ else _) = _ => destruct c eqn:Hc end; [|discriminate Ea].
        bsplit. eqs. subst aty. econstructor; try eassumption; [eapply IHe; eassumption|now apply IHa].
      + destruct cur as [| | |ts| |]; try discriminate Ea.
        destruct (ty_beq tty (TTup ts)) eqn:Hc; [|discriminate Ea]. eqs. subst tty.
        destruct (nthN ts i) as [ti|] eqn:En; [|discriminate Ea]. econstructor; [exact En|now apply IHa].
      + destruct cur as [| | | |sname|]; try discriminate Ea.
        destruct (ty_beq sty (TStruct sname)) eqn:Hc; [|discriminate Ea]. eqs. subst sty.
        destruct (assocN sname (p_structs P)) as [def|] eqn:Ed; [|discriminate Ea].
        destruct (Sem.index_of fld (map fst def) 0) as [k|] eqn:Ek; [|discriminate Ea].
        destruct (nthN (map snd def) k) as [tk|] eqn:En; [|discriminate Ea].
        econstructor; try eassumption. now apply IHa.
    - (* for *)
      destruct (e_ty arr) as [| |el n| | |] eqn:Earr; try discriminate Hsc.
      destruct (scf_expr fw P g arr) eqn:Ha; [|discriminate Hsc].
      destruct (gpat_b P true p el) as [bs|] eqn:Ep; [|discriminate Hsc].
      destruct (scf_block fw P (tbind_all ([] :: g) bs false) body) as [tb|] eqn:Eb; [|discriminate Hsc].
      injection Hsc as <- <-.
      destruct f as [|f']; [intros en E fT w E' o' _ _; exact I|].
      destruct (block_AgSS_f f' (proj2 (IH f' (le_S _ _ (le_n _)))) fw body _ _ Eb) as (g1 & HA & Htl).
      rewrite tl_tbind_all in Htl. cbn [tl] in Htl.
      eapply (for_pat_node P f' g p bs arr body m el n g1 tb);
        [eapply IHe; eassumption|exact Earr|now apply pat_b_sound|exact HA|exact Htl].
    - discriminate Hsc.
    - destruct (scf_expr fw P g e) eqn:He; [|discriminate Hsc]. injection Hsc as <- <-.
      apply sexpr_node. eapply IHe; eassumption.
  Qed.

  Theorem agree_all_full : forall fuel, InvEf fuel /\ InvSf fuel.
  Proof.
    induction fuel as [fuel IH] using lt_wf_ind. destruct fuel as [|f].
    - split; [intros fw g e _ en E fT w E' o' _ _|intros fw g s g' t _ en E fT w E' o' _ _]; exact I.
    - split.
      + apply InvEf_step. intros k Hk. apply IH. lia.
      + apply InvSf_step. intros k Hk. apply IH. lia.
  Qed.
End MainF.
Print Assumptions agree_all_full.

(* AGREEMENT on the full fragment (without calls): expressions *)
Theorem tsem_sem_full_expr P fuel fw g e en E fT w E' o' :
  enums_small P = true -> scf_expr fw P g e = true -> env_rel3 (VRa P) en E g ->
  lower_expr tops fT P e E None = Ok ((w, E'), o') ->
  match Sem.eval fuel P en e with
  | Sem.Done (v, en') => o' = None /\ VRa P (e_ty e) v w /\ env_rel3 (VRa P) en' E' g
  | Sem.Panicked r m => o' = Some (preason_num (pr r), ploc32 (ploc_of m))
  | Sem.Stuck _ | Sem.NoFuel => True
  end.
Proof.
  intros Hs Hsc Hrel Hrun. exact (proj1 (agree_all_full P Hs fuel) fw g e Hsc en E fT w E' o' Hrel Hrun).
Qed.
Print Assumptions tsem_sem_full_expr.

Theorem tsem_sem_full_stmt P fuel fw g s g' t en E fT w E' o' :
  enums_small P = true -> scf_stmt fw P g s = Some (g', t) -> env_rel3 (VRa P) en E g ->
  lower_stmt tops fT P s E None = Ok ((w, E'), o') ->
  match Sem.exec fuel P en s with
  | Sem.Done (v, en') => o' = None /\ VRa P t v w /\ env_rel3 (VRa P) en' E' g'
  | Sem.Panicked r m => o' = Some (preason_num (pr r), ploc32 (ploc_of m))
  | Sem.Stuck _ | Sem.NoFuel => True
  end.
Proof.
  intros Hs Hsc Hrel Hrun. exact (proj2 (agree_all_full P Hs fuel) fw g s g' t Hsc en E fT w E' o' Hrel Hrun).
Qed.
Print Assumptions tsem_sem_full_stmt.

Theorem tsem_sem_full_block P fuel fw g b t en E fT w E' o' :
  enums_small P = true -> scf_block fw P ([] :: g) b = Some t -> env_rel3 (VRa P) en E g ->
  lower_block tops fT P b E None = Ok ((w, E'), o') ->
  match Sem.obind (Sem.exec_block fuel P (Sem.push_scope en) b)
                  (fun '(v, en1) => Sem.Done (v, Sem.pop_scope en1)) with
  | Sem.Done (v, en') => o' = None /\ VRa P t v w /\ env_rel3 (VRa P) en' E' g
  | Sem.Panicked r m => o' = Some (preason_num (pr r), ploc32 (ploc_of m))
  | Sem.Stuck _ | Sem.NoFuel => True
  end.
Proof.
  intros Hs Hsc Hrel Hrun. destruct fuel as [|f]; [exact I|].
  destruct (block_AgSS_f P f (proj2 (agree_all_full P Hs f)) fw b _ _ Hsc) as (g1 & HA & Htl).
  exact (block_run_agrees P (VRa P) (VRa_unit P) f g b g1 t HA Htl en E fT w E' o' Hrel Hrun).
Qed.
Print Assumptions tsem_sem_full_block.

(* ------------------------------------------------------------------ whole programs: parameters and
   result of ANY type.  [Sem.run_main] decodes the argument bits; the bit-level semantics binds
   them as they are: the theorem is for CANONICAL argument bits (re-encoding the decoded value
   gives the same bits; always true for scalars, excludes e.g. non-zero enum padding) *)

Lemma bits_eqb_eq : forall a b, Sem.bits_eqb a b = true -> a = b.
Proof.
  induction a as [|x a IH]; intros [|y b] H; cbn [Sem.bits_eqb] in H; try discriminate H; [reflexivity|].
  apply andb_prop in H. destruct H as [H1 H2]. apply Bool.eqb_prop in H1. subst y. f_equal. now apply IH.
Qed.

Definition canonical_arg (P : program) (t : ty) (a : list bool) : bool :=
  ty_fits_b P t &&
  match Sem.decode Sem.ty_fuel P t a with
  | Some (v, []) =>
      in_rng P v t &&
      match Sem.encode Sem.ty_fuel P t v with Some a' => Sem.bits_eqb a a' | None => false end
  | _ => false
  end.

Definition canonical_args (P : program) (params : list (N * ty)) (args : list (list bool)) : bool :=
  forallb2 (fun (p : N * ty) a => canonical_arg P (snd p) a) params args.

Lemma canonical_arg_VRa P t a v : canonical_arg P t a = true ->
  Sem.decode Sem.ty_fuel P t a = Some (v, []) -> VRa P t v a.
Proof.
  unfold canonical_arg. intros H Hd. rewrite Hd in H. apply andb_prop in H. destruct H as [Hf H].
  apply andb_prop in H. destruct H as [Hr H].
  destruct (Sem.encode Sem.ty_fuel P t v) as [a'|] eqn:Ee; [|discriminate H].
  apply bits_eqb_eq in H. subst a'. split; [|exact Hf]. now apply encode_has_enc.
Qed.

Lemma init_rel_f P : forall params inputs vals, Sem.decode_args P params inputs = Some vals ->
  canonical_args P params inputs = true ->
  forall en E g E', env_rel3 (VRa P) en E g ->
  fold_left (fun Er b => let* E := Er in env_let E (fst b) (snd b)) (combine (map fst params) inputs) (Ok E) = Ok E' ->
  env_rel3 (VRa P) (Sem.bind_all en vals) E' (tbind_all g params true).
Proof.
  induction params as [|[x t] pr IH]; intros inputs vals Hd Hs en E g E' Hrel Hf; cbn [Sem.decode_args] in Hd.
  - destruct inputs; [|discriminate Hd]. injection Hd as <-. cbn in Hf. injection Hf as <-. exact Hrel.
  - destruct inputs as [|bs ir]; [discriminate Hd|].
    destruct (Sem.decode Sem.ty_fuel P t bs) as [[v [|? ?]]|] eqn:Ed; try discriminate Hd.
    destruct (Sem.decode_args P pr ir) as [rest|] eqn:Er; [|discriminate Hd]. injection Hd as <-.
    unfold canonical_args in Hs. cbn [forallb2 snd] in Hs. apply andb_prop in Hs. destruct Hs as [Hst Hs].
    cbn [map fst combine fold_left bind snd] in Hf.
    destruct (env_let E x bs) as [E1| |] eqn:El;
      [|exfalso; eapply fold_env_let_not_ok; [|exact Hf]; intros ? Hq; discriminate Hq
       |exfalso; eapply fold_env_let_not_ok; [|exact Hf]; intros ? Hq; discriminate Hq].
    unfold Sem.bind_all, tbind_all. cbn [fold_left fst snd].
    apply (IH ir rest Er Hs _ E1 _ E'); [|exact Hf].
    eapply rel_let; [exact Hrel|exact (canonical_arg_VRa P t bs v Hst Ed)|exact El].
Qed.

Lemma VRa_encode P t v w bits : VRa P t v w -> Sem.encode Sem.ty_fuel P t v = Some bits -> bits = w.
Proof. intros [HV Hfit] Ee. rewrite (has_enc_encode P _ _ _ HV Hfit) in Ee. now injection Ee. Qed.

Theorem tsem_sem_program_full P d fuel fw fT args o outs :
  enums_small P = true -> p_consts P = [] -> find_fn P (p_main P) = Some d ->
  scf_block fw P ([] :: tbind_all [[]; []] (fn_params d) true) (fn_body d) = Some (fn_ret d) ->
  canonical_args P (fn_params d) args = true ->
  tsem_program fT P args = Ok (o, outs) ->
  match Sem.run_main fuel P args with
  | Sem.RunOk bits _ => o = None /\ outs = bits
  | Sem.RunPanic r m => o = Some (preason_num (pr r), ploc32 (ploc_of m))
  | Sem.RunStuck _ | Sem.RunNoFuel => True
  end.
Proof.
  intros Hsm Hc Hfind Hsc Hcan Hrun.
  apply (main_obs_run P (VRa P) d fuel args o outs Hfind (VRa_encode P _)). intros vals Ed.
  exact (main_agrees P (VRa P) d [] fuel fT args vals o outs _ Hfind (no_consts_rel P _ fuel Hc)
           (init_rel_f P _ _ _ Ed Hcan)
           (fun en0 E w E' o' _ Hrel Hb => tsem_sem_full_block P fuel fw _ _ _ _ E fT w E' o' Hsm Hsc Hrel Hb) Hrun).
Qed.
Print Assumptions tsem_sem_program_full.

Definition in_full_fragment (fw : nat) (P : program) : bool :=
  match p_consts P, find_fn P (p_main P) with
  | [], Some d =>
      enums_small P &&
      match scf_block fw P ([] :: tbind_all [[]; []] (fn_params d) true) (fn_body d) with
      | Some t => ty_beq t (fn_ret d)
      | None => false
      end
  | _, _ => false
  end.

Definition canonical_main_args (P : program) (args : list (list bool)) : bool :=
  match find_fn P (p_main P) with
  | Some d => canonical_args P (fn_params d) args
  | None => false
  end.

Theorem in_full_fragment_sound P fuel fw fT args o outs :
  in_full_fragment fw P = true -> canonical_main_args P args = true ->
  tsem_program fT P args = Ok (o, outs) ->
  match Sem.run_main fuel P args with
  | Sem.RunOk bits _ => o = None /\ outs = bits
  | Sem.RunPanic r m => o = Some (preason_num (pr r), ploc32 (ploc_of m))
  | _ => True
  end.
Proof.
  unfold in_full_fragment, canonical_main_args. intros H Hcan Hrun.
  destruct (p_consts P) eqn:Hc; [|discriminate H].
  destruct (find_fn P (p_main P)) as [d|] eqn:Hfind; [|discriminate H].
  apply andb_prop in H. destruct H as [Hsm H].
  destruct (scf_block fw P _ (fn_body d)) as [t|] eqn:Hsc; [|discriminate H]. apply ty_beq_eq in H. subst t.
  exact (tsem_sem_program_full P d fuel fw fT args o outs Hsm Hc Hfind Hsc Hcan Hrun).
Qed.
Print Assumptions in_full_fragment_sound.

(* ------------------------------------------------------------------ sanity: a struct, an enum match,
   a loop over an array, assignments through an index and through a field *)
Module SanityFull.
  Definition mm (k : N) : meta := mkMeta k 1 k 9.
  Definition u8 := TInt false 8.
  Definition tpoint := TStruct 20.            (* struct Point { x: u8, y: u8 }   fields 0, 1 *)
  Definition tshape := TEnum 30.              (* enum Shape { Dot, Line(u8) } *)
  Definition tarr := TArr u8 3.
  Definition lit (n : N) (k : N) := Ex (ENumU n 8) (mm k) u8.
  Definition v (x : N) (t : ty) (k : N) := Ex (EId x) (mm k) t.
  (* pub fn main(a: [u8; 3], s: Shape) -> u8 {          a = 1, s = 2
       let mut p = Point { x: 1u8, y: 2u8 };              p = 3
       let mut arr = a;                                   arr = 4
       arr[1u8] = 5u8;
       p.x = arr[0u8];
       let mut t = 0u8;                                   t = 5
       for e in arr { t = t + e; }                        e = 6
       match s { Shape::Dot => t + p.x, Shape::Line(n) => t + n } }      n = 7 *)
  Definition main_fn : fndef :=
    mkFn 11 [(1, tarr); (2, tshape)] u8
      [ St (SLetMut 3 (Ex (EStructLit 20 [(0, lit 1 1); (1, lit 2 2)]) (mm 3) tpoint)) (mm 4);
        St (SLetMut 4 (v 1 tarr 5)) (mm 6);
        St (SAssign 4 [AIdx tarr (lit 1 7)] (lit 5 8)) (mm 9);
        St (SAssign 3 [AFld tpoint 0] (Ex (EIdx (v 4 tarr 10) (lit 0 11)) (mm 12) u8)) (mm 13);
        St (SLetMut 5 (lit 0 14)) (mm 15);
        St (SFor (Pat (PId 6) (mm 16) u8) (v 4 tarr 17)
              [St (SAssign 5 [] (Ex (EOp OAdd (v 5 u8 18) (v 6 u8 19)) (mm 20) u8)) (mm 21)]) (mm 22);
        St (SExpr (Ex (EMatch (v 2 tshape 23)
              [ (Pat (PEnumUnit 30 0) (mm 24) tshape,
                 Ex (EOp OAdd (v 5 u8 25) (Ex (EFld (v 3 tpoint 26) 0) (mm 27) u8)) (mm 28) u8);
                (Pat (PEnumTup 30 1 [Pat (PId 7) (mm 29) u8]) (mm 30) tshape,
                 Ex (EOp OAdd (v 5 u8 31) (v 7 u8 32)) (mm 33) u8) ]) (mm 34) u8)) (mm 35) ].
  Definition P0 : program :=
    mkProgram [(20, [(0, u8); (1, u8)])] [(30, [[]; [u8]])] [main_fn] [] 11.

  Example accepted : in_full_fragment 14 P0 = true.
  Proof. vm_compute. reflexivity. Qed.

  Definition arr_bits (a b c : Z) : list bool := enc 8 a ++ enc 8 b ++ enc 8 c.
  Definition line_bits (n : Z) : list bool := true :: enc 8 n.
  Definition dot_bits : list bool := false :: enc 8 0.

  Ltac run A :=
    destruct (tsem_program 16 P0 A) as [[o outs]| |] eqn:Hrun;
      [|vm_compute in Hrun; discriminate Hrun|vm_compute in Hrun; discriminate Hrun];
    assert (Hcan : canonical_main_args P0 A = true) by (vm_compute; reflexivity);
    pose proof (in_full_fragment_sound P0 16 14 16 _ o outs accepted Hcan Hrun) as H.

  (* arr = [10, 5, 30], p.x = 10, t = 45, Line(7): 52 *)
  Example line : exists o outs l, tsem_program 16 P0 [arr_bits 10 20 30; line_bits 7] = Ok (o, outs) /\
    Sem.run_main 16 P0 [arr_bits 10 20 30; line_bits 7] = Sem.RunOk (enc 8 52) l /\ o = None /\ outs = enc 8 52.
  Proof.
    run [arr_bits 10 20 30; line_bits 7].
    assert (exists l, Sem.run_main 16 P0 [arr_bits 10 20 30; line_bits 7] = Sem.RunOk (enc 8 52) l) as [l Ev]
      by (eexists; vm_compute; reflexivity).
    rewrite Ev in H. destruct H as [-> ->]. exists None, (enc 8 52), l. repeat split; assumption || reflexivity.
  Qed.

  (* Dot: t + p.x = 45 + 10 *)
  Example dot : exists o outs l, tsem_program 16 P0 [arr_bits 10 20 30; dot_bits] = Ok (o, outs) /\
    Sem.run_main 16 P0 [arr_bits 10 20 30; dot_bits] = Sem.RunOk (enc 8 55) l /\ o = None /\ outs = enc 8 55.
  Proof.
    run [arr_bits 10 20 30; dot_bits].
    assert (exists l, Sem.run_main 16 P0 [arr_bits 10 20 30; dot_bits] = Sem.RunOk (enc 8 55) l) as [l Ev]
      by (eexists; vm_compute; reflexivity).
    rewrite Ev in H. destruct H as [-> ->]. exists None, (enc 8 55), l. repeat split; assumption || reflexivity.
  Qed.

  (* the loop overflows: 200 + 5 + 100 *)
  Example loop_panics : exists o outs, tsem_program 16 P0 [arr_bits 200 0 100; dot_bits] = Ok (o, outs) /\
    Sem.run_main 16 P0 [arr_bits 200 0 100; dot_bits] = Sem.RunPanic Sem.ROverflow (mm 20) /\
    o = Some (preason_num Overflow, ploc32 (ploc_of (mm 20))).
  Proof.
    run [arr_bits 200 0 100; dot_bits].
    assert (Sem.run_main 16 P0 [arr_bits 200 0 100; dot_bits] = Sem.RunPanic Sem.ROverflow (mm 20)) as Ev
      by (vm_compute; reflexivity).
    rewrite Ev in H. eauto.
  Qed.
End SanityFull.
