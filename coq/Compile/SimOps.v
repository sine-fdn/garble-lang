(* Every operation of the builder instance simulates its Boolean counterpart (from the
   soundness theorems of the builder, the gadgets, the sorting networks and the panic
   record). *)
From GV Require Import Base.Util Base.NMap Lang.Ast Builder.Builder Builder.BuilderSem Builder.BuilderSpec
  Gadgets.Gadgets Gadgets.GadgetSpec Gadgets.GadgetHoare Sort.Sort Sort.SortHoare
  Panic.PanicRec Panic.PanicSem Panic.PanicProofs Compile.Lower Compile.TSem Compile.SimBase.
From GV Require Compile.ParamBase.

Section Ops.
Variable inv : builder -> Prop.
Hypothesis ops : builder_ops_sound inv.
Variable inp : list bool.

Notation Rw := (Rw inp).
Notation Rws := (Rws inp).
Notation Rwss := (Rwss inp).
Notation RP := (RP inp).
Notation RS := (RS inv inp).
Notation RE := (RE inp).
Notation sim := (sim inv inp).

Ltac fin r b' E I X := exists r, b'; split; [exact E|]; split; [exact I|]; split; [exact X|].

Lemma Rws_of_dens s ws vs : valids (cb s) ws -> dens inp (cb s) ws = vs -> Rws s ws vs.
Proof. intros H <-. now apply Rws_of. Qed.

Lemma Rw_mk b P w v : valid b w -> den inp b w = v -> Rw (mkCst b P) w v.
Proof. intros; split; assumption. Qed.

(* the relations only look at the gate store *)
Lemma Rw_cb s s' w v : cb s = cb s' -> Rw s w v -> Rw s' w v.
Proof. unfold SimBase.Rw. intros ->. auto. Qed.

(* ------------------------------------------------------------------ gates *)

Lemma sim_binop (f : builder -> N -> N -> res (N * builder)) (op : bool -> bool -> bool) s o x y vx vy :
  binop_sound inv f op -> RS s o -> Rw s x vx -> Rw s y vy ->
  sim s o (liftb (fun b => f b x y)) (tret (op vx vy)) (fun s' r v => Rw s' r v).
Proof.
  intros Hf HS [Vx Dx] [Vy Dy]. apply sim_liftb; [exact HS|].
  destruct (Hf (cb s) x y (RS_inv _ _ _ _ HS) Vx Vy) as (r & b' & E & I & X & V & D).
  exists r, b'. split; [exact E|]. split; [exact I|]. split; [exact X|]. apply Rw_mk; [exact V|].
  rewrite (D inp (RS_ins _ _ _ _ HS)), Dx, Dy. reflexivity.
Qed.

Lemma sim_xor s o x y vx vy : RS s o -> Rw s x vx -> Rw s y vy ->
  sim s o (o_xor bops x y) (o_xor tops vx vy) (fun s' r v => Rw s' r v).
Proof. apply sim_binop. apply (bs_xor inv ops). Qed.
Lemma sim_and s o x y vx vy : RS s o -> Rw s x vx -> Rw s y vy ->
  sim s o (o_and bops x y) (o_and tops vx vy) (fun s' r v => Rw s' r v).
Proof. apply sim_binop. apply (bs_and inv ops). Qed.
Lemma sim_or s o x y vx vy : RS s o -> Rw s x vx -> Rw s y vy ->
  sim s o (o_or bops x y) (o_or tops vx vy) (fun s' r v => Rw s' r v).
Proof. apply sim_binop. apply (bs_or inv ops). Qed.
Lemma sim_eq s o x y vx vy : RS s o -> Rw s x vx -> Rw s y vy ->
  sim s o (o_eq bops x y) (o_eq tops vx vy) (fun s' r v => Rw s' r v).
Proof. apply (sim_binop push_eq (fun a b => negb (xorb a b))). apply (bs_eq inv ops). Qed.

Lemma sim_not s o x vx : RS s o -> Rw s x vx ->
  sim s o (o_not bops x) (o_not tops vx) (fun s' r v => Rw s' r v).
Proof.
  intros HS [Vx Dx]. apply sim_liftb; [exact HS|].
  destruct (bs_not inv ops (cb s) x (RS_inv _ _ _ _ HS) Vx) as (r & b' & E & I & X & V & D).
  exists r, b'. split; [exact E|]. split; [exact I|]. split; [exact X|]. apply Rw_mk; [exact V|].
  rewrite (D inp (RS_ins _ _ _ _ HS)), Dx. reflexivity.
Qed.

Lemma sim_mux s o c x0 x1 vc v0 v1 : RS s o -> Rw s c vc -> Rw s x0 v0 -> Rw s x1 v1 ->
  sim s o (o_mux bops c x0 x1) (o_mux tops vc v0 v1) (fun s' r v => Rw s' r v).
Proof.
  intros HS [Vc Dc] [V0 D0] [V1 D1]. apply sim_liftb; [exact HS|].
  destruct (bs_mux inv ops (cb s) c x0 x1 (RS_inv _ _ _ _ HS) Vc V0 V1) as (r & b' & E & I & X & V & D).
  exists r, b'. split; [exact E|]. split; [exact I|]. split; [exact X|]. apply Rw_mk; [exact V|].
  rewrite (D inp (RS_ins _ _ _ _ HS)), Dc, D0, D1. reflexivity.
Qed.

(* ------------------------------------------------------------------ gadgets *)

Lemma sim_liftb_guard {X Y} s o (f : builder -> res (X * builder)) (g : bool) (y : Y) (Q : cst -> X -> Y -> Prop) :
  RS s o ->
  (g = true -> exists r b', f (cb s) = Ok (r, b') /\ inv b' /\ ext (cb s) b' /\ Q (mkCst b' (cp s)) r y) ->
  sim s o (liftb f) (fun o => if g then Ok (y, o) else Crash) Q.
Proof.
  intros HS H y' o' E. destruct g; [|discriminate]. injection E as <- <-.
  destruct (H eq_refl) as (r & b' & Ef & Hi' & Ex & HQ).
  exists r, (mkCst b' (cp s)). unfold liftb. rewrite Ef. cbn [bind].
  split; [reflexivity|]. split; [exact Ex|]. split; [apply RS_liftb; auto|exact HQ].
Qed.

Lemma sim_negation s o x vx : RS s o -> Rws s x vx ->
  sim s o (o_negation bops x) (o_negation tops vx) (fun s' r v => Rws s' r v).
Proof.
  intros HS Hx. apply sim_liftb; [exact HS|].
  destruct (push_negation_circuit_sound inv ops (cb s) x (RS_inv _ _ _ _ HS) (Rws_valids _ _ _ _ Hx))
    as (r & b' & E & I & X & V & D).
  fin r b' E I X. apply Rws_of_dens; [exact V|]. cbn [cb].
  rewrite (D inp (RS_ins _ _ _ _ HS)), (Rws_dens _ _ _ _ Hx). reflexivity.
Qed.

Lemma same_len_true {A B} (x : list A) (y : list B) : same_len x y = true -> length x = length y.
Proof. unfold same_len. apply Nat.eqb_eq. Qed.

Lemma nonempty_true {A} (x : list A) : nonempty x = true -> x <> [].
Proof. destruct x; [discriminate|]. intros _ H. discriminate. Qed.

Lemma sim_addition s o x y vx vy : RS s o -> Rws s x vx -> Rws s y vy ->
  sim s o (o_addition bops x y) (o_addition tops vx vy)
    (fun s' r v => Rws s' (fst (fst r)) (fst (fst v)) /\ Rw s' (snd (fst r)) (snd (fst v)) /\ Rw s' (snd r) (snd v)).
Proof.
  intros HS Hx Hy. apply sim_liftb_guard; [exact HS|]. intro G. apply same_len_true in G.
  assert (L : length x = length y) by (rewrite (Rws_length _ _ _ _ Hx), (Rws_length _ _ _ _ Hy); exact G).
  destruct (push_addition_circuit_sound inv ops (cb s) x y (RS_inv _ _ _ _ HS) (Rws_valids _ _ _ _ Hx)
              (Rws_valids _ _ _ _ Hy) L) as (r & b' & E & I & X & V1 & V2 & V3 & D).
  fin r b' E I X.
  pose proof (D inp (RS_ins _ _ _ _ HS)) as Dd; rewrite (Rws_dens _ _ _ _ Hx), (Rws_dens _ _ _ _ Hy) in Dd.
  split; [|split].
  - apply Rws_of_dens; [exact V1|]. cbn [cb]. now rewrite <- Dd.
  - apply Rw_mk; [exact V2|]. now rewrite <- Dd.
  - apply Rw_mk; [exact V3|]. now rewrite <- Dd.
Qed.

Lemma Rws_nonempty s x vx : Rws s x vx -> vx <> [] -> x <> [].
Proof. intros H Hn. destruct H; [congruence|discriminate]. Qed.

Lemma sim_subtraction s o x y sg vx vy : RS s o -> Rws s x vx -> Rws s y vy ->
  sim s o (o_subtraction bops x y sg) (o_subtraction tops vx vy sg)
    (fun s' r v => Rws s' (fst r) (fst v) /\ Rw s' (snd r) (snd v)).
Proof.
  intros HS Hx Hy. apply sim_liftb_guard; [exact HS|]. intro G. apply andb_prop in G. destruct G as [G1 G2].
  apply same_len_true in G1.
  assert (L : length x = length y) by (rewrite (Rws_length _ _ _ _ Hx), (Rws_length _ _ _ _ Hy); exact G1).
  assert (Hne : sg = true -> x <> []).
  { intros ->. cbn in G2. apply nonempty_true in G2. eapply Rws_nonempty; eauto. }
  destruct (push_subtraction_circuit_sound inv ops (cb s) x y sg (RS_inv _ _ _ _ HS) (Rws_valids _ _ _ _ Hx)
              (Rws_valids _ _ _ _ Hy) L Hne) as (r & b' & E & I & X & V1 & V2 & D).
  fin r b' E I X.
  pose proof (D inp (RS_ins _ _ _ _ HS)) as Dd; rewrite (Rws_dens _ _ _ _ Hx), (Rws_dens _ _ _ _ Hy) in Dd.
  split.
  - apply Rws_of_dens; [exact V1|]. cbn [cb]. now rewrite <- Dd.
  - apply Rw_mk; [exact V2|]. now rewrite <- Dd.
Qed.

Lemma sim_multiplier s o x y z c vx vy vz vc : RS s o -> Rw s x vx -> Rw s y vy -> Rw s z vz -> Rw s c vc ->
  sim s o (o_multiplier bops x y z c) (o_multiplier tops vx vy vz vc)
    (fun s' r v => Rw s' (fst r) (fst v) /\ Rw s' (snd r) (snd v)).
Proof.
  intros HS [Vx Dx] [Vy Dy] [Vz Dz] [Vc Dc]. apply sim_liftb; [exact HS|].
  destruct (push_multiplier_sound inv ops (cb s) x y z c (RS_inv _ _ _ _ HS) Vx Vy Vz Vc)
    as (r & b' & E & I & X & V1 & V2 & D).
  fin r b' E I X. pose proof (D inp (RS_ins _ _ _ _ HS)) as Dd. rewrite Dx, Dy, Dz, Dc in Dd.
  split; (apply Rw_mk; [assumption|]); now rewrite <- Dd.
Qed.

Lemma sim_udiv s o x y vx vy : RS s o -> Rws s x vx -> Rws s y vy ->
  sim s o (o_udiv bops x y) (o_udiv tops vx vy)
    (fun s' r v => Rws s' (fst r) (fst v) /\ Rws s' (snd r) (snd v)).
Proof.
  intros HS Hx Hy. apply sim_liftb_guard; [exact HS|]. intro G. apply same_len_true in G.
  assert (L : length x = length y) by (rewrite (Rws_length _ _ _ _ Hx), (Rws_length _ _ _ _ Hy); exact G).
  destruct (push_unsigned_division_circuit_sound inv ops (cb s) x y (RS_inv _ _ _ _ HS) (Rws_valids _ _ _ _ Hx)
              (Rws_valids _ _ _ _ Hy) L) as (r & b' & E & I & X & V1 & V2 & D).
  fin r b' E I X. pose proof (D inp (RS_ins _ _ _ _ HS)) as Dd.
  rewrite (Rws_dens _ _ _ _ Hx), (Rws_dens _ _ _ _ Hy) in Dd.
  split; (apply Rws_of_dens; [assumption|]); cbn [cb]; now rewrite <- Dd.
Qed.

Lemma sim_sdiv s o x y vx vy : RS s o -> Rws s x vx -> Rws s y vy ->
  sim s o (o_sdiv bops x y) (o_sdiv tops vx vy)
    (fun s' r v => Rws s' (fst r) (fst v) /\ Rws s' (snd r) (snd v)).
Proof.
  intros HS Hx Hy. apply sim_liftb_guard; [exact HS|]. intro G. apply andb_prop in G. destruct G as [G1 G2].
  apply same_len_true in G1. apply nonempty_true in G2.
  assert (L : length x = length y) by (rewrite (Rws_length _ _ _ _ Hx), (Rws_length _ _ _ _ Hy); exact G1).
  destruct (push_signed_division_circuit_sound inv ops (cb s) x y (RS_inv _ _ _ _ HS) (Rws_valids _ _ _ _ Hx)
              (Rws_valids _ _ _ _ Hy) L (Rws_nonempty _ _ _ Hx G2)) as (r & b' & E & I & X & V1 & V2 & D).
  fin r b' E I X. pose proof (D inp (RS_ins _ _ _ _ HS)) as Dd.
  rewrite (Rws_dens _ _ _ _ Hx), (Rws_dens _ _ _ _ Hy) in Dd.
  split; (apply Rws_of_dens; [assumption|]); cbn [cb]; now rewrite <- Dd.
Qed.

Lemma sim_comparator s o bits x sx y sy vx vy : RS s o -> Rws s x vx -> Rws s y vy ->
  sim s o (o_comparator bops bits x sx y sy) (o_comparator tops bits vx sx vy sy)
    (fun s' r v => Rw s' (fst r) (fst v) /\ Rw s' (snd r) (snd v)).
Proof.
  intros HS Hx Hy. apply sim_liftb_guard; [exact HS|]. intro G. apply andb_prop in G. destruct G as [G1 G2].
  apply Nat.leb_le in G1, G2. rewrite <- (Rws_length _ _ _ _ Hx) in G1. rewrite <- (Rws_length _ _ _ _ Hy) in G2.
  destruct (push_comparator_circuit_sound inv ops (cb s) bits x sx y sy (RS_inv _ _ _ _ HS)
              (Rws_valids _ _ _ _ Hx) (Rws_valids _ _ _ _ Hy) G1 G2) as (r & b' & E & I & X & V1 & V2 & D).
  fin r b' E I X. pose proof (D inp (RS_ins _ _ _ _ HS)) as Dd.
  rewrite (Rws_dens _ _ _ _ Hx), (Rws_dens _ _ _ _ Hy) in Dd.
  split; (apply Rw_mk; [assumption|]); now rewrite <- Dd.
Qed.

Lemma sim_eq_circuit s o x y vx vy : RS s o -> Rws s x vx -> Rws s y vy ->
  sim s o (o_eq_circuit bops x y) (o_eq_circuit tops vx vy) (fun s' r v => Rw s' r v).
Proof.
  intros HS Hx Hy. apply sim_liftb; [exact HS|].
  destruct (push_eq_circuit_sound inv ops (cb s) x y (RS_inv _ _ _ _ HS) (Rws_valids _ _ _ _ Hx)
              (Rws_valids _ _ _ _ Hy)) as (r & b' & E & I & X & V & D).
  fin r b' E I X. apply Rw_mk; [exact V|].
  rewrite (D inp (RS_ins _ _ _ _ HS)), (Rws_dens _ _ _ _ Hx), (Rws_dens _ _ _ _ Hy). reflexivity.
Qed.

(* ------------------------------------------------------------------ sorting networks *)

Lemma Rwss_densl s v vv : Rwss s v vv -> densl inp (cb s) v = vv.
Proof. induction 1; cbn; [reflexivity|]. f_equal; [eapply Rws_dens; eauto|assumption]. Qed.

Lemma Rwss_of s L v : elems_ok (cb s) L v -> Rwss s v (densl inp (cb s) v).
Proof. induction 1 as [|x v [Hx _] _ IH]; cbn; constructor; auto. now apply Rws_of. Qed.

Lemma elems_shape_ok s bits v vv : Rwss s v vv -> elems_shape bits vv = true ->
  exists L, elems_ok (cb s) L v /\ (bits <= L)%nat.
Proof.
  intros H E. destruct H as [|x vx v vv Hx Hr].
  - exists bits. split; [constructor|lia].
  - cbn [elems_shape] in E. apply andb_prop in E. destruct E as [E1 E2]. apply Nat.leb_le in E2.
    exists (length vx). split; [|exact E2].
    rewrite forallb_forall in E1.
    assert (HF : Rwss s (x :: v) (vx :: vv)) by (constructor; assumption).
    clear Hx Hr. induction HF as [|a va l lv Ha _ IH]; constructor.
    + split; [eapply Rws_valids; eauto|]. rewrite (Rws_length _ _ _ _ Ha). apply Nat.eqb_eq. apply E1. now left.
    + apply IH. intros z Hz. apply E1. now right.
Qed.

Lemma sim_merger s o bits asc v vv : RS s o -> Rwss s v vv ->
  sim s o (o_merger bops bits asc v) (o_merger tops bits asc vv) (fun s' r w => Rwss s' r w).
Proof.
  intros HS Hv. apply sim_liftb_guard; [exact HS|]. intro G.
  destruct (elems_shape_ok _ _ _ _ Hv G) as (L & Hok & HL).
  destruct (push_bitonic_merger_top_sound inv ops bits L asc (cb s) v (RS_inv _ _ _ _ HS) Hok HL)
    as (v' & b' & E & I & X & Hok' & Len & D).
  fin v' b' E I X.
  rewrite <- (Rwss_densl _ _ _ Hv), <- (D inp (RS_ins _ _ _ _ HS)).
  apply (Rwss_of (mkCst b' (cp s)) L). exact Hok'.
Qed.

Lemma sim_sorter s o bits v vv : RS s o -> Rwss s v vv ->
  sim s o (o_sorter bops bits v) (o_sorter tops bits vv) (fun s' r w => Rwss s' r w).
Proof.
  intros HS Hv. apply sim_liftb_guard; [exact HS|]. intro G.
  destruct (elems_shape_ok _ _ _ _ Hv G) as (L & Hok & HL).
  destruct (push_bitonic_sorter_sound inv ops bits L (cb s) v (RS_inv _ _ _ _ HS) Hok HL)
    as (v' & b' & E & I & X & Hok' & Len & D).
  fin v' b' E I X.
  rewrite <- (Rwss_densl _ _ _ Hv), <- (D inp (RS_ins _ _ _ _ HS)).
  apply (Rwss_of (mkCst b' (cp s)) L). exact Hok'.
Qed.

(* ------------------------------------------------------------------ panic record *)

Lemma sim_panic_if s o c vc r m : RS s o -> Rw s c vc ->
  sim s o (o_panic_if bops c r m) (o_panic_if tops vc r m) (fun _ _ _ => True).
Proof.
  intros (Hi & Hin & HPok & HPo) [Vc Dc] y o' E. cbn [o_panic_if tops] in E. injection E as <- <-.
  destruct (push_obs inv ops (cb s) (cp s) c r (ploc_of m) Hi HPok Vc) as (P' & b' & Ep & I' & X & Hok' & D).
  exists tt, (mkCst b' P'). cbn [o_panic_if bops]. unfold b_panic_if. fold (ploc_of m). rewrite Ep. cbn [bind].
  split; [reflexivity|]. split; [exact X|]. split; [|exact I].
  split; [exact I'|]. split; [eapply ext_ins_ok; eauto|]. split; [exact Hok'|].
  cbn [cb cp]. rewrite (D inp Hin), HPo, Dc. reflexivity.
Qed.

Lemma sim_peek s o : RS s o -> sim s o (o_peek bops) (o_peek tops) (fun s' P ob => RP s' P ob).
Proof.
  intros HS y o' E. cbn [o_peek tops] in E. injection E as <- <-.
  exists (cp s), s. cbn [o_peek bops]. split; [reflexivity|]. split; [apply extS_refl|]. split; [exact HS|].
  destruct HS as (_ & _ & H). exact H.
Qed.

Lemma sim_replace s o PA ob : RS s o -> RP s PA ob ->
  sim s o (o_replace bops PA) (o_replace tops ob) (fun s' P o1 => RP s' P o1).
Proof.
  intros (Hi & Hin & HP) HPA y o' E. cbn [o_replace tops] in E. injection E as <- <-.
  exists (cp s), (mkCst (cb s) PA). cbn [o_replace bops]. split; [reflexivity|].
  split; [apply ext_refl|]. split; [|exact HP].
  split; [exact Hi|]. split; [exact Hin|]. exact HPA.
Qed.

Lemma sim_mux_panic s o c vc T F oT oF : RS s o -> Rw s c vc -> RP s T oT -> RP s F oF ->
  sim s o (o_mux_panic bops c T F) (o_mux_panic tops vc oT oF) (fun s' P o1 => RP s' P o1).
Proof.
  intros HS [Vc Dc] [HT OT] [HF OF] y o' E. cbn [o_mux_panic tops] in E. injection E as <- <-.
  destruct (mux_obs inv ops (cb s) c T F (RS_inv _ _ _ _ HS) Vc HT HF) as (P' & b' & Em & I' & X & Hok' & D).
  exists P', (mkCst b' (cp s)). cbn [o_mux_panic bops]. unfold b_mux_panic. rewrite Em. cbn [bind].
  split; [reflexivity|]. split; [exact X|]. split; [apply RS_liftb; auto|].
  split; [exact Hok'|]. cbn [cb]. rewrite (D inp (RS_ins _ _ _ _ HS)), Dc, OT, OF. reflexivity.
Qed.

(* ------------------------------------------------------------------ the instance *)

Definition concrete_rel : ParamBase.param_rel bops tops :=
  ParamBase.mkParamRel _ _ _ _ _ _ bops tops
    extS (fun s => ins_ok (cb s) inp) Rw RP RS
    extS_refl extS_trans (RS_ins inv inp) (Rw_mono inp) (RP_mono inp)
    (Rw_const0 inv ops inp) (Rw_const1 inv ops inp)
    sim_xor sim_and sim_or sim_eq sim_not sim_mux sim_negation sim_addition
    sim_subtraction sim_multiplier sim_udiv sim_sdiv sim_comparator sim_eq_circuit sim_merger sim_sorter
    sim_panic_if sim_peek sim_replace sim_mux_panic.

End Ops.
