(* C15, program level: a program whose constness run (the generic lowering over FreeOps.kops)
   is Ok compiles to a gate store and a circuit with ZERO AND gates.  [klower_main] is the
   executable, decidable definition of "data-movement program". *)
From GV Require Import Base.Util Base.NMap Lang.Ast Circuit.Ssa
  Builder.Builder Builder.Build Builder.BuilderSem Builder.BuilderSpec Builder.BuilderProofs
  Builder.Requests Builder.StructSpec Builder.StructProofs
  Gadgets.Gadgets Gadgets.GadgetSpec Panic.PanicRec Compile.Lower Compile.LowerSound
  Compile.ParamBase Compile.ParamHelpers Compile.ParamLower Compile.FreeOps.

(* every bit of every parameter of main is an unknown wire *)
Definition kbindings (bindings : list (N * list N)) : list (N * list kw) :=
  map (fun b => (fst b, map (fun _ : N => @None bool) (snd b))) bindings.

(* the constness run of main; Ok = "data movement": no operation that could cost an AND gate *)
Definition klower_main (fuel : nat) (P : program) : res (list kw) :=
  match find_fn P (p_main P) with
  | None => Crash
  | Some fd =>
      let '(input_gates, bindings) := param_wiring P (fn_params fd) in
      if sumN input_gates =? 0 then Crash else
      let* E0 := main_env kops P (kbindings bindings) in
      let* ((outs, _), _) := lower_block kops fuel P (fn_body fd) E0 tt in
      Ok outs
  end.

Lemma cwires_valids b l : inv b -> cwires l -> valids b l.
Proof.
  intros I H. unfold valids. eapply Forall_impl; [|exact H]. intros w Hw. cbn beta in Hw.
  destruct (le1_cw w Hw) as [a ->]. apply valid_cw. exact I.
Qed.

Lemma Rws_valids b ws vs : inv b -> Forall2 (Rwb b) ws vs -> valids b ws.
Proof. intros I H. induction H as [|w v ws vs Hw _ IH]; constructor; [eapply Rwb_valid; eauto|exact IH]. Qed.

Section Free.
Variable fuel : nat.
Variable dedup : bool.
Variable P : program.

(* DATA MOVEMENT COSTS ZERO AND GATES.  If the constness run of main is Ok, the model of
   compile.rs (gate de-duplication on or off) succeeds with a gate store that contains no
   AND gate, its result wires are the constants / wires the constness run announces, and
   build emits a circuit without any AND gate. *)
Theorem data_movement_zero_and kouts :
  klower_main fuel P = Ok kouts ->
  exists s outs c,
    lower_main_with fuel dedup P = Ok (PreOk s outs) /\
    band_count (cb s) = 0 /\
    Forall2 (Rwb (cb s)) outs kouts /\
    lower_program_with fuel dedup P = Ok (LCircuit c) /\
    and_gates c = 0.
Proof.
  intro H. unfold klower_main in H.
  destruct (find_fn P (p_main P)) as [fd|] eqn:Efd; [|discriminate].
  destruct (param_wiring P (fn_params fd)) as [igs bindings] eqn:Epw.
  destruct (sumN igs =? 0) eqn:Ez; [discriminate|].
  destruct (main_env kops P (kbindings bindings)) as [EB0| |] eqn:EEB; cbn [bind] in H; try discriminate.
  destruct (lower_block kops fuel P (fn_body fd) EB0 tt) as [[[kouts' EBend] o']| |] eqn:EblkB; cbn [bind] in H; try discriminate.
  injection H as <-.
  set (s0 := initial_cst dedup igs).
  destruct (param_wiring_spec _ _ _ _ Epw) as (_ & Hrange & _).
  assert (HS0 : RS free_rel s0 tt).
  { split; [apply good_new|exact cprec_ok]. }
  assert (HB : Forall2 (Rbind free_rel s0) bindings (kbindings bindings)).
  { apply (Rbind_of_range free_rel _ _ _ _ Hrange). intros w Hw. cbn. unfold valid, counter. cbn. lia. }
  destruct (lower_main_param free_rel fuel dedup P fd igs bindings _ tt EB0 _ _ Efd Epw Ez HS0 HB EEB EblkB)
    as (s1 & outs & Em & _ & HS1 & Houts).
  unfold lower_program_with. rewrite Em. cbn [bind]. cbn [fst] in Houts.
  destruct HS1 as [[I1 Z1] HP1].
  assert (Vp : valids (cb s1) (prec_wires (ps_rec (cp s1)))) by (apply cwires_valids; assumption).
  assert (Vo : valids (cb s1) outs) by (eapply Rws_valids; eauto).
  pose proof (build_is_cbuilt (cb s1) _ _ I1 Vp Vo) as Eb.
  exists s1, outs, (cbuilt (cb s1) (prec_wires (ps_rec (cp s1))) outs).
  split; [reflexivity|]. split; [exact Z1|]. split; [exact Houts|]. rewrite Eb. cbn [bind]. split; [reflexivity|].
  pose proof (and_gates_cbuilt (cb s1) (prec_wires (ps_rec (cp s1))) outs) as Hle. lia.
Qed.

(* the same, for whatever circuit the model of the compiler returns *)
Corollary data_movement_circuit_zero_and kouts c :
  klower_main fuel P = Ok kouts -> lower_program_with fuel dedup P = Ok (LCircuit c) -> and_gates c = 0.
Proof.
  intros H Hc. destruct (data_movement_zero_and kouts H) as (s & outs & c' & _ & _ & _ & Hc' & Hz).
  rewrite Hc in Hc'. injection Hc' as ->. exact Hz.
Qed.

End Free.

Print Assumptions data_movement_zero_and.
Print Assumptions data_movement_circuit_zero_and.

(* ------------------------------------------------------------------ non-vacuity *)

Module FreeExamples.
Definition m0 : meta := mkMeta 0 0 0 0.
Definition u8 := TInt false 8.
Definition i8 := TInt true 8.
Definition usz := TInt false 32.
Definition pair8 := TTup [u8; u8].
Definition arr3 := TArr u8 3.
Definition sS := TStruct 20.
Definition eT := TEnum 31.
Definition lit (n : N) : expr := Ex (ENumU n 32) m0 usz.
Definition lit8 (n : N) : expr := Ex (ENumU n 8) m0 u8.
Definition id_ (x : N) (t : ty) : expr := Ex (EId x) m0 t.
Definition pid (x : N) (t : ty) : pattern := Pat (PId x) m0 t.
Definition st (s : stmt_inner) : stmt := St s m0.
Definition prog (params : list (N * ty)) (ret : ty) (body : list stmt) : program :=
  mkProgram [(20, [(0, u8); (1, u8)])] [(31, [[]; [u8]])] [mkFn 9 params ret body] [] 9.

(* struct S { a: u8, b: u8 }
   fn main(x: (u8, u8), arr: [u8; 3]) -> (i8, [u8; 3], S) {
     let (p, q) = x;                    // tuple destructuring
     let s = S { a: q, b: p };          // struct re-pack
     let mut a2 = arr;
     a2[1] = a2[2];                     // constant-index read and write
     let mut acc = s.a as i8;           // field access, equal-width cast
     for e in [p, q] { acc = e as i8; } // loop over a literal array
     for i in 0..2 { a2[i] = arr[i + 1]; }   // index arithmetic on loop constants
     (acc, a2, s)
   } *)
Definition move_body : list stmt :=
  [ st (SLet (Pat (PTup [pid 10 u8; pid 11 u8]) m0 pair8) (id_ 1 pair8));
    st (SLet (pid 12 sS) (Ex (EStructLit 20 [(0, id_ 11 u8); (1, id_ 10 u8)]) m0 sS));
    st (SLetMut 13 (id_ 2 arr3));
    st (SAssign 13 [AIdx arr3 (lit 1)] (Ex (EIdx (id_ 13 arr3) (lit 2)) m0 u8));
    st (SLetMut 14 (Ex (ECast i8 (Ex (EFld (id_ 12 sS) 0) m0 u8)) m0 i8));
    st (SFor (pid 15 u8) (Ex (EArrLit [id_ 10 u8; id_ 11 u8]) m0 (TArr u8 2))
          [st (SAssign 14 [] (Ex (ECast i8 (id_ 15 u8)) m0 i8))]);
    st (SFor (pid 16 usz) (Ex (ERange 0 2 32) m0 (TArr usz 2))
          [st (SAssign 13 [AIdx arr3 (id_ 16 usz)]
                 (Ex (EIdx (id_ 2 arr3) (Ex (EOp OAdd (id_ 16 usz) (lit 1)) m0 usz)) m0 u8))]);
    st (SExpr (Ex (ETupLit [id_ 14 i8; id_ 13 arr3; id_ 12 sS]) m0 (TTup [i8; arr3; sS]))) ].

Definition move_prog : program := prog [(1, pair8); (2, arr3)] (TTup [i8; arr3; sS]) move_body.

(* the constness run accepts it: 48 output bits, all "some wire" *)
Example move_prog_is_data_movement : klower_main 50 move_prog = Ok (repeat None 48).
Proof. vm_compute. reflexivity. Qed.

(* hence (theorem): zero AND gates, with and without gate de-duplication *)
Example move_prog_zero_and dedup :
  exists c, lower_program_with 50 dedup move_prog = Ok (LCircuit c) /\ and_gates c = 0.
Proof.
  destruct (data_movement_zero_and 50 dedup move_prog _ move_prog_is_data_movement) as (s & outs & c & _ & _ & _ & H1 & H2).
  exists c. split; assumption.
Qed.

(* cross-check by running the model of the compiler: gates ARE requested (XORs / NOTs of the
   constant-selector muxes) but none is an AND and all are dead; the circuit is the two
   constant gates *)
Example move_prog_store :
  match lower_main_with 50 true move_prog with
  | Ok (PreOk s _) => (band_count (cb s), lenN (b_gates_rev (cb s)))
  | _ => (1, 0)
  end = (0, 48) /\
  match lower_program_with 50 true move_prog with
  | Ok (LCircuit c) => Some (and_gates c, lenN (gates c))
  | _ => None
  end = Some (0, 2).
Proof. vm_compute. split; reflexivity. Qed.

(* rejected: a bitwise AND of two inputs *)
Definition and_prog : program :=
  prog [(1, u8); (2, u8)] u8 [st (SExpr (Ex (EOp OBitAnd (id_ 1 u8) (id_ 2 u8)) m0 u8))].
Example and_prog_rejected : klower_main 50 and_prog = Crash.
Proof. vm_compute. reflexivity. Qed.

(* rejected: an array read at a dynamic index *)
Definition idx_prog : program :=
  prog [(1, arr3); (2, usz)] u8 [st (SExpr (Ex (EIdx (id_ 1 arr3) (id_ 2 usz)) m0 u8))].
Example idx_prog_rejected : klower_main 50 idx_prog = Crash.
Proof. vm_compute. reflexivity. Qed.

(* rejected, and rightly so: destructuring an enum PARAMETER with a two-arm match costs AND
   gates in the real circuit (the arms' results are muxed by the tag test): 16 of them here *)
Definition enum_prog : program :=
  prog [(1, eT)] u8
    [st (SExpr (Ex (EMatch (id_ 1 eT)
          [(Pat (PEnumTup 31 1 [pid 10 u8]) m0 eT, id_ 10 u8); (Pat (PId 11) m0 eT, lit8 0)]) m0 u8))].
Example enum_prog_rejected :
  klower_main 50 enum_prog = Crash /\
  match lower_program_with 50 true enum_prog with Ok (LCircuit c) => Some (and_gates c) | _ => None end = Some 16.
Proof. vm_compute. split; reflexivity. Qed.

(* a gap of the abstract domain (it does not track wire identity): `if c { y } else { y }` on an
   unknown condition is rejected although every mux of the real compiler hits the
   x0 == x1 shortcut and the circuit has no AND gate *)
Definition if_same_prog : program :=
  prog [(1, TBool); (2, u8)] u8 [st (SExpr (Ex (EIf (id_ 1 TBool) (id_ 2 u8) (id_ 2 u8)) m0 u8))].
Example if_same_prog_gap :
  klower_main 50 if_same_prog = Crash /\
  match lower_program_with 50 true if_same_prog with Ok (LCircuit c) => Some (and_gates c) | _ => None end = Some 0.
Proof. vm_compute. split; reflexivity. Qed.
End FreeExamples.

Print Assumptions FreeExamples.move_prog_zero_and.
