(* Agreement of the source-level semantics (Lang/Sem.v) with the bit-level semantics
   (Compile/TSem.v) on the IMPERATIVE SCALAR fragment: the scalar expressions of
   Compile/TSemSemExpr.v (operands may have effects) closed under blocks, `let x = e`
   (identifier pattern), `let mut`, assignment `x = e` (no accessors), expression statements,
   if / else whose branches assign, && / || whose operands have effects.  Values are scalars
   (bool, integers of width 8/16/32/64) or the unit value.  Outside the fragment: calls and
   for loops (TSemSemCall.v), match (TSemSemMatch.v), aggregates (TSemSemAgg.v), `*` with a literal operand
   (TSemSemMul.v: the rewrite into repeated addition diverges from Sem.v on some negative
   literals, the finding const-mul-rewrite-intermediate-overflow).

   Form: partial correctness.  IF the bit-level run (any fuel) from no panic returns Ok THEN
   it agrees with Sem.v (any fuel): value, environment, panic.  Panics rely on
   [TSemSticky.tsem_sticky_all] (whole language).

   PART 1 (Section Control) is independent of the values being scalars: the value relation
     [VR : ty -> Sem.value -> list bool -> Prop] is a parameter, used only through
     [VR TBool v w -> exists b, v = VBool b /\ w = [b]] and [VR unit_ty unit_val []].
     Environments: [env_rel3 VR en E g] = the three environments have the same number of
     scopes; per scope ([scope_rel]) the bit-level scope is key-sorted and the three look-ups of
     every name agree ([VR] on the values).  Preservation: [rel_push], [rel_pop], [rel_let],
     [rel_assign], [rel_lookup]; merging: [mux_envs_inv] (from key equality, [keys]).
     Agreement predicates [AgE], [AgS], [AgSS]; node lemmas [if_node], [logic_node],
     [sexpr_node], [let_node], [letmut_node], [assign_node], [stmts_node], [block_node]: those of
     Compile/SimNodes.v at this relation.
   PART 2: scalars, [VRs]; [keys_every] (an Ok run keeps the keys of every scope: whole language,
     no typing); the strict checker [sc_expr] / [sc_block] / [sc_stmt] (boolean; [sc_implies_wt]:
     it is a restriction of Lang/Wt.v), seen as the fixed point of one level [sc_node] /
     [sc_snode] / [sc_fold] with an extension slot, and the induction on the fuel of Sem.v for any
     such checker and any relation of SimNodes.v ([agree]; TSemSemCall.v and TSemSemMatch.v fill
     the slot); the theorems [tsem_sem_imp_expr], [tsem_sem_imp_stmt], [tsem_sem_imp_block],
     [main_agrees], [main_obs_run] (from main's body to the program, for any value relation),
     [tsem_sem_program].  The syntactic fragment [imp_expr] / [imp_stmt] is
     implied by the checker; the theorems keep it as a premise. *)
From Coq Require Import Lia ZArith.
From GV Require Import Base.Util Base.Bits Base.BitsProofs Lang.Ast Lang.Wt Lang.WtShape Gadgets.Gadgets
  Gadgets.GadgetSpec Gadgets.Arith Panic.PanicRec Panic.PanicSem Compile.Lower
  Compile.TSem Compile.TSemFacts Compile.TSemArith1 Compile.TSemArith2 Compile.TSemControl
  Compile.TSemSemExpr Compile.TSemSticky.
From GV Require Export Compile.SimNodes.
From GV Require Lang.Sem.
Local Open Scope N_scope.

(* ------------------------------------------------------------------ scopes of the lowering:
   sorted by key *)

Fixpoint ssortedK (ks : list N) : Prop :=
  match ks with
  | [] => True
  | k :: r => (forall k', In k' r -> k < k') /\ ssortedK r
  end.

Definition ssorted (s : @scope bool) : Prop := ssortedK (map fst s).
Definition keys (E : @cenv bool) : list (list N) := map (map fst) E.
Definition wf_env (E : @cenv bool) : Prop := Forall ssorted E.

Lemma wf_env_keys E E' : keys E' = keys E -> wf_env E -> wf_env E'.
Proof.
  unfold keys, wf_env. revert E'. induction E as [|s E IH]; intros [|s' E'] Hk Hw; try discriminate.
  - constructor.
  - cbn [map] in Hk. injection Hk as H1 H2. inversion Hw; subst. constructor; [|now apply IH].
    unfold ssorted in *. now rewrite H1.
Qed.

Lemma ssortedK_NoDup ks : ssortedK ks -> NoDup ks.
Proof.
  induction ks as [|k r IH]; intro H; [constructor|]. destruct H as [H1 H2].
  constructor; [|now apply IH]. intro Hin. specialize (H1 k Hin). lia.
Qed.

Lemma ssorted_distinct s : ssorted s -> keys_distinct s.
Proof. apply ssortedK_NoDup. Qed.

Lemma wf_env_distinct E : wf_env E -> Forall keys_distinct E.
Proof. intro H. eapply Forall_impl; [|exact H]. apply ssorted_distinct. Qed.

Lemma scope_insert_keys_in (s : @scope bool) x v k :
  In k (map fst (scope_insert s x v)) -> k = x \/ In k (map fst s).
Proof.
  induction s as [|[k0 w] s IH]; cbn [scope_insert map fst In].
  - intros [H|[]]; auto.
  - destruct (x <? k0); [|destruct (x =? k0)]; cbn [map fst In]; intuition.
Qed.

Lemma scope_insert_sorted (s : @scope bool) x v : ssorted s -> ssorted (scope_insert s x v).
Proof.
  unfold ssorted. induction s as [|[k0 w] s IH]; cbn [scope_insert map fst ssortedK].
  - intros _. split; [intros ? []|exact I].
  - intros [H1 H2]. destruct (N.ltb_spec x k0) as [Hlt|Hge].
    + cbn [map fst ssortedK]. split; [|split; assumption].
      intros k' [<-|Hin]; [exact Hlt|]. specialize (H1 k' Hin). lia.
    + destruct (N.eqb_spec x k0) as [->|Hne]; cbn [map fst ssortedK].
      * split; assumption.
      * split; [|now apply IH]. intros k' Hin. apply scope_insert_keys_in in Hin.
        destruct Hin as [->|Hin]; [lia|now apply H1].
Qed.

Lemma scope_replace_keys (s s' : @scope bool) x v : scope_replace s x v = Some s' -> map fst s' = map fst s.
Proof.
  revert s'. induction s as [|[k w] s IH]; intros s'; cbn [scope_replace]; [discriminate|].
  destruct (x =? k).
  - intros [= <-]. reflexivity.
  - destruct (scope_replace s x v) as [r|]; [|discriminate]. intros [= <-]. cbn [map fst]. f_equal. now apply IH.
Qed.

Lemma scope_replace_some (s : @scope bool) x v w : assocN x s = Some w -> exists s', scope_replace s x v = Some s'.
Proof.
  induction s as [|[k w0] s IH]; cbn [assocN scope_replace]; [discriminate|].
  destruct (x =? k); [eauto|]. intro H. destruct (IH H) as [s' ->]. eauto.
Qed.

Lemma env_assign_keys (E : @cenv bool) : forall E' x v, env_assign E x v = Ok E' -> keys E' = keys E.
Proof.
  induction E as [|s r IH]; intros E' x v; cbn [env_assign]; [discriminate|].
  destruct (scope_replace s x v) as [s'|] eqn:Es.
  - intros [= <-]. unfold keys. cbn [map]. f_equal. eapply scope_replace_keys; eassumption.
  - destruct (env_assign r x v) as [r'| |] eqn:Er; cbn [bind]; try discriminate. intros [= <-].
    unfold keys in *. cbn [map]. f_equal. eapply IH; eassumption.
Qed.

(* ------------------------------------------------------------------ merging environments *)

Lemma mux_envs_inv c a b (o : pobs) r o' :
  mux_envs tops c a b o = Ok (r, o') -> keys a = keys b -> wf_env b ->
  r = (if c then a else b) /\ o' = o.
Proof. intros H Hk Hw. exact (mux_envs_sel c a b o r o' H Hk (wf_env_distinct b Hw)). Qed.

(* ------------------------------------------------------------------ the source side of
   assignment *)

Lemma update_assoc_some s x (v v0 : Sem.value) : assocN x s = Some v0 ->
  exists s', Sem.update_assoc s x v = Some s' /\
             forall y, assocN y s' = if y =? x then Some v else assocN y s.
Proof.
  induction s as [|[k w] s IH]; cbn [assocN Sem.update_assoc]; [discriminate|].
  destruct (N.eqb_spec x k) as [->|Hne].
  - intros _. eexists. split; [reflexivity|]. intro y. cbn [assocN]. now destruct (y =? k).
  - intro H. destruct (IH H) as (s' & -> & Hs'). eexists. split; [reflexivity|].
    intro y. cbn [assocN]. rewrite Hs'. destruct (N.eqb_spec y k) as [->|]; [|reflexivity].
    destruct (N.eqb_spec k x); [congruence|reflexivity].
Qed.

Lemma update_assoc_none s x (v : Sem.value) : assocN x s = None -> Sem.update_assoc s x v = None.
Proof.
  induction s as [|[k w] s IH]; cbn [assocN Sem.update_assoc]; [reflexivity|].
  destruct (x =? k); [discriminate|]. intro H. now rewrite (IH H).
Qed.

Lemma scope_replace_none' (s : @scope bool) x v : assocN x s = None -> scope_replace s x v = None.
Proof.
  induction s as [|[k w] s IH]; cbn [assocN scope_replace]; [reflexivity|].
  destruct (x =? k); [discriminate|]. intro H. now rewrite (IH H).
Qed.

Lemma scope_replace_lookup (s s' : @scope bool) x v : scope_replace s x v = Some s' ->
  forall y, assocN y s' = if y =? x then Some v else assocN y s.
Proof.
  intros H y. destruct (N.eqb_spec y x) as [->|Hne].
  - eapply scope_replace_get; eassumption.
  - eapply scope_replace_other; eassumption.
Qed.

(* ------------------------------------------------------------------ PART 1: control flow and
   environments, for an arbitrary value relation *)

Section Control.
  Variable P : program.
  Variable VR : ty -> Sem.value -> list bool -> Prop.
  Hypothesis VR_bool : forall v w, VR TBool v w -> exists b, v = Sem.VBool b /\ w = [b].
  Hypothesis VR_unit : VR unit_ty Sem.unit_val [].

  (* one scope of the three environments: the bit-level scope is sorted, and the three
     look-ups of every name agree *)
  Definition scope_rel (s : list (N * Sem.value)) (cs : @scope bool) (gs : list (N * (ty * bool))) : Prop :=
    ssorted cs /\
    forall x, match assocN x gs with
              | Some (t, _) => exists v w, assocN x s = Some v /\ assocN x cs = Some w /\ VR t v w
              | None => assocN x s = None /\ assocN x cs = None
              end.

  Definition env_rel3 (en : Sem.env) (E : @cenv bool) (g : tenv) : Prop :=
    Forall3 scope_rel (Sem.scopes en) E g.

  Lemma rel_wf en E g : env_rel3 en E g -> wf_env E.
  Proof.
    unfold env_rel3, wf_env. induction 1 as [|s cs gs ss E g [Hs _] _ IH]; constructor; assumption.
  Qed.

  Lemma rel_scopes en en' E g : Sem.scopes en' = Sem.scopes en -> env_rel3 en E g -> env_rel3 en' E g.
  Proof. unfold env_rel3. now intros ->. Qed.

  Lemma rel_lookup en E g x t mu : env_rel3 en E g -> tlookup g x = Some (t, mu) ->
    exists v w, Sem.lookup_var en x = Some v /\ env_get E x = Some w /\ VR t v w.
  Proof.
    unfold env_rel3, Sem.lookup_var. induction 1 as [|s cs gs ss E g [_ Hs] _ IH]; cbn [tlookup]; [discriminate|].
    cbn [Sem.lookup_scopes env_get]. specialize (Hs x). destruct (assocN x gs) as [[t' mu']|].
    - intros [= -> ->]. destruct Hs as (v & w & -> & -> & HV). eauto.
    - destruct Hs as [-> ->]. exact IH.
  Qed.

  Lemma rel_push en E g : env_rel3 en E g -> env_rel3 (Sem.push_scope en) (env_push E) ([] :: g).
  Proof.
    intro H. unfold env_rel3, Sem.push_scope, env_push. cbn [Sem.scopes]. constructor; [|exact H].
    split; [exact I|]. intro x. cbn [assocN]. auto.
  Qed.

  Lemma rel_pop en E g E2 : env_rel3 en E g -> env_pop E = Ok E2 -> env_rel3 (Sem.pop_scope en) E2 (tl g).
  Proof.
    unfold env_rel3, Sem.pop_scope. cbn [Sem.scopes]. intros H Hp. destruct H; cbn [env_pop] in Hp; [discriminate|].
    injection Hp as <-. exact H0.
  Qed.

  Lemma rel_let en E g x t mu v w E' : env_rel3 en E g -> VR t v w -> env_let E x w = Ok E' ->
    env_rel3 (Sem.bind_var en x v) E' (tbind g x t mu).
  Proof.
    unfold env_rel3, Sem.bind_var. intros H HV Hl.
    destruct H as [|s cs gs ss E g [Hso Hs] Hr]; cbn [env_let] in Hl; [discriminate|].
    injection Hl as <-. cbn [Sem.scopes tbind]. constructor; [|exact Hr].
    split; [now apply scope_insert_sorted|]. intro y. cbn [assocN].
    destruct (N.eqb_spec y x) as [->|Hne].
    - exists v, w. rewrite scope_insert_get. auto.
    - rewrite scope_insert_other by exact Hne. apply Hs.
  Qed.

  Lemma rel_assign en E g x t mu v w E' : env_rel3 en E g -> tlookup g x = Some (t, mu) -> VR t v w ->
    env_assign E x w = Ok E' ->
    exists en', Sem.assign_var en x v = Some en' /\ env_rel3 en' E' g.
  Proof.
    unfold env_rel3, Sem.assign_var. intros H Hl HV Ha.
    assert (exists ss', Sem.assign_scopes (Sem.scopes en) x v = Some ss' /\ Forall3 scope_rel ss' E' g) as (ss' & -> & Hr).
    2:{ eexists. split; [reflexivity|exact Hr]. }
    revert E' Hl Ha. induction H as [|s cs gs ss E g [Hso Hs] Hr0 IH]; intros E' Hl Ha; cbn [tlookup] in Hl; [discriminate|].
    cbn [env_assign Sem.assign_scopes] in *. pose proof (Hs x) as Hx.
    destruct (assocN x gs) as [[t' mu']|] eqn:Eg.
    - injection Hl as -> ->. destruct Hx as (v0 & w0 & Hv0 & Hw0 & _).
      destruct (update_assoc_some s x v v0 Hv0) as (s' & -> & Hs').
      destruct (scope_replace_some cs x w w0 Hw0) as (cs' & Hcs'). rewrite Hcs' in Ha.
      injection Ha as <-. eexists. split; [reflexivity|]. constructor; [|assumption].
      split; [unfold ssorted; rewrite (scope_replace_keys _ _ _ _ Hcs'); exact Hso|].
      intro y. rewrite Hs', (scope_replace_lookup _ _ _ _ Hcs').
      destruct (N.eqb_spec y x) as [->|Hne]; [|apply Hs]. rewrite Eg. eauto.
    - destruct Hx as [Hsn Hcn]. rewrite (update_assoc_none s x v Hsn).
      rewrite (scope_replace_none' cs x w Hcn) in Ha.
      destruct (env_assign E x w) as [r'| |] eqn:Er; cbn [bind] in Ha; try discriminate. injection Ha as <-.
      destruct (IH r' Hl eq_refl) as (ss' & -> & Hr). eexists. split; [reflexivity|].
      constructor; [split; assumption|exact Hr].
  Qed.

  (* ---------------------------------------------------------------- the agreement predicates *)

  Definition pcode (r : Sem.reason) (m : meta) : N * ploc := (preason_num (pr r), ploc32 (ploc_of m)).

  Definition AgE (fuel : nat) (g : tenv) (e : expr) : Prop :=
    forall en E fT w E' o',
    env_rel3 en E g -> lower_expr tops fT P e E None = Ok ((w, E'), o') ->
    match Sem.eval fuel P en e with
    | Sem.Done (v, en') => o' = None /\ VR (e_ty e) v w /\ env_rel3 en' E' g
    | Sem.Panicked r m => o' = Some (pcode r m)
    | _ => True
    end.

  (* a statement: [g'] the context after it, [t] its type *)
  Definition AgS (fuel : nat) (g g' : tenv) (t : ty) (s : stmt) : Prop :=
    forall en E fT w E' o',
    env_rel3 en E g -> lower_stmt tops fT P s E None = Ok ((w, E'), o') ->
    match Sem.exec fuel P en s with
    | Sem.Done (v, en') => o' = None /\ VR t v w /\ env_rel3 en' E' g'
    | Sem.Panicked r m => o' = Some (pcode r m)
    | _ => True
    end.

  (* an Ok run keeps the keys of every scope *)
  Definition KP (e : expr) : Prop :=
    forall fT E o w E' o', lower_expr tops fT P e E o = Ok ((w, E'), o') -> keys E' = keys E.

  Lemma sticky_e fT e E x w E' o' : lower_expr tops fT P e E (Some x) = Ok ((w, E'), o') -> o' = Some x.
  Proof. exact (stkx_expr x P fT e E (w, E') o'). Qed.

  Lemma sticky_s fT s E x w E' o' : lower_stmt tops fT P s E (Some x) = Ok ((w, E'), o') -> o' = Some x.
  Proof. exact (stkx_stmt x P fT s E (w, E') o'). Qed.

  (* [env_rel3] as a relation of SimNodes.v: no state, no condition on the context *)
  Definition rel3_nodes : node_rel VR :=
    {| State := unit; inner := fun u => u; rel := fun _ => env_rel3; ctx_ok := fun _ => True;
       nr_ctx := fun _ _ _ _ _ => I;
       nr_kd := fun _ en E g H => wf_env_distinct E (rel_wf en E g H);
       nr_scopes := fun _ => rel_scopes; nr_lookup := fun _ => rel_lookup; nr_push := fun _ => rel_push;
       nr_pop := fun _ en E g E2 H Hp _ => rel_pop en E g E2 H Hp; nr_let := fun _ => rel_let |}.

  Lemma if_node f g c a b m t :
    AgE f g c -> AgE f g a -> AgE f g b -> KP a -> KP b ->
    e_ty c = TBool -> e_ty a = t -> e_ty b = t ->
    AgE (S f) g (Ex (EIf c a b) m t).
  Proof.
    intros IHc IHa IHb.
    exact (fun Ka Kb Etc Eta Etb =>
      SimNodes.if_node P VR VR_bool rel3_nodes f g c a b m t (fun _ => IHc) (fun _ => IHa) (fun _ => IHb) Ka Kb Etc Eta Etb tt).
  Qed.

  Lemma logic_node f g (land : bool) x y m :
    AgE f g x -> AgE f g y -> KP y -> e_ty x = TBool -> e_ty y = TBool ->
    AgE (S f) g (Ex (EOp (if land then OLAnd else OLOr) x y) m TBool).
  Proof.
    intros IHx IHy.
    exact (fun Ky Etx Ety =>
      SimNodes.logic_node P VR VR_bool rel3_nodes f g land x y m (fun _ => IHx) (fun _ => IHy) Ky Etx Ety tt).
  Qed.

  Lemma sexpr_node f g e m : AgE f g e -> AgS (S f) g g (e_ty e) (St (SExpr e) m).
  Proof. intro IH. exact (SimNodes.sexpr_node P VR rel3_nodes f g e m (fun _ => IH) tt). Qed.

  Lemma letmut_node f g x e m :
    AgE f g e -> AgS (S f) g (tbind g x (e_ty e) true) unit_ty (St (SLetMut x e) m).
  Proof.
    intro IH.
    exact (SimNodes.letmut_node P VR VR_unit rel3_nodes f g x e m (fun _ => IH) tt).
  Qed.

  Lemma let_node f g x mp e m :
    AgE f g e -> AgS (S f) g (tbind g x (e_ty e) false) unit_ty (St (SLet (Pat (PId x) mp (e_ty e)) e) m).
  Proof.
    intro IH.
    exact (SimNodes.let_node P VR VR_unit rel3_nodes f g x mp e m (fun _ => IH) tt).
  Qed.

  Lemma assign_node f g x e m mu :
    AgE f g e -> tlookup g x = Some (e_ty e, mu) -> AgS (S f) g g unit_ty (St (SAssign x [] e) m).
  Proof.
    intros IH Hlk.
    exact (SimNodes.assign_node P VR VR_unit rel3_nodes f g x e m mu
             (fun _ => IH) Hlk (fun _ en E v w E' H => rel_assign en E g x (e_ty e) mu v w E' H Hlk) tt).
  Qed.

  (* ---------------------------------------------------------------- statement lists, blocks *)

  (* the loop of [Sem.exec_block] *)
  Fixpoint sem_stmts (f : nat) (ss : list stmt) (last : Sem.value) (en : Sem.env)
    : Sem.outcome (Sem.value * Sem.env) :=
    match ss with
    | [] => Sem.Done (last, en)
    | s :: r => Sem.obind (Sem.exec f P en s) (fun '(v, en1) => sem_stmts f r v en1)
    end.

  Lemma exec_block_S f en b : Sem.exec_block (S f) P en b = sem_stmts f b Sem.unit_val en.
  Proof. exact (exec_block_stmts P f en b). Qed.

  (* [SimNodes.AgSSG] over [AgS] ([AgSS_G]) *)
  Inductive AgSS (f : nat) : tenv -> list stmt -> ty -> tenv -> ty -> Prop :=
  | AgSS_nil g t : AgSS f g [] t g t
  | AgSS_cons g s r g1 t1 t0 g' t :
      AgS f g g1 t1 s -> AgSS f g1 r t1 g' t -> AgSS f g (s :: r) t0 g' t.

  Lemma AgSS_G f g ss t0 g' t : AgSS f g ss t0 g' t ->
    AgSSG P VR rel3_nodes f g ss t0 g' t.
  Proof. induction 1 as [|g s r g1 t1 t0 g' t Hs _ IH]; econstructor; [intro; exact Hs|exact IH]. Qed.

  Lemma stmts_node f g ss t0 g' t : AgSS f g ss t0 g' t ->
    forall en E fT last lw w E' o',
    env_rel3 en E g -> VR t0 last lw ->
    block_stmts (lower_stmt tops fT P) ss lw E None = Ok ((w, E'), o') ->
    match sem_stmts f ss last en with
    | Sem.Done (v, en') => o' = None /\ VR t v w /\ env_rel3 en' E' g'
    | Sem.Panicked r m => o' = Some (pcode r m)
    | _ => True
    end.
  Proof. intro H. exact (SimNodes.stmts_node P VR rel3_nodes f g ss t0 g' t (AgSS_G _ _ _ _ _ _ H) tt). Qed.

  Lemma block_run_agrees f g ss g1 t : AgSS f ([] :: g) ss unit_ty g1 t -> tl g1 = g ->
    forall en E fT w E' o',
    env_rel3 en E g -> lower_block tops fT P ss E None = Ok ((w, E'), o') ->
    match Sem.obind (Sem.exec_block (S f) P (Sem.push_scope en) ss)
                    (fun '(v, en1) => Sem.Done (v, Sem.pop_scope en1)) with
    | Sem.Done (v, en') => o' = None /\ VR t v w /\ env_rel3 en' E' g
    | Sem.Panicked r m => o' = Some (pcode r m)
    | _ => True
    end.
  Proof.
    intros Hss Htl.
    exact (SimNodes.block_run_agrees P VR VR_unit rel3_nodes f g ss g1 t (AgSS_G _ _ _ _ _ _ Hss) Htl tt).
  Qed.

  Lemma block_node f g ss m t g1 : AgSS f ([] :: g) ss unit_ty g1 t -> tl g1 = g ->
    AgE (S (S f)) g (Ex (EBlock ss) m t).
  Proof.
    intros Hss Htl.
    exact (SimNodes.eblock_node P VR rel3_nodes (S f) g ss m t (fun _ => block_run_agrees f g ss g1 t Hss Htl) tt).
  Qed.
End Control.

(* ------------------------------------------------------------------ PART 2: scalars *)

(* the value relation: scalars as in TSemSemExpr.v, and the unit value (no bits) *)
Definition VRs (t : ty) (v : Sem.value) (w : list bool) : Prop :=
  (scalar_ty t = true /\ val_ok t v /\ w = enc_val t v) \/
  (t = unit_ty /\ v = Sem.unit_val /\ w = []).

Lemma VRs_bool v w : VRs TBool v w -> exists b, v = Sem.VBool b /\ w = [b].
Proof.
  intros [(_ & Hv & ->)|(Ht & _)]; [|discriminate Ht].
  destruct v; try contradiction. eauto.
Qed.

Lemma VRs_unit : VRs unit_ty Sem.unit_val [].
Proof. right. auto. Qed.

Lemma VRs_scalar t v w : scalar_ty t = true -> VRs t v w -> val_ok t v /\ w = enc_val t v.
Proof. intros Hs [(_ & Hv & ->)|(-> & _)]; [auto|discriminate Hs]. Qed.

Lemma VRs_intro t v : scalar_ty t = true -> val_ok t v -> VRs t v (enc_val t v).
Proof. intros. left. auto. Qed.

Lemma binop_run_inv P re rp rb o x y m t E o0 w E' o' :
  op_arith o || op_cmp o || op_eq o = true ->
  (o = OMul -> is_num_lit x = false /\ is_num_lit y = false) ->
  lower_expr_body tops P re rp rb (Ex (EOp o x y) m t) E o0 = Ok ((w, E'), o') ->
  exists xw E1 o1 yw o2,
    re x E o0 = Ok ((xw, E1), o1) /\ re y E1 o1 = Ok ((yw, E'), o2) /\
    lower_binop tops o t (e_ty x) (e_ty y) xw yw m o2 = Ok (w, o').
Proof.
  intros Ho Hm. apply binop_run; [exact Ho|]. intro Eo. destruct (Hm Eo). now apply mul_rewrite_none.
Qed.

(* ------------------------------------------------------------------ the fragment (syntactic) and
   the keys of the environment *)

Fixpoint imp_expr (e : expr) : bool :=
  match e with
  | Ex ei _ _ =>
    match ei with
    | ETrue | EFalse | ENumU _ _ | ENumS _ _ | EId _ => true
    | ENeg e1 | ENot e1 | ECast _ e1 => imp_expr e1
    | EOp o x y =>
        imp_expr x && imp_expr y &&
        match o with OMul => negb (is_num_lit x) && negb (is_num_lit y) | _ => true end
    | EIf c a b => imp_expr c && imp_expr a && imp_expr b
    | EBlock b => forallb imp_stmt b
    | _ => false
    end
  end
with imp_stmt (s : stmt) : bool :=
  match s with
  | St si _ =>
    match si with
    | SLet (Pat (PId _) _ _) e => imp_expr e
    | SLetMut _ e => imp_expr e
    | SAssign _ [] e => imp_expr e
    | SExpr e => imp_expr e
    | _ => false
    end
  end.

Lemma mux_scope_keys c b0 : forall a (o : pobs) r o', mux_scope tops c a b0 o = Ok (r, o') -> map fst r = map fst a.
Proof.
  induction a as [|[k va] a IH]; intros o r o' H; cbn [mux_scope] in H.
  - apply ret_inv in H. now destruct H as [-> _].
  - destruct (assocN k b0); [|discriminate H]. minva H as ws o1 H1. minva H as r' o2 H2.
    apply ret_inv in H. destruct H as [-> _]. cbn [map fst]. f_equal. eapply IH; eassumption.
Qed.

Lemma mux_scopes_keys c : forall sa sb (o : pobs) r o',
  mux_scopes tops c sa sb o = Ok (r, o') -> map (map fst) r = map (map fst) sa.
Proof.
  induction sa as [|a sa IH]; intros [|b sb] o r o' H; cbn [mux_scopes] in H; try discriminate H.
  - apply ret_inv in H. now destruct H as [-> _].
  - minva H as s o1 H1. minva H as r' o2 H2. apply ret_inv in H. destruct H as [-> _].
    cbn [map]. f_equal; [eapply mux_scope_keys; eassumption|eapply IH; eassumption].
Qed.

Lemma map_rev_eq {A B} (f : A -> B) l l' : map f l = map f (rev l') -> map f (rev l) = map f l'.
Proof. intro H. rewrite map_rev, H, map_rev. apply rev_involutive. Qed.

Lemma mux_envs_keys c a b (o : pobs) r o' : mux_envs tops c a b o = Ok (r, o') -> keys r = keys a.
Proof.
  unfold mux_envs, keys. destruct (negb _); [discriminate|]. intro H. minva H as ss o1 H1.
  apply ret_inv in H. destruct H as [-> _]. apply mux_scopes_keys in H1.
  exact (map_rev_eq _ _ _ H1).
Qed.

Lemma keys_length E : length (keys E) = length E.
Proof. apply map_length. Qed.

Lemma env_let_keys (E E' : @cenv bool) x v : env_let E x v = Ok E' ->
  tl (keys E') = tl (keys E) /\ length E' = length E.
Proof. destruct E as [|s r]; cbn [env_let]; [discriminate|]. intros [= <-]. auto. Qed.

Definition SKP (E E' : @cenv bool) : Prop := tl (keys E') = tl (keys E) /\ length E' = length E.

Lemma SKP_of_keys E E' : keys E' = keys E -> SKP E E'.
Proof. intro H. split; [now rewrite H|]. now rewrite <- (keys_length E'), H, keys_length. Qed.

Lemma SKP_trans E1 E2 E3 : SKP E1 E2 -> SKP E2 E3 -> SKP E1 E3.
Proof. intros [H1 H2] [H3 H4]. split; congruence. Qed.

Lemma block_stmts_keys (rs : stmt -> @cenv bool -> MB (list bool * @cenv bool)) :
  forall ss, (forall s, In s ss -> forall E o w E' o', rs s E o = Ok ((w, E'), o') -> SKP E E') ->
  forall last E o w E' o', block_stmts rs ss last E o = Ok ((w, E'), o') -> SKP E E'.
Proof.
  induction ss as [|s r IH]; intros Hs last E o w E' o' H; cbn [block_stmts] in H.
  - apply ret_inv in H. destruct H as [Heq _]. injection Heq as _ ->. now apply SKP_of_keys.
  - minva H as [w1 E1] o1 H1. eapply SKP_trans.
    + eapply Hs; [now left|exact H1].
    + eapply IH; [|exact H]. intros s0 Hin. apply Hs. now right.
Qed.

(* ------------------------------------------------------------------ KEYS, whole language

   Every Ok run of the lowering on Booleans, from any observation, for ANY program (no typing
   hypothesis): expressions and blocks give back an environment with the same keys in every
   scope ([KP]), statements and patterns only add keys to the current scope ([SKP]).  This
   discharges the [KP] hypotheses of [if_node], [logic_node] and of the arms of a match. *)

Section PatternFacts.
  Variable P : program.

  (* what every Ok run of a pattern does: the observation is untouched, the environment keeps
     its scopes below the current one *)
  Definition pfact (rp : pattern -> list bool -> @cenv bool -> MB (bool * @cenv bool)) : Prop :=
    forall p mw E o c E' o', rp p mw E o = Ok ((c, E'), o') -> o' = o /\ SKP E E'.

  Lemma SKP_refl E : SKP E E.
  Proof. split; reflexivity. Qed.

  Lemma fields_match_facts rp : pfact rp -> forall mw ps w im E o c E' o',
    fields_match tops rp mw ps w im E o = Ok ((c, E'), o') ->
    o' = o /\ SKP E E' /\ (im = false -> c = false).
  Proof.
    intros Hrp mw. induction ps as [|[fp fbits] r IH]; intros w im E o c E' o' H; cbn [fields_match] in H.
    - apply ret_inv in H. destruct H as [Heq ->]. injection Heq as -> ->. repeat split; auto using SKP_refl.
    - minva H as sub o1 H1. apply lift_res_inv in H1. destruct H1 as [_ ->].
      minva H as [fm E1] o1 H2. destruct (Hrp _ _ _ _ _ _ _ H2) as [-> Hk1]. mprim H.
      destruct (IH _ _ _ _ _ _ _ H) as (-> & Hk2 & Hf). split; [reflexivity|].
      split; [eapply SKP_trans; eassumption|]. intros ->. now apply Hf.
  Qed.

  Lemma struct_match_facts rp : pfact rp -> forall mw fields ds w im E o c E' o',
    struct_match tops P rp mw fields ds w im E o = Ok ((c, E'), o') ->
    o' = o /\ SKP E E' /\ (im = false -> c = false).
  Proof.
    intros Hrp mw fields. induction ds as [|[fname fty] r IH]; intros w im E o c E' o' H; cbn [struct_match] in H.
    - apply ret_inv in H. destruct H as [Heq ->]. injection Heq as -> ->. repeat split; auto using SKP_refl.
    - destruct (assocN fname (rev fields)) as [fp|].
      + minva H as sub o1 H1. apply lift_res_inv in H1. destruct H1 as [_ ->].
        minva H as [fm E1] o1 H2. destruct (Hrp _ _ _ _ _ _ _ H2) as [-> Hk1]. mprim H.
        destruct (IH _ _ _ _ _ _ _ H) as (-> & Hk2 & Hf). split; [reflexivity|].
        split; [eapply SKP_trans; eassumption|]. intros ->. now apply Hf.
      + exact (IH _ _ _ _ _ _ _ H).
  Qed.

  Lemma range_match_facts bits sg (mw lo hi : list bool) (E : @cenv bool) (o : pobs) c E' o' :
    mbind (o_comparator tops bits mw sg lo sg) (fun '(lt_min, _) =>
    mbind (o_comparator tops bits mw sg hi sg) (fun '(_, gt_max) =>
    mbind (m_not tops lt_min) (fun a =>
    mbind (m_not tops gt_max) (fun c0 =>
    mbind (m_and tops a c0) (fun r => ret (r, E)))))) o = Ok ((c, E'), o') -> o' = o /\ E' = E.
  Proof.
    intro H. minva H as [lt1 gt1] o1 H1. apply pure_comparator in H1. subst o1.
    minva H as [lt2 gt2] o2 H2. apply pure_comparator in H2. subst o2.
    mprim H. mprim H. mprim H. apply ret_inv in H. destruct H as [Heq ->]. injection Heq as _ ->. auto.
  Qed.

  Lemma eq_match_facts bits (mw lit : list bool) (E : @cenv bool) (o : pobs) c E' o' :
    (if (length mw <? bits)%nat then crash
     else mbind (eq_acc tops (wT tops) (combine lit (firstn bits mw))) (fun acc => ret (acc, E))) o
      = Ok ((c, E'), o') -> o' = o /\ E' = E.
  Proof.
    destruct (_ <? _)%nat; [discriminate|]. intro H. minva H as acc o1 H1. rewrite eq_acc_tops in H1.
    injection H1 as _ <-. apply ret_inv in H. destruct H as [Heq ->]. injection Heq as _ ->. auto.
  Qed.

  Lemma lower_pattern_body_facts rp : pfact rp -> pfact (lower_pattern_body tops P rp).
  Proof.
    intros Hrp [pi m t] mw E o c E' o' H. destruct pi; cbn [lower_pattern_body] in H.
    - minva H as E1 o1 H1. apply lift_res_inv in H1. destruct H1 as [H1 ->].
      apply ret_inv in H. destruct H as [Heq ->]. injection Heq as _ ->. split; [reflexivity|].
      exact (env_let_keys _ _ _ _ H1).
    - minva H as b o1 H1. apply one_wire_inv in H1. destruct H1 as [_ ->].
      apply ret_inv in H. destruct H as [Heq ->]. injection Heq as _ ->. auto using SKP_refl.
    - minva H as b o1 H1. apply one_wire_inv in H1. destruct H1 as [_ ->]. mprim H.
      apply ret_inv in H. destruct H as [Heq ->]. injection Heq as _ ->. auto using SKP_refl.
    - apply eq_match_facts in H. destruct H as [-> ->]. auto using SKP_refl.
    - apply eq_match_facts in H. destruct H as [-> ->]. auto using SKP_refl.
    - destruct (fields_match_facts rp Hrp _ _ _ _ _ _ _ _ _ H) as (-> & Hk & _). auto.
    - destruct (assocN name (p_structs P)); [|discriminate H].
      destruct (struct_match_facts rp Hrp _ _ _ _ _ _ _ _ _ _ H) as (-> & Hk & _). auto.
    - destruct (assocN ename (p_enums P)); [|discriminate H].
      minva H as tg o1 H1. apply lift_res_inv in H1. destruct H1 as [_ ->].
      minva H as acc o1 H2. rewrite eq_acc_tops in H2. injection H2 as _ <-.
      apply ret_inv in H. destruct H as [Heq ->]. injection Heq as _ ->. auto using SKP_refl.
    - destruct (assocN ename (p_enums P)); [|discriminate H].
      minva H as tg o1 H1. apply lift_res_inv in H1. destruct H1 as [_ ->].
      minva H as acc o1 H2. rewrite eq_acc_tops in H2. injection H2 as _ <-.
      destruct (nthN l variant); [|discriminate H].
      destruct (fields_match_facts rp Hrp _ _ _ _ _ _ _ _ _ H) as (-> & Hk & _). auto.
    - apply range_match_facts in H. destruct H as [-> ->]. auto using SKP_refl.
    - apply range_match_facts in H. destruct H as [-> ->]. auto using SKP_refl.
  Qed.

  Lemma lower_pattern_facts : forall fT, pfact (lower_pattern tops fT P).
  Proof.
    induction fT as [|fT IH]; [intros p mw E o c E' o' H; discriminate H|].
    intros p mw E o c E' o' H. rewrite lower_pattern_S in H. exact (lower_pattern_body_facts _ IH _ _ _ _ _ _ _ H).
  Qed.
End PatternFacts.

Lemma env_pop_keys (E E' : @cenv bool) : env_pop E = Ok E' -> keys E' = tl (keys E).
Proof. destruct E; cbn [env_pop]; [discriminate|]. now intros [= <-]. Qed.

Section KeysAll.
  Variable P : program.
  Variable re : expr -> @cenv bool -> MB (list bool * @cenv bool).
  Variable rp : pattern -> list bool -> @cenv bool -> MB (bool * @cenv bool).
  Variable rs : stmt -> @cenv bool -> MB (list bool * @cenv bool).
  Variable rb : list stmt -> @cenv bool -> MB (list bool * @cenv bool).
  Hypothesis Ke : forall e E o w E' o', re e E o = Ok ((w, E'), o') -> keys E' = keys E.
  Hypothesis Kp : forall p mw E o c E' o', rp p mw E o = Ok ((c, E'), o') -> SKP E E'.
  Hypothesis Ks : forall s E o w E' o', rs s E o = Ok ((w, E'), o') -> SKP E E'.
  Hypothesis Kb : forall b E o w E' o', rb b E o = Ok ((w, E'), o') -> keys E' = keys E.

  Lemma keys_push_pop (E E1 E2 : @cenv bool) : SKP (env_push E) E1 -> env_pop E1 = Ok E2 -> keys E2 = keys E.
  Proof.
    intros [Hk _] Hp. destruct E1; cbn [env_pop] in Hp; [discriminate|]. injection Hp as <-. exact Hk.
  Qed.

  Lemma keys_lower_list : forall es E o ws E' o', lower_list re es E o = Ok ((ws, E'), o') -> keys E' = keys E.
  Proof.
    induction es as [|e r IH]; intros E o ws E' o' H; cbn [lower_list] in H.
    - apply ret_inv in H. destruct H as [Heq _]. now injection Heq as _ ->.
    - minva H as [w1 E1] o1 H1. minva H as [ws1 E2] o2 H2. apply ret_inv in H. destruct H as [Heq _].
      injection Heq as _ ->. rewrite (IH _ _ _ _ _ H2). exact (Ke _ _ _ _ _ _ H1).
  Qed.

  Lemma keys_lower_struct_fields fields : forall ds E o ws E' o',
    lower_struct_fields re fields ds E o = Ok ((ws, E'), o') -> keys E' = keys E.
  Proof.
    induction ds as [|[fname fty] r IH]; intros E o ws E' o' H; cbn [lower_struct_fields] in H.
    - apply ret_inv in H. destruct H as [Heq _]. now injection Heq as _ ->.
    - destruct (assocN fname (rev fields)); [|discriminate H].
      minva H as [w1 E1] o1 H1. minva H as [ws1 E2] o2 H2. apply ret_inv in H. destruct H as [Heq _].
      injection Heq as _ ->. rewrite (IH _ _ _ _ _ H2). exact (Ke _ _ _ _ _ _ H1).
  Qed.

  Lemma keys_lower_args : forall ps args E o bs E' o',
    lower_args re ps args E o = Ok ((bs, E'), o') -> keys E' = keys E.
  Proof.
    induction ps as [|[pn pt] pr IH]; intros [|a ar] E o bs E' o' H; cbn [lower_args] in H;
      try (apply ret_inv in H; destruct H as [Heq _]; now injection Heq as _ ->).
    minva H as [w Ea] o1 H1. minva H as Eb o2 H2. apply lift_res_inv in H2. destruct H2 as [H2 _].
    minva H as [bs1 Ec] o3 H3. apply ret_inv in H. destruct H as [Heq _]. injection Heq as _ ->.
    rewrite (IH _ _ _ _ _ _ H3). eapply keys_push_pop; [|exact H2]. apply SKP_of_keys. exact (Ke _ _ _ _ _ _ H1).
  Qed.

  Lemma skp_lower_stmts : forall ss E o E' o', lower_stmts rs ss E o = Ok (E', o') -> SKP E E'.
  Proof.
    induction ss as [|s r IH]; intros E o E' o' H; cbn [lower_stmts] in H.
    - apply ret_inv in H. destruct H as [-> _]. split; reflexivity.
    - minva H as [w1 E1] o1 H1. eapply SKP_trans; [exact (Ks _ _ _ _ _ _ H1)|exact (IH _ _ _ _ H)].
  Qed.

  Lemma skp_bind_all : forall (bs : list (N * list bool)) (E E' : @cenv bool),
    bind_all E bs = Ok E' -> SKP E E'.
  Proof.
    unfold bind_all. intros bs. 
    assert (G : forall (r : res (@cenv bool)) E', fold_left (fun Er b => let* E0 := Er in env_let E0 (fst b) (snd b)) bs r = Ok E' ->
                exists E0, r = Ok E0 /\ SKP E0 E').
    { induction bs as [|b bs IH]; intros r E' H; cbn [fold_left] in H.
      - exists E'. split; [exact H|split; reflexivity].
      - destruct (IH _ _ H) as (E1 & H1 & Hk). destruct r as [E0| |]; cbn [bind] in H1; try discriminate H1.
        exists E0. split; [reflexivity|]. eapply SKP_trans; [exact (env_let_keys _ _ _ _ H1)|exact Hk]. }
    intros E E' H. destruct (G _ _ H) as (E0 & [= <-] & Hk). exact Hk.
  Qed.

  Lemma keys_for_iterations pat body eb : forall n aw E o E' o',
    for_iterations rp rs pat body eb n aw E o = Ok (E', o') -> keys E' = keys E.
  Proof.
    induction n as [|k IH]; intros aw E o E' o' H; cbn [for_iterations] in H.
    - apply ret_inv in H. now destruct H as [-> _].
    - minva H as binding o1 H1. minva H as [c Ea] o2 H2. minva H as Eb o3 H3.
      minva H as Ec o4 H4. apply lift_res_inv in H4. destruct H4 as [H4 _].
      rewrite (IH _ _ _ _ _ H). eapply keys_push_pop; [|exact H4].
      eapply SKP_trans; [exact (Kp _ _ _ _ _ _ _ H2)|exact (skp_lower_stmts _ _ _ _ _ H3)].
  Qed.

  Lemma keys_join_loop_windows pat body eba ebb jts : forall ws E o E' o',
    join_loop_windows tops rp rs pat body eba ebb jts ws E o = Ok (E', o') -> keys E' = keys E.
  Proof.
    induction ws as [|w0_ r IH]; intros E o E' o' H; cbn [join_loop_windows] in H.
    - apply ret_inv in H. now destruct H as [-> _].
    - destruct r as [|w1_ r'].
      + apply ret_inv in H. now destruct H as [-> _].
      + minva H as [je binding] o1 H1. mprim H. minva H as [c Ej] o2 H2. minva H as Ej2 o3 H3.
        minva H as Ej3 o4 H4. apply lift_res_inv in H4. destruct H4 as [H4 _]. mprim H.
        minva H as Em o5 H5. mprim H. mprim H.
        rewrite (IH _ _ _ _ H), (mux_envs_keys _ _ _ _ _ _ H5). eapply keys_push_pop; [|exact H4].
        eapply SKP_trans; [exact (Kp _ _ _ _ _ _ _ H2)|exact (skp_lower_stmts _ _ _ _ _ H3)].
  Qed.

  Lemma keys_assign_indexes m : forall accs E acc o idxs E' o',
    assign_indexes tops P re m accs E acc o = Ok ((idxs, E'), o') -> keys E' = keys E.
  Proof.
    induction accs as [|[aty idx|tty i|sty fld] r IH]; intros E acc o idxs E' o' H; cbn [assign_indexes] in H.
    - apply ret_inv in H. destruct H as [Heq _]. now injection Heq as _ ->.
    - minva H as [eb ne] o1 H1. minva H as [iw E1] o2 H2. minva H as iw' o3 H3. minva H as u o4 H4.
      rewrite (IH _ _ _ _ _ _ H). exact (Ke _ _ _ _ _ _ H2).
    - exact (IH _ _ _ _ _ _ H).
    - exact (IH _ _ _ _ _ _ H).
  Qed.

  Lemma skp_fields_match mw : forall ps w im E o c E' o',
    fields_match tops rp mw ps w im E o = Ok ((c, E'), o') -> SKP E E'.
  Proof.
    induction ps as [|[fp fbits] r IH]; intros w im E o c E' o' H; cbn [fields_match] in H.
    - apply ret_inv in H. destruct H as [Heq _]. injection Heq as _ ->. split; reflexivity.
    - minva H as sub o1 H1. minva H as [fm E1] o2 H2. mprim H.
      eapply SKP_trans; [exact (Kp _ _ _ _ _ _ _ H2)|exact (IH _ _ _ _ _ _ _ H)].
  Qed.

  Lemma skp_struct_match mw fields : forall ds w im E o c E' o',
    struct_match tops P rp mw fields ds w im E o = Ok ((c, E'), o') -> SKP E E'.
  Proof.
    induction ds as [|[fname fty] r IH]; intros w im E o c E' o' H; cbn [struct_match] in H.
    - apply ret_inv in H. destruct H as [Heq _]. injection Heq as _ ->. split; reflexivity.
    - destruct (assocN fname (rev fields)).
      + minva H as sub o1 H1. minva H as [fm E1] o2 H2. mprim H.
        eapply SKP_trans; [exact (Kp _ _ _ _ _ _ _ H2)|exact (IH _ _ _ _ _ _ _ H)].
      + exact (IH _ _ _ _ _ _ _ H).
  Qed.

  Lemma keys_lower_arms bits sw E0 P0 : forall arms hp mret mpanic menv o mret' mpanic' menv' hp' o',
    keys menv = keys E0 ->
    lower_arms tops re rp bits sw E0 P0 arms hp mret mpanic menv o = Ok ((mret', mpanic', menv', hp'), o') ->
    keys menv' = keys E0.
  Proof.
    induction arms as [|[pat body] r IH]; intros hp mret mpanic menv o mret' mpanic' menv' hp' o' Hk H;
      cbn [lower_arms] in H.
    - apply ret_inv in H. destruct H as [Heq _]. injection Heq as _ _ -> _. exact Hk.
    - mprim H. minva H as [im E1] o1 H1. minva H as [rw E2] o2 H2. mprim H. mprim H.
      minva H as E3 o3 H3. apply lift_res_inv in H3. destruct H3 as [H3 _]. mprim H. mprim H.
      minva H as menv1 o4 H4. minva H as mret1 o5 H5. mprim H.
      apply (IH _ _ _ _ _ _ _ _ _ _) in H; [exact H|].
      rewrite (mux_envs_keys _ _ _ _ _ _ H4). eapply keys_push_pop; [|exact H3].
      eapply SKP_trans; [exact (Kp _ _ _ _ _ _ _ H1)|apply SKP_of_keys; exact (Ke _ _ _ _ _ _ H2)].
  Qed.

  Lemma keys_rev_app_last (E1 : @cenv bool) glob caller_rev E3 :
    rev E1 = glob :: caller_rev -> keys E3 = [map fst glob] -> keys (rev caller_rev ++ E3) = keys E1.
  Proof.
    intros Hr Hk. assert (E1 = rev caller_rev ++ [glob]) as ->.
    { rewrite <- (rev_involutive E1), Hr. reflexivity. }
    unfold keys in *. rewrite !map_app. f_equal. exact Hk.
  Qed.

  Lemma keys_lower_expr_body e E o w E' o' :
    lower_expr_body tops P re rp rb e E o = Ok ((w, E'), o') -> keys E' = keys E.
  Proof.
    destruct e as [ei m t]. intro H. destruct ei; cbn [lower_expr_body] in H.
    - apply ret_inv in H. destruct H as [Heq _]. now injection Heq as _ ->.
    - apply ret_inv in H. destruct H as [Heq _]. now injection Heq as _ ->.
    - apply ret_inv in H. destruct H as [Heq _]. now injection Heq as _ ->.
    - apply ret_inv in H. destruct H as [Heq _]. now injection Heq as _ ->.
    - destruct (env_get E name); [|discriminate H]. apply ret_inv in H. destruct H as [Heq _]. now injection Heq as _ ->.
    - (* array literal *)
      minva H as [ws E1] o1 H1. apply ret_inv in H. destruct H as [Heq _]. injection Heq as _ ->.
      exact (keys_lower_list _ _ _ _ _ _ H1).
    - (* repeated array *)
      minva H as [w1 E1] o1 H1. minva H as w2 o2 H2. apply ret_inv in H. destruct H as [Heq _]. injection Heq as _ ->.
      exact (Ke _ _ _ _ _ _ H1).
    - (* index *)
      minva H as [eb ne] o0 H0. minva H as [arr E1] o1 H1. minva H as [idx E2] o2 H2. minva H as [r i'] o3 H3.
      apply ret_inv in H. destruct H as [Heq _]. injection Heq as _ ->.
      rewrite (Ke _ _ _ _ _ _ H2). exact (Ke _ _ _ _ _ _ H1).
    - (* tuple literal *)
      minva H as [ws E1] o1 H1. apply ret_inv in H. destruct H as [Heq _]. injection Heq as _ ->.
      exact (keys_lower_list _ _ _ _ _ _ H1).
    - (* tuple access *)
      minva H as [wb wi] o0 H0. minva H as [w1 E1] o1 H1. minva H as r o2 H2.
      apply ret_inv in H. destruct H as [Heq _]. injection Heq as _ ->. exact (Ke _ _ _ _ _ _ H1).
    - (* field *)
      destruct (e_ty e); try discriminate H.
      minva H as [w1 E1] o1 H1. minva H as [wb wi] o0 H0. minva H as r o2 H2.
      apply ret_inv in H. destruct H as [Heq _]. injection Heq as _ ->. exact (Ke _ _ _ _ _ _ H1).
    - (* struct literal *)
      destruct (assocN name (p_structs P)); [|discriminate H].
      minva H as [ws E1] o1 H1. apply ret_inv in H. destruct H as [Heq _]. injection Heq as _ ->.
      exact (keys_lower_struct_fields _ _ _ _ _ _ _ H1).
    - (* enum literal *)
      destruct (assocN ename (p_enums P)); [|discriminate H].
      minva H as [ws E1] o1 H1. cbv zeta in H. destruct (_ <=? _)%nat; [|discriminate H].
      apply ret_inv in H. destruct H as [Heq _]. injection Heq as _ ->.
      exact (keys_lower_list _ _ _ _ _ _ H1).
    - (* match *)
      minva H as [sw E0] o1 H1. mprim H. minva H as [[[rw mp] me] hp] o2 H2. mprim H.
      apply ret_inv in H. destruct H as [Heq _]. injection Heq as _ ->.
      rewrite (keys_lower_arms _ _ _ _ _ _ _ _ _ _ _ _ _ _ _ eq_refl H2). exact (Ke _ _ _ _ _ _ H1).
    - (* unary minus *)
      minva H as [x E1] o1 H1. minva H as neg o2 H2. minva H as x0 o3 H3. minva H as n0 o4 H4.
      minva H as ov o5 H5. minva H as u o6 H6. apply ret_inv in H. destruct H as [Heq _]. injection Heq as _ ->.
      exact (Ke _ _ _ _ _ _ H1).
    - (* not *)
      minva H as [x E1] o1 H1. minva H as r o2 H2. apply ret_inv in H. destruct H as [Heq _]. injection Heq as _ ->.
      exact (Ke _ _ _ _ _ _ H1).
    - (* binary operators *)
      destruct o0; cbn [lower_expr_body] in H;
        try solve [minva H as [xw E1] o1 H1; minva H as [yw E2] o2 H2; minva H as r o3 H3;
                   apply ret_inv in H; destruct H as [Heq _]; injection Heq as _ ->;
                   rewrite (Ke _ _ _ _ _ _ H2); exact (Ke _ _ _ _ _ _ H1)].
      + (* * *)
        destruct (mul_rewrite x y m t) as [[operand e']|].
        * minva H as [w1 E1] o1 H1. minva H as E2 o2 H2. apply lift_res_inv in H2. destruct H2 as [H2 _].
          minva H as [r E3] o3 H3. minva H as E4 o4 H4. apply lift_res_inv in H4. destruct H4 as [H4 _].
          apply ret_inv in H. destruct H as [Heq _]. injection Heq as _ ->.
          rewrite <- (Ke _ _ _ _ _ _ H1). eapply keys_push_pop; [|exact H4].
          eapply SKP_trans; [exact (env_let_keys _ _ _ _ H2)|apply SKP_of_keys; exact (Ke _ _ _ _ _ _ H3)].
        * minva H as [xw E1] o1 H1. minva H as [yw E2] o2 H2. minva H as r o3 H3.
          apply ret_inv in H. destruct H as [Heq _]. injection Heq as _ ->.
          rewrite (Ke _ _ _ _ _ _ H2). exact (Ke _ _ _ _ _ _ H1).
      + (* && *)
        minva H as [xw E1] o1 H1. minva H as x0 o2 H2. mprim H. minva H as [yw E2] o3 H3. minva H as y0 o4 H4.
        minva H as E3 o5 H5. mprim H. mprim H. mprim H. mprim H.
        apply ret_inv in H. destruct H as [Heq _]. injection Heq as _ ->.
        rewrite (mux_envs_keys _ _ _ _ _ _ H5), (Ke _ _ _ _ _ _ H3). exact (Ke _ _ _ _ _ _ H1).
      + (* || *)
        minva H as [xw E1] o1 H1. minva H as x0 o2 H2. mprim H. minva H as [yw E2] o3 H3. minva H as y0 o4 H4.
        minva H as E3 o5 H5. mprim H. mprim H. mprim H. mprim H.
        apply ret_inv in H. destruct H as [Heq _]. injection Heq as _ ->.
        rewrite (mux_envs_keys _ _ _ _ _ _ H5). exact (Ke _ _ _ _ _ _ H1).
    - (* block *)
      exact (Kb _ _ _ _ _ _ H).
    - (* call *)
      destruct (find_fn P f) as [fd|]; [|discriminate H].
      minva H as [bindings E1] o1 H1. destruct (rev E1) as [|glob caller_rev] eqn:Er; [discriminate H|].
      minva H as Ecallee o2 H2. apply lift_res_inv in H2. destruct H2 as [H2 _].
      minva H as [body E2] o3 H3. minva H as E3 o4 H4. apply lift_res_inv in H4. destruct H4 as [H4 _].
      apply ret_inv in H. destruct H as [Heq _]. injection Heq as _ ->.
      rewrite <- (keys_lower_args _ _ _ _ _ _ _ H1). apply (keys_rev_app_last E1 glob caller_rev E3 Er).
      rewrite (env_pop_keys _ _ H4), (Kb _ _ _ _ _ _ H3). destruct (skp_bind_all _ _ _ H2) as [Hk _].
      rewrite Hk. reflexivity.
    - (* join *)
      minva H as [eba na] o0 H0. minva H as [ebb nb] o00 H00. minva H as [aw E1] o1 H1. minva H as [bw E2] o2 H2.
      minva H as [bitonic ne] o3 H3. minva H as sorted o4 H4. minva H as joined o5 H5. minva H as joined2 o6 H6.
      apply ret_inv in H. destruct H as [Heq _]. injection Heq as _ ->.
      rewrite (Ke _ _ _ _ _ _ H2). exact (Ke _ _ _ _ _ _ H1).
    - (* if *)
      minva H as [cw E0] o1 H1. mprim H. minva H as c0 o2 H2. minva H as [tw ET] o3 H3. mprim H.
      minva H as [fw EF] o4 H4. mprim H. minva H as Em o5 H5. mprim H. mprim H. minva H as r o6 H6.
      apply ret_inv in H. destruct H as [Heq _]. injection Heq as _ ->.
      rewrite (mux_envs_keys _ _ _ _ _ _ H5), (Ke _ _ _ _ _ _ H3). exact (Ke _ _ _ _ _ _ H1).
    - (* cast *)
      minva H as [w1 E1] o1 H1. cbv zeta in H.
      destruct (_ =? _)%nat; [|destruct (_ <? _)%nat].
      + apply ret_inv in H. destruct H as [Heq _]. injection Heq as _ ->. exact (Ke _ _ _ _ _ _ H1).
      + apply ret_inv in H. destruct H as [Heq _]. injection Heq as _ ->. exact (Ke _ _ _ _ _ _ H1).
      + minva H as w' o2 H2. apply ret_inv in H. destruct H as [Heq _]. injection Heq as _ ->. exact (Ke _ _ _ _ _ _ H1).
    - (* range *)
      destruct (hi <? lo); [discriminate H|]. apply ret_inv in H. destruct H as [Heq _]. now injection Heq as _ ->.
  Qed.

  Lemma skp_lower_stmt_body s E o w E' o' :
    lower_stmt_body tops P re rp rs s E o = Ok ((w, E'), o') -> SKP E E'.
  Proof.
    destruct s as [si m]. intro H. destruct si; cbn [lower_stmt_body] in H.
    - minva H as [w1 E1] o1 H1. minva H as [c E2] o2 H2. apply ret_inv in H. destruct H as [Heq _].
      injection Heq as _ ->.
      eapply SKP_trans; [apply SKP_of_keys; exact (Ke _ _ _ _ _ _ H1)|exact (Kp _ _ _ _ _ _ _ H2)].
    - minva H as [w1 E1] o1 H1. minva H as E2 o2 H2. apply lift_res_inv in H2. destruct H2 as [H2 _].
      apply ret_inv in H. destruct H as [Heq _]. injection Heq as _ ->.
      eapply SKP_trans; [apply SKP_of_keys; exact (Ke _ _ _ _ _ _ H1)|exact (env_let_keys _ _ _ _ H2)].
    - minva H as [value E1] o1 H1. minva H as [idxs E2] o2 H2. minva H as coll o3 H3.
      minva H as accessed o4 H4. minva H as value' o5 H5. minva H as E3 o6 H6.
      apply lift_res_inv in H6. destruct H6 as [H6 _].
      apply ret_inv in H. destruct H as [Heq _]. injection Heq as _ ->. apply SKP_of_keys.
      rewrite (env_assign_keys _ _ _ _ H6), (keys_assign_indexes _ _ _ _ _ _ _ _ H2). exact (Ke _ _ _ _ _ _ H1).
    - minva H as [eb ne] o0 H0. minva H as [aw E1] o1 H1. minva H as E2 o2 H2.
      apply ret_inv in H. destruct H as [Heq _]. injection Heq as _ ->. apply SKP_of_keys.
      rewrite (keys_for_iterations _ _ _ _ _ _ _ _ _ H2). exact (Ke _ _ _ _ _ _ H1).
    - minva H as [eba na] o0 H0. minva H as [ebb nb] o00 H00. minva H as [aw E1] o1 H1. minva H as [bw E2] o2 H2.
      minva H as [bitonic ne] o3 H3. minva H as sorted o4 H4. minva H as E3 o5 H5.
      apply ret_inv in H. destruct H as [Heq _]. injection Heq as _ ->. apply SKP_of_keys.
      rewrite (keys_join_loop_windows _ _ _ _ _ _ _ _ _ _ H5), (Ke _ _ _ _ _ _ H2). exact (Ke _ _ _ _ _ _ H1).
    - apply SKP_of_keys. exact (Ke _ _ _ _ _ _ H).
  Qed.

  Lemma keys_lower_block_body ss E o w E' o' :
    lower_block_body rs ss E o = Ok ((w, E'), o') -> keys E' = keys E.
  Proof.
    unfold lower_block_body. intro H. minva H as [w1 E1] o1 H1. minva H as E2 o2 H2.
    apply lift_res_inv in H2. destruct H2 as [H2 _]. apply ret_inv in H. destruct H as [Heq _]. injection Heq as _ ->.
    eapply keys_push_pop; [|exact H2]. eapply block_stmts_keys; [|exact H1]. intros s _. apply Ks.
  Qed.
End KeysAll.

Theorem keys_every P : forall fT,
  (forall e E o w E' o', lower_expr tops fT P e E o = Ok ((w, E'), o') -> keys E' = keys E) /\
  (forall b E o w E' o', lower_block tops fT P b E o = Ok ((w, E'), o') -> keys E' = keys E) /\
  (forall s E o w E' o', lower_stmt tops fT P s E o = Ok ((w, E'), o') -> SKP E E') /\
  (forall p mw E o c E' o', lower_pattern tops fT P p mw E o = Ok ((c, E'), o') -> SKP E E').
Proof.
  induction fT as [|f (IHe & IHb & IHs & IHp)].
  - repeat split; intros; discriminate.
  - split; [|split; [|split]].
    + intros e E o w E' o' H. rewrite lower_expr_S in H.
      exact (keys_lower_expr_body P _ _ _ IHe IHp IHb e E o w E' o' H).
    + intros b E o w E' o' H. rewrite lower_block_S in H. exact (keys_lower_block_body _ IHs b E o w E' o' H).
    + intros s E o w E' o' H. rewrite lower_stmt_S in H.
      exact (skp_lower_stmt_body P _ _ _ IHe IHp IHs s E o w E' o' H).
    + intros p mw E o c E' o' H. exact (proj2 (lower_pattern_facts P (S f) p mw E o c E' o' H)).
Qed.

(* every expression keeps the keys: the [KP] hypotheses are always available *)
Corollary KP_every P e : KP P e.
Proof. intros fT E o w E' o' H. exact (proj1 (keys_every P fT) e E o w E' o' H). Qed.

(* ------------------------------------------------------------------ the (strict) type checker of
   the fragment: boolean functions; the same recursion on fuel and the same contexts as
   Lang/Wt.v, with EQUAL annotations where Wt.v uses [ty_eqb] *)

Definition is_unit (t : ty) : bool := match t with TTup [] => true | _ => false end.

(* equality of scalar or unit types *)
Definition vt_eqb (a b : ty) : bool := sty_eqb a b || (is_unit a && is_unit b).

Lemma vt_eqb_eq a b : vt_eqb a b = true -> a = b.
Proof.
  unfold vt_eqb. intro H. apply orb_prop in H. destruct H as [H|H]; [now apply sty_eqb_eq|].
  apply andb_prop in H. destruct H as [H1 H2].
  destruct a as [| | |[|? ?]| |]; try discriminate H1. destruct b as [| | |[|? ?]| |]; try discriminate H2. reflexivity.
Qed.

Definition sc_op (o : binop) (x y : expr) (t : ty) : bool :=
  match o with
  | OAdd | OSub | OMul | ODiv | OMod | OBitAnd | OBitXor | OBitOr =>
      match t with
      | TInt _ b =>
          ok_width b && sty_eqb (e_ty x) t && sty_eqb (e_ty y) t &&
          match o with OMul => negb (is_num_lit x) && negb (is_num_lit y) | _ => true end
      | TBool => op_bit o && sty_eqb (e_ty x) TBool && sty_eqb (e_ty y) TBool
      | _ => false
      end
  | OGt | OLt =>
      sty_eqb t TBool &&
      match e_ty x with TInt _ b => ok_width b && sty_eqb (e_ty y) (e_ty x) | _ => false end
  | OEq | ONe => sty_eqb t TBool && scalar_ty (e_ty x) && sty_eqb (e_ty y) (e_ty x)
  | OShl | OShr =>
      match t with
      | TInt _ b => ok_width b && sty_eqb (e_ty x) t && sty_eqb (e_ty y) (TInt false 8)
      | _ => false
      end
  | OLAnd | OLOr => sty_eqb t TBool && sty_eqb (e_ty x) TBool && sty_eqb (e_ty y) TBool
  end.

Fixpoint sc_expr (fuel : nat) (g : tenv) (e : expr) {struct fuel} : bool :=
  match fuel with
  | O => false
  | S f =>
    match e with
    | Ex ei _ t =>
      match ei with
      | ETrue | EFalse => sty_eqb t TBool
      | ENumU n _ => match t with TInt _ b => ok_width b && lit_fits t (Z.of_N n) | _ => false end
      | ENumS z _ => match t with TInt _ b => ok_width b && lit_fits t z | _ => false end
      | EId x => match tlookup g x with Some (tx, _) => vt_eqb tx t | None => false end
      | ENeg e1 =>
          match t with
          | TInt true b => ok_width b && sty_eqb (e_ty e1) t && sc_expr f g e1
          | _ => false
          end
      | ENot e1 => scalar_ty t && sty_eqb (e_ty e1) t && sc_expr f g e1
      | ECast to e1 => scalar_ty t && sty_eqb to t && scalar_ty (e_ty e1) && sc_expr f g e1
      | EOp o x y => sc_expr f g x && sc_expr f g y && sc_op o x y t
      | EIf c a b =>
          sty_eqb (e_ty c) TBool && vt_eqb (e_ty a) t && vt_eqb (e_ty b) t &&
          sc_expr f g c && sc_expr f g a && sc_expr f g b
      | EBlock b => match sc_block f ([] :: g) b with Some tb => vt_eqb tb t | None => false end
      | _ => false
      end
    end
  end
with sc_block (fuel : nat) (g : tenv) (b : list stmt) {struct fuel} : option ty :=
  match fuel with
  | O => None
  | S f =>
      (fix go (ss : list stmt) (g : tenv) (last : ty) : option ty :=
         match ss with
         | [] => Some last
         | s :: r => match sc_stmt f g s with Some (g', t) => go r g' t | None => None end
         end) b g unit_ty
  end
with sc_stmt (fuel : nat) (g : tenv) (s : stmt) {struct fuel} : option (tenv * ty) :=
  match fuel with
  | O => None
  | S f =>
    match s with
    | St si _ =>
      match si with
      | SLet (Pat (PId x) _ tp) e =>
          if sc_expr f g e && vt_eqb tp (e_ty e) then Some (tbind g x tp false, unit_ty) else None
      | SLetMut x e => if sc_expr f g e then Some (tbind g x (e_ty e) true, unit_ty) else None
      | SAssign x [] e =>
          match tlookup g x with
          | Some (tx, true) => if vt_eqb tx (e_ty e) && sc_expr f g e then Some (g, unit_ty) else None
          | _ => None
          end
      | SExpr e => if sc_expr f g e then Some (g, e_ty e) else None
      | _ => None
      end
    end
  end.

Lemma tl_tbind g x t mu : tl (tbind g x t mu) = tl g.
Proof. now destruct g. Qed.

(* ------------------------------------------------------------------ one level of the checker.
   [rec] / [recb] / [recs] stand for the recursive calls; [ext] decides the forms beyond this file's
   fragment (none here; calls, `for` over a range and match in TSemSemCall.v, TSemSemMatch.v,
   whose checkers are the same fixed point with another [ext]) *)

Definition sc_node (rec : tenv -> expr -> bool) (recb : tenv -> list stmt -> option ty)
    (ext : tenv -> expr -> bool) (g : tenv) (e : expr) : bool :=
  match e with
  | Ex ei _ t =>
    match ei with
    | ETrue | EFalse => sty_eqb t TBool
    | ENumU n _ => match t with TInt _ b => ok_width b && lit_fits t (Z.of_N n) | _ => false end
    | ENumS z _ => match t with TInt _ b => ok_width b && lit_fits t z | _ => false end
    | EId x => match tlookup g x with Some (tx, _) => vt_eqb tx t | None => false end
    | ENeg e1 =>
        match t with
        | TInt true b => ok_width b && sty_eqb (e_ty e1) t && rec g e1
        | _ => false
        end
    | ENot e1 => scalar_ty t && sty_eqb (e_ty e1) t && rec g e1
    | ECast to e1 => scalar_ty t && sty_eqb to t && scalar_ty (e_ty e1) && rec g e1
    | EOp o x y => rec g x && rec g y && sc_op o x y t
    | EIf c a b =>
        sty_eqb (e_ty c) TBool && vt_eqb (e_ty a) t && vt_eqb (e_ty b) t && rec g c && rec g a && rec g b
    | EBlock b => match recb ([] :: g) b with Some tb => vt_eqb tb t | None => false end
    | _ => ext g e
    end
  end.

Definition sc_snode (rec : tenv -> expr -> bool) (ext : tenv -> stmt -> option (tenv * ty))
    (g : tenv) (s : stmt) : option (tenv * ty) :=
  match s with
  | St si _ =>
    match si with
    | SLet (Pat (PId x) _ tp) e =>
        if rec g e && vt_eqb tp (e_ty e) then Some (tbind g x tp false, unit_ty) else None
    | SLetMut x e => if rec g e then Some (tbind g x (e_ty e) true, unit_ty) else None
    | SAssign x [] e =>
        match tlookup g x with
        | Some (tx, true) => if vt_eqb tx (e_ty e) && rec g e then Some (g, unit_ty) else None
        | _ => None
        end
    | SExpr e => if rec g e then Some (g, e_ty e) else None
    | _ => ext g s
    end
  end.

Definition sc_fold (recs : tenv -> stmt -> option (tenv * ty)) : list stmt -> tenv -> ty -> option ty :=
  fix go (ss : list stmt) (g : tenv) (last : ty) : option ty :=
    match ss with
    | [] => Some last
    | s :: r => match recs g s with Some (g', t) => go r g' t | None => None end
    end.

Record sc_fix : Type := {
  scE : nat -> tenv -> expr -> bool;
  scB : nat -> tenv -> list stmt -> option ty;
  scS : nat -> tenv -> stmt -> option (tenv * ty);
  extE : nat -> tenv -> expr -> bool;
  extS : nat -> tenv -> stmt -> option (tenv * ty);
  scE_O : forall g e, scE 0 g e = false;
  scB_O : forall g b, scB 0 g b = None;
  scS_O : forall g s, scS 0 g s = None;
  scE_S : forall fw g e, scE (S fw) g e = sc_node (scE fw) (scB fw) (extE fw) g e;
  scB_S : forall fw g b, scB (S fw) g b = sc_fold (scS fw) b g unit_ty;
  scS_S : forall fw g s, scS (S fw) g s = sc_snode (scE fw) (extS fw) g s
}.

Lemma sc_snode_ctx (C : tenv -> Prop) rec ext g s g' t :
  (forall x tx mu, C g -> C (tbind g x tx mu)) -> C g ->
  (ext g s = Some (g', t) -> tl g' = tl g /\ C g') ->
  sc_snode rec ext g s = Some (g', t) -> tl g' = tl g /\ C g'.
Proof.
  intros Hb Hg Hext H. destruct s as [si m]. destruct si; cbn [sc_snode] in H; try exact (Hext H).
  - destruct p as [[] mp tp]; try exact (Hext H). destruct (_ && _); [|discriminate].
    injection H as <- _. split; [apply tl_tbind|now apply Hb].
  - destruct (rec g e); [|discriminate]. injection H as <- _. split; [apply tl_tbind|now apply Hb].
  - destruct accs; [|exact (Hext H)]. destruct (tlookup g name) as [[tx []]|]; try discriminate.
    destruct (_ && _); [|discriminate]. injection H as <- _. auto.
  - destruct (rec g e); [|discriminate]. injection H as <- _. auto.
Qed.

Lemma int_agrees o m t sg b : ok_width b = true ->
  (op_arith o = true /\ t = TInt sg b) \/ (op_cmp o || op_eq o = true /\ t = TBool) ->
  forall vx vy len, val_ok (TInt sg b) vx -> val_ok (TInt sg b) vy -> binop_agrees o m t (TInt sg b) vx vy len.
Proof.
  intros Hb Ht vx vy len Hx Hy. destruct vx as [|a| | |], vy as [|c| | |]; try contradiction.
  cbn [val_ok] in Hx, Hy. destruct sg; [apply binop_signed_agrees|apply binop_unsigned_agrees]; auto.
Qed.

Lemma bool_agrees o m : op_bit o || op_eq o = true ->
  forall vx vy len, val_ok TBool vx -> val_ok TBool vy -> binop_agrees o m TBool TBool vx vy len.
Proof.
  intros Ho vx vy len Hx Hy. destruct vx as [p| | | |], vy as [q| | | |]; try contradiction.
  now apply binop_bool_agrees.
Qed.

Ltac eqs :=
  repeat match goal with
  | H : sty_eqb _ _ = true |- _ => apply sty_eqb_eq in H
  | H : vt_eqb _ _ = true |- _ => apply vt_eqb_eq in H
  end.

Section Steps.
  Variable P : program.
  Variable VR : ty -> Sem.value -> list bool -> Prop.
  Hypothesis VR_bool : forall v w, VR TBool v w -> exists b, v = Sem.VBool b /\ w = [b].
  Hypothesis VR_unit : VR unit_ty Sem.unit_val [].
  Hypothesis VR_sc_elim : forall t v w, scalar_ty t = true -> VR t v w -> val_ok t v /\ w = enc_val t v.
  Hypothesis VR_sc_intro : forall t v, scalar_ty t = true -> val_ok t v -> VR t v (enc_val t v).
  Variable R : node_rel VR.
  Hypothesis rel_assign : forall g x t, tlookup g x = Some (t, true) -> assignable VR R g x t.

  Notation AgE' := (AgEG P VR R).
  Notation AgS' := (AgSG P VR R).
  Notation AgB' := (AgBG P VR R).
  Notation AgSS' := (AgSSG P VR R).

  Lemma op_step f g o x y m t :
    sc_op o x y t = true -> AgE' f g x -> AgE' f g y -> AgE' (S f) g (Ex (EOp o x y) m t).
  Proof.
    intros Hop IHx IHy.
    pose proof (SimNodes.binop_node P VR VR_sc_elim VR_sc_intro R f g) as Hbin.
    pose proof (SimNodes.shift_node P VR VR_sc_elim VR_sc_intro R f g) as Hsh.
    pose proof (fun land => SimNodes.logic_node P VR VR_bool R f g land x y m IHx IHy (KP_every P y)) as Hlog.
    destruct o; cbn [sc_op] in Hop.
    (* arithmetic and bitwise *)
    1-8: destruct t as [|sg b| | | |]; try discriminate Hop; bsplit; try discriminate; eqs;
         match goal with
         | |- AgEG _ _ _ _ _ (Ex _ _ TBool) =>
             eapply (Hbin _ x y m TBool TBool); try eassumption; try reflexivity;
             [ intro Hmul; discriminate Hmul | apply bool_agrees; reflexivity ]
         | |- _ =>
             eapply (Hbin _ x y m (TInt sg b) (TInt sg b)); try eassumption; try reflexivity;
             [ first [ intro Hmul; discriminate Hmul
                     | intros _; apply mul_rewrite_none; apply negb_true_iff; assumption ]
             | apply int_agrees; [assumption|left; split; reflexivity] ]
         end.
    - (* > *) bsplit. eqs. subst t. destruct (e_ty x) as [|sg b| | | |] eqn:Etx; try discriminate. bsplit. eqs.
      eapply (Hbin OGt x y m TBool (TInt sg b)); try eassumption; try reflexivity.
      + intro Hmul; discriminate Hmul.
      + apply int_agrees; [assumption|right; split; reflexivity].
    - (* < *) bsplit. eqs. subst t. destruct (e_ty x) as [|sg b| | | |] eqn:Etx; try discriminate. bsplit. eqs.
      eapply (Hbin OLt x y m TBool (TInt sg b)); try eassumption; try reflexivity.
      + intro Hmul; discriminate Hmul.
      + apply int_agrees; [assumption|right; split; reflexivity].
    - (* == *) bsplit. eqs. subst t.
      eapply (Hbin OEq x y m TBool (e_ty x)); try eassumption; try reflexivity.
      + intro Hmul; discriminate Hmul.
      + destruct (e_ty x) as [|sg b| | | |]; try discriminate.
        * apply bool_agrees; reflexivity.
        * apply int_agrees; [assumption|right; split; reflexivity].
    - (* != *) bsplit. eqs. subst t.
      eapply (Hbin ONe x y m TBool (e_ty x)); try eassumption; try reflexivity.
      + intro Hmul; discriminate Hmul.
      + destruct (e_ty x) as [|sg b| | | |]; try discriminate.
        * apply bool_agrees; reflexivity.
        * apply int_agrees; [assumption|right; split; reflexivity].
    - destruct t as [|sg b| | | |]; try discriminate Hop. bsplit. eqs. apply (Hsh true x y m sg b); assumption.
    - destruct t as [|sg b| | | |]; try discriminate Hop. bsplit. eqs. apply (Hsh false x y m sg b); assumption.
    - bsplit. eqs. subst t. now apply (Hlog true).
    - bsplit. eqs. subst t. now apply (Hlog false).
  Qed.

  Lemma expr_step f g e rec recb ext :
    (forall e', rec g e' = true -> AgE' f g e') ->
    (forall b t, recb ([] :: g) b = Some t -> AgB' f g b t) ->
    (ext g e = true -> AgE' (S f) g e) ->
    sc_node rec recb ext g e = true -> AgE' (S f) g e.
  Proof.
    intros IHe IHb Hext Hsc. destruct e as [ei m t]. destruct ei; cbn [sc_node] in Hsc; try exact (Hext Hsc).
    - eqs. subst t. exact (SimNodes.lit_bool_node P VR VR_sc_intro R (S f) g true m).
    - eqs. subst t. exact (SimNodes.lit_bool_node P VR VR_sc_intro R (S f) g false m).
    - destruct t as [|sg b| | | |]; try discriminate Hsc. bsplit.
      now apply (SimNodes.lit_numU_node P VR VR_sc_intro R).
    - destruct t as [|sg b| | | |]; try discriminate Hsc. bsplit.
      now apply (SimNodes.lit_numS_node P VR VR_sc_intro R).
    - destruct (tlookup g name) as [[tx mu]|] eqn:El; [|discriminate Hsc]. eqs. subst tx.
      exact (SimNodes.id_node P VR R (S f) g name m t mu El).
    - destruct t as [|[] b| | | |]; try discriminate Hsc. bsplit. eqs.
      apply (SimNodes.neg_node P VR VR_sc_elim VR_sc_intro R); try assumption. now apply IHe.
    - bsplit. eqs. apply (SimNodes.not_node P VR VR_sc_elim VR_sc_intro R); try assumption. now apply IHe.
    - bsplit. apply op_step; try assumption; now apply IHe.
    - destruct (recb ([] :: g) b) as [tb|] eqn:Eb; [|discriminate Hsc]. eqs. subst tb.
      apply SimNodes.eblock_node. now apply IHb.
    - bsplit. eqs.
      apply (SimNodes.if_node P VR VR_bool R f g c t0 e m t); try assumption;
        try (now apply IHe); apply KP_every.
    - bsplit. eqs. subst to. apply (SimNodes.cast_node P VR VR_sc_elim VR_sc_intro R); try assumption.
      now apply IHe.
  Qed.

  Lemma stmt_step f g s g' t rec ext :
    (forall e', rec g e' = true -> AgE' f g e') ->
    (ext g s = Some (g', t) -> AgS' (S f) g g' t s) ->
    sc_snode rec ext g s = Some (g', t) -> AgS' (S f) g g' t s.
  Proof.
    intros IHe Hext Hsc. destruct s as [si m]. destruct si; cbn [sc_snode] in Hsc; try exact (Hext Hsc).
    - destruct p as [[] mp tp]; try exact (Hext Hsc).
      destruct (rec g e) eqn:He; [|discriminate Hsc].
      destruct (vt_eqb tp (e_ty e)) eqn:Ht; [|discriminate Hsc]. cbn [andb] in Hsc. injection Hsc as <- <-.
      eqs. subst tp. apply (SimNodes.let_node P VR VR_unit R). now apply IHe.
    - destruct (rec g e) eqn:He; [|discriminate Hsc]. injection Hsc as <- <-.
      apply (SimNodes.letmut_node P VR VR_unit R). now apply IHe.
    - destruct accs; [|exact (Hext Hsc)]. destruct (tlookup g name) as [[tx []]|] eqn:El; try discriminate Hsc.
      destruct (vt_eqb tx (e_ty e)) eqn:Ht; [|discriminate Hsc].
      destruct (rec g e) eqn:He; [|discriminate Hsc]. cbn [andb] in Hsc. injection Hsc as <- <-.
      eqs. subst tx.
      exact (SimNodes.assign_node P VR VR_unit R f g name e m true (IHe e He) El
               (rel_assign g name (e_ty e) El)).
    - destruct (rec g e) eqn:He; [|discriminate Hsc]. injection Hsc as <- <-.
      apply SimNodes.sexpr_node. now apply IHe.
  Qed.

  (* [C]: an invariant of the contexts *)
  Variable C : tenv -> Prop.
  Hypothesis C_push : forall g, C g -> C ([] :: g).
  Hypothesis C_tbind : forall g x t mu, C g -> C (tbind g x t mu).

  Lemma fold_step f recs :
    (forall g s g' t, C g -> recs g s = Some (g', t) -> AgS' f g g' t s /\ tl g' = tl g /\ C g') ->
    forall ss g last t, C g -> sc_fold recs ss g last = Some t ->
    exists g1, AgSS' f g ss last g1 t /\ tl g1 = tl g.
  Proof.
    intro IHs. induction ss as [|s r IH]; intros g last t Hg Hsc; cbn [sc_fold] in Hsc.
    - injection Hsc as <-. exists g. split; [constructor|reflexivity].
    - destruct (recs g s) as [[g' t']|] eqn:Es; [|discriminate Hsc].
      destruct (IHs _ _ _ _ Hg Es) as (HA & Htl & Hg'). destruct (IH _ _ _ Hg' Hsc) as (g1 & HSS & Htl1).
      exists g1. split; [econstructor; eassumption|congruence].
  Qed.

  Lemma block_step f recs :
    (forall g s g' t, C g -> recs g s = Some (g', t) -> AgS' f g g' t s /\ tl g' = tl g /\ C g') ->
    forall g b t, C g -> sc_fold recs b ([] :: g) unit_ty = Some t -> AgB' (S f) g b t.
  Proof.
    intros IHs g b t Hg Hsc. destruct (fold_step f recs IHs b _ _ _ (C_push g Hg) Hsc) as (g1 & HSS & Htl).
    exact (SimNodes.block_run_agrees P VR VR_unit R f g b g1 t HSS Htl).
  Qed.

  (* [extE K] / [extS K] are handled by the caller, from the agreement at smaller fuels *)
  Variable K : sc_fix.
  Hypothesis extS_ctx : forall fw g s g' t, C g -> extS K fw g s = Some (g', t) -> tl g' = tl g /\ C g'.

  Lemma scS_ctx fw g s g' t : C g -> scS K fw g s = Some (g', t) -> tl g' = tl g /\ C g'.
  Proof.
    intros Hg H. destruct fw as [|fw]; [now rewrite scS_O in H|]. rewrite scS_S in H.
    exact (sc_snode_ctx C _ _ g s g' t (fun x tx mu => C_tbind g x tx mu) Hg (extS_ctx fw g s g' t Hg) H).
  Qed.

  Definition Inv (fuel : nat) : Prop :=
    (forall fw g e, C g -> scE K fw g e = true -> AgE' fuel g e) /\
    (forall fw g s g' t, C g -> scS K fw g s = Some (g', t) -> AgS' fuel g g' t s) /\
    (forall fw g b t, C g -> scB K fw ([] :: g) b = Some t -> AgB' fuel g b t) /\
    (forall fw ss g last t, C g -> sc_fold (scS K fw) ss g last = Some t ->
       exists g1, AgSS' fuel g ss last g1 t /\ tl g1 = tl g).

  Hypothesis extE_step : forall f fw g e, (forall k, (k <= f)%nat -> Inv k) -> C g ->
    extE K fw g e = true -> AgE' (S f) g e.
  Hypothesis extS_step : forall f fw g s g' t, (forall k, (k <= f)%nat -> Inv k) -> C g ->
    extS K fw g s = Some (g', t) -> AgS' (S f) g g' t s.

  Theorem agree : forall fuel, Inv fuel.
  Proof.
    induction fuel as [fuel IH] using lt_wf_ind.
    assert (Hs : forall fw g s g' t, C g -> scS K fw g s = Some (g', t) ->
                 AgS' fuel g g' t s /\ tl g' = tl g /\ C g').
    { intros fw g s g' t Hg Hsc. split; [|exact (scS_ctx fw g s g' t Hg Hsc)].
      destruct fuel as [|f]; [intros st en E fT w E' o' _ _; exact I|].
      destruct (IH f (le_n _)) as (IHe & _).
      destruct fw as [|fw]; [now rewrite scS_O in Hsc|]. rewrite scS_S in Hsc.
      eapply stmt_step; [|apply (extS_step f fw g s g' t); [intros k Hk; apply IH; lia|exact Hg]|exact Hsc].
      intros e' He'. exact (IHe fw g e' Hg He'). }
    split; [|split; [intros fw g s g' t Hg Hsc; exact (proj1 (Hs fw g s g' t Hg Hsc))|split]].
    - destruct fuel as [|f]; [intros fw g e _ _ st en E fT w E' o' _ _; exact I|].
      destruct (IH f (le_n _)) as (IHe & _ & IHb & _).
      intros [|fw] g e Hg Hsc; [now rewrite scE_O in Hsc|]. rewrite scE_S in Hsc.
      eapply expr_step; [| |apply (extE_step f fw g e); [intros k Hk; apply IH; lia|exact Hg]|exact Hsc].
      + intros e' He'. exact (IHe fw g e' Hg He').
      + intros b t Hb. exact (IHb fw g b t Hg Hb).
    - destruct fuel as [|f]; [intros fw g b t _ _ st en E fT w E' o' _ _; exact I|].
      destruct (IH f (le_n _)) as (_ & IHs & _ & _).
      intros [|fw] g b t Hg Hsc; [now rewrite scB_O in Hsc|]. rewrite scB_S in Hsc.
      eapply block_step; [|exact Hg|exact Hsc]. intros g0 s g' t' Hg0 Hs0.
      split; [exact (IHs fw g0 s g' t' Hg0 Hs0)|exact (scS_ctx fw g0 s g' t' Hg0 Hs0)].
    - intro fw. exact (fold_step fuel (scS K fw) (Hs fw)).
  Qed.
End Steps.

Definition sc_fix1 : sc_fix :=
  {| scE := sc_expr; scB := sc_block; scS := sc_stmt; extE := fun _ _ _ => false; extS := fun _ _ _ => None;
     scE_O := fun _ _ => eq_refl; scB_O := fun _ _ => eq_refl; scS_O := fun _ _ => eq_refl;
     scE_S := fun _ _ _ => eq_refl; scB_S := fun _ _ _ => eq_refl; scS_S := fun _ _ _ => eq_refl |}.

Section Main.
  Variable P : program.

  Theorem agree_all fuel :
    (forall fw g e, sc_expr fw g e = true -> AgE P VRs fuel g e) /\
    (forall fw g s g' t, sc_stmt fw g s = Some (g', t) -> AgS P VRs fuel g g' t s) /\
    (forall fw g b t, sc_block fw ([] :: g) b = Some t -> AgBG P VRs (rel3_nodes VRs) fuel g b t).
  Proof.
    destruct (agree P VRs VRs_bool VRs_unit VRs_scalar VRs_intro (rel3_nodes VRs)
                (fun g x t Hl _ en E v w E' H => rel_assign VRs en E g x t true v w E' H Hl)
                (fun _ => True) (fun _ _ => I) (fun _ _ _ _ _ => I) sc_fix1
                ltac:(discriminate) ltac:(discriminate) ltac:(discriminate) fuel) as (He & Hs & Hb & _).
    split; [|split].
    - intros fw g e H. exact (He fw g e I H tt).
    - intros fw g s g' t H. exact (Hs fw g s g' t I H tt).
    - intros fw g b t H. exact (Hb fw g b t I H).
  Qed.
End Main.
Print Assumptions agree_all.

(* AGREEMENT, expressions: if the bit-level run (any fuel) from no panic returns Ok, then it
   agrees with the source semantics (any fuel): value, environment, panic *)
Theorem tsem_sem_imp_expr P fuel fw g e en E fT w E' o' :
  sc_expr fw g e = true -> imp_expr e = true -> env_rel3 VRs en E g ->
  lower_expr tops fT P e E None = Ok ((w, E'), o') ->
  match Sem.eval fuel P en e with
  | Sem.Done (v, en') => o' = None /\ VRs (e_ty e) v w /\ env_rel3 VRs en' E' g
  | Sem.Panicked r m => o' = Some (preason_num (pr r), ploc32 (ploc_of m))
  | Sem.Stuck _ | Sem.NoFuel => True
  end.
Proof.
  intros Hsc _ Hrel Hrun.
  exact (proj1 (agree_all P fuel) fw g e Hsc en E fT w E' o' Hrel Hrun).
Qed.
Print Assumptions tsem_sem_imp_expr.

(* ... for an expression of scalar type, in the vocabulary of TSemSemExpr.v *)
Corollary tsem_sem_imp_expr_scalar P fuel fw g e en E fT w E' o' :
  sc_expr fw g e = true -> imp_expr e = true -> scalar_ty (e_ty e) = true -> env_rel3 VRs en E g ->
  lower_expr tops fT P e E None = Ok ((w, E'), o') ->
  match Sem.eval fuel P en e with
  | Sem.Done (v, en') =>
      o' = None /\ w = enc_val (e_ty e) v /\ val_ok (e_ty e) v /\ env_rel3 VRs en' E' g
  | Sem.Panicked r m => o' = Some (preason_num (pr r), ploc32 (ploc_of m))
  | Sem.Stuck _ | Sem.NoFuel => True
  end.
Proof.
  intros Hsc Hi Hs Hrel Hrun.
  pose proof (tsem_sem_imp_expr P fuel fw g e en E fT w E' o' Hsc Hi Hrel Hrun) as H. revert H.
  destruct (Sem.eval fuel P en e) as [[v en']|r m|c|]; intro H; try exact H.
  destruct H as (-> & HV & Hr). destruct (VRs_scalar _ _ _ Hs HV) as [Hok ->]. auto.
Qed.

(* statements: [g'] is the context after the statement, [t] its type *)
Theorem tsem_sem_imp_stmt P fuel fw g s g' t en E fT w E' o' :
  sc_stmt fw g s = Some (g', t) -> imp_stmt s = true -> env_rel3 VRs en E g ->
  lower_stmt tops fT P s E None = Ok ((w, E'), o') ->
  match Sem.exec fuel P en s with
  | Sem.Done (v, en') => o' = None /\ VRs t v w /\ env_rel3 VRs en' E' g'
  | Sem.Panicked r m => o' = Some (preason_num (pr r), ploc32 (ploc_of m))
  | Sem.Stuck _ | Sem.NoFuel => True
  end.
Proof.
  intros Hsc _ Hrel Hrun.
  exact (proj1 (proj2 (agree_all P fuel)) fw g s g' t Hsc en E fT w E' o' Hrel Hrun).
Qed.
Print Assumptions tsem_sem_imp_stmt.

(* blocks: [lower_block] opens and closes the scope of the block itself; on the source side
   this is [exec_block] in a pushed scope, then the pop (what [Sem.eval] does for [EBlock]
   and [Sem.run_main] for the body of main) *)
Theorem tsem_sem_imp_block P fuel fw g b t en E fT w E' o' :
  sc_block fw ([] :: g) b = Some t -> forallb imp_stmt b = true -> env_rel3 VRs en E g ->
  lower_block tops fT P b E None = Ok ((w, E'), o') ->
  match Sem.obind (Sem.exec_block fuel P (Sem.push_scope en) b)
                  (fun '(v, en1) => Sem.Done (v, Sem.pop_scope en1)) with
  | Sem.Done (v, en') => o' = None /\ VRs t v w /\ env_rel3 VRs en' E' g
  | Sem.Panicked r m => o' = Some (preason_num (pr r), ploc32 (ploc_of m))
  | Sem.Stuck _ | Sem.NoFuel => True
  end.
Proof.
  intros Hsc _ Hrel Hrun.
  exact (proj2 (proj2 (agree_all P fuel)) fw g b t Hsc tt en E fT w E' o' Hrel Hrun).
Qed.
Print Assumptions tsem_sem_imp_block.

(* ------------------------------------------------------------------ the strict checker is a
   restriction of Lang/Wt.v: whatever it accepts, [Wt.wt_expr] / [wt_block] / [wt_stmt] accept
   with the same fuel, the same contexts and the same types *)

Lemma sty_ty_eqb a b : sty_eqb a b = true -> ty_eqb a b = true.
Proof.
  destruct a, b; cbn [sty_eqb ty_eqb]; try discriminate; [reflexivity|]. intro H. now rewrite H.
Qed.

Lemma vt_ty_eqb a b : vt_eqb a b = true -> ty_eqb a b = true.
Proof.
  unfold vt_eqb. intro H. apply orb_prop in H. destruct H as [H|H]; [now apply sty_ty_eqb|].
  apply andb_prop in H. destruct H as [H1 H2].
  destruct a as [| | |[|? ?]| |]; try discriminate H1. destruct b as [| | |[|? ?]| |]; try discriminate H2. reflexivity.
Qed.

Ltac eq_all := repeat match goal with H : sty_eqb _ _ = true |- _ => apply sty_eqb_eq in H end.

Lemma scalar_int_or_bool t : scalar_ty t = true -> is_int t || is_bool t = true.
Proof. destruct t; try discriminate; reflexivity. Qed.

Lemma sc_op_wt o x y t : sc_op o x y t = true ->
  match o with
  | OAdd | OSub | OMul | ODiv | OMod => is_int t && ty_eqb (e_ty x) t && ty_eqb (e_ty y) t
  | OBitAnd | OBitXor | OBitOr => (is_int t || is_bool t) && ty_eqb (e_ty x) t && ty_eqb (e_ty y) t
  | OGt | OLt => is_bool t && is_int (e_ty x) && ty_eqb (e_ty x) (e_ty y)
  | OEq | ONe => is_bool t && ty_eqb (e_ty x) (e_ty y)
  | OShl | OShr => is_int t && ty_eqb (e_ty x) t && ty_eqb (e_ty y) (TInt false 8)
  | OLAnd | OLOr => is_bool t && is_bool (e_ty x) && is_bool (e_ty y)
  end = true.
Proof.
  intro H.
  assert (Hrefl : forall sg b, ty_eqb (TInt sg b) (TInt sg b) = true)
    by (intros; cbn [ty_eqb]; now rewrite Bool.eqb_reflx, N.eqb_refl).
  destruct o; cbn [sc_op] in H.
  1-8: destruct t as [|sg b| | | |]; try discriminate H; bsplit; try discriminate; eq_all;
       repeat match goal with Hs : e_ty _ = _ |- _ => rewrite Hs end;
       cbn [is_bool is_int andb orb]; rewrite ?Hrefl; reflexivity.
  1-2: bsplit; eq_all; subst t; destruct (e_ty x) as [|sg b| | | |] eqn:Ex; try discriminate; bsplit; eq_all;
       repeat match goal with Hs : e_ty _ = _ |- _ => rewrite Hs end;
       cbn [is_bool is_int andb orb]; rewrite ?Hrefl; reflexivity.
  1-2: bsplit; eq_all; subst t;
       repeat match goal with Hs : e_ty _ = _ |- _ => rewrite Hs end;
       destruct (e_ty x) as [|sg b| | | |]; try discriminate;
       cbn [is_bool is_int andb orb]; rewrite ?Hrefl; reflexivity.
  1-2: destruct t as [|sg b| | | |]; try discriminate H; bsplit; eq_all;
       repeat match goal with Hs : e_ty _ = _ |- _ => rewrite Hs end;
       cbn [is_bool is_int andb orb]; rewrite ?Hrefl; reflexivity.
  1-2: bsplit; eq_all; subst t;
       repeat match goal with Hs : e_ty _ = _ |- _ => rewrite Hs end; reflexivity.
Qed.

Lemma vt_refl_ty t : vt_eqb t t = true -> ty_eqb t t = true.
Proof. apply vt_ty_eqb. Qed.

Section NodeWt.
  Variable P : program.
  Variable f : nat.
  Variable rec : tenv -> expr -> bool.
  Variable recb : tenv -> list stmt -> option ty.
  Hypothesis IHe : forall g e, rec g e = true -> wt_expr f P g e = true.
  Hypothesis IHb : forall g b t, recb g b = Some t -> wt_block f P g b = Some t.

  Lemma sc_node_wt ext g e : (ext g e = true -> wt_expr (S f) P g e = true) ->
    sc_node rec recb ext g e = true -> wt_expr (S f) P g e = true.
  Proof.
    intros Hext H. destruct e as [ei m t]. destruct ei; cbn [sc_node] in H; try exact (Hext H); cbn [wt_expr].
    - apply sty_eqb_eq in H. now subst t.
    - apply sty_eqb_eq in H. now subst t.
    - destruct t; try discriminate H. now bsplit.
    - destruct t; try discriminate H. now bsplit.
    - destruct (tlookup g name) as [[tx mu]|]; [|discriminate H]. now apply vt_ty_eqb.
    - destruct t as [|[] b| | | |]; try discriminate H. bsplit.
      match goal with Hs : sty_eqb _ _ = true |- _ => apply sty_ty_eqb in Hs; rewrite Hs end.
      now rewrite (IHe _ _ ltac:(eassumption)).
    - bsplit.
      match goal with Hs : sty_eqb _ _ = true |- _ => apply sty_ty_eqb in Hs; rewrite Hs end.
      rewrite (IHe _ _ ltac:(eassumption)). rewrite orb_comm, scalar_int_or_bool by assumption. reflexivity.
    - bsplit. rewrite (IHe g x) by assumption. rewrite (IHe g y) by assumption. cbn [andb].
      now apply sc_op_wt.
    - destruct (recb ([] :: g) b) as [tb|] eqn:Eb; [|discriminate H].
      rewrite (IHb _ _ _ Eb). now apply vt_ty_eqb.
    - bsplit.
      repeat match goal with
      | Hs : sty_eqb _ _ = true |- _ => apply sty_eqb_eq in Hs; rewrite Hs
      | Hs : vt_eqb _ _ = true |- _ => apply vt_ty_eqb in Hs; rewrite Hs
      end.
      rewrite (IHe g c), (IHe g t0), (IHe g e) by assumption. reflexivity.
    - bsplit.
      match goal with Hs : sty_eqb _ _ = true |- _ => apply sty_ty_eqb in Hs; rewrite Hs end.
      rewrite (IHe _ _ ltac:(eassumption)).
      rewrite !scalar_int_or_bool by assumption. reflexivity.
  Qed.

  Lemma sc_snode_wt ext g s g' t : (ext g s = Some (g', t) -> wt_stmt (S f) P g s = Some (g', t)) ->
    sc_snode rec ext g s = Some (g', t) -> wt_stmt (S f) P g s = Some (g', t).
  Proof.
    intros Hext H. destruct s as [si m]. destruct si; cbn [sc_snode] in H; try exact (Hext H); cbn [wt_stmt].
    - destruct p as [[] mp tp]; try exact (Hext H).
      destruct (rec g e) eqn:He; [|discriminate H].
      destruct (vt_eqb tp (e_ty e)) eqn:Ht; [|discriminate H]. cbn [andb] in H.
      rewrite (IHe _ _ He). cbn [p_ty]. rewrite (vt_ty_eqb _ _ Ht). cbn [andb wt_pat tbind_all fold_left fst snd].
      exact H.
    - destruct (rec g e) eqn:He; [|discriminate H]. now rewrite (IHe _ _ He).
    - destruct accs; [|exact (Hext H)]. destruct (tlookup g name) as [[tx []]|]; try discriminate H.
      destruct (vt_eqb tx (e_ty e)) eqn:Ht; [|discriminate H].
      destruct (rec g e) eqn:He; [|discriminate H]. cbn [andb] in H.
      now rewrite (vt_ty_eqb _ _ Ht), (IHe _ _ He).
    - destruct (rec g e) eqn:He; [|discriminate H]. now rewrite (IHe _ _ He).
  Qed.
End NodeWt.

Lemma sc_fold_wt P f recs : (forall g s g' t, recs g s = Some (g', t) -> wt_stmt f P g s = Some (g', t)) ->
  forall b g last t, sc_fold recs b g last = Some t -> sc_fold (wt_stmt f P) b g last = Some t.
Proof.
  intros IHs. induction b as [|s r IH]; intros g last t H; cbn [sc_fold] in *; [exact H|].
  destruct (recs g s) as [[g' t']|] eqn:Es; [|discriminate H].
  rewrite (IHs _ _ _ _ Es). exact (IH _ _ _ H).
Qed.

Theorem sc_implies_wt P : forall fw,
  (forall g e, sc_expr fw g e = true -> wt_expr fw P g e = true) /\
  (forall g b t, sc_block fw g b = Some t -> wt_block fw P g b = Some t) /\
  (forall g s g' t, sc_stmt fw g s = Some (g', t) -> wt_stmt fw P g s = Some (g', t)).
Proof.
  induction fw as [|f (IHe & IHb & IHs)]; [repeat split; intros; discriminate|].
  split; [|split].
  - intros g e. exact (sc_node_wt P f _ _ IHe IHb (fun _ _ => false) g e ltac:(discriminate)).
  - intros g b t H. exact (sc_fold_wt P f (sc_stmt f) IHs b g unit_ty t H).
  - intros g s g' t. exact (sc_snode_wt P f _ IHe (fun _ _ => None) g s g' t ltac:(discriminate)).
Qed.
Print Assumptions sc_implies_wt.

(* ------------------------------------------------------------------ whole programs: the argument
   bits of main decode to values whose encodings they are; the result value encodes to the
   result bits *)

Lemma Z_of_bits_acc_uval l : forall acc,
  Sem.Z_of_bits_acc acc l = (acc * 2 ^ Z.of_nat (length l) + uval l)%Z.
Proof.
  induction l as [|b r IH]; intro acc; cbn [Sem.Z_of_bits_acc length].
  - unfold uval. cbn. lia.
  - rewrite IH. unfold uval. rewrite bits_to_N_cons. unfold lenN.
    rewrite N2Z.inj_add, N2Z.inj_mul, pow2_N_Z, nat_N_Z, Nat2Z.inj_succ, Z.pow_succ_r by lia.
    destruct b; cbn [N.b2n]; lia.
Qed.

Lemma unsigned_of_bits_uval l : Sem.unsigned_of_bits l = uval l.
Proof. unfold Sem.unsigned_of_bits. rewrite Z_of_bits_acc_uval. lia. Qed.

Lemma bits_of_Z_enc n z : Sem.bits_of_Z n z = enc n z.
Proof.
  apply enc_unique; [apply bits_of_Z_length|].
  rewrite <- unsigned_of_bits_uval. apply unsigned_of_bits_of_Z.
Qed.

Lemma to_signed_sval b l : ok_width b = true -> length l = N.to_nat b ->
  Sem.to_signed true b (uval l) = sval l.
Proof.
  intros Hb Hl. pose proof (ok_width_pos b Hb) as Hb2.
  assert (l <> []) as Hne by (apply nonempty_len; lia).
  rewrite (sval_uval l Hne). unfold Sem.to_signed. cbn [andb].
  destruct (signed_facts l Hne) as (HX & HP & H1 & H0 & _). cbv zeta in *.
  rewrite Hl, N_nat_Z. pose proof (pow2_half_Z b ltac:(lia)) as Hh.
  assert (Z.of_N (2 ^ lenN l) = 2 ^ Z.of_N b)%Z as HP2.
  { unfold lenN. rewrite Hl, N2Nat.id. apply pow2_N_Z. }
  unfold uval. destruct (hd false l).
  - specialize (H1 eq_refl). destruct (Z.leb_spec (2 ^ (Z.of_N b - 1)) (Z.of_N (bits_to_N l))); lia.
  - specialize (H0 eq_refl). destruct (Z.leb_spec (2 ^ (Z.of_N b - 1)) (Z.of_N (bits_to_N l))); lia.
Qed.

Lemma decode_scalar P t bs v : scalar_ty t = true ->
  Sem.decode Sem.ty_fuel P t bs = Some (v, []) -> VRs t v bs.
Proof.
  intros Hs H. destruct t as [|sg b| | | |]; try discriminate Hs.
  - change (Sem.decode Sem.ty_fuel P TBool bs) with
      (match bs with c :: r => Some (Sem.VBool c, r) | [] => None end) in H.
    destruct bs as [|c r]; [discriminate H|]. injection H as <- ->.
    apply (VRs_intro TBool (Sem.VBool c)); [reflexivity|exact I].
  - change (Sem.decode Sem.ty_fuel P (TInt sg b) bs) with
      (if (length bs <? N.to_nat b)%nat then None
       else Some (Sem.VInt (Sem.to_signed sg b (Sem.unsigned_of_bits (firstn (N.to_nat b) bs))), skipn (N.to_nat b) bs)) in H.
    destruct (Nat.ltb_spec (length bs) (N.to_nat b)) as [Hlt|Hge]; [discriminate H|].
    injection H as <- Hsk.
    assert (length bs = N.to_nat b) as Hl.
    { pose proof (skipn_length (N.to_nat b) bs) as Hk. rewrite Hsk in Hk. cbn [length] in Hk. lia. }
    rewrite <- Hl, firstn_all, unsigned_of_bits_uval. cbn [scalar_ty] in Hs.
    pose proof (ok_width_pos b Hs) as Hb2.
    assert (bs <> []) as Hne by (apply nonempty_len; lia).
    destruct sg.
    + rewrite (to_signed_sval b bs Hs Hl).
      replace bs with (enc (N.to_nat b) (sval bs)) at 2 by (rewrite <- Hl; now apply enc_sval).
      apply (VRs_intro (TInt true b) (Sem.VInt (sval bs))); [exact Hs|]. cbn [val_ok].
      apply (in_range_of_bounds true). pose proof (sval_range bs Hne) as Hr. rewrite Hl, N_nat_Z in Hr. exact Hr.
    + unfold Sem.to_signed. cbn [andb].
      replace bs with (enc (N.to_nat b) (uval bs)) at 2 by (rewrite <- Hl; apply enc_uval).
      apply (VRs_intro (TInt false b) (Sem.VInt (uval bs))); [exact Hs|]. cbn [val_ok].
      apply (in_range_of_bounds false). pose proof (uval_range bs) as Hr. rewrite Hl, N_nat_Z in Hr. exact Hr.
Qed.

Lemma encode_VRs P t v w bits : VRs t v w -> Sem.encode Sem.ty_fuel P t v = Some bits -> bits = w.
Proof.
  intros [(Hs & Hv & ->)|(-> & -> & ->)] H.
  - destruct t as [|sg b| | | |]; try discriminate Hs; destruct v as [c|z| | |]; try contradiction.
    + cbn in H. now injection H as <-.
    + change (Sem.encode Sem.ty_fuel P (TInt sg b) (Sem.VInt z)) with (Some (Sem.bits_of_Z (N.to_nat b) z)) in H.
      injection H as <-. cbn [enc_val]. apply bits_of_Z_enc.
  - cbn in H. now injection H as <-.
Qed.

Lemma fold_env_let_not_ok (l : list (N * list bool)) (r : res (@cenv bool)) :
  (forall E, r <> Ok E) ->
  forall E', fold_left (fun Er b => let* E := Er in env_let E (fst b) (snd b)) l r <> Ok E'.
Proof.
  revert r. induction l as [|b l IH]; intros r Hr E'; cbn [fold_left]; [apply Hr|].
  apply IH. intros E. destruct r; cbn [bind]; try discriminate. exfalso. eapply Hr. reflexivity.
Qed.

Lemma init_rel P : forall params inputs args, Sem.decode_args P params inputs = Some args ->
  forallb (fun p : N * ty => scalar_ty (snd p)) params = true ->
  forall en E g E', env_rel3 VRs en E g ->
  fold_left (fun Er b => let* E := Er in env_let E (fst b) (snd b)) (combine (map fst params) inputs) (Ok E) = Ok E' ->
  env_rel3 VRs (Sem.bind_all en args) E' (tbind_all g params true).
Proof.
  induction params as [|[x t] pr IH]; intros inputs args Hd Hs en E g E' Hrel Hf; cbn [Sem.decode_args] in Hd.
  - destruct inputs; [|discriminate Hd]. injection Hd as <-. cbn in Hf. injection Hf as <-. exact Hrel.
  - destruct inputs as [|bs ir]; [discriminate Hd|].
    destruct (Sem.decode Sem.ty_fuel P t bs) as [[v [|? ?]]|] eqn:Ed; try discriminate Hd.
    destruct (Sem.decode_args P pr ir) as [rest|] eqn:Er; [|discriminate Hd]. injection Hd as <-.
    cbn [forallb snd] in Hs. apply andb_prop in Hs. destruct Hs as [Hst Hs].
    cbn [map fst combine fold_left bind snd] in Hf.
    destruct (env_let E x bs) as [E1| |] eqn:El;
      [|exfalso; eapply fold_env_let_not_ok; [|exact Hf]; intros ? Hq; discriminate Hq
       |exfalso; eapply fold_env_let_not_ok; [|exact Hf]; intros ? Hq; discriminate Hq].
    unfold Sem.bind_all, tbind_all. cbn [fold_left fst snd].
    apply (IH ir rest Er Hs _ E1 _ E'); [|exact Hf].
    eapply rel_let; [exact Hrel|exact (decode_scalar P t bs v Hst Ed)|exact El].
Qed.

(* From main's body to the program.  [tsem_program] and [Sem.run_main] build the environments of
   main's body in the same three steps (the scope of the constants, a scope for the parameters,
   the body in a block of its own); what differs between the fragments is the value relation, how
   the constants and the arguments come to be related, and the theorem about the body. *)
Section Program.
  Variable P : program.
  Variable VR : ty -> Sem.value -> list bool -> Prop.

  (* the run of main in Sem.v on the decoded arguments [vals], before the result is encoded,
     against the bit-level observation *)
  Definition main_obs (d : fndef) (fuel : nat) (vals : list (N * Sem.value)) (o : pobs) (outs : list bool) : Prop :=
    match Sem.eval_consts fuel P with
    | Sem.Done en0 =>
        match Sem.exec_block fuel P (Sem.push_scope (Sem.bind_all (Sem.push_scope en0) vals)) (fn_body d) with
        | Sem.Done (v, _) => o = None /\ VR (fn_ret d) v outs
        | Sem.Panicked r m => o = Some (preason_num (pr r), ploc32 (ploc_of m))
        | Sem.Stuck _ | Sem.NoFuel => True
        end
    | Sem.Panicked _ _ => False
    | Sem.Stuck _ | Sem.NoFuel => True
    end.

  (* [gsc]: the typing scope of the constants; [Post]: whatever else the theorem about the body
     says of the final environments.  The body is asked about at the one source environment of
     the run, [en0] being the environment of the constants. *)
  Lemma main_agrees d gsc fuel fT args vals o outs (Post : Sem.env -> @cenv bool -> Prop) :
    find_fn P (p_main P) = Some d ->
    (forall Eg, global_scope tops P = Ok Eg ->
       match Sem.eval_consts fuel P with
       | Sem.Done en0 => env_rel3 VR en0 Eg [gsc]
       | Sem.Panicked _ _ => False
       | _ => True
       end) ->
    (forall en E g E', env_rel3 VR en E g ->
       fold_left (fun Er b => let* E := Er in env_let E (fst b) (snd b))
                 (combine (map fst (fn_params d)) args) (Ok E) = Ok E' ->
       env_rel3 VR (Sem.bind_all en vals) E' (tbind_all g (fn_params d) true)) ->
    (forall en0 E w E' o', Sem.eval_consts fuel P = Sem.Done en0 ->
       env_rel3 VR (Sem.bind_all (Sem.push_scope en0) vals) E (tbind_all [[]; gsc] (fn_params d) true) ->
       lower_block tops fT P (fn_body d) E None = Ok ((w, E'), o') ->
       match Sem.obind (Sem.exec_block fuel P (Sem.push_scope (Sem.bind_all (Sem.push_scope en0) vals)) (fn_body d))
                       (fun '(v, en1) => Sem.Done (v, Sem.pop_scope en1)) with
       | Sem.Done (v, en') => o' = None /\ VR (fn_ret d) v w /\ Post en' E'
       | Sem.Panicked r m => o' = Some (preason_num (pr r), ploc32 (ploc_of m))
       | Sem.Stuck _ | Sem.NoFuel => True
       end) ->
    tsem_program fT P args = Ok (o, outs) -> main_obs d fuel vals o outs.
  Proof.
    intros Hfind Hconsts Hargs Hbody Hrun. unfold tsem_program in Hrun. rewrite Hfind in Hrun.
    destruct (negb (same_len (fn_params d) args)); [discriminate Hrun|]. unfold main_env in Hrun.
    destruct (global_scope tops P) as [Eg| |]; cbn [bind] in Hrun; try discriminate Hrun.
    destruct (fold_left _ _ (Ok (env_push Eg))) as [E0| |] eqn:Ef; cbn [bind] in Hrun; try discriminate Hrun.
    destruct (lower_block tops fT P (fn_body d) E0 None) as [[[w E'] o1]| |] eqn:Hb; cbn [bind] in Hrun;
      try discriminate Hrun. injection Hrun as <- <-.
    unfold main_obs. specialize (Hconsts Eg eq_refl).
    destruct (Sem.eval_consts fuel P) as [en0|r m|c|]; try exact Hconsts.
    pose proof (Hbody _ _ _ _ _ eq_refl (Hargs _ _ _ _ (rel_push _ _ _ _ Hconsts) Ef) Hb) as H. revert H.
    destruct (Sem.exec_block fuel P _ (fn_body d)) as [[v en1]|r m|c|]; cbn [Sem.obind]; intro H;
      try exact I; [|exact H].
    destruct H as (-> & HV & _). auto.
  Qed.

  Lemma main_obs_run d fuel args o outs :
    find_fn P (p_main P) = Some d ->
    (forall v w bits, VR (fn_ret d) v w -> Sem.encode Sem.ty_fuel P (fn_ret d) v = Some bits -> bits = w) ->
    (forall vals, Sem.decode_args P (fn_params d) args = Some vals -> main_obs d fuel vals o outs) ->
    match Sem.run_main fuel P args with
    | Sem.RunOk bits _ => o = None /\ outs = bits
    | Sem.RunPanic r m => o = Some (preason_num (pr r), ploc32 (ploc_of m))
    | Sem.RunStuck _ | Sem.RunNoFuel => True
    end.
  Proof.
    intros Hfind Henc H. unfold Sem.run_main. rewrite Hfind.
    destruct (Sem.decode_args P (fn_params d) args) as [vals|]; [|exact I].
    specialize (H vals eq_refl). unfold main_obs in H.
    destruct (Sem.eval_consts fuel P) as [en0|r m|c|]; try exact I; try contradiction.
    destruct (Sem.exec_block fuel P _ (fn_body d)) as [[v en1]|r m|c|]; try exact I; [|exact H].
    destruct H as [-> HV]. destruct (Sem.encode Sem.ty_fuel P (fn_ret d) v) as [bits|] eqn:Ee; [|exact I].
    split; [reflexivity|]. symmetry. exact (Henc v outs bits HV Ee).
  Qed.
End Program.

Lemma no_consts_rel P VR fuel : p_consts P = [] -> forall Eg, global_scope tops P = Ok Eg ->
  match Sem.eval_consts fuel P with
  | Sem.Done en0 => env_rel3 VR en0 Eg [[]]
  | Sem.Panicked _ _ => False
  | _ => True
  end.
Proof.
  intros Hc Eg. unfold global_scope, Sem.eval_consts. rewrite Hc. cbn [fold_left]. intros [= <-].
  unfold env_rel3. cbn [Sem.scopes]. constructor; [|constructor]. split; [exact I|]. intro x. cbn. auto.
Qed.

(* AGREEMENT for whole programs whose main is in the fragment (no calls, no global
   constants, scalar parameters): the observable results of the two semantics coincide *)
Theorem tsem_sem_program P d fuel fw fT args o outs :
  p_consts P = [] -> find_fn P (p_main P) = Some d ->
  forallb (fun p : N * ty => scalar_ty (snd p)) (fn_params d) = true ->
  sc_block fw ([] :: tbind_all [[]; []] (fn_params d) true) (fn_body d) = Some (fn_ret d) ->
  forallb imp_stmt (fn_body d) = true ->
  tsem_program fT P args = Ok (o, outs) ->
  match Sem.run_main fuel P args with
  | Sem.RunOk bits _ => o = None /\ outs = bits
  | Sem.RunPanic r m => o = Some (preason_num (pr r), ploc32 (ploc_of m))
  | Sem.RunStuck _ | Sem.RunNoFuel => True
  end.
Proof.
  intros Hc Hfind Hsp Hsc Hi Hrun.
  apply (main_obs_run P VRs d fuel args o outs Hfind (encode_VRs P _)). intros vals Ed.
  exact (main_agrees P VRs d [] fuel fT args vals o outs _ Hfind (no_consts_rel P VRs fuel Hc)
           (init_rel P _ _ _ Ed Hsp)
           (fun en0 E w E' o' _ Hrel Hb => tsem_sem_imp_block P fuel fw _ _ _ _ E fT w E' o' Hsc Hi Hrel Hb) Hrun).
Qed.
Print Assumptions tsem_sem_program.

(* ------------------------------------------------------------------ sanity: the hypotheses are
   satisfiable, on a block with let mut, if / else with assignments in both branches *)

Module SanityStmt.
  Definition P0 : program := mkProgram [] [] [] [] 0.
  Definition mm (k : N) : meta := mkMeta k 1 k 9.
  Definition u8 := TInt false 8.
  Definition va := Ex (EId 0) (mm 1) u8.
  Definition vb := Ex (EId 1) (mm 2) u8.
  Definition vx := Ex (EId 2) (mm 3) u8.
  (* { let mut x = a; if x < b { x = x + b; } else { x = x - b; }; x } *)
  Definition body : list stmt :=
    [ St (SLetMut 2 va) (mm 4);
      St (SExpr (Ex (EIf (Ex (EOp OLt vx vb) (mm 5) TBool)
                         (Ex (EBlock [St (SAssign 2 [] (Ex (EOp OAdd vx vb) (mm 6) u8)) (mm 7)]) (mm 8) unit_ty)
                         (Ex (EBlock [St (SAssign 2 [] (Ex (EOp OSub vx vb) (mm 9) u8)) (mm 10)]) (mm 11) unit_ty))
                    (mm 12) unit_ty)) (mm 13);
      St (SExpr vx) (mm 14) ].
  Definition g0 : tenv := [[(0, (u8, false)); (1, (u8, false))]].
  Definition en0 (a c : Z) : Sem.env := Sem.mkEnv [[(0, Sem.VInt a); (1, Sem.VInt c)]] false.
  Definition E0 (a c : Z) : @cenv bool := [[(0, enc 8 a); (1, enc 8 c)]].

  Lemma checks : sc_block 10 ([] :: g0) body = Some u8 /\ forallb imp_stmt body = true.
  Proof. split; reflexivity. Qed.

  Lemma rel0 a c : Sem.in_range false 8 a = true -> Sem.in_range false 8 c = true ->
    env_rel3 VRs (en0 a c) (E0 a c) g0.
  Proof.
    intros Ha Hc. unfold env_rel3, en0, E0, g0. cbn [Sem.scopes]. constructor; [|constructor].
    split.
    - unfold ssorted. cbn. repeat split; intros k' Hin; cbn in Hin; intuition lia.
    - intro x. cbn [assocN].
      destruct (x =? 0); [exists (Sem.VInt a), (enc 8 a); repeat split; apply (VRs_intro u8 (Sem.VInt a)); auto|].
      destruct (x =? 1); [exists (Sem.VInt c), (enc 8 c); repeat split; apply (VRs_intro u8 (Sem.VInt c)); auto|].
      auto.
  Qed.

  (* 100 < 200: x = 100 + 200 overflows; the bit-level run also evaluates the other branch *)
  Example panics : exists w E',
    lower_block tops 8 P0 body (E0 100 200) None =
      Ok ((w, E'), Some (preason_num Overflow, ploc32 (ploc_of (mm 6)))).
  Proof.
    destruct checks as [H1 H2].
    destruct (lower_block tops 8 P0 body (E0 100 200) None) as [[[w E'] o']| |] eqn:Hrun;
      [|vm_compute in Hrun; discriminate Hrun|vm_compute in Hrun; discriminate Hrun].
    pose proof (tsem_sem_imp_block P0 10 10 g0 body u8 (en0 100 200) _ 8 w E' o' H1 H2
                  (rel0 100 200 eq_refl eq_refl) Hrun) as H.
    assert (Sem.obind (Sem.exec_block 10 P0 (Sem.push_scope (en0 100 200)) body)
              (fun '(v, en1) => Sem.Done (v, Sem.pop_scope en1)) = Sem.Panicked Sem.ROverflow (mm 6)) as Ev
      by (vm_compute; reflexivity).
    rewrite Ev in H. subst o'. eauto.
  Qed.
End SanityStmt.




