(* Bit-level semantics of programs: the generic lowering of Compile/Lower.v instantiated with
   BOOLEANS as wires and the Boolean functions of Gadgets/GadgetSpec.v, Sort/Sort.v and
   Panic/PanicSem.v as operations.  No gate store, no cache, no rewriting, no pruning: a
   wire IS its value on the input under consideration; the compiler state is the observable
   content of the panic record ([None], or the reason number and location of the first
   failure).  LowerSound.v proves that every circuit the model of compile.rs emits computes
   exactly this function, for all inputs (both settings of gate de-duplication).
   Definitions only.

   Each operation refuses ([Crash]) the argument shapes its builder counterpart refuses or
   is not specified for (operands of different lengths, elements of different lengths in a
   sorting network); compile.rs never produces these. *)
From GV Require Import Base.Util Lang.Ast Gadgets.GadgetSpec Sort.Sort Panic.PanicRec Panic.PanicSem
  Compile.Lower.

Definition pobs := option (N * ploc).

Definition tret {A} (a : A) : pobs -> res (A * pobs) := fun o => Ok (a, o).

Definition same_len {A B} (x : list A) (y : list B) : bool := (length x =? length y)%nat.
Definition nonempty {A} (x : list A) : bool := match x with [] => false | _ => true end.

(* all elements have the length of the first one, and the key fits *)
Definition elems_shape (bits : nat) (v : list (list bool)) : bool :=
  match v with
  | [] => true
  | x :: _ => forallb (fun y => (length y =? length x)%nat) v && (bits <=? length x)%nat
  end.

Definition ploc_of (m : meta) : ploc := mkPLoc (m_sl m) (m_sc m) (m_el m) (m_ec m).

Definition tops : ops bool pobs pobs := {|
  w0 := false;
  w1 := true;
  o_xor := fun x y => tret (xorb x y);
  o_and := fun x y => tret (andb x y);
  o_or := fun x y => tret (orb x y);
  o_eq := fun x y => tret (negb (xorb x y));
  o_not := fun x => tret (negb x);
  o_mux := fun s x0 x1 => tret (if s then x0 else x1);
  o_negation := fun x => tret (negation_s x);
  o_addition := fun x y o => if same_len x y then Ok (addition_s x y, o) else Crash;
  o_subtraction := fun x y sg o =>
    if same_len x y && (negb sg || nonempty x) then Ok (subtraction_s x y sg, o) else Crash;
  o_multiplier := fun x y z c => tret (multiplier_s x y z c);
  o_udiv := fun x y o => if same_len x y then Ok (udiv_s x y, o) else Crash;
  o_sdiv := fun x y o => if same_len x y && nonempty x then Ok (sdiv_s x y, o) else Crash;
  o_comparator := fun bits x sx y sy o =>
    if ((bits <=? length x) && (bits <=? length y))%nat then Ok (cmp_s bits x sx y sy, o) else Crash;
  o_eq_circuit := fun x y => tret (eq_s x y);
  o_merger := fun bits asc v o =>
    if elems_shape bits v then Ok (bitonic_merger (gt_key bits) asc v, o) else Crash;
  o_sorter := fun bits v o =>
    if elems_shape bits v then Ok (bitonic_sorter (gt_key bits) v, o) else Crash;
  o_panic_if := fun c r m o => Ok (tt, push_spec o c r (ploc_of m));
  o_peek := fun o => Ok (o, o);
  o_replace := fun P o => Ok (o, P);
  o_mux_panic := fun c T F o => Ok (if c then T else F, o)
|}.

(* [args]: the bits of each parameter of main, in order.  Result: the panic observation and
   the bits of the returned value. *)
Definition tsem_program (fuel : nat) (P : program) (args : list (list bool)) : res (pobs * list bool) :=
  match find_fn P (p_main P) with
  | None => Crash
  | Some fd =>
      if negb (same_len (fn_params fd) args) then Crash else
      let* E0 := main_env tops P (combine (map fst (fn_params fd)) args) in
      let* ((outs, _), o) := lower_block tops fuel P (fn_body fd) E0 None in
      Ok (o, outs)
  end.

(* the 161 bits with which a circuit reports an observation *)
Definition tbits (n : N) (k : nat) : list bool :=
  map (fun i => N.testbit n (N.of_nat (k - 1 - i))) (seq 0 k).
