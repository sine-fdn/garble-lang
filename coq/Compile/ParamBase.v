(* Parametricity of the generic lowering of Compile/Lower.v, abstractly: a simulation
   framework over ARBITRARY instances OA / OB of the operation record and arbitrary Kripke
   relations, packaged in the record [param_rel].  The concrete framework of
   SimBase.v / SimOps.v is one instance (SimOps.concrete_rel); "the shape of the arguments decides
   definedness" for the bit-level semantics is another (TSemShape.v). *)
From GV Require Import Base.Util Base.NMap Lang.Ast Panic.PanicRec Compile.Lower.

(* ------------------------------------------------------------------ Forall2 utilities *)

Section F2U.
  Context {A B : Type} (R : A -> B -> Prop).

  Lemma F2_length l1 l2 : Forall2 R l1 l2 -> length l1 = length l2.
  Proof. induction 1; cbn; congruence. Qed.

  Lemma F2_firstn n : forall l1 l2, Forall2 R l1 l2 -> Forall2 R (firstn n l1) (firstn n l2).
  Proof. induction n; intros l1 l2 H; cbn; [constructor|]. destruct H; constructor; auto. Qed.

  Lemma F2_skipn n : forall l1 l2, Forall2 R l1 l2 -> Forall2 R (skipn n l1) (skipn n l2).
  Proof. induction n; intros l1 l2 H; cbn; [exact H|]. destruct H; [constructor|auto]. Qed.

  Lemma F2_app l1 l2 r1 r2 : Forall2 R l1 l2 -> Forall2 R r1 r2 -> Forall2 R (l1 ++ r1) (l2 ++ r2).
  Proof. induction 1; cbn; auto. Qed.

  Lemma F2_rev l1 l2 : Forall2 R l1 l2 -> Forall2 R (rev l1) (rev l2).
  Proof. induction 1; cbn; [constructor|]. apply F2_app; auto. Qed.

  Lemma F2_repeat a b n : R a b -> Forall2 R (repeat a n) (repeat b n).
  Proof. intro H. induction n; cbn; constructor; auto. Qed.

  Lemma F2_nth l1 l2 d1 d2 i : Forall2 R l1 l2 -> R d1 d2 -> R (nth i l1 d1) (nth i l2 d2).
  Proof. intros H Hd. revert i. induction H; intros [|i]; cbn; auto. Qed.

  Lemma F2_hd l1 l2 d1 d2 : Forall2 R l1 l2 -> R d1 d2 -> R (hd d1 l1) (hd d2 l2).
  Proof. destruct 1; cbn; auto. Qed.

  Lemma F2_tl l1 l2 : Forall2 R l1 l2 -> Forall2 R (tl l1) (tl l2).
  Proof. destruct 1; cbn; auto. Qed.

  Lemma F2_last l1 l2 d1 d2 : Forall2 R l1 l2 -> R d1 d2 -> R (last l1 d1) (last l2 d2).
  Proof. intros H Hd. induction H; cbn; auto. destruct H0; auto. Qed.

  Lemma F2_removelast l1 l2 : Forall2 R l1 l2 -> Forall2 R (removelast l1) (removelast l2).
  Proof. induction 1; cbn; [constructor|]. destruct H0; [constructor|]. constructor; auto. Qed.

  Lemma F2_nth_error l1 l2 i : Forall2 R l1 l2 ->
    match nth_error l1 i, nth_error l2 i with
    | Some a, Some b => R a b
    | None, None => True
    | _, _ => False
    end.
  Proof. intro H. revert i. induction H; intros [|i]; cbn; auto. apply IHForall2. Qed.
End F2U.

Lemma F2_concat {A B} (R : A -> B -> Prop) l1 l2 :
  Forall2 (Forall2 R) l1 l2 -> Forall2 R (concat l1) (concat l2).
Proof. induction 1; cbn; [constructor|]. apply F2_app; auto. Qed.

Lemma F2_combine {A B C D} (R : A -> B -> Prop) (S : C -> D -> Prop) l1 l2 r1 r2 :
  Forall2 R l1 l2 -> Forall2 S r1 r2 ->
  Forall2 (fun p q => R (fst p) (fst q) /\ S (snd p) (snd q)) (combine l1 r1) (combine l2 r2).
Proof.
  intro H. revert r1 r2. induction H; intros r1 r2 Hr; cbn; [constructor|].
  destruct Hr; constructor; auto.
Qed.

Lemma F2_map {A B C D} (R : C -> D -> Prop) (f : A -> C) (g : B -> D) (P : A -> B -> Prop) l1 l2 :
  (forall a b, P a b -> R (f a) (g b)) -> Forall2 P l1 l2 -> Forall2 R (map f l1) (map g l2).
Proof. intros Hf. induction 1; cbn; constructor; auto. Qed.

Lemma F2_map_same {A C D} (R : C -> D -> Prop) (f : A -> C) (g : A -> D) l :
  (forall a, R (f a) (g a)) -> Forall2 R (map f l) (map g l).
Proof. intro H. induction l; cbn; constructor; auto. Qed.

Lemma F2_impl' {A B} (R R' : A -> B -> Prop) l1 l2 :
  (forall a b, R a b -> R' a b) -> Forall2 R l1 l2 -> Forall2 R' l1 l2.
Proof. intros H. induction 1; constructor; auto. Qed.


(* ------------------------------------------------------------------ the abstract triple *)

(* ONE direction only: where the B side fails nothing is claimed of A *)
Definition simG {SA SB : Type} (extS : SA -> SA -> Prop) (RS : SA -> SB -> Prop) {X Y : Type}
    (s : SA) (o : SB) (mA : SA -> res (X * SA)) (mB : SB -> res (Y * SB)) (Q : SA -> X -> Y -> Prop) : Prop :=
  forall y o', mB o = Ok (y, o') ->
  exists x s', mA s = Ok (x, s') /\ extS s s' /\ RS s' o' /\ Q s' x y.

(* ------------------------------------------------------------------ the record of hypotheses *)

Record param_rel {WA WB SA SB PA PB : Type} (OA : ops WA SA PA) (OB : ops WB SB PB) : Type := mkParamRel {
  pr_extS : SA -> SA -> Prop;
  (* what [pr_RS s o] says of [s] alone ([pr_RS_ok]): the monotonicity of [pr_Rw] / [pr_RP] along
     [pr_extS] needs no more, so it can be used where no B state is at hand *)
  pr_okS : SA -> Prop;
  pr_Rw : SA -> WA -> WB -> Prop;
  pr_RP : SA -> PA -> PB -> Prop;
  pr_RS : SA -> SB -> Prop;
  pr_extS_refl : forall s, pr_extS s s;
  pr_extS_trans : forall s1 s2 s3, pr_extS s1 s2 -> pr_extS s2 s3 -> pr_extS s1 s3;
  pr_RS_ok : forall s o, pr_RS s o -> pr_okS s;
  pr_Rw_mono : forall s s' w v, pr_extS s s' -> pr_okS s -> pr_Rw s w v -> pr_Rw s' w v;
  pr_RP_mono : forall s s' p q, pr_extS s s' -> pr_okS s -> pr_RP s p q -> pr_RP s' p q;
  pr_Rw_wF : forall s o, pr_RS s o -> pr_Rw s (wF OA) (wF OB);
  pr_Rw_wT : forall s o, pr_RS s o -> pr_Rw s (wT OA) (wT OB);
  pr_xor : forall s o x y vx vy, pr_RS s o -> pr_Rw s x vx -> pr_Rw s y vy ->
    simG pr_extS pr_RS s o (o_xor OA x y) (o_xor OB vx vy) (fun s' r v => pr_Rw s' r v);
  pr_and : forall s o x y vx vy, pr_RS s o -> pr_Rw s x vx -> pr_Rw s y vy ->
    simG pr_extS pr_RS s o (o_and OA x y) (o_and OB vx vy) (fun s' r v => pr_Rw s' r v);
  pr_or : forall s o x y vx vy, pr_RS s o -> pr_Rw s x vx -> pr_Rw s y vy ->
    simG pr_extS pr_RS s o (o_or OA x y) (o_or OB vx vy) (fun s' r v => pr_Rw s' r v);
  pr_eq : forall s o x y vx vy, pr_RS s o -> pr_Rw s x vx -> pr_Rw s y vy ->
    simG pr_extS pr_RS s o (o_eq OA x y) (o_eq OB vx vy) (fun s' r v => pr_Rw s' r v);
  pr_not : forall s o x vx, pr_RS s o -> pr_Rw s x vx ->
    simG pr_extS pr_RS s o (o_not OA x) (o_not OB vx) (fun s' r v => pr_Rw s' r v);
  pr_mux : forall s o c x0 x1 vc v0 v1, pr_RS s o -> pr_Rw s c vc -> pr_Rw s x0 v0 -> pr_Rw s x1 v1 ->
    simG pr_extS pr_RS s o (o_mux OA c x0 x1) (o_mux OB vc v0 v1) (fun s' r v => pr_Rw s' r v);
  pr_negation : forall s o x vx, pr_RS s o -> Forall2 (pr_Rw s) x vx ->
    simG pr_extS pr_RS s o (o_negation OA x) (o_negation OB vx) (fun s' r v => Forall2 (pr_Rw s') r v);
  pr_addition : forall s o x y vx vy, pr_RS s o -> Forall2 (pr_Rw s) x vx -> Forall2 (pr_Rw s) y vy ->
    simG pr_extS pr_RS s o (o_addition OA x y) (o_addition OB vx vy)
      (fun s' r v => Forall2 (pr_Rw s') (fst (fst r)) (fst (fst v)) /\ pr_Rw s' (snd (fst r)) (snd (fst v))
                     /\ pr_Rw s' (snd r) (snd v));
  pr_subtraction : forall s o x y sg vx vy, pr_RS s o -> Forall2 (pr_Rw s) x vx -> Forall2 (pr_Rw s) y vy ->
    simG pr_extS pr_RS s o (o_subtraction OA x y sg) (o_subtraction OB vx vy sg)
      (fun s' r v => Forall2 (pr_Rw s') (fst r) (fst v) /\ pr_Rw s' (snd r) (snd v));
  pr_multiplier : forall s o x y z c vx vy vz vc, pr_RS s o -> pr_Rw s x vx -> pr_Rw s y vy -> pr_Rw s z vz ->
    pr_Rw s c vc ->
    simG pr_extS pr_RS s o (o_multiplier OA x y z c) (o_multiplier OB vx vy vz vc)
      (fun s' r v => pr_Rw s' (fst r) (fst v) /\ pr_Rw s' (snd r) (snd v));
  pr_udiv : forall s o x y vx vy, pr_RS s o -> Forall2 (pr_Rw s) x vx -> Forall2 (pr_Rw s) y vy ->
    simG pr_extS pr_RS s o (o_udiv OA x y) (o_udiv OB vx vy)
      (fun s' r v => Forall2 (pr_Rw s') (fst r) (fst v) /\ Forall2 (pr_Rw s') (snd r) (snd v));
  pr_sdiv : forall s o x y vx vy, pr_RS s o -> Forall2 (pr_Rw s) x vx -> Forall2 (pr_Rw s) y vy ->
    simG pr_extS pr_RS s o (o_sdiv OA x y) (o_sdiv OB vx vy)
      (fun s' r v => Forall2 (pr_Rw s') (fst r) (fst v) /\ Forall2 (pr_Rw s') (snd r) (snd v));
  pr_comparator : forall s o bits x sx y sy vx vy, pr_RS s o -> Forall2 (pr_Rw s) x vx -> Forall2 (pr_Rw s) y vy ->
    simG pr_extS pr_RS s o (o_comparator OA bits x sx y sy) (o_comparator OB bits vx sx vy sy)
      (fun s' r v => pr_Rw s' (fst r) (fst v) /\ pr_Rw s' (snd r) (snd v));
  pr_eq_circuit : forall s o x y vx vy, pr_RS s o -> Forall2 (pr_Rw s) x vx -> Forall2 (pr_Rw s) y vy ->
    simG pr_extS pr_RS s o (o_eq_circuit OA x y) (o_eq_circuit OB vx vy) (fun s' r v => pr_Rw s' r v);
  pr_merger : forall s o bits asc v vv, pr_RS s o -> Forall2 (Forall2 (pr_Rw s)) v vv ->
    simG pr_extS pr_RS s o (o_merger OA bits asc v) (o_merger OB bits asc vv)
      (fun s' r w => Forall2 (Forall2 (pr_Rw s')) r w);
  pr_sorter : forall s o bits v vv, pr_RS s o -> Forall2 (Forall2 (pr_Rw s)) v vv ->
    simG pr_extS pr_RS s o (o_sorter OA bits v) (o_sorter OB bits vv)
      (fun s' r w => Forall2 (Forall2 (pr_Rw s')) r w);
  pr_panic_if : forall s o c vc r m, pr_RS s o -> pr_Rw s c vc ->
    simG pr_extS pr_RS s o (o_panic_if OA c r m) (o_panic_if OB vc r m) (fun _ _ _ => True);
  pr_peek : forall s o, pr_RS s o ->
    simG pr_extS pr_RS s o (o_peek OA) (o_peek OB) (fun s' P ob => pr_RP s' P ob);
  pr_replace : forall s o P ob, pr_RS s o -> pr_RP s P ob ->
    simG pr_extS pr_RS s o (o_replace OA P) (o_replace OB ob) (fun s' P1 o1 => pr_RP s' P1 o1);
  pr_mux_panic : forall s o c vc T F oT oF, pr_RS s o -> pr_Rw s c vc -> pr_RP s T oT -> pr_RP s F oF ->
    simG pr_extS pr_RS s o (o_mux_panic OA c T F) (o_mux_panic OB vc oT oF) (fun s' P1 o1 => pr_RP s' P1 o1)
}.

Arguments pr_extS {WA WB SA SB PA PB OA OB} _.
Arguments pr_okS {WA WB SA SB PA PB OA OB} _.
Arguments pr_Rw {WA WB SA SB PA PB OA OB} _.
Arguments pr_RP {WA WB SA SB PA PB OA OB} _.
Arguments pr_RS {WA WB SA SB PA PB OA OB} _.

(* ------------------------------------------------------------------ the derived relations *)

Section Sim.
Context {WA WB SA SB PA PB : Type} {OA : ops WA SA PA} {OB : ops WB SB PB}.
Variable PR : param_rel OA OB.

Definition extS : SA -> SA -> Prop := pr_extS PR.
Definition okS : SA -> Prop := pr_okS PR.
Definition Rw : SA -> WA -> WB -> Prop := pr_Rw PR.
Definition RP : SA -> PA -> PB -> Prop := pr_RP PR.
Definition RS : SA -> SB -> Prop := pr_RS PR.

Definition Rws (s : SA) : list WA -> list WB -> Prop := Forall2 (Rw s).
Definition Rwss (s : SA) : list (list WA) -> list (list WB) -> Prop := Forall2 (Rws s).

Definition Rbind (s : SA) (a : N * list WA) (b : N * list WB) : Prop :=
  fst a = fst b /\ Rws s (snd a) (snd b).
Definition Rscope (s : SA) : @scope WA -> @scope WB -> Prop := Forall2 (Rbind s).
Definition RE (s : SA) : @cenv WA -> @cenv WB -> Prop := Forall2 (Rscope s).

Lemma extS_refl s : extS s s.
Proof. apply (pr_extS_refl _ _ PR). Qed.
Lemma extS_trans s1 s2 s3 : extS s1 s2 -> extS s2 s3 -> extS s1 s3.
Proof. apply (pr_extS_trans _ _ PR). Qed.

Lemma RS_ok s o : RS s o -> okS s.
Proof. apply (pr_RS_ok _ _ PR). Qed.

Lemma Rw_mono s s' w v : extS s s' -> okS s -> Rw s w v -> Rw s' w v.
Proof. apply (pr_Rw_mono _ _ PR). Qed.

(* [rel] at each result type, monotone along [extS].  [Rws], [Rwss], [Rbind], [Rscope] and [RE] are [rel] at
   their types, by conversion. *)
Class Rel (X Y : Type) := mkRel {
  rel : SA -> X -> Y -> Prop;
  rel_mono : forall s s' x y, extS s s' -> okS s -> rel s x y -> rel s' x y }.

Lemma RP_mono s s' p q : extS s s' -> okS s -> RP s p q -> RP s' p q.
Proof. apply (pr_RP_mono _ _ PR). Qed.

Lemma list_mono {X Y} `{Rel X Y} s s' l l' :
  extS s s' -> okS s -> Forall2 (rel s) l l' -> Forall2 (rel s') l l'.
Proof. intros E Hi. apply F2_impl'. intros a b. apply rel_mono; assumption. Qed.

Lemma pair_mono {X Y X' Y'} `{Rel X Y} `{Rel X' Y'} s s' (p : X * X') (q : Y * Y') : extS s s' -> okS s ->
  rel s (fst p) (fst q) /\ rel s (snd p) (snd q) -> rel s' (fst p) (fst q) /\ rel s' (snd p) (snd q).
Proof. intros E Hi [H1 H2]. split; eapply rel_mono; eassumption. Qed.

Definition rel_option {X Y} `{Rel X Y} (s : SA) (a : option X) (b : option Y) : Prop :=
  match a, b with Some x, Some y => rel s x y | None, None => True | _, _ => False end.

Lemma option_mono {X Y} `{Rel X Y} s s' a b : extS s s' -> okS s -> rel_option s a b -> rel_option s' a b.
Proof. intros E Hi. destruct a, b; cbn; auto. apply rel_mono; assumption. Qed.

Global Instance Rel_wire : Rel WA WB := mkRel _ _ Rw Rw_mono.
Global Instance Rel_panic : Rel PA PB := mkRel _ _ RP RP_mono.
Global Instance Rel_list {X Y} `{Rel X Y} : Rel (list X) (list Y) := mkRel _ _ (fun s => Forall2 (rel s)) list_mono.
Global Instance Rel_pair {X Y X' Y'} `{Rel X Y} `{Rel X' Y'} : Rel (X * X') (Y * Y') :=
  mkRel _ _ (fun s p q => rel s (fst p) (fst q) /\ rel s (snd p) (snd q)) pair_mono.
Global Instance Rel_option {X Y} `{Rel X Y} : Rel (option X) (option Y) := mkRel _ _ rel_option option_mono.
Global Instance Rel_N : Rel N N := mkRel _ _ (fun _ => eq) (fun _ _ _ _ _ _ H => H).
Global Instance Rel_nat : Rel nat nat := mkRel _ _ (fun _ => eq) (fun _ _ _ _ _ _ H => H).
Global Instance Rel_unit : Rel unit unit := mkRel _ _ (fun _ _ _ => True) (fun _ _ _ _ _ _ H => H).

Lemma Rw_const0 s o : RS s o -> Rw s (wF OA) (wF OB).
Proof. apply (pr_Rw_wF _ _ PR). Qed.
Lemma Rw_const1 s o : RS s o -> Rw s (wT OA) (wT OB).
Proof. apply (pr_Rw_wT _ _ PR). Qed.

Section RelList.
  Context {X Y : Type} `{Rel X Y}.
  Implicit Types (l r : list X) (vl vr : list Y).

  Lemma rel_nil s : rel s (@nil X) (@nil Y).
  Proof. constructor. Qed.
  Lemma rel_cons s x y l vl : rel s x y -> rel s l vl -> rel s (x :: l) (y :: vl).
  Proof. constructor; assumption. Qed.
  Lemma rel_length s l vl : rel s l vl -> length l = length vl.
  Proof. apply F2_length. Qed.
  Lemma rel_app s l vl r vr : rel s l vl -> rel s r vr -> rel s (l ++ r) (vl ++ vr).
  Proof. apply F2_app. Qed.
  Lemma rel_rev s l vl : rel s l vl -> rel s (rev l) (rev vl).
  Proof. apply F2_rev. Qed.
  Lemma rel_firstn s n l vl : rel s l vl -> rel s (firstn n l) (firstn n vl).
  Proof. apply F2_firstn. Qed.
  Lemma rel_skipn s n l vl : rel s l vl -> rel s (skipn n l) (skipn n vl).
  Proof. apply F2_skipn. Qed.
  Lemma rel_tl s l vl : rel s l vl -> rel s (tl l) (tl vl).
  Proof. apply F2_tl. Qed.
  Lemma rel_removelast s l vl : rel s l vl -> rel s (removelast l) (removelast vl).
  Proof. apply F2_removelast. Qed.
  Lemma rel_repeat s x y n : rel s x y -> rel s (repeat x n) (repeat y n).
  Proof. apply F2_repeat. Qed.
  Lemma rel_concat s (l : list (list X)) (vl : list (list Y)) : rel s l vl -> rel s (concat l) (concat vl).
  Proof. apply F2_concat. Qed.
  Lemma rel_nth s l vl d d' i : rel s l vl -> rel s d d' -> rel s (nth i l d) (nth i vl d').
  Proof. apply F2_nth. Qed.
  Lemma rel_last s l vl d d' : rel s l vl -> rel s d d' -> rel s (last l d) (last vl d').
  Proof. apply F2_last. Qed.
End RelList.

Lemma rel_pair {X Y X' Y'} `{Rel X Y} `{Rel X' Y'} s (x : X) (y : Y) (x' : X') (y' : Y') :
  rel s x y -> rel s x' y' -> rel s (x, x') (y, y').
Proof. split; assumption. Qed.

Lemma rel_combine {X Y X' Y'} `{Rel X Y} `{Rel X' Y'} s (l : list X) (l' : list Y) (r : list X') (r' : list Y') :
  rel s l l' -> rel s r r' -> rel s (combine l r) (combine l' r').
Proof. apply (F2_combine (rel s) (rel s)). Qed.

Lemma rel_Some {X Y} `{Rel X Y} s (x : X) (y : Y) : rel s x y -> rel s (Some x) (Some y).
Proof. exact (fun H => H). Qed.
Lemma rel_None {X Y} `{Rel X Y} s : rel s (@None X) (@None Y).
Proof. exact I. Qed.

Lemma rel_N_refl s (n : N) : rel s n n.
Proof. reflexivity. Qed.

Lemma rel_nat_refl s (n : nat) : rel s n n.
Proof. reflexivity. Qed.

Lemma rel_wF s o : RS s o -> rel s (wF OA) (wF OB).
Proof. apply Rw_const0. Qed.
Lemma rel_wT s o : RS s o -> rel s (wT OA) (wT OB).
Proof. apply Rw_const1. Qed.

(* ------------------------------------------------------------------ the simulation triple *)

Definition MA (X : Type) := SA -> res (X * SA).
Definition MB (Y : Type) := SB -> res (Y * SB).

Definition sim {X Y} (s : SA) (o : SB) (mA : MA X) (mB : MB Y) (Q : SA -> X -> Y -> Prop) : Prop :=
  forall y o', mB o = Ok (y, o') ->
  exists x s', mA s = Ok (x, s') /\ extS s s' /\ RS s' o' /\ Q s' x y.

Lemma sim_simG {X Y} s o (mA : MA X) (mB : MB Y) Q : simG (pr_extS PR) (pr_RS PR) s o mA mB Q -> sim s o mA mB Q.
Proof. intro H. exact H. Qed.

Lemma sim_ret {X Y} s o (x : X) (y : Y) (Q : SA -> X -> Y -> Prop) :
  RS s o -> Q s x y -> sim s o (ret x) (ret y) Q.
Proof.
  intros HS HQ y' o' H. unfold ret in H. injection H as <- <-.
  exists x, s. split; [reflexivity|]. split; [apply extS_refl|]. split; assumption.
Qed.

Lemma sim_bind {X Y X2 Y2} s o (mA : MA X) (mB : MB Y) (kA : X -> MA X2) (kB : Y -> MB Y2)
    (R : SA -> X -> Y -> Prop) (Q : SA -> X2 -> Y2 -> Prop) :
  sim s o mA mB R ->
  (forall s1 o1 x y, extS s s1 -> RS s1 o1 -> R s1 x y -> sim s1 o1 (kA x) (kB y) Q) ->
  sim s o (mbind mA kA) (mbind mB kB) Q.
Proof.
  intros Hm Hk y2 o2 H0. unfold mbind in H0.
  destruct (mB o) as [[y o1]| |] eqn:EB; try discriminate.
  destruct (Hm y o1 EB) as (x & s1 & EA & E1 & HS1 & HR).
  destruct (Hk s1 o1 x y E1 HS1 HR y2 o2 H0) as (x2 & s2 & EA2 & E2 & HS2 & HQ).
  exists x2, s2. unfold mbind. rewrite EA. split; [exact EA2|].
  split; [eapply extS_trans; eauto|]. split; assumption.
Qed.

(* when no lemma about the first computation fixes the intermediate relation, it is [rel] *)
Definition sim_bind_rel {X Y X2 Y2} `{Rel X Y} s o (mA : MA X) (mB : MB Y) (kA : X -> MA X2) (kB : Y -> MB Y2) Q :=
  sim_bind s o mA mB kA kB rel Q.

Lemma sim_crash {X Y} s o (mA : MA X) (Q : SA -> X -> Y -> Prop) : sim s o mA (crash (Cs:=SB) (A:=Y)) Q.
Proof. intros y o' H. discriminate. Qed.

Lemma sim_nofuel {X Y} s o (mA : MA X) (Q : SA -> X -> Y -> Prop) : sim s o mA (nofuel (Cs:=SB) (A:=Y)) Q.
Proof. intros y o' H. discriminate. Qed.

Lemma sim_lift {X Y} s o (rA : res X) (rB : res Y) (Q : SA -> X -> Y -> Prop) :
  RS s o -> (forall y, rB = Ok y -> exists x, rA = Ok x /\ Q s x y) ->
  sim s o (lift_res rA) (lift_res rB) Q.
Proof.
  intros HS H y o' E. unfold lift_res in E. destruct rB as [y0| |]; try discriminate.
  injection E as <- <-. destruct (H y0 eq_refl) as (x & -> & HQ).
  exists x, s. split; [reflexivity|]. split; [apply extS_refl|]. split; assumption.
Qed.

(* a pure first step that can fail: the state does not move, so nothing has to be moved along *)
Lemma sim_bind_lift {X Y X2 Y2} `{Rel X Y} s o (rA : res X) (rB : res Y) (kA : X -> MA X2) (kB : Y -> MB Y2)
    (Q : SA -> X2 -> Y2 -> Prop) :
  (forall y, rB = Ok y -> exists x, rA = Ok x /\ rel s x y) ->
  (forall x y, rel s x y -> sim s o (kA x) (kB y) Q) ->
  sim s o (mbind (lift_res rA) kA) (mbind (lift_res rB) kB) Q.
Proof.
  intros Hr Hk y2 o2. unfold mbind, lift_res. destruct rB as [y| |]; try discriminate.
  destruct (Hr y eq_refl) as (x & -> & HR). exact (Hk x y HR y2 o2).
Qed.

Lemma sim_bind_pure {X X2 Y2} s o (r : res X) (kA : X -> MA X2) (kB : X -> MB Y2) (Q : SA -> X2 -> Y2 -> Prop) :
  (forall x, sim s o (kA x) (kB x) Q) -> sim s o (mbind (lift_res r) kA) (mbind (lift_res r) kB) Q.
Proof. intros Hk y o'. unfold mbind, lift_res. destruct r as [x| |]; try discriminate. apply Hk. Qed.

Lemma sim_conseq {X Y} s o (mA : MA X) (mB : MB Y) (Q Q' : SA -> X -> Y -> Prop) :
  sim s o mA mB Q -> (forall s' x y, extS s s' -> okS s' -> Q s' x y -> Q' s' x y) ->
  sim s o mA mB Q'.
Proof.
  intros H HQ y o' E. destruct (H y o' E) as (x & s' & EA & E1 & HS & Hq).
  exists x, s'. split; [exact EA|]. split; [exact E1|]. split; [exact HS|].
  apply HQ; auto. eapply RS_ok; eauto.
Qed.

(* ------------------------------------------------------------------ the operations *)

Lemma sim_xor s o x y vx vy : RS s o -> rel s x vx -> rel s y vy -> sim s o (o_xor OA x y) (o_xor OB vx vy) rel.
Proof. apply (pr_xor _ _ PR). Qed.
Lemma sim_and s o x y vx vy : RS s o -> rel s x vx -> rel s y vy -> sim s o (o_and OA x y) (o_and OB vx vy) rel.
Proof. apply (pr_and _ _ PR). Qed.
Lemma sim_or s o x y vx vy : RS s o -> rel s x vx -> rel s y vy -> sim s o (o_or OA x y) (o_or OB vx vy) rel.
Proof. apply (pr_or _ _ PR). Qed.
Lemma sim_eq s o x y vx vy : RS s o -> rel s x vx -> rel s y vy -> sim s o (o_eq OA x y) (o_eq OB vx vy) rel.
Proof. apply (pr_eq _ _ PR). Qed.
Lemma sim_not s o x vx : RS s o -> rel s x vx -> sim s o (o_not OA x) (o_not OB vx) rel.
Proof. apply (pr_not _ _ PR). Qed.
Lemma sim_mux s o c x0 x1 vc v0 v1 : RS s o -> rel s c vc -> rel s x0 v0 -> rel s x1 v1 ->
  sim s o (o_mux OA c x0 x1) (o_mux OB vc v0 v1) rel.
Proof. apply (pr_mux _ _ PR). Qed.
Lemma sim_negation s o x vx : RS s o -> rel s x vx -> sim s o (o_negation OA x) (o_negation OB vx) rel.
Proof. apply (pr_negation _ _ PR). Qed.
Lemma sim_addition s o x y vx vy : RS s o -> rel s x vx -> rel s y vy ->
  sim s o (o_addition OA x y) (o_addition OB vx vy) rel.
Proof.
  intros HS Hx Hy. eapply sim_conseq; [apply (pr_addition _ _ PR); eassumption|].
  intros s' r v _ _ (H1 & H2 & H3). repeat split; assumption.
Qed.
Lemma sim_subtraction s o x y sg vx vy : RS s o -> rel s x vx -> rel s y vy ->
  sim s o (o_subtraction OA x y sg) (o_subtraction OB vx vy sg) rel.
Proof. apply (pr_subtraction _ _ PR). Qed.
Lemma sim_multiplier s o x y z c vx vy vz vc : RS s o -> rel s x vx -> rel s y vy -> rel s z vz -> rel s c vc ->
  sim s o (o_multiplier OA x y z c) (o_multiplier OB vx vy vz vc) rel.
Proof. apply (pr_multiplier _ _ PR). Qed.
Lemma sim_udiv s o x y vx vy : RS s o -> rel s x vx -> rel s y vy -> sim s o (o_udiv OA x y) (o_udiv OB vx vy) rel.
Proof. apply (pr_udiv _ _ PR). Qed.
Lemma sim_sdiv s o x y vx vy : RS s o -> rel s x vx -> rel s y vy -> sim s o (o_sdiv OA x y) (o_sdiv OB vx vy) rel.
Proof. apply (pr_sdiv _ _ PR). Qed.
Lemma sim_comparator s o bits x sx y sy vx vy : RS s o -> rel s x vx -> rel s y vy ->
  sim s o (o_comparator OA bits x sx y sy) (o_comparator OB bits vx sx vy sy) rel.
Proof. apply (pr_comparator _ _ PR). Qed.
Lemma sim_eq_circuit s o x y vx vy : RS s o -> rel s x vx -> rel s y vy ->
  sim s o (o_eq_circuit OA x y) (o_eq_circuit OB vx vy) rel.
Proof. apply (pr_eq_circuit _ _ PR). Qed.
Lemma sim_merger s o bits asc v vv : RS s o -> rel s v vv ->
  sim s o (o_merger OA bits asc v) (o_merger OB bits asc vv) rel.
Proof. apply (pr_merger _ _ PR). Qed.
Lemma sim_sorter s o bits v vv : RS s o -> rel s v vv -> sim s o (o_sorter OA bits v) (o_sorter OB bits vv) rel.
Proof. apply (pr_sorter _ _ PR). Qed.
Lemma sim_panic_if s o c vc r m : RS s o -> rel s c vc -> sim s o (o_panic_if OA c r m) (o_panic_if OB vc r m) rel.
Proof. apply (pr_panic_if _ _ PR). Qed.
Lemma sim_peek s o : RS s o -> sim s o (o_peek OA) (o_peek OB) rel.
Proof. apply (pr_peek _ _ PR). Qed.
Lemma sim_replace s o P ob : RS s o -> rel s P ob -> sim s o (o_replace OA P) (o_replace OB ob) rel.
Proof. apply (pr_replace _ _ PR). Qed.
Lemma sim_mux_panic s o c vc T F oT oF : RS s o -> rel s c vc -> rel s T oT -> rel s F oF ->
  sim s o (o_mux_panic OA c T F) (o_mux_panic OB vc oT oF) rel.
Proof. apply (pr_mux_panic _ _ PR). Qed.

End Sim.

#[global] Hint Mode Rel - - - - - - - - - ! ! : typeclass_instances.

Create HintDb rel discriminated.
#[export] Hint Resolve rel_nil rel_cons rel_app rel_rev rel_firstn rel_skipn rel_tl rel_removelast rel_repeat
  rel_concat rel_nth rel_last rel_pair rel_combine rel_Some rel_None rel_N_refl rel_nat_refl rel_wF rel_wT extS_refl : rel.
