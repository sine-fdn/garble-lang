(* FOR-JOIN PROGRAMS AT PROGRAM LEVEL (C13 through "TSem = Sem.v").

   The shape of the corpus / scenario join programs:

     pub fn main(a: [TA; n], b: [TB; m], ...) -> R {
       let mut acc = <literal>; ...            (literal initialisations)
       for <pattern> in join(a, b) { body }    (ONE for-join loop over two parameters, top level)
       post ...                                (anything of the call-free full fragment)
     }

   [join_main_ok fw P] is the boolean test (the statements are checked by the strict checker of
   the call-free full fragment, Compile/TSemSemFull.v [scf_*]); [join_inputs_sorted P args] the
   RUN-TIME precondition: the values of the two table parameters have strictly ascending join
   keys.  [tsem_sem_program_join]: under both, the bit-level semantics and Sem.v agree on
   canonical arguments, in the form of the other program theorems.

   How the run-time condition reaches the loop: the agreement of a statement list is indexed
   by predicates on the source environment ([AgSQ] / [AgSSQ], Hoare style); the literal
   initialisations keep the value of every other variable ([lit_let_keeps]); the loop node is
   Compile/TSemSemJoin.v's [join_loop_node_at], whose precondition is asked at the ONE
   environment of the run. *)
From Coq Require Import Lia ZArith Permutation Sorting.Sorted.
From GV Require Import Base.Util Base.Bits Lang.Ast Lang.Wt Lang.ValTy Gadgets.Gadgets Gadgets.GadgetSpec
  Panic.PanicRec Panic.PanicSem Compile.Lower Compile.TSem Compile.TSemFacts Compile.TSemControl Compile.TSemArray
  Compile.TSemSemExpr Compile.ValEnc Compile.TSemSticky Compile.TSemSemStmt Compile.TSemSemAgg
  Compile.JoinMerge Compile.TSemSemJoin Compile.TSemSemFull.
From GV Require Lang.Sem Lang.WtSound.
Local Open Scope N_scope.

(* ------------------------------------------------------------------ statement lists, Hoare style *)

Section Chain.
  Variable P : program.
  Notation rel := (env_rel3 (VRa P)).

  (* agreement of a statement on the environments that satisfy [Q]; [Q'] holds afterwards *)
  Definition AgSQ (f : nat) (g g' : tenv) (t : ty) (s : stmt) (Q Q' : Sem.env -> Prop) : Prop :=
    forall en E fT w E' o', rel en E g -> Q en -> lower_stmt tops fT P s E None = Ok ((w, E'), o') ->
    match Sem.exec f P en s with
    | Sem.Done (v, en') => o' = None /\ VRa P t v w /\ rel en' E' g' /\ Q' en'
    | Sem.Panicked r m => o' = Some (pcode r m)
    | _ => True
    end.

  Inductive AgSSQ (f : nat) : (Sem.env -> Prop) -> tenv -> list stmt -> ty -> tenv -> ty -> Prop :=
  | AgSSQ_nil Q g t : AgSSQ f Q g [] t g t
  | AgSSQ_cons Q Q' g s r g1 t1 t0 g' t :
      AgSQ f g g1 t1 s Q Q' -> AgSSQ f Q' g1 r t1 g' t -> AgSSQ f Q g (s :: r) t0 g' t.

  Lemma stmts_nodeQ f Q g ss t0 g' t : AgSSQ f Q g ss t0 g' t ->
    forall en E fT last lw w E' o',
    rel en E g -> Q en -> VRa P t0 last lw ->
    block_stmts (lower_stmt tops fT P) ss lw E None = Ok ((w, E'), o') ->
    match sem_stmts P f ss last en with
    | Sem.Done (v, en') => o' = None /\ VRa P t v w /\ rel en' E' g'
    | Sem.Panicked r m => o' = Some (pcode r m)
    | _ => True
    end.
  Proof.
    induction 1 as [Q g t|Q Q' g s r g1 t1 t0 g' t Hs _ IH]; intros en E fT last lw w E' o' Hrel HQ HV Hrun.
    - cbn [block_stmts] in Hrun. apply ret_inv in Hrun. destruct Hrun as [Heq ->]. injection Heq as -> ->.
      cbn [sem_stmts]. auto.
    - cbn [block_stmts] in Hrun. minva Hrun as [w1 E1] o1 H1. cbn [sem_stmts].
      pose proof (Hs en E fT _ _ _ Hrel HQ H1) as IH1. revert IH1.
      destruct (Sem.exec f P en s) as [[v en1]|r1 m1|c1|]; intro IH1; cbn [Sem.obind]; try exact I.
      + destruct IH1 as (-> & HV1 & Hrel1 & HQ1). exact (IH en1 E1 fT v w1 _ _ _ Hrel1 HQ1 HV1 Hrun).
      + subst o1. destruct (tsem_sticky_fuel (pcode r1 m1) P fT) as (_ & _ & Hss & _).
        exact (stkx_block_stmts _ _ Hss r w1 E1 _ _ Hrun).
  Qed.

  (* an unconditional agreement is one for every [Q], with nothing known afterwards *)
  Lemma AgSQ_of_AgS f g g' t s Q : AgS P (VRa P) f g g' t s -> AgSQ f g g' t s Q (fun _ => True).
  Proof.
    intros H en E fT w E' o' Hrel _ Hrun. pose proof (H en E fT w E' o' Hrel Hrun) as H1. revert H1.
    destruct (Sem.exec f P en s) as [[v en1]|r1 m1|c1|]; auto. intros (-> & HV & Hr). auto.
  Qed.

  Lemma AgSSQ_of_AgSS f g ss t0 g' t : AgSS P (VRa P) f g ss t0 g' t -> AgSSQ f (fun _ => True) g ss t0 g' t.
  Proof.
    induction 1 as [g t|g s r g1 t1 t0 g' t Hs _ IH]; [constructor|].
    econstructor; [apply AgSQ_of_AgS; exact Hs|exact IH].
  Qed.

  (* a statement that keeps [Q] *)
  Definition keeps (s : stmt) (Q : Sem.env -> Prop) : Prop :=
    forall f en v en', Sem.exec f P en s = Sem.Done (v, en') -> Q en -> Q en'.

  Lemma AgSQ_keep f g g' t s Q : AgS P (VRa P) f g g' t s -> keeps s Q -> AgSQ f g g' t s Q Q.
  Proof.
    intros H Hk en E fT w E' o' Hrel HQ Hrun. pose proof (H en E fT w E' o' Hrel Hrun) as H1. revert H1.
    destruct (Sem.exec f P en s) as [[v en1]|r1 m1|c1|] eqn:Hex; auto. intros (-> & HV & Hr).
    split; [reflexivity|]. split; [exact HV|]. split; [exact Hr|]. exact (Hk f en v en1 Hex HQ).
  Qed.
End Chain.

(* ------------------------------------------------------------------ literal initialisations *)

Definition is_lit_expr (e : expr) : bool :=
  match e with
  | Ex ETrue _ _ | Ex EFalse _ _ | Ex (ENumU _ _) _ _ | Ex (ENumS _ _) _ _ => true
  | _ => false
  end.

(* `let mut y = literal;` with y different from the two tables *)
Definition lit_let (xa xb : N) (s : stmt) : bool :=
  match s with
  | St (SLetMut y e) _ => is_lit_expr e && negb (y =? xa) && negb (y =? xb)
  | _ => false
  end.

Lemma lookup_bind_var_other en y v x : x <> y -> Sem.lookup_var (Sem.bind_var en y v) x = Sem.lookup_var en x.
Proof.
  intro Hne. unfold Sem.lookup_var, Sem.bind_var. destruct (Sem.scopes en) as [|s r]; cbn [Sem.scopes Sem.lookup_scopes assocN].
  - destruct (N.eqb_spec x y); [contradiction|reflexivity].
  - destruct (N.eqb_spec x y); [contradiction|reflexivity].
Qed.

Lemma lit_let_exec P xa xb s f en v en' : lit_let xa xb s = true -> Sem.exec f P en s = Sem.Done (v, en') ->
  Sem.lookup_var en' xa = Sem.lookup_var en xa /\ Sem.lookup_var en' xb = Sem.lookup_var en xb.
Proof.
  destruct s as [[| y e | | | |] m]; try discriminate. cbn [lit_let]. intros H Hx.
  apply andb_prop in H. destruct H as [H Hb]. apply andb_prop in H. destruct H as [Hl Ha].
  apply negb_true_iff in Ha, Hb. apply N.eqb_neq in Ha, Hb.
  destruct f as [|f]; [discriminate Hx|]. cbn [Sem.exec] in Hx.
  destruct e as [ei me te]. destruct f as [|f]; [destruct ei; discriminate Hx|].
  destruct ei; try discriminate Hl; cbn [Sem.eval Sem.obind] in Hx; injection Hx as <- <-;
    split; apply lookup_bind_var_other; congruence.
Qed.

(* ------------------------------------------------------------------ the shape and its test *)

(* the statements before the first for-join loop, the loop, the statements after it *)
Fixpoint split_join (ss : list stmt) : option (list stmt * stmt * list stmt) :=
  match ss with
  | [] => None
  | s :: r =>
      match s with
      | St (SJoinLoop _ _ _ _ _) _ => Some ([], s, r)
      | _ => match split_join r with Some (pre, j, post) => Some (s :: pre, j, post) | None => None end
      end
  end.

Lemma split_join_app ss pre j post : split_join ss = Some (pre, j, post) -> ss = pre ++ j :: post.
Proof.
  revert pre. induction ss as [|s r IH]; intros pre H; cbn [split_join] in H; [discriminate H|].
  destruct s as [si m].
  destruct si; try (destruct (split_join r) as [[[pre' j'] post']|]; [|discriminate H]; injection H as <- <- <-;
                    cbn [app]; f_equal; now apply IH).
  injection H as <- <- <-. reflexivity.
Qed.

Record join_site := mkJS {
  js_pat : pattern; js_jt : ty; js_xa : N; js_xb : N; js_ta : ty; js_na : N; js_tb : ty; js_nb : N;
  js_a : expr; js_b : expr; js_body : list stmt; js_meta : meta }.

(* the loop is over two identifiers of array type *)
Definition join_site_of (s : stmt) : option join_site :=
  match s with
  | St (SJoinLoop p jt (Ex (EId xa) ma (TArr ta na)) (Ex (EId xb) mb (TArr tb nb)) body) m =>
      Some (mkJS p jt xa xb ta na tb nb (Ex (EId xa) ma (TArr ta na)) (Ex (EId xb) mb (TArr tb nb)) body m)
  | _ => None
  end.

Definition main_join_site (P : program) : option (fndef * list stmt * join_site * list stmt) :=
  match find_fn P (p_main P) with
  | Some d =>
      match split_join (fn_body d) with
      | Some (pre, j, post) => match join_site_of j with Some js => Some (d, pre, js, post) | None => None end
      | None => None
      end
  | None => None
  end.

(* what is checked: no constants; literal initialisations before the loop; the loop's operands,
   pattern and body and the statements after the loop pass the strict checker of the call-free
   full fragment in the contexts they are met in; the result has main's type *)
Definition join_main_ok (fw : nat) (P : program) : bool :=
  match p_consts P, main_join_site P with
  | [], Some (d, pre, js, post) =>
      enums_small P &&
      forallb (lit_let (js_xa js) (js_xb js)) pre &&
      match scf_stmts fw P pre ([] :: tbind_all [[]; []] (fn_params d) true) unit_ty with
      | Some (g1, t1) =>
          scf_expr fw P g1 (js_a js) && scf_expr fw P g1 (js_b js) &&
          (szn P (js_jt js) <=? szn P (js_ta js))%nat && (szn P (js_jt js) <=? szn P (js_tb js))%nat &&
          ty_fits_b P (TTup [js_ta js; js_tb js]) &&
          match gpat_b P false (js_pat js) (TTup [js_ta js; js_tb js]) with
          | Some bs =>
              match scf_stmts fw P (js_body js) (tbind_all ([] :: g1) bs false) unit_ty with
              | Some _ =>
                  match scf_stmts fw P post g1 unit_ty with
                  | Some (_, t2) => ty_beq t2 (fn_ret d)
                  | None => false
                  end
              | None => false
              end
          | None => false
          end
      | None => false
      end
  | _, _ => false
  end.

(* THE RUN-TIME PRECONDITION on the arguments: the values that main's parameters [xa] and [xb]
   (the operands of the loop) receive are arrays whose join keys are strictly ascending *)
Definition join_inputs_sorted (P : program) (args : list (list bool)) : Prop :=
  match main_join_site P with
  | Some (d, _, js, _) =>
      forall vals xs ys, Sem.decode_args P (fn_params d) args = Some vals ->
      let en := Sem.bind_all (Sem.push_scope (Sem.mkEnv [[]] false)) vals in
      Sem.lookup_var en (js_xa js) = Some (Sem.VArr xs) -> Sem.lookup_var en (js_xb js) = Some (Sem.VArr ys) ->
      asc_keys P (js_jt js) (js_ta js) xs /\ asc_keys P (js_jt js) (js_tb js) ys
  | None => True
  end.

(* ------------------------------------------------------------------ the program theorem *)

Section Program.
  Variable P : program.
  Hypothesis Hsm : enums_small P = true.
  Notation rel := (env_rel3 (VRa P)).

  Definition QS (js : join_site) (en : Sem.env) : Prop :=
    forall xs ys, Sem.lookup_var en (js_xa js) = Some (Sem.VArr xs) -> Sem.lookup_var en (js_xb js) = Some (Sem.VArr ys) ->
    asc_keys P (js_jt js) (js_ta js) xs /\ asc_keys P (js_jt js) (js_tb js) ys.

  Lemma lit_let_keeps js s : lit_let (js_xa js) (js_xb js) s = true -> keeps P s (QS js).
  Proof.
    intros Hl f en v en' Hx HQ xs ys Ha Hb. destruct (lit_let_exec P _ _ s f en v en' Hl Hx) as [E1 E2].
    apply HQ; congruence.
  Qed.

  (* the initialisations, then the rest *)
  Lemma pre_chain js f fw : forall pre g last g1 t1,
    forallb (lit_let (js_xa js) (js_xb js)) pre = true -> scf_stmts fw P pre g last = Some (g1, t1) ->
    forall tail g2 t2, AgSSQ P f (QS js) g1 tail t1 g2 t2 -> AgSSQ P f (QS js) g (pre ++ tail) last g2 t2.
  Proof.
    destruct (agree_all_full P Hsm f) as [_ IHs].
    induction pre as [|s r IH]; intros g last g1 t1 Hl Hsc tail g2 t2 Ht; cbn [scf_stmts forallb app] in *.
    - injection Hsc as <- <-. destruct Ht; econstructor; eassumption.
    - apply andb_prop in Hl. destruct Hl as [Hl1 Hl2].
      destruct (scf_stmt fw P g s) as [[g' t']|] eqn:Es; [|discriminate Hsc].
      econstructor; [apply AgSQ_keep; [eapply IHs; exact Es|now apply lit_let_keeps]|].
      eapply IH; eassumption.
  Qed.

  (* the loop, on the environments in which the two tables are sorted *)
  Lemma join_stmt_chain f fw g1 p jt xa xb ta na tb nb ma mb body m bs gb tbody :
    let js := mkJS p jt xa xb ta na tb nb (Ex (EId xa) ma (TArr ta na)) (Ex (EId xb) mb (TArr tb nb)) body m in
    scf_expr fw P g1 (js_a js) = true -> scf_expr fw P g1 (js_b js) = true ->
    (szn P jt <= szn P ta)%nat -> (szn P jt <= szn P tb)%nat -> ty_fits P (TTup [ta; tb]) ->
    gpat_b P false p (TTup [ta; tb]) = Some bs ->
    scf_stmts fw P body (tbind_all ([] :: g1) bs false) unit_ty = Some (gb, tbody) ->
    AgSQ P f g1 g1 unit_ty (St (SJoinLoop p jt (js_a js) (js_b js) body) m) (QS js) (fun _ => True).
  Proof.
    intros js Ha Hb Ja Jb Ftup Hp Hbody en E fT w E' o' Hrel HQ Hrun.
    destruct f as [|[|f]]; [exact I| |].
    - rewrite SemUnfold.exec_eq. exact I.
    - destruct (agree_all_full P Hsm (S f)) as [IHe _]. destruct (agree_all_full P Hsm f) as [_ IHs].
      destruct (stmts_AgSS_f P f IHs fw body _ _ _ _ Hbody) as [HA Htl]. rewrite tl_tbind_all in Htl. cbn [tl] in Htl.
      pose proof (join_loop_node_at P f g1 p bs jt (js_a js) (js_b js) body m ta na tb nb gb tbody en
                    (IHe fw g1 _ Ha) (IHe fw g1 _ Hb) eq_refl eq_refl Ja Jb) as HN.
      assert (Hpa : PA P p (TTup [ta; tb]) bs).
      { intros v mw en0 E0 g0 fT0 c E0' o0 o0' HV Hfit Hrel0 Hrun0.
        exact (TSemSemAgg.gpat_agrees P Hsm p _ bs (gpat_b_sound P p _ bs Hp) v mw en0 E0 g0 fT0 c E0' o0 o0' HV Hfit Hrel0 Hrun0). }
      specialize (HN Hpa Ftup HA Htl).
      assert (Hasc : forall xs en1 ys en2,
        Sem.eval (S f) P en (js_a js) = Sem.Done (Sem.VArr xs, en1) -> Sem.eval (S f) P en1 (js_b js) = Sem.Done (Sem.VArr ys, en2) ->
        asc_keys P jt ta xs /\ asc_keys P jt tb ys).
      { intros xs en1 ys en2 E1 E2. cbn [js_a js_b js Sem.eval] in E1, E2.
        destruct (Sem.lookup_var en xa) as [va|] eqn:La; [|discriminate E1]. injection E1 as -> <-.
        destruct (Sem.lookup_var en xb) as [vb|] eqn:Lb; [|discriminate E2]. injection E2 as -> _.
        exact (HQ xs ys La Lb). }
      specialize (HN Hasc E fT w E' o' Hrel Hrun). revert HN.
      destruct (Sem.exec (S (S f)) P en _) as [[v en1]|r1 m1|c1|]; auto. intros (-> & HV & Hr). auto.
  Qed.

  Theorem tsem_sem_program_join fuel fw fT args o outs :
    join_main_ok fw P = true -> join_inputs_sorted P args -> canonical_main_args P args = true ->
    tsem_program fT P args = Ok (o, outs) ->
    match Sem.run_main fuel P args with
    | Sem.RunOk bits _ => o = None /\ outs = bits
    | Sem.RunPanic r m => o = Some (preason_num (pr r), ploc32 (ploc_of m))
    | Sem.RunStuck _ | Sem.RunNoFuel => True
    end.
  Proof.
    intros Hok Hsorted Hcan Hrun. unfold join_main_ok in Hok. unfold join_inputs_sorted in Hsorted.
    destruct (p_consts P) as [|c0 cs] eqn:Hc; [|discriminate Hok].
    destruct (main_join_site P) as [[[[d pre] js] post]|] eqn:Hsite; [|discriminate Hok].
    unfold main_join_site in Hsite. unfold canonical_main_args in Hcan.
    destruct (find_fn P (p_main P)) as [d'|] eqn:Hfind; [|discriminate Hsite].
    destruct (split_join (fn_body d')) as [[[pre' j] post']|] eqn:Hsp; [|discriminate Hsite].
    destruct (join_site_of j) as [js'|] eqn:Hjs; [|discriminate Hsite]. injection Hsite as -> -> -> ->.
    apply split_join_app in Hsp.
    (* the loop statement *)
    destruct j as [[| | | |p jt a b jbody|] mj]; try discriminate Hjs. cbn [join_site_of] in Hjs.
    destruct a as [[| | | |xa| | | | | | | | | | | | | | | | | |] ma [| |ta na| | |]]; try discriminate Hjs.
    destruct b as [[| | | |xb| | | | | | | | | | | | | | | | | |] mb [| |tb nb| | |]]; try discriminate Hjs.
    injection Hjs as <-. cbn [js_xa js_xb js_jt js_ta js_tb js_pat js_body js_a js_b] in *.
    (* the checks *)
    apply andb_prop in Hok. destruct Hok as [Hok Hrest]. apply andb_prop in Hok. destruct Hok as [_ Hlits].
    set (g0 := tbind_all [[]; []] (fn_params d) true) in *.
    destruct (scf_stmts fw P pre ([] :: g0) unit_ty) as [[g1 t1]|] eqn:Epre; [|discriminate Hrest].
    destruct (gpat_b P false p (TTup [ta; tb])) as [bs|] eqn:Ep;
      [|apply andb_prop in Hrest; destruct Hrest as [_ Hrest]; discriminate Hrest].
    apply andb_prop in Hrest. destruct Hrest as [Hrest Hpost].
    apply andb_prop in Hrest. destruct Hrest as [Hrest Hfit]. apply andb_prop in Hrest. destruct Hrest as [Hrest Jb].
    apply andb_prop in Hrest. destruct Hrest as [Hrest Ja]. apply andb_prop in Hrest. destruct Hrest as [Ha Hb].
    apply Nat.leb_le in Ja, Jb.
    destruct (scf_stmts fw P jbody (tbind_all ([] :: g1) bs false) unit_ty) as [[gb tbody]|] eqn:Ebody; [|discriminate Hpost].
    destruct (scf_stmts fw P post g1 unit_ty) as [[g2 t2]|] eqn:Epost; [|discriminate Hpost].
    apply ty_beq_eq in Hpost. subst t2.
    (* the constants' environment is the empty one of the precondition *)
    apply (main_obs_run P (VRa P) d fuel args o outs Hfind (VRa_encode P _)). intros vals Ed.
    refine (main_agrees P (VRa P) d [] fuel fT args vals o outs (fun _ _ => True) Hfind (no_consts_rel P _ fuel Hc)
              (init_rel_f P _ _ _ Ed Hcan) _ Hrun).
    intros en0 E0 w E' o1 Econ Hrel Hblk. unfold Sem.eval_consts in Econ. rewrite Hc in Econ. injection Econ as <-.
    fold g0 in Hrel. set (en1 := Sem.bind_all (Sem.push_scope (Sem.mkEnv [[]] false)) vals) in *.
    destruct fuel as [|f]; [exact I|]. rewrite exec_block_S.
    destruct fT as [|fT']; [discriminate Hblk|]. rewrite lower_block_S in Hblk. unfold lower_block_body in Hblk.
    minva Hblk as [w1 E1] o2 H1. minva Hblk as E2 o3 H2. apply lift_res_inv in H2. destruct H2 as [_ ->].
    apply ret_inv in Hblk. destruct Hblk as [Heq ->]. injection Heq as -> ->.
    (* the chain of main's statements *)
    set (js := mkJS p jt xa xb ta na tb nb (Ex (EId xa) ma (TArr ta na)) (Ex (EId xb) mb (TArr tb nb)) jbody mj) in *.
    destruct (agree_all_full P Hsm f) as [_ IHs].
    destruct (stmts_AgSS_f P f IHs fw post _ _ _ _ Epost) as [HApost _].
    assert (Hchain : AgSSQ P f (QS js) ([] :: g0) (fn_body d) unit_ty g2 (fn_ret d)).
    { rewrite Hsp. eapply (pre_chain js f fw pre); [exact Hlits|exact Epre|].
      econstructor; [|apply AgSSQ_of_AgSS; exact HApost].
      exact (join_stmt_chain f fw g1 p jt xa xb ta na tb nb ma mb jbody mj bs gb tbody Ha Hb Ja Jb Hfit Ep Ebody). }
    assert (HQ0 : QS js (Sem.push_scope en1)).
    { intros xs ys La Lb. apply (Hsorted vals xs ys Ed); [exact La|exact Lb]. }
    pose proof (stmts_nodeQ P f _ _ _ _ _ _ Hchain (Sem.push_scope en1) (env_push E0) fT' Sem.unit_val [] _ _ _
                  (rel_push _ _ _ _ Hrel) HQ0 (VRa_unit P) H1) as HR. revert HR.
    destruct (sem_stmts P f (fn_body d) Sem.unit_val (Sem.push_scope en1)) as [[v en2]|r m|c|]; cbn [Sem.obind];
      intro HR; try exact I; [|exact HR].
    destruct HR as (-> & HV & _). auto.
  Qed.
End Program.
Print Assumptions tsem_sem_program_join.

(* ------------------------------------------------------------------ non-vacuity *)

Module JoinProgramExample.
  Import JoinExamples TSemArith1.
  (* pub fn main(a: [(u8, u8); 2], b: [(u8, u8); 3]) -> (u8, u8) {
       let mut s = 0u8; let mut t = 0u8;
       for ((k1, p1), (k2, p2)) in join(a, b) { s = s + p1; t = p2; }
       (s, t) }                                      join key: the first component (u8) *)
  Definition ta2 := TArr el 2.
  Definition tb3 := TArr el 3.
  Definition main_fn : fndef :=
    mkFn 9 [(5, ta2); (6, tb3)] el
      [ st (SLetMut 1 (lit8 0)); st (SLetMut 2 (lit8 0));
        st (SJoinLoop jpat u8 (Ex (EId 5) m0 ta2) (Ex (EId 6) m0 tb3)
              [st (SAssign 1 [] (Ex (EOp OAdd (Ex (EId 1) m0 u8) (Ex (EId 12) m0 u8)) m0 u8));
               st (SAssign 2 [] (Ex (EId 14) m0 u8))]);
        st (SExpr (Ex (ETupLit [Ex (EId 1) m0 u8; Ex (EId 2) m0 u8]) m0 el)) ].
  Definition P1 : program := mkProgram [] [] [main_fn] [] 9.

  Example accepted : join_main_ok 8 P1 = true.
  Proof. vm_compute. reflexivity. Qed.

  Definition tbl (l : list (Z * Z)) : list bool := concat (map (fun kp => enc 8 (fst kp) ++ enc 8 (snd kp)) l).
  Definition A1 : list (list bool) := [tbl [(0, 7); (3, 9)]; tbl [(0, 1); (2, 5); (3, 2)]]%Z.

  Lemma sorted_A1 : join_inputs_sorted P1 A1.
  Proof.
    unfold join_inputs_sorted. set (s := main_join_site P1). vm_compute in s. subst s. cbv beta iota zeta.
    intros vals xs ys Hd. vm_compute in Hd. injection Hd as <-. vm_compute. intros [= <-] [= <-].
    split; repeat constructor.
  Qed.

  (* s = 7 + 9, t = 2 on both sides, by the theorem *)
  Example sorted_run : exists o outs l,
    tsem_program 12 P1 A1 = Ok (o, outs) /\ Sem.run_main 12 P1 A1 = Sem.RunOk (enc2 16 2) l /\ o = None /\ outs = enc2 16 2.
  Proof.
    destruct (tsem_program 12 P1 A1) as [[o outs]| |] eqn:Hrun;
      [|vm_compute in Hrun; discriminate Hrun|vm_compute in Hrun; discriminate Hrun].
    assert (Hcan : canonical_main_args P1 A1 = true) by (vm_compute; reflexivity).
    pose proof (tsem_sem_program_join P1 eq_refl 12 8 12 A1 o outs accepted sorted_A1 Hcan Hrun) as H.
    assert (exists l, Sem.run_main 12 P1 A1 = Sem.RunOk (enc2 16 2) l) as [l Ev] by (eexists; vm_compute; reflexivity).
    rewrite Ev in H. destruct H as [-> ->]. exists None, (enc2 16 2), l. repeat split; assumption || reflexivity.
  Qed.

  (* the precondition is needed at program level too: table a not ascending -- the circuit's
     result and Sem.v's differ *)
  Definition A2 : list (list bool) := [tbl [(3, 9); (0, 7)]; tbl [(0, 1); (2, 5); (3, 2)]]%Z.
  Example unsorted_differs :
    canonical_main_args P1 A2 = true /\
    tsem_program 12 P1 A2 = Ok (None, enc2 1 7) /\ Sem.run_main 12 P1 A2 = Sem.RunOk (enc2 16 1) false.
  Proof. vm_compute. repeat split; reflexivity. Qed.
End JoinProgramExample.
