(* Model of the lowering of typed programs to circuits: a transliteration of
   src/compile.rs (compile_block, TypedStmt::compile, TypedExpr::compile, TypedPattern::compile,
   compile_bitonic_merge, the parameter wiring and const binding of compile_with_constants),
   of src/env.rs and of CircuitBuilder::mux_envs (circuit.rs), over the builder model
   (Builder.v), the gadgets (Gadgets.v), extend_to_bits (Extend.v), the panic record
   (PanicRec.v) and build (Build.v).  Definitions only; proofs are in ParamLower.v
   and LowerSound.v.

   Input: the typed AST of Lang/Ast.v as the harness exports it from the real type checker
   (types resolved to bit sizes, identifiers interned IN RANK ORDER of their byte strings, so
   that the iteration order of Rust's BTreeMap<String, _> scopes is the order of the keys).
   Output: the SSA circuit, which the correspondence check requires to be gate-for-gate the
   circuit the real compiler emits for the same program.

   Recursion is on explicit fuel (function calls are inlined, `x * c` is rewritten into a
   fresh expression): [OutOfFuel] is never a Rust behaviour.  [Crash] = the Rust code panics
   (unwrap on a missing binding, slice out of range, assert_eq! on lengths ...).
   Where the Rust code loops over indices of a flat wire vector in strides of the element
   size, the model recurses over chunks ([firstn]/[skipn]); both agree whenever the vector's
   length is a multiple of the element size, which every vector the compiler builds is. *)
From GV Require Import Base.Util Base.NMap Lang.Ast Circuit.Ssa Builder.Builder Builder.Build
  Gadgets.Gadgets Gadgets.Extend Panic.PanicRec.
From GV Require Lang.Sem.
Local Open Scope N_scope.

Section Generic.
Context {Wt Cs Pst : Type}.

(* ------------------------------------------------------------------ env.rs *)

Definition scope := list (N * list Wt).      (* a BTreeMap: sorted by key, keys distinct *)
Definition cenv := list scope.              (* INNERMOST scope first (Rust: last) *)

Fixpoint scope_insert (s : scope) (x : N) (v : list Wt) : scope :=
  match s with
  | [] => [(x, v)]
  | (k, w) :: r =>
      if x <? k then (x, v) :: s
      else if x =? k then (x, v) :: r
      else (k, w) :: scope_insert r x v
  end.

Fixpoint scope_replace (s : scope) (x : N) (v : list Wt) : option scope :=
  match s with
  | [] => None
  | (k, w) :: r =>
      if x =? k then Some ((k, v) :: r)
      else match scope_replace r x v with Some r' => Some ((k, w) :: r') | None => None end
  end.

Fixpoint env_get (E : cenv) (x : N) : option (list Wt) :=
  match E with
  | [] => None
  | s :: r => match assocN x s with Some v => Some v | None => env_get r x end
  end.

(* let_in_current_scope: `self.0.last_mut().unwrap()` *)
Definition env_let (E : cenv) (x : N) (v : list Wt) : res cenv :=
  match E with
  | s :: r => Ok (scope_insert s x v :: r)
  | [] => Crash
  end.

(* assign_mut: the innermost scope that has the name; panic! if none *)
Fixpoint env_assign (E : cenv) (x : N) (v : list Wt) : res cenv :=
  match E with
  | [] => Crash
  | s :: r =>
      match scope_replace s x v with
      | Some s' => Ok (s' :: r)
      | None => let* r' := env_assign r x v in Ok (s :: r')
      end
  end.

Definition env_push (E : cenv) : cenv := [] :: E.
Definition env_pop (E : cenv) : res cenv :=
  match E with _ :: r => Ok r | [] => Crash end.

(* ------------------------------------------------------------------ the operation set

   Everything below is generic in the type of wires [Wt], the compiler state [Cs] (Rust: the
   CircuitBuilder) and the saved panic states [Pst] (Rust: CachedPanicResult), and uses the
   gate store only through the record [ops].  Two of its instances:
   - [bops] (end of this file): wires are builder wire numbers, the operations are the models of
     CircuitBuilder's methods -- this instance IS the model of compile.rs and is the one tied
     to the real compiler;
   - [TSem.tops]: wires are Booleans, the operations are the Boolean functions the gadgets
     compute -- the bit-level semantics of a program.
   ParamLower.v proves once, for the generic code, that related operation sets give related
   results. *)

Record ops := mkOps {
  w0 : Wt;                                   (* the constant-false wire *)
  w1 : Wt;                                   (* the constant-true wire *)
  o_xor : Wt -> Wt -> Cs -> res (Wt * Cs);
  o_and : Wt -> Wt -> Cs -> res (Wt * Cs);
  o_or : Wt -> Wt -> Cs -> res (Wt * Cs);
  o_eq : Wt -> Wt -> Cs -> res (Wt * Cs);
  o_not : Wt -> Cs -> res (Wt * Cs);
  o_mux : Wt -> Wt -> Wt -> Cs -> res (Wt * Cs);
  o_negation : list Wt -> Cs -> res (list Wt * Cs);
  o_addition : list Wt -> list Wt -> Cs -> res ((list Wt * Wt * Wt) * Cs);
  o_subtraction : list Wt -> list Wt -> bool -> Cs -> res ((list Wt * Wt) * Cs);
  o_multiplier : Wt -> Wt -> Wt -> Wt -> Cs -> res ((Wt * Wt) * Cs);
  o_udiv : list Wt -> list Wt -> Cs -> res ((list Wt * list Wt) * Cs);
  o_sdiv : list Wt -> list Wt -> Cs -> res ((list Wt * list Wt) * Cs);
  o_comparator : nat -> list Wt -> bool -> list Wt -> bool -> Cs -> res ((Wt * Wt) * Cs);
  o_eq_circuit : list Wt -> list Wt -> Cs -> res (Wt * Cs);
  o_merger : nat -> bool -> list (list Wt) -> Cs -> res (list (list Wt) * Cs);
  o_sorter : nat -> list (list Wt) -> Cs -> res (list (list Wt) * Cs);
  o_panic_if : Wt -> preason -> meta -> Cs -> res (unit * Cs);
  o_peek : Cs -> res (Pst * Cs);
  o_replace : Pst -> Cs -> res (Pst * Cs);
  o_mux_panic : Wt -> Pst -> Pst -> Cs -> res (Pst * Cs)
}.

Variable OPS : ops.

Definition M (A : Type) := Cs -> res (A * Cs).
Definition ret {A} (a : A) : M A := fun s => Ok (a, s).
Definition mbind {A C} (m : M A) (k : A -> M C) : M C :=
  fun s => match m s with
           | Ok (a, s') => k a s'
           | Crash => Crash
           | OutOfFuel => OutOfFuel
           end.
Notation "'do*' x ':=' m 'in' k" := (mbind m (fun x => k))
  (at level 200, x pattern, m at level 100, k at level 200).
Definition crash {A} : M A := fun _ => Crash.
Definition nofuel {A} : M A := fun _ => OutOfFuel.
Definition lift_res {A} (r : res A) : M A :=
  fun s => match r with Ok a => Ok (a, s) | Crash => Crash | OutOfFuel => OutOfFuel end.

Definition m_xor : Wt -> Wt -> M Wt := o_xor OPS.
Definition m_and : Wt -> Wt -> M Wt := o_and OPS.
Definition m_or : Wt -> Wt -> M Wt := o_or OPS.
Definition m_eq : Wt -> Wt -> M Wt := o_eq OPS.
Definition m_not : Wt -> M Wt := o_not OPS.
Definition m_mux : Wt -> Wt -> Wt -> M Wt := o_mux OPS.
Definition m_panic_if : Wt -> preason -> meta -> M unit := o_panic_if OPS.
Definition m_peek : M Pst := o_peek OPS.
Definition m_replace : Pst -> M Pst := o_replace OPS.
Definition m_mux_panic : Wt -> Pst -> Pst -> M Pst := o_mux_panic OPS.
Definition wF : Wt := w0 OPS.
Definition wT : Wt := w1 OPS.

(* ------------------------------------------------------------------ list helpers *)

Fixpoint mapM_M {A C} (f : A -> M C) (l : list A) : M (list C) :=
  match l with
  | [] => ret []
  | a :: r => do* c := f a in do* cs := mapM_M f r in ret (c :: cs)
  end.

(* for i in 0..n { out[i] = f(x[i], y[i]) }: both vectors are indexed, so a shorter one is an
   index panic; here both always have exactly the same length *)
Fixpoint map2_M (f : Wt -> Wt -> M Wt) (xs ys : list Wt) : M (list Wt) :=
  match xs, ys with
  | [], [] => ret []
  | x :: xr, y :: yr => do* w := f x y in do* ws := map2_M f xr yr in ret (w :: ws)
  | _, _ => crash
  end.

(* v[a .. a + n] *)
Definition slice {A} (v : list A) (a n : nat) : res (list A) :=
  if (a + n <=? length v)%nat then Ok (firstn n (skipn a v)) else Crash.

(* tuple[a .. a + n].copy_from_slice(value): panics unless the lengths agree *)
Definition splice {A} (v : list A) (a n : nat) (value : list A) : res (list A) :=
  if ((a + n <=? length v) && (length value =? n))%nat
  then Ok (firstn a v ++ value ++ skipn (a + n) v) else Crash.

Definition szn (P : program) (t : ty) : nat := N.to_nat (Sem.sizeof P t).

(* unsigned_as_wires / signed_as_wires: bit i = (n >> (size - 1 - i)) & 1 as wire 0 / 1 *)
Definition unsigned_as_wires (n : N) (size : nat) : list Wt :=
  map (fun i => if N.testbit n (N.of_nat (size - 1 - i)) then wT else wF) (seq 0 size).
Definition signed_as_wires (z : Z) (size : nat) : list Wt :=
  map (fun i => if Z.testbit z (Z.of_nat (size - 1 - i)) then wT else wF) (seq 0 size).

Definition is_signed (t : ty) : bool := match t with TInt true _ => true | _ => false end.

(* extend_to_bits (Gadgets/Extend.v, tied there to the Rust function) over any wire type *)
Definition extend_g (v : list Wt) (signed : bool) (bits : nat) : res (list Wt) :=
  match v with
  | [] => Ok (repeat wF bits)
  | msb :: _ =>
      if (length v =? bits)%nat then Ok v else
      if (bits <? length v)%nat then Crash else
      Ok (repeat (if signed then msb else wF) (bits - length v) ++ v)
  end.

Definition m_extend (v : list Wt) (t : ty) (bits : nat) : M (list Wt) :=
  lift_res (extend_g v (is_signed t) bits).

(* Type::unwrap_array_size *)
Definition array_size (P : program) (t : ty) : res (nat * nat) :=
  match t with
  | TArr el n => Ok (szn P el, N.to_nat n)
  | _ => Crash
  end.

(* wires_before / wires_at_index of a tuple type *)
Definition tuple_offsets (P : program) (t : ty) (index : N) : res (nat * nat) :=
  match t with
  | TTup ts =>
      match nthN ts index with
      | Some ti => Ok (fold_left (fun a t' => (a + szn P t')%nat) (firstn (N.to_nat index) ts) O,
                       szn P ti)
      | None => Crash
      end
  | _ => Crash
  end.

(* the loop over struct_def.fields looking for [field] *)
Fixpoint field_offsets (P : program) (fields : list (N * ty)) (field : N) (before : nat)
  : res (nat * nat) :=
  match fields with
  | [] => Crash
  | (fname, fty) :: r =>
      if fname =? field then Ok (before, szn P fty)
      else field_offsets P r field (before + szn P fty)%nat
  end.

Definition struct_offsets (P : program) (t : ty) (field : N) : res (nat * nat) :=
  match t with
  | TStruct name =>
      match assocN name (p_structs P) with
      | Some fields => field_offsets P fields field O
      | None => Crash
      end
  | _ => Crash
  end.

(* ------------------------------------------------------------------ mux_envs *)

Definition mux_bits (c : Wt) (xs ys : list Wt) : M (list Wt) :=
  if negb (length xs =? length ys)%nat then crash else map2_M (m_mux c) xs ys.

Fixpoint mux_scope (c : Wt) (a b : scope) : M scope :=
  match a with
  | [] => ret []
  | (k, va) :: r =>
      match assocN k b with
      | None => crash
      | Some vb =>
          do* ws := mux_bits c va vb in
          do* r' := mux_scope c r b in
          ret ((k, ws) :: r')
      end
  end.

(* scopes outermost first, as the Vec is zipped *)
Fixpoint mux_scopes (c : Wt) (sa sb : list scope) : M (list scope) :=
  match sa, sb with
  | [], [] => ret []
  | a :: ra, b :: rb =>
      do* s := mux_scope c a b in
      do* r := mux_scopes c ra rb in
      ret (s :: r)
  | _, _ => crash
  end.

Definition mux_envs (c : Wt) (a b : cenv) : M cenv :=
  if negb (length a =? length b)%nat then crash else
  do* ss := mux_scopes c (rev a) (rev b) in ret (rev ss).

(* ------------------------------------------------------------------ array indexing *)

(* one mux layer of ArrayAccess: adjacent elements are muxed pairwise, the last element of
   an odd count is muxed with the out-of-bounds element (the constant-true wire) *)
Fixpoint index_layer (fuel : nat) (s : Wt) (arr : list Wt) (eb : nat) : M (list Wt) :=
  match fuel with
  | O => nofuel
  | S f =>
      match arr with
      | [] => ret []
      | _ =>
          let c0 := firstn eb arr in
          let rest := skipn eb arr in
          match rest with
          | [] => mapM_M (fun a0 => m_mux s wT a0) c0
          | _ =>
              let c1 := firstn eb rest in
              do* ws := map2_M (fun a1 a0 => m_mux s a1 a0) c1 c0 in
              do* r := index_layer f s (skipn eb rest) eb in
              ret (ws ++ r)
          end
      end
  end.

(* for mux_layer in (0..index.len()).rev(): least significant index bit first *)
Fixpoint index_layers (idx_rev : list Wt) (arr : list Wt) (eb : nat) : M (list Wt) :=
  match idx_rev with
  | [] => ret arr
  | s :: r =>
      do* arr' := (if (eb =? 0)%nat then ret [] else index_layer (S (length arr)) s arr eb) in
      index_layers r arr' eb
  end.

Definition USZ : nat := 32.

(* the bounds check shared by reads and writes: index < num_elems, else panic OutOfBounds *)
Definition bounds_check (index : list Wt) (num_elems : nat) (m : meta) : M unit :=
  let array_len := unsigned_as_wires (N.of_nat num_elems) USZ in
  do* (lt, _) := o_comparator OPS USZ index false array_len false in
  do* oob := m_not lt in
  m_panic_if oob OutOfBounds m.

(* the read: returns the selected element (elem_bits wires) *)
Definition array_read (arr : list Wt) (index : list Wt) (eb num_elems : nat) (m : meta)
  : M (list Wt * list Wt) :=
  do* index := m_extend index (TInt false 32) USZ in
  do* arr' := index_layers (rev index) arr eb in
  do* _ := bounds_check index num_elems m in
  ret (match arr' with [] => repeat wF eb | _ => arr' end, index).

(* the write-back of Assign::Array: element i, bit b becomes a 32-mux chain selecting
   value[b] iff index == i *)
Fixpoint write_chain (x0 : Wt) (x1 : Wt) (i : N) (index neg : list Wt) : M Wt :=
  match index, neg with
  | ix :: ir, nx :: nr =>
      let must_neg := N.testbit i (N.of_nat (length index - 1)) in
      do* x1' := m_mux (if must_neg then nx else ix) x0 x1 in
      write_chain x0 x1' i ir nr
  | _, _ => ret x1
  end.

Fixpoint write_elem (elem : list Wt) (value : list Wt) (i : N) (index neg : list Wt) : M (list Wt) :=
  match elem with
  | [] => ret []
  | x0 :: er =>
      match value with
      | [] => crash
      | v :: vr =>
          do* w := write_chain x0 v i index neg in
          do* ws := write_elem er vr i index neg in
          ret (w :: ws)
      end
  end.

Fixpoint write_elems (fuel : nat) (arr : list Wt) (eb : nat) (value : list Wt) (i : N)
    (index neg : list Wt) : M (list Wt) :=
  match fuel with
  | O => nofuel
  | S f =>
      if (length arr <? eb)%nat then ret arr else
      match arr with
      | [] => ret []
      | _ =>
          do* e := write_elem (firstn eb arr) value i index neg in
          do* r := write_elems f (skipn eb arr) eb value (i + 1) index neg in
          ret (e ++ r)
      end
  end.

Definition array_write (arr : list Wt) (eb size : nat) (index : list Wt) (value : list Wt) (m : meta)
  : M (list Wt) :=
  (* [size]: the number of elements according to the array type (also for zero-sized elements) *)
  do* index := m_extend index (TInt false 32) USZ in
  do* neg := mapM_M m_not index in
  do* arr' := write_elems (S (length arr)) (firstn (size * eb) arr) eb value 0 index neg in
  do* _ := bounds_check index size m in
  ret (arr' ++ skipn (size * eb) arr).

(* ------------------------------------------------------------------ operators *)

(* the 8 mux layers of << and >>; [y_rev]: shift amount, least significant bit first *)
Definition shift_once (left : bool) (fill : Wt) (v : list Wt) (shift : nat) : list Wt :=
  let bits := length v in
  map (fun i => if left then (if (bits <=? i + shift)%nat then wF else nth (i + shift) v wF)
                else (if (i <? shift)%nat then fill else nth (i - shift) v wF))
      (seq 0 bits).

Fixpoint shift_layers (left : bool) (fill : Wt) (v : list Wt) (y_rev : list Wt) (shift : nat)
  : M (list Wt) :=
  match y_rev with
  | [] => ret v
  | s :: r =>
      do* v' := map2_M (fun shifted unshifted => m_mux s shifted unshifted)
                       (shift_once left fill v shift) v in
      shift_layers left fill v' r (2 * shift)
  end.

Fixpoint or_all_M (acc : Wt) (ws : list Wt) : M Wt :=
  match ws with
  | [] => ret acc
  | w :: r => do* o := m_or acc w in or_all_M o r
  end.

(* all_zero / equality accumulators: acc = and(acc, eq(x, y)) *)
Fixpoint eq_acc (acc : Wt) (xys : list (Wt * Wt)) : M Wt :=
  match xys with
  | [] => ret acc
  | (x, y) :: r => do* e := m_eq x y in do* a := m_and acc e in eq_acc a r
  end.

(* one row of the array multiplier, columns from the least significant one;
   [yzs_rev]: (y[j], z for column j), least significant column first; returns the sums of
   the row (most significant first) and the carry out of column 0 *)
Fixpoint mul_row (xi : Wt) (yzs_rev : list (Wt * Wt)) (carry : Wt) (acc : list Wt) : M (list Wt * Wt) :=
  match yzs_rev with
  | [] => ret (acc, carry)
  | (yj, z) :: r =>
      do* (s, c) := o_multiplier OPS xi yj z carry in
      mul_row xi r c (s :: acc)
  end.

(* rows from i = bits-1 down to 0; [prev]: the sums and the column-0 carry of row i+1;
   collects result[i] = sums[i][lsb] (most significant first) *)
Fixpoint mul_rows (xs_rev : list Wt) (y : list Wt) (prev : option (list Wt * Wt)) (res_acc : list Wt)
  : M (list Wt * option (list Wt * Wt)) :=
  match xs_rev with
  | [] => ret (res_acc, prev)
  | xi :: r =>
      let zs := match prev with
                | None => repeat wF (length y)
                | Some (sums, c0) => c0 :: removelast sums
                end in
      do* (sums, c0) := mul_row xi (rev (combine y zs)) wF [] in
      mul_rows r y (Some (sums, c0)) (last sums wF :: res_acc)
  end.

Fixpoint and_not_all (acc : Wt) (ws : list Wt) : M Wt :=
  match ws with
  | [] => ret acc
  | w :: r => do* nw := m_not w in do* a := m_and acc nw in and_not_all a r
  end.

Definition lower_mul (signed : bool) (x y : list Wt) (m : meta) : M (list Wt) :=
  do* (x, y, is_result_neg) :=
    (if signed then
       do* x0 := lift_res (hd_res x) in
       do* y0 := lift_res (hd_res y) in
       do* xn := o_negation OPS x in
       do* yn := o_negation OPS y in
       do* x' := map2_M (fun n w => m_mux x0 n w) xn x in
       do* y' := map2_M (fun n w => m_mux y0 n w) yn y in
       do* rn := m_xor x0 y0 in
       ret (x', y', rn)
     else ret (x, y, wF)) in
  do* (result, top) := mul_rows (rev x) y None [] in
  do* (sums0, c00) := lift_res (of_option top) in
  do* overflow := or_all_M c00 (removelast sums0) in
  do* (overflow, result) :=
    (if signed then
       do* all_zero := and_not_all wT (tl result) in
       do* r0 := lift_res (hd_res result) in
       do* not_all_zero := m_not all_zero in
       do* not_neg := m_not is_result_neg in
       do* not_min := m_or not_all_zero not_neg in
       do* too_large := m_and r0 not_min in
       do* overflow := m_or overflow too_large in
       do* rneg := o_negation OPS result in
       do* result' := map2_M (fun n w => m_mux is_result_neg n w) rneg result in
       ret (overflow, result')
     else ret (overflow, result)) in
  do* _ := m_panic_if overflow Overflow m in
  ret result.

(* `x * c` / `c * x` for a literal c with 0 < |c| < bits of the literal's own type: the OTHER
   operand is evaluated once, bound to a reserved name in a scope of its own, and the product is
   compiled as repeated addition of that name (negated for a negative literal) *)
Definition lit_info (x : expr) : option (N * N * bool) :=
  match x with
  | Ex (ENumU n lb) _ _ => Some (n, lb, false)
  | Ex (ENumS z lb) _ _ => Some (Z.abs_N z, lb, (z <? 0)%Z)
  | _ => None
  end.

(* the reserved name "\0mul_operand": no identifier of a program is interned to it *)
Definition MUL_TMP : N := 4611686018427387904.

(* (operand to evaluate once, the sum over the reserved name) *)
Definition rewrite_one (x y : expr) (m : meta) (t : ty) : option (expr * expr) :=
  match lit_info x with
  | Some (n, bits, neg) =>
      if n =? 0 then None else
      if n <? bits then
        let yv := Ex (EId MUL_TMP) (e_meta y) (e_ty y) in
        let e := N.iter (n - 1) (fun e => Ex (EOp OAdd e yv) m t) yv in
        Some (y, if neg then Ex (ENeg e) m t else e)
      else None
  | None => None
  end.

Definition mul_rewrite (x y : expr) (m : meta) (t : ty) : option (expr * expr) :=
  match rewrite_one x y m t with
  | Some e => Some e
  | None => rewrite_one y x m t
  end.

Definition max_filled_bits (bits : nat) : res nat :=
  if (bits =? 8)%nat then Ok 3%nat else if (bits =? 16)%nat then Ok 4%nat
  else if (bits =? 32)%nat then Ok 5%nat else if (bits =? 64)%nat then Ok 6%nat else Crash.

(* the operators that take both operands extended to a common width *)
Definition lower_binop (o : binop) (t tx ty_ : ty) (x y : list Wt) (m : meta) : M (list Wt) :=
  let bits := Nat.max (length x) (length y) in
  do* x := m_extend x tx bits in
  do* y := m_extend y ty_ bits in
  match o with
  | OBitAnd => map2_M m_and x y
  | OBitXor => map2_M m_xor x y
  | OBitOr => map2_M m_or x y
  | OSub =>
      do* (sum, ov) := o_subtraction OPS x y (is_signed t) in
      do* _ := m_panic_if ov Overflow m in ret sum
  | OAdd =>
      do* (sum, carry, carry_prev) := o_addition OPS x y in
      do* ov := (if is_signed tx || is_signed ty_ then m_xor carry carry_prev else ret carry) in
      do* _ := m_panic_if ov Overflow m in ret sum
  | OMul => lower_mul (is_signed t) x y m
  | ODiv =>
      do* all_zero := eq_acc wT (map (fun w => (w, wF)) y) in
      do* _ := m_panic_if all_zero DivByZero m in
      if is_signed t then
        do* x0 := lift_res (hd_res x) in
        do* y0 := lift_res (hd_res y) in
        do* (q, _) := o_sdiv OPS x y in
        do* both_neg := m_and x0 y0 in
        do* q0 := lift_res (hd_res q) in
        do* ov := m_and both_neg q0 in
        do* _ := m_panic_if ov Overflow m in ret q
      else
        do* (q, _) := o_udiv OPS x y in ret q
  | OMod =>
      do* all_zero := eq_acc wT (map (fun w => (w, wF)) y) in
      do* _ := m_panic_if all_zero DivByZero m in
      if is_signed t then
        do* (_, r) := o_sdiv OPS x y in ret r
      else
        do* (_, r) := o_udiv OPS x y in ret r
  | OGt | OLt =>
      do* (lt, gt) := o_comparator OPS bits x (is_signed tx) y (is_signed ty_) in
      ret [match o with OGt => gt | _ => lt end]
  | OEq | ONe =>
      do* acc := (if (length x =? length y)%nat then eq_acc wT (combine x y) else crash) in
      match o with
      | OEq => ret [acc]
      | _ => do* n := m_not acc in ret [n]
      end
  | OShl | OShr | OLAnd | OLOr => crash   (* unreachable!: handled one level up *)
  end.

Definition lower_shift (left : bool) (x_signed : bool) (x y : list Wt) (m : meta) : M (list Wt) :=
  if negb (length y =? 8)%nat then crash else
  let bits := length x in
  do* fill := (if x_signed && negb left then lift_res (hd_res x) else ret wF) in
  do* v := shift_layers left fill x (rev y) 1 in
  do* mfb := lift_res (max_filled_bits bits) in
  do* overflow := or_all_M wF (firstn (8 - mfb) y) in
  do* _ := m_panic_if overflow Overflow m in
  ret v.

(* ------------------------------------------------------------------ enums *)

Definition enum_tag_size (variants : list (list ty)) : nat := N.to_nat (Sem.tag_bits (lenN variants)).

Definition enum_max_size (P : program) (variants : list (list ty)) : nat :=
  (fold_left (fun mx ts => let s := fold_left (fun a t => (a + szn P t)%nat) ts O in
                           if (mx <? s)%nat then s else mx) variants O
   + enum_tag_size variants)%nat.

(* ------------------------------------------------------------------ join *)

Fixpoint pow2_ge (fuel : nat) (p n : nat) : nat :=
  match fuel with
  | O => p
  | S f => if (p <? n)%nat then pow2_ge f (2 * p) n else p
  end.
(* usize::next_power_of_two (1 for 0) *)
Definition next_power_of_two (n : nat) : nat := pow2_ge (S n) 1 n.

(* v.resize(n, 0) *)
Definition resize (v : list Wt) (n : nat) : list Wt :=
  firstn n v ++ repeat wF (n - length v).

(* v.insert(i, x): panics if i > len *)
Definition insert_at (v : list Wt) (i : nat) (x : Wt) : res (list Wt) :=
  if (i <=? length v)%nat then Ok (firstn i v ++ x :: skipn i v) else Crash.

(* v.remove(i): panics if i >= len *)
Definition remove_at (v : list Wt) (i : nat) : res (Wt * list Wt) :=
  match nth_error v i with
  | Some x => Ok (x, firstn i v ++ skipn (S i) v)
  | None => Crash
  end.

Fixpoint chunks (fuel : nat) (v : list Wt) (eb : nat) (n : nat) : res (list (list Wt)) :=
  match n with
  | O => Ok []
  | S k =>
      let* c := slice v 0 eb in
      let* r := chunks fuel (skipn eb v) eb k in
      Ok (c :: r)
  end.

(* the bitonic sequence handed to push_bitonic_merger: padding, a ascending, b reversed,
   each element resized to max_elem_bits with the tag bit inserted after the join key *)
Definition bitonic_input (a b : list Wt) (eba na ebb nb jts : nat) : res (list (list Wt) * nat) :=
  let max_eb := Nat.max eba ebb in
  let num_elems := next_power_of_two (na + nb) in
  let num_empty := (num_elems - na - nb)%nat in
  let* ca := chunks O a eba na in
  let* cb_ := chunks O b ebb nb in
  let* ea := mapM_res (fun v => insert_at (resize v max_eb) jts wF) ca in
  let* eb_ := mapM_res (fun v => insert_at (resize v max_eb) jts wT) (rev cb_) in
  Ok (repeat (repeat wF (S max_eb)) num_empty ++ ea ++ eb_, num_empty).

(* what is done for one window (slice[0], slice[1]) before process_binding *)
Definition window_binding (w0 w1 : list Wt) (eba ebb jts : nat) (is_func include_b : bool)
  : M (Wt * list Wt) :=
  do* (tag_a, a) := lift_res (remove_at w0 jts) in
  let a := firstn eba a in
  do* (tag_b, b) := lift_res (remove_at w1 jts) in
  let b := firstn ebb b in
  let binding := (if is_func then [wF] else []) ++ a ++ (if include_b then b else []) in
  do* join_a := lift_res (slice a 0 jts) in
  do* join_b := lift_res (slice b 0 jts) in
  do* je := o_eq_circuit OPS join_a join_b in
  do* td := m_xor tag_a tag_b in
  do* je := m_and je td in
  ret (je, if is_func then je :: tl binding else binding).

(* ------------------------------------------------------------------ statements, expressions,
   patterns.  Open recursion: every piece takes the recursive calls as parameters
   ([rec_e] = compile an expression, [rec_p] = a pattern, [rec_s] = a statement, [rec_b] = a
   block); the knot is tied by the fixpoints on fuel at the end. *)

Section Rec.
  Variable P : program.
  Variable rec_e : expr -> cenv -> M (list Wt * cenv).
  Variable rec_p : pattern -> list Wt -> cenv -> M (Wt * cenv).
  Variable rec_s : stmt -> cenv -> M (list Wt * cenv).
  Variable rec_b : list stmt -> cenv -> M (list Wt * cenv).

  (* elements / fields / arguments, left to right *)
  Fixpoint lower_list (es : list expr) (E : cenv) : M (list (list Wt) * cenv) :=
    match es with
    | [] => ret ([], E)
    | e1 :: r =>
        do* (w, E1) := rec_e e1 E in
        do* (ws, E2) := lower_list r E1 in
        ret (w :: ws, E2)
    end.

  (* struct literal: the fields in the order of the definition *)
  Fixpoint lower_struct_fields (fields : list (N * expr)) (ds : list (N * ty)) (E : cenv)
    : M (list (list Wt) * cenv) :=
    match ds with
    | [] => ret ([], E)
    | (fname, _) :: r =>
        match assocN fname (rev fields) with
        | Some fe =>
            do* (w, E1) := rec_e fe E in
            do* (ws, E2) := lower_struct_fields fields r E1 in
            ret (w :: ws, E2)
        | None => crash
        end
    end.

  (* the arms of a match; [sw]: scrutinee, [E0], [P0]: environment and panic state before the
     match; accumulators: has_prev_match, muxed_ret_expr, muxed_panic, muxed_env *)
  Fixpoint lower_arms (bits : nat) (sw : list Wt) (E0 : cenv) (P0 : Pst) (arms : list (pattern * expr))
      (has_prev : Wt) (mret : list Wt) (mpanic : Pst) (menv : cenv)
    : M (list Wt * Pst * cenv * Wt) :=
    match arms with
    | [] => ret (mret, mpanic, menv, has_prev)
    | (pat, body) :: r =>
        do* _ := m_replace P0 in
        do* (is_match, E1) := rec_p pat sw (env_push E0) in
        do* (rw, E2) := rec_e body E1 in
        do* no_prev := m_not has_prev in
        do* s := m_and no_prev is_match in
        do* E3 := lift_res (env_pop E2) in
        do* Pcur := m_peek in
        do* mpanic' := m_mux_panic s Pcur mpanic in
        do* menv' := mux_envs s E3 menv in
        do* mret' := (if (length rw <? bits)%nat then crash
                      else map2_M (fun x0 x1 => m_mux s x0 x1) (firstn bits rw) mret) in
        do* has_prev' := m_or has_prev is_match in
        lower_arms bits sw E0 P0 r has_prev' mret' mpanic' menv'
    end.

  (* call arguments: each compiled in a scope of its own *)
  Fixpoint lower_args (ps : list (N * ty)) (args : list expr) (E : cenv)
    : M (list (N * list Wt) * cenv) :=
    match ps, args with
    | (pn, _) :: pr, a :: ar =>
        do* (w, Ea) := rec_e a (env_push E) in
        do* Eb := lift_res (env_pop Ea) in
        do* (bs, Ec) := lower_args pr ar Eb in
        ret ((pn, w) :: bs, Ec)
    | _, _ => ret ([], E)
    end.

  Definition bind_all (E : cenv) (bindings : list (N * list Wt)) : res cenv :=
    fold_left (fun Er b => let* E' := Er in env_let E' (fst b) (snd b)) bindings (Ok E).

  (* the windows of the join built-in: unmatched entries are zeroed *)
  Fixpoint join_func_windows (eba ebb jts : nat) (has_assoc : bool) (ws : list (list Wt))
    : M (list (list Wt)) :=
    match ws with
    | w0_ :: ((w1_ :: _) as r) =>
        do* (je, binding) := window_binding w0_ w1_ eba ebb jts true has_assoc in
        do* bd := (match binding with
                   | [] => ret []
                   | h :: tlb => do* tl' := mapM_M (fun g => m_mux je g wF) tlb in ret (h :: tl')
                   end) in
        do* rest := join_func_windows eba ebb jts has_assoc r in
        ret (bd :: rest)
    | _ => ret []
    end.

  Fixpoint lower_stmts (ss : list stmt) (E : cenv) : M cenv :=
    match ss with
    | [] => ret E
    | s1 :: r => do* (_, E1) := rec_s s1 E in lower_stmts r E1
    end.

  (* the windows of a for-join loop: the body runs under the pattern binding, then environment
     and panic state are merged by the join condition *)
  Fixpoint join_loop_windows (pat : pattern) (body : list stmt) (eba ebb jts : nat)
      (ws : list (list Wt)) (E : cenv) : M cenv :=
    match ws with
    | w0_ :: ((w1_ :: _) as r) =>
        do* (je, binding) := window_binding w0_ w1_ eba ebb jts false true in
        do* Pb := m_peek in
        do* (_, Ej) := rec_p pat binding (env_push E) in
        do* Ej := lower_stmts body Ej in
        do* Ej := lift_res (env_pop Ej) in
        do* Pj := m_replace Pb in
        do* E' := mux_envs je Ej E in
        do* Pm := m_mux_panic je Pj Pb in
        do* _ := m_replace Pm in
        join_loop_windows pat body eba ebb jts r E'
    | _ => ret E
    end.

  (* for loop: one iteration per element of the array ([n] = its static length, also when
     the elements are zero-sized and [aw] is empty) *)
  Fixpoint for_iterations (pat : pattern) (body : list stmt) (eb : nat) (n : nat) (aw : list Wt)
      (E : cenv) : M cenv :=
    match n with
    | O => ret E
    | S k =>
        do* binding := lift_res (slice aw 0 eb) in
        do* (_, Ea) := rec_p pat binding (env_push E) in
        do* Eb := lower_stmts body Ea in
        do* Ec := lift_res (env_pop Eb) in
        for_iterations pat body eb k (skipn eb aw) Ec
    end.

  (* an assignment through accessors, phase 1: the index expressions in order, each extended to
     usize and checked against the bounds, BEFORE the target is read *)
  Fixpoint assign_indexes (m : meta) (accs : list accessor) (E : cenv) (acc_rev : list (list Wt))
    : M (list (list Wt) * cenv) :=
    match accs with
    | [] => ret (rev acc_rev, E)
    | AIdx arr_ty idx :: r =>
        do* (_, num_elems) := lift_res (array_size P arr_ty) in
        do* (iw, E1) := rec_e idx E in
        do* iw' := m_extend iw (TInt false 32) USZ in
        do* _ := bounds_check iw' num_elems m in
        assign_indexes m r E1 (iw' :: acc_rev)
    | _ :: r => assign_indexes m r E acc_rev
    end.

  (* phase 2: what is read through the accessors, and what to write back *)
  Definition acc_item := (list Wt * nat * nat * option (list Wt))%type.

  Fixpoint assign_forward (accs : list accessor) (coll : list Wt) (idxs : list (list Wt))
      (acc : list acc_item) : M (list acc_item) :=
    match accs with
    | [] => ret acc
    | AIdx arr_ty _ :: r =>
        do* (eb, num_elems) := lift_res (array_size P arr_ty) in
        match idxs with
        | [] => crash
        | iw :: ir =>
            do* arr' := index_layers (rev iw) coll eb in
            let coll' := match arr' with [] => repeat wF eb | _ => arr' end in
            assign_forward r coll' ir ((coll, eb, num_elems, Some iw) :: acc)
        end
    | ATup tup_ty i :: r =>
        do* (wb, wi) := lift_res (tuple_offsets P tup_ty i) in
        do* coll' := lift_res (slice coll wb wi) in
        assign_forward r coll' idxs ((coll, wb, wi, None) :: acc)
    | AFld st_ty fld :: r =>
        do* (wb, wi) := lift_res (struct_offsets P st_ty fld) in
        do* coll' := lift_res (slice coll wb wi) in
        assign_forward r coll' idxs ((coll, wb, wi, None) :: acc)
    end.

  (* backward pass (accessed.into_iter().rev() = the accumulated list as it is) *)
  Fixpoint assign_backward (m : meta) (acc : list acc_item) (value : list Wt) : M (list Wt) :=
    match acc with
    | [] => ret value
    | (before, a, n, Some iw) :: r =>
        do* v' := array_write before a n iw value m in assign_backward m r v'
    | (before, a, n, None) :: r =>
        do* v' := lift_res (splice before a n value) in assign_backward m r v'
    end.

  (* sub-patterns over consecutive slices of the matched wires *)
  Fixpoint fields_match (mw : list Wt) (ps : list (pattern * nat)) (w : nat) (is_match : Wt) (E : cenv)
    : M (Wt * cenv) :=
    match ps with
    | [] => ret (is_match, E)
    | (fp, fbits) :: r =>
        do* sub := lift_res (slice mw w fbits) in
        do* (fm, E1) := rec_p fp sub E in
        do* is_match' := m_and is_match fm in
        fields_match mw r (w + fbits)%nat is_match' E1
    end.

  (* struct pattern: every field of the definition advances the offset, named ones are matched *)
  Fixpoint struct_match (mw : list Wt) (fields : list (N * pattern)) (ds : list (N * ty)) (w : nat)
      (is_match : Wt) (E : cenv) : M (Wt * cenv) :=
    match ds with
    | [] => ret (is_match, E)
    | (fname, fty) :: r =>
        let fbits := szn P fty in
        match assocN fname (rev fields) with
        | Some fp =>
            do* sub := lift_res (slice mw w fbits) in
            do* (fm, E1) := rec_p fp sub E in
            do* is_match' := m_and is_match fm in
            struct_match mw fields r (w + fbits)%nat is_match' E1
        | None => struct_match mw fields r (w + fbits)%nat is_match E
        end
    end.

  (* fields.iter().zip(field_types) *)
  Fixpoint zip_sizes (ps : list pattern) (fts : list ty) : list (pattern * nat) :=
    match ps, fts with
    | fp :: pr, ft :: fr => (fp, szn P ft) :: zip_sizes pr fr
    | _, _ => []
    end.

  Definition one_wire (w : list Wt) : M Wt := match w with [x] => ret x | _ => crash end.

  Definition lower_expr_body (e : expr) (E : cenv) : M (list Wt * cenv) :=
    match e with
    | Ex ei m t =>
      match ei with
      | ETrue => ret ([wT], E)
      | EFalse => ret ([wF], E)
      | ENumU n _ => ret (unsigned_as_wires n (szn P t), E)
      | ENumS z _ => ret (signed_as_wires z (szn P t), E)
      | EId x => match env_get E x with Some v => ret (v, E) | None => crash end
      | EArrLit es => do* (ws, E1) := lower_list es E in ret (concat ws, E1)
      | EArrRep e1 n =>
          do* (w, E1) := rec_e e1 E in
          do* w := m_extend w (e_ty e1) (szn P (e_ty e1)) in
          ret (concat (repeat w (N.to_nat n)), E1)
      | EIdx a i =>
          do* (_, num_elems) := lift_res (array_size P (e_ty a)) in
          let eb := szn P t in
          do* (arr, E1) := rec_e a E in
          do* (idx, E2) := rec_e i E1 in
          do* (r, _) := array_read arr idx eb num_elems m in
          ret (r, E2)
      | ETupLit es => do* (ws, E1) := lower_list es E in ret (concat ws, E1)
      | ETupAcc e1 i =>
          do* (wb, wi) := lift_res (tuple_offsets P (e_ty e1) i) in
          do* (w, E1) := rec_e e1 E in
          do* r := lift_res (slice w wb wi) in
          ret (r, E1)
      | EFld e1 fld =>
          match e_ty e1 with
          | TStruct name =>
              do* (w, E1) := rec_e e1 E in
              do* (wb, wi) := lift_res (struct_offsets P (TStruct name) fld) in
              do* r := lift_res (slice w wb wi) in
              ret (r, E1)
          | _ => crash
          end
      | EStructLit name fields =>
          match assocN name (p_structs P) with
          | Some def =>
              do* (ws, E1) := lower_struct_fields fields def E in
              ret (concat ws, E1)
          | None => crash
          end
      | EEnumLit ename variant args =>
          match assocN ename (p_enums P) with
          | Some variants =>
              let tag_size := enum_tag_size variants in
              let max_size := enum_max_size P variants in
              do* (ws, E1) := lower_list args E in
              let payload := concat ws in
              if (tag_size + length payload <=? max_size)%nat then
                ret (unsigned_as_wires variant tag_size ++ payload
                       ++ repeat wF (max_size - tag_size - length payload), E1)
              else crash
          | None => crash
          end
      | EMatch scrut arms =>
          let bits := szn P t in
          do* (sw, E0) := rec_e scrut E in
          do* P0 := m_peek in
          do* (ret_w, muxed_panic, muxed_env, _) :=
            lower_arms bits sw E0 P0 arms wF (repeat wF bits) P0 E0 in
          do* _ := m_replace muxed_panic in
          ret (ret_w, muxed_env)
      | ENeg e1 =>
          do* (x, E1) := rec_e e1 E in
          do* neg := o_negation OPS x in
          do* x0 := lift_res (hd_res x) in
          do* n0 := lift_res (hd_res neg) in
          do* ov := m_and x0 n0 in
          do* _ := m_panic_if ov Overflow m in
          ret (neg, E1)
      | ENot e1 =>
          do* (x, E1) := rec_e e1 E in
          do* r := mapM_M m_not x in
          ret (r, E1)
      | EOp OLAnd x y =>
          do* (xw, E1) := rec_e x E in
          do* x0 := one_wire xw in
          do* Pb := m_peek in
          do* (yw, E2) := rec_e y E1 in
          do* y0 := one_wire yw in
          do* E3 := mux_envs x0 E2 E1 in
          do* Pa := m_peek in
          do* Pm := m_mux_panic x0 Pa Pb in
          do* _ := m_replace Pm in
          do* r := m_and x0 y0 in
          ret ([r], E3)
      | EOp OLOr x y =>
          do* (xw, E1) := rec_e x E in
          do* x0 := one_wire xw in
          do* Pb := m_peek in
          do* (yw, E2) := rec_e y E1 in
          do* y0 := one_wire yw in
          do* E3 := mux_envs x0 E1 E2 in
          do* Pa := m_peek in
          do* Pm := m_mux_panic x0 Pb Pa in
          do* _ := m_replace Pm in
          do* r := m_or x0 y0 in
          ret ([r], E3)
      | EOp ((OShl | OShr) as o) x y =>
          do* (xw, E1) := rec_e x E in
          do* (yw, E2) := rec_e y E1 in
          do* r := lower_shift (match o with OShl => true | _ => false end)
                               (is_signed (e_ty x)) xw yw m in
          ret (r, E2)
      | EOp o x y =>
          match (match o with OMul => mul_rewrite x y m t | _ => None end) with
          | Some (operand, e') =>
              do* (w, E1) := rec_e operand E in
              do* E2 := lift_res (env_let (env_push E1) MUL_TMP w) in
              do* (r, E3) := rec_e e' E2 in
              do* E4 := lift_res (env_pop E3) in
              ret (r, E4)
          | None =>
              do* (xw, E1) := rec_e x E in
              do* (yw, E2) := rec_e y E1 in
              do* r := lower_binop o t (e_ty x) (e_ty y) xw yw m in
              ret (r, E2)
          end
      | EBlock stmts => rec_b stmts E
      | ECall fname args =>
          match find_fn P fname with
          | Some fd =>
              do* (bindings, E1) := lower_args (fn_params fd) args E in
              (* env.0.split_off(1): keep the outermost (global) scope only *)
              match rev E1 with
              | [] => crash
              | glob :: caller_rev =>
                  do* Ecallee := lift_res (bind_all (env_push [glob]) bindings) in
                  do* (body, E2) := rec_b (fn_body fd) Ecallee in
                  do* E3 := lift_res (env_pop E2) in
                  ret (body, rev caller_rev ++ E3)
              end
          | None => crash
          end
      | EJoin join_ty has_assoc a b =>
          do* (eba, na) := lift_res (array_size P (e_ty a)) in
          do* (ebb, nb) := lift_res (array_size P (e_ty b)) in
          let jts := szn P join_ty in
          do* (aw, E1) := rec_e a E in
          do* (bw, E2) := rec_e b E1 in
          do* (bitonic, num_empty) := lift_res (bitonic_input aw bw eba na ebb nb jts) in
          do* sorted := o_merger OPS (S jts) true bitonic in
          do* joined := join_func_windows eba ebb jts has_assoc (skipn num_empty sorted) in
          do* joined := o_sorter OPS 1 joined in
          ret (concat joined, E2)
      | EIf c tbranch fbranch =>
          do* (cw, E0) := rec_e c E in
          do* P0 := m_peek in
          do* c0 := one_wire cw in
          do* (tw, ET) := rec_e tbranch E0 in
          do* PT := m_replace P0 in
          do* (fw, EF) := rec_e fbranch E0 in
          do* PF := m_replace P0 in
          do* E' := mux_envs c0 ET EF in
          do* Pm := m_mux_panic c0 PT PF in
          do* _ := m_replace Pm in
          do* r := mux_bits c0 tw fw in
          ret (r, E')
      | ECast to e1 =>
          do* (w, E1) := rec_e e1 E in
          let size_after := szn P to in
          if (size_after =? length w)%nat then ret (w, E1)
          else if (size_after <? length w)%nat then ret (cast_truncate w size_after, E1)
          else do* w' := m_extend w (e_ty e1) size_after in ret (w', E1)
      | ERange lo hi bits =>
          if hi <? lo then crash else
          ret (concat (map (fun k => unsigned_as_wires (lo + N.of_nat k) (N.to_nat bits))
                           (seq 0 (N.to_nat (hi - lo)))), E)
      end
    end.

  Fixpoint block_stmts (ss : list stmt) (last : list Wt) (E : cenv) : M (list Wt * cenv) :=
    match ss with
    | [] => ret (last, E)
    | s :: r => do* (w, E1) := rec_s s E in block_stmts r w E1
    end.

  Definition lower_block_body (stmts : list stmt) (E : cenv) : M (list Wt * cenv) :=
    do* (w, E1) := block_stmts stmts [] (env_push E) in
    do* E2 := lift_res (env_pop E1) in
    ret (w, E2).

  Definition lower_stmt_body (s : stmt) (E : cenv) : M (list Wt * cenv) :=
    match s with
    | St si m =>
      match si with
      | SLet pat e =>
          do* (w, E1) := rec_e e E in
          do* (_, E2) := rec_p pat w E1 in
          ret ([], E2)
      | SExpr e => rec_e e E
      | SLetMut x e =>
          do* (w, E1) := rec_e e E in
          do* E2 := lift_res (env_let E1 x w) in
          ret ([], E2)
      | SAssign x accs e =>
          do* (value, E1) := rec_e e E in
          do* (idxs, E2) := assign_indexes m accs E1 [] in
          do* coll := (match env_get E2 x with Some v => ret v | None => crash end) in
          do* accessed := assign_forward accs coll idxs [] in
          do* value' := assign_backward m accessed value in
          do* E3 := lift_res (env_assign E2 x value') in
          ret ([], E3)
      | SFor pat arr body =>
          do* (eb, num_elems) := lift_res (array_size P (e_ty arr)) in
          do* (aw, E1) := rec_e arr E in
          do* E2 := for_iterations pat body eb num_elems aw E1 in
          ret ([], E2)
      | SJoinLoop pat join_ty a b body =>
          do* (eba, na) := lift_res (array_size P (e_ty a)) in
          do* (ebb, nb) := lift_res (array_size P (e_ty b)) in
          let jts := szn P join_ty in
          do* (aw, E1) := rec_e a E in
          do* (bw, E2) := rec_e b E1 in
          do* (bitonic, num_empty) := lift_res (bitonic_input aw bw eba na ebb nb jts) in
          do* sorted := o_merger OPS (S jts) true bitonic in
          do* E3 := join_loop_windows pat body eba ebb jts (skipn num_empty sorted) E2 in
          ret ([], E3)
      end
    end.

  Definition lower_pattern_body (p : pattern) (mw : list Wt) (E : cenv) : M (Wt * cenv) :=
    match p with
    | Pat pi _ t =>
      let range_match (lo hi : list Wt) : M (Wt * cenv) :=
        let bits := szn P t in
        let sg := is_signed t in
        do* (lt_min, _) := o_comparator OPS bits mw sg lo sg in
        do* (_, gt_max) := o_comparator OPS bits mw sg hi sg in
        do* a := m_not lt_min in
        do* c := m_not gt_max in
        do* r := m_and a c in
        ret (r, E) in
      let eq_match (n : list Wt) : M (Wt * cenv) :=
        let bits := szn P t in
        if (length mw <? bits)%nat then crash else
        do* acc := eq_acc wT (combine n (firstn bits mw)) in
        ret (acc, E) in
      match pi with
      | PId x => do* E1 := lift_res (env_let E x mw) in ret (wT, E1)
      | PTrue => do* w := one_wire mw in ret (w, E)
      | PFalse => do* w := one_wire mw in do* n := m_not w in ret (n, E)
      | PNumU n => eq_match (unsigned_as_wires n (szn P t))
      | PNumS z => eq_match (signed_as_wires z (szn P t))
      | PURange lo hi =>
          range_match (unsigned_as_wires lo (szn P t)) (unsigned_as_wires hi (szn P t))
      | PSRange lo hi =>
          range_match (signed_as_wires lo (szn P t)) (signed_as_wires hi (szn P t))
      | PTup ps => fields_match mw (map (fun fp => (fp, szn P (p_ty fp))) ps) O wT E
      | PStruct name _ fields =>
          match assocN name (p_structs P) with
          | Some def => struct_match mw fields def O wT E
          | None => crash
          end
      | PEnumUnit ename variant =>
          match assocN ename (p_enums P) with
          | Some variants =>
              let tag_size := enum_tag_size variants in
              do* tag_actual := lift_res (slice mw 0 tag_size) in
              do* is_match := eq_acc wT (combine (unsigned_as_wires variant tag_size) tag_actual) in
              ret (is_match, E)
          | None => crash
          end
      | PEnumTup ename variant ps =>
          match assocN ename (p_enums P) with
          | Some variants =>
              let tag_size := enum_tag_size variants in
              do* tag_actual := lift_res (slice mw 0 tag_size) in
              do* is_match := eq_acc wT (combine (unsigned_as_wires variant tag_size) tag_actual) in
              match nthN variants variant with
              | Some field_types => fields_match mw (zip_sizes ps field_types) tag_size is_match E
              | None => crash
              end
          | None => crash
          end
      end
    end.
End Rec.

Fixpoint lower_expr (fuel : nat) (P : program) (e : expr) (E : cenv) {struct fuel}
  : M (list Wt * cenv) :=
  match fuel with
  | O => nofuel
  | S f => lower_expr_body P (lower_expr f P) (lower_pattern f P) (lower_block f P) e E
  end
with lower_block (fuel : nat) (P : program) (stmts : list stmt) (E : cenv) {struct fuel}
  : M (list Wt * cenv) :=
  match fuel with
  | O => nofuel
  | S f => lower_block_body (lower_stmt f P) stmts E
  end
with lower_stmt (fuel : nat) (P : program) (s : stmt) (E : cenv) {struct fuel}
  : M (list Wt * cenv) :=
  match fuel with
  | O => nofuel
  | S f => lower_stmt_body P (lower_expr f P) (lower_pattern f P) (lower_stmt f P) s E
  end
with lower_pattern (fuel : nat) (P : program) (p : pattern) (mw : list Wt) (E : cenv) {struct fuel}
  : M (Wt * cenv) :=
  match fuel with
  | O => nofuel
  | S f => lower_pattern_body P (lower_pattern f P) p mw E
  end.

(* the wires of a constant whose definition is a literal (the literal's own suffix type gives
   the width, as in compile_with_constants) *)
Definition const_wires (e : expr) : res (list Wt) :=
  match e with
  | Ex ETrue _ _ => Ok [wT]
  | Ex EFalse _ _ => Ok [wF]
  | Ex (ENumU n lb) _ _ => Ok (unsigned_as_wires n (N.to_nat lb))
  | Ex (ENumS z lb) _ _ => Ok (signed_as_wires z (N.to_nat lb))
  | _ => Crash
  end.

(* the global scope: constants bound in source order *)
Definition global_scope (P : program) : res cenv :=
  fold_left (fun Er '(x, e) => let* E := Er in let* w := const_wires e in env_let E x w)
            (p_consts P) (Ok [[]]).

(* the environment in which the body of main is compiled: parameters in a scope of their own *)
Definition main_env (P : program) (bindings : list (N * list Wt)) : res cenv :=
  let* glob := global_scope P in
  fold_left (fun Er b => let* E := Er in env_let E (fst b) (snd b)) bindings (Ok (env_push glob)).

End Generic.

Arguments ops : clear implicits.
Arguments mkOps {Wt Cs Pst}.

(* ------------------------------------------------------------------ compile_with_constants
   (programs whose constants are literals; external constants: Compile/Consts.v, C12) *)

(* ------------------------------------------------------------------ the builder instance *)

(* the CircuitBuilder: gate store + its panic_gates *)
Record cst := mkCst { cb : builder; cp : pstate }.

Definition liftb {A} (f : builder -> res (A * builder)) : cst -> res (A * cst) :=
  fun s => let* (a, b') := f (cb s) in Ok (a, mkCst b' (cp s)).

Definition b_panic_if (cond : W) (r : preason) (m : meta) : cst -> res (unit * cst) :=
  fun s => let* (P', b') := push_panic_if (cb s) (cp s) cond r
                              (mkPLoc (m_sl m) (m_sc m) (m_el m) (m_ec m)) in
           Ok (tt, mkCst b' P').
Definition b_mux_panic (c : W) (T F : pstate) : cst -> res (pstate * cst) :=
  fun s => let* (P, b') := mux_panic (cb s) c T F in Ok (P, mkCst b' (cp s)).

Definition bops : ops N cst pstate := {|
  w0 := 0;
  w1 := 1;
  o_xor := fun x y => liftb (fun b => push_xor_top b x y);
  o_and := fun x y => liftb (fun b => push_and_top b x y);
  o_or := fun x y => liftb (fun b => push_or b x y);
  o_eq := fun x y => liftb (fun b => push_eq b x y);
  o_not := fun x => liftb (fun b => push_not b x);
  o_mux := fun s x0 x1 => liftb (fun b => push_mux b s x0 x1);
  o_negation := fun x => liftb (fun b => push_negation_circuit b x);
  o_addition := fun x y => liftb (fun b => push_addition_circuit b x y);
  o_subtraction := fun x y sg => liftb (fun b => push_subtraction_circuit b x y sg);
  o_multiplier := fun x y z c => liftb (fun b => push_multiplier b x y z c);
  o_udiv := fun x y => liftb (fun b => push_unsigned_division_circuit b x y);
  o_sdiv := fun x y => liftb (fun b => push_signed_division_circuit b x y);
  o_comparator := fun bits x sx y sy => liftb (fun b => push_comparator_circuit b bits x sx y sy);
  o_eq_circuit := fun x y => liftb (fun b => push_eq_circuit b x y);
  o_merger := fun bits asc v => liftb (fun b => push_bitonic_merger (S (length v)) b bits asc v);
  o_sorter := fun bits v => liftb (fun b => push_bitonic_sorter b bits v);
  o_panic_if := b_panic_if;
  o_peek := fun s => Ok (cp s, s);
  o_replace := fun P s => Ok (cp s, mkCst (cb s) P);
  o_mux_panic := b_mux_panic
|}.

Inductive lowered :=
| LCircuit (c : circuit)
| LNoMain                 (* CompilerError::FnNotFound *)
| LZeroSizedInputs.       (* CompilerError::ZeroSizedInputs *)

Definition wire_range (from : N) (n : nat) : list W := map (fun k => from + N.of_nat k) (seq 0 n).

(* parameter wiring: a single array parameter becomes one party per element *)
Definition param_wiring (P : program) (params : list (N * ty)) : list N * list (N * list W) :=
  match params with
  | [(x, TArr el n)] =>
      let eb := szn P el in
      let total := (eb * N.to_nat n)%nat in
      (repeat (N.of_nat eb) (N.to_nat n), [(x, wire_range 2 total)])
  | _ =>
      let '(igs, bs, _) :=
        fold_left (fun '(igs, bs, wire) '(x, t) =>
                     let s := szn P t in
                     (igs ++ [N.of_nat s], bs ++ [(x, wire_range wire s)], wire + N.of_nat s))
                  params ([], [], 2) in
      (igs, bs)
  end.

Definition lower_fuel : nat := 2000.

(* everything up to (not including) build: the final compiler state and the wires of the result *)
Inductive lowered_pre :=
| PreOk (s : cst) (outs : list W)
| PreNoMain
| PreZeroSizedInputs.

Definition initial_cst (dedup : bool) (input_gates : list N) : cst :=
  mkCst (new_builder dedup input_gates) pstate_new.

Definition lower_main_with (fuel : nat) (dedup : bool) (P : program) : res lowered_pre :=
  match find_fn P (p_main P) with
  | None => Ok PreNoMain
  | Some fd =>
      let '(input_gates, bindings) := param_wiring P (fn_params fd) in
      if sumN input_gates =? 0 then Ok PreZeroSizedInputs else
      let* E0 := main_env bops P bindings in
      let* ((outs, _), s1) := lower_block bops fuel P (fn_body fd) E0 (initial_cst dedup input_gates) in
      Ok (PreOk s1 outs)
  end.

Definition lower_program_with (fuel : nat) (dedup : bool) (P : program) : res lowered :=
  let* r := lower_main_with fuel dedup P in
  match r with
  | PreOk s1 outs =>
      let* c := build (cb s1) (prec_wires (ps_rec (cp s1))) outs in
      Ok (LCircuit c)
  | PreNoMain => Ok LNoMain
  | PreZeroSizedInputs => Ok LZeroSizedInputs
  end.

Definition lower_main : bool -> program -> res lowered_pre := lower_main_with lower_fuel.
Definition lower_program : bool -> program -> res lowered := lower_program_with lower_fuel.
