(* C13 AT THE PROGRAM LEVEL: the for-join loop as a NODE LEMMA of "bit-level semantics (Lower.v over
   TSem.tops) = source semantics (Lang/Sem.v)" in the interface of TSemSemStmt.v Part 1 /
   TSemSemAgg.v:

     for two arrays sorted STRICTLY ASCENDING by the unsigned value of their join key, the
     for-join loop of the compiler (tagging, zero padding to a power of two, bitonic merge,
     adjacent windows, effects and panics muxed by "equal keys and different tags") executes
     its body exactly as Sem.v's loop does: once for every element of a that has a partner
     with the same key in b, in the order of a, bound to (x, y); nothing else has an effect.

   [join_loop_node_rel] is the node, for any relation between the source and the circuit
   environment that one iteration preserves ([join_loop_node], [join_loop_node_gpat]: at
   [env_rel3]); [join_windows_agree] the loop over the windows; [merged_gen] what the merger
   produces from ascending tagged elements, [merged_items] from the elements of two arrays
   with strictly ascending keys.  Pure lemmas about the merger: JoinMerge.v. *)
From Coq Require Import Lia ZArith Permutation Sorting.Sorted.
From GV Require Import Base.Util Base.ListFacts Base.Bits Base.BitsProofs Base.BitViews Lang.Ast Lang.Wt Lang.ValTy Lang.WtShape
  Gadgets.Gadgets Gadgets.GadgetSpec Gadgets.Arith Gadgets.Extend Gadgets.ExtendProofs
  Sort.Sort Sort.SortProofs Sort.ZeroOne Sort.SortUnbounded
  Panic.PanicRec Panic.PanicSem Compile.Lower Compile.TSem Compile.TSemFacts Compile.TSemArith1
  Compile.TSemArith2 Compile.TSemControl Compile.TSemArray Compile.TSemSemExpr Compile.ValEnc
  Compile.TSemSticky Compile.TSemSemStmt Compile.TSemSemAgg Compile.JoinMerge.
From GV Require Lang.Sem Lang.WtSound.
From GV Require Gadgets.GadgetHoare.
Local Open Scope N_scope.

(* ================================================================ bits *)

Lemma eq_s_true_iff x y : length x = length y -> (eq_s x y = true <-> x = y).
Proof.
  intro L. rewrite GadgetHoare.eq_s_eq, L, Nat.eqb_refl. cbn [negb].
  assert (G : forall x y acc, length x = length y ->
            (GadgetHoare.eq_go_s acc (combine x y) = true <-> acc = true /\ x = y)).
  { clear. induction x as [|a x IH]; intros [|c y] acc L; cbn [length] in L; try discriminate; cbn [combine GadgetHoare.eq_go_s].
    - tauto.
    - rewrite IH by lia. destruct acc, a, c; cbn; split; intros [H1 H2]; try discriminate; split; congruence. }
  rewrite G by exact L. tauto.
Qed.

Lemma bits_eqb_iff a : forall b, Sem.bits_eqb a b = true <-> a = b.
Proof.
  induction a as [|x a IH]; intros [|y b]; cbn [Sem.bits_eqb]; try (split; [discriminate|discriminate]); [tauto|].
  rewrite andb_true_iff, IH. destruct x, y; cbn [Bool.eqb]; split; intros H; try (destruct H; discriminate); try discriminate;
    try (destruct H as [_ ->]; reflexivity); (split; [reflexivity|congruence]).
Qed.

(* ================================================================ usize::next_power_of_two *)

Lemma pow2_ge_spec fuel : forall p n, (1 <= p)%nat -> (n <= p * 2 ^ fuel)%nat ->
  (n <= pow2_ge fuel p n)%nat /\ exists j, pow2_ge fuel p n = (p * 2 ^ j)%nat.
Proof.
  induction fuel as [|f IH]; intros p n Hp Hn; cbn [pow2_ge].
  - cbn in Hn. split; [lia|]. exists 0%nat. cbn. lia.
  - destruct (Nat.ltb_spec p n) as [H|H].
    + destruct (IH (2 * p)%nat n ltac:(lia)) as [H1 [j H2]]; [cbn [Nat.pow] in Hn; lia|].
      split; [exact H1|]. exists (S j). rewrite H2. cbn [Nat.pow]. lia.
    + split; [lia|]. exists 0%nat. cbn. lia.
Qed.

Lemma next_power_of_two_spec n : (n <= next_power_of_two n)%nat /\ exists k, next_power_of_two n = (2 ^ k)%nat.
Proof.
  unfold next_power_of_two. destruct (pow2_ge_spec (S n) 1 n ltac:(lia)) as [H1 [j H2]].
  - rewrite Nat.mul_1_l. pose proof (Nat.pow_gt_lin_r 2 (S n) ltac:(lia)). lia.
  - split; [exact H1|]. exists j. rewrite H2. lia.
Qed.

(* ================================================================ chunks, mapM_res *)

Lemma Forall2_In_combine {A B} (R : A -> B -> Prop) l1 l2 a :
  Forall2 R l1 l2 -> In a l1 -> exists b, In (a, b) (combine l1 l2) /\ R a b.
Proof.
  induction 1 as [|x y r1 r2 Hxy Hr IH]; intro Hin; [destruct Hin|]. cbn [combine].
  destruct Hin as [->|Hin]; [exists y; split; [now left|assumption]|].
  destruct (IH Hin) as [b [Hb HR]]. exists b. split; [now right|assumption].
Qed.

Lemma Forall2_In_l {A B} (R : A -> B -> Prop) l1 l2 a :
  Forall2 R l1 l2 -> In a l1 -> exists b, In b l2 /\ R a b.
Proof.
  intros H Ha. destruct (Forall2_In_combine R l1 l2 a H Ha) as (b & Hb & HR).
  exists b. split; [exact (in_combine_r _ _ _ _ Hb)|exact HR].
Qed.

Lemma chunks_concat_tops eb (elems : list (list bool)) : all_len eb elems ->
  forall fuel, chunks (Wt:=bool) fuel (concat elems) eb (length elems) = Ok elems.
Proof.
  induction 1 as [|e elems He _ IH]; intro fuel; [reflexivity|].
  cbn [length chunks concat]. pose proof (slice_mid [] e (concat elems)) as Hs. cbn [app length] in Hs.
  rewrite He in Hs. rewrite Hs. cbn [bind]. rewrite <- He at 1. rewrite (skipn_app_exact e) by reflexivity.
  rewrite IH. reflexivity.
Qed.

Lemma mapM_res_map {A B} (f : A -> res B) (g : A -> B) l : (forall a, In a l -> f a = Ok (g a)) ->
  mapM_res f l = Ok (map g l).
Proof.
  induction l as [|a l IH]; intro H; [reflexivity|]. cbn [mapM_res map]. rewrite (H a (or_introl eq_refl)). cbn [bind].
  rewrite IH by (intros; apply H; now right). reflexivity.
Qed.

Lemma mapM_res_Ok_all {A B} (f : A -> res B) l r : mapM_res f l = Ok r -> forall a, In a l -> exists b, f a = Ok b.
Proof.
  revert r. induction l as [|a l IH]; intros r H x Hx; [destruct Hx|]. cbn [mapM_res] in H.
  destruct (f a) as [b| |] eqn:Ea; cbn [bind] in H; try discriminate.
  destruct (mapM_res f l) as [bs| |] eqn:El; cbn [bind] in H; try discriminate.
  destruct Hx as [->|Hx]; [eauto|]. exact (IH bs eq_refl x Hx).
Qed.

Lemma remove_at_mid {A} (l1 l2 : list A) t n : length l1 = n -> remove_at (l1 ++ t :: l2) n = Ok (t, l1 ++ l2).
Proof.
  intros <-. unfold remove_at. rewrite nth_error_app2, Nat.sub_diag by lia. cbn [nth_error].
  rewrite firstn_app, Nat.sub_diag, firstn_all. cbn [firstn]. rewrite app_nil_r.
  replace (S (length l1)) with (length l1 + 1)%nat by lia. rewrite skipn_app, skipn_all2 by lia.
  replace (length l1 + 1 - length l1)%nat with 1%nat by lia. reflexivity.
Qed.

Lemma firstn_S_mid {A} (l1 l2 : list A) t n : length l1 = n -> firstn (S n) (l1 ++ t :: l2) = l1 ++ [t].
Proof.
  intros <-. replace (S (length l1)) with (length l1 + 1)%nat by lia. rewrite firstn_app_2. reflexivity.
Qed.

(* ================================================================ tagged elements *)

(* an element of the merged vector: tag (false = from a, true = from b), the source value,
   its encoding *)
Definition item : Type := (bool * Sem.value * list bool)%type.
Definition itag (it : item) : bool := fst (fst it).
Definition ival (it : item) : Sem.value := snd (fst it).
Definition ienc (it : item) : list bool := snd it.

Section Items.
  Variables eba ebb jts : nat.
  Let mx := Nat.max eba ebb.

  (* the wires of an element: resized to the common width, tag bit after the key *)
  Definition rsz (e : list bool) : list bool := resize tops e mx.
  Definition mkb (it : item) : list bool := firstn jts (rsz (ienc it)) ++ itag it :: skipn jts (rsz (ienc it)).
  Definition kbits (it : item) : list bool := firstn jts (ienc it).
  Definition kvi (it : item) : N := Sort.bits_val (kbits it).
  Definition K' (it : item) : N := 2 * kvi it + (if itag it then 1 else 0).

  (* the element has the width of its side and contains the key *)
  Definition ilen (it : item) : Prop :=
    length (ienc it) = (if itag it then ebb else eba) /\ (jts <= length (ienc it))%nat.

  Lemma rsz_length e : (length e <= mx)%nat -> length (rsz e) = mx.
  Proof. intro H. unfold rsz, resize. rewrite app_length, firstn_length, repeat_length. lia. Qed.

  Lemma rsz_eq e : (length e <= mx)%nat -> rsz e = e ++ repeat false (mx - length e).
  Proof. intro H. unfold rsz, resize. rewrite firstn_all2 by lia. reflexivity. Qed.

  Lemma ilen_le it : ilen it -> (length (ienc it) <= mx)%nat.
  Proof. intros [H _]. unfold mx. destruct (itag it); lia. Qed.

  Lemma firstn_rsz it : ilen it -> firstn jts (rsz (ienc it)) = kbits it.
  Proof.
    intros H. rewrite (rsz_eq _ (ilen_le it H)). destruct H as [_ H]. rewrite firstn_app.
    replace (jts - length (ienc it))%nat with 0%nat by lia. cbn [firstn]. apply app_nil_r.
  Qed.

  Lemma insert_at_mkb it : ilen it -> insert_at (rsz (ienc it)) jts (itag it) = Ok (mkb it).
  Proof.
    intro H. unfold insert_at. rewrite (rsz_length _ (ilen_le it H)).
    destruct H as [H1 H2]. destruct (Nat.leb_spec jts mx) as [_|Hc]; [reflexivity|].
    unfold mx in Hc. destruct (itag it); lia.
  Qed.

  Lemma mkb_key_len it : ilen it -> length (firstn jts (rsz (ienc it))) = jts.
  Proof.
    intro H. rewrite firstn_length, (rsz_length _ (ilen_le it H)). destruct H as [H1 H2]. unfold mx. destruct (itag it); lia.
  Qed.

  Lemma remove_at_mkb it : ilen it -> remove_at (mkb it) jts = Ok (itag it, rsz (ienc it)).
  Proof.
    intro H. unfold mkb. rewrite (remove_at_mid _ _ _ jts (mkb_key_len it H)), firstn_skipn. reflexivity.
  Qed.

  Lemma key_mkb it : ilen it -> key (S jts) (mkb it) = K' it.
  Proof.
    intro H. unfold key, mkb. rewrite (firstn_S_mid _ _ _ jts (mkb_key_len it H)).
    rewrite bits_val_bits_to_N, bits_to_N_snoc, <- bits_val_bits_to_N, (firstn_rsz it H). reflexivity.
  Qed.

  Lemma mkb_length it : ilen it -> length (mkb it) = S mx.
  Proof.
    intro H. unfold mkb. rewrite app_length. cbn [length].
    pose proof (f_equal (@length bool) (firstn_skipn jts (rsz (ienc it)))) as E.
    rewrite app_length, (rsz_length _ (ilen_le it H)) in E. lia.
  Qed.

  (* what one window computes: "joined" = equal key bits and different tags; the binding takes
     the a-part of the first entry and the b-part of the second *)
  Definition jbit (h w : item) : bool := eq_s (kbits h) (kbits w) && xorb (itag h) (itag w).

  Lemma window_binding_mkb h w (isf ib : bool) (o : pobs) : ilen h -> ilen w -> (jts <= eba)%nat -> (jts <= ebb)%nat ->
    window_binding tops (mkb h) (mkb w) eba ebb jts isf ib o =
    Ok ((jbit h w, (if isf then [jbit h w] else []) ++
                   firstn eba (rsz (ienc h)) ++ (if ib then firstn ebb (rsz (ienc w)) else [])), o).
  Proof.
    intros Hh Hw Ja Jb. unfold window_binding.
    unfold mbind at 1. rewrite (remove_at_mkb h Hh). cbn [lift_res].
    unfold mbind at 1. rewrite (remove_at_mkb w Hw). cbn [lift_res].
    assert (La : length (firstn eba (rsz (ienc h))) = eba).
    { rewrite firstn_length, (rsz_length _ (ilen_le h Hh)). unfold mx. lia. }
    assert (Lb : length (firstn ebb (rsz (ienc w))) = ebb).
    { rewrite firstn_length, (rsz_length _ (ilen_le w Hw)). unfold mx. lia. }
    unfold slice. rewrite La, Lb. cbn [Nat.add skipn].
    rewrite (proj2 (Nat.leb_le jts eba) Ja), (proj2 (Nat.leb_le jts ebb) Jb).
    unfold mbind at 1. cbn [lift_res]. unfold mbind at 1. cbn [lift_res].
    rewrite !firstn_firstn. replace (Nat.min jts eba) with jts by lia. replace (Nat.min jts ebb) with jts by lia.
    rewrite (firstn_rsz h Hh), (firstn_rsz w Hw).
    unfold mbind at 1. cbn [o_eq_circuit tops tret]. unfold mbind at 1. cbn [m_xor o_xor tops tret].
    unfold mbind at 1. cbn [m_and o_and tops tret]. unfold ret. destruct isf; reflexivity.
  Qed.

  Lemma kbits_len it : ilen it -> length (kbits it) = jts.
  Proof. intros [_ H]. unfold kbits. rewrite firstn_length. lia. Qed.
End Items.

(* ================================================================ sorted lists of numbers *)

Lemma SS_lt_le l : StronglySorted N.lt l -> StronglySorted N.le l.
Proof.
  induction 1 as [|a l Hs IH Hall]; constructor; [exact IH|].
  rewrite Forall_forall in *. intros b Hb. specialize (Hall b Hb). lia.
Qed.

Lemma SS_le_sortedN l : StronglySorted N.le l -> sortedN l = true.
Proof.
  induction 1 as [|a l Hs IH Hall]; [reflexivity|]. destruct l as [|b r]; [reflexivity|].
  rewrite sortedN_cons, IH, andb_true_r. apply N.leb_le. inversion Hall; assumption.
Qed.

Lemma SS_lt_NoDup l : StronglySorted N.lt l -> NoDup l.
Proof.
  induction 1 as [|a l Hs IH Hall]; constructor; [|exact IH].
  intro Hin. rewrite Forall_forall in Hall. specialize (Hall a Hin). lia.
Qed.

Lemma SS_le_zeros n l : StronglySorted N.le l -> StronglySorted N.le (repeat 0 n ++ l).
Proof.
  intro H. induction n as [|n IH]; [exact H|]. cbn [repeat app]. constructor; [exact IH|].
  apply Forall_forall. intros x _. lia.
Qed.

Lemma SS_le_zero_prefix X l : Forall (fun x => x = 0) X -> StronglySorted N.le l -> StronglySorted N.le (X ++ l).
Proof.
  intros HX H. induction HX as [|x X Hx _ IH]; [exact H|]. subst x. cbn [app]. constructor; [exact IH|].
  apply Forall_forall. intros y _. lia.
Qed.

Lemma Permutation_filter {A} (f : A -> bool) l l' : Permutation l l' -> Permutation (filter f l) (filter f l').
Proof.
  induction 1 as [|x l l' _ IH|x y l|l1 l2 l3 _ IH1 _ IH2]; cbn [filter].
  - constructor.
  - destruct (f x); [constructor|]; exact IH.
  - destruct (f x), (f y); try reflexivity. apply perm_swap.
  - eapply Permutation_trans; eassumption.
Qed.

Lemma SS_app_tail {A} (R : A -> A -> Prop) l1 l2 : StronglySorted R (l1 ++ l2) -> StronglySorted R l2.
Proof. induction l1 as [|a l1 IH]; cbn [app]; intro H; [exact H|]. inversion H; auto. Qed.

Lemma NoDup_app_intro {A} (l1 l2 : list A) : NoDup l1 -> NoDup l2 -> (forall x, In x l1 -> ~ In x l2) -> NoDup (l1 ++ l2).
Proof.
  induction 1 as [|a l1 Ha Hn IH]; intros H2 Hd; [exact H2|]. cbn [app]. constructor.
  - intro Hin. apply in_app_or in Hin. destruct Hin as [Hin|Hin]; [contradiction|]. exact (Hd a (or_introl eq_refl) Hin).
  - apply IH; [exact H2|]. intros x Hx. apply Hd. now right.
Qed.

Lemma SS_map {A} (f : A -> N) l : StronglySorted N.lt (map f l) -> StronglySorted (fun a b => f a < f b) l.
Proof.
  induction l as [|a l IH]; intro H; [constructor|]. cbn [map] in H. inversion H as [|a' l' Hs Hall]; subst.
  constructor; [auto|]. rewrite Forall_map in Hall. exact Hall.
Qed.

Lemma SS_map' {A} (f : A -> N) l : StronglySorted (fun a b => f a < f b) l -> StronglySorted N.lt (map f l).
Proof.
  induction 1 as [|a l Hs IH Hall]; cbn [map]; constructor; [exact IH|]. rewrite Forall_map. exact Hall.
Qed.

(* ================================================================ what the merger produces *)

(* over arbitrary lists of tagged elements with ascending keys (repeats allowed) *)
Section MergedGen.
  Variables eba ebb jts : nat.
  Hypothesis Ja : (jts <= eba)%nat.
  Hypothesis Jb : (jts <= ebb)%nat.

  Notation mkB := (mkb eba ebb jts).
  Notation KK := (K' jts).
  Notation iLen := (ilen eba ebb jts).

  (* the zero elements in front of na + nb real ones *)
  Definition npad (na nb : nat) : nat := next_power_of_two (na + nb) - na - nb.
  Definition pads (na nb : nat) : list (list bool) := repeat (repeat false (S (Nat.max eba ebb))) (npad na nb).

  Lemma ilen_enc (tg : bool) e : length e = (if tg then ebb else eba) -> iLen (tg, Sem.unit_val, e).
  Proof. intro H. split; [exact H|]. cbn [ienc itag fst snd] in *. rewrite H. destruct tg; assumption. Qed.

  Lemma bitonic_input_mkb ea eb : all_len eba ea -> all_len ebb eb ->
    bitonic_input tops (concat ea) (concat eb) eba (length ea) ebb (length eb) jts =
    Ok (pads (length ea) (length eb) ++ map (fun e => mkB (false, Sem.unit_val, e)) ea
          ++ map (fun e => mkB (true, Sem.unit_val, e)) (rev eb), npad (length ea) (length eb)).
  Proof.
    intros La Lb. unfold bitonic_input. rewrite (chunks_concat_tops eba ea La), (chunks_concat_tops ebb eb Lb). cbn [bind].
    rewrite (mapM_res_map _ (fun e => mkB (false, Sem.unit_val, e))).
    2:{ intros e He. apply (insert_at_mkb eba ebb jts (false, Sem.unit_val, e)), (ilen_enc false).
        exact (proj1 (Forall_forall _ _) La e He). }
    cbn [bind]. rewrite (mapM_res_map _ (fun e => mkB (true, Sem.unit_val, e))); [reflexivity|].
    intros e He. apply in_rev in He. apply (insert_at_mkb eba ebb jts (true, Sem.unit_val, e)), (ilen_enc true).
    exact (proj1 (Forall_forall _ _) Lb e He).
  Qed.

  Theorem merged_gen A0 B0 na nb (o : pobs) sorted o' :
    Forall iLen A0 -> Forall iLen B0 -> length A0 = na -> length B0 = nb ->
    StronglySorted N.le (map KK A0) -> StronglySorted N.le (map KK B0) ->
    o_merger tops (S jts) true (pads na nb ++ map mkB A0 ++ map mkB (rev B0)) o = Ok (sorted, o') ->
    o' = o /\ exists M, skipn (npad na nb) sorted = map mkB M /\ Permutation (A0 ++ B0) M /\
      Forall iLen M /\ StronglySorted N.le (map KK M).
  Proof.
    intros OkA OkB <- <- SA SB Hm.
    set (np := npad (length A0) (length B0)) in *. set (pd := pads (length A0) (length B0)) in *.
    set (v := pd ++ map mkB A0 ++ map mkB (rev B0)) in *.
    cbn [o_merger tops] in Hm. destruct (elems_shape (S jts) v); [|discriminate].
    injection Hm as <- <-. split; [reflexivity|].
    assert (Lp : length pd = np) by apply repeat_length.
    (* keys *)
    assert (Kpad : forall x, In x pd -> key (S jts) x = 0).
    { intros x Hx. apply repeat_spec in Hx. subst x. unfold key. rewrite firstn_repeat by lia.
      rewrite bits_val_bits_to_N. apply bits_to_N_repeat_false. }
    assert (Kitem : forall l, Forall iLen l -> map (key (S jts)) (map mkB l) = map KK l).
    { intros l Hl. rewrite map_map. apply map_ext_in. intros it Hit. apply key_mkb.
      exact (proj1 (Forall_forall _ _) Hl it Hit). }
    (* length: a power of two *)
    destruct (next_power_of_two_spec (length A0 + length B0)) as [Hge [k Hk]].
    assert (Lv : length v = (2 ^ k)%nat).
    { unfold v. rewrite !app_length, Lp, !map_length, rev_length, <- Hk. unfold np, npad. lia. }
    (* the shape: up then down *)
    assert (Hud : up_then_down (map (key (S jts)) v)).
    { exists (map (key (S jts)) (pd ++ map mkB A0)), (map (key (S jts)) (map mkB (rev B0))).
      split; [unfold v; now rewrite app_assoc, map_app|]. split.
      - unfold ascN. apply SS_le_sortedN. rewrite map_app. unfold elem in *. rewrite (Kitem A0 OkA).
        apply SS_le_zero_prefix; [|exact SA].
        apply Forall_forall. intros n Hn. apply in_map_iff in Hn. destruct Hn as (x & <- & Hx). apply Kpad. exact Hx.
      - unfold descN. rewrite (Kitem _ (Forall_rev OkB)), map_rev, rev_involutive. apply SS_le_sortedN, SB. }
    destruct (merger_elems_up_down (S jts) v k Lv Hud) as [Hsorted Hperm].
    (* the padding stays in front *)
    assert (Fv : firstn np v = pd).
    { unfold v. rewrite firstn_app, (firstn_all2 pd), Lp, Nat.sub_diag by lia. cbn [firstn]. apply app_nil_r. }
    assert (Hpre : firstn np (bitonic_merger (gt_key (S jts)) true v) = pd).
    { unfold bitonic_merger. rewrite merger_prefix_fixed; [exact Fv|].
      intros x y Hx Hy. unfold gt_key, gtN. apply N.ltb_ge. rewrite (Kpad x); [lia|]. rewrite <- Fv. exact Hx. }
    set (sorted := bitonic_merger (gt_key (S jts)) true v) in *.
    assert (Es : sorted = pd ++ skipn np sorted) by (rewrite <- Hpre; symmetry; apply firstn_skipn).
    set (rest := skipn np sorted) in *.
    assert (Prest : Permutation rest (map mkB (A0 ++ rev B0))).
    { rewrite Es in Hperm. unfold v in Hperm. rewrite map_app. eapply Permutation_app_inv_l. exact Hperm. }
    destruct (Permutation_map_inv _ _ Prest) as (M & EM & PM).
    assert (PM' : Permutation (A0 ++ B0) M).
    { eapply Permutation_trans; [|exact PM]. apply Permutation_app_head. apply Permutation_rev. }
    assert (OkM : Forall iLen M) by (eapply Permutation_Forall; [exact PM'|apply Forall_app; split; assumption]).
    exists M. split; [exact EM|]. split; [exact PM'|]. split; [exact OkM|].
    replace (map KK M) with (map (key (S jts)) rest) by (rewrite EM; exact (Kitem M OkM)).
    apply sortedN_strong in Hsorted. rewrite Es, map_app in Hsorted.
    exact (SS_app_tail _ _ _ Hsorted).
  Qed.
End MergedGen.

Section Merged.
  Variable P : program.
  Variables join_ty ta tb : ty.
  Let jts := szn P join_ty.
  Let eba := szn P ta.
  Let ebb := szn P tb.
  Hypothesis Fa : ty_fits P ta.
  Hypothesis Fb : ty_fits P tb.
  Hypothesis Ja : (jts <= eba)%nat.
  Hypothesis Jb : (jts <= ebb)%nat.

  Notation mkB := (mkb eba ebb jts).
  Notation KK := (K' jts).
  Notation kvI := (kvi jts).
  Notation iLen := (ilen eba ebb jts).

  (* the unsigned value of the join key of an element (Sem.join_key) *)
  Definition kval (t : ty) (v : Sem.value) : N :=
    match Sem.join_key P join_ty t v with Some k => Sort.bits_val k | None => 0 end.
  Definition asc_keys (t : ty) (vs : list Sem.value) : Prop := StronglySorted N.lt (map (kval t) vs).

  Definition items (tg : bool) (vs : list Sem.value) (es : list (list bool)) : list item :=
    map (fun p => (tg, fst p, snd p)) (combine vs es).

  (* a well-formed element: encodes its value at the type of its side *)
  Definition iok (it : item) : Prop := has_enc P (if itag it then tb else ta) (ival it) (ienc it).

  Lemma iok_ilen it : iok it -> iLen it.
  Proof.
    unfold iok, ilen. intro H. destruct (itag it).
    - rewrite (has_enc_length P tb _ _ H Fb). split; [reflexivity|exact Jb].
    - rewrite (has_enc_length P ta _ _ H Fa). split; [reflexivity|exact Ja].
  Qed.

  Lemma join_key_enc t v e : ty_fits P t -> has_enc P t v e -> Sem.join_key P join_ty t v = Some (firstn jts e).
  Proof. intros Ft H. unfold Sem.join_key. rewrite (has_enc_encode P t v e H Ft). reflexivity. Qed.

  Lemma kvi_kval it : iok it -> kvI it = kval (if itag it then tb else ta) (ival it).
  Proof.
    intro H. unfold kval, kvi, kbits. rewrite (join_key_enc _ _ (ienc it)); [reflexivity| |exact H].
    destruct (itag it); assumption.
  Qed.

  Lemma items_iok (tg : bool) vs es : Forall2 (has_enc P (if tg then tb else ta)) vs es -> Forall iok (items tg vs es).
  Proof. unfold items. induction 1 as [|v e vs es Hv _ IH]; cbn [combine map]; constructor; [exact Hv|exact IH]. Qed.

  Lemma items_tag tg vs es it : In it (items tg vs es) -> itag it = tg.
  Proof. unfold items. intro H. apply in_map_iff in H. destruct H as (p & <- & _). reflexivity. Qed.

  Lemma items_vals tg vs es : length vs = length es -> map ival (items tg vs es) = vs.
  Proof.
    unfold items. rewrite map_map. cbn [ival fst snd]. revert es. induction vs as [|v vs IH]; intros [|e es] L; cbn [length] in L;
      try discriminate; [reflexivity|]. cbn [combine map fst]. f_equal. apply IH. lia.
  Qed.

  Lemma items_mkb tg vs es : length vs = length es ->
    map mkB (items tg vs es) = map (fun e => mkB (tg, Sem.unit_val, e)) es.
  Proof.
    unfold items. rewrite map_map. revert es. induction vs as [|v vs IH]; intros [|e es] L; cbn [length] in L;
      try discriminate; [reflexivity|]. cbn [combine map]. f_equal. apply IH. lia.
  Qed.

  Lemma items_K_sorted (tg : bool) vs es : Forall2 (has_enc P (if tg then tb else ta)) vs es ->
    asc_keys (if tg then tb else ta) vs -> StronglySorted N.lt (map KK (items tg vs es)).
  Proof.
    intros Hf Hs. assert (E : map KK (items tg vs es) = map (fun k => 2 * k + (if tg then 1 else 0)) (map (kval (if tg then tb else ta)) vs)).
    { rewrite map_map. rewrite <- (items_vals tg vs es (F2_length _ _ _ Hf)) at 2. rewrite map_map.
      apply map_ext_in. intros it Hit. unfold K'. rewrite (items_tag _ _ _ _ Hit).
      pose proof (proj1 (Forall_forall _ _) (items_iok tg vs es Hf) it Hit) as Hok.
      rewrite (kvi_kval it Hok), (items_tag _ _ _ _ Hit). reflexivity. }
    rewrite E. unfold asc_keys in Hs. clear E Hf. induction Hs as [|a l _ IH Hall]; cbn [map]; constructor; [exact IH|].
    rewrite Forall_map. rewrite Forall_forall in *. intros b Hb. specialize (Hall b Hb). lia.
  Qed.

  Lemma items_length tg vs es : length vs = length es -> length (items tg vs es) = length es.
  Proof. intro L. unfold items. rewrite map_length, combine_length, L. apply Nat.min_id. Qed.

  Lemma filter_tag (tg : bool) l : Forall (fun it => itag it = tg) l ->
    filter (fun it => negb (itag it)) l = if tg then [] else l.
  Proof. induction 1 as [|it l Hit _ IH]; cbn [filter]; [now destruct tg|]. rewrite Hit, IH. now destruct tg. Qed.

  Theorem merged_items xs ys ea eb (o : pobs) bitonic num_empty sorted o' :
    Forall2 (has_enc P ta) xs ea -> Forall2 (has_enc P tb) ys eb -> asc_keys ta xs -> asc_keys tb ys ->
    bitonic_input tops (concat ea) (concat eb) eba (length ea) ebb (length eb) jts = Ok (bitonic, num_empty) ->
    o_merger tops (S jts) true bitonic o = Ok (sorted, o') ->
    o' = o /\ exists M, skipn num_empty sorted = map mkB M /\
      Permutation (items false xs ea ++ items true ys eb) M /\ Forall iok M /\ SSK KK M /\
      filter (fun it => negb (itag it)) M = items false xs ea.
  Proof.
    intros Hxa Hyb Sx Sy Hbi Hm.
    set (A0 := items false xs ea). set (B0 := items true ys eb).
    pose proof (items_iok false xs ea Hxa) as OkA. pose proof (items_iok true ys eb Hyb) as OkB. fold A0 B0 in OkA, OkB.
    pose proof (F2_length _ _ _ Hxa) as Lxa. pose proof (F2_length _ _ _ Hyb) as Lyb.
    pose proof (items_K_sorted false xs ea Hxa Sx) as SA. pose proof (items_K_sorted true ys eb Hyb Sy) as SB.
    fold A0 B0 in SA, SB.
    rewrite (bitonic_input_mkb eba ebb jts Ja Jb ea eb (F2_has_enc_all_len P ta xs ea Fa Hxa)
               (F2_has_enc_all_len P tb ys eb Fb Hyb)) in Hbi. injection Hbi as <- <-.
    rewrite map_rev, <- (items_mkb false xs ea Lxa), <- (items_mkb true ys eb Lyb), <- map_rev in Hm. fold A0 B0 in Hm.
    destruct (merged_gen eba ebb jts Ja Jb A0 B0 _ _ o sorted o' (Forall_impl _ iok_ilen OkA) (Forall_impl _ iok_ilen OkB)
                (items_length false xs ea Lxa) (items_length true ys eb Lyb) (SS_lt_le _ SA) (SS_lt_le _ SB) Hm)
      as (-> & M & EM & PM & _ & SM).
    split; [reflexivity|]. exists M. split; [exact EM|]. split; [exact PM|].
    split; [eapply Permutation_Forall; [exact PM|apply Forall_app; split; assumption]|].
    assert (TA : Forall (fun it => itag it = false) A0) by (apply Forall_forall; intros it Hit; exact (items_tag _ _ _ _ Hit)).
    assert (TB : Forall (fun it => itag it = true) B0) by (apply Forall_forall; intros it Hit; exact (items_tag _ _ _ _ Hit)).
    assert (SSM : SSK KK M).
    { apply SSK_of_nodup; [exact SM|].
      apply (Permutation_NoDup (Permutation_map KK PM)). rewrite map_app. apply NoDup_app_intro.
      - apply SS_lt_NoDup, SA.
      - apply SS_lt_NoDup, SB.
      - (* an element of a and an element of b differ in the tag bit *)
        intros n Ha Hb. apply in_map_iff in Ha. destruct Ha as (ia & <- & Hia). apply in_map_iff in Hb. destruct Hb as (ib & Eb & Hib).
        unfold K' in Eb. rewrite (proj1 (Forall_forall _ _) TA ia Hia), (proj1 (Forall_forall _ _) TB ib Hib) in Eb. lia. }
    split; [exact SSM|].
    apply SSK_unique with (K := KK).
    - apply SSK_filter. exact SSM.
    - apply SS_map. exact SA.
    - eapply Permutation_trans; [apply Permutation_sym, Permutation_filter; exact PM|].
      rewrite filter_app, (filter_tag false A0 TA), (filter_tag true B0 TB), app_nil_r. reflexivity.
  Qed.
End Merged.

(* ================================================================ the loop over the windows *)

Lemma firstn_rsz_full eba ebb e n : length e = n -> (n <= Nat.max eba ebb)%nat -> firstn n (rsz eba ebb e) = e.
Proof. intros <- H. rewrite (rsz_eq eba ebb e H). apply firstn_app_exact. reflexivity. Qed.

(* The loop is a node for any relation [rel] between source and circuit environments (at the
   typing context of the loop) that is used through: well-formedness of the circuit side, and
   agreement of ONE iteration -- pattern on the pair under a pushed scope, body, pop. *)
Definition expr_agrees (P : program) (rel : Sem.env -> @cenv bool -> Prop) (f : nat) (e : expr) : Prop :=
  forall en E fT w E' o', rel en E -> lower_expr tops fT P e E None = Ok ((w, E'), o') ->
  match Sem.eval f P en e with
  | Sem.Done (v, en') => o' = None /\ VRa P (e_ty e) v w /\ rel en' E'
  | Sem.Panicked r m => o' = Some (pcode r m)
  | _ => True
  end.

Definition iter_agrees (P : program) (rel : Sem.env -> @cenv bool -> Prop) (f : nat)
    (p : pattern) (body : list stmt) (t : ty) : Prop :=
  forall en E fT v mw c E1 o1 E2 ob E3, rel en E -> has_enc P t v mw ->
  lower_pattern tops fT P p mw (env_push E) None = Ok ((c, E1), o1) ->
  lower_stmts (lower_stmt tops fT P) body E1 o1 = Ok (E2, ob) -> env_pop E2 = Ok E3 ->
  match Sem.pmatch P p v with
  | Some bs =>
      match Sem.exec_block f P (Sem.bind_all (Sem.push_scope en) bs) body with
      | Sem.Done (_, en1) => ob = None /\ rel (Sem.pop_scope en1) E3
      | Sem.Panicked r m => ob = Some (pcode r m)
      | _ => True
      end
  | None => True
  end.

Section Join.
  Variable P : program.
  Variables join_ty ta tb : ty.
  Let jts := szn P join_ty.
  Let eba := szn P ta.
  Let ebb := szn P tb.
  Hypothesis Fa : ty_fits P ta.
  Hypothesis Fb : ty_fits P tb.
  Hypothesis Ja : (jts <= eba)%nat.
  Hypothesis Jb : (jts <= ebb)%nat.

  Notation mkB := (mkb eba ebb jts).
  Notation KK := (K' jts).
  Notation iOk := (iok P ta tb).

  (* Sem.v's search for the partner of an element with key bits [kx] *)
  Definition pfind (ys : list Sem.value) (kx : list bool) : option Sem.value :=
    find (fun y => match Sem.join_key P join_ty tb y with Some ky => Sem.bits_eqb kx ky | None => false end) ys.

  (* what the loop needs to know about the merged vector: a window is "joined" exactly when its
     first entry is an element of a whose partner is the second entry; an element of a in a
     window that is not joined (or at the end) has no partner *)
  Fixpoint WOK (ys : list Sem.value) (M : list item) : Prop :=
    match M with
    | [] => True
    | h :: r =>
        match r with
        | w :: _ =>
            if jbit jts h w
            then itag h = false /\ itag w = true /\ pfind ys (kbits jts h) = Some (ival w)
            else itag h = false -> pfind ys (kbits jts h) = None
        | [] => itag h = false -> pfind ys (kbits jts h) = None
        end /\ WOK ys r
    end.

  Definition avals (M : list item) : list Sem.value := map ival (filter (fun it => negb (itag it)) M).

  (* ---- the merged vector has that property *)

  Lemma iok_len it : iOk it -> length (kbits jts it) = jts.
  Proof. intro H. exact (kbits_len eba ebb jts it (iok_ilen P join_ty ta tb Fa Fb Ja Jb it H)). Qed.

  Lemma K'_def it : KK it = 2 * kvi jts it + (if itag it then 1 else 0).
  Proof. reflexivity. Qed.

  Lemma find_unique {A} (f : A -> bool) l y : In y l -> f y = true ->
    (forall y', In y' l -> f y' = true -> y' = y) -> find f l = Some y.
  Proof.
    intros Hy Hf Hu. destruct (find f l) as [y'|] eqn:E.
    - apply find_some in E. destruct E as [H1 H2]. f_equal. now apply Hu.
    - rewrite (find_none _ _ E y Hy) in Hf. discriminate.
  Qed.

  Lemma WOK_sorted xs ys ea eb M :
    Forall2 (has_enc P tb) ys eb -> asc_keys P join_ty tb ys ->
    Permutation (items false xs ea ++ items true ys eb) M -> Forall iOk M -> SSK KK M -> WOK ys M.
  Proof.
    intros Hyb Sy PM OkM SM. rewrite Forall_forall in OkM.
    (* a b-element of M is an element of ys *)
    assert (InB : forall w, In w M -> itag w = true -> In (ival w) ys /\ has_enc P tb (ival w) (ienc w)).
    { intros w Hw Tw. pose proof (OkM w Hw) as Hok. unfold iok in Hok. rewrite Tw in Hok. split; [|exact Hok].
      apply (Permutation_in _ (Permutation_sym PM)) in Hw. apply in_app_or in Hw. destruct Hw as [Hw|Hw].
      - rewrite (items_tag _ _ _ _ Hw) in Tw. discriminate.
      - unfold items in Hw. apply in_map_iff in Hw.
        destruct Hw as ([y e] & <- & Hin). cbn [ival fst snd]. exact (in_combine_l _ _ _ _ Hin). }
    (* every element of ys is in M *)
    assert (InY : forall y, In y ys -> exists e, In (true, y, e) M /\ has_enc P tb y e).
    { intros y Hy. destruct (Forall2_In_combine _ _ _ y Hyb Hy) as (e & He & Hye). exists e. split; [|exact Hye].
      apply (Permutation_in _ PM). apply in_or_app. right. unfold items.
      apply in_map_iff. exists (y, e). split; [reflexivity|exact He]. }
    (* the key of an element of ys determines it *)
    assert (Uy : forall y y', In y ys -> In y' ys -> kval P join_ty tb y = kval P join_ty tb y' -> y = y').
    { intros y y' Hy Hy' E. apply (SSK_inj (kval P join_ty tb) ys); auto. apply SS_map. exact Sy. }
    (* the search of Sem.v, for an element h of M *)
    assert (Pfound : forall h w, iOk h -> In w M -> itag w = true -> kbits jts w = kbits jts h ->
              pfind ys (kbits jts h) = Some (ival w)).
    { intros h w Hh Hw Tw Ek. destruct (InB w Hw Tw) as [Hin Henc].
      assert (Jw : Sem.join_key P join_ty tb (ival w) = Some (kbits jts w)) by (apply (join_key_enc P join_ty tb _ _ Fb Henc)).
      unfold pfind. apply find_unique; [exact Hin| |].
      - rewrite Jw, <- Ek. apply bits_eqb_iff. reflexivity.
      - intros y' Hy' Hf. destruct (InY y' Hy') as (e' & _ & He').
        rewrite (join_key_enc P join_ty tb _ _ Fb He') in Hf. apply bits_eqb_iff in Hf.
        apply Uy; [exact Hy'|exact Hin|]. unfold kval. rewrite (join_key_enc P join_ty tb _ _ Fb He'), Jw, <- Hf, Ek. reflexivity. }
    assert (Pnone : forall pre h suf, M = pre ++ h :: suf -> itag h = false ->
              (forall w suf', suf = w :: suf' -> jbit jts h w = false) -> pfind ys (kbits jts h) = None).
    { intros pre h suf EM Th Hj. destruct (pfind ys (kbits jts h)) as [y|] eqn:E; [exfalso|reflexivity].
      unfold pfind in E. apply find_some in E. destruct E as [Hy Hf]. destruct (InY y Hy) as (e & Hin & He).
      rewrite (join_key_enc P join_ty tb _ _ Fb He) in Hf. apply bits_eqb_iff in Hf.
      assert (Hh : In h M) by (rewrite EM; apply in_or_app; right; now left).
      rewrite EM in SM, Hin.
      destruct (partner_is_next KK itag (kvi jts) K'_def pre h suf (true, y, e) SM Th Hin eq_refl) as (suf' & Es).
      { unfold kvi. rewrite Hf. reflexivity. }
      specialize (Hj _ _ Es). unfold jbit in Hj. rewrite Th in Hj. cbn [itag fst xorb] in Hj. rewrite andb_true_r in Hj.
      assert (Et : eq_s (kbits jts h) (kbits jts (true, y, e)) = true).
      { apply eq_s_true_iff; [|rewrite Hf; reflexivity].
        rewrite (iok_len h (OkM h Hh)). symmetry. apply iok_len. apply OkM. rewrite EM. exact Hin. }
      congruence. }
    (* induction over the suffixes *)
    assert (G : forall suf pre, M = pre ++ suf -> WOK ys suf).
    { induction suf as [|h r IH]; intros pre EM; [exact I|]. cbn [WOK]. split.
      2:{ apply (IH (pre ++ [h])). rewrite <- app_assoc. exact EM. }
      assert (Hh : In h M) by (rewrite EM; apply in_or_app; right; now left).
      destruct r as [|w r'].
      - intro Th. apply (Pnone pre h [] EM Th). intros w suf' Hc. discriminate Hc.
      - assert (Hw : In w M) by (rewrite EM; apply in_or_app; right; right; now left).
        destruct (jbit jts h w) eqn:Ej.
        + unfold jbit in Ej. apply andb_prop in Ej. destruct Ej as [E1 E2].
          apply eq_s_true_iff in E1; [|rewrite (iok_len h (OkM h Hh)), (iok_len w (OkM w Hw)); reflexivity].
          rewrite EM in SM. destruct (SSK_app_inv KK _ _ SM) as [Ss _].
          destruct (adjacent_same_key KK itag (kvi jts) K'_def h w r' Ss) as [Th Tw]; [unfold kvi; now rewrite E1|].
          split; [exact Th|]. split; [exact Tw|]. apply Pfound; auto.
        + intro Th. apply (Pnone pre h (w :: r') EM Th). intros w0 suf' Hc. injection Hc as <- <-. exact Ej. }
    exact (G M [] eq_refl).
  Qed.

  (* ---- the windows loop against Sem.v's loop *)

  (* agreement of the loop pattern (instances: TSemSemAgg.pat_agrees, gpat_agrees) *)
  Definition PA (p : pattern) (t : ty) (bs : list (N * ty)) : Prop :=
    forall v mw en E g fT c E' (o o' : pobs), has_enc P t v mw -> ty_fits P t -> env_rel3 (VRa P) en E g ->
    lower_pattern tops fT P p mw E o = Ok ((c, E'), o') ->
    o' = o /\ SKP E E' /\ pat_concl P g bs en E' c (Sem.pmatch P p v).

  (* one step of the loop of Sem.exec for SJoinLoop (Lang/SemUnfold.v [x_join]) *)
  Lemma x_join_cons xb p body ys x r en :
    SemUnfold.x_join P xb p body join_ty ta tb ys (x :: r) en =
    match Sem.join_key P join_ty ta x with
    | None => Sem.Stuck 75
    | Some kx =>
        match pfind ys kx with
        | None => SemUnfold.x_join P xb p body join_ty ta tb ys r en
        | Some y =>
            match Sem.pmatch P p (Sem.VTup [x; y]) with
            | Some bs =>
                Sem.obind (xb (Sem.bind_all (Sem.push_scope en) bs) body)
                  (fun '(_, en1) => SemUnfold.x_join P xb p body join_ty ta tb ys r (Sem.pop_scope en1))
            | None => Sem.Stuck 76
            end
        end
    end.
  Proof. reflexivity. Qed.

  Lemma avals_cons h r : avals (h :: r) = if itag h then avals r else ival h :: avals r.
  Proof. unfold avals. cbn [filter]. destruct (itag h); reflexivity. Qed.

  Section Windows.
  Variable rel : Sem.env -> @cenv bool -> Prop.
  Variables (f : nat) (p : pattern) (body : list stmt).
  Hypothesis rel_wf : forall en E, rel en E -> wf_env E.
  Hypothesis iter_ok : iter_agrees P rel f p body (TTup [ta; tb]).

  Lemma join_windows_agree ys : forall M, Forall iOk M -> WOK ys M ->
    forall en E fT E' o', rel en E ->
    join_loop_windows tops (lower_pattern tops fT P) (lower_stmt tops fT P) p body eba ebb jts (map mkB M) E None
      = Ok (E', o') ->
    match SemUnfold.x_join P (Sem.exec_block f P) p body join_ty ta tb ys (avals M) en with
    | Sem.Done en' => o' = None /\ rel en' E'
    | Sem.Panicked r m => o' = Some (pcode r m)
    | _ => True
    end.
  Proof.
    induction M as [|h r IH]; intros OkM Hw en E fT E' o' Hrel Hrun.
    { cbn [map join_loop_windows] in Hrun. apply ret_inv in Hrun. destruct Hrun as [-> ->]. cbn. auto. }
    inversion OkM as [|h0 r0 Okh Okr]; subst h0 r0. cbn [WOK] in Hw. destruct Hw as [Hwh Hwr].
    pose proof (iok_ilen P join_ty ta tb Fa Fb Ja Jb h Okh) as Lh.
    assert (Jh : Sem.join_key P join_ty ta (ival h) = Some (kbits jts h) \/ itag h = true).
    { destruct (itag h) eqn:Th; [now right|left]. unfold iok in Okh. rewrite Th in Okh.
      exact (join_key_enc P join_ty ta _ _ Fa Okh). }
    destruct r as [|w r'].
    { (* the last entry: no window *)
      cbn [map join_loop_windows] in Hrun. apply ret_inv in Hrun. destruct Hrun as [-> ->].
      rewrite avals_cons. destruct (itag h) eqn:Th; [cbn; auto|].
      destruct Jh as [Jh|Jh]; [|discriminate]. rewrite x_join_cons, Jh, (Hwh eq_refl). cbn. auto. }
    inversion Okr as [|w0 r0 Okw Okr']; subst w0 r0.
    pose proof (iok_ilen P join_ty ta tb Fa Fb Ja Jb w Okw) as Lw.
    cbn [map join_loop_windows] in Hrun.
    minva Hrun as [je binding] o0 H0.
    rewrite (window_binding_mkb eba ebb jts h w false true None Lh Lw Ja Jb), app_nil_l in H0. injection H0 as <- <- <-.
    mprim Hrun.
    minva Hrun as [c Ej] o1 Hpat. minva Hrun as Ej2 ob Hb. minva Hrun as Ej3 oc Hc.
    apply lift_res_inv in Hc. destruct Hc as [Hpop ->]. mprim Hrun.
    minva Hrun as E'' od Hmux.
    (* the environment after the window has the keys of the one before *)
    assert (Hkeys : keys Ej3 = keys E).
    { eapply keys_push_pop; [|exact Hpop]. eapply SKP_trans; [exact (proj2 (lower_pattern_facts P fT _ _ _ _ _ _ _ Hpat))|].
      eapply skp_lower_stmts; [|exact Hb]. intros s E0 oo ww E0' oo' Hs. exact (proj1 (proj2 (proj2 (keys_all P fT))) s E0 oo ww E0' oo' Hs). }
    destruct (mux_envs_inv _ _ _ _ _ _ Hmux Hkeys (rel_wf _ _ Hrel)) as [-> ->].
    mprim Hrun. mprim Hrun.
    rewrite avals_cons.
    destruct (jbit jts h w) eqn:Ej'.
    - (* joined: the body runs on (x, y) *)
      destruct Hwh as (Th & Tw & Hpf). rewrite Th. destruct Jh as [Jh|Jh]; [|congruence].
      rewrite x_join_cons, Jh, Hpf.
      unfold iok in Okh, Okw. rewrite Th in Okh. rewrite Tw in Okw.
      assert (Eb : firstn eba (rsz eba ebb (ienc h)) ++ firstn ebb (rsz eba ebb (ienc w)) = ienc h ++ ienc w).
      { destruct Lh as [Lh1 _]. destruct Lw as [Lw1 _]. rewrite Th in Lh1. rewrite Tw in Lw1.
        rewrite (firstn_rsz_full eba ebb (ienc h) eba Lh1), (firstn_rsz_full eba ebb (ienc w) ebb Lw1) by lia. reflexivity. }
      rewrite Eb in Hpat.
      assert (Henc : has_enc P (TTup [ta; tb]) (Sem.VTup [ival h; ival w]) (ienc h ++ ienc w)).
      { constructor. rewrite <- (app_nil_r (ienc w)). repeat constructor; assumption. }
      pose proof (iter_ok en E fT _ _ _ _ _ _ _ _ Hrel Henc Hpat Hb Hpop) as IH1. revert IH1.
      destruct (Sem.pmatch P p (Sem.VTup [ival h; ival w])) as [vbs|]; [|exact (fun _ => I)].
      destruct (Sem.exec_block f P (Sem.bind_all (Sem.push_scope en) vbs) body)
        as [[vb en1]|r1 m1|c1|]; intro IH1; cbn [Sem.obind]; try exact I.
      + destruct IH1 as [-> Hrelc]. exact (IH Okr Hwr _ _ fT _ _ Hrelc Hrun).
      + subst ob. exact (stkx_join_loop_windows (pcode r1 m1) _ _ (stk_pat P _ fT) (stk_stmt P _ fT) p body eba ebb jts
                 (map mkB (w :: r')) Ej3 E' o' Hrun).
    - (* not joined: nothing happens *)
      destruct (itag h) eqn:Th.
      + exact (IH Okr Hwr _ _ fT _ _ Hrel Hrun).
      + destruct Jh as [Jh|Jh]; [|discriminate]. rewrite x_join_cons, Jh, (Hwh eq_refl).
        exact (IH Okr Hwr _ _ fT _ _ Hrel Hrun).
  Qed.
  End Windows.
End Join.

(* ================================================================ the node *)

Section NodeRel.
  Variable P : program.
  Variable rel : Sem.env -> @cenv bool -> Prop.
  Hypothesis rel_wf : forall en E, rel en E -> wf_env E.

  (* the precondition is asked at the one environment [en] of the run *)
  Theorem join_loop_node_rel f p join_ty a b body m ta na tb nb en :
    expr_agrees P rel (S f) a -> expr_agrees P rel (S f) b -> e_ty a = TArr ta na -> e_ty b = TArr tb nb ->
    (szn P join_ty <= szn P ta)%nat -> (szn P join_ty <= szn P tb)%nat ->
    iter_agrees P rel (S f) p body (TTup [ta; tb]) ->
    (forall xs en1 ys en2,
       Sem.eval (S f) P en a = Sem.Done (Sem.VArr xs, en1) -> Sem.eval (S f) P en1 b = Sem.Done (Sem.VArr ys, en2) ->
       asc_keys P join_ty ta xs /\ asc_keys P join_ty tb ys) ->
    forall E fT w E' o', rel en E ->
    lower_stmt tops fT P (St (SJoinLoop p join_ty a b body) m) E None = Ok ((w, E'), o') ->
    match Sem.exec (S (S f)) P en (St (SJoinLoop p join_ty a b body) m) with
    | Sem.Done (v, en') => o' = None /\ VRa P unit_ty v w /\ rel en' E'
    | Sem.Panicked r m' => o' = Some (pcode r m')
    | _ => True
    end.
  Proof.
    intros IHa IHb Eta Etb Ja Jb Hiter Hasc E fT w E' o' Hrel Hrun.
    destruct fT as [|fT]; [discriminate Hrun|].
    rewrite lower_stmt_S in Hrun. cbn [lower_stmt_body] in Hrun. rewrite Eta, Etb in Hrun. cbn [array_size] in Hrun.
    minva Hrun as [eba0 na0] o0 H0. apply lift_res_inv in H0. destruct H0 as [H0 ->]. injection H0 as <- <-.
    minva Hrun as [ebb0 nb0] o0 H0. apply lift_res_inv in H0. destruct H0 as [H0 ->]. injection H0 as <- <-.
    minva Hrun as [aw E1] o1 H1. minva Hrun as [bw E2] o2 H2.
    minva Hrun as [bitonic num_empty] o3 H3. apply lift_res_inv in H3. destruct H3 as [H3 ->].
    minva Hrun as sorted o4 H4. minva Hrun as E3 o5 H5.
    apply ret_inv in Hrun. destruct Hrun as [Heq ->]. injection Heq as -> ->.
    rewrite SemUnfold.exec_eq. cbv beta iota zeta. rewrite Eta, Etb. cbn [Sem.elem_ty_of].
    pose proof (IHa en E fT _ _ _ Hrel H1) as IH1. revert IH1.
    destruct (Sem.eval (S f) P en a) as [[va en1]|r1 m1|c1|]; intro IH1; cbn [Sem.obind]; try exact I.
    2:{ (* a panicked *)
        subst o1. apply (sticky_e P) in H2. subst o2.
        cbn [o_merger tops] in H4. destruct (elems_shape _ _); [|discriminate]. injection H4 as _ <-.
        exact (stkx_join_loop_windows _ _ _ (stk_pat P _ fT) (stk_stmt P _ fT) p body _ _ _ _ _ _ _ H5). }
    destruct IH1 as (-> & [HVa Hfa] & Hrel1). rewrite Eta in HVa, Hfa.
    pose proof (IHb en1 E1 fT _ _ _ Hrel1 H2) as IH2. revert IH2.
    destruct (Sem.eval (S f) P en1 b) as [[vb en2]|r2 m2|c2|] eqn:Evb; intro IH2; cbn [Sem.obind]; try exact I.
    2:{ (* b panicked *)
        subst o2. cbn [o_merger tops] in H4. destruct (elems_shape _ _); [|discriminate]. injection H4 as _ <-.
        exact (stkx_join_loop_windows _ _ _ (stk_pat P _ fT) (stk_stmt P _ fT) p body _ _ _ _ _ _ _ H5). }
    destruct IH2 as (-> & [HVb Hfb] & Hrel2). rewrite Etb in HVb, Hfb.
    pose proof HVa as HVa'. apply has_enc_inv in HVa' as (xs & -> & _ & _).
    pose proof HVb as HVb'. apply has_enc_inv in HVb' as (ys & -> & _ & _).
    destruct (has_enc_array_elems P ta na xs aw HVa Hfa) as (ea & -> & Hxa & _ & Hla & _).
    destruct (has_enc_array_elems P tb nb ys bw HVb Hfb) as (eb & -> & Hyb & _ & Hlb & _).
    rewrite <- Hla, <- Hlb in H3.
    destruct (Hasc xs en1 ys en2 eq_refl Evb) as [Sx Sy].
    pose proof (ty_fits_arr P ta na Hfa) as Fa. pose proof (ty_fits_arr P tb nb Hfb) as Fb.
    destruct (merged_items P join_ty ta tb Fa Fb Ja Jb xs ys ea eb None bitonic num_empty sorted o4 Hxa Hyb Sx Sy H3 H4)
      as (-> & M & EM & PM & OkM & SM & EA).
    rewrite EM in H5.
    pose proof (WOK_sorted P join_ty ta tb Fa Fb Ja Jb xs ys ea eb M Hyb Sy PM OkM SM) as HW.
    pose proof (join_windows_agree P join_ty ta tb Fa Fb Ja Jb rel (S f) p body rel_wf Hiter ys M OkM HW
                  en2 E2 fT _ _ Hrel2 H5) as IH3.
    assert (Eav : avals M = xs).
    { unfold avals. rewrite EA. apply (items_vals P join_ty ta tb Ja Jb). exact (F2_length _ _ _ Hxa). }
    rewrite Eav in IH3. revert IH3.
    destruct (SemUnfold.x_join P (Sem.exec_block (S f) P) p body join_ty ta tb ys xs en2) as [en3|r3 m3|c3|];
      intro IH3; cbn [Sem.obind]; try exact I; [|exact IH3].
    destruct IH3 as (-> & Hrel3). split; [reflexivity|]. split; [exact (VRa_unit P)|exact Hrel3].
  Qed.
End NodeRel.

Section Node.
  Variable P : program.
  Notation AgE' := (AgE P (VRa P)).
  Notation AgS' := (AgS P (VRa P)).
  Notation rel := (env_rel3 (VRa P)).

  Lemma iter_rel3 f g p bs body g1 tbody t :
    PA P p t bs -> ty_fits P t -> AgSS P (VRa P) f (tbind_all ([] :: g) bs false) body unit_ty g1 tbody -> tl g1 = g ->
    iter_agrees P (fun en E => rel en E g) (S f) p body t.
  Proof.
    intros Hpa Ft Hbody Htl en E fT v mw c E1 o1 E2 ob E3 Hrel Henc Hpat Hb Hpop.
    destruct (Hpa _ _ _ _ _ _ _ _ _ _ Henc Ft (rel_push (VRa P) _ _ _ Hrel) Hpat) as (-> & _ & Hpc).
    destruct (Sem.pmatch P p v) as [vbs|]; [|exact I]. destruct Hpc as [_ Hrela]. rewrite exec_block_S.
    destruct (lower_stmts_block _ body [] _ _ _ _ Hb) as (wb & Hb').
    pose proof (stmts_node P (VRa P) f _ _ _ _ _ Hbody _ _ fT Sem.unit_val [] _ _ _ Hrela (VRa_unit P) Hb') as IH1.
    revert IH1. destruct (sem_stmts P f body Sem.unit_val (Sem.bind_all (Sem.push_scope en) vbs))
      as [[vb en1]|r1 m1|c1|]; auto.
    intros (-> & _ & Hrel1). split; [reflexivity|]. rewrite <- Htl. eapply rel_pop; eassumption.
  Qed.

  Theorem join_loop_node_at f g p bs join_ty a b body m ta na tb nb g1 tbody en :
    AgE' (S f) g a -> AgE' (S f) g b -> e_ty a = TArr ta na -> e_ty b = TArr tb nb ->
    (szn P join_ty <= szn P ta)%nat -> (szn P join_ty <= szn P tb)%nat ->
    PA P p (TTup [ta; tb]) bs -> ty_fits P (TTup [ta; tb]) ->
    AgSS P (VRa P) f (tbind_all ([] :: g) bs false) body unit_ty g1 tbody -> tl g1 = g ->
    (forall xs en1 ys en2,
       Sem.eval (S f) P en a = Sem.Done (Sem.VArr xs, en1) -> Sem.eval (S f) P en1 b = Sem.Done (Sem.VArr ys, en2) ->
       asc_keys P join_ty ta xs /\ asc_keys P join_ty tb ys) ->
    forall E fT w E' o', rel en E g ->
    lower_stmt tops fT P (St (SJoinLoop p join_ty a b body) m) E None = Ok ((w, E'), o') ->
    match Sem.exec (S (S f)) P en (St (SJoinLoop p join_ty a b body) m) with
    | Sem.Done (v, en') => o' = None /\ VRa P unit_ty v w /\ rel en' E' g
    | Sem.Panicked r m' => o' = Some (pcode r m')
    | _ => True
    end.
  Proof.
    intros IHa IHb Eta Etb Ja Jb Hpa Ftup Hbody Htl.
    exact (join_loop_node_rel P (fun en E => rel en E g) (fun en E => rel_wf (VRa P) en E g) f p join_ty a b body m
             ta na tb nb en IHa IHb Eta Etb Ja Jb (iter_rel3 f g p bs body g1 tbody _ Hpa Ftup Hbody Htl)).
  Qed.

  (* the for-join loop, for any pattern whose lowering agrees with Sem.pmatch *)
  Theorem join_loop_node_gen f g p bs join_ty a b body m ta na tb nb g1 tbody :
    AgE' (S f) g a -> AgE' (S f) g b -> e_ty a = TArr ta na -> e_ty b = TArr tb nb ->
    (szn P join_ty <= szn P ta)%nat -> (szn P join_ty <= szn P tb)%nat ->
    PA P p (TTup [ta; tb]) bs -> ty_fits P (TTup [ta; tb]) ->
    AgSS P (VRa P) f (tbind_all ([] :: g) bs false) body unit_ty g1 tbody -> tl g1 = g ->
    (forall en xs en1 ys en2,
       Sem.eval (S f) P en a = Sem.Done (Sem.VArr xs, en1) -> Sem.eval (S f) P en1 b = Sem.Done (Sem.VArr ys, en2) ->
       asc_keys P join_ty ta xs /\ asc_keys P join_ty tb ys) ->
    AgS' (S (S f)) g g unit_ty (St (SJoinLoop p join_ty a b body) m).
  Proof.
    intros IHa IHb Eta Etb Ja Jb Hpa Ftup Hbody Htl Hasc en.
    exact (join_loop_node_at f g p bs join_ty a b body m ta na tb nb g1 tbody en IHa IHb Eta Etb Ja Jb Hpa Ftup Hbody Htl (Hasc en)).
  Qed.

  (* irrefutable patterns (TSemSemAgg section 7) *)
  Theorem join_loop_node f g p bs join_ty a b body m ta na tb nb g1 tbody :
    AgE' (S f) g a -> AgE' (S f) g b -> e_ty a = TArr ta na -> e_ty b = TArr tb nb ->
    (szn P join_ty <= szn P ta)%nat -> (szn P join_ty <= szn P tb)%nat ->
    pat_ok P p (TTup [ta; tb]) bs -> ty_fits P (TTup [ta; tb]) ->
    AgSS P (VRa P) f (tbind_all ([] :: g) bs false) body unit_ty g1 tbody -> tl g1 = g ->
    (forall en xs en1 ys en2,
       Sem.eval (S f) P en a = Sem.Done (Sem.VArr xs, en1) -> Sem.eval (S f) P en1 b = Sem.Done (Sem.VArr ys, en2) ->
       asc_keys P join_ty ta xs /\ asc_keys P join_ty tb ys) ->
    AgS' (S (S f)) g g unit_ty (St (SJoinLoop p join_ty a b body) m).
  Proof.
    intros IHa IHb Eta Etb Ja Jb Hp. apply (join_loop_node_gen f g p bs join_ty a b body m ta na tb nb g1 tbody); try assumption.
    intros v mw en E g0 fT c E' o o' HV Hfit Hrel Hrun.
    destruct (pat_agrees P p _ bs Hp v mw en E g0 fT c E' o o' HV Hfit Hrel Hrun) as (vbs & Hpm & -> & -> & Hr).
    split; [reflexivity|]. split; [exact (proj2 (lower_pattern_facts P fT _ _ _ _ _ _ _ Hrun))|].
    rewrite Hpm. split; [reflexivity|exact Hr].
  Qed.

  (* every pattern (TSemSemAgg section 8; refutable patterns make Sem.v stuck when they fail) *)
  Theorem join_loop_node_gpat f g p bs join_ty a b body m ta na tb nb g1 tbody :
    enums_small P = true ->
    AgE' (S f) g a -> AgE' (S f) g b -> e_ty a = TArr ta na -> e_ty b = TArr tb nb ->
    (szn P join_ty <= szn P ta)%nat -> (szn P join_ty <= szn P tb)%nat ->
    gpat_ok P p (TTup [ta; tb]) bs -> ty_fits P (TTup [ta; tb]) ->
    AgSS P (VRa P) f (tbind_all ([] :: g) bs false) body unit_ty g1 tbody -> tl g1 = g ->
    (forall en xs en1 ys en2,
       Sem.eval (S f) P en a = Sem.Done (Sem.VArr xs, en1) -> Sem.eval (S f) P en1 b = Sem.Done (Sem.VArr ys, en2) ->
       asc_keys P join_ty ta xs /\ asc_keys P join_ty tb ys) ->
    AgS' (S (S f)) g g unit_ty (St (SJoinLoop p join_ty a b body) m).
  Proof.
    intros Hes IHa IHb Eta Etb Ja Jb Hp. apply (join_loop_node_gen f g p bs join_ty a b body m ta na tb nb g1 tbody); try assumption.
    intros v mw en E g0 fT c E' o o' HV Hfit Hrel Hrun.
    exact (gpat_agrees P Hes p _ bs Hp v mw en E g0 fT c E' o o' HV Hfit Hrel Hrun).
  Qed.
End Node.

Print Assumptions join_loop_node.
Print Assumptions join_loop_node_gpat.
Print Assumptions merged_items.
Print Assumptions join_windows_agree.

(* ================================================================ non-vacuity: both sides, run *)

Module JoinExamples.
  Definition m0 : meta := mkMeta 0 0 0 0.
  Definition u8 := TInt false 8.
  Definition el := TTup [u8; u8].
  Definition lit8 (n : N) : expr := Ex (ENumU n 8) m0 u8.
  Definition tupl (k p : N) : expr := Ex (ETupLit [lit8 k; lit8 p]) m0 el.
  Definition arr (l : list (N * N)) : expr :=
    Ex (EArrLit (map (fun kp => tupl (fst kp) (snd kp)) l)) m0 (TArr el (N.of_nat (length l))).
  Definition pid (x : N) : pattern := Pat (PId x) m0 u8.
  Definition jpat : pattern :=
    Pat (PTup [Pat (PTup [pid 11; pid 12]) m0 el; Pat (PTup [pid 13; pid 14]) m0 el]) m0 (TTup [el; el]).
  Definition st (s : stmt_inner) : stmt := St s m0.
  (* let mut s = 0; let mut t = 0;
     for ((k1, p1), (k2, p2)) in join(a, b) { s = s + p1; t = p2; }
     (s, t)            with elements (key, payload) : (u8, u8) and join key type u8 *)
  Definition body (la lb : list (N * N)) : list stmt :=
    [ st (SLetMut 1 (lit8 0)); st (SLetMut 2 (lit8 0));
      st (SJoinLoop jpat u8 (arr la) (arr lb)
            [st (SAssign 1 [] (Ex (EOp OAdd (Ex (EId 1) m0 u8) (Ex (EId 12) m0 u8)) m0 u8));
             st (SAssign 2 [] (Ex (EId 14) m0 u8))]);
      st (SExpr (Ex (ETupLit [Ex (EId 1) m0 u8; Ex (EId 2) m0 u8]) m0 el)) ].
  Definition P0 : program := mkProgram [] [] [] [] 0.
  Definition bit_run (la lb : list (N * N)) : option (list bool * pobs) :=
    match lower_block tops 30 P0 (body la lb) [[]] None with Ok ((w, _), o) => Some (w, o) | _ => None end.
  Definition sem_run (la lb : list (N * N)) : option Sem.value :=
    match Sem.exec_block 30 P0 (Sem.mkEnv [[]] false) (body la lb) with Sem.Done (v, _) => Some v | _ => None end.
  Definition enc2 (s t : Z) : list bool := enc 8 s ++ enc 8 t.

  (* both arrays strictly ascending; a has an element with key 0 (next to the three padding
     elements: 5 elements padded to 8) whose payload 7 is kept: s = 7 + 9, t = 2 on both sides *)
  Example join_sorted :
    bit_run [(0, 7); (3, 9)] [(0, 1); (2, 5); (3, 2)] = Some (enc2 16 2, None) /\
    sem_run [(0, 7); (3, 9)] [(0, 1); (2, 5); (3, 2)] = Some (Sem.VTup [Sem.VInt 16; Sem.VInt 2]).
  Proof. vm_compute. split; reflexivity. Qed.

  (* the precondition is needed: a not ascending -- the two sides differ *)
  Example join_unsorted_differs :
    bit_run [(3, 9); (0, 7)] [(0, 1); (2, 5); (3, 2)] = Some (enc2 1 7, None) /\
    sem_run [(3, 9); (0, 7)] [(0, 1); (2, 5); (3, 2)] = Some (Sem.VTup [Sem.VInt 16; Sem.VInt 1]).
  Proof. vm_compute. split; reflexivity. Qed.

  (* ... and STRICTLY: a key twice in a -- the two sides differ *)
  Example join_duplicate_key_differs :
    bit_run [(3, 9); (3, 7)] [(0, 1); (2, 5); (3, 2)] = Some (enc2 7 2, None) /\
    sem_run [(3, 9); (3, 7)] [(0, 1); (2, 5); (3, 2)] = Some (Sem.VTup [Sem.VInt 16; Sem.VInt 2]).
  Proof. vm_compute. split; reflexivity. Qed.
End JoinExamples.
