(* Agreement of the bit-level semantics with Lang/Sem.v on the product by a small literal,
   `x * c` / `c * x` with 0 < |c| < (bits of the literal's suffix type), which compile.rs does
   not compile as a multiplication: the non-literal operand is lowered ONCE, bound to the
   reserved name [MUL_TMP] in a scope of its own, and the sum  tmp + tmp + ... + tmp  (|c| terms,
   |c| - 1 checked additions, left-associated, every addition with the meta and the type of
   the product node), negated for a negative literal (a checked negation, same meta), is lowered
   in that scope, which is then popped ([Lower.rewrite_one], the [Some (operand, e')] case of
   [lower_expr_body]).

   What the sum computes, for v the value of the operand (in the range of the type):
   - the partial sums v*j (1 <= j <= n = |c|) grow in absolute value, so an addition overflows
     iff v*n is out of range; a positive literal therefore agrees with Sem.v's checked
     product for every v: same value, Overflow at the node's location in the same cases;
   - a negative literal c = -n panics iff v*n is out of range or v*n = MIN (the negation),
     Sem.v iff -(v*n) is out of range: they differ exactly when v*n = 2^(bits-1), which some v in
     range satisfies iff n >= 2 divides 2^(bits-1) (n = 2, 4, ... : `x * -2i8` at x = 64 panics
     although -128 is an i8: the finding const-mul-rewrite-intermediate-overflow).
   [mul_lit_ok b n neg]: the Boolean that excludes exactly these literals ([mul_lit_ok_exact]).

   The reserved name needs NO side condition: the agreement of the operand is used as it is
   (environments related before the binding), the sum only reads the name from the scope it was
   just bound in, and that scope is popped before the environments are related again.

   [mul_lit_nodeG]: the node lemma, for the environment relations of SimNodes.v and any value
   relation that is the scalar encoding on scalar types ([mul_lit_node]: for TSemSemStmt.v's).
   [mul_plain_node]: products with a literal operand for which the rewrite does NOT fire
   (|c| = 0 or |c| >= suffix bits) are ordinary checked multiplications.  [MulFindings]: counterexamples outside [mul_lit_ok]. *)
From Coq Require Import Lia ZArith.
From GV Require Import Base.Util Base.Bits Base.BitsProofs Lang.Ast Lang.Wt Gadgets.Gadgets
  Gadgets.GadgetSpec Panic.PanicRec Panic.PanicSem Compile.Lower
  Compile.TSem Compile.TSemFacts Compile.TSemArith1 Compile.TSemArith2 Compile.TSemControl
  Compile.TSemSemExpr Compile.TSemSticky Compile.TSemSemStmt.
From GV Require Lang.Sem.
Local Open Scope N_scope.

(* ------------------------------------------------------------------ arithmetic *)

(* the multiples of a value in range grow in absolute value *)
Lemma in_range_mul_mono sg b v j j' : Sem.in_range sg b v = true -> (1 <= j <= j')%Z ->
  Sem.in_range sg b (v * j') = true -> Sem.in_range sg b (v * j) = true.
Proof.
  unfold Sem.in_range. intros Hv Hj Hj'. destruct sg.
  - apply andb_prop in Hv as [H1 H2]. apply andb_prop in Hj' as [H3 H4].
    apply Z.leb_le in H1, H3. apply Z.ltb_lt in H2, H4.
    set (H := (2 ^ (Z.of_N b - 1))%Z) in *. clearbody H.
    apply andb_true_intro. split; [apply Z.leb_le|apply Z.ltb_lt]; destruct (Z.le_gt_cases 0 v); nia.
  - apply andb_prop in Hv as [H1 H2]. apply andb_prop in Hj' as [H3 H4].
    apply Z.leb_le in H1, H3. apply Z.ltb_lt in H2, H4.
    set (H := (2 ^ Z.of_N b)%Z) in *. clearbody H.
    apply andb_true_intro. split; [apply Z.leb_le|apply Z.ltb_lt]; nia.
Qed.

(* the literals for which the rewritten product agrees with the checked product for every
   value of the other operand: all positive ones; a negative one -n unless n >= 2 divides
   2^(bits-1) *)
Definition mul_lit_ok (b n : N) (neg : bool) : bool :=
  negb neg || negb ((2 <=? n) && ((2 ^ (Z.of_N b - 1)) mod (Z.of_N n) =? 0)%Z).

(* the only case of disagreement for a negative literal *)
Lemma neg_disagreement b n v : 1 <= n -> Sem.in_range true b v = true ->
  Sem.in_range true b (v * Z.of_N n) = false -> Sem.in_range true b (- (v * Z.of_N n)) = true ->
  mul_lit_ok b n true = false.
Proof.
  unfold Sem.in_range, mul_lit_ok. intros Hn Hv H1 H2. cbn [negb orb]. apply negb_false_iff.
  apply andb_prop in Hv as [Hv1 Hv2]. apply andb_prop in H2 as [H3 H4].
  apply Z.leb_le in Hv1, H3. apply Z.ltb_lt in Hv2, H4.
  assert (v * Z.of_N n = 2 ^ (Z.of_N b - 1))%Z as E.
  { destruct (Z.leb_spec (- 2 ^ (Z.of_N b - 1)) (v * Z.of_N n)); destruct (Z.ltb_spec (v * Z.of_N n) (2 ^ (Z.of_N b - 1)));
      cbn [andb] in H1; try discriminate H1; lia. }
  apply andb_true_intro. split.
  - apply N.leb_le. destruct (N.eq_dec n 1) as [->|]; [|lia]. change (Z.of_N 1) with 1%Z in E. lia.
  - apply Z.eqb_eq. rewrite <- E. apply Z.mod_mul. lia.
Qed.

(* ... and it does occur: outside [mul_lit_ok] some value in range has an out-of-range multiple
   whose opposite is in range *)
Lemma mul_lit_ok_exact b n : 2 <= b -> mul_lit_ok b n true = false ->
  exists v, Sem.in_range true b v = true /\ Sem.in_range true b (v * Z.of_N n) = false /\
            Sem.in_range true b (v * - Z.of_N n) = true.
Proof.
  unfold mul_lit_ok. cbn [negb orb]. intros Hb H. apply negb_false_iff in H. apply andb_prop in H as [H1 H2].
  apply N.leb_le in H1. apply Z.eqb_eq in H2.
  set (Hh := (2 ^ (Z.of_N b - 1))%Z) in *.
  assert (2 <= Hh)%Z as HhP.
  { unfold Hh. replace (Z.of_N b - 1)%Z with (1 + (Z.of_N b - 2))%Z by lia. rewrite Z.pow_add_r by lia.
    assert (0 < 2 ^ (Z.of_N b - 2))%Z by (apply Z.pow_pos_nonneg; lia). lia. }
  apply Z.mod_divide in H2; [|lia]. destruct H2 as [q Hq].
  exists q. unfold Sem.in_range. fold Hh.
  assert (0 < q < Hh)%Z by nia.
  repeat split; apply andb_true_iff || apply andb_false_iff; rewrite ?Z.leb_le, ?Z.ltb_lt, ?Z.leb_gt, ?Z.ltb_ge; nia.
Qed.

(* ------------------------------------------------------------------ the run of the sum *)

Section MulRun.
  Variable P : program.

  Lemma add_step sg b m a c : ok_width b = true ->
    Sem.in_range sg b a = true -> Sem.in_range sg b c = true ->
    if Sem.in_range sg b (a + c) then
      lower_binop tops OAdd (TInt sg b) (TInt sg b) (TInt sg b) (enc (N.to_nat b) a) (enc (N.to_nat b) c) m None
      = Ok (enc (N.to_nat b) (a + c), None)
    else
      exists w, lower_binop tops OAdd (TInt sg b) (TInt sg b) (TInt sg b) (enc (N.to_nat b) a) (enc (N.to_nat b) c) m None
                = Ok (w, Some (pcode Sem.ROverflow m)).
  Proof.
    intros Hb Ha Hc.
    assert (HA : binop_agrees OAdd m (TInt sg b) (TInt sg b) (Sem.VInt a) (Sem.VInt c) false).
    { destruct sg; [apply binop_signed_agrees|apply binop_unsigned_agrees]; auto. }
    unfold binop_agrees in HA. cbn [Sem.eval_binop Sem.int_ty enc_val] in HA. unfold Sem.checked in HA.
    destruct (Sem.in_range sg b (a + c)); cbn [Sem.obind enc_val] in HA.
    - exact (proj2 HA).
    - exact (proj2 HA).
  Qed.

  Lemma id_run fT E o x m t r E' o' :
    lower_expr tops fT P (Ex (EId x) m t) E o = Ok ((r, E'), o') -> env_get E x = Some r /\ E' = E /\ o' = o.
  Proof.
    destruct fT as [|fT]; [discriminate|]. rewrite lower_expr_S. cbn [lower_expr_body].
    destruct (env_get E x) as [v|]; [|discriminate]. intro H. apply ret_inv in H. destruct H as [Heq ->].
    injection Heq as -> ->. auto.
  Qed.

  Variables (sg : bool) (b : N).
  Hypothesis Hb : ok_width b = true.
  Variable v : Z.
  Hypothesis Hv : Sem.in_range sg b v = true.
  Variables (m my : meta).
  Variable E2 : @cenv bool.
  Hypothesis HE2 : env_get E2 MUL_TMP = Some (enc (N.to_nat b) v).

  Let t := TInt sg b.
  Let yv := Ex (EId MUL_TMP) my t.
  Definition mul_sum (k : nat) : expr := Nat.iter k (fun e => Ex (EOp OAdd e yv) m t) yv.

  Lemma e_ty_mul_sum k : e_ty (mul_sum k) = t.
  Proof. destruct k; reflexivity. Qed.

  (* from no panic: the multiple (k+1)*v if it is in range, else Overflow at [m]; a panic stays *)
  Lemma sum_run : forall k fT o r E3 o3,
    lower_expr tops fT P (mul_sum k) E2 o = Ok ((r, E3), o3) ->
    E3 = E2 /\
    match o with
    | Some c => o3 = Some c
    | None =>
        if Sem.in_range sg b (v * Z.of_nat (S k))
        then o3 = None /\ r = enc (N.to_nat b) (v * Z.of_nat (S k))
        else o3 = Some (pcode Sem.ROverflow m)
    end.
  Proof.
    induction k as [|k IH]; intros fT o r E3 o3 Hrun.
    - apply id_run in Hrun. destruct Hrun as (Hg & -> & ->). rewrite HE2 in Hg. injection Hg as <-.
      split; [reflexivity|]. destruct o; [reflexivity|]. change (Z.of_nat 1) with 1%Z. rewrite Z.mul_1_r, Hv. auto.
    - destruct fT as [|fT]; [discriminate Hrun|]. rewrite lower_expr_S in Hrun.
      change (mul_sum (S k)) with (Ex (EOp OAdd (mul_sum k) yv) m t) in Hrun.
      apply binop_run_inv in Hrun; [|reflexivity|discriminate].
      destruct Hrun as (xw & E1 & o1 & yw & o2 & Hx & Hy & Hbin).
      destruct (IH _ _ _ _ _ Hx) as [-> Ho1]. apply id_run in Hy. destruct Hy as (Hg & -> & ->).
      rewrite HE2 in Hg. injection Hg as <-. split; [reflexivity|].
      rewrite e_ty_mul_sum in Hbin. cbn [e_ty yv] in Hbin.
      destruct o as [c|].
      + subst o1. exact (stkx_lower_binop c _ _ _ _ _ _ _ _ _ Hbin).
      + destruct (Sem.in_range sg b (v * Z.of_nat (S k))) eqn:Hk.
        * destruct Ho1 as [-> ->]. pose proof (add_step sg b m _ _ Hb Hk Hv) as HA.
          replace (v * Z.of_nat (S k) + v)%Z with (v * Z.of_nat (S (S k)))%Z in HA by lia.
          destruct (Sem.in_range sg b (v * Z.of_nat (S (S k)))).
          -- unfold t in Hbin. rewrite HA in Hbin. injection Hbin as <- <-. auto.
          -- destruct HA as [w HA]. unfold t in Hbin. rewrite HA in Hbin. now injection Hbin as _ <-.
        * subst o1.
          assert (Sem.in_range sg b (v * Z.of_nat (S (S k))) = false) as ->.
          { destruct (Sem.in_range sg b (v * Z.of_nat (S (S k)))) eqn:Hk2; [|reflexivity].
            rewrite (in_range_mul_mono sg b v (Z.of_nat (S k)) (Z.of_nat (S (S k))) Hv ltac:(lia) Hk2) in Hk. discriminate Hk. }
          exact (stkx_lower_binop _ _ _ _ _ _ _ _ _ _ Hbin).
  Qed.

  (* the negated sum *)
  Lemma neg_sum_run k fT r E3 o3 : sg = true ->
    lower_expr tops fT P (Ex (ENeg (mul_sum k)) m t) E2 None = Ok ((r, E3), o3) ->
    E3 = E2 /\
    if Sem.in_range sg b (v * Z.of_nat (S k)) && Sem.in_range sg b (- (v * Z.of_nat (S k)))
    then o3 = None /\ r = enc (N.to_nat b) (- (v * Z.of_nat (S k)))
    else o3 = Some (pcode Sem.ROverflow m).
  Proof.
    intros Hsg Hrun. destruct fT as [|fT]; [discriminate Hrun|]. rewrite lower_expr_S, lower_neg_case in Hrun.
    minva Hrun as [x E1] o1 He. cbv beta iota in Hrun.
    destruct (sum_run _ _ _ _ _ _ He) as [-> Ho1]. cbv beta iota in Ho1. pose proof (ok_width_pos b Hb) as Hb2.
    destruct (Sem.in_range sg b (v * Z.of_nat (S k))) eqn:Hk; cbn [andb].
    - destruct Ho1 as [-> ->]. rewrite Hsg in Hk. rewrite Hsg.
      rewrite neg_steps_correct in Hrun by (apply enc_nonempty; lia).
      rewrite length_enc, N2Nat.id, (sval_enc_ok b _) in Hrun by (assumption || lia).
      apply ret_inv in Hrun. destruct Hrun as [Heq ->]. injection Heq as -> ->. split; [reflexivity|].
      destruct (Sem.in_range true b (- (v * Z.of_nat (S k)))); cbn [negb push_spec]; auto.
    - subst o1. split.
      + unfold neg_steps in Hrun. minva Hrun as ng o4 H1. minva Hrun as x0 o5 H2. minva Hrun as n0 o6 H3.
        minva Hrun as ov o7 H4. minva Hrun as u o8 H5. apply ret_inv in Hrun. destruct Hrun as [Heq _]. now injection Heq.
      + assert (stkx (pcode Sem.ROverflow m) (neg_steps x m (fun neg : list bool => ret (neg, E2)))) as Hst
          by (apply stkx_neg_steps; intro; apply stkx_ret).
        exact (Hst _ _ Hrun).
  Qed.
End MulRun.

(* ------------------------------------------------------------------ what the lowering does with
   a product, computed from the tree *)

(* [Some (left, n, neg)]: the rewrite fires; the literal is the LEFT operand (left = true, the
   operand lowered is y) or the right one; n = |literal|, neg = the literal is negative *)
Definition mul_lit_info (x y : expr) (m : meta) (t : ty) : option (bool * N * bool) :=
  match rewrite_one x y m t, lit_info x with
  | Some _, Some (n, _, neg) => Some (true, n, neg)
  | _, _ =>
      match rewrite_one y x m t, lit_info y with
      | Some _, Some (n, _, neg) => Some (false, n, neg)
      | _, _ => None
      end
  end.

Definition lit_Z (n : N) (neg : bool) : Z := if neg then (- Z.of_N n)%Z else Z.of_N n.

Lemma rewrite_one_shape a y m sg b n lb neg r : e_ty y = TInt sg b ->
  rewrite_one a y m (TInt sg b) = Some r -> lit_info a = Some (n, lb, neg) ->
  1 <= n /\
  r = (y, if neg then Ex (ENeg (mul_sum sg b m (e_meta y) (N.to_nat (n - 1)))) m (TInt sg b)
          else mul_sum sg b m (e_meta y) (N.to_nat (n - 1))).
Proof.
  intros Ety H Hl. unfold rewrite_one in H. rewrite Hl in H.
  destruct (N.eqb_spec n 0) as [|Hn0]; [discriminate H|]. destruct (n <? lb); [|discriminate H].
  injection H as <-. split; [lia|]. rewrite N2Nat.inj_iter, Ety. reflexivity.
Qed.

Lemma rewrite_one_none_lit a y m t : lit_info a = None -> rewrite_one a y m t = None.
Proof. unfold rewrite_one. now intros ->. Qed.

Lemma mul_lit_info_spec x y m sg b left n neg : e_ty x = TInt sg b -> e_ty y = TInt sg b ->
  mul_lit_info x y m (TInt sg b) = Some (left, n, neg) ->
  let lit := if left then x else y in
  let operand := if left then y else x in
  1 <= n /\ (exists lb, lit_info lit = Some (n, lb, neg)) /\
  mul_rewrite x y m (TInt sg b) =
    Some (operand, if neg then Ex (ENeg (mul_sum sg b m (e_meta operand) (N.to_nat (n - 1)))) m (TInt sg b)
                   else mul_sum sg b m (e_meta operand) (N.to_nat (n - 1))).
Proof.
  intros Ex_ Ey H. unfold mul_lit_info in H. unfold mul_rewrite.
  destruct (rewrite_one x y m (TInt sg b)) as [r1|] eqn:E1.
  - destruct (lit_info x) as [[[n1 lb1] neg1]|] eqn:L1.
    + injection H as <- <- <-. destruct (rewrite_one_shape x y m sg b n1 lb1 neg1 r1 Ey E1 L1) as [Hn ->].
      cbv zeta. split; [exact Hn|]. split; [eauto|reflexivity].
    + rewrite (rewrite_one_none_lit x y m _ L1) in E1. discriminate E1.
  - destruct (rewrite_one y x m (TInt sg b)) as [r2|] eqn:E2; [|destruct (lit_info x) as [[[? ?] ?]|]; discriminate H].
    assert (exists n2 lb2 neg2, lit_info y = Some (n2, lb2, neg2)) as (n2 & lb2 & neg2 & L2).
    { destruct (lit_info y) as [[[n2 lb2] neg2]|] eqn:L2; [eauto|].
      rewrite (rewrite_one_none_lit y x m _ L2) in E2. discriminate E2. }
    rewrite L2 in H. assert (left = false /\ n = n2 /\ neg = neg2) as (-> & -> & ->).
    { destruct (lit_info x) as [[[? ?] ?]|]; injection H as <- <- <-; auto. }
    destruct (rewrite_one_shape y x m sg b n2 lb2 neg2 r2 Ex_ E2 L2) as [Hn ->].
    cbv zeta. split; [exact Hn|]. split; [eauto|reflexivity].
Qed.

Section MulNode.
  Variable P : program.
  Variable VR : ty -> Sem.value -> list bool -> Prop.
  Hypothesis VR_sc_elim : forall t v w, scalar_ty t = true -> VR t v w -> val_ok t v /\ w = enc_val t v.
  Hypothesis VR_sc_intro : forall t v, scalar_ty t = true -> val_ok t v -> VR t v (enc_val t v).
  Variable R : node_rel VR.
  Notation AgE' := (AgEG P VR R).

  (* Sem.v on a literal *)
  Lemma lit_info_eval e n lb neg f en : lit_info e = Some (n, lb, neg) ->
    Sem.eval (S f) P en e = Sem.Done (Sem.VInt (lit_Z n neg), en).
  Proof.
    destruct e as [ei m t]. destruct ei; try discriminate; cbn [lit_info]; intros [= <- <- <-]; cbn [Sem.eval]; unfold lit_Z.
    - reflexivity.
    - do 2 f_equal. f_equal. rewrite N2Z.inj_abs_N. destruct (Z.ltb_spec z 0); lia.
  Qed.

  (* the rewritten sum against the checked product *)
  Lemma mul_core sg b m my n neg a (E2 : @cenv bool) fT r E3 o3 :
    ok_width b = true -> Sem.in_range sg b a = true -> 1 <= n ->
    negb neg || sg = true -> mul_lit_ok b n neg = true ->
    env_get E2 MUL_TMP = Some (enc (N.to_nat b) a) ->
    lower_expr tops fT P (if neg then Ex (ENeg (mul_sum sg b m my (N.to_nat (n - 1)))) m (TInt sg b)
                          else mul_sum sg b m my (N.to_nat (n - 1))) E2 None = Ok ((r, E3), o3) ->
    E3 = E2 /\
    if Sem.in_range sg b (a * lit_Z n neg)
    then o3 = None /\ r = enc (N.to_nat b) (a * lit_Z n neg)
    else o3 = Some (pcode Sem.ROverflow m).
  Proof.
    intros Hb Ha Hn Hsg Hok HE2 Hrun.
    assert (Z.of_nat (S (N.to_nat (n - 1))) = Z.of_N n) as Ek by lia.
    destruct neg; unfold lit_Z.
    - cbn [negb orb] in Hsg.
      destruct (neg_sum_run P sg b Hb a Ha m my E2 HE2 _ _ _ _ _ Hsg Hrun) as [-> H]. split; [reflexivity|].
      rewrite Ek in H. replace (a * - Z.of_N n)%Z with (- (a * Z.of_N n))%Z by lia.
      destruct (Sem.in_range sg b (a * Z.of_N n)) eqn:H1; cbn [andb] in H; [exact H|].
      destruct (Sem.in_range sg b (- (a * Z.of_N n))) eqn:H2; [|exact H]. subst sg.
      rewrite (neg_disagreement b n a Hn Ha H1 H2) in Hok. discriminate Hok.
    - destruct (sum_run P sg b Hb a Ha m my E2 HE2 _ _ _ _ _ _ Hrun) as [-> H]. split; [reflexivity|].
      now rewrite Ek in H.
  Qed.

  (* `x * c` / `c * x` where the rewrite fires *)
  Theorem mul_lit_nodeG f g x y m sg b left n neg :
    ok_width b = true -> e_ty x = TInt sg b -> e_ty y = TInt sg b ->
    mul_lit_info x y m (TInt sg b) = Some (left, n, neg) ->
    negb neg || sg = true -> mul_lit_ok b n neg = true ->
    AgE' f g (if left then y else x) ->
    AgE' (S f) g (Ex (EOp OMul x y) m (TInt sg b)).
  Proof.
    intros Hb Etx Ety Hinfo Hsg Hok IH s en E fT w E' o' Hrel Hrun.
    destruct (mul_lit_info_spec x y m sg b left n neg Etx Ety Hinfo) as (Hn & (lb & Hlit) & Hrw). cbv zeta in Hlit, Hrw.
    destruct fT as [|fT]; [discriminate Hrun|]. rewrite lower_expr_S in Hrun. cbn [lower_expr_body] in Hrun.
    rewrite Hrw in Hrun. minva Hrun as [wv E1] o1 Hop. minva Hrun as E2 o2 Hlet.
    apply lift_res_inv in Hlet. destruct Hlet as [Hlet ->]. cbn [env_push env_let scope_insert] in Hlet.
    injection Hlet as <-. minva Hrun as [r E3] o3 Hsum. minva Hrun as E4 o4 Hpop.
    apply lift_res_inv in Hpop. destruct Hpop as [Hpop ->]. apply ret_inv in Hrun. destruct Hrun as [Heq ->].
    injection Heq as -> ->.
    rewrite (sem_eval_op P f en OMul x y m (TInt sg b) eq_refl).
    assert (Hety : e_ty (if left then y else x) = TInt sg b) by (destruct left; assumption).
    (* the run of the operand and of the sum against the operand's evaluation from [en0] *)
    assert (Hcore : forall en0, rel R s en0 E g ->
      match Sem.eval f P en0 (if left then y else x) with
      | Sem.Done (Sem.VInt a, en1) =>
          Sem.in_range sg b a = true /\ rel R s en1 E1 g /\ E4 = E1 /\
          if Sem.in_range sg b (a * lit_Z n neg)
          then o3 = None /\ r = enc (N.to_nat b) (a * lit_Z n neg)
          else o3 = Some (pcode Sem.ROverflow m)
      | Sem.Done (_, _) => False
      | Sem.Panicked r0 m0 => o3 = Some (pcode r0 m0)
      | _ => True
      end).
    { intros en0 Hrel0. pose proof (IH s en0 E fT _ _ _ Hrel0 Hop) as IH1. revert IH1.
      destruct (Sem.eval f P en0 (if left then y else x)) as [[vx en1]|r1 m1|c1|]; intro IH1; try exact I.
      - destruct IH1 as (-> & HV & Hrel1). rewrite Hety in HV.
        destruct (VR_sc_elim (TInt sg b) _ _ Hb HV) as [Hokv ->].
        destruct vx as [|a| | |]; try contradiction. cbn [val_ok enc_val] in *.
        assert (HE2 : env_get ([(MUL_TMP, enc (N.to_nat b) a)] :: E1) MUL_TMP = Some (enc (N.to_nat b) a))
          by (cbn [env_get assocN]; now rewrite N.eqb_refl).
        destruct (mul_core sg b m _ n neg a _ fT _ _ _ Hb Hokv Hn Hsg Hok HE2 Hsum) as [-> Hres].
        cbn [env_pop] in Hpop. injection Hpop as <-. auto.
      - subst o1. exact (sticky_e P fT _ _ _ _ _ _ Hsum). }
    pose proof (ok_width_pos b Hb) as Hb2.
    (* Sem.v: both operands, then the checked product *)
    destruct left.
    - (* the literal on the left *)
      destruct f as [|f']; [exact I|]. rewrite (lit_info_eval x n lb neg f' en Hlit). cbn [Sem.obind].
      specialize (Hcore en Hrel). revert Hcore.
      destruct (Sem.eval (S f') P en y) as [[vy en1]|r1 m1|c1|]; cbn [Sem.obind]; try (intro; exact I); [|intro H; exact H].
      destruct vy as [|a| | |]; try contradiction. intros (Ha & Hrel1 & -> & Hres).
      rewrite Etx. cbn [Sem.eval_binop Sem.int_ty]. unfold Sem.checked. rewrite (Z.mul_comm (lit_Z n neg) a).
      destruct (Sem.in_range sg b (a * lit_Z n neg)) eqn:Hr; cbn [Sem.obind e_ty].
      + destruct Hres as [-> ->]. split; [reflexivity|]. split.
        * now apply (VR_sc_intro (TInt sg b) (Sem.VInt (a * lit_Z n neg))).
        * eapply nr_scopes; [|exact Hrel1]. reflexivity.
      + exact Hres.
    - (* the literal on the right *)
      specialize (Hcore en Hrel). revert Hcore.
      destruct (Sem.eval f P en x) as [[vx en1]|r1 m1|c1|]; cbn [Sem.obind]; try (intro; exact I); [|intro H; exact H].
      destruct vx as [|a| | |]; try contradiction. intros (Ha & Hrel1 & -> & Hres).
      destruct f as [|f']; [exact I|]. rewrite (lit_info_eval y n lb neg f' en1 Hlit). cbn [Sem.obind].
      rewrite Etx. cbn [Sem.eval_binop Sem.int_ty]. unfold Sem.checked.
      destruct (Sem.in_range sg b (a * lit_Z n neg)) eqn:Hr; cbn [Sem.obind e_ty].
      + destruct Hres as [-> ->]. split; [reflexivity|]. split.
        * now apply (VR_sc_intro (TInt sg b) (Sem.VInt (a * lit_Z n neg))).
        * eapply nr_scopes; [|exact Hrel1]. reflexivity.
      + exact Hres.
  Qed.
End MulNode.

(* the premises of [mul_lit_nodeG] other than the type annotations, as ONE Boolean, and the
   operand whose agreement is needed *)
Definition mul_node_ok (x y : expr) (m : meta) (t : ty) : bool :=
  match t with
  | TInt sg b =>
      ok_width b &&
      match mul_lit_info x y m t with
      | Some (_, n, neg) => (negb neg || sg) && mul_lit_ok b n neg
      | None => false
      end
  | _ => false
  end.

Definition mul_operand (x y : expr) (m : meta) (t : ty) : expr :=
  match mul_lit_info x y m t with Some (true, _, _) => y | _ => x end.

Section MulNodeB.
  Variable P : program.
  Variable VR : ty -> Sem.value -> list bool -> Prop.
  Hypothesis VR_sc_elim : forall t v w, scalar_ty t = true -> VR t v w -> val_ok t v /\ w = enc_val t v.
  Hypothesis VR_sc_intro : forall t v, scalar_ty t = true -> val_ok t v -> VR t v (enc_val t v).
  Variable R : node_rel VR.

  Corollary mul_lit_node_bG f g x y m t :
    e_ty x = t -> e_ty y = t -> mul_node_ok x y m t = true ->
    AgEG P VR R f g (mul_operand x y m t) -> AgEG P VR R (S f) g (Ex (EOp OMul x y) m t).
  Proof.
    intros Etx Ety Hok IH. unfold mul_node_ok in Hok. destruct t as [|sg b| | | |]; try discriminate Hok.
    apply andb_prop in Hok as [Hb Hok]. unfold mul_operand in IH.
    destruct (mul_lit_info x y m (TInt sg b)) as [[[left n] neg]|] eqn:Hi; [|discriminate Hok].
    apply andb_prop in Hok as [Hsg Hlit].
    eapply (mul_lit_nodeG P VR VR_sc_elim VR_sc_intro R f g x y m sg b left n neg); try eassumption.
  Qed.
End MulNodeB.

(* ------------------------------------------------------------------ the relation of TSemSemStmt.v.
   Products with a literal operand for which the rewrite does not fire (|c| = 0 or |c| >= bits of
   the suffix type) are ordinary multiplications ([SimNodes.binop_node]) *)

Section MulStmt.
  Variable P : program.
  Variable VR : ty -> Sem.value -> list bool -> Prop.
  Hypothesis VR_sc_elim : forall t v w, scalar_ty t = true -> VR t v w -> val_ok t v /\ w = enc_val t v.
  Hypothesis VR_sc_intro : forall t v, scalar_ty t = true -> val_ok t v -> VR t v (enc_val t v).
  Notation AgE' := (AgE P VR).

  Theorem mul_lit_node f g x y m sg b left n neg :
    ok_width b = true -> e_ty x = TInt sg b -> e_ty y = TInt sg b ->
    mul_lit_info x y m (TInt sg b) = Some (left, n, neg) ->
    negb neg || sg = true -> mul_lit_ok b n neg = true ->
    AgE' f g (if left then y else x) ->
    AgE' (S f) g (Ex (EOp OMul x y) m (TInt sg b)).
  Proof.
    intros Hb Etx Ety Hinfo Hsg Hok IH.
    exact (mul_lit_nodeG P VR VR_sc_elim VR_sc_intro (rel3_nodes VR)
             f g x y m sg b left n neg Hb Etx Ety Hinfo Hsg Hok (fun _ => IH) tt).
  Qed.

  Corollary mul_lit_node_b f g x y m t :
    e_ty x = t -> e_ty y = t -> mul_node_ok x y m t = true ->
    AgE' f g (mul_operand x y m t) -> AgE' (S f) g (Ex (EOp OMul x y) m t).
  Proof.
    intros Etx Ety Hok IH.
    exact (mul_lit_node_bG P VR VR_sc_elim VR_sc_intro (rel3_nodes VR)
             f g x y m t Etx Ety Hok (fun _ => IH) tt).
  Qed.

  Theorem mul_plain_node f g x y m t tx :
    mul_rewrite x y m t = None ->
    e_ty x = tx -> e_ty y = tx -> scalar_ty tx = true -> scalar_ty t = true ->
    (forall vx vy len, val_ok tx vx -> val_ok tx vy -> binop_agrees OMul m t tx vx vy len) ->
    AgE' f g x -> AgE' f g y -> AgE' (S f) g (Ex (EOp OMul x y) m t).
  Proof.
    intros Hm Etx Ety Hsx Hst Hag IHx IHy.
    exact (SimNodes.binop_node P VR VR_sc_elim VR_sc_intro (rel3_nodes VR)
             f g OMul x y m t tx eq_refl (fun _ => Hm) Etx Ety Hsx Hst Hag (fun _ => IHx) (fun _ => IHy) tt).
  Qed.
End MulStmt.
Print Assumptions mul_lit_node.
Print Assumptions mul_plain_node.

(* ------------------------------------------------------------------ counterexamples outside
   [mul_lit_ok]: the known finding const-mul-rewrite-intermediate-overflow, and that it is the
   whole family  -2^j, j >= 1 *)

Module MulFindings.
  Definition P0 : program := mkProgram [] [] [] [] 0.
  Definition mm (k : N) : meta := mkMeta k 1 k 9.
  Definition i8 := TInt true 8.
  Definition i16 := TInt true 16.
  Definition g0 (t : ty) : tenv := [[(0, (t, false))]].
  Definition en0 (z : Z) : Sem.env := Sem.mkEnv [[(0, Sem.VInt z)]] false.
  Definition E0 (bits : nat) (z : Z) : @cenv bool := [[(0, enc bits z)]].
  Definition ovf (k : N) : pobs := Some (pcode Sem.ROverflow (mm k)).

  (* x * -2i8 at x = 64: -128 is an i8; the sum 64 + 64 overflows *)
  Definition e1 : expr := Ex (EOp OMul (Ex (EId 0) (mm 1) i8) (Ex (ENumS (-2) 8) (mm 2) i8)) (mm 3) i8.
  Example neg2_i8 :
    wt_expr 5 P0 (g0 i8) e1 = true /\
    mul_lit_info (Ex (EId 0) (mm 1) i8) (Ex (ENumS (-2) 8) (mm 2) i8) (mm 3) i8 = Some (false, 2, true) /\
    mul_lit_ok 8 2 true = false /\
    Sem.eval 5 P0 (en0 64) e1 = Sem.Done (Sem.VInt (-128), en0 64) /\
    (exists w, lower_expr tops 9 P0 e1 (E0 8 64) None = Ok ((w, E0 8 64), ovf 3)).
  Proof. repeat split; try (vm_compute; reflexivity). eexists. vm_compute. reflexivity. Qed.

  (* the literal on the left: -4i8 * x at x = 32 *)
  Definition e2 : expr := Ex (EOp OMul (Ex (ENumS (-4) 8) (mm 1) i8) (Ex (EId 0) (mm 2) i8)) (mm 3) i8.
  Example neg4_i8_left :
    mul_lit_info (Ex (ENumS (-4) 8) (mm 1) i8) (Ex (EId 0) (mm 2) i8) (mm 3) i8 = Some (true, 4, true) /\
    mul_lit_ok 8 4 true = false /\
    Sem.eval 5 P0 (en0 32) e2 = Sem.Done (Sem.VInt (-128), en0 32) /\
    (exists w, lower_expr tops 9 P0 e2 (E0 8 32) None = Ok ((w, E0 8 32), ovf 3)).
  Proof. repeat split; try (vm_compute; reflexivity). eexists. vm_compute. reflexivity. Qed.

  (* x * -8i16 at x = 4096 *)
  Definition e3 : expr := Ex (EOp OMul (Ex (EId 0) (mm 1) i16) (Ex (ENumS (-8) 16) (mm 2) i16)) (mm 3) i16.
  Example neg8_i16 :
    mul_lit_ok 16 8 true = false /\
    Sem.eval 5 P0 (en0 4096) e3 = Sem.Done (Sem.VInt (-32768), en0 4096) /\
    (exists w, lower_expr tops 12 P0 e3 (E0 16 4096) None = Ok ((w, E0 16 4096), ovf 3)).
  Proof. repeat split; try (vm_compute; reflexivity). eexists. vm_compute. reflexivity. Qed.

  (* inside [mul_lit_ok]: -3, -5, -6, -7 (i8), -1 and every positive literal *)
  Example ok_literals :
    mul_lit_ok 8 3 true = true /\ mul_lit_ok 8 5 true = true /\ mul_lit_ok 8 6 true = true /\
    mul_lit_ok 8 7 true = true /\ mul_lit_ok 8 1 true = true /\ mul_lit_ok 8 2 false = true /\
    mul_lit_ok 8 4 false = true /\ mul_lit_ok 64 2 true = false /\ mul_lit_ok 64 32 true = false /\
    mul_lit_ok 64 33 true = true.
  Proof. repeat split; vm_compute; reflexivity. Qed.

  (* x * -3i8 at x = 43: both panic (the sum 43 + 43 + 43 = 129, and -129 is no i8) *)
  Definition e4 : expr := Ex (EOp OMul (Ex (EId 0) (mm 1) i8) (Ex (ENumS (-3) 8) (mm 2) i8)) (mm 3) i8.
  Example neg3_i8_agrees :
    Sem.eval 5 P0 (en0 43) e4 = Sem.Panicked Sem.ROverflow (mm 3) /\
    (exists w, lower_expr tops 9 P0 e4 (E0 8 43) None = Ok ((w, E0 8 43), ovf 3)) /\
    Sem.eval 5 P0 (en0 (-42)) e4 = Sem.Done (Sem.VInt 126, en0 (-42)) /\
    lower_expr tops 9 P0 e4 (E0 8 (-42)) None = Ok ((enc 8 126, E0 8 (-42)), None).
  Proof. repeat split; try (vm_compute; reflexivity). eexists. vm_compute. reflexivity. Qed.
End MulFindings.

