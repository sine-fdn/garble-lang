(* C12: what the const checker establishes about external constants.

   The theorems of ConstsProofs.v assume [wt_defs d defs], which contains: every use
   [PARTY::NAME] of an external constant inside a const of type t finds the type t recorded for
   (PARTY, NAME) in the const_deps [d] the checker hands to the compiler.  The checker of the tree
   as found did not establish this (HashMap::insert keeps the last type only): the supplied
   literal was tested against one declaration and bound at another type (known_findings
   c12-one-constant-two-types).  With fix 9 it does: [checker_one_type]. *)
From GV Require Import Base.Util Compile.Consts Compile.ConstsProofs.

Lemma dget_dset d k v k' : dget (dset d k v) k' = if dkey_eqb k' k then Some v else dget d k'.
Proof.
  induction d as [|[k0 v0] r IH]; cbn [dset dget].
  - reflexivity.
  - destruct (dkey_eqb k k0) eqn:E.
    + cbn [dget]. apply dkey_eqb_eq in E. subst k0. destruct (dkey_eqb k' k); reflexivity.
    + cbn [dget]. destruct (dkey_eqb k' k0) eqn:E2.
      * destruct (dkey_eqb k' k) eqn:E3; [|reflexivity].
        apply dkey_eqb_eq in E2. apply dkey_eqb_eq in E3. subst.
        rewrite dkey_eqb_refl in E. discriminate.
      * exact IH.
Qed.

(* the type recorded for an external constant *)
Definition ty_at (d : deps) (k : dkey) : option cty := option_map fst (dget d k).

(* [d'] records the same type as [d] for every constant [d] knows *)
Definition dext (d d' : deps) : Prop := forall k t, ty_at d k = Some t -> ty_at d' k = Some t.

Lemma dext_refl d : dext d d.
Proof. intros k t H. exact H. Qed.
Lemma dext_trans a b c : dext a b -> dext b c -> dext a c.
Proof. intros H1 H2 k t H. apply H2, H1, H. Qed.

(* every external constant used in [e] (an expression of a const of type t) is recorded at t *)
Fixpoint ext_ok (dp : deps) (t : cty) (e : cexpr) : bool :=
  match e with
  | EExt p n => match ty_at dp (p, n) with Some t' => cty_eqb t t' | None => false end
  | EMax args | EMin args => forallb (ext_ok dp t) args
  | EAdd a b | ESub a b => ext_ok dp t a && ext_ok dp t b
  | _ => true
  end.

Lemma ext_ok_mono d d' t e : dext d d' -> ext_ok d t e = true -> ext_ok d' t e = true.
Proof.
  intro H. induction e as [| |n u|z s|p n|i|args IH|args IH|a b IHa IHb|a b IHa IHb] using cexpr_ind2;
    cbn [ext_ok]; auto.
  - destruct (ty_at d (p, n)) as [t'|] eqn:E; [|discriminate]. rewrite (H _ _ E). auto.
  - rewrite !forallb_forall. rewrite Forall_forall in IH. intros W x Hx. apply IH; auto.
  - rewrite !forallb_forall. rewrite Forall_forall in IH. intros W x Hx. apply IH; auto.
  - rewrite !andb_true_iff. intros [W1 W2]. auto.
  - rewrite !andb_true_iff. intros [W1 W2]. auto.
Qed.

Lemma wt_cexpr_ext_ok dp decl t e : wt_cexpr dp decl t e = true -> ext_ok dp t e = true.
Proof.
  induction e as [| |n u|z s|p n|i|args IH|args IH|a b IHa IHb|a b IHa IHb] using cexpr_ind2;
    cbn [wt_cexpr ext_ok]; auto.
  - unfold ty_at. destruct (dget dp (p, n)) as [[t' m]|]; cbn [option_map fst]; auto.
  - rewrite !andb_true_iff. intros [_ W]. rewrite forallb_forall in *. rewrite Forall_forall in IH. auto.
  - rewrite !andb_true_iff. intros [_ W]. rewrite forallb_forall in *. rewrite Forall_forall in IH. auto.
  - rewrite !andb_true_iff. intros [[_ W1] W2]. auto.
  - rewrite !andb_true_iff. intros [[_ W1] W2]. auto.
Qed.

(* a stretch of the checker's run: errors only grow, recorded types never change, and if no
   error was added the recorded types satisfy [Q] *)
Definition run_ok (Q : deps -> bool) (s s' : chk) : Prop :=
  (exists l, k_errs s' = k_errs s ++ l) /\ dext (k_deps s) (k_deps s') /\
  (k_errs s' = k_errs s -> Q (k_deps s') = true).

Definition step_ok (ty : cty) (e : cexpr) : chk -> chk -> Prop := run_ok (fun d => ext_ok d ty e).

Lemma app_self_nil {A} (l x : list A) : l ++ x = l -> x = [].
Proof. intro H. apply (app_inv_head l). rewrite app_nil_r. exact H. Qed.

Lemma step_err ty e s0 s x :
  k_errs s = k_errs s0 -> k_deps s = k_deps s0 ->
  step_ok ty e s0 (Build_chk (k_errs s ++ [x]) (k_deps s) (k_meta s)).
Proof.
  intros E D. split; [|split]; cbn [k_errs k_deps].
  - exists [x]. now rewrite E.
  - rewrite D. apply dext_refl.
  - rewrite E. intro H. apply app_self_nil in H. discriminate.
Qed.

Lemma step_same ty e s0 s :
  k_errs s = k_errs s0 -> k_deps s = k_deps s0 -> ext_ok (k_deps s0) ty e = true -> step_ok ty e s0 s.
Proof.
  intros E D X. split; [|split].
  - exists []. now rewrite app_nil_r.
  - rewrite D. apply dext_refl.
  - intros _. now rewrite D.
Qed.

Lemma run_trans Q1 Q2 s0 s1 s2 :
  (forall d d', dext d d' -> Q1 d = true -> Q1 d' = true) ->
  run_ok Q1 s0 s1 -> run_ok Q2 s1 s2 -> run_ok (fun d => Q1 d && Q2 d) s0 s2.
Proof.
  intros M ((l1 & E1) & D1 & X1) ((l2 & E2) & D2 & X2). split; [|split].
  - exists (l1 ++ l2). now rewrite E2, E1, app_assoc.
  - eapply dext_trans; eauto.
  - intro H. rewrite E2, E1, <- app_assoc in H. apply app_self_nil in H.
    apply app_eq_nil in H as [-> ->]. rewrite app_nil_r in E1, E2.
    now rewrite (M _ _ D2 (X1 E1)), (X2 E2).
Qed.

Lemma fold_step decl ty args :
  Forall (fun e => forall s, step_ok ty e s (check_cexpr repaired decl ty e s)) args ->
  forall s, run_ok (fun d => forallb (ext_ok d ty) args) s
                   (fold_left (fun s a => check_cexpr repaired decl ty a s) args s).
Proof.
  induction 1 as [|a r Ha _ IH]; intro s; cbn [fold_left forallb].
  - split; [exists []; now rewrite app_nil_r|]. split; [apply dext_refl|auto].
  - exact (run_trans _ _ _ _ _ (fun d d' => ext_ok_mono d d' ty a) (Ha s) (IH _)).
Qed.

Lemma check_cexpr_step decl ty e : forall s, step_ok ty e s (check_cexpr repaired decl ty e s).
Proof.
  induction e as [| |n u|z sg|p n|i|args IH|args IH|a b IHa IHb|a b IHa IHb] using cexpr_ind2;
    intro s; cbn [check_cexpr].
  - destruct (cty_eqb ty TBool); [apply step_same|apply step_err]; auto.
  - destruct (cty_eqb ty TBool); [apply step_same|apply step_err]; auto.
  - destruct (cty_eqb ty (TU u)); [apply step_same|apply step_err]; auto.
  - destruct (cty_eqb ty (TS sg)); [apply step_same|apply step_err]; auto.
  - cbn [k_deps k_errs k_meta c_one_type repaired andb].
    assert (Hset : forall m,
      (forall t' m', dget (k_deps s) (p, n) = Some (t', m') -> t' = ty) ->
      step_ok ty (EExt p n) s (Build_chk (k_errs s) (dset (k_deps s) (p, n) (ty, m)) (k_meta s + 1))).
    { intros m Hty. split; [|split]; cbn [k_errs k_deps].
      - exists []. now rewrite app_nil_r.
      - intros k t. unfold ty_at. rewrite dget_dset. destruct (dkey_eqb k (p, n)) eqn:E; [|auto].
        apply dkey_eqb_eq in E. subst k. destruct (dget (k_deps s) (p, n)) as [[t' m']|] eqn:G; [|discriminate].
        cbn [option_map fst]. intro H. injection H as <-. now rewrite (Hty _ _ eq_refl).
      - intros _. cbn [ext_ok]. unfold ty_at. rewrite dget_dset, dkey_eqb_refl. cbn [option_map fst].
        apply cty_eqb_refl. }
    destruct (dget (k_deps s) (p, n)) as [[t' m']|] eqn:G.
    + destruct (cty_eqb t' ty) eqn:E; cbn [negb].
      * apply Hset. intros t2 m2 H. injection H as <- <-. now apply cty_eqb_eq.
      * apply step_err; auto.
    + apply Hset. intros t2 m2 H. discriminate.
  - destruct (assocN decl i) as [t|]; [destruct (cty_eqb ty t)|]; [apply step_same|apply step_err|apply step_err]; auto.
  - cbn [c_check_arith repaired andb]. destruct (negb (is_num ty)); [apply step_err; auto|].
    exact (fold_step decl ty args IH (Build_chk (k_errs s) (k_deps s) (k_meta s + 1))).
  - cbn [c_check_arith repaired andb]. destruct (negb (is_num ty)); [apply step_err; auto|].
    exact (fold_step decl ty args IH (Build_chk (k_errs s) (k_deps s) (k_meta s + 1))).
  - cbn [c_check_arith repaired andb]. destruct (negb (is_num ty)); [apply step_err; auto|].
    exact (run_trans _ _ _ _ _ (fun d d' => ext_ok_mono d d' ty a)
             (IHa (Build_chk (k_errs s) (k_deps s) (k_meta s + 1))) (IHb _)).
  - cbn [c_check_arith repaired andb]. destruct (negb (is_num ty)); [apply step_err; auto|].
    exact (run_trans _ _ _ _ _ (fun d d' => ext_ok_mono d d' ty a)
             (IHa (Build_chk (k_errs s) (k_deps s) (k_meta s + 1))) (IHb _)).
Qed.

Lemma check_defs_from_facts : forall defs i decl errs d meta,
  let r := check_defs_from repaired i decl defs errs d meta in
  (exists l, fst r = errs ++ l) /\ dext d (snd r) /\
  (fst r = errs -> forall x, In x defs -> ext_ok (snd r) (cd_ty x) (cd_val x) = true).
Proof.
  induction defs as [|x r IH]; intros i decl errs d meta; cbn [check_defs_from].
  - cbn [fst snd]. split; [exists []; now rewrite app_nil_r|]. split; [apply dext_refl|]. intros _ y [].
  - cbv zeta.
    pose proof (check_cexpr_step decl (cd_ty x) (cd_val x) (Build_chk [] d meta)) as S.
    set (s := check_cexpr repaired decl (cd_ty x) (cd_val x) (Build_chk [] d meta)) in *.
    destruct S as ((l1 & E1) & D1 & X1). cbn [k_errs k_deps app] in E1, D1, X1.
    specialize (IH (i + 1) ((cd_name x, cd_ty x) :: decl) (errs ++ map (fun e => (i, e)) (k_errs s)) (k_deps s) (k_meta s)).
    cbv zeta in IH. destruct IH as ((l2 & E2) & D2 & X2).
    split; [|split].
    + exists (map (fun e => (i, e)) (k_errs s) ++ l2). now rewrite E2, app_assoc.
    + eapply dext_trans; eauto.
    + intro H. rewrite E2, <- app_assoc in H. apply app_self_nil in H. apply app_eq_nil in H as [H1 H2].
      apply map_eq_nil in H1. subst l2. rewrite app_nil_r in E2.
      intros y [<-|Hy].
      * eapply ext_ok_mono; [exact D2|]. apply X1. exact H1.
      * apply X2; [exact E2|exact Hy].
Qed.

(* a program the (repaired) checker accepts uses every external constant at the one type that
   the compiler is told to test the supplied literal against *)
Theorem checker_one_type defs :
  fst (check_defs repaired defs) = [] ->
  forall x, In x defs -> ext_ok (snd (check_defs repaired defs)) (cd_ty x) (cd_val x) = true.
Proof.
  unfold check_defs. intro H.
  destruct (check_defs_from_facts defs 0 [] [] [] 0) as (_ & _ & X). exact (X H).
Qed.

(* the tree as found: `const A: u8 = PARTY_0::X; const B: u16 = PARTY_0::X;` is accepted and X is
   recorded at u16 only *)
Definition two_types_defs : list cdef :=
  [ {| cd_name := 10; cd_ty := TU U8; cd_val := EExt 0 1 |};
    {| cd_name := 11; cd_ty := TU U16; cd_val := EExt 0 1 |} ].

Example checker_one_type_refuted_original :
  fst (check_defs original two_types_defs) = [] /\
  ext_ok (snd (check_defs original two_types_defs)) (TU U8) (EExt 0 1) = false.
Proof. vm_compute. split; reflexivity. Qed.

Example checker_one_type_repaired_rejects :
  fst (check_defs repaired two_types_defs) = [(1, TUnexpectedType)].
Proof. vm_compute. reflexivity. Qed.
