(* The agreement of Compile/TSemSemStmt.v for the fragment with FUNCTION CALLS and FOR LOOPS
   OVER A RANGE (partial correctness, as there).

   Fragment ([imp2_expr] / [imp2_stmt], boolean, syntactic): everything of TSemSemStmt.v, plus
     `f(args)` (arguments: fragment expressions with effects) and
     `for x in lo..hi { body }` (identifier pattern, collection an [ERange], body in the fragment).
   Checker ([sc2_expr] / [sc2_block] / [sc2_stmt], boolean; [sc2_implies_wt]: a restriction of
     Lang/Wt.v): call sites check the argument types against the parameter types and the
     declared return type (EQUAL annotations); the bodies of the functions are checked once per
     function ([sc2_fn], [sc2_fns]: every function of the program is in the fragment), in the
     context of their parameters over the empty global scope.  Ranges: unsigned element type of
     width 8/16/32/64, lo <= hi <= 2^width, the annotated length is hi - lo.
   Restriction: programs WITHOUT GLOBAL CONSTANTS (the outermost scope is the empty scope
     on both sides, [G2]); this makes the frame condition of calls trivial.

   Calls.  The lowering compiles every argument in a fresh EMPTY scope that is popped again
   ([lower_args]), whereas Sem.v evaluates it in the caller's environment as it is.  The
   environment relation therefore carries a mask [ph : list bool] that marks the scopes of the
   bit-level environment which are such PHANTOM empty scopes ([relS], [relP]); without phantoms
   it is [env_rel3] ([relP_of_env_rel3], [env_rel3_of_relP]).  [relP] instantiates the abstract
   relation of Compile/SimNodes.v (for an arbitrary value relation VR); the nodes of this file
   are [args_node], [call_node], [for_iter_node], and for scalars [for_node2].
   The checker is the fixed point of TSemSemStmt.v's one level with the extensions [sc2_ext]
   (calls) and [sc2_sext] (range loops); [agree_all2] is TSemSemStmt.agree with these two cases
   ([call_step], [for_step]).
   Theorems: [tsem_sem_imp2_expr] / [_stmt] / [_block], [tsem_sem_program2], [in_imp_fragment2]
   with [in_imp_fragment2_sound]. *)
From Coq Require Import Lia ZArith.
From GV Require Import Base.Util Base.Bits Base.BitsProofs Lang.Ast Lang.Wt Lang.WtShape Gadgets.Gadgets
  Gadgets.GadgetSpec Gadgets.Arith Panic.PanicRec Panic.PanicSem Compile.Lower
  Compile.TSem Compile.TSemFacts Compile.TSemArith1 Compile.TSemArith2 Compile.TSemControl
  Compile.TSemSemExpr Compile.TSemSticky Compile.TSemSemStmt.
From GV Require Lang.Sem.
Local Open Scope N_scope.

Lemma forallb_negb_repeat n : forallb negb (repeat false n) = true.
Proof. induction n; [reflexivity|exact IHn]. Qed.

Section Control2.
  Variable P : program.
  Variable VR : ty -> Sem.value -> list bool -> Prop.
  Hypothesis VR_bool : forall v w, VR TBool v w -> exists b, v = Sem.VBool b /\ w = [b].
  Hypothesis VR_unit : VR unit_ty Sem.unit_val [].

  (* [relS ph ss E g]: the scopes of E marked [true] in [ph] are phantom empty scopes; the
     others are related, in order, to the scopes of the source environment and of the context *)
  Inductive relS : list bool -> list (list (N * Sem.value)) -> @cenv bool -> tenv -> Prop :=
  | relS_nil : relS [] [] [] []
  | relS_real ph s cs gs ss E g :
      scope_rel VR s cs gs -> relS ph ss E g -> relS (false :: ph) (s :: ss) (cs :: E) (gs :: g)
  | relS_phantom ph ss E g : relS ph ss E g -> relS (true :: ph) ss ([] :: E) g.

  Definition relP (ph : list bool) (en : Sem.env) (E : @cenv bool) (g : tenv) : Prop :=
    relS ph (Sem.scopes en) E g.

  (* without phantoms this is the relation of TSemSemStmt.v *)
  Lemma relP_of_env_rel3 en E g : env_rel3 VR en E g -> relP (repeat false (length E)) en E g.
  Proof.
    unfold env_rel3, relP. induction 1; cbn [length repeat]; [constructor|]. now constructor.
  Qed.

  Lemma env_rel3_of_relP ph en E g : relP ph en E g -> forallb negb ph = true -> env_rel3 VR en E g.
  Proof.
    unfold env_rel3, relP. induction 1; cbn [forallb negb]; intro Hph; try discriminate Hph; constructor; auto.
  Qed.

  Lemma out_env_rel3 {A} (sm : Sem.outcome (A * Sem.env)) (K : A -> Prop) n (E' : @cenv bool) g (o' : pobs) :
    match sm with
    | Sem.Done (v, en') => o' = None /\ K v /\ relP (repeat false n) en' E' g
    | Sem.Panicked r m => o' = Some (pcode r m)
    | _ => True
    end ->
    match sm with
    | Sem.Done (v, en') => o' = None /\ K v /\ env_rel3 VR en' E' g
    | Sem.Panicked r m => o' = Some (pcode r m)
    | _ => True
    end.
  Proof.
    destruct sm as [[v en']|r m|c|]; intro H; try exact H. destruct H as (-> & HK & Hr).
    repeat split; [exact HK|]. eapply env_rel3_of_relP; [exact Hr|apply forallb_negb_repeat].
  Qed.

  Lemma rel2_wf {ph} en E g : relP ph en E g -> wf_env E.
  Proof.
    unfold relP, wf_env. induction 1 as [|ph s cs gs ss E g [Hs _] _ IH|ph ss E g _ IH]; constructor; try assumption.
    exact I.
  Qed.

  Lemma rel2_scopes {ph} en en' E g : Sem.scopes en' = Sem.scopes en -> relP ph en E g -> relP ph en' E g.
  Proof. unfold relP. now intros ->. Qed.

  Lemma rel2_lookup {ph} en E g x t mu : relP ph en E g -> tlookup g x = Some (t, mu) ->
    exists v w, Sem.lookup_var en x = Some v /\ env_get E x = Some w /\ VR t v w.
  Proof.
    unfold relP, Sem.lookup_var.
    induction 1 as [|ph s cs gs ss E g [_ Hs] _ IH|ph ss E g _ IH]; cbn [tlookup]; try discriminate.
    - cbn [Sem.lookup_scopes env_get]. specialize (Hs x). destruct (assocN x gs) as [[t' mu']|].
      + intros [= -> ->]. destruct Hs as (v & w & -> & -> & HV). eauto.
      + destruct Hs as [-> ->]. exact IH.
    - cbn [env_get assocN]. exact IH.
  Qed.

  Lemma rel2_push {ph} en E g : relP ph en E g -> relP (false :: ph) (Sem.push_scope en) (env_push E) ([] :: g).
  Proof.
    intro H. unfold relP, Sem.push_scope, env_push. cbn [Sem.scopes]. constructor; [|exact H].
    split; [exact I|]. intro x. cbn [assocN]. auto.
  Qed.

  Lemma relS_pop ph ss E g E2 : relS (false :: ph) ss E g -> env_pop E = Ok E2 -> relS ph (tl ss) E2 (tl g).
  Proof. intros H Hp. inversion H; subst. cbn [env_pop] in Hp. injection Hp as <-. assumption. Qed.

  Lemma rel2_pop {ph} en E g E2 : relP (false :: ph) en E g -> env_pop E = Ok E2 ->
    relP ph (Sem.pop_scope en) E2 (tl g).
  Proof. unfold relP, Sem.pop_scope. cbn [Sem.scopes]. apply relS_pop. Qed.

  (* a phantom scope is pushed ... and popped *)
  Lemma rel2_phantom {ph} en E g : relP ph en E g -> relP (true :: ph) en (env_push E) g.
  Proof. intro H. unfold relP, env_push. now constructor. Qed.

  Lemma rel2_unphantom {ph} en E g E2 : relP (true :: ph) en E g -> env_pop E = Ok E2 -> relP ph en E2 g.
  Proof.
    unfold relP. intros H Hp. inversion H; subst. cbn [env_pop] in Hp. injection Hp as <-. assumption.
  Qed.

  Lemma relS_let ph ss E g x t mu v w E' : relS (false :: ph) ss E g -> VR t v w -> env_let E x w = Ok E' ->
    relS (false :: ph) (match ss with s :: r => ((x, v) :: s) :: r | [] => [[(x, v)]] end) E' (tbind g x t mu).
  Proof.
    intros H HV Hl. inversion H as [|ph' s cs gs ss0 E0 g0 [Hso Hs] Hr|]; subst.
    cbn [env_let] in Hl. injection Hl as <-. cbn [tbind].
    constructor; [|exact Hr].
    split; [now apply scope_insert_sorted|]. intro y. cbn [assocN].
    destruct (N.eqb_spec y x) as [->|Hne].
    - exists v, w. rewrite scope_insert_get. auto.
    - rewrite scope_insert_other by exact Hne. apply Hs.
  Qed.

  Lemma rel2_let {ph} en E g x t mu v w E' : relP (false :: ph) en E g -> VR t v w -> env_let E x w = Ok E' ->
    relP (false :: ph) (Sem.bind_var en x v) E' (tbind g x t mu).
  Proof.
    unfold relP, Sem.bind_var. intros H HV Hl.
    pose proof (relS_let _ _ _ _ x t mu v w E' H HV Hl) as H1.
    destruct (Sem.scopes en); exact H1.
  Qed.

  Lemma rel2_assign {ph} en E g x t mu v w E' : relP ph en E g -> tlookup g x = Some (t, mu) -> VR t v w ->
    env_assign E x w = Ok E' ->
    exists en', Sem.assign_var en x v = Some en' /\ relP ph en' E' g.
  Proof.
    unfold relP, Sem.assign_var. intros H Hl HV Ha.
    assert (exists ss', Sem.assign_scopes (Sem.scopes en) x v = Some ss' /\ relS ph ss' E' g) as (ss' & -> & Hr).
    2:{ eexists. split; [reflexivity|exact Hr]. }
    revert E' Hl Ha.
    induction H as [|ph s cs gs ss E g [Hso Hs] Hr0 IH|ph ss E g Hr0 IH]; intros E' Hl Ha; cbn [tlookup] in Hl;
      try discriminate Hl.
    - cbn [env_assign Sem.assign_scopes] in *. pose proof (Hs x) as Hx.
      destruct (assocN x gs) as [[t' mu']|] eqn:Eg.
      + injection Hl as -> ->. destruct Hx as (v0 & w0 & Hv0 & Hw0 & _).
        destruct (update_assoc_some s x v v0 Hv0) as (s' & -> & Hs').
        destruct (scope_replace_some cs x w w0 Hw0) as (cs' & Hcs'). rewrite Hcs' in Ha.
        injection Ha as <-. eexists. split; [reflexivity|]. constructor; [|assumption].
        split; [unfold ssorted; rewrite (scope_replace_keys _ _ _ _ Hcs'); exact Hso|].
        intro y. rewrite Hs', (scope_replace_lookup _ _ _ _ Hcs').
        destruct (N.eqb_spec y x) as [->|Hne]; [|apply Hs]. rewrite Eg. eauto.
      + destruct Hx as [Hsn Hcn]. rewrite (update_assoc_none s x v Hsn).
        rewrite (scope_replace_none' cs x w Hcn) in Ha.
        destruct (env_assign E x w) as [r'| |] eqn:Er; cbn [bind] in Ha; try discriminate. injection Ha as <-.
        destruct (IH r' Hl eq_refl) as (ss' & -> & Hr). eexists. split; [reflexivity|].
        constructor; [split; assumption|exact Hr].
    - cbn [env_assign scope_replace] in Ha.
      destruct (env_assign E x w) as [r'| |] eqn:Er; cbn [bind] in Ha; try discriminate. injection Ha as <-.
      destruct (IH r' Hl eq_refl) as (ss' & Hss & Hr). exists ss'. split; [exact Hss|]. now constructor.
  Qed.

  (* ---------------------------------------------------------------- the agreement predicates and the
     node lemmas of TSemSemStmt.v, for the relation with phantom scopes *)

  Definition AgE2 (fuel : nat) (g : tenv) (e : expr) : Prop :=
    forall ph en E fT w E' o',
    relP ph en E g -> lower_expr tops fT P e E None = Ok ((w, E'), o') ->
    match Sem.eval fuel P en e with
    | Sem.Done (v, en') => o' = None /\ VR (e_ty e) v w /\ relP ph en' E' g
    | Sem.Panicked r m => o' = Some (pcode r m)
    | _ => True
    end.

  (* a statement: [g'] the context after it, [t] its type *)
  Definition AgS2 (fuel : nat) (g g' : tenv) (t : ty) (s : stmt) : Prop :=
    forall ph en E fT w E' o',
    relP (false :: ph) en E g -> lower_stmt tops fT P s E None = Ok ((w, E'), o') ->
    match Sem.exec fuel P en s with
    | Sem.Done (v, en') => o' = None /\ VR t v w /\ relP (false :: ph) en' E' g'
    | Sem.Panicked r m => o' = Some (pcode r m)
    | _ => True
    end.

  (* as a relation of SimNodes.v: the state is the mask, a scope that is opened is a real one *)

  Lemma rel2_kd ph en E g : relP ph en E g -> Forall keys_distinct E.
  Proof. intro H. exact (wf_env_distinct E (rel2_wf en E g H)). Qed.

  Definition relP_nodes : node_rel VR :=
    {| State := list bool; inner := cons false; rel := relP; ctx_ok := fun _ => True;
       nr_ctx := fun _ _ _ _ _ => I; nr_kd := rel2_kd; nr_scopes := @rel2_scopes; nr_lookup := @rel2_lookup;
       nr_push := @rel2_push; nr_pop := fun ph en E g E2 H Hp _ => rel2_pop en E g E2 H Hp;
       nr_let := @rel2_let |}.

  Lemma relP_assign g x t mu : tlookup g x = Some (t, mu) -> assignable VR relP_nodes g x t.
  Proof. intros Hl ph en E v w E' H. exact (rel2_assign en E g x t mu v w E' H Hl). Qed.

  (* [SimNodes.AgSSG] over [AgS2] ([AgSS2_G]) *)
  Inductive AgSS2 (f : nat) : tenv -> list stmt -> ty -> tenv -> ty -> Prop :=
  | AgSS22_nil g t : AgSS2 f g [] t g t
  | AgSS22_cons g s r g1 t1 t0 g' t :
      AgS2 f g g1 t1 s -> AgSS2 f g1 r t1 g' t -> AgSS2 f g (s :: r) t0 g' t.

  Lemma AgSS2_G f g ss t0 g' t : AgSS2 f g ss t0 g' t -> AgSSG P VR relP_nodes f g ss t0 g' t.
  Proof. induction 1 as [|g s r g1 t1 t0 g' t Hs _ IH]; econstructor; [exact Hs|exact IH]. Qed.

  Lemma AgSS2_of_G f g ss t0 g' t : AgSSG P VR relP_nodes f g ss t0 g' t -> AgSS2 f g ss t0 g' t.
  Proof. induction 1 as [|g s r g1 t1 t0 g' t Hs _ IH]; econstructor; [exact Hs|exact IH]. Qed.

  Lemma stmts_node2 f g ss t0 g' t : AgSS2 f g ss t0 g' t ->
    forall ph en E fT last lw w E' o',
    relP (false :: ph) en E g -> VR t0 last lw ->
    block_stmts (lower_stmt tops fT P) ss lw E None = Ok ((w, E'), o') ->
    match sem_stmts P f ss last en with
    | Sem.Done (v, en') => o' = None /\ VR t v w /\ relP (false :: ph) en' E' g'
    | Sem.Panicked r m => o' = Some (pcode r m)
    | _ => True
    end.
  Proof. intro H. exact (SimNodes.stmts_node P VR relP_nodes f g ss t0 g' t (AgSS2_G _ _ _ _ _ _ H)). Qed.

  (* the body of a block (its own scope pushed and popped) agrees *)
  Definition AgB2 (fuel : nat) (g : tenv) (b : list stmt) (t : ty) : Prop :=
    forall ph en E fT w E' o',
    relP ph en E g -> lower_block tops fT P b E None = Ok ((w, E'), o') ->
    match Sem.obind (Sem.exec_block fuel P (Sem.push_scope en) b)
                    (fun '(v, en1) => Sem.Done (v, Sem.pop_scope en1)) with
    | Sem.Done (v, en') => o' = None /\ VR t v w /\ relP ph en' E' g
    | Sem.Panicked r m => o' = Some (pcode r m)
    | _ => True
    end.

  (* ---------------------------------------------------------------- function calls *)

  (* the loop of [Sem.eval] over argument lists *)
  Fixpoint sem_list (f : nat) (es : list expr) (en : Sem.env) : Sem.outcome (list Sem.value * Sem.env) :=
    match es with
    | [] => Sem.Done ([], en)
    | e :: r =>
        Sem.obind (Sem.eval f P en e) (fun '(v, en1) =>
        Sem.obind (sem_list f r en1) (fun '(vs, en2) => Sem.Done (v :: vs, en2)))
    end.

  Lemma sem_eval_call f en fn args m t :
    Sem.eval (S f) P en (Ex (ECall fn args) m t) =
    match find_fn P fn with
    | Some d =>
        Sem.obind (sem_list f args en) (fun '(vs, en1) =>
          if negb (length vs =? length (fn_params d))%nat then Sem.Stuck 46 else
          Sem.obind (Sem.exec_block f P
                       (Sem.push_scope (Sem.bind_all (Sem.mkEnv [[]; last (Sem.scopes en1) []] (Sem.lenient en1))
                                          (combine (map fst (fn_params d)) vs)))
                       (fn_body d))
                    (fun '(v, en2) => Sem.Done (v, Sem.mkEnv (Sem.scopes en1) (Sem.lenient en2))))
    | None => Sem.Stuck 47
    end.
  Proof.
    cbn [Sem.eval]. destruct (find_fn P fn) as [d|]; [|reflexivity].
    match goal with |- Sem.obind (?F args en) _ = _ =>
      assert (HF : forall es en0, F es en0 = sem_list f es en0) end.
    { induction es as [|e r IH]; intro en0; [reflexivity|]. cbn [sem_list].
      destruct (Sem.eval f P en0 e) as [[v en1]|r1 m1|c1|]; cbn [Sem.obind]; try reflexivity.
      rewrite IH. reflexivity. }
    rewrite HF. reflexivity.
  Qed.

  Lemma sticky_b fT b E x w E' o' : lower_block tops fT P b E (Some x) = Ok ((w, E'), o') -> o' = Some x.
  Proof. exact (stkx_block x P fT b E (w, E') o'). Qed.

  (* the loop of [Sem.exec] for [SFor] with an identifier pattern *)
  Fixpoint sem_for (f : nat) (x : N) (body : list stmt) (vs : list Sem.value) (en : Sem.env)
    : Sem.outcome Sem.env :=
    match vs with
    | [] => Sem.Done en
    | v :: r =>
        Sem.obind (Sem.exec_block f P (Sem.bind_var (Sem.push_scope en) x v) body)
                  (fun '(_, en1) => sem_for f x body r (Sem.pop_scope en1))
    end.

  (* [lower_stmts] is [block_stmts] without the value *)
  Lemma lower_stmts_block (rs : stmt -> @cenv bool -> MB (list bool * @cenv bool)) :
    forall ss last E (o : pobs) E' o', lower_stmts rs ss E o = Ok (E', o') ->
    exists w, block_stmts rs ss last E o = Ok ((w, E'), o').
  Proof.
    induction ss as [|s r IH]; intros last E o E' o' H; cbn [lower_stmts block_stmts] in *.
    - apply ret_inv in H. destruct H as [-> ->]. eexists. reflexivity.
    - minva H as [w1 E1] o1 H1. destruct (IH w1 E1 o1 E' o' H) as [w Hw]. exists w.
      unfold mbind. rewrite H1. exact Hw.
  Qed.

  (* [outer s]: the state inside a phantom scope *)
  Section CallNodes.
    Variable R : node_rel VR.
    Variable outer : State R -> State R.
    Hypothesis rel_phantom : forall s en E g, rel R s en E g -> rel R (outer s) en (env_push E) g.
    Hypothesis rel_unphantom : forall s en E g E2, rel R (outer s) en E g -> env_pop E = Ok E2 -> rel R s en E2 g.

    (* arguments: each one in a phantom scope *)
    Lemma args_nodeG f g : forall args params,
      Forall2 (fun a (p : N * ty) => AgEG P VR R f g a /\ e_ty a = snd p) args params ->
      forall s en E fT bs E1 o1, rel R s en E g ->
      lower_args (lower_expr tops fT P) params args E None = Ok ((bs, E1), o1) ->
      match sem_list f args en with
      | Sem.Done (vs, en1) =>
          o1 = None /\ rel R s en1 E1 g /\
          Forall3 (fun v (b : N * list bool) (p : N * ty) => fst b = fst p /\ VR (snd p) v (snd b)) vs bs params
      | Sem.Panicked r m => o1 = Some (pcode r m)
      | _ => True
      end.
    Proof.
      induction 1 as [|a [pn pt] ar pr [IHa Eta] _ IH]; intros s en E fT bs E1 o1 Hrel Hrun.
      - cbn [lower_args] in Hrun. apply ret_inv in Hrun. destruct Hrun as [Heq ->]. injection Heq as -> ->.
        cbn [sem_list]. repeat split; [exact Hrel|constructor].
      - cbn [lower_args] in Hrun. minva Hrun as [w Ea] oa Ha. minva Hrun as Eb ob Hp.
        apply lift_res_inv in Hp. destruct Hp as [Hp ->]. minva Hrun as [bs' Ec] oc Hr.
        apply ret_inv in Hrun. destruct Hrun as [Heq ->]. injection Heq as -> ->.
        cbn [sem_list]. pose proof (IHa (outer s) en (env_push E) fT _ _ _ (rel_phantom _ _ _ _ Hrel) Ha) as IH1.
        revert IH1. destruct (Sem.eval f P en a) as [[v en1]|r1 m1|c1|]; intro IH1; cbn [Sem.obind]; try exact I.
        + destruct IH1 as (-> & HV & Hrel1). pose proof (rel_unphantom _ _ _ _ _ Hrel1 Hp) as Hrel2.
          pose proof (IH s en1 Eb fT _ _ _ Hrel2 Hr) as IH2. revert IH2.
          destruct (sem_list f ar en1) as [[vs en2]|r2 m2|c2|]; intro IH2; cbn [Sem.obind]; try exact I; [|exact IH2].
          destruct IH2 as (-> & Hrel3 & HF). repeat split; [exact Hrel3|].
          constructor; [|exact HF]. cbn [fst snd] in *. split; [reflexivity|]. now rewrite <- Eta.
        + subst oa. exact (stkx_lower_args _ _ (stkx_expr _ P fT) pr ar Eb _ _ Hr).
    Qed.

    Lemma callee_relG : forall vs bs params,
      Forall3 (fun v (b : N * list bool) (p : N * ty) => fst b = fst p /\ VR (snd p) v (snd b)) vs bs params ->
      forall s en E g E', rel R (inner R s) en E g ->
      fold_left (fun Er b => let* E0 := Er in env_let E0 (fst b) (snd b)) bs (Ok E) = Ok E' ->
      rel R (inner R s) (Sem.bind_all en (combine (map fst params) vs)) E' (tbind_all g params true).
    Proof.
      induction 1 as [|v [bn bw] [pn pt] vs bs params [Hn HV] _ IH]; intros s en E g E' Hrel Hf.
      - cbn in Hf. injection Hf as <-. exact Hrel.
      - cbn [fst snd] in Hn, HV. subst bn. cbn [fold_left bind fst snd] in Hf.
        destruct (env_let E pn bw) as [E1| |] eqn:El;
          [|exfalso; eapply fold_env_let_not_ok; [|exact Hf]; intros ? Hq; discriminate Hq
           |exfalso; eapply fold_env_let_not_ok; [|exact Hf]; intros ? Hq; discriminate Hq].
        unfold Sem.bind_all, tbind_all. cbn [map fst combine fold_left snd].
        apply (IH s _ E1 _ E'); [|exact Hf]. eapply nr_let; eassumption.
    Qed.

    (* the iterations: one chunk of wires per element *)
    Lemma for_iter_nodeG f' g x mp tel body g1 tb eb :
      AgSSG P VR R f' (tbind ([] :: g) x tel false) body unit_ty g1 tb -> tl g1 = g ->
      forall vs chunks, Forall2 (VR tel) vs chunks -> (forall c, In c chunks -> length c = eb) ->
      forall s en E fT E' o', rel R s en E g ->
      for_iterations (lower_pattern tops fT P) (lower_stmt tops fT P) (Pat (PId x) mp tel) body eb
        (length chunks) (concat chunks) E None = Ok (E', o') ->
      match sem_for (S f') x body vs en with
      | Sem.Done en' => o' = None /\ rel R s en' E' g
      | Sem.Panicked r m => o' = Some (pcode r m)
      | _ => True
      end.
    Proof.
      intros Hss Htl. induction 1 as [|v c vs cs HV _ IH]; intros Hlen s en E fT E' o' Hrel Hrun.
      - cbn [length for_iterations] in Hrun. apply ret_inv in Hrun. destruct Hrun as [-> ->]. cbn [sem_for]. auto.
      - cbn [length concat for_iterations] in Hrun.
        assert (Hc : length c = eb) by (apply Hlen; now left).
        minva Hrun as bnd o1 Hsl. apply lift_res_inv in Hsl. destruct Hsl as [Hsl ->].
        unfold slice in Hsl. cbn [Nat.add skipn] in Hsl.
        destruct (eb <=? length (c ++ concat cs))%nat; [|discriminate Hsl]. injection Hsl as <-.
        rewrite <- Hc, firstn_app, Nat.sub_diag, firstn_all in Hrun. cbn [firstn] in Hrun. rewrite app_nil_r in Hrun.
        rewrite skipn_app, Nat.sub_diag, skipn_all in Hrun. cbn [skipn app] in Hrun. rewrite Hc in Hrun.
        minva Hrun as [cm Ea] o2 Hp. minva Hrun as Eb o3 Hb. minva Hrun as Ec o4 Hpop.
        apply lift_res_inv in Hpop. destruct Hpop as [Hpop ->].
        apply pat_id_run in Hp. destruct Hp as [Hl ->].
        pose proof (nr_let R _ _ _ _ x tel false v c _ (nr_push R _ _ _ _ Hrel) HV Hl) as Hrel1.
        destruct (lower_stmts_block _ body [] _ _ _ _ Hb) as [wb Hbb].
        cbn [sem_for]. rewrite exec_block_stmts.
        pose proof (SimNodes.stmts_node P VR R f' _ _ _ _ _ Hss s _ _ fT Sem.unit_val [] _ _ _
                      Hrel1 VR_unit Hbb) as IH1.
        revert IH1.
        destruct (exec_stmts P f' body Sem.unit_val (Sem.bind_var (Sem.push_scope en) x v)) as [[vb en1]|r1 m1|c1|];
          intro IH1; cbn [Sem.obind]; try exact I.
        + destruct IH1 as (-> & _ & Hrel2).
          pose proof (nr_pop R _ _ _ _ _ Hrel2 Hpop ltac:(rewrite Htl; exact (nr_ctx R _ _ _ _ Hrel))) as Hrel3.
          rewrite Htl in Hrel3. apply (IH (fun c0 Hin => Hlen c0 (or_intror Hin)) s _ _ fT _ _ Hrel3 Hrun).
        + subst o3. destruct (tsem_sticky_fuel (preason_num (pr r1), ploc32 (ploc_of m1)) P fT) as (_ & _ & Hs & Hpp).
          exact (stkx_for_iterations _ _ _ Hpp Hs _ _ _ _ _ _ _ _ Hrun).
    Qed.
  End CallNodes.

  Lemma args_node f g : forall args params,
    Forall2 (fun a (p : N * ty) => AgE2 f g a /\ e_ty a = snd p) args params ->
    forall ph en E fT bs E1 o1, relP ph en E g ->
    lower_args (lower_expr tops fT P) params args E None = Ok ((bs, E1), o1) ->
    match sem_list f args en with
    | Sem.Done (vs, en1) =>
        o1 = None /\ relP ph en1 E1 g /\
        Forall3 (fun v (b : N * list bool) (p : N * ty) => fst b = fst p /\ VR (snd p) v (snd b)) vs bs params
    | Sem.Panicked r m => o1 = Some (pcode r m)
    | _ => True
    end.
  Proof. exact (args_nodeG relP_nodes (cons true) (@rel2_phantom) (@rel2_unphantom) f g). Qed.

  Lemma scope_rel_nil s cs : scope_rel VR s cs [] -> s = [] /\ cs = [].
  Proof.
    intros [_ H]. split.
    - destruct s as [|[k v] s]; [reflexivity|]. destruct (H k) as [H1 _]. cbn [assocN] in H1.
      rewrite N.eqb_refl in H1. discriminate H1.
    - destruct cs as [|[k v] cs]; [reflexivity|]. destruct (H k) as [_ H1]. cbn [assocN] in H1.
      rewrite N.eqb_refl in H1. discriminate H1.
  Qed.

  Lemma last_cons_ne {A} (a : A) l d : l <> [] -> last (a :: l) d = last l d.
  Proof. destruct l; [congruence|reflexivity]. Qed.

  Lemma relS_nil_g' ph ss E g : relS ph ss E g -> g = [] -> ss = [] /\ last ([] :: E) [] = [].
  Proof.
    induction 1 as [|ph s cs gs ss E g _ _ _|ph ss E g _ IH]; intro Eg; try discriminate Eg.
    - auto.
    - destruct (IH Eg) as [-> Hl]. split; [reflexivity|]. destruct E; [reflexivity|]. exact Hl.
  Qed.

  Lemma relS_nil_g ph ss E : relS ph ss E [] -> ss = [] /\ last ([] :: E) [] = [].
  Proof. intro H. now apply (relS_nil_g' _ _ _ _ H). Qed.

  (* the outermost scope is the empty scope of the (absent) global constants *)
  Lemma rel_last ph ss E g : relS ph ss E g -> g <> [] -> last g [] = [] ->
    last ss [] = [] /\ last E [] = [] /\ ss <> [] /\ E <> [].
  Proof.
    induction 1 as [|ph s cs gs ss E g Hs Hr IH|ph ss E g Hr IH]; intros Hne Hl; [congruence| |].
    - destruct g as [|g1 g'].
      + cbn [last] in Hl. subst gs. destruct (scope_rel_nil _ _ Hs) as [-> ->].
        destruct (relS_nil_g _ _ _ Hr) as [-> HE]. repeat split; try discriminate. exact HE.
      + rewrite last_cons_ne in Hl by discriminate.
        destruct (IH ltac:(discriminate) Hl) as (H1 & H2 & H3 & H4).
        rewrite !last_cons_ne by assumption. repeat split; try discriminate; assumption.
    - destruct (IH Hne Hl) as (H1 & H2 & H3 & H4).
      rewrite last_cons_ne by assumption. repeat split; try discriminate; assumption.
  Qed.

  Lemma tbind_all_cons gs g bs mu : exists gs', tbind_all (gs :: g) bs mu = gs' :: g.
  Proof.
    revert gs. induction bs as [|[x t] r IH]; intro gs; [exists gs; reflexivity|]. unfold tbind_all in *. cbn [fold_left tbind fst snd].
    apply IH.
  Qed.

  (* the environment of the callee: the parameters in a scope of their own over the global scope *)
  Lemma callee_rel : forall vs bs params,
    Forall3 (fun v (b : N * list bool) (p : N * ty) => fst b = fst p /\ VR (snd p) v (snd b)) vs bs params ->
    forall en E g E', relP [false; false] en E g ->
    fold_left (fun Er b => let* E0 := Er in env_let E0 (fst b) (snd b)) bs (Ok E) = Ok E' ->
    relP [false; false] (Sem.bind_all en (combine (map fst params) vs)) E' (tbind_all g params true).
  Proof.
    intros vs bs params HF. exact (callee_relG relP_nodes vs bs params HF [false]).
  Qed.

  Lemma call_node f g fn args m t d :
    find_fn P fn = Some d ->
    Forall2 (fun a (p : N * ty) => AgE2 f g a /\ e_ty a = snd p) args (fn_params d) ->
    AgB2 f (tbind_all [[]; []] (fn_params d) true) (fn_body d) t ->
    g <> [] -> last g [] = [] ->
    AgE2 (S f) g (Ex (ECall fn args) m t).
  Proof.
    intros Hfind Hargs Hbody Hgne Hgl ph en E fT w E' o' Hrel Hrun.
    destruct fT as [|fT]; [discriminate Hrun|]. rewrite lower_expr_S in Hrun. cbn [lower_expr_body] in Hrun.
    rewrite Hfind in Hrun. minva Hrun as [bs E1] o1 Ha.
    destruct (rev E1) as [|glob crev] eqn:Erev; [discriminate Hrun|].
    minva Hrun as Ecallee o2 Hbind. apply lift_res_inv in Hbind. destruct Hbind as [Hbind ->].
    minva Hrun as [bw E2] o3 Hb. minva Hrun as E3 o4 Hp. apply lift_res_inv in Hp. destruct Hp as [Hp ->].
    apply ret_inv in Hrun. destruct Hrun as [Heq ->]. injection Heq as -> ->.
    rewrite sem_eval_call, Hfind.
    pose proof (args_node f g args (fn_params d) Hargs ph en E fT _ _ _ Hrel Ha) as IH1. revert IH1.
    destruct (sem_list f args en) as [[vs en1]|r1 m1|c1|]; intro IH1; cbn [Sem.obind]; try exact I.
    - destruct IH1 as (-> & Hrel1 & HF).
      assert (length vs = length (fn_params d)) as Hlen.
      { clear - HF. induction HF; cbn [length]; congruence. }
      rewrite Hlen, Nat.eqb_refl. cbn [negb].
      destruct (rel_last _ _ _ _ Hrel1 Hgne Hgl) as (Hls & HlE & _ & _).
      assert (E1 = rev crev ++ [glob]) as HE1.
      { rewrite <- (rev_involutive E1), Erev. reflexivity. }
      assert (glob = []) as ->.
      { rewrite HE1, last_last in HlE. exact HlE. }
      rewrite Hls.
      assert (Hrel0 : relP [false; false] (Sem.mkEnv [[]; []] (Sem.lenient en1)) (env_push [[]]) [[]; []]).
      { unfold relP, env_push. cbn [Sem.scopes].
        assert (scope_rel VR [] [] []) as Hnil by (split; [exact I|intro x; cbn; auto]).
        repeat constructor; exact Hnil. }
      unfold Lower.bind_all in Hbind.
      pose proof (callee_rel _ _ _ HF _ _ _ _ Hrel0 Hbind) as Hrelc.
      pose proof (Hbody [false; false] _ _ fT _ _ _ Hrelc Hb) as IH2. revert IH2.
      destruct (Sem.exec_block f P _ (fn_body d)) as [[v en2]|r2 m2|c2|]; intro IH2; cbn [Sem.obind]; try exact I;
        [|exact IH2].
      destruct IH2 as (-> & HV & Hrel2). cbn [e_ty]. split; [reflexivity|]. split; [exact HV|].
      (* the callee leaves the (empty) global scope as it is *)
      destruct (tbind_all_cons [] [[]] (fn_params d) true) as [gs' Hg]. rewrite Hg in Hrel2.
      unfold relP in Hrel2. inversion Hrel2 as [|? s1 cs1 ? ss1 Ex1 ? Hs1 Hr1|]; subst.
      inversion Hr1 as [|? s2 cs2 ? ss2 Ex2 ? Hs2 Hr2|]; subst. inversion Hr2; subst.
      destruct (scope_rel_nil _ _ Hs2) as [_ ->].
      cbn [env_pop] in Hp. injection Hp as <-.
      eapply rel2_scopes; [|exact Hrel1]. reflexivity.
    - subst o1. pose proof (sticky_b _ _ _ _ _ _ _ Hb) as ->. reflexivity.
  Qed.

  (* ---------------------------------------------------------------- for loops *)

  (* the iterations: one chunk of wires per element *)
  Lemma for_iter_node f' g x mp tel body g1 tb eb :
    AgSS2 f' (tbind ([] :: g) x tel false) body unit_ty g1 tb -> tl g1 = g ->
    forall vs chunks, Forall2 (VR tel) vs chunks -> (forall c, In c chunks -> length c = eb) ->
    forall ph en E fT E' o', relP ph en E g ->
    for_iterations (lower_pattern tops fT P) (lower_stmt tops fT P) (Pat (PId x) mp tel) body eb
      (length chunks) (concat chunks) E None = Ok (E', o') ->
    match sem_for (S f') x body vs en with
    | Sem.Done en' => o' = None /\ relP ph en' E' g
    | Sem.Panicked r m => o' = Some (pcode r m)
    | _ => True
    end.
  Proof.
    intros Hss Htl.
    exact (for_iter_nodeG relP_nodes f' g x mp tel body g1 tb eb (AgSS2_G _ _ _ _ _ _ Hss) Htl).
  Qed.

End Control2.

(* ------------------------------------------------------------------ for loops over a range *)

Section ForRange.
  Variable P : program.

  Lemma sem_exec_for f en x mp tp lo hi bits ma ta body m :
    Sem.exec (S (S f)) P en (St (SFor (Pat (PId x) mp tp) (Ex (ERange lo hi bits) ma ta) body) m) =
    Sem.obind (sem_for P (S f) x body
                 (map (fun k => Sem.VInt (Z.of_N lo + Z.of_nat k)) (seq 0 (N.to_nat (hi - lo)))) en)
              (fun en2 => Sem.Done (Sem.unit_val, en2)).
  Proof.
    cbn [Sem.exec Sem.eval Sem.obind]. unfold Sem.andthen.
    match goal with |- Sem.obind (?F ?vs en) _ = _ =>
      assert (HF : forall l e0, F l e0 = sem_for P (S f) x body l e0) end.
    { induction l as [|v r IH]; intro e0; [reflexivity|]. cbn [sem_for Sem.pmatch Sem.bind_all fold_left fst snd].
      destruct (Sem.exec_block (S f) P (Sem.bind_var (Sem.push_scope e0) x v) body) as [[vb en1]|r1 m1|c1|];
        cbn [Sem.obind]; try reflexivity. apply IH. }
    rewrite HF. reflexivity.
  Qed.

  Lemma Forall2_map_in {A B C} (R : B -> C -> Prop) (f : A -> B) (h : A -> C) l :
    (forall k, In k l -> R (f k) (h k)) -> Forall2 R (map f l) (map h l).
  Proof.
    induction l as [|a l IH]; intro H; cbn [map]; constructor; [apply H; now left|].
    apply IH. intros k Hk. apply H. now right.
  Qed.

  Lemma for_node2 f' g x mp lo hi bits ma body m g1 tb :
    ok_width bits = true -> lo <= hi -> hi <= 2 ^ bits ->
    AgSS2 P VRs f' (tbind ([] :: g) x (TInt false bits) false) body unit_ty g1 tb -> tl g1 = g ->
    AgS2 P VRs (S (S f')) g g unit_ty
      (St (SFor (Pat (PId x) mp (TInt false bits))
                (Ex (ERange lo hi bits) ma (TArr (TInt false bits) (hi - lo))) body) m).
  Proof.
    intros Hb Hlo Hhi Hss Htl ph en E fT w E' o' Hrel Hrun.
    destruct fT as [|fT]; [discriminate Hrun|]. rewrite lower_stmt_S in Hrun.
    cbn [lower_stmt_body e_ty array_size] in Hrun.
    minva Hrun as [eb n] o1 H1. apply lift_res_inv in H1. destruct H1 as [H1 ->]. injection H1 as <- <-.
    minva Hrun as [aw E1] o2 Ha.
    destruct fT as [|fT']; [discriminate Ha|]. rewrite lower_expr_S in Ha. cbn [lower_expr_body] in Ha.
    destruct (N.ltb_spec hi lo) as [Hlt|_]; [lia|]. apply ret_inv in Ha. destruct Ha as [Heq ->].
    injection Heq as -> ->.
    minva Hrun as E2 o3 Hf. apply ret_inv in Hrun. destruct Hrun as [Heq ->]. injection Heq as -> ->.
    set (chunks := map (fun k => unsigned_as_wires tops (lo + N.of_nat k) (N.to_nat bits)) (seq 0 (N.to_nat (hi - lo)))) in *.
    assert (Hn : N.to_nat (hi - lo) = length chunks) by (unfold chunks; now rewrite map_length, seq_length).
    rewrite Hn in Hf.
    rewrite sem_exec_for.
    assert (HF2 : Forall2 (VRs (TInt false bits))
              (map (fun k => Sem.VInt (Z.of_N lo + Z.of_nat k)) (seq 0 (N.to_nat (hi - lo)))) chunks).
    { unfold chunks. apply Forall2_map_in. intros k Hk. apply in_seq in Hk.
      rewrite tsem_unsigned_as_wires.
      replace (Z.of_N (lo + N.of_nat k)) with (Z.of_N lo + Z.of_nat k)%Z by lia.
      apply (VRs_intro (TInt false bits) (Sem.VInt (Z.of_N lo + Z.of_nat k))); [exact Hb|].
      cbn [val_ok]. apply (in_range_of_bounds false). split; [lia|].
      rewrite <- pow2_N_Z. lia. }
    assert (Hlen : forall c, In c chunks -> length c = szn P (TInt false bits)).
    { intros c Hc. unfold chunks in Hc. apply in_map_iff in Hc. destruct Hc as (k & <- & _).
      rewrite tsem_unsigned_as_wires. apply length_enc. }
    pose proof (for_iter_node P VRs VRs_unit f' g x mp (TInt false bits) body g1 tb _ Hss Htl _ _ HF2 Hlen
                  (false :: ph) en E (S fT') _ _ Hrel Hf) as IH1. revert IH1.
    destruct (sem_for P (S f') x body _ en) as [en'|r1 m1|c1|]; intro IH1; cbn [Sem.obind]; try exact I; [|exact IH1].
    destruct IH1 as [-> Hrel2]. split; [reflexivity|]. split; [exact VRs_unit|exact Hrel2].
  Qed.
End ForRange.

(* ------------------------------------------------------------------ the fragment with calls *)

Fixpoint imp2_expr (e : expr) : bool :=
  match e with
  | Ex ei _ _ =>
    match ei with
    | ETrue | EFalse | ENumU _ _ | ENumS _ _ | EId _ => true
    | ENeg e1 | ENot e1 | ECast _ e1 => imp2_expr e1
    | EOp o x y =>
        imp2_expr x && imp2_expr y &&
        match o with OMul => negb (is_num_lit x) && negb (is_num_lit y) | _ => true end
    | EIf c a b => imp2_expr c && imp2_expr a && imp2_expr b
    | EBlock b => forallb imp2_stmt b
    | ECall _ args => forallb imp2_expr args
    | _ => false
    end
  end
with imp2_stmt (s : stmt) : bool :=
  match s with
  | St si _ =>
    match si with
    | SLet (Pat (PId _) _ _) e => imp2_expr e
    | SLetMut _ e => imp2_expr e
    | SAssign _ [] e => imp2_expr e
    | SFor (Pat (PId _) _ _) (Ex (ERange _ _ _) _ _) body => forallb imp2_stmt body
    | SExpr e => imp2_expr e
    | _ => false
    end
  end.


(* ------------------------------------------------------------------ the strict checker with calls
   (the body of the callee is checked once per function: [sc2_fn], [sc2_fns]) *)

Fixpoint sc2_expr (fuel : nat) (P : program) (g : tenv) (e : expr) {struct fuel} : bool :=
  match fuel with
  | O => false
  | S f =>
    match e with
    | Ex ei _ t =>
      match ei with
      | ETrue | EFalse => sty_eqb t TBool
      | ENumU n _ => match t with TInt _ b => ok_width b && lit_fits t (Z.of_N n) | _ => false end
      | ENumS z _ => match t with TInt _ b => ok_width b && lit_fits t z | _ => false end
      | EId x => match tlookup g x with Some (tx, _) => vt_eqb tx t | None => false end
      | ENeg e1 =>
          match t with
          | TInt true b => ok_width b && sty_eqb (e_ty e1) t && sc2_expr f P g e1
          | _ => false
          end
      | ENot e1 => scalar_ty t && sty_eqb (e_ty e1) t && sc2_expr f P g e1
      | ECast to e1 => scalar_ty t && sty_eqb to t && scalar_ty (e_ty e1) && sc2_expr f P g e1
      | EOp o x y => sc2_expr f P g x && sc2_expr f P g y && sc_op o x y t
      | EIf c a b =>
          sty_eqb (e_ty c) TBool && vt_eqb (e_ty a) t && vt_eqb (e_ty b) t &&
          sc2_expr f P g c && sc2_expr f P g a && sc2_expr f P g b
      | EBlock b => match sc2_block f P ([] :: g) b with Some tb => vt_eqb tb t | None => false end
      | ECall fn args =>
          match find_fn P fn with
          | Some d =>
              vt_eqb (fn_ret d) t &&
              forallb2 (fun a (p : N * ty) => vt_eqb (e_ty a) (snd p) && sc2_expr f P g a) args (fn_params d)
          | None => false
          end
      | _ => false
      end
    end
  end
with sc2_block (fuel : nat) (P : program) (g : tenv) (b : list stmt) {struct fuel} : option ty :=
  match fuel with
  | O => None
  | S f =>
      (fix go (ss : list stmt) (g : tenv) (last : ty) : option ty :=
         match ss with
         | [] => Some last
         | s :: r => match sc2_stmt f P g s with Some (g', t) => go r g' t | None => None end
         end) b g unit_ty
  end
with sc2_stmt (fuel : nat) (P : program) (g : tenv) (s : stmt) {struct fuel} : option (tenv * ty) :=
  match fuel with
  | O => None
  | S f =>
    match s with
    | St si _ =>
      match si with
      | SLet (Pat (PId x) _ tp) e =>
          if sc2_expr f P g e && vt_eqb tp (e_ty e) then Some (tbind g x tp false, unit_ty) else None
      | SLetMut x e => if sc2_expr f P g e then Some (tbind g x (e_ty e) true, unit_ty) else None
      | SAssign x [] e =>
          match tlookup g x with
          | Some (tx, true) => if vt_eqb tx (e_ty e) && sc2_expr f P g e then Some (g, unit_ty) else None
          | _ => None
          end
      | SFor (Pat (PId x) _ tp) (Ex (ERange lo hi bits) _ ta) body =>
          if ok_width bits && (lo <=? hi) && (hi <=? 2 ^ bits) && sty_eqb tp (TInt false bits) &&
             match ta with
             | TArr (TInt false b2) n2 => (b2 =? bits) && (n2 =? hi - lo)
             | _ => false
             end
          then match sc2_block f P (tbind ([] :: g) x tp false) body with
               | Some _ => Some (g, unit_ty)
               | None => None
               end
          else None
      | SExpr e => if sc2_expr f P g e then Some (g, e_ty e) else None
      | _ => None
      end
    end
  end.

(* the forms beyond TSemSemStmt.v: [sc2_expr] / [sc2_stmt] are the fixed point of
   [sc_node] / [sc_snode] with these extensions *)
Definition sc2_ext (rec : tenv -> expr -> bool) (P : program) (g : tenv) (e : expr) : bool :=
  match e with
  | Ex (ECall fn args) _ t =>
      match find_fn P fn with
      | Some d =>
          vt_eqb (fn_ret d) t &&
          forallb2 (fun a (p : N * ty) => vt_eqb (e_ty a) (snd p) && rec g a) args (fn_params d)
      | None => false
      end
  | _ => false
  end.

Definition sc2_sext (recb : tenv -> list stmt -> option ty) (g : tenv) (s : stmt) : option (tenv * ty) :=
  match s with
  | St (SFor (Pat (PId x) _ tp) (Ex (ERange lo hi bits) _ ta) body) _ =>
      if ok_width bits && (lo <=? hi) && (hi <=? 2 ^ bits) && sty_eqb tp (TInt false bits) &&
         match ta with
         | TArr (TInt false b2) n2 => (b2 =? bits) && (n2 =? hi - lo)
         | _ => false
         end
      then match recb (tbind ([] :: g) x tp false) body with
           | Some _ => Some (g, unit_ty)
           | None => None
           end
      else None
  | _ => None
  end.

Lemma sc2_expr_S fw P g e :
  sc2_expr (S fw) P g e = sc_node (sc2_expr fw P) (sc2_block fw P) (sc2_ext (sc2_expr fw P) P) g e.
Proof. destruct e as [[] m t]; reflexivity. Qed.

Lemma sc2_stmt_S fw P g s :
  sc2_stmt (S fw) P g s = sc_snode (sc2_expr fw P) (sc2_sext (sc2_block fw P)) g s.
Proof. destruct s as [[] m]; reflexivity. Qed.

Lemma sc2_sext_ctx recb g s g' t : sc2_sext recb g s = Some (g', t) -> g' = g.
Proof.
  destruct s as [[] m]; try discriminate. destruct p as [[] mp tp]; try discriminate.
  destruct arr as [[] ma ta]; try discriminate. cbn [sc2_sext].
  destruct (_ && _); [|discriminate]. destruct (recb _ body); [|discriminate]. now intros [= <- _].
Qed.

(* the outermost scope of the context is the empty scope of the global constants (programs
   without constants), under at least one more scope *)
Definition G2 (g : tenv) : Prop := (2 <= length g)%nat /\ last g [] = [].

Lemma G2_push g : G2 g -> G2 ([] :: g).
Proof. intros [Hl Hla]. split; [cbn [length]; lia|]. destruct g; [cbn in Hl; lia|exact Hla]. Qed.

Lemma G2_tbind g x t mu : G2 g -> G2 (tbind g x t mu).
Proof.
  intros [Hl Hla]. destruct g as [|gs [|g2 g']]; cbn [length] in Hl; try lia.
  cbn [tbind]. split; [cbn [length]; lia|exact Hla].
Qed.

Lemma G2_ne g : G2 g -> g <> [] /\ last g [] = [].
Proof. intros [Hl Hla]. split; [|exact Hla]. destruct g; [cbn in Hl; lia|discriminate]. Qed.

(* a function of the program is in the fragment: its body is checked in the context of its
   parameters (a scope of their own over the empty global scope), and has the declared type *)
Definition sc2_fn (fw : nat) (P : program) (d : fndef) : bool :=
  match sc2_block fw P ([] :: tbind_all [[]; []] (fn_params d) true) (fn_body d) with
  | Some t => vt_eqb t (fn_ret d)
  | None => false
  end && forallb imp2_stmt (fn_body d).

Definition sc2_fns (fw : nat) (P : program) : bool := forallb (sc2_fn fw P) (p_fns P).

(* ------------------------------------------------------------------ the theorem with calls *)

(* for any checker [K]: this file's, and TSemSemMatch.v's *)
Section Steps2.
  Variable P : program.
  Variable K : sc_fix.
  (* every function of the program is in the fragment *)
  Hypothesis Hfn : forall fn d, find_fn P fn = Some d ->
    exists fwd, scB K fwd ([] :: tbind_all [[]; []] (fn_params d) true) (fn_body d) = Some (fn_ret d).
  Notation Inv2 := (Inv P VRs (relP_nodes VRs) G2 K).

  Lemma call_step f fw g e : (forall k, (k <= f)%nat -> Inv2 k) -> G2 g ->
    sc2_ext (scE K fw) P g e = true -> AgE2 P VRs (S f) g e.
  Proof.
    intros IH Hg H. destruct e as [[] m t]; try discriminate H. cbn [sc2_ext] in H.
    destruct (find_fn P f0) as [d|] eqn:Ef; [|discriminate H]. bsplit. eqs. subst t.
    destruct (Hfn _ _ Ef) as [fwd Hb]. destruct (G2_ne _ Hg) as [Hne Hla].
    destruct (IH f (le_n _)) as (IHe & _ & IHb & _).
    eapply (call_node P VRs); try exact VRs_bool; try exact VRs_unit; try eassumption.
    - match goal with Hq : forallb2 _ args _ = true |- _ => revert Hq end. generalize (fn_params d).
      induction args as [|a ar IHa]; intros [|p pr] Hq; cbn [forallb2] in Hq; try discriminate Hq; constructor.
      + bsplit. eqs. split; [exact (IHe fw g a Hg ltac:(assumption))|assumption].
      + bsplit. now apply IHa.
    - apply (IHb fwd); [|exact Hb].
      destruct (tbind_all_cons [] [[]] (fn_params d) true) as [gs' ->]. split; [cbn; lia|reflexivity].
  Qed.

  Lemma for_step f fw g s g' t : (forall k, (k <= f)%nat -> Inv2 k) -> G2 g ->
    sc2_sext (scB K fw) g s = Some (g', t) -> AgS2 P VRs (S f) g g' t s.
  Proof.
    intros IH Hg Hsc. destruct s as [[] m]; try discriminate Hsc. destruct p as [[] mp tp]; try discriminate Hsc.
    destruct arr as [[] ma ta]; try discriminate Hsc. cbn [sc2_sext] in Hsc.
    match type of Hsc with (if ?c then _ else _) = _ => destruct c eqn:Hc end; [|discriminate Hsc].
    destruct (scB K fw (tbind ([] :: g) name tp false) body) as [tb|] eqn:Eb; [|discriminate Hsc].
    injection Hsc as <- <-. bsplit. eqs. subst tp.
    destruct ta as [| |[|[] b2| | | |] n2| | |]; try discriminate. bsplit.
    repeat match goal with Hq : (_ =? _) = true |- _ => apply N.eqb_eq in Hq end. subst b2 n2.
    repeat match goal with Hq : (_ <=? _) = true |- _ => apply N.leb_le in Hq end.
    destruct f as [|f']; [intros ph en E fT w E' o' _ _; exact I|].
    destruct fw as [|fw']; [now rewrite scB_O in Eb|]. rewrite scB_S in Eb.
    destruct (IH f' (le_S _ _ (le_n _))) as (_ & _ & _ & IHl).
    destruct (IHl fw' body _ _ _ (G2_tbind _ _ _ _ (G2_push _ Hg)) Eb) as (g1 & HA & Htl).
    rewrite tl_tbind in Htl. cbn [tl] in Htl.
    eapply (for_node2 P f' g name mp lo hi bits ma body m g1 tb); try eassumption.
    now apply AgSS2_of_G.
  Qed.
End Steps2.

Section Main2.
  Variable P : program.
  Variable fwp : nat.
  Hypothesis Hfns : sc2_fns fwp P = true.

  Lemma find_fn_sc fn d : find_fn P fn = Some d ->
    sc2_block fwp P ([] :: tbind_all [[]; []] (fn_params d) true) (fn_body d) = Some (fn_ret d) /\
    forallb imp2_stmt (fn_body d) = true.
  Proof.
    intro H. unfold find_fn in H. apply find_some in H. destruct H as [Hin _].
    unfold sc2_fns in Hfns. rewrite forallb_forall in Hfns. specialize (Hfns d Hin). unfold sc2_fn in Hfns.
    apply andb_prop in Hfns. destruct Hfns as [H1 H2]. split; [|exact H2].
    destruct (sc2_block fwp P _ (fn_body d)) as [tb|]; [|discriminate H1]. apply vt_eqb_eq in H1. now subst tb.
  Qed.

  Definition sc_fix2 : sc_fix :=
    {| scE := fun fw => sc2_expr fw P; scB := fun fw => sc2_block fw P; scS := fun fw => sc2_stmt fw P;
       extE := fun fw => sc2_ext (sc2_expr fw P) P; extS := fun fw => sc2_sext (sc2_block fw P);
       scE_O := fun _ _ => eq_refl; scB_O := fun _ _ => eq_refl; scS_O := fun _ _ => eq_refl;
       scE_S := fun fw => sc2_expr_S fw P; scB_S := fun _ _ _ => eq_refl; scS_S := fun fw => sc2_stmt_S fw P |}.

  Theorem agree_all2 : forall fuel, Inv P VRs (relP_nodes VRs) G2 sc_fix2 fuel.
  Proof.
    assert (Hfn : forall fn d, find_fn P fn = Some d ->
              exists fwd, sc2_block fwd P ([] :: tbind_all [[]; []] (fn_params d) true) (fn_body d) = Some (fn_ret d))
      by (intros fn d Hf; exists fwp; exact (proj1 (find_fn_sc fn d Hf))).
    apply (agree P VRs VRs_bool VRs_unit VRs_scalar VRs_intro (relP_nodes VRs)
             (fun g x t => relP_assign VRs g x t true) G2 G2_push G2_tbind sc_fix2).
    - intros fw g s g' t Hg H. cbn [extS sc_fix2] in H. rewrite (sc2_sext_ctx _ _ _ _ _ H). auto.
    - exact (call_step P sc_fix2 Hfn).
    - exact (for_step P sc_fix2).
  Qed.
End Main2.
Print Assumptions agree_all2.

(* AGREEMENT with calls, expressions.  [sc2_fns fwp P]: every function of the program is in the
   fragment; [G2 g]: the context has the empty global scope under at least one more scope *)
Theorem tsem_sem_imp2_expr P fwp fuel fw g e en E fT w E' o' :
  sc2_fns fwp P = true -> G2 g -> sc2_expr fw P g e = true -> imp2_expr e = true ->
  env_rel3 VRs en E g -> lower_expr tops fT P e E None = Ok ((w, E'), o') ->
  match Sem.eval fuel P en e with
  | Sem.Done (v, en') => o' = None /\ VRs (e_ty e) v w /\ env_rel3 VRs en' E' g
  | Sem.Panicked r m => o' = Some (preason_num (pr r), ploc32 (ploc_of m))
  | Sem.Stuck _ | Sem.NoFuel => True
  end.
Proof.
  intros Hf Hg Hsc _ Hrel Hrun. apply (out_env_rel3 VRs _ (fun v => VRs (e_ty e) v w) (length E)).
  exact (proj1 (agree_all2 P fwp Hf fuel) fw g e Hg Hsc _ en E fT w E' o' (relP_of_env_rel3 VRs en E g Hrel) Hrun).
Qed.
Print Assumptions tsem_sem_imp2_expr.

Theorem tsem_sem_imp2_stmt P fwp fuel fw g s g' t en E fT w E' o' :
  sc2_fns fwp P = true -> G2 g -> sc2_stmt fw P g s = Some (g', t) -> imp2_stmt s = true ->
  env_rel3 VRs en E g -> lower_stmt tops fT P s E None = Ok ((w, E'), o') ->
  match Sem.exec fuel P en s with
  | Sem.Done (v, en') => o' = None /\ VRs t v w /\ env_rel3 VRs en' E' g'
  | Sem.Panicked r m => o' = Some (preason_num (pr r), ploc32 (ploc_of m))
  | Sem.Stuck _ | Sem.NoFuel => True
  end.
Proof.
  intros Hf Hg Hsc _ Hrel Hrun. destruct E as [|cs E0].
  { (* no scope at all: impossible for related environments with G2 g *)
    exfalso. unfold env_rel3 in Hrel. inversion Hrel; subst. destruct Hg as [Hl _]. cbn in Hl. lia. }
  apply (out_env_rel3 VRs _ (fun v => VRs t v w) (length (cs :: E0))).
  exact (proj1 (proj2 (agree_all2 P fwp Hf fuel)) fw g s g' t Hg Hsc _ en (cs :: E0) fT w E' o'
           (relP_of_env_rel3 VRs en (cs :: E0) g Hrel) Hrun).
Qed.
Print Assumptions tsem_sem_imp2_stmt.

Theorem tsem_sem_imp2_block P fwp fuel fw g b t en E fT w E' o' :
  sc2_fns fwp P = true -> G2 g -> sc2_block fw P ([] :: g) b = Some t -> forallb imp2_stmt b = true ->
  env_rel3 VRs en E g -> lower_block tops fT P b E None = Ok ((w, E'), o') ->
  match Sem.obind (Sem.exec_block fuel P (Sem.push_scope en) b)
                  (fun '(v, en1) => Sem.Done (v, Sem.pop_scope en1)) with
  | Sem.Done (v, en') => o' = None /\ VRs t v w /\ env_rel3 VRs en' E' g
  | Sem.Panicked r m => o' = Some (preason_num (pr r), ploc32 (ploc_of m))
  | Sem.Stuck _ | Sem.NoFuel => True
  end.
Proof.
  intros Hf Hg Hsc _ Hrel Hrun. apply (out_env_rel3 VRs _ (fun v => VRs t v w) (length E)).
  exact (proj1 (proj2 (proj2 (agree_all2 P fwp Hf fuel))) fw g b t Hg Hsc _ en E fT w E' o'
           (relP_of_env_rel3 VRs en E g Hrel) Hrun).
Qed.
Print Assumptions tsem_sem_imp2_block.

(* ------------------------------------------------------------------ whole programs with calls *)

Theorem tsem_sem_program2 P d fuel fw fT args o outs :
  p_consts P = [] -> find_fn P (p_main P) = Some d ->
  forallb (fun p : N * ty => scalar_ty (snd p)) (fn_params d) = true ->
  sc2_fns fw P = true ->
  tsem_program fT P args = Ok (o, outs) ->
  match Sem.run_main fuel P args with
  | Sem.RunOk bits _ => o = None /\ outs = bits
  | Sem.RunPanic r m => o = Some (preason_num (pr r), ploc32 (ploc_of m))
  | Sem.RunStuck _ | Sem.RunNoFuel => True
  end.
Proof.
  intros Hc Hfind Hsp Hf Hrun. destruct (find_fn_sc P fw Hf _ _ Hfind) as [Hsc Hi].
  apply (main_obs_run P VRs d fuel args o outs Hfind (encode_VRs P _)). intros vals Ed.
  refine (main_agrees P VRs d [] fuel fT args vals o outs _ Hfind (no_consts_rel P VRs fuel Hc)
            (init_rel P _ _ _ Ed Hsp) _ Hrun). intros en0 E w E' o' _.
  apply (tsem_sem_imp2_block P fw fuel fw _ _ _ _ E fT w E' o' Hf); try assumption.
  destruct (tbind_all_cons [] [[]] (fn_params d) true) as [gs' ->]. split; [cbn; lia|reflexivity].
Qed.
Print Assumptions tsem_sem_program2.

(* the boolean membership test of the fragment (programs without global constants, scalar
   parameters of main, every function of the program in the fragment) and its soundness *)
Definition in_imp_fragment2 (fw : nat) (P : program) : bool :=
  match p_consts P, find_fn P (p_main P) with
  | [], Some d => forallb (fun p : N * ty => scalar_ty (snd p)) (fn_params d) && sc2_fns fw P
  | _, _ => false
  end.

Theorem in_imp_fragment2_sound P fuel fw fT args o outs :
  in_imp_fragment2 fw P = true -> tsem_program fT P args = Ok (o, outs) ->
  match Sem.run_main fuel P args with
  | Sem.RunOk bits _ => o = None /\ outs = bits
  | Sem.RunPanic r m => o = Some (preason_num (pr r), ploc32 (ploc_of m))
  | _ => True
  end.
Proof.
  unfold in_imp_fragment2. intros H Hrun.
  destruct (p_consts P) eqn:Hc; [|discriminate H].
  destruct (find_fn P (p_main P)) as [d|] eqn:Hfind; [|discriminate H].
  apply andb_prop in H. destruct H as [Hsp Hf].
  pose proof (tsem_sem_program2 P d fuel fw fT args o outs Hc Hfind Hsp Hf Hrun) as HH.
  destruct (Sem.run_main fuel P args); exact HH || exact I.
Qed.
Print Assumptions in_imp_fragment2_sound.


(* ------------------------------------------------------------------ the strict checker with calls is a
   restriction of Lang/Wt.v *)

Lemma forallb2_impl {A B} (F G : A -> B -> bool) l1 l2 :
  (forall a b, F a b = true -> G a b = true) -> forallb2 F l1 l2 = true -> forallb2 G l1 l2 = true.
Proof.
  intro HFG. revert l2. induction l1 as [|a l1 IH]; intros [|b l2] H; cbn [forallb2] in *; try discriminate; [reflexivity|].
  apply andb_prop in H. destruct H as [H1 H2]. now rewrite (HFG _ _ H1), (IH _ H2).
Qed.

Theorem sc2_implies_wt P : forall fw,
  (forall g e, sc2_expr fw P g e = true -> wt_expr fw P g e = true) /\
  (forall g b t, sc2_block fw P g b = Some t -> wt_block fw P g b = Some t) /\
  (forall g s g' t, sc2_stmt fw P g s = Some (g', t) -> wt_stmt fw P g s = Some (g', t)).
Proof.
  induction fw as [|f (IHe & IHb & IHs)]; [repeat split; intros; discriminate|].
  split; [|split].
  - intros g e H. rewrite sc2_expr_S in H. revert H. apply (sc_node_wt P f _ _ IHe IHb).
    destruct e as [[] m t]; try discriminate. cbn [sc2_ext wt_expr]. intro H.
    destruct (find_fn P f0) as [d|]; [|discriminate H].
    bsplit. rewrite (vt_ty_eqb _ _ ltac:(eassumption)). cbn [andb].
    eapply forallb2_impl; [|eassumption]. intros a p Hq. cbn beta in Hq. bsplit.
    rewrite (vt_ty_eqb _ _ ltac:(eassumption)). now rewrite (IHe _ _ ltac:(eassumption)).
  - intros g b t H. exact (sc_fold_wt P f (sc2_stmt f P) IHs b g unit_ty t H).
  - intros g s g' t H. rewrite sc2_stmt_S in H. revert H. apply (sc_snode_wt P f _ IHe).
    destruct s as [[] m]; try discriminate. destruct p as [[] mp tp]; try discriminate.
    destruct arr as [[] ma ta]; try discriminate. cbn [sc2_sext wt_stmt]. intro H.
    match type of H with (if ?c then _ else _) = _ => destruct c eqn:Hc end; [|discriminate H].
    destruct (sc2_block f P (tbind ([] :: g) name tp false) body) as [tb|] eqn:Eb; [|discriminate H].
    bsplit. destruct ta as [| |[|[] b2| | | |] n2| | |]; try discriminate. bsplit.
    repeat match goal with Hq : (_ =? _) = true |- _ => apply N.eqb_eq in Hq end. subst b2 n2.
    match goal with Hs : sty_eqb _ _ = true |- _ => apply sty_eqb_eq in Hs; subst tp end.
    cbn [e_ty wt_expr p_ty wt_pat tbind_all fold_left fst snd].
    destruct f as [|f']; [discriminate Eb|]. cbn [wt_expr ty_eqb].
    match goal with Hq : (lo <=? hi) = true |- _ => rewrite Hq end.
    rewrite !N.eqb_refl. cbn [Bool.eqb andb orb].
    rewrite (IHb _ _ _ Eb). exact H.
Qed.
Print Assumptions sc2_implies_wt.

(* ------------------------------------------------------------------ sanity: a program with a call
   is accepted by [in_imp_fragment2]; the theorem applies; the callee panics *)
Module SanityCall.
  Definition mm (k : N) : meta := mkMeta k 1 k 9.
  Definition u8 := TInt false 8.
  (* fn add(a: u8, b: u8) -> u8 { a + b }      names: a = 0, b = 1; add = 10, main = 11
     pub fn main(x: u8, y: u8) -> u8 { let z = add(x, y); if z < x { z } else { add(z, 1u8) } } *)
  Definition add_fn : fndef :=
    mkFn 10 [(0, u8); (1, u8)] u8
      [St (SExpr (Ex (EOp OAdd (Ex (EId 0) (mm 1) u8) (Ex (EId 1) (mm 2) u8)) (mm 3) u8)) (mm 4)].
  Definition main_fn : fndef :=
    mkFn 11 [(2, u8); (3, u8)] u8
      [ St (SLet (Pat (PId 4) (mm 5) u8)
                 (Ex (ECall 10 [Ex (EId 2) (mm 6) u8; Ex (EId 3) (mm 7) u8]) (mm 8) u8)) (mm 9);
        St (SExpr (Ex (EIf (Ex (EOp OLt (Ex (EId 4) (mm 10) u8) (Ex (EId 2) (mm 11) u8)) (mm 12) TBool)
                           (Ex (EBlock [St (SExpr (Ex (EId 4) (mm 13) u8)) (mm 14)]) (mm 15) u8)
                           (Ex (EBlock [St (SExpr (Ex (ECall 10 [Ex (EId 4) (mm 16) u8; Ex (ENumU 1 8) (mm 17) u8])
                                                      (mm 18) u8)) (mm 19)]) (mm 20) u8))
                      (mm 21) u8)) (mm 22) ].
  Definition P0 : program := mkProgram [] [] [add_fn; main_fn] [] 11.

  Example accepted : in_imp_fragment2 12 P0 = true.
  Proof. vm_compute. reflexivity. Qed.

  (* x = 200, y = 100: the first call overflows *)
  Example agrees_on_panic :
    exists o outs, tsem_program 12 P0 [enc 8 200; enc 8 100] = Ok (o, outs) /\
    Sem.run_main 12 P0 [enc 8 200; enc 8 100] = Sem.RunPanic Sem.ROverflow (mm 3) /\
    o = Some (preason_num Overflow, ploc32 (ploc_of (mm 3))).
  Proof.
    destruct (tsem_program 12 P0 [enc 8 200; enc 8 100]) as [[o outs]| |] eqn:Hrun;
      [|vm_compute in Hrun; discriminate Hrun|vm_compute in Hrun; discriminate Hrun].
    pose proof (in_imp_fragment2_sound P0 12 12 12 _ o outs accepted Hrun) as H.
    assert (Sem.run_main 12 P0 [enc 8 200; enc 8 100] = Sem.RunPanic Sem.ROverflow (mm 3)) as Ev
      by (vm_compute; reflexivity).
    rewrite Ev in H. eauto.
  Qed.

  (* x = 3, y = 4: 7, then 8 *)
  Example agrees_on_value :
    exists o outs l, tsem_program 12 P0 [enc 8 3; enc 8 4] = Ok (o, outs) /\
    Sem.run_main 12 P0 [enc 8 3; enc 8 4] = Sem.RunOk (enc 8 8) l /\ o = None /\ outs = enc 8 8.
  Proof.
    destruct (tsem_program 12 P0 [enc 8 3; enc 8 4]) as [[o outs]| |] eqn:Hrun;
      [|vm_compute in Hrun; discriminate Hrun|vm_compute in Hrun; discriminate Hrun].
    pose proof (in_imp_fragment2_sound P0 12 12 12 _ o outs accepted Hrun) as H.
    assert (exists l, Sem.run_main 12 P0 [enc 8 3; enc 8 4] = Sem.RunOk (enc 8 8) l) as [l Ev]
      by (eexists; vm_compute; reflexivity).
    rewrite Ev in H. destruct H as [-> ->]. exists None, (enc 8 8), l. repeat split; assumption || reflexivity.
  Qed.
End SanityCall.

(* ------------------------------------------------------------------ sanity: a for loop over a range,
   with a call in its body *)
Module SanityFor.
  Definition mm (k : N) : meta := mkMeta k 1 k 9.
  Definition u8 := TInt false 8.
  (* fn add(a: u8, b: u8) -> u8 { a + b }
     pub fn main(x: u8) -> u8 { let mut s = x; for i in 0u8..5u8 { s = add(s, i); } s } *)
  Definition add_fn : fndef :=
    mkFn 10 [(0, u8); (1, u8)] u8
      [St (SExpr (Ex (EOp OAdd (Ex (EId 0) (mm 1) u8) (Ex (EId 1) (mm 2) u8)) (mm 3) u8)) (mm 4)].
  Definition main_fn : fndef :=
    mkFn 11 [(2, u8)] u8
      [ St (SLetMut 3 (Ex (EId 2) (mm 5) u8)) (mm 6);
        St (SFor (Pat (PId 4) (mm 7) u8) (Ex (ERange 0 5 8) (mm 8) (TArr u8 5))
                 [St (SAssign 3 [] (Ex (ECall 10 [Ex (EId 3) (mm 9) u8; Ex (EId 4) (mm 10) u8]) (mm 11) u8)) (mm 12)])
           (mm 13);
        St (SExpr (Ex (EId 3) (mm 14) u8)) (mm 15) ].
  Definition P0 : program := mkProgram [] [] [add_fn; main_fn] [] 11.

  Example accepted : in_imp_fragment2 12 P0 = true.
  Proof. vm_compute. reflexivity. Qed.

  (* x = 250: 250 + 0 + 1 + 2 + 3 = 256 overflows in the fourth iteration *)
  Example agrees_on_panic :
    exists o outs, tsem_program 14 P0 [enc 8 250] = Ok (o, outs) /\
    Sem.run_main 14 P0 [enc 8 250] = Sem.RunPanic Sem.ROverflow (mm 3) /\
    o = Some (preason_num Overflow, ploc32 (ploc_of (mm 3))).
  Proof.
    destruct (tsem_program 14 P0 [enc 8 250]) as [[o outs]| |] eqn:Hrun;
      [|vm_compute in Hrun; discriminate Hrun|vm_compute in Hrun; discriminate Hrun].
    pose proof (in_imp_fragment2_sound P0 14 12 14 _ o outs accepted Hrun) as H.
    assert (Sem.run_main 14 P0 [enc 8 250] = Sem.RunPanic Sem.ROverflow (mm 3)) as Ev by (vm_compute; reflexivity).
    rewrite Ev in H. eauto.
  Qed.

  Example agrees_on_value :
    exists o outs l, tsem_program 14 P0 [enc 8 7] = Ok (o, outs) /\
    Sem.run_main 14 P0 [enc 8 7] = Sem.RunOk (enc 8 17) l /\ o = None /\ outs = enc 8 17.
  Proof.
    destruct (tsem_program 14 P0 [enc 8 7]) as [[o outs]| |] eqn:Hrun;
      [|vm_compute in Hrun; discriminate Hrun|vm_compute in Hrun; discriminate Hrun].
    pose proof (in_imp_fragment2_sound P0 14 12 14 _ o outs accepted Hrun) as H.
    assert (exists l, Sem.run_main 14 P0 [enc 8 7] = Sem.RunOk (enc 8 17) l) as [l Ev]
      by (eexists; vm_compute; reflexivity).
    rewrite Ev in H. destruct H as [-> ->]. exists None, (enc 8 17), l. repeat split; assumption || reflexivity.
  Qed.
End SanityFor.


