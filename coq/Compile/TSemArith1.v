(* The operator lowering of Compile/Lower.v on the Boolean instance (TSem.tops) is bit-exact
   checked two's-complement arithmetic, for EVERY width n >= 1:
   +, - (unsigned / signed), unary minus, <, >, ==, !=, &, ^, |, /, % (unsigned / signed).

   Conventions.  Bit vectors are MSB first.  [uval x] is the unsigned reading, [sval x] the
   two's-complement reading, both in Z.  [enc n z] is THE n-bit vector whose unsigned reading
   is [z mod 2^n] (for signed results this is the two's-complement encoding; [sval_enc] shows
   that its signed reading is [Sem.wrap true n z]).  The overflow conditions are stated with
   [Sem.in_range] of Lang/Sem.v (the source-level specification of checked arithmetic). *)
From Coq Require Import Lia ZArith Zquot.
From GV Require Import Base.Util Base.Bits Base.BitsProofs Lang.Ast Gadgets.Gadgets Gadgets.GadgetSpec
  Gadgets.Arith Panic.PanicRec Panic.PanicSem Compile.Lower Compile.TSem.
From GV Require Lang.Sem.
Local Open Scope N_scope.

(* ------------------------------------------------------------------ readings and encodings *)

Definition uval (l : list bool) : Z := Z.of_N (bits_to_N l).
Definition sval (l : list bool) : Z := bits_to_Z_signed l.

(* the n low bits of z, most significant first *)
Definition enc (n : nat) (z : Z) : list bool := N_to_bits n (Z.to_N (z mod 2 ^ Z.of_nat n)).

Lemma N_to_bits_length n v : length (N_to_bits n v) = n.
Proof. induction n as [|n IH]; [reflexivity|]. cbn [N_to_bits length]. now rewrite IH. Qed.

Lemma bits_to_N_N_to_bits n v : bits_to_N (N_to_bits n v) = v mod 2 ^ N.of_nat n.
Proof.
  induction n as [|n IH].
  - cbn [N_to_bits bits_to_N]. change (2 ^ N.of_nat 0) with 1. now rewrite N.mod_1_r.
  - cbn [N_to_bits]. rewrite bits_to_N_cons, IH. unfold lenN. rewrite N_to_bits_length.
    replace (N.of_nat (S n)) with (N.of_nat n + 1) by lia.
    rewrite N.pow_add_r, N.pow_1_r.
    pose proof (pow2_pos (N.of_nat n)) as Hp.
    rewrite N.mod_mul_r by lia. rewrite N.testbit_spec'. lia.
Qed.

Lemma unsigned_as_wires_tops v k : unsigned_as_wires tops v k = N_to_bits k v.
Proof.
  unfold unsigned_as_wires. change (wT tops) with true. change (wF tops) with false.
  induction k as [|k IH]; [reflexivity|].
  cbn [seq map N_to_bits]. f_equal.
  - replace (S k - 1 - 0)%nat with k by lia. now destruct (N.testbit v (N.of_nat k)).
  - rewrite <- IH, <- seq_shift, map_map. apply map_ext_in. intros i Hi. apply in_seq in Hi.
    replace (S k - 1 - S i)%nat with (k - 1 - i)%nat by lia. reflexivity.
Qed.

Lemma length_enc n z : length (enc n z) = n.
Proof. apply N_to_bits_length. Qed.

Lemma pow2_N_Z (k : N) : Z.of_N (2 ^ k) = (2 ^ Z.of_N k)%Z.
Proof. now rewrite N2Z.inj_pow. Qed.

Lemma pow2_Z_pos (k : N) : (0 < 2 ^ Z.of_N k)%Z.
Proof. apply Z.pow_pos_nonneg; lia. Qed.

Lemma uval_enc n z : uval (enc n z) = (z mod 2 ^ Z.of_nat n)%Z.
Proof.
  unfold uval, enc. rewrite bits_to_N_N_to_bits.
  assert (0 < 2 ^ Z.of_nat n)%Z as Hp by (apply Z.pow_pos_nonneg; lia).
  pose proof (Z.mod_pos_bound z _ Hp) as Hb.
  rewrite N2Z.inj_mod, Z2N.id by lia. rewrite pow2_N_Z, nat_N_Z.
  apply Z.mod_small. lia.
Qed.

(* [enc n z] is the only n-bit vector that reads as z modulo 2^n *)
Lemma enc_unique n z r : length r = n -> uval r = (z mod 2 ^ Z.of_nat n)%Z -> r = enc n z.
Proof.
  intros Hl Hv. apply bits_to_N_inj; [now rewrite length_enc|].
  apply N2Z.inj. fold (uval r). fold (uval (enc n z)). now rewrite uval_enc.
Qed.

Lemma uval_range l : (0 <= uval l < 2 ^ Z.of_nat (length l))%Z.
Proof.
  unfold uval. pose proof (bits_to_N_lt l) as H. unfold lenN in H.
  rewrite <- nat_N_Z, <- pow2_N_Z. lia.
Qed.

Lemma enc_uval l : enc (length l) (uval l) = l.
Proof.
  symmetry. apply enc_unique; [reflexivity|]. symmetry. apply Z.mod_small. apply uval_range.
Qed.

Lemma sval_uval l : l <> [] ->
  sval l = (uval l - (if hd false l then 2 ^ Z.of_nat (length l) else 0))%Z.
Proof.
  intro Hne. destruct (signed_facts l Hne) as (_ & _ & _ & _ & HS). cbv zeta in HS.
  unfold sval, uval. rewrite HS. unfold lenN. rewrite pow2_N_Z, nat_N_Z.
  destruct (hd false l); reflexivity.
Qed.

Lemma sval_mod l : l <> [] -> (sval l mod 2 ^ Z.of_nat (length l))%Z = uval l.
Proof.
  intro Hne. rewrite (sval_uval l Hne). pose proof (uval_range l) as Hr.
  destruct (hd false l).
  - symmetry. apply (Z.mod_unique_pos _ _ (-1)); lia.
  - rewrite Z.sub_0_r. apply Z.mod_small. exact Hr.
Qed.

Lemma enc_sval l : l <> [] -> enc (length l) (sval l) = l.
Proof. intro Hne. symmetry. apply enc_unique; [reflexivity|]. symmetry. now apply sval_mod. Qed.

Lemma half_N_Z n : (1 <= n)%nat ->
  Z.of_N (2 ^ (N.of_nat n - 1)) = (2 ^ (Z.of_N (N.of_nat n) - 1))%Z.
Proof. intro Hn. rewrite pow2_N_Z. f_equal. lia. Qed.

Lemma pow2_Z_half n : (1 <= n)%nat -> (2 ^ Z.of_nat n = 2 * 2 ^ (Z.of_nat n - 1))%Z.
Proof.
  intro Hn. replace (Z.of_nat n) with (1 + (Z.of_nat n - 1))%Z at 1 by lia.
  rewrite Z.pow_add_r by lia. reflexivity.
Qed.

Lemma sval_range l : l <> [] ->
  (- 2 ^ (Z.of_nat (length l) - 1) <= sval l < 2 ^ (Z.of_nat (length l) - 1))%Z.
Proof.
  intro Hne. pose proof (bits_to_Z_signed_range l Hne) as H. unfold lenN in H.
  assert (1 <= length l)%nat by (destruct l; [congruence|cbn [length]; lia]).
  replace (Z.of_N (N.of_nat (length l) - 1)) with (Z.of_nat (length l) - 1)%Z in H by lia.
  exact H.
Qed.

(* the signed reading of an encoding is the wrapped value of Lang/Sem.v *)
Lemma sval_enc n z : (1 <= n)%nat -> sval (enc n z) = Sem.wrap true (N.of_nat n) z.
Proof.
  intro Hn. assert (enc n z <> []) as Hne.
  { intro E. pose proof (length_enc n z) as L. rewrite E in L. cbn [length] in L. lia. }
  pose proof (sval_uval _ Hne) as HS. pose proof (sval_range _ Hne) as HR.
  rewrite length_enc in HS, HR. rewrite uval_enc in HS.
  unfold Sem.wrap. rewrite nat_N_Z. cbn [andb].
  assert (0 < 2 ^ Z.of_nat n)%Z as Hp by (apply Z.pow_pos_nonneg; lia).
  pose proof (Z.mod_pos_bound z _ Hp) as Hb. pose proof (pow2_Z_half n Hn) as Hh.
  destruct (Z.leb_spec (2 ^ (Z.of_nat n - 1)) (z mod 2 ^ Z.of_nat n)); destruct (hd false (enc n z)); lia.
Qed.

Lemma uval_enc_wrap n z : uval (enc n z) = Sem.wrap false (N.of_nat n) z.
Proof. rewrite uval_enc. unfold Sem.wrap. cbn [andb]. now rewrite nat_N_Z. Qed.

(* in-range values are encoded exactly *)
Lemma sval_enc_in_range n z : (1 <= n)%nat -> Sem.in_range true (N.of_nat n) z = true ->
  sval (enc n z) = z.
Proof.
  intros Hn Hr. rewrite sval_enc by exact Hn. unfold Sem.in_range in Hr. unfold Sem.wrap.
  rewrite nat_N_Z in *. cbn [andb]. apply andb_prop in Hr. destruct Hr as [H1 H2].
  apply Z.leb_le in H1. apply Z.ltb_lt in H2. pose proof (pow2_Z_half n Hn) as Hh.
  assert (0 < 2 ^ (Z.of_nat n - 1))%Z as Hp by (apply Z.pow_pos_nonneg; lia).
  destruct (Z_lt_dec z 0) as [Hneg|Hpos].
  - assert ((z mod 2 ^ Z.of_nat n)%Z = (z + 2 ^ Z.of_nat n)%Z) as ->
      by (symmetry; apply (Z.mod_unique_pos _ _ (-1)); lia).
    destruct (Z.leb_spec (2 ^ (Z.of_nat n - 1)) (z + 2 ^ Z.of_nat n)); lia.
  - rewrite Z.mod_small by lia. destruct (Z.leb_spec (2 ^ (Z.of_nat n - 1)) z); lia.
Qed.

Lemma uval_enc_in_range n z : Sem.in_range false (N.of_nat n) z = true -> uval (enc n z) = z.
Proof.
  intro Hr. rewrite uval_enc. unfold Sem.in_range in Hr. rewrite nat_N_Z in Hr.
  apply andb_prop in Hr. destruct Hr as [H1 H2]. apply Z.leb_le in H1. apply Z.ltb_lt in H2.
  apply Z.mod_small. lia.
Qed.

(* reflection of the signed range test against the statement form of Gadgets/Arith.v *)
Lemma in_range_signed_iff n z : (1 <= n)%nat ->
  Sem.in_range true (N.of_nat n) z = true <->
  (- Z.of_N (2 ^ (N.of_nat n - 1)) <= z < Z.of_N (2 ^ (N.of_nat n - 1)))%Z.
Proof.
  intro Hn. unfold Sem.in_range. rewrite half_N_Z by exact Hn.
  rewrite andb_true_iff, Z.leb_le, Z.ltb_lt. reflexivity.
Qed.

Lemma eq_negb_of_iff (b c : bool) (Q : Prop) : (b = true <-> ~ Q) -> (c = true <-> Q) -> b = negb c.
Proof. intros H1 H2. destruct b, c; cbn [negb]; try reflexivity; exfalso; intuition congruence. Qed.

Lemma eq_of_iff (b c : bool) (Q : Prop) : (b = true <-> Q) -> (c = true <-> Q) -> b = c.
Proof. intros H1 H2. destruct b, c; try reflexivity; exfalso; intuition congruence. Qed.

Lemma nonempty_length {A} (l : list A) : l <> [] -> (1 <= length l)%nat.
Proof. destruct l; [congruence|cbn [length]; lia]. Qed.

Lemma nonempty_len {A} (l : list A) : (1 <= length l)%nat -> l <> [].
Proof. destruct l; cbn [length]; [lia|discriminate]. Qed.

Lemma nonempty_of_length {A B} (x : list A) (y : list B) : x <> [] -> length x = length y -> y <> [].
Proof. destruct x, y; try congruence; discriminate. Qed.

(* ------------------------------------------------------------------ the prologue of lower_binop *)

Lemma m_extend_same (v : list bool) t bits (o : pobs) : v <> [] -> length v = bits ->
  m_extend tops v t bits o = Ok (v, o).
Proof.
  intros Hne Hl. unfold m_extend, lift_res, extend_g. destruct v as [|a v]; [congruence|].
  rewrite Hl, Nat.eqb_refl. reflexivity.
Qed.

(* for operands of the same non-zero length the two extensions do nothing *)
Lemma lower_binop_same_length op t tx ty_ (x y : list bool) m (o : pobs) :
  x <> [] -> length x = length y ->
  lower_binop tops op t tx ty_ x y m o =
  match op with
  | OBitAnd => map2_M (m_and tops) x y
  | OBitXor => map2_M (m_xor tops) x y
  | OBitOr => map2_M (m_or tops) x y
  | OSub =>
      mbind (o_subtraction tops x y (is_signed t)) (fun '(sum, ov) =>
      mbind (m_panic_if tops ov Overflow m) (fun _ => ret sum))
  | OAdd =>
      mbind (o_addition tops x y) (fun '(sum, carry, carry_prev) =>
      mbind (if is_signed tx || is_signed ty_ then m_xor tops carry carry_prev else ret carry) (fun ov =>
      mbind (m_panic_if tops ov Overflow m) (fun _ => ret sum)))
  | OMul => lower_mul tops (is_signed t) x y m
  | ODiv =>
      mbind (eq_acc tops (wT tops) (map (fun w => (w, wF tops)) y)) (fun all_zero =>
      mbind (m_panic_if tops all_zero DivByZero m) (fun _ =>
      if is_signed t then
        mbind (lift_res (hd_res x)) (fun x0 =>
        mbind (lift_res (hd_res y)) (fun y0 =>
        mbind (o_sdiv tops x y) (fun '(q, _) =>
        mbind (m_and tops x0 y0) (fun both_neg =>
        mbind (lift_res (hd_res q)) (fun q0 =>
        mbind (m_and tops both_neg q0) (fun ov =>
        mbind (m_panic_if tops ov Overflow m) (fun _ => ret q)))))))
      else
        mbind (o_udiv tops x y) (fun '(q, _) => ret q)))
  | OMod =>
      mbind (eq_acc tops (wT tops) (map (fun w => (w, wF tops)) y)) (fun all_zero =>
      mbind (m_panic_if tops all_zero DivByZero m) (fun _ =>
      if is_signed t then
        mbind (o_sdiv tops x y) (fun '(_, r) => ret r)
      else
        mbind (o_udiv tops x y) (fun '(_, r) => ret r)))
  | OGt | OLt =>
      mbind (o_comparator tops (length x) x (is_signed tx) y (is_signed ty_)) (fun '(lt, gt) =>
      ret [match op with OGt => gt | _ => lt end])
  | OEq | ONe =>
      mbind (if (length x =? length y)%nat then eq_acc tops (wT tops) (combine x y) else crash) (fun acc =>
      match op with
      | OEq => ret [acc]
      | _ => mbind (m_not tops acc) (fun n => ret [n])
      end)
  | OShl | OShr | OLAnd | OLOr => crash
  end o.
Proof.
  intros Hne Hl. assert (y <> []) as Hny by (eapply nonempty_of_length; eassumption).
  unfold lower_binop.
  assert (Nat.max (length x) (length y) = length x) as -> by (rewrite Hl; apply Nat.max_id).
  unfold mbind at 1. rewrite (m_extend_same x tx (length x) o Hne eq_refl).
  unfold mbind at 1. rewrite (m_extend_same y ty_ (length x) o Hny (eq_sym Hl)).
  destruct op; reflexivity.
Qed.

Ltac zpow_norm :=
  unfold lenN in *; rewrite ?pow2_N_Z, ?nat_N_Z in *.

(* ------------------------------------------------------------------ (1) addition *)

Theorem lower_add_unsigned t tx ty_ x y m o :
  x <> [] -> length x = length y -> is_signed tx || is_signed ty_ = false ->
  let n := length x in
  let R := (uval x + uval y)%Z in
  lower_binop tops OAdd t tx ty_ x y m o =
  Ok (enc n R, push_spec o (negb (Sem.in_range false (N.of_nat n) R)) Overflow (ploc_of m)).
Proof.
  intros Hne Hl Hs. cbv zeta. rewrite lower_binop_same_length by assumption. rewrite Hs.
  unfold mbind. cbn [o_addition tops]. unfold same_len. rewrite Hl, Nat.eqb_refl.
  pose proof (adder_correct x y Hl) as Ha. pose proof (adder_carry_iff x y Hl) as Hc.
  destruct (addition_s x y) as [[sum c] cp]. destruct Ha as (HL & HV & _ & _). cbn [fst snd] in Hc.
  unfold ret, m_panic_if. cbn [o_panic_if tops]. rewrite <- Hl.
  pose proof (uval_range x) as Rx. pose proof (uval_range y) as Ry. rewrite <- Hl in Ry.
  f_equal. f_equal.
  - apply enc_unique; [exact HL|]. unfold uval. rewrite HV.
    rewrite N2Z.inj_mod, N2Z.inj_add. zpow_norm. reflexivity.
  - f_equal. unfold Sem.in_range. rewrite nat_N_Z. unfold uval in *.
    assert (2 ^ lenN x <= bits_to_N x + bits_to_N y <->
            (2 ^ Z.of_nat (length x) <= Z.of_N (bits_to_N x) + Z.of_N (bits_to_N y))%Z) as Hq.
    { unfold lenN. rewrite <- nat_N_Z, <- pow2_N_Z. lia. }
    destruct (Z.leb_spec 0 (Z.of_N (bits_to_N x) + Z.of_N (bits_to_N y))) as [_|Hx]; [|lia].
    destruct (Z.ltb_spec (Z.of_N (bits_to_N x) + Z.of_N (bits_to_N y)) (2 ^ Z.of_nat (length x))) as [Hlt|Hge];
      cbn [andb negb].
    + destruct c; [|reflexivity]. exfalso. pose proof (proj1 Hq (proj1 Hc eq_refl)). lia.
    + apply Hc. apply Hq. exact Hge.
Qed.
Print Assumptions lower_add_unsigned.

Theorem lower_add_signed t tx ty_ x y m o :
  x <> [] -> length x = length y -> is_signed tx || is_signed ty_ = true ->
  let n := length x in
  let R := (sval x + sval y)%Z in
  lower_binop tops OAdd t tx ty_ x y m o =
  Ok (enc n R, push_spec o (negb (Sem.in_range true (N.of_nat n) R)) Overflow (ploc_of m)).
Proof.
  intros Hne Hl Hs. cbv zeta. rewrite lower_binop_same_length by assumption. rewrite Hs.
  unfold mbind. cbn [o_addition tops]. unfold same_len. rewrite Hl, Nat.eqb_refl.
  pose proof (adder_correct x y Hl) as Ha. pose proof (add_signed_overflow x y Hne Hl) as Hov.
  destruct (addition_s x y) as [[sum c] cp]. destruct Ha as (HL & _ & _ & _).
  cbv zeta in Hov. destruct Hov as (HV & Hc & _).
  unfold m_xor. cbn [o_xor tops]. unfold tret, ret, m_panic_if. cbn [o_panic_if tops]. rewrite <- Hl.
  f_equal. f_equal.
  - apply enc_unique; [exact HL|]. unfold uval, sval. rewrite HV. zpow_norm. reflexivity.
  - f_equal. apply (eq_negb_of_iff _ _ _ Hc). apply in_range_signed_iff. now apply nonempty_length.
Qed.
Print Assumptions lower_add_signed.

(* ------------------------------------------------------------------ (2) subtraction *)

Theorem lower_sub_unsigned t tx ty_ x y m o :
  x <> [] -> length x = length y -> is_signed t = false ->
  let n := length x in
  let R := (uval x - uval y)%Z in
  lower_binop tops OSub t tx ty_ x y m o =
  Ok (enc n R, push_spec o (negb (Sem.in_range false (N.of_nat n) R)) Overflow (ploc_of m)).
Proof.
  intros Hne Hl Hs. cbv zeta. rewrite lower_binop_same_length by assumption. rewrite Hs.
  unfold mbind. cbn [o_subtraction tops]. unfold same_len. rewrite Hl, Nat.eqb_refl. cbn [negb orb andb].
  pose proof (sub_correct_unsigned x y Hl) as Ha. pose proof (sub_correct_unsigned_Z x y Hl) as Hz.
  destruct (subtraction_s x y false) as [d ov]. destruct Ha as (HL & _ & Hov). cbn [fst] in Hz.
  unfold ret, m_panic_if. cbn [o_panic_if tops]. rewrite <- Hl.
  pose proof (uval_range x) as Rx. pose proof (uval_range y) as Ry. rewrite <- Hl in Ry.
  f_equal. f_equal.
  - apply enc_unique; [exact HL|]. unfold uval. rewrite Hz. zpow_norm. reflexivity.
  - f_equal. subst ov. unfold Sem.in_range. rewrite nat_N_Z. unfold uval in *.
    destruct (N.ltb_spec (bits_to_N x) (bits_to_N y));
      destruct (Z.leb_spec 0 (Z.of_N (bits_to_N x) - Z.of_N (bits_to_N y)));
      destruct (Z.ltb_spec (Z.of_N (bits_to_N x) - Z.of_N (bits_to_N y)) (2 ^ Z.of_nat (length x)));
      cbn [andb negb]; try reflexivity; lia.
Qed.
Print Assumptions lower_sub_unsigned.

Theorem lower_sub_signed t tx ty_ x y m o :
  x <> [] -> length x = length y -> is_signed t = true ->
  let n := length x in
  let R := (sval x - sval y)%Z in
  lower_binop tops OSub t tx ty_ x y m o =
  Ok (enc n R, push_spec o (negb (Sem.in_range true (N.of_nat n) R)) Overflow (ploc_of m)).
Proof.
  intros Hne Hl Hs. cbv zeta. rewrite lower_binop_same_length by assumption. rewrite Hs.
  unfold mbind. cbn [o_subtraction tops]. unfold same_len. rewrite Hl, Nat.eqb_refl.
  assert (nonempty x = true) as -> by (destruct x; [congruence|reflexivity]). cbn [negb orb andb].
  pose proof (sub_correct_signed x y Hne Hl) as Ha.
  destruct (subtraction_s x y true) as [d ov]. cbv zeta in Ha. destruct Ha as (HL & HV & Hov & _).
  unfold ret, m_panic_if. cbn [o_panic_if tops]. rewrite <- Hl.
  f_equal. f_equal.
  - apply enc_unique; [exact HL|]. unfold uval, sval. rewrite HV. zpow_norm. reflexivity.
  - f_equal. apply (eq_negb_of_iff _ _ _ Hov). apply in_range_signed_iff. now apply nonempty_length.
Qed.
Print Assumptions lower_sub_signed.

(* ------------------------------------------------------------------ (3) unary minus *)

(* the operations of the ENeg case of [lower_expr_body] after the operand [x] has been
   evaluated; [k] is what the case does with the result *)
Definition neg_steps {A} (x : list bool) (m : meta) (k : list bool -> pobs -> res (A * pobs))
  : pobs -> res (A * pobs) :=
  mbind (o_negation tops x) (fun neg =>
  mbind (lift_res (hd_res x)) (fun x0 =>
  mbind (lift_res (hd_res neg)) (fun n0 =>
  mbind (m_and tops x0 n0) (fun ov =>
  mbind (m_panic_if tops ov Overflow m) (fun _ => k neg))))).

(* ... and this IS that case, literally *)
Lemma lower_neg_case P re rp rb e1 m t E :
  lower_expr_body tops P re rp rb (Ex (ENeg e1) m t) E =
  mbind (re e1 E) (fun '(x, E1) => neg_steps x m (fun neg => ret (neg, E1))).
Proof. reflexivity. Qed.

Lemma hd_res_nonempty {A} (d : A) (l : list A) : l <> [] -> hd_res l = Ok (hd d l).
Proof. destruct l; [congruence|reflexivity]. Qed.

Lemma neg_in_range_iff_min x : x <> [] ->
  negb (Sem.in_range true (N.of_nat (length x)) (- sval x)) = (sval x =? Sem.min_of (N.of_nat (length x)))%Z.
Proof.
  intro Hne. pose proof (sval_range x Hne) as Hr. unfold Sem.in_range, Sem.min_of. rewrite nat_N_Z.
  destruct (Z.eqb_spec (sval x) (- 2 ^ (Z.of_nat (length x) - 1)));
    destruct (Z.leb_spec (- 2 ^ (Z.of_nat (length x) - 1)) (- sval x));
    destruct (Z.ltb_spec (- sval x) (2 ^ (Z.of_nat (length x) - 1))); cbn [andb negb]; try reflexivity; lia.
Qed.

Theorem neg_steps_correct {A} x m (k : list bool -> pobs -> res (A * pobs)) o : x <> [] ->
  let n := length x in
  let R := (- sval x)%Z in
  neg_steps x m k o =
  k (enc n R) (push_spec o (negb (Sem.in_range true (N.of_nat n) R)) Overflow (ploc_of m)).
Proof.
  intro Hne. cbv zeta. unfold neg_steps, mbind. cbn [o_negation tops]. unfold tret.
  destruct (neg_correct x) as [HL HV]. pose proof (neg_overflow_signal x Hne) as Hs. cbv zeta in Hs.
  destruct Hs as [Hov _].
  assert (negation_s x <> []) as Hnn by (eapply nonempty_of_length; [exact Hne|now symmetry]).
  rewrite (hd_res_nonempty false x Hne), (hd_res_nonempty false _ Hnn). unfold lift_res.
  unfold m_and. cbn [o_and tops]. unfold tret, m_panic_if. cbn [o_panic_if tops].
  assert (negation_s x = enc (length x) (- sval x)) as <-.
  { apply enc_unique; [exact HL|]. unfold uval. rewrite HV.
    pose proof (bits_to_N_lt x) as Hx. pose proof (pow2_pos (lenN x)) as Hp.
    rewrite neg_mod_Z by lia. fold (uval x). rewrite (sval_uval x Hne). zpow_norm.
    destruct (hd false x); [|now rewrite Z.sub_0_r].
    replace (- (uval x - 2 ^ Z.of_nat (length x)))%Z with (- uval x + 1 * 2 ^ Z.of_nat (length x))%Z by lia.
    now rewrite Z.mod_add by lia. }
  f_equal. f_equal. rewrite (neg_in_range_iff_min x Hne).
  apply (eq_of_iff _ _ _ Hov). rewrite Z.eqb_eq. unfold sval, Sem.min_of, lenN.
  rewrite half_N_Z by (now apply nonempty_length). reflexivity.
Qed.
Print Assumptions neg_steps_correct.

(* the ENeg case as a whole: if the operand evaluates to the non-empty vector [x] ... *)
Theorem lower_neg_correct P re rp rb e1 m t E o x E1 o1 :
  re e1 E o = Ok ((x, E1), o1) -> x <> [] ->
  let n := length x in
  let R := (- sval x)%Z in
  lower_expr_body tops P re rp rb (Ex (ENeg e1) m t) E o =
  Ok ((enc n R, E1), push_spec o1 (negb (Sem.in_range true (N.of_nat n) R)) Overflow (ploc_of m)).
Proof.
  intros He Hne. cbv zeta. rewrite lower_neg_case. unfold mbind at 1. rewrite He.
  now rewrite neg_steps_correct.
Qed.
Print Assumptions lower_neg_correct.

(* Overflow iff the operand is MIN *)
Corollary lower_neg_overflow_iff_min P re rp rb e1 m t E o x E1 o1 :
  re e1 E o = Ok ((x, E1), o1) -> x <> [] ->
  let n := length x in
  lower_expr_body tops P re rp rb (Ex (ENeg e1) m t) E o =
  Ok ((enc n (- sval x), E1),
      push_spec o1 (sval x =? Sem.min_of (N.of_nat n))%Z Overflow (ploc_of m)).
Proof.
  intros He Hne. cbv zeta. rewrite <- (neg_in_range_iff_min x Hne).
  now apply lower_neg_correct.
Qed.
Print Assumptions lower_neg_overflow_iff_min.

(* ------------------------------------------------------------------ (4) comparisons *)

Lemma comparator_same_length x sx y sy (o : pobs) : length x = length y ->
  o_comparator tops (length x) x sx y sy o = Ok (cmp_s (length x) x sx y sy, o).
Proof.
  intro Hl. cbn [o_comparator tops]. rewrite <- Hl, Nat.leb_refl. reflexivity.
Qed.

Lemma uval_ltb x y : (uval x <? uval y)%Z = (bits_to_N x <? bits_to_N y).
Proof.
  unfold uval. destruct (Z.ltb_spec (Z.of_N (bits_to_N x)) (Z.of_N (bits_to_N y)));
    destruct (N.ltb_spec (bits_to_N x) (bits_to_N y)); try reflexivity; lia.
Qed.

Lemma uval_eqb x y : (uval x =? uval y)%Z = (bits_to_N x =? bits_to_N y).
Proof.
  unfold uval. destruct (Z.eqb_spec (Z.of_N (bits_to_N x)) (Z.of_N (bits_to_N y)));
    destruct (N.eqb_spec (bits_to_N x) (bits_to_N y)); try reflexivity; lia.
Qed.

(* returns (lt, gt) *)
Lemma cmp_s_unsigned x y : length x = length y ->
  cmp_s (length x) x false y false = ((uval x <? uval y)%Z, (uval y <? uval x)%Z).
Proof.
  intro Hl. rewrite cmp_correct_unsigned; [|lia|lia]. replace (firstn (length x) y) with y by (rewrite Hl; symmetry; apply firstn_all). rewrite !firstn_all.
  now rewrite !uval_ltb.
Qed.

Lemma cmp_s_signed x sx y sy : length x = length y -> sx || sy = true ->
  cmp_s (length x) x sx y sy = ((sval x <? sval y)%Z, (sval y <? sval x)%Z).
Proof.
  intros Hl Hs. rewrite cmp_correct_signed; [|lia|lia|exact Hs]. replace (firstn (length x) y) with y by (rewrite Hl; symmetry; apply firstn_all). rewrite !firstn_all.
  reflexivity.
Qed.

Theorem lower_lt_unsigned t tx ty_ x y m o :
  x <> [] -> length x = length y -> is_signed tx || is_signed ty_ = false ->
  lower_binop tops OLt t tx ty_ x y m o = Ok ([(uval x <? uval y)%Z], o).
Proof.
  intros Hne Hl Hs. rewrite lower_binop_same_length by assumption. apply orb_false_elim in Hs.
  destruct Hs as [-> ->]. unfold mbind. rewrite comparator_same_length by exact Hl.
  rewrite cmp_s_unsigned by exact Hl. reflexivity.
Qed.
Print Assumptions lower_lt_unsigned.

Theorem lower_gt_unsigned t tx ty_ x y m o :
  x <> [] -> length x = length y -> is_signed tx || is_signed ty_ = false ->
  lower_binop tops OGt t tx ty_ x y m o = Ok ([(uval y <? uval x)%Z], o).
Proof.
  intros Hne Hl Hs. rewrite lower_binop_same_length by assumption. apply orb_false_elim in Hs.
  destruct Hs as [-> ->]. unfold mbind. rewrite comparator_same_length by exact Hl.
  rewrite cmp_s_unsigned by exact Hl. reflexivity.
Qed.
Print Assumptions lower_gt_unsigned.

Theorem lower_lt_signed t tx ty_ x y m o :
  x <> [] -> length x = length y -> is_signed tx || is_signed ty_ = true ->
  lower_binop tops OLt t tx ty_ x y m o = Ok ([(sval x <? sval y)%Z], o).
Proof.
  intros Hne Hl Hs. rewrite lower_binop_same_length by assumption.
  unfold mbind. rewrite comparator_same_length by exact Hl.
  rewrite cmp_s_signed by assumption. reflexivity.
Qed.
Print Assumptions lower_lt_signed.

Theorem lower_gt_signed t tx ty_ x y m o :
  x <> [] -> length x = length y -> is_signed tx || is_signed ty_ = true ->
  lower_binop tops OGt t tx ty_ x y m o = Ok ([(sval y <? sval x)%Z], o).
Proof.
  intros Hne Hl Hs. rewrite lower_binop_same_length by assumption.
  unfold mbind. rewrite comparator_same_length by exact Hl.
  rewrite cmp_s_signed by assumption. reflexivity.
Qed.
Print Assumptions lower_gt_signed.

(* the equality accumulator is the loop of [eq_s] *)
Lemma eq_acc_tops xys : forall acc (o : pobs),
  eq_acc tops acc xys o =
  Ok ((fix go (acc : bool) (xys : list (bool * bool)) : bool :=
         match xys with
         | [] => acc
         | (x, y) :: r => go (andb acc (negb (xorb x y))) r
         end) acc xys, o).
Proof.
  induction xys as [|[a b] r IH]; intros acc o; [reflexivity|].
  cbn [eq_acc]. unfold mbind, m_eq, m_and. cbn [o_eq o_and tops]. unfold tret. apply IH.
Qed.

Lemma eq_acc_eq_s x y (o : pobs) : length x = length y ->
  eq_acc tops true (combine x y) o = Ok (eq_s x y, o).
Proof.
  intro Hl. rewrite eq_acc_tops. unfold eq_s. rewrite Hl, Nat.eqb_refl. reflexivity.
Qed.

(* vectors of the same length are equal iff their readings are *)
Lemma eq_s_uval x y : length x = length y -> eq_s x y = (uval x =? uval y)%Z.
Proof. intro Hl. rewrite uval_eqb. now apply eq_correct_N. Qed.

Lemma eq_s_sval x y : x <> [] -> length x = length y -> eq_s x y = (sval x =? sval y)%Z.
Proof.
  intros Hne Hl. assert (y <> []) as Hny by (eapply nonempty_of_length; eassumption).
  destruct (Z.eqb_spec (sval x) (sval y)) as [E|E].
  - apply eq_correct. rewrite <- (enc_sval x Hne), <- (enc_sval y Hny), E, Hl. reflexivity.
  - destruct (eq_s x y) eqn:Eq; [|reflexivity]. apply eq_correct in Eq. congruence.
Qed.

(* == and != compare the bit vectors; on vectors of the same length this is equality of the
   unsigned readings and (equivalently) of the signed readings, whatever the types say *)
Theorem lower_eq_unsigned t tx ty_ x y m o :
  x <> [] -> length x = length y ->
  lower_binop tops OEq t tx ty_ x y m o = Ok ([(uval x =? uval y)%Z], o).
Proof.
  intros Hne Hl. rewrite lower_binop_same_length by assumption.
  rewrite Hl, Nat.eqb_refl. unfold mbind. rewrite eq_acc_eq_s by exact Hl.
  rewrite eq_s_uval by exact Hl. reflexivity.
Qed.
Print Assumptions lower_eq_unsigned.

Theorem lower_eq_signed t tx ty_ x y m o :
  x <> [] -> length x = length y ->
  lower_binop tops OEq t tx ty_ x y m o = Ok ([(sval x =? sval y)%Z], o).
Proof.
  intros Hne Hl. rewrite lower_eq_unsigned by assumption.
  now rewrite <- eq_s_uval, eq_s_sval by assumption.
Qed.
Print Assumptions lower_eq_signed.

Theorem lower_ne_unsigned t tx ty_ x y m o :
  x <> [] -> length x = length y ->
  lower_binop tops ONe t tx ty_ x y m o = Ok ([negb (uval x =? uval y)%Z], o).
Proof.
  intros Hne Hl. rewrite lower_binop_same_length by assumption.
  rewrite Hl, Nat.eqb_refl. unfold mbind. rewrite eq_acc_eq_s by exact Hl.
  rewrite eq_s_uval by exact Hl. reflexivity.
Qed.
Print Assumptions lower_ne_unsigned.

Theorem lower_ne_signed t tx ty_ x y m o :
  x <> [] -> length x = length y ->
  lower_binop tops ONe t tx ty_ x y m o = Ok ([negb (sval x =? sval y)%Z], o).
Proof.
  intros Hne Hl. rewrite lower_ne_unsigned by assumption.
  now rewrite <- eq_s_uval, eq_s_sval by assumption.
Qed.
Print Assumptions lower_ne_signed.

(* ------------------------------------------------------------------ (5) bitwise operators *)

(* position by position *)
Fixpoint zipw (f : bool -> bool -> bool) (x y : list bool) : list bool :=
  match x, y with
  | a :: xr, b :: yr => f a b :: zipw f xr yr
  | _, _ => []
  end.

Lemma zipw_length f x y : length x = length y -> length (zipw f x y) = length x.
Proof.
  revert y. induction x as [|a x IH]; intros [|b y] Hl; try discriminate; [reflexivity|].
  cbn [zipw length]. f_equal. apply IH. now injection Hl.
Qed.

Lemma zipw_nth f x y i d : length x = length y -> (i < length x)%nat ->
  nth i (zipw f x y) d = f (nth i x d) (nth i y d).
Proof.
  revert y i. induction x as [|a x IH]; intros [|b y] i Hl Hi; try discriminate; cbn [length] in Hi; [lia|].
  destruct i as [|i]; [reflexivity|]. cbn [zipw nth]. apply IH; [now injection Hl|lia].
Qed.

Lemma map2_M_tops (f : bool -> bool -> pobs -> res (bool * pobs)) (g : bool -> bool -> bool) :
  (forall a b o, f a b o = Ok (g a b, o)) ->
  forall x y o, length x = length y -> map2_M f x y o = Ok (zipw g x y, o).
Proof.
  intros Hf. induction x as [|a x IH]; intros [|b y] o Hl; try discriminate; [reflexivity|].
  cbn [map2_M zipw]. unfold mbind. rewrite Hf. rewrite IH by (now injection Hl). reflexivity.
Qed.

Lemma mapM_not_tops : forall (x : list bool) (o : pobs), mapM_M (m_not tops) x o = Ok (map negb x, o).
Proof.
  induction x as [|a x IH]; intro o; [reflexivity|].
  cbn [mapM_M map]. unfold mbind. change (m_not tops a o) with (Ok (negb a, o)). cbn iota beta.
  rewrite IH. reflexivity.
Qed.

Theorem lower_bitand t tx ty_ x y m o : x <> [] -> length x = length y ->
  lower_binop tops OBitAnd t tx ty_ x y m o = Ok (zipw andb x y, o).
Proof.
  intros Hne Hl. rewrite lower_binop_same_length by assumption.
  apply map2_M_tops; [reflexivity|exact Hl].
Qed.
Print Assumptions lower_bitand.

Theorem lower_bitxor t tx ty_ x y m o : x <> [] -> length x = length y ->
  lower_binop tops OBitXor t tx ty_ x y m o = Ok (zipw xorb x y, o).
Proof.
  intros Hne Hl. rewrite lower_binop_same_length by assumption.
  apply map2_M_tops; [reflexivity|exact Hl].
Qed.
Print Assumptions lower_bitxor.

Theorem lower_bitor t tx ty_ x y m o : x <> [] -> length x = length y ->
  lower_binop tops OBitOr t tx ty_ x y m o = Ok (zipw orb x y, o).
Proof.
  intros Hne Hl. rewrite lower_binop_same_length by assumption.
  apply map2_M_tops; [reflexivity|exact Hl].
Qed.
Print Assumptions lower_bitor.

(* ------------------------------------------------------------------ (6) division and remainder *)

Lemma enc_of_uval n r z : length r = n -> uval r = z -> r = enc n z.
Proof.
  intros Hl Hv. apply enc_unique; [exact Hl|]. subst z n. symmetry. apply Z.mod_small. apply uval_range.
Qed.

Lemma map_pair_false (y : list bool) :
  map (fun w => (w, false)) y = combine y (repeat false (length y)).
Proof. induction y as [|b y IH]; [reflexivity|]. cbn [map length repeat combine]. now rewrite IH. Qed.

(* the divisor-is-zero test *)
Lemma all_zero_tops (y : list bool) (o : pobs) :
  eq_acc tops (wT tops) (map (fun w => (w, wF tops)) y) o = Ok ((bits_to_N y =? 0), o).
Proof.
  unfold wT, wF. cbn [w0 w1 tops]. rewrite map_pair_false.
  rewrite eq_acc_eq_s by (now rewrite repeat_length).
  rewrite eq_correct_N by (now rewrite repeat_length). now rewrite bits_to_N_repeat_false.
Qed.

Lemma uval_zero y : (uval y =? 0)%Z = (bits_to_N y =? 0).
Proof.
  unfold uval. destruct (Z.eqb_spec (Z.of_N (bits_to_N y)) 0); destruct (N.eqb_spec (bits_to_N y) 0);
    try reflexivity; lia.
Qed.

Lemma sval_zero y : y <> [] -> (sval y =? 0)%Z = (bits_to_N y =? 0).
Proof.
  intro Hne. destruct (signed_facts y Hne) as (HX & HP & H1 & H0 & HS). cbv zeta in *.
  unfold sval. rewrite HS.
  destruct (hd false y); [specialize (H1 eq_refl)|specialize (H0 eq_refl)];
    destruct (Z.eqb_spec (Z.of_N (bits_to_N y) - Z.of_N (2 ^ lenN y)) 0);
    destruct (Z.eqb_spec (Z.of_N (bits_to_N y) - 0) 0);
    destruct (N.eqb_spec (bits_to_N y) 0); try reflexivity; lia.
Qed.

(* unsigned / and %: DivByZero iff the divisor is 0, no overflow; the quotient truncates.
   (With a zero divisor the circuit still outputs something: all ones, resp. the dividend.) *)
Theorem lower_div_unsigned t tx ty_ x y m o :
  x <> [] -> length x = length y -> is_signed t = false ->
  let n := length x in
  lower_binop tops ODiv t tx ty_ x y m o =
  Ok (enc n (if (uval y =? 0)%Z then -1 else Z.quot (uval x) (uval y)),
      push_spec o (uval y =? 0)%Z DivByZero (ploc_of m)).
Proof.
  intros Hne Hl Hs. cbv zeta. rewrite lower_binop_same_length by assumption. rewrite Hs.
  unfold mbind at 1. rewrite all_zero_tops. unfold mbind, m_panic_if. cbn [o_panic_if o_udiv tops].
  unfold same_len. rewrite Hl, Nat.eqb_refl.
  pose proof (udiv_correct x y Hl) as Hu. pose proof (udiv_correct_divmod x y Hl) as Hdm.
  destruct (udiv_s x y) as [q r]. cbv zeta in Hu. cbn [fst snd] in Hdm.
  destruct Hu as (HLq & _ & _ & _ & HZ). unfold ret. rewrite uval_zero. rewrite <- Hl.
  f_equal. f_equal.
  destruct (N.eqb_spec (bits_to_N y) 0) as [E|E].
  - destruct (HZ E) as [HQ _]. apply enc_unique; [exact HLq|]. unfold uval. rewrite HQ.
    pose proof (pow2_pos (lenN x)) as Hp.
    apply (Z.mod_unique_pos _ _ (-1)); zpow_norm; lia.
  - destruct Hdm as [HQ _]; [lia|]. apply enc_of_uval; [exact HLq|]. unfold uval.
    rewrite HQ. apply N2Z.inj_quot.
Qed.
Print Assumptions lower_div_unsigned.

Theorem lower_mod_unsigned t tx ty_ x y m o :
  x <> [] -> length x = length y -> is_signed t = false ->
  let n := length x in
  lower_binop tops OMod t tx ty_ x y m o =
  Ok (enc n (Z.rem (uval x) (uval y)), push_spec o (uval y =? 0)%Z DivByZero (ploc_of m)).
Proof.
  intros Hne Hl Hs. cbv zeta. rewrite lower_binop_same_length by assumption. rewrite Hs.
  unfold mbind at 1. rewrite all_zero_tops. unfold mbind, m_panic_if. cbn [o_panic_if o_udiv tops].
  unfold same_len. rewrite Hl, Nat.eqb_refl.
  pose proof (udiv_correct x y Hl) as Hu. pose proof (udiv_correct_divmod x y Hl) as Hdm.
  destruct (udiv_s x y) as [q r]. cbv zeta in Hu. cbn [fst snd] in Hdm.
  destruct Hu as (_ & HLr & _ & _ & HZ). unfold ret. rewrite uval_zero. rewrite <- Hl.
  f_equal. f_equal. apply enc_of_uval; [exact HLr|]. unfold uval. rewrite <- N2Z.inj_rem. f_equal.
  destruct (N.eqb_spec (bits_to_N y) 0) as [E|E].
  - destruct (HZ E) as [_ HR]. rewrite HR, E. now destruct (bits_to_N x).
  - destruct Hdm as [_ HR]; [lia|]. exact HR.
Qed.
Print Assumptions lower_mod_unsigned.

(* the truncating quotient leaves the signed range only for MIN / -1 *)
Lemma quot_in_range_iff n SX SY : (1 <= n)%nat ->
  let H := (2 ^ (Z.of_nat n - 1))%Z in
  (- H <= SX < H)%Z -> (- H <= SY < H)%Z ->
  Sem.in_range true (N.of_nat n) (Z.quot SX SY) = true <-> ~ (SX = (- H)%Z /\ SY = (-1)%Z).
Proof.
  intros Hn H RX RY. unfold Sem.in_range. rewrite nat_N_Z. fold H.
  rewrite andb_true_iff, Z.leb_le, Z.ltb_lt.
  assert (0 < H)%Z as HH by (apply Z.pow_pos_nonneg; lia).
  split.
  - intros Hr [E1 E2]. subst SX SY. change (-1)%Z with (- (1))%Z in Hr.
    rewrite Z.quot_opp_opp, Z.quot_1_r in Hr by lia. lia.
  - intro Hnot. destruct (Z.eq_dec SY 0) as [->|Hnz].
    + rewrite Zquot_0_r. lia.
    + apply (quot_in_range SX SY H); assumption.
Qed.

(* the remainder always fits *)
Lemma rem_in_range n SX SY : (1 <= n)%nat ->
  let H := (2 ^ (Z.of_nat n - 1))%Z in
  (- H <= SX < H)%Z -> (- H <= SY < H)%Z ->
  Sem.in_range true (N.of_nat n) (Z.rem SX SY) = true.
Proof.
  intros Hn H RX RY. unfold Sem.in_range. rewrite nat_N_Z. fold H.
  rewrite andb_true_iff, Z.leb_le, Z.ltb_lt.
  destruct (Z.eq_dec SY 0) as [->|Hnz].
  - rewrite Zrem_0_r. lia.
  - pose proof (Z.rem_bound_abs SX SY Hnz). lia.
Qed.

Lemma eq_negb_of_iff' (b c : bool) (Q : Prop) : (b = true <-> Q) -> (c = true <-> ~ Q) -> b = negb c.
Proof. intros H1 H2. destruct b, c; cbn [negb]; try reflexivity; exfalso; intuition congruence. Qed.

Lemma sdiv_tops x y (o : pobs) : x <> [] -> length x = length y ->
  o_sdiv tops x y o = Ok (sdiv_s x y, o).
Proof.
  intros Hne Hl. cbn [o_sdiv tops]. unfold same_len. rewrite Hl, Nat.eqb_refl.
  destruct x; [congruence|reflexivity].
Qed.

(* signed /: DivByZero iff the divisor is 0 (checked first), then Overflow iff the exact
   truncating quotient does not fit, i.e. iff MIN / -1 ([quot_in_range_iff]) *)
Theorem lower_div_signed t tx ty_ x y m o :
  x <> [] -> length x = length y -> is_signed t = true ->
  let n := length x in
  let Q := Z.quot (sval x) (sval y) in
  lower_binop tops ODiv t tx ty_ x y m o =
  Ok (enc n (if (sval y =? 0)%Z then (if (sval x <? 0)%Z then 1 else -1) else Q),
      push_spec (push_spec o (sval y =? 0)%Z DivByZero (ploc_of m))
                (negb (Sem.in_range true (N.of_nat n) Q)) Overflow (ploc_of m)).
Proof.
  intros Hne Hl Hs. cbv zeta. assert (y <> []) as Hny by (eapply nonempty_of_length; eassumption).
  pose proof (nonempty_length x Hne) as Hn.
  rewrite lower_binop_same_length by assumption. rewrite Hs.
  unfold mbind at 1. rewrite all_zero_tops. unfold mbind at 1. unfold m_panic_if at 1. cbn [o_panic_if tops].
  rewrite (hd_res_nonempty false x Hne), (hd_res_nonempty false y Hny). unfold lift_res.
  unfold mbind at 1. unfold mbind at 1. unfold mbind at 1. rewrite sdiv_tops by assumption.
  pose proof (sdiv_correct x y Hne Hl) as Hc. pose proof (sdiv_overflow_signal x y Hne Hl) as Hov.
  destruct (sdiv_s x y) as [q r]. cbv zeta in Hc, Hov. cbn [fst] in Hov.
  destruct Hc as (HLq & _ & Hnz & Hz).
  assert (q <> []) as Hnq by (eapply nonempty_of_length; [exact Hne|now symmetry]).
  unfold mbind, m_and. cbn [o_and tops]. unfold tret. rewrite (hd_res_nonempty false q Hnq).
  unfold m_panic_if, ret. cbn [o_panic_if tops]. rewrite <- (sval_zero y Hny).
  pose proof (sval_range x Hne) as RX. pose proof (sval_range y Hny) as RY. rewrite <- Hl in RY.
  f_equal. f_equal.
  - destruct (Z.eqb_spec (sval y) 0) as [E|E].
    + destruct (Hz E) as [HQ _]. apply enc_unique; [exact HLq|]. unfold uval. rewrite HQ.
      fold (sval x). pose proof (pow2_pos (lenN x)) as Hp.
      assert (2 <= 2 ^ lenN x) as Hp2.
      { unfold lenN. replace (N.of_nat (length x)) with (1 + (N.of_nat (length x) - 1)) by lia.
        rewrite pow2_succ. pose proof (pow2_pos (N.of_nat (length x) - 1)). lia. }
      destruct (Z.ltb_spec (sval x) 0).
      * symmetry. apply Z.mod_small. zpow_norm. lia.
      * apply (Z.mod_unique_pos _ _ (-1)); zpow_norm; lia.
    + destruct (Hnz E) as [HQ _]. apply enc_unique; [exact HLq|]. unfold uval. rewrite HQ.
      zpow_norm. reflexivity.
  - f_equal. apply (eq_negb_of_iff' _ _ _ Hov).
    rewrite (quot_in_range_iff (length x) (sval x) (sval y) Hn RX RY).
    unfold sval, lenN. rewrite half_N_Z by exact Hn. rewrite nat_N_Z. reflexivity.
Qed.
Print Assumptions lower_div_signed.

(* signed %: DivByZero iff the divisor is 0; never an overflow (MIN % -1 = 0); the remainder
   is that of the truncating division, so it has the sign of the dividend *)
Theorem lower_mod_signed t tx ty_ x y m o :
  x <> [] -> length x = length y -> is_signed t = true ->
  let n := length x in
  lower_binop tops OMod t tx ty_ x y m o =
  Ok (enc n (Z.rem (sval x) (sval y)), push_spec o (sval y =? 0)%Z DivByZero (ploc_of m)).
Proof.
  intros Hne Hl Hs. cbv zeta. assert (y <> []) as Hny by (eapply nonempty_of_length; eassumption).
  rewrite lower_binop_same_length by assumption. rewrite Hs.
  unfold mbind at 1. rewrite all_zero_tops. unfold mbind at 1. unfold m_panic_if at 1. cbn [o_panic_if tops].
  unfold mbind. rewrite sdiv_tops by assumption.
  pose proof (sdiv_correct x y Hne Hl) as Hc.
  destruct (sdiv_s x y) as [q r]. cbv zeta in Hc. destruct Hc as (_ & HLr & Hnz & Hz).
  unfold ret. rewrite <- (sval_zero y Hny).
  f_equal. f_equal. destruct (Z.eq_dec (sval y) 0) as [E|E].
  - destruct (Hz E) as [_ HR]. rewrite E, Zrem_0_r.
    apply enc_unique; [exact HLr|].
    unfold uval. rewrite HR. fold (uval x). symmetry. now apply sval_mod.
  - destruct (Hnz E) as [_ HR]. apply enc_unique; [exact HLr|]. unfold uval. rewrite HR.
    zpow_norm. reflexivity.
Qed.
Print Assumptions lower_mod_signed.

(* ------------------------------------------------------------------ (5') bitwise operators, on numbers:
   the pointwise operation is Z.land / Z.lxor / Z.lor of the readings (unsigned or signed),
   as in Lang/Sem.v *)

Lemma uval_snoc l b : uval (l ++ [b]) = (2 * uval l + Z.b2z b)%Z.
Proof. unfold uval. rewrite bits_to_N_snoc. destruct b; cbn [N.b2n Z.b2z]; lia. Qed.

Lemma zipw_snoc f x y a b : length x = length y ->
  zipw f (x ++ [a]) (y ++ [b]) = zipw f x y ++ [f a b].
Proof.
  revert y. induction x as [|c x IH]; intros [|d y] Hl; try discriminate; [reflexivity|].
  cbn [app zipw]. f_equal. apply IH. now injection Hl.
Qed.

Section Bitwise.
Variable op : Z -> Z -> Z.
Variable f : bool -> bool -> bool.
Hypothesis op_spec : forall a b i, Z.testbit (op a b) i = f (Z.testbit a i) (Z.testbit b i).
Hypothesis f_false : f false false = false.

Lemma bitop_step A B a b :
  op (2 * A + Z.b2z a) (2 * B + Z.b2z b) = (2 * op A B + Z.b2z (f a b))%Z.
Proof.
  apply Z.bits_inj'. intros i Hi. rewrite op_spec.
  destruct (Z.eq_dec i 0) as [->|Hnz].
  - now rewrite !Z.testbit_0_r.
  - replace i with (Z.succ (i - 1)) by lia. rewrite !Z.testbit_succ_r by lia. now rewrite op_spec.
Qed.

Lemma bitop_zero : op 0 0 = 0%Z.
Proof. apply Z.bits_inj'. intros i _. now rewrite op_spec, !Z.testbit_0_l. Qed.

Lemma uval_zipw : forall x y, length x = length y -> uval (zipw f x y) = op (uval x) (uval y).
Proof.
  induction x as [|a x IH] using rev_ind; intros y Hl; destruct y as [|b y _] using rev_ind.
  - cbn [zipw]. unfold uval. cbn [bits_to_N]. symmetry. exact bitop_zero.
  - rewrite app_length in Hl. cbn [length] in Hl. lia.
  - rewrite app_length in Hl. cbn [length] in Hl. lia.
  - rewrite !app_length in Hl. cbn [length] in Hl. assert (length x = length y) as Hl' by lia.
    rewrite zipw_snoc by exact Hl'. rewrite !uval_snoc, (IH y Hl'). symmetry. apply bitop_step.
Qed.

Lemma bitop_mod n a b : (0 <= n)%Z -> (op a b mod 2 ^ n = op (a mod 2 ^ n) (b mod 2 ^ n))%Z.
Proof.
  intro Hn. apply Z.bits_inj'. intros i Hi. rewrite op_spec. destruct (Z_lt_dec i n) as [Hlt|Hge].
  - rewrite !Z.mod_pow2_bits_low by exact Hlt. apply op_spec.
  - rewrite !Z.mod_pow2_bits_high by lia. now rewrite f_false.
Qed.

Lemma zipw_enc_unsigned x y : length x = length y ->
  zipw f x y = enc (length x) (op (uval x) (uval y)).
Proof.
  intro Hl. apply enc_of_uval; [now apply zipw_length|now apply uval_zipw].
Qed.

Lemma zipw_enc_signed x y : x <> [] -> length x = length y ->
  zipw f x y = enc (length x) (op (sval x) (sval y)).
Proof.
  intros Hne Hl. assert (y <> []) as Hny by (eapply nonempty_of_length; eassumption).
  apply enc_unique; [now apply zipw_length|]. rewrite bitop_mod by lia.
  rewrite (sval_mod x Hne). rewrite Hl, (sval_mod y Hny). now apply uval_zipw.
Qed.
End Bitwise.

Theorem lower_bitand_unsigned t tx ty_ x y m o : x <> [] -> length x = length y ->
  lower_binop tops OBitAnd t tx ty_ x y m o = Ok (enc (length x) (Z.land (uval x) (uval y)), o).
Proof.
  intros Hne Hl. rewrite lower_bitand by assumption.
  now rewrite (zipw_enc_unsigned Z.land andb Z.land_spec eq_refl x y Hl).
Qed.
Theorem lower_bitand_signed t tx ty_ x y m o : x <> [] -> length x = length y ->
  lower_binop tops OBitAnd t tx ty_ x y m o = Ok (enc (length x) (Z.land (sval x) (sval y)), o).
Proof.
  intros Hne Hl. rewrite lower_bitand by assumption.
  now rewrite (zipw_enc_signed Z.land andb Z.land_spec eq_refl x y Hne Hl).
Qed.
Theorem lower_bitxor_unsigned t tx ty_ x y m o : x <> [] -> length x = length y ->
  lower_binop tops OBitXor t tx ty_ x y m o = Ok (enc (length x) (Z.lxor (uval x) (uval y)), o).
Proof.
  intros Hne Hl. rewrite lower_bitxor by assumption.
  now rewrite (zipw_enc_unsigned Z.lxor xorb Z.lxor_spec eq_refl x y Hl).
Qed.
Theorem lower_bitxor_signed t tx ty_ x y m o : x <> [] -> length x = length y ->
  lower_binop tops OBitXor t tx ty_ x y m o = Ok (enc (length x) (Z.lxor (sval x) (sval y)), o).
Proof.
  intros Hne Hl. rewrite lower_bitxor by assumption.
  now rewrite (zipw_enc_signed Z.lxor xorb Z.lxor_spec eq_refl x y Hne Hl).
Qed.
Theorem lower_bitor_unsigned t tx ty_ x y m o : x <> [] -> length x = length y ->
  lower_binop tops OBitOr t tx ty_ x y m o = Ok (enc (length x) (Z.lor (uval x) (uval y)), o).
Proof.
  intros Hne Hl. rewrite lower_bitor by assumption.
  now rewrite (zipw_enc_unsigned Z.lor orb Z.lor_spec eq_refl x y Hl).
Qed.
Theorem lower_bitor_signed t tx ty_ x y m o : x <> [] -> length x = length y ->
  lower_binop tops OBitOr t tx ty_ x y m o = Ok (enc (length x) (Z.lor (sval x) (sval y)), o).
Proof.
  intros Hne Hl. rewrite lower_bitor by assumption.
  now rewrite (zipw_enc_signed Z.lor orb Z.lor_spec eq_refl x y Hne Hl).
Qed.
Print Assumptions lower_bitand_unsigned.
Print Assumptions lower_bitand_signed.
Print Assumptions lower_bitxor_unsigned.
Print Assumptions lower_bitxor_signed.
Print Assumptions lower_bitor_unsigned.
Print Assumptions lower_bitor_signed.

(* ------------------------------------------------------------------ reading the results back *)

(* the Overflow condition of signed division, spelled out: MIN / -1 and nothing else *)
Corollary div_overflow_is_min_minus_one x y : x <> [] -> length x = length y ->
  negb (Sem.in_range true (N.of_nat (length x)) (Z.quot (sval x) (sval y))) =
  (sval x =? Sem.min_of (N.of_nat (length x)))%Z && (sval y =? -1)%Z.
Proof.
  intros Hne Hl. assert (y <> []) as Hny by (eapply nonempty_of_length; eassumption).
  pose proof (nonempty_length x Hne) as Hn.
  pose proof (sval_range x Hne) as RX. pose proof (sval_range y Hny) as RY. rewrite <- Hl in RY.
  pose proof (quot_in_range_iff (length x) (sval x) (sval y) Hn RX RY) as Hq. cbv zeta in Hq.
  unfold Sem.min_of. rewrite nat_N_Z.
  destruct (Sem.in_range true (N.of_nat (length x)) (Z.quot (sval x) (sval y)));
    destruct (Z.eqb_spec (sval x) (- 2 ^ (Z.of_nat (length x) - 1)));
    destruct (Z.eqb_spec (sval y) (-1)); cbn [negb andb]; try reflexivity; exfalso.
  - apply (proj1 Hq eq_refl). split; assumption.
  - assert (false = true) as Hf by (apply Hq; tauto). discriminate Hf.
  - assert (false = true) as Hf by (apply Hq; tauto). discriminate Hf.
  - assert (false = true) as Hf by (apply Hq; tauto). discriminate Hf.
Qed.

(* quotients and remainders that are reported without a panic read back exactly *)
Corollary uval_enc_quot x y : length x = length y -> uval y <> 0%Z ->
  uval (enc (length x) (Z.quot (uval x) (uval y))) = Z.quot (uval x) (uval y).
Proof.
  intros Hl Hy. pose proof (uval_range x) as Rx. pose proof (uval_range y) as Ry.
  rewrite uval_enc. apply Z.mod_small. rewrite Z.quot_div_nonneg by lia. split.
  - apply Z.div_pos; lia.
  - apply Z.le_lt_trans with (uval x); [|lia]. apply Z.div_le_upper_bound; [lia|]. nia.
Qed.

Corollary uval_enc_rem x y : length x = length y ->
  uval (enc (length x) (Z.rem (uval x) (uval y))) = Z.rem (uval x) (uval y).
Proof.
  intros Hl. pose proof (uval_range x) as Rx. pose proof (uval_range y) as Ry.
  rewrite uval_enc. apply Z.mod_small. destruct (Z.eq_dec (uval y) 0) as [E|E].
  - rewrite E, Zrem_0_r. exact Rx.
  - rewrite Z.rem_mod_nonneg by lia. pose proof (Z.mod_pos_bound (uval x) (uval y)). 
    pose proof (Z.mod_le (uval x) (uval y)). lia.
Qed.

(* signed remainder: exact, and with the sign of the dividend (or zero) *)
Corollary sval_enc_rem x y : x <> [] -> length x = length y ->
  let R := Z.rem (sval x) (sval y) in
  sval (enc (length x) R) = R /\ (0 <= Z.sgn R * Z.sgn (sval x))%Z.
Proof.
  intros Hne Hl. cbv zeta. assert (y <> []) as Hny by (eapply nonempty_of_length; eassumption).
  pose proof (nonempty_length x Hne) as Hn.
  pose proof (sval_range x Hne) as RX. pose proof (sval_range y Hny) as RY. rewrite <- Hl in RY.
  split; [|apply Zrem_sgn].
  apply sval_enc_in_range; [exact Hn|]. now apply rem_in_range.
Qed.

(* signed quotient: exact whenever no Overflow is raised *)
Corollary sval_enc_quot x y : x <> [] -> length x = length y ->
  let Q := Z.quot (sval x) (sval y) in
  Sem.in_range true (N.of_nat (length x)) Q = true -> sval (enc (length x) Q) = Q.
Proof. intros Hne Hl Q HQ. apply sval_enc_in_range; [now apply nonempty_length|exact HQ]. Qed.

Print Assumptions div_overflow_is_min_minus_one.
Print Assumptions uval_enc_quot.
Print Assumptions uval_enc_rem.
Print Assumptions sval_enc_rem.
Print Assumptions sval_enc_quot.
Print Assumptions sval_enc.
Print Assumptions enc_uval.
Print Assumptions enc_sval.
