(* Parametricity of the generic lowering: each open-recursion piece of the
   statements / expressions / patterns preserves the abstract simulation assumed for the
   recursive calls; the induction on fuel ties the knot (lower_param); the generic initial
   environments. *)
From GV Require Import Base.Util Base.NMap Lang.Ast Gadgets.Gadgets Gadgets.Extend Panic.PanicRec Compile.Lower
  Compile.ParamBase Compile.ParamHelpers.

Section Rec.
Context {WA WB SA SB PA PB : Type} {OA : ops WA SA PA} {OB : ops WB SB PB}.
Variable PR : param_rel OA OB.

Notation Rw := (Rw PR).
Notation Rws := (Rws PR).
Notation RS := (RS PR).
Notation RE := (RE PR).
Notation rel := (rel PR).
Notation sim := (sim PR).
Notation MA := (@MA SA).
Notation MB := (@MB SB).

Definition Rres (s : SA) (x : list WA * @cenv WA) (y : list WB * @cenv WB) : Prop :=
  Rws s (fst x) (fst y) /\ RE s (snd x) (snd y).
Definition RresP (s : SA) (x : WA * @cenv WA) (y : WB * @cenv WB) : Prop :=
  Rw s (fst x) (fst y) /\ RE s (snd x) (snd y).

Variable P : program.
Variable eA : expr -> @cenv WA -> MA (list WA * @cenv WA).
Variable eB : expr -> @cenv WB -> MB (list WB * @cenv WB).
Variable pA : pattern -> list WA -> @cenv WA -> MA (WA * @cenv WA).
Variable pB : pattern -> list WB -> @cenv WB -> MB (WB * @cenv WB).
Variable sA : stmt -> @cenv WA -> MA (list WA * @cenv WA).
Variable sB : stmt -> @cenv WB -> MB (list WB * @cenv WB).
Variable bA : list stmt -> @cenv WA -> MA (list WA * @cenv WA).
Variable bB : list stmt -> @cenv WB -> MB (list WB * @cenv WB).

Hypothesis He : forall e s o E EB, RS s o -> rel s E EB -> sim s o (eA e E) (eB e EB) rel.
Hypothesis Hp : forall p s o mw vmw E EB, RS s o -> rel s mw vmw -> rel s E EB ->
  sim s o (pA p mw E) (pB p vmw EB) rel.
Hypothesis Hs : forall st s o E EB, RS s o -> rel s E EB -> sim s o (sA st E) (sB st EB) rel.
Hypothesis Hb : forall ss s o E EB, RS s o -> rel s E EB -> sim s o (bA ss E) (bB ss EB) rel.

Ltac same_length :=
  match goal with H : ParamBase.rel _ _ ?w _ |- context [length ?w] => rewrite (rel_length _ _ _ _ H) end.

Ltac same_count := match goal with H : ParamBase.rel _ (Rel:=Rel_nat _) _ _ ?n |- _ => cbn in H; subst n end.

Lemma sim_lower_list es : forall s o E EB, RS s o -> rel s E EB ->
  sim s o (lower_list eA es E) (lower_list eB es EB) rel.
Proof.
  induction es as [|e es IH]; intros s o E EB HS HE; cbn [lower_list]; [sret|].
  sbind He. sbind IH. sret.
Qed.

Lemma sim_lower_struct_fields fields ds : forall s o E EB, RS s o -> rel s E EB ->
  sim s o (lower_struct_fields eA fields ds E) (lower_struct_fields eB fields ds EB) rel.
Proof.
  induction ds as [|[fname fty] ds IH]; intros s o E EB HS HE; cbn [lower_struct_fields]; [sret|].
  destruct (assocN fname (rev fields)) as [fe|]; [|apply sim_crash].
  sbind He. sbind IH. sret.
Qed.

Lemma sim_lower_arms bits arms : forall s o sw vsw E0 EB0 P0 o0 hp vhp mret vmret mp vmp menv vmenv,
  RS s o -> rel s sw vsw -> rel s E0 EB0 -> rel s P0 o0 -> rel s hp vhp -> rel s mret vmret -> rel s mp vmp ->
  rel s menv vmenv ->
  sim s o (lower_arms OA eA pA bits sw E0 P0 arms hp mret mp menv)
          (lower_arms OB eB pB bits vsw EB0 o0 arms vhp vmret vmp vmenv) rel.
Proof.
  induction arms as [|[pat body] arms IH]; intros s o sw vsw E0 EB0 P0 o0 hp vhp mret vmret mp vmp menv vmenv
    HS Hsw HE0 HP0 Hhp Hmret Hmp Hmenv; cbn [lower_arms]; [sret|].
  sbind sim_replace. sbind Hp. sbind He. sbind sim_not. sbind sim_and. slet rel_env_pop. sbind sim_peek.
  sbind sim_mux_panic. sbind sim_mux_envs.
  eapply sim_bind_rel; [same_length; destruct (_ <? _)%nat; [apply sim_crash|eapply sim_map2_mux; eauto with rel]|snext].
  sbind sim_or. eapply IH; eauto.
Qed.

Lemma sim_lower_args ps : forall args s o E EB, RS s o -> rel s E EB ->
  sim s o (lower_args eA ps args E) (lower_args eB ps args EB) rel.
Proof.
  induction ps as [|[pn pt] ps IH]; intros args s o E EB HS HE; cbn [lower_args]; [sret|].
  destruct args as [|a args]; [sret|].
  sbind He. slet rel_env_pop. sbind IH. sret.
Qed.

Lemma rel_bind_all s bs : forall vbs (E : @cenv WA) (EB : @cenv WB) y, rel s bs vbs -> rel s E EB -> bind_all EB vbs = Ok y ->
  exists x, bind_all E bs = Ok x /\ rel s x y.
Proof.
  unfold bind_all.
  assert (G : forall vbs (rA : res (@cenv WA)) (rB : res (@cenv WB)) y,
             rel s bs vbs ->
             (forall yb, rB = Ok yb -> exists xa, rA = Ok xa /\ rel s xa yb) ->
             fold_left (fun Er b => let* E' := Er in env_let E' (fst b) (snd b)) vbs rB = Ok y ->
             exists x, fold_left (fun Er b => let* E' := Er in env_let E' (fst b) (snd b)) bs rA = Ok x /\ rel s x y).
  { induction bs as [|[k v] bs IH]; intros vbs rA rB y HF Hr E; inversion HF; subst; cbn [fold_left] in *.
    - apply Hr. exact E.
    - destruct y0 as [k' vv]. destruct H1 as [Hk Hv]. cbn in Hk. cbn [fst snd] in *. subst k'.
      eapply IH; [exact H3| |exact E].
      intros yb Eb. destruct rB as [eb| |]; cbn [bind] in Eb; try discriminate.
      destruct (Hr eb eq_refl) as (ea & -> & Hea). cbn [bind]. eapply rel_env_let; eauto. }
  intros vbs E EB y HF HE Ey. eapply G; eauto. intros yb [= <-]. eauto.
Qed.

Lemma sim_join_func_windows eba ebb jts ha ws : forall s o vws, RS s o -> rel s ws vws ->
  sim s o (join_func_windows OA eba ebb jts ha ws) (join_func_windows OB eba ebb jts ha vws) rel.
Proof.
  induction ws as [|w0_ ws IH]; intros s o vws HS Hw; inversion Hw; subst; cbn [join_func_windows]; [sret|].
  match goal with H : Forall2 _ ws _ |- _ => destruct H as [|w1_ vw1 ws' vws' Hw1 Hws'] end; [sret|].
  assert (Hrest : rel s (w1_ :: ws') (vw1 :: vws')) by (constructor; assumption).
  sbind sim_window_binding.
  eapply sim_bind_rel.
  { match goal with H : rel _ ?b _ |- context [match ?b with _ => _ end] => destruct H end; [sret|].
    sbind sim_mapM_M. sret. }
  snext. sbind IH. sret.
Qed.

Lemma sim_lower_stmts ss : forall s o E EB, RS s o -> rel s E EB ->
  sim s o (lower_stmts sA ss E) (lower_stmts sB ss EB) rel.
Proof.
  induction ss as [|st ss IH]; intros s o E EB HS HE; cbn [lower_stmts]; [sret|].
  sbind Hs. eapply IH; eauto.
Qed.

Lemma sim_join_loop_windows pat body eba ebb jts ws : forall s o vws E EB, RS s o -> rel s ws vws -> rel s E EB ->
  sim s o (join_loop_windows OA pA sA pat body eba ebb jts ws E) (join_loop_windows OB pB sB pat body eba ebb jts vws EB) rel.
Proof.
  induction ws as [|w0_ ws IH]; intros s o vws E EB HS Hw HE; inversion Hw; subst; cbn [join_loop_windows]; [sret|].
  match goal with H : Forall2 _ ws _ |- _ => destruct H as [|w1_ vw1 ws' vws' Hw1 Hws'] end; [sret|].
  assert (Hrest : rel s (w1_ :: ws') (vw1 :: vws')) by (constructor; assumption).
  sbind sim_window_binding. sbind sim_peek. sbind Hp. sbind sim_lower_stmts. slet rel_env_pop.
  sbind sim_replace. sbind sim_mux_envs. sbind sim_mux_panic. sbind sim_replace. eapply IH; eauto.
Qed.

Lemma sim_for_iterations pat body eb n : forall s o aw vaw E EB, RS s o -> rel s aw vaw -> rel s E EB ->
  sim s o (for_iterations pA sA pat body eb n aw E) (for_iterations pB sB pat body eb n vaw EB) rel.
Proof.
  induction n as [|n IH]; intros s o aw vaw E EB HS Ha HE; cbn [for_iterations]; [sret|].
  slet rel_slice. sbind Hp. sbind sim_lower_stmts. slet rel_env_pop. eapply IH; eauto with rel.
Qed.

(* ---- assignment through accessors *)

Lemma sim_assign_indexes m accs : forall s o E EB acc vacc, RS s o -> rel s E EB -> rel s acc vacc ->
  sim s o (assign_indexes OA P eA m accs E acc) (assign_indexes OB P eB m accs EB vacc) rel.
Proof.
  induction accs as [|a accs IH]; intros s o E EB acc vacc HS HE Hacc; cbn [assign_indexes]; [sret|].
  destruct a as [arr_ty idx|tup_ty i|st_ty fld]; try (eapply IH; eauto).
  apply sim_bind_pure. intros [eb0 num].
  sbind He. slet rel_extend. sbind sim_bounds_check. eapply IH; eauto with rel.
Qed.

Lemma sim_assign_forward accs : forall s o coll vcoll idxs vidxs (acc : list (@acc_item WA)) (vacc : list (@acc_item WB)),
  RS s o -> rel s coll vcoll -> rel s idxs vidxs -> rel s acc vacc ->
  sim s o (assign_forward OA P accs coll idxs acc) (assign_forward OB P accs vcoll vidxs vacc) rel.
Proof.
  induction accs as [|a accs IH]; intros s o coll vcoll idxs vidxs acc vacc HS Hc Hidx Hacc; cbn [assign_forward]; [sret|].
  destruct a as [arr_ty idx|tup_ty i|st_ty fld]; apply sim_bind_pure; intros [n1 n2].
  - destruct Hidx as [|iw viw ir vir Hiw Hir]; [apply sim_crash|].
    sbind sim_index_layers. eapply IH; eauto.
    + match goal with H : rel _ ?r _ |- context [match ?r with _ => _ end] => destruct H end; eauto with rel.
    + eauto 7 with rel.
  - slet rel_slice. eapply IH; eauto 7 with rel.
  - slet rel_slice. eapply IH; eauto 7 with rel.
Qed.

Lemma sim_assign_backward m acc : forall s o (vacc : list (@acc_item WB)) value vvalue, RS s o -> rel s acc vacc -> rel s value vvalue ->
  sim s o (assign_backward OA m acc value) (assign_backward OB m vacc vvalue) rel.
Proof.
  induction acc as [|a acc IH]; intros s o vacc value vvalue HS Hacc Hv; inversion Hacc; subst; cbn [assign_backward]; [sret|].
  destruct a as [[[ba xa] na] ia], y as [[[bb xb] nb] ib].
  match goal with H : rel _ (_, _) _ |- _ => destruct H as [[[Hb1 Hxa] Hna] Hix]; cbn in Hxa, Hna; cbn [fst snd] in Hb1, Hix; subst xb nb end.
  destruct ia as [iw|], ib as [viw|]; try contradiction.
  - sbind sim_array_write. eapply IH; eauto.
  - slet rel_splice. eapply IH; eauto.
Qed.

(* ---- patterns *)

Lemma sim_fields_match ps : forall s o mw vmw w im vim E EB, RS s o -> rel s mw vmw -> rel s im vim -> rel s E EB ->
  sim s o (fields_match OA pA mw ps w im E) (fields_match OB pB vmw ps w vim EB) rel.
Proof.
  induction ps as [|[fp fbits] ps IH]; intros s o mw vmw w im vim E EB HS Hmw Him HE; cbn [fields_match]; [sret|].
  slet rel_slice. sbind Hp. sbind sim_and. eapply IH; eauto.
Qed.

Lemma sim_struct_match fields ds : forall s o mw vmw w im vim E EB, RS s o -> rel s mw vmw -> rel s im vim -> rel s E EB ->
  sim s o (struct_match OA P pA mw fields ds w im E) (struct_match OB P pB vmw fields ds w vim EB) rel.
Proof.
  induction ds as [|[fname fty] ds IH]; intros s o mw vmw w im vim E EB HS Hmw Him HE; cbn [struct_match]; [sret|].
  destruct (assocN fname (rev fields)) as [fp|]; [|eapply IH; eauto].
  slet rel_slice. sbind Hp. sbind sim_and. eapply IH; eauto.
Qed.

Lemma sim_block_stmts ss : forall s o last vlast E EB, RS s o -> rel s last vlast -> rel s E EB ->
  sim s o (block_stmts sA ss last E) (block_stmts sB ss vlast EB) rel.
Proof.
  induction ss as [|st ss IH]; intros s o last vlast E EB HS Hl HE; cbn [block_stmts]; [sret|].
  sbind Hs. eapply IH; eauto.
Qed.

(* ------------------------------------------------------------------ the four bodies *)

Lemma sim_lower_block_body ss s o E EB : RS s o -> rel s E EB ->
  sim s o (lower_block_body sA ss E) (lower_block_body sB ss EB) rel.
Proof. intros HS HE. unfold lower_block_body. sbind sim_block_stmts. slet rel_env_pop. sret. Qed.

Lemma sim_lower_pattern_body p s o mw vmw E EB : RS s o -> rel s mw vmw -> rel s E EB ->
  sim s o (lower_pattern_body OA P pA p mw E) (lower_pattern_body OB P pB p vmw EB) rel.
Proof.
  intros HS Hmw HE. destruct p as [pi pm t]. cbn [lower_pattern_body].
  assert (Hrange : forall lo vlo hi vhi, rel s lo vlo -> rel s hi vhi ->
    sim s o
      (mbind (o_comparator OA (szn P t) mw (is_signed t) lo (is_signed t)) (fun '(lt_min, _) =>
       mbind (o_comparator OA (szn P t) mw (is_signed t) hi (is_signed t)) (fun '(_, gt_max) =>
       mbind (m_not OA lt_min) (fun a => mbind (m_not OA gt_max) (fun c =>
       mbind (m_and OA a c) (fun r => ret (r, E)))))))
      (mbind (o_comparator OB (szn P t) vmw (is_signed t) vlo (is_signed t)) (fun '(lt_min, _) =>
       mbind (o_comparator OB (szn P t) vmw (is_signed t) vhi (is_signed t)) (fun '(_, gt_max) =>
       mbind (m_not OB lt_min) (fun a => mbind (m_not OB gt_max) (fun c =>
       mbind (m_and OB a c) (fun r => ret (r, EB))))))) rel).
  { intros lo vlo hi vhi Hlo Hhi.
    sbind sim_comparator. sbind sim_comparator. sbind sim_not. sbind sim_not. sbind sim_and. sret. }
  assert (Heq : forall n vn, rel s n vn ->
    sim s o
      (if (length mw <? szn P t)%nat then crash else mbind (eq_acc OA (wT OA) (combine n (firstn (szn P t) mw))) (fun acc => ret (acc, E)))
      (if (length vmw <? szn P t)%nat then crash else mbind (eq_acc OB (wT OB) (combine vn (firstn (szn P t) vmw))) (fun acc => ret (acc, EB)))
      rel).
  { intros n vn Hn. same_length. destruct (_ <? _)%nat; [apply sim_crash|]. sbind sim_eq_acc. sret. }
  destruct pi as [x| | |n|z|ps|name ir fields|ename variant|ename variant ps|lo hi|lo hi].
  - slet rel_env_let. sret.
  - sbind sim_one_wire. sret.
  - sbind sim_one_wire. sbind sim_not. sret.
  - eauto with rel.
  - eauto with rel.
  - eapply sim_fields_match; eauto with rel.
  - destruct (assocN name (p_structs P)) as [def|]; [|apply sim_crash]. eapply sim_struct_match; eauto with rel.
  - destruct (assocN ename (p_enums P)) as [variants|]; [|apply sim_crash].
    slet rel_slice. sbind sim_eq_acc. sret.
  - destruct (assocN ename (p_enums P)) as [variants|]; [|apply sim_crash].
    slet rel_slice. sbind sim_eq_acc. destruct (nthN variants variant) as [fts|]; [|apply sim_crash].
    eapply sim_fields_match; eauto.
  - eauto with rel.
  - eauto with rel.
Qed.

Lemma sim_env_get s o (E : @cenv WA) (EB : @cenv WB) x : RS s o -> rel s E EB ->
  sim s o (match env_get E x with Some v => ret v | None => crash end)
          (match env_get EB x with Some v => ret v | None => crash end) rel.
Proof.
  intros HS HE. destruct (env_get EB x) as [vv|] eqn:Eg; [|apply sim_crash].
  destruct (rel_env_get _ _ _ _ _ _ HE Eg) as (v & -> & Hv). sret.
Qed.

Lemma sim_lower_stmt_body st s o E EB : RS s o -> rel s E EB ->
  sim s o (lower_stmt_body OA P eA pA sA st E) (lower_stmt_body OB P eB pB sB st EB) rel.
Proof.
  intros HS HE. destruct st as [si m]. cbn [lower_stmt_body].
  destruct si as [pat e|name e|name accs e|pat arr body|pat join_ty a b body|e].
  - (* let *) sbind He. sbind Hp. sret.
  - (* let mut *) sbind He. slet rel_env_let. sret.
  - (* assignment *)
    sbind He. sbind sim_assign_indexes. sbind sim_env_get. sbind sim_assign_forward.
    sbind sim_assign_backward. slet rel_env_assign. sret.
  - (* for *) apply sim_bind_pure. intros [eb num]. sbind He. sbind sim_for_iterations. sret.
  - (* join loop *)
    apply sim_bind_pure. intros [eba na]. apply sim_bind_pure. intros [ebb nb].
    sbind He. sbind He. slet rel_bitonic_input.
    same_count.
    sbind sim_merger. sbind sim_join_loop_windows. sret.
  - (* expression statement *) eapply He; eauto.
Qed.

Lemma sim_lower_expr_body e s o E EB : RS s o -> rel s E EB ->
  sim s o (lower_expr_body OA P eA pA bA e E) (lower_expr_body OB P eB pB bB e EB) rel.
Proof.
  intros HS HE. destruct e as [ei m t]. cbn [lower_expr_body].
  destruct ei as [ | |n lb|z lb|name|es|e1 n|a i|es|e1 i|e1 fld|name fields|ename variant args|scrut arms|e1|e1|bop x y|stmts|f args|join_ty has_assoc a b|c tb fb|to e1|lo hi bits].
  - sret.
  - sret.
  - sret.
  - sret.
  - (* identifier *)
    destruct (env_get EB name) as [vv|] eqn:Eg; [|apply sim_crash].
    destruct (rel_env_get _ _ _ _ _ _ HE Eg) as (v & -> & Hv). sret.
  - (* array literal *) sbind sim_lower_list. sret.
  - (* array repeat *) sbind He. slet rel_extend. sret.
  - (* index *) apply sim_bind_pure. intros [eb0 num]. sbind He. sbind He. sbind sim_array_read. sret.
  - (* tuple literal *) sbind sim_lower_list. sret.
  - (* tuple access *) apply sim_bind_pure. intros [wb wi]. sbind He. slet rel_slice. sret.
  - (* field access *)
    destruct (e_ty e1) as [| | | |name|]; try apply sim_crash.
    sbind He. apply sim_bind_pure. intros [wb wi]. slet rel_slice. sret.
  - (* struct literal *)
    destruct (assocN name (p_structs P)) as [def|]; [|apply sim_crash]. sbind sim_lower_struct_fields. sret.
  - (* enum literal *)
    destruct (assocN ename (p_enums P)) as [variants|]; [|apply sim_crash].
    sbind sim_lower_list.
    match goal with H : ParamBase.rel _ _ ?ws _ |- context [concat ?ws] => pose proof (rel_concat _ _ _ _ H) as Hpl end.
    rewrite (rel_length _ _ _ _ Hpl). destruct (_ <=? _)%nat; [|apply sim_crash]. sret.
  - (* match *)
    sbind He. sbind sim_peek. sbind sim_lower_arms. sbind sim_replace. sret.
  - (* neg *)
    sbind He. sbind sim_negation. slet rel_hd_res. slet rel_hd_res. sbind sim_and. sbind sim_panic_if. sret.
  - (* not *)
    sbind He. eapply sim_bind; [eapply sim_mapM_M; eauto; intros; eapply sim_not; eauto|snext]. sret.
  - (* binary operators *)
    assert (Hgen : forall o0,
      sim s o
        (match (match o0 with OMul => mul_rewrite x y m t | _ => None end) with
         | Some (operand, e') =>
             mbind (eA operand E) (fun '(w, E1) => mbind (lift_res (env_let (env_push E1) MUL_TMP w)) (fun E2 =>
             mbind (eA e' E2) (fun '(r, E3) => mbind (lift_res (env_pop E3)) (fun E4 => ret (r, E4)))))
         | None => mbind (eA x E) (fun '(xw, E1) => mbind (eA y E1) (fun '(yw, E2) =>
                   mbind (lower_binop OA o0 t (e_ty x) (e_ty y) xw yw m) (fun r => ret (r, E2))))
         end)
        (match (match o0 with OMul => mul_rewrite x y m t | _ => None end) with
         | Some (operand, e') =>
             mbind (eB operand EB) (fun '(w, E1) => mbind (lift_res (env_let (env_push E1) MUL_TMP w)) (fun E2 =>
             mbind (eB e' E2) (fun '(r, E3) => mbind (lift_res (env_pop E3)) (fun E4 => ret (r, E4)))))
         | None => mbind (eB x EB) (fun '(xw, E1) => mbind (eB y E1) (fun '(yw, E2) =>
                   mbind (lower_binop OB o0 t (e_ty x) (e_ty y) xw yw m) (fun r => ret (r, E2))))
         end) rel).
    { intro o0. destruct (match o0 with OMul => mul_rewrite x y m t | _ => None end) as [[operand e']|].
      - sbind He. slet rel_env_let. sbind He. slet rel_env_pop. sret.
      - sbind He. sbind He. sbind sim_lower_binop. sret. }
    assert (Hsh : forall left,
      sim s o
        (mbind (eA x E) (fun '(xw, E1) => mbind (eA y E1) (fun '(yw, E2) =>
         mbind (lower_shift OA left (is_signed (e_ty x)) xw yw m) (fun r => ret (r, E2)))))
        (mbind (eB x EB) (fun '(xw, E1) => mbind (eB y E1) (fun '(yw, E2) =>
         mbind (lower_shift OB left (is_signed (e_ty x)) xw yw m) (fun r => ret (r, E2))))) rel).
    { intro left. sbind He. sbind He. sbind sim_lower_shift. sret. }
    destruct bop;
      try (match goal with |- context [lower_binop OA ?oo] => exact (Hgen oo) end);
      try (match goal with |- context [lower_shift OA ?l] => exact (Hsh l) end).
    + (* && *)
      sbind He. sbind sim_one_wire. sbind sim_peek. sbind He. sbind sim_one_wire.
      sbind sim_mux_envs. sbind sim_peek. sbind sim_mux_panic. sbind sim_replace. sbind sim_and. sret.
    + (* || *)
      sbind He. sbind sim_one_wire. sbind sim_peek. sbind He. sbind sim_one_wire.
      sbind sim_mux_envs. sbind sim_peek. sbind sim_mux_panic. sbind sim_replace. sbind sim_or. sret.
  - (* block *)
    eapply Hb; eauto.
  - (* call *)
    destruct (find_fn P f) as [fd|]; [|apply sim_crash].
    sbind sim_lower_args.
    match goal with H : ParamBase.rel _ _ ?E1 _ |- context [rev ?E1] => pose proof (rel_rev _ _ _ _ H) as Hrev end.
    destruct Hrev as [|glob vglob crev vcrev Hglob Hcrev]; [apply sim_crash|].
    slet rel_bind_all. sbind Hb. slet rel_env_pop. sret.
  - (* join *)
    apply sim_bind_pure. intros [eba na]. apply sim_bind_pure. intros [ebb nb].
    sbind He. sbind He. slet rel_bitonic_input.
    same_count.
    sbind sim_merger. sbind sim_join_func_windows. sbind sim_sorter. sret.
  - (* if *)
    sbind He. sbind sim_peek. sbind sim_one_wire. sbind He. sbind sim_replace. sbind He. sbind sim_replace.
    sbind sim_mux_envs. sbind sim_mux_panic. sbind sim_replace. sbind sim_mux_bits. sret.
  - (* cast *)
    sbind He. same_length. destruct (_ =? _)%nat; [sret|]. destruct (_ <? _)%nat.
    + unfold Extend.cast_truncate. same_length. sret.
    + slet rel_extend. sret.
  - (* range *)
    destruct (hi <? lo); [apply sim_crash|]. apply sim_ret; [assumption|]. apply rel_pair; [|assumption].
    apply rel_concat. apply F2_map_same. intro k. eapply rel_unsigned; eauto.
Qed.

End Rec.

(* ------------------------------------------------------------------ the induction on fuel *)

Section Fuel.
Context {WA WB SA SB PA PB : Type} {OA : ops WA SA PA} {OB : ops WB SB PB}.
Variable PR : param_rel OA OB.

Notation Rw := (Rw PR).
Notation Rws := (Rws PR).
Notation RS := (RS PR).
Notation RE := (RE PR).
Notation Rbind := (Rbind PR).
Notation sim := (sim PR).
Notation Rres := (Rres PR).
Notation RresP := (RresP PR).

(* PARAMETRICITY OF THE LOWERING: related operation sets give related runs, for every
   program, every fuel and all four fixpoints. *)
Theorem lower_param P fuel :
  (forall e s o E EB, RS s o -> RE s E EB ->
     sim s o (lower_expr OA fuel P e E) (lower_expr OB fuel P e EB) Rres) /\
  (forall p s o mw vmw E EB, RS s o -> Rws s mw vmw -> RE s E EB ->
     sim s o (lower_pattern OA fuel P p mw E) (lower_pattern OB fuel P p vmw EB) RresP) /\
  (forall st s o E EB, RS s o -> RE s E EB ->
     sim s o (lower_stmt OA fuel P st E) (lower_stmt OB fuel P st EB) Rres) /\
  (forall ss s o E EB, RS s o -> RE s E EB ->
     sim s o (lower_block OA fuel P ss E) (lower_block OB fuel P ss EB) Rres).
Proof.
  induction fuel as [|f (IHe & IHp & IHs & IHb)].
  - repeat split; intros; cbn [lower_expr lower_pattern lower_stmt lower_block]; apply sim_nofuel.
  - split; [|split; [|split]]; intros; cbn [lower_expr lower_pattern lower_stmt lower_block].
    + eapply sim_lower_expr_body; eauto.
    + eapply sim_lower_pattern_body; eauto.
    + eapply sim_lower_stmt_body; eauto.
    + eapply sim_lower_block_body; eauto.
Qed.

(* ---- the initial environments *)

Lemma rel_const_wires s o e y : RS s o -> const_wires OB e = Ok y ->
  exists x, const_wires OA e = Ok x /\ rel PR s x y.
Proof.
  intros HS E. destruct e as [ei m t]. destruct ei; cbn [const_wires] in *; try discriminate; injection E as <-;
    eauto 6 with rel.
Qed.

Lemma rel_global_scope s o P y : RS s o -> global_scope OB P = Ok y ->
  exists x, global_scope OA P = Ok x /\ RE s x y.
Proof.
  intro HS. unfold global_scope.
  assert (G : forall cs (rA : res (@cenv WA)) (rB : res (@cenv WB)) y,
             (forall yb, rB = Ok yb -> exists xa, rA = Ok xa /\ RE s xa yb) ->
             fold_left (fun Er '(x, e) => let* E := Er in let* w := const_wires OB e in env_let E x w) cs rB = Ok y ->
             exists x, fold_left (fun Er '(x, e) => let* E := Er in let* w := const_wires OA e in env_let E x w) cs rA = Ok x
                       /\ RE s x y).
  { induction cs as [|[x e] cs IH]; intros rA rB y0 Hr E; cbn [fold_left] in *; [apply Hr; exact E|].
    eapply IH; [|exact E]. intros yb Eb. destruct rB as [eb| |]; cbn [bind] in Eb; try discriminate.
    destruct (Hr eb eq_refl) as (ea & -> & Hea). cbn [bind].
    destruct (const_wires OB e) as [w| |] eqn:Ew; cbn [bind] in Eb; try discriminate.
    destruct (rel_const_wires _ _ _ _ HS Ew) as (wa & -> & Hwa). cbn [bind]. eapply (rel_env_let PR); eauto. }
  intro E. eapply G; [|exact E]. intros yb [= <-]. eexists. split; [reflexivity|]. constructor; [constructor|constructor].
Qed.

Lemma rel_main_env s o P bs vbs y : RS s o -> Forall2 (Rbind s) bs vbs -> main_env OB P vbs = Ok y ->
  exists x, main_env OA P bs = Ok x /\ RE s x y.
Proof.
  intros HS Hb E. unfold main_env in *.
  destruct (global_scope OB P) as [g| |] eqn:Eg; cbn [bind] in E; try discriminate.
  destruct (rel_global_scope _ _ _ _ HS Eg) as (ga & -> & Hg). cbn [bind].
  eapply (rel_bind_all PR); [exact Hb|apply (rel_env_push PR); exact Hg|exact E].
Qed.

End Fuel.

Print Assumptions lower_param.
Print Assumptions rel_main_env.
