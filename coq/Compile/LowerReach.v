(* C15 for COMPILED circuits: the builder state the model of the compiler ends with
   (Lower.lower_main_with over bops) is [reachable] in the sense of Builder/StructSpec.v --
   it is produced from new_builder by a well-formed list of the six requests -- and the wires
   handed to build (the panic record and the outputs) are valid.  Hence the structure
   theorems of Props/C15.v, which quantify over reachable builders, hold for every
   compiled circuit.

   Method: every operation of bops is a composition of the six requests whose operands are
   constants, inputs or results of earlier requests.  [Inv key b l]: b is reachable with some
   handle list in which all wires of l can be named.  Every gadget, sorting network and
   panic-record operation preserves it (part 1, by induction over their loops); the
   lowering itself through the parametricity theorem ParamLower.lower_param, with a logging
   copy of bops on one side (part 2). *)
From Coq Require Import Lia Permutation.
From GV Require Import Base.Util Base.NMap Lang.Ast Circuit.Ssa
  Builder.Builder Builder.Build Builder.BuilderSem Builder.BuilderSpec Builder.BuilderProofs
  Builder.BuildProofs Builder.Requests Builder.StructSpec Builder.StructProofs
  Gadgets.Gadgets Panic.PanicRec Compile.Lower Compile.LowerSound
  Compile.ParamBase Compile.ParamHelpers Compile.ParamLower.
Local Open Scope N_scope.

(* ================================================================ part 1: reachable builders *)

Lemma run_reqs_app rs1 : forall rs2 b hs,
  run_reqs b hs (rs1 ++ rs2) = let* (b1, hs1) := run_reqs b hs rs1 in run_reqs b1 hs1 rs2.
Proof.
  induction rs1 as [|r rs1 IH]; intros rs2 b hs; cbn [app run_reqs bind]; [reflexivity|].
  destruct (run_req b hs r) as [[w b1]| |]; cbn [bind]; try reflexivity. apply IH.
Qed.

Lemma reach_step b hs r w b' : reachable b hs -> req_ok (b_shift b) r -> run_req b hs r = Ok (w, b') ->
  reachable b' (hs ++ [w]) /\ b_shift b' = b_shift b /\ b_dedup b' = b_dedup b.
Proof.
  intros (dedup & inputs & rs & Hr & E) Hok Hrun.
  destruct (run_reqs_post rs _ _ _ _ (inv_new dedup inputs) (Forall_nil _) Hr E) as (_ & I & X & V).
  assert (Hs : b_shift b = 2 + sumN inputs) by (destruct X as [Hs _]; exact Hs).
  destruct (run_req_post _ _ _ _ _ I V Hok Hrun) as (_ & _ & X' & _).
  split; [|destruct X' as (Xs & _ & Xd & _); split; assumption].
  exists dedup, inputs, (rs ++ [r]). split.
  - apply Forall_app. split; [exact Hr|]. constructor; [rewrite <- Hs; exact Hok|constructor].
  - rewrite run_reqs_app, E. cbn [bind run_reqs]. rewrite Hrun. reflexivity.
Qed.

(* a wire that a request can name: a constant, an input, or a handle *)
Definition nm (b : builder) (hs : list N) (w : N) : Prop := w < b_shift b \/ In w hs.

Lemma nm_opnd b hs w : nm b hs w -> exists o, opnd_ok (b_shift b) o /\ resolve hs o = Some w.
Proof.
  intros [H|H].
  - exists (Raw w). split; [exact H|reflexivity].
  - apply In_nth_error in H. destruct H as [k Hk]. exists (Hnd k). split; [exact I|exact Hk].
Qed.

(* [b] (with shift [fst key] and de-duplication flag [snd key]) is reachable with a handle
   list that names all of [l] *)
Definition Inv (key : N * bool) (b : builder) (l : list N) : Prop :=
  (b_shift b = fst key /\ b_dedup b = snd key) /\ exists hs, reachable b hs /\ Forall (nm b hs) l.

Lemma Inv_sub key b l l' : Inv key b l -> incl l' l -> Inv key b l'.
Proof.
  intros (Hs & hs & R & N) Hi. split; [exact Hs|]. exists hs. split; [exact R|].
  apply Forall_forall. intros w Hw. rewrite Forall_forall in N. auto.
Qed.

Lemma Inv_consts key b l : Inv key b l -> Inv key b (0 :: 1 :: l).
Proof.
  intros (Hs & hs & R & N). split; [exact Hs|]. exists hs. split; [exact R|].
  destruct (reachable_inv _ _ R) as [I _]. pose proof (inv_shift b I).
  constructor; [left; lia|]. constructor; [left; lia|exact N].
Qed.

Lemma Inv_valid key b l w : Inv key b l -> In w l -> valid b w.
Proof.
  intros (_ & hs & R & N) Hw. rewrite Forall_forall in N. destruct (reachable_inv _ _ R) as [I V].
  destruct (N w Hw) as [H|H]; [unfold valid, counter; lia|]. unfold valids in V. rewrite Forall_forall in V. auto.
Qed.

Lemma nm_opnds b hs l : Forall (nm b hs) l ->
  exists g, forall x, In x l -> opnd_ok (b_shift b) (g x) /\ resolve hs (g x) = Some x.
Proof.
  induction 1 as [|a l Ha _ [g Hg]]; [exists Raw; intros x []|].
  destruct (nm_opnd b hs a Ha) as (o & Ho). exists (fun x => if x =? a then o else g x).
  intros x Hx. destruct (N.eqb_spec x a) as [->|Hne]; [exact Ho|]. apply Hg. destruct Hx; [congruence|assumption].
Qed.

(* the general step: one request [rq g], where [g] gives the operand for each wire of [l] *)
Lemma gate_reach key b l (rq : (N -> opnd) -> request) res w b' : Inv key b l ->
  (forall hs g, (forall x, In x l -> opnd_ok (b_shift b) (g x)) -> (forall x, In x l -> resolve hs (g x) = Some x) ->
     req_ok (b_shift b) (rq g) /\ run_req b hs (rq g) = res) ->
  res = Ok (w, b') -> Inv key b' (w :: l).
Proof.
  intros (Hs & hs & R & N) Hreq E. destruct (nm_opnds b hs l N) as [g Hg].
  destruct (Hreq hs g (fun x Hx => proj1 (Hg x Hx)) (fun x Hx => proj2 (Hg x Hx))) as [Hok Hrun]. rewrite E in Hrun.
  destruct (reach_step b hs (rq g) w b' R Hok Hrun) as (R' & Hs' & Hd'). destruct Hs as [Hs Hd].
  split; [split; congruence|]. exists (hs ++ [w]). split; [exact R'|].
  constructor; [right; apply in_or_app; right; now left|].
  apply Forall_forall. intros x Hx. rewrite Forall_forall in N. destruct (N x Hx) as [H|H]; [left; lia|right; apply in_or_app; now left].
Qed.

Definition pin (l : list N) (p : N * N) : Prop := In (fst p) l /\ In (snd p) l.

Lemma pin_combine l x : forall y, incl x l -> incl y l -> Forall (pin l) (combine x y).
Proof.
  induction x as [|a x IH]; intros [|c y] Hx Hy; cbn [combine]; constructor.
  - split; [apply Hx|apply Hy]; now left.
  - apply IH; intros z Hz; [apply Hx|apply Hy]; now right.
Qed.

Lemma pin_mono l l' ps : incl l l' -> Forall (pin l) ps -> Forall (pin l') ps.
Proof. intros Hi. apply Forall_impl. intros p [H1 H2]. split; auto. Qed.

Lemma Forall_rev' {A} (Q : A -> Prop) l : Forall Q l -> Forall Q (rev l).
Proof. intro H. apply Forall_forall. intros x Hx. apply in_rev in Hx. rewrite Forall_forall in H. auto. Qed.

Lemma Forall_app_intro {A} (Q : A -> Prop) l m : Forall Q l -> Forall Q m -> Forall Q (l ++ m).
Proof. intros H1 H2. apply Forall_app. split; assumption. Qed.

Lemma in_appl {A} (a : A) l m : In a l -> In a (l ++ m).
Proof. intro H. apply in_or_app. now left. Qed.
Lemma in_appr {A} (a : A) l m : In a m -> In a (l ++ m).
Proof. intro H. apply in_or_app. now right. Qed.

Lemma In_firstn' {A} n : forall (x : list A) z, In z (firstn n x) -> In z x.
Proof. induction n as [|n IH]; intros [|a x] z Hz; cbn [firstn In] in *; try tauto. destruct Hz; auto. Qed.
Lemma In_skipn' {A} n : forall (x : list A) z, In z (skipn n x) -> In z x.
Proof. induction n as [|n IH]; intros [|a x] z Hz; cbn [skipn In] in *; try tauto. right. auto. Qed.
Lemma incl_firstn {A} n (x l : list A) : incl x l -> incl (firstn n x) l.
Proof. intros H z Hz. apply H. eapply In_firstn'; eauto. Qed.
Lemma incl_skipn {A} n (x l : list A) : incl x l -> incl (skipn n x) l.
Proof. intros H z Hz. apply H. eapply In_skipn'; eauto. Qed.
Lemma incl_tl' {A} (x l : list A) : incl x l -> incl (tl x) l.
Proof. intros H z Hz. apply H. destruct x; [exact Hz|now right]. Qed.
Lemma hd_res_in (x l : list N) a : incl x l -> hd_res x = Ok a -> In a l.
Proof. destruct x; [discriminate|]. intros H [= <-]. apply H. now left. Qed.
Lemma incl_repeat (a : N) n l : In a l -> incl (repeat a n) l.
Proof. intros H z Hz. apply repeat_spec in Hz. now subst. Qed.

Lemma incl_rev' {A} (x l : list A) : incl x l -> incl (rev x) l.
Proof. intros H z Hz. apply H. now apply in_rev. Qed.

Lemma incl_concat_firstn {A} n (v : list (list A)) l : incl (concat v) l -> incl (concat (firstn n v)) l.
Proof.
  intros H z Hz. apply H. apply in_concat in Hz. destruct Hz as (x & Hx & Hzx). apply in_concat.
  exists x. split; [eapply In_firstn'; exact Hx|exact Hzx].
Qed.
Lemma incl_concat_skipn {A} n (v : list (list A)) l : incl (concat v) l -> incl (concat (skipn n v)) l.
Proof.
  intros H z Hz. apply H. apply in_concat in Hz. destruct Hz as (x & Hx & Hzx). apply in_concat.
  exists x. split; [eapply In_skipn'; exact Hx|exact Hzx].
Qed.

Lemma nth_in0 i (xs l : list N) : In 0 l -> incl xs l -> In (nth i xs 0) l.
Proof. intros H0 Hx. destruct (nth_in_or_default i xs 0) as [H|H]; [apply Hx; exact H|rewrite H; exact H0]. Qed.

Lemma nth_concat {A} k (rs : list (list A)) : incl (nth k rs []) (concat rs).
Proof.
  intros z Hz. destruct (nth_in_or_default k rs []) as [H|H].
  - apply in_concat. eexists; split; [exact H|exact Hz].
  - rewrite H in Hz. destruct Hz.
Qed.

Lemma col_incl k rs l : In 0 l -> incl (concat rs) l -> incl (col k rs) l.
Proof.
  intros H0 H z Hz. unfold col in Hz. apply in_map_iff in Hz. destruct Hz as (r & <- & Hr).
  apply nth_in0; [exact H0|]. intros y Hy. apply H. apply in_concat. eexists; split; [exact Hr|exact Hy].
Qed.

Lemma usize_bits_incl n l : In 0 l -> In 1 l -> incl (usize_bits n) l.
Proof.
  intros H0 H1 z Hz. unfold usize_bits in Hz. apply in_map_iff in Hz. destruct Hz as (i & <- & _).
  destruct (N.testbit _ _); assumption.
Qed.

Lemma pairs32_pin xs ys l : In 0 l -> incl xs l -> incl ys l -> Forall (pin l) (pairs32 xs ys).
Proof.
  intros H0 Hx Hy. unfold pairs32. apply Forall_forall. intros p Hp. apply in_map_iff in Hp.
  destruct Hp as (i & <- & _). split; cbn [fst snd]; apply nth_in0; assumption.
Qed.

(* Every list in the proofs below is built from earlier ones by [::] and [++], so membership
   and inclusion follow the structure of the list: the hints decide them without search. *)
Create HintDb reach discriminated.
#[local] Hint Resolve in_eq in_cons in_appl in_appr incl_refl incl_tl incl_appl incl_appr incl_cons incl_app incl_nil_l
  incl_firstn incl_skipn incl_tl' incl_repeat incl_rev' incl_concat_firstn incl_concat_skipn
  nth_in0 nth_concat col_incl usize_bits_incl pairs32_pin pin_combine Forall_rev' : reach.
#[local] Hint Extern 1 (Forall (pin _) _) => eapply pin_mono; [|eassumption] : reach.
Ltac ins := auto 40 with reach nocore.

(* [H : (let* p := m in _) = Ok _]: name the result of [m] ... *)
Tactic Notation "dh" hyp(H) "as" simple_intropattern(p) ident(E) :=
  match type of H with bind ?m _ = _ => destruct m as p eqn:E; cbn [bind] in H; try discriminate H end.
(* ... and move the invariant [I] over it with the closure lemma [lem]; side conditions the hints do
   not decide are left, after the main goal *)
Tactic Notation "close" hyp(H) hyp(I) constr(lem) :=
  eapply lem in H; [|exact I|try solve [ins]..].
Tactic Notation "step" hyp(H) hyp(I) constr(lem) "as" simple_intropattern(p) :=
  let E := fresh "E" in
  dh H as p E; eapply lem in E; [cbn [fst snd] in E; clear I; rename E into I|exact I|try solve [ins]..].
Tactic Notation "step" hyp(H) hyp(I) constr(lem) := step H I lem as [[? ?]| |].

Section Gad.
  Variable key : N * bool.

  (* the side condition of gate_reach for a gate on the operands listed in [H : incl _ l]: each
     operand [x] resolves through [g x] *)
  Ltac gate_ok H :=
    intros hs g Hok Hres; cbn [req_ok run_req]; rewrite !Hres by (apply H; ins);
    split; [repeat split; apply Hok, H; ins|reflexivity].

  Lemma xor_reach b l x y r b' : Inv key b l -> incl [x; y] l -> push_xor_top b x y = Ok (r, b') -> Inv key b' (r :: l).
  Proof. intros I H E. eapply (gate_reach key b l (fun g => RXor (g x) (g y))); [exact I|gate_ok H|exact E]. Qed.
  Lemma and_reach b l x y r b' : Inv key b l -> incl [x; y] l -> push_and_top b x y = Ok (r, b') -> Inv key b' (r :: l).
  Proof. intros I H E. eapply (gate_reach key b l (fun g => RAnd (g x) (g y))); [exact I|gate_ok H|exact E]. Qed.
  Lemma or_reach b l x y r b' : Inv key b l -> incl [x; y] l -> push_or b x y = Ok (r, b') -> Inv key b' (r :: l).
  Proof. intros I H E. eapply (gate_reach key b l (fun g => ROr (g x) (g y))); [exact I|gate_ok H|exact E]. Qed.
  Lemma eq_reach b l x y r b' : Inv key b l -> incl [x; y] l -> push_eq b x y = Ok (r, b') -> Inv key b' (r :: l).
  Proof. intros I H E. eapply (gate_reach key b l (fun g => REq (g x) (g y))); [exact I|gate_ok H|exact E]. Qed.
  Lemma not_reach b l x r b' : Inv key b l -> incl [x] l -> push_not b x = Ok (r, b') -> Inv key b' (r :: l).
  Proof. intros I H E. eapply (gate_reach key b l (fun g => RNot (g x))); [exact I|gate_ok H|exact E]. Qed.
  Lemma mux_reach b l s x y r b' : Inv key b l -> incl [s; x; y] l -> push_mux b s x y = Ok (r, b') -> Inv key b' (r :: l).
  Proof. intros I H E. eapply (gate_reach key b l (fun g => RMux (g s) (g x) (g y))); [exact I|gate_ok H|exact E]. Qed.

  (* ---------------------------------------------------------------- arithmetic gadgets *)

  Lemma eq_go_reach xys : forall b l acc r b', Inv key b l -> In acc l -> Forall (pin l) xys ->
    GadgetHoare.eq_go b acc xys = Ok (r, b') -> Inv key b' (r :: l).
  Proof.
    induction xys as [|[x y] xys IH]; intros b l acc r b' I Ha Hp H; cbn [GadgetHoare.eq_go] in H.
    - injection H as <- <-. apply (Inv_sub _ _ _ _ I). ins.
    - apply Forall_cons_iff in Hp as [[Hx Hy] Hps]. cbn [fst snd] in Hx, Hy.
      step H I eq_reach. step H I and_reach. close H I IH. apply (Inv_sub _ _ _ _ H). ins.
  Qed.

  Lemma eq_circuit_reach b l x y r b' : Inv key b l -> incl (x ++ y) l ->
    push_eq_circuit b x y = Ok (r, b') -> Inv key b' (r :: l).
  Proof.
    intros I Hxy H. apply incl_app_inv in Hxy as [Hx Hy].
    rewrite GadgetHoare.push_eq_circuit_eq in H. apply Inv_consts in I.
    destruct (negb _).
    - injection H as <- <-. apply (Inv_sub _ _ _ _ I). ins.
    - close H I eq_go_reach. apply (Inv_sub _ _ _ _ H). ins.
  Qed.

  Lemma adder_reach b l x y c r b' : Inv key b l -> In x l -> In y l -> In c l ->
    push_adder b x y c = Ok (r, b') -> Inv key b' (fst r :: snd r :: l).
  Proof.
    intros I Hx Hy Hc H. unfold push_adder in H.
    step H I xor_reach. step H I and_reach. step H I xor_reach. step H I and_reach. step H I or_reach.
    injection H as <- <-. apply (Inv_sub _ _ _ _ I). cbn [fst snd]. ins.
  Qed.

  Lemma multiplier_reach b l x y z c r b' : Inv key b l -> incl [x; y; z; c] l ->
    push_multiplier b x y z c = Ok (r, b') -> Inv key b' (fst r :: snd r :: l).
  Proof.
    intros I Hi H. unfold push_multiplier in H. step H I and_reach. close H I adder_reach. apply (Inv_sub _ _ _ _ H). ins.
  Qed.

  Lemma add_loop_reach xys : forall b l carry cp acc r b', Inv key b l -> Forall (pin l) xys ->
    In carry l -> In cp l -> incl acc l ->
    add_loop b xys carry cp acc = Ok (r, b') -> Inv key b' (snd (fst r) :: snd r :: fst (fst r) ++ l).
  Proof.
    induction xys as [|[x y] xys IH]; intros b l carry cp acc r b' I Hp Hc Hcp Ha H; cbn [add_loop] in H.
    - injection H as <- <-. apply (Inv_sub _ _ _ _ I). cbn [fst snd]. ins.
    - apply Forall_cons_iff in Hp as [[Hx Hy] Hps]. cbn [fst snd] in Hx, Hy.
      step H I adder_reach as [[[s c] b1]| |]. close H I IH. apply (Inv_sub _ _ _ _ H). ins.
  Qed.

  Lemma addition_reach b l x y r b' : Inv key b l -> incl (x ++ y) l ->
    push_addition_circuit b x y = Ok (r, b') -> Inv key b' (snd (fst r) :: snd r :: fst (fst r) ++ l).
  Proof.
    intros I Hxy H. apply incl_app_inv in Hxy as [Hx Hy].
    unfold push_addition_circuit in H. destruct (negb _); [discriminate|].
    apply Inv_consts in I. close H I add_loop_reach. apply (Inv_sub _ _ _ _ H). ins.
  Qed.

  Lemma neg_loop_reach xs : forall b l carry acc r b', Inv key b l -> incl xs l -> In carry l -> incl acc l ->
    neg_loop b xs carry acc = Ok (r, b') -> Inv key b' (r ++ l).
  Proof.
    induction xs as [|x xs IH]; intros b l carry acc r b' I Hx Hc Ha H; cbn [neg_loop] in H.
    - injection H as <- <-. apply (Inv_sub _ _ _ _ I). ins.
    - apply incl_cons_inv in Hx as [Hx Hxs].
      step H I not_reach. step H I xor_reach. step H I and_reach. close H I IH. apply (Inv_sub _ _ _ _ H). ins.
  Qed.

  Lemma negation_reach b l x r b' : Inv key b l -> incl x l ->
    push_negation_circuit b x = Ok (r, b') -> Inv key b' (r ++ l).
  Proof.
    intros I Hx H. unfold push_negation_circuit in H. apply Inv_consts in I.
    close H I neg_loop_reach. apply (Inv_sub _ _ _ _ H). ins.
  Qed.

  Lemma subtraction_reach b l x y sg r b' : Inv key b l -> incl (x ++ y) l ->
    push_subtraction_circuit b x y sg = Ok (r, b') -> Inv key b' (snd r :: fst r ++ l).
  Proof.
    intros I Hxy H. apply incl_app_inv in Hxy as [Hx Hy].
    unfold push_subtraction_circuit in H. unfold W, B in *. destruct (negb _); [discriminate|].
    apply Inv_consts in I.
    assert (Hx0 : forall x0, (if sg then hd_res x else Ok 0) = Ok x0 -> In x0 (0 :: 1 :: l)).
    { intros x0 E. destruct sg; [right; right; exact (hd_res_in _ _ _ Hx E)|injection E as <-; ins]. }
    assert (Hy0 : forall y0, (if sg then hd_res y else Ok 0) = Ok y0 -> In y0 (0 :: 1 :: l)).
    { intros y0 E. destruct sg; [right; right; exact (hd_res_in _ _ _ Hy E)|injection E as <-; ins]. }
    destruct (if sg then hd_res x else Ok 0) as [x0| |]; cbn [bind] in H; try discriminate H. specialize (Hx0 x0 eq_refl).
    destruct (if sg then hd_res y else Ok 0) as [y0| |]; cbn [bind] in H; try discriminate H. specialize (Hy0 y0 eq_refl).
    cbv zeta in H. step H I negation_reach as [[yn b1]| |]. step H I addition_reach as [[[[se c1] c2] b2]| |].
    dh H as [sign| |] Es.
    assert (Hse : incl se (c1 :: c2 :: se ++ yn ++ 0 :: 1 :: l)) by ins.
    pose proof (hd_res_in _ _ _ Hse Es) as Hsign.
    destruct sg.
    - dh H as [s0| |] Es0.
      pose proof (hd_res_in _ _ _ (incl_tl' _ _ Hse) Es0) as Hs0.
      step H I xor_reach. injection H as <- <-. apply (Inv_sub _ _ _ _ I). cbn [fst snd]. ins.
    - injection H as <- <-. apply (Inv_sub _ _ _ _ I). cbn [fst snd]. ins.
  Qed.

  Lemma or_all_reach ys : forall b l acc r b', Inv key b l -> In acc l -> incl ys l ->
    or_all b acc ys = Ok (r, b') -> Inv key b' (r :: l).
  Proof.
    induction ys as [|y ys IH]; intros b l acc r b' I Ha Hy H; cbn [or_all] in H.
    - injection H as <- <-. apply (Inv_sub _ _ _ _ I). ins.
    - apply incl_cons_inv in Hy as [Hy Hys].
      step H I or_reach. close H I IH. apply (Inv_sub _ _ _ _ H). ins.
  Qed.

  Lemma mux_all_reach xs : forall ys b l s r b', Inv key b l -> In s l -> incl xs l -> incl ys l ->
    mux_all b s xs ys = Ok (r, b') -> Inv key b' (r ++ l).
  Proof.
    induction xs as [|x xs IH]; intros [|y ys] b l s r b' I Hs Hx Hy H; cbn [mux_all] in H;
      try (injection H as <- <-; exact I).
    apply incl_cons_inv in Hx as [Hx Hxs]. apply incl_cons_inv in Hy as [Hy Hys].
    step H I mux_reach. step H I IH. injection H as <- <-. apply (Inv_sub _ _ _ _ I). ins.
  Qed.

  Lemma udiv_step_reach b l y bits sa rem r b' : Inv key b l -> incl y l -> incl rem l ->
    udiv_step b y bits sa rem = Ok (r, b') -> Inv key b' (snd r :: fst r ++ 0 :: 1 :: l).
  Proof.
    intros I Hy Hr H. unfold udiv_step in H. apply Inv_consts in I.
    step H I or_all_reach. cbv zeta in H. step H I subtraction_reach as [[[xsub carry] b2]| |].
    step H I or_reach. step H I mux_all_reach. step H I not_reach. step H I mux_reach.
    injection H as <- <-. apply (Inv_sub _ _ _ _ I). cbn [fst snd]. ins.
  Qed.

  Lemma udiv_loop_reach y bits sas : forall b l rem qr r b', Inv key b l -> incl y l -> incl rem l -> incl qr l ->
    udiv_loop b y bits sas rem qr = Ok (r, b') -> Inv key b' (fst r ++ snd r ++ l).
  Proof.
    induction sas as [|sa sas IH]; intros b l rem qr r b' I Hy Hr Hq H; cbn [udiv_loop] in H.
    - injection H as <- <-. apply (Inv_sub _ _ _ _ I). cbn [fst snd]. ins.
    - step H I udiv_step_reach as [[[rem' q] b1]| |]. close H I IH. apply (Inv_sub _ _ _ _ H). ins.
  Qed.

  Lemma udiv_reach b l x y r b' : Inv key b l -> incl (x ++ y) l ->
    push_unsigned_division_circuit b x y = Ok (r, b') -> Inv key b' ((fst r ++ snd r) ++ l).
  Proof.
    intros I Hxy H. apply incl_app_inv in Hxy as [Hx Hy].
    unfold push_unsigned_division_circuit in H. destruct (negb _); [discriminate|].
    close H I udiv_loop_reach. rewrite <- app_assoc. exact H.
  Qed.

  Lemma sdiv_reach b l x y r b' : Inv key b l -> incl (x ++ y) l ->
    push_signed_division_circuit b x y = Ok (r, b') -> Inv key b' ((fst r ++ snd r) ++ l).
  Proof.
    intros I Hxy H. pose proof Hxy as Hi. apply incl_app_inv in Hi as [Hx Hy].
    unfold push_signed_division_circuit in H. unfold W, B in *. destruct (negb _); [discriminate|].
    dh H as [x0| |] Ex0. dh H as [y0| |] Ey0.
    pose proof (hd_res_in _ _ _ Hx Ex0) as Hx0. pose proof (hd_res_in _ _ _ Hy Ey0) as Hy0.
    step H I xor_reach. step H I negation_reach. step H I mux_all_reach. step H I negation_reach. step H I mux_all_reach.
    step H I udiv_reach as [[[q r0] b6]| |]. rewrite <- app_assoc in I.
    step H I negation_reach. step H I mux_all_reach. step H I negation_reach. step H I mux_all_reach.
    injection H as <- <-. apply (Inv_sub _ _ _ _ I). cbn [fst snd]. ins.
  Qed.

  Lemma gt_loop_reach xys : forall b l carry r b', Inv key b l -> Forall (pin l) xys -> In carry l ->
    gt_loop b xys carry = Ok (r, b') -> Inv key b' (r :: l).
  Proof.
    induction xys as [|[x y] xys IH]; intros b l carry r b' I Hp Hc H; cbn [gt_loop] in H.
    - injection H as <- <-. apply (Inv_sub _ _ _ _ I). ins.
    - apply Forall_cons_iff in Hp as [[Hx Hy] Hps]. cbn [fst snd] in Hx, Hy.
      step H I xor_reach. step H I xor_reach. step H I not_reach. step H I and_reach. step H I xor_reach.
      close H I IH. apply (Inv_sub _ _ _ _ H). ins.
  Qed.

  Lemma gt_reach b l bits x y r b' : Inv key b l -> incl x l -> incl y l ->
    push_gt_circuit b bits x y = Ok (r, b') -> Inv key b' (r :: l).
  Proof.
    intros I Hx Hy H. unfold push_gt_circuit in H. destruct (_ || _)%bool; [discriminate|].
    apply Inv_consts in I. close H I gt_loop_reach. apply (Inv_sub _ _ _ _ H). ins.
  Qed.

  Lemma cmp_loop_reach xys : forall b l first sg ag al r b', Inv key b l -> Forall (pin l) xys -> In ag l -> In al l ->
    cmp_loop b first sg xys ag al = Ok (r, b') -> Inv key b' (fst r :: snd r :: l).
  Proof.
    induction xys as [|[x y] xys IH]; intros b l first sg ag al r b' I Hp Hg Hl H; cbn [cmp_loop] in H.
    - injection H as <- <-. apply (Inv_sub _ _ _ _ I). cbn [fst snd]. ins.
    - apply Forall_cons_iff in Hp as [[Hx Hy] Hps]. cbn [fst snd] in Hx, Hy.
      step H I xor_reach as [[xo b1]| |]. step H I and_reach as [[xa b2]| |]. step H I and_reach as [[ya b3]| |].
      destruct (if (first && sg)%bool then (ya, xa) else (xa, ya)) as [gt lt] eqn:Egl.
      assert (Hgt : In gt (ya :: xa :: xo :: l) /\ In lt (ya :: xa :: xo :: l))
        by (destruct (first && sg)%bool; injection Egl as <- <-; split; ins).
      destruct Hgt as [Hgt Hlt].
      step H I or_reach. step H I or_reach. step H I not_reach. step H I not_reach. step H I and_reach. step H I and_reach.
      close H I IH. apply (Inv_sub _ _ _ _ H). ins.
  Qed.

  Lemma comparator_reach b l bits x sx y sy r b' : Inv key b l -> incl (x ++ y) l ->
    push_comparator_circuit b bits x sx y sy = Ok (r, b') -> Inv key b' (fst r :: snd r :: l).
  Proof.
    intros I Hxy H. apply incl_app_inv in Hxy as [Hx Hy].
    unfold push_comparator_circuit in H. destruct (_ || _)%bool; [discriminate|].
    apply Inv_consts in I. close H I cmp_loop_reach. apply (Inv_sub _ _ _ _ H). ins.
  Qed.

  Lemma condswap_reach b l s x y r b' : Inv key b l -> In s l -> In x l -> In y l ->
    push_condswap b s x y = Ok (r, b') -> Inv key b' (fst r :: snd r :: l).
  Proof.
    intros I Hs Hx Hy H. unfold push_condswap in H. destruct (x =? y).
    - injection H as <- <-. apply (Inv_sub _ _ _ _ I). cbn [fst snd]. ins.
    - step H I xor_reach. step H I and_reach. step H I xor_reach. step H I xor_reach.
      injection H as <- <-. apply (Inv_sub _ _ _ _ I). cbn [fst snd]. ins.
  Qed.

  Lemma condswap_all_reach xys : forall b l s r b', Inv key b l -> In s l -> Forall (pin l) xys ->
    condswap_all b s xys = Ok (r, b') -> Inv key b' (fst r ++ snd r ++ l).
  Proof.
    induction xys as [|[x y] xys IH]; intros b l s r b' I Hs Hp H; cbn [condswap_all] in H.
    - injection H as <- <-. exact I.
    - apply Forall_cons_iff in Hp as [[Hx Hy] Hps]. cbn [fst snd] in Hx, Hy.
      step H I condswap_reach as [[[a c] b1]| |]. step H I IH as [[[mn mx] b2]| |].
      injection H as <- <-. apply (Inv_sub _ _ _ _ I). cbn [fst snd]. ins.
  Qed.

  Lemma sorter2_reach b l bits x y r b' : Inv key b l -> incl x l -> incl y l ->
    push_sorter b bits x y = Ok (r, b') -> Inv key b' (fst r ++ snd r ++ l).
  Proof.
    intros I Hx Hy H. unfold push_sorter in H. step H I gt_reach.
    close H I condswap_all_reach. apply (Inv_sub _ _ _ _ H). ins.
  Qed.

  Lemma merge_pairs_reach bits asc lower : forall upper b l r b', Inv key b l ->
    incl (concat lower) l -> incl (concat upper) l ->
    merge_pairs b bits asc lower upper = Ok (r, b') -> Inv key b' (concat (fst r) ++ concat (snd r) ++ l).
  Proof.
    induction lower as [|x lr IH]; intros [|y ur] b l r b' I Hl Hu H; cbn [merge_pairs] in H;
      try (injection H as <- <-; apply (Inv_sub _ _ _ _ I); cbn [fst snd]; ins).
    cbn [concat] in Hl, Hu. apply incl_app_inv in Hl as [Hx Hlr]. apply incl_app_inv in Hu as [Hy Hur].
    step H I sorter2_reach as [[[mn mx] b1]| |].
    destruct (if asc then (mn, mx) else (mx, mn)) as [lo hi] eqn:Elh.
    assert (Hlo : incl lo (mn ++ mx ++ l) /\ incl hi (mn ++ mx ++ l))
      by (destruct asc; injection Elh as <- <-; split; ins).
    destruct Hlo as [Hlo Hhi].
    step H I IH as [[[lr' ur'] b2]| |].
    injection H as <- <-. apply (Inv_sub _ _ _ _ I). cbn [fst snd concat]. ins.
  Qed.

  Lemma merger_reach bits fuel : forall b l asc v r b', Inv key b l -> incl (concat v) l ->
    push_bitonic_merger fuel b bits asc v = Ok (r, b') -> Inv key b' (concat r ++ l).
  Proof.
    induction fuel as [|f IH]; intros b l asc v r b' I Hv H; cbn [push_bitonic_merger] in H; [discriminate|].
    destruct (_ <=? 1)%nat.
    - injection H as <- <-. apply (Inv_sub _ _ _ _ I). ins.
    - cbv zeta in H. step H I merge_pairs_reach as [[[lower upper] b1]| |]. step H I IH. step H I IH.
      injection H as <- <-. rewrite concat_app. apply (Inv_sub _ _ _ _ I). ins.
  Qed.

  Lemma sorter_inner_reach bits fuel : forall b l asc v r b', Inv key b l -> incl (concat v) l ->
    sorter_inner fuel b bits asc v = Ok (r, b') -> Inv key b' (concat r ++ l).
  Proof.
    induction fuel as [|f IH]; intros b l asc v r b' I Hv H; cbn [sorter_inner] in H; [discriminate|].
    destruct (_ <=? 1)%nat.
    - injection H as <- <-. apply (Inv_sub _ _ _ _ I). ins.
    - cbv zeta in H. step H I IH. step H I IH.
      close H I merger_reach; [|rewrite concat_app; ins]. apply (Inv_sub _ _ _ _ H). ins.
  Qed.

  Lemma sorter_reach b l bits v r b' : Inv key b l -> incl (concat v) l ->
    push_bitonic_sorter b bits v = Ok (r, b') -> Inv key b' (concat r ++ l).
  Proof. intros I Hv H. eapply sorter_inner_reach; eassumption. Qed.
End Gad.

(* ---------------------------------------------------------------- panic record *)

Lemma prec_wires_split p l : incl (prec_wires p) l ->
  In (pr_flag p) l /\ incl (pr_type p) l /\ incl (pr_sl p) l /\ incl (pr_sc p) l /\ incl (pr_el p) l /\ incl (pr_ec p) l.
Proof.
  intros H. unfold prec_wires in H. apply incl_cons_inv in H as [H0 H].
  repeat (apply incl_app_inv in H as [? H]). repeat split; assumption.
Qed.

Lemma panic_ok_wires l : In 0 l -> In 1 l -> incl (prec_wires panic_ok) l.
Proof. intros H0 H1. unfold prec_wires, panic_ok. cbn [pr_flag pr_type pr_sl pr_sc pr_el pr_ec]. ins. Qed.

Section Pan.
  Variable key : N * bool.

  Lemma mux_seq_reach pairs : forall b l s r b', Inv key b l -> In s l -> Forall (pin l) pairs ->
    mux_seq b s pairs = Ok (r, b') -> Inv key b' (r ++ l).
  Proof.
    induction pairs as [|[x y] ps IH]; intros b l s r b' I Hs Hp H; cbn [mux_seq] in H.
    - injection H as <- <-. exact I.
    - apply Forall_cons_iff in Hp as [[Hx Hy] Hps]. cbn [fst snd] in Hx, Hy.
      step H I mux_reach. step H I IH. injection H as <- <-. apply (Inv_sub _ _ _ _ I). ins.
  Qed.

  Lemma mux_rows_reach rows : forall b l s r b', Inv key b l -> In s l -> Forall (Forall (pin l)) rows ->
    mux_rows b s rows = Ok (r, b') -> Inv key b' (concat r ++ l).
  Proof.
    induction rows as [|row rows IH]; intros b l s r b' I Hs Hp H; cbn [mux_rows] in H.
    - injection H as <- <-. exact I.
    - apply Forall_cons_iff in Hp as [Hrow Hrows].
      step H I mux_seq_reach as [[ws b1]| |]. step H I IH.
      2:{ eapply Forall_impl; [|exact Hrows]. intros a Ha. ins. }
      injection H as <- <-. apply (Inv_sub _ _ _ _ I). cbn [concat]. ins.
  Qed.

  Lemma mux_uncached_reach b l c t f r b' : Inv key b l -> In c l ->
    incl (prec_wires t) l -> incl (prec_wires f) l ->
    mux_uncached_panic b c t f = Ok (r, b') -> Inv key b' (prec_wires r ++ l).
  Proof.
    intros I Hc Ht Hf H. unfold mux_uncached_panic in H. apply Inv_consts in I.
    apply prec_wires_split in Ht. destruct Ht as (Ht0 & Ht1 & Ht2 & Ht3 & Ht4 & Ht5).
    apply prec_wires_split in Hf. destruct Hf as (Hf0 & Hf1 & Hf2 & Hf3 & Hf4 & Hf5).
    step H I mux_reach as [[fl b1]| |]. step H I mux_rows_reach as [[rs b2]| |].
    2:{ repeat (apply Forall_cons; [ins|]). apply Forall_nil. }
    injection H as <- <-. apply (Inv_sub _ _ _ _ I).
    unfold prec_wires. cbn [pr_flag pr_type pr_sl pr_sc pr_el pr_ec]. ins.
  Qed.

  Lemma push_record_reach b l p cond rsn m r b' : Inv key b l -> In cond l -> incl (prec_wires p) l ->
    push_record b p cond rsn m = Ok (r, b') -> Inv key b' (prec_wires r ++ l).
  Proof.
    intros I Hc Hp H. unfold push_record in H. cbv zeta in H. apply Inv_consts in I.
    apply prec_wires_split in Hp. destruct Hp as (Hp0 & Hp1 & Hp2 & Hp3 & Hp4 & Hp5).
    step H I or_reach as [[fl b1]| |]. step H I mux_rows_reach as [[rs b2]| |].
    2:{ apply Forall_forall. intros row Hrow. apply in_map_iff in Hrow. destruct Hrow as (i & <- & _).
        repeat (apply Forall_cons; [split; cbn [fst snd]; ins|]). apply Forall_nil. }
    unfold mux_field in H. step H I mux_seq_reach as [[ty b3]| |].
    injection H as <- <-. apply (Inv_sub _ _ _ _ I).
    unfold prec_wires. cbn [pr_flag pr_type pr_sl pr_sc pr_el pr_ec]. ins.
  Qed.

  Lemma panic_if_reach b l P cond rsn m r b' : Inv key b l -> In cond l -> incl (prec_wires (ps_rec P)) l ->
    push_panic_if b P cond rsn m = Ok (r, b') -> Inv key b' (prec_wires (ps_rec r) ++ l).
  Proof.
    intros I Hc Hp H. unfold push_panic_if in H. destruct (nmem _ _).
    - injection H as <- <-. apply (Inv_sub _ _ _ _ I). ins.
    - step H I push_record_reach. injection H as <- <-. exact I.
  Qed.

  Lemma mux_panic_reach b l c T F r b' : Inv key b l -> incl (c :: prec_wires (ps_rec T) ++ prec_wires (ps_rec F)) l ->
    mux_panic b c T F = Ok (r, b') -> Inv key b' (prec_wires (ps_rec r) ++ l).
  Proof.
    intros I Hi H. apply incl_cons_inv in Hi as [Hc Hi]. apply incl_app_inv in Hi as [Ht Hf].
    unfold mux_panic in H. step H I mux_uncached_reach. injection H as <- <-. exact I.
  Qed.
End Pan.

(* ================================================================ part 2: the lowering *)

(* the logging instance: the builder instance, with a log of every wire an operation returned *)
Definition lst : Type := cst * list N.

Definition lg {A} (wires : A -> list N) (m : cst -> res (A * cst)) : lst -> res (A * lst) :=
  fun sL => match m (fst sL) with
            | Ok (a, s') => Ok (a, (s', wires a ++ snd sL))
            | Crash => Crash
            | OutOfFuel => OutOfFuel
            end.

Definition w1l (r : N) : list N := [r].
Definition w2l (r : N * N) : list N := [fst r; snd r].
Definition wadd (r : list N * N * N) : list N := snd (fst r) :: snd r :: fst (fst r).
Definition wsub (r : list N * N) : list N := snd r :: fst r.
Definition wdiv (r : list N * list N) : list N := fst r ++ snd r.
Definition wpst (P : pstate) : list N := prec_wires (ps_rec P).

Definition lops : ops N lst pstate := {|
  w0 := 0;
  w1 := 1;
  o_xor := fun x y => lg w1l (o_xor bops x y);
  o_and := fun x y => lg w1l (o_and bops x y);
  o_or := fun x y => lg w1l (o_or bops x y);
  o_eq := fun x y => lg w1l (o_eq bops x y);
  o_not := fun x => lg w1l (o_not bops x);
  o_mux := fun s x0 x1 => lg w1l (o_mux bops s x0 x1);
  o_negation := fun x => lg (fun r => r) (o_negation bops x);
  o_addition := fun x y => lg wadd (o_addition bops x y);
  o_subtraction := fun x y sg => lg wsub (o_subtraction bops x y sg);
  o_multiplier := fun x y z c => lg w2l (o_multiplier bops x y z c);
  o_udiv := fun x y => lg wdiv (o_udiv bops x y);
  o_sdiv := fun x y => lg wdiv (o_sdiv bops x y);
  o_comparator := fun bits x sx y sy => lg w2l (o_comparator bops bits x sx y sy);
  o_eq_circuit := fun x y => lg w1l (o_eq_circuit bops x y);
  o_merger := fun bits asc v => lg (@concat N) (o_merger bops bits asc v);
  o_sorter := fun bits v => lg (@concat N) (o_sorter bops bits v);
  o_panic_if := fun c r m => lg (fun _ => []) (o_panic_if bops c r m);
  o_peek := lg wpst (o_peek bops);
  o_replace := fun P => lg wpst (o_replace bops P);
  o_mux_panic := fun c T F => lg wpst (o_mux_panic bops c T F)
|}.

Section Rel.
  Variable key : N * bool.

  Definition nmL (L : list N) (w : N) : Prop := w < fst key \/ In w L.

  Definition l_extS (s s' : lst) : Prop := incl (snd s) (snd s').
  Definition l_Rw (s : lst) (w v : N) : Prop := w = v /\ nmL (snd s) w.
  Definition l_RP (s : lst) (P Q : pstate) : Prop := P = Q /\ Forall (nmL (snd s)) (wpst P).
  Definition l_RS (s : lst) (o : cst) : Prop := fst s = o /\ Inv key (cb o) (wpst (cp o) ++ snd s).

  Lemma nmL_mono L L' w : incl L L' -> nmL L w -> nmL L' w.
  Proof. intros H [Hw|Hw]; [left; exact Hw|right; auto]. Qed.

  Lemma Inv_add b L l ws : Inv key b l -> incl L l -> Forall (nmL L) ws -> Inv key b (ws ++ l).
  Proof.
    intros ([Hs Hd] & hs & R & N) Hi H. split; [split; assumption|]. exists hs. split; [exact R|].
    apply Forall_app. split; [|exact N]. eapply Forall_impl; [|exact H]. intros w [Hw|Hw]; cbn beta.
    - left. rewrite Hs. exact Hw.
    - rewrite Forall_forall in N. auto.
  Qed.

  Lemma l_Rw_log s w : In w (snd s) -> l_Rw s w w.
  Proof. intro H. split; [reflexivity|right; exact H]. Qed.

  Lemma F2_diag s x vx : Forall2 (l_Rw s) x vx -> x = vx /\ Forall (nmL (snd s)) x.
  Proof.
    induction 1 as [|w v x vx [-> Hw] _ [-> IH]]; [split; [reflexivity|constructor]|].
    split; [reflexivity|constructor; assumption].
  Qed.

  Lemma F2_diag2 s v vv : Forall2 (Forall2 (l_Rw s)) v vv -> v = vv /\ Forall (nmL (snd s)) (concat v).
  Proof.
    induction 1 as [|x vx v vv Hx _ [-> IH]]; [split; [reflexivity|constructor]|].
    apply F2_diag in Hx as [-> Hx]. split; [reflexivity|]. cbn [concat]. apply Forall_app_intro; assumption.
  Qed.

  Lemma diag_F2 s ws : incl ws (snd s) -> Forall2 (l_Rw s) ws ws.
  Proof.
    intros H. induction ws as [|w ws IH]; constructor; apply incl_cons_inv in H as [Hw H]; auto using l_Rw_log.
  Qed.

  Lemma diag_F22 s v : incl (concat v) (snd s) -> Forall2 (Forall2 (l_Rw s)) v v.
  Proof.
    intros H. induction v as [|x v IH]; constructor; cbn [concat] in H; apply incl_app_inv in H as [Hx H]; auto using diag_F2.
  Qed.

  (* one operation of the builder instance that runs a composition of requests on operands
     [opers] and returns the wires [wires y]; [Q] holds of a result whose wires are logged *)
  Lemma lg_sim {A} (wires : A -> list N) (f : builder -> res (A * builder)) (opers : list N)
      (Q : lst -> A -> A -> Prop) s o :
    l_RS s o -> Forall (nmL (snd s)) opers ->
    (forall l y b', Inv key (cb o) l -> incl opers l -> f (cb o) = Ok (y, b') -> Inv key b' (wires y ++ l)) ->
    (forall s' y, incl (wires y) (snd s') -> Q s' y y) ->
    simG l_extS l_RS s o (lg wires (liftb f)) (liftb f) Q.
  Proof.
    destruct s as [s L]. intros [Es I] Hop Hcl HQ y o' Hrun. cbn [fst snd] in *. subst o.
    exists y, (o', wires y ++ L). unfold lg. cbn [fst snd]. rewrite Hrun.
    split; [reflexivity|]. split; [unfold l_extS; cbn [snd]; ins|]. split; [|apply HQ; cbn [snd]; ins].
    split; [reflexivity|]. cbn [fst snd]. unfold liftb in Hrun.
    dh Hrun as [[a b']| |] E. injection Hrun as <- <-. cbn [cb cp].
    apply (Inv_sub _ _ (wires a ++ opers ++ wpst (cp s) ++ L)); [|ins].
    eapply Hcl; [eapply Inv_add; [exact I| |exact Hop]|..]; [ins|ins|reflexivity].
  Qed.

  Lemma l_xor s o x y vx vy : l_RS s o -> l_Rw s x vx -> l_Rw s y vy ->
    simG l_extS l_RS s o (o_xor lops x y) (o_xor bops vx vy) (fun s' r v => l_Rw s' r v).
  Proof.
    intros HS [<- Hx] [<- Hy]. apply (lg_sim w1l (fun b => push_xor_top b x y) [x; y]); auto.
    - intros l r b'. apply xor_reach.
    - intros s' r H. apply l_Rw_log, H. now left.
  Qed.
  Lemma l_and s o x y vx vy : l_RS s o -> l_Rw s x vx -> l_Rw s y vy ->
    simG l_extS l_RS s o (o_and lops x y) (o_and bops vx vy) (fun s' r v => l_Rw s' r v).
  Proof.
    intros HS [<- Hx] [<- Hy]. apply (lg_sim w1l (fun b => push_and_top b x y) [x; y]); auto.
    - intros l r b'. apply and_reach.
    - intros s' r H. apply l_Rw_log, H. now left.
  Qed.
  Lemma l_or s o x y vx vy : l_RS s o -> l_Rw s x vx -> l_Rw s y vy ->
    simG l_extS l_RS s o (o_or lops x y) (o_or bops vx vy) (fun s' r v => l_Rw s' r v).
  Proof.
    intros HS [<- Hx] [<- Hy]. apply (lg_sim w1l (fun b => push_or b x y) [x; y]); auto.
    - intros l r b'. apply or_reach.
    - intros s' r H. apply l_Rw_log, H. now left.
  Qed.
  Lemma l_eq s o x y vx vy : l_RS s o -> l_Rw s x vx -> l_Rw s y vy ->
    simG l_extS l_RS s o (o_eq lops x y) (o_eq bops vx vy) (fun s' r v => l_Rw s' r v).
  Proof.
    intros HS [<- Hx] [<- Hy]. apply (lg_sim w1l (fun b => push_eq b x y) [x; y]); auto.
    - intros l r b'. apply eq_reach.
    - intros s' r H. apply l_Rw_log, H. now left.
  Qed.
  Lemma l_not s o x vx : l_RS s o -> l_Rw s x vx ->
    simG l_extS l_RS s o (o_not lops x) (o_not bops vx) (fun s' r v => l_Rw s' r v).
  Proof.
    intros HS [<- Hx]. apply (lg_sim w1l (fun b => push_not b x) [x]); auto.
    - intros l r b'. apply not_reach.
    - intros s' r H. apply l_Rw_log, H. now left.
  Qed.
  Lemma l_mux s o c x0 x1 vc v0 v1 : l_RS s o -> l_Rw s c vc -> l_Rw s x0 v0 -> l_Rw s x1 v1 ->
    simG l_extS l_RS s o (o_mux lops c x0 x1) (o_mux bops vc v0 v1) (fun s' r v => l_Rw s' r v).
  Proof.
    intros HS [<- Hc] [<- Hx] [<- Hy]. apply (lg_sim w1l (fun b => push_mux b c x0 x1) [c; x0; x1]); auto.
    - intros l r b'. apply mux_reach.
    - intros s' r H. apply l_Rw_log, H. now left.
  Qed.
  Lemma l_negation s o x vx : l_RS s o -> Forall2 (l_Rw s) x vx ->
    simG l_extS l_RS s o (o_negation lops x) (o_negation bops vx) (fun s' r v => Forall2 (l_Rw s') r v).
  Proof.
    intros HS Hx. apply F2_diag in Hx as [<- Hx].
    apply (lg_sim (fun r => r) (fun b => push_negation_circuit b x) x); auto.
    - intros l r b'. apply negation_reach.
    - intros s' r. apply diag_F2.
  Qed.
  Lemma l_addition s o x y vx vy : l_RS s o -> Forall2 (l_Rw s) x vx -> Forall2 (l_Rw s) y vy ->
    simG l_extS l_RS s o (o_addition lops x y) (o_addition bops vx vy)
      (fun s' r v => Forall2 (l_Rw s') (fst (fst r)) (fst (fst v)) /\ l_Rw s' (snd (fst r)) (snd (fst v))
                     /\ l_Rw s' (snd r) (snd v)).
  Proof.
    intros HS Hx Hy. apply F2_diag in Hx as [<- Hx], Hy as [<- Hy].
    apply (lg_sim wadd (fun b => push_addition_circuit b x y) (x ++ y)); auto using Forall_app_intro.
    - intros l r b'. apply addition_reach.
    - intros s' r H. apply incl_cons_inv in H as [H1 H]. apply incl_cons_inv in H as [H2 H].
      auto using l_Rw_log, diag_F2.
  Qed.
  Lemma l_subtraction s o x y sg vx vy : l_RS s o -> Forall2 (l_Rw s) x vx -> Forall2 (l_Rw s) y vy ->
    simG l_extS l_RS s o (o_subtraction lops x y sg) (o_subtraction bops vx vy sg)
      (fun s' r v => Forall2 (l_Rw s') (fst r) (fst v) /\ l_Rw s' (snd r) (snd v)).
  Proof.
    intros HS Hx Hy. apply F2_diag in Hx as [<- Hx], Hy as [<- Hy].
    apply (lg_sim wsub (fun b => push_subtraction_circuit b x y sg) (x ++ y)); auto using Forall_app_intro.
    - intros l r b'. apply subtraction_reach.
    - intros s' r H. apply incl_cons_inv in H as [H1 H]. auto using l_Rw_log, diag_F2.
  Qed.
  Lemma l_multiplier s o x y z c vx vy vz vc : l_RS s o -> l_Rw s x vx -> l_Rw s y vy -> l_Rw s z vz -> l_Rw s c vc ->
    simG l_extS l_RS s o (o_multiplier lops x y z c) (o_multiplier bops vx vy vz vc)
      (fun s' r v => l_Rw s' (fst r) (fst v) /\ l_Rw s' (snd r) (snd v)).
  Proof.
    intros HS [<- Hx] [<- Hy] [<- Hz] [<- Hc]. apply (lg_sim w2l (fun b => push_multiplier b x y z c) [x; y; z; c]); auto.
    - intros l r b'. apply multiplier_reach.
    - intros s' r H. apply incl_cons_inv in H as [H1 H]. apply incl_cons_inv in H as [H2 _]. auto using l_Rw_log.
  Qed.
  Lemma l_udiv s o x y vx vy : l_RS s o -> Forall2 (l_Rw s) x vx -> Forall2 (l_Rw s) y vy ->
    simG l_extS l_RS s o (o_udiv lops x y) (o_udiv bops vx vy)
      (fun s' r v => Forall2 (l_Rw s') (fst r) (fst v) /\ Forall2 (l_Rw s') (snd r) (snd v)).
  Proof.
    intros HS Hx Hy. apply F2_diag in Hx as [<- Hx], Hy as [<- Hy].
    apply (lg_sim wdiv (fun b => push_unsigned_division_circuit b x y) (x ++ y)); auto using Forall_app_intro.
    - intros l r b'. apply udiv_reach.
    - intros s' r H. apply incl_app_inv in H as [H1 H2]. auto using diag_F2.
  Qed.
  Lemma l_sdiv s o x y vx vy : l_RS s o -> Forall2 (l_Rw s) x vx -> Forall2 (l_Rw s) y vy ->
    simG l_extS l_RS s o (o_sdiv lops x y) (o_sdiv bops vx vy)
      (fun s' r v => Forall2 (l_Rw s') (fst r) (fst v) /\ Forall2 (l_Rw s') (snd r) (snd v)).
  Proof.
    intros HS Hx Hy. apply F2_diag in Hx as [<- Hx], Hy as [<- Hy].
    apply (lg_sim wdiv (fun b => push_signed_division_circuit b x y) (x ++ y)); auto using Forall_app_intro.
    - intros l r b'. apply sdiv_reach.
    - intros s' r H. apply incl_app_inv in H as [H1 H2]. auto using diag_F2.
  Qed.
  Lemma l_comparator s o bits x sx y sy vx vy : l_RS s o -> Forall2 (l_Rw s) x vx -> Forall2 (l_Rw s) y vy ->
    simG l_extS l_RS s o (o_comparator lops bits x sx y sy) (o_comparator bops bits vx sx vy sy)
      (fun s' r v => l_Rw s' (fst r) (fst v) /\ l_Rw s' (snd r) (snd v)).
  Proof.
    intros HS Hx Hy. apply F2_diag in Hx as [<- Hx], Hy as [<- Hy].
    apply (lg_sim w2l (fun b => push_comparator_circuit b bits x sx y sy) (x ++ y)); auto using Forall_app_intro.
    - intros l r b'. apply comparator_reach.
    - intros s' r H. apply incl_cons_inv in H as [H1 H]. apply incl_cons_inv in H as [H2 _]. auto using l_Rw_log.
  Qed.
  Lemma l_eq_circuit s o x y vx vy : l_RS s o -> Forall2 (l_Rw s) x vx -> Forall2 (l_Rw s) y vy ->
    simG l_extS l_RS s o (o_eq_circuit lops x y) (o_eq_circuit bops vx vy) (fun s' r v => l_Rw s' r v).
  Proof.
    intros HS Hx Hy. apply F2_diag in Hx as [<- Hx], Hy as [<- Hy].
    apply (lg_sim w1l (fun b => push_eq_circuit b x y) (x ++ y)); auto using Forall_app_intro.
    - intros l r b'. apply eq_circuit_reach.
    - intros s' r H. apply l_Rw_log, H. now left.
  Qed.
  Lemma l_merger s o bits asc v vv : l_RS s o -> Forall2 (Forall2 (l_Rw s)) v vv ->
    simG l_extS l_RS s o (o_merger lops bits asc v) (o_merger bops bits asc vv)
      (fun s' r w => Forall2 (Forall2 (l_Rw s')) r w).
  Proof.
    intros HS Hv. apply F2_diag2 in Hv as [<- Hv].
    apply (lg_sim (@concat N) (fun b => push_bitonic_merger (S (length v)) b bits asc v) (concat v)); auto.
    - intros l r b'. apply merger_reach.
    - intros s' r. apply diag_F22.
  Qed.
  Lemma l_sorter s o bits v vv : l_RS s o -> Forall2 (Forall2 (l_Rw s)) v vv ->
    simG l_extS l_RS s o (o_sorter lops bits v) (o_sorter bops bits vv)
      (fun s' r w => Forall2 (Forall2 (l_Rw s')) r w).
  Proof.
    intros HS Hv. apply F2_diag2 in Hv as [<- Hv].
    apply (lg_sim (@concat N) (fun b => push_bitonic_sorter b bits v) (concat v)); auto.
    - intros l r b'. apply sorter_reach.
    - intros s' r. apply diag_F22.
  Qed.
  Lemma l_mux_panic s o c vc T F oT oF : l_RS s o -> l_Rw s c vc -> l_RP s T oT -> l_RP s F oF ->
    simG l_extS l_RS s o (o_mux_panic lops c T F) (o_mux_panic bops vc oT oF) (fun s' P1 o1 => l_RP s' P1 o1).
  Proof.
    intros HS [<- Hc] [<- HT] [<- HF].
    apply (lg_sim wpst (fun b => mux_panic b c T F) (c :: wpst T ++ wpst F)); auto using Forall_app_intro.
    - intros l r b'. apply mux_panic_reach.
    - intros s' r H. split; [reflexivity|]. apply Forall_forall. intros w Hw. right. auto.
  Qed.

  Lemma l_panic_if s o c vc r m : l_RS s o -> l_Rw s c vc ->
    simG l_extS l_RS s o (o_panic_if lops c r m) (o_panic_if bops vc r m) (fun _ _ _ => True).
  Proof.
    destruct s as [s L]. intros [Es I] [<- Hc] y o' Hrun. cbn [fst snd] in *. subst o.
    exists y, (o', L). cbn [o_panic_if lops]. unfold lg. cbn [fst snd]. rewrite Hrun.
    split; [reflexivity|]. split; [apply incl_refl|]. split; [|exact Logic.I].
    split; [reflexivity|]. cbn [o_panic_if bops] in Hrun. unfold b_panic_if in Hrun.
    dh Hrun as [[P' b']| |] E. injection Hrun as <- <-. cbn [fst snd cb cp]. unfold wpst in *.
    eapply panic_if_reach in E; [|eapply (Inv_add _ L _ [c]); [exact I|ins|auto]|ins..].
    apply (Inv_sub _ _ _ _ E). ins.
  Qed.

  Lemma l_peek s o : l_RS s o ->
    simG l_extS l_RS s o (o_peek lops) (o_peek bops) (fun s' P ob => l_RP s' P ob).
  Proof.
    destruct s as [s L]. intros [Es I] y o' Hrun. cbn [fst snd] in *. subst o.
    cbn [o_peek bops] in Hrun. injection Hrun as <- <-.
    exists (cp s), (s, wpst (cp s) ++ L). split; [reflexivity|]. split; [unfold l_extS; cbn [snd]; ins|].
    split; [split; [reflexivity|]|split; [reflexivity|]]; cbn [fst snd].
    - apply (Inv_sub _ _ _ _ I). ins.
    - apply Forall_forall. intros z Hz. right. ins.
  Qed.

  Lemma l_replace s o P ob : l_RS s o -> l_RP s P ob ->
    simG l_extS l_RS s o (o_replace lops P) (o_replace bops ob) (fun s' P1 o1 => l_RP s' P1 o1).
  Proof.
    destruct s as [s L]. intros [Es I] [<- HP] y o' Hrun. cbn [fst snd] in *. subst o.
    cbn [o_replace bops] in Hrun. injection Hrun as <- <-.
    exists (cp s), (mkCst (cb s) P, wpst (cp s) ++ L). split; [reflexivity|].
    split; [unfold l_extS; cbn [snd]; ins|].
    split; [split; [reflexivity|]|split; [reflexivity|]]; cbn [fst snd cb cp].
    - apply (Inv_sub _ _ (wpst P ++ wpst (cp s) ++ L)); [|ins]. eapply Inv_add; [exact I| |exact HP]. ins.
    - apply Forall_forall. intros z Hz. right. ins.
  Qed.

  Definition reach_rel : param_rel lops bops.
  Proof.
    refine (mkParamRel _ _ _ _ _ _ lops bops l_extS (fun _ => True) l_Rw l_RP l_RS _ _ _ _ _ _ _
              l_xor l_and l_or l_eq l_not l_mux l_negation l_addition l_subtraction l_multiplier l_udiv l_sdiv
              l_comparator l_eq_circuit l_merger l_sorter l_panic_if l_peek l_replace l_mux_panic).
    - intros s. apply incl_refl.
    - intros s1 s2 s3. apply incl_tran.
    - intros s o _. exact Logic.I.
    - intros s s' w v He _ [E Hw]. split; [exact E|eapply nmL_mono; eassumption].
    - intros s s' p q He _ [E Hp]. split; [exact E|]. eapply Forall_impl; [|exact Hp]. intros a. apply nmL_mono. exact He.
    - intros s o [_ I]. split; [reflexivity|]. left. destruct I as ([<- _] & hs & R & _).
      destruct (reachable_inv _ _ R) as [Ib _]. pose proof (inv_shift _ Ib). unfold wF. cbn [w0 lops]. lia.
    - intros s o [_ I]. split; [reflexivity|]. left. destruct I as ([<- _] & hs & R & _).
      destruct (reachable_inv _ _ R) as [Ib _]. pose proof (inv_shift _ Ib). unfold wT. cbn [w1 lops]. lia.
  Defined.
End Rel.

(* ================================================================ the theorems *)

Section Compiled.
Variable fuel : nat.
Variable dedup : bool.
Variable P : program.

(* THE BUILDER STATE OF A COMPILED PROGRAM IS REACHABLE.  The final builder of the model of
   compile.rs is the result of a list of gate REQUESTS (Builder/StructSpec.reachable) on a
   fresh builder with the same de-duplication flag; every wire of the panic record and every
   result wire is a constant, an input wire, or a handle returned by one of those requests;
   in particular they are valid wires, which is what build and the C15 theorems require. *)
Theorem compiled_builder_reachable s outs :
  lower_main_with fuel dedup P = Ok (PreOk s outs) ->
  exists hs,
    reachable (cb s) hs /\ b_dedup (cb s) = dedup /\
    Forall (nm (cb s) hs) (prec_wires (ps_rec (cp s)) ++ outs) /\
    valids (cb s) (prec_wires (ps_rec (cp s))) /\ valids (cb s) outs.
Proof.
  intro Hmain. unfold lower_main_with in Hmain.
  destruct (find_fn P (p_main P)) as [fd|]; [|discriminate].
  destruct (param_wiring P (fn_params fd)) as [igs bindings] eqn:Epw.
  destruct (sumN igs =? 0); [discriminate|].
  destruct (main_env bops P bindings) as [E0| |] eqn:EE0; cbn [bind] in Hmain; try discriminate.
  destruct (lower_block bops fuel P (fn_body fd) E0 (initial_cst dedup igs)) as [[[outs' Eend] s1]| |] eqn:Eblk;
    cbn [bind] in Hmain; try discriminate.
  injection Hmain as <- <-.
  set (key := (2 + sumN igs, dedup)). set (s0 := initial_cst dedup igs) in *.
  destruct (param_wiring_range _ _ _ _ Epw) as [Hrange _].
  assert (HS0 : RS (reach_rel key) (s0, []) s0).
  { split; [reflexivity|]. cbn [fst snd]. split; [split; reflexivity|]. exists []. split.
    - exists dedup, igs, []. split; [constructor|reflexivity].
    - rewrite app_nil_r. apply Forall_forall. intros z Hz. left.
      assert (Hz' : In z [0; 1]) by (eapply panic_ok_wires; [now left|right; now left|exact Hz]).
      cbn [s0 initial_cst cb new_builder b_shift]. destruct Hz' as [<-|[<-|[]]]; lia. }
  assert (HB : Forall2 (Rbind (reach_rel key) (s0, [])) bindings bindings).
  { clear - Hrange. induction bindings as [|[x ws] bs IH]; constructor.
    - split; [reflexivity|]. cbn [fst snd]. inversion Hrange as [|b0 l0 Hw _]; subst. cbn [snd] in Hw.
      clear - Hw. induction ws as [|w ws IHw]; constructor.
      + inversion Hw as [|w0 l0 Hlt _]; subst. split; [reflexivity|]. left. exact Hlt.
      + apply IHw. now inversion Hw.
    - apply IH. now inversion Hrange. }
  destruct (rel_main_env (reach_rel key) (s0, []) s0 P _ _ _ HS0 HB EE0) as (EA0 & _ & HE0).
  destruct (lower_param (reach_rel key) P fuel) as (_ & _ & _ & Hblk).
  destruct (Hblk (fn_body fd) (s0, []) s0 EA0 E0 HS0 HE0 _ _ Eblk) as ([outsA EA] & [s1' L1] & _ & _ & HS1 & Houts & _).
  cbn [fst] in Houts. destruct HS1 as [Es1 I1]. cbn [fst snd] in Es1, I1. subst s1'.
  apply F2_diag in Houts as [-> Houts]. cbn [snd] in Houts.
  assert (I2 : Inv key (cb s1) (prec_wires (ps_rec (cp s1)) ++ outs')).
  { apply (Inv_sub _ _ (outs' ++ wpst (cp s1) ++ L1)); [|unfold wpst; ins]. eapply Inv_add; [exact I1| |exact Houts]. ins. }
  pose proof I2 as ([_ Hd] & hs & R & N). exists hs. split; [exact R|]. split; [exact Hd|]. split; [exact N|].
  split; apply Forall_forall; intros w Hw; apply (Inv_valid _ _ _ _ I2); ins.
Qed.

(* a compiled circuit is build of a reachable builder on valid wires *)
Lemma compiled_is_built c :
  lower_program_with fuel dedup P = Ok (LCircuit c) ->
  exists s outs hs,
    lower_main_with fuel dedup P = Ok (PreOk s outs) /\
    reachable (cb s) hs /\ b_dedup (cb s) = dedup /\
    valids (cb s) (prec_wires (ps_rec (cp s))) /\ valids (cb s) outs /\
    build (cb s) (prec_wires (ps_rec (cp s))) outs = Ok c.
Proof.
  intro H. unfold lower_program_with in H.
  destruct (lower_main_with fuel dedup P) as [[s outs| |]| |] eqn:Em; cbn [bind] in H; try discriminate.
  destruct (build (cb s) (prec_wires (ps_rec (cp s))) outs) as [c'| |] eqn:Eb; cbn [bind] in H; try discriminate.
  injection H as <-.
  destruct (compiled_builder_reachable s outs Em) as (hs & R & Hd & _ & Vp & Vo).
  exists s, outs, hs. repeat split; assumption.
Qed.

(* C15 FOR COMPILED CIRCUITS: the formulations of Props/C15.v (C15_const_gates, C15_all_used,
   C15_no_constant_operand, C15_no_self_operand, C15_and_unique), with the hypothesis
   "reachable builder, valid wires, build = Ok c" replaced by "the model of the compiler
   returns c". *)

(* the first two gates are the constant gates *)
Theorem compiled_const_gates c :
  lower_program_with fuel dedup P = Ok (LCircuit c) ->
  nthN (gates c) 0 = Some (GXor 0 0) /\ nthN (gates c) 1 = Some (GNot (num_inputs c)).
Proof.
  intro H. destruct (compiled_is_built c H) as (s & outs & hs & _ & R & _ & Vp & Vo & Eb).
  exact (build_const_gates _ _ _ _ _ R Vp Vo Eb).
Qed.

(* every other gate contributes to an output *)
Theorem compiled_all_used c :
  lower_program_with fuel dedup P = Ok (LCircuit c) ->
  forall k, 2 <= k < lenN (gates c) -> reaches c (num_inputs c + k).
Proof.
  intro H. destruct (compiled_is_built c H) as (s & outs & hs & _ & R & _ & Vp & Vo & Eb).
  exact (build_all_used _ _ _ _ _ R Vp Vo Eb).
Qed.

(* no gate other than those two has a constant wire as operand *)
Theorem compiled_no_constant_operand c :
  lower_program_with fuel dedup P = Ok (LCircuit c) ->
  forall k g w, 2 <= k -> nthN (gates c) k = Some g -> In w (g_ops g) ->
    w <> num_inputs c /\ w <> num_inputs c + 1.
Proof.
  intro H. destruct (compiled_is_built c H) as (s & outs & hs & _ & R & _ & Vp & Vo & Eb).
  exact (build_no_constant_operand _ _ _ _ _ R Vp Vo Eb).
Qed.

(* no AND gate has the same wire twice; with de-duplication no XOR either *)
Theorem compiled_no_self_operand c :
  lower_program_with fuel dedup P = Ok (LCircuit c) ->
  (forall k x y, nthN (gates c) k = Some (GAnd x y) -> x <> y) /\
  (dedup = true -> forall k x y, 2 <= k -> nthN (gates c) k = Some (GXor x y) -> x <> y).
Proof.
  intro H. destruct (compiled_is_built c H) as (s & outs & hs & _ & R & Hd & Vp & Vo & Eb).
  rewrite <- Hd. exact (build_no_self_operand _ _ _ _ _ R Vp Vo Eb).
Qed.

(* with de-duplication no two AND gates have the same unordered operand pair *)
Theorem compiled_and_unique c :
  lower_program_with fuel dedup P = Ok (LCircuit c) ->
  dedup = true ->
  forall k1 k2 x y x' y',
    nthN (gates c) k1 = Some (GAnd x y) -> nthN (gates c) k2 = Some (GAnd x' y') ->
    same_pair x y x' y' -> k1 = k2.
Proof.
  intros H Hdd. destruct (compiled_is_built c H) as (s & outs & hs & _ & R & Hd & Vp & Vo & Eb).
  rewrite <- Hd in Hdd. exact (build_and_unique _ _ _ _ _ R Vp Vo Eb Hdd).
Qed.

(* build never fails on the final state of the compiler (C15_build_total) *)
Theorem compiled_build_total s outs :
  lower_main_with fuel dedup P = Ok (PreOk s outs) ->
  exists c, lower_program_with fuel dedup P = Ok (LCircuit c).
Proof.
  intro H. destruct (compiled_builder_reachable s outs H) as (hs & R & _ & _ & Vp & Vo).
  destruct (build_total _ _ _ _ R Vp Vo) as [c Ec]. exists c.
  unfold lower_program_with. rewrite H. cbn [bind]. rewrite Ec. reflexivity.
Qed.

(* the gate store of the compiler before pruning (C15_store_gate_shape, C15_store_and_unique) *)
Theorem compiled_store_gate_shape s outs :
  lower_main_with fuel dedup P = Ok (PreOk s outs) ->
  forall i g, nthN (rev (b_gates_rev (cb s))) i = Some g ->
    match g with
    | BAnd x y => 2 <= x /\ 2 <= y /\ x <> y
    | BXor x y => x <> 0 /\ y <> 0 /\ (x = y -> dedup = false /\ 2 <= x)
    end.
Proof.
  intro H. destruct (compiled_builder_reachable s outs H) as (hs & R & Hd & _).
  rewrite <- Hd. exact (store_gate_shape _ _ R).
Qed.

Theorem compiled_store_and_unique s outs :
  lower_main_with fuel dedup P = Ok (PreOk s outs) -> dedup = true ->
  forall i j x y x' y',
    nthN (rev (b_gates_rev (cb s))) i = Some (BAnd x y) -> nthN (rev (b_gates_rev (cb s))) j = Some (BAnd x' y') ->
    same_pair x y x' y' -> i = j.
Proof.
  intros H Hdd. destruct (compiled_builder_reachable s outs H) as (hs & R & Hd & _).
  rewrite <- Hd in Hdd. exact (store_and_unique _ _ R Hdd).
Qed.

End Compiled.

Print Assumptions compiled_builder_reachable.
Print Assumptions compiled_const_gates.
Print Assumptions compiled_all_used.
Print Assumptions compiled_no_constant_operand.
Print Assumptions compiled_no_self_operand.
Print Assumptions compiled_and_unique.
Print Assumptions compiled_build_total.
Print Assumptions compiled_store_gate_shape.
Print Assumptions compiled_store_and_unique.

(* ================================================================ non-vacuity *)

Module ReachExamples.
Definition m0 : meta := mkMeta 0 0 0 0.
Definition u8 := TInt false 8.
Definition id_ (x : N) (t : ty) : expr := Ex (EId x) m0 t.
Definition st (s : stmt_inner) : stmt := St s m0.

(* fn main(x: u8, y: u8) -> u8 { if x < y { x + (x & y) } else { y / x } }
   : comparator, adder, divider, bitwise AND, muxes, and the panic record (overflow, division by
   zero) *)
Definition arith_prog : program :=
  mkProgram [] [] [mkFn 9 [(1, u8); (2, u8)] u8
    [st (SExpr (Ex (EIf (Ex (EOp OLt (id_ 1 u8) (id_ 2 u8)) m0 TBool)
                        (Ex (EOp OAdd (id_ 1 u8) (Ex (EOp OBitAnd (id_ 1 u8) (id_ 2 u8)) m0 u8)) m0 u8)
                        (Ex (EOp ODiv (id_ 2 u8) (id_ 1 u8)) m0 u8)) m0 u8))]] [] 9.

Definition summary (r : res lowered) : option (N * N) :=
  match r with Ok (LCircuit c) => Some (lenN (gates c), and_gates c) | _ => None end.

(* the model of the compiler, run: a few hundred gates, many ANDs *)
Example arith_prog_compiles :
  summary (lower_program_with 50 true arith_prog) <> None /\
  summary (lower_program_with 50 false arith_prog) <> None.
Proof. vm_compute. split; discriminate. Qed.

Example arith_prog_size :
  match summary (lower_program_with 50 true arith_prog), summary (lower_program_with 50 false arith_prog) with
  | Some (g1, a1), Some (g2, a2) => (2 <? g1) && (0 <? a1) && (g1 <=? g2) && (a1 <=? a2)
  | _, _ => false
  end = true.
Proof. vm_compute. reflexivity. Qed.

(* hence (theorems): its circuit has the C15 structure, with and without de-duplication *)
Example arith_prog_structure dedup :
  exists c, lower_program_with 50 dedup arith_prog = Ok (LCircuit c) /\
    (nthN (gates c) 0 = Some (GXor 0 0) /\ nthN (gates c) 1 = Some (GNot (num_inputs c))) /\
    (forall k, 2 <= k < lenN (gates c) -> reaches c (num_inputs c + k)) /\
    (forall k g w, 2 <= k -> nthN (gates c) k = Some g -> In w (g_ops g) ->
       w <> num_inputs c /\ w <> num_inputs c + 1) /\
    (forall k x y, nthN (gates c) k = Some (GAnd x y) -> x <> y) /\
    (dedup = true -> forall k1 k2 x y x' y',
       nthN (gates c) k1 = Some (GAnd x y) -> nthN (gates c) k2 = Some (GAnd x' y') ->
       same_pair x y x' y' -> k1 = k2).
Proof.
  assert (H : exists c, lower_program_with 50 dedup arith_prog = Ok (LCircuit c)).
  { destruct dedup.
    - destruct (lower_program_with 50 true arith_prog) as [[c| |]| |] eqn:E; try (exfalso; revert E; vm_compute; discriminate).
      exists c. reflexivity.
    - destruct (lower_program_with 50 false arith_prog) as [[c| |]| |] eqn:E; try (exfalso; revert E; vm_compute; discriminate).
      exists c. reflexivity. }
  destruct H as [c Hc]. exists c. split; [exact Hc|].
  split; [exact (compiled_const_gates _ _ _ c Hc)|].
  split; [exact (compiled_all_used _ _ _ c Hc)|].
  split; [exact (compiled_no_constant_operand _ _ _ c Hc)|].
  split; [exact (proj1 (compiled_no_self_operand _ _ _ c Hc))|].
  exact (compiled_and_unique _ _ _ c Hc).
Qed.
End ReachExamples.

Print Assumptions ReachExamples.arith_prog_structure.
