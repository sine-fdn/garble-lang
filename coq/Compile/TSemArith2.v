(* The operator lowering of Compile/Lower.v on the Boolean instance ([TSem.tops]) is bit-exact
   checked two's-complement arithmetic, part 2: casts (zero / sign extension, truncation),
   shifts (the mux layers of << and >>) and multiplication (the array multiplier, unsigned
   and signed).  Every statement is for an arbitrary width n >= 1 unless the code itself
   restricts the width (shifts: 8, 16, 32, 64).  Bit vectors are most significant bit first;
   [bits_to_N] is the unsigned and [bits_to_Z_signed] the two's-complement reading. *)
From Coq Require Import Lia ZArith.
From GV Require Import Base.Util Base.Bits Base.BitsProofs Lang.Ast Gadgets.Gadgets Gadgets.GadgetSpec
  Gadgets.Arith Gadgets.Extend Gadgets.ExtendProofs Panic.PanicRec Panic.PanicSem
  Compile.Lower Compile.TSem Compile.TSemFacts Compile.TSemArith1.
Local Open Scope N_scope.

(* ------------------------------------------------------------------ 1. casts *)

(* on Booleans [extend_g] is the pure function [extend_s] whenever the target is not narrower *)
Lemma tsem_extend_g v sg bits : (length v <= bits)%nat ->
  extend_g tops v sg bits = Ok (extend_s v sg bits).
Proof.
  intro Hl. unfold extend_g, extend_s. destruct v as [|b r]; [reflexivity|].
  change (wF tops) with false.
  destruct (Nat.eqb_spec (length (b :: r)) bits) as [E|NE].
  - rewrite E, Nat.sub_diag. reflexivity.
  - destruct (Nat.ltb_spec bits (length (b :: r))); [lia|reflexivity].
Qed.

(* ... and a debug-build panic when it is *)
Lemma tsem_extend_g_narrower v sg bits : (bits < length v)%nat -> extend_g tops v sg bits = Crash.
Proof.
  intro Hl. unfold extend_g. destruct v as [|b r]; [cbn in Hl; lia|].
  destruct (Nat.eqb_spec (length (b :: r)) bits); [lia|].
  destruct (Nat.ltb_spec bits (length (b :: r))); [reflexivity|lia].
Qed.

Lemma bits_to_Z_signed_repeat_false k : bits_to_Z_signed (repeat false k) = 0%Z.
Proof.
  destruct k as [|k]; [reflexivity|]. cbn [repeat]. unfold bits_to_Z_signed.
  rewrite bits_to_N_repeat_false. cbn. lia.
Qed.

(* sign extension keeps the two's-complement value (also for the empty vector: 0) *)
Lemma sext_correct' v bits : bits_to_Z_signed (extend_s v true bits) = bits_to_Z_signed v.
Proof.
  destruct v as [|b r].
  - cbn [extend_s]. apply bits_to_Z_signed_repeat_false.
  - apply sext_correct. discriminate.
Qed.

(* zero extension: the unsigned value is preserved *)
Theorem tsem_zext_correct v bits : (length v <= bits)%nat ->
  exists r, extend_g tops v false bits = Ok r /\ length r = bits /\ bits_to_N r = bits_to_N v.
Proof.
  intro Hl. exists (extend_s v false bits). split; [now apply tsem_extend_g|].
  split; [now apply extend_s_length|apply zext_correct].
Qed.
Print Assumptions tsem_zext_correct.

(* sign extension: the signed value is preserved *)
Theorem tsem_sext_correct v bits : (length v <= bits)%nat ->
  exists r, extend_g tops v true bits = Ok r /\ length r = bits /\
            bits_to_Z_signed r = bits_to_Z_signed v.
Proof.
  intro Hl. exists (extend_s v true bits). split; [now apply tsem_extend_g|].
  split; [now apply extend_s_length|apply sext_correct'].
Qed.
Print Assumptions tsem_sext_correct.

(* truncation to the low k bits: the value modulo 2^k *)
Theorem tsem_truncate_correct (v : list bool) k : (k <= length v)%nat ->
  length (cast_truncate v k) = k /\
  bits_to_N (cast_truncate v k) = bits_to_N v mod 2 ^ N.of_nat k.
Proof. apply truncate_correct. Qed.
Print Assumptions tsem_truncate_correct.

(* the two's-complement reading of the truncation: the signed value, wrapped to k bits *)
Lemma signed_mod_unsigned l : l <> [] ->
  (bits_to_Z_signed l mod 2 ^ Z.of_N (lenN l) = Z.of_N (bits_to_N l))%Z.
Proof.
  intro Hne. destruct (signed_facts l Hne) as (HX & HP & _ & _ & HS). cbv zeta in *.
  rewrite HS, N2Z.inj_pow. change (Z.of_N 2) with 2%Z.
  assert (0 <= Z.of_N (bits_to_N l) < 2 ^ Z.of_N (lenN l))%Z as Hr.
  { rewrite <- (N2Z.inj_pow 2). lia. }
  destruct (hd false l).
  - replace (Z.of_N (bits_to_N l) - 2 ^ Z.of_N (lenN l))%Z
      with (Z.of_N (bits_to_N l) + (-1) * 2 ^ Z.of_N (lenN l))%Z by lia.
    rewrite Z.mod_add by lia. now apply Z.mod_small.
  - rewrite Z.sub_0_r. now apply Z.mod_small.
Qed.

Theorem tsem_truncate_signed (v : list bool) k : (1 <= k <= length v)%nat ->
  (Z.of_N (bits_to_N (cast_truncate v k)) = bits_to_Z_signed v mod 2 ^ Z.of_nat k)%Z.
Proof.
  intros [Hk1 Hk]. destruct (truncate_correct v k Hk) as [_ HV]. rewrite HV.
  assert (v <> []) as Hne by (destruct v; [cbn in Hk; lia|discriminate]).
  rewrite N2Z.inj_mod, N2Z.inj_pow, nat_N_Z. change (Z.of_N 2) with 2%Z.
  rewrite <- (signed_mod_unsigned v Hne).
  unfold lenN. rewrite nat_N_Z.
  replace (Z.of_nat (length v)) with (Z.of_nat k + Z.of_nat (length v - k))%Z by lia.
  rewrite Z.pow_add_r by lia.
  assert (0 < 2 ^ Z.of_nat k)%Z by (apply Z.pow_pos_nonneg; lia).
  assert (0 < 2 ^ Z.of_nat (length v - k))%Z by (apply Z.pow_pos_nonneg; lia).
  rewrite Z.rem_mul_r by lia.
  rewrite Z.mul_comm, Z.mod_add by lia. apply Z.mod_mod. lia.
Qed.
Print Assumptions tsem_truncate_signed.

(* the ECast case of the expression lowering: whatever the operand compiles to, the cast
   has exactly the target width; narrowing keeps the value modulo 2^width, widening keeps
   the unsigned value of an unsigned operand and the signed value of a signed one; the
   environment and the panic observation are those of the operand *)
Theorem tsem_cast_correct P rec_e rec_p rec_b to e1 m t E o w E1 o1 :
  rec_e e1 E o = Ok ((w, E1), o1) ->
  exists r,
    lower_expr_body tops P rec_e rec_p rec_b (Ex (ECast to e1) m t) E o = Ok ((r, E1), o1) /\
    length r = szn P to /\
    ((szn P to <= length w)%nat -> bits_to_N r = bits_to_N w mod 2 ^ N.of_nat (szn P to)) /\
    ((length w <= szn P to)%nat ->
       if is_signed (e_ty e1) then bits_to_Z_signed r = bits_to_Z_signed w
       else bits_to_N r = bits_to_N w).
Proof.
  intro He. cbn [lower_expr_body]. unfold mbind. rewrite He. cbn iota beta.
  destruct (Nat.eqb_spec (szn P to) (length w)) as [E0|NE].
  - exists w. unfold ret. split; [reflexivity|]. split; [now symmetry|]. split.
    + intros _. rewrite E0. symmetry. apply N.mod_small. apply bits_to_N_lt.
    + intros _. destruct (is_signed (e_ty e1)); reflexivity.
  - destruct (Nat.ltb_spec (szn P to) (length w)) as [Hlt|Hge].
    + exists (cast_truncate w (szn P to)). unfold ret. split; [reflexivity|].
      destruct (truncate_correct w (szn P to)) as [HL HV]; [lia|].
      split; [exact HL|]. split; [intros _; exact HV|]. lia.
    + assert (length w <= szn P to)%nat as Hl by lia.
      exists (extend_s w (is_signed (e_ty e1)) (szn P to)).
      unfold m_extend, lift_res. rewrite (tsem_extend_g _ _ _ Hl). unfold ret.
      split; [reflexivity|]. split; [now apply extend_s_length|]. split; [lia|].
      intros _. destruct (is_signed (e_ty e1)); [apply sext_correct'|apply zext_correct].
Qed.
Print Assumptions tsem_cast_correct.

(* ------------------------------------------------------------------ 2. shifts *)

Lemma nth_map_seq {A} (f : nat -> A) n i d : (i < n)%nat -> nth i (map f (seq 0 n)) d = f i.
Proof.
  intro Hi. rewrite (nth_indep _ d (f 0%nat)) by (rewrite map_length, seq_length; exact Hi).
  rewrite map_nth, seq_nth by exact Hi. reflexivity.
Qed.

Lemma nth_skipn' {A} k : forall (l : list A) i d, nth i (skipn k l) d = nth (k + i) l d.
Proof.
  induction k as [|k IH]; intros l i d; [reflexivity|].
  destruct l as [|a l]; [destruct i; reflexivity|]. cbn [skipn Nat.add nth]. apply IH.
Qed.

Lemma nth_firstn' {A} k : forall (l : list A) i d, (i < k)%nat -> nth i (firstn k l) d = nth i l d.
Proof.
  induction k as [|k IH]; intros l i d Hi; [lia|].
  destruct l as [|a l]; [reflexivity|]. destruct i as [|i]; [reflexivity|].
  cbn [firstn nth]. apply IH. lia.
Qed.

(* one mux layer's "shifted" input: a shift of the whole vector by [k] positions *)
Lemma shift_once_length left fill (v : list bool) k : length (shift_once tops left fill v k) = length v.
Proof. unfold shift_once. now rewrite map_length, seq_length. Qed.

Lemma shift_once_nth left fill (v : list bool) k i : (i < length v)%nat ->
  nth i (shift_once tops left fill v k) false =
  if left then (if (length v <=? i + k)%nat then false else nth (i + k) v false)
  else (if (i <? k)%nat then fill else nth (i - k) v false).
Proof. intro Hi. unfold shift_once. rewrite nth_map_seq by exact Hi. reflexivity. Qed.

Lemma shift_once_0 left fill (v : list bool) : shift_once tops left fill v 0 = v.
Proof.
  apply (nth_ext _ _ false false); [apply shift_once_length|].
  intros i Hi. rewrite shift_once_length in Hi. rewrite shift_once_nth by exact Hi.
  destruct left.
  - rewrite Nat.add_0_r. destruct (Nat.leb_spec (length v) i); [lia|reflexivity].
  - rewrite Nat.sub_0_r. reflexivity.
Qed.

Lemma shift_once_add left fill (v : list bool) a b :
  shift_once tops left fill (shift_once tops left fill v a) b = shift_once tops left fill v (a + b).
Proof.
  apply (nth_ext _ _ false false); [now rewrite !shift_once_length|].
  intros i Hi. rewrite !shift_once_length in Hi.
  rewrite shift_once_nth by (now rewrite shift_once_length).
  rewrite (shift_once_nth left fill v (a + b)) by exact Hi. rewrite shift_once_length.
  destruct left.
  - destruct (Nat.leb_spec (length v) (i + b)) as [H1|H1].
    + destruct (Nat.leb_spec (length v) (i + (a + b))); [reflexivity|lia].
    + rewrite shift_once_nth by exact H1. replace (i + b + a)%nat with (i + (a + b))%nat by lia.
      reflexivity.
  - destruct (Nat.ltb_spec i b) as [H1|H1].
    + destruct (Nat.ltb_spec i (a + b)); [reflexivity|lia].
    + rewrite shift_once_nth by lia. replace (i - b - a)%nat with (i - (a + b))%nat by lia.
      destruct (Nat.ltb_spec (i - b) a); destruct (Nat.ltb_spec i (a + b)); try lia; reflexivity.
Qed.

(* THE GENERIC LEMMA: k mux layers with strides sh, 2 sh, 4 sh, ... controlled by the bits of
   a k-bit amount (least significant first) shift by sh * amount -- any width, any k *)
Lemma tsem_shift_layers left fill : forall (y_rev v : list bool) sh o,
  shift_layers tops left fill v y_rev sh o
  = Ok (shift_once tops left fill v (sh * N.to_nat (lsb_to_N y_rev)), o).
Proof.
  induction y_rev as [|s r IH]; intros v sh o; cbn [shift_layers lsb_to_N].
  - change (N.to_nat 0) with 0%nat. rewrite Nat.mul_0_r, shift_once_0. reflexivity.
  - unfold mbind.
    change (fun shifted unshifted : bool => m_mux tops s shifted unshifted) with (m_mux tops s).
    rewrite (tsem_map2_mux s) by apply shift_once_length. rewrite IH. f_equal. f_equal.
    destruct s; cbn [N.b2n].
    + rewrite shift_once_add. f_equal. lia.
    + f_equal. lia.
Qed.

Theorem tsem_shift_layers_value left fill (y v : list bool) o :
  shift_layers tops left fill v (rev y) 1 o
  = Ok (shift_once tops left fill v (N.to_nat (bits_to_N y)), o).
Proof. rewrite tsem_shift_layers, lsb_to_N_rev, Nat.mul_1_l. reflexivity. Qed.
Print Assumptions tsem_shift_layers_value.

(* the shifted vector, structurally *)
Lemma shift_once_left_struct fill (v : list bool) k :
  shift_once tops true fill v k = skipn k v ++ repeat false (Nat.min k (length v)).
Proof.
  apply (nth_ext _ _ false false).
  - rewrite shift_once_length, app_length, skipn_length, repeat_length. lia.
  - intros i Hi. rewrite shift_once_length in Hi. rewrite shift_once_nth by exact Hi.
    destruct (Nat.leb_spec (length v) (i + k)) as [H1|H1].
    + rewrite app_nth2 by (rewrite skipn_length; lia). symmetry. apply nth_repeat.
    + rewrite app_nth1 by (rewrite skipn_length; lia). rewrite nth_skipn'. f_equal. lia.
Qed.

Lemma shift_once_right_struct fill (v : list bool) k :
  shift_once tops false fill v k = repeat fill (Nat.min k (length v)) ++ firstn (length v - k) v.
Proof.
  apply (nth_ext _ _ false fill).
  - rewrite shift_once_length, app_length, firstn_length, repeat_length. lia.
  - intros i Hi. rewrite shift_once_length in Hi. rewrite shift_once_nth by exact Hi.
    destruct (Nat.ltb_spec i k) as [H1|H1].
    + rewrite app_nth1 by (rewrite repeat_length; lia). symmetry. apply nth_repeat.
    + rewrite app_nth2 by (rewrite repeat_length; lia). rewrite repeat_length.
      replace (Nat.min k (length v)) with k by lia.
      rewrite nth_firstn' by lia. apply nth_indep. lia.
Qed.

Lemma pow2_le a b : a <= b -> 2 ^ a <= 2 ^ b.
Proof. intro H. apply N.pow_le_mono_r; lia. Qed.

(* logical left shift: X * 2^k modulo 2^n *)
Theorem shift_once_shl fill (v : list bool) k :
  bits_to_N (shift_once tops true fill v k) = (bits_to_N v * 2 ^ N.of_nat k) mod 2 ^ lenN v.
Proof.
  rewrite shift_once_left_struct, bits_to_N_app, lenN_repeat, bits_to_N_repeat_false, N.add_0_r.
  pose proof (pow2_pos (lenN v)) as Hp.
  destruct (Nat.le_gt_cases k (length v)) as [Hk|Hk].
  - replace (Nat.min k (length v)) with k by lia.
    rewrite <- (firstn_skipn k v) at 2 3.
    rewrite bits_to_N_app, lenN_app.
    assert (lenN (firstn k v) = N.of_nat k) as -> by (unfold lenN; rewrite firstn_length; lia).
    pose proof (bits_to_N_lt (skipn k v)) as Hs.
    pose proof (pow2_pos (N.of_nat k)) as Hpk.
    rewrite N.pow_add_r in *.
    replace ((bits_to_N (firstn k v) * 2 ^ lenN (skipn k v) + bits_to_N (skipn k v)) * 2 ^ N.of_nat k)
      with (bits_to_N (skipn k v) * 2 ^ N.of_nat k
            + bits_to_N (firstn k v) * (2 ^ N.of_nat k * 2 ^ lenN (skipn k v))) by lia.
    rewrite N.mod_add by lia. symmetry. apply N.mod_small. nia.
  - rewrite skipn_all2 by lia. cbn [bits_to_N]. rewrite N.mul_0_l.
    replace (N.of_nat k) with (N.of_nat k - lenN v + lenN v) by (unfold lenN; lia).
    rewrite N.pow_add_r, N.mul_assoc, N.mod_mul by lia. reflexivity.
Qed.
Print Assumptions shift_once_shl.

(* logical right shift: X / 2^k *)
Theorem shift_once_shr (v : list bool) k :
  bits_to_N (shift_once tops false false v k) = bits_to_N v / 2 ^ N.of_nat k.
Proof.
  rewrite shift_once_right_struct, bits_to_N_repeat_false_app.
  destruct (Nat.le_gt_cases k (length v)) as [Hk|Hk].
  - rewrite <- (firstn_skipn (length v - k) v) at 3. rewrite bits_to_N_app.
    assert (lenN (skipn (length v - k) v) = N.of_nat k) as El
      by (unfold lenN; rewrite skipn_length; lia).
    pose proof (bits_to_N_lt (skipn (length v - k) v)) as Hs. rewrite El in *.
    pose proof (pow2_pos (N.of_nat k)) as Hpk.
    rewrite N.div_add_l by lia. rewrite (N.div_small _ _ Hs). lia.
  - replace (length v - k)%nat with 0%nat by lia. cbn [firstn bits_to_N].
    symmetry. apply N.div_small. pose proof (bits_to_N_lt v) as Hv.
    assert (2 ^ lenN v <= 2 ^ N.of_nat k) by (apply pow2_le; unfold lenN; lia). lia.
Qed.
Print Assumptions shift_once_shr.

Lemma bits_to_Z_signed_repeat_true k : bits_to_Z_signed (repeat true (S k)) = (-1)%Z.
Proof.
  cbn [repeat]. unfold bits_to_Z_signed. rewrite lenN_repeat. cbn [N.b2n].
  pose proof (bits_to_N_repeat_true k). lia.
Qed.

(* the high part of a two's-complement number is its floor quotient by the weight of the low part *)
Lemma signed_app_div (f s : list bool) : f <> [] ->
  (bits_to_Z_signed (f ++ s) / 2 ^ Z.of_N (lenN s) = bits_to_Z_signed f)%Z.
Proof.
  intro Hne. destruct f as [|b f]; [congruence|].
  rewrite (bits_to_Z_signed_cons b f). change ((b :: f) ++ s) with (b :: (f ++ s)).
  rewrite (bits_to_Z_signed_cons b (f ++ s)). change (b :: f ++ s) with ((b :: f) ++ s).
  rewrite bits_to_N_app, lenN_app.
  pose proof (bits_to_N_lt s) as Hs.
  assert (0 < 2 ^ Z.of_N (lenN s))%Z as Hp by (apply Z.pow_pos_nonneg; lia).
  assert (Z.of_N (bits_to_N s) < 2 ^ Z.of_N (lenN s))%Z as Hs' by (rewrite <- (N2Z.inj_pow 2); lia).
  rewrite (N2Z.inj_add (lenN (b :: f)) (lenN s)), Z.pow_add_r by lia.
  rewrite N2Z.inj_add, N2Z.inj_mul, N2Z.inj_pow. change (Z.of_N 2) with 2%Z.
  symmetry. apply Z.div_unique with (r := Z.of_N (bits_to_N s)); [lia|].
  destruct b; lia.
Qed.

(* arithmetic right shift: floor (SX / 2^k) *)
Theorem shift_once_sar (v : list bool) k : v <> [] ->
  (bits_to_Z_signed (shift_once tops false (hd false v) v k) = bits_to_Z_signed v / 2 ^ Z.of_nat k)%Z.
Proof.
  intro Hne. rewrite shift_once_right_struct.
  destruct (Nat.lt_ge_cases k (length v)) as [Hk|Hk].
  - replace (Nat.min k (length v)) with k by lia.
    assert (firstn (length v - k) v <> []) as Hfne.
    { destruct v as [|b r]; [congruence|]. cbn [length] in *.
      replace (S (length r) - k)%nat with (S (length r - k)) by lia. discriminate. }
    assert (hd false (firstn (length v - k) v) = hd false v) as Hhd.
    { destruct v as [|b r]; [congruence|]. cbn [length] in *.
      replace (S (length r) - k)%nat with (S (length r - k)) by lia. reflexivity. }
    assert (repeat (hd false v) k ++ firstn (length v - k) v
            = extend_s (firstn (length v - k) v) true (length v)) as ->.
    { unfold extend_s. destruct (firstn (length v - k) v) as [|b f] eqn:Ef; [congruence|].
      cbn [hd] in Hhd. rewrite <- Hhd. rewrite <- Ef, firstn_length.
      replace (length v - Nat.min (length v - k) (length v))%nat with k by lia. reflexivity. }
    rewrite sext_correct by exact Hfne.
    rewrite <- (signed_app_div (firstn (length v - k) v) (skipn (length v - k) v) Hfne), firstn_skipn.
    replace (Z.of_nat k) with (Z.of_N (lenN (skipn (length v - k) v)))
      by (unfold lenN; rewrite skipn_length; lia).
    reflexivity.
  - replace (length v - k)%nat with 0%nat by lia. cbn [firstn]. rewrite app_nil_r.
    replace (Nat.min k (length v)) with (length v) by lia.
    pose proof (bits_to_Z_signed_range v Hne) as Hr.
    destruct (signed_facts v Hne) as (HX & HP & H1 & H0 & HS). cbv zeta in *.
    assert (2 ^ Z.of_N (lenN v - 1) <= 2 ^ Z.of_nat k)%Z as Hle
      by (apply Z.pow_le_mono_r; unfold lenN; lia).
    assert (0 < 2 ^ Z.of_nat k)%Z as Hp by (apply Z.pow_pos_nonneg; lia).
    destruct v as [|b r]; [congruence|]. cbn [hd length] in *.
    destruct b.
    + rewrite bits_to_Z_signed_repeat_true. specialize (H1 eq_refl).
      apply Z.div_unique with (r := (bits_to_Z_signed (true :: r) + 2 ^ Z.of_nat k)%Z); lia.
    + rewrite bits_to_Z_signed_repeat_false. specialize (H0 eq_refl).
      symmetry. apply Z.div_small. lia.
Qed.
Print Assumptions shift_once_sar.

Lemma tsem_or_all_M : forall (ws : list bool) acc o, or_all_M tops acc ws o = Ok (or_all_s acc ws, o).
Proof.
  induction ws as [|w r IH]; intros acc o; cbn [or_all_M or_all_s]; [reflexivity|].
  unfold mbind. change (m_or tops acc w o) with (Ok (orb acc w, o)). cbn iota beta. apply IH.
Qed.

(* the OR of the top j bits of the amount: the amount is at least 2^(remaining bits) *)
Lemma top_bits_overflow (y : list bool) j : (j <= length y)%nat ->
  negb (bits_to_N (firstn j y) =? 0) = (2 ^ N.of_nat (length y - j) <=? bits_to_N y).
Proof.
  intro Hj. pose proof (bits_to_N_app (firstn j y) (skipn j y)) as H. rewrite firstn_skipn in H.
  rewrite H. pose proof (bits_to_N_lt (skipn j y)) as Hs.
  assert (lenN (skipn j y) = N.of_nat (length y - j)) as El by (unfold lenN; now rewrite skipn_length).
  rewrite El in *. pose proof (pow2_pos (N.of_nat (length y - j))) as Hp.
  destruct (N.eqb_spec (bits_to_N (firstn j y)) 0) as [E|E]; cbn [negb];
    destruct (N.leb_spec (2 ^ N.of_nat (length y - j))
               (bits_to_N (firstn j y) * 2 ^ N.of_nat (length y - j) + bits_to_N (skipn j y)));
    try reflexivity; nia.
Qed.

(* the fill bit of the shift: the sign for >> on a signed operand, 0 otherwise *)
Definition shift_fill (left sg : bool) (x : list bool) : bool :=
  if sg && negb left then hd false x else false.

(* << and >> as compiled: the operand shifted by the value of the 8-bit amount; Overflow iff
   the amount is >= the width (the OR of the top 8 - log2 n bits of the amount) *)
Theorem tsem_lower_shift left sg (x y : list bool) m o :
  length y = 8%nat -> In (length x) [8; 16; 32; 64]%nat ->
  lower_shift tops left sg x y m o
  = Ok (shift_once tops left (shift_fill left sg x) x (N.to_nat (bits_to_N y)),
        push_spec o (lenN x <=? bits_to_N y) Overflow (ploc_of m)).
Proof.
  intros Hy Hin. unfold lower_shift. rewrite Hy. cbn [Nat.eqb negb]. unfold mbind.
  assert (x <> []) as Hne by (intros ->; cbn in Hin; lia).
  assert ((if sg && negb left then lift_res (hd_res x) else ret (wF tops)) o
          = Ok (shift_fill left sg x, o)) as ->.
  { unfold shift_fill. destruct (sg && negb left); [|reflexivity].
    destruct x as [|b r]; [congruence|reflexivity]. }
  rewrite tsem_shift_layers_value. unfold lenN.
  destruct Hin as [E|[E|[E|[E|[]]]]]; rewrite <- E; cbn [max_filled_bits Nat.eqb lift_res Nat.sub];
    rewrite tsem_or_all_M, or_all_s_spec; cbn [orb];
    rewrite top_bits_overflow by (rewrite Hy; lia); rewrite Hy; reflexivity.
Qed.
Print Assumptions tsem_lower_shift.

(* any other width is refused (compile.rs: max_filled_bits panics) *)
Theorem tsem_lower_shift_other_width left sg (x y : list bool) m o :
  ~ In (length x) [8; 16; 32; 64]%nat -> lower_shift tops left sg x y m o = Crash.
Proof.
  intro Hnin. unfold lower_shift. destruct (negb (length y =? 8)%nat); [reflexivity|].
  unfold mbind.
  destruct ((if sg && negb left then lift_res (hd_res x) else ret (wF tops)) o) as [[fill o1]| |] eqn:Ef.
  - rewrite tsem_shift_layers_value.
    assert (max_filled_bits (length x) = Crash) as ->; [|reflexivity].
    unfold max_filled_bits.
    destruct (Nat.eqb_spec (length x) 8); [cbn in Hnin; lia|].
    destruct (Nat.eqb_spec (length x) 16); [cbn in Hnin; lia|].
    destruct (Nat.eqb_spec (length x) 32); [cbn in Hnin; lia|].
    destruct (Nat.eqb_spec (length x) 64); [cbn in Hnin; lia|]. reflexivity.
  - reflexivity.
  - destruct (sg && negb left); [|discriminate]. destruct x; discriminate.
Qed.
Print Assumptions tsem_lower_shift_other_width.

(* the three readings of the result, for an n-bit operand, n in {8, 16, 32, 64}, and the
   8-bit amount of value S *)
Theorem tsem_shift_correct left sg (x y : list bool) m o :
  length y = 8%nat -> In (length x) [8; 16; 32; 64]%nat ->
  let n := lenN x in let S := bits_to_N y in
  exists r,
    lower_shift tops left sg x y m o = Ok (r, push_spec o (n <=? S) Overflow (ploc_of m)) /\
    length r = length x /\
    (left = true -> bits_to_N r = (bits_to_N x * 2 ^ S) mod 2 ^ n) /\
    (left = false -> sg = false -> bits_to_N r = bits_to_N x / 2 ^ S) /\
    (left = false -> sg = true ->
       bits_to_Z_signed r = (bits_to_Z_signed x / 2 ^ Z.of_N S)%Z).
Proof.
  intros Hy Hin n S. eexists. split; [apply (tsem_lower_shift left sg x y m o Hy Hin)|].
  assert (x <> []) as Hne by (intros ->; cbn in Hin; lia).
  split; [apply shift_once_length|]. split; [|split].
  - intros ->. rewrite shift_once_shl, N2Nat.id. reflexivity.
  - intros -> ->. unfold shift_fill. cbn [andb]. rewrite shift_once_shr, N2Nat.id. reflexivity.
  - intros -> ->. unfold shift_fill. cbn [andb negb]. rewrite shift_once_sar by exact Hne.
    rewrite N_nat_Z. reflexivity.
Qed.
Print Assumptions tsem_shift_correct.

Lemma tsem_shift_correct_width k left sg (x y : list bool) m o :
  In k [8; 16; 32; 64]%nat -> length y = 8%nat -> length x = k ->
  let S := bits_to_N y in
  exists r,
    lower_shift tops left sg x y m o = Ok (r, push_spec o (N.of_nat k <=? S) Overflow (ploc_of m)) /\
    length r = k /\
    (left = true -> bits_to_N r = (bits_to_N x * 2 ^ S) mod 2 ^ N.of_nat k) /\
    (left = false -> sg = false -> bits_to_N r = bits_to_N x / 2 ^ S) /\
    (left = false -> sg = true -> bits_to_Z_signed r = (bits_to_Z_signed x / 2 ^ Z.of_N S)%Z).
Proof. intros Hin Hy Hx. subst k. exact (tsem_shift_correct left sg x y m o Hy Hin). Qed.

(* the four widths *)
Corollary tsem_shift_correct_8 left sg (x y : list bool) m o :
  length y = 8%nat -> length x = 8%nat ->
  let S := bits_to_N y in
  exists r,
    lower_shift tops left sg x y m o = Ok (r, push_spec o (8 <=? S) Overflow (ploc_of m)) /\
    length r = 8%nat /\
    (left = true -> bits_to_N r = (bits_to_N x * 2 ^ S) mod 2 ^ 8) /\
    (left = false -> sg = false -> bits_to_N r = bits_to_N x / 2 ^ S) /\
    (left = false -> sg = true -> bits_to_Z_signed r = (bits_to_Z_signed x / 2 ^ Z.of_N S)%Z).
Proof. apply (tsem_shift_correct_width 8). cbn. tauto. Qed.

Corollary tsem_shift_correct_16 left sg (x y : list bool) m o :
  length y = 8%nat -> length x = 16%nat ->
  let S := bits_to_N y in
  exists r,
    lower_shift tops left sg x y m o = Ok (r, push_spec o (16 <=? S) Overflow (ploc_of m)) /\
    length r = 16%nat /\
    (left = true -> bits_to_N r = (bits_to_N x * 2 ^ S) mod 2 ^ 16) /\
    (left = false -> sg = false -> bits_to_N r = bits_to_N x / 2 ^ S) /\
    (left = false -> sg = true -> bits_to_Z_signed r = (bits_to_Z_signed x / 2 ^ Z.of_N S)%Z).
Proof. apply (tsem_shift_correct_width 16). cbn. tauto. Qed.

Corollary tsem_shift_correct_32 left sg (x y : list bool) m o :
  length y = 8%nat -> length x = 32%nat ->
  let S := bits_to_N y in
  exists r,
    lower_shift tops left sg x y m o = Ok (r, push_spec o (32 <=? S) Overflow (ploc_of m)) /\
    length r = 32%nat /\
    (left = true -> bits_to_N r = (bits_to_N x * 2 ^ S) mod 2 ^ 32) /\
    (left = false -> sg = false -> bits_to_N r = bits_to_N x / 2 ^ S) /\
    (left = false -> sg = true -> bits_to_Z_signed r = (bits_to_Z_signed x / 2 ^ Z.of_N S)%Z).
Proof. apply (tsem_shift_correct_width 32). cbn. tauto. Qed.

Corollary tsem_shift_correct_64 left sg (x y : list bool) m o :
  length y = 8%nat -> length x = 64%nat ->
  let S := bits_to_N y in
  exists r,
    lower_shift tops left sg x y m o = Ok (r, push_spec o (64 <=? S) Overflow (ploc_of m)) /\
    length r = 64%nat /\
    (left = true -> bits_to_N r = (bits_to_N x * 2 ^ S) mod 2 ^ 64) /\
    (left = false -> sg = false -> bits_to_N r = bits_to_N x / 2 ^ S) /\
    (left = false -> sg = true -> bits_to_Z_signed r = (bits_to_Z_signed x / 2 ^ Z.of_N S)%Z).
Proof. apply (tsem_shift_correct_width 64). cbn. tauto. Qed.
Print Assumptions tsem_shift_correct_64.

(* ------------------------------------------------------------------ 3. unsigned multiplication *)

(* one row of the array multiplier: sums + 2^n carry = xi * Y + Z + carry-in
   ([yzs]: least significant column first) *)
Lemma tsem_mul_row xi : forall (yzs : list (bool * bool)) c acc o,
  exists S cf, mul_row tops xi yzs c acc o = Ok ((S ++ acc, cf), o) /\ length S = length yzs /\
    bits_to_N S + 2 ^ lenN yzs * N.b2n cf
    = N.b2n xi * lsb_to_N (map fst yzs) + lsb_to_N (map snd yzs) + N.b2n c.
Proof.
  induction yzs as [|[yj z] r IH]; intros c acc o.
  - exists [], c. cbn. repeat split. lia.
  - cbn [mul_row]. unfold mbind.
    change (o_multiplier tops xi yj z c o) with (Ok (multiplier_s xi yj z c, o)). cbn iota beta.
    pose proof (multiplier_s_spec xi yj z c) as Hm.
    destruct (multiplier_s xi yj z c) as [s c1]. cbn [fst snd] in Hm.
    destruct (IH c1 (s :: acc) o) as (S & cf & HS & HL & HV).
    exists (S ++ [s]), cf. rewrite <- app_assoc. cbn [app]. split; [exact HS|]. split.
    + rewrite app_length. cbn [length]. lia.
    + rewrite bits_to_N_snoc, lenN_cons, pow2_succ. cbn [map fst snd lsb_to_N]. nia.
Qed.

(* the addend the next row receives from the previous one: (carry, sums) shifted right once *)
Definition mul_zs (y : list bool) (prev : option (list bool * bool)) : list bool :=
  match prev with
  | None => repeat false (length y)
  | Some (sums, c0) => c0 :: removelast sums
  end.

Definition mul_prev_wf (y : list bool) (prev : option (list bool * bool)) : Prop :=
  match prev with None => True | Some (sums, _) => length sums = length y end.

Lemma mul_zs_length y prev : y <> [] -> mul_prev_wf y prev -> length (mul_zs y prev) = length y.
Proof.
  intros Hne Hwf. destruct prev as [[sums c0]|]; cbn [mul_zs mul_prev_wf] in *.
  - cbn [length]. rewrite removelast_firstn_len, firstn_length.
    destruct y; [congruence|]. cbn [length] in *. lia.
  - apply repeat_length.
Qed.

Lemma mul_rows_cons xi r (y : list bool) prev acc :
  mul_rows tops (xi :: r) y prev acc
  = mbind (mul_row tops xi (rev (combine y (mul_zs y prev))) (wF tops) [])
          (fun '(sums, c0) => mul_rows tops r y (Some (sums, c0)) (last sums (wF tops) :: acc)).
Proof. reflexivity. Qed.

(* the rows: with R the result bits collected so far and Z the pending addend,
   (Z', R') after the rows for [xs_rev] satisfy  Z' 2^k + R' = Xs Y + Z *)
Lemma tsem_mul_rows (y : list bool) : y <> [] ->
  forall (xs_rev : list bool) prev acc o, mul_prev_wf y prev ->
  exists res prev',
    mul_rows tops xs_rev y prev acc o = Ok ((res ++ acc, prev'), o) /\
    length res = length xs_rev /\ mul_prev_wf y prev' /\
    (prev <> None \/ xs_rev <> [] -> prev' <> None) /\
    bits_to_N (mul_zs y prev') * 2 ^ lenN xs_rev + bits_to_N res
    = lsb_to_N xs_rev * bits_to_N y + bits_to_N (mul_zs y prev).
Proof.
  intro Hne. induction xs_rev as [|xi r IH]; intros prev acc o Hwf.
  - exists [], prev. cbn [mul_rows app length lsb_to_N bits_to_N]. unfold ret.
    repeat split; try assumption; [intros [H|H]; congruence|]. rewrite lenN_nil. cbn. lia.
  - rewrite mul_rows_cons. unfold mbind.
    pose proof (mul_zs_length y prev Hne Hwf) as HLz.
    destruct (tsem_mul_row xi (rev (combine y (mul_zs y prev))) (wF tops) [] o)
      as (S & cf & HS & HL & HV).
    rewrite HS, app_nil_r. cbn iota beta.
    rewrite rev_length, combine_length_eq in HL by (now symmetry).
    rewrite lenN_rev, !map_rev, !lsb_to_N_rev in HV.
    rewrite map_fst_combine, map_snd_combine in HV by (now symmetry).
    unfold lenN in HV. rewrite combine_length_eq in HV by (now symmetry). fold (lenN y) in HV.
    change (N.b2n (wF tops)) with 0 in HV.
    destruct (IH (Some (S, cf)) (last S (wF tops) :: acc) o HL) as (res & prev' & HR & HLr & Hwf' & Hnn & HVr).
    exists (res ++ [last S (wF tops)]), prev'. rewrite <- app_assoc. cbn [app].
    split; [exact HR|]. split; [rewrite app_length; cbn [length]; lia|].
    split; [exact Hwf'|]. split.
    + intros _. apply Hnn. left. discriminate.
    + rewrite bits_to_N_snoc, lenN_cons, pow2_succ. cbn [lsb_to_N].
      cbn [mul_zs] in HVr.
      assert (S <> []) as HSne by (destruct S, y; cbn [length] in HL; congruence).
      pose proof (app_removelast_last (wF tops) HSne) as HSd.
      assert (bits_to_N S = 2 * bits_to_N (removelast S) + N.b2n (last S (wF tops))) as HSv.
      { rewrite HSd at 1. apply bits_to_N_snoc. }
      rewrite bits_to_N_cons in HVr.
      assert (2 * 2 ^ lenN (removelast S) = 2 ^ lenN y) as HP.
      { rewrite <- pow2_succ. f_equal. unfold lenN. rewrite <- HL. rewrite HSd at 2.
        rewrite app_length. cbn [length]. lia. }
      nia.
Qed.

(* the whole array: the low n bits of X * Y, and the OR of the bits above them *)
Lemma tsem_mul_core (x y : list bool) o : x <> [] -> length x = length y ->
  exists result sums0 c00,
    mul_rows tops (rev x) y None [] o = Ok ((result, Some (sums0, c00)), o) /\
    length result = length x /\
    bits_to_N result = (bits_to_N x * bits_to_N y) mod 2 ^ lenN x /\
    or_all_s c00 (removelast sums0) = (2 ^ lenN x <=? bits_to_N x * bits_to_N y).
Proof.
  intros Hne Hl. assert (y <> []) as Hyne by (destruct x, y; try discriminate; congruence).
  destruct (tsem_mul_rows y Hyne (rev x) None [] o I) as (res & prev' & HR & HLr & _ & Hnn & HV).
  rewrite app_nil_r in HR. rewrite rev_length in HLr.
  destruct prev' as [[sums0 c00]|].
  2:{ exfalso. apply Hnn; [|reflexivity]. right. destruct x; [congruence|].
      cbn [rev]. intro H. apply app_eq_nil in H. destruct H; discriminate. }
  exists res, sums0, c00. split; [exact HR|]. split; [exact HLr|].
  rewrite lenN_rev, lsb_to_N_rev in HV. cbn [mul_zs] in HV. rewrite bits_to_N_repeat_false, N.add_0_r in HV.
  pose proof (bits_to_N_lt res) as Hlt. rewrite (lenN_length _ _ HLr) in Hlt.
  pose proof (pow2_pos (lenN x)) as Hp.
  change (or_all_s c00 (removelast sums0)) with (or_all_s false (c00 :: removelast sums0)).
  rewrite or_all_s_spec. cbn [orb].
  remember (bits_to_N (c00 :: removelast sums0)) as Z eqn:EZ.
  destruct (divmod_unique (2 ^ lenN x) (bits_to_N res) Z (bits_to_N x * bits_to_N y) Hlt) as [Hm Hd]; [lia|].
  split; [exact Hm|].
  destruct (N.eqb_spec Z 0) as [E0|E0]; cbn [negb];
    destruct (N.leb_spec (2 ^ lenN x) (bits_to_N x * bits_to_N y)); try reflexivity; nia.
Qed.

(* x * y on unsigned operands: the low n bits of X Y; Overflow iff X Y >= 2^n *)
Theorem tsem_mul_unsigned (x y : list bool) m o : x <> [] -> length x = length y ->
  exists r,
    lower_mul tops false x y m o
    = Ok (r, push_spec o (2 ^ lenN x <=? bits_to_N x * bits_to_N y) Overflow (ploc_of m)) /\
    length r = length x /\
    bits_to_N r = (bits_to_N x * bits_to_N y) mod 2 ^ lenN x.
Proof.
  intros Hne Hl. destruct (tsem_mul_core x y o Hne Hl) as (res & sums0 & c00 & HR & HLr & HV & HO).
  exists res. split; [|split; assumption].
  unfold lower_mul. unfold mbind at 1. unfold ret at 1. cbn iota beta.
  unfold mbind at 1. rewrite HR. cbn iota beta.
  unfold mbind. cbn [of_option lift_res]. rewrite tsem_or_all_M, HO. reflexivity.
Qed.
Print Assumptions tsem_mul_unsigned.

Theorem tsem_binop_mul_unsigned t tx ty_ (x y : list bool) m o :
  is_signed t = false -> x <> [] -> length x = length y ->
  exists r,
    lower_binop tops OMul t tx ty_ x y m o
    = Ok (r, push_spec o (2 ^ lenN x <=? bits_to_N x * bits_to_N y) Overflow (ploc_of m)) /\
    length r = length x /\
    bits_to_N r = (bits_to_N x * bits_to_N y) mod 2 ^ lenN x.
Proof.
  intros Hs Hne Hl. rewrite lower_binop_same_length by assumption. rewrite Hs.
  now apply tsem_mul_unsigned.
Qed.
Print Assumptions tsem_binop_mul_unsigned.

(* ------------------------------------------------------------------ 4. signed multiplication *)

Lemma tsem_and_not_all : forall (ws : list bool) acc o,
  and_not_all tops acc ws o = Ok (acc && (bits_to_N ws =? 0), o).
Proof.
  induction ws as [|w r IH]; intros acc o; cbn [and_not_all].
  - unfold ret. cbn. now rewrite andb_true_r.
  - unfold mbind. change (m_not tops w o) with (Ok (negb w, o)). cbn iota beta.
    change (m_and tops acc (negb w) o) with (Ok (acc && negb w, o)). cbn iota beta.
    rewrite IH, bits_to_N_cons. f_equal. f_equal.
    pose proof (pow2_pos (lenN r)) as Hp.
    destruct w; cbn [negb N.b2n]; rewrite ?N.mul_1_l, ?N.mul_0_l, ?N.add_0_l.
    + rewrite andb_false_r. cbn [andb]. destruct (N.eqb_spec (2 ^ lenN r + bits_to_N r) 0); [lia|].
      now rewrite andb_false_r.
    + now rewrite andb_true_r.
Qed.

(* the overflow signal of the signed multiplier, arithmetically: A = |SP| is the unsigned
   product of the absolute values, R its low n bits, r0 / tlv the top bit and the rest of R *)
Lemma smul_overflow_arith (P Hh A R tlv : N) (SP : Z) (rn r0 : bool) :
  P = 2 * Hh -> 0 < Hh -> R = A mod P -> Z.of_N A = Z.abs SP ->
  (rn = true -> (SP <= 0)%Z) -> (rn = false -> (0 <= SP)%Z) ->
  N.b2n r0 = R / Hh -> tlv = R mod Hh ->
  ((P <=? A) || (r0 && (negb (tlv =? 0) || negb rn)))
  = negb ((- Z.of_N Hh <=? SP)%Z && (SP <? Z.of_N Hh)%Z).
Proof.
  intros HP HH HR HA Hn1 Hn0 Hr0 Htl.
  pose proof (N.div_mod R Hh) as Hdm. rewrite <- Hr0, <- Htl in Hdm. specialize (Hdm ltac:(lia)).
  assert (tlv < Hh) as Htlt by (subst tlv; apply N.mod_lt; lia).
  destruct (N.leb_spec P A) as [Hov|Hno]; cbn [orb].
  - symmetry. apply negb_true_iff, andb_false_iff.
    destruct (Z.leb_spec (- Z.of_N Hh) SP); [right|left; reflexivity].
    apply Z.ltb_ge. lia.
  - rewrite N.mod_small in HR by lia. subst R.
    destruct (Z.leb_spec (- Z.of_N Hh) SP); destruct (Z.ltb_spec SP (Z.of_N Hh));
      destruct (N.eqb_spec tlv 0); destruct r0, rn; cbn [N.b2n andb orb negb] in *;
      try specialize (Hn1 eq_refl); try specialize (Hn0 eq_refl); try reflexivity; exfalso; lia.
Qed.

(* the result bits: the product modulo 2^n *)
Lemma smul_value_arith (P A R : N) (SP : Z) (rn : bool) :
  0 < P -> R = A mod P -> Z.of_N A = Z.abs SP ->
  (rn = true -> (SP <= 0)%Z) -> (rn = false -> (0 <= SP)%Z) ->
  Z.of_N (if rn then (P - R) mod P else R) = (SP mod Z.of_N P)%Z.
Proof.
  intros HP HR HA Hn1 Hn0.
  assert (R < P) as HRlt by (subst R; apply N.mod_lt; lia).
  pose proof (N.div_mod A P ltac:(lia)) as Hdm. rewrite <- HR in Hdm.
  destruct rn.
  - specialize (Hn1 eq_refl). rewrite neg_mod_Z by assumption.
    assert (SP = - Z.of_N R + (- Z.of_N (A / P)) * Z.of_N P)%Z as -> by lia.
    rewrite Z.mod_add by lia. reflexivity.
  - specialize (Hn0 eq_refl).
    assert (SP = Z.of_N R + Z.of_N (A / P) * Z.of_N P)%Z as -> by lia.
    rewrite Z.mod_add by lia. symmetry. apply Z.mod_small. lia.
Qed.

Lemma mbind_ok {A C} (mm : M (Cs:=pobs) A) (k : A -> M (Cs:=pobs) C) s a s' :
  mm s = Ok (a, s') -> mbind mm k s = k a s'.
Proof. intro E. unfold mbind. now rewrite E. Qed.

Lemma tsem_hd_res (x : list bool) (o : pobs) : x <> [] ->
  lift_res (Cs:=pobs) (hd_res x) o = Ok (hd false x, o).
Proof. destruct x; [congruence|reflexivity]. Qed.

Theorem tsem_mul_signed (x y : list bool) m o : x <> [] -> length x = length y ->
  let SP := (bits_to_Z_signed x * bits_to_Z_signed y)%Z in
  let H := Z.of_N (2 ^ (lenN x - 1)) in
  exists r,
    lower_mul tops true x y m o
    = Ok (r, push_spec o (negb ((- H <=? SP)%Z && (SP <? H)%Z)) Overflow (ploc_of m)) /\
    length r = length x /\
    Z.of_N (bits_to_N r) = (SP mod Z.of_N (2 ^ lenN x))%Z /\
    ((- H <= SP < H)%Z -> bits_to_Z_signed r = SP).
Proof.
  intros Hne Hl SP H.
  assert (y <> []) as Hyne by (destruct x, y; try discriminate; congruence).
  destruct (neg_correct x) as [HLxn _]. destruct (neg_correct y) as [HLyn _].
  destruct (hd_mux_all_abs x Hne) as (HLxa & _ & HVxa).
  destruct (hd_mux_all_abs y Hyne) as (HLya & _ & HVya).
  rewrite mux_all_correct in HLxa, HVxa by exact HLxn.
  rewrite mux_all_correct in HLya, HVya by exact HLyn.
  remember (if hd false x then negation_s x else x) as xa eqn:Exa.
  remember (if hd false y then negation_s y else y) as ya eqn:Eya.
  assert (xa <> []) as Hxane by (destruct xa, x; try discriminate; congruence).
  destruct (tsem_mul_core xa ya o Hxane ltac:(lia)) as (res & sums0 & c00 & HR & HLr & HV & HO).
  unfold lower_mul.
  erewrite mbind_ok.
  2:{ erewrite mbind_ok by (apply tsem_hd_res; exact Hne).
      erewrite mbind_ok by (apply tsem_hd_res; exact Hyne).
      erewrite mbind_ok by reflexivity.
      erewrite mbind_ok by reflexivity.
      erewrite mbind_ok by (apply (tsem_map2_mux (hd false x)); exact HLxn).
      erewrite mbind_ok by (apply (tsem_map2_mux (hd false y)); exact HLyn).
      erewrite mbind_ok by reflexivity.
      rewrite <- Exa, <- Eya. reflexivity. }
  cbn iota beta.
  set (rn := xorb (hd false x) (hd false y)).
  assert (res <> []) as Hrne by (destruct res, xa; try discriminate; congruence).
  destruct (neg_correct res) as [HLrn HVrn].
  assert (lenN xa = lenN x) as ELa by (now apply lenN_length).
  assert (lenN res = lenN x) as ELr by (apply lenN_length; lia).
  rewrite ELa in HV, HO. rewrite ELr in HVrn.
  (* the arithmetic facts *)
  pose proof (pow2_half x Hne) as HPH. pose proof (pow2_pos (lenN x - 1)) as HHpos.
  assert (Z.of_N (bits_to_N xa * bits_to_N ya) = Z.abs SP) as HA.
  { unfold SP. rewrite N2Z.inj_mul, HVxa, HVya, Z.abs_mul. reflexivity. }
  assert ((rn = true -> (SP <= 0)%Z) /\ (rn = false -> (0 <= SP)%Z)) as [Hn1 Hn0].
  { destruct (signed_facts x Hne) as (HX & _ & _ & _ & HSX).
    destruct (signed_facts y Hyne) as (HY & _ & _ & _ & HSY). cbv zeta in *.
    assert (if hd false x then (bits_to_Z_signed x <= 0)%Z else (0 <= bits_to_Z_signed x)%Z) as Sx
      by (rewrite HSX; destruct (hd false x); lia).
    assert (if hd false y then (bits_to_Z_signed y <= 0)%Z else (0 <= bits_to_Z_signed y)%Z) as Sy
      by (rewrite HSY; destruct (hd false y); lia).
    unfold SP, rn. destruct (hd false x), (hd false y); cbn [xorb]; split; intro; try discriminate;
      auto using Z.mul_nonpos_nonpos, Z.mul_nonpos_nonneg, Z.mul_nonneg_nonpos, Z.mul_nonneg_nonneg. }
  assert (N.b2n (hd false res) = bits_to_N res / 2 ^ (lenN x - 1) /\
          bits_to_N (tl res) = bits_to_N res mod 2 ^ (lenN x - 1)) as [Hr0 Htl].
  { destruct res as [|r0 rt]; [congruence|]. cbn [hd tl].
    assert (lenN rt = lenN x - 1) as <- by (rewrite <- ELr, lenN_cons; lia).
    split; [apply bits_to_N_hd|apply bits_to_N_tl]. }
  exists (if rn then negation_s res else res). split; [|split; [|split]].
  - erewrite mbind_ok by exact HR. cbn iota beta.
    erewrite mbind_ok by reflexivity. cbn iota beta.
    erewrite mbind_ok by apply tsem_or_all_M.
    erewrite mbind_ok.
    2:{ erewrite mbind_ok by apply tsem_and_not_all.
        erewrite mbind_ok by (apply tsem_hd_res; exact Hrne).
        erewrite mbind_ok by reflexivity.
        erewrite mbind_ok by reflexivity.
        erewrite mbind_ok by reflexivity.
        erewrite mbind_ok by reflexivity.
        erewrite mbind_ok by reflexivity.
        erewrite mbind_ok by reflexivity.
        erewrite mbind_ok by (apply (tsem_map2_mux rn); exact HLrn).
        reflexivity. }
    cbn iota beta. unfold mbind, ret, m_panic_if. cbn [o_panic_if tops].
    f_equal. f_equal. f_equal. rewrite HO. change (wT tops) with true. cbn [andb].
    apply (smul_overflow_arith (2 ^ lenN x) (2 ^ (lenN x - 1)) (bits_to_N xa * bits_to_N ya)
             (bits_to_N res) (bits_to_N (tl res)) SP rn (hd false res)); assumption.
  - destruct rn; [rewrite HLrn|]; lia.
  - assert (bits_to_N (if rn then negation_s res else res)
            = if rn then (2 ^ lenN x - bits_to_N res) mod 2 ^ lenN x else bits_to_N res) as ->
      by (destruct rn; [exact HVrn|reflexivity]).
    apply (smul_value_arith (2 ^ lenN x) (bits_to_N xa * bits_to_N ya)); try assumption.
    apply pow2_pos.
  - intro Hrange.
    assert ((if rn then negation_s res else res) <> []) as Hne'.
    { destruct rn; [|exact Hrne]. destruct (negation_s res), res; try discriminate; congruence. }
    assert (lenN (if rn then negation_s res else res) = lenN x) as EL'.
    { destruct rn; [|exact ELr]. rewrite <- ELr. now apply lenN_length. }
    apply signed_of_mod; [exact Hne'|rewrite EL'; exact Hrange|]. rewrite EL'.
    assert (bits_to_N (if rn then negation_s res else res)
            = if rn then (2 ^ lenN x - bits_to_N res) mod 2 ^ lenN x else bits_to_N res) as ->
      by (destruct rn; [exact HVrn|reflexivity]).
    apply (smul_value_arith (2 ^ lenN x) (bits_to_N xa * bits_to_N ya)); try assumption.
    apply pow2_pos.
Qed.
Print Assumptions tsem_mul_signed.

Theorem tsem_binop_mul_signed t tx ty_ (x y : list bool) m o :
  is_signed t = true -> x <> [] -> length x = length y ->
  let SP := (bits_to_Z_signed x * bits_to_Z_signed y)%Z in
  let H := Z.of_N (2 ^ (lenN x - 1)) in
  exists r,
    lower_binop tops OMul t tx ty_ x y m o
    = Ok (r, push_spec o (negb ((- H <=? SP)%Z && (SP <? H)%Z)) Overflow (ploc_of m)) /\
    length r = length x /\
    Z.of_N (bits_to_N r) = (SP mod Z.of_N (2 ^ lenN x))%Z /\
    ((- H <= SP < H)%Z -> bits_to_Z_signed r = SP).
Proof.
  intros Hs Hne Hl. rewrite lower_binop_same_length by assumption. rewrite Hs.
  now apply tsem_mul_signed.
Qed.
Print Assumptions tsem_binop_mul_signed.

(* ------------------------------------------------------------------ in the vocabulary of Lang/Sem.v *)

(* the two's-complement reading of the n-bit encoding of v mod 2^n is [wrap true n v] *)
Lemma signed_wrap (l : list bool) (v : Z) : l <> [] ->
  Z.of_N (bits_to_N l) = (v mod 2 ^ Z.of_N (lenN l))%Z ->
  bits_to_Z_signed l = Sem.wrap true (lenN l) v.
Proof.
  intros Hne Hm. destruct (signed_facts l Hne) as (HX & HP & H1 & H0 & HS). cbv zeta in *.
  unfold Sem.wrap. cbn [andb]. rewrite <- Hm, HS.
  pose proof (pow2_half l Hne) as HPH.
  assert (2 ^ Z.of_N (lenN l) = Z.of_N (2 ^ lenN l))%Z as -> by (now rewrite N2Z.inj_pow).
  assert (2 ^ (Z.of_N (lenN l) - 1) = Z.of_N (2 ^ (lenN l - 1)))%Z as ->.
  { rewrite N2Z.inj_pow. f_equal. destruct l; [congruence|]. rewrite lenN_cons. lia. }
  destruct (Z.leb_spec (Z.of_N (2 ^ (lenN l - 1))) (Z.of_N (bits_to_N l)));
    destruct (hd false l); try specialize (H1 eq_refl); try specialize (H0 eq_refl); lia.
Qed.

Lemma in_range_signed_pow (n : N) (z : Z) : 1 <= n ->
  Sem.in_range true n z = ((- Z.of_N (2 ^ (n - 1)) <=? z)%Z && (z <? Z.of_N (2 ^ (n - 1)))%Z).
Proof.
  intro Hn. unfold Sem.in_range. rewrite N2Z.inj_pow. change (Z.of_N 2) with 2%Z.
  replace (Z.of_N (n - 1)) with (Z.of_N n - 1)%Z by lia. reflexivity.
Qed.

Lemma in_range_unsigned_pow (n a : N) :
  Sem.in_range false n (Z.of_N a) = negb (2 ^ n <=? a).
Proof.
  unfold Sem.in_range. rewrite <- (N2Z.inj_pow 2).
  destruct (Z.leb_spec 0 (Z.of_N a)); [|lia]. cbn [andb].
  destruct (Z.ltb_spec (Z.of_N a) (Z.of_N (2 ^ n))); destruct (N.leb_spec (2 ^ n) a);
    try reflexivity; lia.
Qed.

(* the value of an n-bit vector as an integer of the given signedness *)
Definition int_val (sg : bool) (l : list bool) : Z :=
  if sg then bits_to_Z_signed l else Z.of_N (bits_to_N l).

(* x * y as compiled is the checked multiplication of Lang/Sem.v: the result is the wrapped
   product and the Overflow panic is raised exactly when the product is not [in_range] *)
Theorem tsem_binop_mul_checked t tx ty_ (x y : list bool) m o :
  x <> [] -> length x = length y ->
  let sg := is_signed t in let n := lenN x in
  let p := (int_val sg x * int_val sg y)%Z in
  exists r,
    lower_binop tops OMul t tx ty_ x y m o
    = Ok (r, push_spec o (negb (Sem.in_range sg n p)) Overflow (ploc_of m)) /\
    length r = length x /\
    int_val sg r = Sem.wrap sg n p.
Proof.
  intros Hne Hl sg n p. subst sg p. unfold int_val.
  assert (1 <= lenN x) as Hn1 by (destruct x; [congruence|rewrite lenN_cons; lia]).
  destruct (is_signed t) eqn:Hs.
  - destruct (tsem_binop_mul_signed t tx ty_ x y m o Hs Hne Hl) as (r & HE & HL & HV & _).
    exists r. subst n. rewrite in_range_signed_pow by exact Hn1.
    split; [exact HE|]. split; [exact HL|].
    assert (r <> []) as Hrne by (destruct r, x; try discriminate; congruence).
    rewrite <- (lenN_length _ _ HL). apply signed_wrap; [exact Hrne|].
    rewrite HV, (lenN_length _ _ HL), N2Z.inj_pow. reflexivity.
  - destruct (tsem_binop_mul_unsigned t tx ty_ x y m o Hs Hne Hl) as (r & HE & HL & HV).
    exists r. subst n. rewrite <- N2Z.inj_mul, in_range_unsigned_pow, negb_involutive.
    split; [exact HE|]. split; [exact HL|].
    unfold Sem.wrap. cbn [andb]. rewrite HV, N2Z.inj_mod, N2Z.inj_pow. reflexivity.
Qed.
Print Assumptions tsem_binop_mul_checked.

(* ------------------------------------------------------------------ the shift case of the expression lowering *)

Theorem tsem_shift_expr P rec_e rec_p rec_b (left : bool) x y m t E o xw E1 o1 yw E2 o2 :
  rec_e x E o = Ok ((xw, E1), o1) -> rec_e y E1 o1 = Ok ((yw, E2), o2) ->
  length yw = 8%nat -> In (length xw) [8; 16; 32; 64]%nat ->
  lower_expr_body tops P rec_e rec_p rec_b (Ex (EOp (if left then OShl else OShr) x y) m t) E o
  = Ok ((shift_once tops left (shift_fill left (is_signed (e_ty x)) xw) xw (N.to_nat (bits_to_N yw)), E2),
        push_spec o2 (lenN xw <=? bits_to_N yw) Overflow (ploc_of m)).
Proof.
  intros Hx Hy Hl8 Hin.
  assert (forall A (k : list bool -> M (Cs:=pobs) A),
    mbind (lower_shift tops left (is_signed (e_ty x)) xw yw m) k o2
    = k (shift_once tops left (shift_fill left (is_signed (e_ty x)) xw) xw (N.to_nat (bits_to_N yw)))
        (push_spec o2 (lenN xw <=? bits_to_N yw) Overflow (ploc_of m))) as Hk.
  { intros A k. apply mbind_ok. now apply tsem_lower_shift. }
  destruct left; cbn [lower_expr_body]; unfold mbind at 1; rewrite Hx; cbn iota beta;
    unfold mbind at 1; rewrite Hy; cbn iota beta; rewrite Hk; reflexivity.
Qed.
Print Assumptions tsem_shift_expr.
