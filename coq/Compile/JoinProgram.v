(* For-join programs (Compile/TSemSemFullJoin.v) with the other program-level results: accepted by
   the re-checker Wt.v, enough fuel for Sem.v -- the run of Sem.v ends with the bits or the panic
   the bit-level semantics shows, under the run-time precondition [join_inputs_sorted].
   The remaining disjunct (a pattern-match Stuck code) is the one of [wt_covered_fuel_agrees]:
   [frag_program] is false on every program with a for-join loop; the exhaustiveness results of
   Exhaust/ are stated for the checker with calls ([scf2_*]), which rejects `join`, and do not
   cover this shape.
   The circuit-level theorem of Compile/EndToEnd.v needs the crash-freedom of the lowering
   (Compile/TSemSafe.v), which excludes for-join loops; the one for these programs is in
   Compile/EndToEndJoin.v. *)
From Coq Require Import Lia ZArith List. Import ListNotations.
From GV Require Import Base.Util Lang.Ast Lang.Wt Lang.ValTy Panic.PanicRec Panic.PanicSem Compile.Lower Compile.TSem
  Compile.TSemSemExpr Compile.TSemSemFull Compile.TSemSemJoin Compile.TSemSemFullJoin Compile.TSemSemFullWt Compile.SemFuel.
From GV Require Lang.Sem.

Definition join_covered (fw : nat) (P : program) : bool :=
  join_main_ok fw P && wt_program P && main_ret_fits P.

Lemma join_main_ok_small fw P : join_main_ok fw P = true -> enums_small P = true.
Proof.
  unfold join_main_ok. destruct (p_consts P); [|discriminate].
  destruct (main_join_site P) as [[[[d pre] js] post]|]; [|discriminate].
  intro H. apply andb_prop in H. destruct H as [H _]. apply andb_prop in H. destruct H as [H _]. exact H.
Qed.

Theorem join_covered_agrees P fuel fw fT args o outs :
  join_covered fw P = true -> sem_fuel_enough fuel P = true ->
  join_inputs_sorted P args -> canonical_main_args P args = true ->
  tsem_program fT P args = Ok (o, outs) ->
  (exists bits l, Sem.run_main fuel P args = Sem.RunOk bits l /\ o = None /\ outs = bits) \/
  (exists r m, Sem.run_main fuel P args = Sem.RunPanic r m /\ o = Some (preason_num (pr r), ploc32 (ploc_of m))) \/
  (frag_program P = false /\ exists c, Sem.run_main fuel P args = Sem.RunStuck c /\ In c stuck_allowed).
Proof.
  intros Hc Hf Hs Hcan Hrun. unfold join_covered in Hc. apply andb_prop in Hc. destruct Hc as [Hc Hfit].
  apply andb_prop in Hc. destruct Hc as [Hj Hwt].
  pose proof (tsem_sem_program_join P (join_main_ok_small fw P Hj) fuel fw fT args o outs Hj Hs Hcan Hrun) as Hobs.
  pose proof (run_main_no_nofuel P fuel args Hf) as Hn.
  destruct (agree_obs_cases P fuel args o outs Hwt Hfit Hcan Hobs) as [H|[H|[H|H]]]; auto. contradiction.
Qed.
Print Assumptions join_covered_agrees.

(* a program of tools/gen_join.py (LoopProgram, key u8, with the overflowing addition), as exported by the real checker:
   pub fn main(a: [(u8, u8); 3], b: [(u8, u8); 1]) -> (u64, u8, bool) {
       let mut acc = 1u64;
       let mut cnt = 0u8;
       let mut ok = true;
       for joined in join_iter(a, b) {
           let ((ka, x0), (kb, y0)) = joined;
           let s = x0 + y0;
           acc = acc * 31u64 + (x0 as u64) * 3u64 + (y0 as u64) * 5u64 + (s as u64);
           cnt = cnt + 1u8;
           ok = ok & (ka == kb);
       }
       (acc, cnt, ok)
   }
   
*)
Local Open Scope N_scope.
Definition gen_join_loop : program := (mkProgram [] [] [(mkFn 7 [(0, (TArr (TTup [(TInt false 8); (TInt false 8)]) 3)); (2, (TArr (TTup [(TInt false 8); (TInt false 8)]) 1))] (TTup [(TInt false 64); (TInt false 8); TBool]) [(St (SLetMut 1 (Ex (ENumU 1 64) (mkMeta 1 18 1 22) (TInt false 64))) (mkMeta 1 4 1 22)); (St (SLetMut 3 (Ex (ENumU 0 8) (mkMeta 2 18 2 21) (TInt false 8))) (mkMeta 2 4 2 21)); (St (SLetMut 8 (Ex ETrue (mkMeta 3 17 3 21) TBool)) (mkMeta 3 4 3 21)); (St (SJoinLoop (Pat (PId 4) (mkMeta 4 8 4 14) (TTup [(TTup [(TInt false 8); (TInt false 8)]); (TTup [(TInt false 8); (TInt false 8)])])) (TInt false 8) (Ex (EId 0) (mkMeta 4 28 4 29) (TArr (TTup [(TInt false 8); (TInt false 8)]) 3)) (Ex (EId 2) (mkMeta 4 31 4 32) (TArr (TTup [(TInt false 8); (TInt false 8)]) 1)) [(St (SLet (Pat (PTup [(Pat (PTup [(Pat (PId 5) (mkMeta 5 14 5 16) (TInt false 8)); (Pat (PId 10) (mkMeta 5 18 5 20) (TInt false 8))]) (mkMeta 5 13 5 21) (TTup [(TInt false 8); (TInt false 8)])); (Pat (PTup [(Pat (PId 6) (mkMeta 5 24 5 26) (TInt false 8)); (Pat (PId 11) (mkMeta 5 28 5 30) (TInt false 8))]) (mkMeta 5 23 5 31) (TTup [(TInt false 8); (TInt false 8)]))]) (mkMeta 5 12 5 32) (TTup [(TTup [(TInt false 8); (TInt false 8)]); (TTup [(TInt false 8); (TInt false 8)])])) (Ex (EId 4) (mkMeta 5 35 5 41) (TTup [(TTup [(TInt false 8); (TInt false 8)]); (TTup [(TInt false 8); (TInt false 8)])]))) (mkMeta 5 8 5 41)); (St (SLet (Pat (PId 9) (mkMeta 6 12 6 13) (TInt false 8)) (Ex (EOp OAdd (Ex (EId 10) (mkMeta 6 16 6 18) (TInt false 8)) (Ex (EId 11) (mkMeta 6 21 6 23) (TInt false 8))) (mkMeta 6 16 6 23) (TInt false 8))) (mkMeta 6 8 6 23)); (St (SAssign 1 [] (Ex (EOp OAdd (Ex (EOp OAdd (Ex (EOp OAdd (Ex (EOp OMul (Ex (EId 1) (mkMeta 7 14 7 17) (TInt false 64)) (Ex (ENumU 31 64) (mkMeta 7 20 7 25) (TInt false 64))) (mkMeta 7 14 7 25) (TInt false 64)) (Ex (EOp OMul (Ex (ECast (TInt false 64) (Ex (EId 10) (mkMeta 7 29 7 31) (TInt false 8))) (mkMeta 7 29 7 38) (TInt false 64)) (Ex (ENumU 3 64) (mkMeta 7 42 7 46) (TInt false 64))) (mkMeta 7 29 7 46) (TInt false 64))) (mkMeta 7 14 7 46) (TInt false 64)) (Ex (EOp OMul (Ex (ECast (TInt false 64) (Ex (EId 11) (mkMeta 7 50 7 52) (TInt false 8))) (mkMeta 7 50 7 59) (TInt false 64)) (Ex (ENumU 5 64) (mkMeta 7 63 7 67) (TInt false 64))) (mkMeta 7 50 7 67) (TInt false 64))) (mkMeta 7 14 7 67) (TInt false 64)) (Ex (ECast (TInt false 64) (Ex (EId 9) (mkMeta 7 71 7 72) (TInt false 8))) (mkMeta 7 71 7 79) (TInt false 64))) (mkMeta 7 14 7 79) (TInt false 64))) (mkMeta 7 8 7 79)); (St (SAssign 3 [] (Ex (EOp OAdd (Ex (EId 3) (mkMeta 8 14 8 17) (TInt false 8)) (Ex (ENumU 1 8) (mkMeta 8 20 8 23) (TInt false 8))) (mkMeta 8 14 8 23) (TInt false 8))) (mkMeta 8 8 8 23)); (St (SAssign 8 [] (Ex (EOp OBitAnd (Ex (EId 8) (mkMeta 9 13 9 15) TBool) (Ex (EOp OEq (Ex (EId 5) (mkMeta 9 19 9 21) (TInt false 8)) (Ex (EId 6) (mkMeta 9 25 9 27) (TInt false 8))) (mkMeta 9 19 9 27) TBool)) (mkMeta 9 13 9 27) TBool)) (mkMeta 9 8 9 27))]) (mkMeta 4 4 10 5)); (St (SExpr (Ex (ETupLit [(Ex (EId 1) (mkMeta 11 5 11 8) (TInt false 64)); (Ex (EId 3) (mkMeta 11 10 11 13) (TInt false 8)); (Ex (EId 8) (mkMeta 11 15 11 17) TBool)]) (mkMeta 11 4 11 18) (TTup [(TInt false 64); (TInt false 8); TBool]))) (mkMeta 11 4 11 18))])] [] 7).

Example gen_join_loop_covered : join_covered 400 gen_join_loop = true /\ sem_fuel_enough 2000 gen_join_loop = true.
Proof. vm_compute. split; reflexivity. Qed.
