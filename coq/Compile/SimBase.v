(* The simulation framework between the two instances of the generic lowering:
     A = Lower.bops  (wires are builder wire numbers, state = gate store + panic record)
     B = TSem.tops   (wires are Booleans, state = the observable content of the panic record)
   for one fixed input assignment [inp].  [sim s o mA mB Q]: whenever the Boolean run mB
   succeeds from o, the builder run mA succeeds from s, extends the gate store, keeps the
   state relation and relates the two results by Q.  All value relations are monotone in the
   gate store (old wires keep their meaning), which is what lets the pieces compose. *)
From GV Require Import Base.Util Base.NMap Lang.Ast Builder.Builder Builder.BuilderSem Builder.BuilderSpec
  Gadgets.Gadgets Gadgets.GadgetSpec Gadgets.GadgetHoare Sort.Sort Sort.SortHoare
  Panic.PanicRec Panic.PanicSem Panic.PanicProofs Compile.Lower Compile.TSem Compile.ParamBase.

Section F2U.
  Context {A B : Type} (R : A -> B -> Prop).

  Lemma F2_hd l1 l2 d1 d2 : Forall2 R l1 l2 -> R d1 d2 -> R (hd d1 l1) (hd d2 l2).
  Proof. apply ParamBase.F2_hd. Qed.
End F2U.

(* ------------------------------------------------------------------ the relations *)

Section Sim.
Variable inv : builder -> Prop.
Hypothesis ops : builder_ops_sound inv.
Variable inp : list bool.

Definition extS (s s' : cst) : Prop := ext (cb s) (cb s').

Definition Rw (s : cst) (w : N) (v : bool) : Prop := valid (cb s) w /\ den inp (cb s) w = v.
Definition Rws (s : cst) : list N -> list bool -> Prop := Forall2 (Rw s).
Definition Rwss (s : cst) : list (list N) -> list (list bool) -> Prop := Forall2 (Rws s).

Definition RP (s : cst) (PA : pstate) (o : pobs) : Prop :=
  pstate_ok (cb s) PA /\ obs inp (cb s) (ps_rec PA) = o.

Definition RS (s : cst) (o : pobs) : Prop :=
  inv (cb s) /\ ins_ok (cb s) inp /\ RP s (cp s) o.

Definition Rbind (s : cst) (a : N * list N) (b : N * list bool) : Prop :=
  fst a = fst b /\ Rws s (snd a) (snd b).
Definition Rscope (s : cst) : @scope N -> @scope bool -> Prop := Forall2 (Rbind s).
Definition RE (s : cst) : @cenv N -> @cenv bool -> Prop := Forall2 (Rscope s).

Lemma extS_refl s : extS s s.
Proof. apply ext_refl. Qed.
Lemma extS_trans s1 s2 s3 : extS s1 s2 -> extS s2 s3 -> extS s1 s3.
Proof. apply ext_trans. Qed.

Lemma RS_ins s o : RS s o -> ins_ok (cb s) inp.
Proof. intros (_ & H & _). exact H. Qed.
Lemma RS_inv s o : RS s o -> inv (cb s).
Proof. intros (H & _). exact H. Qed.

Lemma Rw_mono s s' w v : extS s s' -> ins_ok (cb s) inp -> Rw s w v -> Rw s' w v.
Proof.
  intros E Hi [Hv Hd]. split; [eapply ext_valid; eauto|].
  rewrite (ext_den _ _ _ _ E Hi Hv). exact Hd.
Qed.

Lemma RP_mono s s' PA o : extS s s' -> ins_ok (cb s) inp -> RP s PA o -> RP s' PA o.
Proof.
  intros E Hi [Hok Ho]. split; [eapply pstate_ok_ext; eauto|].
  destruct Hok as (_ & Hv & _). rewrite (obs_ext _ _ _ _ E Hi Hv). exact Ho.
Qed.

Lemma Rw_valid s w v : Rw s w v -> valid (cb s) w.
Proof. intros [H _]. exact H. Qed.
Lemma Rws_valids s ws vs : Rws s ws vs -> valids (cb s) ws.
Proof. induction 1; constructor; auto. eapply Rw_valid; eauto. Qed.
Lemma Rws_dens s ws vs : Rws s ws vs -> dens inp (cb s) ws = vs.
Proof. induction 1 as [|w v ws vs [_ Hd] _ IH]; cbn; [reflexivity|]. rewrite Hd. f_equal. exact IH. Qed.
Lemma Rws_of s ws : valids (cb s) ws -> Rws s ws (dens inp (cb s) ws).
Proof. induction 1; cbn; constructor; auto. split; auto. Qed.
Lemma Rws_length s ws vs : Rws s ws vs -> length ws = length vs.
Proof. apply F2_length. Qed.

Lemma Rw_const0 s o : RS s o -> Rw s 0 false.
Proof.
  intros (Hi & Hin & _). split; [apply (bs_consts_valid inv ops _ Hi)|].
  apply (bs_const0 inv ops); auto.
Qed.
Lemma Rw_const1 s o : RS s o -> Rw s 1 true.
Proof.
  intros (Hi & Hin & _). split; [apply (bs_consts_valid inv ops _ Hi)|].
  apply (bs_const1 inv ops); auto.
Qed.

(* ------------------------------------------------------------------ the simulation triple *)

Definition MA (X : Type) := cst -> res (X * cst).
Definition MB (Y : Type) := pobs -> res (Y * pobs).

Definition sim {X Y} (s : cst) (o : pobs) (mA : MA X) (mB : MB Y) (Q : cst -> X -> Y -> Prop) : Prop :=
  forall y o', mB o = Ok (y, o') ->
  exists x s', mA s = Ok (x, s') /\ extS s s' /\ RS s' o' /\ Q s' x y.

Lemma sim_conseq {X Y} s o (mA : MA X) (mB : MB Y) (Q Q' : cst -> X -> Y -> Prop) :
  sim s o mA mB Q -> (forall s' x y, extS s s' -> ins_ok (cb s') inp -> Q s' x y -> Q' s' x y) ->
  sim s o mA mB Q'.
Proof.
  intros H HQ y o' E. destruct (H y o' E) as (x & s' & EA & E1 & HS & Hq).
  exists x, s'. split; [exact EA|]. split; [exact E1|]. split; [exact HS|].
  apply HQ; auto. eapply RS_ins; eauto.
Qed.

(* a request to the gate store: the panic record is untouched *)
Lemma RS_liftb s o b' : RS s o -> inv b' -> ext (cb s) b' -> RS (mkCst b' (cp s)) o.
Proof.
  intros (Hi & Hin & HP) Hi' E. split; [exact Hi'|]. split; [eapply ext_ins_ok; eauto|].
  cbn [cp]. eapply (RP_mono s); eauto.
Qed.

Lemma sim_liftb {X Y} s o (f : builder -> res (X * builder)) (y : Y) (Q : cst -> X -> Y -> Prop) :
  RS s o ->
  (exists r b', f (cb s) = Ok (r, b') /\ inv b' /\ ext (cb s) b' /\ Q (mkCst b' (cp s)) r y) ->
  sim s o (liftb f) (tret y) Q.
Proof.
  intros HS (r & b' & E & Hi' & Ex & HQ) y' o' H. unfold tret in H. injection H as <- <-.
  exists r, (mkCst b' (cp s)). unfold liftb. rewrite E. cbn [bind].
  split; [reflexivity|]. split; [exact Ex|]. split; [apply RS_liftb; auto|exact HQ].
Qed.

End Sim.
