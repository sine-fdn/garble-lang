(* Sizes of types.  On a type explored within f <= [Sem.ty_fuel] ([ty_ok f P t], Lang/ValTy.v)
   the fuel of [Sem.sizeof] is not reached, so [Sem.sizeof] satisfies the equations of
   [Sem.size_of] with itself on the components ([sizeof_unfold]).  The forms in nat are the
   ones Compile/Lower.v computes offsets with: [szn], the running sum of [tuple_offsets], the
   maximum of [enum_max_size]. *)
From Coq Require Import Lia.
From GV Require Import Base.Util Lang.Ast Lang.ValTy Lang.WtSound Lang.WtShape Compile.Lower.
From GV Require Lang.Sem.
Local Open Scope nat_scope.

Lemma ty_ok_mono P : forall f t, ty_ok f P t = true -> forall g, f <= g -> ty_ok g P t = true.
Proof.
  induction f as [|f IH]; intros t H g Hg; [discriminate H|].
  destruct g as [|g]; [lia|]. assert (Hfg : f <= g) by lia.
  destruct t as [| |el n|ts|name|name]; cbn [ty_ok] in H |- *.
  - reflexivity.
  - reflexivity.
  - exact (IH _ H _ Hfg).
  - rewrite forallb_forall in H |- *. intros a Ha. exact (IH _ (H a Ha) _ Hfg).
  - destruct (assocN name (p_structs P)) as [fields|]; [|discriminate H].
    rewrite forallb_forall in H |- *. intros a Ha. exact (IH _ (H a Ha) _ Hfg).
  - destruct (assocN name (p_enums P)) as [variants|]; [|discriminate H].
    rewrite forallb_forall in H |- *. intros ts Hts. specialize (H ts Hts).
    rewrite forallb_forall in H |- *. intros a Ha. exact (IH _ (H a Ha) _ Hfg).
Qed.

Lemma size_of_ge P f t : ty_ok f P t = true -> forall g, f <= g ->
  Sem.size_of g P t = Sem.size_of f P t.
Proof.
  intros H g Hg. induction Hg as [|g Hg IH]; [reflexivity|].
  rewrite size_of_stable; [exact IH|]. exact (ty_ok_mono P f t H g Hg).
Qed.

Lemma sizeof_eq P f t : ty_ok f P t = true -> f <= Sem.ty_fuel -> Sem.sizeof P t = Sem.size_of f P t.
Proof. intros H Hf. exact (size_of_ge P f t H _ Hf). Qed.

Lemma szn_eq P f t : ty_ok f P t = true -> f <= Sem.ty_fuel -> szn P t = N.to_nat (Sem.size_of f P t).
Proof. intros H Hf. unfold szn. now rewrite (sizeof_eq P f t H Hf). Qed.

(* the components of a type explored within f are explored within f *)
Lemma ty_ok_arr P f el n : ty_ok f P (TArr el n) = true -> ty_ok f P el = true.
Proof.
  destruct f as [|f]; [discriminate|]. intro H. cbn [ty_ok] in H. apply (ty_ok_mono P f el H). lia.
Qed.

Lemma ty_ok_tup P f ts : ty_ok f P (TTup ts) = true -> Forall (fun t => ty_ok f P t = true) ts.
Proof.
  destruct f as [|f]; [discriminate|]. intro H. cbn [ty_ok] in H. rewrite forallb_forall in H.
  apply Forall_forall. intros a Ha. apply (ty_ok_mono P f a (H a Ha)). lia.
Qed.

Lemma ty_ok_struct P f name : ty_ok f P (TStruct name) = true ->
  exists def, assocN name (p_structs P) = Some def /\ Forall (fun t => ty_ok f P t = true) (map snd def).
Proof.
  destruct f as [|f]; [discriminate|]. intro H. cbn [ty_ok] in H.
  destruct (assocN name (p_structs P)) as [def|]; [|discriminate H]. exists def. split; [reflexivity|].
  rewrite forallb_forall in H. apply Forall_forall. intros a Ha.
  apply in_map_iff in Ha as (nt & <- & Hnt). apply (ty_ok_mono P f _ (H nt Hnt)). lia.
Qed.

Lemma ty_ok_enum P f name : ty_ok f P (TEnum name) = true ->
  exists variants, assocN name (p_enums P) = Some variants /\
    Forall (Forall (fun t => ty_ok f P t = true)) variants.
Proof.
  destruct f as [|f]; [discriminate|]. intro H. cbn [ty_ok] in H.
  destruct (assocN name (p_enums P)) as [variants|]; [|discriminate H]. exists variants. split; [reflexivity|].
  rewrite forallb_forall in H. apply Forall_forall. intros ts Hts. specialize (H ts Hts).
  rewrite forallb_forall in H. apply Forall_forall. intros a Ha. apply (ty_ok_mono P f a (H a Ha)). lia.
Qed.

Lemma ty_ok_struct_def P f name def : ty_ok f P (TStruct name) = true ->
  assocN name (p_structs P) = Some def -> Forall (fun t => ty_ok f P t = true) (map snd def).
Proof. intros H Hd. destruct (ty_ok_struct P f name H) as (def' & Hd' & Hall). congruence. Qed.

Lemma ty_ok_enum_variant P f name variants tag ts : ty_ok f P (TEnum name) = true ->
  assocN name (p_enums P) = Some variants -> nthN variants tag = Some ts ->
  Forall (fun t => ty_ok f P t = true) ts.
Proof.
  intros H Hd Ht. destruct (ty_ok_enum P f name H) as (variants' & Hd' & Hall).
  assert (variants' = variants) as -> by congruence.
  rewrite Forall_forall in Hall. apply Hall. eapply nthN_In. exact Ht.
Qed.

Lemma sizeof_unfold P f t : ty_ok f P t = true -> f <= Sem.ty_fuel ->
  Sem.sizeof P t =
  match t with
  | TBool => 1%N
  | TInt _ bits => bits
  | TArr el n => (Sem.sizeof P el * n)%N
  | TTup ts => Sem.sum_map (Sem.sizeof P) ts
  | TStruct name =>
      match assocN name (p_structs P) with
      | Some fields => Sem.sum_map (fun nt => Sem.sizeof P (snd nt)) fields
      | None => 0%N
      end
  | TEnum name =>
      match assocN name (p_enums P) with
      | Some variants =>
          (Sem.tag_bits (lenN variants)
           + fold_right N.max 0 (map (fun ts => Sem.sum_map (Sem.sizeof P) ts) variants))%N
      | None => 0%N
      end
  end.
Proof.
  intros H Hf. destruct f as [|f]; [discriminate H|].
  rewrite (sizeof_eq P (S f) t H Hf), size_of_eq.
  assert (E : forall a, ty_ok f P a = true -> Sem.size_of f P a = Sem.sizeof P a).
  { intros a Ha. symmetry. apply sizeof_eq; [exact Ha|lia]. }
  destruct t as [| |el n|ts|name|name]; cbn [ty_ok] in H; try reflexivity.
  - now rewrite E.
  - apply sum_map_ext. intros a Ha. apply E. rewrite forallb_forall in H. now apply H.
  - destruct (assocN name (p_structs P)) as [fields|]; [|reflexivity].
    apply sum_map_ext. intros a Ha. apply E. rewrite forallb_forall in H. now apply H.
  - destruct (assocN name (p_enums P)) as [variants|]; [|reflexivity]. f_equal. f_equal.
    apply map_ext_in. intros ts Hts. apply sum_map_ext. intros a Ha. apply E.
    rewrite forallb_forall in H. specialize (H ts Hts). rewrite forallb_forall in H. now apply H.
Qed.

Lemma fold_left_add {A} (g : A -> nat) l : forall a,
  fold_left (fun a t => a + g t) l a = a + list_sum (map g l).
Proof.
  induction l as [|x l IH]; intro a; cbn [fold_left map].
  - change (list_sum []) with O. lia.
  - rewrite IH. change (list_sum (g x :: map g l)) with (g x + list_sum (map g l)). lia.
Qed.

Lemma to_nat_sum_map {A} (h : A -> N) l :
  N.to_nat (Sem.sum_map h l) = list_sum (map (fun a => N.to_nat (h a)) l).
Proof.
  induction l as [|a l IH]; [reflexivity|]. cbn [Sem.sum_map map].
  change (list_sum (N.to_nat (h a) :: map (fun a => N.to_nat (h a)) l))
    with (N.to_nat (h a) + list_sum (map (fun a => N.to_nat (h a)) l)). rewrite <- IH. lia.
Qed.

Lemma to_nat_fold_max {A} (h : A -> N) l :
  N.to_nat (fold_right N.max 0%N (map h l)) = fold_right Nat.max 0 (map (fun a => N.to_nat (h a)) l).
Proof. induction l as [|a l IH]; [reflexivity|]. cbn [map fold_right]. rewrite <- IH. lia. Qed.

Lemma fold_right_max_ge l x : In x l -> x <= fold_right Nat.max 0 l.
Proof.
  induction l as [|a l IH]; cbn [In fold_right]; [contradiction|].
  intros [->|H]; [lia|]. specialize (IH H). lia.
Qed.

(* the loop of [enum_max_size] *)
Lemma fold_left_max P l : forall a,
  fold_left (fun mx ts => let s := fold_left (fun a t => a + szn P t) ts 0 in if mx <? s then s else mx) l a
  = Nat.max a (fold_right Nat.max 0 (map (fun ts => list_sum (map (szn P) ts)) l)).
Proof.
  induction l as [|ts l IH]; intro a; cbn [fold_left map fold_right]; [lia|].
  rewrite IH. cbv zeta. rewrite fold_left_add. cbn [Nat.add]. destruct (Nat.ltb_spec a (list_sum (map (szn P) ts))); lia.
Qed.

Lemma enum_max_size_max P variants :
  enum_max_size P variants =
  fold_right Nat.max 0 (map (fun ts => list_sum (map (szn P) ts)) variants) + enum_tag_size variants.
Proof. unfold enum_max_size. rewrite fold_left_max. lia. Qed.

Lemma enum_variant_fits P variants tag ts : nthN variants tag = Some ts ->
  enum_tag_size variants + list_sum (map (szn P) ts) <= enum_max_size P variants.
Proof.
  intro H. rewrite enum_max_size_max.
  enough (list_sum (map (szn P) ts) <= fold_right Nat.max 0 (map (fun ts => list_sum (map (szn P) ts)) variants)) by lia.
  apply fold_right_max_ge. apply (in_map (fun ts => list_sum (map (szn P) ts))). eapply nthN_In. exact H.
Qed.

Lemma sum_size_of P f ts : Forall (fun t => ty_ok f P t = true) ts -> f <= Sem.ty_fuel ->
  N.to_nat (Sem.sum_map (Sem.size_of f P) ts) = list_sum (map (szn P) ts).
Proof.
  intros H Hf. rewrite to_nat_sum_map. apply f_equal, map_ext_in.
  intros a Ha. rewrite Forall_forall in H. symmetry. now apply szn_eq; [apply H|].
Qed.

Lemma szn_arr_ok P f el n : ty_ok f P (TArr el n) = true -> f <= Sem.ty_fuel ->
  szn P (TArr el n) = szn P el * N.to_nat n.
Proof. intros H Hf. unfold szn. rewrite (sizeof_unfold P f _ H Hf). lia. Qed.

Lemma szn_tup_ok P f ts : ty_ok f P (TTup ts) = true -> f <= Sem.ty_fuel ->
  szn P (TTup ts) = list_sum (map (szn P) ts).
Proof. intros H Hf. unfold szn. rewrite (sizeof_unfold P f _ H Hf). apply to_nat_sum_map. Qed.

Lemma szn_struct_ok P f name def : ty_ok f P (TStruct name) = true -> f <= Sem.ty_fuel ->
  assocN name (p_structs P) = Some def -> szn P (TStruct name) = list_sum (map (szn P) (map snd def)).
Proof.
  intros H Hf Hd. unfold szn. rewrite (sizeof_unfold P f _ H Hf), Hd, <- (sum_map_map snd (Sem.sizeof P)).
  apply to_nat_sum_map.
Qed.

Lemma szn_enum_ok P f name variants : ty_ok f P (TEnum name) = true -> f <= Sem.ty_fuel ->
  assocN name (p_enums P) = Some variants -> szn P (TEnum name) = enum_max_size P variants.
Proof.
  intros H Hf Hd. unfold szn. rewrite (sizeof_unfold P f _ H Hf), Hd, enum_max_size_max.
  rewrite N2Nat.inj_add, to_nat_fold_max. unfold enum_tag_size.
  rewrite (map_ext _ (fun ts => list_sum (map (szn P) ts)) (fun ts => to_nat_sum_map (Sem.sizeof P) ts)).
  lia.
Qed.
