(* The array / tuple access lowering of Compile/Lower.v on the Boolean instance ([TSem.tops]):
   the mux tree of an array read selects the indexed element, the mux chains of an array
   write replace exactly the indexed element, the bounds check records OutOfBounds exactly
   when the index is not smaller than the number of elements, and slice / splice read / replace
   exactly one field of a flat tuple.

   An array of n elements of eb bits each is [concat elems] with [length elems = n] and
   [Forall (fun e => length e = eb) elems]; an index is a bit vector (most significant bit
   first) of unsigned value [bits_to_N idx].  Every statement is for arbitrary n (also n not a
   power of two); the hypotheses on n say what the 32-bit index arithmetic of the compiler
   needs (n < 2^32).  The theorems named [.._all] hold for every element size eb, also eb = 0
   ([(); 3], arrays of empty tuples / structs: such an array has no wires at all, a read
   returns no wires and a write changes nothing); the same names without [_all] are their
   instances for eb >= 1. *)
From Coq Require Import Lia ZArith.
From GV Require Import Base.Util Base.ListFacts Base.Bits Base.BitsProofs Lang.Ast Gadgets.Gadgets Gadgets.GadgetSpec
  Gadgets.Arith Gadgets.Extend Gadgets.ExtendProofs Panic.PanicRec Panic.PanicSem
  Compile.Lower Compile.TSem Compile.TSemFacts Compile.TSemArith1 Compile.TSemArith2.
Local Open Scope N_scope.

(* ------------------------------------------------------------------ 0. lists of elements *)

Definition all_len {A} (eb : nat) (elems : list (list A)) : Prop := Forall (fun e => length e = eb) elems.

Lemma match_list_nonempty {A B} (l : list A) (a b : B) : l <> [] ->
  match l with [] => a | _ :: _ => b end = b.
Proof. destruct l; [congruence|reflexivity]. Qed.

Lemma length_concat_all_len {A} eb (elems : list (list A)) : all_len eb elems ->
  length (concat elems) = (length elems * eb)%nat.
Proof.
  induction 1 as [|e r He _ IH]; [reflexivity|].
  cbn [concat length]. rewrite app_length, IH, He. lia.
Qed.

Lemma concat_all_len0 {A} (elems : list (list A)) : all_len 0 elems -> concat elems = [].
Proof.
  induction 1 as [|e r He _ IH]; [reflexivity|]. cbn [concat]. rewrite IH.
  destruct e; [reflexivity|discriminate He].
Qed.

Lemma app_nonempty_len {A} (e r : list A) eb : length e = eb -> (1 <= eb)%nat -> e ++ r <> [].
Proof. destruct e; cbn [length app]; [lia|discriminate]. Qed.

(* ------------------------------------------------------------------ 1. the mux tree of a read *)

(* one layer on the list of elements: adjacent elements are paired and the index bit selects
   the odd one; an odd element out is paired with the out-of-bounds filler *)
Fixpoint pair_layer {A} (s : bool) (filler : A) (elems : list A) : list A :=
  match elems with
  | [] => []
  | e0 :: r =>
      match r with
      | [] => [if s then filler else e0]
      | e1 :: r' => (if s then e1 else e0) :: pair_layer s filler r'
      end
  end.

(* the layers, least significant index bit first *)
Definition pair_layers {A} (bits : list bool) (filler : A) (elems : list A) : list A :=
  fold_left (fun es s => pair_layer s filler es) bits elems.

Lemma pair_layer_ind2 {A} (Q : list A -> Prop) :
  Q [] -> (forall e, Q [e]) -> (forall e0 e1 r, Q r -> Q (e0 :: e1 :: r)) -> forall l, Q l.
Proof.
  intros H0 H1 H2. fix IH 1. intros [|e0 [|e1 r]]; [exact H0|apply H1|]. apply H2. apply IH.
Qed.

(* with the filler as default, element q of the layer is element 2q + s of its input *)
Lemma pair_layer_nth {A} s (F : A) : forall elems q,
  nth q (pair_layer s F elems) F = nth (2 * q + N.to_nat (N.b2n s)) elems F.
Proof.
  induction elems as [|e|e0 e1 r IH] using pair_layer_ind2; intro q.
  - cbn [pair_layer]. rewrite !nth_overflow by (cbn [length]; lia). reflexivity.
  - cbn [pair_layer]. destruct q as [|q].
    + destruct s; reflexivity.
    + rewrite !nth_overflow by (cbn [length]; lia). reflexivity.
  - cbn [pair_layer]. destruct q as [|q].
    + destruct s; reflexivity.
    + cbn [nth]. rewrite IH.
      replace (2 * S q + N.to_nat (N.b2n s))%nat with (S (S (2 * q + N.to_nat (N.b2n s)))) by lia.
      reflexivity.
Qed.

Lemma pair_layer_length {A} s (F : A) : forall elems,
  length (pair_layer s F elems) = Nat.div2 (S (length elems)).
Proof.
  induction elems as [|e|e0 e1 r IH] using pair_layer_ind2; [reflexivity|reflexivity|].
  cbn [pair_layer length]. rewrite IH. reflexivity.
Qed.

Lemma pair_layer_all_len {A} s eb (F : list A) elems : length F = eb -> all_len eb elems ->
  all_len eb (pair_layer s F elems).
Proof.
  intro HF. induction elems as [|e|e0 e1 r IH] using pair_layer_ind2; intro H.
  - constructor.
  - inversion H as [|? ? Ha H']. constructor; [destruct s; assumption|constructor].
  - inversion H as [|? ? Ha H']. inversion H' as [|? ? Hb H''].
    cbn [pair_layer]. constructor; [destruct s; assumption|]. now apply IH.
Qed.

Lemma pair_layers_all_len {A} eb (F : list A) : length F = eb -> forall bits elems,
  all_len eb elems -> all_len eb (pair_layers bits F elems).
Proof.
  intro HF. induction bits as [|s r IH]; intros elems H; [exact H|].
  cbn [pair_layers fold_left]. apply IH. now apply pair_layer_all_len.
Qed.

(* THE INVARIANT of the mux tree: after the low j index bits (value [lsb_to_N bits]), element
   q of the current array is element q * 2^j + (I mod 2^j) of the original one -- or the
   out-of-bounds filler when there is no such element *)
Lemma pair_layers_nth {A} (F : A) : forall bits elems q,
  nth q (pair_layers bits F elems) F
  = nth (q * 2 ^ length bits + N.to_nat (lsb_to_N bits)) elems F.
Proof.
  induction bits as [|s r IH]; intros elems q.
  - cbn [pair_layers fold_left length lsb_to_N Nat.pow]. f_equal. lia.
  - cbn [pair_layers fold_left]. change (fold_left _ r ?l) with (pair_layers r F l).
    rewrite IH, pair_layer_nth. f_equal. cbn [length lsb_to_N Nat.pow].
    rewrite N2Nat.inj_add, N2Nat.inj_mul. change (N.to_nat 2) with 2%nat. lia.
Qed.

Lemma div2_succ_le n k : (n <= 2 * k)%nat -> (Nat.div2 (S n) <= k)%nat.
Proof.
  intro H. destruct (Nat.Even_or_Odd n) as [[m ->]|[m ->]].
  - rewrite Nat.div2_succ_double. lia.
  - replace (S (2 * m + 1)) with (2 * (S m))%nat by lia. rewrite Nat.div2_double. lia.
Qed.

Lemma div2_succ_pos n : (1 <= n)%nat -> (1 <= Nat.div2 (S n))%nat.
Proof. destruct n as [|n]; [lia|]. intros _. cbn [Nat.div2]. lia. Qed.

(* k layers reduce 1 .. 2^k elements to exactly one *)
Lemma pair_layers_length_1 {A} (F : A) : forall bits elems,
  (1 <= length elems <= 2 ^ length bits)%nat -> length (pair_layers bits F elems) = 1%nat.
Proof.
  induction bits as [|s r IH]; intros elems [H1 H2].
  - cbn [pair_layers fold_left length Nat.pow] in *. lia.
  - cbn [pair_layers fold_left]. change (fold_left _ r ?l) with (pair_layers r F l).
    apply IH. rewrite pair_layer_length. cbn [length Nat.pow] in H2. split.
    + now apply div2_succ_pos.
    + now apply div2_succ_le.
Qed.

(* the selected element: element I, or the filler when I is out of bounds *)
Lemma pair_layers_select {A} (F : A) bits elems :
  (1 <= length elems <= 2 ^ length bits)%nat ->
  pair_layers bits F elems = [nth (N.to_nat (lsb_to_N bits)) elems F].
Proof.
  intro H. pose proof (pair_layers_length_1 F bits elems H) as L.
  pose proof (pair_layers_nth F bits elems 0) as Hn. cbn [Nat.mul Nat.add] in Hn.
  destruct (pair_layers bits F elems) as [|x [|y t]]; try discriminate.
  cbn [nth] in Hn. now rewrite Hn.
Qed.

(* --- the circuit side *)

Lemma tsem_mapM_mux_true s : forall (c0 : list bool) (o : pobs),
  mapM_M (fun a0 => m_mux tops s (wT tops) a0) c0 o
  = Ok (if s then repeat true (length c0) else c0, o).
Proof.
  induction c0 as [|a c0 IH]; intro o; cbn [mapM_M].
  - unfold ret. destruct s; reflexivity.
  - unfold mbind. change (m_mux tops s (wT tops) a o) with (Ok (if s then true else a, o)).
    cbn iota beta. rewrite IH. unfold ret. destruct s; reflexivity.
Qed.

(* ONE LAYER: on an array of whole elements the layer is [pair_layer] with the all-true
   element as filler (fuel: more than the number of elements) *)
Lemma tsem_index_layer s eb : (1 <= eb)%nat -> forall fuel elems (o : pobs),
  all_len eb elems -> (length elems < fuel)%nat ->
  index_layer tops fuel s (concat elems) eb o
  = Ok (concat (pair_layer s (repeat true eb) elems), o).
Proof.
  intro Heb. induction fuel as [|f IH]; intros elems o Hall Hf; [lia|].
  destruct elems as [|e0 r]; [reflexivity|].
  inversion Hall as [|? ? He0 Hr].
  cbn [index_layer concat].
  rewrite match_list_nonempty
    by (eapply app_nonempty_len; eassumption).
  cbn zeta. rewrite (firstn_app_exact e0 (concat r)), (skipn_app_exact e0 (concat r)) by assumption.
  destruct r as [|e1 r'].
  - cbn [concat pair_layer]. rewrite tsem_mapM_mux_true, app_nil_r, He0. destruct s; reflexivity.
  - inversion Hr as [|? ? He1 Hr']. cbn [concat].
    rewrite match_list_nonempty
      by (eapply app_nonempty_len; eassumption).
    rewrite (firstn_app_exact e1 (concat r')), (skipn_app_exact e1 (concat r')) by assumption.
    unfold mbind.
    change (fun a1 a0 : bool => m_mux tops s a1 a0) with (m_mux tops s).
    rewrite tsem_map2_mux by congruence.
    rewrite IH; [|assumption|cbn [length] in Hf; lia].
    unfold ret. cbn [pair_layer concat]. destruct s; reflexivity.
Qed.
Print Assumptions tsem_index_layer.

(* any element size: for elements without bits a layer is not built at all, and there is nothing
   to select from *)
Lemma tsem_index_layers_gen_all eb : forall (bits : list bool) elems (o : pobs),
  all_len eb elems ->
  index_layers tops bits (concat elems) eb o
  = Ok (concat (pair_layers bits (repeat true eb) elems), o).
Proof.
  induction bits as [|s r IH]; intros elems o Hall; [reflexivity|].
  pose proof (pair_layer_all_len s eb (repeat true eb) elems (repeat_length true eb) Hall) as Hall'.
  cbn [index_layers pair_layers fold_left]. unfold mbind.
  destruct (Nat.eqb_spec eb 0) as [->|Hne].
  - unfold ret. rewrite <- (concat_all_len0 _ Hall'). now apply IH.
  - rewrite tsem_index_layer; [|lia|exact Hall|].
    + now apply IH.
    + rewrite (length_concat_all_len eb) by exact Hall. nia.
Qed.

Lemma tsem_index_layers_gen eb : (1 <= eb)%nat -> forall (bits : list bool) elems (o : pobs),
  all_len eb elems ->
  index_layers tops bits (concat elems) eb o
  = Ok (concat (pair_layers bits (repeat true eb) elems), o).
Proof. intros _. apply tsem_index_layers_gen_all. Qed.

Lemma pow2_nat_of_N n k : N.of_nat n <= 2 ^ N.of_nat k -> (n <= 2 ^ k)%nat.
Proof.
  intro H. rewrite <- (Nat2N.id n), <- (Nat2N.id (2 ^ k)). rewrite Nat2N.inj_pow.
  change (N.of_nat 2) with 2. lia.
Qed.

(* (1) THE READ TREE.  For an index of any width k and an array of 1 .. 2^k elements the tree
   returns exactly one element: element I when I is in bounds, and the all-true element when
   it is not (an odd element out is muxed against the all-true out-of-bounds element). *)
Theorem tsem_index_layers_all (idx : list bool) elems eb (o : pobs) :
  all_len eb elems -> 1 <= lenN elems <= 2 ^ lenN idx ->
  index_layers tops (rev idx) (concat elems) eb o
  = Ok (nth (N.to_nat (bits_to_N idx)) elems (repeat true eb), o).
Proof.
  intros Hall [Hn1 Hn2]. unfold lenN in *. rewrite tsem_index_layers_gen_all by assumption.
  rewrite pair_layers_select by (rewrite rev_length; split; [lia|now apply pow2_nat_of_N]).
  rewrite lsb_to_N_rev. cbn [concat]. now rewrite app_nil_r.
Qed.

Theorem tsem_index_layers (idx : list bool) elems eb (o : pobs) :
  (1 <= eb)%nat -> all_len eb elems -> 1 <= lenN elems <= 2 ^ lenN idx ->
  index_layers tops (rev idx) (concat elems) eb o
  = Ok (nth (N.to_nat (bits_to_N idx)) elems (repeat true eb), o).
Proof. intros _. apply tsem_index_layers_all. Qed.
Print Assumptions tsem_index_layers.

Corollary tsem_index_layers_in_bounds_all (idx : list bool) elems eb (o : pobs) d :
  all_len eb elems -> lenN elems <= 2 ^ lenN idx -> bits_to_N idx < lenN elems ->
  index_layers tops (rev idx) (concat elems) eb o = Ok (nth (N.to_nat (bits_to_N idx)) elems d, o).
Proof.
  intros Hall Hn HI. rewrite tsem_index_layers_all by (try assumption; lia).
  f_equal. f_equal. apply nth_indep. unfold lenN in HI. lia.
Qed.

Corollary tsem_index_layers_in_bounds (idx : list bool) elems eb (o : pobs) d :
  (1 <= eb)%nat -> all_len eb elems -> lenN elems <= 2 ^ lenN idx ->
  bits_to_N idx < lenN elems ->
  index_layers tops (rev idx) (concat elems) eb o = Ok (nth (N.to_nat (bits_to_N idx)) elems d, o).
Proof. intros _. apply tsem_index_layers_in_bounds_all. Qed.
Print Assumptions tsem_index_layers_in_bounds.

Corollary tsem_index_layers_out_of_bounds (idx : list bool) elems eb (o : pobs) :
  (1 <= eb)%nat -> all_len eb elems -> 1 <= lenN elems <= 2 ^ lenN idx ->
  lenN elems <= bits_to_N idx ->
  index_layers tops (rev idx) (concat elems) eb o = Ok (repeat true eb, o).
Proof.
  intros Heb Hall Hn HI. rewrite tsem_index_layers by assumption.
  rewrite nth_overflow by (unfold lenN in HI; lia). reflexivity.
Qed.
Print Assumptions tsem_index_layers_out_of_bounds.

Lemma nth_all_len {A} eb (elems : list (list A)) k d : all_len eb elems -> length d = eb ->
  length (nth k elems d) = eb.
Proof.
  intros Hall Hd. destruct (Nat.lt_ge_cases k (length elems)) as [H|H].
  - unfold all_len in Hall. rewrite Forall_forall in Hall. apply Hall. now apply nth_In.
  - now rewrite nth_overflow.
Qed.

(* whatever the index, the result has the length of one element *)
Corollary tsem_index_layers_length (idx : list bool) elems eb (o : pobs) :
  (1 <= eb)%nat -> all_len eb elems -> 1 <= lenN elems <= 2 ^ lenN idx ->
  exists r, index_layers tops (rev idx) (concat elems) eb o = Ok (r, o) /\ length r = eb.
Proof.
  intros Heb Hall Hn. eexists. split; [now apply tsem_index_layers|].
  apply nth_all_len; [exact Hall|apply repeat_length].
Qed.
Print Assumptions tsem_index_layers_length.

(* ------------------------------------------------------------------ 2. the bounds check *)

Lemma tsem_unsigned_as_wires v k : unsigned_as_wires tops v k = N_to_bits k v.
Proof. apply unsigned_as_wires_tops. Qed.

Lemma bits_to_N_unsigned_as_wires v k :
  bits_to_N (unsigned_as_wires tops v k) = v mod 2 ^ N.of_nat k.
Proof. rewrite tsem_unsigned_as_wires. apply bits_to_N_N_to_bits. Qed.

Lemma length_unsigned_as_wires v k : length (unsigned_as_wires tops v k) = k.
Proof. unfold unsigned_as_wires. now rewrite map_length, seq_length. Qed.

(* the general form: the array length is compared as the compiler writes it, on 32 bits *)
Lemma tsem_bounds_check_mod (idx : list bool) n m (o : pobs) : length idx = USZ ->
  bounds_check tops idx n m o
  = Ok (tt, push_spec o (N.of_nat n mod 2 ^ 32 <=? bits_to_N idx) OutOfBounds (ploc_of m)).
Proof.
  intro Hl. unfold bounds_check. unfold mbind at 1.
  cbn [o_comparator tops]. rewrite Hl, length_unsigned_as_wires, Nat.leb_refl. cbn [andb].
  rewrite cmp_correct_unsigned by (rewrite ?length_unsigned_as_wires; lia).
  rewrite <- Hl at 1. rewrite firstn_all.
  rewrite <- (length_unsigned_as_wires (N.of_nat n) USZ) at 1. rewrite firstn_all.
  rewrite bits_to_N_unsigned_as_wires. unfold mbind.
  cbn [m_not o_not tops m_panic_if o_panic_if]. unfold tret.
  change (N.of_nat USZ) with 32. f_equal. f_equal. f_equal. symmetry. apply N.leb_antisym.
Qed.

(* (2) THE BOUNDS CHECK: OutOfBounds is recorded (unless an earlier failure already is) iff
   the index is not smaller than the number of elements *)
Theorem tsem_bounds_check (idx : list bool) n m (o : pobs) :
  length idx = USZ -> N.of_nat n < 2 ^ 32 ->
  bounds_check tops idx n m o
  = Ok (tt, push_spec o (N.of_nat n <=? bits_to_N idx) OutOfBounds (ploc_of m)).
Proof.
  intros Hl Hn. rewrite tsem_bounds_check_mod by exact Hl. now rewrite N.mod_small.
Qed.
Print Assumptions tsem_bounds_check.

(* ------------------------------------------------------------------ 3. the array read *)

Lemma tsem_m_extend_index (idx : list bool) (o : pobs) : (length idx <= USZ)%nat ->
  m_extend tops idx (TInt false 32) USZ o = Ok (extend_s idx false USZ, o).
Proof.
  intro Hl. unfold m_extend, lift_res. cbn [is_signed]. now rewrite tsem_extend_g.
Qed.

(* array_read puts eb wires in the place of a selected element without wires: for a whole
   element that is the element itself *)
Lemma nil_or_self {A} (x : A) eb (l : list A) : length l = eb ->
  match l with [] => repeat x eb | _ :: _ => l end = l.
Proof. intros <-. destruct l; reflexivity. Qed.

(* (3) THE READ of arr[idx], for an index of any width up to 32 bits (it is zero-extended to
   32 bits; the extended index is returned with the element): the value is element I --
   the all-true element when I is out of bounds -- and OutOfBounds is recorded iff n <= I *)
Theorem tsem_array_read_all elems (idx : list bool) eb n m (o : pobs) :
  all_len eb elems -> length elems = n -> (1 <= n)%nat -> N.of_nat n < 2 ^ 32 ->
  (length idx <= USZ)%nat ->
  array_read tops (concat elems) idx eb n m o
  = Ok ((nth (N.to_nat (bits_to_N idx)) elems (repeat true eb), extend_s idx false USZ),
        push_spec o (N.of_nat n <=? bits_to_N idx) OutOfBounds (ploc_of m)).
Proof.
  intros Hall Hlen Hn1 Hn2 Hl. unfold array_read. unfold mbind at 1.
  rewrite tsem_m_extend_index by exact Hl.
  pose proof (extend_s_length idx false USZ Hl) as Hl'.
  pose proof (zext_correct idx USZ) as Hv.
  set (idx' := extend_s idx false USZ) in *.
  unfold mbind at 1. rewrite tsem_index_layers_all; [|exact Hall|].
  - unfold mbind. rewrite tsem_bounds_check by assumption. unfold ret. rewrite Hv.
    f_equal. f_equal. f_equal.
    apply nil_or_self. apply nth_all_len; [exact Hall|apply repeat_length].
  - unfold lenN. rewrite Hl', Hlen. change (N.of_nat USZ) with 32. lia.
Qed.

Theorem tsem_array_read elems (idx : list bool) eb n m (o : pobs) :
  (1 <= eb)%nat -> all_len eb elems -> length elems = n -> (1 <= n)%nat -> N.of_nat n < 2 ^ 32 ->
  (length idx <= USZ)%nat ->
  array_read tops (concat elems) idx eb n m o
  = Ok ((nth (N.to_nat (bits_to_N idx)) elems (repeat true eb), extend_s idx false USZ),
        push_spec o (N.of_nat n <=? bits_to_N idx) OutOfBounds (ploc_of m)).
Proof. intros _. apply tsem_array_read_all. Qed.
Print Assumptions tsem_array_read.

Corollary tsem_array_read_in_bounds elems (idx : list bool) eb n m (o : pobs) d :
  (1 <= eb)%nat -> all_len eb elems -> length elems = n -> N.of_nat n < 2 ^ 32 ->
  (length idx <= USZ)%nat -> bits_to_N idx < N.of_nat n ->
  array_read tops (concat elems) idx eb n m o
  = Ok ((nth (N.to_nat (bits_to_N idx)) elems d, extend_s idx false USZ), o).
Proof.
  intros Heb Hall Hlen Hn2 Hl HI. rewrite tsem_array_read by (try assumption; lia).
  rewrite (nth_indep _ _ d) by lia.
  destruct (N.leb_spec (N.of_nat n) (bits_to_N idx)); [lia|].
  destruct o; reflexivity.
Qed.
Print Assumptions tsem_array_read_in_bounds.

(* a full-width index is returned as it is *)
Corollary tsem_array_read_32 elems (idx : list bool) eb n m (o : pobs) :
  (1 <= eb)%nat -> all_len eb elems -> length elems = n -> (1 <= n)%nat -> N.of_nat n < 2 ^ 32 ->
  length idx = USZ ->
  array_read tops (concat elems) idx eb n m o
  = Ok ((nth (N.to_nat (bits_to_N idx)) elems (repeat true eb), idx),
        push_spec o (N.of_nat n <=? bits_to_N idx) OutOfBounds (ploc_of m)).
Proof.
  intros Heb Hall Hlen Hn1 Hn2 Hl. rewrite tsem_array_read by (try assumption; lia).
  f_equal. f_equal. f_equal. unfold extend_s. destruct idx as [|b r]; [discriminate|].
  rewrite Hl, Nat.sub_diag. reflexivity.
Qed.
Print Assumptions tsem_array_read_32.

(* ------------------------------------------------------------------ 4. the array write *)

(* replace element k of a list; nothing happens when there is no element k *)
Fixpoint list_set {A} (l : list A) (k : nat) (v : A) : list A :=
  match l with
  | [] => []
  | a :: r => match k with O => v :: r | S k' => a :: list_set r k' v end
  end.

Lemma list_set_length {A} (l : list A) : forall k v, length (list_set l k v) = length l.
Proof. induction l as [|a r IH]; intros [|k] v; cbn [list_set length]; auto. Qed.

Lemma list_set_nth_same {A} (l : list A) : forall k v d, (k < length l)%nat -> nth k (list_set l k v) d = v.
Proof.
  induction l as [|a r IH]; intros [|k] v d H; cbn [length] in H; try lia; cbn [list_set nth]; [reflexivity|].
  apply IH. lia.
Qed.

Lemma list_set_nth_other {A} (l : list A) : forall k j v d, j <> k -> nth j (list_set l k v) d = nth j l d.
Proof.
  induction l as [|a r IH]; intros [|k] [|j] v d H; cbn [list_set nth]; try reflexivity; try congruence.
  apply IH. congruence.
Qed.

Lemma list_set_out_of_bounds {A} (l : list A) : forall k v, (length l <= k)%nat -> list_set l k v = l.
Proof.
  induction l as [|a r IH]; intros [|k] v H; cbn [length] in H; try lia; cbn [list_set]; [reflexivity..|].
  f_equal. apply IH. lia.
Qed.

Lemma list_set_all_len {A} eb (elems : list (list A)) : forall k v, all_len eb elems -> length v = eb ->
  all_len eb (list_set elems k v).
Proof.
  induction elems as [|e r IH]; intros k v H Hv; [constructor|].
  inversion H as [|? ? He Hr]. destruct k as [|k]; cbn [list_set]; constructor; auto.
  now apply IH.
Qed.

Lemma mod_pow2_succ i k :
  i mod 2 ^ (1 + k) = N.b2n (N.testbit i k) * 2 ^ k + i mod 2 ^ k.
Proof.
  rewrite N.add_comm, N.pow_add_r, N.pow_1_r. pose proof (pow2_pos k).
  rewrite N.mod_mul_r by lia. rewrite N.testbit_spec'. lia.
Qed.

Lemma bit_pow_eqb (a b : bool) X m m' : 0 < X -> m < X -> m' < X ->
  (N.b2n a * X + m =? N.b2n b * X + m') = Bool.eqb a b && (m =? m').
Proof.
  intros HX Hm Hm'. destruct (N.eqb_spec m m') as [->|NE].
  - destruct a, b; cbn [N.b2n Bool.eqb andb];
      match goal with |- (?u =? ?v) = _ => destruct (N.eqb_spec u v) end; try reflexivity; lia.
  - rewrite Bool.andb_false_r.
    match goal with |- (?u =? ?v) = _ => destruct (N.eqb_spec u v) as [E|] end; [|reflexivity].
    exfalso. destruct a, b; cbn [N.b2n] in E; nia.
Qed.

(* THE MUX CHAIN of one bit: the new bit iff every index bit equals the corresponding bit of
   the position [i] (only the low [length index] bits of [i] are looked at) *)
Lemma tsem_write_chain (x0 : bool) i : forall (index : list bool) (x1 : bool) (o : pobs),
  write_chain tops x0 x1 i index (map negb index) o
  = Ok (if bits_to_N index =? i mod 2 ^ lenN index then x1 else x0, o).
Proof.
  induction index as [|ix ir IH]; intros x1 o.
  - cbn [write_chain map bits_to_N]. unfold ret. change (lenN (@nil bool)) with 0. change (2 ^ 0) with 1.
    rewrite N.mod_1_r. reflexivity.
  - cbn [map write_chain]. unfold mbind.
    replace (length (ix :: ir) - 1)%nat with (length ir) by (cbn [length]; lia).
    fold (lenN ir).
    change (m_mux tops ?c x0 x1 o) with (Ok (if c then x0 else x1, o)). cbn iota beta.
    rewrite IH. f_equal. f_equal.
    rewrite bits_to_N_cons, lenN_cons, mod_pow2_succ.
    rewrite bit_pow_eqb;
      [|apply pow2_pos|apply bits_to_N_lt|apply N.mod_lt; pose proof (pow2_pos (lenN ir)); lia].
    destruct (bits_to_N ir =? i mod 2 ^ lenN ir), (N.testbit i (lenN ir)), ix; reflexivity.
Qed.

Lemma tsem_write_elem i (index : list bool) : forall (elem value : list bool) (o : pobs),
  length value = length elem ->
  write_elem tops elem value i index (map negb index) o
  = Ok (if bits_to_N index =? i mod 2 ^ lenN index then value else elem, o).
Proof.
  induction elem as [|x0 er IH]; intros [|v vr] o Hl; try discriminate.
  - cbn [write_elem]. unfold ret. now destruct (_ =? _).
  - injection Hl as Hl. cbn [write_elem]. unfold mbind. rewrite tsem_write_chain, IH by exact Hl.
    unfold ret. now destruct (_ =? _).
Qed.

(* positions i, i+1, ...: each element is replaced iff the index equals its position *)
Fixpoint write_from (I : N) (k : N) (value : list bool) (i : N) (elems : list (list bool)) : list (list bool) :=
  match elems with
  | [] => []
  | e :: r => (if I =? i mod 2 ^ k then value else e) :: write_from I k value (i + 1) r
  end.

Lemma write_from_all_len I k (value : list bool) eb : length value = eb -> forall elems i,
  all_len eb elems -> all_len eb (write_from I k value i elems).
Proof.
  intro Hv. induction elems as [|e r IH]; intros i H; [constructor|].
  inversion H as [|? ? He Hr]. cbn [write_from]. constructor; [|now apply IH].
  now destruct (I =? i mod 2 ^ k).
Qed.

Lemma tsem_write_elems eb (index value : list bool) : (1 <= eb)%nat -> length value = eb ->
  forall fuel elems i (o : pobs), all_len eb elems -> (length elems < fuel)%nat ->
  write_elems tops fuel (concat elems) eb value i index (map negb index) o
  = Ok (concat (write_from (bits_to_N index) (lenN index) value i elems), o).
Proof.
  intros Heb Hv. induction fuel as [|f IH]; intros elems i o Hall Hf; [lia|].
  cbn [write_elems]. destruct elems as [|e r].
  - cbn [concat length write_from]. destruct (Nat.ltb_spec 0 eb); [reflexivity|lia].
  - inversion Hall as [|? ? He Hr]. cbn [concat].
    destruct (Nat.ltb_spec (length (e ++ concat r)) eb) as [Hlt|_]; [rewrite app_length in Hlt; lia|].
    rewrite match_list_nonempty by (eapply app_nonempty_len; eassumption).
    rewrite firstn_app_exact, skipn_app_exact by assumption.
    unfold mbind. rewrite tsem_write_elem by congruence.
    rewrite IH; [|exact Hr|cbn [length] in Hf; lia]. reflexivity.
Qed.

(* any element size, with fuel for the wires (what array_write supplies): without element bits
   there are no wires on either side, and one unit of fuel is enough *)
Lemma tsem_write_elems_wire_fuel eb (index value : list bool) : length value = eb ->
  forall fuel elems i (o : pobs), all_len eb elems -> (length (concat elems) < fuel)%nat ->
  write_elems tops fuel (concat elems) eb value i index (map negb index) o
  = Ok (concat (write_from (bits_to_N index) (lenN index) value i elems), o).
Proof.
  intros Hv fuel elems i o Hall Hf. destruct (Nat.eq_dec eb 0) as [->|Heb].
  - rewrite (concat_all_len0 elems Hall).
    rewrite concat_all_len0 by (now apply write_from_all_len).
    destruct fuel; [lia|reflexivity].
  - apply tsem_write_elems; [lia|exact Hv|exact Hall|].
    rewrite (length_concat_all_len eb) in Hf by exact Hall. nia.
Qed.

(* without wrap-around of the positions, this is [list_set] at position I - i *)
Lemma write_from_list_set I k value : forall elems i, i + lenN elems <= 2 ^ k ->
  write_from I k value i elems
  = if i <=? I then list_set elems (N.to_nat (I - i)) value else elems.
Proof.
  induction elems as [|e r IH]; intros i Hb.
  - cbn [write_from list_set]. now destruct (i <=? I).
  - rewrite lenN_cons in Hb. cbn [write_from]. rewrite IH by lia.
    rewrite N.mod_small by lia.
    destruct (N.eqb_spec I i) as [->|NE].
    + rewrite N.leb_refl, N.sub_diag. cbn [N.to_nat list_set].
      destruct (N.leb_spec (i + 1) i); [lia|reflexivity].
    + destruct (N.leb_spec i I) as [H|H].
      * destruct (N.leb_spec (i + 1) I); [|lia].
        replace (N.to_nat (I - i)) with (S (N.to_nat (I - (i + 1)))) by lia. reflexivity.
      * destruct (N.leb_spec (i + 1) I); [lia|reflexivity].
Qed.

(* (4) THE WRITE arr[idx] = value, for an index of any width up to 32 bits: element I is
   replaced by the value when I is in bounds, nothing changes when it is not (list_set then
   is the identity), and OutOfBounds is recorded iff n <= I *)
Theorem tsem_array_write_all elems (idx value : list bool) eb m (o : pobs) :
  all_len eb elems -> lenN elems < 2 ^ 32 -> (length idx <= USZ)%nat -> length value = eb ->
  array_write tops (concat elems) eb (length elems) idx value m o
  = Ok (concat (list_set elems (N.to_nat (bits_to_N idx)) value),
        push_spec o (lenN elems <=? bits_to_N idx) OutOfBounds (ploc_of m)).
Proof.
  intros Hall Hn Hl Hv. unfold array_write.
  pose proof (length_concat_all_len eb elems Hall) as Hlc.
  unfold mbind at 1. rewrite tsem_m_extend_index by exact Hl.
  pose proof (extend_s_length idx false USZ Hl) as Hl'.
  pose proof (zext_correct idx USZ) as Hval.
  set (idx' := extend_s idx false USZ) in *.
  unfold mbind at 1. rewrite mapM_not_tops.
  unfold mbind at 1. rewrite <- Hlc, firstn_all, skipn_all.
  rewrite (tsem_write_elems_wire_fuel eb); [|exact Hv|exact Hall|lia].
  unfold mbind. unfold lenN in Hn. rewrite tsem_bounds_check by assumption.
  unfold ret. rewrite app_nil_r, Hval. unfold lenN at 2. f_equal. f_equal. f_equal.
  rewrite write_from_list_set.
  - destruct (N.leb_spec 0 (bits_to_N idx)); [|lia]. now rewrite N.sub_0_r.
  - unfold lenN. rewrite Hl'. change (N.of_nat USZ) with 32. lia.
Qed.

Theorem tsem_array_write elems (idx value : list bool) eb m (o : pobs) :
  (1 <= eb)%nat -> all_len eb elems -> lenN elems < 2 ^ 32 ->
  (length idx <= USZ)%nat -> length value = eb ->
  array_write tops (concat elems) eb (length elems) idx value m o
  = Ok (concat (list_set elems (N.to_nat (bits_to_N idx)) value),
        push_spec o (lenN elems <=? bits_to_N idx) OutOfBounds (ploc_of m)).
Proof. intros _. apply tsem_array_write_all. Qed.
Print Assumptions tsem_array_write.

Corollary tsem_array_write_in_bounds elems (idx value : list bool) eb m (o : pobs) :
  (1 <= eb)%nat -> all_len eb elems -> lenN elems < 2 ^ 32 ->
  (length idx <= USZ)%nat -> length value = eb -> bits_to_N idx < lenN elems ->
  array_write tops (concat elems) eb (length elems) idx value m o
  = Ok (concat (list_set elems (N.to_nat (bits_to_N idx)) value), o).
Proof.
  intros Heb Hall Hn Hl Hv HI. rewrite tsem_array_write by assumption.
  destruct (N.leb_spec (lenN elems) (bits_to_N idx)); [lia|]. destruct o; reflexivity.
Qed.
Print Assumptions tsem_array_write_in_bounds.

Corollary tsem_array_write_out_of_bounds elems (idx value : list bool) eb m (o : pobs) :
  (1 <= eb)%nat -> all_len eb elems -> lenN elems < 2 ^ 32 ->
  (length idx <= USZ)%nat -> length value = eb -> lenN elems <= bits_to_N idx ->
  array_write tops (concat elems) eb (length elems) idx value m o
  = Ok (concat elems, push_spec o true OutOfBounds (ploc_of m)).
Proof.
  intros Heb Hall Hn Hl Hv HI. rewrite tsem_array_write by assumption.
  rewrite list_set_out_of_bounds by (unfold lenN in HI; lia).
  destruct (N.leb_spec (lenN elems) (bits_to_N idx)); [reflexivity|lia].
Qed.
Print Assumptions tsem_array_write_out_of_bounds.

(* ------------------------------------------------------------------ 5. tuple fields: slice / splice *)

Section Fields.
  Context {A : Type}.

  (* a tuple (or struct) is laid out as the concatenation of its fields; field k starts after
     the fields before it *)
  Definition field_offset (fields : list (list A)) (k : nat) : nat := length (concat (firstn k fields)).

  (* the offset as the compiler computes it (tuple_offsets: a fold over the sizes before) *)
  Lemma field_offset_fold (fields : list (list A)) k :
    field_offset fields k = fold_left (fun a f => (a + length f)%nat) (firstn k fields) O.
  Proof.
    unfold field_offset. generalize (firstn k fields) as l. intro l.
    rewrite <- (Nat.add_0_l (length (concat l))). generalize O as acc.
    induction l as [|f r IH]; intro acc; cbn [concat fold_left length]; [lia|].
    rewrite app_length, <- IH. lia.
  Qed.

  Lemma concat_split_field (fields : list (list A)) k d : (k < length fields)%nat ->
    concat fields = concat (firstn k fields) ++ nth k fields d ++ concat (skipn (S k) fields).
  Proof.
    revert k. induction fields as [|f r IH]; intros k Hk; cbn [length] in Hk; [lia|].
    destruct k as [|k].
    - reflexivity.
    - cbn [firstn skipn nth concat]. rewrite <- app_assoc. f_equal. apply IH. lia.
  Qed.

  Lemma list_set_split (fields : list (list A)) k v : (k < length fields)%nat ->
    list_set fields k v = firstn k fields ++ v :: skipn (S k) fields.
  Proof.
    revert k. induction fields as [|f r IH]; intros k Hk; cbn [length] in Hk; [lia|].
    destruct k as [|k]; [reflexivity|]. cbn [list_set firstn skipn app]. f_equal. apply IH. lia.
  Qed.

  (* (5a) READING field k returns exactly field k *)
  Theorem slice_field (fields : list (list A)) k d : (k < length fields)%nat ->
    slice (concat fields) (field_offset fields k) (length (nth k fields d)) = Ok (nth k fields d).
  Proof.
    intro Hk. unfold slice, field_offset.
    rewrite (concat_split_field fields k d Hk).
    rewrite !app_length.
    destruct (Nat.leb_spec (length (concat (firstn k fields)) + length (nth k fields d))
      (length (concat (firstn k fields)) + (length (nth k fields d) + length (concat (skipn (S k) fields)))));
      [|lia].
    rewrite skipn_app_exact by reflexivity. rewrite firstn_app_exact by reflexivity. reflexivity.
  Qed.

  (* (5b) WRITING field k replaces exactly that field (the new value must have its length) *)
  Theorem splice_field (fields : list (list A)) k d value : (k < length fields)%nat ->
    length value = length (nth k fields d) ->
    splice (concat fields) (field_offset fields k) (length (nth k fields d)) value
    = Ok (concat (list_set fields k value)).
  Proof.
    intros Hk Hv. unfold splice, field_offset.
    rewrite (concat_split_field fields k d Hk).
    rewrite !app_length, Hv, Nat.eqb_refl.
    destruct (Nat.leb_spec (length (concat (firstn k fields)) + length (nth k fields d))
      (length (concat (firstn k fields)) + (length (nth k fields d) + length (concat (skipn (S k) fields)))));
      [|lia].
    cbn [andb]. rewrite firstn_app_exact by reflexivity.
    rewrite (app_assoc (concat (firstn k fields)) (nth k fields d)).
    rewrite skipn_app_exact by (rewrite app_length; reflexivity).
    rewrite list_set_split by exact Hk. rewrite concat_app. reflexivity.
  Qed.

  (* a value of another length is refused (copy_from_slice panics) *)
  Theorem splice_field_wrong_length (fields : list (list A)) k d value :
    length value <> length (nth k fields d) ->
    splice (concat fields) (field_offset fields k) (length (nth k fields d)) value = Crash.
  Proof.
    intro Hv. unfold splice. destruct (Nat.eqb_spec (length value) (length (nth k fields d))); [contradiction|].
    now rewrite Bool.andb_false_r.
  Qed.

  (* the offsets depend on the lengths of the fields only *)
  Lemma field_offset_list_set (fields : list (list A)) : forall k j value d, (k < length fields)%nat ->
    length value = length (nth k fields d) ->
    field_offset (list_set fields k value) j = field_offset fields j.
  Proof.
    unfold field_offset. induction fields as [|f r IH]; intros k j value d Hk Hv; cbn [length] in Hk; [lia|].
    destruct j as [|j]; [reflexivity|].
    destruct k as [|k]; cbn [list_set firstn concat nth] in *; rewrite !app_length.
    - now rewrite Hv.
    - f_equal. apply (IH k j value d); [lia|exact Hv].
  Qed.

  (* read after write: the written field reads back the value, every other field is untouched *)
  Corollary slice_splice_same (fields : list (list A)) k d value v' : (k < length fields)%nat ->
    length value = length (nth k fields d) ->
    splice (concat fields) (field_offset fields k) (length (nth k fields d)) value = Ok v' ->
    slice v' (field_offset fields k) (length (nth k fields d)) = Ok value.
  Proof.
    intros Hk Hv. rewrite splice_field by assumption. intros [= <-].
    pose proof (slice_field (list_set fields k value) k d) as Hs.
    rewrite list_set_length, (list_set_nth_same fields k value d Hk),
      (field_offset_list_set fields k k value d Hk Hv) in Hs.
    rewrite <- Hv. exact (Hs Hk).
  Qed.

  Corollary slice_splice_other (fields : list (list A)) k j d value v' :
    (k < length fields)%nat -> (j < length fields)%nat -> j <> k ->
    length value = length (nth k fields d) ->
    splice (concat fields) (field_offset fields k) (length (nth k fields d)) value = Ok v' ->
    slice v' (field_offset fields j) (length (nth j fields d)) = Ok (nth j fields d).
  Proof.
    intros Hk Hj Hjk Hv. rewrite splice_field by assumption. intros [= <-].
    pose proof (slice_field (list_set fields k value) j d) as Hs.
    rewrite list_set_length, (list_set_nth_other fields k j value d Hjk),
      (field_offset_list_set fields k j value d Hk Hv) in Hs.
    exact (Hs Hj).
  Qed.
End Fields.
Print Assumptions slice_field.
Print Assumptions splice_field.
Print Assumptions splice_field_wrong_length.
Print Assumptions slice_splice_same.
Print Assumptions slice_splice_other.

(* ------------------------------------------------------------------ 6. consequences *)

Lemma tsem_index_layers_nil eb : forall (bits : list bool) (o : pobs),
  index_layers tops bits [] eb o = Ok ([], o).
Proof.
  induction bits as [|s r IH]; intro o; [reflexivity|].
  cbn [index_layers]. unfold mbind. destruct (eb =? 0)%nat; cbn [index_layer length]; unfold ret; apply IH.
Qed.

(* reading an array without elements: all-false bits, and always OutOfBounds *)
Theorem tsem_array_read_empty (idx : list bool) eb m (o : pobs) : (length idx <= USZ)%nat ->
  array_read tops [] idx eb 0 m o
  = Ok ((repeat false eb, extend_s idx false USZ), push_spec o true OutOfBounds (ploc_of m)).
Proof.
  intro Hl. unfold array_read. unfold mbind at 1. rewrite tsem_m_extend_index by exact Hl.
  unfold mbind at 1. rewrite tsem_index_layers_nil. unfold mbind.
  rewrite tsem_bounds_check; [|now apply extend_s_length|cbn; lia].
  destruct (N.leb_spec (N.of_nat 0) (bits_to_N (extend_s idx false USZ))); [reflexivity|lia].
Qed.
Print Assumptions tsem_array_read_empty.

(* READ AFTER WRITE, through the circuits: after a[i] = value (i in bounds), a[j] reads the
   value when j = i and what it read before when j <> i; the write leaves the observation alone *)
Theorem tsem_array_read_after_write elems (idx jdx value : list bool) eb n m m' (o : pobs) arr' o' :
  (1 <= eb)%nat -> all_len eb elems -> length elems = n -> N.of_nat n < 2 ^ 32 ->
  (length idx <= USZ)%nat -> (length jdx <= USZ)%nat -> length value = eb ->
  bits_to_N idx < N.of_nat n ->
  array_write tops (concat elems) eb (length elems) idx value m o = Ok (arr', o') ->
  o' = o /\
  array_read tops arr' jdx eb n m' o'
  = Ok ((if bits_to_N jdx =? bits_to_N idx then value
         else nth (N.to_nat (bits_to_N jdx)) elems (repeat true eb), extend_s jdx false USZ),
        push_spec o (N.of_nat n <=? bits_to_N jdx) OutOfBounds (ploc_of m')).
Proof.
  intros Heb Hall Hlen Hn Hli Hlj Hv HI.
  rewrite tsem_array_write_in_bounds by (unfold lenN; rewrite ?Hlen; assumption).
  intros [= <- <-]. split; [reflexivity|].
  rewrite tsem_array_read; try assumption.
  - f_equal. f_equal. f_equal. destruct (N.eqb_spec (bits_to_N jdx) (bits_to_N idx)) as [->|NE].
    + apply list_set_nth_same. lia.
    + apply list_set_nth_other. lia.
  - now apply list_set_all_len.
  - now rewrite list_set_length.
  - lia.
Qed.
Print Assumptions tsem_array_read_after_write.

Print Assumptions pair_layers_nth.
Print Assumptions tsem_index_layers_gen.
Print Assumptions tsem_bounds_check_mod.
Print Assumptions tsem_write_chain.
Print Assumptions tsem_write_elem.
Print Assumptions tsem_write_elems.
Print Assumptions field_offset_fold.
