(* THE GENERAL VALUE RELATION between the source-level values of Lang/Sem.v and the bit
   vectors of the bit-level semantics (Compile/TSem.v), for ALL types: [has_enc P t v w] =
   "v is a value of type t (integers in range) and w is its canonical encoding".

   1  [has_enc] / [has_encs] (mutual: a value / a list of components, concatenated), the
      views through [Forall3] / [Forall2] and [concat], the one-motive induction principle
      [has_enc_ind2]
   2  [has_enc_scalar]: on scalar types it is the relation of TSemSemExpr.v
   3  [has_enc_encode], [encode_has_enc], [has_enc_iff_encode]: it is the graph of
      [Sem.encode] on values whose integers are in range ([in_rng]), for types explored within
      the fuel ([ty_fits P t] = [ty_ok (pred ty_fuel) P t = true], Lang/ValTy.v)
   4  [has_enc_length]: [length w = szn P t]
   5  [has_enc_decode]: canonical encodings decode to the value (all types; enums need
      [enums_small]: see [decode_needs_small])
   6  projections / constructions in the vocabulary of Compile/Lower.v: [tuple_offsets],
      [struct_offsets], [slice], [splice], [concat], [unsigned_as_wires], [enum_tag_size],
      [enum_max_size], element lists with [all_len] / [list_set] (Compile/TSemArray.v)
   7  [ValEncExample]: a program with a struct, an enum and an array of tuples *)
From Coq Require Import Lia ZArith.
From GV Require Import Base.Util Base.ListFacts Base.Bits Base.BitViews Lang.Ast Lang.Wt Lang.ValTy Lang.WtSound
  Lang.WtShape Compile.Lower Compile.TSem Compile.TSemArith1 Compile.TSemControl Compile.TSemArray
  Compile.TSemSemExpr.
From GV Require Export Compile.TySize.
From GV Require Lang.Sem.
Local Open Scope N_scope.

(* ------------------------------------------------------------------ 0. integers *)

(* the encoding of TSemArith1 is the bit list of Sem.encode *)
Lemma enc_bits_of_Z n z : enc n z = Sem.bits_of_Z n z.
Proof. unfold enc. rewrite bits_of_Z_sbits_of. symmetry. apply sbits_of_N_to_bits. lia. Qed.

(* ------------------------------------------------------------------ 1. the relation *)

(* [Forall3] (three lists related pointwise) is the one of Compile/TSemSemExpr.v *)

(* the bits of an enum value: tag (big-endian, tag_bits wide), payload, zero padding up to the
   size of the enum type *)
Definition enum_bits (P : program) (name : N) (variants : list (list ty)) (tag : N)
    (payload : list bool) : list bool :=
  let body := enc (enum_tag_size variants) (Z.of_N tag) ++ payload in
  body ++ repeat false (szn P (TEnum name) - length body).

Inductive has_enc (P : program) : ty -> Sem.value -> list bool -> Prop :=
| HE_bool b : has_enc P TBool (Sem.VBool b) [b]
| HE_int sg n z : Sem.in_range sg n z = true ->
    has_enc P (TInt sg n) (Sem.VInt z) (enc (N.to_nat n) z)
| HE_arr el n vs w : lenN vs = n -> has_encs P (repeat el (length vs)) vs w ->
    has_enc P (TArr el n) (Sem.VArr vs) w
| HE_tup ts vs w : has_encs P ts vs w -> has_enc P (TTup ts) (Sem.VTup vs) w
| HE_struct name def vs w : assocN name (p_structs P) = Some def ->
    has_encs P (map snd def) vs w -> has_enc P (TStruct name) (Sem.VTup vs) w
| HE_enum name variants tag ts vs pw : assocN name (p_enums P) = Some variants ->
    nthN variants tag = Some ts -> has_encs P ts vs pw ->
    has_enc P (TEnum name) (Sem.VEnum tag vs) (enum_bits P name variants tag pw)
(* components of the types [ts], encodings concatenated *)
with has_encs (P : program) : list ty -> list Sem.value -> list bool -> Prop :=
| HEs_nil : has_encs P [] [] []
| HEs_cons t v ts vs a b : has_enc P t v a -> has_encs P ts vs b ->
    has_encs P (t :: ts) (v :: vs) (a ++ b).

Scheme has_enc_mut := Minimality for has_enc Sort Prop
  with has_encs_mut := Minimality for has_encs Sort Prop.
Combined Scheme has_enc_mutind from has_enc_mut, has_encs_mut.

(* ---- the views through lists of chunks *)

Lemma has_encs_F3 P ts vs w :
  has_encs P ts vs w <-> exists ws, Forall3 (has_enc P) ts vs ws /\ w = concat ws.
Proof.
  split.
  - induction 1 as [|t v ts vs a b Ha _ (ws & Hws & ->)].
    + exists []. split; [constructor|reflexivity].
    + exists (a :: ws). split; [now constructor|reflexivity].
  - intros (ws & Hws & ->). induction Hws as [|t v c ts vs ws Hc _ IH]; cbn [concat]; now constructor.
Qed.

Lemma F3_repeat_l {A B C} (R : A -> B -> C -> Prop) a : forall lb lc,
  Forall3 R (repeat a (length lb)) lb lc <-> Forall2 (R a) lb lc.
Proof.
  induction lb as [|b lb IH]; intros lc; cbn [repeat length]; split; intro H; inversion H; subst;
    constructor; try assumption; now apply IH.
Qed.

Lemma F3_lengths {A B C} (R : A -> B -> C -> Prop) la lb lc :
  Forall3 R la lb lc -> length la = length lb /\ length la = length lc.
Proof. induction 1 as [|a b c la lb lc _ _ [I1 I2]]; cbn [length]; split; congruence. Qed.

Lemma F3_map_l {A A' B C} (f : A' -> A) (R : A -> B -> C -> Prop) la lb lc :
  Forall3 R (map f la) lb lc <-> Forall3 (fun a => R (f a)) la lb lc.
Proof.
  revert lb lc. induction la as [|a la IH]; intros lb lc; cbn [map]; split; intro H; inversion H; subst;
    constructor; try assumption; now apply IH.
Qed.

Lemma F3_nth {A B C} (R : A -> B -> C -> Prop) la lb lc : Forall3 R la lb lc ->
  forall k a b, nth_error la k = Some a -> nth_error lb k = Some b ->
  exists c, nth_error lc k = Some c /\ R a b c.
Proof.
  induction 1 as [|a0 b0 c0 la lb lc H0 _ IH]; intros [|k] a b Ha Hb; cbn [nth_error] in *; try discriminate.
  - injection Ha as <-. injection Hb as <-. eauto.
  - eauto.
Qed.

Lemma has_encs_length P ts vs w : has_encs P ts vs w -> length ts = length vs.
Proof. induction 1; cbn [length]; congruence. Qed.

(* arrays: the element encodings, concatenated (the form of Compile/TSemArray.v) *)
Lemma has_enc_arr_iff P el n vs w :
  has_enc P (TArr el n) (Sem.VArr vs) w <->
  lenN vs = n /\ exists elems, Forall2 (has_enc P el) vs elems /\ w = concat elems.
Proof.
  split.
  - intro H. inversion H as [| |el' n' vs' w' Hn Hs| | |]; subst. split; [reflexivity|].
    apply has_encs_F3 in Hs as (ws & Hws & ->). exists ws. split; [now apply F3_repeat_l|reflexivity].
  - intros (Hn & ws & Hws & ->). constructor; [exact Hn|].
    apply has_encs_F3. exists ws. split; [now apply F3_repeat_l|reflexivity].
Qed.

Lemma has_enc_tup_iff P ts vs w :
  has_enc P (TTup ts) (Sem.VTup vs) w <-> exists ws, Forall3 (has_enc P) ts vs ws /\ w = concat ws.
Proof.
  rewrite <- has_encs_F3. split; intro H; [now inversion H|now constructor].
Qed.

Lemma has_enc_struct_iff P name vs w :
  has_enc P (TStruct name) (Sem.VTup vs) w <->
  exists def ws, assocN name (p_structs P) = Some def /\
    Forall3 (fun (nt : N * ty) => has_enc P (snd nt)) def vs ws /\ w = concat ws.
Proof.
  split.
  - intro H. inversion H as [| | | |name' def vs' w' Hd Hs|]; subst.
    apply has_encs_F3 in Hs as (ws & Hws & ->). exists def, ws. split; [exact Hd|].
    split; [apply (F3_map_l snd (has_enc P)) in Hws; exact Hws|reflexivity].
  - intros (def & ws & Hd & Hws & ->). econstructor; [exact Hd|].
    apply has_encs_F3. exists ws. split; [apply (F3_map_l snd (has_enc P)); exact Hws|reflexivity].
Qed.

Lemma has_enc_enum_iff P name tag vs w :
  has_enc P (TEnum name) (Sem.VEnum tag vs) w <->
  exists variants ts pw, assocN name (p_enums P) = Some variants /\ nthN variants tag = Some ts /\
    has_encs P ts vs pw /\ w = enum_bits P name variants tag pw.
Proof.
  split.
  - intro H. inversion H; subst. eauto 8.
  - intros (variants & ts & pw & Hd & Ht & Hs & ->). econstructor; eassumption.
Qed.

(* inversion on the type alone *)
Lemma has_enc_inv P t v w : has_enc P t v w ->
  match t with
  | TBool => exists b, v = Sem.VBool b /\ w = [b]
  | TInt sg n => exists z, v = Sem.VInt z /\ Sem.in_range sg n z = true /\ w = enc (N.to_nat n) z
  | TArr el n => exists vs, v = Sem.VArr vs /\ lenN vs = n /\ has_encs P (repeat el (length vs)) vs w
  | TTup ts => exists vs, v = Sem.VTup vs /\ has_encs P ts vs w
  | TStruct name => exists def vs, v = Sem.VTup vs /\ assocN name (p_structs P) = Some def /\
      has_encs P (map snd def) vs w
  | TEnum name => exists variants tag ts vs pw, v = Sem.VEnum tag vs /\
      assocN name (p_enums P) = Some variants /\ nthN variants tag = Some ts /\
      has_encs P ts vs pw /\ w = enum_bits P name variants tag pw
  end.
Proof. destruct 1; eauto 12. Qed.

(* ---- the one-motive induction principle *)

Lemma has_enc_ind2 P (Q : ty -> Sem.value -> list bool -> Prop) :
  (forall b, Q TBool (Sem.VBool b) [b]) ->
  (forall sg n z, Sem.in_range sg n z = true -> Q (TInt sg n) (Sem.VInt z) (enc (N.to_nat n) z)) ->
  (forall el n vs elems, lenN vs = n -> Forall2 (has_enc P el) vs elems -> Forall2 (Q el) vs elems ->
     Q (TArr el n) (Sem.VArr vs) (concat elems)) ->
  (forall ts vs ws, Forall3 (has_enc P) ts vs ws -> Forall3 Q ts vs ws ->
     Q (TTup ts) (Sem.VTup vs) (concat ws)) ->
  (forall name def vs ws, assocN name (p_structs P) = Some def ->
     Forall3 (has_enc P) (map snd def) vs ws -> Forall3 Q (map snd def) vs ws ->
     Q (TStruct name) (Sem.VTup vs) (concat ws)) ->
  (forall name variants tag ts vs ws, assocN name (p_enums P) = Some variants ->
     nthN variants tag = Some ts -> Forall3 (has_enc P) ts vs ws -> Forall3 Q ts vs ws ->
     Q (TEnum name) (Sem.VEnum tag vs) (enum_bits P name variants tag (concat ws))) ->
  forall t v w, has_enc P t v w -> Q t v w.
Proof.
  intros Hb Hi Ha Ht Hs He.
  pose (Q0 := fun ts vs w => exists ws, Forall3 (has_enc P) ts vs ws /\ Forall3 Q ts vs ws /\ w = concat ws).
  enough (Hmut : (forall t v w, has_enc P t v w -> Q t v w) /\
                 (forall ts vs w, has_encs P ts vs w -> Q0 ts vs w)) by apply Hmut.
  apply has_enc_mutind.
  - exact Hb.
  - exact Hi.
  - intros el n vs w Hn Hs0 (ws & H1 & H2 & ->). apply Ha; [exact Hn| |]; now apply F3_repeat_l.
  - intros ts vs w _ (ws & H1 & H2 & ->). now apply Ht.
  - intros name def vs w Hd _ (ws & H1 & H2 & ->). now apply (Hs name def).
  - intros name variants tag ts vs pw Hd Hn _ (ws & H1 & H2 & ->). now apply (He name variants tag ts).
  - exists []. repeat split; constructor.
  - intros t v ts vs a b Ha0 HQ _ (ws & H1 & H2 & ->). exists (a :: ws).
    repeat split; try constructor; assumption.
Qed.

(* ------------------------------------------------------------------ 2. scalars *)

Theorem has_enc_scalar P t v w : scalar_ty t = true ->
  (has_enc P t v w <-> (val_ok t v /\ w = enc_val t v)).
Proof.
  intro Hs. destruct t as [|sg n| | | |]; try discriminate Hs; split.
  - intro H. apply has_enc_inv in H as (b & -> & ->). split; [exact I|reflexivity].
  - intros [Hv ->]. destruct v; try contradiction. constructor.
  - intro H. apply has_enc_inv in H as (z & -> & Hr & ->). split; [exact Hr|reflexivity].
  - intros [Hv ->]. destruct v; try contradiction. cbn [val_ok] in Hv. now constructor.
Qed.

(* ------------------------------------------------------------------ 3. types within the fuel,
   sizes

   [ty_fits P t]: the type tree of t (through the struct / enum definitions) is explored within
   the fuel of the top-level functions of Sem.v ([ty_ok] of Lang/ValTy.v: [size_of] /
   [encode] / [decode] never hit their fuel base case inside t).  It is inherited by the
   components, and under it [szn] satisfies the layout equations Lower.v relies on. *)

Definition ty_fits (P : program) (t : ty) : Prop := ty_ok (pred Sem.ty_fuel) P t = true.

Lemma ty_fits_ty_fuel P t : ty_fits P t -> ty_ok Sem.ty_fuel P t = true.
Proof. intro H. apply (ty_ok_mono P _ t H). apply Nat.le_pred_l. Qed.

Lemma ty_fits_of_ty_ok P f t : ty_ok f P t = true -> (f <= pred Sem.ty_fuel)%nat -> ty_fits P t.
Proof. intros H Hf. exact (ty_ok_mono P f t H _ Hf). Qed.

Lemma ty_fits_bool P : ty_fits P TBool.
Proof. unfold ty_fits. rewrite ty_fuel_S. reflexivity. Qed.
Lemma ty_fits_int P sg n : ty_fits P (TInt sg n).
Proof. unfold ty_fits. rewrite ty_fuel_S. reflexivity. Qed.
Lemma ty_fits_scalar P t : scalar_ty t = true -> ty_fits P t.
Proof. destruct t; try discriminate; intros _; [apply ty_fits_bool|apply ty_fits_int]. Qed.

Lemma ty_fits_arr P el n : ty_fits P (TArr el n) -> ty_fits P el.
Proof. apply ty_ok_arr. Qed.
Lemma ty_fits_tup P ts : ty_fits P (TTup ts) -> Forall (ty_fits P) ts.
Proof. apply ty_ok_tup. Qed.
Lemma ty_fits_struct P name : ty_fits P (TStruct name) ->
  exists def, assocN name (p_structs P) = Some def /\ Forall (ty_fits P) (map snd def).
Proof. apply ty_ok_struct. Qed.
Lemma ty_fits_enum P name : ty_fits P (TEnum name) ->
  exists variants, assocN name (p_enums P) = Some variants /\ Forall (Forall (ty_fits P)) variants.
Proof. apply ty_ok_enum. Qed.

Lemma ty_fits_struct_def P name def : ty_fits P (TStruct name) -> assocN name (p_structs P) = Some def ->
  Forall (ty_fits P) (map snd def).
Proof. apply ty_ok_struct_def. Qed.

Lemma ty_fits_enum_variant P name variants tag ts : ty_fits P (TEnum name) ->
  assocN name (p_enums P) = Some variants -> nthN variants tag = Some ts -> Forall (ty_fits P) ts.
Proof. apply ty_ok_enum_variant. Qed.

Lemma Forall_nth_error {A} (Q : A -> Prop) l k a : Forall Q l -> nth_error l k = Some a -> Q a.
Proof. intros H Hk. rewrite Forall_forall in H. apply H. eapply nth_error_In. exact Hk. Qed.

Lemma Forall_repeat {A} (Q : A -> Prop) a k : Q a -> Forall Q (repeat a k).
Proof. intro H. induction k; cbn [repeat]; constructor; assumption. Qed.

Definition sum_szn (P : program) (ts : list ty) : nat := list_sum (map (szn P) ts).

(* the offset arithmetic of [tuple_offsets] *)
Lemma fold_szn P ts : fold_left (fun a t' => (a + szn P t')%nat) ts O = sum_szn P ts.
Proof. rewrite fold_left_add. reflexivity. Qed.

Lemma sum_szn_app P a b : sum_szn P (a ++ b) = (sum_szn P a + sum_szn P b)%nat.
Proof. unfold sum_szn. rewrite map_app, list_sum_app. reflexivity. Qed.

Lemma sum_szn_cons P t ts : sum_szn P (t :: ts) = (szn P t + sum_szn P ts)%nat.
Proof. reflexivity. Qed.

Lemma sum_szn_repeat P t k : sum_szn P (repeat t k) = (k * szn P t)%nat.
Proof. induction k as [|k IH]; [reflexivity|]. cbn [repeat]. rewrite sum_szn_cons, IH. lia. Qed.

(* ---- the layout equations (Compile/TySize.v) under [ty_fits] *)

Lemma szn_arr P el n : ty_fits P (TArr el n) -> szn P (TArr el n) = (szn P el * N.to_nat n)%nat.
Proof. intro H. exact (szn_arr_ok P _ el n H (Nat.le_pred_l _)). Qed.

Lemma szn_tup P ts : ty_fits P (TTup ts) -> szn P (TTup ts) = sum_szn P ts.
Proof. intro H. exact (szn_tup_ok P _ ts H (Nat.le_pred_l _)). Qed.

Lemma szn_struct P name def : ty_fits P (TStruct name) -> assocN name (p_structs P) = Some def ->
  szn P (TStruct name) = sum_szn P (map snd def).
Proof. intro H. exact (szn_struct_ok P _ name def H (Nat.le_pred_l _)). Qed.

Lemma szn_enum P name variants : ty_fits P (TEnum name) -> assocN name (p_enums P) = Some variants ->
  szn P (TEnum name) = enum_max_size P variants.
Proof. intro H. exact (szn_enum_ok P _ name variants H (Nat.le_pred_l _)). Qed.

(* ------------------------------------------------------------------ 4. length *)

Lemma length_enum_bits P name variants tag ts pw : ty_fits P (TEnum name) ->
  assocN name (p_enums P) = Some variants -> nthN variants tag = Some ts -> length pw = sum_szn P ts ->
  length (enum_bits P name variants tag pw) = szn P (TEnum name).
Proof.
  intros H Hd Ht Hl. unfold enum_bits. cbv zeta. rewrite !app_length, repeat_length, length_enc, Hl.
  rewrite (szn_enum P name variants H Hd). pose proof (enum_variant_fits P variants tag ts Ht : (_ + sum_szn P ts <= _)%nat). lia.
Qed.

Lemma has_enc_length_mut P :
  (forall t v w, has_enc P t v w -> ty_fits P t -> length w = szn P t) /\
  (forall ts vs w, has_encs P ts vs w -> Forall (ty_fits P) ts -> length w = sum_szn P ts).
Proof.
  apply has_enc_mutind.
  - reflexivity.
  - intros sg n z _ _. apply length_enc.
  - intros el n vs w Hn _ IH H. rewrite IH by (apply Forall_repeat; eapply ty_fits_arr; exact H).
    rewrite sum_szn_repeat, (szn_arr P el n H). subst n. unfold lenN. lia.
  - intros ts vs w _ IH H. rewrite (szn_tup P ts H). apply IH. now apply ty_fits_tup.
  - intros name def vs w Hd _ IH H. rewrite (szn_struct P name def H Hd). apply IH.
    now apply (ty_fits_struct_def P name).
  - intros name variants tag ts vs pw Hd Ht _ IH H.
    apply (length_enum_bits P name variants tag ts); try assumption.
    apply IH. now apply (ty_fits_enum_variant P name variants tag).
  - reflexivity.
  - intros t v ts vs a b _ IH1 _ IH2 H. inversion H as [|t' ts' H1 H2]; subst.
    rewrite app_length, IH1, IH2 by assumption. reflexivity.
Qed.

Theorem has_enc_length P t v w : has_enc P t v w -> ty_fits P t -> length w = szn P t.
Proof. apply has_enc_length_mut. Qed.

Lemma has_encs_length_sum P ts vs w : has_encs P ts vs w -> Forall (ty_fits P) ts -> length w = sum_szn P ts.
Proof. apply has_enc_length_mut. Qed.

(* the chunks of an array all have the size of the element type *)
Lemma F2_has_enc_all_len P el vs elems : ty_fits P el -> Forall2 (has_enc P el) vs elems ->
  all_len (szn P el) elems.
Proof.
  intros H. induction 1 as [|v e vs elems Hv _ IH]; constructor; [|exact IH].
  now apply (has_enc_length P el v).
Qed.

(* ------------------------------------------------------------------ 6a. components of a
   concatenation: projection ([slice]) and replacement ([splice]) *)

Lemma slice_mid {A} (a wi b : list A) : slice (a ++ wi ++ b) (length a) (length wi) = Ok wi.
Proof.
  unfold slice. rewrite !app_length.
  destruct (Nat.leb_spec (length a + length wi) (length a + (length wi + length b))) as [_|H]; [|lia].
  rewrite (skipn_app_exact a) by reflexivity. now rewrite (firstn_app_exact wi) by reflexivity.
Qed.

Lemma splice_mid {A} (a wi b wi' : list A) : length wi' = length wi ->
  splice (a ++ wi ++ b) (length a) (length wi) wi' = Ok (a ++ wi' ++ b).
Proof.
  intro Hl. unfold splice. rewrite !app_length, Hl, Nat.eqb_refl.
  destruct (Nat.leb_spec (length a + length wi) (length a + (length wi + length b))) as [_|H]; [|lia].
  cbn [andb]. rewrite (firstn_app_exact a) by reflexivity.
  rewrite (app_assoc a wi b). rewrite (skipn_app_exact (a ++ wi)) by (now rewrite app_length). reflexivity.
Qed.

Lemma has_encs_app P ts1 vs1 a : has_encs P ts1 vs1 a -> forall ts2 vs2 b, has_encs P ts2 vs2 b ->
  has_encs P (ts1 ++ ts2) (vs1 ++ vs2) (a ++ b).
Proof.
  induction 1 as [|t v ts vs a1 a2 Ha _ IH]; intros ts2 vs2 b Hb; cbn [app]; [exact Hb|].
  rewrite <- app_assoc. constructor; [exact Ha|]. now apply IH.
Qed.

Lemma has_encs_split P : forall k ts vs w ti vi, has_encs P ts vs w ->
  nth_error ts k = Some ti -> nth_error vs k = Some vi ->
  exists a wi b, w = a ++ wi ++ b /\ has_encs P (firstn k ts) (firstn k vs) a /\ has_enc P ti vi wi /\
    has_encs P (skipn (S k) ts) (skipn (S k) vs) b.
Proof.
  induction k as [|k IH]; intros ts vs w ti vi H Ht Hv; destruct H as [|t v ts vs a b Ha Hb];
    cbn [nth_error] in Ht, Hv; try discriminate.
  - injection Ht as <-. injection Hv as <-. exists [], a, b. cbn [app firstn skipn].
    repeat split; try constructor; assumption.
  - destruct (IH _ _ _ _ _ Hb Ht Hv) as (a' & wi & b' & -> & H1 & H2 & H3).
    exists (a ++ a'), wi, b'. rewrite <- app_assoc. cbn [firstn skipn].
    repeat split; try assumption. now constructor.
Qed.

Lemma Forall_firstn {A} (Q : A -> Prop) k l : Forall Q l -> Forall Q (firstn k l).
Proof.
  intro H. apply Forall_forall. intros a Ha. rewrite Forall_forall in H. apply H.
  rewrite <- (firstn_skipn k l). apply in_or_app. now left.
Qed.

Lemma set_nth_val_spec : forall l k v l', Sem.set_nth_val l k v = Some l' ->
  exists x, nth_error l k = Some x /\ l' = firstn k l ++ v :: skipn (S k) l.
Proof.
  induction l as [|x l IH]; intros [|k] v l' H; cbn [Sem.set_nth_val] in H; try discriminate.
  - injection H as <-. exists x. split; reflexivity.
  - destruct (Sem.set_nth_val l k v) as [r|] eqn:E; [|discriminate]. injection H as <-.
    destruct (IH k v r E) as (y & Hy & ->). exists y. split; [exact Hy|reflexivity].
Qed.

Lemma set_nth_val_some : forall l k v x, nth_error l k = Some x ->
  Sem.set_nth_val l k v = Some (firstn k l ++ v :: skipn (S k) l).
Proof.
  induction l as [|y l IH]; intros [|k] v x H; cbn [nth_error] in H; try discriminate; cbn [Sem.set_nth_val].
  - reflexivity.
  - rewrite (IH k v x H). reflexivity.
Qed.

Lemma set_nth_val_length l k v l' : Sem.set_nth_val l k v = Some l' -> length l' = length l.
Proof.
  intro H. destruct (set_nth_val_spec l k v l' H) as (x & Hx & ->).
  assert (k < length l)%nat by (apply nth_error_Some; congruence).
  rewrite app_length. cbn [length]. rewrite firstn_length, skipn_length. lia.
Qed.

Lemma nth_error_decomp {A} (l : list A) k x : nth_error l k = Some x ->
  l = firstn k l ++ x :: skipn (S k) l.
Proof.
  revert k. induction l as [|y l IH]; intros [|k] H; cbn [nth_error] in H; try discriminate.
  - now injection H as <-.
  - cbn [firstn skipn app]. f_equal. now apply IH.
Qed.

(* component k of a concatenation is the slice at the sum of the sizes before it *)
Lemma has_encs_proj P k ts vs w ti vi : has_encs P ts vs w -> Forall (ty_fits P) ts ->
  nth_error ts k = Some ti -> nth_error vs k = Some vi ->
  exists wi, slice w (sum_szn P (firstn k ts)) (szn P ti) = Ok wi /\ has_enc P ti vi wi.
Proof.
  intros H Hok Ht Hv. destruct (has_encs_split P k ts vs w ti vi H Ht Hv) as (a & wi & b & -> & H1 & H2 & _).
  exists wi. split; [|exact H2].
  rewrite <- (has_encs_length_sum P _ _ a H1) by now apply Forall_firstn.
  rewrite <- (has_enc_length P ti vi wi H2) by exact (Forall_nth_error _ _ _ _ Hok Ht).
  apply slice_mid.
Qed.

(* ... and replacing that slice by the encoding of another value of the component type
   encodes the updated list *)
Lemma has_encs_update P k ts vs w ti vi' wi' vs' : has_encs P ts vs w -> Forall (ty_fits P) ts ->
  nth_error ts k = Some ti -> has_enc P ti vi' wi' -> Sem.set_nth_val vs k vi' = Some vs' ->
  exists w', splice w (sum_szn P (firstn k ts)) (szn P ti) wi' = Ok w' /\ has_encs P ts vs' w'.
Proof.
  intros H Hok Ht Hn Hs. destruct (set_nth_val_spec vs k vi' vs' Hs) as (vi & Hv & ->).
  destruct (has_encs_split P k ts vs w ti vi H Ht Hv) as (a & wi & b & -> & H1 & H2 & H3).
  pose proof (Forall_nth_error _ _ _ _ Hok Ht) as Hti.
  exists (a ++ wi' ++ b). split.
  - rewrite <- (has_encs_length_sum P _ _ a H1) by now apply Forall_firstn.
    rewrite <- (has_enc_length P ti vi wi H2) by exact Hti.
    apply splice_mid. now rewrite (has_enc_length P ti vi wi H2), (has_enc_length P ti vi' wi' Hn).
  - rewrite (nth_error_decomp ts k ti Ht). apply has_encs_app; [exact H1|]. now constructor.
Qed.

(* the consecutive slices that [fields_match] / [struct_match] hand to the sub-patterns:
   component j sits at offset off + (sizes of the components before it) *)
Fixpoint enc_at (P : program) (ts : list ty) (vs : list Sem.value) (mw : list bool) (off : nat) : Prop :=
  match ts, vs with
  | [], [] => True
  | t :: tr, v :: vr =>
      (exists wi, slice mw off (szn P t) = Ok wi /\ has_enc P t v wi) /\
      enc_at P tr vr mw (off + szn P t)%nat
  | _, _ => False
  end.

Lemma has_encs_enc_at P ts vs pw : has_encs P ts vs pw -> Forall (ty_fits P) ts ->
  forall pre post, enc_at P ts vs (pre ++ pw ++ post) (length pre).
Proof.
  induction 1 as [|t v ts vs a b Ha Hb IH]; intros Hok pre post; cbn [enc_at]; [exact I|].
  inversion Hok as [|t' ts' Ht Hts]; subst. split.
  - exists a. split; [|exact Ha]. rewrite <- (has_enc_length P t v a Ha Ht), <- app_assoc. apply slice_mid.
  - rewrite <- (has_enc_length P t v a Ha Ht), <- app_length.
    replace (pre ++ (a ++ b) ++ post) with ((pre ++ a) ++ b ++ post) by (now rewrite <- !app_assoc).
    now apply IH.
Qed.

(* ------------------------------------------------------------------ 6b. tuples *)

Theorem has_enc_tuple_lit P ts vs ws : Forall3 (has_enc P) ts vs ws ->
  has_enc P (TTup ts) (Sem.VTup vs) (concat ws).
Proof. intro H. apply has_enc_tup_iff. eauto. Qed.

Theorem has_enc_tuple_proj P ts vs w i off len ti vi :
  has_enc P (TTup ts) (Sem.VTup vs) w -> ty_fits P (TTup ts) ->
  tuple_offsets P (TTup ts) i = Ok (off, len) -> nthN ts i = Some ti -> nthN vs i = Some vi ->
  exists wi, slice w off len = Ok wi /\ has_enc P ti vi wi.
Proof.
  intros H Hok Ho Ht Hv. unfold tuple_offsets in Ho. rewrite Ht in Ho. injection Ho as <- <-.
  rewrite fold_szn. rewrite nthN_spec in Ht. rewrite nthN_spec in Hv. apply has_enc_inv in H as (vs' & [= <-] & Hs).
  exact (has_encs_proj P _ ts vs w ti vi Hs (ty_fits_tup P ts Hok) Ht Hv).
Qed.

(* assignment to a tuple position: [splice] of the new encoding *)
Theorem has_enc_tuple_update P ts vs w i off len ti vi' wi' vs' :
  has_enc P (TTup ts) (Sem.VTup vs) w -> ty_fits P (TTup ts) ->
  tuple_offsets P (TTup ts) i = Ok (off, len) -> nthN ts i = Some ti ->
  has_enc P ti vi' wi' -> Sem.set_nth_val vs (N.to_nat i) vi' = Some vs' ->
  exists w', splice w off len wi' = Ok w' /\ has_enc P (TTup ts) (Sem.VTup vs') w'.
Proof.
  intros H Hok Ho Ht Hn Hs. unfold tuple_offsets in Ho. rewrite Ht in Ho. injection Ho as <- <-.
  rewrite fold_szn. rewrite nthN_spec in Ht. apply has_enc_inv in H as (vs0 & [= <-] & Hs0).
  destruct (has_encs_update P _ ts vs w ti vi' wi' vs' Hs0 (ty_fits_tup P ts Hok) Ht Hn Hs) as (w' & Hw & He).
  exists w'. split; [exact Hw|now constructor].
Qed.

(* a tuple pattern: the sub-patterns see the consecutive slices from offset 0 *)
Theorem has_enc_tuple_fields P ts vs w : has_enc P (TTup ts) (Sem.VTup vs) w -> ty_fits P (TTup ts) ->
  enc_at P ts vs w O.
Proof.
  intros H Hok. apply has_enc_inv in H as (vs0 & [= <-] & Hs).
  pose proof (has_encs_enc_at P ts vs w Hs (ty_fits_tup P ts Hok) [] []) as Hat.
  cbn [app length] in Hat. now rewrite app_nil_r in Hat.
Qed.

(* ------------------------------------------------------------------ 6c. arrays *)

Theorem has_enc_array_lit P el vs elems : Forall2 (has_enc P el) vs elems ->
  has_enc P (TArr el (lenN vs)) (Sem.VArr vs) (concat elems).
Proof. intro H. apply has_enc_arr_iff. eauto. Qed.

Lemma concat_repeat_F2 {A B} (R : A -> B -> Prop) a b k : R a b -> Forall2 R (repeat a k) (repeat b k).
Proof. intro H. induction k; cbn [repeat]; constructor; assumption. Qed.

Theorem has_enc_array_rep P el n v w : has_enc P el v w ->
  has_enc P (TArr el n) (Sem.VArr (repeat v (N.to_nat n))) (concat (repeat w (N.to_nat n))).
Proof.
  intro H. apply has_enc_arr_iff. split.
  - unfold lenN. rewrite repeat_length. lia.
  - exists (repeat w (N.to_nat n)). split; [now apply concat_repeat_F2|reflexivity].
Qed.

(* the extension to the size of the element type in EArrRep (and in the index gadgets) is
   the identity on an encoding *)
Lemma has_enc_extend_id P t v w sg : has_enc P t v w -> ty_fits P t -> extend_g tops w sg (szn P t) = Ok w.
Proof.
  intros H Hok. pose proof (has_enc_length P t v w H Hok) as Hl. unfold extend_g.
  destruct w as [|b w]; [now rewrite <- Hl|]. now rewrite Hl, Nat.eqb_refl.
Qed.

Lemma nth_error_repeat {A} (a : A) m k : (k < m)%nat -> nth_error (repeat a m) k = Some a.
Proof.
  revert k. induction m as [|m IH]; intros [|k] H; cbn [repeat nth_error]; try lia; [reflexivity|].
  apply IH. lia.
Qed.

Lemma firstn_repeat {A} (a : A) m k : (k <= m)%nat -> firstn k (repeat a m) = repeat a k.
Proof.
  revert k. induction m as [|m IH]; intros [|k] H; cbn [repeat firstn]; try lia; try reflexivity.
  f_equal. apply IH. lia.
Qed.

(* element k is the k-th chunk of the size of the element type *)
Theorem has_enc_array_proj P el n vs w k vk :
  has_enc P (TArr el n) (Sem.VArr vs) w -> ty_fits P (TArr el n) -> nth_error vs k = Some vk ->
  exists wk, slice w (k * szn P el) (szn P el) = Ok wk /\ has_enc P el vk wk.
Proof.
  intros H Hok Hv. apply has_enc_inv in H as (vs0 & [= <-] & _ & Hs).
  assert (Hk : (k < length vs)%nat) by (apply nth_error_Some; congruence).
  destruct (has_encs_proj P k _ vs w el vk Hs) as (wk & Hw & He); try assumption.
  - apply Forall_repeat. eapply ty_fits_arr. exact Hok.
  - now apply nth_error_repeat.
  - exists wk. split; [|exact He]. rewrite firstn_repeat, sum_szn_repeat in Hw by lia. exact Hw.
Qed.

(* ... and replacing that chunk by the encoding of v' encodes the updated array *)
Theorem has_enc_array_update P el n vs w k v' wv vs' :
  has_enc P (TArr el n) (Sem.VArr vs) w -> ty_fits P (TArr el n) ->
  has_enc P el v' wv -> Sem.set_nth_val vs k v' = Some vs' ->
  exists w', splice w (k * szn P el) (szn P el) wv = Ok w' /\ has_enc P (TArr el n) (Sem.VArr vs') w'.
Proof.
  intros H Hok Hn Hs. apply has_enc_inv in H as (vs0 & [= <-] & Hlen & Hs0).
  destruct (set_nth_val_spec vs k v' vs' Hs) as (x & Hx & _).
  assert (Hk : (k < length vs)%nat) by (apply nth_error_Some; congruence).
  pose proof (set_nth_val_length vs k v' vs' Hs) as Hl.
  destruct (has_encs_update P k _ vs w el v' wv vs' Hs0) as (w' & Hw & He); try assumption.
  - apply Forall_repeat. eapply ty_fits_arr. exact Hok.
  - now apply nth_error_repeat.
  - exists w'. split.
    + rewrite firstn_repeat, sum_szn_repeat in Hw by lia. exact Hw.
    + constructor; [unfold lenN in *; congruence|]. now rewrite Hl.
Qed.

(* the same on the list of chunks, in the form of the theorems of Compile/TSemArray.v *)
Lemma F2_has_enc_nth P el vs elems k vk d : Forall2 (has_enc P el) vs elems ->
  nth_error vs k = Some vk -> has_enc P el vk (nth k elems d).
Proof.
  intro H. revert k. induction H as [|v e vs elems Hv _ IH]; intros [|k] Hk; cbn [nth_error] in Hk;
    try discriminate; cbn [nth].
  - now injection Hk as <-.
  - now apply IH.
Qed.

Lemma F2_has_enc_list_set P el vs elems k v' wv vs' : Forall2 (has_enc P el) vs elems ->
  has_enc P el v' wv -> Sem.set_nth_val vs k v' = Some vs' ->
  Forall2 (has_enc P el) vs' (list_set elems k wv).
Proof.
  intros H Hn. revert k vs'. induction H as [|v e vs elems Hv Hr IH]; intros [|k] vs' Hs;
    cbn [Sem.set_nth_val] in Hs; try discriminate; cbn [list_set].
  - injection Hs as <-. now constructor.
  - destruct (Sem.set_nth_val vs k v') as [r|] eqn:E; [|discriminate]. injection Hs as <-.
    constructor; [exact Hv|]. now apply IH.
Qed.

(* the packaging the theorems of Compile/TSemArray.v ask for: n chunks of the element size *)
Theorem has_enc_array_elems P el n vs w : has_enc P (TArr el n) (Sem.VArr vs) w -> ty_fits P (TArr el n) ->
  exists elems, w = concat elems /\ Forall2 (has_enc P el) vs elems /\
    all_len (szn P el) elems /\ length elems = N.to_nat n /\ lenN vs = n /\
    array_size P (TArr el n) = Ok (szn P el, N.to_nat n).
Proof.
  intros H Hok. apply has_enc_arr_iff in H as (Hn & elems & Hf & ->). exists elems.
  split; [reflexivity|]. split; [exact Hf|]. split; [exact (F2_has_enc_all_len P el vs elems (ty_fits_arr P el n Hok) Hf)|].
  split; [|split; [exact Hn|reflexivity]].
  rewrite <- (Forall2_length_eq _ _ _ Hf). subst n. unfold lenN. lia.
Qed.

Lemma slice_Ok {A} (w : list A) off len wi : slice w off len = Ok wi -> wi = firstn len (skipn off w).
Proof. unfold slice. destruct (_ <=? _)%nat; [|discriminate]. now intros [= <-]. Qed.

(* out-of-bounds: Sem.v panics, and [list_set] is the identity *)
Lemma set_nth_val_none l k v : (length l <= k)%nat -> Sem.set_nth_val l k v = None.
Proof.
  revert k. induction l as [|x l IH]; intros [|k] H; cbn [length] in H; cbn [Sem.set_nth_val]; try reflexivity; try lia.
  rewrite IH by lia. reflexivity.
Qed.

(* ------------------------------------------------------------------ 3'. the executable encoder

   [has_enc] is the graph of [Sem.encode] on the values whose integers are in the range of their
   types ([in_rng], Lang/ValTy.v; [Sem.encode] itself does not look at ranges), for types within
   the fuel. *)

Lemma forallb2_repeat {A B} (h : A -> B -> bool) vs el :
  forallb2 h vs (repeat el (length vs)) = forallb (fun v => h v el) vs.
Proof. induction vs as [|v vs IH]; cbn [length repeat forallb2 forallb]; [reflexivity|]. now rewrite IH. Qed.

Lemma has_enc_encode_mut P :
  (forall t v w, has_enc P t v w -> forall f, ty_ok f P t = true -> (f <= Sem.ty_fuel)%nat ->
     Sem.encode (S f) P t v = Some w) /\
  (forall ts vs w, has_encs P ts vs w -> forall f, Forall (fun t => ty_ok f P t = true) ts ->
     (f <= Sem.ty_fuel)%nat -> enc_list (Sem.encode (S f) P) ts vs = Some w).
Proof.
  apply has_enc_mutind.
  - intros b f _ _. reflexivity.
  - intros sg n z _ f _ _. rewrite encode_eq. now rewrite enc_bits_of_Z.
  - intros el n vs w Hn _ IH f Hok Hf. rewrite encode_eq. destruct f as [|f]; [discriminate Hok|].
    cbn [ty_ok] in Hok. subst n. rewrite N.eqb_refl. cbn [negb]. rewrite enc_arr_list.
    apply IH; [now apply Forall_repeat|lia].
  - intros ts vs w _ IH f Hok Hf. rewrite encode_eq. destruct f as [|f]; [discriminate Hok|].
    cbn [ty_ok] in Hok. apply IH; [|lia]. apply Forall_forall. now apply forallb_forall.
  - intros name def vs w Hd _ IH f Hok Hf. rewrite encode_eq, Hd. destruct f as [|f]; [discriminate Hok|].
    cbn [ty_ok] in Hok. rewrite Hd in Hok. apply IH; [|lia]. apply Forall_forall. intros a Ha.
    apply in_map_iff in Ha as (nt & <- & Hnt). rewrite forallb_forall in Hok. now apply Hok.
  - intros name variants tag ts vs pw Hd Ht _ IH f Hok Hf. rewrite encode_eq, Hd, Ht.
    destruct f as [|f]; [discriminate Hok|]. pose proof Hok as Hok'. cbn [ty_ok] in Hok'. rewrite Hd in Hok'.
    rewrite (IH f); [| |lia].
    + cbv zeta. unfold enum_bits. cbv zeta. rewrite (szn_eq P (S f) (TEnum name) Hok Hf).
      rewrite enc_bits_of_Z. reflexivity.
    + rewrite forallb_forall in Hok'. pose proof (Hok' ts (nthN_In _ _ _ Ht)) as Hts.
      apply Forall_forall. now apply forallb_forall.
  - intros f _ _. reflexivity.
  - intros t v ts vs a b _ IH1 _ IH2 f Hall Hf. inversion Hall as [|t' ts' H1 H2]; subst.
    cbn [enc_list]. now rewrite (IH1 f H1 Hf), (IH2 f H2 Hf).
Qed.

Theorem has_enc_encode P t v w : has_enc P t v w -> ty_fits P t -> Sem.encode Sem.ty_fuel P t v = Some w.
Proof.
  intros H Hok. rewrite ty_fuel_S. apply has_enc_encode_mut; [exact H|exact Hok|apply Nat.le_pred_l].
Qed.

Lemma enc_list_has_encs P (g : ty -> Sem.value -> option (list bool)) ts :
  (forall t v w, In t ts -> g t v = Some w -> in_rng P v t = true -> has_enc P t v w) ->
  forall vs w, enc_list g ts vs = Some w -> forallb2 (in_rng P) vs ts = true -> has_encs P ts vs w.
Proof.
  induction ts as [|t ts IH]; intros Hg [|v vs] w He Hr; cbn [enc_list forallb2] in He, Hr; try discriminate.
  - injection He as <-. constructor.
  - destruct (g t v) as [a|] eqn:Ea; [|discriminate He].
    destruct (enc_list g ts vs) as [b|] eqn:Eb; [|discriminate He]. injection He as <-.
    apply andb_prop in Hr as [Hr1 Hr2]. constructor.
    + apply Hg; [now left|exact Ea|exact Hr1].
    + apply IH; [|exact Eb|exact Hr2]. intros t0 v0 w0 Hin. apply Hg. now right.
Qed.

Lemma encode_has_enc_gen P : forall f t v w, ty_ok f P t = true -> (f <= Sem.ty_fuel)%nat ->
  Sem.encode (S f) P t v = Some w -> in_rng P v t = true -> has_enc P t v w.
Proof.
  induction f as [|f IH]; intros t v w Hok Hf He Hr; [discriminate Hok|].
  rewrite encode_eq in He. assert (Hf' : (f <= Sem.ty_fuel)%nat) by lia.
  pose proof Hok as Hok'. cbn [ty_ok] in Hok'.
  destruct t as [|sg n|el n|ts|name|name], v as [b|z|vs|vs|tag vs]; try discriminate He.
  - injection He as <-. constructor.
  - injection He as <-. rewrite <- enc_bits_of_Z. constructor. exact Hr.
  - destruct (lenN vs =? n) eqn:En; cbn [negb] in He; [|discriminate He]. apply N.eqb_eq in En.
    rewrite enc_arr_list in He. rewrite in_rng_arr in Hr. constructor; [exact En|].
    apply (enc_list_has_encs P (Sem.encode (S f) P)); [|exact He|now rewrite forallb2_repeat].
    intros t v w0 Hin. apply repeat_spec in Hin. subst t. now apply IH.
  - rewrite in_rng_tup in Hr. constructor.
    apply (enc_list_has_encs P (Sem.encode (S f) P)); [|exact He|exact Hr].
    intros t v w0 Hin. apply IH; [|exact Hf']. rewrite forallb_forall in Hok'. now apply Hok'.
  - destruct (assocN name (p_structs P)) as [def|] eqn:Hd; [|discriminate He].
    rewrite in_rng_struct, Hd in Hr. apply (HE_struct P name def); [exact Hd|].
    apply (enc_list_has_encs P (Sem.encode (S f) P)); [|exact He|exact Hr].
    intros t v w0 Hin. apply in_map_iff in Hin as (nt & <- & Hnt). apply IH; [|exact Hf'].
    rewrite forallb_forall in Hok'. now apply Hok'.
  - destruct (assocN name (p_enums P)) as [variants|] eqn:Hd; [|discriminate He].
    destruct (nthN variants tag) as [ts|] eqn:Ht; [|discriminate He].
    destruct (enc_list (Sem.encode (S f) P) ts vs) as [payload|] eqn:Ep; [|discriminate He].
    rewrite in_rng_enum, Hd, Ht in Hr.
    assert (Hw : w = enum_bits P name variants tag payload).
    { cbv zeta in He. injection He as <-. unfold enum_bits. cbv zeta.
      rewrite (szn_eq P (S f) (TEnum name) Hok Hf), enc_bits_of_Z. reflexivity. }
    subst w.
    apply (HE_enum P name variants tag ts vs payload Hd Ht).
    apply (enc_list_has_encs P (Sem.encode (S f) P)); [|exact Ep|exact Hr].
    intros t v w0 Hin. apply IH; [|exact Hf']. rewrite forallb_forall in Hok'.
    pose proof (Hok' ts (nthN_In _ _ _ Ht)) as Hts. rewrite forallb_forall in Hts. now apply Hts.
Qed.

Theorem encode_has_enc P t v w : ty_fits P t -> Sem.encode Sem.ty_fuel P t v = Some w ->
  in_rng P v t = true -> has_enc P t v w.
Proof.
  intros Hok He Hr. rewrite ty_fuel_S in He.
  exact (encode_has_enc_gen P _ t v w Hok (Nat.le_pred_l _) He Hr).
Qed.

(* a value related to some bits has the type (shape) and all its integers are in range *)
Lemma has_enc_typed_mut P :
  (forall t v w, has_enc P t v w -> has_ty P v t = true /\ in_rng P v t = true) /\
  (forall ts vs w, has_encs P ts vs w ->
     forallb2 (has_ty P) vs ts = true /\ forallb2 (in_rng P) vs ts = true).
Proof.
  apply has_enc_mutind.
  - intro b. split; reflexivity.
  - intros sg n z Hr. split; [reflexivity|exact Hr].
  - intros el n vs w Hn _ [IH1 IH2]. rewrite has_ty_arr, in_rng_arr. rewrite forallb2_repeat in IH1, IH2.
    subst n. now rewrite N.eqb_refl, IH1, IH2.
  - intros ts vs w _ [IH1 IH2]. now rewrite has_ty_tup, in_rng_tup.
  - intros name def vs w Hd _ [IH1 IH2]. now rewrite has_ty_struct, in_rng_struct, Hd.
  - intros name variants tag ts vs pw Hd Ht _ [IH1 IH2]. now rewrite has_ty_enum, in_rng_enum, Hd, Ht.
  - split; reflexivity.
  - intros t v ts vs a b _ [I1 I2] _ [I3 I4]. cbn [forallb2]. now rewrite I1, I2, I3, I4.
Qed.

Lemma has_enc_has_ty P t v w : has_enc P t v w -> has_ty P v t = true.
Proof. intro H. now apply has_enc_typed_mut in H. Qed.

Lemma has_enc_in_rng P t v w : has_enc P t v w -> in_rng P v t = true.
Proof. intro H. now apply has_enc_typed_mut in H. Qed.

Theorem has_enc_iff_encode P t v w : ty_fits P t ->
  (has_enc P t v w <-> (Sem.encode Sem.ty_fuel P t v = Some w /\ in_rng P v t = true)).
Proof.
  intro Hok. split.
  - intro H. split; [now apply has_enc_encode|now apply (has_enc_in_rng P t v w)].
  - intros [He Hr]. now apply encode_has_enc.
Qed.

(* the relation is functional in both directions *)
Lemma has_enc_det P t v w w' : ty_fits P t -> has_enc P t v w -> has_enc P t v w' -> w = w'.
Proof. intros Hok H H'. apply (has_enc_encode P t v _) in H, H'; try assumption. congruence. Qed.

(* every typed, in-range value of a type within the fuel has an encoding *)
Theorem has_enc_total P t v : ty_fits P t -> has_ty P v t = true -> in_rng P v t = true ->
  exists w, has_enc P t v w.
Proof.
  intros Hok Hty Hr. destruct (encode_sizeof P t v Hok Hty) as (w & He & _).
  exists w. now apply encode_has_enc.
Qed.

(* ------------------------------------------------------------------ 5. decoding *)

Theorem has_enc_decode P t v w rest : enums_small P = true -> has_enc P t v w -> ty_fits P t ->
  Sem.decode Sem.ty_fuel P t (w ++ rest) = Some (v, rest).
Proof.
  intros Hsm H Hok. rewrite ty_fuel_S.
  apply (decode_encode P Hsm _ t v Hok (has_enc_has_ty P t v w H) (has_enc_in_rng P t v w H)).
  apply has_enc_encode_mut; [exact H|exact Hok|apply Nat.le_pred_l].
Qed.

Corollary has_enc_decode_all P t v w : enums_small P = true -> has_enc P t v w -> ty_fits P t ->
  Sem.decode Sem.ty_fuel P t w = Some (v, []).
Proof. intros Hsm H Hok. rewrite <- (app_nil_r w). now apply has_enc_decode. Qed.

(* ... so decoding is injective on encodings: the value is determined by the bits *)
Lemma has_enc_inj P t v v' w : enums_small P = true -> ty_fits P t ->
  has_enc P t v w -> has_enc P t v' w -> v = v'.
Proof.
  intros Hsm Hok H H'. apply (has_enc_decode_all P t _ w Hsm) in H, H'; try assumption. congruence.
Qed.

(* ------------------------------------------------------------------ 6d. structs *)

Theorem has_enc_struct_lit P name def vs ws : assocN name (p_structs P) = Some def ->
  Forall3 (has_enc P) (map snd def) vs ws -> has_enc P (TStruct name) (Sem.VTup vs) (concat ws).
Proof. intros Hd H. apply (HE_struct P name def); [exact Hd|]. apply has_encs_F3. eauto. Qed.

(* the loop of [field_offsets] finds the field at the position [Sem.index_of] gives it, at the
   sum of the sizes of the fields before it *)
Lemma field_offsets_spec P fld : forall fields before i0 off len,
  field_offsets P fields fld before = Ok (off, len) ->
  exists k ti, Sem.index_of fld (map fst fields) i0 = Some (i0 + N.of_nat k) /\
    nth_error (map snd fields) k = Some ti /\
    off = (before + sum_szn P (firstn k (map snd fields)))%nat /\ len = szn P ti.
Proof.
  induction fields as [|[fname fty] r IH]; intros before i0 off len H; cbn [field_offsets] in H; [discriminate H|].
  cbn [map fst snd Sem.index_of]. rewrite (N.eqb_sym fld fname).
  destruct (fname =? fld) eqn:E.
  - injection H as <- <-. exists O, fty. cbn [nth_error firstn]. repeat split.
    + f_equal. lia.
    + unfold sum_szn. cbn [map list_sum fold_right]. lia.
  - destruct (IH _ (i0 + 1) _ _ H) as (k & ti & H1 & H2 & -> & ->). exists (S k), ti.
    cbn [nth_error firstn]. rewrite H1. repeat split.
    + f_equal. lia.
    + exact H2.
    + rewrite sum_szn_cons. lia.
Qed.

Lemma field_offsets_total P fld : forall fields before i0 j,
  Sem.index_of fld (map fst fields) i0 = Some j -> exists off len, field_offsets P fields fld before = Ok (off, len).
Proof.
  induction fields as [|[fname fty] r IH]; intros before i0 j H; cbn [map fst Sem.index_of] in H; [discriminate H|].
  cbn [field_offsets]. rewrite (N.eqb_sym fname fld). destruct (fld =? fname); [eauto|].
  exact (IH _ _ _ H).
Qed.

Lemma struct_offsets_spec P name def fld off len k : assocN name (p_structs P) = Some def ->
  struct_offsets P (TStruct name) fld = Ok (off, len) -> Sem.index_of fld (map fst def) 0 = Some k ->
  exists ti, nth_error (map snd def) (N.to_nat k) = Some ti /\
    off = sum_szn P (firstn (N.to_nat k) (map snd def)) /\ len = szn P ti.
Proof.
  intros Hd Ho Hi. unfold struct_offsets in Ho. rewrite Hd in Ho.
  destruct (field_offsets_spec P fld def O 0 off len Ho) as (k' & ti & H1 & H2 & H3 & H4).
  rewrite H1 in Hi. injection Hi as <-. replace (N.to_nat (0 + N.of_nat k')) with k' by lia.
  exists ti. repeat split; [exact H2|lia|exact H4].
Qed.

Theorem has_enc_struct_proj P name def vs w fld off len k vi :
  has_enc P (TStruct name) (Sem.VTup vs) w -> ty_fits P (TStruct name) ->
  assocN name (p_structs P) = Some def ->
  struct_offsets P (TStruct name) fld = Ok (off, len) ->
  Sem.index_of fld (map fst def) 0 = Some k -> nthN vs k = Some vi ->
  exists ti wi, nthN (map snd def) k = Some ti /\ slice w off len = Ok wi /\ has_enc P ti vi wi.
Proof.
  intros H Hok Hd Ho Hi Hv.
  destruct (struct_offsets_spec P name def fld off len k Hd Ho Hi) as (ti & Ht & -> & ->).
  apply has_enc_inv in H as (def' & vs0 & [= <-] & Hd' & Hs).
  assert (def' = def) as -> by congruence. rewrite nthN_spec in Hv.
  destruct (has_encs_proj P _ _ vs w ti vi Hs (ty_fits_struct_def P name def Hok Hd) Ht Hv) as (wi & Hw & He).
  exists ti, wi. rewrite nthN_spec. auto.
Qed.

(* assignment to a field *)
Theorem has_enc_struct_update P name def vs w fld off len k vi' wi' vs' ti :
  has_enc P (TStruct name) (Sem.VTup vs) w -> ty_fits P (TStruct name) ->
  assocN name (p_structs P) = Some def ->
  struct_offsets P (TStruct name) fld = Ok (off, len) ->
  Sem.index_of fld (map fst def) 0 = Some k -> nthN (map snd def) k = Some ti ->
  has_enc P ti vi' wi' -> Sem.set_nth_val vs (N.to_nat k) vi' = Some vs' ->
  exists w', splice w off len wi' = Ok w' /\ has_enc P (TStruct name) (Sem.VTup vs') w'.
Proof.
  intros H Hok Hd Ho Hi Hti Hn Hs.
  destruct (struct_offsets_spec P name def fld off len k Hd Ho Hi) as (ti' & Ht & -> & ->).
  rewrite nthN_spec in Hti. assert (ti' = ti) as -> by congruence.
  apply has_enc_inv in H as (def' & vs0 & [= <-] & Hd' & Hs0).
  assert (def' = def) as -> by congruence.
  destruct (has_encs_update P _ _ vs w ti vi' wi' vs' Hs0 (ty_fits_struct_def P name def Hok Hd) Ht Hn Hs)
    as (w' & Hw & He).
  exists w'. split; [exact Hw|]. now apply (HE_struct P name def).
Qed.

(* a struct pattern: [struct_match] walks the definition from offset 0 *)
Theorem has_enc_struct_fields P name def vs w : has_enc P (TStruct name) (Sem.VTup vs) w ->
  ty_fits P (TStruct name) -> assocN name (p_structs P) = Some def -> enc_at P (map snd def) vs w O.
Proof.
  intros H Hok Hd. apply has_enc_inv in H as (def' & vs0 & [= <-] & Hd' & Hs).
  assert (def' = def) as -> by congruence.
  pose proof (has_encs_enc_at P _ vs w Hs (ty_fits_struct_def P name def Hok Hd) [] []) as Hat.
  cbn [app length] in Hat. now rewrite app_nil_r in Hat.
Qed.

(* component k of a list of consecutive slices *)
Lemma enc_at_nth P : forall ts vs mw off k tk vk, enc_at P ts vs mw off ->
  nth_error ts k = Some tk -> nth_error vs k = Some vk ->
  exists wk, slice mw (off + sum_szn P (firstn k ts)) (szn P tk) = Ok wk /\ has_enc P tk vk wk.
Proof.
  induction ts as [|t ts IH]; intros [|v vs] mw off [|k] tk vk H Ht Hv; cbn [nth_error] in Ht, Hv;
    try discriminate; cbn [enc_at] in H; destruct H as [(wi & Hw & He) Hr].
  - injection Ht as <-. injection Hv as <-. exists wi. cbn [firstn]. unfold sum_szn. cbn [map list_sum fold_right].
    now rewrite Nat.add_0_r.
  - destruct (IH vs mw _ k tk vk Hr Ht Hv) as (wk & Hwk & Hek). exists wk. split; [|exact Hek].
    cbn [firstn]. rewrite sum_szn_cons, Nat.add_assoc. exact Hwk.
Qed.

Lemma enc_at_length P : forall ts vs mw off, enc_at P ts vs mw off -> length ts = length vs.
Proof.
  induction ts as [|t ts IH]; intros [|v vs] mw off H; cbn [enc_at] in H; try contradiction; [reflexivity|].
  cbn [length]. f_equal. exact (IH vs mw _ (proj2 H)).
Qed.

(* ------------------------------------------------------------------ 6e. enums *)

Lemma length_tag_enc variants tag : length (enc (enum_tag_size variants) (Z.of_N tag)) = enum_tag_size variants.
Proof. apply length_enc. Qed.

(* the tag wires of EEnumLit / of the enum patterns, on Booleans *)
Lemma tsem_tag_wires variants tag :
  unsigned_as_wires tops tag (enum_tag_size variants) = enc (enum_tag_size variants) (Z.of_N tag).
Proof. apply TSemControl.tsem_unsigned_as_wires. Qed.

(* the bit list that the EEnumLit case of [lower_expr_body] builds (in [tops]) from the
   encodings of the arguments: its size test succeeds and the result encodes the enum value *)
Theorem has_enc_enum_lit P name variants tag ts vs ws :
  ty_fits P (TEnum name) -> assocN name (p_enums P) = Some variants -> nthN variants tag = Some ts ->
  Forall3 (has_enc P) ts vs ws ->
  let payload := concat ws in
  let tag_size := enum_tag_size variants in
  let max_size := enum_max_size P variants in
  (tag_size + length payload <=? max_size)%nat = true /\
  has_enc P (TEnum name) (Sem.VEnum tag vs)
    (unsigned_as_wires tops tag tag_size ++ payload
       ++ repeat (wF tops) (max_size - tag_size - length payload)).
Proof.
  intros Hok Hd Ht Hws payload tag_size max_size.
  assert (Hs : has_encs P ts vs payload) by (apply has_encs_F3; eauto).
  pose proof (has_encs_length_sum P ts vs payload Hs (ty_fits_enum_variant P name variants tag ts Hok Hd Ht)) as Hl.
  pose proof (enum_variant_fits P variants tag ts Ht : (_ + sum_szn P ts <= _)%nat) as Hfit.
  fold tag_size max_size in Hfit.
  split; [apply Nat.leb_le; lia|].
  assert (unsigned_as_wires tops tag tag_size ++ payload ++ repeat (wF tops) (max_size - tag_size - length payload)
          = enum_bits P name variants tag payload) as ->.
  { unfold enum_bits. cbv zeta. rewrite (szn_enum P name variants Hok Hd). fold tag_size max_size.
    unfold tag_size at 1. rewrite tsem_tag_wires. fold tag_size.
    rewrite app_length, length_enc, <- app_assoc, Nat.sub_add_distr. reflexivity. }
  now apply (HE_enum P name variants tag ts).
Qed.

(* from the encoding of an enum value: its variant, the tag wires (what PEnumUnit / PEnumTup
   compare with [unsigned_as_wires variant tag_size]), the payload fields at the offsets
   [fields_match mw (zip_sizes ps field_types) tag_size] walks through, the total size *)
Theorem has_enc_enum_inv P name variants tag vs w :
  has_enc P (TEnum name) (Sem.VEnum tag vs) w -> ty_fits P (TEnum name) ->
  assocN name (p_enums P) = Some variants ->
  exists ts, nthN variants tag = Some ts /\
    slice w 0 (enum_tag_size variants) = Ok (unsigned_as_wires tops tag (enum_tag_size variants)) /\
    enc_at P ts vs w (enum_tag_size variants) /\
    length w = enum_max_size P variants.
Proof.
  intros H Hok Hd. pose proof (has_enc_length P _ _ _ H Hok) as Hlen. rewrite (szn_enum P name variants Hok Hd) in Hlen.
  apply has_enc_inv in H as (variants' & tag' & ts & vs' & pw & [= <- <-] & Hd' & Ht & Hs & ->).
  assert (variants' = variants) as -> by congruence.
  exists ts. split; [exact Ht|]. rewrite tsem_tag_wires. unfold enum_bits. cbv zeta.
  set (tg := enc (enum_tag_size variants) (Z.of_N tag)).
  set (pad := repeat false (szn P (TEnum name) - length (tg ++ pw))).
  assert (Ltg : length tg = enum_tag_size variants) by apply length_enc.
  split; [|split; [|exact Hlen]].
  - rewrite <- Ltg, <- app_assoc. exact (slice_mid [] tg (pw ++ pad)).
  - rewrite <- Ltg, <- app_assoc.
    exact (has_encs_enc_at P ts vs pw Hs (ty_fits_enum_variant P name variants tag ts Hok Hd Ht) tg pad).
Qed.

Theorem has_enc_enum_field P name variants tag ts vs w k tk vk :
  has_enc P (TEnum name) (Sem.VEnum tag vs) w -> ty_fits P (TEnum name) ->
  assocN name (p_enums P) = Some variants -> nthN variants tag = Some ts ->
  nth_error ts k = Some tk -> nth_error vs k = Some vk ->
  exists wk, slice w (enum_tag_size variants + sum_szn P (firstn k ts)) (szn P tk) = Ok wk /\
    has_enc P tk vk wk.
Proof.
  intros H Hok Hd Ht Htk Hvk.
  destruct (has_enc_enum_inv P name variants tag vs w H Hok Hd) as (ts' & Ht' & _ & Hat & _).
  assert (ts' = ts) as -> by congruence.
  exact (enc_at_nth P ts vs w _ k tk vk Hat Htk Hvk).
Qed.

(* the field sizes [zip_sizes] pairs the sub-patterns with *)
Lemma zip_sizes_snd P : forall ps ts, length ps = length ts ->
  map snd (zip_sizes P ps ts) = map (szn P) ts.
Proof.
  induction ps as [|p ps IH]; intros [|t ts] H; cbn [length] in H; try discriminate; [reflexivity|].
  cbn [zip_sizes map snd]. f_equal. apply IH. lia.
Qed.

(* tags of different variants have different wires (enums with at most 2^64 variants) *)
Lemma enum_tag_small variants tag ts : lenN variants <= 2 ^ 64 -> nthN variants tag = Some ts ->
  (0 <= Z.of_N tag < 2 ^ Z.of_nat (enum_tag_size variants))%Z.
Proof.
  intros Hsm Ht. pose proof (nthN_lt _ _ _ Ht) as Hlt. pose proof (tag_bits_spec _ Hsm) as Hb.
  unfold enum_tag_size. rewrite N_nat_Z, <- pow2_N_Z. lia.
Qed.

Lemma enum_tag_enc_inj variants tag tag' ts ts' : lenN variants <= 2 ^ 64 ->
  nthN variants tag = Some ts -> nthN variants tag' = Some ts' ->
  enc (enum_tag_size variants) (Z.of_N tag) = enc (enum_tag_size variants) (Z.of_N tag') -> tag = tag'.
Proof.
  intros Hsm Ht Ht' He. apply (f_equal uval) in He. rewrite !uval_enc in He.
  rewrite !Z.mod_small in He by (eapply enum_tag_small; eassumption). lia.
Qed.

Lemma enums_small_variants P name variants : enums_small P = true ->
  assocN name (p_enums P) = Some variants -> lenN variants <= 2 ^ 64.
Proof.
  intros Hsm Hd. destruct (assocN_In _ _ _ Hd) as (k' & Hk). unfold enums_small in Hsm.
  rewrite forallb_forall in Hsm. specialize (Hsm _ Hk). cbn [snd] in Hsm. now apply N.leb_le in Hsm.
Qed.

(* two values of the same enum type with the same tag wires are of the same variant *)
Lemma has_enc_enum_tag_eq P name tag vs w tag' vs' w' variants : enums_small P = true ->
  ty_fits P (TEnum name) -> assocN name (p_enums P) = Some variants ->
  has_enc P (TEnum name) (Sem.VEnum tag vs) w -> has_enc P (TEnum name) (Sem.VEnum tag' vs') w' ->
  slice w 0 (enum_tag_size variants) = slice w' 0 (enum_tag_size variants) -> tag = tag'.
Proof.
  intros Hsm Hok Hd H H' Hs.
  destruct (has_enc_enum_inv P name variants tag vs w H Hok Hd) as (ts & Ht & Hw & _).
  destruct (has_enc_enum_inv P name variants tag' vs' w' H' Hok Hd) as (ts' & Ht' & Hw' & _).
  rewrite Hw, Hw', !tsem_tag_wires in Hs. injection Hs as Hs.
  exact (enum_tag_enc_inj variants tag tag' ts ts' (enums_small_variants P name variants Hsm Hd) Ht Ht' Hs).
Qed.

(* ------------------------------------------------------------------ 5'. [enums_small] is
   needed in [has_enc_decode]: with more than 2^64 variants the tag width [Sem.tag_bits]
   stops at 64 bits, the tag 2^64 is encoded as 64 zeros and decodes as variant 0.  (Such an
   enum is a mathematical object only -- the list of variants is never computed below.) *)

Lemma forallb_repeat {A} (h : A -> bool) a k : h a = true -> forallb h (repeat a k) = true.
Proof. intro H. induction k as [|k IH]; cbn [repeat forallb]; [reflexivity|]. now rewrite H, IH. Qed.

Lemma pred_ty_fuel_S : pred Sem.ty_fuel = S (pred (pred Sem.ty_fuel)).
Proof. vm_compute. reflexivity. Qed.

Section Big.
  Let big : nat := N.to_nat (2 ^ 64 + 1).
  Let variants : list (list ty) := repeat [] big.
  Let BP : program := mkProgram [] [(0, variants)] [] [] 0.

  Let len_variants : lenN variants = 2 ^ 64 + 1.
  Proof. unfold lenN, variants, big. rewrite repeat_length. apply N2Nat.id. Qed.

  Let tag_size_64 : enum_tag_size variants = 64%nat.
  Proof. unfold enum_tag_size. rewrite len_variants. vm_compute. reflexivity. Qed.

  Let Hd : assocN 0 (p_enums BP) = Some variants.
  Proof. cbn [p_enums BP assocN]. change (0 =? 0) with true. reflexivity. Qed.

  Let Hnth : nthN variants (2 ^ 64) = Some [].
  Proof. rewrite nthN_spec. unfold variants, big. apply nth_error_repeat. lia. Qed.

  Let Htok : ty_fits BP (TEnum 0).
  Proof.
    unfold ty_fits. rewrite pred_ty_fuel_S. cbn [ty_ok]. rewrite Hd. unfold variants. now apply forallb_repeat.
  Qed.

  Let Henc : has_enc BP (TEnum 0) (Sem.VEnum (2 ^ 64) []) (enum_bits BP 0 variants (2 ^ 64) []).
  Proof. apply (HE_enum BP 0 variants (2 ^ 64) [] [] [] Hd Hnth). constructor. Qed.

  Theorem decode_needs_small : exists P t v w,
    ty_fits P t /\ has_enc P t v w /\ Sem.decode Sem.ty_fuel P t (w ++ []) <> Some (v, []).
  Proof.
    exists BP, (TEnum 0), (Sem.VEnum (2 ^ 64) []), (enum_bits BP 0 variants (2 ^ 64) []).
    split; [exact Htok|]. split; [exact Henc|].
    rewrite ty_fuel_S, decode_eq, Hd. cbv zeta.
    destruct (_ <? _)%nat; [discriminate|].
    match goal with |- context [nthN variants ?tg] => set (tg0 := tg) end.
    assert (Htg : tg0 = 0).
    { unfold tg0, enum_bits, enum_tag_size. cbv zeta. rewrite len_variants.
      assert (H64 : N.to_nat (Sem.tag_bits (2 ^ 64 + 1)) = 64%nat) by (vm_compute; reflexivity).
      rewrite H64. rewrite <- !app_assoc.
      rewrite firstn_app_exact by apply length_enc. rewrite enc_bits_of_Z, unsigned_of_bits_of_Z.
      vm_compute. reflexivity. }
    destruct (nthN variants tg0) as [ts|]; [|discriminate].
    match goal with |- context [dec_list ?d ts ?b] => destruct (dec_list d ts b) as [[vs r]|] end; [|discriminate].
    intro H. clearbody tg0.
    apply (f_equal (fun o => match o with Some (Sem.VEnum tg _, _) => tg | _ => 0 end)) in H.
    cbv beta iota in H. rewrite Htg in H. discriminate H.
  Qed.
End Big.

(* ------------------------------------------------------------------ 7. an example *)

Module ValEncExample.
  (* struct S { a: u8, b: bool }      enum E { A, B(u8), C(S, bool) }  *)
  Definition S_ : N := 1.
  Definition E_ : N := 2.
  Definition prog : program :=
    mkProgram [(S_, [(10, TInt false 8); (11, TBool)])]
              [(E_, [[]; [TInt false 8]; [TStruct S_; TBool]])]
              [] [] 0.

  (* (S, E, [(bool, i8); 2], E) *)
  Definition t : ty := TTup [TStruct S_; TEnum E_; TArr (TTup [TBool; TInt true 8]) 2; TEnum E_].

  Definition v : Sem.value :=
    Sem.VTup [Sem.VTup [Sem.VInt 200; Sem.VBool true];
              Sem.VEnum 1 [Sem.VInt 7];
              Sem.VArr [Sem.VTup [Sem.VBool true; Sem.VInt (-3)]; Sem.VTup [Sem.VBool false; Sem.VInt 5]];
              Sem.VEnum 2 [Sem.VTup [Sem.VInt 1; Sem.VBool false]; Sem.VBool true]].

  Definition bits : list bool :=
    Eval vm_compute in match Sem.encode Sem.ty_fuel prog t v with Some w => w | None => [] end.

  Lemma t_fits : ty_fits prog t.
  Proof. vm_compute. reflexivity. Qed.

  Example encode_bits : Sem.encode Sem.ty_fuel prog t v = Some bits.
  Proof. vm_compute. reflexivity. Qed.

  (* 9 bits of S, 2 + 10 of E (the variant B(7) is padded with two zeros), 2 * 9 of the array, 12 of E *)
  Example bits_length : length bits = 51%nat /\ szn prog t = 51%nat /\ szn prog (TEnum E_) = 12%nat.
  Proof. vm_compute. auto. Qed.

  Example v_has_enc : has_enc prog t v bits.
  Proof. apply encode_has_enc; [exact t_fits|exact encode_bits|vm_compute; reflexivity]. Qed.

  Example v_decodes : Sem.decode Sem.ty_fuel prog t bits = Some (v, []).
  Proof. apply has_enc_decode_all; [vm_compute; reflexivity|exact v_has_enc|exact t_fits]. Qed.

  (* an out-of-range integer is not a value of the type, although Sem.encode accepts it *)
  Example out_of_range : Sem.encode Sem.ty_fuel prog (TInt false 8) (Sem.VInt 256) = Some (repeat false 8) /\
    forall w, ~ has_enc prog (TInt false 8) (Sem.VInt 256) w.
  Proof.
    split; [vm_compute; reflexivity|]. intros w H. apply has_enc_inv in H as (z & [= <-] & Hr & _).
    vm_compute in Hr. discriminate Hr.
  Qed.

  (* the same relation built bottom-up with the constructions of section 6, for the second
     component: the bit list of EEnumLit for E::B(7) *)
  Example enum_lit_B :
    has_enc prog (TEnum E_) (Sem.VEnum 1 [Sem.VInt 7])
      (unsigned_as_wires tops 1 2 ++ enc 8 7 ++ repeat false 2) /\
    unsigned_as_wires tops 1 2 ++ enc 8 7 ++ repeat false 2 = firstn 12 (skipn 9 bits).
  Proof.
    split; [|vm_compute; reflexivity].
    assert (Hok : ty_fits prog (TEnum E_)) by (vm_compute; reflexivity).
    destruct (has_enc_enum_lit prog E_ [[]; [TInt false 8]; [TStruct S_; TBool]] 1 [TInt false 8]
                [Sem.VInt 7] [enc 8 7] Hok eq_refl eq_refl) as [_ H].
    - constructor; [|constructor]. apply (HE_int prog false 8 7). reflexivity.
    - exact H.
  Qed.

  (* projections: the field b of the struct inside the variant C of the last component *)
  Example proj_C_S_b : exists w1 w2 w3,
    slice bits 39 12 = Ok w1 /\ has_enc prog (TEnum E_) (Sem.VEnum 2 [Sem.VTup [Sem.VInt 1; Sem.VBool false]; Sem.VBool true]) w1 /\
    slice w1 2 9 = Ok w2 /\ has_enc prog (TStruct S_) (Sem.VTup [Sem.VInt 1; Sem.VBool false]) w2 /\
    slice w2 8 1 = Ok w3 /\ has_enc prog TBool (Sem.VBool false) w3.
  Proof.
    assert (Hok : ty_fits prog t) by exact t_fits.
    destruct (has_enc_tuple_proj prog _ _ bits 3 39%nat 12%nat (TEnum E_) _ v_has_enc Hok eq_refl eq_refl eq_refl)
      as (w1 & Hs1 & H1).
    assert (Hok1 : ty_fits prog (TEnum E_)) by (vm_compute; reflexivity).
    destruct (has_enc_enum_field prog E_ _ 2 [TStruct S_; TBool] _ w1 0 (TStruct S_) _ H1 Hok1 eq_refl eq_refl eq_refl eq_refl)
      as (w2 & Hs2 & H2).
    assert (Hok2 : ty_fits prog (TStruct S_)) by (vm_compute; reflexivity).
    destruct (has_enc_struct_proj prog S_ _ _ w2 11 8%nat 1%nat 1 _ H2 Hok2 eq_refl eq_refl eq_refl eq_refl)
      as (ti & w3 & Hti & Hs3 & H3).
    injection Hti as <-.
    exists w1, w2, w3. repeat split; assumption.
  Qed.
End ValEncExample.

Print Assumptions has_enc_ind2.
Print Assumptions has_enc_scalar.
Print Assumptions has_enc_length.
Print Assumptions has_enc_iff_encode.
Print Assumptions has_enc_total.
Print Assumptions has_enc_decode.
Print Assumptions has_enc_inj.
Print Assumptions decode_needs_small.
Print Assumptions has_enc_tuple_proj.
Print Assumptions has_enc_tuple_update.
Print Assumptions has_enc_struct_proj.
Print Assumptions has_enc_struct_update.
Print Assumptions has_enc_array_proj.
Print Assumptions has_enc_array_update.
Print Assumptions F2_has_enc_list_set.
Print Assumptions has_enc_array_rep.
Print Assumptions has_enc_enum_lit.
Print Assumptions has_enc_enum_inv.
Print Assumptions has_enc_enum_field.
Print Assumptions has_enc_enum_tag_eq.
Print Assumptions ValEncExample.v_has_enc.
Print Assumptions ValEncExample.proj_C_S_b.
