(* C13, second half: the `join` BUILT-IN at the bit level.  Sem.v does not specify EJoin, so
   the theorem is about Lower.v over TSem.tops directly: the pipeline of the EJoin case of
   lower_expr_body (bitonic_input, the merger, join_func_windows, the sorter on the flag bit)
   on two vectors of elements whose keys are ASCENDING (repeats allowed) returns
   na + nb - 1 entries of one width, [flag] ++ a-element ++ (b-element if has_assoc):
     (1) the flags are sorted, unflagged entries FIRST;
     (2) unflagged entries are all zero;
     (3) the flagged entries are exactly one per common key (strictly ascending keys before
         the final sort), also when an input repeats a key;
     (4) each is built from one element of a and one element of b with that key;
     (5) the panic observation is untouched.
   Which of several elements with a repeated key is reported is not determined
   ([repeated_key_choice]). *)
From Coq Require Import Lia ZArith Permutation Sorting.Sorted.
From GV Require Import Base.Util Base.Bits Base.BitsProofs Base.BitViews Lang.Ast
  Gadgets.Gadgets Gadgets.GadgetSpec Sort.Sort Sort.SortProofs Sort.ZeroOne Sort.SortUnbounded
  Panic.PanicRec Panic.PanicSem Compile.Lower Compile.TSem Compile.TSemFacts Compile.TSemArray Compile.TSemSemExpr Compile.ValEnc
  Compile.TSemSticky Compile.TSemSemStmt Compile.JoinMerge Compile.TSemSemJoin.
From GV Require Lang.Sem.
Local Open Scope N_scope.

(* ================================================================ one window of the join function *)

Lemma tsem_mapM_mux (je : bool) : forall (l : list bool) (o : pobs),
  mapM_M (fun g => m_mux tops je g (wF tops)) l o = Ok (map (fun g => if je then g else false) l, o).
Proof.
  induction l as [|g l IH]; intro o; [reflexivity|]. cbn [mapM_M map]. unfold mbind at 1.
  change (m_mux tops je g (wF tops) o) with (Ok ((if je then g else false), o)). cbn iota beta.
  unfold mbind at 1. rewrite IH. reflexivity.
Qed.

Section Fn.
  Variables eba ebb jts : nat.
  Variable ha : bool.
  Hypothesis Ja : (jts <= eba)%nat.
  Hypothesis Jb : (jts <= ebb)%nat.

  Notation mkB := (mkb eba ebb jts).
  Notation iLen := (ilen eba ebb jts).
  Notation jB := (jbit jts).

  (* the data of an entry before masking: the a-part of the first element, the b-part of the second *)
  Definition parts (h w : item) : list bool :=
    firstn eba (rsz eba ebb (ienc h)) ++ (if ha then firstn ebb (rsz eba ebb (ienc w)) else []).
  Definition entry (h w : item) : list bool :=
    jB h w :: map (fun g => if jB h w then g else false) (parts h w).
  Definition width : nat := S (eba + (if ha then ebb else 0)).

  Lemma parts_length h w : iLen h -> iLen w -> length (parts h w) = (eba + (if ha then ebb else 0))%nat.
  Proof.
    intros Hh Hw. unfold parts. rewrite app_length, firstn_length, (rsz_length eba ebb _ (ilen_le eba ebb jts h Hh)).
    destruct ha; [rewrite firstn_length, (rsz_length eba ebb _ (ilen_le eba ebb jts w Hw))|cbn [length]]; lia.
  Qed.

  Lemma entry_length h w : iLen h -> iLen w -> length (entry h w) = width.
  Proof. intros Hh Hw. unfold entry, width. cbn [length]. rewrite map_length, (parts_length h w Hh Hw). reflexivity. Qed.

  (* the entries of the adjacent windows *)
  Fixpoint wentries (M : list item) : list (list bool) :=
    match M with
    | h :: ((w :: _) as r) => entry h w :: wentries r
    | _ => []
    end.

  Lemma wentries_length M : length (wentries M) = (length M - 1)%nat.
  Proof.
    induction M as [|h [|w r] IH]; try reflexivity. cbn [wentries length] in *. lia.
  Qed.

  Lemma join_func_windows_items M : Forall iLen M -> forall o : pobs,
    join_func_windows tops eba ebb jts ha (map mkB M) o = Ok (wentries M, o).
  Proof.
    induction M as [|h [|w r] IH]; intros HM o; try reflexivity.
    inversion HM as [|h0 r0 Hh Hr]; subst h0 r0. inversion Hr as [|w0 r0 Hw Hr']; subst w0 r0.
    cbn [map join_func_windows wentries]. unfold mbind at 1.
    rewrite (window_binding_mkb eba ebb jts h w true ha o Hh Hw Ja Jb). cbn [app]. cbn iota beta.
    unfold mbind at 1. unfold mbind at 1. rewrite tsem_mapM_mux. cbn iota beta. unfold ret at 1. cbn iota beta.
    change (mkB w :: map mkB r) with (map mkB (w :: r)). unfold mbind at 1. rewrite (IH Hr). reflexivity.
  Qed.
End Fn.

(* ================================================================ what the merger produces (keys may repeat) *)

Definition bitem (tg : bool) (e : list bool) : item := (tg, Sem.unit_val, e).
Definition bitems (tg : bool) (es : list (list bool)) : list item := map (bitem tg) es.

Section MergedBits.
  Variables eba ebb jts : nat.
  Hypothesis Ja : (jts <= eba)%nat.
  Hypothesis Jb : (jts <= ebb)%nat.

  Notation mkB := (mkb eba ebb jts).
  Notation KK := (K' jts).
  Notation iLen := (ilen eba ebb jts).

  (* the unsigned value of the key of an element *)
  Definition ekey (e : list bool) : N := Sort.bits_val (firstn jts e).
  Definition asc_le (es : list (list bool)) : Prop := StronglySorted N.le (map ekey es).
  Definition SLE : list item -> Prop := StronglySorted (fun a b => KK a <= KK b).

  Lemma bitems_ilen (tg : bool) (es : list (list bool)) : all_len (if tg then ebb else eba) es -> Forall iLen (bitems tg es).
  Proof. intro H. apply Forall_map. eapply Forall_impl; [|exact H]. exact (ilen_enc eba ebb jts Ja Jb tg). Qed.

  Lemma KK_bitem (tg : bool) e : KK (bitem tg e) = 2 * ekey e + (if tg then 1 else 0).
  Proof. reflexivity. Qed.

  Lemma bitems_sorted (tg : bool) es : asc_le es -> StronglySorted N.le (map KK (bitems tg es)).
  Proof.
    unfold asc_le, bitems. rewrite map_map. intro H.
    replace (map (fun e => KK (bitem tg e)) es) with (map (fun k => 2 * k + (if tg then 1 else 0)) (map ekey es))
      by (rewrite map_map; reflexivity).
    induction H as [|a l _ IH Hall]; cbn [map]; constructor; [exact IH|].
    rewrite Forall_map. rewrite Forall_forall in *. intros b Hb. specialize (Hall b Hb). lia.
  Qed.

  Lemma SLE_of_map l : StronglySorted N.le (map KK l) -> SLE l.
  Proof. apply (strong_map_le KK). Qed.

  Theorem merged_bits ea eb (o : pobs) bitonic num_empty sorted o' :
    all_len eba ea -> all_len ebb eb -> asc_le ea -> asc_le eb ->
    bitonic_input tops (concat ea) (concat eb) eba (length ea) ebb (length eb) jts = Ok (bitonic, num_empty) ->
    o_merger tops (S jts) true bitonic o = Ok (sorted, o') ->
    o' = o /\ exists M, skipn num_empty sorted = map mkB M /\
      Permutation (bitems false ea ++ bitems true eb) M /\ Forall iLen M /\ SLE M.
  Proof.
    intros La Lb Sa Sb Hbi Hm. rewrite (bitonic_input_mkb eba ebb jts Ja Jb ea eb La Lb) in Hbi. injection Hbi as <- <-.
    assert (E : forall tg l, map (fun e => mkB (tg, Sem.unit_val, e)) l = map mkB (bitems tg l)) by (intros; symmetry; apply map_map).
    rewrite !E in Hm. unfold bitems at 2 in Hm. rewrite map_rev in Hm.
    destruct (merged_gen eba ebb jts Ja Jb (bitems false ea) (bitems true eb) _ _ o sorted o'
                (bitems_ilen false ea La) (bitems_ilen true eb Lb) (map_length _ _) (map_length _ _)
                (bitems_sorted false ea Sa) (bitems_sorted true eb Sb) Hm) as (-> & M & EM & PM & OkM & SM).
    split; [reflexivity|]. exists M. split; [exact EM|]. split; [exact PM|]. split; [exact OkM|exact (SLE_of_map M SM)].
  Qed.
End MergedBits.

(* ================================================================ the joined windows of a sorted vector *)

Section Windows.
  Variables eba ebb jts : nat.
  Variable ha : bool.
  Hypothesis Ja : (jts <= eba)%nat.
  Hypothesis Jb : (jts <= ebb)%nat.

  Notation KK := (K' jts).
  Notation kvI := (kvi jts).
  Notation iLen := (ilen eba ebb jts).
  Notation jB := (jbit jts).
  Notation SLe := (SLE jts).

  Fixpoint jpairs (M : list item) : list (item * item) :=
    match M with
    | h :: ((w :: _) as r) => (if jB h w then [(h, w)] else []) ++ jpairs r
    | _ => []
    end.

  (* a joined window of a sorted vector: an element of a followed by an element of b, same key *)
  Lemma jbit_sorted h w : iLen h -> iLen w -> KK h <= KK w -> jB h w = true ->
    itag h = false /\ itag w = true /\ kbits jts h = kbits jts w.
  Proof.
    intros Hh Hw Hle Hj. unfold jbit in Hj. apply andb_prop in Hj. destruct Hj as [E1 E2].
    apply eq_s_true_iff in E1; [|rewrite (kbits_len eba ebb jts h Hh), (kbits_len eba ebb jts w Hw); reflexivity].
    unfold K', kvi in Hle. rewrite E1 in Hle. destruct (itag h), (itag w); try discriminate E2; try lia. auto.
  Qed.

  Lemma jpairs_facts M : Forall iLen M -> SLe M -> forall h w, In (h, w) (jpairs M) ->
    In h M /\ In w M /\ itag h = false /\ itag w = true /\ kbits jts h = kbits jts w.
  Proof.
    induction M as [|h0 [|w0 r] IH]; intros HM HS h w Hin; try (destruct Hin).
    inversion HM as [|x l Hh0 Hr]; subst x l. inversion Hr as [|x l Hw0 _]; subst x l.
    inversion HS as [|x l HS' Hall]; subst x l. inversion Hall as [|x l Hle _]; subst x l.
    cbn [jpairs] in Hin. apply in_app_or in Hin. destruct Hin as [Hin|Hin].
    - destruct (jB h0 w0) eqn:Ej; [|destruct Hin]. destruct Hin as [[= <- <-]|[]].
      destruct (jbit_sorted h0 w0 Hh0 Hw0 Hle Ej) as (T1 & T2 & Ek).
      split; [now left|]. split; [right; now left|]. auto.
    - destruct (IH Hr HS' h w Hin) as (I1 & I2 & Rest). split; [now right|]. split; [now right|exact Rest].
  Qed.

  (* the keys of the joined windows increase strictly: every common key is reported once *)
  Lemma jpairs_lower M : Forall iLen M -> SLe M -> forall h0 p, hd_error M = Some h0 -> In p (jpairs M) ->
    KK h0 <= 2 * kvI (fst p).
  Proof.
    induction M as [|m [|w r] IH]; intros HM HS h0 p Hh Hin; try (destruct Hin).
    cbn [hd_error] in Hh. injection Hh as <-.
    inversion HM as [|x l Hm Hr]; subst x l. inversion Hr as [|x l Hw _]; subst x l.
    inversion HS as [|x l HS' Hall]; subst x l. inversion Hall as [|x l Hle _]; subst x l.
    cbn [jpairs] in Hin. apply in_app_or in Hin. destruct Hin as [Hin|Hin].
    - destruct (jB m w) eqn:Ej; [|destruct Hin]. destruct Hin as [<-|[]]. cbn [fst].
      destruct (jbit_sorted m w Hm Hw Hle Ej) as (T1 & _ & _). unfold K'. rewrite T1. lia.
    - specialize (IH Hr HS' w p eq_refl Hin). lia.
  Qed.

  Lemma jpairs_strict M : Forall iLen M -> SLe M -> StronglySorted N.lt (map (fun p => kvI (fst p)) (jpairs M)).
  Proof.
    induction M as [|m [|w r] IH]; intros HM HS; try constructor.
    inversion HM as [|x l Hm Hr]; subst x l. inversion Hr as [|x l Hw _]; subst x l.
    inversion HS as [|x l HS' Hall]; subst x l. inversion Hall as [|x l Hle _]; subst x l.
    cbn [jpairs]. destruct (jB m w) eqn:Ej; cbn [app map]; [|exact (IH Hr HS')].
    constructor; [exact (IH Hr HS')|]. cbn [fst]. rewrite Forall_map. apply Forall_forall. intros p Hp.
    pose proof (jpairs_lower (w :: r) Hr HS' w p eq_refl Hp) as Hlow.
    destruct (jbit_sorted m w Hm Hw Hle Ej) as (_ & T2 & Ek). unfold K', kvi in Hlow. rewrite T2, <- Ek in Hlow.
    unfold kvi. lia.
  Qed.

  (* every key that occurs with both tags is reported *)
  Lemma jpairs_complete M : Forall iLen M -> SLe M -> forall x y, In x M -> In y M ->
    itag x = false -> itag y = true -> kvI x = kvI y -> exists p, In p (jpairs M) /\ kvI (fst p) = kvI x.
  Proof.
    intros HM HS x y Hx Hy Tx Ty Ek.
    assert (G : forall M, Forall iLen M -> SLe M -> forall c, (exists x, In x M /\ KK x = 2 * c) ->
              (exists y, In y M /\ KK y = 2 * c + 1) -> exists p, In p (jpairs M) /\ kvI (fst p) = c).
    { clear x y Hx Hy Tx Ty Ek HM HS. clear M. intro M. induction M as [|m r IH]; intros HM HS c (x & Hx & Kx) (y & Hy & Ky); [destruct Hx|].
      inversion HM as [|x0 l Hm Hr]; subst x0 l. inversion HS as [|x0 l HS' Hall]; subst x0 l. rewrite Forall_forall in Hall.
      assert (Hyr : In y r).
      { destruct Hy as [->|Hy]; [|exact Hy]. exfalso. destruct Hx as [->|Hx]; [lia|]. specialize (Hall x Hx). lia. }
      destruct r as [|w r']; [destruct Hyr|].
      assert (Step : (exists x', In x' (w :: r') /\ KK x' = 2 * c) -> exists p, In p (jpairs (m :: w :: r')) /\ kvI (fst p) = c).
      { intro Hx'. destruct (IH Hr HS' c Hx' (ex_intro _ y (conj Hyr Ky))) as (p & Hp & Ep).
        exists p. split; [|exact Ep]. cbn [jpairs]. apply in_or_app. now right. }
      destruct Hx as [->|Hx]; [|apply Step; eauto].
      inversion Hr as [|x0 l Hw _]; subst x0 l.
      pose proof (Hall w (or_introl eq_refl)) as Hmw.
      assert (Hwy : KK w <= KK y).
      { destruct Hyr as [->|Hyr]; [lia|]. inversion HS' as [|x0 l _ Hall']; subst x0 l. rewrite Forall_forall in Hall'. auto. }
      destruct (N.eq_dec (KK w) (2 * c)) as [Ew|Ew]; [apply Step; exists w; split; [now left|exact Ew]|].
      assert (Kw : KK w = 2 * c + 1) by lia.
      exists (x, w). split.
      - cbn [jpairs]. apply in_or_app. left.
        assert (Ej : jB x w = true).
        { unfold jbit. unfold K', kvi in Kx, Kw.
          assert (Tx : itag x = false) by (destruct (itag x); [lia|reflexivity]).
          assert (Tw : itag w = true) by (destruct (itag w); [reflexivity|lia]).
          rewrite Tx, Tw in *. cbn [xorb]. rewrite andb_true_r. apply eq_s_true_iff; [rewrite (kbits_len eba ebb jts x Hm), (kbits_len eba ebb jts w Hw); reflexivity|].
          apply bits_to_N_inj; [rewrite (kbits_len eba ebb jts x Hm), (kbits_len eba ebb jts w Hw); reflexivity|rewrite <- !bits_val_bits_to_N; lia]. }
        rewrite Ej. now left.
      - cbn [fst]. unfold K' in Kx. destruct (itag x); lia. }
    apply (G M HM HS (kvI x)).
    - exists x. split; [exact Hx|]. unfold K'. rewrite Tx. lia.
    - exists y. split; [exact Hy|]. unfold K'. rewrite Ty, Ek. lia.
  Qed.

  (* the entries: flagged ones carry the two elements, the others are zero *)
  Lemma entry_joined h w : iLen h -> iLen w -> itag h = false -> itag w = true -> jB h w = true ->
    entry eba ebb jts ha h w = true :: ienc h ++ (if ha then ienc w else []).
  Proof.
    intros [Lh _] [Lw _] Th Tw Ej. rewrite Th in Lh. rewrite Tw in Lw. unfold entry, parts. rewrite Ej.
    rewrite (firstn_rsz_full eba ebb (ienc h) eba Lh), (firstn_rsz_full eba ebb (ienc w) ebb Lw) by lia.
    f_equal. rewrite map_id. reflexivity.
  Qed.

  Lemma entry_unjoined h w : iLen h -> iLen w -> jB h w = false ->
    entry eba ebb jts ha h w = repeat false (width eba ebb ha).
  Proof.
    intros Hh Hw Ej. unfold entry, width. rewrite Ej. cbn [repeat]. f_equal.
    rewrite <- (parts_length eba ebb jts ha Ja Jb h w Hh Hw). generalize (parts eba ebb ha h w) as l.
    induction l as [|g l IH]; [reflexivity|]. cbn [map length repeat]. f_equal. exact IH.
  Qed.

  Lemma wentries_flagged M : Forall iLen M -> SLe M ->
    filter (hd false) (wentries eba ebb jts ha M) =
    map (fun p => true :: ienc (fst p) ++ (if ha then ienc (snd p) else [])) (jpairs M).
  Proof.
    induction M as [|m [|w r] IH]; intros HM HS; try reflexivity.
    inversion HM as [|x l Hm Hr]; subst x l. inversion Hr as [|x l Hw _]; subst x l.
    inversion HS as [|x l HS' Hall]; subst x l. inversion Hall as [|x l Hle _]; subst x l.
    cbn [wentries jpairs filter]. destruct (jB m w) eqn:Ej.
    - destruct (jbit_sorted m w Hm Hw Hle Ej) as (T1 & T2 & _).
      rewrite (entry_joined m w Hm Hw T1 T2 Ej). cbn [hd app map fst snd]. f_equal. exact (IH Hr HS').
    - rewrite (entry_unjoined m w Hm Hw Ej). cbn [width repeat hd app]. exact (IH Hr HS').
  Qed.

  Lemma wentries_unflagged M : Forall iLen M -> forall e, In e (wentries eba ebb jts ha M) -> hd false e = false ->
    e = repeat false (width eba ebb ha).
  Proof.
    induction M as [|m [|w r] IH]; intros HM e Hin He; try (destruct Hin; fail).
    inversion HM as [|x l Hm Hr]; subst x l. inversion Hr as [|x l Hw _]; subst x l.
    cbn [wentries] in Hin. destruct Hin as [<-|Hin]; [|exact (IH Hr e Hin He)].
    apply entry_unjoined; try assumption.
  Qed.

  Lemma wentries_width M : Forall iLen M -> all_len (width eba ebb ha) (wentries eba ebb jts ha M).
  Proof.
    induction M as [|m [|w r] IH]; intros HM; try constructor.
    - inversion HM as [|x l Hm Hr]; subst x l. inversion Hr as [|x l Hw _]; subst x l. apply entry_length; assumption.
    - inversion HM; subst. apply IH. assumption.
  Qed.
End Windows.

(* ================================================================ the final sort on the flag bit *)

Definition b2n (b : bool) : N := if b then 1 else 0.

Lemma key1_hd e : e <> [] -> key 1 e = b2n (hd false e).
Proof. destruct e as [|b r]; [congruence|]. intros _. unfold key. cbn [firstn hd Sort.bits_val]. unfold lenN. cbn. destruct b; reflexivity. Qed.

Lemma sortedN_b2n l : sortedN (map b2n l) = true -> sortedB l = true.
Proof.
  induction l as [|a [|b r] IH]; intro H; try reflexivity.
  cbn [map] in H. rewrite sortedN_cons in H. apply andb_prop in H. destruct H as [H1 H2].
  rewrite sortedB_cons, (IH H2), andb_true_r. apply N.leb_le in H1. destruct a, b; try reflexivity. cbn in H1. lia.
Qed.

Lemma count_true_shape a b : length (filter (fun x : bool => x) (repeat false a ++ repeat true b)) = b.
Proof.
  rewrite filter_app, app_length.
  assert (E1 : filter (fun x : bool => x) (repeat false a) = []) by (induction a as [|a IH]; [reflexivity|exact IH]).
  assert (E2 : filter (fun x : bool => x) (repeat true b) = repeat true b) by (induction b as [|b IH]; [reflexivity|cbn [repeat filter]; now rewrite IH]).
  rewrite E1, E2, repeat_length. reflexivity.
Qed.

Lemma filter_map_hd (l : list (list bool)) :
  length (filter (fun x : bool => x) (map (hd false) l)) = length (filter (hd false) l).
Proof. induction l as [|e l IH]; [reflexivity|]. cbn [map filter]. destruct (hd false e); cbn [length]; lia. Qed.

(* ================================================================ the pipeline and its specification *)

(* the EJoin case of lower_expr_body after the two operands *)
Definition join_pipeline (aw bw : list bool) (eba na ebb nb jts : nat) (ha : bool) : MB (list (list bool)) :=
  mbind (lift_res (bitonic_input tops aw bw eba na ebb nb jts)) (fun '(bitonic, num_empty) =>
  mbind (o_merger tops (S jts) true bitonic) (fun sorted =>
  mbind (join_func_windows tops eba ebb jts ha (skipn num_empty sorted)) (fun joined =>
  o_sorter tops 1 joined))).

Section Spec.
  Variables eba ebb jts : nat.
  Variable ha : bool.
  Hypothesis Ja : (jts <= eba)%nat.
  Hypothesis Jb : (jts <= ebb)%nat.

  Notation W := (width eba ebb ha).

  Theorem join_fn_spec ea eb (o : pobs) out o' :
    all_len eba ea -> all_len ebb eb -> asc_le jts ea -> asc_le jts eb ->
    join_pipeline (concat ea) (concat eb) eba (length ea) ebb (length eb) jts ha o = Ok (out, o') ->
    o' = o /\ length out = (length ea + length eb - 1)%nat /\ all_len W out /\
    exists pairs : list (list bool * list bool),
      (* (1) flags sorted, unflagged entries first *)
      map (hd false) out = repeat false (length out - length pairs) ++ repeat true (length pairs) /\
      (* (2) unflagged entries are zero *)
      (forall e, In e out -> hd false e = false -> e = repeat false W) /\
      (* (3)(4) the flagged entries: one pair (element of a, element of b) per common key *)
      Permutation (filter (hd false) out) (map (fun p => true :: fst p ++ (if ha then snd p else [])) pairs) /\
      Forall (fun p => In (fst p) ea /\ In (snd p) eb /\ firstn jts (fst p) = firstn jts (snd p)) pairs /\
      StronglySorted N.lt (map (fun p => ekey jts (fst p)) pairs) /\
      (forall x y, In x ea -> In y eb -> firstn jts x = firstn jts y ->
                   exists p, In p pairs /\ firstn jts (fst p) = firstn jts x).
  Proof.
    intros La Lb Sa Sb Hrun. unfold join_pipeline in Hrun.
    minva Hrun as [bitonic ne] o1 H1. apply lift_res_inv in H1. destruct H1 as [H1 ->].
    minva Hrun as sorted o2 H2. minva Hrun as pre o3 H3.
    destruct (merged_bits eba ebb jts Ja Jb ea eb o bitonic ne sorted o2 La Lb Sa Sb H1 H2) as (-> & M & EM & PM & OkM & SM).
    rewrite EM, (join_func_windows_items eba ebb jts ha Ja Jb M OkM) in H3. injection H3 as <- <-.
    set (pre := wentries eba ebb jts ha M) in *.
    cbn [o_sorter tops] in Hrun. destruct (elems_shape 1 pre); [|discriminate]. injection Hrun as <- <-.
    destruct (sorter_elems 1 pre) as [Hsorted Hperm]. unfold elem in *. set (out := bitonic_sorter (gt_key 1) pre) in *.
    split; [reflexivity|].
    assert (Lpre : length pre = (length ea + length eb - 1)%nat).
    { unfold pre. rewrite (wentries_length eba ebb jts ha Ja Jb), <- (Permutation_length PM), app_length. unfold bitems. rewrite !map_length. reflexivity. }
    split; [transitivity (length pre); [exact (Permutation_length Hperm)|exact Lpre]|].
    assert (Wpre : all_len W pre) by (apply (wentries_width eba ebb jts ha Ja Jb M OkM)).
    assert (Wout : all_len W out) by (unfold all_len; eapply Permutation_Forall; [apply Permutation_sym; exact Hperm|exact Wpre]).
    split; [exact Wout|].
    set (jp := jpairs jts M).
    exists (map (fun p => (ienc (fst p), ienc (snd p))) jp).
    assert (Pfl : Permutation (filter (hd false) out) (filter (hd false) pre)) by (apply Permutation_filter; exact Hperm).
    assert (Efl : filter (hd false) pre = map (fun p => true :: ienc (fst p) ++ (if ha then ienc (snd p) else [])) jp).
    { apply (wentries_flagged eba ebb jts ha Ja Jb M OkM SM). }
    assert (Lfl : length (filter (hd false) out) = length jp).
    { rewrite (Permutation_length Pfl), Efl. apply map_length. }
    rewrite map_length. split; [|split; [|split; [|split; [|split]]]].
    - (* flags *)
      assert (Hs : sortedB (map (hd false) out) = true).
      { apply sortedN_b2n. rewrite map_map. rewrite <- Hsorted. f_equal. apply map_ext_in. intros e He.
        symmetry. apply key1_hd. intros ->. pose proof (proj1 (Forall_forall _ _) Wout [] He) as Hl. discriminate Hl. }
      destruct (sortedB_shape _ Hs) as (a & b & E).
      assert (Eb : b = length jp).
      { rewrite <- Lfl, <- filter_map_hd, E. symmetry. apply count_true_shape. }
      assert (Ea : a = (length out - length jp)%nat).
      { apply (f_equal (@length bool)) in E. rewrite map_length, app_length, !repeat_length in E. unfold elem. lia. }
      etransitivity; [exact E|]. f_equal; f_equal; [exact Ea|exact Eb].
    - (* unflagged *)
      intros e He Hf. apply (wentries_unflagged eba ebb jts ha Ja Jb M OkM e); [|exact Hf].
      exact (Permutation_in _ Hperm He).
    - (* flagged *)
      rewrite map_map. cbn [fst snd]. rewrite <- Efl. exact Pfl.
    - (* provenance *)
      apply Forall_map. apply Forall_forall. intros [h w] Hp. cbn [fst snd].
      destruct (jpairs_facts eba ebb jts Ja Jb M OkM SM h w Hp) as (Ih & Iw & Th & Tw & Ek).
      assert (InA : forall it, In it M -> itag it = false -> In (ienc it) ea).
      { intros it Hit Tit. apply (Permutation_in _ (Permutation_sym PM)) in Hit. apply in_app_or in Hit.
        destruct Hit as [Hit|Hit]; unfold bitems in Hit; apply in_map_iff in Hit; destruct Hit as (e & <- & He); [exact He|discriminate Tit]. }
      assert (InB : forall it, In it M -> itag it = true -> In (ienc it) eb).
      { intros it Hit Tit. apply (Permutation_in _ (Permutation_sym PM)) in Hit. apply in_app_or in Hit.
        destruct Hit as [Hit|Hit]; unfold bitems in Hit; apply in_map_iff in Hit; destruct Hit as (e & <- & He); [discriminate Tit|exact He]. }
      split; [apply InA; assumption|]. split; [apply InB; assumption|exact Ek].
    - (* each key once *)
      rewrite map_map. cbn [fst]. exact (jpairs_strict eba ebb jts Ja Jb M OkM SM).
    - (* every common key *)
      intros x y Hx Hy Exy.
      assert (Ix : In (bitem false x) M) by (apply (Permutation_in _ PM); apply in_or_app; left; unfold bitems; now apply in_map).
      assert (Iy : In (bitem true y) M) by (apply (Permutation_in _ PM); apply in_or_app; right; unfold bitems; now apply in_map).
      destruct (jpairs_complete eba ebb jts Ja Jb M OkM SM (bitem false x) (bitem true y) Ix Iy eq_refl eq_refl) as (p & Hp & Ep).
      { unfold kvi, kbits, bitem. cbn [ienc snd]. now rewrite Exy. }
      exists (ienc (fst p), ienc (snd p)). split; [apply in_map_iff; exists p; auto|]. cbn [fst].
      destruct p as [h w]. cbn [fst] in *. destruct (jpairs_facts eba ebb jts Ja Jb M OkM SM h w Hp) as (Ih & _).
      pose proof (proj1 (Forall_forall _ _) OkM h Ih) as Lh. pose proof (proj1 (Forall_forall _ _) OkM _ Ix) as Lx.
      apply bits_to_N_inj; [|rewrite <- !bits_val_bits_to_N; exact Ep].
      change (firstn jts (ienc h)) with (kbits jts h). change (firstn jts x) with (kbits jts (bitem false x)).
      rewrite (kbits_len eba ebb jts h Lh), (kbits_len eba ebb jts _ Lx). reflexivity.
  Qed.
End Spec.

Print Assumptions join_fn_spec.

(* ================================================================ the EJoin node of lower_expr *)

Lemma lower_join_inv P fT join_ty ha a b m t E (o : pobs) w E' o' :
  lower_expr tops (S fT) P (Ex (EJoin join_ty ha a b) m t) E o = Ok ((w, E'), o') ->
  exists eba na ebb nb aw E1 o1 bw o2 out,
    array_size P (e_ty a) = Ok (eba, na) /\ array_size P (e_ty b) = Ok (ebb, nb) /\
    lower_expr tops fT P a E o = Ok ((aw, E1), o1) /\ lower_expr tops fT P b E1 o1 = Ok ((bw, E'), o2) /\
    join_pipeline aw bw eba na ebb nb (szn P join_ty) ha o2 = Ok (out, o') /\ w = concat out.
Proof.
  intro H. rewrite lower_expr_S in H. cbn [lower_expr_body] in H.
  minva H as [eba na] o0 H0. apply lift_res_inv in H0. destruct H0 as [H0 ->].
  minva H as [ebb nb] o0 H0'. apply lift_res_inv in H0'. destruct H0' as [H0' ->].
  minva H as [aw E1] o1 H1. minva H as [bw E2] o2 H2.
  minva H as [bitonic ne] o3 H3. minva H as sorted o4 H4. minva H as joined o5 H5. minva H as joined2 o6 H6.
  apply ret_inv in H. destruct H as [Heq ->]. injection Heq as -> ->.
  exists eba, na, ebb, nb, aw, E1, o1, bw, o2, joined2. repeat (split; [assumption|]). split; [|reflexivity].
  unfold join_pipeline. unfold mbind at 1. rewrite H3. unfold mbind at 1. rewrite H4. unfold mbind at 1. rewrite H5. exact H6.
Qed.

(* keys of values ascending (repeats allowed) *)
Definition asc_keys_le (P : program) (join_ty t : ty) (vs : list Sem.value) : Prop :=
  StronglySorted N.le (map (kval P join_ty t) vs).

Lemma asc_keys_le_enc P join_ty t vs es : ty_fits P t -> Forall2 (has_enc P t) vs es ->
  asc_keys_le P join_ty t vs -> asc_le (szn P join_ty) es.
Proof.
  intros Ft Hf H. unfold asc_le, asc_keys_le in *.
  replace (map (ekey (szn P join_ty)) es) with (map (kval P join_ty t) vs); [exact H|].
  clear H. induction Hf as [|v e vs es Hv _ IH]; [reflexivity|]. cbn [map]. f_equal; [|exact IH].
  unfold kval, ekey. rewrite (join_key_enc P join_ty t v e Ft Hv). reflexivity.
Qed.

Lemma length_concat_all {A} n (l : list (list A)) : all_len n l -> length (concat l) = (length l * n)%nat.
Proof. induction 1 as [|e l He _ IH]; [reflexivity|]. cbn [concat length]. rewrite app_length, IH, He. lia. Qed.

(* for operands that encode array values with ascending keys: the entries satisfy join_fn_spec,
   the observation is the one after the operands, and the result has the length of the declared
   type [(flag, a-element, b-element if has_assoc); na + nb - 1] *)
Theorem join_expr_spec P fT join_ty ha a b m t E (o : pobs) w E' o' ta na tb nb :
  e_ty a = TArr ta na -> e_ty b = TArr tb nb ->
  (szn P join_ty <= szn P ta)%nat -> (szn P join_ty <= szn P tb)%nat ->
  lower_expr tops (S fT) P (Ex (EJoin join_ty ha a b) m t) E o = Ok ((w, E'), o') ->
  exists aw E1 o1 bw o2,
    lower_expr tops fT P a E o = Ok ((aw, E1), o1) /\ lower_expr tops fT P b E1 o1 = Ok ((bw, E'), o2) /\
    forall xs ys,
      has_enc P (TArr ta na) (Sem.VArr xs) aw -> ty_fits P (TArr ta na) ->
      has_enc P (TArr tb nb) (Sem.VArr ys) bw -> ty_fits P (TArr tb nb) ->
      asc_keys_le P join_ty ta xs -> asc_keys_le P join_ty tb ys ->
      exists ea eb out,
        Forall2 (has_enc P ta) xs ea /\ Forall2 (has_enc P tb) ys eb /\ aw = concat ea /\ bw = concat eb /\
        join_pipeline (concat ea) (concat eb) (szn P ta) (length ea) (szn P tb) (length eb) (szn P join_ty) ha o2 = Ok (out, o') /\
        w = concat out /\ o' = o2 /\
        length w = ((N.to_nat na + N.to_nat nb - 1) * width (szn P ta) (szn P tb) ha)%nat.
Proof.
  intros Eta Etb Ja Jb H.
  destruct (lower_join_inv _ _ _ _ _ _ _ _ _ _ _ _ _ H) as (eba & na' & ebb & nb' & aw & E1 & o1 & bw & o2 & out & A1 & A2 & R1 & R2 & Rp & ->).
  rewrite Eta in A1. rewrite Etb in A2. cbn [array_size] in A1, A2. injection A1 as <- <-. injection A2 as <- <-.
  exists aw, E1, o1, bw, o2. split; [exact R1|]. split; [exact R2|].
  intros xs ys HVa Hfa HVb Hfb Sx Sy.
  destruct (has_enc_array_elems P ta na xs aw HVa Hfa) as (ea & -> & Hxa & La & Hla & _).
  destruct (has_enc_array_elems P tb nb ys bw HVb Hfb) as (eb & -> & Hyb & Lb & Hlb & _).
  rewrite <- Hla, <- Hlb in Rp |- *.
  pose proof (asc_keys_le_enc P join_ty ta xs ea (ty_fits_arr P ta na Hfa) Hxa Sx) as Sa.
  pose proof (asc_keys_le_enc P join_ty tb ys eb (ty_fits_arr P tb nb Hfb) Hyb Sy) as Sb.
  destruct (join_fn_spec (szn P ta) (szn P tb) (szn P join_ty) ha Ja Jb ea eb o2 out o' La Lb Sa Sb Rp) as (-> & Lout & Wout & _).
  exists ea, eb, out. repeat (split; [assumption || reflexivity|]).
  rewrite (length_concat_all _ _ Wout), Lout. reflexivity.
Qed.

(* ================================================================ non-vacuity, and what repeated keys do *)

Module JoinFnExamples.
  (* elements (key : 2 bits, payload : 2 bits); entries [flag; a-element; b-element] *)
  Definition el (k p : N) : list bool := tbits k 2 ++ tbits p 2.
  Definition run (ea eb : list (list bool)) : option (list (list bool)) :=
    match join_pipeline (concat ea) (concat eb) 4 (length ea) 4 (length eb) 2 true None with
    | Ok (out, None) => Some out | _ => None end.
  Definition ent (flag : bool) (x y : list bool) : list bool := flag :: (if flag then x ++ y else repeat false 8).
  Definition zero : list bool := repeat false 9.

  (* a = [(0,3); (2,1)], b = [(0,2); (1,1); (2,3)] (5 elements, padded to 8; key 0 next to the
     padding): 4 entries, two unflagged zero entries first, then the matches of keys 0 and 2 *)
  Example join_fn_basic :
    run [el 0 3; el 2 1] [el 0 2; el 1 1; el 2 3]
    = Some [zero; zero; true :: el 0 3 ++ el 0 2; true :: el 2 1 ++ el 2 3].
  Proof. vm_compute. reflexivity. Qed.

  (* a key repeated in a: reported ONCE, with one of the two elements of a (here the second) *)
  Example repeated_key_in_a :
    run [el 1 1; el 1 2] [el 1 3] = Some [zero; true :: el 1 2 ++ el 1 3].
  Proof. vm_compute. reflexivity. Qed.

  (* a key repeated in BOTH arrays: still one flagged entry (2 x 2 combinations, one reported):
     an element of a with an element of b, never two of the same array *)
  Example repeated_key_in_both :
    run [el 1 1; el 1 2] [el 1 3; el 1 0] = Some [zero; zero; true :: el 1 2 ++ el 1 0].
  Proof. vm_compute. reflexivity. Qed.

  (* WHICH of the repeated elements is reported depends on where the merger leaves them; the
     specification can only say "some element of a / of b with that key":
     - of a: the last of two copies, but the FIRST of the two copies with key 1 in the longer
       input below;
     - of b: the first copy in one input, the last copy in another *)
  Definition flagged (o : option (list (list bool))) : list (list bool) :=
    match o with Some l => filter (hd false) l | None => [] end.
  Example repeated_key_choice :
    flagged (run [el 1 1; el 1 2] [el 1 0]) = [true :: el 1 2 ++ el 1 0] /\
    flagged (run [el 0 1; el 0 2; el 0 3; el 1 0; el 1 1; el 2 1] [el 0 0; el 0 1; el 0 2; el 1 3; el 1 2; el 3 3])
      = [true :: el 0 3 ++ el 0 0; true :: el 1 0 ++ el 1 3] /\
    flagged (run [el 1 1; el 1 2; el 1 3] [el 0 0; el 1 0; el 1 1; el 2 0]) = [true :: el 1 3 ++ el 1 0] /\
    flagged (run [el 0 0; el 1 1; el 1 2; el 1 3] [el 1 0; el 1 1; el 1 2]) = [true :: el 1 3 ++ el 1 2].
  Proof. vm_compute. repeat split. Qed.

  (* lengths 1 and 1: one entry *)
  Example join_fn_single :
    run [el 3 1] [el 3 2] = Some [true :: el 3 1 ++ el 3 2] /\ run [el 2 1] [el 3 2] = Some [zero].
  Proof. vm_compute. split; reflexivity. Qed.
End JoinFnExamples.

Print Assumptions join_expr_spec.
