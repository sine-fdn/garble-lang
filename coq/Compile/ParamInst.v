(* The abstract parametricity theorem at the instance SimOps.concrete_rel (the builder
   instance bops against the Boolean instance tops, relations of SimBase.v), with every
   relation written out. *)
From GV Require Import Base.Util Base.NMap Lang.Ast Builder.Builder Builder.BuilderSem Builder.BuilderSpec
  Gadgets.Gadgets Gadgets.GadgetSpec Gadgets.GadgetHoare Sort.Sort Sort.SortHoare
  Panic.PanicRec Panic.PanicSem Panic.PanicProofs Compile.Lower Compile.TSem Compile.SimBase Compile.SimOps
  Compile.SimLower.
From GV Require Compile.ParamLower.

Section Inst.
Variable inv : builder -> Prop.
Hypothesis ops : builder_ops_sound inv.
Variable inp : list bool.

Notation Rw := (Rw inp).
Notation Rws := (Rws inp).
Notation RS := (RS inv inp).
Notation RE := (RE inp).
Notation sim := (sim inv inp).
Notation Rres := (Rres inp).
Notation RresP := (RresP inp).

Theorem lower_sim_from_param P fuel :
  (forall e s o E EB, RS s o -> RE s E EB ->
     sim s o (lower_expr bops fuel P e E) (lower_expr tops fuel P e EB) Rres) /\
  (forall p s o mw vmw E EB, RS s o -> Rws s mw vmw -> RE s E EB ->
     sim s o (lower_pattern bops fuel P p mw E) (lower_pattern tops fuel P p vmw EB) RresP) /\
  (forall st s o E EB, RS s o -> RE s E EB ->
     sim s o (lower_stmt bops fuel P st E) (lower_stmt tops fuel P st EB) Rres) /\
  (forall ss s o E EB, RS s o -> RE s E EB ->
     sim s o (lower_block bops fuel P ss E) (lower_block tops fuel P ss EB) Rres).
Proof. exact (ParamLower.lower_param (concrete_rel inv ops inp) P fuel). Qed.

End Inst.

Print Assumptions lower_sim_from_param.
