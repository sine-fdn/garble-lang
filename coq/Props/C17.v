(* C17 — ill-typed programs are rejected.  The documented static rules are the boolean
   re-checker Lang/Wt.v.  First: the re-checker rejects one tree per rule family
   (so the rules are really in it) and accepts a well-typed tree.  Then the general rejection
   lemmas, and from "the REAL checker" on the model of src/check.rs (Check/Infer.v). *)
From GV Require Import Base.Util Lang.Ast Lang.Wt.
Open Scope N_scope.

Definition m0 := mkMeta 0 0 0 0.
Definition u8 := TInt false 8.
Definition u16 := TInt false 16.
Definition lit8 (n : N) := Ex (ENumU n 8) m0 u8.
Definition prog_of (body : list stmt) : program := mkProgram [] [] [mkFn 9 [(0, u8)] u8 body] [] 9.
Definition ret0 := St (SExpr (Ex (EId 0) m0 u8)) m0.

Theorem C17_wt_accepts_well_typed :
  wt_program (prog_of [St (SLet (Pat (PId 1) m0 u8) (Ex (EOp OAdd (lit8 1) (Ex (EId 0) m0 u8)) m0 u8)) m0; ret0]) = true.
Proof. vm_compute. reflexivity. Qed.
Print Assumptions C17_wt_accepts_well_typed.

Theorem C17_wt_rejects :
  (* operand types disagree *)
  wt_program (prog_of [St (SLet (Pat (PId 1) m0 u8) (Ex (EOp OAdd (lit8 1) (Ex (ENumU 1 8) m0 u16)) m0 u8)) m0; ret0]) = false /\
  (* non-Boolean condition *)
  wt_program (prog_of [St (SExpr (Ex (EIf (lit8 7) (lit8 1) (lit8 2)) m0 u8)) m0]) = false /\
  (* unknown identifier *)
  wt_program (prog_of [St (SExpr (Ex (EId 5) m0 u8)) m0]) = false /\
  (* assignment to an immutable binding *)
  wt_program (prog_of [St (SLet (Pat (PId 1) m0 u8) (lit8 1)) m0; St (SAssign 1 [] (lit8 2)) m0; ret0]) = false /\
  (* out-of-scope identifier *)
  wt_program (prog_of [St (SExpr (Ex (EBlock [St (SLet (Pat (PId 1) m0 u8) (lit8 1)) m0]) m0 (TTup []))) m0;
                       St (SExpr (Ex (EId 1) m0 u8)) m0]) = false /\
  (* wrong number of arguments *)
  wt_program (mkProgram [] [] [mkFn 9 [(0, u8)] u8 [St (SExpr (Ex (ECall 8 [lit8 1; lit8 2]) m0 u8)) m0];
                              mkFn 8 [(0, u8)] u8 [ret0]] [] 9) = false /\
  (* return type disagrees *)
  wt_program (prog_of [St (SExpr (Ex ETrue m0 TBool)) m0]) = false.
Proof. vm_compute. repeat split; reflexivity. Qed.
Print Assumptions C17_wt_rejects.

(* ------------------------------------------------------------------------------------
   General rejection lemmas (Lang/WtRules.v): a tree that violates a rule at its root is
   rejected for every program, context and fuel; and what acceptance guarantees
   (Lang/WtSound.v): an accepted program never reaches a typing inconsistency at run time. *)
From GV Require Import Lang.Sem Lang.ValTy Lang.WtSound Lang.WtRules.

Theorem C17_rejects_unbound : forall fw P g x m t,
  tlookup g x = None -> wt_expr fw P g (Ex (EId x) m t) = false.
Proof. exact wt_rejects_unbound. Qed.
Print Assumptions C17_rejects_unbound.

Theorem C17_rejects_operands : forall fw P g o x y m t,
  wtop o t (e_ty x) (e_ty y) = false -> wt_expr fw P g (Ex (EOp o x y) m t) = false.
Proof. exact wt_rejects_operands. Qed.
Print Assumptions C17_rejects_operands.

Theorem C17_rejects_arith_mismatch : forall fw P g o x y m t,
  In o [OAdd; OSub; OMul; ODiv; OMod] ->
  ty_eqb (e_ty x) t = false \/ ty_eqb (e_ty y) t = false \/ is_int t = false ->
  wt_expr fw P g (Ex (EOp o x y) m t) = false.
Proof. exact wt_rejects_arith_mismatch. Qed.
Print Assumptions C17_rejects_arith_mismatch.

Theorem C17_rejects_compare_mismatch : forall fw P g o x y m t,
  In o [OEq; ONe; OLt; OGt] -> ty_eqb (e_ty x) (e_ty y) = false ->
  wt_expr fw P g (Ex (EOp o x y) m t) = false.
Proof. exact wt_rejects_compare_mismatch. Qed.
Print Assumptions C17_rejects_compare_mismatch.

Theorem C17_rejects_nonbool_cond : forall fw P g c a b m t,
  is_bool (e_ty c) = false -> wt_expr fw P g (Ex (EIf c a b) m t) = false.
Proof. exact wt_rejects_nonbool_cond. Qed.
Print Assumptions C17_rejects_nonbool_cond.

Theorem C17_rejects_branch_mismatch : forall fw P g c a b m t,
  ty_eqb (e_ty a) t = false \/ ty_eqb (e_ty b) t = false ->
  wt_expr fw P g (Ex (EIf c a b) m t) = false.
Proof. exact wt_rejects_branch_mismatch. Qed.
Print Assumptions C17_rejects_branch_mismatch.

Theorem C17_rejects_arm_mismatch : forall fw P g s arms m t arm,
  In arm arms ->
  ty_eqb (e_ty (snd arm)) t = false \/ ty_eqb (p_ty (fst arm)) (e_ty s) = false ->
  wt_expr fw P g (Ex (EMatch s arms) m t) = false.
Proof. exact wt_rejects_arm_mismatch. Qed.
Print Assumptions C17_rejects_arm_mismatch.

Theorem C17_rejects_immutable_assign : forall fw P g x accs e m,
  (forall tx, tlookup g x <> Some (tx, true)) ->
  wt_stmt fw P g (St (SAssign x accs e) m) = None.
Proof. exact wt_rejects_immutable_assign. Qed.
Print Assumptions C17_rejects_immutable_assign.

Theorem C17_rejects_arity : forall fw P g fn args m t d,
  find_fn P fn = Some d -> length args <> length (fn_params d) ->
  wt_expr fw P g (Ex (ECall fn args) m t) = false.
Proof. exact wt_rejects_arity. Qed.
Print Assumptions C17_rejects_arity.

Theorem C17_rejects_unknown_fn : forall fw P g fn args m t,
  find_fn P fn = None -> wt_expr fw P g (Ex (ECall fn args) m t) = false.
Proof. exact wt_rejects_unknown_fn. Qed.
Print Assumptions C17_rejects_unknown_fn.

(* rejection propagates: statement -> enclosing block -> function -> program *)
Theorem C17_block_rejects : forall fw P s pre post,
  (forall f g, wt_stmt f P g s = None) -> forall g, wt_block fw P g (pre ++ s :: post) = None.
Proof. exact wt_block_rejects. Qed.
Print Assumptions C17_block_rejects.

Theorem C17_program_rejects_fn : forall P d,
  In d (p_fns P) -> wt_fn P (consts_tenv P) d = false -> wt_program P = false.
Proof. exact wt_program_rejects_fn. Qed.
Print Assumptions C17_program_rejects_fn.

(* what acceptance excludes: evaluation of an accepted expression in a typed environment
   never reaches "unbound identifier", "operand of the wrong shape", "wrong arity", ...
   (every Stuck code of Sem.v except the pattern-match / join codes [stuck_allowed]) *)
Theorem C17_accepted_never_inconsistent : forall P n fw g e en c,
  wt_program P = true -> wt_expr fw P g e = true -> genv P g -> env_ok P (scopes en) g ->
  eval n P en e = Stuck c -> In c stuck_allowed.
Proof.
  intros P n fw g e en c Hwt Hw Hg He Hs.
  pose proof (wt_sound_expr P false Hwt (fun H => False_ind _ (Bool.diff_false_true H)) n fw g e en Hw
                (fun H => False_ind _ (Bool.diff_false_true H)) Hg He) as H.
  rewrite Hs in H. exact (proj1 H).
Qed.
Print Assumptions C17_accepted_never_inconsistent.

(* four rules without which Wt.v is unsound (each is used by the soundness proof; the
   trees are the counterexamples): duplicate parameter names, a constant initialised by a
   call, a join loop over non-arrays, duplicate constant names *)
Theorem C17_wt_rejects_former_unsound :
  wt_program (mkProgram [] [] [mkFn 9 [(0, u8); (0, TBool)] u8 [ret0]] [] 9) = false /\
  wt_program (mkProgram [] [] [mkFn 9 [(0, u8)] u8 [ret0]; mkFn 8 [(0, u8)] u8 [St (SExpr (Ex (EId 5) m0 u8)) m0]]
                        [(4, Ex (ECall 8 [lit8 1]) m0 u8); (5, lit8 2)] 9) = false /\
  wt_program (prog_of [St (SJoinLoop (Pat (PId 1) m0 TBool) u8 (Ex (EId 0) m0 u8) (Ex (EId 0) m0 u8) []) m0; ret0]) = false /\
  wt_program (mkProgram [] [] [mkFn 9 [(0, u8)] u8 [St (SExpr (Ex (EId 5) m0 u8)) m0]]
                        [(5, lit8 2); (5, Ex ETrue m0 TBool)] 9) = false.
Proof. vm_compute. repeat split; reflexivity. Qed.
Print Assumptions C17_wt_rejects_former_unsound.

(* ------------------------------------------------------------------ the REAL checker (Check/Infer.v:
   a function-by-function model of src/check.rs, tied to garble_lang::check on every run: same
   typed program or both reject).  Unlike the reference rules Wt.v above, these theorems are about
   the algorithm the code runs (inference of unsuffixed literals, unify / constrain_type, Env). *)
From GV Require Import Front.Scan Front.ParseExpr Check.UAst Check.Infer Check.InferExamples Check.InferProofs.

(* SCOPING: checking an expression leaves the environment exactly as it was - whatever a block, a
   branch, a match arm, a loop body or a called function binds (or shadows, or declares mutable) is
   gone afterwards; statements only change the innermost scope; a function check restores the
   caller's environment. *)
Theorem C17_checker_scoping : forall intern f D,
  (forall st e r, check_expr intern f D st e = COk r -> st_env (snd r) = st_env st) /\
  (forall st b r, check_stmts intern f D st b = COk r -> tl (st_env (snd r)) = tl (st_env st)) /\
  (forall st b r, check_block intern f D st b = COk r -> tl (st_env (snd r)) = tl (st_env st)) /\
  (forall st s r, check_stmt intern f D st s = COk r -> tl (st_env (snd r)) = tl (st_env st)) /\
  (forall st fd r, check_fn intern f D st fd = COk r -> st_env (snd r) = st_env st).
Proof. exact check_env. Qed.
Print Assumptions C17_checker_scoping.

Theorem C17_checker_scope_does_not_leak : forall intern f D st e e' st' x,
  check_expr intern f D st e = COk (e', st') -> env_get (st_env st') x = env_get (st_env st) x.
Proof. exact scope_does_not_leak. Qed.
Print Assumptions C17_checker_scope_does_not_leak.

Theorem C17_checker_for_does_not_leak : forall intern f D st p e body s' st',
  check_stmt intern f D st (XSForEach p e body) = COk (s', st') -> st_env st' = st_env st.
Proof. exact for_does_not_leak. Qed.
Print Assumptions C17_checker_for_does_not_leak.

Theorem C17_checker_unbound_after_block : forall intern f f' D st b e' st' x,
  check_expr intern f D st (XBlock b) = COk (e', st') ->
  env_get (st_env st) x = None -> assocL x (d_consts D) = None ->
  check_expr intern (S f') D st' (XIdentifier x) = CErr E_UnknownIdentifier.
Proof. exact unbound_after_block. Qed.
Print Assumptions C17_checker_unbound_after_block.

(* the local rules (in every state in which the sub-expressions are accepted) *)
Theorem C17_checker_rejects_non_bool_condition : forall intern f D st c a b c1 st1,
  check_expr intern f D st c = COk (c1, st1) -> ty_of c1 <> CBool ->
  is_ok (check_expr intern (S f) D st (XIf c a b)) = false.
Proof. exact if_cond_not_bool_rejected. Qed.
Print Assumptions C17_checker_rejects_non_bool_condition.

Theorem C17_checker_rejects_operand_mismatch : forall intern f D st op x y x1 st1 y1 st2,
  uses_unify op = true ->
  check_expr intern f D st x = COk (x1, st1) -> check_expr intern f D st1 y = COk (y1, st2) ->
  unify_compat (ty_of x1) (ty_of y1) = false ->
  check_expr intern (S f) D st (XOp op x y) = CErr E_TypeMismatch.
Proof. exact operands_differ_rejected. Qed.
Print Assumptions C17_checker_rejects_operand_mismatch.

Theorem C17_checker_rejects_assignment_to_immutable : forall intern f D st x accs v t,
  env_get (st_env st) x = Some (t, false) ->
  check_stmt intern (S f) D st (XSVarAssign x accs v) = CErr E_IdentifierNotDeclaredAsMutable.
Proof. exact assign_immutable_rejected. Qed.
Print Assumptions C17_checker_rejects_assignment_to_immutable.

Theorem C17_checker_rejects_index_not_usize : forall intern f D st a i a1 st1 i1 st2,
  check_expr intern f D st a = COk (a1, st1) -> check_expr intern f D st1 i = COk (i1, st2) ->
  ty_of i1 <> CUnsigned Usize -> ty_of i1 <> CUnsigned UnspecifiedU ->
  is_ok (check_expr intern (S f) D st (XArrayAccess a i)) = false.
Proof. exact index_not_usize_rejected. Qed.
Print Assumptions C17_checker_rejects_index_not_usize.

(* the checker is NOT sound for the reference rules (the recorded re-typing defect of unsuffixed
   literals, known finding of C05): three accepted programs whose typed tree Wt.v rejects (a fourth, `let y = 1 + 2 + x; y`, was repaired by fix 64720dd: compound expressions are constrained deeply) *)
Theorem C17_checker_soundness_refuted :
  forall P, In P [P_retype; P_retype3; P_big] ->
  exists P', check_program ex_intern 50 P = COk P' /\ Wt.wt_program P' = false.
Proof. exact check_sound_refuted. Qed.
Print Assumptions C17_checker_soundness_refuted.

(* ---- lifting to EVERY syntactic context (Check/InferSub.v): an accepted program has accepted every
   expression and statement of every function (in some state of the checker); hence a node that can
   never be accepted makes the whole program rejected wherever it occurs - in nested blocks, branches,
   match arms, loop bodies, call arguments, accessor indices, callees. *)
From GV Require Import Check.InferSub.

Theorem C17_checker_accepted_means_every_node_accepted : forall intern fuel P T,
  NoDup (map uf_name (up_fns P)) ->
  check_program_t intern fuel P = COk T ->
  exists D, d_fns D = up_fns P /\ forall n, occurs n P -> acc intern D n.
Proof. exact accepted_all_nodes. Qed.
Print Assumptions C17_checker_accepted_means_every_node_accepted.

Theorem C17_checker_rejects_program_with_unacceptable_node : forall intern fuel P n,
  NoDup (map uf_name (up_fns P)) -> occurs n P ->
  (forall D, d_fns D = up_fns P -> never_ok intern D n) ->
  is_ok (check_program_t intern fuel P) = false /\ is_ok (check_program intern fuel P) = false.
Proof. exact node_never_ok_program_rejected. Qed.
Print Assumptions C17_checker_rejects_program_with_unacceptable_node.

Theorem C17_checker_rejects_non_bool_condition_anywhere : forall intern fuel P c a b,
  NoDup (map uf_name (up_fns P)) -> occurs (NE (XIf c a b)) P ->
  (forall D, d_fns D = up_fns P -> always_ty intern D c (fun t => t <> CBool)) ->
  is_ok (check_program intern fuel P) = false.
Proof. exact if_cond_never_bool_rejected. Qed.
Print Assumptions C17_checker_rejects_non_bool_condition_anywhere.

Theorem C17_checker_rejects_operand_mismatch_anywhere : forall intern fuel P op x y (bx by_ : cty -> Prop),
  NoDup (map uf_name (up_fns P)) -> occurs (NE (XOp op x y)) P -> uses_unify op = true ->
  (forall D, d_fns D = up_fns P -> always_ty intern D x bx /\ always_ty intern D y by_) ->
  (forall t1 t2, bx t1 -> by_ t2 -> unify_compat t1 t2 = false) ->
  is_ok (check_program intern fuel P) = false.
Proof. exact operands_never_unify_rejected. Qed.
Print Assumptions C17_checker_rejects_operand_mismatch_anywhere.

Theorem C17_checker_rejects_non_usize_index_anywhere : forall intern fuel P a i,
  NoDup (map uf_name (up_fns P)) -> occurs (NE (XArrayAccess a i)) P ->
  (forall D, d_fns D = up_fns P -> always_ty intern D i (fun t => t <> CUnsigned Usize /\ t <> CUnsigned UnspecifiedU)) ->
  is_ok (check_program intern fuel P) = false.
Proof. exact index_never_usize_rejected. Qed.
Print Assumptions C17_checker_rejects_non_usize_index_anywhere.

(* purely syntactic instances: `if <number> ..`, `-true`, `-<unsigned literal>`, `a[true]`, a unifying
   operator on a Boolean and a number literal, `x << true`, anywhere in the program *)
Theorem C17_checker_rejects_literal_type_errors_anywhere : forall intern fuel P n,
  NoDup (map uf_name (up_fns P)) -> occurs n P -> bad_node n = true ->
  is_ok (check_program_t intern fuel P) = false /\ is_ok (check_program intern fuel P) = false.
Proof. exact contains_bad_node_rejected. Qed.
Print Assumptions C17_checker_rejects_literal_type_errors_anywhere.

(* ---- soundness for the reference rules, partial (Check/InferSound.v): on typed trees without
   Unspecified types the inference machinery is the identity, and accepted expressions / blocks of a
   small fragment are well typed in the sense of Wt.v *)
From GV Require Import Check.InferSound.

Theorem C17_checker_check_type_is_identity_on_concrete_trees_partial : forall f e t e',
  check_type f e t = COk e' -> conc_e e = true -> e' = e /\ ty_of e = t.
Proof. exact check_type_conc. Qed.
Print Assumptions C17_checker_check_type_is_identity_on_concrete_trees_partial.

(* ---- SOUNDNESS for the reference rules, at program level, for a Boolean fragment of the untyped
   program (Check/InferSound.v, [in_sound_fragment], evaluated per program by the extracted checker in
   the tie): names of consts / structs / enums / functions pairwise distinct (HashMap keys); consts are
   literals of exactly their declared type; field, payload, parameter and return types concrete (no
   const-sized arrays); every number literal and range suffixed and in the range of its suffix;
   everything else of the language EXCEPT join / join_iter and `[e; N]` with a const size: all
   operators, casts, if, blocks, arrays, tuples, ranges, struct and enum literals, field access, calls
   (several functions, pub or not), match with every pattern form, let / let mut with annotations,
   assignment through all accessors, for.  For such a program: accepted by the (model of the) real
   checker => the typed program satisfies the reference rules Wt.v, hence (C17_accepted_never_
   inconsistent) never reaches a typing inconsistency in Sem.v.  Outside: programs with unsuffixed
   literals (where soundness is FALSE: C17_checker_soundness_refuted). *)
Theorem C17_checker_sound_on_the_suffixed_fragment_partial : forall intern : list N -> N,
  (forall a b, intern a = intern b -> a = b) ->
  forall fuel P P',
    in_sound_fragment P = true -> (fuel <= S Wt.wt_fuel)%nat ->
    check_program intern fuel P = COk P' -> Wt.wt_program P' = true.
Proof. exact check_sound_fragment. Qed.
Print Assumptions C17_checker_sound_on_the_suffixed_fragment_partial.
