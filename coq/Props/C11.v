(* C11 — Bristol export/import preserves the function; malformed files are rejected.
   This file only states the property theorems; proofs live in Circuit/BristolProofs.v.
   Model: Circuit/Bristol.v (format_as_bristol / bristol_to_garble / parse_line of
   src/convert.rs on token lines; the importer as repaired by fixes 2e307c9 and 9ad46a2). *)
From GV Require Import Base.Util Circuit.Ssa Circuit.Bristol Circuit.BristolProofs.

(* Round trip.  For every valid circuit shaped like a compiled one (>= 161 panic outputs)
   none of whose non-panic outputs is an input wire, and which fits the machine ([lim] words
   can be allocated, lim <= usize::MAX): the exporter writes a file, the importer accepts that
   file, and the imported circuit has the same parties and computes, for EVERY input
   (whatever its shape), exactly the non-panic output bits of c in the same order. *)
Theorem C11_roundtrip : forall (lim : N) (c : circuit),
  ssa_validate c = None /\
  (PANIC_BITS <= length (output_gates c))%nat /\
  (forall o, In o (skipn PANIC_BITS (output_gates c)) -> num_inputs c <= o) /\
  lim <= USIZE_MAX /\
  wires_len c + 2 * lenN (output_gates c) <= lim ->
  exists ls c',
    export lim c = Ok (inl ls) /\ import ls = Ok (inl c') /\
    input_gates c' = input_gates c /\
    forall ins, ssa_eval c' ins = option_map (skipn PANIC_BITS) (ssa_eval c ins).
Proof. exact export_import_roundtrip. Qed.
Print Assumptions C11_roundtrip.

(* The circuits excluded above are refused, not mis-exported. *)
Theorem C11_export_refuses_input_output : forall (lim : N) (c : circuit),
  ssa_validate c = None -> (PANIC_BITS <= length (output_gates c))%nat ->
  lim <= USIZE_MAX -> wires_len c + 2 * lenN (output_gates c) <= lim ->
  (exists o, In o (skipn PANIC_BITS (output_gates c)) /\ o < num_inputs c) ->
  export lim c = Ok (inr XOutputWireIsInput).
Proof. exact export_refuses_input_output. Qed.
Print Assumptions C11_export_refuses_input_output.

(* The exported text is well-formed Bristol ([bristol_wf], Circuit/Bristol.v): header with
   the right gate and wire counts and the parties of c; one output value of
   |outputs| - 161 bits (one wire per output position, so repeated outputs are de-aliased);
   every gate line has the arity of its gate type; the gate lines assign pairwise distinct
   non-input wires and there are exactly as many of them as non-input wires; every wire
   read is an input or assigned by an earlier line.  That the last wires carry the outputs
   *in order* is C11_export_sem below (and, through the importer, C11_roundtrip). *)
Theorem C11_export_wf : forall (lim : N) (c : circuit) (ls : list line),
  exportable lim c -> export lim c = Ok (inl ls) ->
  bristol_wf (input_gates c) (lenN (output_gates c) - N.of_nat PANIC_BITS) ls.
Proof. exact export_wf. Qed.
Print Assumptions C11_export_wf.

(* ... hence every non-input wire is assigned by exactly one gate line. *)
Theorem C11_wf_assigned_exactly_once : forall ig n_out ls gl,
  ls = [TNum (lenN gl); TNum (sumN ig + lenN gl)]
         :: (TNum (lenN ig) :: map TNum ig) :: [TNum 1; TNum n_out] :: [] :: map bgate_line gl ->
  NoDup (map bg_out gl) ->
  (forall g, In g gl -> sumN ig <= bg_out g < sumN ig + lenN gl) ->
  forall w, sumN ig <= w < sumN ig + lenN gl ->
  exists k g, nthN gl k = Some g /\ bg_out g = w /\
              forall k' g', nthN gl k' = Some g' -> bg_out g' = w -> k' = k.
Proof. exact wf_assigned_exactly_once. Qed.
Print Assumptions C11_wf_assigned_exactly_once.

(* "The outputs are the last wires in order", independently of the importer: the exported
   file read with the reference Bristol semantics ([bristol_eval], Circuit/Bristol.v: inputs
   on the first wires, gates in file order, result = the last n_out wires in ascending
   order) computes exactly the non-panic output bits of c, for every input. *)
Theorem C11_export_sem : forall (lim : N) (c : circuit) (ls : list line),
  exportable lim c -> export lim c = Ok (inl ls) ->
  exists gl,
    ls = [TNum (lenN gl); TNum (sumN (input_gates c) + lenN gl)]
           :: (TNum (lenN (input_gates c)) :: map TNum (input_gates c))
           :: [TNum 1; TNum (lenN (output_gates c) - N.of_nat PANIC_BITS)]
           :: []
           :: map bgate_line gl /\
    forall ins,
      bristol_eval (input_gates c) (lenN (output_gates c) - N.of_nat PANIC_BITS) gl ins =
      option_map (skipn PANIC_BITS) (ssa_eval c ins).
Proof. exact export_bristol_sem. Qed.
Print Assumptions C11_export_sem.

(* Importing any file (any list of token lines) returns a circuit or an error: the model of
   the (repaired) importer contains every panicking primitive of the Rust code (slices,
   indexing, checked usize subtraction and addition) and none of them fires; its one fuelled
   loop never runs out of fuel. *)
Theorem C11_import_total : forall ls : list line,
  import ls <> Crash /\ import ls <> OutOfFuel.
Proof. exact import_total. Qed.
Print Assumptions C11_import_total.

(* the hypotheses of C11_roundtrip / C11_export_wf are satisfiable by a circuit with
   repeated outputs, an output feeding later gates and a Not gate *)
Theorem C11_nonvacuous : exportable 67108864 ex_circuit.
Proof. exact ex_exportable. Qed.
Print Assumptions C11_nonvacuous.
