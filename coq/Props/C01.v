(* C01 — the compiled circuit returns the value the source program denotes.
   The specification is Lang/Sem.v ([run_main]).  The theorems go from the components (register
   form, builder requests) through the bit-level semantics Compile/TSem.v to
   C01_end_to_end_exact, whose premises are Booleans the extracted checker evaluates per
   program; programs outside those premises are compared differentially by tools/c01.py. *)
From GV Require Import Base.Util Base.NMap Circuit.Ssa Circuit.Reg Circuit.RegAlloc Circuit.RegAllocProofs
  Builder.Builder Builder.BuilderSem Builder.BuilderSpec Builder.BuilderProofs Lang.Ast Lang.Sem.

Open Scope N_scope.

(* "SSA circuit and register circuit": for every valid SSA circuit (in particular every
   compiled one) the register form computes the same bits on every input *)
Theorem C01_register_form_equivalent : forall c, ssa_validate c = None ->
  exists r, convert c = Ok r /\ forall ins, reg_eval r ins = ssa_eval c ins.
Proof.
  intros c H. destruct (convert_correct c H) as (r & Hc & _ & He & _). exists r. auto.
Qed.
Print Assumptions C01_register_form_equivalent.

(* "gate de-duplication on or off": the soundness of every builder request holds for any
   value of the cache_gates option *)
Theorem C01_requests_sound_any_dedup : builder_ops_sound inv.
Proof. exact builder_sound. Qed.
Print Assumptions C01_requests_sound_any_dedup.

(* the specification on a concrete program:
   pub fn main(x: u8, y: u8) -> u8 { let z = x + y; if z > 10u8 { z - 10u8 } else { z * 2u8 } } *)
Definition m0 := mkMeta 0 0 0 0.
Definition u8 := TInt false 8.
Definition ex_prog : program :=
  mkProgram [] []
    [mkFn 3 [(0, u8); (1, u8)] u8
       [St (SLet (Pat (PId 2) m0 u8) (Ex (EOp OAdd (Ex (EId 0) m0 u8) (Ex (EId 1) m0 u8)) (mkMeta 0 41 0 46) u8)) m0;
        St (SExpr (Ex (EIf (Ex (EOp OGt (Ex (EId 2) m0 u8) (Ex (ENumU 10 8) m0 u8)) m0 TBool)
                          (Ex (EOp OSub (Ex (EId 2) m0 u8) (Ex (ENumU 10 8) m0 u8)) m0 u8)
                          (Ex (EOp OMul (Ex (EId 2) m0 u8) (Ex (ENumU 2 8) m0 u8)) m0 u8)) m0 u8)) m0]]
    [] 3.

Theorem C01_spec_example :
  run_main 50 ex_prog [bits_of_Z 8 7%Z; bits_of_Z 8 92%Z] = RunOk (bits_of_Z 8 89%Z) false /\
  run_main 50 ex_prog [bits_of_Z 8 255%Z; bits_of_Z 8 5%Z] = RunPanic ROverflow (mkMeta 0 41 0 46).
Proof. split; vm_compute; reflexivity. Qed.
Print Assumptions C01_spec_example.

(* ------------------------------------------------------------------------------------
   Program level.  Compile/Lower.v is the model of src/compile.rs (tied to the real compiler
   gate for gate on every run); Compile/TSem.v is the SAME lowering run over Booleans (no
   gate store, no cache, no rewriting, no pruning): the bit-level semantics of a program.
   For every program, every fuel and every input on which the bit-level semantics is defined:
   the model emits a circuit that validates, has the parameters' party sizes and 161 + |value|
   outputs, and whose output decodes (EvalPanic::parse = parse_panic) to exactly the panic /
   the value bits of the bit-level semantics.  [MAX_GATES] is the size limit of
   Circuit::validate. *)
From GV Require Import Builder.Build Panic.PanicRec Panic.PanicSem Compile.Lower Compile.TSem Compile.LowerSound.

Theorem C01_circuit_computes_bit_semantics : forall fuel dedup P s1 outs,
  lower_main_with fuel dedup P = Ok (PreOk s1 outs) ->
  counter (cb s1) + (b_shift (cb s1) - 2) <= MAX_GATES ->
  exists fd igs bindings,
    find_fn P (p_main P) = Some fd /\ param_wiring P (fn_params fd) = (igs, bindings) /\
    forall ins inp o vouts,
      load_inputs igs ins = Some inp ->
      tsem_program fuel P (param_args bindings inp) = Ok (o, vouts) ->
      exists c out,
        lower_program_with fuel dedup P = Ok (LCircuit c) /\
        ssa_validate c = None /\ input_gates c = igs /\
        length (output_gates c) = (161 + length vouts)%nat /\
        ssa_eval c ins = Some out /\
        parse_panic out = parse_spec o vouts /\
        (o = None -> skipn 161 out = vouts).
Proof. exact lower_program_sound. Qed.
Print Assumptions C01_circuit_computes_bit_semantics.

(* all four configurations: SSA and register circuit, gate de-duplication on and off *)
Theorem C01_all_configurations : forall fuel P s1 outs1 s2 outs2,
  lower_main_with fuel true P = Ok (PreOk s1 outs1) -> lower_main_with fuel false P = Ok (PreOk s2 outs2) ->
  counter (cb s1) + (b_shift (cb s1) - 2) <= MAX_GATES ->
  counter (cb s2) + (b_shift (cb s2) - 2) <= MAX_GATES ->
  exists fd igs bindings,
    find_fn P (p_main P) = Some fd /\ param_wiring P (fn_params fd) = (igs, bindings) /\
    forall ins inp o vouts,
      load_inputs igs ins = Some inp ->
      tsem_program fuel P (param_args bindings inp) = Ok (o, vouts) ->
      exists c1 c2 r1 r2 out1 out2,
        lower_program_with fuel true P = Ok (LCircuit c1) /\ lower_program_with fuel false P = Ok (LCircuit c2) /\
        convert c1 = Ok r1 /\ convert c2 = Ok r2 /\
        ssa_eval c1 ins = Some out1 /\ reg_eval r1 ins = Some out1 /\
        ssa_eval c2 ins = Some out2 /\ reg_eval r2 ins = Some out2 /\
        parse_panic out1 = parse_spec o vouts /\ parse_panic out2 = parse_spec o vouts /\
        (o = None -> skipn 161 out1 = vouts /\ skipn 161 out2 = vouts).
Proof.
  intros fuel P s1 outs1 s2 outs2 H1 H2 M1 M2.
  destruct (lower_program_sound fuel true P s1 outs1 H1 M1) as (fd & igs & bindings & Efd & Epw & S1).
  destruct (lower_program_sound fuel false P s2 outs2 H2 M2) as (fd' & igs' & bindings' & Efd' & Epw' & S2).
  rewrite Efd in Efd'. injection Efd' as <-. rewrite Epw in Epw'. injection Epw' as <- <-.
  exists fd, igs, bindings. split; [assumption|]. split; [assumption|].
  intros ins inp o vouts Hl Ht.
  destruct (S1 ins inp o vouts Hl Ht) as (c1 & out1 & L1 & V1 & _ & _ & E1 & P1 & W1).
  destruct (S2 ins inp o vouts Hl Ht) as (c2 & out2 & L2 & V2 & _ & _ & E2 & P2 & W2).
  destruct (C01_register_form_equivalent c1 V1) as (r1 & C1 & R1).
  destruct (C01_register_form_equivalent c2 V2) as (r2 & C2 & R2).
  exists c1, c2, r1, r2, out1, out2. rewrite R1, R2. repeat split; auto.
Qed.
Print Assumptions C01_all_configurations.

(* non-vacuity: for the example program above the model compiles (both settings) and the
   bit-level semantics is defined and agrees with the specification interpreter *)
Definition pre_ok (r : res lowered_pre) : bool :=
  match r with
  | Ok (PreOk s outs) => counter (cb s) + (b_shift (cb s) - 2) <=? MAX_GATES
  | _ => false
  end.

Lemma pre_ok_spec r : pre_ok r = true ->
  exists s outs, r = Ok (PreOk s outs) /\ counter (cb s) + (b_shift (cb s) - 2) <= MAX_GATES.
Proof.
  destruct r as [[s outs| |]| |]; cbn [pre_ok]; try discriminate. intro H. apply N.leb_le in H. eauto.
Qed.

Theorem C01_bit_semantics_example :
  (exists s outs, lower_main_with 50 true ex_prog = Ok (PreOk s outs) /\ counter (cb s) + (b_shift (cb s) - 2) <= MAX_GATES) /\
  (exists s outs, lower_main_with 50 false ex_prog = Ok (PreOk s outs) /\ counter (cb s) + (b_shift (cb s) - 2) <= MAX_GATES) /\
  tsem_program 50 ex_prog [bits_of_Z 8 7%Z; bits_of_Z 8 92%Z] = Ok (None, bits_of_Z 8 89%Z) /\
  (exists garbage, tsem_program 50 ex_prog [bits_of_Z 8 255%Z; bits_of_Z 8 5%Z] = Ok (Some (1, mkPLoc 0 41 0 46), garbage)).
Proof.
  split; [|split; [|split]].
  - apply pre_ok_spec. vm_compute. reflexivity.
  - apply pre_ok_spec. vm_compute. reflexivity.
  - vm_compute. reflexivity.
  - eexists. vm_compute. reflexivity.
Qed.
Print Assumptions C01_bit_semantics_example.

(* ------------------------------------------------------------------ the last step, proved for a
   fragment: the bit-level semantics IS the source semantics (Lang/Sem.v) on pure scalar
   expressions (literals, variables, casts, unary minus, !, the sixteen binary operators,
   if/else; all integer widths), for every environment and all operand values.  With
   C01_circuit_computes_bit_semantics this is an end-to-end statement "emitted circuit = Sem.v"
   for that fragment that does not depend on sampled inputs.  [exact_tys] excludes trees
   whose annotations conflate i32 and u32 (Wt.ty_eqb admits them; counterexample proved in
   TSemSemExpr.Conflation, the known finding c05-literal-width-divergence). *)
From GV Require Lang.Wt.
From GV Require Import Compile.TSemFacts Compile.TSemSemExpr.

Theorem C01_scalar_expressions_bit_semantics_is_source_semantics :
  forall fuel P e en E g fw,
  pure_scalar e = true -> Wt.wt_expr fw P g e = true -> exact_tys g e = true ->
  env_rel en E g -> Forall keys_distinct E ->
  match Sem.eval fuel P en e with
  | Sem.Done (v, en') =>
      Sem.scopes en' = Sem.scopes en /\ val_ok (e_ty e) v /\
      forall fuel', (depth e < fuel')%nat ->
        lower_expr tops fuel' P e E None = Ok ((enc_val (e_ty e) v, E), None)
  | Sem.Panicked r m =>
      forall fuel', (depth e < fuel')%nat ->
        exists w, lower_expr tops fuel' P e E None =
                  Ok ((w, E), Some (preason_num (pr r), ploc32 (ploc_of m)))
  | Sem.Stuck _ => False
  | Sem.NoFuel => True
  end.
Proof. exact tsem_sem_expr. Qed.
Print Assumptions C01_scalar_expressions_bit_semantics_is_source_semantics.

(* the bit-level semantics of the fragment never crashes, and a recorded panic is never lost *)
Theorem C01_scalar_expressions_bit_semantics_total :
  forall P g E e fw fuel o,
  pure_scalar e = true -> Wt.wt_expr fw P g e = true -> exact_tys g e = true ->
  env_shape E g -> Forall keys_distinct E -> (depth e < fuel)%nat ->
  exists w o', lower_expr tops fuel P e E o = Ok ((w, E), o') /\
               length w = tw (e_ty e) /\ sticky o o'.
Proof. exact tsem_total. Qed.
Print Assumptions C01_scalar_expressions_bit_semantics_total.

(* ------------------------------------------------------------------ the precondition "the
   bit-level semantics is defined on this input" of C01_circuit_computes_bit_semantics does not
   depend on the input: the lowering is PARAMETRIC in its operation set (Compile/Param*.v:
   lower_param, an abstract logical-relations theorem of which the circuit/semantics simulation
   is one instance), and instantiated with "any two Booleans are related" it says that whether
   TSem is defined depends on the lengths of the arguments only.  Hence ONE successful run of
   the extracted TSem on any input of the parameters' sizes (which every check performs)
   establishes the circuit theorem for ALL inputs of the program. *)
From GV Require Import Compile.TSemShape.

Theorem C01_bit_semantics_defined_by_shape :
  forall fuel P args args',
  Forall2 (fun a a' => length a = length a') args args' ->
  forall r, tsem_program fuel P args = Ok r ->
  exists r', tsem_program fuel P args' = Ok r' /\ length (snd r') = length (snd r).
Proof. exact tsem_defined_shape_only. Qed.
Print Assumptions C01_bit_semantics_defined_by_shape.

Theorem C01_circuit_computes_bit_semantics_one_witness :
  forall fuel dedup P s1 outs,
  lower_main_with fuel dedup P = Ok (PreOk s1 outs) ->
  counter (cb s1) + (b_shift (cb s1) - 2) <= MAX_GATES ->
  exists fd igs bindings,
    find_fn P (p_main P) = Some fd /\ param_wiring P (fn_params fd) = (igs, bindings) /\
    forall args0 r0,
      Forall2 (fun b a => length a = length (snd b)) bindings args0 ->
      tsem_program fuel P args0 = Ok r0 ->
      forall ins inp, load_inputs igs ins = Some inp ->
        exists o vouts c out,
          tsem_program fuel P (param_args bindings inp) = Ok (o, vouts) /\
          length vouts = length (snd r0) /\
          lower_program_with fuel dedup P = Ok (LCircuit c) /\
          ssa_validate c = None /\ input_gates c = igs /\
          length (output_gates c) = (161 + length vouts)%nat /\
          ssa_eval c ins = Some out /\
          parse_panic out = parse_spec o vouts /\
          (o = None -> skipn 161 out = vouts).
Proof. exact lower_program_sound_one_witness. Qed.
Print Assumptions C01_circuit_computes_bit_semantics_one_witness.

(* ------------------------------------------------------------------ the same step for whole
   PROGRAMS of the imperative scalar fragment (blocks, let / let mut, assignment, if/else and
   && / || whose branches and operands have effects, all operators and casts; scalar
   parameters; no calls, loops, aggregates or global constants): whenever the bit-level
   semantics is defined, it returns exactly the bits Sem.run_main returns, or records exactly
   the panic Sem.run_main raises.  [in_imp_fragment] is a boolean function; the extracted
   checker evaluates it on every tied program and the evidence reports how many programs of a
   run are covered by this theorem (coverage.theorem_fragments). *)
From GV Require Import Compile.TSemSemStmt Compile.Fragment.

Theorem C01_imperative_scalar_programs_bit_semantics_is_source_semantics :
  forall P fuel fw fT args o outs,
  in_imp_fragment fw P = true ->
  tsem_program fT P args = Ok (o, outs) ->
  match Sem.run_main fuel P args with
  | Sem.RunOk bits _ => o = None /\ outs = bits
  | Sem.RunPanic r m => o = Some (preason_num (pr r), PanicSem.ploc32 (ploc_of m))
  | Sem.RunStuck _ | Sem.RunNoFuel => True
  end.
Proof. exact in_imp_fragment_sound. Qed.
Print Assumptions C01_imperative_scalar_programs_bit_semantics_is_source_semantics.

(* ... extended by function calls (arguments with effects, callee bodies in the fragment) and `for`
   loops over ranges (Compile/TSemSemCall.v); [in_proved_fragment] is the union of the two
   membership tests and is what the extracted checker evaluates per program *)
Theorem C01_imperative_scalar_programs_with_calls_and_loops :
  forall P fuel fw fT args o outs,
  in_proved_fragment fw P = true ->
  tsem_program fT P args = Ok (o, outs) ->
  match Sem.run_main fuel P args with
  | Sem.RunOk bits _ => o = None /\ outs = bits
  | Sem.RunPanic r m => o = Some (preason_num (pr r), PanicSem.ploc32 (ploc_of m))
  | Sem.RunStuck _ | Sem.RunNoFuel => True
  end.
Proof. exact in_proved_fragment_sound. Qed.
Print Assumptions C01_imperative_scalar_programs_with_calls_and_loops.

(* ------------------------------------------------------------------ THE FULL FRAGMENT
   (Compile/ValEnc.v, TSemSemAgg.v, TSemSemMatch.v, TSemSemFull.v): values of EVERY type (the
   relation [has_enc]: canonical encodings, = Sem.encode on in-range values), tuple / struct /
   array / enum literals and accessors, dynamic indexing with its OutOfBounds panic, assignment
   through any chain of index / tuple / field accessors, `for` over arrays and ranges, `let` with
   irrefutable patterns, `match` with every pattern form, blocks, if/else, && / ||, all scalar
   operators and casts; with function calls, `*` with a literal operand and `==` / `!=` on values
   of any type (TSemSemFullCall.v) and global constants (TSemSemFullConst.v).  Not in it: the
   join built-ins.
   [covered_program] is the boolean union of all fragments; [canonical_main_args] says the
   argument bits are canonical encodings (decode-then-encode is the identity: enum padding is
   zero); both are evaluated by the extracted checker (per program / per input). *)
Theorem C01_covered_programs_bit_semantics_is_source_semantics :
  forall P fuel fw fT args o outs,
  covered_program fw P = true -> TSemSemFull.canonical_main_args P args = true ->
  tsem_program fT P args = Ok (o, outs) ->
  match Sem.run_main fuel P args with
  | Sem.RunOk bits _ => o = None /\ outs = bits
  | Sem.RunPanic r m => o = Some (preason_num (pr r), PanicSem.ploc32 (ploc_of m))
  | Sem.RunStuck _ | Sem.RunNoFuel => True
  end.
Proof. exact covered_program_sound. Qed.
Print Assumptions C01_covered_programs_bit_semantics_is_source_semantics.

(* ------------------------------------------------------------------ no run-time witness at all:
   for programs that pass the boolean tests [safe_program_ok] (re-checker Wt.v + side conditions,
   Compile/TSemSafe.v), [params_ok] and [fuel_enough] (Compile/TSemTotal.v: a computable bound on
   the fuel the lowering needs; recursion makes it exceed the cap), the bit-level semantics is
   defined on EVERY input, so the circuit theorem holds unconditionally: whenever the model of
   compile.rs returns a circuit within the gate bound, that circuit validates and, for all inputs,
   decodes to the panic / value bits of TSem, which has size(return type) bits. *)
From GV Require Import Compile.TSemSafe Compile.TSemTotal.

Theorem C01_circuit_computes_bit_semantics_unconditionally :
  forall fuel dedup P s1 outs,
  safe_program_ok P = true -> params_ok P = true ->
  (fuel_needed P <= fuel_cap)%nat -> (fuel_needed P <= fuel)%nat ->
  lower_main_with fuel dedup P = Ok (PreOk s1 outs) ->
  counter (cb s1) + (b_shift (cb s1) - 2) <= MAX_GATES ->
  exists fd igs bindings,
    find_fn P (p_main P) = Some fd /\ param_wiring P (fn_params fd) = (igs, bindings) /\
    forall ins inp,
      load_inputs igs ins = Some inp ->
      exists o vouts c out,
        tsem_program fuel P (param_args bindings inp) = Ok (o, vouts) /\
        length vouts = szn P (fn_ret fd) /\
        lower_program_with fuel dedup P = Ok (LCircuit c) /\
        ssa_validate c = None /\ input_gates c = igs /\
        length (output_gates c) = (161 + length vouts)%nat /\
        ssa_eval c ins = Some out /\
        parse_panic out = parse_spec o vouts /\
        (o = None -> skipn 161 out = vouts).
Proof. intros fuel dedup P. exact (lower_program_total fuel dedup P). Qed.
Print Assumptions C01_circuit_computes_bit_semantics_unconditionally.

Theorem C01_bit_semantics_terminates :
  forall P fuel args fd,
  safe_program_ok P = true -> (fuel_needed P <= fuel_cap)%nat -> (fuel_needed P <= fuel)%nat ->
  find_fn P (p_main P) = Some fd ->
  Forall2 (fun p a => length a = szn P (snd p)) (fn_params fd) args ->
  exists o outs, tsem_program fuel P args = Ok (o, outs) /\ length outs = szn P (fn_ret fd).
Proof. exact tsem_program_terminates. Qed.
Print Assumptions C01_bit_semantics_terminates.

(* ------------------------------------------------------------------ from the real API's encoder
   to the real API's decoder (Lang/LitEnc.v): for a program of the full fragment, argument values
   with their canonical literals, and `args` the bits the model of Literal::as_bits produces for
   them (a model tied to literal.rs on every run): the bits are canonical, Sem.v runs main on
   exactly those values, and if it returns, decoding the bit-level result with the model of the
   real decoder at the return type yields the literal of the value Sem.v computed, no panic. *)
From GV Require Import Lang.LitEnc.
Theorem C01_from_argument_literals_to_the_result_literal : ltac:(let T := type of lit_program_agree in exact T).
Proof. exact lit_program_agree. Qed.
Print Assumptions C01_from_argument_literals_to_the_result_literal.

(* ------------------------------------------------------------------ WITHOUT the "Stuck => True"
   escape (Compile/TSemSemFullWt.v): the strict checker of the covered fragment plus three extra
   boolean tests (wtx: struct literal field count, unit patterns on unit variants, ranges lo <= hi)
   implies the re-checker Wt.v accepts the program (in_full_fragment3_wt), hence (Lang/WtSound.v)
   the source semantics is never stuck for a typing reason; so for covered, well-typed programs
   and canonical arguments, whenever the bit-level semantics is defined, Sem.run_main RETURNS the
   same bits, or PANICS with the same reason and location, or runs out of its own fuel - or, for
   programs containing a match without an irrefutable arm (frag_program = false), is stuck on "no
   arm matches" (excluded by the exhaustiveness check of C08; its connection to Sem.pmatch is
   Exhaust/ExhSound.v, used in C01_covered_exhaustive_programs_agree below). *)
From GV Require Import Compile.TSemSemFullWt.

Theorem C01_covered_well_typed_programs_agree :
  forall P fuel fw fT args o outs, (fw <= Wt.wt_fuel)%nat ->
  wt_covered fw P = true -> TSemSemFull.canonical_main_args P args = true ->
  tsem_program fT P args = Ok (o, outs) ->
  Wt.wt_program P = true /\
  ((exists bits l, Sem.run_main fuel P args = Sem.RunOk bits l /\ o = None /\ outs = bits) \/
   (exists r m, Sem.run_main fuel P args = Sem.RunPanic r m /\
                o = Some (preason_num (pr r), PanicSem.ploc32 (ploc_of m))) \/
   Sem.run_main fuel P args = Sem.RunNoFuel \/
   (ValTy.frag_program P = false /\ exists c, Sem.run_main fuel P args = Sem.RunStuck c /\ In c ValTy.stuck_allowed)).
Proof. exact wt_covered_agrees. Qed.
Print Assumptions C01_covered_well_typed_programs_agree.

(* ------------------------------------------------------------------ and WITHOUT the RunNoFuel
   escape (Compile/SemFuel.v): [sem_fuel_needed P] mirrors the fuel consumption of Sem.eval /
   exec_block / exec (one unit per node, nothing per loop iteration, callee bodies at calls;
   recursion exceeds the cap), [sem_fuel_enough fuel P] is the boolean the extracted checker
   evaluates.  For covered, well-typed programs with enough fuel and canonical arguments,
   whenever the bit-level semantics is defined: Sem.run_main RETURNS the same bits or PANICS with
   the same reason and location - or (only for programs with a match lacking an irrefutable arm)
   is stuck on "no arm matches", the case the exhaustiveness check excludes. *)
From GV Require Import Compile.SemFuel.

Theorem C01_covered_well_typed_programs_with_enough_fuel_agree :
  forall P fuel fw fT args o outs, (fw <= Wt.wt_fuel)%nat ->
  wt_covered fw P = true -> sem_fuel_enough fuel P = true ->
  TSemSemFull.canonical_main_args P args = true -> tsem_program fT P args = Ok (o, outs) ->
  (exists bits l, Sem.run_main fuel P args = Sem.RunOk bits l /\ o = None /\ outs = bits) \/
  (exists r m, Sem.run_main fuel P args = Sem.RunPanic r m /\
               o = Some (preason_num (pr r), PanicSem.ploc32 (ploc_of m))) \/
  (ValTy.frag_program P = false /\ exists c, Sem.run_main fuel P args = Sem.RunStuck c /\ In c ValTy.stuck_allowed).
Proof. exact wt_covered_fuel_agrees. Qed.
Print Assumptions C01_covered_well_typed_programs_with_enough_fuel_agree.

Theorem C01_source_semantics_terminates_within_the_bound :
  forall P fuel args, sem_fuel_enough fuel P = true -> Sem.run_main fuel P args <> Sem.RunNoFuel.
Proof. exact run_main_no_nofuel. Qed.
Print Assumptions C01_source_semantics_terminates_within_the_bound.

(* ------------------------------------------------------------------ the PARSER (src/parse.rs)
   is part of "compile": Front/ParseExpr.v is a function-by-function model of the expression /
   statement / pattern / type / match parser (tied to the real parser in C07 on expression texts
   and function bodies).  [show_min] prints an expression tree with the MINIMAL parentheses that
   Rust's precedence and associativity require; the model parser reads it back as the same tree,
   in any context that ends the expression: the parser groups operators the way Rust does, for
   trees of every size.  The compound assignments `x.acc op= v` are desugared to
   `x.acc = (x.acc) op v` with the parsed target itself as left operand. *)
From GV Require Import Front.Scan Front.ParseExpr Front.ParseExprProofs.

Theorem C01_parser_reads_minimal_parentheses_as_the_tree : forall e, wf_expr e -> forall rest, stops true rest ->
  exists fuel, parse_expr fuel (show_min e ++ rest) = Some (e, rest).
Proof. exact parse_show_min. Qed.
Print Assumptions C01_parser_reads_minimal_parentheses_as_the_tree.

Theorem C01_parser_operator_after_if_chain : forall c t e' o y, wf_expr (UIf c t e') -> wf_expr y ->
  forall b rest, stops b rest ->
  exists fuel,
    parse_expr_st fuel
      (PState (show_min (UIf c t e') ++ tk (op_token o)
                 :: show_at (if is_cmp o then 5 else S (op_level o))%nat true y ++ rest) b)
    = POk (UOp o (UIf c t e') y) (PState rest b).
Proof. exact operator_after_if_chain. Qed.
Print Assumptions C01_parser_operator_after_if_chain.

Theorem C01_parser_compound_assignment_target : forall e x accs,
  accessors e = Some (x, accs) -> target_expr x accs = e.
Proof. exact target_expr_accessors. Qed.
Print Assumptions C01_parser_compound_assignment_target.

(* ------------------------------------------------------------------ END TO END (Compile/EndToEnd.v)
   One statement from the typed program to the evaluated circuit, with only BOOLEAN premises that
   the extracted checker evaluates per program ([certified] = wt_covered && sem_fuel_enough &&
   safe_program_ok && params_ok && fuel_enough; [within_gate_bound] = the MAX_GATES test of
   validation on the pre-build state): the circuit the model of compile.rs returns validates, has
   one input party per parameter (per element for a single array parameter) of the parameter's size,
   evaluates on EVERY input of those sizes, and for canonical argument encodings its output reads
   (EvalPanic::parse) as exactly the value bits or exactly the panic of the source semantics
   Sem.run_main - or, only for programs with a match lacking an irrefutable arm, Sem.v is stuck on
   "no arm matches".  Also for the register circuit, and de-duplication is irrelevant. *)
From GV Require Import Compile.EndToEnd.

Theorem C01_end_to_end : forall fuel dedup P c,
  certified fuel P = true -> within_gate_bound fuel dedup P = true ->
  lower_program_with fuel dedup P = Ok (LCircuit c) ->
  ssa_validate c = None /\ input_gates c = fst (main_wiring P) /\
  forall ins inp,
    load_inputs (input_gates c) ins = Some inp ->
    TSemSemFull.canonical_main_args P (main_args P inp) = true ->
    exists out, ssa_eval c ins = Some out /\ output_spec fuel P (main_args P inp) out.
Proof. exact end_to_end. Qed.
Print Assumptions C01_end_to_end.

Theorem C01_end_to_end_register : forall fuel dedup P c,
  certified fuel P = true -> within_gate_bound fuel dedup P = true ->
  lower_program_with fuel dedup P = Ok (LCircuit c) ->
  exists rc, RegAlloc.convert c = Ok rc /\ Reg.reg_validate rc = Ok None /\ Reg.input_regs rc = fst (main_wiring P) /\
  forall ins inp,
    load_inputs (Reg.input_regs rc) ins = Some inp ->
    TSemSemFull.canonical_main_args P (main_args P inp) = true ->
    exists out, Reg.reg_eval rc ins = Some out /\ output_spec fuel P (main_args P inp) out.
Proof. exact end_to_end_register. Qed.
Print Assumptions C01_end_to_end_register.

Theorem C01_end_to_end_dedup_irrelevant : forall fuel P c1 c2,
  certified fuel P = true -> within_gate_bound fuel true P = true -> within_gate_bound fuel false P = true ->
  lower_program_with fuel true P = Ok (LCircuit c1) -> lower_program_with fuel false P = Ok (LCircuit c2) ->
  input_gates c1 = input_gates c2 /\
  forall ins inp, load_inputs (input_gates c1) ins = Some inp ->
    exists out1 out2, ssa_eval c1 ins = Some out1 /\ ssa_eval c2 ins = Some out2 /\
      parse_panic out1 = parse_panic out2 /\
      (TSemSemFull.canonical_main_args P (main_args P inp) = true ->
       output_spec fuel P (main_args P inp) out1 /\ output_spec fuel P (main_args P inp) out2).
Proof. exact end_to_end_dedup_irrelevant. Qed.
Print Assumptions C01_end_to_end_dedup_irrelevant.

(* ------------------------------------------------------------------ and WITHOUT the "stuck on no arm
   matches" escape (Exhaust/ExhSound.v, Compile/Final.v): with the exhaustiveness check of the real
   algorithm among the Boolean premises ([exh_fns]: every match / let / for pattern list of the
   program passes Useful.check_exhaustive on the translated patterns), Sem.v is never stuck, and the
   end-to-end statement becomes EXACT: the evaluated circuit returns the value or the panic of the
   source semantics, nothing else.  (At the level of Wt.v alone this is false - [wt_covered]'s strict
   type equalities are needed: ExhSound.ExhExamples.wt_level_strengthening_false.) *)
From GV Require Import Exhaust.ExhSem Exhaust.ExhSound Compile.Final.

Theorem C01_covered_exhaustive_programs_agree : forall P fuel fw fT args o outs, (fw <= Wt.wt_fuel)%nat ->
  wt_covered fw P = true -> exh_fns P = true ->
  TSemSemFull.canonical_main_args P args = true -> tsem_program fT P args = Ok (o, outs) ->
  (exists bits l, Sem.run_main fuel P args = Sem.RunOk bits l /\ o = None /\ outs = bits) \/
  (exists r m, Sem.run_main fuel P args = Sem.RunPanic r m /\ o = Some (preason_num (pr r), PanicSem.ploc32 (ploc_of m))) \/
  Sem.run_main fuel P args = Sem.RunNoFuel.
Proof. exact wt_covered_exh_agrees. Qed.
Print Assumptions C01_covered_exhaustive_programs_agree.

Theorem C01_end_to_end_exact : forall fuel dedup P c,
  certified_exh fuel P = true -> within_gate_bound fuel dedup P = true ->
  lower_program_with fuel dedup P = Ok (LCircuit c) ->
  ssa_validate c = None /\ input_gates c = fst (main_wiring P) /\
  forall ins inp,
    load_inputs (input_gates c) ins = Some inp ->
    TSemSemFull.canonical_main_args P (main_args P inp) = true ->
    exists out, ssa_eval c ins = Some out /\ output_exact fuel P (main_args P inp) out.
Proof. exact end_to_end_exact. Qed.
Print Assumptions C01_end_to_end_exact.

Theorem C01_end_to_end_register_exact : forall fuel dedup P c,
  certified_exh fuel P = true -> within_gate_bound fuel dedup P = true ->
  lower_program_with fuel dedup P = Ok (LCircuit c) ->
  exists rc, RegAlloc.convert c = Ok rc /\ Reg.reg_validate rc = Ok None /\ Reg.input_regs rc = fst (main_wiring P) /\
  forall ins inp,
    load_inputs (Reg.input_regs rc) ins = Some inp ->
    TSemSemFull.canonical_main_args P (main_args P inp) = true ->
    exists out, Reg.reg_eval rc ins = Some out /\ output_exact fuel P (main_args P inp) out.
Proof. exact end_to_end_register_exact. Qed.
Print Assumptions C01_end_to_end_register_exact.

(* the precedence theorem at TEXT level (Front/ScanPrint.v): the text of a well-formed expression
   tree printed with minimal parentheses is scanned and parsed back to the tree (token locations
   erased: the parser model ignores them) *)
From GV Require Import Front.ScanPrint.

Theorem C01_parser_reads_minimal_parentheses_text_as_the_tree : forall e,
  wf_expr e -> Forall tok_printable (map kind (show_min e)) ->
  exists ts' fuel, scan_text (show_text e) = Ok (STokens ts') /\
                   map kind ts' = map kind (show_min e) /\
                   parse_expr fuel (unloc ts') = Some (e, []).
Proof. exact scan_parse_show_min. Qed.
Print Assumptions C01_parser_reads_minimal_parentheses_text_as_the_tree.
