(* C05 — accepted programs compile to valid circuits whose I/O shape matches their types.
   Proved here: what validation buys (a validated circuit evaluates without a panic and
   yields one bit per output) and the size function of the specification used as the
   reference for "size of the parameter / return type".  The acceptance => shape claim itself
   is proved from the untyped program on the fragment [in_sound_fragment]
   (C05_accepted_programs_compile_to_valid_circuits) and checked per program by tools/c05.py. *)
From GV Require Import Base.Util Circuit.Ssa Circuit.SsaProofs Lang.Ast Lang.Sem.
Open Scope N_scope.

Theorem C05_valid_circuit_evaluates : forall c ins,
  ssa_validate c = None -> shape_ok (input_gates c) ins ->
  exists out, ssa_eval c ins = Some out /\ length out = length (output_gates c).
Proof. exact ssa_validate_safe. Qed.
Print Assumptions C05_valid_circuit_evaluates.

Theorem C05_sizes_example :
  let P := mkProgram [(1, [(0, TInt false 8); (2, TBool)])] [(3, [[]; [TInt false 8; TInt true 16]; [TBool]])] [] [] 0 in
  sizeof P TBool = 1 /\ sizeof P (TInt true 64) = 64 /\ sizeof P (TArr (TStruct 1) 3) = 27 /\
  sizeof P (TEnum 3) = 26 /\ sizeof P (TTup []) = 0.
Proof. vm_compute. repeat split; reflexivity. Qed.
Print Assumptions C05_sizes_example.

(* ------------------------------------------------------------------------------------
   Type soundness of the re-checker Lang/Wt.v with respect to the specification
   interpreter Lang/Sem.v (Lang/ValTy.v, Lang/WtSound.v, Lang/WtShape.v).
   [wt_program] is the function the checks run on every typed AST the real checker
   returns; these theorems say what its verdict guarantees. *)
From GV Require Import Lang.Wt Lang.ValTy Lang.WtSound Lang.WtShape.

(* value typing agrees with the layout functions: a typed value encodes to exactly
   sizeof(t) bits; whatever decode returns is typed *)
Theorem C05_has_ty_encode_length : forall P t v,
  ty_ok (pred ty_fuel) P t = true -> has_ty P v t = true ->
  exists bits, encode ty_fuel P t v = Some bits /\ length bits = N.to_nat (sizeof P t).
Proof. exact encode_sizeof. Qed.
Print Assumptions C05_has_ty_encode_length.

Theorem C05_decode_has_ty : forall P f t bs v r,
  decode f P t bs = Some (v, r) -> has_ty P v t = true.
Proof. exact decode_has_ty. Qed.
Print Assumptions C05_decode_has_ty.

(* ... and a typed value whose integers are in range is recovered by decode.
   (Ranges are a separate predicate because Wt.v identifies the two 32-bit
   integer types: c05-literal-width-divergence.) *)
Theorem C05_decode_encode : forall P, enums_small P = true -> forall t v,
  ty_ok (pred ty_fuel) P t = true -> has_ty P v t = true -> in_rng P v t = true ->
  forall bits, encode ty_fuel P t v = Some bits -> decode ty_fuel P t bits = Some (v, []).
Proof. exact decode_encode_top. Qed.
Print Assumptions C05_decode_encode.

Theorem C05_decode_encode_nonvacuous :
  let P := mkProgram [(1, [(0, TInt false 8); (2, TBool)])] [(3, [[]; [TInt false 8; TInt true 16]; [TBool]])] [] [] 0 in
  let t := TArr (TTup [TStruct 1; TEnum 3]) 2 in
  let v := VArr [VTup [VTup [VInt 200; VBool true]; VEnum 1 [VInt 7; VInt (-3)]];
                 VTup [VTup [VInt 0; VBool false]; VEnum 2 [VBool true]]] in
  enums_small P = true /\ ty_ok (pred ty_fuel) P t = true /\ has_ty P v t = true /\ in_rng P v t = true /\
  match encode ty_fuel P t v with
  | Some bits => length bits = 70%nat /\ decode ty_fuel P t bits = Some (v, [])
  | None => False
  end.
Proof. vm_compute. repeat split; reflexivity. Qed.
Print Assumptions C05_decode_encode_nonvacuous.

(* preservation + progress, every construct of the language (strict = false: the only
   Stuck codes are pattern-match failure / join; strict = true: inside the syntactic
   fragment frag_* there is no Stuck at all) *)
Theorem C05_wt_sound_expr : forall P (strict : bool),
  wt_program P = true -> (strict = true -> frag_program P = true) ->
  forall n fw g e en,
    wt_expr fw P g e = true -> (strict = true -> frag_expr fw e = true) ->
    genv P g -> env_ok P (scopes en) g ->
    match eval n P en e with
    | Done (v, en') => has_ty P v (e_ty e) = true /\ env_ok P (scopes en') g
    | Stuck c => In c stuck_allowed /\ strict = false
    | Panicked _ _ | NoFuel => True
    end.
Proof. exact wt_sound_expr. Qed.
Print Assumptions C05_wt_sound_expr.

Theorem C05_wt_sound_block : forall P (strict : bool),
  wt_program P = true -> (strict = true -> frag_program P = true) ->
  forall n fw g b en t,
    wt_block fw P g b = Some t -> (strict = true -> frag_block fw b = true) ->
    genv P g -> env_ok P (scopes en) g ->
    match exec_block n P en b with
    | Done (v, en') => has_ty P v t = true /\ env_ok P (tl (scopes en')) (tl g)
    | Stuck c => In c stuck_allowed /\ strict = false
    | Panicked _ _ | NoFuel => True
    end.
Proof. exact wt_sound_block. Qed.
Print Assumptions C05_wt_sound_block.

Theorem C05_wt_sound_stmt : forall P (strict : bool),
  wt_program P = true -> (strict = true -> frag_program P = true) ->
  forall n fw g s en g' t,
    wt_stmt fw P g s = Some (g', t) -> (strict = true -> frag_stmt fw s = true) ->
    genv P g -> env_ok P (scopes en) g ->
    match exec n P en s with
    | Done (v, en') => has_ty P v t = true /\ env_ok P (scopes en') g'
    | Stuck c => In c stuck_allowed /\ strict = false
    | Panicked _ _ | NoFuel => True
    end.
Proof. exact wt_sound_stmt. Qed.
Print Assumptions C05_wt_sound_stmt.

Theorem C05_wt_main_values : forall P d fuel args,
  wt_program P = true -> find_fn P (p_main P) = Some d -> binds_ok P args (fn_params d) ->
  match eval_consts fuel P with
  | Done en0 =>
      match exec_block fuel P (push_scope (bind_all (push_scope en0) args)) (fn_body d) with
      | Done (v, _) => has_ty P v (fn_ret d) = true
      | Stuck c => In c stuck_allowed /\ frag_program P = false
      | Panicked _ _ | NoFuel => True
      end
  | NoFuel => True
  | Stuck _ | Panicked _ _ => False
  end.
Proof. exact wt_main_values. Qed.
Print Assumptions C05_wt_main_values.

Theorem C05_wt_main_shape : forall P fuel inputs, wt_program P = true ->
  match run_main fuel P inputs with
  | RunOk bits _ =>
      exists d, find_fn P (p_main P) = Some d /\
        (ty_ok (pred ty_fuel) P (fn_ret d) = true -> length bits = N.to_nat (sizeof P (fn_ret d)))
  | RunStuck c =>
      (In c stuck_allowed /\ frag_program P = false) \/
      (c = 90 /\ find_fn P (p_main P) = None) \/ c = 91 \/
      (c = 92 /\ exists d, find_fn P (p_main P) = Some d /\ ty_ok (pred ty_fuel) P (fn_ret d) = false)
  | RunPanic _ _ | RunNoFuel => True
  end.
Proof. exact wt_main_shape. Qed.
Print Assumptions C05_wt_main_shape.

Theorem C05_wt_main_shape_fragment : forall P fuel inputs d,
  wt_program P = true -> frag_program P = true ->
  find_fn P (p_main P) = Some d -> ty_ok (pred ty_fuel) P (fn_ret d) = true ->
  match run_main fuel P inputs with
  | RunOk bits _ => length bits = N.to_nat (sizeof P (fn_ret d))
  | RunStuck c => c = 91
  | RunPanic _ _ | RunNoFuel => True
  end.
Proof. exact wt_main_shape_fragment. Qed.
Print Assumptions C05_wt_main_shape_fragment.

(* non-vacuity: a program using a constant, a call, let mut, a for loop, assignment through
   a tuple and an index accessor, a struct, an enum, match with binding patterns, if, cast,
   array / tuple literals and accesses satisfies every hypothesis *)
Module C05Demo.
  Definition m0 := mkMeta 0 0 0 0.
  Definition u8 := TInt false 8.
  Definition i16 := TInt true 16.
  Definition usz := TInt false 32.
  Definition ex (e : expr_inner) (t : ty) := Ex e m0 t.
  Definition st (s : stmt_inner) := St s m0.
  Definition pid (x : N) (t : ty) := Pat (PId x) m0 t.
  Definition id (x : N) (t : ty) := ex (EId x) t.
  Definition n8 (k : N) := ex (ENumU k 8) u8.
  Definition tS := TStruct 1.
  Definition tE := TEnum 3.
  Definition tT := TTup [u8; TArr u8 2].
  Definition tR := TTup [u8; TBool].
  Definition demo : program :=
    mkProgram
      [(1, [(0, u8); (2, TBool)])]
      [(3, [[]; [u8; i16]; [TBool]])]
      [ mkFn 8 [(20, u8)] u8 [st (SExpr (ex (EOp OAdd (id 20 u8) (id 7 u8)) u8))];
        mkFn 9 [(21, u8); (22, TArr u8 2)] tR
          [ st (SLetMut 10 (id 21 u8));
            st (SFor (pid 11 u8) (id 22 (TArr u8 2))
                  [st (SAssign 10 [] (ex (EOp OAdd (id 10 u8) (ex (ECall 8 [id 11 u8]) u8)) u8))]);
            st (SLet (pid 12 tS) (ex (EStructLit 1 [(2, ex ETrue TBool); (0, id 10 u8)]) tS));
            st (SLetMut 13 (ex (ETupLit [ex (EFld (id 12 tS) 0) u8; ex (EArrLit [n8 1; n8 2]) (TArr u8 2)]) tT));
            st (SAssign 13 [ATup tT 1; AIdx (TArr u8 2) (ex (ENumU 0 8) usz)] (n8 3));
            st (SLet (pid 14 u8)
                  (ex (EMatch (ex (EEnumLit 3 1 [id 10 u8; ex (ENumS 4 16) i16]) tE)
                         [ (Pat (PEnumTup 3 1 [pid 15 u8; pid 16 i16]) m0 tE, id 15 u8);
                           (pid 17 tE, n8 0) ]) u8));
            st (SExpr (ex (EIf (ex (EFld (id 12 tS) 2) TBool)
                            (ex (ETupLit [id 14 u8; ex ETrue TBool]) tR)
                            (ex (ETupLit [ex (EIdx (ex (ETupAcc (id 13 tT) 1) (TArr u8 2)) (ex (ENumU 1 8) usz)) u8;
                                          ex (ECast TBool (id 14 u8)) TBool]) tR)) tR)) ] ]
      [(7, n8 5)]
      9.
  Definition b8 (k : Z) := bits_of_Z 8 k.
  (* non-exhaustive match: accepted by the re-checker, outside the fragment *)
  Definition demo41 : program :=
    mkProgram [] [] [mkFn 9 [(0, u8)] u8
       [st (SExpr (ex (EMatch (id 0 u8) [(Pat (PNumU 0) m0 u8, n8 1)]) u8))]] [] 9.
End C05Demo.

Theorem C05_wt_sound_nonvacuous :
  wt_program C05Demo.demo = true /\ frag_program C05Demo.demo = true /\
  ty_ok (pred ty_fuel) C05Demo.demo C05Demo.tR = true /\ sizeof C05Demo.demo C05Demo.tR = 9 /\
  run_main 50 C05Demo.demo [C05Demo.b8 3; C05Demo.b8 1 ++ C05Demo.b8 2] =
    RunOk [false; false; false; true; false; false; false; false; true] false.
Proof. vm_compute. repeat split; reflexivity. Qed.
Print Assumptions C05_wt_sound_nonvacuous.

(* the Stuck codes left open by the general theorem are really reachable outside the
   fragment: the re-checker does not re-check exhaustiveness (that is C08) *)
Theorem C05_stuck_allowed_reachable :
  wt_program C05Demo.demo41 = true /\ frag_program C05Demo.demo41 = false /\
  run_main 50 C05Demo.demo41 [C05Demo.b8 3] = RunStuck 41.
Proof. vm_compute. repeat split; reflexivity. Qed.
Print Assumptions C05_stuck_allowed_reachable.

(* ------------------------------------------------------------------------------------
   Program level: every circuit the model of compile.rs emits (whenever the bit-level
   semantics of the program is defined on some input of the right length) passes
   Circuit::validate, has exactly the party sizes computed by the parameter wiring and
   161 + |value bits| outputs. *)
From GV Require Import Builder.Builder Builder.Build Panic.PanicRec Panic.PanicSem Compile.Lower Compile.TSem Compile.LowerSound.

Theorem C05_lowered_circuit_valid_shape : forall fuel dedup P s1 outs,
  lower_main_with fuel dedup P = Ok (PreOk s1 outs) ->
  counter (cb s1) + (b_shift (cb s1) - 2) <= MAX_GATES ->
  exists fd igs bindings,
    find_fn P (p_main P) = Some fd /\ param_wiring P (fn_params fd) = (igs, bindings) /\
    forall ins inp o vouts,
      load_inputs igs ins = Some inp ->
      tsem_program fuel P (param_args bindings inp) = Ok (o, vouts) ->
      exists c,
        lower_program_with fuel dedup P = Ok (LCircuit c) /\
        ssa_validate c = None /\ input_gates c = igs /\
        length (output_gates c) = (161 + length vouts)%nat.
Proof.
  intros fuel dedup P s1 outs H M.
  destruct (lower_program_sound fuel dedup P s1 outs H M) as (fd & igs & bindings & Efd & Epw & S).
  exists fd, igs, bindings. split; [assumption|]. split; [assumption|]. intros ins inp o vouts Hl Ht.
  destruct (S ins inp o vouts Hl Ht) as (c & out & L & V & Ig & Len & _). eauto.
Qed.
Print Assumptions C05_lowered_circuit_valid_shape.

(* the parameter wiring: one party per parameter, of the size of its type; a single array
   parameter becomes one party per element *)
Theorem C05_param_wiring_sizes : forall P x el n p1 p2 ps,
  fst (param_wiring P [(x, TArr el n)]) = repeat (N.of_nat (szn P el)) (N.to_nat n) /\
  fst (param_wiring P (p1 :: p2 :: ps)) = map (fun p => N.of_nat (szn P (snd p))) (p1 :: p2 :: ps).
Proof.
  intros P x el n p1 p2 ps. split; [reflexivity|].
  assert (G : forall (params : list (N * ty)) (igs : list N) (bs : list (N * list N)) (w : N),
    fst (fst (fold_left (fun '(igs, bs, wire) '(x, t) =>
                 let s := szn P t in
                 (igs ++ [N.of_nat s], bs ++ [(x, wire_range wire s)], wire + N.of_nat s)) params (igs, bs, w)))
    = igs ++ map (fun p => N.of_nat (szn P (snd p))) params).
  { induction params as [|[y t] params IH]; intros igs bs w; cbn [fold_left map]; [now rewrite app_nil_r|].
    rewrite IH. cbn [snd]. now rewrite <- app_assoc. }
  unfold param_wiring. destruct p1 as [y1 t1]. specialize (G ((y1, t1) :: p2 :: ps) [] [] 2).
  destruct t1; destruct (fold_left _ _ _) as [[igs bs] w]; cbn [fst] in *; exact G.
Qed.
Print Assumptions C05_param_wiring_sizes.

(* ------------------------------------------------------------------ "compiling an accepted
   program completes without an internal panic and the outputs have the size of the return
   type", for the bit-level semantics (Compile/TSemSafe.v): for a program that passes
   the re-checker Wt.v and the boolean side conditions [fns_ok] (type definitions closed and not
   too deep, integer widths 8/16/32/64, array lengths <= 2^32, indices <= 32 bits, struct
   patterns with distinct fields and binders, no join built-ins) and [consts_ok], the lowering
   over Booleans NEVER crashes, on any arguments of the parameters' sizes and for any fuel, and
   returns exactly size(return type) bits.  With the parametricity / simulation theorems of C01
   the same then holds for the builder instance, i.e. for the model of compile.rs.
   [safe_program_ok] is a boolean function evaluated per program by the extracted checker. *)
From GV Require Import Compile.TSemSafe.

Theorem C05_bit_semantics_never_crashes_and_has_the_declared_shape :
  forall fuel P args, safe_program_ok P = true ->
  exists fd, find_fn P (p_main P) = Some fd /\
    (Forall2 (fun p a => length a = szn P (snd p)) (fn_params fd) args ->
     match tsem_program fuel P args with
     | Crash => False
     | OutOfFuel => True
     | Ok (_, outs) => length outs = szn P (fn_ret fd)
     end).
Proof. exact tsem_program_safe_ok. Qed.
Print Assumptions C05_bit_semantics_never_crashes_and_has_the_declared_shape.

(* ------------------------------------------------------------------ FROM THE UNTYPED PROGRAM: accepted
   programs do not crash the compiler (Check/InferSafe.v; Check/Infer.v is the model of src/check.rs,
   tied to it).  For an untyped program in the Boolean fragment [in_sound_fragment] (everything except
   join, const-sized arrays and unsuffixed literals) whose struct definitions and struct patterns have
   their fields sorted by name ([structs_sorted], [sp_program]: what the parser produces) and whose
   entry function is declared: if the (model of the) checker accepts it and the node types of its
   output pass [tys_program] (nesting depth and array-size caps of the TSemSafe model, a Boolean on
   the output), then the output satisfies TSemSafe.safe_program_ok - so the lowering over Booleans
   never crashes on arguments of the parameters' sizes, for any fuel, and returns size(ret) bits. *)
From GV Require Import Front.Scan Front.ParseExpr Check.UAst Check.Infer Check.InferSound Check.InferSafe Compile.TSemSafe.

Theorem C05_accepted_programs_satisfy_the_compilers_assumptions : forall intern : list N -> N,
  (forall a b, intern a = intern b -> a = b) -> forall fuel P P',
  in_sound_fragment P = true -> structs_sorted P = true -> sp_program P = true -> main_declared P = true ->
  (fuel <= S Wt.wt_fuel)%nat -> check_program intern fuel P = COk P' -> tys_program P' = true ->
  safe_program_ok P' = true.
Proof. exact check_safe_fragment. Qed.
Print Assumptions C05_accepted_programs_satisfy_the_compilers_assumptions.

Theorem C05_accepted_programs_do_not_crash_the_compiler : forall intern : list N -> N,
  (forall a b, intern a = intern b -> a = b) -> forall fuel P P',
  in_sound_fragment P = true -> structs_sorted P = true -> sp_program P = true -> main_declared P = true ->
  (fuel <= S Wt.wt_fuel)%nat -> check_program intern fuel P = COk P' -> tys_program P' = true ->
  forall tfuel args, exists fd, find_fn P' (p_main P') = Some fd /\
    (Forall2 (fun p a => length a = Lower.szn P' (snd p)) (fn_params fd) args ->
     match TSem.tsem_program tfuel P' args with
     | Crash => False
     | OutOfFuel => True
     | Ok (_, outs) => length outs = Lower.szn P' (fn_ret fd)
     end).
Proof. exact accepted_programs_do_not_crash_the_compiler. Qed.
Print Assumptions C05_accepted_programs_do_not_crash_the_compiler.

(* ... and they COMPILE TO VALID CIRCUITS OF THE DECLARED SHAPE (Check/InferCompile.v = InferSafe +
   TSemTotal.lower_program_total): the first sentence of the property, from the untyped program, with
   Boolean premises only (the fragment tests on the untyped program; tys_program, params_ok,
   fuel_enough, within_gate_bound on the checker's output). *)
From GV Require Import Circuit.Ssa Compile.Lower Compile.TSem Compile.TSemTotal Compile.EndToEnd Check.InferCompile Panic.PanicSem.

Theorem C05_accepted_programs_compile_to_valid_circuits : forall intern : list N -> N,
  (forall a b, intern a = intern b -> a = b) -> forall fuel P P' fuel' dedup,
  in_sound_fragment P = true -> structs_sorted P = true -> sp_program P = true -> main_declared P = true ->
  (fuel <= S Wt.wt_fuel)%nat -> check_program intern fuel P = COk P' -> tys_program P' = true ->
  params_ok P' = true -> fuel_enough fuel' P' = true -> within_gate_bound fuel' dedup P' = true ->
  exists c fd,
    lower_program_with fuel' dedup P' = Ok (LCircuit c) /\
    find_fn P' (p_main P') = Some fd /\
    ssa_validate c = None /\
    input_gates c = fst (main_wiring P') /\
    length (output_gates c) = (161 + szn P' (fn_ret fd))%nat /\
    forall ins inp,
      load_inputs (input_gates c) ins = Some inp ->
      exists o vouts out,
        tsem_program fuel' P' (main_args P' inp) = Ok (o, vouts) /\
        length vouts = szn P' (fn_ret fd) /\
        ssa_eval c ins = Some out /\
        parse_panic out = parse_spec o vouts /\
        (o = None -> skipn 161 out = vouts).
Proof. exact accepted_programs_compile_to_valid_circuits. Qed.
Print Assumptions C05_accepted_programs_compile_to_valid_circuits.
