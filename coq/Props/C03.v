(* C03 — integer operators are bit-exact: the arithmetic gadgets of circuit.rs, for EVERY
   width (lists of any length; no bound).  Each theorem says: for every builder invariant
   [inv] for which the primitive requests are sound ([builder_ops_sound inv], proved for
   the concrete invariant in Builder/BuilderProofs.v), on every builder state satisfying it
   and all valid operand wires, the gadget (the transliteration of circuit.rs in
   Gadgets/Gadgets.v, tied gate for gate to the Rust code by the `builder` jobs of
   tools/c03.py) succeeds, keeps the invariant, only extends the builder, returns valid
   wires, and for EVERY input assignment its result wires denote the stated number.
   [bits_to_N] = unsigned reading, [bits_to_Z_signed] = two's complement, MSB first.
   Proofs: Gadgets/GadgetHoare.v (builder form = pure boolean function) composed here with
   Gadgets/Arith.v (pure boolean function = arithmetic). *)
From GV Require Import Base.Util Base.NMap Base.Bits Base.BitsProofs
  Builder.Builder Builder.BuilderSem Builder.BuilderSpec
  Gadgets.Gadgets Gadgets.GadgetSpec Gadgets.Arith Gadgets.GadgetHoare
  Gadgets.Extend Gadgets.ExtendProofs.

(* ---- addition: sum = (x+y) mod 2^n, carry = (x+y >= 2^n), carry_prev = carry into the MSB *)
Theorem C03_add : forall inv, builder_ops_sound inv -> forall b x y,
  inv b -> valids b x -> valids b y -> length x = length y ->
  exists sum c cp b',
    push_addition_circuit b x y = Ok ((sum, c, cp), b') /\ inv b' /\ ext b b' /\
    valids b' sum /\ valid b' c /\ valid b' cp /\
    forall inp, ins_ok b inp ->
      let X := bits_to_N (dens inp b x) in let Y := bits_to_N (dens inp b y) in
      length sum = length x /\
      bits_to_N (dens inp b' sum) = (X + Y) mod 2 ^ lenN x /\
      N.b2n (den inp b' c) = (X + Y) / 2 ^ lenN x /\
      (den inp b' c = true <-> 2 ^ lenN x <= X + Y) /\
      N.b2n (den inp b' cp)
      = (bits_to_N (dens inp b (tl x)) + bits_to_N (dens inp b (tl y))) / 2 ^ lenN (tl x).
Proof.
  intros inv ops b x y Hi Hx Hy Hl.
  destruct (push_addition_circuit_sound inv ops b x y Hi Hx Hy Hl)
    as ([[sum c] cp] & b' & E & Hi' & He & Vs & Vc & Vcp & Hd). cbn [fst snd] in *.
  exists sum, c, cp, b'. repeat (split; [assumption|]).
  intros inp Hok. specialize (Hd inp Hok). cbv zeta.
  pose proof (dens_same_length inp b x y Hl) as Hl'.
  pose proof (adder_correct _ _ Hl') as Ha. pose proof (adder_carry_iff _ _ Hl') as Hc.
  rewrite <- Hd in Ha, Hc. cbn [fst snd] in Hc. destruct Ha as (HL & HS & HC & HP).
  rewrite !dens_length in HL. rewrite !dens_lenN, ?dens_tl in *. rewrite dens_lenN in HP.
  repeat split; try assumption; apply Hc.
Qed.
Print Assumptions C03_add.

(* signed reading: the sum is x+y in two's complement and (carry xor carry_prev) <-> overflow *)
Theorem C03_add_signed : forall inv, builder_ops_sound inv -> forall b x y,
  inv b -> valids b x -> valids b y -> length x = length y -> x <> [] ->
  exists sum c cp b',
    push_addition_circuit b x y = Ok ((sum, c, cp), b') /\ inv b' /\ ext b b' /\
    forall inp, ins_ok b inp ->
      let D := (bits_to_Z_signed (dens inp b x) + bits_to_Z_signed (dens inp b y))%Z in
      let H := Z.of_N (2 ^ (lenN x - 1)) in
      Z.of_N (bits_to_N (dens inp b' sum)) = (D mod Z.of_N (2 ^ lenN x))%Z /\
      (xorb (den inp b' c) (den inp b' cp) = true <-> ~ (- H <= D < H)%Z) /\
      (xorb (den inp b' c) (den inp b' cp) = false -> bits_to_Z_signed (dens inp b' sum) = D).
Proof.
  intros inv ops b x y Hi Hx Hy Hl Hne.
  destruct (push_addition_circuit_sound inv ops b x y Hi Hx Hy Hl)
    as ([[sum c] cp] & b' & E & Hi' & He & _ & _ & _ & Hd). cbn [fst snd] in *.
  exists sum, c, cp, b'. repeat (split; [assumption|]).
  intros inp Hok. specialize (Hd inp Hok).
  pose proof (add_signed_overflow _ _ (dens_nonempty inp b x Hne) (dens_same_length inp b x y Hl)) as Ha.
  rewrite <- Hd in Ha. rewrite !dens_lenN in Ha. exact Ha.
Qed.
Print Assumptions C03_add_signed.

(* ---- negation: two's complement *)
Theorem C03_neg : forall inv, builder_ops_sound inv -> forall b x,
  inv b -> valids b x ->
  exists r b', push_negation_circuit b x = Ok (r, b') /\ inv b' /\ ext b b' /\ valids b' r /\
    forall inp, ins_ok b inp ->
      length r = length x /\
      bits_to_N (dens inp b' r) = (2 ^ lenN x - bits_to_N (dens inp b x)) mod 2 ^ lenN x.
Proof.
  intros inv ops b x Hi Hx.
  destruct (push_negation_circuit_sound inv ops b x Hi Hx) as (r & b' & E & Hi' & He & Vr & Hd).
  exists r, b'. repeat (split; [assumption|]).
  intros inp Hok. specialize (Hd inp Hok).
  destruct (neg_correct (dens inp b x)) as [HL HV]. rewrite <- Hd in HL, HV.
  rewrite !dens_length in HL. rewrite dens_lenN in HV. split; assumption.
Qed.
Print Assumptions C03_neg.

(* ---- subtraction, unsigned: (x-y) mod 2^n and overflow bit <-> x < y *)
Theorem C03_sub_unsigned : forall inv, builder_ops_sound inv -> forall b x y,
  inv b -> valids b x -> valids b y -> length x = length y ->
  exists d ov b', push_subtraction_circuit b x y false = Ok ((d, ov), b') /\ inv b' /\ ext b b' /\
    valids b' d /\ valid b' ov /\
    forall inp, ins_ok b inp ->
      let X := bits_to_N (dens inp b x) in let Y := bits_to_N (dens inp b y) in
      length d = length x /\
      bits_to_N (dens inp b' d) = (X + 2 ^ lenN x - Y) mod 2 ^ lenN x /\
      Z.of_N (bits_to_N (dens inp b' d)) = ((Z.of_N X - Z.of_N Y) mod Z.of_N (2 ^ lenN x))%Z /\
      den inp b' ov = (X <? Y).
Proof.
  intros inv ops b x y Hi Hx Hy Hl.
  destruct (push_subtraction_circuit_sound inv ops b x y false Hi Hx Hy Hl)
    as ([d ov] & b' & E & Hi' & He & Vd & Vo & Hd); [discriminate|]. cbn [fst snd] in *.
  exists d, ov, b'. repeat (split; [assumption|]).
  intros inp Hok. specialize (Hd inp Hok). cbv zeta.
  pose proof (dens_same_length inp b x y Hl) as Hl'.
  pose proof (sub_correct_unsigned _ _ Hl') as Hs. pose proof (sub_correct_unsigned_Z _ _ Hl') as Hz.
  rewrite <- Hd in Hs, Hz. cbn [fst] in Hz. destruct Hs as (HL & HV & HO).
  rewrite !dens_length in HL. rewrite !dens_lenN in *. repeat split; assumption.
Qed.
Print Assumptions C03_sub_unsigned.

(* ---- subtraction, signed: two's complement of x-y; overflow bit <-> x-y outside [-2^(n-1), 2^(n-1)) *)
Theorem C03_sub_signed : forall inv, builder_ops_sound inv -> forall b x y,
  inv b -> valids b x -> valids b y -> length x = length y -> x <> [] ->
  exists d ov b', push_subtraction_circuit b x y true = Ok ((d, ov), b') /\ inv b' /\ ext b b' /\
    valids b' d /\ valid b' ov /\
    forall inp, ins_ok b inp ->
      let D := (bits_to_Z_signed (dens inp b x) - bits_to_Z_signed (dens inp b y))%Z in
      let H := Z.of_N (2 ^ (lenN x - 1)) in
      length d = length x /\
      Z.of_N (bits_to_N (dens inp b' d)) = (D mod Z.of_N (2 ^ lenN x))%Z /\
      (den inp b' ov = true <-> ~ (- H <= D < H)%Z) /\
      (den inp b' ov = false -> bits_to_Z_signed (dens inp b' d) = D).
Proof.
  intros inv ops b x y Hi Hx Hy Hl Hne.
  destruct (push_subtraction_circuit_sound inv ops b x y true Hi Hx Hy Hl (fun _ => Hne))
    as ([d ov] & b' & E & Hi' & He & Vd & Vo & Hd). cbn [fst snd] in *.
  exists d, ov, b'. repeat (split; [assumption|]).
  intros inp Hok. specialize (Hd inp Hok).
  pose proof (sub_correct_signed _ _ (dens_nonempty inp b x Hne) (dens_same_length inp b x y Hl)) as Hs.
  rewrite <- Hd in Hs. rewrite !dens_length, !dens_lenN in Hs. exact Hs.
Qed.
Print Assumptions C03_sub_signed.

(* ---- unsigned division: x = q*y + r, r < y for y > 0; for y = 0 the circuit returns
   q = 2^n - 1 (all ones) and r = x (compile.rs raises the DivByZero panic separately) *)
Theorem C03_udiv : forall inv, builder_ops_sound inv -> forall b x y,
  inv b -> valids b x -> valids b y -> length x = length y ->
  exists q r b', push_unsigned_division_circuit b x y = Ok ((q, r), b') /\ inv b' /\ ext b b' /\
    valids b' q /\ valids b' r /\
    forall inp, ins_ok b inp ->
      let X := bits_to_N (dens inp b x) in let Y := bits_to_N (dens inp b y) in
      let Q := bits_to_N (dens inp b' q) in let R := bits_to_N (dens inp b' r) in
      length q = length x /\ length r = length x /\
      X = Q * Y + R /\
      (0 < Y -> R < Y /\ Q = X / Y /\ R = X mod Y) /\
      (Y = 0 -> Q = 2 ^ lenN x - 1 /\ R = X).
Proof.
  intros inv ops b x y Hi Hx Hy Hl.
  destruct (push_unsigned_division_circuit_sound inv ops b x y Hi Hx Hy Hl)
    as ([q r] & b' & E & Hi' & He & Vq & Vr & Hd). cbn [fst snd] in *.
  exists q, r, b'. repeat (split; [assumption|]).
  intros inp Hok. specialize (Hd inp Hok). cbv zeta.
  pose proof (dens_same_length inp b x y Hl) as Hl'.
  pose proof (udiv_correct _ _ Hl') as Hu. pose proof (udiv_correct_divmod _ _ Hl') as Hdm.
  rewrite <- Hd in Hu, Hdm. cbn [fst snd] in Hdm. cbv zeta in Hu.
  destruct Hu as (HLq & HLr & HE & HB & HZ). rewrite !dens_length in HLq, HLr. rewrite dens_lenN in HZ.
  repeat split; try assumption; first [apply HB|apply Hdm|apply HZ]; assumption.
Qed.
Print Assumptions C03_udiv.

(* ---- signed division (through absolute values): Rust's truncating quotient and remainder
   everywhere except MIN / -1, where the gadget returns MIN and remainder 0 without any
   signal (DESIGN.md §6-4: compile.rs must add the Overflow panic), and except y = 0 *)
Theorem C03_sdiv : forall inv, builder_ops_sound inv -> forall b x y,
  inv b -> valids b x -> valids b y -> length x = length y -> x <> [] ->
  exists q r b', push_signed_division_circuit b x y = Ok ((q, r), b') /\ inv b' /\ ext b b' /\
    valids b' q /\ valids b' r /\
    forall inp, ins_ok b inp ->
      let SX := bits_to_Z_signed (dens inp b x) in let SY := bits_to_Z_signed (dens inp b y) in
      let MIN := (- Z.of_N (2 ^ (lenN x - 1)))%Z in
      length q = length x /\ length r = length x /\
      (SY <> 0%Z -> ~ (SX = MIN /\ SY = (-1)%Z) ->
         bits_to_Z_signed (dens inp b' q) = Z.quot SX SY /\
         bits_to_Z_signed (dens inp b' r) = Z.rem SX SY) /\
      (SX = MIN -> SY = (-1)%Z ->
         bits_to_Z_signed (dens inp b' q) = MIN /\ bits_to_N (dens inp b' r) = 0) /\
      (SY = 0%Z ->
         bits_to_N (dens inp b' q) = (if (SX <? 0)%Z then 1 else 2 ^ lenN x - 1) /\
         bits_to_N (dens inp b' r) = bits_to_N (dens inp b x)).
Proof.
  intros inv ops b x y Hi Hx Hy Hl Hne.
  destruct (push_signed_division_circuit_sound inv ops b x y Hi Hx Hy Hl Hne)
    as ([q r] & b' & E & Hi' & He & Vq & Vr & Hd). cbn [fst snd] in *.
  exists q, r, b'. repeat (split; [assumption|]).
  intros inp Hok. specialize (Hd inp Hok). cbv zeta.
  pose proof (dens_same_length inp b x y Hl) as Hl'. pose proof (dens_nonempty inp b x Hne) as Hne'.
  pose proof (sdiv_correct _ _ Hne' Hl') as Hs.
  pose proof (sdiv_correct_signed _ _ Hne' Hl') as Hsg.
  pose proof (sdiv_min_minus_one _ _ Hne' Hl') as Hmin.
  rewrite <- Hd in Hs, Hsg, Hmin. cbn [fst snd] in Hsg, Hmin. cbv zeta in Hs, Hsg.
  destruct Hs as (HLq & HLr & _ & HZ). rewrite !dens_length in HLq, HLr. rewrite !dens_lenN in *.
  repeat split; try assumption; first [apply Hsg|apply Hmin|apply HZ]; assumption.
Qed.
Print Assumptions C03_sdiv.

(* ---- comparisons *)
Theorem C03_gt : forall inv, builder_ops_sound inv -> forall b bits x y,
  inv b -> valids b x -> valids b y -> (bits <= length x)%nat -> (bits <= length y)%nat ->
  exists r b', push_gt_circuit b bits x y = Ok (r, b') /\ inv b' /\ ext b b' /\ valid b' r /\
    forall inp, ins_ok b inp ->
      den inp b' r = (bits_to_N (dens inp b (firstn bits y)) <? bits_to_N (dens inp b (firstn bits x))).
Proof.
  intros inv ops b bits x y Hi Hx Hy Hbx Hby.
  destruct (push_gt_circuit_sound inv ops b bits x y Hi Hx Hy Hbx Hby) as (r & b' & E & Hi' & He & Vr & Hd).
  exists r, b'. repeat (split; [assumption|]).
  intros inp Hok. rewrite (Hd inp Hok), gt_correct by (rewrite dens_length; assumption).
  rewrite !dens_firstn. reflexivity.
Qed.
Print Assumptions C03_gt.

Theorem C03_cmp_unsigned : forall inv, builder_ops_sound inv -> forall b bits x y,
  inv b -> valids b x -> valids b y -> (bits <= length x)%nat -> (bits <= length y)%nat ->
  exists lt gt b', push_comparator_circuit b bits x false y false = Ok ((lt, gt), b') /\
    inv b' /\ ext b b' /\ valid b' lt /\ valid b' gt /\
    forall inp, ins_ok b inp ->
      let X := bits_to_N (dens inp b (firstn bits x)) in
      let Y := bits_to_N (dens inp b (firstn bits y)) in
      den inp b' lt = (X <? Y) /\ den inp b' gt = (Y <? X).
Proof.
  intros inv ops b bits x y Hi Hx Hy Hbx Hby.
  destruct (push_comparator_circuit_sound inv ops b bits x false y false Hi Hx Hy Hbx Hby)
    as ([lt gt] & b' & E & Hi' & He & Vl & Vg & Hd). cbn [fst snd] in *.
  exists lt, gt, b'. repeat (split; [assumption|]).
  intros inp Hok. specialize (Hd inp Hok). cbv zeta.
  rewrite cmp_correct_unsigned in Hd by (rewrite dens_length; assumption).
  rewrite !dens_firstn in Hd. injection Hd as -> ->. split; reflexivity.
Qed.
Print Assumptions C03_cmp_unsigned.

Theorem C03_cmp_signed : forall inv, builder_ops_sound inv -> forall b bits x sx y sy,
  inv b -> valids b x -> valids b y -> (bits <= length x)%nat -> (bits <= length y)%nat ->
  sx || sy = true ->
  exists lt gt b', push_comparator_circuit b bits x sx y sy = Ok ((lt, gt), b') /\
    inv b' /\ ext b b' /\ valid b' lt /\ valid b' gt /\
    forall inp, ins_ok b inp ->
      let SX := bits_to_Z_signed (dens inp b (firstn bits x)) in
      let SY := bits_to_Z_signed (dens inp b (firstn bits y)) in
      den inp b' lt = (SX <? SY)%Z /\ den inp b' gt = (SY <? SX)%Z.
Proof.
  intros inv ops b bits x sx y sy Hi Hx Hy Hbx Hby Hs.
  destruct (push_comparator_circuit_sound inv ops b bits x sx y sy Hi Hx Hy Hbx Hby)
    as ([lt gt] & b' & E & Hi' & He & Vl & Vg & Hd). cbn [fst snd] in *.
  exists lt, gt, b'. repeat (split; [assumption|]).
  intros inp Hok. specialize (Hd inp Hok). cbv zeta.
  rewrite cmp_correct_signed in Hd by (rewrite ?dens_length; assumption).
  rewrite !dens_firstn in Hd. injection Hd as -> ->. split; reflexivity.
Qed.
Print Assumptions C03_cmp_signed.

Theorem C03_eq : forall inv, builder_ops_sound inv -> forall b x y,
  inv b -> valids b x -> valids b y ->
  exists r b', push_eq_circuit b x y = Ok (r, b') /\ inv b' /\ ext b b' /\ valid b' r /\
    forall inp, ins_ok b inp ->
      (den inp b' r = true <-> dens inp b x = dens inp b y) /\
      (length x = length y ->
       den inp b' r = (bits_to_N (dens inp b x) =? bits_to_N (dens inp b y))).
Proof.
  intros inv ops b x y Hi Hx Hy.
  destruct (push_eq_circuit_sound inv ops b x y Hi Hx Hy) as (r & b' & E & Hi' & He & Vr & Hd).
  exists r, b'. repeat (split; [assumption|]).
  intros inp Hok. rewrite (Hd inp Hok). split.
  - apply eq_correct.
  - intro Hl. apply eq_correct_N, dens_same_length, Hl.
Qed.
Print Assumptions C03_eq.

(* ---- multiplexer, conditional swap, one cell of the array multiplier *)
Theorem C03_mux : forall inv, builder_ops_sound inv -> forall b s x0 x1,
  inv b -> valid b s -> valid b x0 -> valid b x1 ->
  exists r b', push_mux b s x0 x1 = Ok (r, b') /\ inv b' /\ ext b b' /\ valid b' r /\
    forall inp, ins_ok b inp -> den inp b' r = if den inp b s then den inp b x0 else den inp b x1.
Proof. intros inv ops b s x0 x1. apply (bs_mux inv ops). Qed.
Print Assumptions C03_mux.

Theorem C03_condswap : forall inv, builder_ops_sound inv -> forall b s x y,
  inv b -> valid b s -> valid b x -> valid b y ->
  exists x' y' b', push_condswap b s x y = Ok ((x', y'), b') /\ inv b' /\ ext b b' /\
    valid b' x' /\ valid b' y' /\
    forall inp, ins_ok b inp ->
      (den inp b' x', den inp b' y')
      = if den inp b s then (den inp b y, den inp b x) else (den inp b x, den inp b y).
Proof.
  intros inv ops b s x y Hi Hs Hx Hy.
  destruct (push_condswap_sound inv ops b s x y Hi Hs Hx Hy) as ([x' y'] & b' & E & Hi' & He & V1 & V2 & Hd).
  cbn [fst snd] in *. exists x', y', b'. repeat (split; [assumption|]).
  intros inp Hok. rewrite (Hd inp Hok). apply condswap_correct.
Qed.
Print Assumptions C03_condswap.

Theorem C03_multiplier_cell : forall inv, builder_ops_sound inv -> forall b x y z c,
  inv b -> valid b x -> valid b y -> valid b z -> valid b c ->
  exists s c' b', push_multiplier b x y z c = Ok ((s, c'), b') /\ inv b' /\ ext b b' /\
    valid b' s /\ valid b' c' /\
    forall inp, ins_ok b inp ->
      N.b2n (den inp b' s) + 2 * N.b2n (den inp b' c')
      = N.b2n (den inp b x) * N.b2n (den inp b y) + N.b2n (den inp b z) + N.b2n (den inp b c).
Proof.
  intros inv ops b x y z c Hi Hx Hy Hz Hc.
  destruct (push_multiplier_sound inv ops b x y z c Hi Hx Hy Hz Hc) as ([s c'] & b' & E & Hi' & He & V1 & V2 & Hd).
  cbn [fst snd] in *. exists s, c', b'. repeat (split; [assumption|]).
  intros inp Hok. rewrite <- multiplier_s_spec, <- (Hd inp Hok). reflexivity.
Qed.
Print Assumptions C03_multiplier_cell.

(* ---- casts: widening through extend_to_bits (compile.rs, with the repaired fill count:
   DESIGN.md §6-3) keeps the unsigned value (zero extension) / the two's-complement value
   (sign extension) for EVERY pair of widths and emits no gate; narrowing keeps the value
   modulo 2^k.  (Before the repair the model of the code refuted the sign-extension clause
   for targets >= 4x wider: witness i8 -3 as i32 = -16776963.) *)
Theorem C03_cast_widen : forall inv, builder_ops_sound inv -> forall b v signed bits,
  inv b -> valids b v -> (length v <= bits)%nat ->
  exists r, extend_to_bits v signed bits = Ok r /\ valids b r /\ length r = bits /\
    forall inp, ins_ok b inp ->
      (signed = false -> bits_to_N (dens inp b r) = bits_to_N (dens inp b v)) /\
      (signed = true -> v <> [] ->
       bits_to_Z_signed (dens inp b r) = bits_to_Z_signed (dens inp b v)).
Proof. exact cast_widen_correct. Qed.
Print Assumptions C03_cast_widen.

Theorem C03_cast_truncate : forall (v : list bool) k, (k <= length v)%nat ->
  length (cast_truncate v k) = k /\
  bits_to_N (cast_truncate v k) = bits_to_N v mod 2 ^ N.of_nat k.
Proof. exact truncate_correct. Qed.
Print Assumptions C03_cast_truncate.

(* ---- the pure level (no builder hypothesis at all): what the boolean functions compute *)
Theorem C03_spec_udiv : forall x y, length x = length y ->
  let '(q, r) := udiv_s x y in
  let X := bits_to_N x in let Y := bits_to_N y in
  length q = length x /\ length r = length x /\
  X = bits_to_N q * Y + bits_to_N r /\
  (0 < Y -> bits_to_N r < Y) /\
  (Y = 0 -> bits_to_N q = 2 ^ lenN x - 1 /\ bits_to_N r = X).
Proof. exact udiv_correct. Qed.
Print Assumptions C03_spec_udiv.

Theorem C03_spec_sdiv_min_minus_one : forall x y, x <> [] -> length x = length y ->
  bits_to_Z_signed x = (- Z.of_N (2 ^ (lenN x - 1)))%Z -> bits_to_Z_signed y = (-1)%Z ->
  bits_to_Z_signed (fst (sdiv_s x y)) = (- Z.of_N (2 ^ (lenN x - 1)))%Z /\
  bits_to_N (snd (sdiv_s x y)) = 0.
Proof. exact sdiv_min_minus_one. Qed.
Print Assumptions C03_spec_sdiv_min_minus_one.

(* ---- the overflow signals of the repaired compile.rs (fixes c125c15 and 192f5be): sign(x) & sign(-x) is set exactly at x = MIN, and
   sign(x) & sign(y) & sign(x/y) exactly at MIN / -1 *)
Theorem C03_neg_overflow_signal : forall x : list bool, x <> [] ->
  let SX := bits_to_Z_signed x in let MIN := (- Z.of_N (2 ^ (lenN x - 1)))%Z in
  (hd false x && hd false (negation_s x) = true <-> SX = MIN) /\
  (SX <> MIN -> bits_to_Z_signed (negation_s x) = (- SX)%Z).
Proof. exact neg_overflow_signal. Qed.
Print Assumptions C03_neg_overflow_signal.

Theorem C03_sdiv_overflow_signal : forall x y, x <> [] -> length x = length y ->
  let SX := bits_to_Z_signed x in let SY := bits_to_Z_signed y in
  let MIN := (- Z.of_N (2 ^ (lenN x - 1)))%Z in
  hd false x && hd false y && hd false (fst (sdiv_s x y)) = true <-> (SX = MIN /\ SY = (-1)%Z).
Proof. exact sdiv_overflow_signal. Qed.
Print Assumptions C03_sdiv_overflow_signal.

(* ---- non-vacuity: the hypotheses are satisfiable and the functions really compute.
   (a) the pure functions on concrete 8-bit operands: 200 + 100 = 44 carry 1; -128 / -1 = -128;
       77 / 0 = 255 rem 77; 100 - 200 borrows; *)
Example C03_example_values :
  let b8 v := N_to_bits 8 v in
  addition_s (b8 200) (b8 100) = (b8 44, true, true) /\
  sdiv_s (b8 128) (b8 255) = (b8 128, b8 0) /\
  udiv_s (b8 77) (b8 0) = (b8 255, b8 77) /\
  subtraction_s (b8 100) (b8 200) false = (b8 156, true) /\
  subtraction_s (b8 127) (b8 255) true = (b8 128, true) /\
  cmp_s 8 (b8 128) true (b8 1) true = (true, false) /\
  gt_s 8 (b8 128) (b8 1) = true.
Proof. vm_compute. repeat split. Qed.

(* (b) the executable builder model on a fresh builder: the adder gadget over two 4-bit
   inputs succeeds and returns 4 sum wires (valid wires exist, lengths agree) *)
Example C03_example_builder :
  match push_addition_circuit (new_builder true [4; 4]) [2; 3; 4; 5] [6; 7; 8; 9] with
  | Ok ((sum, c, cp), b') => length sum = 4%nat /\ c <> cp /\ counter b' > 10
  | _ => False
  end.
Proof. vm_compute. repeat split; congruence. Qed.

(* (c) the hypothesis [builder_ops_sound inv] of every theorem above is inhabited by the
   concrete builder invariant of Builder/BuilderProofs.v (C04), which holds of every fresh
   builder: the theorems are not vacuous and apply to every state reachable from
   [new_builder] through the sound requests. *)
From GV Require Builder.BuilderProofs.
Theorem C03_hypothesis_inhabited :
  exists inv : builder -> Prop,
    builder_ops_sound inv /\ forall dedup inputs, inv (new_builder dedup inputs).
Proof.
  exists BuilderProofs.inv. split; [exact BuilderProofs.builder_sound|].
  exact (bs_new _ BuilderProofs.builder_sound).
Qed.
Print Assumptions C03_hypothesis_inhabited.

(* one instance spelled out with the concrete invariant *)
Theorem C03_sub_unsigned_concrete : forall b x y,
  BuilderProofs.inv b -> valids b x -> valids b y -> length x = length y ->
  exists d ov b', push_subtraction_circuit b x y false = Ok ((d, ov), b') /\
    BuilderProofs.inv b' /\ ext b b' /\ valids b' d /\ valid b' ov /\
    forall inp, ins_ok b inp ->
      let X := bits_to_N (dens inp b x) in let Y := bits_to_N (dens inp b y) in
      length d = length x /\
      bits_to_N (dens inp b' d) = (X + 2 ^ lenN x - Y) mod 2 ^ lenN x /\
      Z.of_N (bits_to_N (dens inp b' d)) = ((Z.of_N X - Z.of_N Y) mod Z.of_N (2 ^ lenN x))%Z /\
      den inp b' ov = (X <? Y).
Proof. exact (C03_sub_unsigned BuilderProofs.inv BuilderProofs.builder_sound). Qed.
Print Assumptions C03_sub_unsigned_concrete.

(* ------------------------------------------------------------------------------------
   Operator LOWERING (Compile/Lower.v = the model of src/compile.rs, tied gate for gate to the real
   compiler; instance TSem.tops = its bit-level semantics, which every emitted circuit computes
   for all inputs by C01_circuit_computes_bit_semantics): each operator, for EVERY width, is
   bit-exact checked two's-complement arithmetic in the vocabulary of Lang/Sem.v (in_range,
   wrap): result bits, which panic, and exactly when.  Statements: Compile/TSemArith1.v (add,
   sub, neg, comparisons, equality, bitwise, division and remainder) and Compile/TSemArith2.v
   (casts, shifts, the array multiplier unsigned and signed). *)
From GV Require Import Compile.Lower Compile.TSem Compile.TSemArith1 Compile.TSemArith2.
Theorem C03_lowering_lower_add_unsigned : ltac:(let T := type of lower_add_unsigned in exact T).
Proof. exact lower_add_unsigned. Qed.
Print Assumptions C03_lowering_lower_add_unsigned.
Theorem C03_lowering_lower_add_signed : ltac:(let T := type of lower_add_signed in exact T).
Proof. exact lower_add_signed. Qed.
Print Assumptions C03_lowering_lower_add_signed.
Theorem C03_lowering_lower_sub_unsigned : ltac:(let T := type of lower_sub_unsigned in exact T).
Proof. exact lower_sub_unsigned. Qed.
Print Assumptions C03_lowering_lower_sub_unsigned.
Theorem C03_lowering_lower_sub_signed : ltac:(let T := type of lower_sub_signed in exact T).
Proof. exact lower_sub_signed. Qed.
Print Assumptions C03_lowering_lower_sub_signed.
Theorem C03_lowering_lower_neg_correct : ltac:(let T := type of lower_neg_correct in exact T).
Proof. exact lower_neg_correct. Qed.
Print Assumptions C03_lowering_lower_neg_correct.
Theorem C03_lowering_lower_lt_unsigned : ltac:(let T := type of lower_lt_unsigned in exact T).
Proof. exact lower_lt_unsigned. Qed.
Print Assumptions C03_lowering_lower_lt_unsigned.
Theorem C03_lowering_lower_gt_unsigned : ltac:(let T := type of lower_gt_unsigned in exact T).
Proof. exact lower_gt_unsigned. Qed.
Print Assumptions C03_lowering_lower_gt_unsigned.
Theorem C03_lowering_lower_lt_signed : ltac:(let T := type of lower_lt_signed in exact T).
Proof. exact lower_lt_signed. Qed.
Print Assumptions C03_lowering_lower_lt_signed.
Theorem C03_lowering_lower_gt_signed : ltac:(let T := type of lower_gt_signed in exact T).
Proof. exact lower_gt_signed. Qed.
Print Assumptions C03_lowering_lower_gt_signed.
Theorem C03_lowering_lower_eq_unsigned : ltac:(let T := type of lower_eq_unsigned in exact T).
Proof. exact lower_eq_unsigned. Qed.
Print Assumptions C03_lowering_lower_eq_unsigned.
Theorem C03_lowering_lower_ne_unsigned : ltac:(let T := type of lower_ne_unsigned in exact T).
Proof. exact lower_ne_unsigned. Qed.
Print Assumptions C03_lowering_lower_ne_unsigned.
Theorem C03_lowering_lower_eq_signed : ltac:(let T := type of lower_eq_signed in exact T).
Proof. exact lower_eq_signed. Qed.
Print Assumptions C03_lowering_lower_eq_signed.
Theorem C03_lowering_lower_ne_signed : ltac:(let T := type of lower_ne_signed in exact T).
Proof. exact lower_ne_signed. Qed.
Print Assumptions C03_lowering_lower_ne_signed.
Theorem C03_lowering_lower_bitand_unsigned : ltac:(let T := type of lower_bitand_unsigned in exact T).
Proof. exact lower_bitand_unsigned. Qed.
Print Assumptions C03_lowering_lower_bitand_unsigned.
Theorem C03_lowering_lower_bitxor_unsigned : ltac:(let T := type of lower_bitxor_unsigned in exact T).
Proof. exact lower_bitxor_unsigned. Qed.
Print Assumptions C03_lowering_lower_bitxor_unsigned.
Theorem C03_lowering_lower_bitor_unsigned : ltac:(let T := type of lower_bitor_unsigned in exact T).
Proof. exact lower_bitor_unsigned. Qed.
Print Assumptions C03_lowering_lower_bitor_unsigned.
Theorem C03_lowering_lower_bitand_signed : ltac:(let T := type of lower_bitand_signed in exact T).
Proof. exact lower_bitand_signed. Qed.
Print Assumptions C03_lowering_lower_bitand_signed.
Theorem C03_lowering_lower_bitxor_signed : ltac:(let T := type of lower_bitxor_signed in exact T).
Proof. exact lower_bitxor_signed. Qed.
Print Assumptions C03_lowering_lower_bitxor_signed.
Theorem C03_lowering_lower_bitor_signed : ltac:(let T := type of lower_bitor_signed in exact T).
Proof. exact lower_bitor_signed. Qed.
Print Assumptions C03_lowering_lower_bitor_signed.
Theorem C03_lowering_lower_div_unsigned : ltac:(let T := type of lower_div_unsigned in exact T).
Proof. exact lower_div_unsigned. Qed.
Print Assumptions C03_lowering_lower_div_unsigned.
Theorem C03_lowering_lower_mod_unsigned : ltac:(let T := type of lower_mod_unsigned in exact T).
Proof. exact lower_mod_unsigned. Qed.
Print Assumptions C03_lowering_lower_mod_unsigned.
Theorem C03_lowering_lower_div_signed : ltac:(let T := type of lower_div_signed in exact T).
Proof. exact lower_div_signed. Qed.
Print Assumptions C03_lowering_lower_div_signed.
Theorem C03_lowering_lower_mod_signed : ltac:(let T := type of lower_mod_signed in exact T).
Proof. exact lower_mod_signed. Qed.
Print Assumptions C03_lowering_lower_mod_signed.
Theorem C03_lowering_sval_enc_in_range : ltac:(let T := type of sval_enc_in_range in exact T).
Proof. exact sval_enc_in_range. Qed.
Print Assumptions C03_lowering_sval_enc_in_range.
Theorem C03_lowering_uval_enc_in_range : ltac:(let T := type of uval_enc_in_range in exact T).
Proof. exact uval_enc_in_range. Qed.
Print Assumptions C03_lowering_uval_enc_in_range.
Theorem C03_lowering_tsem_zext_correct : ltac:(let T := type of tsem_zext_correct in exact T).
Proof. exact tsem_zext_correct. Qed.
Print Assumptions C03_lowering_tsem_zext_correct.
Theorem C03_lowering_tsem_sext_correct : ltac:(let T := type of tsem_sext_correct in exact T).
Proof. exact tsem_sext_correct. Qed.
Print Assumptions C03_lowering_tsem_sext_correct.
Theorem C03_lowering_tsem_truncate_correct : ltac:(let T := type of tsem_truncate_correct in exact T).
Proof. exact tsem_truncate_correct. Qed.
Print Assumptions C03_lowering_tsem_truncate_correct.
Theorem C03_lowering_tsem_cast_correct : ltac:(let T := type of tsem_cast_correct in exact T).
Proof. exact tsem_cast_correct. Qed.
Print Assumptions C03_lowering_tsem_cast_correct.
Theorem C03_lowering_tsem_shift_layers_value : ltac:(let T := type of tsem_shift_layers_value in exact T).
Proof. exact tsem_shift_layers_value. Qed.
Print Assumptions C03_lowering_tsem_shift_layers_value.
Theorem C03_lowering_tsem_shift_correct : ltac:(let T := type of tsem_shift_correct in exact T).
Proof. exact tsem_shift_correct. Qed.
Print Assumptions C03_lowering_tsem_shift_correct.
Theorem C03_lowering_tsem_lower_shift_other_width : ltac:(let T := type of tsem_lower_shift_other_width in exact T).
Proof. exact tsem_lower_shift_other_width. Qed.
Print Assumptions C03_lowering_tsem_lower_shift_other_width.
Theorem C03_lowering_tsem_mul_unsigned : ltac:(let T := type of tsem_mul_unsigned in exact T).
Proof. exact tsem_mul_unsigned. Qed.
Print Assumptions C03_lowering_tsem_mul_unsigned.
Theorem C03_lowering_tsem_mul_signed : ltac:(let T := type of tsem_mul_signed in exact T).
Proof. exact tsem_mul_signed. Qed.
Print Assumptions C03_lowering_tsem_mul_signed.
Theorem C03_lowering_tsem_binop_mul_checked : ltac:(let T := type of tsem_binop_mul_checked in exact T).
Proof. exact tsem_binop_mul_checked. Qed.
Print Assumptions C03_lowering_tsem_binop_mul_checked.
