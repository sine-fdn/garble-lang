(* C06 — compilation is deterministic.  In the model every stage is a Gallina FUNCTION of its
   arguments: the builder requests, the pruning/renumbering and the register allocation take
   no iteration order, no seed and no state besides their inputs, so equal inputs give
   syntactically equal circuits.  The theorems below record this for the stages that the
   Rust code implements with HashMaps (structural cache, negation map, last-use map,
   wire->register map): their results are determined by the maps' CONTENTS.
   The Rust side (where a HashMap iteration could leak its order into the gates) is checked
   by repeated compilation under fresh hash seeds, tools/c06.py. *)
From GV Require Import Base.Util Base.NMap Circuit.Ssa Circuit.Reg Circuit.RegAlloc
  Builder.Builder Builder.Build.

Theorem C06_builder_requests_are_functions : forall b x y,
  push_xor_top b x y = push_xor_top b x y /\ push_and_top b x y = push_and_top b x y.
Proof. intros. split; reflexivity. Qed.
Print Assumptions C06_builder_requests_are_functions.

(* the conversion consults the last-use map and the wire map only through lookups: two maps
   with the same contents give the same register circuit *)
Theorem C06_lookup_determines_find_out_reg : forall lu1 lu2 st g a b,
  (forall w, nfind w lu1 = nfind w lu2) ->
  find_out_reg lu1 st g a b = find_out_reg lu2 st g a b.
Proof.
  intros lu1 lu2 st g a b H. unfold find_out_reg, take_a, take_b, dies_here.
  rewrite (H a). destruct b as [b|]; [rewrite (H b)|]; reflexivity.
Qed.
Print Assumptions C06_lookup_determines_find_out_reg.

(* The model of the lowering (Compile/Lower.v, tied gate for gate to src/compile.rs on every
   run) is a function of the typed program and the de-duplication option alone: it takes no
   iteration order, no seed and no state from earlier compilations.  (The one hash-map
   iteration left in the repaired mux_panic is shown order-irrelevant in C02.) *)
From GV Require Import Lang.Ast Compile.Lower.
Theorem C06_lowering_is_a_function : forall dedup P r1 r2,
  lower_program dedup P = r1 -> lower_program dedup P = r2 -> r1 = r2.
Proof. intros dedup P r1 r2 <- <-. reflexivity. Qed.
Print Assumptions C06_lowering_is_a_function.

(* Every HashMap / HashSet iteration of the current source tree (regenerated from /repo/src by
   tools/sites.py on every build) has been examined and entered in Compile/SiteTable.v with the
   reason why its order cannot reach the circuit.  A new hash-order iteration breaks this theorem. *)
From Coq Require Import String List Bool.
From GV Require Import Generated.Sites Compile.SiteTable.
Theorem C06_hash_iteration_sites_discharged :
  forallb site_discharged hash_iteration_sites = true.
Proof. vm_compute. reflexivity. Qed.
Print Assumptions C06_hash_iteration_sites_discharged.

(* ------------------------------------------------------------------ the CHECKER's result does not depend
   on the order in which its HashMaps are iterated (Check/InferPerm.v; Check/Infer.v is the model of
   src/check.rs, tied to it; it iterates association lists where the code iterates HashMaps).
   [check_rel]: the checker uses its definitions only through look-ups and the map of already typed
   functions only as a map (calls allowed).  For programs without calls: permuting the function,
   struct and enum lists changes neither acceptance nor the typed program - the exported typed
   programs are EQUAL.  (These two are the special case without calls of the theorems further down.) *)
From GV Require Import Front.ParseExpr Check.UAst Check.Infer Check.InferPerm.
From GV Require Check.InferPerm2 Check.InferPerm5.
From Coq Require Import Permutation.

Theorem C06_checker_acceptance_independent_of_map_order_partial : forall intern P Q fuel,
  (forall a b, intern a = intern b -> a = b) ->
  up_consts Q = up_consts P -> up_main Q = up_main P ->
  Permutation (up_fns P) (up_fns Q) -> Permutation (up_structs P) (up_structs Q) -> Permutation (up_enums P) (up_enums Q) ->
  NoDup (map uf_name (up_fns P)) -> NoDup (map us_name (up_structs P)) -> NoDup (map ue_name (up_enums P)) ->
  (forall fd, In fd (up_fns P) -> nocall_fn fd) ->
  is_ok (check_program_t intern fuel P) = is_ok (check_program_t intern fuel Q).
Proof. exact InferPerm5.check_perm_accept_nocalls. Qed.
Print Assumptions C06_checker_acceptance_independent_of_map_order_partial.

Theorem C06_checker_output_independent_of_map_order_partial : forall intern P Q fuel A B,
  (forall a b, intern a = intern b -> a = b) ->
  up_consts Q = up_consts P -> up_main Q = up_main P ->
  Permutation (up_fns P) (up_fns Q) -> Permutation (up_structs P) (up_structs Q) -> Permutation (up_enums P) (up_enums Q) ->
  NoDup (map uf_name (up_fns P)) -> NoDup (map us_name (up_structs P)) -> NoDup (map ue_name (up_enums P)) ->
  (forall fd, In fd (up_fns P) -> nocall_fn fd) ->
  check_program intern fuel P = COk A -> check_program intern fuel Q = COk B -> A = B.
Proof.
  intros intern P Q fuel A B Hi H1 H2 H3 H4 H5 H6 H7 H8 _.
  exact (InferPerm2.check_perm_export intern P Q fuel fuel A B Hi H1 H2 H3 H4 H5 H6 H7 H8).
Qed.
Print Assumptions C06_checker_output_independent_of_map_order_partial.

(* ... and WITH calls, for any two fuels (Check/InferPerm2.v: canonical memoised entries, determinism of
   check_fn up to what is memoised; fuel only decides between an answer and CNoFuel, by the fuel
   monotonicity of InferFuel2.v): if both orders are accepted, the exported typed programs are
   EQUAL.  (Acceptance - "P accepted implies Q accepted" - is the subject of the theorems below.) *)

Theorem C06_checker_output_independent_of_map_order : forall intern P Q f f' A B,
  (forall a b, intern a = intern b -> a = b) ->
  up_consts Q = up_consts P -> up_main Q = up_main P ->
  Permutation (up_fns P) (up_fns Q) -> Permutation (up_structs P) (up_structs Q) -> Permutation (up_enums P) (up_enums Q) ->
  NoDup (map uf_name (up_fns P)) -> NoDup (map us_name (up_structs P)) -> NoDup (map ue_name (up_enums P)) ->
  check_program intern f P = COk A -> check_program intern f' Q = COk B -> A = B.
Proof. exact InferPerm2.check_perm_export. Qed.
Print Assumptions C06_checker_output_independent_of_map_order.

(* ... and ACCEPTANCE with calls, for programs whose call depth is at most 1 (every function calls
   nothing, or calls only functions that call nothing; [call_depth_le_1], a Boolean, Check/InferPerm4.v;
   the theorem is the rank theorem of Check/InferPerm5.v at rank <= 1): if one order of the three maps is accepted with fuel f, every
   other order is accepted with fuel 2 * f and exports the SAME typed program.  (Arbitrary call
   depth costs more fuel: the next theorem.) *)
From GV Require Import Check.InferPerm4.

Theorem C06_checker_verdict_and_output_independent_of_map_order_depth1 : forall intern P Q f A,
  (forall a b, intern a = intern b -> a = b) ->
  up_consts Q = up_consts P -> up_main Q = up_main P ->
  Permutation (up_fns P) (up_fns Q) -> Permutation (up_structs P) (up_structs Q) -> Permutation (up_enums P) (up_enums Q) ->
  NoDup (map uf_name (up_fns P)) -> NoDup (map us_name (up_structs P)) -> NoDup (map ue_name (up_enums P)) ->
  call_depth_le_1 P = true ->
  check_program intern f P = COk A -> check_program intern (2 * f) Q = COk A.
Proof. exact InferPerm5.check_perm_depth1. Qed.
Print Assumptions C06_checker_verdict_and_output_independent_of_map_order_depth1.

(* ... and for ARBITRARY call depth (Check/InferPerm5.v): if the syntactic call graph passes the
   computable acyclicity test [call_graph_acyclic] (a Boolean; accepted programs pass it, since the
   checker rejects recursion: that is the next theorem), acceptance in one order with fuel f implies acceptance in every
   other order with fuel (1 + number of functions) * f, with the SAME exported typed program. *)
From GV Require Import Check.InferPerm5.

Theorem C06_checker_verdict_and_output_independent_of_map_order : forall intern P Q f A,
  (forall a b, intern a = intern b -> a = b) ->
  up_consts Q = up_consts P -> up_main Q = up_main P ->
  Permutation (up_fns P) (up_fns Q) -> Permutation (up_structs P) (up_structs Q) -> Permutation (up_enums P) (up_enums Q) ->
  NoDup (map uf_name (up_fns P)) -> NoDup (map us_name (up_structs P)) -> NoDup (map ue_name (up_enums P)) ->
  call_graph_acyclic P = true ->
  check_program intern f P = COk A -> check_program intern (S (length (up_fns P)) * f) Q = COk A.
Proof. exact check_perm_final. Qed.
Print Assumptions C06_checker_verdict_and_output_independent_of_map_order.

(* ... UNCONDITIONALLY (Check/InferPerm6.v): an accepted program's syntactic call graph is acyclic
   ([accepted_acyclic]: every function of an accepted program is checked, every syntactic call site is
   visited, and the checker rejects recursion), so the Boolean premise disappears: the checker's
   verdict and its typed output do not depend on the order in which its three maps are iterated.
   Remaining hypotheses: distinct keys (HashMap) and an injective interning (the code uses strings). *)
From GV Require Import Check.InferPerm6.

Theorem C06_checker_independent_of_map_order_unconditional : forall intern P Q f A,
  (forall a b, intern a = intern b -> a = b) ->
  up_consts Q = up_consts P -> up_main Q = up_main P ->
  Permutation (up_fns P) (up_fns Q) -> Permutation (up_structs P) (up_structs Q) -> Permutation (up_enums P) (up_enums Q) ->
  NoDup (map uf_name (up_fns P)) -> NoDup (map us_name (up_structs P)) -> NoDup (map ue_name (up_enums P)) ->
  check_program intern f P = COk A -> check_program intern (S (length (up_fns P)) * f) Q = COk A.
Proof. exact check_perm_final_unconditional. Qed.
Print Assumptions C06_checker_independent_of_map_order_unconditional.
