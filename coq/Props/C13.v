(* C13 — join / join_iter compute exactly the sorted-merge join and hide match positions.
   Network level (circuit.rs:1202-1327): the comparison circuit, the compare-exchange
   networks (permutation, zero-one principle, bounded sortedness), and the lift of the
   builder-form gadgets to the pure specification Sort.v.  The program level (JoinLoop /
   join lowering, compile.rs) is the last part of the file, from THE PROGRAM LEVEL on: the
   for-join node and the `join` built-in in the bit-level semantics, for-join programs, the
   evaluated circuit (tools/c13.py, `joinprog` jobs, compares the real compiler on the rest).
   Theorems that depend on the builder operations are stated for every invariant [inv]
   with [builder_ops_sound inv] (BuilderSpec.v). *)
From Coq Require Import Permutation.
From GV Require Import Base.Util Base.NMap Builder.Builder Builder.BuilderSem Builder.BuilderSpec
  Builder.BuilderProofs Gadgets.Gadgets Sort.Sort Sort.SortProofs Sort.ZeroOne Sort.SortHoare.
From GV Require Sort.SortUnbounded Sort.SortUnboundedHoare.

(* the carry chain of push_gt_circuit decides "key x > key y" (unsigned, MSB first), any width *)
Theorem C13_gt_correct : forall bits x y,
  (bits <= length x)%nat -> (bits <= length y)%nat ->
  gt bits x y = (key bits y <? key bits x).
Proof. exact gt_correct. Qed.
Print Assumptions C13_gt_correct.

(* push_sorter on values moves whole elements: (min, max) by key, ties not swapped *)
Theorem C13_sorter_bits_spec : forall bits x y,
  length x = length y -> (bits <= length x)%nat ->
  sorter_bits bits x y = if key bits y <? key bits x then (y, x) else (x, y).
Proof. exact sorter_bits_spec. Qed.
Print Assumptions C13_sorter_bits_spec.

(* the recursions of push_bitonic_merger / push_bitonic_sorter are compare-exchange networks *)
Theorem C13_merger_is_network : forall (A : Type) (gtb : A -> A -> bool) asc v,
  run_net gtb (bitonic_merger_net (length v) asc) v = bitonic_merger gtb asc v.
Proof. exact @bitonic_merger_net_correct. Qed.
Print Assumptions C13_merger_is_network.

Theorem C13_sorter_is_network : forall (A : Type) (gtb : A -> A -> bool) v,
  run_net gtb (bitonic_sorter_net (length v)) v = bitonic_sorter gtb v.
Proof. exact @bitonic_sorter_net_correct. Qed.
Print Assumptions C13_sorter_is_network.

(* every compare-exchange network only permutes its input (payloads intact) *)
Theorem C13_cmpx_perm : forall (A : Type) (gtb : A -> A -> bool) (net : list cxop) (v : list A),
  Permutation (run_net gtb net v) v.
Proof. exact @cmpx_perm. Qed.
Print Assumptions C13_cmpx_perm.

(* zero-one principle, per input: sorting all thresholded images implies sorting the input *)
Theorem C13_zero_one_principle : forall (net : list cxop) (v : list N),
  (forall t, sortedB (run_net gtB net (map (thr t) v)) = true) ->
  sortedN (run_net gtN net v) = true.
Proof. exact zero_one_principle. Qed.
Print Assumptions C13_zero_one_principle.

Theorem C13_zero_one_principle_all : forall (net : list cxop) (n : nat),
  (forall w : list bool, length w = n -> sortedB (run_net gtB net w) = true) ->
  forall v : list N, length v = n -> sortedN (run_net gtN net v) = true.
Proof. exact zero_one_principle_all. Qed.
Print Assumptions C13_zero_one_principle_all.

(* bounded sortedness (bounds are part of the statements; the proofs do not use them: see
   WITHOUT LENGTH BOUNDS below) *)
Theorem C13_merger_sorts_up_down_bounded : forall bits (v : list elem) k,
  (k <= 8)%nat -> length v = (2 ^ k)%nat -> up_then_down (map (key bits) v) ->
  sortedN (map (key bits) (bitonic_merger (gt_key bits) true v)) = true /\
  Permutation (bitonic_merger (gt_key bits) true v) v.
Proof. intros bits v k _. apply SortUnbounded.merger_elems_up_down. Qed.
Print Assumptions C13_merger_sorts_up_down_bounded.

Theorem C13_merger_sorts_down_up_bounded : forall bits (v : list elem),
  (length v <= 64)%nat -> down_then_up (map (key bits) v) ->
  sortedN (map (key bits) (bitonic_merger (gt_key bits) true v)) = true /\
  Permutation (bitonic_merger (gt_key bits) true v) v.
Proof. intros bits v _. apply SortUnbounded.merger_elems_down_up. Qed.
Print Assumptions C13_merger_sorts_down_up_bounded.

Theorem C13_sorter_sorts_bounded : forall bits (v : list elem),
  (length v <= 16)%nat ->
  sortedN (map (key bits) (bitonic_sorter (gt_key bits) v)) = true /\
  Permutation (bitonic_sorter (gt_key bits) v) v.
Proof. intros bits v _. apply SortUnbounded.sorter_elems. Qed.
Print Assumptions C13_sorter_sorts_bounded.

(* the power-of-two restriction is necessary for up-then-down inputs *)
Theorem C13_merger_up_down_needs_pow2 :
  up_then_down [0; 1; 0] /\ sortedN (bitonic_merger gtN true [0; 1; 0]) = false.
Proof. exact merger_up_down_counterexample. Qed.
Print Assumptions C13_merger_up_down_needs_pow2.

(* ---- builder-form gadgets denote the pure specification ---- *)

Theorem C13_push_gt_circuit_sound : forall inv, builder_ops_sound inv -> forall b bits x y,
  inv b -> valids b x -> valids b y -> (bits <= length x)%nat -> (bits <= length y)%nat ->
  exists g b', push_gt_circuit b bits x y = Ok (g, b') /\ inv b' /\ ext b b' /\ valid b' g /\
    forall inp, ins_ok b inp -> den inp b' g = gt bits (dens inp b x) (dens inp b y).
Proof. exact push_gt_circuit_sound. Qed.
Print Assumptions C13_push_gt_circuit_sound.

Theorem C13_push_sorter_sound : forall inv, builder_ops_sound inv -> forall b bits x y,
  inv b -> valids b x -> valids b y -> (bits <= length x)%nat -> (bits <= length y)%nat ->
  exists mn mx b', push_sorter b bits x y = Ok ((mn, mx), b') /\ inv b' /\ ext b b' /\
    valids b' mn /\ valids b' mx /\
    length mn = Nat.min (length x) (length y) /\ length mx = Nat.min (length x) (length y) /\
    forall inp, ins_ok b inp ->
      (dens inp b' mn, dens inp b' mx) = sorter_bits bits (dens inp b x) (dens inp b y).
Proof. exact push_sorter_sound. Qed.
Print Assumptions C13_push_sorter_sound.

Theorem C13_push_bitonic_merger_sound : forall inv, builder_ops_sound inv -> forall bits L asc b v,
  inv b -> elems_ok b L v -> (bits <= L)%nat ->
  exists v' b', push_bitonic_merger (S (length v)) b bits asc v = Ok (v', b') /\ inv b' /\ ext b b' /\
    elems_ok b' L v' /\ length v' = length v /\
    forall inp, ins_ok b inp ->
      densl inp b' v' = bitonic_merger (gt_key bits) asc (densl inp b v).
Proof. exact push_bitonic_merger_top_sound. Qed.
Print Assumptions C13_push_bitonic_merger_sound.

Theorem C13_push_bitonic_sorter_sound : forall inv, builder_ops_sound inv -> forall bits L b v,
  inv b -> elems_ok b L v -> (bits <= L)%nat ->
  exists v' b', push_bitonic_sorter b bits v = Ok (v', b') /\ inv b' /\ ext b b' /\
    elems_ok b' L v' /\ length v' = length v /\
    forall inp, ins_ok b inp ->
      densl inp b' v' = bitonic_sorter (gt_key bits) (densl inp b v).
Proof. exact push_bitonic_sorter_sound. Qed.
Print Assumptions C13_push_bitonic_sorter_sound.

(* ---- end to end on wires ---- *)

(* the merger circuit as compile_bitonic_merge uses it (power-of-two length, up-then-down keys) *)
Theorem C13_push_bitonic_merger_sorts : forall inv, builder_ops_sound inv -> forall bits L b v k,
  inv b -> elems_ok b L v -> (bits <= L)%nat -> (k <= 8)%nat -> length v = (2 ^ k)%nat ->
  exists v' b', push_bitonic_merger (S (length v)) b bits true v = Ok (v', b') /\ inv b' /\ ext b b' /\
    elems_ok b' L v' /\ length v' = length v /\
    forall inp, ins_ok b inp -> up_then_down (map (key bits) (densl inp b v)) ->
      sortedN (map (key bits) (densl inp b' v')) = true /\
      Permutation (densl inp b' v') (densl inp b v).
Proof. intros inv ops bits L b v k Hinv Hv Hb _. now apply push_bitonic_merger_sorts_up_down_all. Qed.
Print Assumptions C13_push_bitonic_merger_sorts.

(* the sorter circuit as `join` uses it on the flag bit (any length <= 16, any width) *)
Theorem C13_push_bitonic_sorter_sorts : forall inv, builder_ops_sound inv -> forall bits L b v,
  inv b -> elems_ok b L v -> (bits <= L)%nat -> (length v <= 16)%nat ->
  exists v' b', push_bitonic_sorter b bits v = Ok (v', b') /\ inv b' /\ ext b b' /\
    elems_ok b' L v' /\ length v' = length v /\
    forall inp, ins_ok b inp ->
      sortedN (map (key bits) (densl inp b' v')) = true /\
      Permutation (densl inp b' v') (densl inp b v).
Proof. intros inv ops bits L b v Hinv Hv Hb _. now apply push_bitonic_sorter_sorts_all. Qed.
Print Assumptions C13_push_bitonic_sorter_sorts.

(* ---- the same for the concrete builder invariant (BuilderProofs.builder_sound) ---- *)

Theorem C13_gt_circuit : forall b bits x y,
  inv b -> valids b x -> valids b y -> (bits <= length x)%nat -> (bits <= length y)%nat ->
  exists g b', push_gt_circuit b bits x y = Ok (g, b') /\ inv b' /\ ext b b' /\ valid b' g /\
    forall inp, ins_ok b inp ->
      den inp b' g = (key bits (dens inp b y) <? key bits (dens inp b x)).
Proof. exact (push_gt_circuit_key_sound inv builder_sound). Qed.
Print Assumptions C13_gt_circuit.

Theorem C13_merger_circuit_sorts : forall bits L b v k,
  inv b -> elems_ok b L v -> (bits <= L)%nat -> (k <= 8)%nat -> length v = (2 ^ k)%nat ->
  exists v' b', push_bitonic_merger (S (length v)) b bits true v = Ok (v', b') /\ inv b' /\ ext b b' /\
    elems_ok b' L v' /\ length v' = length v /\
    forall inp, ins_ok b inp -> up_then_down (map (key bits) (densl inp b v)) ->
      sortedN (map (key bits) (densl inp b' v')) = true /\
      Permutation (densl inp b' v') (densl inp b v).
Proof. intros bits L b v k Hinv Hv Hb _. now apply (push_bitonic_merger_sorts_up_down_all inv builder_sound). Qed.
Print Assumptions C13_merger_circuit_sorts.

Theorem C13_sorter_circuit_sorts : forall bits L b v,
  inv b -> elems_ok b L v -> (bits <= L)%nat -> (length v <= 16)%nat ->
  exists v' b', push_bitonic_sorter b bits v = Ok (v', b') /\ inv b' /\ ext b b' /\
    elems_ok b' L v' /\ length v' = length v /\
    forall inp, ins_ok b inp ->
      sortedN (map (key bits) (densl inp b' v')) = true /\
      Permutation (densl inp b' v') (densl inp b v).
Proof. intros bits L b v Hinv Hv Hb _. now apply (push_bitonic_sorter_sorts_all inv builder_sound). Qed.
Print Assumptions C13_sorter_circuit_sorts.

(* ---- non-vacuity ---- *)

(* keys (3,1,2): down-then-up, and the merger sorts it *)
Example C13_down_up_instance :
  down_then_up [3; 1; 2] /\ bitonic_merger gtN true [3; 1; 2] = [1; 2; 3].
Proof. split; [exists [3; 1], [2]; repeat split|reflexivity]. Qed.

(* padding 0, a = (1,3) ascending, b = (2) reversed: the shape compile_bitonic_merge builds *)
Example C13_up_down_instance :
  up_then_down [0; 1; 3; 2] /\ bitonic_merger gtN true [0; 1; 3; 2] = [0; 1; 2; 3].
Proof. split; [exists [0; 1; 3], [2]; repeat split|reflexivity]. Qed.

(* elements with payloads: key = first 2 bits; the payload bit travels with its key *)
Example C13_sorter_instance :
  bitonic_sorter (gt_key 2) [[true; false; true]; [false; true; false]; [true; true; true]; [false; false; false]]
  = [[false; false; false]; [false; true; false]; [true; false; true]; [true; true; true]].
Proof. reflexivity. Qed.

(* the hypotheses of the wire-level theorems hold on a concrete builder: two 2-bit elements
   over four input wires *)
Example C13_elems_ok_instance :
  elems_ok (new_builder true [4]) 2 [[2; 3]; [4; 5]] /\
  exists r, push_bitonic_sorter (new_builder true [4]) 2 [[2; 3]; [4; 5]] = Ok r.
Proof.
  split.
  - repeat constructor.
  - vm_compute. eexists. reflexivity.
Qed.

(* ... and the invariant holds for every fresh builder, so the circuit theorems apply to it *)
Example C13_inv_instance : inv (new_builder true [4]).
Proof. exact (bs_new inv builder_sound true [4]). Qed.


(* ------------------------------------------------------------------ WITHOUT LENGTH BOUNDS
   (Sort/SortUnbounded.v, SortUnboundedHoare.v): the 0/1 lemmas "the bitonic merger sorts every
   1^a 0^b 1^c of any length and every 0^a 1^b 0^c of a power-of-two length" and "the bitonic
   sorter sorts every 0/1 sequence" are proved by induction over the recursions of Sort.v (the
   arbitrary-length variant: the split point is the largest power of two below n, the lower part
   may have either shape, the upper part is down-then-up again); the zero-one principle and the
   permutation lemmas lift them to keys, elements and wires.  The bounded statements above are
   instances of these ("this holds for all array lengths (1, non powers of two) and element
   widths"). *)
Theorem C13_unbounded_merger_sorts_up_down : forall bits (v : list elem) k,
  length v = (2 ^ k)%nat -> up_then_down (map (key bits) v) ->
  sortedN (map (key bits) (bitonic_merger (gt_key bits) true v)) = true /\
  Permutation (bitonic_merger (gt_key bits) true v) v.
Proof. exact SortUnbounded.merger_elems_up_down. Qed.
Print Assumptions C13_unbounded_merger_sorts_up_down.

Theorem C13_unbounded_merger_sorts_down_up : forall bits (v : list elem),
  down_then_up (map (key bits) v) ->
  sortedN (map (key bits) (bitonic_merger (gt_key bits) true v)) = true /\
  Permutation (bitonic_merger (gt_key bits) true v) v.
Proof. exact SortUnbounded.merger_elems_down_up. Qed.
Print Assumptions C13_unbounded_merger_sorts_down_up.

Theorem C13_unbounded_sorter_sorts : forall bits (v : list elem),
  sortedN (map (key bits) (bitonic_sorter (gt_key bits) v)) = true /\
  Permutation (bitonic_sorter (gt_key bits) v) v.
Proof. exact SortUnbounded.sorter_elems. Qed.
Print Assumptions C13_unbounded_sorter_sorts.

Theorem C13_unbounded_merger_circuit_sorts : forall bits L b v k,
  inv b -> elems_ok b L v -> (bits <= L)%nat -> length v = (2 ^ k)%nat ->
  exists v' b', push_bitonic_merger (S (length v)) b bits true v = Ok (v', b') /\ inv b' /\ ext b b' /\
    elems_ok b' L v' /\ length v' = length v /\
    forall inp, ins_ok b inp -> up_then_down (map (key bits) (densl inp b v)) ->
      sortedN (map (key bits) (densl inp b' v')) = true /\
      Permutation (densl inp b' v') (densl inp b v).
Proof. exact SortUnboundedHoare.C13_merger_circuit_sorts_all. Qed.
Print Assumptions C13_unbounded_merger_circuit_sorts.

Theorem C13_unbounded_sorter_circuit_sorts : forall bits L b v,
  inv b -> elems_ok b L v -> (bits <= L)%nat ->
  exists v' b', push_bitonic_sorter b bits v = Ok (v', b') /\ inv b' /\ ext b b' /\
    elems_ok b' L v' /\ length v' = length v /\
    forall inp, ins_ok b inp ->
      sortedN (map (key bits) (densl inp b' v')) = true /\
      Permutation (densl inp b' v') (densl inp b v).
Proof. exact SortUnboundedHoare.C13_sorter_circuit_sorts_all. Qed.
Print Assumptions C13_unbounded_sorter_circuit_sorts.

(* ------------------------------------------------------------------ THE PROGRAM LEVEL, first half
   of the property (Compile/JoinMerge.v, Compile/TSemSemJoin.v): the lowering of
   `for p in join_iter(a, b) { body }` (tags, zero padding to a power of two, reversed b, bitonic
   merge, windows over adjacent entries, effects and panics guarded by "joined") agrees with the
   source semantics Sem.v of the loop — for every element of a in order, the element of b with
   the same key, body run once for that pair, nothing for the others — as a NODE of the theorem
   "bit-level semantics = Sem.v" (same interface as the nodes of TSemSemAgg.v, any element types
   whose first szn(join_ty) bits are the key, any pattern), under the property's precondition:
   both arrays strictly ascending by the unsigned key.  With the circuit theorems of C01 this is
   the behaviour of the emitted circuits on all such inputs.  The precondition is necessary
   (JoinExamples.join_unsorted_differs, join_duplicate_key_differs).  Noted by the proof: the
   key-0 element next to the zero padding keeps its payload only because the merger never moves
   a minimal prefix (merger_prefix_fixed) and the padding is placed BEFORE a. *)
From GV Require Compile.JoinMerge Compile.TSemSemJoin.

Theorem C13_for_join_loop_agrees_with_the_source_semantics :
  ltac:(let T := type of TSemSemJoin.join_loop_node_gpat in exact T).
Proof. exact TSemSemJoin.join_loop_node_gpat. Qed.
Print Assumptions C13_for_join_loop_agrees_with_the_source_semantics.

Theorem C13_merger_never_moves_a_minimal_prefix :
  ltac:(let T := type of @JoinMerge.merger_prefix_fixed in exact T).
Proof. exact @JoinMerge.merger_prefix_fixed. Qed.
Print Assumptions C13_merger_never_moves_a_minimal_prefix.

Theorem C13_sortedness_precondition_is_necessary :
  ltac:(let T := type of TSemSemJoin.JoinExamples.join_unsorted_differs in exact T).
Proof. exact TSemSemJoin.JoinExamples.join_unsorted_differs. Qed.

(* ------------------------------------------------------------------ THE PROGRAM LEVEL, second half:
   the `join` built-in (Compile/TSemJoinFn.v).  Sem.v does not specify `join`, so the theorem is
   about the bit-level semantics of the EJoin node directly (and, through C01, about the emitted
   circuits): for element vectors whose keys are ASCENDING (repeats allowed), any lengths and
   widths, the result has n + m - 1 entries of equal width; the flags are sorted, unflagged first,
   so the flag vector depends only on the number of matches; every unflagged entry is all zeros;
   the flagged entries are exactly one per common key, each built from an element of a and an
   element of b with that key (never two elements of one array); the panic observation is
   unchanged.  WHICH copy of a repeated key is reported is not determined
   (JoinFnExamples.repeated_key_choice shows both choices occur). *)
From GV Require Compile.TSemJoinFn.

Theorem C13_join_builtin_spec : ltac:(let T := type of TSemJoinFn.join_fn_spec in exact T).
Proof. exact TSemJoinFn.join_fn_spec. Qed.
Print Assumptions C13_join_builtin_spec.

Theorem C13_join_expression_spec : ltac:(let T := type of TSemJoinFn.join_expr_spec in exact T).
Proof. exact TSemJoinFn.join_expr_spec. Qed.
Print Assumptions C13_join_expression_spec.

(* ------------------------------------------------------------------ for-join PROGRAMS
   (Compile/TSemSemFullJoin.v, JoinProgram.v): for programs of the corpus shape - main's parameters
   are the two tables, literal `let mut`s, ONE `for p in join(a, b) { body }` at top level, then the
   result; [join_covered], a boolean evaluated per program - the bit-level semantics the circuit
   provably computes agrees with the source semantics Sem.v, under the run-time precondition that the
   keys of both tables are strictly ascending ([join_inputs_sorted]; shown necessary at program level:
   JoinProgramExample.unsorted_differs). *)
From GV Require Import Panic.PanicRec Panic.PanicSem Compile.TSem Compile.TSemSemExpr Compile.TSemSemFull Compile.SemFuel Compile.TSemSemFullJoin Compile.JoinProgram Lang.ValTy.
From GV Require Lang.Sem.

Theorem C13_for_join_programs_agree_with_the_source_semantics : forall P fuel fw fT args o outs,
  join_covered fw P = true -> sem_fuel_enough fuel P = true ->
  join_inputs_sorted P args -> canonical_main_args P args = true ->
  tsem_program fT P args = Ok (o, outs) ->
  (exists bits l, Sem.run_main fuel P args = Sem.RunOk bits l /\ o = None /\ outs = bits) \/
  (exists r m, Sem.run_main fuel P args = Sem.RunPanic r m /\ o = Some (preason_num (pr r), ploc32 (ploc_of m))) \/
  (frag_program P = false /\ exists c, Sem.run_main fuel P args = Sem.RunStuck c /\ In c stuck_allowed).
Proof. exact join_covered_agrees. Qed.
Print Assumptions C13_for_join_programs_agree_with_the_source_semantics.

(* ... down to the evaluated CIRCUIT (Compile/EndToEndJoin.v): [certified_join] = join_covered &&
   sem_fuel_enough && one successful run of the bit-level semantics on the all-zero arguments (by
   the one-witness theorem that is enough for definedness on every input); all Booleans evaluated
   per program.  For such a program the circuit the model of compile.rs returns validates, has the
   parameters' party sizes, evaluates on every input, and for canonical arguments with strictly
   ascending keys its output reads as the value / panic of Sem.v. *)
From GV Require Import Circuit.Ssa Compile.Lower Compile.EndToEnd Compile.EndToEndJoin.

Theorem C13_for_join_programs_end_to_end : forall fuel dedup P c,
  certified_join fuel P = true -> within_gate_bound fuel dedup P = true ->
  lower_program_with fuel dedup P = Ok (LCircuit c) ->
  ssa_validate c = None /\ input_gates c = fst (main_wiring P) /\
  forall ins inp,
    load_inputs (input_gates c) ins = Some inp ->
    canonical_main_args P (main_args P inp) = true ->
    join_inputs_sorted P (main_args P inp) ->
    exists out, ssa_eval c ins = Some out /\ output_spec fuel P (main_args P inp) out.
Proof. exact end_to_end_join. Qed.
Print Assumptions C13_for_join_programs_end_to_end.
