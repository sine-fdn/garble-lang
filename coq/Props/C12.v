(* C12 — const parameters act as literal substitution; missing/mistyped ones are errors.
   This file only states the property theorems; proofs live in Compile/ConstsProofs.v.
   All theorems are about [repaired] = the model of compile_with_constants with the
   fixes 1-9 (the flags of Consts.cfg) applied; the behaviour of the code as found is refuted by the Examples
   [*_refuted] of ConstsProofs.v. *)
From Coq Require Import Permutation.
From GV Require Import Base.Util Compile.Consts Compile.ConstsProofs Compile.ConstsCheck.

(* resolution = documented meaning, at the level of one const expression: for a well-typed
   expression of a number const of type t, whose external constants and earlier consts are
   registered with in-range values, resolve_const_expr_{unsigned,signed} at the 64-bit host
   width returns exactly the value of the expression in wrapping arithmetic of t. *)
Theorem C12_resolve_spec :
  forall (dp : deps) (decl : list (N * cty)) (t : cty) (sup : supplied) (cv : list (N * Z)) (m : kmap Z),
  cty_ok t = true -> is_num t = true ->
  (forall p n meta, dget dp (p, n) = Some (t, meta) ->
     exists l v, sup_get sup p n = Some l /\ lit_val l = Some v /\ in_range t v = true /\ kget m (KE p n) = Some v) ->
  (forall i, assocN decl i = Some t ->
     exists v, assocN cv i = Some v /\ in_range t v = true /\ kget m (KC i) = Some v) ->
  forall e, wt_cexpr dp decl t e = true ->
  exists v, resolve repaired (kind_of t) (cty_bits t) m e = Ok v /\ spec_expr t sup cv e = Some v /\
            in_range t v = true.
Proof. exact resolve_ok. Qed.
Print Assumptions C12_resolve_spec.

(* the whole of compile_with_constants up to the body of main: for well-typed definitions
   (every reference is to an earlier const: acyclic) and acceptable supplied constants, for ANY
   iteration orders of the three hash maps, every const is bound to the constant wires of its
   documented value (const_spec), const_sizes holds exactly the usize consts and constants
   with those values, and the parties are wired from those sizes (zero input bits = error). *)
Theorem C12_compile_spec :
  forall defs d params sup o1 o2 ob,
  wt_defs d defs = true -> sup_ok d sup = true -> is_order o1 d = true -> is_order o2 d = true ->
  exists vs sizes,
    const_spec sup defs = Some vs /\
    Forall2 (fun x nv => fst nv = cd_name x /\ in_range (cd_ty x) (snd nv) = true) defs vs /\
    sizes_spec d sup defs vs sizes /\
    compile_consts repaired o1 o2 ob defs d params sup =
      (let* ig := wire_params repaired sizes params in
       if (total_bits ig =? 0)%Z then Ok (inl [EZeroInputs])
       else Ok (inr (Build_cout (list_sizes d defs sizes) ig (vals_of defs vs)))).
Proof. exact compile_consts_spec. Qed.
Print Assumptions C12_compile_spec.

(* C06 for the const machinery: the result does not depend on the iteration orders *)
Theorem C12_order_irrelevant :
  forall defs d params sup o1 o2 ob o1' o2' ob',
  wt_defs d defs = true -> sup_ok d sup = true ->
  is_order o1 d = true -> is_order o2 d = true -> is_order o1' d = true -> is_order o2' d = true ->
  compile_consts repaired o1 o2 ob defs d params sup = compile_consts repaired o1' o2' ob' defs d params sup.
Proof. exact order_irrelevant. Qed.
Print Assumptions C12_order_irrelevant.

(* a declared constant that is missing or of the wrong type: an error list (never a panic, for
   any definitions, parameters and orders) that names every missing constant and carries one
   InvalidLiteralType(literal, declared type) per mistyped one; the list is a permutation of
   the per-constant errors (sorted by impl Ord for CompilerError) *)
Theorem C12_errors :
  forall defs d params sup o1 o2 ob,
  is_order o1 d = true ->
  (exists p n ty meta, dget d (p, n) = Some (ty, meta) /\
     match sup_get sup p n with None => True | Some l => is_of_type l ty = false end) ->
  exists es,
    compile_consts repaired o1 o2 ob defs d params sup = Ok (inl es) /\
    (forall p n ty meta, dget d (p, n) = Some (ty, meta) -> sup_get sup p n = None -> In (EMissing p n meta) es) /\
    (forall p n ty meta l, dget d (p, n) = Some (ty, meta) -> sup_get sup p n = Some l ->
                           is_of_type l ty = false -> In (EBadType l ty) es) /\
    Permutation es (flat_map (err1 d sup) o1).
Proof. exact errors_reported. Qed.
Print Assumptions C12_errors.

(* constants that no const definition refers to are ignored *)
Theorem C12_extra_ignored :
  forall defs d params sup sup' o1 o2 ob,
  is_order o1 d = true -> is_order o2 d = true ->
  (forall p n, dget d (p, n) <> None -> sup_get sup p n = sup_get sup' p n) ->
  compile_consts repaired o1 o2 ob defs d params sup = compile_consts repaired o1 o2 ob defs d params sup'.
Proof. exact extra_ignored. Qed.
Print Assumptions C12_extra_ignored.

(* no fuel anywhere in the resolution (consts are resolved in source order, the checker only
   admits references to earlier consts), and no panic unless the parameter types of main
   refer to something that is not a declared usize const *)
Theorem C12_resolve_no_fuel :
  forall c k bits m e, resolve c k bits m e <> OutOfFuel.
Proof. exact resolve_nofuel. Qed.
Print Assumptions C12_resolve_no_fuel.

Theorem C12_total :
  forall defs d params sup o1 o2 ob,
  wt_defs d defs = true -> sup_ok d sup = true -> is_order o1 d = true -> is_order o2 d = true ->
  compile_consts repaired o1 o2 ob defs d params sup <> OutOfFuel /\
  (compile_consts repaired o1 o2 ob defs d params sup = Crash ->
   exists sizes vs, const_spec sup defs = Some vs /\ sizes_spec d sup defs vs sizes /\
                    wire_params repaired sizes params = Crash).
Proof. exact consts_total. Qed.
Print Assumptions C12_total.

(* the link between the checker and the hypothesis [wt_defs] of the theorems above that concerns
   external constants: a program the checker accepts uses every external constant at the one
   type recorded in const_deps, i.e. the type the compiler tests the supplied literal against
   (false of the tree as found: ConstsCheck.checker_one_type_refuted_original; fix 9) *)
Theorem C12_checker_one_type :
  forall defs, fst (check_defs repaired defs) = [] ->
  forall x, In x defs -> ext_ok (snd (check_defs repaired defs)) (cd_ty x) (cd_val x) = true.
Proof. exact checker_one_type. Qed.
Print Assumptions C12_checker_one_type.
