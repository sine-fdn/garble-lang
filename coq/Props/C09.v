(* C09 — literal encoding round-trips, matches the circuit bit layout, is validated.
   This file only states the property theorems; the model is Lang/{Types,Literal}.v, the
   proofs are in Lang/LiteralProofs.v and in the files named at each group below.

   E is the program's enum environment (name -> variants) that the type-free encoder
   `Literal::as_bits` consults; T is a resolved parameter type; [wf E T] says that T's enum
   types are E's and that struct fields are sorted by name without duplicates (what the
   parser produces; evaluated on every job of the tie).  [has_type v T]: v is a (canonical)
   value of T.  [denote l]: the value a spelling stands for (ArrayRepeat, typed Range,
   struct fields in any order), independent of any type.

   Printing a value and parsing the text back is proved further down, over the model of the
   text path of the API (Check/LitParse.v).  The identity program (a compiled program that
   returns its argument) goes through the real compiler and is not a theorem: it is checked as
   an oracle on every generated type/value (tools/c09.py). *)
From GV Require Import Base.Util Lang.Types Lang.Literal Lang.LiteralProofs.

(* encoding a value of T yields exactly size(T) bits, never a panic *)
Theorem C09_encode_size : forall (E : list (N * rvariants)) (v : lit) (T : rty),
  wf E T = true -> has_type v T = true ->
  exists bits, as_bits E v = Ok bits /\ N.of_nat (length bits) = size T.
Proof. exact encode_size. Qed.
Print Assumptions C09_encode_size.

(* decoding the encoding of a value yields the value *)
Theorem C09_decode_encode : forall (E : list (N * rvariants)) (v : lit) (T : rty),
  wf E T = true -> has_type v T = true ->
  exists bits, as_bits E v = Ok bits /\ from_bits T bits = Ok (Some v).
Proof. exact decode_encode. Qed.
Print Assumptions C09_decode_encode.

(* the documented layout: big-endian two's-complement integers; elements and fields
   concatenated; enums = tag, payload, zero padding (the statement is spelled out in
   LiteralProofs.layout_statement) *)
Theorem C09_layout : layout_statement.
Proof. exact layout. Qed.
Print Assumptions C09_layout.

(* whatever the type test accepts denotes a value of the type, encodes without a panic to
   exactly the parameter's size, and to the same bits as that value *)
Theorem C09_accept_sound : forall (E : list (N * rvariants)) (l : lit) (T : rty),
  wf E T = true -> is_of_type l T = true ->
  exists v bits,
    denote l = Some v /\ has_type v T = true /\
    as_bits E l = Ok bits /\ as_bits E v = Ok bits /\ N.of_nat (length bits) = size T.
Proof. exact accept_sound. Qed.
Print Assumptions C09_accept_sound.

(* the type test is not vacuous: every value of the type is accepted and denotes itself *)
Theorem C09_values_accepted : forall (E : list (N * rvariants)) (v : lit) (T : rty),
  wf E T = true -> has_type v T = true -> is_of_type v T = true /\ denote v = Some v.
Proof. exact values_accepted_top. Qed.
Print Assumptions C09_values_accepted.

(* ------------------------------------------------------------------ the two encodings of the
   development are ONE (Lang/LitEnc.v): the model of the real Literal API (this file's theorems;
   tied to literal.rs on every run) and the encoding the program theorems speak about
   (Sem.encode / Compile/ValEnc.has_enc, on which "bit-level semantics = Sem.v" and through it
   the circuit theorems rest).  For a value v of a type t of a program: its canonical literal
   passes the real type test and the real encoder produces exactly has_enc's bits; the real
   decoder returns that literal.  And at the program level, for the full fragment: from argument
   LITERALS through the real encoder, the bit-level semantics, and the real decoder, one obtains
   the literal of the value Sem.v computes (lit_program_agree). *)
From GV Require Import Lang.Ast Lang.ValTy Compile.ValEnc Lang.LitEnc.

Theorem C09_real_encoder_is_the_semantic_encoding :
  forall P t v w rt, enums_small P = true ->
  has_enc P t v w -> ty_of_ast P t = Some rt ->
  exists l, lit_of_value P v t = Some l /\ has_type l rt = true /\ is_of_type l rt = true /\
            as_bits (enum_env P) l = Ok w.
Proof. exact lit_enc_agree. Qed.
Print Assumptions C09_real_encoder_is_the_semantic_encoding.

Theorem C09_real_decoder_inverts_the_semantic_encoding :
  forall P t v w rt l, enums_small P = true -> structs_sorted P = true ->
  has_enc P t v w -> ty_of_ast P t = Some rt -> lit_of_value P v t = Some l ->
  from_bits rt w = Ok (Some l) /\ lenN w = size rt.
Proof. exact lit_enc_decode. Qed.
Print Assumptions C09_real_decoder_inverts_the_semantic_encoding.

(* ------------------------------------------------------------------ the TEXT path of the API
   (Check/LitParse.v: a model of lib.rs parse_arg / literal.rs Literal::parse =
   scan -> parse_literal (literal mode of the parser model) -> type_check (the checker model) ->
   check_type -> into_literal, followed by parse_arg's is_of_type re-test). *)
From GV Require Import Front.Scan Front.ParseExpr Check.UAst Check.Infer Check.LitParse Check.LitParseProofs.

(* a parsed argument is of the parameter's type *)
Theorem C09_parsed_argument_is_of_the_parameter_type : forall intern fuel T i text l,
  parse_arg intern fuel T i text = COk l ->
  exists main mu name ty r,
    assocL (tp_main T) (tp_fns T) = Some main /\ nthN (tf_params main) i = Some (mu, name, ty) /\
    literal_parse intern (defs_of_tprogram T) ty text = COk l /\
    rty_of_cty intern (defs_of_tprogram T) fuel ty = Some r /\ Literal.is_of_type l r = true.
Proof. exact parse_arg_of_type. Qed.
Print Assumptions C09_parsed_argument_is_of_the_parameter_type.

(* Literal::parse alone (without parse_arg's re-test) is of the type for scalar types, any tokens *)
Theorem C09_literal_parse_scalar_is_of_type : forall intern D ty ts l r,
  scalar_rty ty = Some r -> ty <> CUnsigned UnspecifiedU -> ty <> CSigned UnspecifiedS ->
  literal_parse_tokens intern D ty ts = COk l -> Literal.is_of_type l r = true.
Proof. exact parse_scalar_of_type. Qed.
Print Assumptions C09_literal_parse_scalar_is_of_type.

(* ... but NOT for suffixed ranges that leave their element type: `0u8..257` at [u8; 257] is returned
   as a range beyond u8; parse_arg's re-test rejects it (the real code too).  The other divergence
   found through this model - an UNSUFFIXED range kept `Unspecified` numbers (`2..5` at [u8; 3]) and was
   accepted at signed element types - was a genuine defect of check.rs constrain_type, repaired
   (fix 7bf4e4f) and mirrored in the model: LitExamples.unsuffixed_range_after_fix. *)
Theorem C09_literal_parse_range_overflow_refuted :
  exists intern D ty text l r,
    literal_parse intern D ty text = COk l /\ rty_of_cty intern D 5 ty = Some r /\ Literal.is_of_type l r = false.
Proof. exact parse_range_overflow_refuted. Qed.
Print Assumptions C09_literal_parse_range_overflow_refuted.

(* numbers: an unsigned token without suffix or with the suffix of the expected type is accepted
   iff it is in the range of the type, and denotes that number *)
Theorem C09_number_tokens_exact : forall intern D n sfx u m,
  u <> UnspecifiedU -> sfx = UnspecifiedU \/ sfx = u ->
  literal_parse_tokens intern D (CUnsigned u) (one_tok (TUnsignedNum n sfx) m) =
  if Literal.u_in_range n (uty_of u) then COk (Literal.LUnsigned n (uty_of u)) else CErr E_UnexpectedType.
Proof. exact P2_unsigned. Qed.
Print Assumptions C09_number_tokens_exact.

(* ------------------------------------------------------------------ PRINTING A VALUE AND PARSING IT
   BACK YIELDS THE VALUE (Check/LitRoundTrip.v), over tokens ([lit_tokens] models `impl Display for
   Literal`; the scanner is a separate tied model): the literal mode of the parser reads every printed
   literal form back ([parse_back], structs and enums included), and the whole path
   parser -> checker -> check_type -> into_literal returns the literal for the class [rt_ok]:
   Booleans, numbers in range, tuples, arrays (non-empty; elements all numbers or all of one
   pre-type), repeat arrays, typed ranges, struct values (fields of the definition in name order)
   and enum values, arbitrarily nested.  Outside the class and recorded as
   known findings of the REAL code (found by this check's text jobs; proved here about the
   model): `[]` for a zero-length array and arrays of aggregates with a number that is negative in
   one element and non-negative in another at the same position do not come back. *)
From GV Require Import Check.LitRoundTrip.

Theorem C09_printed_literal_is_read_back_by_the_parser : forall unintern l, pok unintern l = true ->
  parse_literal_text (fuel_for_tokens (lit_tokens unintern l)) (lit_tokens unintern l)
  = POk (ulit unintern l) (PState [] true).
Proof. exact parse_back. Qed.
Print Assumptions C09_printed_literal_is_read_back_by_the_parser.

Theorem C09_print_parse_round_trip : forall intern unintern D l T, rt_ok intern unintern D l T = true ->
  literal_parse_tokens intern D T (lit_tokens unintern l) = COk l.
Proof. exact roundtrip. Qed.
Print Assumptions C09_print_parse_round_trip.

(* ... stated for VALUES OF THE TYPE, and through the TEXT (Check/LitRoundTripText.v): a literal that
   the type test accepts at the resolved parameter type, in a printable form ([printable_value]: no
   empty array; arrays of aggregates do not mix signs at one position; ranges non-empty and at most
   2^32 - 1 long), with the names of the definitions surviving interning ([D_names_ok]), is printed
   and parsed back to itself - over tokens, and through the scanner for the printed text. *)
From GV Require Import Front.ScanPrint Check.LitRoundTripText.

Theorem C09_value_print_parse_round_trip : forall intern unintern D, D_names_ok intern unintern D ->
  forall l T r fuel,
  Literal.is_of_type l r = true -> rty_of_cty intern D fuel T = Some r -> printable_value unintern l = true ->
  literal_parse_tokens intern D T (lit_tokens unintern l) = COk l.
Proof. exact value_roundtrip. Qed.
Print Assumptions C09_value_print_parse_round_trip.

Theorem C09_value_print_parse_round_trip_text : forall intern unintern D, D_names_ok intern unintern D ->
  forall l T r fuel,
  Literal.is_of_type l r = true -> rty_of_cty intern D fuel T = Some r -> printable_value unintern l = true ->
  aux_ok unintern false l ->
  literal_parse intern D T (print_tokens (map kind (lit_tokens unintern l))) = COk l.
Proof. exact value_roundtrip_text. Qed.
Print Assumptions C09_value_print_parse_round_trip_text.

(* ... and for every OUTPUT the API can decode (Lang/LiteralDecode.v, Check/LitOutputRoundTrip.v): the
   decoder only produces canonical values of the type ([from_bits_has_type], under [dwf]: no
   Unspecified number types, variant names pairwise distinct), so for types that are
   [type_always_printable] (no zero-length array; no array whose element type is a tuple / array
   carrying a signed number - the two families that are recorded findings of the real code) EVERY
   decoded value, printed and parsed back as the type, is itself: no condition on the value. *)
From GV Require Import Lang.LiteralDecode Check.LitOutputRoundTrip.

Theorem C09_decoder_produces_canonical_values : forall t bits l,
  LiteralDecode.dwf t = true -> Literal.from_bits t bits = Ok (Some l) -> Literal.has_type l t = true.
Proof. exact LiteralDecode.from_bits_has_type. Qed.
Print Assumptions C09_decoder_produces_canonical_values.

Theorem C09_every_decoded_output_prints_and_parses_back : forall intern unintern D,
  D_names_ok intern unintern D -> forall E T r fuel bits v,
  Types.wf E r = true -> LiteralDecode.dwf r = true -> type_always_printable r = true ->
  rty_of_cty intern D fuel T = Some r -> Literal.from_bits r bits = Ok (Some v) ->
  literal_parse_tokens intern D T (lit_tokens unintern v) = COk v.
Proof. exact output_roundtrip_all. Qed.
Print Assumptions C09_every_decoded_output_prints_and_parses_back.
