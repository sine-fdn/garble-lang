(* C04 — circuit optimisations never change the computed function: the folds, cache hits and
   algebraic rewrites of the builder (Builder/Builder.v) and the pruning / renumbering of build
   (Builder/Build.v), against the same requests executed literally on Booleans. *)
From GV Require Import Base.Util Base.NMap Circuit.Ssa Builder.Builder Builder.Build
  Builder.BuilderSem Builder.BuilderSpec Builder.BuilderProofs.

(* sanity: the model really rewrites — (a&b) ^ (a&c) becomes a & (b^c) *)
Theorem C04_model_rewrites_example :
  let b0 := new_builder true [3] in
  match push_and_top b0 2 3 with
  | Ok (w1, b1) =>
    match push_and_top b1 2 4 with
    | Ok (w2, b2) =>
      match push_xor_top b2 w1 w2 with
      | Ok (w3, b3) => rev (b_gates_rev b3) = [BAnd 2 3; BAnd 2 4; BXor 3 4; BAnd 2 7] /\ w3 = 8
      | _ => False
      end
    | _ => False
    end
  | _ => False
  end.
Proof. vm_compute. split; reflexivity. Qed.
Print Assumptions C04_model_rewrites_example.

(* Every wire handed back by a builder request denotes the requested Boolean function of its
   operands -- for every builder state reachable by any request sequence ([inv] holds for
   [new_builder] and is preserved by every request), with gate de-duplication on or off
   ([b_dedup] is arbitrary), whatever fold, cache hit or algebraic rewrite fired; wires
   handed out earlier keep their meaning ([ext]); the explicit recursion fuel of the model
   never runs out and the model never crashes on valid wires (the result is [Ok]). *)
Theorem C04_requests_sound : builder_ops_sound inv.
Proof. exact builder_sound. Qed.
Print Assumptions C04_requests_sound.

Theorem C04_push_xor : forall b x y, inv b -> valid b x -> valid b y ->
  exists r b', push_xor_top b x y = Ok (r, b') /\ inv b' /\ ext b b' /\ valid b' r /\
    forall inp, ins_ok b inp -> den inp b' r = xorb (den inp b x) (den inp b y).
Proof. exact push_xor_top_sound. Qed.
Print Assumptions C04_push_xor.

Theorem C04_push_and : forall b x y, inv b -> valid b x -> valid b y ->
  exists r b', push_and_top b x y = Ok (r, b') /\ inv b' /\ ext b b' /\ valid b' r /\
    forall inp, ins_ok b inp -> den inp b' r = andb (den inp b x) (den inp b y).
Proof. exact push_and_top_sound. Qed.
Print Assumptions C04_push_and.

Theorem C04_new_builder_inv : forall dedup inputs, inv (new_builder dedup inputs).
Proof. exact inv_new. Qed.
Print Assumptions C04_new_builder_inv.

(* ---- pruning + final numbering ---- *)
From GV Require Import Circuit.SsaProofs Builder.BuildProofs Builder.Requests.

(* build: for every reachable builder state and every list of requested output wires, the
   circuit returned by build (after removing the gates that reach no output and
   renumbering to the final numbering) passes its own validation and outputs, on every
   input, exactly the denotations of the 161 panic-record wires followed by the requested
   wires. *)
Theorem C04_build_sound : forall b pw outs,
  inv b -> valids b pw -> valids b outs -> pw ++ outs <> [] ->
  2 < b_shift b -> counter b + (b_shift b - 2) <= MAX_GATES ->
  exists c, build b pw outs = Ok c /\
    ssa_validate c = None /\
    input_gates c = b_inputs b /\
    length (output_gates c) = length (pw ++ outs) /\
    forall ins inp, load_inputs (b_inputs b) ins = Some inp ->
      ssa_eval c ins = Some (map (den inp b) (pw ++ outs)).
Proof. exact build_sound. Qed.
Print Assumptions C04_build_sound.

(* THE HEADLINE: for any sequence of gate requests (xor / and / or / eq / not / mux over
   earlier results, inputs and the two constants), with de-duplication on or off, the built
   circuit computes the same outputs as the same requests executed literally on Booleans
   with no simplification at all ([lit_reqs]); the 161 leading outputs are the bits of the
   untouched panic record. *)
Theorem C04_builder : forall dedup inputs rs outs ins inp vs ovs,
  load_inputs inputs ins = Some inp -> 1 <= sumN inputs ->
  lit_reqs inp [] rs = Some vs ->
  mapM (lit_opnd inp vs) outs = Some ovs ->
  exists b hs ows,
    run_reqs (new_builder dedup inputs) [] rs = Ok (b, hs) /\
    mapM (resolve hs) outs = Some ows /\
    (counter b + (b_shift b - 2) <= MAX_GATES ->
     exists c, build b panic_ok_wires ows = Ok c /\
       ssa_validate c = None /\
       ssa_eval c ins = Some (panic_ok_bits ++ ovs)).
Proof. exact requests_then_build. Qed.
Print Assumptions C04_builder.

Theorem C04_dedup_irrelevant : forall inputs rs outs ins inp vs ovs,
  load_inputs inputs ins = Some inp -> 1 <= sumN inputs ->
  lit_reqs inp [] rs = Some vs -> mapM (lit_opnd inp vs) outs = Some ovs ->
  forall b1 hs1 ows1 c1 b2 hs2 ows2 c2,
    run_reqs (new_builder true inputs) [] rs = Ok (b1, hs1) -> mapM (resolve hs1) outs = Some ows1 ->
    run_reqs (new_builder false inputs) [] rs = Ok (b2, hs2) -> mapM (resolve hs2) outs = Some ows2 ->
    counter b1 + (b_shift b1 - 2) <= MAX_GATES -> counter b2 + (b_shift b2 - 2) <= MAX_GATES ->
    build b1 panic_ok_wires ows1 = Ok c1 -> build b2 panic_ok_wires ows2 = Ok c2 ->
    ssa_eval c1 ins = ssa_eval c2 ins.
Proof.
  intros inputs rs outs ins inp vs ovs Hl Hp Hr Ho b1 hs1 ows1 c1 b2 hs2 ows2 c2 R1 O1 R2 O2 M1 M2 B1 B2.
  destruct (requests_then_build true inputs rs outs ins inp vs ovs Hl Hp Hr Ho) as (b1' & hs1' & ows1' & R1' & O1' & K1).
  destruct (requests_then_build false inputs rs outs ins inp vs ovs Hl Hp Hr Ho) as (b2' & hs2' & ows2' & R2' & O2' & K2).
  rewrite R1 in R1'. injection R1' as <- <-. rewrite O1 in O1'. injection O1' as <-.
  rewrite R2 in R2'. injection R2' as <- <-. rewrite O2 in O2'. injection O2' as <-.
  destruct (K1 M1) as (c1' & B1' & _ & E1). destruct (K2 M2) as (c2' & B2' & _ & E2).
  rewrite B1 in B1'. injection B1' as <-. rewrite B2 in B2'. injection B2' as <-. congruence.
Qed.
Print Assumptions C04_dedup_irrelevant.

(* program level: whatever a program computes (Compile/TSem.v), the circuits emitted with
   and without gate de-duplication decode to the same panic / the same value *)
From GV Require Import Builder.Build Panic.PanicRec Panic.PanicSem Lang.Ast Compile.Lower Compile.TSem Compile.LowerSound.

Theorem C04_program_dedup_irrelevant : forall fuel P s1 outs1 s2 outs2,
  lower_main_with fuel true P = Ok (PreOk s1 outs1) -> lower_main_with fuel false P = Ok (PreOk s2 outs2) ->
  counter (cb s1) + (b_shift (cb s1) - 2) <= MAX_GATES ->
  counter (cb s2) + (b_shift (cb s2) - 2) <= MAX_GATES ->
  exists fd igs bindings,
    find_fn P (p_main P) = Some fd /\ param_wiring P (fn_params fd) = (igs, bindings) /\
    forall ins inp o vouts,
      load_inputs igs ins = Some inp ->
      tsem_program fuel P (param_args bindings inp) = Ok (o, vouts) ->
      exists c1 c2 out1 out2,
        lower_program_with fuel true P = Ok (LCircuit c1) /\ lower_program_with fuel false P = Ok (LCircuit c2) /\
        ssa_eval c1 ins = Some out1 /\ ssa_eval c2 ins = Some out2 /\
        parse_panic out1 = parse_panic out2 /\ (o = None -> skipn 161 out1 = skipn 161 out2).
Proof. exact lower_dedup_irrelevant. Qed.
Print Assumptions C04_program_dedup_irrelevant.
