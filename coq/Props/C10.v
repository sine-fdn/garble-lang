(* C10 — the register-based circuit is equivalent to the SSA circuit and safe to execute.
   The proof is Circuit/RegAllocProofs.convert_correct; the strict evaluator is added by
   Circuit/RegProofs.reg_validate_safe. *)
From GV Require Import Base.Util Circuit.Ssa Circuit.Reg Circuit.RegAlloc Circuit.RegProofs
  Circuit.RegAllocProofs.

(* For every SSA circuit value that Circuit::validate accepts (compiler output or any
   well-formed gate list: repeated operands, outputs that are inputs or repeated, unused
   inputs/gates, any fan-out), the conversion
   - does not panic and yields a register circuit that passes its own validation,
   - computes the same output bits for every input (of any shape: both evaluators panic on
     the same malformed inputs),
   - under the strict evaluator (reading a register that was never written fails) still
     yields those bits, i.e. never reads an unwritten register,
   - declares at most as many registers as there are wires, the same number of ANDs, the
     same party sizes, and starts with one Input instruction per input bit, party by party
     in order, each writing the register equal to its position. *)
Theorem C10 : forall c : circuit,
  ssa_validate c = None ->
  exists r, convert c = Ok r /\
    reg_validate r = Ok None /\
    (forall ins, reg_eval r ins = ssa_eval c ins) /\
    (forall ins, shape_ok (input_gates c) ins -> reg_eval_strict r ins = ssa_eval c ins) /\
    max_reg_count r <= wires_len c /\
    and_ops r = and_gates c /\
    input_regs r = input_gates c /\
    exists rest, insts r = number_insts 0 (input_ops 0 (input_gates c)) ++ rest /\
                 lenN rest = lenN (gates c).
Proof.
  intros c Hv. destruct (convert_correct c Hv) as (r & Hc & Hval & Hev & Hmax & Hand & Hin & Hrest).
  exists r. repeat split; auto.
  intros ins Hs. rewrite <- Hin in Hs.
  destruct (reg_validate_safe r ins Hval Hs) as (out & H1 & H2 & _).
  rewrite H1, <- Hev. now symmetry.
Qed.
Print Assumptions C10.

(* non-vacuity: the unit test of register_circuit.rs, converted inside Coq *)
Theorem C10_example :
  ssa_validate (mkCircuit [1; 2] [GXor 0 1; GAnd 0 2; GXor 3 4; GAnd 4 5] [5; 6]) = None /\
  convert (mkCircuit [1; 2] [GXor 0 1; GAnd 0 2; GXor 3 4; GAnd 4 5] [5; 6]) =
  Ok (mkRCircuit [1; 2]
        [mkInst 0 (OInput 0 0); mkInst 1 (OInput 1 0); mkInst 2 (OInput 1 1);
         mkInst 1 (OXor 0 1); mkInst 0 (OAnd 0 2); mkInst 1 (OXor 1 0); mkInst 0 (OAnd 0 1)]
        3 [1; 0] 2).
Proof. split; reflexivity. Qed.
Print Assumptions C10_example.
