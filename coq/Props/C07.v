(* C07 — the front end is total: any input text gives Ok or errors, never a crash or hang.
   This file only states the property theorems; models are Front/Scan.v (all of scan.rs, on
   the UTF-8 bytes of the text) and Front/Prettify.v (lib.rs::prettify_meta); proofs are in
   Front/ScanProofs.v and Front/PrettifyProofs.v; worked instances in Front/Examples.v.

   The parser (Front/ParseExpr.v) and the checker (Check/Infer.v) are modelled too, each tied to
   the Rust code on every run; their termination and panic freedom are the theorems from
   C07_parser_* on, up to [front_end] from the text.  The compiler is not part of this file
   (C05); the real code's crash/hang freedom on perturbed texts is searched by tools/c07.py
   (`front` jobs).

   [nl text] is the number of '\n' in the text; lines are numbered from 0, so a line number
   <= nl text is a line of the text or the (empty) line just past its final newline. *)
From GV Require Import Base.Util Front.Scan Front.Prettify Front.ScanProofs Front.ScanUnfixed
  Front.PrettifyProofs.

(* With fuel length+1 the scanner never runs out of fuel (the Rust loops terminate) and
   never panics: it returns a value. *)
Theorem scan_total : forall bytes : list N,
  exists out, scan (S (length bytes)) bytes = Ok out.
Proof. exact scan_total_lemma. Qed.
Print Assumptions scan_total.

(* The value is a token list or a NON-EMPTY error list. *)
Theorem scan_result : forall (bytes : list N) (out : scan_out),
  scan (S (length bytes)) bytes = Ok out ->
  match out with STokens _ => True | SErrors es => es <> [] end.
Proof. exact scan_result_lemma. Qed.
Print Assumptions scan_result.

(* Every token location and every error location has start <= end (lexicographic on
   (line, column)) and ends on a line <= the number of newlines of the text. *)
Theorem scan_locs : forall (bytes : list N) (out : scan_out),
  scan (S (length bytes)) bytes = Ok out ->
  match out with
  | STokens ts => forall t m, In (Token t m) ts ->
      (fst (m_start m) < fst (m_end m) \/
       (fst (m_start m) = fst (m_end m) /\ snd (m_start m) <= snd (m_end m))) /\
      fst (m_end m) <= nl bytes
  | SErrors es => forall e m, In (ScanError e m) es ->
      (fst (m_start m) < fst (m_end m) \/
       (fst (m_start m) = fst (m_end m) /\ snd (m_start m) <= snd (m_end m))) /\
      fst (m_end m) <= nl bytes
  end.
Proof. exact scan_locs_lemma. Qed.
Print Assumptions scan_locs.

(* Rendering a location whose end line is at most the number of newlines of the text never
   panics (no out-of-bounds `lines[l]`) and the loop terminates.  (start <= end is not even
   needed.) *)
Theorem prettify_safe : forall (text : list N) (m : meta),
  fst (m_end m) <= nl text ->
  exists rendered, prettify_meta text m = Ok rendered.
Proof. exact prettify_meta_safe. Qed.
Print Assumptions prettify_safe.

(* End to end: every location the scanner reports for a text renders against that text. *)
Theorem scan_then_prettify_safe : forall (bytes : list N) (out : scan_out),
  scan (S (length bytes)) bytes = Ok out ->
  match out with
  | STokens ts => forall t m, In (Token t m) ts -> exists r, prettify_meta bytes m = Ok r
  | SErrors es => forall e m, In (ScanError e m) es -> exists r, prettify_meta bytes m = Ok r
  end.
Proof. exact scan_then_prettify_lemma. Qed.
Print Assumptions scan_then_prettify_safe.

(* DESIGN.md §6-12: for the block-comment loop of the UNREPAIRED scanner the fuel-adequacy
   statement is false - at the end of the input no fuel is enough (the Rust loop spins). *)
Theorem scan_total_refuted_before_fix : forall (fuel : nat) (level : N) (s : scanner),
  level <> 0 -> comment_loop_orig fuel level s [] = OutOfFuel.
Proof. exact comment_loop_orig_diverges. Qed.
Print Assumptions scan_total_refuted_before_fix.

(* ------------------------------------------------------------------ the PARSER terminates on every
   input (Front/ParseTotal.v; Front/ParseExpr.v is the function-by-function model of src/parse.rs,
   tied to it on expression texts, function bodies and whole programs on every run): a fuel LINEAR
   in the number of tokens (slope 1) is enough for every token list - every loop iteration and every
   nesting level consumes a token - and the result does not depend on the fuel once it suffices. *)
From GV Require Import Front.ParseExpr Front.ParseTotal.

Theorem C07_parser_terminates_on_every_program_text : forall fuel ts,
  (length ts + 4 <= fuel)%nat -> parse_program_text fuel ts <> PNoFuel.
Proof. exact parse_program_text_total. Qed.
Print Assumptions C07_parser_terminates_on_every_program_text.

Theorem C07_parser_terminates_on_every_block_text : forall fuel ts,
  (length ts + 5 <= fuel)%nat -> parse_block_text fuel ts <> PNoFuel.
Proof. exact parse_block_text_total. Qed.
Print Assumptions C07_parser_terminates_on_every_block_text.

Theorem C07_parser_terminates_on_every_literal_text : forall fuel ts,
  (length ts + 1 <= fuel)%nat -> parse_literal_text fuel ts <> PNoFuel.
Proof. exact parse_literal_text_total. Qed.
Print Assumptions C07_parser_terminates_on_every_literal_text.

Theorem C07_parser_result_independent_of_fuel : forall f f' ts r,
  parse_program_text f ts = r -> r <> PNoFuel -> (f <= f')%nat -> parse_program_text f' ts = r.
Proof. exact parse_program_text_fuel_independent. Qed.
Print Assumptions C07_parser_result_independent_of_fuel.

(* the fuel the extracted driver uses in the tie is enough *)
Theorem C07_parser_driver_fuel_suffices : forall ts,
  parse_program_text (80 + 40 * length ts) ts <> PNoFuel.
Proof. exact parse_program_text_driver. Qed.
Print Assumptions C07_parser_driver_fuel_suffices.

(* ------------------------------------------------------------------ the CHECKER never panics on what
   the parser produces (Check/InferTotal.v, Front/ParseWf.v; Check/Infer.v is the model of
   src/check.rs, tied to it): the model returns [CErr E_Panic] exactly where check.rs would panic
   (`.first().unwrap()` on an empty array literal, a match without arms); the parser never builds
   such trees, so no program TEXT can make the checker panic. *)
From GV Require Import Check.UAst Check.Infer Check.InferTotal Front.ParseWf.

Theorem C07_checker_never_panics_on_well_formed_trees : forall intern P,
  wf_program P -> forall fuel, check_program intern fuel P <> CErr E_Panic.
Proof. exact no_panic. Qed.
Print Assumptions C07_checker_never_panics_on_well_formed_trees.

Theorem C07_parser_output_is_well_formed : forall f ts up st main,
  parse_program_text f ts = POk up st -> wf_program (uprogram_of_parsed up main).
Proof. exact parser_output_wf. Qed.
Print Assumptions C07_parser_output_is_well_formed.

Theorem C07_front_end_never_panics : forall ts f up st main intern g,
  parse_program_text f ts = POk up st ->
  check_program intern g (uprogram_of_parsed up main) <> CErr E_Panic.
Proof. exact front_end_never_panics. Qed.
Print Assumptions C07_front_end_never_panics.

(* ------------------------------------------------------------------ the SCANNER reads printed tokens
   back (Front/ScanPrint.v): number lexing is exact - the decimal text of n with a suffix is read as
   the one number token n iff n is within the bound of the suffix (unsuffixed / u64: 2^64 - 1; usize,
   u32: 2^32 - 1; ...), a minus directly before digits gives ONE signed token - and every printable
   token list separated by single spaces is scanned back to itself. *)
From GV Require Import Front.ScanPrint.

Theorem C07_scanner_number_lexing_exact : forall n t, n <= ubound t ->
  exists m, scan_text (dec n ++ usuffix_text t) = Ok (STokens [Token (TUnsignedNum n t) m]).
Proof. exact scan_unsigned. Qed.
Print Assumptions C07_scanner_number_lexing_exact.

Theorem C07_scanner_number_beyond_bound_is_an_error : forall n t, ubound t < n ->
  exists es, scan_text (dec n ++ usuffix_text t) = Ok (SErrors es).
Proof. exact scan_unsigned_beyond. Qed.
Print Assumptions C07_scanner_number_beyond_bound_is_an_error.

Theorem C07_scanner_reads_printed_tokens_back : forall ts, Forall tok_printable ts ->
  exists ts', scan_text (print_tokens ts) = Ok (STokens ts') /\ map kind ts' = ts.
Proof. exact scan_print. Qed.
Print Assumptions C07_scanner_reads_printed_tokens_back.

(* ------------------------------------------------------------------ the CHECKER terminates
   (Check/InferFuel.v, InferFuel2.v): its result is monotone in the fuel (once it is not "out of
   fuel" more fuel changes nothing), and a fuel computable from the size of the program
   ([check_fuel_needed]: depths of expressions / statements, number of functions - recursion is
   rejected, so each definition is entered at most once -, depths of the type definitions) is enough
   for EVERY program, provided the exhaustiveness oracle (Exhaust/Useful.v, which has its own fuel
   bound [Useful.fuel_bound], adequate by UsefulProofs.useful_fuel for well-typed patterns) does not
   run out of its own fuel ([Hex], stated explicitly: partial). *)
From GV Require Import Check.InferFuel Check.InferFuel2.

Theorem C07_checker_result_monotone_in_fuel : forall intern f f' P r,
  check_program_t intern f P = r -> r <> CNoFuel -> (f <= f')%nat -> check_program_t intern f' P = r.
Proof. exact check_program_t_mono. Qed.
Print Assumptions C07_checker_result_monotone_in_fuel.

Theorem C07_checker_terminates_within_a_computable_fuel_partial : forall intern,
  (forall D ps ty, nf (check_exhaustiveness intern D ps ty)) ->
  forall P fuel, (check_fuel_needed P <= fuel)%nat -> check_program_t intern fuel P <> CNoFuel.
Proof. exact adequacy_program. Qed.
Print Assumptions C07_checker_terminates_within_a_computable_fuel_partial.

(* the parser ignores token locations (Front/ParseUnloc.v), and is a left inverse of printing for
   programs of function definitions: the printed TEXT of a well-formed program is scanned and parsed
   back to the program *)
From GV Require Import Front.ParseUnloc.

Theorem C07_parser_ignores_token_locations : forall fuel ts,
  parse_program_text fuel (unloc ts) = parse_program_text fuel ts.
Proof. exact parse_program_text_unloc. Qed.
Print Assumptions C07_parser_ignores_token_locations.

Theorem C07_printed_program_text_is_parsed_back_partial : forall P,
  wf_program P -> Forall tok_printable (map kind (show_program P)) ->
  exists ts' f0, scan_text (program_text P) = Ok (STokens ts') /\
                 forall fuel, (f0 <= fuel)%nat -> parse_program_text fuel ts' = POk P (PState [] true).
Proof. exact scan_parse_show_program. Qed.
Print Assumptions C07_printed_program_text_is_parsed_back_partial.

(* ... and UNCONDITIONALLY for programs that never consult the exhaustiveness oracle (Check/InferFuel4.v):
   no `match`, and every `let` / `for` pattern syntactically irrefutable ([no_oracle], a Boolean):
   the checker terminates within the computable fuel, for any interning function. *)
From GV Require Import Check.InferFuel4.

Theorem C07_checker_terminates_without_the_oracle : forall intern P fuel,
  no_oracle P = true -> (check_fuel_needed P <= fuel)%nat -> check_program_t intern fuel P <> CNoFuel.
Proof. exact check_terminates_no_oracle. Qed.
Print Assumptions C07_checker_terminates_without_the_oracle.

(* ------------------------------------------------------------------ THE HEADLINE, FROM THE TEXT
   (Check/FrontEndTotal.v): [front_end] = model scanner -> model parser (with the linear fuel) ->
   model checker (with its computable fuel) on the parsed program.  Its answer is a typed program,
   scan errors, a parse error, a type error or "outside the checker model" - never "out of fuel",
   never "crash", never "panic" ([FInternal]): for every text whose parsed program does not consult
   the exhaustiveness oracle ([no_oracle]), and for every text under the explicit oracle-fuel
   hypothesis. *)
From GV Require Import Check.FrontEndTotal.

Theorem C07_front_end_is_total : forall intern bytes main,
  match parsed_program bytes main with Some P => no_oracle P = true | None => True end ->
  front_end intern bytes main <> FInternal.
Proof. exact front_end_total. Qed.
Print Assumptions C07_front_end_is_total.

Theorem C07_front_end_is_total_under_oracle_fuel_partial : forall intern bytes main,
  (forall D ps ty, nf (check_exhaustiveness intern D ps ty)) -> front_end intern bytes main <> FInternal.
Proof. exact front_end_total_hex. Qed.
Print Assumptions C07_front_end_is_total_under_oracle_fuel_partial.

(* ... and with a COMPUTABLE premise for programs that do consult the oracle (Check/InferFuel5.v,
   InferFuel6.v, FrontEndTotalMatch.v): [ty_depth_bound P] bounds the nesting depth of every type the
   checker can infer in P (declared depths + aggregate-literal nodes per function; 65 if a reachable
   named type is empty or undefined); at most 64 is what the model's fixed oracle fuel supports. *)
From GV Require Import Check.InferFuel5 Check.InferFuel6 Check.FrontEndTotalMatch.

Theorem C07_checker_terminates_within_a_computable_fuel : forall intern,
  (forall a b, intern a = intern b -> a = b) -> forall P fuel,
  (ty_depth_bound P <= 64)%nat -> (check_fuel_needed P <= fuel)%nat -> check_program_t intern fuel P <> CNoFuel.
Proof. exact check_terminates_match. Qed.
Print Assumptions C07_checker_terminates_within_a_computable_fuel.

Theorem C07_front_end_is_total_computable : forall intern bytes main,
  (forall a b, intern a = intern b -> a = b) ->
  match parsed_program bytes main with
  | Some P => no_oracle P || Nat.leb (ty_depth_bound P) 64 = true
  | None => True
  end ->
  front_end intern bytes main <> FInternal.
Proof. exact front_end_total_computable. Qed.
Print Assumptions C07_front_end_is_total_computable.

(* the parser model never answers "outside the model" (Front/ParseNoOutside.v): the whole grammar of
   src/parse.rs is modelled; [front_end]'s folding of POutside into FParseError is vacuous *)
From GV Require Import Front.ParseNoOutside.

Theorem C07_parser_model_covers_the_whole_grammar : forall fuel ts o, parse_program_text fuel ts <> POutside o.
Proof. exact parse_program_text_no_outside. Qed.
Print Assumptions C07_parser_model_covers_the_whole_grammar.
